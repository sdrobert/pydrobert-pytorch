(* C13 — tie lemmas: interpreting the regenerated source terms (PV.Gen.C13Src) computes exactly
   what Model.v computes, for every input.  See SrcRun.v for the environment and encodings. *)
From Coq Require Import ZArith QArith List String Bool Arith Lia ZifyBool ZifyNat ZifyComparison.
From PV Require Import MiniPy.Syntax MiniPy.Interp MiniPy.Lemmas Gen.C13Src C13.Model C13.Proofs C13.SrcRun.
Import ListNotations.
Local Open Scope string_scope.

(* Evaluation of one statement on a state whose variables are listed: [lazy] unfolds [eval] on the (concrete)
   expression, which [cbn] is slow at; [cbn] does the rest and keeps what it cannot decide folded.  The functions
   of the interpreter are declared strict in their state, so that nothing is unfolded in a continuation, where
   the state is a bound variable.  [exec] is not in the list: the rest of the program stays as it is until
   [step] reaches it; arithmetic and its tests stay folded. *)
#[local] Arguments exec ext s !st.
#[local] Arguments eval ext e !st.
#[local] Arguments store ext place v !st.
#[local] Arguments assign_all ext ts v !st.
#[local] Arguments subscript o k !st.
#[local] Arguments attribute ext o a !st.
#[local] Arguments binop_eval op a b !st.
#[local] Arguments builtin f args !st.
#[local] Arguments ext13 order f args kw !st.
#[local] Arguments ext_base order f args kw !st.
#[local] Arguments ext_rs perm f args kw !st.
#[local] Arguments method !o m !args.
#[local] Arguments cmp_eval op !a !b.
#[local] Arguments truthy !v.
Ltac run :=
  lazy [eval bind];
  cbn [eval bind store assign_all place_of attribute subscript lookup update set_var vars events
       dict_get dict_set val_eqb String.eqb Ascii.eqb Bool.eqb truthy binop_eval is_inf orb andb negb inf_bin num_bin
       as_z as_q binop_name cmp_eval rich foreign cmpop_name builtin method is container_items app append
       ext13 ext_base ext_rs zn vnats self_of rand_self modes dist_vars].

(* the next statement of the block, then [run].  A sequence or a conditional is exposed by its equation, put in
   by conversion (no rewriting step, with the whole goal as its motive, enters the proof); any other statement
   has no statement inside, so its clause of [exec] is simply unfolded. *)
Ltac step :=
  repeat match goal with |- context [exec ?x (SSeq ?a ?b) ?s] => by_conv (exec_seq x a b s) end;
  lazymatch goal with
  | |- context [exec ?x (SIf ?c ?t ?f) ?s] => by_conv (exec_if x c t f s)
  | |- context [exec ?x ?a ?s] => let r := eval lazy [exec] in (exec x a s) in change (exec x a s) with r
  end;
  run.

(* ---- the tie lemmas ---------------------------------------------------------------- *)
Lemma mode_known m : mem (VStr (mode_str m)) [VStr "raise"; VStr "drop"; VStr "uneven"; VStr "ignore"] = true.
Proof. destruct m; reflexivity. Qed.

Lemma of_nat_eqb0 k : (Z.of_nat k =? 0)%Z = (k =? 0)%nat.
Proof. destruct k; reflexivity. Qed.

Lemma q_ge0 k : q_cmp GtE (inject_Z (Z.of_nat k)) (inject_Z 0) = true.
Proof. unfold q_cmp, Qcompare; cbn [Qnum Qden inject_Z]. destruct (Z.of_nat k * 1 ?= 0 * 1)%Z eqn:E; try reflexivity. lia. Qed.

Lemma init_tie order n dist m e0 :
  dist_ok dist ->
  init_expected n dist m e0 (Interp.run (ext13 order) aes_init (init_vars n dist m e0)).
Proof.
  intros Hd. remember (Interp.run _ _ _) as o eqn:Ho. unfold Interp.run, aes_init, init_vars in Ho. revert Ho.
  (* self.effective_total = self.total = len(data_source); self.epoch = argcheck.is_int(init_epoch, ..) *)
  step. rewrite repeat_length. step.
  (* on_uneven_distributed = argcheck.is_in(on_uneven_distributed, get_args(OnUnevenDistributed), ..) *)
  step. rewrite mode_known. run.
  (* if on_uneven_distributed != "ignore" and is_available() and is_initialized() and get_rank() >= 0: *)
  destruct dist as [[r w]|]; [assert (Hw : (Z.of_nat w =? 0)%Z = false) by (cbn in Hd; lia)|];
    destruct m; cbn [mode_str]; step.
  1-3: rewrite q_ge0; run.
  (* self._rank = get_rank(); self._world_size = get_world_size(); if self.total % self._world_size: *)
  1-3: step; step; step; rewrite Hw; run;
    rewrite <- Nat2Z.inj_mod, of_nat_eqb0; destruct (n mod w =? 0)%nat eqn:Em; run.
  (* if on_uneven_distributed == "raise": raise ValueError; elif .. == "drop": self.effective_total = ..; else: assert *)
  2: step; step.
  4: step; step; step; rewrite Hw; run.
  6: step; step; step.
  1, 3, 5: step.
  (* else: self._rank = 0; self._world_size = 1 *)
  7-11: step; step.
  all: intros ->; unfold init_expected, init; rewrite ?Em; try reflexivity.
  unfold self_of, zn; cbn [total eff rank world epoch].
  rewrite Nat2Z.inj_sub by (apply Nat.mod_le; lia). rewrite Nat2Z.inj_mod. reflexivity.
Qed.

(* __len__ *)
Lemma len_tie ext s : (rank s < world s)%nat ->
  Interp.run ext aes_len [("self", self_of s)] = Ok (zn (len s)) (st_of s []).
Proof.
  intros Hw. unfold Interp.run, aes_len, st_of, len.
  step. replace (Z.of_nat (world s) =? 0)%Z with false by lia. run.
  unfold zn. rewrite Nat2Z.inj_div. repeat f_equal. lia.
Qed.

(* islice on a list of naturals *)
Lemma stride_map w k (l : list nat) :
  Interp.stride w k (map (fun i => VInt (Z.of_nat i)) l) = map (fun i => VInt (Z.of_nat i)) (Model.stride w k l).
Proof.
  revert k. induction l as [|x l IH]; intros k; cbn [Interp.stride Model.stride map]; [reflexivity|].
  destruct k; cbn [map]; rewrite IH; reflexivity.
Qed.

Lemma samples_tie order s e : (0 < world s)%nat ->
  Interp.run (ext_base order) aes_get_samples_for_epoch [("self", self_of s); ("epoch", zn e)]
  = Ok (vnats (samples s (order e)))
       (mkState [("self", self_of s); ("epoch", zn e); ("ret", vnats (order e))] []).
Proof.
  intros Hw. unfold Interp.run, aes_get_samples_for_epoch, samples, islice.
  step. step.
  replace (0 <=? Z.of_nat (rank s))%Z with true by lia.
  replace (0 <=? Z.of_nat (eff s))%Z with true by lia.
  replace (0 <? Z.of_nat (world s))%Z with true by lia.
  run. rewrite !Nat2Z.id, firstn_map, skipn_map, stride_map. reflexivity.
Qed.

(* __iter__: yields the current epoch's samples and advances the epoch *)
Lemma iter_tie order s : (0 < world s)%nat ->
  exists st,
    Interp.run (ext13 order) aes_iter [("self", self_of s)] = Ok (vnats (fst (next order s))) st /\
    lookup "self" (vars st) = Some (self_of (snd (next order s))).
Proof.
  intros Hw. unfold Interp.run at 1, aes_iter.
  (* ret = self.get_samples_for_epoch(self.epoch): the callee, run on the caller's self *)
  step. rewrite (samples_tie order s (epoch s) Hw). run.
  (* self.epoch += 1; return ret *)
  step. step. eexists; split; [reflexivity|].
  run. unfold self_of, zn. cbn [next snd total eff rank world epoch]. rewrite Nat2Z.inj_succ. reflexivity.
Qed.

(* EpochSequentialSampler's order is range(total) *)
Lemma ess_order_tie ext s e :
  Interp.run ext ess_order [("self", self_of s); ("epoch", e)]
  = Ok (vnats (seq_order (total s) 0)) (mkState [("self", self_of s); ("epoch", e)] []).
Proof.
  unfold Interp.run, ess_order, seq_order. step.
  unfold zrange. rewrite Z.sub_0_r, Nat2Z.id. reflexivity.
Qed.

Lemma nats_of_vnats l : nats_of (map (fun i => VInt (Z.of_nat i)) l) = Some l.
Proof.
  induction l as [|x l IH]; [reflexivity|]. cbn [map nats_of].
  replace (0 <=? Z.of_nat x)%Z with true by lia. rewrite IH, Nat2Z.id. reflexivity.
Qed.

Lemma src_iterate_tie order k s : (0 < world s)%nat ->
  src_iterate order k (self_of s) = Some (fst (iterate order k s)).
Proof.
  revert s. induction k as [|k IH]; intros s Hw; [reflexivity|].
  cbn [src_iterate iterate].
  destruct (iter_tie order s Hw) as [st [Hr Hl]]. rewrite Hr. unfold vnats.
  rewrite nats_of_vnats, Hl, (IH (snd (next order s)) Hw). unfold next. cbn [fst snd].
  destruct (iterate order k _) as [ys s'']. reflexivity.
Qed.

(* src_run agrees with Model.run on every input: the whole-run form of the tie *)
Theorem src_run_tie n dist m e0 orders : dist_ok dist ->
  src_run n dist m e0 orders = Some (Model.run n dist m e0 orders).
Proof.
  intros Hd. unfold src_run, Model.run.
  set (order := fun e => nth (e - e0) orders []).
  pose proof (init_tie order n dist m e0 Hd) as Hi. unfold init_expected in Hi.
  destruct (init n dist m e0) as [s|] eqn:Ei.
  - destruct (Interp.run (ext13 order) aes_init (init_vars n dist m e0)) as [v st|name st|w]; try contradiction.
    match type of Hi with match ?x with _ => _ end => destruct x; try contradiction end. rewrite Hi.
    destruct (init_wf _ _ _ _ _ Hd Ei) as ((_ & Hw & _) & _).
    rewrite (len_tie (ext13 order) s Hw). unfold zn.
    replace (0 <=? Z.of_nat (len s))%Z with true by lia.
    rewrite src_iterate_tie by lia. rewrite Nat2Z.id. reflexivity.
  - destruct (Interp.run (ext13 order) aes_init (init_vars n dist m e0)) as [v st|name st|w]; try contradiction.
    rewrite Hi. reflexivity.
Qed.

Lemma source_len_eq_yielded order s : wf s -> List.length (order (epoch s)) = total s ->
  exists ys st st',
    Interp.run (ext13 order) aes_iter [("self", self_of s)] = Ok (vnats ys) st /\
    Interp.run (ext13 order) aes_len [("self", self_of s)] = Ok (zn (List.length ys)) st'.
Proof.
  intros Hwf Hl. destruct Hwf as [Hw [Hr He]].
  destruct (iter_tie order s Hw) as [st [Hi _]].
  exists (fst (next order s)), st, (st_of s []). split; [exact Hi|].
  rewrite (len_tie (ext13 order) s Hr). unfold next; cbn [fst].
  rewrite (len_eq_yielded s (order (epoch s))); [reflexivity| |exact Hl].
  unfold wf; auto.
Qed.

(* EpochRandomSampler's order is NumPy's permutation for (base_seed, epoch) over exactly [total] items - for every
   effective_total, rank, world size and epoch counter of the sampler *)
Lemma ers_order_tie perm seed s e :
  Interp.run (ext_rs perm) ers_order [("self", rand_self seed s); ("epoch", VInt e)]
  = Ok (vnats (perm seed e (total s)))
       (mkState [("self", rand_self seed s); ("epoch", VInt e);
                 ("rs", VTuple [VStr "$rs"; VInt seed; VInt e]); ("shuffled", vnats (perm seed e (total s)))] []).
Proof.
  unfold Interp.run, ers_order.
  (* rs = np.random.RandomState((self.base_seed, epoch)); shuffled = rs.permutation(self.total); return iter(shuffled) *)
  step. step. replace (0 <=? Z.of_nat (total s))%Z with true by lia. run.
  step. rewrite Nat2Z.id. reflexivity.
Qed.

(* hence independent of the process group: two samplers over the same data with the same seed, in whatever groups and
   uneven-handling modes, get the same epoch order *)
Lemma ers_order_env_independent perm seed s1 s2 e : total s1 = total s2 ->
  exists st1 st2 v,
    Interp.run (ext_rs perm) ers_order [("self", rand_self seed s1); ("epoch", VInt e)] = Ok v st1 /\
    Interp.run (ext_rs perm) ers_order [("self", rand_self seed s2); ("epoch", VInt e)] = Ok v st2.
Proof.
  intros Ht. do 2 eexists. exists (vnats (perm seed e (total s1))). split.
  - apply ers_order_tie.
  - rewrite Ht. apply ers_order_tie.
Qed.

