(* C13 — lemmas about the epoch-sampler model. *)
From Coq Require Import List Arith Bool Lia ZArith ZifyNat.
From PV Require Import C13.Model.
Import ListNotations.
Ltac Zify.zify_post_hook ::= Z.to_euclidean_division_equations.

(* ---------- stride / islice ------------------------------------------- *)

Lemma stride_skipn {A} (w r : nat) (l : list A) :
  stride w 0 (skipn r l) = stride w r l.
Proof.
  revert l; induction r as [|r IH]; intros l; [reflexivity|].
  destruct l as [|x t]; [reflexivity|]. cbn [skipn stride]. apply IH.
Qed.

Lemma stride_length {A} (w : nat) (l : list A) : 0 < w ->
  forall k, length (stride w k l) = (length l + w - 1 - k) / w.
Proof.
  intros Hw. induction l as [|x t IH]; intros k; cbn [stride length].
  - symmetry. apply Nat.div_small. lia.
  - destruct k as [|k'].
    + cbn [length]. rewrite IH.
      replace (length t + w - 1 - (w - 1)) with (length t) by lia.
      replace (S (length t) + w - 1 - 0) with (length t + 1 * w) by lia.
      rewrite Nat.div_add by lia. lia.
    + rewrite IH. f_equal. lia.
Qed.

Lemma stride_nth {A} (w : nat) (d : A) : 0 < w ->
  forall (l : list A) k j, nth j (stride w k l) d = nth (k + j * w) l d.
Proof.
  intros Hw. induction l as [|x t IH]; intros k j; cbn [stride].
  - destruct j, (k + _ * w); reflexivity.
  - destruct k as [|k'].
    + destruct j as [|j']; [reflexivity|]. cbn [nth]. rewrite IH.
      replace (0 + S j' * w) with (S (w - 1 + j' * w)) by lia. reflexivity.
    + rewrite IH. reflexivity.
Qed.

Fixpoint sum_upto (f : nat -> nat) (n : nat) : nat :=
  match n with 0 => 0 | S n' => sum_upto f n' + f n' end.

Lemma sum_upto_ext f g n : (forall i, i < n -> f i = g i) -> sum_upto f n = sum_upto g n.
Proof.
  induction n as [|n IH]; intros H; cbn; [reflexivity|].
  rewrite IH, H by (intros; try apply H; lia). reflexivity.
Qed.

Lemma sum_upto_shift f n : sum_upto f (S n) = f 0 + sum_upto (fun i => f (S i)) n.
Proof.
  induction n as [|n IH]; [cbn; lia|].
  change (sum_upto f (S (S n))) with (sum_upto f (S n) + f (S n)).
  rewrite IH. cbn. lia.
Qed.

Lemma sum_upto_ge1 f n i : i < n -> f i <= sum_upto f n.
Proof.
  induction n as [|n IH]; intros Hi; [lia|]. cbn.
  destruct (Nat.eq_dec i n) as [->|]; [lia|]. assert (i < n) by lia. specialize (IH H). lia.
Qed.

Lemma sum_upto_ge2 f n i j : i <> j -> i < n -> j < n -> f i + f j <= sum_upto f n.
Proof.
  induction n as [|n IH]; intros Hij Hi Hj; [lia|]. cbn.
  destruct (Nat.eq_dec i n) as [->|], (Nat.eq_dec j n) as [->|]; try lia.
  - pose proof (sum_upto_ge1 f n j). lia.
  - pose proof (sum_upto_ge1 f n i). lia.
Qed.

(* dealing a list to w phases loses and duplicates nothing *)
Lemma stride_count (w : nat) (v : nat) : 0 < w -> forall l : list nat,
  sum_upto (fun r => count_occ Nat.eq_dec (stride w r l) v) w = count_occ Nat.eq_dec l v.
Proof.
  intros Hw. induction l as [|x t IH].
  - cbn [stride count_occ]. induction w as [|w' IHw]; [reflexivity|]. cbn.
    destruct w'; [reflexivity|]. rewrite IHw by lia. reflexivity.
  - destruct w as [|w']; [lia|]. rewrite sum_upto_shift.
    cbn [stride]. replace (S w' - 1) with w' by lia.
    cbn [count_occ]. rewrite <- IH. cbn [sum_upto].
    destruct (Nat.eq_dec x v); lia.
Qed.

(* ---------- the sampler ------------------------------------------------ *)

Definition wf (s : sampler) : Prop :=
  0 < world s /\ rank s < world s /\ eff s <= total s.

Definition dist_ok (dist : option (nat * nat)) : Prop :=
  match dist with None => True | Some (r, w) => r < w end.

Lemma init_wf n dist m e0 s : dist_ok dist -> init n dist m e0 = Some s ->
  wf s /\ total s = n /\ epoch s = e0.
Proof.
  unfold init, wf. intros Hd H.
  destruct m, dist as [[r w]|]; cbn in Hd;
    try (destruct (Nat.eqb (n mod w) 0)); inversion H; subst; cbn; lia.
Qed.

Lemma samples_stride s order : samples s order = stride (world s) (rank s) (firstn (eff s) order).
Proof. unfold samples, islice. apply stride_skipn. Qed.

Lemma len_eq_yielded s order : wf s -> length order = total s ->
  length (samples s order) = len s.
Proof.
  intros (Hw & Hr & He) Hl. rewrite samples_stride, stride_length by assumption.
  rewrite firstn_length, Hl. unfold len. f_equal. lia.
Qed.

Lemma samples_nth s order d j : wf s ->
  nth j (samples s order) d = nth (rank s + j * world s) (firstn (eff s) order) d.
Proof. intros (Hw & _). rewrite samples_stride. apply stride_nth. exact Hw. Qed.

Lemma nth_firstn {A} (d : A) : forall e (l : list A) i, i < e -> nth i (firstn e l) d = nth i l d.
Proof.
  induction e as [|e IH]; intros l i Hi; [lia|].
  destruct l as [|x t]; [destruct i; reflexivity|].
  destruct i as [|i]; [reflexivity|]. cbn. apply IH. lia.
Qed.

(* position i < eff of the epoch order is the (i / W)-th sample of rank i mod W *)
Lemma position_owner s order d i : wf s -> length order = total s -> i < eff s ->
  let s' := mkSampler (total s) (eff s) (i mod world s) (world s) (epoch s) in
  i / world s < len s' /\ nth (i / world s) (samples s' order) d = nth i order d.
Proof.
  intros (Hw & Hr & He) Hl Hi s'. split.
  - unfold len, s'; cbn. apply Nat.div_le_lower_bound; [lia|].
    pose proof (Nat.div_mod i (world s)). pose proof (Nat.mod_upper_bound i (world s)).
    lia.
  - rewrite samples_nth by (unfold wf, s'; cbn; repeat split; try lia; apply Nat.mod_upper_bound; lia).
    unfold s'; cbn.
    replace (i mod world s + i / world s * world s) with i
      by (pose proof (Nat.div_mod i (world s)); lia).
    apply nth_firstn. exact Hi.
Qed.

(* every yielded sample sits at a position below eff *)
Lemma sample_position s j : wf s -> j < len s -> rank s + j * world s < eff s.
Proof.
  intros (Hw & Hr & He) Hj. unfold len in Hj.
  assert (world s * ((eff s + world s - 1 - rank s) / world s) <= eff s + world s - 1 - rank s)
    by (apply Nat.mul_div_le; lia).
  assert (world s * S j <= world s * ((eff s + world s - 1 - rank s) / world s))
    by (apply Nat.mul_le_mono_l; lia).
  lia.
Qed.

Definition with_rank (s : sampler) (r : nat) : sampler :=
  mkSampler (total s) (eff s) r (world s) (epoch s).

Lemma ranks_cover_count s order v : 0 < world s ->
  sum_upto (fun r => count_occ Nat.eq_dec (samples (with_rank s r) order) v) (world s)
  = count_occ Nat.eq_dec (firstn (eff s) order) v.
Proof.
  intros Hw. rewrite <- (stride_count (world s) v Hw).
  apply sum_upto_ext. intros r _. rewrite samples_stride. reflexivity.
Qed.

Lemma count_firstn_le1 (l : list nat) n v : NoDup l -> count_occ Nat.eq_dec (firstn n l) v <= 1.
Proof.
  intros H. pose proof (proj1 (NoDup_count_occ Nat.eq_dec l) H v) as Hl.
  rewrite <- (firstn_skipn n l), count_occ_app in Hl. lia.
Qed.

Lemma ranks_disjoint s order r1 r2 v : 0 < world s -> NoDup order ->
  r1 < world s -> r2 < world s -> r1 <> r2 ->
  In v (samples (with_rank s r1) order) -> ~ In v (samples (with_rank s r2) order).
Proof.
  intros Hw Hnd H1 H2 Hne Hin1 Hin2.
  pose proof (ranks_cover_count s order v Hw) as Hsum.
  pose proof (count_firstn_le1 order (eff s) v Hnd) as Hle.
  apply (count_occ_In Nat.eq_dec) in Hin1. apply (count_occ_In Nat.eq_dec) in Hin2.
  pose proof (sum_upto_ge2 (fun r => count_occ Nat.eq_dec (samples (with_rank s r) order) v) (world s) r1 r2 Hne H1 H2).
  cbv beta in *. lia.
Qed.

Lemma ranks_cover_once s order v : 0 < world s -> NoDup order ->
  In v (firstn (eff s) order) ->
  sum_upto (fun r => count_occ Nat.eq_dec (samples (with_rank s r) order) v) (world s) = 1.
Proof.
  intros Hw Hnd Hin. rewrite ranks_cover_count by exact Hw.
  pose proof (count_firstn_le1 order (eff s) v Hnd).
  apply (count_occ_In Nat.eq_dec) in Hin. lia.
Qed.

Lemma sum_upto_pos f n : 0 < sum_upto f n -> exists r, r < n /\ 0 < f r.
Proof.
  induction n as [|n IH]; cbn; [lia|]. intros H.
  destruct (f n) eqn:E.
  - destruct IH as (r & Hr & Hf); [lia|]. exists r; split; [lia|exact Hf].
  - exists n; split; [lia|lia].
Qed.

Lemma ranks_cover_some s order v : 0 < world s ->
  In v (firstn (eff s) order) ->
  exists r, r < world s /\ In v (samples (with_rank s r) order).
Proof.
  intros Hw Hin. apply (count_occ_In Nat.eq_dec) in Hin.
  rewrite <- ranks_cover_count in Hin by exact Hw.
  destruct (sum_upto_pos _ _ Hin) as (r & Hr & Hf). exists r; split; [exact Hr|].
  apply (count_occ_In Nat.eq_dec). exact Hf.
Qed.

Lemma samples_subset s order v : In v (samples s order) -> In v (firstn (eff s) order).
Proof.
  rewrite samples_stride. generalize (firstn (eff s) order) as l. generalize (rank s) as k.
  intros k l; revert k. induction l as [|x t IH]; intros k; cbn [stride]; [tauto|].
  destruct k as [|k'].
  - intros [->|H]; [left; reflexivity|right; eapply IH; exact H].
  - intros H. right. eapply IH; exact H.
Qed.

(* the length of a rank's share when the effective total is a multiple of the world size *)
Lemma div_round r w q : r < w -> (w * q + w - 1 - r) / w = q.
Proof.
  intros Hr. replace (w * q + w - 1 - r) with (w - 1 - r + q * w) by lia.
  rewrite Nat.div_add, Nat.div_small by lia. reflexivity.
Qed.

Lemma drop_equal_counts n r w e0 s : r < w ->
  init n (Some (r, w)) Drop e0 = Some s ->
  eff s = w * (n / w) /\ len s = n / w /\ total s - eff s = n mod w.
Proof.
  intros Hr. assert (Hw : w <> 0) by lia.
  pose proof (Nat.div_mod n w Hw). pose proof (Nat.mod_le n w Hw).
  unfold init. destruct (Nat.eqb_spec (n mod w) 0) as [E|E];
    intros H'; inversion H'; subst; unfold len; cbn.
  - assert (Hn : n = w * (n / w)) by lia.
    repeat split; try lia. rewrite Hn at 1. apply div_round. exact Hr.
  - assert (Hn : n - n mod w = w * (n / w)) by lia.
    repeat split; try lia. rewrite Hn. apply div_round. exact Hr.
Qed.

Lemma raise_iff_indivisible n r w e0 :
  init n (Some (r, w)) Raise e0 = None <-> n mod w <> 0.
Proof.
  unfold init. destruct (Nat.eqb_spec (n mod w) 0) as [E|E]; split; easy.
Qed.

Lemma non_drop_eff n dist m e0 s : m <> Drop -> init n dist m e0 = Some s -> eff s = n.
Proof.
  unfold init. intros Hm H. destruct m, dist as [[r w]|]; try congruence;
    try (destruct (Nat.eqb (n mod w) 0)); inversion H; reflexivity.
Qed.

Lemma stride_one {A} (l : list A) : stride 1 0 l = l.
Proof. induction l as [|x t IH]; cbn; [reflexivity|]. f_equal. exact IH. Qed.

Lemma ignore_gives_full_epoch n dist e0 s order : length order = n ->
  init n dist Ignore e0 = Some s -> samples s order = order /\ len s = n.
Proof.
  intros Hl H. cbn in H. inversion H; subst.
  unfold samples, islice, len; cbn [total eff rank world epoch skipn].
  rewrite firstn_all, stride_one. split; [reflexivity|].
  rewrite Nat.div_1_r. lia.
Qed.

Lemma iterate_spec order k s :
  fst (iterate order k s) = map (fun e => samples s (order e)) (seq (epoch s) k)
  /\ snd (iterate order k s) = mkSampler (total s) (eff s) (rank s) (world s) (epoch s + k).
Proof.
  revert s; induction k as [|k IH]; intros s.
  - cbn. rewrite Nat.add_0_r. destruct s; auto.
  - cbn [iterate next]. specialize (IH (mkSampler (total s) (eff s) (rank s) (world s) (S (epoch s)))).
    destruct (iterate order k _) as [ys s'']. cbn in IH |- *. destruct IH as [-> ->].
    rewrite Nat.add_succ_r. auto.
Qed.

(* the (k+1)-th yield of a sampler started at epoch 0 is the first yield of one
   started at epoch k: the order depends on (seed, epoch) only *)
Lemma order_function_of_epoch n dist m order k s0 sk :
  init n dist m 0 = Some s0 -> init n dist m k = Some sk ->
  nth k (fst (iterate order (S k) s0)) [] = fst (next order sk)
  /\ fst (next order sk) = samples s0 (order k).
Proof.
  intros H0 Hk.
  assert (Hs : samples s0 (order k) = samples sk (order k) /\ epoch sk = k /\ epoch s0 = 0).
  { unfold init in *. destruct m, dist as [[r w]|];
      try (destruct (Nat.eqb (n mod w) 0)); inversion H0; inversion Hk; subst; cbn; auto. }
  destruct Hs as (Hs & Hek & He0).
  rewrite (proj1 (iterate_spec order (S k) s0)). rewrite He0.
  unfold next; cbn [fst]. rewrite Hek, <- Hs. split; [|reflexivity].
  rewrite (nth_indep _ [] ((fun e => samples s0 (order e)) 0))
    by (rewrite map_length, seq_length; lia).
  rewrite (map_nth (fun e => samples s0 (order e))). rewrite seq_nth by lia. reflexivity.
Qed.
