(* C04 — the property clauses for the batched model [Model.search], obtained from the
   single-element search (Abstract.v) through the refinement (Refine.v). *)
From Coq Require Import List Arith Lia ZArith Bool.
From PV Require Import C04.Model C04.Spec C04.Lists C04.Topk C04.Abstract C04.Refine.
Import ListNotations.
Local Open Scope nat_scope.

Section Final.
Context {state : Type}.
Variable topk : nat -> list score -> list nat.
Variable calc : list Z -> state -> nat -> list score * state.
Variable dstate : state.
Variables (V width : nat) (eos : option Z) (fin_all : bool) (pad : Z).

Hypothesis Htopk : topk_ok topk.
Hypothesis Hlm : lm_ok calc V.
Hypothesis HV : 1 <= V.
Hypothesis Hwidth : 1 <= width.

Definition beams_of (max_iters : nat) (inits : list state) : list (list slot) :=
  fst (fst (search topk calc dstate V width eos fin_all pad max_iters inits)).

Local Notation asearch := (asearch topk calc dstate V width eos fin_all).

Lemma map_eq_nth {A B C} (f : A -> C) (g : B -> C) (l : list A) (l' : list B) (d : A) (d' : B) k :
  map f l = map g l' -> k < length l -> f (nth k l d) = g (nth k l' d').
Proof.
  intros H Hk. assert (Hl : length l' = length l).
  { apply (f_equal (@length _)) in H. now rewrite !map_length in H. }
  rewrite <- (nth_map_lt f l (f d) d k Hk), H. apply nth_map_lt. lia.
Qed.

Section One.
Variables (max_iters : nat) (inits : list state) (n : nat).
Hypothesis Hn : n < length inits.
Let beam := nth n (beams_of max_iters inits) [].
Let s0 := nth n inits dstate.
Let x := asearch max_iters s0.

Lemma beam_view : map (vslot) beam = map (@vaslot state) x.
Proof.
  destruct (search_refines topk calc dstate V width eos fin_all pad Htopk Hlm HV Hwidth max_iters inits) as (_ & H).
  now destruct (H n Hn).
Qed.

Lemma beam_len_ok sl : In sl beam -> len sl <= length (col sl).
Proof.
  destruct (search_refines topk calc dstate V width eos fin_all pad Htopk Hlm HV Hwidth max_iters inits) as (_ & H).
  destruct (H n Hn) as (_ & H2). apply H2.
Qed.

Lemma beam_length : length beam = width.
Proof.
  pose proof beam_view as H. apply (f_equal (@length _)) in H. rewrite !map_length in H. rewrite H.
  apply asearch_length; assumption.
Qed.

Lemma x_out : AOut calc dstate V eos s0 x.
Proof. apply asearch_out; assumption. Qed.

Lemma slot_view k : k < width ->
  vpath (nth k beam dslot) = apath (nth k x (adflt dstate)) /\
  sc (nth k beam dslot) = asc (nth k x (adflt dstate)).
Proof.
  intros Hk. pose proof (map_eq_nth vslot (@vaslot state) beam x dslot (adflt dstate) k beam_view) as H.
  rewrite beam_length in H. specialize (H Hk). unfold vslot, vaslot in H. now injection H.
Qed.

Lemma in_beam_nth sl : In sl beam -> exists k, k < width /\ nth k beam dslot = sl.
Proof. intros H. apply (In_nth _ _ dslot) in H. now rewrite beam_length in H. Qed.

Lemma x_length : length x = width.
Proof. apply asearch_length; assumption. Qed.

Lemma slot_src sl : In sl beam -> exists a, In a x /\ vpath sl = apath a /\ sc sl = asc a.
Proof.
  intros Hin. destruct (in_beam_nth sl Hin) as (k & Hk & <-). exists (nth k x (adflt dstate)).
  split; [apply nth_In; now rewrite x_length|now apply slot_view].
Qed.

Lemma scores_chain sl z : In sl beam -> sc sl = Some z ->
  chain calc s0 (vpath sl) = Some z /\ in_vocab V (vpath sl) /\ length (vpath sl) = len sl.
Proof.
  intros Hin Hz. destruct (slot_src sl Hin) as (a & Ha & Hp & Hs). split; [|split].
  - rewrite Hp, <- Hz, Hs. symmetry. apply (ao_chain _ _ _ _ _ _ x_out _ Ha). now rewrite <- Hs, Hz.
  - rewrite Hp. apply (ao_vocab _ _ _ _ _ _ x_out _ Ha).
  - unfold vpath. now apply firstn_length_le, beam_len_ok.
Qed.

Lemma eos_is_first sl : In sl beam -> sfin (sc sl) = true -> eos_first eos (vpath sl).
Proof.
  intros Hin Hf. destruct (slot_src sl Hin) as (a & Ha & Hp & Hs).
  rewrite Hp. apply (ao_eos _ _ _ _ _ _ x_out _ Ha). now rewrite <- Hs.
Qed.

Lemma paths_distinct i j : i < width -> j < width -> i <> j ->
  sfin (sc (nth i beam dslot)) = true -> sfin (sc (nth j beam dslot)) = true ->
  vpath (nth i beam dslot) <> vpath (nth j beam dslot).
Proof.
  intros Hi Hj Hij Hfi Hfj.
  destruct (slot_view i Hi) as (Hpi & Hsi). destruct (slot_view j Hj) as (Hpj & Hsj).
  rewrite Hpi, Hpj. apply (ao_distinct _ _ _ _ _ _ x_out); rewrite ?x_length; auto; congruence.
Qed.

Lemma sorted_inf_last :
  sorted_desc (map sc beam) /\
  forall i j, i <= j -> j < width -> sc (nth i beam dslot) = None -> sc (nth j beam dslot) = None.
Proof.
  assert (Hs : sorted_desc (map sc beam)).
  { replace (map sc beam) with (map asc x); [apply (ao_sorted _ _ _ _ _ _ x_out)|].
    pose proof beam_view as H. apply (f_equal (map snd)) in H. rewrite !map_map in H. symmetry. exact H. }
  split; [exact Hs|]. intros i j Hij Hj Hi.
  specialize (Hs i j Hij). rewrite map_length, beam_length in Hs. specialize (Hs Hj).
  rewrite (nth_map_lt sc beam None dslot j) in Hs by (now rewrite beam_length).
  rewrite (nth_map_lt sc beam None dslot i) in Hs by (rewrite beam_length; lia).
  rewrite Hi in Hs. destruct (sc (nth j beam dslot)); [discriminate|reflexivity].
Qed.

Lemma exhaustive_wide p :
  eos_ok V eos -> wide V width eos max_iters -> to_completion eos fin_all ->
  complete V eos max_iters p -> sfin (chain calc s0 p) = true ->
  exists sl, In sl beam /\ vpath sl = p /\ sc sl = chain calc s0 p.
Proof.
  intros He Hw Hr Hc Hf.
  destruct (asearch_exhaustive topk calc dstate V width eos fin_all Htopk Hlm HV Hwidth
              max_iters s0 p He Hw Hr Hc Hf) as (a & Hin & Hp & Hs).
  fold x in Hin. apply (In_nth _ _ (adflt dstate)) in Hin. destruct Hin as (k & Hk & Hka).
  rewrite x_length in Hk. destruct (slot_view k Hk) as (Hv & Hsc).
  exists (nth k beam dslot). split; [apply nth_In; now rewrite beam_length|].
  rewrite Hv, Hsc, Hka. auto.
Qed.
End One.

Theorem shape max_iters inits :
  length (beams_of max_iters inits) = length inits /\
  forall beam, In beam (beams_of max_iters inits) ->
    length beam = width /\ forall sl, In sl beam -> len sl <= length (col sl).
Proof.
  assert (Hl : length (beams_of max_iters inits) = length inits).
  { now destruct (search_refines topk calc dstate V width eos fin_all pad Htopk Hlm HV Hwidth max_iters inits). }
  split; [exact Hl|]. intros beam Hin. apply (In_nth _ _ []) in Hin. destruct Hin as (n & Hn & <-).
  rewrite Hl in Hn. split; [now apply beam_length|]. intros sl. now apply beam_len_ok.
Qed.

(* batched = alone *)
Theorem batch_independent max_iters inits n : n < length inits ->
  map vslot (nth n (beams_of max_iters inits) [])
  = map vslot (nth 0 (beams_of max_iters [nth n inits dstate]) []).
Proof.
  intros Hn. rewrite (beam_view max_iters inits n Hn).
  rewrite (beam_view max_iters [nth n inits dstate] 0) by (cbn; lia). reflexivity.
Qed.
End Final.

(* ---- the language model used by the correspondence meets the hypothesis on language models --- *)
Lemma hash_calc_lm_ok (a b c M : Z) (V : nat) (table : list (list score)) :
  Forall (fun r => length r = V) table -> lm_ok (hash_calc a b c M V table) V.
Proof.
  intros Ht. split.
  - intros h h' st t Hp. unfold hash_calc. destruct t as [|t']; [reflexivity|].
    replace (nth t' h' 0%Z) with (nth t' h 0%Z); [reflexivity|].
    rewrite <- (nth_firstn_lt 0%Z h (S t') t'), Hp, nth_firstn_lt by lia. reflexivity.
  - intros h st t. unfold hash_calc. cbn [fst].
    set (i := Z.to_nat _). destruct (Nat.lt_ge_cases i (length table)) as [Hi|Hi].
    + eapply Forall_forall in Ht; [exact Ht|]. now apply nth_In.
    + rewrite nth_overflow by exact Hi. apply repeat_length.
Qed.

Definition ex_table : list (list score) :=
  [[Some (-3)%Z; Some (-10)%Z]; [Some (-12)%Z; Some (-2)%Z]; [Some (-5)%Z; Some (-6)%Z]].
Definition ex_lm := hash_calc 2 1 1 3 2 ex_table.

Lemma ex_nonvacuous :
  topk_ok topk_stable /\ lm_ok ex_lm 2 /\
  map (map vslot) (beams_of topk_stable ex_lm 0%Z 2 2 (Some 1%Z) true (-100)%Z 3 [0%Z; 1%Z])
  = [[([0%Z; 1%Z], Some (-5)%Z); ([1%Z], Some (-10)%Z)];
     [([1%Z], Some (-2)%Z); ([0%Z; 0%Z; 1%Z], Some (-17)%Z)]].
Proof.
  split; [apply topk_stable_ok|]. split.
  - apply hash_calc_lm_ok. repeat constructor.
  - vm_compute. reflexivity.
Qed.

(* ---- "the number of complete sequences", computably -------------------------------------------- *)
Lemma live_seqs_all V eos : forall t p, in_vocab V p ->
  match eos with Some e => ~ In e p | None => True end -> length p = t -> In p (live_seqs V eos t).
Proof.
  induction t as [|t IH]; intros p Hv Hne Hl.
  - destruct p; [now left|discriminate].
  - assert (Hnn : p <> []) by (intros ->; discriminate).
    destruct (exists_last Hnn) as (q & v & ->). rewrite app_length in Hl. cbn in Hl.
    apply Forall_app in Hv. destruct Hv as (Hvq & Hvv). inversion Hvv as [|? ? Hv0 _]; subst.
    cbn [live_seqs]. apply in_flat_map. exists q. split.
    + apply IH; [exact Hvq| |lia]. destruct eos; [|exact I]. intros Hin. apply Hne. apply in_or_app. now left.
    + apply in_flat_map. exists (Z.to_nat v). split; [apply in_seq; lia|].
      rewrite Z2Nat.id by lia. destruct eos as [e|]; [|now left].
      destruct (v =? e)%Z eqn:E; [|now left]. apply Z.eqb_eq in E. subst e.
      exfalso. apply Hne. apply in_or_app. right. now left.
Qed.

Lemma complete_in_enum V eos T p : complete V eos T p -> In p (complete_seqs V eos T).
Proof.
  unfold complete, complete_seqs. destruct eos as [e|].
  - intros (Hv & [(Hnn & Hl & Hef & Hlen)|(Hne & Hlen)]); apply in_or_app.
    + left. destruct (exists_last Hnn) as (q & v & ->). rewrite last_last in Hl. subst v.
      rewrite removelast_last in Hef. rewrite app_length in Hlen. cbn in Hlen.
      apply Forall_app in Hv. destruct Hv as (Hvq & _).
      apply in_flat_map. exists (length q). split; [apply in_seq; lia|].
      apply in_map_iff. exists q. split; [reflexivity|]. now apply live_seqs_all.
    + right. now apply live_seqs_all.
  - intros (Hv & Hlen). now apply live_seqs_all.
Qed.

Lemma wide_of_count V width eos T : length (complete_seqs V eos T) <= width -> wide V width eos T.
Proof.
  intros H l Hnd Hall. etransitivity; [|exact H]. apply NoDup_incl_length; [exact Hnd|].
  intros p Hp. apply complete_in_enum. now apply Hall.
Qed.

Lemma ex_wide : wide 2 3 (Some 1%Z) 2 /\ eos_ok 2 (Some 1%Z) /\ to_completion (Some 1%Z) true /\
  complete 2 (Some 1%Z) 2 [0%Z; 1%Z] /\ sfin (chain ex_lm 0%Z [0%Z; 1%Z]) = true.
Proof.
  split; [apply wide_of_count; vm_compute; lia|]. split; [cbn; lia|]. split; [now left|]. split.
  - split.
    + repeat constructor; lia.
    + left. split; [discriminate|]. split; [reflexivity|]. split; [|cbn; lia].
      cbn. intros [H|[]]. discriminate.
  - reflexivity.
Qed.
