(* C04 — the executable stable topk meets the specification the theorems assume. *)
From Coq Require Import List Arith Lia ZArith Bool Sorted Permutation.
From PV Require Import C04.Model C04.Spec C04.Lists.
Import ListNotations.
Local Open Scope nat_scope.

Lemma sleb_refl a : sleb a a = true.
Proof. destruct a; cbn; auto. apply Z.leb_refl. Qed.

Lemma sleb_trans a b c : sleb a b = true -> sleb b c = true -> sleb a c = true.
Proof.
  destruct a, b, c; cbn; auto; try discriminate.
  intros H1 H2. apply Z.leb_le in H1, H2. apply Z.leb_le. lia.
Qed.

Lemma sleb_total a b : sleb a b = false -> sleb b a = true.
Proof.
  destruct a, b; cbn; auto; try discriminate.
  intros H. apply Z.leb_gt in H. apply Z.leb_le. lia.
Qed.

Lemma sleb_None a : sleb None a = true.
Proof. reflexivity. Qed.

Lemma sleb_fin a b : sleb a b = true -> sfin a = true -> sfin b = true.
Proof. destruct a, b; cbn; auto. Qed.

Definition geR (x y : nat * score) : Prop := sleb (snd y) (snd x) = true.

Lemma ins_perm x l : Permutation (ins x l) (x :: l).
Proof.
  induction l as [|y t IH]; cbn; [reflexivity|].
  destruct (sleb (snd y) (snd x)); [reflexivity|].
  rewrite IH. apply perm_swap.
Qed.

Lemma sort_perm l : Permutation (sort_desc l) l.
Proof.
  induction l as [|x t IH]; cbn; [reflexivity|].
  unfold sort_desc in *. cbn. rewrite ins_perm. now constructor.
Qed.

Lemma ins_sorted x l : StronglySorted geR l -> StronglySorted geR (ins x l).
Proof.
  induction 1 as [|y t Hs IH Hy]; cbn; [repeat constructor|].
  destruct (sleb (snd y) (snd x)) eqn:E.
  - constructor; [now constructor|]. constructor; [exact E|].
    eapply Forall_impl; [|exact Hy]. intros z Hz. unfold geR in *.
    eapply sleb_trans; eassumption.
  - constructor; [exact IH|].
    apply Forall_forall. intros z Hz.
    apply (Permutation_in _ (ins_perm x t)) in Hz. destruct Hz as [<-|Hz].
    + unfold geR. now apply sleb_total.
    + eapply Forall_forall in Hy; eauto.
Qed.

Lemma sort_sorted l : StronglySorted geR (sort_desc l).
Proof.
  induction l as [|x t IH]; [constructor|]. unfold sort_desc in *. cbn. now apply ins_sorted.
Qed.

Lemma ssorted_app_cross {A} (R : A -> A -> Prop) (l1 l2 : list A) :
  StronglySorted R (l1 ++ l2) -> forall x y, In x l1 -> In y l2 -> R x y.
Proof.
  induction l1 as [|a l1 IH]; cbn; intros H x y Hx Hy; [contradiction|].
  inversion H as [|? ? Hs Hf]; subst. destruct Hx as [->|Hx].
  - eapply Forall_forall in Hf; [exact Hf|]. apply in_or_app. now right.
  - eapply IH; eauto.
Qed.

Lemma ssorted_nth {A} (R : A -> A -> Prop) (d : A) (l : list A) :
  (forall x, R x x) -> StronglySorted R l ->
  forall i j, i <= j -> j < length l -> R (nth i l d) (nth j l d).
Proof.
  intros Hrefl. induction 1 as [|a l Hs IH Hf]; intros i j Hij Hj; [cbn in Hj; lia|].
  destruct i as [|i], j as [|j]; cbn [nth]; try lia.
  - apply Hrefl.
  - eapply Forall_forall in Hf; [exact Hf|]. apply nth_In. cbn in Hj. lia.
  - apply IH; cbn in Hj; lia.
Qed.

Lemma ssorted_firstn {A} (R : A -> A -> Prop) (l : list A) k :
  StronglySorted R l -> StronglySorted R (firstn k l).
Proof.
  intros H. revert k. induction H as [|a l Hs IH Hf]; intros [|k]; cbn; try constructor.
  - apply IH.
  - apply Forall_forall. intros x Hx. eapply Forall_forall in Hf; [exact Hf|eapply In_firstn; exact Hx].
Qed.

Lemma map_fst_combine {A B} : forall (l : list A) (l' : list B),
  length l = length l' -> map fst (combine l l') = l.
Proof.
  induction l as [|a l IH]; intros [|b l'] H; cbn in *; try discriminate; auto.
  f_equal. apply IH. lia.
Qed.

Lemma indexed_fst cs : map fst (indexed cs) = seq 0 (length cs).
Proof. unfold indexed. apply map_fst_combine. now rewrite seq_length. Qed.

Lemma indexed_in cs p : In p (indexed cs) -> fst p < length cs /\ snd p = nth (fst p) cs None.
Proof.
  unfold indexed. intros H.
  assert (G : forall (l : list score) s p, In p (combine (seq s (length l)) l) ->
              s <= fst p < s + length l /\ snd p = nth (fst p - s) l None).
  { clear. induction l as [|c l IH]; intros s p H; cbn in *; [contradiction|].
    destruct H as [<-|H]; cbn.
    - split; [lia|]. now rewrite Nat.sub_diag.
    - apply IH in H. destruct H as [H1 H2]. split; [lia|].
      rewrite H2. replace (fst p - s) with (S (fst p - S s)) by lia. reflexivity. }
  apply G in H. rewrite Nat.sub_0_r in H. destruct H. split; [lia|assumption].
Qed.

Lemma sorted_in cs p : In p (sort_desc (indexed cs)) ->
  fst p < length cs /\ snd p = nth (fst p) cs None.
Proof. intros H. apply indexed_in. eapply Permutation_in; [apply sort_perm|exact H]. Qed.

Lemma NoDup_firstn {A} (l : list A) k : NoDup l -> NoDup (firstn k l).
Proof.
  intros H. revert k. induction H as [|a l Hn Hd IH]; intros [|k]; cbn; try constructor.
  - intros Hin. eapply Hn, In_firstn, Hin.
  - apply IH.
Qed.

Theorem topk_stable_ok : topk_ok topk_stable.
Proof.
  intros k cs Hk. cbn zeta. unfold topk_stable.
  set (srt := sort_desc (indexed cs)).
  assert (Hfst : Permutation (map fst srt) (seq 0 (length cs))).
  { rewrite <- indexed_fst. apply Permutation_map, sort_perm. }
  assert (Hlen : length srt = length cs).
  { apply Permutation_length in Hfst. now rewrite map_length, seq_length in Hfst. }
  assert (Hval : forall p, In p srt -> fst p < length cs /\ snd p = nth (fst p) cs None) by (intros; now apply sorted_in).
  pose proof (sort_sorted (indexed cs)) as Hsrt. fold srt in Hsrt.
  rewrite firstn_map. repeat split.
  - rewrite map_length, firstn_length. lia.
  - rewrite <- firstn_map. apply NoDup_firstn. eapply Permutation_NoDup; [symmetry; exact Hfst|apply seq_NoDup].
  - intros i Hi. apply in_map_iff in Hi. destruct Hi as (p & <- & Hp). eapply Hval, In_firstn, Hp.
  - rewrite map_map, (map_ext_in _ snd) by (intros p Hp; symmetry; eapply Hval, In_firstn, Hp).
    intros i j Hij Hj. rewrite map_length in Hj.
    pose proof (ssorted_nth geR (0, None) _ (fun x => sleb_refl (snd x)) (ssorted_firstn _ _ k Hsrt) i j Hij Hj) as H.
    unfold geR in H. now rewrite <- !(map_nth snd) in H.
  - (* an index that is not selected sits in the tail of the sorted list *)
    intros i j Hi Hj Hnj. apply in_map_iff in Hi. destruct Hi as (p & <- & Hp).
    assert (Hjin : In j (map fst srt)) by (eapply Permutation_in; [symmetry; exact Hfst|apply in_seq; lia]).
    apply in_map_iff in Hjin. destruct Hjin as (q & <- & Hq).
    destruct (Hval p (In_firstn _ _ _ Hp)) as [_ <-]. destruct (Hval q Hq) as [_ <-].
    rewrite <- (firstn_skipn k srt) in Hq, Hsrt. apply in_app_or in Hq.
    destruct Hq as [Hq|Hq]; [exfalso; apply Hnj; now apply in_map|].
    exact (ssorted_app_cross geR _ _ Hsrt p q Hp Hq).
Qed.
