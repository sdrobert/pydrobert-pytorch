(* C04, second tie, part 2c: the prologue of forward() (block fw_init: everything before the loop), interpreted on
   forward(initial_state = the states [inits], batch_size = len(inits), max_iters = m), yields exactly the variables that
   encode Model.init_b: one empty prefix of score 0 per batch element, the given LM states, prev_width 1, height 0, and
   pad_y = a (1, N, width) tensor of pad_value. *)
From Coq Require Import ZArith QArith List String Bool Arith Lia.
From PV Require Import MiniPy.Syntax MiniPy.Interp MiniPy.Lemmas MiniTorch.Ops MiniTorch.Value MiniTorch.Lemmas
  MiniTorch.OpsC04 MiniTorch.LemmasC04 MiniTorch.OpsC04B MiniTorch.LemmasC04B Gen.C04Src Gen.C04BSrc.
From PV Require Import C04.Model C04.SrcRun C04.TieRun C04.SrcRunB C04.TieRunB C04.TieIterB.
Import ListNotations.
Local Open Scope string_scope.


Definition beams0 (inits : list Z) : list (list slot) := map (fun _ => [mkSlot [] 0 (Some 0%Z)]) inits.

Lemma map_const_seq {A B} (c : B) (l : list A) : map (fun _ => c) l = map (fun _ => c) (seq 0 (List.length l)).
Proof.
  generalize 0%nat. induction l as [|x l IH]; intros k; [reflexivity|]. cbn [map List.length seq]. f_equal. apply IH.
Qed.

Lemma concat_beams0 inits : List.concat (beams0 inits) = map (fun _ => mkSlot [] 0 (Some 0%Z)) inits.
Proof. unfold beams0. induction inits as [|x l IH]; [reflexivity|]. cbn [map List.concat app]. now rewrite IH. Qed.

Lemma col_tab n (c : val) : tabv2 n 1 (fun _ _ => c) = mkVT [n; 1%nat] (map (fun _ => c) (seq 0 n)).
Proof. unfold tabv2, tl2. cbn [seq map]. now rewrite (flat_map_singleton (fun _ : nat => c)). Qed.

Lemma enc_lpp0 inits : enc_lpp (List.length inits) 1 (beams0 inits) = tabv2 (List.length inits) 1 (fun _ _ => VQ 0).
Proof. rewrite col_tab. unfold enc_lpp. f_equal. rewrite concat_beams0, map_map. cbn [sc SrcRun.esc]. apply map_const_seq. Qed.

Lemma enc_lens0 inits : enc_lens (List.length inits) 1 (beams0 inits) = tabv2 (List.length inits) 1 (fun _ _ => VInt 0).
Proof. rewrite col_tab. unfold enc_lens. f_equal. rewrite concat_beams0, map_map. cbn [len]. apply map_const_seq. Qed.

Lemma enc_y0 inits : enc_y 0 (List.length inits) 1 (beams0 inits) = tabv3 0 (List.length inits) 1 (fun _ _ _ => VInt 0).
Proof. reflexivity. Qed.

Lemma cmp_is_states l : cmp_eval Is (enc_states l) VNone = Some false. Proof. reflexivity. Qed.

Theorem init_tie : forall calc V width eos fin_all pad inits m,
  let N := List.length inits in
  exec (extB calc) fw_init (mkState (init_vars (self_val V width eos fin_all pad) inits (vnat N) (vnat m)) [])
  = Ok CNormal
      (mkState (live (enc_states inits) (vnat N) (vnat m) (enc_states inits) V width eos fin_all pad N 1
                  (enc_y 0 N 1 (beams0 inits)) inits (enc_lpp N 1 (beams0 inits)) (enc_lens N 1 (beams0 inits))
                  (tabv3 1 N width (fun _ _ _ => VInt pad)) []) []).
Proof.
  intros calc V width eos fin_all pad inits m. cbv zeta. unfold fw_init, init_vars, live.
  rewrite enc_y0, enc_lpp0, enc_lens0. set (N := List.length inits).
  step; goB. step; goB. rewrite cmp_is_states. goB.
  repeat (step; goB).
  change (full [0%Z; Z.of_nat N] (VInt 0)) with (full [Z.of_nat 0; Z.of_nat N] (VInt 0)). rewrite full_2. cbn [ret_t bind]. goB.
  repeat (step; goB).
  unfold N at 1. rewrite Nat.eqb_refl. cbn [andb]. fold N. goB.
  repeat (step; goB).
  rewrite unsqueeze_tab2_2. cbn [ret_t bind]. goB.
  repeat (step; goB).
  change (full [Z.of_nat N; 1%Z] (VQ (- 0))) with (full [Z.of_nat N; Z.of_nat 1] (VQ 0)). rewrite full_2. cbn [ret_t bind]. goB.
  repeat (step; goB).
  change (full [Z.of_nat N; 1%Z] (VInt 0)) with (full [Z.of_nat N; Z.of_nat 1] (VInt 0)). rewrite full_2. cbn [ret_t bind]. goB.
  repeat (step; goB).
  replace (Z.of_nat m <? 0)%Z with false by lia. cbn [bind]. goB.
  repeat (step; goB).
  change (full [1%Z; Z.of_nat N; Z.of_nat width] (VInt pad)) with (full [Z.of_nat 1; Z.of_nat N; Z.of_nat width] (VInt pad)).
  rewrite full_3. cbn [ret_t bind]. goB.
  reflexivity.
Qed.
