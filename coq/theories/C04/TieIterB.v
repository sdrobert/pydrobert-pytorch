(* C04, second tie, part 1b: the HAND-WRITTEN glue of SrcRunB ([fw_iter]: the order of the blocks, the test
   `if self.eos is not None and t`, `if done_mask.all(): break`) composed over the block lemmas of TieRunB.v, for every
   tensor; the epilogue and the prologue of forward(). *)
From Coq Require Import ZArith QArith List String Bool Arith Lia ZifyBool ZifyNat.
From PV Require Import MiniPy.Syntax MiniPy.Interp MiniPy.Lemmas MiniTorch.Ops MiniTorch.Value MiniTorch.Lemmas
  MiniTorch.OpsC04 MiniTorch.LemmasC04 MiniTorch.OpsC04B Gen.C04Src Gen.C04BSrc.
From PV Require Import C04.Model C04.SrcRun C04.TieRun C04.SrcRunB C04.TieRunB.
Import ListNotations.
Local Open Scope string_scope.


(* names of the variables the statements of the theorems mention (Properties.v does not open string_scope) *)
Definition v_t : string := "t".
Definition v_eos_mask : string := "eos_mask".
Definition v_done_mask : string := "done_mask".

Section Iter.
Variable calc : list Z -> Z -> nat -> list score * Z.
Variables (isv bsv miv is0 : val) (V width : nat) (eos : option Z) (fin_all : bool) (pad : Z) (N : nat).
Variable ev : list event.
Notation ext := (extB calc).
Notation lv := (live isv bsv miv is0 V width eos fin_all pad N).
Notation rest_post := (rest_post isv bsv miv is0 V width eos fin_all pad N ev).
Notation masks_post := (masks_post isv bsv miv is0 V width eos fin_all pad N ev).
Notation rest_tensor := (rest_tensor calc V width eos N).
Notation mask_on_tensor := (mask_on_tensor fin_all).
Notation mask_off_tensor := (mask_off_tensor N).
Notation mask_on_run := (mask_on_run calc isv bsv miv is0 V width eos fin_all pad N ev).
Notation mask_off_run := (mask_off_run calc isv bsv miv is0 V width eos fin_all pad N ev).
Notation rest_run := (rest_run calc isv bsv miv is0 V width eos fin_all pad N ev).

(* ---- `t = torch.tensor(t, device=device)` --------------------------------------------------------------------- *)
Lemma t_run : forall pw y prev lpp lens pady rest tz, lookup "t" rest = Some (VInt tz) ->
  exists rest', exec ext fw_t (mkState (lv pw y prev lpp lens pady rest) ev)
                = Ok CNormal (mkState (lv pw y prev lpp lens pady rest') ev) /\
                lookup "t" rest' = Some (encv (scalar (VInt tz))).
Proof.
  intros pw y prev lpp lens pady rest tz Ht. unfold fw_t, live. step; goB.
  eexists. split; [reflexivity|]. now rewrite lookup_update_eq.
Qed.

(* ---- one iteration of the loop: the HAND-WRITTEN glue [fw_iter] over the translated blocks ---------------------- *)
(* None = `break` *)
Definition iter_tensor (tz : Z) (pw : nat) (y lpp lens pady : vt) (prev : list Z) : tres (option (vt * vt * vt * list Z)) :=
  let tv := scalar (VInt tz) in
  let go md := tt (rest_tensor pw tv (fst md) (snd md) y lpp lens pady prev) (fun r => TOk (Some r)) in
  match eos with
  | Some e =>
      if negb (tz =? 0)%Z then
        tt (mask_on_tensor e y lens) (fun md =>
          tdo b <- all (snd md);
          if (b : bool) then TOk None else go md)
      else tt (mask_off_tensor pw) go
  | None => tt (mask_off_tensor pw) go
  end.

Definition simi {A} (P : state -> A -> Prop) (B : state -> Prop) (o : outcome ctl) (r : tres (option A)) : Prop :=
  match o, r with
  | Ok CNormal st, TOk (Some a) => P st a
  | Exc n st, TOk None => n = break_signal /\ B st
  | Exc n _, TRaise => n = runtime_error
  | Stuck _, TUndef => True
  | _, _ => False
  end.

Definition same_post (pw : nat) (y : vt) (prev : list Z) (lpp lens pady : vt) (st : state) : Prop :=
  exists rest', st = mkState (lv pw y prev lpp lens pady rest') ev.

Lemma simc_simi {A} (P : state -> A -> Prop) B o r : simc P o r -> simi P B o (tt r (fun x => TOk (Some x))).
Proof. destruct o as [[|v] st|n st|m], r as [x| |]; cbn; auto. Qed.

Lemma iter_run : forall tz pw y prev lpp lens pady rest a b c, vshape y = [a; b; c] ->
  simi (rest_post pady) (same_post pw y prev lpp lens pady)
       (exec ext fw_iter (mkState (lv pw y prev lpp lens pady (update "t" (VInt tz) rest)) ev))
       (iter_tensor tz pw y lpp lens pady prev).
Proof.
  intros tz pw y prev lpp lens pady rest a b c Hy. unfold fw_iter, iter_tensor.
  destruct (t_run pw y prev lpp lens pady (update "t" (VInt tz) rest) tz (lookup_update_eq _ _ _)) as [r1 [E1 Ht1]].
  rewrite exec_seq, E1. cbn [bind]. clear E1.
  assert (Hoff : simi (rest_post pady) (same_post pw y prev lpp lens pady)
                   (exec ext (SSeq fw_mask_off fw_rest) (mkState (lv pw y prev lpp lens pady r1) ev))
                   (tt (mask_off_tensor pw) (fun md => tt (rest_tensor pw (scalar (VInt tz)) (fst md) (snd md) y lpp lens pady prev)
                                                         (fun r => TOk (Some r))))).
  { pose proof (simc_seq ext (masks_post pw y prev lpp lens pady (encv (scalar (VInt tz)))) (rest_post pady)
                  fw_mask_off fw_rest (mkState (lv pw y prev lpp lens pady r1) ev) (mask_off_tensor pw)
                  (fun md => rest_tensor pw (scalar (VInt tz)) (fst md) (snd md) y lpp lens pady prev)
                  (mask_off_run pw y prev lpp lens pady r1 _ Ht1)) as Hs.
    assert (Hk : forall st' x, masks_post pw y prev lpp lens pady (encv (scalar (VInt tz))) st' x ->
                   simc (rest_post pady) (exec ext fw_rest st') (rest_tensor pw (scalar (VInt tz)) (fst x) (snd x) y lpp lens pady prev)).
    { intros st' x (r2 & -> & Hm & Hd & Ht). now apply (rest_run pw _ _ _ y lpp lens pady prev r2 a b c). }
    specialize (Hs Hk). apply (simc_simi _ (same_post pw y prev lpp lens pady)) in Hs.
    destruct (mask_off_tensor pw) as [md| |]; exact Hs. }
  rewrite exec_seq, exec_if. unfold live at 1.
  destruct eos as [e|] eqn:He.
  - goB. destruct (tz =? 0)%Z eqn:Etz; cbn [negb truthy].
    + exact Hoff.
    + rewrite exec_seq.
      pose proof (mask_on_run e pw y prev lpp lens pady r1 _ He Ht1) as Hon. unfold live, vnat in Hon. rewrite He in Hon.
      destruct (exec ext fw_mask_on _) as [[|v] st'|n st'|m], (mask_on_tensor e y lens) as [md| |]; cbn [simc simi bind tt] in Hon |- *; try contradiction; [|exact Hon|exact I].
      destruct Hon as (r2 & -> & Hm & Hd & Ht). rewrite exec_if. unfold live. goB.
      destruct (all (snd md)) as [bb|] eqn:Eall; goB; [|exact I].
      destruct bb; cbn [truthy].
      * rewrite exec_raise. cbn. split; [reflexivity|]. eexists. unfold live. rewrite <- He. reflexivity.
      * rewrite exec_pass. cbn [bind].
        pose proof (rest_run pw _ _ _ y lpp lens pady prev r2 a b c Hy Ht Hm Hd) as Hr. unfold live in Hr. rewrite He in Hr.
        apply (simc_simi _ (same_post pw y prev lpp lens pady)) in Hr. exact Hr.
  - goB. exact Hoff.
Qed.


(* ---- the epilogue: `... = self._to_width(...)`, `if batch_size is None: squeeze`, `return` ---------------------- *)
Definition final_tensor (batched : bool) (y lpp lens : vt) : tres (vt * vt * vt) :=
  tt (tw_tensor (Z.of_nat width) y lpp lens) (fun r =>
    if batched then TOk (fst (fst r), snd r, snd (fst r))
    else tdo y' <- squeeze (fst (fst r)) 1;
         tdo l' <- squeeze (snd r) 0;
         tdo p' <- squeeze (snd (fst r)) 0;
         TOk (y', l', p')).

(* a returning block seen as one that falls through with the returned value *)
Definition as_normal (o : outcome ctl) : outcome ctl :=
  match o with
  | Ok (CReturn v) st => Ok CNormal (set_var "$return" v st)
  | Ok CNormal _ => Stuck "no return"
  | o => o
  end.
Definition returns (st : state) (r : vt * vt * vt) : Prop :=
  lookup "$return" (vars st) = Some (VTuple [encv (fst (fst r)); encv (snd (fst r)); encv (snd r)]).

Lemma final_run : forall (batched : bool) pw y prev lpp lens pady rest a b c z,
  bsv = (if batched then VInt z else VNone) -> vshape y = [a; b; c] ->
  simc returns (as_normal (exec ext fw_final (mkState (lv pw y prev lpp lens pady rest) ev))) (final_tensor batched y lpp lens).
Proof.
  intros batched pw y prev lpp lens pady rest a b c z Hb Hy. unfold fw_final, final_tensor, live, returns. rewrite Hb. hide_names.
  hide; repeat autoR. (* up to `if batch_size is None` *)
  all: expose; destruct batched; goB; hide; repeat autoR; cbn; unfold returns; cbn; rewrite ?lookup_update_eq; reflexivity.
Qed.

End Iter.
