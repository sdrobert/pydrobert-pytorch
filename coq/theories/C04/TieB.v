(* C04, second tie, part 2 (what is finished of it): the tensor programs of TieRunB.v on the tensors that encode the
   model's beams.  Proved here: `_to_width` on a beam that already has [width] slots per element (the case of every call
   made from the loop, Refine.to_width_id) returns its arguments = the encoding of Model.to_width's result; the whole
   interpreted forward() on a concrete instance.  NOT proved (see notes/C04_tie_report.md, "Second tie"): that
   [TieIterB.iter_tensor] on the encoding of a model state equals the encoding of Model.step (the algebra of the masks,
   the eos re-allocation, the length decrement, the state re-ordering and the freeze over tabulated tensors). *)
From Coq Require Import ZArith QArith List String Bool Arith Lia.
From PV Require Import MiniPy.Syntax MiniPy.Interp MiniPy.Lemmas MiniTorch.Ops MiniTorch.Value MiniTorch.OpsC04 MiniTorch.OpsC04B
  Gen.C04Src Gen.C04BSrc.
From PV Require Import C04.Model C04.Proofs C04.SrcRun C04.SrcRunB C04.TieRunB C04.TieIterB.
Import ListNotations.
Local Open Scope string_scope.
Local Open Scope nat_scope.

Lemma tw_tensor_id : forall w y lpp lens S N, vshape y = [S; N; w] ->
  tw_tensor (Z.of_nat w) y lpp lens = TOk (y, lpp, lens).
Proof. intros w y lpp lens S N H. unfold tw_tensor. rewrite H, !Z.ltb_irrefl. reflexivity. Qed.

Lemma to_width_full : forall topk width S slots, List.length slots = width -> to_width topk width S slots = slots.
Proof. intros topk width S slots H. unfold to_width. rewrite H, Nat.ltb_irrefl. reflexivity. Qed.

Lemma map_to_width_full : forall topk width S beams, Forall (fun row => List.length row = width) beams ->
  map (to_width topk width S) beams = beams.
Proof.
  intros topk width S beams H. induction H as [|row beams Hr _ IH]; [reflexivity|].
  cbn [map]. now rewrite to_width_full, IH.
Qed.

(* the arguments of self._to_width(y_prev, log_probs_prev, y_prev_lens) for N beams of [pw] slots of height S *)
Definition tw_vars (V width : nat) (eos : option Z) (fin_all : bool) (pad : Z) (S pw : nat) (beams : list (list slot))
  : list (string * val) :=
  let N := List.length beams in
  [("self", self_val V width eos fin_all pad); ("y_prev", encv (enc_y S N pw beams));
   ("log_probs_prev", encv (enc_lpp N pw beams)); ("y_prev_lens", encv (enc_lens N pw beams))].

Definition enc_beams (S pw : nat) (beams : list (list slot)) : val :=
  let N := List.length beams in
  VTuple [encv (enc_y S N pw beams); encv (enc_lpp N pw beams); encv (enc_lens N pw beams)].

(* BeamSearch._to_width, interpreted, on beams that are [width] wide: the encoding of Model.to_width's beams *)
Theorem to_width_tie_full : forall V width eos fin_all pad S beams,
  Forall (fun row => List.length row = width) beams ->
  exists st, Interp.run ext04 tw_body (tw_vars V width eos fin_all pad S width beams)
             = Interp.Ok (enc_beams S width (map (to_width topk_stable width S) beams)) st.
Proof.
  intros V width eos fin_all pad S beams H. rewrite map_to_width_full by exact H.
  pose proof (run_is_tw V width eos fin_all pad (enc_y S (List.length beams) width beams)
                (enc_lpp (List.length beams) width beams) (enc_lens (List.length beams) width beams)
                S (List.length beams) width eq_refl) as Hs.
  rewrite (tw_tensor_id width (enc_y S (List.length beams) width beams) _ _ S (List.length beams) eq_refl) in Hs.
  unfold tw_vars. destruct (Interp.run ext04 tw_body _) as [v st|n st|m]; cbn in Hs; try contradiction.
  exists st. unfold is3 in Hs. cbn [fst snd] in Hs. now rewrite Hs.
Qed.

(* the epilogue of forward() with batch_size given, on width-wide beams (the state after any iteration of the loop):
   returns (y, y_lens, log_probs) = the tensors that encode Model.search's beams [map (to_width ...) beams] *)
Theorem final_tie_full : forall calc isv miv is0 V width eos fin_all pad ev S beams prev pady rest pw0 z,
  Forall (fun row => List.length row = width) beams ->
  let N := List.length beams in
  let beams' := map (to_width topk_stable width S) beams in
  exists st',
    exec (extB calc) fw_final
      (mkState (live isv (VInt z) miv is0 V width eos fin_all pad N pw0 (enc_y S N width beams) prev (enc_lpp N width beams)
                  (enc_lens N width beams) pady rest) ev)
    = Ok (CReturn (VTuple [encv (enc_y S N width beams'); encv (enc_lens N width beams'); encv (enc_lpp N width beams')])) st'.
Proof.
  intros calc isv miv is0 V width eos fin_all pad ev S beams prev pady rest pw0 z H N beams'.
  unfold beams'. rewrite map_to_width_full by exact H.
  pose proof (final_run calc isv (VInt z) miv is0 V width eos fin_all pad N ev true pw0 (enc_y S N width beams) prev
                (enc_lpp N width beams) (enc_lens N width beams) pady rest S N width z eq_refl eq_refl) as Hs.
  unfold final_tensor in Hs. rewrite (tw_tensor_id width (enc_y S N width beams) _ _ S N eq_refl) in Hs. cbn [tt fst snd] in Hs.
  destruct (exec (extB calc) fw_final _) as [[|v] st'|n st'|m]; cbn [as_normal simc] in Hs; try contradiction.
  unfold returns in Hs. cbn [vars set_var] in Hs. rewrite lookup_update_eq in Hs. injection Hs as ->. now exists st'.
Qed.

(* non-vacuity of the whole second tie: the interpreted forward() (prologue block, hand-written loop over the translated
   blocks, epilogue block) on the stateful LM of c04_nonvacuous - two batch elements finishing at different steps, width 2,
   eos = 1, finish_all_paths, 3 steps - returns exactly the model's search *)
Lemma ex_search_src :
  src_search ex_lm 2 2 (Some 1%Z) true (-100)%Z 3 false true [0%Z; 1%Z]
  = Some (search topk_stable ex_lm 0%Z 2 2 (Some 1%Z) true (-100)%Z 3 [0%Z; 1%Z]).
Proof. vm_compute. reflexivity. Qed.
