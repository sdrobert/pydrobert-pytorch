(* C04 — generic list lemmas (flat indexing of uniform rows, set_nth / firstn). *)
From Coq Require Import List Arith Lia ZArith Bool.
From PV Require Import C04.Model.
Import ListNotations.
Local Open Scope nat_scope.

Lemma div_mod_unique (V k v : nat) : v < V -> (k * V + v) / V = k /\ (k * V + v) mod V = v.
Proof.
  intros Hv. split.
  - rewrite Nat.add_comm, Nat.div_add by lia. rewrite Nat.div_small by lia. lia.
  - rewrite Nat.add_comm, Nat.mod_add by lia. apply Nat.mod_small; lia.
Qed.

Lemma div_lt_rows (V n i : nat) : 0 < V -> i < n * V -> i / V < n.
Proof. intros HV Hi. apply Nat.div_lt_upper_bound; lia. Qed.

Lemma concat_uniform_length {A} (rows : list (list A)) (V : nat) :
  (forall r, In r rows -> length r = V) -> length (concat rows) = length rows * V.
Proof.
  induction rows as [|r rows IH]; intros H; cbn [concat length]; [reflexivity|].
  rewrite app_length, IH by (intros; apply H; now right).
  rewrite (H r) by now left. lia.
Qed.

(* (k, v) |-> k*V + v on a list of rows of width V *)
Lemma nth_concat_uniform {A} (d : A) (V : nat) : forall (rows : list (list A)) (i : nat),
  (forall r, In r rows -> length r = V) -> i < length rows * V ->
  nth i (concat rows) d = nth (i mod V) (nth (i / V) rows []) d.
Proof.
  induction rows as [|r rows IH]; intros i H Hi; [cbn in Hi; lia|].
  assert (HV : 0 < V) by (destruct V; [lia|lia]).
  assert (Hr : length r = V) by (apply H; now left).
  cbn [concat]. destruct (Nat.lt_ge_cases i V) as [Hlt|Hge].
  - rewrite app_nth1 by lia. rewrite Nat.div_small, Nat.mod_small by lia. reflexivity.
  - rewrite app_nth2 by lia. rewrite Hr.
    rewrite IH; [|intros; apply H; now right|cbn [length] in Hi; lia].
    replace i with ((i - V) + 1 * V) at 3 4 by lia.
    rewrite Nat.div_add, Nat.mod_add by lia.
    replace (( i - V) / V + 1) with (S ((i - V) / V)) by lia. reflexivity.
Qed.

Lemma nth_concat_rc {A} (d : A) (V : nat) (rows : list (list A)) (k v : nat) :
  (forall r, In r rows -> length r = V) -> k < length rows -> v < V ->
  nth (k * V + v) (concat rows) d = nth v (nth k rows []) d.
Proof.
  intros H Hk Hv. rewrite (nth_concat_uniform d V) by (auto; nia).
  destruct (div_mod_unique V k v Hv) as [-> ->]. reflexivity.
Qed.

Lemma nth_map_seq {A} (f : nat -> A) (d : A) (n i : nat) : i < n -> nth i (map f (seq 0 n)) d = f i.
Proof.
  intros Hi. rewrite (nth_indep _ d (f 0)) by (rewrite map_length, seq_length; lia).
  rewrite map_nth, seq_nth by lia. reflexivity.
Qed.

(* flat list of N rows of width W built row by row: entry n*W + k *)
Lemma nth_flat_rows {A} (d : A) (W N : nat) (f : nat -> list A) (n k : nat) :
  (forall m, m < N -> length (f m) = W) -> n < N -> k < W ->
  nth (n * W + k) (flat_map f (seq 0 N)) d = nth k (f n) d.
Proof.
  intros Hl Hn Hk. rewrite flat_map_concat_map.
  rewrite (nth_concat_rc d W); [| |rewrite map_length, seq_length; lia|lia].
  - rewrite (nth_map_seq f [] N n Hn). reflexivity.
  - intros r Hr. apply in_map_iff in Hr. destruct Hr as (m & <- & Hm).
    apply in_seq in Hm. apply Hl. lia.
Qed.

Lemma flat_rows_length {A} (W N : nat) (f : nat -> list A) :
  (forall m, m < N -> length (f m) = W) -> length (flat_map f (seq 0 N)) = N * W.
Proof.
  intros Hl. rewrite flat_map_concat_map, (concat_uniform_length _ W).
  - now rewrite map_length, seq_length.
  - intros r Hr. apply in_map_iff in Hr. destruct Hr as (m & <- & Hm).
    apply in_seq in Hm. apply Hl. lia.
Qed.

(* ---- set_nth ----------------------------------------------------------------- *)
Lemma set_nth_length {A} (x : A) : forall l n, length (set_nth n x l) = length l.
Proof. induction l as [|y t IH]; intros [|n]; cbn; auto. Qed.

Lemma firstn_set_nth_same {A} (x : A) : forall l n, firstn n (set_nth n x l) = firstn n l.
Proof.
  induction l as [|y t IH]; intros [|n]; cbn; auto. now rewrite IH.
Qed.

Lemma firstn_set_nth_S {A} (x : A) : forall l n, n < length l ->
  firstn (S n) (set_nth n x l) = firstn n l ++ [x].
Proof.
  induction l as [|y t IH]; intros [|n] Hn; cbn in *; try lia; auto.
  rewrite <- IH by lia. reflexivity.
Qed.

Lemma firstn_app_le {A} (l l' : list A) n : n <= length l -> firstn n (l ++ l') = firstn n l.
Proof. intros H. rewrite firstn_app. replace (n - length l) with 0 by lia. cbn. apply app_nil_r. Qed.

Lemma firstn_firstn_le {A} (l l' : list A) m i :
  firstn m l = firstn m l' -> i <= m -> firstn i l = firstn i l'.
Proof.
  intros H Hi. rewrite <- (Nat.min_l i m Hi), <- !firstn_firstn, H. reflexivity.
Qed.

Lemma firstn_map_id {A} (f : A -> A) (l : list A) n :
  Forall (fun x => f x = x) (firstn n l) -> firstn n (map f l) = firstn n l.
Proof.
  revert n. induction l as [|y t IH]; intros [|n] H; cbn in *; auto.
  inversion H; subst. rewrite IH by assumption. congruence.
Qed.

Lemma nth_firstn_lt {A} (d : A) : forall l n i, i < n -> nth i (firstn n l) d = nth i l d.
Proof.
  induction l as [|y t IH]; intros [|n] [|i] H; cbn; try lia; auto. apply IH. lia.
Qed.

Lemma last_nth {A} (d : A) (l : list A) : last l d = nth (length l - 1) l d.
Proof.
  induction l as [|y t IH]; [reflexivity|]. destruct t as [|z t']; [reflexivity|].
  change (last (y :: z :: t') d) with (last (z :: t') d). rewrite IH. cbn [length].
  replace (S (S (length t')) - 1) with (S (S (length t') - 1)) by lia. reflexivity.
Qed.

Lemma nth_map_lt {A B} (f : A -> B) (l : list A) (d : B) (d' : A) i :
  i < length l -> nth i (map f l) d = f (nth i l d').
Proof.
  revert i. induction l as [|x l IH]; intros [|i] H; cbn in *; try lia; auto. apply IH. lia.
Qed.

Lemma repeat_nth {A} (x d : A) n i : i < n -> nth i (repeat x n) d = x.
Proof. revert i; induction n; intros [|i] H; cbn; try lia; auto. apply IHn; lia. Qed.

Lemma In_firstn {A} (x : A) n l : In x (firstn n l) -> In x l.
Proof. intros H. rewrite <- (firstn_skipn n l). apply in_or_app. now left. Qed.

Lemma Forall_firstn {A} (P : A -> Prop) (l : list A) n : Forall P l -> Forall P (firstn n l).
Proof. intros H. apply Forall_forall. intros x Hx. eapply Forall_forall; [exact H|eapply In_firstn; exact Hx]. Qed.
