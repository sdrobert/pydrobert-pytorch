(* C04 — the search of ONE batch element with the junk removed: a beam is a list of
   (valid token sequence, score, language-model state).  Refine.v shows that every
   element of the batched model of Model.v follows exactly this search (frozen once it
   is done); the property clauses are proved here, for every topk meeting [topk_ok]
   and every language model meeting [lm_ok]. *)
From Coq Require Import List Arith Lia ZArith Bool.
From PV Require Import C04.Model C04.Spec C04.Lists C04.Topk.
Import ListNotations.
Local Open Scope nat_scope.

Section Abs.
Context {state : Type}.
Variable topk : nat -> list score -> list nat.
Variable calc : list Z -> state -> nat -> list score * state.
Variable dstate : state.
Variables (V width : nat) (eos : option Z) (fin_all : bool).

Record aslot := mkA { apath : list Z; asc : score; ast : state }.
Definition adflt := mkA [] None dstate.

(* "finished": ends in eos (and the search is past step 0) *)
Definition pfin (t : nat) (p : list Z) : bool :=
  match eos with
  | Some e => negb (t =? 0) && ((last p 0%Z =? e)%Z && (0 <? length p))
  | None => false
  end.
Definition afin (t : nat) (a : aslot) : bool := pfin t (apath a).
Definition alive (t : nat) (a : aslot) : bool := sfin (asc a) && negb (afin t a).
(* only the state of a live finite-score path matters; forget the others *)
Definition anorm (t : nat) (a : aslot) : aslot :=
  if alive t a then a else mkA (apath a) (asc a) dstate.

Definition arow (t : nat) (a : aslot) : list score :=
  mask_row eos (afin t a) (fst (calc (apath a) (ast a) t)).
Definition acands (t : nat) (beam : list aslot) : list score :=
  concat (map (fun a => map (sadd (asc a)) (arow t a)) beam).
Definition aext (t : nat) (beam : list aslot) (cs : list score) (i : nat) : aslot :=
  let a := nth (i / V) beam adflt in
  anorm (S t) (mkA (if afin t a then apath a else apath a ++ [Z.of_nat (i mod V)])
                   (nth i cs None) (snd (calc (apath a) (ast a) t))).
Definition astep (t : nat) (beam : list aslot) : list aslot :=
  let cs := acands t beam in
  let K := Nat.min width (length beam * V) in
  map (aext t beam cs) (topk K cs) ++ repeat adflt (width - K).
Definition adone (t : nat) (beam : list aslot) : bool :=
  let m := map (afin t) beam in
  if active eos t && fin_all then forallb (fun x => x) m else hd false m.
Definition atick (t : nat) (beam : list aslot) : list aslot :=
  if adone t beam then beam else astep t beam.
Fixpoint arun (fuel t : nat) (beam : list aslot) : list aslot :=
  match fuel with 0 => beam | S f => arun f (S t) (atick t beam) end.
Definition awidth (beam : list aslot) : list aslot :=
  if length beam <? width then beam ++ repeat adflt (width - length beam) else beam.
Definition ainit (s0 : state) : list aslot := [mkA [] (Some 0%Z) s0].
Definition asearch (fuel : nat) (s0 : state) : list aslot := awidth (arun fuel 0 (ainit s0)).

Hypothesis Htopk : topk_ok topk.
Hypothesis Hlm : lm_ok calc V.
Hypothesis HV : 1 <= V.
Hypothesis Hwidth : 1 <= width.

Let calc_prefix := proj1 Hlm.
Let calc_len := proj2 Hlm.

Lemma sadd_0_r a : sadd a (Some 0%Z) = a.
Proof. destruct a; cbn; [f_equal; lia|reflexivity]. Qed.
Lemma sadd_assoc a b c : sadd (sadd a b) c = sadd a (sadd b c).
Proof. destruct a, b, c; cbn; auto. f_equal. lia. Qed.
Lemma sadd_fin_l a b : sfin (sadd a b) = true -> sfin a = true.
Proof. destruct a, b; cbn; auto. Qed.
Lemma sadd_fin_r a b : sfin (sadd a b) = true -> sfin b = true.
Proof. destruct a, b; cbn; auto. Qed.

(* the language model run on a fixed history *)
Fixpoint adv_state (h : list Z) (st : state) (j n : nat) : state :=
  match n with 0 => st | S n' => adv_state h (snd (calc h st j)) (S j) n' end.

Lemma adv_state_snoc h : forall n st j,
  adv_state h st j (S n) = snd (calc h (adv_state h st j n) (j + n)).
Proof.
  induction n as [|n IH]; intros st j; cbn [adv_state].
  - now rewrite Nat.add_0_r.
  - change (adv_state h (snd (calc h (snd (calc h st j)) (S j))) (S (S j)) n)
      with (adv_state h (snd (calc h st j)) (S j) (S n)).
    rewrite IH. cbn [adv_state]. now rewrite Nat.add_succ_r.
Qed.

Lemma adv_state_prefix h h' m : firstn m h = firstn m h' ->
  forall n st j, j + n <= S m -> adv_state h st j n = adv_state h' st j n.
Proof.
  intros Hm. induction n as [|n IH]; intros st j Hj; cbn [adv_state]; [reflexivity|].
  rewrite (calc_prefix h h' st j) by (eapply firstn_firstn_le; [exact Hm|lia]).
  apply IH. lia.
Qed.

Lemma chain_aux_prefix h h' m : firstn m h = firstn m h' ->
  forall rest st j, j + length rest <= S m ->
  chain_aux calc h rest st j = chain_aux calc h' rest st j.
Proof.
  intros Hm. induction rest as [|v r IH]; intros st j Hj; cbn [chain_aux]; [reflexivity|].
  cbn [length] in Hj.
  rewrite (calc_prefix h h' st j) by (eapply firstn_firstn_le; [exact Hm|lia]).
  rewrite IH by lia. reflexivity.
Qed.

Lemma chain_aux_app h : forall r1 r2 st j,
  chain_aux calc h (r1 ++ r2) st j =
  sadd (chain_aux calc h r1 st j)
       (chain_aux calc h r2 (adv_state h st j (length r1)) (j + length r1)).
Proof.
  induction r1 as [|v r1 IH]; intros r2 st j; cbn [app chain_aux length adv_state].
  - rewrite Nat.add_0_r. destruct (chain_aux calc h r2 st j); reflexivity.
  - rewrite IH, sadd_assoc. now rewrite Nat.add_succ_r.
Qed.

Lemma chain_snoc (s0 : state) (p : list Z) (v : Z) :
  chain calc s0 (p ++ [v]) =
  sadd (chain calc s0 p)
       (nth (Z.to_nat v) (fst (calc p (adv_state p s0 0 (length p)) (length p))) None).
Proof.
  unfold chain. rewrite chain_aux_app. cbn [chain_aux Nat.add].
  assert (Hp : firstn (length p) (p ++ [v]) = firstn (length p) p).
  { rewrite firstn_app_le by lia. reflexivity. }
  rewrite (chain_aux_prefix _ _ _ Hp) by lia.
  rewrite (adv_state_prefix _ _ _ Hp) by lia.
  rewrite (calc_prefix (p ++ [v]) p) by exact Hp.
  now rewrite sadd_0_r.
Qed.

Lemma mask_row_length m row : length (mask_row eos m row) = length row.
Proof. unfold mask_row. destruct eos, m; auto. now rewrite map_length, seq_length. Qed.

Lemma arow_length t a : length (arow t a) = V.
Proof. unfold arow. now rewrite mask_row_length, calc_len. Qed.

Lemma arow_live t a : afin t a = false -> arow t a = fst (calc (apath a) (ast a) t).
Proof. unfold arow, mask_row. intros ->. now destruct eos. Qed.

Lemma arow_fin t a v : afin t a = true -> v < V ->
  exists e, eos = Some e /\
            nth v (arow t a) None = if (Z.of_nat v =? e)%Z then Some 0%Z else None.
Proof.
  unfold arow, mask_row, afin, pfin. destruct eos as [e|]; [|discriminate].
  intros -> Hv. exists e. split; [reflexivity|].
  rewrite calc_len. now rewrite nth_map_seq by lia.
Qed.

Lemma acands_length t beam : length (acands t beam) = length beam * V.
Proof.
  unfold acands. rewrite (concat_uniform_length _ V), map_length; [reflexivity|].
  intros r Hr. apply in_map_iff in Hr. destruct Hr as (a & <- & _).
  now rewrite map_length, arow_length.
Qed.

Lemma acands_nth t beam i : i < length beam * V ->
  let a := nth (i / V) beam adflt in
  In a beam /\ i mod V < V /\
  nth i (acands t beam) None = sadd (asc a) (nth (i mod V) (arow t a) None).
Proof.
  intros Hi a. assert (Hk : i / V < length beam) by (apply div_lt_rows; lia).
  split; [apply nth_In; exact Hk|]. split; [apply Nat.mod_upper_bound; lia|].
  unfold acands. rewrite (@nth_concat_uniform score None V).
  - rewrite (nth_map_lt _ _ _ adflt) by exact Hk. fold a.
    rewrite (nth_map_lt (sadd (asc a)) (arow t a) None None); [reflexivity|].
    rewrite arow_length. apply Nat.mod_upper_bound. lia.
  - intros r Hr. apply in_map_iff in Hr. destruct Hr as (b & <- & _).
    now rewrite map_length, arow_length.
  - now rewrite map_length.
Qed.

Definition Ksel (beam : list aslot) : nat := Nat.min width (length beam * V).

Lemma topk_facts t beam :
  let sel := topk (Ksel beam) (acands t beam) in
  length sel = Ksel beam /\ NoDup sel /\ (forall i, In i sel -> i < length beam * V) /\
  sorted_desc (map (fun i => nth i (acands t beam) None) sel) /\
  (forall i j, In i sel -> j < length beam * V -> ~ In j sel ->
     sleb (nth j (acands t beam) None) (nth i (acands t beam) None) = true).
Proof.
  assert (HK : Ksel beam <= length (acands t beam)).
  { rewrite acands_length. unfold Ksel. lia. }
  destruct (Htopk _ _ HK) as (H1 & H2 & H3 & H4 & H5).
  rewrite acands_length in H3, H5. repeat split; assumption.
Qed.

Lemma astep_length t beam : length (astep t beam) = width.
Proof.
  unfold astep. fold (Ksel beam). rewrite app_length, map_length, repeat_length.
  destruct (topk_facts t beam) as (-> & _). unfold Ksel. lia.
Qed.

Lemma anorm_path t a : apath (anorm t a) = apath a.
Proof. unfold anorm. now destruct (alive t a). Qed.
Lemma anorm_sc t a : asc (anorm t a) = asc a.
Proof. unfold anorm. now destruct (alive t a). Qed.
Lemma anorm_afin t t' a : afin t' (anorm t a) = afin t' a.
Proof. unfold afin. now rewrite anorm_path. Qed.
Lemma anorm_alive t t' a : alive t' (anorm t a) = alive t' a.
Proof. unfold alive. now rewrite anorm_afin, anorm_sc. Qed.
Lemma anorm_st_alive t a : alive t a = true -> ast (anorm t a) = ast a.
Proof. unfold anorm. now intros ->. Qed.

Lemma pfin_S t p : t <> 0 -> pfin (S t) p = pfin t p.
Proof. unfold pfin. destruct eos; [|reflexivity]. intros H. apply Nat.eqb_neq in H. now rewrite H. Qed.

Lemma pfin_true_pos t p : pfin t p = true -> t <> 0 /\ exists e, eos = Some e /\ p <> [] /\ last p 0%Z = e.
Proof.
  unfold pfin. destruct eos as [e|]; [|discriminate]. intros H.
  apply andb_prop in H. destruct H as [H1 H2]. apply andb_prop in H2. destruct H2 as [H2 H3].
  split; [intros ->; discriminate|]. exists e. split; [reflexivity|]. split.
  - intros ->. discriminate.
  - now apply Z.eqb_eq.
Qed.

Lemma pfin_snoc t p v : pfin (S t) (p ++ [v]) = match eos with Some e => (v =? e)%Z | None => false end.
Proof.
  unfold pfin. destruct eos as [e|]; [|reflexivity].
  rewrite last_last, app_length. cbn [length negb Nat.eqb].
  replace (0 <? length p + 1) with true by (symmetry; apply Nat.ltb_lt; lia).
  now rewrite andb_true_r.
Qed.

Definition no_eos (p : list Z) : Prop := match eos with Some e => ~ In e p | None => True end.

Record AInv (s0 : state) (t : nat) (beam : list aslot) : Prop := mkAInv
  { ai_len : length beam = if t =? 0 then 1 else width;
    ai_vocab : forall a, In a beam -> in_vocab V (apath a);
    ai_live : forall a, In a beam -> alive t a = true ->
              length (apath a) = t /\ no_eos (apath a) /\
              ast a = adv_state (apath a) s0 0 t;
    ai_fin : forall a, In a beam -> sfin (asc a) = true -> afin t a = true ->
             length (apath a) <= t /\ eos_first eos (apath a);
    ai_chain : forall a, In a beam -> sfin (asc a) = true -> asc a = chain calc s0 (apath a);
    ai_sorted : sorted_desc (map asc beam);
    ai_distinct : forall i j, i < length beam -> j < length beam -> i <> j ->
                  sfin (asc (nth i beam adflt)) = true -> sfin (asc (nth j beam adflt)) = true ->
                  apath (nth i beam adflt) <> apath (nth j beam adflt) }.

Lemma AInv_init s0 : AInv s0 0 (ainit s0).
Proof.
  constructor; cbn.
  - reflexivity.
  - intros a [<-|[]]. constructor.
  - intros a [<-|[]] _. cbn. repeat split. unfold no_eos. destruct eos; auto.
  - intros a [<-|[]] _. unfold afin, pfin. cbn. destruct eos; discriminate.
  - intros a [<-|[]] _. reflexivity.
  - intros i j Hij Hj. destruct j as [|[|j]]; cbn in Hj; try lia.
    assert (i = 0) by lia. subst. reflexivity.
  - intros i j Hi Hj. lia.
Qed.

(* what an extension is, in terms of its source *)
Lemma aext_facts s0 t beam i :
  AInv s0 t beam -> i < length beam * V ->
  let a := nth (i / V) beam adflt in
  let v := Z.of_nat (i mod V) in
  let a' := aext t beam (acands t beam) i in
  In a beam /\ (0 <= v < Z.of_nat V)%Z /\
  apath a' = (if afin t a then apath a else apath a ++ [v]) /\
  asc a' = sadd (asc a) (nth (i mod V) (arow t a) None) /\
  (alive (S t) a' = true -> ast a' = snd (calc (apath a) (ast a) t)).
Proof.
  intros Hinv Hi a v a'. destruct (acands_nth t beam i Hi) as (Hin & Hv & Hn).
  fold a in Hin, Hn. split; [exact Hin|]. split; [unfold v; lia|].
  unfold a', aext. fold a. rewrite anorm_path, anorm_sc. cbn [apath asc].
  split; [reflexivity|]. split; [exact Hn|].
  intros Hal. rewrite anorm_alive in Hal. now rewrite anorm_st_alive.
Qed.

Lemma in_vocab_snoc p v : in_vocab V p -> (0 <= v < Z.of_nat V)%Z -> in_vocab V (p ++ [v]).
Proof. intros Hp Hv. apply Forall_app. split; [exact Hp|]. now constructor. Qed.

Lemma eos_first_of_no_eos p : no_eos p -> eos_first eos p.
Proof.
  unfold no_eos, eos_first. destruct eos as [e|]; [|auto]. intros H Hin. apply H.
  destruct p as [|x p] using rev_ind; [exact Hin|].
  rewrite removelast_last in Hin. apply in_or_app. now left.
Qed.

(* case analysis of a finite-score extension *)
Lemma aext_finite s0 t beam i :
  AInv s0 t beam -> i < length beam * V ->
  let a := nth (i / V) beam adflt in
  let v := Z.of_nat (i mod V) in
  let a' := aext t beam (acands t beam) i in
  sfin (asc a') = true ->
  sfin (asc a) = true /\
  ( (afin t a = true /\ apath a' = apath a /\ asc a' = asc a /\ eos = Some v /\ t <> 0
     /\ afin (S t) a' = true)
    \/ (alive t a = true /\ apath a' = apath a ++ [v] /\
        asc a' = chain calc s0 (apath a ++ [v]) /\
        afin (S t) a' = match eos with Some e => (v =? e)%Z | None => false end) ).
Proof.
  intros Hinv Hi a v a' Hf.
  destruct (aext_facts s0 t beam i Hinv Hi) as (Hin & Hv & Hp & Hs & Hst).
  fold a a' v in Hp, Hs, Hst, Hv, Hin. rewrite Hs in Hf.
  assert (Hfa : sfin (asc a) = true) by (eapply sadd_fin_l; exact Hf).
  split; [exact Hfa|].
  destruct (afin t a) eqn:Efin.
  - left. destruct (arow_fin t a (i mod V) Efin) as (e & He & Hrow).
    { apply Nat.mod_upper_bound. lia. }
    rewrite Hrow in Hs, Hf. fold v in Hs, Hf.
    destruct (v =? e)%Z eqn:Eve.
    2:{ apply sadd_fin_r in Hf. discriminate. }
    apply Z.eqb_eq in Eve. subst e. rewrite sadd_0_r in Hs.
    destruct (pfin_true_pos t (apath a) Efin) as (Ht & _).
    repeat split; try assumption.
    unfold afin. rewrite Hp. rewrite pfin_S by exact Ht. exact Efin.
  - right. assert (Hal : alive t a = true) by (unfold alive; now rewrite Hfa, Efin).
    destruct (ai_live _ _ _ Hinv a Hin Hal) as (Hlen & Hne & Hsta).
    split; [exact Hal|]. split; [exact Hp|]. split.
    + rewrite Hs, chain_snoc, arow_live by exact Efin.
      rewrite <- (ai_chain _ _ _ Hinv a Hin Hfa), Hlen, <- Hsta.
      unfold v. now rewrite Nat2Z.id.
    + unfold afin. rewrite Hp. apply pfin_snoc.
Qed.

Lemma aext_alive s0 t beam i : AInv s0 t beam -> i < length beam * V ->
  alive (S t) (aext t beam (acands t beam) i) = true -> alive t (nth (i / V) beam adflt) = true.
Proof.
  intros Hinv Hi Hal. apply andb_prop in Hal. destruct Hal as (Hf & Hnf).
  destruct (aext_finite s0 t beam i Hinv Hi Hf) as (_ & [(_ & _ & _ & _ & _ & Hfin')|(Hl & _)]); [|exact Hl].
  rewrite Hfin' in Hnf. discriminate.
Qed.

(* the path of a finite-score extension: finished paths end in their first eos, the others are t+1 tokens without eos *)
Lemma aext_path_inv s0 t beam i : AInv s0 t beam -> i < length beam * V ->
  let a' := aext t beam (acands t beam) i in
  sfin (asc a') = true ->
  if afin (S t) a' then length (apath a') <= S t /\ eos_first eos (apath a')
  else length (apath a') = S t /\ no_eos (apath a').
Proof.
  intros Hinv Hi a' Hf. destruct (aext_facts s0 t beam i Hinv Hi) as (Hin & _).
  destruct (aext_finite s0 t beam i Hinv Hi Hf) as (Hfa & [(Hfin & Hp & _ & _ & _ & Hfin')|(Hl & Hp & _ & Hfin')]);
    fold a' in Hp, Hfin'; rewrite Hfin', Hp.
  - destruct (ai_fin _ _ _ Hinv _ Hin Hfa Hfin) as (Hlen & Hef). split; [lia|exact Hef].
  - destruct (ai_live _ _ _ Hinv _ Hin Hl) as (Hlen & Hne & _). rewrite app_length. cbn [length].
    unfold eos_first, no_eos in *. destruct eos as [e|]; [|split; [lia|exact I]].
    destruct (Z.eqb_spec (Z.of_nat (i mod V)) e) as [E|E]; (split; [lia|]).
    + now rewrite removelast_last.
    + intros Hine. apply in_app_or in Hine. destruct Hine as [Hine|[Hine|[]]]; [now apply Hne|congruence].
Qed.

Lemma aext_sc t beam cs i : asc (aext t beam cs i) = nth i cs None.
Proof. unfold aext. now rewrite anorm_sc. Qed.

(* two candidates with finite scores give different paths: different sources differ already, a finished source
   is carried over by the eos candidate only, and a finished path is shorter than an extended live one *)
Lemma aext_distinct s0 t beam i1 i2 : AInv s0 t beam ->
  i1 < length beam * V -> i2 < length beam * V -> i1 <> i2 ->
  sfin (asc (aext t beam (acands t beam) i1)) = true -> sfin (asc (aext t beam (acands t beam) i2)) = true ->
  apath (aext t beam (acands t beam) i1) <> apath (aext t beam (acands t beam) i2).
Proof.
  intros Hinv Hi1 Hi2 Hi12 Hf1 Hf2.
  assert (Hk1' : i1 / V < length beam) by (apply div_lt_rows; lia).
  assert (Hk2' : i2 / V < length beam) by (apply div_lt_rows; lia).
  destruct (aext_finite s0 t beam i1 Hinv Hi1 Hf1) as (Hfa1 & C1).
  destruct (aext_finite s0 t beam i2 Hinv Hi2 Hf2) as (Hfa2 & C2).
  destruct (aext_facts s0 t beam i1 Hinv Hi1) as (Hin1 & _).
  destruct (aext_facts s0 t beam i2 Hinv Hi2) as (Hin2 & _).
  assert (Hsrc : i1 / V <> i2 / V -> apath (nth (i1 / V) beam adflt) <> apath (nth (i2 / V) beam adflt)).
  { intros Hd. now apply (ai_distinct _ _ _ Hinv). }
  assert (Hdm : i1 / V = i2 / V -> i1 mod V = i2 mod V -> False).
  { intros E1 E2. apply Hi12. rewrite (Nat.div_mod i1 V), (Nat.div_mod i2 V) by lia. now rewrite E1, E2. }
  destruct C1 as [(Hfin1 & Hp1 & _ & He1 & _)|(Hl1 & Hp1 & _)];
  destruct C2 as [(Hfin2 & Hp2 & _ & He2 & _)|(Hl2 & Hp2 & _)]; rewrite Hp1, Hp2.
  - apply Hsrc. intros E. apply (Hdm E). rewrite He1 in He2. injection He2. lia.
  - destruct (ai_fin _ _ _ Hinv _ Hin1 Hfa1 Hfin1) as (Hlen1 & _).
    destruct (ai_live _ _ _ Hinv _ Hin2 Hl2) as (Hlen2 & _).
    intros E. apply (f_equal (@length Z)) in E. rewrite app_length in E. cbn in E. lia.
  - destruct (ai_fin _ _ _ Hinv _ Hin2 Hfa2 Hfin2) as (Hlen2 & _).
    destruct (ai_live _ _ _ Hinv _ Hin1 Hl1) as (Hlen1 & _).
    intros E. apply (f_equal (@length Z)) in E. rewrite app_length in E. cbn in E. lia.
  - intros E. apply app_inj_tail in E. destruct E as [E1 E2].
    destruct (Nat.eq_dec (i1 / V) (i2 / V)) as [Ed|Ed]; [apply (Hdm Ed); lia|now apply Hsrc].
Qed.

Lemma sorted_desc_app_None l n : sorted_desc l -> sorted_desc (l ++ repeat None n).
Proof.
  intros H i j Hij Hj. rewrite app_length, repeat_length in Hj.
  destruct (Nat.lt_ge_cases j (length l)) as [Hjl|Hjl].
  - rewrite !app_nth1 by lia. now apply H.
  - rewrite (app_nth2 _ _ _ Hjl), repeat_nth by lia. reflexivity.
Qed.

Lemma in_pad a l n : In a (l ++ repeat adflt n) -> In a l \/ a = adflt.
Proof. intros H. apply in_app_or in H. destruct H as [H|H]; [now left|right; now apply repeat_spec in H]. Qed.

Lemma nth_pad l n i : length l <= i -> nth i (l ++ repeat adflt n) adflt = adflt.
Proof.
  intros Hi. rewrite app_nth2 by lia.
  destruct (Nat.lt_ge_cases (i - length l) n); [now apply repeat_nth|apply nth_overflow; now rewrite repeat_length].
Qed.

Lemma map_asc_repeat n : map asc (repeat adflt n) = repeat (None : score) n.
Proof. induction n as [|n IH]; cbn [repeat map]; [reflexivity|]. now rewrite IH. Qed.

Lemma map_asc_astep t beam :
  map asc (astep t beam)
  = map (fun i => nth i (acands t beam) None) (topk (Ksel beam) (acands t beam))
    ++ repeat None (width - Ksel beam).
Proof.
  unfold astep. fold (Ksel beam). rewrite map_app, map_map. f_equal.
  - apply map_ext. intros i. apply aext_sc.
  - apply map_asc_repeat.
Qed.

(* position j < K of the new beam is the extension by the j-th selected candidate *)
Lemma astep_nth t beam j : j < Ksel beam ->
  nth j (astep t beam) adflt
  = aext t beam (acands t beam) (nth j (topk (Ksel beam) (acands t beam)) 0).
Proof.
  intros Hj. unfold astep. fold (Ksel beam).
  destruct (topk_facts t beam) as (Hl & _).
  rewrite app_nth1 by (now rewrite map_length, Hl).
  rewrite (nth_indep _ adflt (aext t beam (acands t beam) 0)) by (now rewrite map_length, Hl).
  now rewrite map_nth.
Qed.

Lemma astep_nth_pad t beam j : Ksel beam <= j -> nth j (astep t beam) adflt = adflt.
Proof.
  intros Hj. unfold astep. fold (Ksel beam). apply nth_pad. rewrite map_length.
  now destruct (topk_facts t beam) as (-> & _).
Qed.

Lemma in_astep t beam a' : In a' (astep t beam) ->
  a' = adflt \/ exists i, In i (topk (Ksel beam) (acands t beam)) /\ i < length beam * V /\
                          a' = aext t beam (acands t beam) i.
Proof.
  unfold astep. fold (Ksel beam). intros H. apply in_pad in H. destruct H as [H|H]; [right|now left].
  apply in_map_iff in H. destruct H as (i & <- & Hi). exists i.
  destruct (topk_facts t beam) as (_ & _ & Hlt & _). auto.
Qed.

Theorem AInv_step s0 t beam : AInv s0 t beam -> AInv s0 (S t) (astep t beam).
Proof.
  intros Hinv. constructor.
  - rewrite astep_length. reflexivity.
  - intros a' Ha'. apply in_astep in Ha'. destruct Ha' as [->|(i & _ & Hi & ->)]; [constructor|].
    destruct (aext_facts s0 t beam i Hinv Hi) as (Hin & Hv & Hp & _). rewrite Hp.
    destruct (afin t _); [now apply (ai_vocab _ _ _ Hinv)|].
    apply in_vocab_snoc; [now apply (ai_vocab _ _ _ Hinv)|exact Hv].
  - intros a' Ha' Hal. apply in_astep in Ha'. destruct Ha' as [->|(i & _ & Hi & ->)]; [discriminate|].
    pose proof Hal as Hal'. apply andb_prop in Hal'. destruct Hal' as (Hf & Hnf). apply negb_true_iff in Hnf.
    pose proof (aext_path_inv s0 t beam i Hinv Hi Hf) as Hpi. cbv zeta in Hpi. rewrite Hnf in Hpi.
    destruct Hpi as (Hlen' & Hne'). split; [exact Hlen'|]. split; [exact Hne'|].
    destruct (aext_finite s0 t beam i Hinv Hi Hf) as (Hfa & [(_ & _ & _ & _ & _ & Hfin')|(Hl & Hp & Hs & _)]); [congruence|].
    destruct (aext_facts s0 t beam i Hinv Hi) as (Hin & Hv & _ & _ & Hst).
    destruct (ai_live _ _ _ Hinv _ Hin Hl) as (Hlen & _ & Hsta).
    rewrite Hp, (Hst Hal), adv_state_snoc. cbn [Nat.add].
    set (p := apath (nth (i / V) beam adflt)) in *.
    assert (Hpp : firstn t (p ++ [Z.of_nat (i mod V)]) = firstn t p) by (rewrite firstn_app_le by lia; reflexivity).
    rewrite (adv_state_prefix _ _ _ Hpp) by lia.
    rewrite (calc_prefix (p ++ [Z.of_nat (i mod V)]) p) by exact Hpp.
    now rewrite <- Hsta.
  - intros a' Ha' Hf Hfin'. apply in_astep in Ha'. destruct Ha' as [->|(i & _ & Hi & ->)]; [discriminate|].
    pose proof (aext_path_inv s0 t beam i Hinv Hi Hf) as Hpi. cbv zeta in Hpi. now rewrite Hfin' in Hpi.
  - intros a' Ha' Hf. apply in_astep in Ha'. destruct Ha' as [->|(i & _ & Hi & ->)]; [discriminate|].
    destruct (aext_finite s0 t beam i Hinv Hi Hf) as (Hfa & [(Hfin & Hp & Hs & _)|(Hl & Hp & Hs & _)]).
    + destruct (aext_facts s0 t beam i Hinv Hi) as (Hin & _).
      rewrite Hp, Hs. now apply (ai_chain _ _ _ Hinv).
    + now rewrite Hp, Hs.
  - rewrite map_asc_astep. apply sorted_desc_app_None.
    now destruct (topk_facts t beam) as (_ & _ & _ & Hs & _).
  - rewrite astep_length. intros j1 j2 Hj1 Hj2 Hne Hf1 Hf2.
    destruct (Nat.lt_ge_cases j1 (Ksel beam)) as [Hk1|Hk1].
    2:{ rewrite astep_nth_pad in Hf1 by exact Hk1. discriminate. }
    destruct (Nat.lt_ge_cases j2 (Ksel beam)) as [Hk2|Hk2].
    2:{ rewrite astep_nth_pad in Hf2 by exact Hk2. discriminate. }
    rewrite (astep_nth t beam j1 Hk1), (astep_nth t beam j2 Hk2) in *.
    destruct (topk_facts t beam) as (Hl & Hnd & Hlt & _).
    set (sel := topk (Ksel beam) (acands t beam)) in *.
    set (i1 := nth j1 sel 0) in *. set (i2 := nth j2 sel 0) in *.
    apply (aext_distinct s0 t beam i1 i2 Hinv); try assumption; try (apply Hlt, nth_In; lia).
    intros E. apply Hne. eapply (proj1 (NoDup_nth sel 0) Hnd); [lia|lia|exact E].
Qed.

Lemma pfin_0 p : pfin 0 p = false.
Proof. unfold pfin. now destruct eos. Qed.

Lemma adone_active t beam : adone t beam = true -> length beam <> 0 -> t <> 0.
Proof.
  intros H Hl Ht. subst t. unfold adone in H.
  replace (active eos 0) with false in H by (unfold active; now destruct eos).
  cbn [andb] in H. destruct beam as [|a beam]; [cbn in Hl; lia|].
  cbn [map hd] in H. unfold afin in H. rewrite pfin_0 in H. discriminate.
Qed.

Lemma afin_S t a : t <> 0 -> afin (S t) a = afin t a.
Proof. intros. now apply pfin_S. Qed.

Lemma adone_S t beam : t <> 0 -> adone (S t) beam = adone t beam.
Proof.
  intros Ht. unfold adone, active.
  replace (map (afin (S t)) beam) with (map (afin t) beam).
  2:{ apply map_ext. intros a. symmetry. now apply afin_S. }
  destruct eos; [|reflexivity]. apply Nat.eqb_neq in Ht. cbn. now rewrite Ht.
Qed.

(* an invariant of the stepping search, read on the whole run: it holds at the current step, or the element was
   done at some step t' < t, where it held, and has stayed as it was *)
Definition halted (I : nat -> list aslot -> Prop) (t : nat) (beam : list aslot) : Prop :=
  I t beam \/ exists t', t' <> 0 /\ t' < t /\ I t' beam /\ adone t' beam = true.

Lemma adone_later t' t beam : t' <> 0 -> t' <= t -> adone t beam = adone t' beam.
Proof.
  intros H0 Hle. induction Hle as [|t Hle IH]; [reflexivity|].
  rewrite adone_S by lia. exact IH.
Qed.

Lemma halted_tick (I : nat -> list aslot -> Prop) t beam :
  (I t beam -> length beam <> 0) -> (I t beam -> I (S t) (astep t beam)) ->
  halted I t beam -> halted I (S t) (atick t beam).
Proof.
  intros Hne Hstep [H|(t' & H0 & Hlt & H & Hd)]; unfold atick.
  - destruct (adone t beam) eqn:Ed; [right|left; auto].
    exists t. split; [|split; [lia|split; [exact H|exact Ed]]]. eapply adone_active; [exact Ed|auto].
  - rewrite (adone_later t' t) by lia. rewrite Hd. right. exists t'.
    split; [exact H0|split; [lia|split; [exact H|exact Hd]]].
Qed.

Lemma halted_run (I : nat -> list aslot -> Prop) : (forall t beam, I t beam -> length beam <> 0) ->
  forall fuel t beam, (forall t' b, t <= t' < t + fuel -> I t' b -> I (S t') (astep t' b)) ->
  halted I t beam -> halted I (t + fuel) (arun fuel t beam).
Proof.
  intros Hne. induction fuel as [|f IH]; intros t beam Hstep H; cbn [arun].
  - now rewrite Nat.add_0_r.
  - rewrite Nat.add_succ_r. apply (IH (S t)).
    + intros t' b Ht'. apply Hstep. lia.
    + apply halted_tick; [apply Hne|apply Hstep; lia|exact H].
Qed.

Lemma AInv_nonempty s0 t beam : AInv s0 t beam -> length beam <> 0.
Proof. intros H. rewrite (ai_len _ _ _ H). destruct (t =? 0); lia. Qed.

Definition AJ (s0 : state) : nat -> list aslot -> Prop := halted (AInv s0).

Lemma AJ_tick s0 t beam : AJ s0 t beam -> AJ s0 (S t) (atick t beam).
Proof. apply halted_tick; [apply AInv_nonempty|apply AInv_step]. Qed.

Lemma AJ_run s0 fuel t beam : AJ s0 t beam -> AJ s0 (t + fuel) (arun fuel t beam).
Proof. apply halted_run; [apply AInv_nonempty|intros; now apply AInv_step]. Qed.

Record AOut (s0 : state) (beam : list aslot) : Prop := mkAOut
  { ao_vocab : forall a, In a beam -> in_vocab V (apath a);
    ao_eos : forall a, In a beam -> sfin (asc a) = true -> eos_first eos (apath a);
    ao_chain : forall a, In a beam -> sfin (asc a) = true -> asc a = chain calc s0 (apath a);
    ao_sorted : sorted_desc (map asc beam);
    ao_distinct : forall i j, i < length beam -> j < length beam -> i <> j ->
                  sfin (asc (nth i beam adflt)) = true -> sfin (asc (nth j beam adflt)) = true ->
                  apath (nth i beam adflt) <> apath (nth j beam adflt) }.

Lemma AInv_out s0 t beam : AInv s0 t beam -> AOut s0 beam.
Proof.
  intros H. constructor.
  - apply (ai_vocab _ _ _ H).
  - intros a Ha Hf. destruct (afin t a) eqn:E.
    + now apply (ai_fin _ _ _ H a Ha Hf E).
    + apply eos_first_of_no_eos. apply (ai_live _ _ _ H a Ha). unfold alive. now rewrite Hf, E.
  - apply (ai_chain _ _ _ H).
  - apply (ai_sorted _ _ _ H).
  - apply (ai_distinct _ _ _ H).
Qed.

Lemma AJ_out s0 t beam : AJ s0 t beam -> AOut s0 beam.
Proof. intros [H|(t' & _ & _ & H & _)]; eapply AInv_out; exact H. Qed.

Lemma AOut_awidth s0 beam : AOut s0 beam -> AOut s0 (awidth beam).
Proof.
  intros H. unfold awidth. destruct (length beam <? width); [|exact H].
  set (n := width - length beam). constructor.
  - intros a Ha. destruct (in_pad a _ _ Ha) as [Ha'| ->]; [now apply (ao_vocab _ _ H)|constructor].
  - intros a Ha Hf. destruct (in_pad a _ _ Ha) as [Ha'| ->]; [now apply (ao_eos _ _ H)|discriminate].
  - intros a Ha Hf. destruct (in_pad a _ _ Ha) as [Ha'| ->]; [now apply (ao_chain _ _ H)|discriminate].
  - rewrite map_app, map_asc_repeat. apply sorted_desc_app_None, (ao_sorted _ _ H).
  - intros i j _ _ Hne Hf1 Hf2.
    destruct (Nat.lt_ge_cases i (length beam)) as [Hi|Hi].
    2:{ rewrite nth_pad in Hf1 by exact Hi. discriminate. }
    destruct (Nat.lt_ge_cases j (length beam)) as [Hj|Hj].
    2:{ rewrite nth_pad in Hf2 by exact Hj. discriminate. }
    rewrite !app_nth1 in * by assumption. now apply (ao_distinct _ _ H).
Qed.

Theorem asearch_out fuel s0 : AOut s0 (asearch fuel s0).
Proof.
  unfold asearch. apply AOut_awidth. eapply AJ_out. apply (AJ_run s0 fuel 0). left. apply AInv_init.
Qed.

Lemma asearch_length fuel s0 : length (asearch fuel s0) = width.
Proof.
  unfold asearch, awidth.
  pose proof (AJ_run s0 fuel 0 (ainit s0) (or_introl (AInv_init s0))) as HJ.
  assert (Hl : length (arun fuel 0 (ainit s0)) = 1 \/ length (arun fuel 0 (ainit s0)) = width).
  { destruct HJ as [H|(t' & _ & _ & H & _)]; rewrite (ai_len _ _ _ H); destruct (_ =? 0); auto. }
  destruct (length (arun fuel 0 (ainit s0)) <? width) eqn:E.
  - apply Nat.ltb_lt in E. rewrite app_length, repeat_length. lia.
  - apply Nat.ltb_ge in E. lia.
Qed.
(* "When the width is at least the number of complete sequences and all paths are run to
   completion the result is the full set of them."                                       *)
Section Exhaustive.
Variable T : nat.
Variable s0 : state.
(* eos is a token of the vocabulary (BeamSearch.__init__ checks it) *)
Definition eos_ok : Prop := match eos with Some e => (0 <= e < Z.of_nat V)%Z | None => True end.
(* "the width is at least the number of complete sequences" *)
Definition wide : Prop := forall l : list (list Z),
  NoDup l -> (forall p, In p l -> complete V eos T p) -> length l <= width.
(* "all paths are run to completion" *)
Definition to_completion : Prop := fin_all = true \/ eos = None.

Definition finished (p : list Z) : Prop :=
  match eos with Some e => p <> [] /\ last p 0%Z = e | None => False end.

(* the sequences a search of depth t can have produced *)
Definition partial (t : nat) (p : list Z) : Prop :=
  in_vocab V p /\
  ((finished p /\ eos_first eos p /\ length p <= t) \/ (no_eos p /\ length p = t)).

Definition EInv (t : nat) (beam : list aslot) : Prop :=
  forall p, partial t p -> sfin (chain calc s0 p) = true ->
  exists a, In a beam /\ apath a = p /\ sfin (asc a) = true.

Lemma pfin_finished t p : pfin t p = true -> finished p.
Proof.
  intros H. destruct (pfin_true_pos t p H) as (_ & e & He & Hne & Hl). unfold finished. now rewrite He.
Qed.

Lemma finished_pfin t p : t <> 0 -> finished p -> pfin t p = true.
Proof.
  unfold finished, pfin. destruct eos as [e|]; [|contradiction]. intros Ht (Hne & Hl).
  apply Nat.eqb_neq in Ht. rewrite Ht, Hl, Z.eqb_refl. cbn.
  destruct p; [contradiction|reflexivity].
Qed.

Lemma last_In {A} (l : list A) d : l <> [] -> In (last l d) l.
Proof.
  intros H. destruct (exists_last H) as (l' & x & ->). rewrite last_last. apply in_or_app. right. now left.
Qed.

Lemma no_eos_not_finished p : no_eos p -> ~ finished p.
Proof.
  unfold no_eos, finished. destruct eos as [e|]; [|tauto]. intros H (Hne & Hl). apply H.
  rewrite <- Hl. now apply last_In.
Qed.

Lemma no_eos_pfin t p : no_eos p -> pfin t p = false.
Proof.
  intros H. destruct (pfin t p) eqn:E; [|reflexivity]. exfalso.
  eapply no_eos_not_finished; [exact H|]. eapply pfin_finished; exact E.
Qed.

Lemma chain_fin_prefix q r : sfin (chain calc s0 (q ++ r)) = true -> sfin (chain calc s0 q) = true.
Proof.
  induction r as [|v r IH] using rev_ind; [now rewrite app_nil_r|].
  rewrite app_assoc, chain_snoc. intros H. apply sadd_fin_l in H. now apply IH.
Qed.

(* the path a candidate would have *)
Definition npath (t : nat) (beam : list aslot) (i : nat) : list Z :=
  apath (aext t beam (acands t beam) i).

Lemma cand_partial t beam i : AInv s0 t beam -> i < length beam * V ->
  sfin (nth i (acands t beam) None) = true -> partial (S t) (npath t beam i).
Proof.
  intros Hinv Hi Hf. unfold npath. rewrite <- (aext_sc t beam) in Hf.
  pose proof (aext_path_inv s0 t beam i Hinv Hi Hf) as Hpi. cbv zeta in Hpi. split.
  - destruct (aext_facts s0 t beam i Hinv Hi) as (Hin & Hv & -> & _).
    destruct (afin t _); [|apply in_vocab_snoc; [|exact Hv]]; now apply (ai_vocab _ _ _ Hinv).
  - destruct (afin (S t) _) eqn:E; [left|right; tauto].
    split; [eapply pfin_finished; exact E|tauto].
Qed.

(* a complete sequence that extends a partial one, chosen injectively *)
Definition cpl (p : list Z) : list Z :=
  match eos with
  | Some e => if pfin 1 p then p else if length p <? T then p ++ [e] else p
  | None => p ++ repeat 0%Z (T - length p)
  end.

Lemma cpl_complete t p : eos_ok -> partial (S t) p -> S t <= T -> complete V eos T (cpl p).
Proof.
  intros Heos. unfold eos_ok in Heos. intros (Hv & [(Hfin & Hef & Hlen)|(Hne & Hlen)]) Ht.
  - assert (Hb : pfin 1 p = true) by now apply finished_pfin.
    unfold cpl, complete, finished, eos_first in *. destruct eos as [e|]; [|contradiction].
    rewrite Hb. split; [exact Hv|]. left. destruct Hfin as (H1 & H2). repeat split; auto. lia.
  - assert (Hb : pfin 1 p = false) by now apply no_eos_pfin.
    unfold cpl, complete, no_eos in *. destruct eos as [e|].
    + rewrite Hb. destruct (length p <? T) eqn:El.
      * apply Nat.ltb_lt in El. split; [apply in_vocab_snoc; [exact Hv|exact Heos]|]. left.
        split; [now destruct p|]. split; [apply last_last|]. split; [now rewrite removelast_last|].
        rewrite app_length. cbn. lia.
      * apply Nat.ltb_ge in El. split; [exact Hv|]. right. split; [exact Hne|lia].
    + split.
      * apply Forall_app. split; [exact Hv|]. apply Forall_forall. intros z Hz.
        apply repeat_spec in Hz. subst z. lia.
      * rewrite app_length, repeat_length. lia.
Qed.

(* [cpl] can be undone on the sequences of depth S t: by its length the completion tells whether eos was added *)
Lemma cpl_inv t p : partial (S t) p ->
  match eos with
  | Some _ => if length (cpl p) =? S (S t) then removelast (cpl p) else cpl p
  | None => firstn (S t) (cpl p)
  end = p.
Proof.
  intros (_ & C). unfold cpl. destruct eos as [e|] eqn:Ee; rewrite <- ?Ee in *.
  - destruct C as [(Hf & _ & Hl)|(Hn & Hl)].
    + rewrite (finished_pfin 1 p) by (auto; lia). destruct (Nat.eqb_spec (length p) (S (S t))); [lia|reflexivity].
    + rewrite (no_eos_pfin 1 p Hn). destruct (length p <? T).
      * rewrite app_length, Hl. cbn [length]. replace (S t + 1 =? S (S t)) with true by (symmetry; apply Nat.eqb_eq; lia).
        apply removelast_last.
      * rewrite Hl. destruct (Nat.eqb_spec (S t) (S (S t))); [lia|reflexivity].
  - destruct C as [(F & _)|(_ & Hl)]; [unfold finished in F; rewrite Ee in F; contradiction|].
    rewrite <- Hl, firstn_app, Nat.sub_diag, firstn_all. cbn. apply app_nil_r.
Qed.

Lemma cpl_inj t p1 p2 : partial (S t) p1 -> partial (S t) p2 -> cpl p1 = cpl p2 -> p1 = p2.
Proof. intros H1 H2 E. rewrite <- (cpl_inv t p1 H1), E. now apply cpl_inv. Qed.

Lemma filter_len_le {A} (f : A -> bool) (l : list A) : length (filter f l) <= length l.
Proof. induction l as [|a l IH]; cbn; [lia|]. destruct (f a); cbn; lia. Qed.

Lemma NoDup_map_inj_on {A B} (f : A -> B) (l : list A) :
  NoDup l -> (forall x y, In x l -> In y l -> f x = f y -> x = y) -> NoDup (map f l).
Proof.
  induction 1 as [|a l Hn Hd IH]; intros Hinj; cbn; constructor.
  - intros Hin. apply in_map_iff in Hin. destruct Hin as (y & Hy & Hyl).
    assert (y = a) by (apply Hinj; [now right|now left|exact Hy]). subst. contradiction.
  - apply IH. intros x y Hx Hy. apply Hinj; now right.
Qed.

(* with a wide beam every finite candidate is selected *)
Lemma all_finite_selected t beam i : eos_ok -> wide -> AInv s0 t beam -> S t <= T -> i < length beam * V ->
  sfin (nth i (acands t beam) None) = true -> In i (topk (Ksel beam) (acands t beam)).
Proof.
  intros Heos Hwide Hinv Ht Hi Hf.
  set (cs := acands t beam) in *. set (sel := topk (Ksel beam) cs).
  destruct (in_dec Nat.eq_dec i sel) as [Hin|Hnin]; [exact Hin|exfalso].
  destruct (topk_facts t beam) as (Hl & Hnd & Hlt & _ & Hdom). fold cs sel in Hl, Hnd, Hlt, Hdom.
  set (L := filter (fun j => sfin (nth j cs None)) (seq 0 (length beam * V))).
  assert (HL : forall j, In j L <-> j < length beam * V /\ sfin (nth j cs None) = true).
  { intros j. unfold L. rewrite filter_In, in_seq. split; intros (H1 & H2); split; auto; lia. }
  assert (HndL : NoDup L) by (apply NoDup_filter, seq_NoDup).
  assert (Hincl : incl (i :: sel) L).
  { intros j [<-|Hj]; apply HL; [now split|]. split; [now apply Hlt|].
    eapply sleb_fin; [|exact Hf]. now apply Hdom. }
  assert (Hlen1 : S (Ksel beam) <= length L).
  { rewrite <- Hl. change (S (length sel)) with (length (i :: sel)).
    apply NoDup_incl_length; [constructor; assumption|exact Hincl]. }
  assert (Hlen2 : length L <= length beam * V).
  { unfold L. etransitivity; [apply filter_len_le|]. now rewrite seq_length. }
  assert (Hlen3 : length L <= width).
  { rewrite <- (map_length (fun j => cpl (npath t beam j)) L). apply Hwide.
    - apply NoDup_map_inj_on; [exact HndL|]. intros j1 j2 H1 H2 E.
      apply HL in H1, H2. destruct H1 as (H1 & F1), H2 as (H2 & F2).
      destruct (Nat.eq_dec j1 j2) as [|Hne]; [assumption|exfalso].
      apply (aext_distinct s0 t beam j1 j2 Hinv H1 H2 Hne); rewrite ?aext_sc; try assumption.
      eapply (cpl_inj t); [| |exact E]; now apply cand_partial.
    - intros p Hp. apply in_map_iff in Hp. destruct Hp as (j & <- & Hj). apply HL in Hj.
      destruct Hj as (Hj & Fj). apply (cpl_complete t); [exact Heos|now apply cand_partial|exact Ht]. }
  unfold Ksel in Hlen1. lia.
Qed.

Lemma selected_in_astep t beam i : In i (topk (Ksel beam) (acands t beam)) ->
  In (aext t beam (acands t beam) i) (astep t beam).
Proof. intros H. unfold astep. fold (Ksel beam). apply in_or_app. left. now apply in_map. Qed.

(* with a wide beam, candidate j of slot k enters the next beam as soon as its score is finite *)
Lemma cand_in_step t beam k j : eos_ok -> wide -> AInv s0 t beam -> S t <= T -> k < length beam -> j < V ->
  let a := nth k beam adflt in
  sfin (sadd (asc a) (nth j (arow t a) None)) = true ->
  exists a', In a' (astep t beam) /\ sfin (asc a') = true /\
             apath a' = if afin t a then apath a else apath a ++ [Z.of_nat j].
Proof.
  intros Heos Hwide Hinv Ht Hk Hj a Hf.
  set (i := k * V + j). assert (Hi : i < length beam * V) by (unfold i; nia).
  destruct (div_mod_unique V k j Hj) as (Hdiv & Hmod). fold i in Hdiv, Hmod.
  destruct (acands_nth t beam i Hi) as (_ & _ & Hn). rewrite Hdiv, Hmod in Hn. fold a in Hn.
  assert (Hfi : sfin (nth i (acands t beam) None) = true) by now rewrite Hn.
  exists (aext t beam (acands t beam) i). split; [apply selected_in_astep, all_finite_selected; assumption|].
  destruct (aext_facts s0 t beam i Hinv Hi) as (_ & _ & Hpath & _). rewrite Hdiv, Hmod in Hpath.
  split; [now rewrite aext_sc|exact Hpath].
Qed.

Lemma EInv_step t beam : eos_ok -> wide -> AInv s0 t beam -> EInv t beam -> S t <= T -> EInv (S t) (astep t beam).
Proof.
  intros Heos Hwide Hinv HE Ht p (Hv & C) Hfc. pose proof Heos as Heos'. unfold eos_ok in Heos'.
  (* Either p was already complete at depth t, or p = q ++ [v] with q live at depth t *)
  assert (Hcase : (finished p /\ eos_first eos p /\ length p <= t) \/
                  (exists q v, p = q ++ [v] /\ length q = t /\ no_eos q)).
  { destruct (Nat.eq_dec (length p) (S t)) as [E|E].
    - right. destruct (exists_last (l := p)) as (q & v & ->); [intros ->; discriminate|]. exists q, v.
      rewrite app_length in E. cbn in E. split; [reflexivity|]. split; [lia|].
      unfold eos_first, no_eos in *. destruct eos; [|exact I].
      destruct C as [(_ & Hef & _)|(Hne & _)]; [now rewrite removelast_last in Hef|].
      intros Hin. apply Hne, in_or_app. now left.
    - left. destruct C as [(Hf & Hef & Hl)|(_ & Hl)]; [repeat split; auto; lia|lia]. }
  destruct Hcase as [(Hf & Hef & Hl)|(q & v & -> & Hlq & Hnq)].
  - (* carried over: the finished path re-emits eos at no cost *)
    assert (Ht0 : t <> 0).
    { intros ->. unfold finished in Hf. destruct eos; [|contradiction]. destruct Hf as (Hn & _).
      destruct p; [contradiction|cbn in Hl; lia]. }
    destruct (HE p) as (a & Hin & Hp & Hfa); [split; [exact Hv|]; left; auto|exact Hfc|].
    destruct (In_nth beam a adflt Hin) as (k & Hk & Hka).
    assert (Hfin : afin t a = true) by (unfold afin; rewrite Hp; now apply finished_pfin).
    unfold finished in Hf. destruct eos as [e|] eqn:Ee; [|contradiction].
    assert (Hj : Z.to_nat e < V) by lia.
    destruct (arow_fin t a _ Hfin Hj) as (e' & He' & Hrow). rewrite Ee in He'. injection He' as <-.
    rewrite Z2Nat.id, Z.eqb_refl in Hrow by lia. rewrite <- Ee in *.
    destruct (cand_in_step t beam k _ Heos Hwide Hinv Ht Hk Hj) as (a' & Hin' & Hf' & Hp').
    + rewrite Hka, Hrow, sadd_0_r. exact Hfa.
    + exists a'. rewrite Hka, Hfin, Hp in Hp'. auto.
  - (* a live path of depth t extended by v *)
    apply Forall_app in Hv. destruct Hv as (Hvq & Hvv). apply Forall_inv in Hvv.
    assert (Hfq : sfin (chain calc s0 q) = true) by (eapply chain_fin_prefix; exact Hfc).
    destruct (HE q) as (a & Hin & Hp & Hfa); [split; [exact Hvq|]; right; auto|exact Hfq|].
    destruct (In_nth beam a adflt Hin) as (k & Hk & Hka).
    assert (Hfin : afin t a = false) by (unfold afin; rewrite Hp; now apply no_eos_pfin).
    assert (Hal : alive t a = true) by (unfold alive; now rewrite Hfa, Hfin).
    destruct (ai_live _ _ _ Hinv a Hin Hal) as (_ & _ & Hst).
    assert (Hj : Z.to_nat v < V) by lia.
    destruct (cand_in_step t beam k _ Heos Hwide Hinv Ht Hk Hj) as (a' & Hin' & Hf' & Hp').
    + rewrite Hka, arow_live by exact Hfin. rewrite chain_snoc, Hlq in Hfc.
      now rewrite (ai_chain _ _ _ Hinv a Hin Hfa), Hp, Hst, Hp.
    + exists a'. rewrite Hka, Hfin, Hp, Z2Nat.id in Hp' by lia. auto.
Qed.

Definition EJ : nat -> list aslot -> Prop := halted (fun t beam => AInv s0 t beam /\ EInv t beam).

Lemma EJ_run : eos_ok -> wide -> forall fuel t beam, t + fuel <= T -> EJ t beam -> EJ (t + fuel) (arun fuel t beam).
Proof.
  intros Heos Hwide fuel t beam Ht. apply halted_run.
  - intros t' b (H & _). eapply AInv_nonempty; exact H.
  - intros t' b Ht' (H & HE). split; [now apply AInv_step|apply EInv_step; auto; lia].
Qed.

Lemma EInv_init : EInv 0 (ainit s0).
Proof.
  intros p (Hv & [(_ & _ & Hl)|(_ & Hl)]) _; (destruct p; [|cbn in Hl; lia]);
    exists (mkA [] (Some 0%Z) s0); repeat split; now left.
Qed.

Lemma adone_all t beam : to_completion -> adone t beam = true -> forall a, In a beam -> afin t a = true.
Proof.
  intros Hrun Hd.
  assert (Hne : eos <> None).
  { intros E. unfold adone, active in Hd. rewrite E in Hd. cbn [andb] in Hd.
    destruct beam as [|a0 beam]; [discriminate|]. cbn in Hd. unfold afin, pfin in Hd. rewrite E in Hd. discriminate. }
  destruct Hrun as [Hr|Hr]; [|contradiction].
  unfold adone in Hd. rewrite Hr, andb_true_r in Hd. destruct (active eos t) eqn:Ea.
  - rewrite forallb_forall in Hd. intros a Ha. apply Hd. now apply in_map.
  - assert (t = 0).
    { unfold active in Ea. destruct eos; [|congruence]. now apply negb_false_iff, Nat.eqb_eq in Ea. }
    subst t. destruct beam as [|a0 beam]; [discriminate|]. cbn in Hd. unfold afin in Hd.
    rewrite pfin_0 in Hd. discriminate.
Qed.

(* a complete sequence, seen at depth t <= T: it is one of the sequences of that depth, or it is longer and its
   first t tokens are free of eos *)
Lemma complete_depth t p : complete V eos T p -> t <= T ->
  length p <= T /\ (partial t p \/ (t < length p /\ no_eos (firstn t p))).
Proof.
  intros (Hv & Hc) Ht. unfold partial, finished, eos_first, no_eos. destruct eos as [e|].
  - destruct Hc as [(H1 & H2 & H3 & H4)|(H1 & H2)]; (split; [lia|]);
      (destruct (Nat.le_gt_cases (length p) t) as [Hl|Hl]; [left; split; [exact Hv|]|right; split; [exact Hl|]]).
    + left. auto.
    + intros Hin. apply H3. rewrite removelast_firstn_len, <- (firstn_skipn t (firstn _ p)).
      apply in_or_app. left. rewrite firstn_firstn, Nat.min_l by lia. exact Hin.
    + right. split; [exact H1|lia].
    + intros Hin. apply H1. rewrite <- (firstn_skipn t p). apply in_or_app. now left.
  - split; [lia|]. destruct (Nat.le_gt_cases (length p) t); [left; split; [exact Hv|right; split; [exact I|lia]]|right; auto].
Qed.

Theorem asearch_exhaustive p : eos_ok -> wide -> to_completion ->
  complete V eos T p -> sfin (chain calc s0 p) = true ->
  exists a, In a (asearch T s0) /\ apath a = p /\ asc a = chain calc s0 p.
Proof.
  intros Heos Hwide Hrun Hc Hfc.
  pose proof (EJ_run Heos Hwide T 0 (ainit s0) (le_n _) (or_introl (conj (AInv_init s0) EInv_init))) as HJ.
  cbn [Nat.add] in HJ. set (x := arun T 0 (ainit s0)) in *.
  (* at the depth t' the run ended at, p is in the beam: were it longer, its first t' tokens would be a live slot,
     and the run only ends before T when every slot has finished *)
  assert (Hat : exists t', t' <= T /\ AInv s0 t' x /\ EInv t' x /\ (t' < T -> forall a, In a x -> afin t' a = true)).
  { destruct HJ as [(Hi & HE)|(t' & H0 & Hlt & (Hi & HE) & Hd)].
    - exists T. split; [lia|]. split; [exact Hi|]. split; [exact HE|]. lia.
    - exists t'. split; [lia|]. split; [exact Hi|]. split; [exact HE|]. intros _. now apply adone_all. }
  destruct Hat as (t' & Ht' & Hi & HE & Hall).
  assert (Hfound : exists a, In a x /\ apath a = p /\ sfin (asc a) = true).
  { destruct (complete_depth t' p Hc Ht') as (Hlen & [Hpart|(Hlong & Hnq)]); [now apply HE|exfalso].
    destruct (HE (firstn t' p)) as (a & Hin & Hp & Hf).
    - split; [apply Forall_firstn, Hc|]. right. split; [exact Hnq|apply firstn_length_le; lia].
    - rewrite <- (firstn_skipn t' p) in Hfc. eapply chain_fin_prefix; exact Hfc.
    - specialize (Hall ltac:(lia) a Hin). unfold afin in Hall. rewrite Hp, (no_eos_pfin t' _ Hnq) in Hall. discriminate. }
  destruct Hfound as (a & Hin & Hp & Hf). exists a. split; [|split; [exact Hp|]].
  - unfold asearch, awidth. fold x. destruct (length x <? width); [apply in_or_app; now left|exact Hin].
  - rewrite <- Hp. now apply (ai_chain _ _ _ Hi).
Qed.
End Exhaustive.

End Abs.
