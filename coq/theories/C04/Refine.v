(* C04 — every batch element of the model of Model.v (flat state list, columns with junk,
   global grow / freeze decisions) follows the junk-free single-element search of
   Abstract.v, and stays as it is once it is done. *)
From Coq Require Import List Arith Lia ZArith Bool.
From PV Require Import C04.Model C04.Spec C04.Lists C04.Topk C04.Abstract.
Import ListNotations.
Local Open Scope nat_scope.

Section Refine.
Context {state : Type}.
Variable topk : nat -> list score -> list nat.
Variable calc : list Z -> state -> nat -> list score * state.
Variable dstate : state.
Variables (V width : nat) (eos : option Z) (fin_all : bool) (pad : Z).

Hypothesis Htopk : topk_ok topk.
Hypothesis Hlm : lm_ok calc V.
Hypothesis HV : 1 <= V.
Hypothesis Hwidth : 1 <= width.

Let calc_prefix := proj1 Hlm.
Let calc_len := proj2 Hlm.

Local Notation aslot := (@aslot state).
Local Notation adflt := (adflt dstate).
Local Notation anorm := (anorm dstate eos).
Local Notation afin := (@afin state eos).
Local Notation alive := (@alive state eos).
Local Notation astep := (astep topk calc dstate V width eos).
Local Notation acands := (acands calc eos).
Local Notation aext := (aext calc dstate V eos).
Local Notation arow := (arow calc eos).
Local Notation adone := (@adone state eos fin_all).
Local Notation atick := (atick topk calc dstate V width eos fin_all).
Local Notation arun := (arun topk calc dstate V width eos fin_all).
Local Notation awidth := (awidth dstate width).
Local Notation asearch := (asearch topk calc dstate V width eos fin_all).
Local Notation AInv := (AInv calc dstate V width eos).
Local Notation AJ := (AJ calc dstate V width eos fin_all).
Local Notation step := (step topk calc dstate V width eos fin_all pad).
Local Notation loop := (loop topk calc dstate V width eos fin_all pad).
Local Notation search := (search topk calc dstate V width eos fin_all pad).
Local Notation elem_step := (elem_step topk calc dstate V width eos fin_all pad).
Local Notation lm_out := (lm_out calc dstate V).
Local Notation in_next := (in_next calc dstate V).
Local Notation logp_of := (logp_of calc dstate V eos).
Local Notation st_of := (st_of dstate).
Local Notation eos_at := (eos_at eos).
Local Notation done_of := (done_of eos fin_all).
Local Notation pfin := (pfin eos).
Local Notation pad_row := (pad_row pad).

(* ---- the view of a slot the caller may rely on, and the abstraction ------------------ *)
Definition vslot (sl : slot) : list Z * score := (vpath sl, sc sl).
Definition vaslot (a : aslot) : list Z * score := (apath a, asc a).
Definition alpha (t : nat) (p : slot * state) : aslot :=
  anorm t (mkA (vpath (fst p)) (sc (fst p)) (snd p)).
Definition cbeam (b : @bstate state) (n : nat) : list slot := nth n (beams b) [].
Definition cstates (b : @bstate state) (n : nat) : list state := map (st_of b n) (seq 0 (pw b)).
Definition abs (t : nat) (b : @bstate state) (n : nat) : list aslot :=
  map (alpha t) (combine (cbeam b n) (cstates b n)).

Lemma vaslot_alpha t p : vaslot (alpha t p) = vslot (fst p).
Proof. unfold vaslot, alpha, vslot. now rewrite anorm_path, anorm_sc. Qed.

Lemma anorm_state t p s st1 st2 :
  (alive t (mkA p s st1) = true -> st1 = st2) -> anorm t (mkA p s st1) = anorm t (mkA p s st2).
Proof.
  intros H. unfold Abstract.anorm. change (alive t (mkA p s st2)) with (alive t (mkA p s st1)).
  destruct (alive t (mkA p s st1)); [now rewrite H|reflexivity].
Qed.

Record CWf (N t : nat) (b : @bstate state) : Prop := mkCWf
  { cw_N : length (beams b) = N;
    cw_pw : pw b = if t =? 0 then 1 else width;
    cw_row : forall n, n < N -> length (cbeam b n) = pw b;
    cw_hS : t <> 0 -> hS b <> 0;
    cw_hS0 : t = 0 -> hS b = 0;
    cw_slot : forall n sl, n < N -> In sl (cbeam b n) ->
              len sl <= length (col sl) /\ hS b <= length (col sl) /\ (t = 0 -> col sl = []) }.

Lemma cstates_length b n : length (cstates b n) = pw b.
Proof. unfold cstates. now rewrite map_length, seq_length. Qed.

Lemma abs_length N t b n : CWf N t b -> n < N -> length (abs t b n) = pw b.
Proof.
  intros H Hn. unfold abs. rewrite map_length, combine_length, cstates_length, (cw_row _ _ _ H) by exact Hn. lia.
Qed.

Lemma map_vaslot_abs N t b n : CWf N t b -> n < N ->
  map vaslot (abs t b n) = map vslot (cbeam b n).
Proof.
  intros H Hn. unfold abs. rewrite map_map.
  rewrite (map_ext _ (fun p => vslot (fst p))) by (intros; apply vaslot_alpha).
  rewrite <- (map_map fst vslot). f_equal. apply map_fst_combine.
  now rewrite cstates_length, (cw_row _ _ _ H).
Qed.

Lemma abs_nth N t b n k : CWf N t b -> n < N -> k < pw b ->
  nth k (abs t b n) adflt = alpha t (nth k (cbeam b n) dslot, st_of b n k).
Proof.
  intros H Hn Hk. unfold abs.
  rewrite (nth_map_lt _ _ _ (dslot, dstate)).
  2:{ rewrite combine_length, cstates_length, (cw_row _ _ _ H) by exact Hn. lia. }
  rewrite combine_nth by (now rewrite cstates_length, (cw_row _ _ _ H)).
  unfold cstates. now rewrite nth_map_seq.
Qed.

(* ---- finished / done agree on both sides --------------------------------------------- *)
Lemma eos_at_pfin t sl : len sl <= length (col sl) -> eos_at t sl = pfin t (vpath sl).
Proof.
  intros Hl. unfold Model.eos_at, Abstract.pfin, last_tok, vpath. destruct eos as [e|]; [|reflexivity].
  f_equal. rewrite firstn_length_le by exact Hl.
  destruct (len sl) as [|l] eqn:El; [cbn; now rewrite !andb_false_r|].
  rewrite last_nth, firstn_length_le by lia. rewrite nth_firstn_lt by lia. reflexivity.
Qed.

Lemma done_of_adone t (slots : list slot) (x : list aslot) :
  (forall sl, In sl slots -> len sl <= length (col sl)) ->
  map vslot slots = map vaslot x -> done_of t slots = adone t x.
Proof.
  intros Hwf Hv. unfold Model.done_of, Abstract.adone.
  assert (Hm : map (eos_at t) slots = map (afin t) x).
  { revert x Hv. induction slots as [|sl slots IH]; intros [|a x] Hv; cbn in Hv; try discriminate; [reflexivity|].
    injection Hv as Hp Hs Hr. cbn [map]. f_equal.
    - rewrite eos_at_pfin by (apply Hwf; now left). unfold Abstract.afin. now rewrite Hp.
    - apply IH; [intros; apply Hwf; now right|exact Hr]. }
  now rewrite Hm.
Qed.

(* ---- clamping does nothing to tokens of the vocabulary ---------------------------------- *)
Lemma clampz_id x : (0 <= x < Z.of_nat V)%Z -> clampz V x = x.
Proof. unfold clampz. lia. Qed.

Lemma firstn_clamp (c : list Z) l : in_vocab V (firstn l c) -> firstn l (map (clampz V) c) = firstn l c.
Proof.
  intros H. apply firstn_map_id. eapply Forall_impl; [|exact H]. intros x Hx. now apply clampz_id.
Qed.

Lemma dec_len_map t (slots : list slot) (adv : list slot * list nat) :
  length (fst adv) = length (snd adv) ->
  dec_len eos t slots adv =
  map (fun p => mkSlot (col (fst p)) (len (fst p) - (if eos_at t (nth (snd p) slots dslot) then 1 else 0)) (sc (fst p)))
      (combine (fst adv) (snd adv)).
Proof.
  intros Hl. unfold dec_len. destruct eos eqn:Ee; [reflexivity|].
  rewrite <- (map_fst_combine (fst adv) (snd adv) Hl) at 1. apply map_ext.
  intros [[c l s] j]. cbn. unfold Model.eos_at. now rewrite Nat.sub_0_r.
Qed.

Lemma eos_at_0 sl : eos_at 0 sl = false.
Proof. unfold Model.eos_at. now destruct eos. Qed.

Lemma done_of_0 (slots : list slot) : done_of 0 slots = false.
Proof.
  unfold Model.done_of. replace (active eos 0) with false by (unfold active; now destruct eos).
  cbn [andb]. destruct slots; [reflexivity|]. cbn [map hd]. apply eos_at_0.
Qed.

Lemma done_of_pos t (slots : list slot) : done_of t slots = true -> t <> 0.
Proof. intros H ->. rewrite done_of_0 in H. discriminate. Qed.

Lemma next_height_eq h grow : next_height h grow = match h with 0 => 1 | S _ => S h end.
Proof.
  unfold next_height, adv_height. destruct h as [|h]; [reflexivity|].
  destruct grow.
  - replace (S (S h) =? S h) with false; [reflexivity|]. symmetry. apply Nat.eqb_neq. lia.
  - now rewrite Nat.eqb_refl.
Qed.

(* whether forward() appends the pad row after beam_search_advance *)
Definition padded (h : nat) (grow : bool) : bool := adv_height h grow =? h.

Lemma padded_eq h grow : padded h grow = negb (h =? 0) && negb grow.
Proof.
  unfold padded, adv_height. destruct h as [|h]; [reflexivity|]. destruct grow.
  - transitivity false; [apply Nat.eqb_neq; lia|reflexivity].
  - rewrite Nat.eqb_refl. reflexivity.
Qed.

(* ---- one element, one step --------------------------------------------------------------- *)
Section Elem.
Variables (N t : nat) (b : @bstate state) (n : nat) (s0 : state).
Hypothesis Hwf : CWf N t b.
Hypothesis Hn : n < N.
Let slots := cbeam b n.
Let x := abs t b n.
Hypothesis Hinv : AInv s0 t x.

Let Hrow : length slots = pw b := cw_row _ _ _ Hwf n Hn.

Lemma x_length : length x = pw b.
Proof. unfold x. eapply abs_length; eassumption. Qed.

Lemma slot_wf k : k < pw b -> let sl := nth k slots dslot in
  len sl <= length (col sl) /\ hS b <= length (col sl) /\ (t = 0 -> col sl = []).
Proof.
  intros Hk sl. apply (cw_slot _ _ _ Hwf n); [exact Hn|]. apply nth_In. change (k < length slots). now rewrite Hrow.
Qed.

Lemma x_nth k : k < pw b -> nth k x adflt = alpha t (nth k slots dslot, st_of b n k).
Proof. intros Hk. unfold x. eapply abs_nth; eassumption. Qed.

Lemma x_vocab k : k < pw b -> in_vocab V (vpath (nth k slots dslot)).
Proof.
  intros Hk. assert (H : In (nth k x adflt) x) by (apply nth_In; now rewrite x_length).
  apply (ai_vocab _ _ _ _ _ _ _ _ Hinv) in H. rewrite x_nth in H by exact Hk.
  unfold alpha in H. now rewrite anorm_path in H.
Qed.

Lemma afin_x k : k < pw b -> afin t (nth k x adflt) = eos_at t (nth k slots dslot).
Proof.
  intros Hk. rewrite x_nth by exact Hk. unfold alpha. rewrite anorm_afin. unfold Abstract.afin. cbn [apath fst].
  symmetry. apply eos_at_pfin. now apply slot_wf.
Qed.

Lemma asc_x k : k < pw b -> asc (nth k x adflt) = sc (nth k slots dslot).
Proof. intros Hk. rewrite x_nth by exact Hk. unfold alpha. now rewrite anorm_sc. Qed.

Lemma apath_x k : k < pw b -> apath (nth k x adflt) = vpath (nth k slots dslot).
Proof. intros Hk. rewrite x_nth by exact Hk. unfold alpha. now rewrite anorm_path. Qed.

(* a live finite slot: full length, state kept by the abstraction, LM sees the same history *)
Lemma live_x k : k < pw b -> alive t (nth k x adflt) = true ->
  len (nth k slots dslot) = t /\ ast (nth k x adflt) = st_of b n k /\
  calc (map (clampz V) (col (nth k slots dslot))) (st_of b n k) t
  = calc (apath (nth k x adflt)) (ast (nth k x adflt)) t.
Proof.
  intros Hk Hal. set (sl := nth k slots dslot).
  destruct (slot_wf k Hk) as (Hl & _). fold sl in Hl.
  assert (Hin : In (nth k x adflt) x) by (apply nth_In; now rewrite x_length).
  destruct (ai_live _ _ _ _ _ _ _ _ Hinv _ Hin Hal) as (Hlen & _).
  rewrite apath_x in Hlen by exact Hk. fold sl in Hlen. unfold vpath in Hlen.
  rewrite firstn_length_le in Hlen by exact Hl.
  assert (Hst : ast (nth k x adflt) = st_of b n k).
  { pose proof Hal as Hal'. rewrite x_nth in Hal' |- * by exact Hk. unfold alpha in *.
    rewrite anorm_alive in Hal'. now rewrite anorm_st_alive. }
  split; [exact Hlen|]. split; [exact Hst|]. rewrite Hst, apath_x by exact Hk. fold sl.
  apply calc_prefix. unfold vpath. rewrite Hlen.
  rewrite firstn_firstn, Nat.min_id. apply firstn_clamp.
  pose proof (x_vocab k Hk) as Hv. fold sl in Hv. unfold vpath in Hv. now rewrite Hlen in Hv.
Qed.

Lemma lm_out_eq k : lm_out t b n k = calc (map (clampz V) (col (nth k slots dslot))) (st_of b n k) t.
Proof. reflexivity. Qed.

(* the rows of candidate scores agree *)
Lemma row_eq k : k < pw b ->
  map (sadd (sc (nth k slots dslot))) (mask_row eos (eos_at t (nth k slots dslot)) (fst (lm_out t b n k)))
  = map (sadd (asc (nth k x adflt))) (arow t (nth k x adflt)).
Proof.
  intros Hk. rewrite asc_x by exact Hk. unfold Abstract.arow. rewrite afin_x by exact Hk.
  destruct (sc (nth k slots dslot)) as [z|] eqn:Esc.
  2:{ (* -inf prefix: every candidate is -inf, whatever the row says *)
    apply (nth_ext _ _ None None).
    - rewrite !map_length, !(mask_row_length eos). rewrite lm_out_eq. now rewrite !calc_len.
    - intros i Hi. rewrite map_length in Hi.
      rewrite (nth_map_lt _ _ _ (None : score)) by exact Hi.
      rewrite (nth_map_lt _ _ _ (None : score)).
      + reflexivity.
      + rewrite mask_row_length in *. rewrite lm_out_eq in Hi. now rewrite calc_len in *. }
  destruct (eos_at t (nth k slots dslot)) eqn:Ee.
  - (* finished: the row is replaced, only its length matters *)
    unfold mask_row. destruct eos; [|unfold Model.eos_at in Ee; discriminate]. rewrite lm_out_eq. now rewrite !calc_len.
  - (* live *)
    assert (Hal : alive t (nth k x adflt) = true).
    { unfold Abstract.alive. rewrite asc_x, afin_x, Esc, Ee by exact Hk. reflexivity. }
    destruct (live_x k Hk Hal) as (_ & _ & Hc). rewrite lm_out_eq, Hc. reflexivity.
Qed.

Lemma logp_length : length (logp_of t b n) = pw b.
Proof. unfold Model.logp_of. now rewrite map_length, seq_length. Qed.

Lemma cands_eq : cands (map (clamp_slot V) slots) (logp_of t b n) = acands t x.
Proof.
  unfold cands, Abstract.acands. f_equal.
  apply (nth_ext _ _ [] []).
  - rewrite !map_length, combine_length, map_length, logp_length, x_length, Hrow. lia.
  - intros k Hk. rewrite map_length, combine_length, map_length, logp_length, Hrow, Nat.min_id in Hk.
    rewrite (nth_map_lt _ _ _ (dslot, [])) by (rewrite combine_length, map_length, logp_length, Hrow; lia).
    rewrite combine_nth by (now rewrite map_length, logp_length, Hrow).
    rewrite (nth_map_lt _ _ _ adflt) by (now rewrite x_length).
    cbn [fst snd]. rewrite (nth_map_lt _ _ _ dslot) by (now rewrite Hrow).
    unfold Model.logp_of. fold slots. unfold cbeam in slots. rewrite nth_map_seq by exact Hk.
    cbn [clamp_slot sc]. now apply row_eq.
Qed.

Let cs := cands (map (clamp_slot V) slots) (logp_of t b n).
Let K := Nat.min width (length slots * V).
Let ind := topk K cs.

Lemma cs_length : length cs = pw b * V.
Proof.
  unfold cs, cands. rewrite (concat_uniform_length _ V).
  - now rewrite map_length, combine_length, map_length, logp_length, Hrow, Nat.min_id.
  - intros r Hr. apply in_map_iff in Hr. destruct Hr as ([sl row] & <- & Hin). cbn [fst snd].
    rewrite map_length. apply in_combine_r in Hin. unfold Model.logp_of in Hin.
    apply in_map_iff in Hin. destruct Hin as (k & <- & _).
    now rewrite (mask_row_length eos), lm_out_eq, calc_len.
Qed.

Lemma cs_abs : cs = acands t x.
Proof. apply cands_eq. Qed.

Lemma K_eq : K = Ksel V width x.
Proof. unfold K, Ksel. now rewrite x_length, Hrow. Qed.

Lemma K_le : K <= length cs.
Proof. rewrite cs_length. unfold K. rewrite Hrow. lia. Qed.

Lemma ind_facts : length ind = K /\ NoDup ind /\ (forall i, In i ind -> i < pw b * V).
Proof.
  destruct (Htopk K cs K_le) as (H1 & H2 & H3 & _). fold ind in H1, H2, H3.
  rewrite cs_length in H3. auto.
Qed.

Variables (grow frz : bool).
Hypothesis Hgrow : grow = grow_flag (hS b) (beams b).

Let innext := in_next t b.
Let adv := advance1 topk V width (hS b) true grow (map (clamp_slot V) slots) (logp_of t b n).

(* the new concrete slot / state made from candidate i *)
Definition cext (i : nat) : slot :=
  ext_slot (hS b) true grow (clamp_slot V (nth (i / V) slots dslot)) (Z.of_nat (i mod V)) (nth i cs None).
Definition cnew (i : nat) : slot :=
  let e := pad_row (hS b) grow (cext i) in
  mkSlot (col e) (len e - (if eos_at t (nth (i / V) slots dslot) then 1 else 0)) (sc e).
Definition cpad0 : slot := mkSlot (repeat 0%Z (hS b + 1)) 0 None.
Definition cpad : slot := pad_row (hS b) grow cpad0.

Lemma pad_row_len sl : len (pad_row (hS b) grow sl) = len sl.
Proof. unfold Model.pad_row. now destruct (adv_height (hS b) grow =? hS b). Qed.
Lemma pad_row_sc sl : sc (pad_row (hS b) grow sl) = sc sl.
Proof. unfold Model.pad_row. now destruct (adv_height (hS b) grow =? hS b). Qed.
Lemma pad_row_col sl : col (pad_row (hS b) grow sl) = if padded (hS b) grow then col sl ++ [pad] else col sl.
Proof. unfold Model.pad_row, padded. now destruct (adv_height (hS b) grow =? hS b). Qed.

Lemma adv_fst : fst adv = map cext ind ++ repeat cpad0 (width - K).
Proof.
  unfold adv, advance1. fold cs. rewrite map_length. fold K. fold ind. cbn [fst].
  f_equal. apply map_ext_in. intros i Hi. unfold cext.
  destruct ind_facts as (_ & _ & Hlt). specialize (Hlt i Hi).
  rewrite (nth_map_lt _ _ _ dslot); [reflexivity|]. rewrite Hrow. apply div_lt_rows; lia.
Qed.

Lemma adv_snd : snd adv = map (fun i => i / V) ind ++ repeat 0 (width - K).
Proof. unfold adv, advance1. fold cs. rewrite map_length. fold K. fold ind. reflexivity. Qed.

Lemma combine_map_app {A B C} (f : C -> A) (g : C -> B) (l : list C) (a : A) (c : B) m :
  combine (map f l ++ repeat a m) (map g l ++ repeat c m) = map (fun i => (f i, g i)) l ++ repeat (a, c) m.
Proof.
  induction l as [|y l IH]; cbn.
  - induction m; cbn; congruence.
  - now rewrite IH.
Qed.

Let adv' := (map (pad_row (hS b) grow) (fst adv), snd adv).

Lemma map_repeat {A B} (f : A -> B) (y : A) m : map f (repeat y m) = repeat (f y) m.
Proof. induction m; cbn; congruence. Qed.

Lemma dec_len_eq : dec_len eos t slots adv'
  = map cnew ind ++ repeat cpad (width - K).
Proof.
  assert (Hl : length (fst adv') = length (snd adv')).
  { unfold adv'. cbn [fst snd]. rewrite map_length, adv_fst, adv_snd, !app_length, !map_length, !repeat_length. reflexivity. }
  rewrite (dec_len_map t slots adv' Hl). unfold adv'. cbn [fst snd].
  rewrite adv_fst, adv_snd, map_app, map_map, map_repeat. fold cpad.
  rewrite combine_map_app, map_app, map_map, map_repeat. f_equal.
  f_equal. unfold cpad, cpad0, Model.pad_row. cbn [fst snd].
  destruct (adv_height (hS b) grow =? hS b), (eos_at t (nth 0 slots dslot)); reflexivity.
Qed.

Lemma elem_step_fst : frz && done_of t slots = false ->
  fst (elem_step t b grow frz innext n) = map cnew ind ++ repeat cpad (width - K).
Proof.
  intros Hf. unfold Model.elem_step. change (nth n (beams b) []) with slots. cbn [fst]. rewrite Hf. apply dec_len_eq.
Qed.

Lemma elem_step_snd :
  snd (elem_step t b grow frz innext n)
  = map (fun i => nth (n * pw b + i / V) innext dstate) ind
    ++ repeat (nth (n * pw b + 0) innext dstate) (width - K).
Proof.
  unfold Model.elem_step. change (nth n (beams b) []) with slots. cbn [snd]. fold adv. rewrite adv_snd, map_app, map_map. f_equal.
  induction (width - K); cbn; congruence.
Qed.

Lemma elem_step_snd_length : length (snd (elem_step t b grow frz innext n)) = width.
Proof.
  rewrite elem_step_snd, app_length, map_length, repeat_length.
  destruct ind_facts as (-> & _). unfold K. lia.
Qed.

Lemma innext_nth k : k < pw b -> nth (n * pw b + k) innext dstate = snd (lm_out t b n k).
Proof.
  intros Hk. unfold innext, Model.in_next. rewrite (cw_N _ _ _ Hwf).
  rewrite (nth_flat_rows dstate (pw b) N); [| |exact Hn|exact Hk].
  - now rewrite nth_map_seq.
  - intros m _. now rewrite map_length, seq_length.
Qed.

Lemma no_grow_short k : k < pw b -> grow = false -> len (nth k slots dslot) < hS b \/ hS b = 0.
Proof.
  intros Hk Eg. set (sl := nth k slots dslot). destruct (hS b) as [|h] eqn:EhS; [now right|left].
  destruct (S h <=? len sl) eqn:E; [|now apply Nat.leb_gt in E]. exfalso.
  assert (Hex : existsb (fun sl => S h <=? len sl) (concat (beams b)) = true).
  { apply existsb_exists. exists sl. split; [|exact E]. apply in_concat. exists slots.
    split; [apply nth_In; now rewrite (cw_N _ _ _ Hwf)|apply nth_In; now rewrite Hrow]. }
  rewrite Hgrow in Eg. unfold grow_flag in Eg. rewrite Hex in Eg. discriminate.
Qed.

(* sizes of the raw extension (no invariant needed) *)
Lemma cext_len i : i < pw b * V ->
  len (cext i) <= length (col (cext i)) /\ adv_height (hS b) grow <= length (col (cext i)).
Proof.
  intros Hi. set (k := i / V). assert (Hk : k < pw b) by (apply div_lt_rows; lia).
  destruct (slot_wf k Hk) as (Hl & HhS & _). unfold cext. fold k.
  pose proof (no_grow_short k Hk) as Hng.
  set (sl := nth k slots dslot) in *. unfold adv_height.
  destruct (hS b) as [|h] eqn:EhS; cbn [ext_slot col len clamp_slot].
  - cbn. lia.
  - rewrite set_nth_length.
    destruct grow eqn:Eg.
    + rewrite app_length, map_length. cbn [length]. lia.
    + rewrite map_length. destruct (Hng eq_refl) as [H|H]; lia.
Qed.

(* the valid prefix of the raw extension, after the length correction *)
Lemma cext_path i : i < pw b * V ->
  let sl := nth (i / V) slots dslot in
  firstn (len (cext i) - (if eos_at t sl then 1 else 0)) (col (cext i))
  = if eos_at t sl then vpath sl else vpath sl ++ [Z.of_nat (i mod V)].
Proof.
  intros Hi. set (k := i / V). assert (Hk : k < pw b) by (apply div_lt_rows; lia). cbn zeta. fold k.
  set (sl := nth k slots dslot). destruct (slot_wf k Hk) as (Hl & HhS & Ht0). fold sl in Hl, HhS, Ht0.
  set (v := Z.of_nat (i mod V)). unfold cext. fold k sl v.
  pose proof (no_grow_short k Hk) as Hng. fold sl in Hng.
  destruct (hS b) as [|h] eqn:EhS.
  - (* first step: columns are empty *)
    assert (Ht : t = 0) by (destruct t; [reflexivity|exfalso; now apply (cw_hS _ _ _ Hwf)]).
    cbn [ext_slot col len]. rewrite Ht, eos_at_0. unfold vpath. rewrite (Ht0 Ht).
    destruct (len sl); reflexivity.
  - cbn [ext_slot clamp_slot col len].
    set (X := if grow then map (clampz V) (col sl) ++ [v] else map (clampz V) (col sl)).
    assert (HX : firstn (len sl) X = vpath sl).
    { unfold X, vpath. destruct grow.
      - rewrite firstn_app_le by (now rewrite map_length). apply firstn_clamp. apply (x_vocab k Hk).
      - apply firstn_clamp. apply (x_vocab k Hk). }
    destruct (eos_at t sl).
    + replace (len sl + 1 - 1) with (len sl) by lia. now rewrite firstn_set_nth_same.
    + replace (len sl + 1 - 0) with (S (len sl)) by lia.
      rewrite firstn_set_nth_S; [now rewrite HX|].
      unfold X. destruct grow eqn:Eg.
      * rewrite app_length, map_length. cbn. lia.
      * rewrite map_length. destruct (Hng eq_refl) as [H|H]; lia.
Qed.

(* the new slot and state of candidate i abstract to the abstract extension *)
Lemma cnew_alpha i : i < pw b * V ->
  alpha (S t) (cnew i, nth (n * pw b + i / V) innext dstate) = aext t x (acands t x) i.
Proof.
  intros Hi. rewrite <- cs_abs. set (k := i / V). assert (Hk : k < pw b) by (apply div_lt_rows; lia).
  rewrite innext_nth by exact Hk.
  set (sl := nth k slots dslot). destruct (slot_wf k Hk) as (Hl & HhS & Ht0). fold sl in Hl, HhS, Ht0.
  set (v := Z.of_nat (i mod V)).
  assert (Hvr : (0 <= v < Z.of_nat V)%Z) by (unfold v; pose proof (Nat.mod_upper_bound i V); lia).
  (* the valid prefix of the new concrete slot *)
  assert (Hpath : vpath (cnew i) = if eos_at t sl then vpath sl else vpath sl ++ [v]).
  { destruct (cext_len i Hi) as (Hle & _). pose proof (cext_path i Hi) as Hp. fold k sl v in Hp, Hle.
    unfold cnew, vpath. fold k sl. cbn [col len]. rewrite pad_row_len, pad_row_col.
    destruct (padded (hS b) grow); [|exact Hp].
    rewrite firstn_app_le; [exact Hp|]. destruct (eos_at t sl); lia. }
  assert (Hsc : sc (cnew i) = nth i cs None).
  { unfold cnew. cbn [sc]. rewrite pad_row_sc. unfold cext. destruct (hS b); cbn; reflexivity. }
  unfold alpha, Abstract.aext. cbn [fst snd]. fold k.
  rewrite Hpath, Hsc, (afin_x k Hk), (apath_x k Hk). fold sl v.
  (* both sides are [anorm (S t)] of records that differ at most in the state, and the state only matters when the
     new slot is live; its source is live then, and the language model saw the same history *)
  apply anorm_state. intros Eal.
  assert (Hals : alive t (nth k x adflt) = true).
  { apply (aext_alive calc dstate V width eos Hlm HV Hwidth s0 t x i Hinv); [now rewrite x_length|].
    unfold Abstract.aext. fold k. rewrite anorm_alive, (afin_x k Hk), (apath_x k Hk), <- cs_abs. exact Eal. }
  destruct (live_x k Hk Hals) as (_ & _ & Hc). fold sl in Hc.
  rewrite lm_out_eq. fold sl. rewrite Hc, (apath_x k Hk). reflexivity.
Qed.

Lemma cpad_alpha st : alpha (S t) (cpad, st) = adflt.
Proof.
  unfold alpha, Abstract.anorm, Abstract.alive, vpath. cbn [fst snd]. unfold cpad.
  rewrite pad_row_len, pad_row_sc. reflexivity.
Qed.

(* ---- facts that do not need the invariant (they hold for frozen elements too) ------------- *)
Lemma padded_height (c : list Z) : adv_height (hS b) grow <= length c ->
  next_height (hS b) grow <= length (if padded (hS b) grow then c ++ [pad] else c).
Proof.
  intros H. unfold next_height, padded. destruct (adv_height (hS b) grow =? hS b).
  - rewrite app_length. cbn. lia.
  - exact H.
Qed.

Lemma cnew_wf i : i < pw b * V ->
  len (cnew i) <= length (col (cnew i)) /\ next_height (hS b) grow <= length (col (cnew i)).
Proof.
  intros Hi. destruct (cext_len i Hi) as (H1 & H2). unfold cnew. cbn [col len].
  rewrite pad_row_len, pad_row_col. split; [|now apply padded_height].
  destruct (padded (hS b) grow); [rewrite app_length; cbn|]; destruct (eos_at t _); lia.
Qed.

Lemma cpad_wf : len cpad <= length (col cpad) /\ next_height (hS b) grow <= length (col cpad).
Proof.
  unfold cpad. rewrite pad_row_len, pad_row_col. unfold cpad0. cbn [len col]. split; [lia|].
  apply padded_height. rewrite repeat_length. unfold adv_height. destruct (hS b); [lia|]. destruct grow; lia.
Qed.

Lemma to_width_id : t <> 0 -> to_width topk width (hS b) slots = slots.
Proof.
  intros Ht. unfold to_width. rewrite Hrow, (cw_pw _ _ _ Hwf).
  apply Nat.eqb_neq in Ht. rewrite Ht, Nat.ltb_irrefl. reflexivity.
Qed.

Lemma elem_step_frozen : frz && done_of t slots = true ->
  fst (elem_step t b grow frz innext n)
  = map (fun sl => mkSlot (col sl ++ [pad]) (len sl) (sc sl)) slots.
Proof.
  intros Hf. unfold Model.elem_step. change (nth n (beams b) []) with slots. cbn [fst]. rewrite Hf.
  unfold freeze. rewrite to_width_id; [reflexivity|].
  apply andb_prop in Hf. eapply done_of_pos. apply Hf.
Qed.

Lemma elem_step_fst_length : length (fst (elem_step t b grow frz innext n)) = width.
Proof.
  destruct (frz && done_of t slots) eqn:Ef.
  - rewrite elem_step_frozen, map_length, Hrow, (cw_pw _ _ _ Hwf) by exact Ef.
    apply andb_prop in Ef. destruct Ef as [_ Ef]. apply done_of_pos in Ef.
    apply Nat.eqb_neq in Ef. now rewrite Ef.
  - rewrite elem_step_fst, app_length, map_length, repeat_length by exact Ef.
    destruct ind_facts as (-> & _). unfold K. lia.
Qed.

Lemma elem_step_slot_wf sl : In sl (fst (elem_step t b grow frz innext n)) ->
  len sl <= length (col sl) /\ next_height (hS b) grow <= length (col sl).
Proof.
  destruct (frz && done_of t slots) eqn:Ef.
  - rewrite elem_step_frozen by exact Ef. intros Hin. apply in_map_iff in Hin.
    destruct Hin as (s & <- & Hs). cbn [len col]. rewrite app_length. cbn [length].
    destruct (cw_slot _ _ _ Hwf n s Hn Hs) as (H1 & H2 & _). split; [lia|].
    rewrite next_height_eq. destruct (hS b); lia.
  - rewrite elem_step_fst by exact Ef. intros Hin. apply in_app_or in Hin. destruct Hin as [Hin|Hin].
    + apply in_map_iff in Hin. destruct Hin as (i & <- & Hi). apply cnew_wf.
      destruct ind_facts as (_ & _ & Hlt). now apply Hlt.
    + apply repeat_spec in Hin. subst sl. apply cpad_wf.
Qed.

Lemma frozen_vslot : frz && done_of t slots = true ->
  map vslot (fst (elem_step t b grow frz innext n)) = map vslot slots.
Proof.
  intros Hf. rewrite elem_step_frozen by exact Hf. rewrite map_map. apply map_ext_in.
  intros sl Hs. unfold vslot, vpath. cbn [col len sc]. f_equal.
  apply firstn_app_le. now destruct (cw_slot _ _ _ Hwf n sl Hn Hs).
Qed.

(* ---- the live element: its abstraction takes one abstract step ------------------------------ *)
Lemma live_abs_step : frz && done_of t slots = false ->
  map (alpha (S t)) (combine (fst (elem_step t b grow frz innext n)) (snd (elem_step t b grow frz innext n)))
  = astep t x.
Proof.
  intros Hf. rewrite elem_step_fst by exact Hf. rewrite elem_step_snd, combine_map_app, map_app, map_map.
  unfold Abstract.astep. rewrite x_length.
  replace (Nat.min width (pw b * V)) with K by (unfold K; now rewrite Hrow).
  rewrite <- cs_abs. fold ind. f_equal.
  - apply map_ext_in. intros i Hi. rewrite cs_abs. apply cnew_alpha.
    destruct ind_facts as (_ & _ & Hlt). now apply Hlt.
  - induction (width - K) as [|m IH]; [reflexivity|]. cbn [repeat map]. now rewrite IH, cpad_alpha.
Qed.

End Elem.

(* ---- one iteration of the batched loop ------------------------------------------------------ *)
Lemma flat_map_map {A B C} (f : A -> B) (g : B -> list C) (l : list A) :
  flat_map g (map f l) = flat_map (fun a => g (f a)) l.
Proof. induction l; cbn; [reflexivity|]. now rewrite IHl. Qed.

Lemma map_nth_all {A} (d : A) (l : list A) : map (fun k => nth k l d) (seq 0 (length l)) = l.
Proof.
  apply (nth_ext _ _ d d).
  - now rewrite map_length, seq_length.
  - intros k Hk. rewrite map_length, seq_length in Hk. now rewrite nth_map_seq.
Qed.

Lemma done_of_eos t (slots : list slot) : done_of t slots = true -> eos <> None.
Proof.
  intros H E. unfold Model.done_of, active, Model.eos_at in H. rewrite E in H. cbn [andb] in H.
  destruct slots; cbn in H; discriminate.
Qed.

Section Step.
Variables (N t : nat) (b b' : @bstate state).
Hypothesis Hwf : CWf N t b.
Hypothesis Hstep : step t b = Some b'.

Let grow := grow_flag (hS b) (beams b).
Let dones := map (done_of t) (beams b).
Let frz := match eos with Some _ => existsb (fun x => x) dones | None => false end.
Let estep := elem_step t b grow frz (in_next t b).

Lemma step_form : b' = mkB (map fst (map estep (seq 0 N))) (flat_map snd (map estep (seq 0 N))) width
                           (next_height (hS b) grow).
Proof.
  unfold Model.step in Hstep. rewrite (cw_N _ _ _ Hwf) in Hstep.
  destruct (active eos t && forallb (fun x => x) (map (done_of t) (beams b))); [discriminate|].
  injection Hstep as <-. reflexivity.
Qed.

Lemma step_not_all_done : active eos t && forallb (fun x => x) dones = false.
Proof.
  unfold Model.step in Hstep. fold dones in Hstep.
  destruct (active eos t && forallb (fun x => x) dones); [discriminate|reflexivity].
Qed.

Lemma frz_done n : n < N -> frz && done_of t (cbeam b n) = done_of t (cbeam b n).
Proof.
  intros Hn. destruct (done_of t (cbeam b n)) eqn:Ed; [|apply andb_false_r].
  rewrite andb_true_r. unfold frz. pose proof (done_of_eos _ _ Ed) as He.
  destruct eos; [|congruence]. apply existsb_exists. exists true. split; [|reflexivity].
  unfold dones. rewrite <- Ed. apply in_map. apply nth_In. now rewrite (cw_N _ _ _ Hwf).
Qed.

Lemma cbeam_step n : n < N -> cbeam b' n = fst (estep n).
Proof.
  intros Hn. rewrite step_form. unfold cbeam. cbn [beams].
  rewrite map_map, (nth_map_seq (fun m => fst (estep m)) [] N n Hn). reflexivity.
Qed.

Lemma pw_step : pw b' = width.
Proof. now rewrite step_form. Qed.

Lemma cstates_step n : n < N -> cstates b' n = snd (estep n).
Proof.
  intros Hn. unfold cstates. rewrite pw_step.
  assert (Hl : length (snd (estep n)) = width).
  { unfold estep. now apply (elem_step_snd_length N). }
  rewrite <- (map_nth_all dstate (snd (estep n))). rewrite Hl.
  apply map_ext_in. intros k Hk. apply in_seq in Hk.
  unfold Model.st_of. rewrite pw_step. rewrite step_form at 1. cbn [prev].
  rewrite flat_map_map. rewrite (nth_flat_rows dstate width N); [reflexivity| |exact Hn|lia].
  intros m Hm. unfold estep. now apply (elem_step_snd_length N).
Qed.

Lemma step_wf : CWf N (S t) b'.
Proof.
  constructor.
  - rewrite step_form. cbn [beams]. now rewrite !map_length, seq_length.
  - now rewrite pw_step.
  - intros n Hn. rewrite cbeam_step, pw_step by exact Hn. unfold estep. now apply (elem_step_fst_length N).
  - intros _. rewrite step_form. cbn [hS]. rewrite next_height_eq. destruct (hS b); lia.
  - discriminate.
  - intros n sl Hn Hin. rewrite cbeam_step in Hin by exact Hn.
    destruct (elem_step_slot_wf N t b n Hwf Hn grow frz eq_refl sl Hin) as (H1 & H2).
    rewrite step_form. cbn [hS]. split; [exact H1|]. split; [exact H2|discriminate].
Qed.

(* the per-element relation between the batched state and the single-element search *)
Definition Rel (s0 : state) (t : nat) (b : @bstate state) (n : nat) (x : list aslot) : Prop :=
  AJ s0 t x /\ map vslot (cbeam b n) = map vaslot x /\ (adone t x = false -> abs t b n = x).

Lemma Rel_done s0 n x : n < N -> Rel s0 t b n x -> done_of t (cbeam b n) = adone t x.
Proof.
  intros Hn (_ & Hv & _). apply done_of_adone; [|exact Hv].
  intros sl Hs. now destruct (cw_slot _ _ _ Hwf n sl Hn Hs).
Qed.

Lemma Rel_step s0 n x : n < N -> Rel s0 t b n x -> Rel s0 (S t) b' n (atick t x).
Proof.
  intros Hn HR. pose proof (Rel_done s0 n x Hn HR) as Hd. destruct HR as (HJ & Hv & Ha).
  pose proof (AJ_tick topk calc dstate V width eos fin_all Htopk Hlm HV Hwidth s0 t x HJ) as HJ'.
  split; [exact HJ'|]. unfold Abstract.atick in *. destruct (adone t x) eqn:Ed.
  - (* frozen *)
    assert (Hf : frz && done_of t (cbeam b n) = true) by (now rewrite frz_done, Hd).
    split.
    + rewrite cbeam_step by exact Hn. unfold estep. rewrite (frozen_vslot N t b n Hwf Hn grow frz Hf). exact Hv.
    + intros Hnd. exfalso. pose proof (done_of_pos _ _ Hd) as Ht.
      rewrite (adone_S eos fin_all t x Ht) in Hnd. congruence.
  - (* live: one abstract step *)
    assert (Hf : frz && done_of t (cbeam b n) = false) by (now rewrite frz_done, Hd).
    specialize (Ha eq_refl).
    assert (Hinv : AInv s0 t x).
    { destruct HJ as [H|(t' & H0 & Hlt & _ & Hd')]; [exact H|].
      rewrite (@adone_later state V width eos fin_all HV Hwidth t' t x H0) in Ed by lia. congruence. }
    rewrite <- Ha in Hinv.
    pose proof (live_abs_step N t b n s0 Hwf Hn Hinv grow frz eq_refl Hf) as Hl.
    fold estep in Hl. rewrite <- cbeam_step, <- cstates_step in Hl by exact Hn.
    change (abs (S t) b' n = astep t (abs t b n)) in Hl. rewrite Ha in Hl.
    split; [|intros _; exact Hl].
    rewrite <- Hl. symmetry. apply (map_vaslot_abs N (S t)); [apply step_wf|exact Hn].
Qed.
End Step.

(* ---- the loop ---------------------------------------------------------------------------------- *)
Lemma arun_done fuel : forall t x, adone t x = true -> t <> 0 -> arun fuel t x = x.
Proof.
  induction fuel as [|f IH]; intros t x Hd Ht; cbn [Abstract.arun]; [reflexivity|].
  unfold Abstract.atick. rewrite Hd. apply IH; [|lia]. now rewrite adone_S.
Qed.

Lemma step_None t (b : @bstate state) : step t b = None ->
  t <> 0 /\ forall n, n < length (beams b) -> done_of t (cbeam b n) = true.
Proof.
  unfold Model.step. destruct (active eos t && forallb (fun x => x) (map (done_of t) (beams b))) eqn:E; [|discriminate].
  intros _. apply andb_prop in E. destruct E as [Ea Ef]. split.
  - intros ->. unfold active in Ea. destruct eos; discriminate.
  - intros n Hn. rewrite forallb_forall in Ef. apply Ef. apply in_map. now apply nth_In.
Qed.

Lemma loop_refine (N : nat) (s0s : nat -> state) : forall fuel t b (xs : nat -> list aslot),
  CWf N t b -> (forall n, n < N -> Rel (s0s n) t b n (xs n)) ->
  (exists t', CWf N t' (fst (loop fuel t b))) /\
  forall n, n < N -> map vslot (cbeam (fst (loop fuel t b)) n) = map vaslot (arun fuel t (xs n)).
Proof.
  induction fuel as [|f IH]; intros t b xs Hwf HR; cbn [Model.loop Abstract.arun].
  - split; [now exists t|]. intros n Hn. now destruct (HR n Hn) as (_ & Hv & _).
  - destruct (step t b) as [b'|] eqn:Es.
    + apply (IH (S t) b' (fun n => atick t (xs n))).
      * eapply step_wf; eassumption.
      * intros n Hn. eapply Rel_step; eauto.
    + cbn [fst]. split; [now exists t|]. intros n Hn.
      destruct (step_None t b Es) as (Ht & Hd).
      assert (Hdn : adone t (xs n) = true).
      { rewrite <- (Rel_done N t b Hwf (s0s n) n (xs n) Hn (HR n Hn)). apply Hd. now rewrite (cw_N _ _ _ Hwf). }
      change (arun f (S t) (atick t (xs n))) with (arun (S f) t (xs n)).
      rewrite arun_done by assumption. now destruct (HR n Hn) as (_ & Hv & _).
Qed.

(* ---- forward() ----------------------------------------------------------------------------------- *)
Lemma init_wf (inits : list state) : CWf (length inits) 0 (init_b inits).
Proof.
  constructor; unfold init_b; cbn [beams pw hS].
  - now rewrite map_length.
  - reflexivity.
  - intros n Hn. unfold cbeam. cbn [beams].
    rewrite (nth_map_lt _ _ _ dstate) by exact Hn. reflexivity.
  - congruence.
  - reflexivity.
  - intros n sl Hn Hin. unfold cbeam in Hin. cbn [beams] in Hin.
    rewrite (nth_map_lt _ _ _ dstate) in Hin by exact Hn. destruct Hin as [<-|[]]. cbn. auto.
Qed.

Lemma init_rel (inits : list state) n : n < length inits ->
  Rel (nth n inits dstate) 0 (init_b inits) n (ainit (nth n inits dstate)).
Proof.
  intros Hn. assert (Hc : cbeam (init_b inits) n = [mkSlot [] 0 (Some 0%Z)]).
  { unfold cbeam, init_b. cbn [beams]. now rewrite (nth_map_lt _ _ _ dstate) by exact Hn. }
  split; [left; now apply AInv_init|]. split.
  - rewrite Hc. reflexivity.
  - intros _. unfold abs, cstates. rewrite Hc. change (pw (init_b inits)) with 1. cbn [seq map combine].
    unfold Model.st_of. change (pw (init_b inits)) with 1. change (prev (init_b inits)) with inits.
    rewrite Nat.mul_1_r, Nat.add_0_r.
    unfold alpha, Abstract.anorm, Abstract.alive, Abstract.afin. cbn [fst snd sc vpath len col firstn apath asc sfin].
    rewrite pfin_0. reflexivity.
Qed.

Lemma to_width_vslot (S : nat) (slots : list slot) (x : list aslot) :
  length slots = 1 \/ length slots = width ->
  map vslot slots = map vaslot x ->
  map vslot (to_width topk width S slots) = map vaslot (awidth x).
Proof.
  intros Hl Hv. assert (Hlx : length x = length slots).
  { apply (f_equal (@length _)) in Hv. now rewrite !map_length in Hv. }
  unfold to_width, Abstract.awidth. rewrite Hlx.
  destruct (length slots <? width) eqn:E1.
  - rewrite !map_app, Hv. f_equal.
    induction (width - length slots) as [|m IH]; [reflexivity|]. cbn [repeat map]. now rewrite IH.
  - apply Nat.ltb_ge in E1. replace (width <? length slots) with false; [exact Hv|].
    symmetry. apply Nat.ltb_ge. lia.
Qed.

Theorem search_refines fuel (inits : list state) :
  let out := fst (fst (search fuel inits)) in
  length out = length inits /\
  forall n, n < length inits ->
    map vslot (nth n out []) = map vaslot (asearch fuel (nth n inits dstate)) /\
    forall sl, In sl (nth n out []) -> len sl <= length (col sl).
Proof.
  cbn zeta. unfold Model.search. cbn [fst].
  set (N := length inits).
  destruct (loop_refine N (fun n => nth n inits dstate) fuel 0 (init_b inits)
              (fun n => ainit (nth n inits dstate)) (init_wf inits) (init_rel inits))
    as ((t' & Hwf) & Href).
  set (bf := fst (loop fuel 0 (init_b inits))) in *.
  split; [now rewrite map_length, (cw_N _ _ _ Hwf)|].
  intros n Hn.
  assert (Hnth : nth n (map (to_width topk width (hS bf)) (beams bf)) [] = to_width topk width (hS bf) (cbeam bf n)).
  { unfold cbeam. rewrite (nth_map_lt _ _ _ []) by (now rewrite (cw_N _ _ _ Hwf)). reflexivity. }
  rewrite Hnth.
  assert (Hlen : length (cbeam bf n) = 1 \/ length (cbeam bf n) = width).
  { rewrite (cw_row _ _ _ Hwf n Hn), (cw_pw _ _ _ Hwf). destruct (t' =? 0); auto. }
  split.
  - unfold Abstract.asearch. apply to_width_vslot; [exact Hlen|]. now apply Href.
  - intros sl Hin. unfold to_width in Hin.
    destruct (length (cbeam bf n) <? width).
    + apply in_app_or in Hin. destruct Hin as [Hin|Hin].
      * now destruct (cw_slot _ _ _ Hwf n sl Hn Hin).
      * apply repeat_spec in Hin. subst sl. cbn. lia.
    + destruct (width <? length (cbeam bf n)) eqn:E2.
      * apply Nat.ltb_lt in E2. lia.
      * now destruct (cw_slot _ _ _ Hwf n sl Hn Hin).
Qed.
End Refine.
