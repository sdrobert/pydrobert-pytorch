(* C18 — feat_deltas on N-dimensional tensors: the transposes / flatten / view / movedim of the
   code lay the per-line deltas out along the requested dimension, by stacking or by
   concatenation, for every (dim, time_dim, concatenate). *)
From Coq Require Import List ZArith QArith Qabs Bool Arith Lia.
From PV Require Import MiniTorch.Lemmas C18.Model C18.Spec C18.QLemmas C18.Tensor C18.ProofsPad C18.ProofsDeltas.
Import ListNotations.
Local Open Scope nat_scope.

Lemma nth_app_if : forall (a b : list nat) k,
  nth k (a ++ b) 0 = if k <? length a then nth k a 0 else nth (k - length a) b 0.
Proof.
  intros a b k. destruct (Nat.ltb_spec k (length a)); [now rewrite app_nth1|now rewrite app_nth2].
Qed.

Lemma removelast_last : forall (l : list nat), l <> [] -> l = removelast l ++ [nth (length l - 1) l 0].
Proof. intros l H. rewrite <- last_nth. now apply app_removelast_last. Qed.

Lemma tau_l : forall i j, tau i j i = j.
Proof. intros. unfold tau. now rewrite Nat.eqb_refl. Qed.

Lemma tau_r : forall i j, tau i j j = i.
Proof. intros. unfold tau. destruct (Nat.eqb_spec j i); [now subst|]. now rewrite Nat.eqb_refl. Qed.

Lemma tau_other : forall i j k, k <> i -> k <> j -> tau i j k = k.
Proof.
  intros i j k H1 H2. unfold tau.
  destruct (Nat.eqb_spec k i); [contradiction|]. destruct (Nat.eqb_spec k j); [contradiction|reflexivity].
Qed.

Lemma swapl_app_left : forall l r i j, i < length l -> j < length l ->
  swapl (l ++ r) i j = swapl l i j ++ r.
Proof.
  intros l r i j Hi Hj. apply nth_ext_nat.
  - now rewrite length_swapl, !app_length, length_swapl.
  - intros k Hk. rewrite length_swapl, app_length in Hk.
    rewrite nth_swapl by (rewrite app_length; lia).
    rewrite !nth_app_if, length_swapl.
    destruct (Nat.ltb_spec k (length l)) as [H|H].
    + pose proof (tau_lt i j k (length l) Hi Hj H) as Ht.
      destruct (Nat.ltb_spec (tau i j k) (length l)); [|lia].
      now rewrite nth_swapl.
    + rewrite tau_other by lia. destruct (Nat.ltb_spec k (length l)); [lia|reflexivity].
Qed.

Lemma swapl_adjacent : forall l1 a b l2,
  swapl (l1 ++ [a; b] ++ l2) (length l1) (S (length l1)) = l1 ++ [b; a] ++ l2.
Proof.
  intros l1 a b l2. set (p := length l1). apply nth_ext_nat.
  - now rewrite length_swapl, !app_length.
  - intros k Hk. rewrite length_swapl in Hk.
    rewrite nth_swapl by assumption. rewrite !app_length in Hk. cbn [length] in Hk. fold p in Hk.
    rewrite !nth_app_if. fold p.
    destruct (Nat.lt_total k p) as [H|[H|H]].
    + rewrite tau_other by lia. destruct (Nat.ltb_spec k p); [reflexivity|lia].
    + subst k. rewrite tau_l.
      destruct (Nat.ltb_spec (S p) p); [lia|]. destruct (Nat.ltb_spec p p); [lia|].
      replace (S p - p) with 1 by lia. rewrite Nat.sub_diag. reflexivity.
    + destruct (Nat.eq_dec k (S p)) as [E|E].
      * subst k. rewrite tau_r.
        destruct (Nat.ltb_spec (S p) p); [lia|]. destruct (Nat.ltb_spec p p); [lia|].
        replace (S p - p) with 1 by lia. rewrite Nat.sub_diag. reflexivity.
      * rewrite tau_other by lia. destruct (Nat.ltb_spec k p); [lia|].
        replace (k - p) with (S (S (k - p - 2))) by lia. reflexivity.
Qed.

Lemma transpose_adjacent : forall z A e f C,
  shape z = A ++ [e; f] ++ C ->
  shape (transpose z (length A) (S (length A))) = A ++ [f; e] ++ C /\
  forall a i j c, valid A a -> i < e -> j < f -> valid C c ->
    get (transpose z (length A) (S (length A))) (a ++ [j; i] ++ c) = get z (a ++ [i; j] ++ c).
Proof.
  intros z A e f C Hsh.
  assert (Hs : shape (transpose z (length A) (S (length A))) = A ++ [f; e] ++ C)
    by (rewrite shape_transpose, Hsh; apply swapl_adjacent).
  split; [exact Hs|]. intros a i j c Ha Hi Hj Hc. rewrite get_transpose.
  - f_equal. rewrite <- (valid_length _ _ Ha). apply swapl_adjacent.
  - rewrite Hsh, !app_length. cbn [length]. lia.
  - rewrite Hsh, !app_length. cbn [length]. lia.
  - rewrite <- shape_transpose, Hs. apply valid_app; [assumption|]. apply valid_app; [now apply valid2|assumption].
Qed.

Lemma swapl_with_last : forall l i, i < length l ->
  swapl l i (length l - 1) = removelast (swapl l i (length l - 1)) ++ [nth i l 0].
Proof.
  intros l i Hi. set (s := swapl l i (length l - 1)).
  assert (Hs : s <> []) by (intros E; apply (f_equal (@length nat)) in E; unfold s in E; rewrite length_swapl in E; cbn in E; lia).
  rewrite (removelast_last s Hs) at 1. f_equal. f_equal.
  unfold s. rewrite length_swapl, nth_swapl by lia. now rewrite tau_r.
Qed.

Lemma firstn_app_exact : forall {A} (a b : list A), firstn (length a) (a ++ b) = a.
Proof. intros. rewrite firstn_app, Nat.sub_diag, firstn_all. cbn. apply app_nil_r. Qed.

Lemma skipn_app_exact : forall {A} (a b : list A), skipn (length a) (a ++ b) = b.
Proof. intros. rewrite skipn_app, Nat.sub_diag, skipn_all. reflexivity. Qed.

Lemma valid_mid_inv : forall A e B idx, valid (A ++ e :: B) idx ->
  exists a u b, idx = a ++ u :: b /\ valid A a /\ u < e /\ valid B b.
Proof.
  intros A e B idx H. destruct (valid_app_inv _ _ _ H) as [a [r [-> [Ha Hr]]]].
  inversion Hr; subst. eauto 8.
Qed.

Lemma app_inj_len : forall {A} (a a' b b' : list A), length a = length a' ->
  a ++ b = a' ++ b' -> a = a' /\ b = b'.
Proof.
  induction a as [|x a IH]; intros [|y a'] b b' HL E; cbn in HL; try discriminate.
  - auto.
  - cbn [app] in E. inversion E; subst. destruct (IH a' b b' ltac:(lia) H1) as [-> ->]. auto.
Qed.

Lemma valid_app_inv_len : forall sh1 sh2 a b, length a = length sh1 ->
  valid (sh1 ++ sh2) (a ++ b) -> valid sh1 a /\ valid sh2 b.
Proof.
  intros sh1 sh2 a b HL H. destruct (valid_app_inv _ _ _ H) as [a' [b' [E [Ha Hb]]]].
  assert (length a' = length sh1) by now apply valid_length.
  assert (a = a' /\ b = b') as [-> ->].
  { apply app_inj_len; [lia|assumption]. }
  auto.
Qed.

Lemma length_set_nth : forall l k v, k < length l -> length (set_nth l k v) = length l.
Proof.
  intros l k v H. unfold set_nth. rewrite !app_length, firstn_length, skipn_length. cbn [length]. lia.
Qed.

Lemma nth_set_nth : forall l k v j, k < length l ->
  nth j (set_nth l k v) 0 = if j =? k then v else nth j l 0.
Proof.
  unfold set_nth. induction l as [|x l IH]; intros [|k] v [|j] H; cbn in H |- *; try (exfalso; lia); try reflexivity.
  apply IH. lia.
Qed.

Lemma concat_flat_map_id : forall {A} (ll : list (list A)), concat ll = flat_map (fun r => r) ll.
Proof. intros. rewrite flat_map_concat_map, map_id. reflexivity. Qed.

Lemma nth_chunk : forall T n (l : list Q) t, (t < T) -> nth t (chunk T n l) 0%Q = nth (n * T + t) l 0%Q.
Proof. intros. unfold chunk. rewrite nth_firstn_Q by assumption. now rewrite nth_skipn_Q. Qed.

Lemma length_chunk : forall T n (l : list Q), (S n) * T <= length l -> length (chunk T n l) = T.
Proof. intros. unfold chunk. rewrite firstn_length, skipn_length. nia. Qed.

(* the tensor feat_deltas holds after its second pair of transposes: per-line deltas in the
   (.., order, time) layout, moved back to (original shape, order) *)
Definition dl_y2 (x : tensor) (td o w : nat) (m : padmode) (v : Q) : tensor :=
  let D := length (shape x) in
  let x1 := transpose x td (D - 1) in
  let T := last (shape x1) 0 in
  let pre := removelast (shape x1) in
  let lines := map (fun n => chunk T n (data x1)) (seq 0 (prodn pre)) in
  let y := mkT (pre ++ [S o; T]) (concat (map (fun l => concat (delta_line m v o w l)) lines)) in
  transpose (transpose y (D - 1) D) td (D - 1).

Section Pipeline.
  Variables (x : tensor) (td o w : nat) (m : padmode) (v : Q).
  Let sh := shape x.
  Let D := length sh.
  Let x1 := transpose x td (D - 1).
  Let T := last (shape x1) 0.
  Hypothesis Htd : td < D.
  Hypothesis HT : 1 <= T.
  Hypothesis Hok : pad_ok m (w * o) T = true.

  Let pre := removelast (shape x1).

  Lemma T_eq : T = nth td sh 0.
  Proof.
    clear HT Hok.
    unfold T, x1. rewrite shape_transpose, last_nth, length_swapl. fold sh. fold D.
    rewrite nth_swapl by (fold D; lia). now rewrite tau_r.
  Qed.
  Let lines := map (fun n => chunk T n (data x1)) (seq 0 (prodn pre)).
  Let y := mkT (pre ++ [S o; T]) (concat (map (fun l => concat (delta_line m v o w l)) lines)).
  Let y1 := transpose y (D - 1) D.
  Let y2 := transpose y1 td (D - 1).

  Lemma shape_x1 : shape x1 = pre ++ [T].
  Proof.
    rewrite T_eq. unfold pre, x1. rewrite shape_transpose. fold sh. unfold D.
    rewrite (swapl_with_last sh td Htd) at 1. reflexivity.
  Qed.

  Lemma length_pre : length pre = D - 1.
  Proof.
    pose proof shape_x1 as H. apply (f_equal (@length nat)) in H.
    unfold x1 in H. rewrite shape_transpose, length_swapl, app_length in H. cbn [length] in H.
    fold sh in H. fold D in H. lia.
  Qed.

  Lemma swapl_sh : swapl sh td (D - 1) = pre ++ [T].
  Proof. rewrite <- shape_x1. reflexivity. Qed.

  Lemma length_data_x1 : length (data x1) = prodn pre * T.
  Proof.
    unfold x1. rewrite data_transpose, map_length, length_indices. fold sh.
    rewrite swapl_sh, prodn_app. cbn. lia.
  Qed.

  Lemma get_x1 : forall ipre t, valid pre ipre -> t < T ->
    get x1 (ipre ++ [t]) = get x (swapl (ipre ++ [t]) td (D - 1)).
  Proof.
    intros ipre t Hv Ht. unfold x1. apply get_transpose; fold sh; fold D; try lia.
    rewrite swapl_sh. apply valid_app; [assumption|]. now apply valid1.
  Qed.

  Lemma nth_line : forall ipre t, valid pre ipre -> t < T ->
    nth t (chunk T (ravel pre ipre) (data x1)) 0%Q = get x1 (ipre ++ [t]).
  Proof.
    intros ipre t Hv Ht. rewrite nth_chunk by assumption. unfold get. rewrite shape_x1.
    rewrite ravel_app by now apply valid_length. cbn [ravel prodn fold_right]. f_equal. lia.
  Qed.

  Lemma length_line : forall n, n < prodn pre -> length (chunk T n (data x1)) = T.
  Proof. intros n Hn. apply length_chunk. rewrite length_data_x1. nia. Qed.

  Lemma rows_of_delta_line : forall l r, length l = T -> In r (delta_line m v o w l) -> length r = T.
  Proof.
    intros l r Hl Hin. apply (In_nth _ _ []) in Hin. destruct Hin as [u [Hu <-]].
    rewrite length_delta_line in Hu. rewrite length_delta_line_nth; [assumption|lia|now rewrite Hl].
  Qed.

  Lemma get_y : forall ipre u t, valid pre ipre -> u <= o -> t < T ->
    get y (ipre ++ [u; t]) =
    nth t (nth u (delta_line m v o w (chunk T (ravel pre ipre) (data x1))) []) 0%Q.
  Proof.
    intros ipre u t Hv Hu Ht. unfold get, y. cbn [shape data].
    rewrite ravel_app by now apply valid_length.
    pose proof (ravel_lt _ _ Hv) as Hn.
    replace (ravel [S o; T] [u; t]) with (u * T + t) by (cbn; lia).
    replace (prodn [S o; T]) with (S o * T) by (cbn; lia).
    rewrite <- flat_map_concat_map.
    rewrite (nth_flat_map_const _ lines (S o * T) (ravel pre ipre) (u * T + t) [] 0%Q).
    - unfold lines. rewrite nth_map_seq by assumption.
      rewrite concat_flat_map_id.
      rewrite (nth_flat_map_const _ _ T u t [] 0%Q); [reflexivity| | |assumption].
      + intros r Hr. apply (rows_of_delta_line (chunk T (ravel pre ipre) (data x1))); [|assumption].
        now apply length_line.
      + rewrite length_delta_line. lia.
    - intros l Hl. unfold lines in Hl. apply in_map_iff in Hl. destruct Hl as [n [<- Hn']].
      apply in_seq in Hn'. rewrite concat_flat_map_id.
      rewrite (length_flat_map_const _ _ T).
      + now rewrite length_delta_line.
      + intros r Hr. apply (rows_of_delta_line (chunk T n (data x1))); [|assumption].
        apply length_line. lia.
    - unfold lines. now rewrite map_length, seq_length.
    - nia.
  Qed.

  Lemma y1_adjacent : y1 = transpose y (length pre) (S (length pre)).
  Proof. unfold y1. rewrite length_pre. replace (S (D - 1)) with D by lia. reflexivity. Qed.

  Lemma shape_y1 : shape y1 = pre ++ [T; S o].
  Proof. rewrite y1_adjacent. exact (proj1 (transpose_adjacent y pre (S o) T [] eq_refl)). Qed.

  Lemma get_y1 : forall ipre u t, valid pre ipre -> u <= o -> t < T ->
    get y1 (ipre ++ [t; u]) = get y (ipre ++ [u; t]).
  Proof.
    intros ipre u t Hv Hu Ht. rewrite y1_adjacent.
    apply (proj2 (transpose_adjacent y pre (S o) T [] eq_refl) ipre u t []); try assumption; [lia|constructor].
  Qed.

  Lemma shape_y2 : shape y2 = sh ++ [S o].
  Proof.
    unfold y2. rewrite shape_transpose, shape_y1.
    change (pre ++ [T; S o]) with (pre ++ [T] ++ [S o]). rewrite app_assoc.
    rewrite swapl_app_left by (rewrite app_length, length_pre; cbn [length]; lia).
    rewrite <- swapl_sh. rewrite swapl_invol by (fold D; lia). reflexivity.
  Qed.

  (* position td of a source index goes last, like the shape *)
  Lemma swapl_isrc : forall isrc, valid sh isrc ->
    let ipre := removelast (swapl isrc td (D - 1)) in
    swapl isrc td (D - 1) = ipre ++ [nth td isrc 0] /\ valid pre ipre.
  Proof.
    intros isrc Hv ipre. pose proof (valid_length _ _ Hv) as HL. fold D in HL.
    assert (E : swapl isrc td (D - 1) = ipre ++ [nth td isrc 0]).
    { unfold ipre. rewrite <- HL. apply swapl_with_last. lia. }
    pose proof T_eq as HTeq.
    split; [exact E|].
    assert (Hv' : valid (swapl sh td (D - 1)) (swapl isrc td (D - 1))) by (apply valid_swapl; fold D; lia || assumption).
    rewrite swapl_sh, E in Hv'.
    apply valid_app_inv_len in Hv'; [tauto|].
    apply (f_equal (@length nat)) in E. rewrite length_swapl, app_length in E. cbn [length] in E.
    rewrite length_pre. lia.
  Qed.

  Lemma swapl_back : forall isrc t', valid sh isrc ->
    swapl (removelast (swapl isrc td (D - 1)) ++ [t']) td (D - 1) = set_nth isrc td t'.
  Proof.
    intros isrc t' Hv. pose proof (valid_length _ _ Hv) as HL. fold D in HL.
    destruct (swapl_isrc isrc Hv) as [E Hvp]. set (ipre := removelast (swapl isrc td (D - 1))) in *.
    assert (Lp : length ipre = D - 1) by (rewrite (valid_length _ _ Hvp); apply length_pre).
    apply nth_ext_nat.
    - rewrite length_swapl, app_length, length_set_nth by lia. cbn [length]. lia.
    - intros k Hk. rewrite length_swapl, app_length in Hk. cbn [length] in Hk.
      rewrite nth_swapl by (rewrite app_length; cbn [length]; lia).
      rewrite nth_set_nth by lia.
      assert (Hipre : forall j, j < D - 1 -> nth j ipre 0 = nth (tau td (D - 1) j) isrc 0).
      { intros j Hj. rewrite <- nth_swapl by lia. rewrite E. rewrite app_nth1 by lia. reflexivity. }
      destruct (Nat.eqb_spec k td) as [Ek|Ek].
      + subst k. rewrite tau_l. rewrite app_nth2 by lia. rewrite Lp, Nat.sub_diag. reflexivity.
      + destruct (Nat.eq_dec k (D - 1)) as [Ek'|Ek'].
        * subst k. rewrite tau_r. rewrite app_nth1 by lia. rewrite Hipre by lia. now rewrite tau_l.
        * rewrite tau_other by assumption. rewrite app_nth1 by lia. rewrite Hipre by lia.
          now rewrite tau_other.
  Qed.

  (* the line of the code = the line of the specification *)
  Lemma line_eq : forall isrc, valid sh isrc ->
    let ipre := removelast (swapl isrc td (D - 1)) in
    chunk T (ravel pre ipre) (data x1) = line x td isrc.
  Proof.
    intros isrc Hv ipre. destruct (swapl_isrc isrc Hv) as [E Hvp]. fold ipre in E, Hvp.
    apply (nth_ext _ _ 0%Q 0%Q).
    - rewrite length_line by now apply ravel_lt. unfold line. fold sh. rewrite <- T_eq. now rewrite map_length, seq_length.
    - intros t Ht. rewrite length_line in Ht by now apply ravel_lt.
      rewrite nth_line, get_x1 by assumption.
      unfold line. fold sh. rewrite <- T_eq. rewrite nth_map_seq by assumption.
      unfold ipre. now rewrite swapl_back.
  Qed.

  (* normal form of the first half: y2 has shape (original shape, order) and holds, at a
     source position and an order u, the u-th delta of the time line through that position *)
  Lemma y2_is : dl_y2 x td o w m v = y2.
  Proof. reflexivity. Qed.

  Lemma get_y2 : forall isrc u, valid sh isrc -> u <= o ->
    get y2 (isrc ++ [u]) =
    nth (nth td isrc 0) (nth u (delta_line m v o w (line x td isrc)) []) 0%Q.
  Proof.
    intros isrc u Hv Hu. pose proof (valid_length _ _ Hv) as HL. fold D in HL.
    destruct (swapl_isrc isrc Hv) as [E Hvp]. set (ipre := removelast (swapl isrc td (D - 1))) in *.
    assert (Ht : nth td isrc 0 < T) by (rewrite T_eq; apply valid_nth; [assumption|fold D; lia]).
    unfold y2. rewrite get_transpose.
    - rewrite swapl_app_left by lia. rewrite E. rewrite <- app_assoc. cbn [app].
      rewrite get_y1, get_y by assumption. unfold ipre. rewrite (line_eq isrc Hv). reflexivity.
    - rewrite shape_y1, app_length, length_pre. cbn [length]. lia.
    - rewrite shape_y1, app_length, length_pre. cbn [length]. lia.
    - change (swapl (shape y1) td (D - 1)) with (shape y2). rewrite shape_y2.
      apply valid_app; [assumption|]. apply valid1. lia.
  Qed.
End Pipeline.

Lemma dl_y2_spec : forall x td o w m v,
  td < length (shape x) -> 1 <= nth td (shape x) 0 -> pad_ok m (w * o) (nth td (shape x) 0) = true ->
  shape (dl_y2 x td o w m v) = shape x ++ [S o] /\
  forall isrc u, valid (shape x) isrc -> u <= o ->
    get (dl_y2 x td o w m v) (isrc ++ [u]) =
    nth (nth td isrc 0) (nth u (delta_line m v o w (line x td isrc)) []) 0%Q.
Proof.
  intros x td o w m v Htd HT Hok.
  rewrite <- (T_eq x td Htd) in HT, Hok.
  split.
  - exact (shape_y2 x td o w m v Htd HT).
  - intros isrc u Hv Hu. exact (get_y2 x td o w m v Htd HT Hok isrc u Hv Hu).
Qed.

Lemma split_last : forall (l : list nat) k, length l = S k -> exists l' e, l = l' ++ [e] /\ length l' = k.
Proof.
  intros l k H. destruct (exists_last (l := l)) as [l' [e E]]; [intros ->; discriminate|].
  exists l', e. split; [assumption|]. subst. rewrite app_length in H. cbn in H. lia.
Qed.

Lemma move_left_spec : forall k z A Bk Sz C,
  length Bk = k -> shape z = A ++ Bk ++ [Sz] ++ C ->
  shape (move_left k (length A + k) z) = A ++ [Sz] ++ Bk ++ C /\
  forall a b u c, valid A a -> valid Bk b -> u < Sz -> valid C c ->
    get (move_left k (length A + k) z) (a ++ [u] ++ b ++ c) = get z (a ++ b ++ [u] ++ c).
Proof.
  induction k as [|k IH]; intros z A Bk Sz C HL Hsh.
  - destruct Bk; [|discriminate]. cbn [move_left app] in *. split; [assumption|].
    intros a b u c Ha Hb Hu Hc. inversion Hb. reflexivity.
  - destruct (split_last Bk k HL) as [Bk' [e [-> HL']]].
    cbn [move_left]. replace (length A + S k - 1) with (length A + k) by lia.
    assert (Hsh0 : shape z = (A ++ Bk') ++ [e; Sz] ++ C) by (rewrite Hsh, <- !app_assoc; reflexivity).
    destruct (transpose_adjacent z (A ++ Bk') e Sz C Hsh0) as [Hs' Hg'].
    rewrite app_length, HL' in Hs', Hg'. replace (S (length A + k)) with (length A + S k) in Hs', Hg' by lia.
    rewrite <- app_assoc in Hs'.
    destruct (IH _ A Bk' Sz ([e] ++ C) HL' Hs') as [IHs IHg]. split.
    + rewrite IHs, <- !app_assoc. reflexivity.
    + intros a b u c Ha Hb Hu Hc.
      destruct (valid_mid_inv Bk' e [] b Hb) as [b' [ie0 [b0 [-> [Hb' [Hie0 Hb0]]]]]]. inversion Hb0; subst b0.
      replace (a ++ [u] ++ (b' ++ [ie0]) ++ c) with (a ++ [u] ++ b' ++ ([ie0] ++ c))
        by (rewrite <- !app_assoc; reflexivity).
      rewrite IHg; try assumption; [|apply valid_app; [now apply valid1|assumption]].
      replace (a ++ b' ++ [u] ++ [ie0] ++ c) with ((a ++ b') ++ [u; ie0] ++ c) by (rewrite <- !app_assoc; reflexivity).
      rewrite Hg'; try assumption; [|now apply valid_app]. rewrite <- !app_assoc. reflexivity.
Qed.

Lemma movedim_last_spec : forall z sh So dm,
  shape z = sh ++ [So] -> dm <= length sh ->
  shape (movedim_last z dm) = firstn dm sh ++ [So] ++ skipn dm sh /\
  forall a b u, valid (firstn dm sh) a -> valid (skipn dm sh) b -> u < So ->
    get (movedim_last z dm) (a ++ [u] ++ b) = get z (a ++ b ++ [u]).
Proof.
  intros z sh So dm Hsh Hdm. unfold movedim_last. rewrite Hsh, app_length. cbn [length].
  replace (length sh + 1 - 1 - dm) with (length sh - dm) by lia.
  replace (length sh + 1 - 1) with (length (firstn dm sh) + (length sh - dm))
    by (rewrite firstn_length; lia).
  destruct (move_left_spec (length sh - dm) z (firstn dm sh) (skipn dm sh) So []) as [Hs Hg].
  - rewrite skipn_length. reflexivity.
  - rewrite Hsh. rewrite <- (firstn_skipn dm sh) at 1. rewrite <- !app_assoc. reflexivity.
  - split.
    + rewrite Hs, app_nil_r. reflexivity.
    + intros a b u Ha Hb Hu.
      specialize (Hg a b u [] Ha Hb Hu ltac:(constructor)). rewrite !app_nil_r in Hg. exact Hg.
Qed.

Lemma get_merged : forall z A P X B a q b,
  shape z = A ++ [P; X] ++ B -> length a = length A -> 0 < X ->
  get (mkT (A ++ [P * X] ++ B) (data z)) (a ++ [q] ++ b) = get z (a ++ [q / X; q mod X] ++ b).
Proof.
  intros z A P X B a q b Hsh La HX. unfold get. cbn [shape data]. rewrite Hsh. f_equal.
  rewrite (ravel_app A a ([P * X] ++ B) ([q] ++ b) La).
  rewrite (ravel_app A a ([P; X] ++ B) ([q / X; q mod X] ++ b) La).
  cbn [app ravel]. rewrite !prodn_cons.
  pose proof (Nat.div_mod q X ltac:(lia)) as E.
  set (d := q / X) in *. set (r := q mod X) in *. rewrite E. ring.
Qed.

Lemma feat_deltas_ok : forall x dim time_dim (conc : bool) order width m v out,
  feat_deltas x dim time_dim conc order width m v = Ok out ->
  exists td dm,
    (0 <= order)%Z /\ (1 <= width)%Z /\
    norm_dim (length (shape x)) time_dim = Some td /\
    norm_dim (if conc then length (shape x) else S (length (shape x))) dim = Some dm /\
    1 <= nth td (shape x) 0 /\
    pad_ok m (Z.to_nat width * Z.to_nat order) (nth td (shape x) 0) = true /\
    out = (let y3 := movedim_last (dl_y2 x td (Z.to_nat order) (Z.to_nat width) m v) dm in
           if conc then mkT (merge_dims (shape y3) dm) (data y3) else y3).
Proof.
  intros x dim time_dim conc order width m v out H. unfold feat_deltas in H.
  destruct (Z.ltb_spec order 0) as [Ho|Ho]; [discriminate|].
  destruct (Z.ltb_spec width 1) as [Hw|Hw]; [discriminate|].
  destruct (norm_dim (length (shape x)) time_dim) as [td|] eqn:Etd; [|discriminate].
  destruct (norm_dim (if conc then length (shape x) else S (length (shape x))) dim) as [dm|] eqn:Edm; [|discriminate].
  pose proof (norm_dim_lt _ _ _ Etd) as Htd.
  cbv zeta in H. rewrite (T_eq x td Htd) in H.
  destruct (negb match m with Constant => true | _ => Qeq_bool v 0 end); [discriminate|].
  destruct (Nat.eqb_spec (nth td (shape x) 0) 0) as [HT|HT]; [discriminate|].
  destruct (pad_ok m (Z.to_nat width * Z.to_nat order) (nth td (shape x) 0)) eqn:Hok; [|discriminate].
  cbn [negb] in H. inversion H as [Hout]. clear H.
  exists td, dm. repeat split; try assumption; try lia.
  unfold dl_y2. cbv zeta. rewrite (T_eq x td Htd). reflexivity.
Qed.

Lemma skipn_cons_nth : forall (l : list nat) k, k < length l -> skipn k l = nth k l 0 :: skipn (S k) l.
Proof.
  induction l as [|x l IH]; intros [|k] H; cbn in H |- *; try (exfalso; lia); [reflexivity|].
  apply IH. lia.
Qed.

Lemma skipn_mid : forall (a : list nat) u b, skipn (S (length a)) (a ++ u :: b) = b.
Proof. intros. replace (S (length a)) with (length a + 1) by lia. now rewrite skipn_app_plus. Qed.

Lemma merge_dims_mid : forall A P X B, merge_dims (A ++ P :: X :: B) (length A) = A ++ P * X :: B.
Proof.
  intros. unfold merge_dims. rewrite firstn_app_exact, nth_middle, skipn_app_plus.
  replace (S (length A)) with (length A + 1) by lia. now rewrite app_nth2_plus.
Qed.

Lemma delta_src_stack : forall sh dm a u b, dm = length a -> delta_src sh dm false (a ++ u :: b) = (u, a ++ b).
Proof. intros sh dm a u b ->. unfold delta_src, remove_nth. now rewrite nth_middle, firstn_app_exact, skipn_mid. Qed.

Lemma delta_src_conc : forall sh dm a q b, dm = length a ->
  delta_src sh dm true (a ++ q :: b) = (q / nth dm sh 0, a ++ q mod nth dm sh 0 :: b).
Proof. intros sh dm a q b ->. unfold delta_src, set_nth. now rewrite nth_middle, firstn_app_exact, skipn_mid. Qed.

Lemma feat_deltas_layout : forall x dim time_dim (conc : bool) order width m v out,
  feat_deltas x dim time_dim conc order width m v = Ok out ->
  exists td dm,
    norm_dim (length (shape x)) time_dim = Some td /\
    norm_dim (if conc then length (shape x) else S (length (shape x))) dim = Some dm /\
    shape out = delta_shape (shape x) dm conc (Z.to_nat order) /\
    forall idx, valid (shape out) idx ->
      (get out idx == delta_at x td dm conc (Z.to_nat width) m v idx)%Q.
Proof.
  intros x dim time_dim conc order width m v out H.
  destruct (feat_deltas_ok _ _ _ _ _ _ _ _ _ H) as [td [dm [Ho [Hw [Etd [Edm [HT [Hok Hout]]]]]]]].
  exists td, dm. split; [assumption|]. split; [assumption|].
  set (o := Z.to_nat order) in *. set (w := Z.to_nat width) in *. set (sh := shape x) in *.
  pose proof (norm_dim_lt _ _ _ Etd) as Htd. pose proof (norm_dim_lt _ _ _ Edm) as Hdm.
  destruct (dl_y2_spec x td o w m v Htd HT Hok) as [Hs2 Hg2]. fold sh in Hs2, Hg2.
  set (y2 := dl_y2 x td o w m v) in *.
  assert (Hdm' : dm <= length sh) by (destruct conc; lia).
  destruct (movedim_last_spec y2 sh (S o) dm Hs2 Hdm') as [Hs3 Hg3].
  set (y3 := movedim_last y2 dm) in *. cbv zeta in Hout.
  assert (LA : length (firstn dm sh) = dm) by (rewrite firstn_length; lia).
  (* y3 at (a, u, b): the regression formula of order u at the source position a ++ b *)
  assert (Hy3 : forall a b u, valid (firstn dm sh) a -> valid (skipn dm sh) b -> u <= o ->
            (get y3 (a ++ [u] ++ b) ==
             regress w u (ext m v (line x td (a ++ b))) (Z.of_nat (nth td (a ++ b) 0%nat)))%Q).
  { intros a b u Ha Hb Hu.
    assert (Hv : valid sh (a ++ b)) by (rewrite <- (firstn_skipn dm sh); now apply valid_app).
    rewrite Hg3, app_assoc, Hg2 by (assumption || lia).
    apply delta_line_eq_regression; unfold line; rewrite ?map_length, ?seq_length;
      [exact HT|exact Hok|exact Hu|now apply valid_nth]. }
  assert (Edm' : forall a, valid (firstn dm sh) a -> dm = length a).
  { intros a Ha. now rewrite (valid_length _ _ Ha). }
  unfold delta_at. destruct conc; subst out.
  - (* concatenation: position q of the merged axis shows order q / X of coefficient q mod X *)
    rewrite (skipn_cons_nth sh dm Hdm) in Hs3, Hy3.
    set (A := firstn dm sh) in *. set (X := nth dm sh 0) in *. set (B := skipn (S dm) sh) in *.
    assert (Hm : merge_dims (shape y3) dm = A ++ S o * X :: B) by (rewrite Hs3, <- LA; apply merge_dims_mid).
    cbn [shape]. rewrite Hm. split; [reflexivity|].
    intros idx Hv. destruct (valid_mid_inv A (S o * X) B idx Hv) as [a [q [b [-> [Ha [Hq Hb]]]]]].
    assert (HX : 0 < X) by (destruct X; lia).
    pose proof (get_merged y3 A (S o) X B a q b Hs3 (valid_length _ _ Ha) HX) as Eg. cbn [app] in Eg. rewrite Eg.
    rewrite (delta_src_conc _ dm a q b (Edm' a Ha)). fold sh X.
    apply (Hy3 a (q mod X :: b) (q / X) Ha).
    + constructor; [apply Nat.mod_upper_bound; lia|assumption].
    + assert (q / X < S o) by (apply Nat.div_lt_upper_bound; lia). lia.
  - (* stacking: the order is the new axis at dm *)
    split; [exact Hs3|].
    intros idx Hv. rewrite Hs3 in Hv.
    destruct (valid_mid_inv (firstn dm sh) (S o) (skipn dm sh) idx Hv) as [a [u [b [-> [Ha [Hu Hb]]]]]].
    rewrite (delta_src_stack _ dm a u b (Edm' a Ha)).
    apply (Hy3 a b u Ha Hb). lia.
Qed.

(* feat_deltas is defined exactly when its arguments are legal (and then the theorem above
   applies); every failure is a RuntimeError *)
Lemma feat_deltas_defined : forall x dim time_dim (conc : bool) order width m v td dm,
  (0 <= order)%Z -> (1 <= width)%Z ->
  norm_dim (length (shape x)) time_dim = Some td ->
  norm_dim (if conc then length (shape x) else S (length (shape x))) dim = Some dm ->
  (m = Constant \/ Qeq_bool v 0 = true) ->
  1 <= nth td (shape x) 0 ->
  pad_ok m (Z.to_nat width * Z.to_nat order) (nth td (shape x) 0) = true ->
  exists out, feat_deltas x dim time_dim conc order width m v = Ok out.
Proof.
  intros x dim time_dim conc order width m v td dm Ho Hw Etd Edm Hv HT Hok.
  unfold feat_deltas.
  destruct (Z.ltb_spec order 0); [lia|]. destruct (Z.ltb_spec width 1); [lia|].
  rewrite Etd, Edm. cbv zeta. rewrite (T_eq x td (norm_dim_lt _ _ _ Etd)).
  replace (match m with Constant => true | _ => Qeq_bool v 0 end) with true
    by (destruct Hv as [-> | ->]; [reflexivity|now destruct m]).
  destruct (Nat.eqb_spec (nth td (shape x) 0) 0); [lia|]. rewrite Hok. cbn [negb].
  eexists. reflexivity.
Qed.

Lemma feat_deltas_errors : forall x dim time_dim conc order width m v e,
  feat_deltas x dim time_dim conc order width m v = Err e -> e = ERuntime.
Proof.
  intros x dim time_dim conc order width m v e H. unfold feat_deltas in H.
  repeat match type of H with
         | (if ?c then _ else _) = _ => destruct c
         | match ?c with Some _ => _ | None => _ end = _ => destruct c
         end; cbv zeta in H;
  repeat match type of H with
         | (if ?c then _ else _) = _ => destruct c
         end; try discriminate; now inversion H.
Qed.
