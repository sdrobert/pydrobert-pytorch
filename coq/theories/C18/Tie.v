(* C18 — tie between the Python text of `time_distributed_return` and PV.C18.Model, checked by the
   kernel.  PV.Gen.C18Src.tdr_body is the MiniPy term that harness/py2coq/translate.py regenerates
   from /repo/src/pydrobert/torch/_rl.py on every run; PV.MiniPy.Interp is its semantics; the
   torch calls mean what PV.MiniTorch.Ops says (through SrcRun.ext18).  The lemmas below say:
   for EVERY reward tensor, discount factor and layout, interpreting the source computes exactly
   Model.time_distributed_return - the same tensor (shape and every rational, syntactically) or
   the same RuntimeError.  If the source is edited so that this stops being true, this file
   stops compiling and the C18 check reports the broken obligation. *)
From Coq Require Import ZArith QArith List String Bool Arith Lia ZifyBool ZifyNat.
From PV Require Import MiniPy.Syntax MiniPy.Interp MiniTorch.Ops MiniTorch.Value MiniTorch.Lemmas Gen.C18Src.
From PV Require Import C18.SrcRun C18.TieSeq MiniTorch.LemmasC18B.
From PV Require Import C18.Model C18.Spec C18.QLemmas C18.Tensor C18.ProofsReturn.
Import ListNotations.
Local Open Scope string_scope.

Definition inj (i : nat) : Q := inject_Z (Z.of_nat i).

Lemma arange_nat : forall T, Ops.arange (Z.of_nat T) = Some (tab1 T inj).
Proof.
  intros T. unfold Ops.arange. replace (Z.of_nat T <? 0)%Z with false by lia. now rewrite Nat2Z.id.
Qed.

(* exp.unsqueeze(0) - exp.unsqueeze(1): entry (i, j) = j - i;  the other order: i - j *)
Lemma sub_row_col : forall T,
  Ops.sub (tab2 1 T (fun _ j => inj j)) (tab2 T 1 (fun i _ => inj i)) =
  Some (tab2 T T (fun i j => (inj j - inj i)%Q)).
Proof.
  intros T. unfold Ops.sub. rewrite (broadcast2_tab2 _ _ _ _ _ _ _ T T (bdim_1_l T) (bdim_1_r T)).
  f_equal. apply tab2_ext. intros i j Hi Hj. now rewrite !bidx_same.
Qed.

Lemma sub_col_row : forall T,
  Ops.sub (tab2 T 1 (fun i _ => inj i)) (tab2 1 T (fun _ j => inj j)) =
  Some (tab2 T T (fun i j => (inj i - inj j)%Q)).
Proof.
  intros T. unfold Ops.sub. rewrite (broadcast2_tab2 _ _ _ _ _ _ _ T T (bdim_1_r T) (bdim_1_l T)).
  f_equal. apply tab2_ext. intros i j Hi Hj. now rewrite !bidx_same.
Qed.

Lemma clamp_min_tab2 : forall n m f c, Ops.clamp_min (tab2 n m f) c = tab2 n m (fun i j => Ops.qmax c (f i j)).
Proof. intros. unfold Ops.clamp_min. apply tmap_tab2. Qed.

Lemma pow_triu_exponents : forall g T,
  pow_scalar g (tab2 T T (fun i j => Ops.qmax 0 (inj j - inj i)%Q)) = Some (tab2 T T (fun i j => Ops.qpow g (j - i))).
Proof. intros g T. apply pow_scalar_tab2. intros i j _ _. apply nat_of_q_clamped_diff. Qed.

Lemma pow_tril_exponents : forall g T,
  pow_scalar g (tab2 T T (fun i j => Ops.qmax 0 (inj i - inj j)%Q)) = Some (tab2 T T (fun i j => Ops.qpow g (i - j))).
Proof. intros g T. apply pow_scalar_tab2. intros i j _ _. apply nat_of_q_clamped_diff. Qed.

(* the discount matrices the source builds (MiniTorch) and the model's *)
Definition src_disc_triu (g : Q) (T : nat) : tens := tab2 T T (fun i j => if (i <=? j)%nat then Ops.qpow g (j - i) else 0%Q).
Definition src_disc_tril (g : Q) (T : nat) : tens := tab2 T T (fun i j => if (j <=? i)%nat then Ops.qpow g (i - j) else 0%Q).

Lemma qpow_same : forall g n, Ops.qpow g n = Model.qpow g n.
Proof. intros g n. induction n as [|n IH]; [reflexivity|]. cbn [Ops.qpow Model.qpow]. now rewrite IH. Qed.

Lemma qsum_same : forall l, Ops.qsum l = Model.qsum l.
Proof. reflexivity. Qed.

Lemma model_tabulate2 : forall n m f,
  tabulate [n; m] f = mkT [n; m] (flat_map (fun i => map (fun j => f [i; j]) (seq 0 m)) (seq 0 n)).
Proof.
  intros n m f. unfold tabulate. f_equal. cbn [indices map]. rewrite map_flat_map.
  apply flat_map_ext_in. intros i _.
  rewrite (flat_map_singleton (fun j : nat => [j])), !map_map. reflexivity.
Qed.

Lemma get_matrix : forall a b d i j, Model.get (mkT [a; b] d) [i; j] = getm b (mkTens [a; b] d) i j.
Proof.
  intros. unfold Model.get, getm. cbn [ravel Model.shape Model.data tdata prodn fold_right]. f_equal. lia.
Qed.

Lemma matmul_tie : forall (A B : tens) (a b : tensor) n k m,
  Model.shape a = [n; k] -> Model.shape b = [k; m] ->
  (forall i l, (i < n)%nat -> (l < k)%nat -> getm k A i l = Model.get a [i; l]) ->
  (forall l j, (l < k)%nat -> (j < m)%nat -> getm m B l j = Model.get b [l; j]) ->
  enc (tab2 n m (fun i j => Ops.qsum (map (fun l => (getm k A i l * getm m B l j)%Q) (seq 0 k)))) = enc_tensor (Model.matmul a b).
Proof.
  intros A B a b n k m Ha Hb HA HB. unfold enc_tensor, of_model, Model.matmul. rewrite Ha, Hb. cbn [nth].
  rewrite model_tabulate2. cbn [Model.shape Model.data]. unfold tab2. do 2 f_equal.
  apply flat_map_ext_in. intros i Hi. apply in_seq in Hi. apply map_ext_in. intros j Hj. apply in_seq in Hj.
  rewrite qsum_same. apply qsum_ext_in. intros l Hl. apply in_seq in Hl. cbn [nth]. now rewrite HA, HB by lia.
Qed.

Lemma getm_triu : forall g T i l, (i < T)%nat -> (l < T)%nat -> getm T (src_disc_triu g T) i l = Model.get (disc_triu g T) [i; l].
Proof.
  intros. rewrite get_disc_triu by lia. unfold src_disc_triu. rewrite getm_tab2 by lia.
  unfold disc. destruct (i <=? l)%nat; [rewrite qpow_same|]; reflexivity.
Qed.

Lemma getm_tril : forall g T l j, (l < T)%nat -> (j < T)%nat -> getm T (src_disc_tril g T) l j = Model.get (disc_tril g T) [l; j].
Proof.
  intros. rewrite get_disc_tril by lia. unfold src_disc_tril. rewrite getm_tab2 by lia.
  unfold disc. destruct (j <=? l)%nat; [rewrite qpow_same|]; reflexivity.
Qed.

Lemma method_enc : forall t m args, method (enc t) m args = None.
Proof. reflexivity. Qed.

Lemma attribute_enc : forall ext t a st, attribute ext (enc t) a st = ext ("$attr." ++ a) [enc t] [] st.
Proof. reflexivity. Qed.

Lemma binop_sub_enc : forall t u st, binop_eval Sub (enc t) (enc u) st = Stuck "sub".
Proof. reflexivity. Qed.

Lemma on_tens_enc : forall why t k st, on_tens why (enc t) k st = ret_tens why (k t) st.
Proof. intros. unfold on_tens. now rewrite dec_enc. Qed.

Lemma on_tens2_enc : forall why t u k st, on_tens2 why (enc t) (enc u) k st = ret_tens why (k t u) st.
Proof. intros. unfold on_tens2. now rewrite !dec_enc. Qed.

Lemma size_matrix_0 : forall a b d, Ops.size (mkTens [a; b] d) 0 = Some a.
Proof. reflexivity. Qed.

Lemma size_matrix_1 : forall a b d, Ops.size (mkTens [a; b] d) 1 = Some b.
Proof. reflexivity. Qed.

#[local] Opaque enc dec Ops.arange Ops.unsqueeze Ops.sub Ops.clamp_min Ops.pow_scalar Ops.tril Ops.triu Ops.matmul Ops.size
  tab1 tab2 Z.of_nat Z.eqb Qeq_bool inj getm Ops.qsum.
#[local] Arguments src_disc_triu : simpl never.
#[local] Arguments src_disc_tril : simpl never.

#[local] Hint Rewrite method_enc attribute_enc binop_sub_enc dec_enc on_tens_enc on_tens2_enc size_matrix_0 size_matrix_1
  arange_nat unsqueeze_tab1_0 unsqueeze_tab1_1 sub_row_col sub_col_row clamp_min_tab2
  pow_triu_exponents pow_tril_exponents triu_tab2 tril_tab2 : ret18.

Ltac ev := cbn; change (inject_Z 0) with 0%Q; try rewrite_strat (topdown (hints ret18)).

(* the run on a matrix: `if not gamma: return r`; torch.matmul(r, discount.tril()) batch-major,
   torch.matmul(discount.triu(), r) time-major *)
Lemma run_matrix : forall a b d g bf, let r := mkT [a; b] d in
  exists st, run_return r g bf
             = Interp.Ok (enc_tensor (if Qeq_bool g 0 then r else if bf then Model.matmul r (disc_tril g b)
                                      else Model.matmul (disc_triu g a) r)) st.
Proof.
  intros a b d g bf r. unfold r, run_return, Interp.run.
  unfold tdr_body, return_vars, enc_tensor at 1, of_model. cbn [Model.shape Model.data]. hide_names.
  step by (ev; change (Z.of_nat 2 =? 2)%Z with true).
  destruct (Qeq_bool g 0) eqn:Hg.
  { erewrite exec_seq_ret by (run by (ev; rewrite ?Hg); reflexivity). eexists. reflexivity. }
  step by (ev; rewrite ?Hg).
  destruct bf; (erewrite exec_seq_if by reflexivity); cbn [truthy]; do 3 step by ev.
  - step by (ev; fold (src_disc_tril g b); rewrite ?(matmul_2d (mkTens [a; b] d) (src_disc_tril g b) a b b eq_refl eq_refl),
      ?(matmul_tie _ _ (mkT [a; b] d) (disc_tril g b) a b b eq_refl eq_refl (fun i l _ _ => eq_sym (get_matrix a b d i l)) (getm_tril g b))).
    eexists. reflexivity.
  - step by (ev; fold (src_disc_triu g a); rewrite ?(matmul_2d (src_disc_triu g a) (mkTens [a; b] d) a a b eq_refl eq_refl),
      ?(matmul_tie _ _ (disc_triu g a) (mkT [a; b] d) a a b eq_refl eq_refl (getm_triu g a) (fun l j _ _ => eq_sym (get_matrix a b d l j)))).
    eexists. reflexivity.
Qed.

(* `if r.dim() != 2: raise RuntimeError(...)` *)
Lemma run_not_matrix : forall r g bf, List.length (Model.shape r) <> 2%nat ->
  run_return r g bf = Interp.Exc runtime_error (mkState (return_vars r g bf) []).
Proof.
  intros r g bf H. unfold run_return, Interp.run, tdr_body, return_vars, enc_tensor.
  erewrite exec_seq_exc; [reflexivity|]. run by ev. unfold Ops.dim, of_model. cbn [tshape].
  replace (Z.of_nat (List.length (Model.shape r)) =? 2)%Z with false by lia. reflexivity.
Qed.

Theorem return_tie_ok : forall r g bf out,
  Model.time_distributed_return r g bf = Model.Ok out ->
  exists st, run_return r g bf = Interp.Ok (enc_tensor out) st.
Proof.
  intros [sh d] g bf out H. unfold Model.time_distributed_return in H. cbn [Model.shape] in H.
  destruct sh as [|a [|b [|c sh]]]; cbn in H; try discriminate.
  destruct (run_matrix a b d g bf) as [st Hr]. exists st. rewrite Hr.
  destruct (Qeq_bool g 0); [|destruct bf]; now inversion H.
Qed.

Lemma return_err : forall r g bf e,
  Model.time_distributed_return r g bf = Model.Err e -> e = ERuntime /\ List.length (Model.shape r) <> 2%nat.
Proof.
  intros r g bf e H. assert (e = ERuntime) as ->.
  { unfold Model.time_distributed_return in H.
    destruct (negb (List.length (Model.shape r) =? 2)%nat); [now inversion H|].
    destruct (Qeq_bool g 0); [discriminate|]. destruct bf; discriminate. }
  split; [reflexivity|]. now apply (return_error_iff r g bf).
Qed.

Theorem return_tie_err : forall r g bf e,
  Model.time_distributed_return r g bf = Model.Err e ->
  run_return r g bf = Interp.Exc runtime_error (mkState (return_vars r g bf) []).
Proof. intros r g bf e H. apply run_not_matrix, (return_err r g bf e H). Qed.

Lemma to_of_model : forall t, to_model (of_model t) = t.
Proof. intros [sh d]. reflexivity. Qed.

(* the executable form used by the harness: for ALL inputs it is the model *)
Theorem src_return_tie : forall r g bf, src_return r g bf = Some (Model.time_distributed_return r g bf).
Proof.
  intros r g bf. unfold src_return.
  destruct (Model.time_distributed_return r g bf) as [out|e] eqn:E.
  - destruct (return_tie_ok r g bf out E) as [st ->]. unfold enc_tensor. rewrite dec_enc. cbn [option_map].
    now rewrite to_of_model.
  - rewrite (return_tie_err r g bf e E). destruct (return_err r g bf e E) as [-> _]. reflexivity.
Qed.

Theorem src_return_check_is_check : forall r g bf tol impl,
  src_return_check r g bf tol impl = check_return r g bf tol impl.
Proof. intros. unfold src_return_check, check_return. now rewrite src_return_tie. Qed.

(* composed with the model theorems: statements purely about the interpreted source *)
Lemma source_return_ok : forall r g (bf : bool) T N,
  Model.shape r = (if bf then [N; T] else [T; N]) ->
  exists out st, Model.time_distributed_return r g bf = Model.Ok out /\ run_return r g bf = Interp.Ok (enc_tensor out) st.
Proof.
  intros r g bf T N Hsh. destruct (Model.time_distributed_return r g bf) as [out|e] eqn:E.
  - destruct (return_tie_ok r g bf out E) as [st Hr]. now exists out, st.
  - destruct (return_err r g bf e E) as [_ H]. rewrite Hsh in H. now destruct bf.
Qed.

(* R_t = r_t + gamma * R_(t+1), R beyond the horizon = 0, read off the value the source returns *)
Theorem source_return_recursion : forall r g (bf : bool) T N,
  Model.shape r = (if bf then [N; T] else [T; N]) ->
  exists out st,
    run_return r g bf = Interp.Ok (enc_tensor out) st /\
    Model.shape out = Model.shape r /\
    forall t n, (t < T)%nat -> (n < N)%nat ->
      (at2 bf out t n == at2 bf r t n + g * (if (S t <? T)%nat then at2 bf out (S t) n else 0))%Q.
Proof.
  intros r g bf T N Hsh. destruct (source_return_ok r g bf T N Hsh) as [out [st [E Hr]]].
  exists out, st. split; [exact Hr|exact (return_recursion r g bf T N out Hsh E)].
Qed.

(* ... hence the source returns THE discounted return of every reward column *)
Theorem source_return_eq_spec : forall r g (bf : bool) T N,
  Model.shape r = (if bf then [N; T] else [T; N]) ->
  exists out st,
    run_return r g bf = Interp.Ok (enc_tensor out) st /\
    forall t n, (t < T)%nat -> (n < N)%nat ->
      (at2 bf out t n == nth t (ret_rec g (map (fun k => at2 bf r k n) (seq 0 T))) 0)%Q.
Proof.
  intros r g bf T N Hsh. destruct (source_return_ok r g bf T N Hsh) as [out [st [E Hr]]].
  exists out, st. split; [exact Hr|exact (return_eq_spec r g bf T N out Hsh E)].
Qed.
