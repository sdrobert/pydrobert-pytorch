(* C18 — mean-variance normalisation: accumulate / store / mean_var_norm against the pooled
   population statistics of the frames. *)
From Coq Require Import List ZArith QArith Qabs Bool Arith Lia Permutation.
From PV Require Import MiniTorch.Lemmas C18.Model C18.Spec C18.QLemmas C18.Tensor C18.Stats.
Import ListNotations.
Local Open Scope Q_scope.

Lemma NoDup_map_inj_in : forall {A B} (f : A -> B) l,
  (forall a b, In a l -> In b l -> f a = f b -> a = b) -> NoDup l -> NoDup (map f l).
Proof.
  induction l as [|a l IH]; intros Hinj ND; cbn [map]; [constructor|].
  inversion ND as [|? ? Ha ND']; subst. constructor.
  - intros Hin. apply in_map_iff in Hin. destruct Hin as [b [E Hb]].
    assert (b = a) by (apply Hinj; [now right|now left|assumption]). subst. contradiction.
  - apply IH; [|assumption]. intros x y Hx Hy. apply Hinj; now right.
Qed.

(* the (X, M) matrix of the code versus the coefficient values of the spec *)
Lemma swapl_hd : forall sh d, (d < length sh)%nat ->
  swapl sh 0 d = nth d sh 0%nat :: tl (swapl sh 0 d).
Proof.
  intros sh d Hd. pose proof (length_swapl sh 0 d) as HL.
  pose proof (nth_swapl sh 0 d 0 ltac:(lia)) as H0.
  destruct (swapl sh 0 d) as [|h t]; cbn [length] in HL; [lia|].
  cbn [nth tl] in *. rewrite H0. reflexivity.
Qed.

Lemma length_rows_of : forall x d, (d < length (shape x))%nat ->
  length (rows_of x d) = nth d (shape x) 0%nat.
Proof.
  intros x d Hd. unfold rows_of. rewrite map_length, seq_length, shape_transpose.
  rewrite (swapl_hd _ _ Hd). reflexivity.
Qed.

Lemma rows_of_nth : forall x d i, (d < length (shape x))%nat -> (i < nth d (shape x) 0)%nat ->
  nth i (rows_of x d) [] =
  map (fun t => get x (swapl (i :: t) 0 d)) (indices (tl (swapl (shape x) 0 d))).
Proof.
  intros x d i Hd Hi. unfold rows_of. cbv zeta. rewrite shape_transpose, data_transpose.
  rewrite (swapl_hd _ _ Hd). cbn [hd tl].
  rewrite nth_map_seq by assumption.
  rewrite indices_cons, map_flat_map.
  rewrite (chunk_flat_map_const _ _ _ i 0%nat).
  - rewrite seq_nth by assumption. cbn [Nat.add]. rewrite map_map. reflexivity.
  - intros a _. rewrite !map_length. apply length_indices.
  - now rewrite seq_length.
Qed.

Lemma row_perm : forall x d i, (d < length (shape x))%nat -> (i < nth d (shape x) 0)%nat ->
  Permutation (nth i (rows_of x d) []) (coeff_vals x d i).
Proof.
  intros x d i Hd Hi. rewrite rows_of_nth by assumption. unfold coeff_vals.
  set (sh := shape x) in *. set (rest := tl (swapl sh 0 d)).
  rewrite <- (map_map (fun t => swapl (i :: t) 0 d) (get x)).
  apply Permutation_map.
  assert (Hsh' : swapl sh 0 d = nth d sh 0%nat :: rest) by (now apply swapl_hd).
  assert (Hlen : forall t, valid rest t -> length (i :: t) = length sh).
  { intros t Ht. cbn [length]. rewrite (valid_length _ _ Ht). unfold rest.
    pose proof (length_swapl sh 0 d) as HL. rewrite Hsh' in HL. cbn [length] in HL. unfold rest in HL. lia. }
  apply NoDup_Permutation.
  - apply NoDup_map_inj_in; [|apply NoDup_indices].
    intros a b Ha Hb E. apply in_indices in Ha, Hb.
    assert (E' : swapl (swapl (i :: a) 0 d) 0 d = swapl (swapl (i :: b) 0 d) 0 d) by now rewrite E.
    rewrite !swapl_invol in E' by (rewrite ?Hlen; assumption || lia). now inversion E'.
  - apply NoDup_filter, NoDup_indices.
  - intros idx. rewrite filter_In, in_indices, in_map_iff. split.
    + intros [t [<- Ht]]. apply in_indices in Ht. split.
      * apply valid_swapl_inv; try lia. fold sh. rewrite Hsh'. constructor; assumption.
      * apply Nat.eqb_eq. rewrite nth_swapl by (rewrite Hlen; assumption).
        unfold tau. destruct (Nat.eqb_spec d 0); [subst; reflexivity|]. rewrite Nat.eqb_refl. reflexivity.
    + intros [Hv Hi']. apply Nat.eqb_eq in Hi'. pose proof (valid_length _ _ Hv) as HL.
      assert (E : swapl idx 0 d = i :: tl (swapl idx 0 d)) by (rewrite <- Hi'; apply swapl_hd; lia).
      assert (Hv' : valid (swapl sh 0 d) (swapl idx 0 d)) by (apply valid_swapl; lia || assumption).
      rewrite Hsh', E in Hv'. inversion Hv' as [|? ? ? ? _ Ht]; subst.
      exists (tl (swapl idx 0 d)). split; [|now apply in_indices].
      rewrite <- E. apply swapl_invol; lia.
Qed.

Lemma length_coeff_vals : forall x d i, (d < length (shape x))%nat -> (i < nth d (shape x) 0)%nat ->
  length (coeff_vals x d i) = rows_width x d.
Proof.
  intros x d i Hd Hi. rewrite <- (Permutation_length (row_perm x d i Hd Hi)).
  rewrite rows_of_nth by assumption. rewrite map_length, length_indices. reflexivity.
Qed.

Record rep (s : stats) (X : nat) (c : Q) (S1 S2 : nat -> Q) : Prop := mkRep {
  rep_len1 : length (ssum s) = X;
  rep_len2 : length (ssq s) = X;
  rep_cnt : cnt s == c;
  rep_sum : forall i, (i < X)%nat -> nth i (ssum s) 0 == S1 i;
  rep_sq : forall i, (i < X)%nat -> nth i (ssq s) 0 == S2 i }.

Lemma length_zipw : forall {A B C} (f : A -> B -> C) a b, length a = length b -> length (zipw f a b) = length a.
Proof.
  induction a as [|x a IH]; intros [|y b] H; cbn in *; try discriminate; [reflexivity|].
  f_equal. apply IH. lia.
Qed.

Lemma nth_zipw : forall {A B C} (f : A -> B -> C) a b i da db dc, length a = length b -> (i < length a)%nat ->
  nth i (zipw f a b) dc = f (nth i a da) (nth i b db).
Proof.
  induction a as [|x a IH]; intros [|y b] i da db dc H Hi; cbn in *; try discriminate; try lia.
  destruct i; [reflexivity|]. apply IH; lia.
Qed.

Lemma iadd_same : forall a b, length a = length b -> iadd a b = Ok (zipw Qplus a b).
Proof. intros a b H. unfold iadd. now rewrite H, Nat.eqb_refl. Qed.

Lemma rep_init : forall X, rep (mkStats 0 (repeat 0 X) (repeat 0 X)) X 0 (fun _ => 0) (fun _ => 0).
Proof.
  intros X. constructor; cbn [ssum ssq cnt]; try apply repeat_length; try reflexivity;
    intros; now rewrite nth_repeat0.
Qed.

Lemma accumulate_step : forall dim st0 x d X c S1 S2,
  norm_dim (length (shape x)) dim = Some d -> nth d (shape x) 0%nat = X ->
  rep st0 X c S1 S2 ->
  exists s, accumulate dim (Some st0) x = Ok s /\
    rep s X (c + qofnat (rows_width x d))
        (fun i => S1 i + Qsum (coeff_vals x d i))
        (fun i => S2 i + Qsum (map qsq (coeff_vals x d i))).
Proof.
  intros dim st0 x d X c S1 S2 Hd HX [L1 L2 Hc Hs Hq].
  pose proof (norm_dim_lt _ _ _ Hd) as Hlt.
  unfold accumulate. rewrite Hd.
  pose proof (length_rows_of x d Hlt) as HR. rewrite HX in HR.
  rewrite iadd_same by (now rewrite map_length, HR).
  cbn [bind]. rewrite iadd_same by (now rewrite map_length, HR). cbn [bind].
  eexists. split; [reflexivity|].
  constructor; cbn [ssum ssq cnt].
  1, 2: rewrite length_zipw; [assumption|now rewrite map_length, HR].
  - rewrite Hc. reflexivity.
  - intros i Hi. rewrite (nth_zipw Qplus _ _ i 0 0 0) by (rewrite ?map_length, ?HR; lia).
    rewrite Hs by assumption. apply Qplus_comp; [reflexivity|].
    change 0 with (qsum []). rewrite map_nth, qsum_Qsum.
    apply Qsum_perm, row_perm; [assumption|now rewrite HX].
  - intros i Hi. rewrite (nth_zipw Qplus _ _ i 0 0 0) by (rewrite ?map_length, ?HR; lia).
    rewrite Hq by assumption. apply Qplus_comp; [reflexivity|].
    change 0 with ((fun r => qsum (map qsq r)) []). rewrite map_nth. cbv beta. rewrite qsum_Qsum.
    apply Qsum_perm, Permutation_map, row_perm; [assumption|now rewrite HX].
Qed.

(* what a successful accumulate did: a legal dim and two in-place additions on the (given or fresh) statistics *)
Lemma accumulate_inv : forall dim st x s', accumulate dim st x = Ok s' ->
  exists d s1 s2, norm_dim (length (shape x)) dim = Some d /\
    let X := nth d (shape x) 0%nat in
    let st0 := match st with None => mkStats 0 (repeat 0 X) (repeat 0 X) | Some s => s end in
    iadd (ssum st0) (map qsum (rows_of x d)) = Ok s1 /\
    iadd (ssq st0) (map (fun r => qsum (map qsq r)) (rows_of x d)) = Ok s2 /\
    s' = mkStats (cnt st0 + qofnat (rows_width x d)) s1 s2.
Proof.
  intros dim st x s' H. unfold accumulate in H.
  destruct (norm_dim (length (shape x)) dim) as [d|]; [|discriminate]. exists d. cbv zeta in *.
  destruct (iadd (ssum _) _) as [s1|]; [|discriminate]. cbn [bind] in H.
  destruct (iadd (ssq _) _) as [s2|]; [|discriminate]. exists s1, s2. now inversion H.
Qed.

Lemma frames_cons : forall dim x xs,
  frames dim (x :: xs) =
  (match norm_dim (length (shape x)) dim with Some d => rows_width x d | None => 0 end + frames dim xs)%nat.
Proof. reflexivity. Qed.

Lemma pooled_cons : forall dim x xs i,
  pooled dim (x :: xs) i =
  match norm_dim (length (shape x)) dim with Some d => coeff_vals x d i | None => [] end ++ pooled dim xs i.
Proof. reflexivity. Qed.

Lemma length_pooled : forall dim X xs i, uniform dim X xs -> (i < X)%nat ->
  length (pooled dim xs i) = frames dim xs.
Proof.
  intros dim X xs i H Hi. induction H as [|x xs [d [Hd HX]] H IH]; [reflexivity|].
  rewrite pooled_cons, app_length, IH, frames_cons, Hd.
  rewrite length_coeff_vals; [reflexivity|now apply norm_dim_lt in Hd|now rewrite HX].
Qed.

Lemma accumulate_all_some : forall dim X xs s0 c S1 S2,
  uniform dim X xs -> rep s0 X c S1 S2 ->
  exists s, accumulate_all dim (Some s0) xs = Ok (Some s) /\
    rep s X (c + qofnat (frames dim xs))
        (fun i => S1 i + Qsum (pooled dim xs i))
        (fun i => S2 i + Qsum (map qsq (pooled dim xs i))).
Proof.
  intros dim X xs. induction xs as [|x xs IH]; intros s0 c S1 S2 HU HR.
  - exists s0. split; [reflexivity|]. destruct HR as [L1 L2 Hc Hs Hq].
    constructor; try assumption.
    + rewrite Hc. cbn [frames fold_right]. change (qofnat 0) with 0. now rewrite Qplus_0_r.
    + intros i Hi. rewrite Hs by assumption. cbn [pooled flat_map]. rewrite Qsum_nil. ring.
    + intros i Hi. rewrite Hq by assumption. cbn [pooled flat_map map]. rewrite Qsum_nil. ring.
  - inversion HU as [|? ? [d [Hd HX]] HU']; subst.
    destruct (accumulate_step dim s0 x d _ c S1 S2 Hd eq_refl HR) as [s1 [E1 R1]].
    destruct (IH s1 _ _ _ HU' R1) as [s [E R]].
    exists s. cbn [accumulate_all]. rewrite E1. cbn [bind]. split; [exact E|].
    destruct R as [L1 L2 Hc Hs Hq]. constructor; try assumption.
    + rewrite Hc, frames_cons, Hd, qofnat_plus. ring.
    + intros i Hi. rewrite Hs, pooled_cons, Hd, Qsum_app by assumption. ring.
    + intros i Hi. rewrite Hq, pooled_cons, Hd, map_app, Qsum_app by assumption. ring.
Qed.

(* accumulating any non-empty list of tensors that agree on the coefficient count X yields
   exactly the frame count, the per-coefficient sums and sums of squares of the pooled data *)
Lemma accumulate_pooled_sums : forall dim X xs,
  xs <> [] -> uniform dim X xs ->
  exists s, accumulate_all dim None xs = Ok (Some s) /\
    length (ssum s) = X /\ length (ssq s) = X /\
    cnt s == qofnat (frames dim xs) /\
    forall i, (i < X)%nat ->
      nth i (ssum s) 0 == Qsum (pooled dim xs i) /\
      nth i (ssq s) 0 == Qsum (map qsq (pooled dim xs i)).
Proof.
  intros dim X [|x xs] Hne HU; [contradiction|]. destruct (Forall_inv HU) as [d [Hd HX]].
  destruct (accumulate_all_some dim X (x :: xs) _ _ _ _ HU (rep_init X)) as [s [E [L1 L2 Hc Hs Hq]]].
  exists s. split; [rewrite <- E; cbn [accumulate_all]; unfold accumulate; now rewrite Hd, HX|].
  split; [exact L1|split; [exact L2|split; [rewrite Hc; apply Qplus_0_l|]]].
  intros i Hi. rewrite Hs, Hq by assumption. split; apply Qplus_0_l.
Qed.

Lemma qmax_clamp : forall a a', a == a' -> 0 <= a' -> qmax a 0 == a'.
Proof.
  intros a a' E H. unfold qmax. destruct (Qle_bool a 0) eqn:B; [|exact E].
  apply Qle_bool_iff in B. rewrite E in B. now apply Qle_antisym.
Qed.

Lemma store_stats : forall s X b (ls : nat -> list Q) n,
  length (ssum s) = X -> length (ssq s) = X -> cnt s == qofnat n ->
  (forall i, (i < X)%nat -> length (ls i) = n /\ nth i (ssum s) 0 == Qsum (ls i) /\
                            nth i (ssq s) 0 == Qsum (map qsq (ls i))) ->
  (2 <= n)%nat ->
  exists mean var, store (Some s) b = Ok (mean, var) /\ length mean = X /\ length var = X /\
    forall i, (i < X)%nat -> nth i mean 0 == pop_mean (ls i) /\ nth i var 0 == pop_var b (ls i).
Proof.
  intros s X b ls n L1 L2 Hc H Hn. unfold store.
  assert (B : Qle_bool 2 (cnt s) = true).
  { apply Qle_bool_iff. rewrite Hc. change 2 with (qofnat 2). now apply qofnat_le. }
  rewrite B.
  set (mean := map (fun v => v / cnt s) (ssum s)).
  set (var0 := zipw (fun q m => qmax (q / cnt s - qsq m) 0) (ssq s) mean).
  assert (Lm : length mean = X) by (unfold mean; now rewrite map_length).
  assert (Lv : length var0 = X) by (unfold var0; rewrite length_zipw; lia).
  assert (Hm : forall i, (i < X)%nat -> nth i mean 0 == pop_mean (ls i)).
  { intros i Hi. destruct (H i Hi) as [Hl [Hs _]]. unfold mean.
    rewrite (nth_map_gen _ _ _ 0 0) by lia. unfold pop_mean. rewrite Hs, Hc, Hl. reflexivity. }
  assert (Hv : forall i, (i < X)%nat -> nth i var0 0 == pop_var false (ls i)).
  { intros i Hi. destruct (H i Hi) as [Hl [Hs Hq]]. unfold var0.
    rewrite (nth_zipw _ _ _ i 0 0 0) by lia.
    apply qmax_clamp; [|apply pop_var_nonneg_biased; lia].
    rewrite <- var_from_sums by lia. unfold mean. rewrite (nth_map_gen _ _ _ 0 0) by lia.
    unfold qsq. rewrite Hs, Hq, Hc, Hl. reflexivity. }
  eexists. eexists. split; [reflexivity|]. split; [exact Lm|].
  destruct b.
  - split; [now rewrite map_length|]. intros i Hi. split; [now apply Hm|].
    rewrite (nth_map_gen _ _ _ 0 0) by lia. rewrite (Hv i Hi), Hc.
    destruct (H i Hi) as [Hl _]. rewrite <- Hl. apply bessel_scale. lia.
  - split; [exact Lv|]. intros i Hi. split; [now apply Hm|now apply Hv].
Qed.

Lemma store_too_few : forall s b n, cnt s == qofnat n -> (n < 2)%nat -> store (Some s) b = Err ERuntime.
Proof.
  intros s b n Hc Hn. unfold store. destruct (Qle_bool 2 (cnt s)) eqn:B; [|reflexivity].
  apply Qle_bool_iff in B. rewrite Hc in B. apply qofnat_ge2 in B. lia.
Qed.

(* accumulate over any partition, then store: the pooled population statistics *)
Lemma store_is_pooled_mean_var : forall dim X xs b,
  xs <> [] -> uniform dim X xs -> (2 <= frames dim xs)%nat ->
  exists mean var,
    bind (accumulate_all dim None xs) (fun s => store s b) = Ok (mean, var) /\
    length mean = X /\ length var = X /\
    forall i, (i < X)%nat ->
      nth i mean 0 == pop_mean (pooled dim xs i) /\ nth i var 0 == pop_var b (pooled dim xs i).
Proof.
  intros dim X xs b Hne HU Hn.
  destruct (accumulate_pooled_sums dim X xs Hne HU) as [s [E [L1 [L2 [Hc Hs]]]]].
  rewrite E. cbn [bind].
  apply (store_stats s X b (pooled dim xs) (frames dim xs)); try assumption.
  intros i Hi. split; [now apply (length_pooled dim X)|now apply Hs].
Qed.

Lemma store_too_few_frames : forall dim X xs b,
  xs <> [] -> uniform dim X xs -> (frames dim xs < 2)%nat ->
  bind (accumulate_all dim None xs) (fun s => store s b) = Err ERuntime.
Proof.
  intros dim X xs b Hne HU Hn.
  destruct (accumulate_pooled_sums dim X xs Hne HU) as [s [E [_ [_ [Hc _]]]]].
  rewrite E. cbn [bind]. now apply (store_too_few s b (frames dim xs)).
Qed.

(* "over any partition of the data, in any order": two histories whose pooled coefficient
   values are permutations of each other (different chunking, order, tensor shapes, even a
   different dim argument) store the same statistics *)
Lemma Forall2_nth_Qeq : forall a b, length a = length b ->
  (forall i, (i < length a)%nat -> nth i a 0 == nth i b 0) -> Forall2 Qeq a b.
Proof.
  induction a as [|x a IH]; intros [|y b] HL H; cbn in HL; try discriminate; constructor.
  - apply (H 0%nat). cbn. lia.
  - apply IH; [lia|]. intros i Hi. apply (H (S i)). cbn. lia.
Qed.

Lemma stats_partition_order_invariant : forall dim dim' X xs xs' b,
  (0 < X)%nat -> xs <> [] -> xs' <> [] -> uniform dim X xs -> uniform dim' X xs' ->
  (forall i, (i < X)%nat -> Permutation (pooled dim xs i) (pooled dim' xs' i)) ->
  same_result (bind (accumulate_all dim None xs) (fun s => store s b))
              (bind (accumulate_all dim' None xs') (fun s => store s b)).
Proof.
  intros dim dim' X xs xs' b HX Hne Hne' HU HU' HP.
  assert (HF : frames dim xs = frames dim' xs').
  { rewrite <- (length_pooled dim X xs 0 HU HX), <- (length_pooled dim' X xs' 0 HU' HX).
    apply Permutation_length, HP, HX. }
  destruct (le_lt_dec 2 (frames dim xs)) as [Hn|Hn].
  - destruct (store_is_pooled_mean_var dim X xs b Hne HU Hn) as [m [v [E [Lm [Lv H]]]]].
    destruct (store_is_pooled_mean_var dim' X xs' b Hne' HU' ltac:(lia)) as [m' [v' [E' [Lm' [Lv' H']]]]].
    rewrite E, E'. constructor; apply Forall2_nth_Qeq; try lia.
    + intros i Hi. rewrite Lm in Hi. destruct (H i Hi) as [-> _]. destruct (H' i Hi) as [-> _].
      apply pop_mean_perm, HP, Hi.
    + intros i Hi. rewrite Lv in Hi. destruct (H i Hi) as [_ ->]. destruct (H' i Hi) as [_ ->].
      apply pop_var_perm, HP, Hi.
  - rewrite (store_too_few_frames dim X xs b Hne HU Hn).
    rewrite (store_too_few_frames dim' X xs' b Hne' HU' ltac:(lia)). constructor.
Qed.

Lemma shape_bcast : forall x d v f, shape (bcast x d v f) = shape x.
Proof. reflexivity. Qed.

Lemma coeff_vals_bcast : forall x d v f i,
  coeff_vals (bcast x d v f) d i = map (fun q => f q (nth i v 0)) (coeff_vals x d i).
Proof.
  intros x d v f i. unfold coeff_vals. rewrite shape_bcast, map_map.
  apply map_ext_in. intros idx Hin. apply filter_In in Hin. destruct Hin as [Hv Hi].
  apply in_indices in Hv. apply Nat.eqb_eq in Hi. unfold bcast.
  rewrite get_tabulate by assumption. now rewrite Hi.
Qed.

Lemma norm_given : forall x dim d mean std eps sigma,
  norm_dim (length (shape x)) dim = Some d ->
  length mean = nth d (shape x) 0%nat -> length std = nth d (shape x) 0%nat ->
  mean_var_norm x dim (Some mean) (Some std) eps sigma =
  Ok (bcast (bcast x d mean Qminus) d (map (fun s => qmax s eps) std) Qdiv, []).
Proof.
  intros x dim d mean std eps sigma Hd Lm Ls. unfold mean_var_norm.
  rewrite Hd, Lm, Ls, Nat.eqb_refl. reflexivity.
Qed.

Lemma coeff_vals_norm_given : forall x dim d mean std eps sigma y ov i,
  norm_dim (length (shape x)) dim = Some d ->
  length mean = nth d (shape x) 0%nat -> length std = nth d (shape x) 0%nat ->
  mean_var_norm x dim (Some mean) (Some std) eps sigma = Ok (y, ov) ->
  (i < nth d (shape x) 0)%nat ->
  shape y = shape x /\
  coeff_vals y d i = map (fun q => (q - nth i mean 0) / qmax (nth i std 0) eps) (coeff_vals x d i).
Proof.
  intros x dim d mean std eps sigma y ov i Hd Lm Ls H Hi.
  rewrite (norm_given x dim d mean std eps sigma Hd Lm Ls) in H. inversion H; subst; clear H.
  split; [reflexivity|].
  rewrite !coeff_vals_bcast, map_map.
  rewrite (nth_map_gen (fun s => qmax s eps) std i 0 0) by lia. reflexivity.
Qed.

Lemma pooled_norm_given : forall dim X mean std eps xs ys i,
  uniform dim X xs -> length mean = X -> length std = X -> (i < X)%nat ->
  Forall2 (fun x y => exists sg ov, mean_var_norm x dim (Some mean) (Some std) eps sg = Ok (y, ov)) xs ys ->
  pooled dim ys i = map (fun q => (q - nth i mean 0) / qmax (nth i std 0) eps) (pooled dim xs i).
Proof.
  intros dim X mean std eps xs ys i HU Lm Ls Hi HF.
  induction HF as [|x y xs ys [sg [ov Hxy]] HF IH]; [reflexivity|].
  destruct (Forall_inv HU) as [d [Hd HX]]. pose proof (Forall_inv_tail HU) as HU'.
  rewrite <- HX in Lm, Ls, Hi.
  destruct (coeff_vals_norm_given x dim d mean std eps sg y ov i Hd Lm Ls Hxy Hi) as [Hs Hc].
  rewrite !pooled_cons, Hs, Hd, map_app, Hc, (IH HU'). reflexivity.
Qed.

(* normalising the pooled data with a mean and a standard deviation that ARE the pooled
   statistics gives zero mean and unit variance, coefficient by coefficient *)
Lemma normalised_zero_mean_unit_var : forall dim X mean std eps b xs ys i,
  uniform dim X xs -> length mean = X -> length std = X -> (i < X)%nat ->
  Forall2 (fun x y => exists sg ov, mean_var_norm x dim (Some mean) (Some std) eps sg = Ok (y, ov)) xs ys ->
  (0 < frames dim xs)%nat ->
  nth i mean 0 == pop_mean (pooled dim xs i) ->
  nth i std 0 * nth i std 0 == pop_var b (pooled dim xs i) ->
  0 < nth i std 0 -> eps <= nth i std 0 ->
  pop_mean (pooled dim ys i) == 0 /\ pop_var b (pooled dim ys i) == 1.
Proof.
  intros dim X mean std eps b xs ys i HU Lm Ls Hi HF Hn Hm Hv Hpos Heps.
  rewrite (pooled_norm_given dim X mean std eps xs ys i HU Lm Ls Hi HF).
  apply normalise_clamped; try assumption. now rewrite (length_pooled dim X xs i HU Hi).
Qed.

(* the whole sentence of the property: accumulate over any partition, store, normalise *)
Lemma accumulate_store_normalise : forall dim X xs ys b mean var std eps i,
  xs <> [] -> uniform dim X xs -> (2 <= frames dim xs)%nat ->
  bind (accumulate_all dim None xs) (fun s => store s b) = Ok (mean, var) ->
  length std = X -> (i < X)%nat ->
  nth i std 0 * nth i std 0 == nth i var 0 ->        (* std = sqrt(var), the oracle *)
  0 < nth i std 0 -> eps <= nth i std 0 ->
  Forall2 (fun x y => exists sg ov, mean_var_norm x dim (Some mean) (Some std) eps sg = Ok (y, ov)) xs ys ->
  pop_mean (pooled dim ys i) == 0 /\ pop_var b (pooled dim ys i) == 1.
Proof.
  intros dim X xs ys b mean var std eps i Hne HU Hn Hst Ls Hi Hsq Hpos Heps HF.
  destruct (store_is_pooled_mean_var dim X xs b Hne HU Hn) as [m [v [E [Lm [Lv H]]]]].
  rewrite E in Hst. inversion Hst; subst m v; clear Hst.
  destruct (H i Hi) as [Hm Hv].
  apply (normalised_zero_mean_unit_var dim X mean std eps b xs ys i); try assumption; try lia.
  rewrite Hsq. exact Hv.
Qed.

(* "without stored statistics the input's own statistics are used" *)
Lemma row_mean_pop : forall r, row_mean r == pop_mean r.
Proof. intros r. unfold row_mean, pop_mean. now rewrite qsum_Qsum. Qed.

Lemma row_var_pop : forall r, row_var r == pop_var false r.
Proof.
  intros r. unfold row_var, pop_var, sq_dev. rewrite qsum_Qsum.
  apply Qdiv_comp; [|reflexivity]. apply Qsum_map_ext. intros v. unfold qsq.
  rewrite row_mean_pop. reflexivity.
Qed.

Lemma own_stats_when_none : forall x dim d eps sigma y ov i,
  norm_dim (length (shape x)) dim = Some d ->
  mean_var_norm x dim None None eps sigma = Ok (y, ov) ->
  (i < nth d (shape x) 0)%nat -> (0 < rows_width x d)%nat ->
  exists mu,
    mu == pop_mean (coeff_vals x d i) /\
    nth i ov 0 == pop_var false (coeff_vals x d i) /\
    shape y = shape x /\
    coeff_vals y d i = map (fun q => (q - mu) / qmax (nth i sigma 0) eps) (coeff_vals x d i).
Proof.
  intros x dim d eps sigma y ov i Hd H Hi HM.
  pose proof (norm_dim_lt _ _ _ Hd) as Hlt.
  unfold mean_var_norm in H. rewrite Hd in H.
  rewrite map_length, (length_rows_of x d Hlt), Nat.eqb_refl in H. cbn [negb] in H.
  destruct (negb (length sigma =? nth d (shape x) 0)%nat) eqn:Ls; [discriminate|].
  inversion H; subst y ov; clear H.
  apply negb_false_iff, Nat.eqb_eq in Ls.
  set (mean' := map row_mean (rows_of x d)).
  assert (Hmu : nth i mean' 0 = row_mean (nth i (rows_of x d) [])).
  { unfold mean'. apply nth_map_gen. now rewrite length_rows_of. }
  exists (nth i mean' 0). split; [|split; [|split]].
  - rewrite Hmu, row_mean_pop. apply pop_mean_perm, row_perm; assumption.
  - rewrite (nth_map_gen row_var _ i [] 0) by (rewrite length_rows_of; rewrite ?shape_bcast; assumption).
    rewrite row_var_pop.
    rewrite (pop_var_perm false _ _ (row_perm (bcast x d mean' Qminus) d i Hlt Hi)).
    rewrite coeff_vals_bcast. apply pop_var_shift.
    rewrite length_coeff_vals; assumption.
  - reflexivity.
  - rewrite !coeff_vals_bcast, map_map.
    rewrite (nth_map_gen (fun s => qmax s eps) sigma i 0 0) by lia. reflexivity.
Qed.

(* ... and if the oracle sigma is the square root of the own variance, the result has zero
   mean and unit variance *)
Lemma own_stats_normalised : forall x dim d eps sigma y ov i,
  norm_dim (length (shape x)) dim = Some d ->
  mean_var_norm x dim None None eps sigma = Ok (y, ov) ->
  (i < nth d (shape x) 0)%nat -> (0 < rows_width x d)%nat ->
  nth i sigma 0 * nth i sigma 0 == nth i ov 0 -> 0 < nth i sigma 0 -> eps <= nth i sigma 0 ->
  pop_mean (coeff_vals y d i) == 0 /\ pop_var false (coeff_vals y d i) == 1.
Proof.
  intros x dim d eps sigma y ov i Hd H Hi HM Hsq Hpos Heps.
  destruct (own_stats_when_none x dim d eps sigma y ov i Hd H Hi HM) as [mu [Hmu [Hov [_ Hy]]]].
  rewrite Hy. apply normalise_clamped; try assumption.
  - rewrite length_coeff_vals; [assumption|now apply norm_dim_lt in Hd|assumption].
  - rewrite Hsq. exact Hov.
Qed.

(* compute-mvn-stats-for-torch-feat-data-dir without --id2gid: directory-level *)
(* accumulation is accumulate_all over the files, then store *)
Lemma cmd_loop_anonymous : forall dim files st,
  cmd_loop dim None files [(0%nat, st)] =
  match accumulate_all dim st (map snd files) with
  | Ok st' => Ok (Some [(0%nat, st')])
  | Err e => Err e
  end.
Proof.
  intros dim files. induction files as [|[i x] files IH]; intros st; [reflexivity|].
  cbn [cmd_loop map snd accumulate_all assoc Nat.eqb].
  destruct (accumulate dim st x) as [s|e]; cbn [bind]; [|reflexivity].
  cbn [set_assoc Nat.eqb]. apply IH.
Qed.

Lemma cmd_anonymous : forall files dim bessel,
  files <> [] ->
  compute_mvn_stats files None dim bessel =
  match bind (accumulate_all dim None (map snd files)) (fun s => store s bessel) with
  | Ok mv => CmdOk [(0%nat, mv)]
  | Err e => CmdExc e
  end.
Proof.
  intros files dim bessel Hne. unfold compute_mvn_stats.
  rewrite cmd_loop_anonymous.
  destruct files as [|[i x] files]; [contradiction|].
  cbn [map snd accumulate_all].
  destruct (accumulate dim None x) as [s1|e]; cbn [bind]; [|reflexivity].
  destruct (accumulate_all dim (Some s1) (map snd files)) as [[s|]|e] eqn:E; cbn [bind].
  - cbn [cmd_store]. destruct (store (Some s) bessel) as [ms|e]; reflexivity.
  - exfalso. clear - E. revert s1 E. induction (map snd files) as [|y ys IH]; intros s1 E; [discriminate|].
    cbn [accumulate_all] in E. destruct (accumulate dim (Some s1) y); cbn [bind] in E; [eauto|discriminate].
  - reflexivity.
Qed.

Lemma cmd_no_files : forall dim bessel, compute_mvn_stats [] None dim bessel = CmdRet1.
Proof. reflexivity. Qed.

(* the statistics file of a directory holds the pooled statistics of all its frames *)
Lemma cmd_directory_stats : forall files dim X bessel,
  files <> [] -> uniform dim X (map snd files) -> (2 <= frames dim (map snd files))%nat ->
  exists mean var,
    compute_mvn_stats files None dim bessel = CmdOk [(0%nat, (mean, var))] /\
    length mean = X /\ length var = X /\
    forall i, (i < X)%nat ->
      nth i mean 0 == pop_mean (pooled dim (map snd files) i) /\
      nth i var 0 == pop_var bessel (pooled dim (map snd files) i).
Proof.
  intros files dim X bessel Hne HU Hn.
  assert (Hne' : map snd files <> []) by (destruct files; [contradiction|discriminate]).
  destruct (store_is_pooled_mean_var dim X (map snd files) bessel Hne' HU Hn) as [m [v [E H]]].
  exists m, v. split; [|exact H]. rewrite cmd_anonymous by assumption. now rewrite E.
Qed.

Lemma accumulate_all_app : forall dim a b st,
  accumulate_all dim st (a ++ b) = bind (accumulate_all dim st a) (fun st' => accumulate_all dim st' b).
Proof.
  intros dim a b. induction a as [|x a IH]; intros st; [reflexivity|].
  cbn [app accumulate_all]. destruct (accumulate dim st x); cbn [bind]; [apply IH|reflexivity].
Qed.

Lemma run_ops_history : forall dim ops live st outs,
  accumulate_all dim None live = Ok st ->
  run_ops dim st ops outs = history_ref dim live ops outs.
Proof.
  intros dim ops. induction ops as [|[x|del b] ops IH]; intros live st outs H.
  - cbn [run_ops history_ref]. now rewrite H.
  - cbn [run_ops history_ref]. rewrite accumulate_all_app, H. cbn [bind accumulate_all].
    destruct (accumulate dim st x) as [s|e] eqn:E; cbn [bind]; [|reflexivity].
    apply IH. rewrite accumulate_all_app, H. cbn [bind accumulate_all]. now rewrite E.
  - cbn [run_ops history_ref]. rewrite H. cbn [bind].
    destruct (store st b) as [mv|e]; [destruct del|]; apply IH; try assumption. reflexivity.
Qed.

Lemma run_ops_history0 : forall dim ops, run_ops dim None ops [] = history_ref dim [] ops [].
Proof. intros. now apply run_ops_history. Qed.
