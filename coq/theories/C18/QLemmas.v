(* C18 — sums of rationals: the model's normalising [qsum] versus the plain [Qsum],
   extensionality, permutations, linearity, sums over integer ranges. *)
From Coq Require Import List ZArith QArith Qabs Bool Arith Lia Permutation Setoid Morphisms.
From PV Require Import MiniTorch.Lemmas C18.Model C18.Spec.
Import ListNotations.
Local Open Scope Q_scope.

Lemma qsum_Qsum : forall l, qsum l == Qsum l.
Proof.
  induction l as [|a l IH]; [reflexivity|].
  change (qsum (a :: l)) with (Qred (a + qsum l)). change (Qsum (a :: l)) with (a + Qsum l).
  rewrite Qred_correct, IH. reflexivity.
Qed.

Lemma Qsum_nil : Qsum [] = 0.
Proof. reflexivity. Qed.

Lemma Qsum_cons : forall x a, Qsum (x :: a) = x + Qsum a.
Proof. reflexivity. Qed.

Ltac qs := cbn [map app length]; rewrite ?Qsum_cons, ?Qsum_nil.

Lemma Qsum_app : forall a b, Qsum (a ++ b) == Qsum a + Qsum b.
Proof.
  induction a as [|x a IH]; intros b; qs.
  - ring.
  - rewrite IH. ring.
Qed.

Lemma Qsum_perm : forall a b, Permutation a b -> Qsum a == Qsum b.
Proof.
  induction 1; qs.
  - reflexivity.
  - rewrite IHPermutation. reflexivity.
  - ring.
  - etransitivity; eassumption.
Qed.

Lemma Qsum_map_ext_in : forall {A} (f g : A -> Q) l,
  (forall a, In a l -> f a == g a) -> Qsum (map f l) == Qsum (map g l).
Proof.
  induction l as [|a l IH]; intros H; qs; [reflexivity|].
  rewrite IH by (intros; apply H; now right). rewrite (H a) by now left. reflexivity.
Qed.

Lemma Qsum_map_ext : forall {A} (f g : A -> Q) l,
  (forall a, f a == g a) -> Qsum (map f l) == Qsum (map g l).
Proof. intros. apply Qsum_map_ext_in. auto. Qed.

Lemma Qsum_map_scal : forall {A} (f : A -> Q) c l, Qsum (map (fun a => f a * c) l) == Qsum (map f l) * c.
Proof.
  induction l as [|a l IH]; qs; [ring|]. rewrite IH. ring.
Qed.

Lemma Qsum_map_plus : forall {A} (f g : A -> Q) l,
  Qsum (map (fun a => f a + g a) l) == Qsum (map f l) + Qsum (map g l).
Proof.
  induction l as [|a l IH]; qs; [ring|]. rewrite IH. ring.
Qed.

Lemma Qsum_map_zero : forall {A} (f : A -> Q) l, (forall a, In a l -> f a == 0) -> Qsum (map f l) == 0.
Proof.
  induction l as [|a l IH]; intros H; qs; [reflexivity|].
  rewrite IH by (intros; apply H; now right). rewrite (H a) by now left. ring.
Qed.

Lemma Qsum_map_const : forall {A} (c : Q) (l : list A), Qsum (map (fun _ => c) l) == qofnat (length l) * c.
Proof.
  induction l as [|a l IH]; qs.
  - unfold qofnat. cbn. ring.
  - rewrite IH. unfold qofnat.
    rewrite Nat2Z.inj_succ. unfold Z.succ. rewrite inject_Z_plus. ring.
Qed.

(* exchanging two finite sums *)
Lemma Qsum_swap : forall {A B} (f : A -> B -> Q) la lb,
  Qsum (map (fun a => Qsum (map (fun b => f a b) lb)) la) ==
  Qsum (map (fun b => Qsum (map (fun a => f a b) la)) lb).
Proof.
  induction la as [|a la IH]; intros lb; qs.
  - symmetry. apply Qsum_map_zero. reflexivity.
  - rewrite IH.
    rewrite <- Qsum_map_plus. apply Qsum_map_ext. intros b. qs. reflexivity.
Qed.

(* a single non-zero term *)
Lemma Qsum_single_nat : forall (f : nat -> Q) n k, (k < n)%nat ->
  Qsum (map (fun i => if (i =? k)%nat then f i else 0) (seq 0 n)) == f k.
Proof.
  intros f n k Hk. replace n with (k + S (n - S k))%nat by lia.
  rewrite seq_app, map_app, Qsum_app. cbn [seq map Nat.add]. rewrite Qsum_cons, Nat.eqb_refl.
  rewrite !Qsum_map_zero; [ring| |]; intros i Hi; apply in_seq in Hi;
    (destruct (Nat.eqb_spec i k); [lia|reflexivity]).
Qed.

Lemma qofnat_plus : forall a b, qofnat (a + b) == qofnat a + qofnat b.
Proof. intros. unfold qofnat. rewrite Nat2Z.inj_add, inject_Z_plus. reflexivity. Qed.

Lemma qofnat_pos : forall n, (0 < n)%nat -> 0 < qofnat n.
Proof. intros n H. unfold qofnat. change 0 with (inject_Z 0). rewrite <- Zlt_Qlt. lia. Qed.

Lemma qofnat_nonneg : forall n, 0 <= qofnat n.
Proof. intros n. unfold qofnat. change 0 with (inject_Z 0). rewrite <- Zle_Qle. lia. Qed.

Lemma qofnat_le : forall a b, (a <= b)%nat -> qofnat a <= qofnat b.
Proof. intros. unfold qofnat. rewrite <- Zle_Qle. lia. Qed.

Lemma qofnat_ge2 : forall n, 2 <= qofnat n -> (2 <= n)%nat.
Proof.
  intros n H. unfold qofnat in H. change 2 with (inject_Z 2) in H. rewrite <- Zle_Qle in H. lia.
Qed.

Lemma qofnat_nz : forall n, (0 < n)%nat -> ~ qofnat n == 0.
Proof. intros n H E. pose proof (qofnat_pos n H) as P. rewrite E in P. now apply Qlt_irrefl in P. Qed.

Lemma qmax_ge_r : forall a b, b <= a -> qmax a b == a.
Proof.
  intros a b H. unfold qmax. destruct (Qle_bool a b) eqn:E; [|reflexivity].
  apply Qle_bool_iff in E. apply Qle_antisym; assumption.
Qed.

Lemma qmax_comm_val : forall a b, a <= b -> qmax a b == b.
Proof.
  intros a b H. unfold qmax. destruct (Qle_bool a b) eqn:E; [reflexivity|].
  apply Qle_bool_iff in H. congruence.
Qed.

Lemma nth_map_gen : forall {A B} (f : A -> B) l i da db, (i < length l)%nat ->
  nth i (map f l) db = f (nth i l da).
Proof.
  intros A B f l i da db H. rewrite (nth_indep _ db (f da)) by now rewrite map_length. apply map_nth.
Qed.

Lemma nth_repeat0 : forall n i, nth i (repeat 0 n) 0 = 0.
Proof. induction n; destruct i; cbn; auto. Qed.
