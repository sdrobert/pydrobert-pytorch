(* C18 — time_distributed_return: the triangular discount matrix product satisfies
   R_t = r_t + gamma * R_(t+1), R beyond the horizon = 0, for both layouts and every gamma. *)
From Coq Require Import List ZArith QArith Qabs Bool Arith Lia.
From PV Require Import C18.Model C18.Spec C18.QLemmas C18.Tensor.
Import ListNotations.
Local Open Scope Q_scope.

Definition disc (g : Q) (t k : nat) : Q := if (t <=? k)%nat then qpow g (k - t) else 0.

(* the entry of the product: sum_k gamma^(k-t) [t <= k] r_k *)
Definition ret_sum (g : Q) (rk : nat -> Q) (T t : nat) : Q :=
  Qsum (map (fun k => disc g t k * rk k) (seq 0 T)).

Lemma get_disc_triu : forall g T i j, (i < T)%nat -> (j < T)%nat -> get (disc_triu g T) [i; j] = disc g i j.
Proof. intros. unfold disc_triu. rewrite get_tabulate by now apply valid2. reflexivity. Qed.

Lemma get_disc_tril : forall g T i j, (i < T)%nat -> (j < T)%nat -> get (disc_tril g T) [i; j] = disc g j i.
Proof. intros. unfold disc_tril. rewrite get_tabulate by now apply valid2. reflexivity. Qed.

Lemma get_matmul : forall a b i j, (i < nth 0 (shape a) 0)%nat -> (j < nth 1 (shape b) 0)%nat ->
  get (matmul a b) [i; j] =
  qsum (map (fun k => get a [i; k] * get b [k; j]) (seq 0 (nth 1 (shape a) 0%nat))).
Proof. intros. unfold matmul. rewrite get_tabulate by now apply valid2. reflexivity. Qed.

Lemma disc_step : forall g t k,
  disc g t k == (if (k =? t)%nat then 1 else 0) + g * disc g (S t) k.
Proof.
  intros g t k. unfold disc.
  destruct (Nat.leb_spec t k) as [H|H]; destruct (Nat.leb_spec (S t) k) as [H'|H'];
    destruct (Nat.eqb_spec k t) as [E|E]; try lia.
  - replace (k - t)%nat with (S (k - S t)) by lia. cbn [qpow]. rewrite Qred_correct. ring.
  - subst. rewrite Nat.sub_diag. cbn [qpow]. ring.
  - ring.
Qed.

Lemma ret_sum_rec : forall g rk T t, (t < T)%nat ->
  ret_sum g rk T t == rk t + g * ret_sum g rk T (S t).
Proof.
  intros g rk T t Ht. unfold ret_sum.
  rewrite (Qsum_map_ext _ (fun k => (if (k =? t)%nat then rk k else 0) + (disc g (S t) k * rk k) * g)).
  - rewrite Qsum_map_plus, Qsum_map_scal, Qsum_single_nat by assumption. ring.
  - intros k. rewrite disc_step. destruct (k =? t)%nat; ring.
Qed.

Lemma ret_sum_end : forall g rk T t, (T <= t)%nat -> ret_sum g rk T t == 0.
Proof.
  intros g rk T t Ht. unfold ret_sum. apply Qsum_map_zero.
  intros k Hk. apply in_seq in Hk. unfold disc.
  destruct (Nat.leb_spec t k); [lia|ring].
Qed.

Lemma return_entries : forall r g (bf : bool) T N out,
  shape r = (if bf then [N; T] else [T; N]) -> Qeq_bool g 0 = false ->
  time_distributed_return r g bf = Ok out ->
  shape out = shape r /\
  forall t n, (t < T)%nat -> (n < N)%nat -> at2 bf out t n == ret_sum g (fun k => at2 bf r k n) T t.
Proof.
  intros r g bf T N out Hsh Hg H. unfold time_distributed_return in H.
  rewrite Hsh, Hg in H. destruct bf; cbn in H; inversion H; subst out; clear H;
    (split; [unfold matmul, tabulate; cbn [shape]; rewrite Hsh; reflexivity|]); intros t n Ht Hn; unfold at2; cbv iota;
    rewrite get_matmul by (rewrite ?Hsh; cbn; lia); rewrite qsum_Qsum, ?Hsh; cbn [nth shape disc_triu tabulate];
    unfold ret_sum; apply Qsum_map_ext_in; intros k Hk; apply in_seq in Hk;
    rewrite ?get_disc_tril, ?get_disc_triu by lia; ring.
Qed.

Lemma return_recursion : forall r g (bf : bool) T N out,
  shape r = (if bf then [N; T] else [T; N]) ->
  time_distributed_return r g bf = Ok out ->
  shape out = shape r /\
  forall t n, (t < T)%nat -> (n < N)%nat ->
    at2 bf out t n == at2 bf r t n + g * (if (S t <? T)%nat then at2 bf out (S t) n else 0).
Proof.
  intros r g bf T N out Hsh H.
  destruct (Qeq_bool g 0) eqn:Hg.
  - apply Qeq_bool_iff in Hg. unfold time_distributed_return in H.
    rewrite Hsh in H. replace (Qeq_bool g 0) with true in H by (symmetry; now apply Qeq_bool_iff).
    assert (out = r) by (destruct bf; cbn in H; now inversion H). subst out.
    split; [reflexivity|]. intros t n _ _. rewrite Hg. ring.
  - destruct (return_entries r g bf T N out Hsh Hg H) as [Hs He]. split; [assumption|].
    intros t n Ht Hn. rewrite He by assumption. rewrite ret_sum_rec by assumption.
    destruct (Nat.ltb_spec (S t) T) as [H'|H'].
    + rewrite He by assumption. reflexivity.
    + rewrite ret_sum_end by lia. reflexivity.
Qed.

Lemma ret_rec_cons : forall g r rs, ret_rec g (r :: rs) = (r + g * hd 0 (ret_rec g rs)) :: ret_rec g rs.
Proof. reflexivity. Qed.

Lemma hd_nth0 : forall (l : list Q), hd 0 l = nth 0 l 0.
Proof. destruct l; reflexivity. Qed.

Lemma length_ret_rec : forall g rs, length (ret_rec g rs) = length rs.
Proof. induction rs as [|r rs IH]; [reflexivity|]. rewrite ret_rec_cons. cbn [length]. now rewrite IH. Qed.

Lemma recursion_unique : forall g (rf R : nat -> Q) T,
  (forall t, (t < T)%nat -> R t == rf t + g * (if (S t <? T)%nat then R (S t) else 0)) ->
  forall len s, (s + len = T)%nat -> forall t, (t < len)%nat ->
    nth t (ret_rec g (map rf (seq s len))) 0 == R (s + t)%nat.
Proof.
  intros g rf R T HR. induction len as [|len IH]; intros s Hs t Ht; [lia|].
  cbn [seq map]. rewrite ret_rec_cons. destruct t as [|t].
  - cbn [nth]. rewrite Nat.add_0_r, (HR s) by lia. rewrite hd_nth0.
    destruct (Nat.ltb_spec (S s) T) as [H'|H'].
    + rewrite (IH (S s)) by lia. rewrite Nat.add_0_r. reflexivity.
    + assert (len = 0)%nat by lia. subst len. cbn. reflexivity.
  - cbn [nth]. rewrite (IH (S s)) by lia. replace (S s + t)%nat with (s + S t)%nat by lia. reflexivity.
Qed.

Lemma return_eq_spec : forall r g (bf : bool) T N out,
  shape r = (if bf then [N; T] else [T; N]) ->
  time_distributed_return r g bf = Ok out ->
  forall t n, (t < T)%nat -> (n < N)%nat ->
    at2 bf out t n == nth t (ret_rec g (map (fun k => at2 bf r k n) (seq 0 T))) 0.
Proof.
  intros r g bf T N out Hsh H t n Ht Hn.
  destruct (return_recursion r g bf T N out Hsh H) as [_ Hrec].
  symmetry.
  apply (recursion_unique g (fun k => at2 bf r k n) (fun k => at2 bf out k n) T); try lia.
  intros t' Ht'. now apply Hrec.
Qed.

(* outcomes: only the number of dimensions matters *)
Lemma return_error_iff : forall r g bf,
  time_distributed_return r g bf = Err ERuntime <-> length (shape r) <> 2%nat.
Proof.
  intros r g bf. unfold time_distributed_return.
  destruct (Nat.eqb_spec (length (shape r)) 2) as [E|E]; cbn [negb].
  - split; [|contradiction]. destruct (Qeq_bool g 0); [discriminate|]. destruct bf; discriminate.
  - split; auto.
Qed.
