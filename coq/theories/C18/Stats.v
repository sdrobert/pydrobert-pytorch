(* C18 — algebra of population statistics on lists of rationals. *)
From Coq Require Import List ZArith QArith Qabs Bool Arith Lia Permutation Setoid.
From PV Require Import C18.Model C18.Spec C18.QLemmas.
Import ListNotations.
Local Open Scope Q_scope.

Lemma qsq_eq : forall a, qsq a = a * a.
Proof. reflexivity. Qed.

Lemma Qsq_nonneg : forall a : Q, 0 <= a * a.
Proof. intros [n d]. unfold Qle, Qmult. cbn. rewrite Z.mul_1_r. apply Z.square_nonneg. Qed.

Lemma Qsum_nonneg : forall l, (forall a, In a l -> 0 <= a) -> 0 <= Qsum l.
Proof.
  induction l as [|a l IH]; intros H; qs; [apply Qle_refl|].
  replace 0 with (0 + 0) by reflexivity. apply Qplus_le_compat; [apply H; now left|apply IH; intros; apply H; now right].
Qed.

Lemma Qsum_eq_len_mean : forall l, (0 < length l)%nat -> Qsum l == qofnat (length l) * pop_mean l.
Proof. intros l H. unfold pop_mean. field. now apply qofnat_nz. Qed.

(* sum of squared deviations from an arbitrary centre *)
Lemma sq_dev_expand : forall l m,
  Qsum (map (fun v => (v - m) * (v - m)) l) ==
  Qsum (map qsq l) - 2 * m * Qsum l + qofnat (length l) * (m * m).
Proof.
  induction l as [|a l IH]; intros m; qs.
  - unfold qofnat. cbn. ring.
  - rewrite IH. unfold qofnat. rewrite Nat2Z.inj_succ. unfold Z.succ. rewrite inject_Z_plus.
    unfold qsq. ring.
Qed.

Lemma sq_dev_alt : forall l, (0 < length l)%nat ->
  sq_dev l == Qsum (map qsq l) - qofnat (length l) * (pop_mean l * pop_mean l).
Proof.
  intros l H. unfold sq_dev. rewrite sq_dev_expand. rewrite (Qsum_eq_len_mean l H) at 1. ring.
Qed.

Lemma sq_dev_nonneg : forall l, 0 <= sq_dev l.
Proof.
  intros l. unfold sq_dev. apply Qsum_nonneg. intros a Ha. apply in_map_iff in Ha.
  destruct Ha as [v [<- _]]. apply Qsq_nonneg.
Qed.

Lemma pop_mean_perm : forall a b, Permutation a b -> pop_mean a == pop_mean b.
Proof.
  intros a b H. unfold pop_mean. rewrite (Qsum_perm _ _ H), (Permutation_length H). reflexivity.
Qed.

Lemma sq_dev_centre_ext : forall l m m', m == m' ->
  Qsum (map (fun v => (v - m) * (v - m)) l) == Qsum (map (fun v => (v - m') * (v - m')) l).
Proof. intros l m m' E. apply Qsum_map_ext. intros v. rewrite E. reflexivity. Qed.

Lemma sq_dev_perm : forall a b, Permutation a b -> sq_dev a == sq_dev b.
Proof.
  intros a b H. unfold sq_dev.
  rewrite (sq_dev_centre_ext a _ _ (pop_mean_perm _ _ H)).
  apply Qsum_perm. now apply Permutation_map.
Qed.

Lemma pop_var_perm : forall bessel a b, Permutation a b -> pop_var bessel a == pop_var bessel b.
Proof.
  intros bessel a b H. unfold pop_var. rewrite (sq_dev_perm _ _ H), (Permutation_length H). reflexivity.
Qed.

Lemma var_from_sums : forall l, (0 < length l)%nat ->
  Qsum (map qsq l) / qofnat (length l) - qsq (Qsum l / qofnat (length l)) == pop_var false l.
Proof.
  intros l H. unfold pop_var. rewrite (sq_dev_alt l H). unfold pop_mean, qsq. field.
  now apply qofnat_nz.
Qed.

Lemma pop_var_nonneg_biased : forall l, (0 < length l)%nat -> 0 <= pop_var false l.
Proof.
  intros l H. unfold pop_var. apply Qle_shift_div_l; [now apply qofnat_pos|].
  rewrite Qmult_0_l. apply sq_dev_nonneg.
Qed.

Lemma qofnat_minus1_nz : forall n, (2 <= n)%nat -> ~ qofnat n - 1 == 0.
Proof.
  intros n H E.
  assert (G : qofnat n == qofnat (n - 1) + 1).
  { change 1 with (qofnat 1). rewrite <- qofnat_plus. now replace (n - 1 + 1)%nat with n by lia. }
  rewrite G in E. apply (qofnat_nz (n - 1)); [lia|]. rewrite <- E. ring.
Qed.

Lemma bessel_scale : forall l, (2 <= length l)%nat ->
  pop_var false l * (qofnat (length l) / (qofnat (length l) - 1)) == pop_var true l.
Proof.
  intros l H. unfold pop_var. field. split; [apply qofnat_minus1_nz; lia|apply qofnat_nz; lia].
Qed.

Lemma pop_mean_affine : forall l c s, (0 < length l)%nat -> ~ s == 0 ->
  pop_mean (map (fun v => (v - c) / s) l) == (pop_mean l - c) / s.
Proof.
  intros l c s H Hs. unfold pop_mean. rewrite map_length.
  rewrite (Qsum_map_ext _ (fun v => (v + (- c)) * (/ s))) by (intros; field; assumption).
  rewrite Qsum_map_scal.
  rewrite (Qsum_map_plus (fun v => v) (fun _ => - c)), Qsum_map_const, map_id.
  field. split; try assumption; now apply qofnat_nz.
Qed.

Lemma sq_dev_affine : forall l c s, (0 < length l)%nat -> ~ s == 0 ->
  sq_dev (map (fun v => (v - c) / s) l) == sq_dev l / (s * s).
Proof.
  intros l c s H Hs. unfold sq_dev. rewrite map_map.
  rewrite (Qsum_map_ext _ (fun v => ((v - pop_mean l) * (v - pop_mean l)) * (/ (s * s)))).
  - rewrite Qsum_map_scal. reflexivity.
  - intros v. rewrite (pop_mean_affine l c s H Hs). field. assumption.
Qed.

Lemma pop_var_affine : forall b l c s, (0 < length l)%nat -> ~ s == 0 ->
  pop_var b (map (fun v => (v - c) / s) l) == pop_var b l / (s * s).
Proof.
  intros b l c s H Hs. unfold pop_var. rewrite (sq_dev_affine l c s H Hs), map_length.
  unfold Qdiv. ring.
Qed.

(* "normalising with them gives each coefficient zero mean and unit variance" *)
Lemma normalise_list : forall b l m s,
  (0 < length l)%nat -> m == pop_mean l -> s * s == pop_var b l -> ~ s == 0 ->
  pop_mean (map (fun v => (v - m) / s) l) == 0 /\ pop_var b (map (fun v => (v - m) / s) l) == 1.
Proof.
  intros b l m s H Hm Hv Hs. split.
  - rewrite (pop_mean_affine l m s H Hs), Hm. field. assumption.
  - rewrite (pop_var_affine b l m s H Hs), <- Hv. field. assumption.
Qed.

(* the same with the divisor clamped from below, as mean_var_norm divides: the clamp does not bite *)
Lemma normalise_clamped : forall b l m s eps,
  (0 < length l)%nat -> m == pop_mean l -> s * s == pop_var b l -> 0 < s -> eps <= s ->
  pop_mean (map (fun v => (v - m) / qmax s eps) l) == 0 /\ pop_var b (map (fun v => (v - m) / qmax s eps) l) == 1.
Proof.
  intros b l m s eps H Hm Hv Hpos Heps. assert (E : qmax s eps == s) by now apply qmax_ge_r.
  apply normalise_list; rewrite ?E; try assumption. intros Z. rewrite Z in Hpos. now apply Qlt_irrefl in Hpos.
Qed.

(* statistics respect pointwise Qeq of the data *)
Lemma pop_mean_map_ext : forall {A} (f g : A -> Q) l, (forall a, f a == g a) ->
  pop_mean (map f l) == pop_mean (map g l).
Proof. intros A f g l H. unfold pop_mean. rewrite !map_length, (Qsum_map_ext f g l H). reflexivity. Qed.

Lemma pop_var_map_ext : forall {A} b (f g : A -> Q) l, (forall a, f a == g a) ->
  pop_var b (map f l) == pop_var b (map g l).
Proof.
  intros A b f g l H. unfold pop_var, sq_dev. rewrite !map_length, !map_map.
  rewrite (Qsum_map_ext _ (fun x => (g x - pop_mean (map g l)) * (g x - pop_mean (map g l)))).
  - reflexivity.
  - intros a. rewrite (H a), (pop_mean_map_ext f g l H). reflexivity.
Qed.

Lemma pop_var_shift : forall b l c, (0 < length l)%nat ->
  pop_var b (map (fun v => v - c) l) == pop_var b l.
Proof.
  intros b l c H.
  rewrite (pop_var_map_ext b _ (fun v => (v - c) / 1)) by (intros; field).
  rewrite (pop_var_affine b l c 1 H) by discriminate. field.
Qed.
