(* C18, both ties — running a translated body one statement at a time: the way the interpreter is reduced (see [step]). *)
From Coq Require Import List String Bool.
From PV Require Import MiniPy.Syntax MiniPy.Interp.
From PV Require Export MiniPy.Lemmas.
From PV Require Import C18.SrcRun C18.SrcRunB.
Import ListNotations.
Local Open Scope string_scope.

(* the body from its n-th statement on *)
Fixpoint seq_from (n : nat) (s : stmt) : stmt :=
  match n, s with S k, SSeq _ b => seq_from k b | _, _ => s end.

(* The interpreter unfolds only on a state that is a constructor: cbn then leaves the continuations, where the state is a
   bound variable, alone instead of normalising the rest of the statement under the binders at every step. *)
#[global] Arguments exec ext s !st.
#[global] Arguments Interp.store ext place v !st.
#[global] Arguments assign_all ext ts v !st.
#[global] Arguments subscript o k !st.
#[global] Arguments attribute ext o a !st.
#[global] Arguments binop_eval op a b !st.
#[global] Arguments builtin f args !st.
#[global] Arguments ext18 f args kw !st.
#[global] Arguments ext_t sq f args kw !st.
#[global] Arguments method !o m !args.
#[global] Arguments truthy !v.

(* [run by t]: one statement on its own.  [eval] is unfolded at once on the concrete expression (cbn would spend its time
   refolding it), then rounds of [t]: cbn for lookups and dispatch, equations for the calls on tensors.
   [step by t]: the first statement of a sequence ends normally, by [run by t]. *)
Tactic Notation "run" "by" tactic3(t) := lazy [exec eval Interp.bind]; repeat (progress t).
Tactic Notation "step" "by" tactic3(t) := rewrite ?exec_seq_assoc; erewrite exec_seq_ok by (run by t; reflexivity).

(* the names in the program behind local definitions: cbn unfolds them where String.eqb needs them, and the
   intermediate goals, which Qed types again, are much smaller *)
Ltac hide s := lazymatch s with String _ _ => let x := fresh "x" in set (x := s) in * end.
Ltac hide_names := repeat match goal with
  | |- context [EName ?s] => hide s | |- context [TName ?s] => hide s | |- context [EAttr _ ?s] => hide s
  | |- context [EMeth _ ?s _ _] => hide s | |- context [ECall ?s _ _] => hide s end.
