(* C18 — Normalisation statistics, deltas and returns equal their defining formulas.
   Property theorems only: each is closed by [exact <lemma of the Proofs files>] and followed
   by [Print Assumptions].  The harness re-checks this file on every run.

   Numbers are exact rationals (IEEE rounding is not modelled); [==] is equality of rationals.
   [sqrt] is an oracle: the model's store() returns variances, and wherever a standard
   deviation is needed the theorems quantify over any [std] whose square is that variance. *)
From Coq Require Import List ZArith QArith Permutation.
From PV Require Import C18.Model C18.Spec C18.Proofs.
Import ListNotations.
Local Open Scope Q_scope.

(* ---- statistics ----------------------------------------------------------------------- *)

(* the running count / sum / sum of squares after accumulating ANY non-empty list of tensors
   (any shapes, any number of dimensions, as long as dim is legal and they agree on the number
   X of coefficients) are the frame count and the per-coefficient sums of the pooled data *)
Theorem c18_accumulate_pooled_sums : forall dim X xs,
  xs <> [] -> uniform dim X xs ->
  exists s, accumulate_all dim None xs = Ok (Some s) /\
    length (ssum s) = X /\ length (ssq s) = X /\
    cnt s == qofnat (frames dim xs) /\
    forall i, (i < X)%nat ->
      nth i (ssum s) 0 == Qsum (pooled dim xs i) /\
      nth i (ssq s) 0 == Qsum (map qsq (pooled dim xs i)).
Proof. exact accumulate_pooled_sums. Qed.
Print Assumptions c18_accumulate_pooled_sums.

(* "Mean-variance statistics accumulated over any partition of the data ... equal the pooled
   population mean and (biased or Bessel-corrected) standard deviation of all frames"
   (var = std^2; the clamp at 0 that store() applies never bites in exact arithmetic) *)
Theorem c18_store_is_pooled_mean_var : forall dim X xs b,
  xs <> [] -> uniform dim X xs -> (2 <= frames dim xs)%nat ->
  exists mean var,
    bind (accumulate_all dim None xs) (fun s => store s b) = Ok (mean, var) /\
    length mean = X /\ length var = X /\
    forall i, (i < X)%nat ->
      nth i mean 0 == pop_mean (pooled dim xs i) /\ nth i var 0 == pop_var b (pooled dim xs i).
Proof. exact store_is_pooled_mean_var. Qed.
Print Assumptions c18_store_is_pooled_mean_var.

(* with fewer than two frames store() raises (for either setting of bessel: as coded) *)
Theorem c18_store_needs_two_frames : forall dim X xs b,
  xs <> [] -> uniform dim X xs -> (frames dim xs < 2)%nat ->
  bind (accumulate_all dim None xs) (fun s => store s b) = Err ERuntime.
Proof. exact store_too_few_frames. Qed.
Print Assumptions c18_store_needs_two_frames.

(* "over any partition of the data, in any order": two histories whose pooled coefficient
   values are permutations of each other - different chunking, order, tensor shapes, numbers
   of dimensions, even a different dim argument - store the same mean and variance *)
Theorem c18_stats_partition_order_invariant : forall dim dim' X xs xs' b,
  (0 < X)%nat -> xs <> [] -> xs' <> [] -> uniform dim X xs -> uniform dim' X xs' ->
  (forall i, (i < X)%nat -> Permutation (pooled dim xs i) (pooled dim' xs' i)) ->
  same_result (bind (accumulate_all dim None xs) (fun s => store s b))
              (bind (accumulate_all dim' None xs') (fun s => store s b)).
Proof. exact stats_partition_order_invariant. Qed.
Print Assumptions c18_stats_partition_order_invariant.

(* histories of one module (accumulate / store(delete_stats, bessel) in any sequence): every
   store() returns what a fresh module would return after accumulating exactly the tensors seen
   since the last store that deleted the statistics - so the three theorems above apply to
   every store of every history; the buffers left at the end are those of that same list *)
Theorem c18_histories : forall dim ops,
  run_ops dim None ops [] = history_ref dim [] ops [].
Proof. exact run_ops_history0. Qed.
Print Assumptions c18_histories.

(* "normalising with them gives each coefficient zero mean and unit variance over the pooled
   data": accumulate, store, take std with std^2 = var (positive and not below eps), normalise
   every accumulated tensor; the pooled result has mean 0 and (biased resp. Bessel) variance 1 *)
Theorem c18_normalised_zero_mean_unit_var : forall dim X xs ys b mean var std eps i,
  xs <> [] -> uniform dim X xs -> (2 <= frames dim xs)%nat ->
  bind (accumulate_all dim None xs) (fun s => store s b) = Ok (mean, var) ->
  length std = X -> (i < X)%nat ->
  nth i std 0 * nth i std 0 == nth i var 0 ->
  0 < nth i std 0 -> eps <= nth i std 0 ->
  Forall2 (fun x y => exists sg ov, mean_var_norm x dim (Some mean) (Some std) eps sg = Ok (y, ov)) xs ys ->
  pop_mean (pooled dim ys i) == 0 /\ pop_var b (pooled dim ys i) == 1.
Proof. exact accumulate_store_normalise. Qed.
Print Assumptions c18_normalised_zero_mean_unit_var.

(* the same for statistics handed to the module directly, whatever their origin *)
Theorem c18_normalised_given_stats : forall dim X mean std eps b xs ys i,
  uniform dim X xs -> length mean = X -> length std = X -> (i < X)%nat ->
  Forall2 (fun x y => exists sg ov, mean_var_norm x dim (Some mean) (Some std) eps sg = Ok (y, ov)) xs ys ->
  (0 < frames dim xs)%nat ->
  nth i mean 0 == pop_mean (pooled dim xs i) ->
  nth i std 0 * nth i std 0 == pop_var b (pooled dim xs i) ->
  0 < nth i std 0 -> eps <= nth i std 0 ->
  pop_mean (pooled dim ys i) == 0 /\ pop_var b (pooled dim ys i) == 1.
Proof. exact normalised_zero_mean_unit_var. Qed.
Print Assumptions c18_normalised_given_stats.

(* what the normalisation does to every coefficient: y = (x - mean_i) / max(std_i, eps) *)
Theorem c18_normalisation_formula : forall x dim d mean std eps sigma y ov i,
  norm_dim (length (shape x)) dim = Some d ->
  length mean = nth d (shape x) 0%nat -> length std = nth d (shape x) 0%nat ->
  mean_var_norm x dim (Some mean) (Some std) eps sigma = Ok (y, ov) ->
  (i < nth d (shape x) 0)%nat ->
  shape y = shape x /\
  coeff_vals y d i = map (fun q => (q - nth i mean 0) / qmax (nth i std 0) eps) (coeff_vals x d i).
Proof. exact coeff_vals_norm_given. Qed.
Print Assumptions c18_normalisation_formula.

(* "without stored statistics the input's own statistics are used": the subtracted mean is
   the population mean of the coefficient, the variance whose root is taken is its biased
   population variance, and the division is by max(sigma_i, eps) *)
Theorem c18_own_stats_when_none : forall x dim d eps sigma y ov i,
  norm_dim (length (shape x)) dim = Some d ->
  mean_var_norm x dim None None eps sigma = Ok (y, ov) ->
  (i < nth d (shape x) 0)%nat -> (0 < rows_width x d)%nat ->
  exists mu,
    mu == pop_mean (coeff_vals x d i) /\
    nth i ov 0 == pop_var false (coeff_vals x d i) /\
    shape y = shape x /\
    coeff_vals y d i = map (fun q => (q - mu) / qmax (nth i sigma 0) eps) (coeff_vals x d i).
Proof. exact own_stats_when_none. Qed.
Print Assumptions c18_own_stats_when_none.

Theorem c18_own_stats_normalised : forall x dim d eps sigma y ov i,
  norm_dim (length (shape x)) dim = Some d ->
  mean_var_norm x dim None None eps sigma = Ok (y, ov) ->
  (i < nth d (shape x) 0)%nat -> (0 < rows_width x d)%nat ->
  nth i sigma 0 * nth i sigma 0 == nth i ov 0 -> 0 < nth i sigma 0 -> eps <= nth i sigma 0 ->
  pop_mean (coeff_vals y d i) == 0 /\ pop_var false (coeff_vals y d i) == 1.
Proof. exact own_stats_normalised. Qed.
Print Assumptions c18_own_stats_normalised.

(* "directory-level accumulation" (compute-mvn-stats-for-torch-feat-data-dir without --id2gid):
   the saved statistics are the pooled statistics of the frames of all files, whatever the
   number, order and shapes of the files *)
Theorem c18_cmd_directory_stats : forall files dim X bessel,
  files <> [] -> uniform dim X (map snd files) -> (2 <= frames dim (map snd files))%nat ->
  exists mean var,
    compute_mvn_stats files None dim bessel = CmdOk [(0%nat, (mean, var))] /\
    length mean = X /\ length var = X /\
    forall i, (i < X)%nat ->
      nth i mean 0 == pop_mean (pooled dim (map snd files) i) /\
      nth i var 0 == pop_var bessel (pooled dim (map snd files) i).
Proof. exact cmd_directory_stats. Qed.
Print Assumptions c18_cmd_directory_stats.

(* non-vacuity: a concrete two-tensor history (shapes (2,2) and (1,2,1), dim = -1 resp. its
   position) meets the hypotheses; three frames (1,2), (3,6), (5,1) *)
Example c18_stats_nonvacuous :
  let xs := [mkT [2; 2]%nat [1; 2; 3; 6]; mkT [1; 2]%nat [5; 1]] in
  xs <> [] /\ uniform (-1) 2 xs /\ frames (-1) xs = 3%nat /\
  pooled (-1) xs 1 = [2; 6; 1] /\
  exists mean var, bind (accumulate_all (-1) None xs) (fun s => store s true) = Ok (mean, var) /\
                   Forall2 Qeq mean [3; 3] /\ Forall2 Qeq var [4; 7].
Proof.
  cbv zeta. split; [discriminate|]. split.
  - repeat constructor; exists 1%nat; split; reflexivity.
  - split; [reflexivity|]. split; [reflexivity|].
    eexists. eexists. split; [vm_compute; reflexivity|].
    split; repeat constructor; reflexivity.
Qed.

(* ---- deltas --------------------------------------------------------------------------- *)

(* the model's list-building padding is the position-wise extension of the specification *)
Theorem c18_padding_is_extension : forall m v p x j,
  (1 <= length x)%nat -> pad_ok m p (length x) = true -> (j < length x + 2 * p)%nat ->
  nth j (pad m v p x) 0 = ext m v x (Z.of_nat j - Z.of_nat p).
Proof. exact pad_spec. Qed.
Print Assumptions c18_padding_is_extension.

(* "Delta features of every order equal the recursive regression formula applied to the input
   extended by the chosen edge padding": one convolution with the composite FIR filters, for
   every order o, width w, padding mode, line length T >= 1 the padding accepts *)
Theorem c18_delta_line_eq_regression : forall m v o w x u t,
  (1 <= length x)%nat -> pad_ok m (w * o) (length x) = true -> (u <= o)%nat -> (t < length x)%nat ->
  nth t (nth u (delta_line m v o w x) []) 0 == regress w u (ext m v x) (Z.of_nat t).
Proof. exact delta_line_eq_regression. Qed.
Print Assumptions c18_delta_line_eq_regression.

(* "laid out along the requested dimension by stacking or concatenation": for EVERY number of
   dimensions, time_dim, dim (negative values included) and both settings of concatenate, the
   output has the documented shape and every entry is the regression formula of the order
   and source position that [delta_src] reads off its index: stacking puts the order on a new
   axis at dim; concatenation stores order u of coefficient i at u * X + i *)
Theorem c18_feat_deltas_layout : forall x dim time_dim (conc : bool) order width m v out,
  feat_deltas x dim time_dim conc order width m v = Ok out ->
  exists td dm,
    norm_dim (length (shape x)) time_dim = Some td /\
    norm_dim (if conc then length (shape x) else S (length (shape x))) dim = Some dm /\
    shape out = delta_shape (shape x) dm conc (Z.to_nat order) /\
    forall idx, valid (shape out) idx ->
      get out idx == delta_at x td dm conc (Z.to_nat width) m v idx.
Proof. exact feat_deltas_layout. Qed.
Print Assumptions c18_feat_deltas_layout.

(* the call succeeds for all legal arguments (so the theorem above is not vacuous), and every
   failure is a RuntimeError *)
Theorem c18_feat_deltas_defined : forall x dim time_dim (conc : bool) order width m v td dm,
  (0 <= order)%Z -> (1 <= width)%Z ->
  norm_dim (length (shape x)) time_dim = Some td ->
  norm_dim (if conc then length (shape x) else S (length (shape x))) dim = Some dm ->
  (m = Constant \/ Qeq_bool v 0 = true) ->
  (1 <= nth td (shape x) 0)%nat ->
  pad_ok m (Z.to_nat width * Z.to_nat order) (nth td (shape x) 0%nat) = true ->
  exists out, feat_deltas x dim time_dim conc order width m v = Ok out.
Proof. exact feat_deltas_defined. Qed.
Print Assumptions c18_feat_deltas_defined.

Theorem c18_feat_deltas_errors : forall x dim time_dim conc order width m v e,
  feat_deltas x dim time_dim conc order width m v = Err e -> e = ERuntime.
Proof. exact feat_deltas_errors. Qed.
Print Assumptions c18_feat_deltas_errors.

Example c18_deltas_nonvacuous :
  let x := mkT [3; 2]%nat [1; 2; 3; 4; 5; 7] in
  feat_deltas x (-1) (-2) true 2 1 Reflect 0 =
    Ok (mkT [3; 6]%nat [1; 2; 0; 0; 2; 5 # 2;   3; 4; 2; 5 # 2; 0; 0;   5; 7; 0; 0; -2; -5 # 2]) /\
  delta_src [3; 2]%nat 1 true [0; 5]%nat = (2%nat, [0; 1]%nat) /\
  regress 1 2 (ext Reflect 0 [2; 4; 7]) 0 == 5 # 2.
Proof. cbv zeta. split; [vm_compute; reflexivity|]. split; [reflexivity|]. vm_compute. reflexivity. Qed.

(* ---- returns -------------------------------------------------------------------------- *)

(* "Discounted returns satisfy R_t = r_t + gamma * R_(t+1) with R beyond the horizon equal to
   zero, for either layout": every gamma (0, negative, above 1 included) *)
Theorem c18_return_recursion : forall r g (bf : bool) T N out,
  shape r = (if bf then [N; T] else [T; N]) ->
  time_distributed_return r g bf = Ok out ->
  shape out = shape r /\
  forall t n, (t < T)%nat -> (n < N)%nat ->
    at2 bf out t n == at2 bf r t n + g * (if (S t <? T)%nat then at2 bf out (S t) n else 0).
Proof. exact return_recursion. Qed.
Print Assumptions c18_return_recursion.

(* ... hence it is THE return: the fold of the declarative recursion over each reward column *)
Theorem c18_return_eq_spec : forall r g (bf : bool) T N out,
  shape r = (if bf then [N; T] else [T; N]) ->
  time_distributed_return r g bf = Ok out ->
  forall t n, (t < T)%nat -> (n < N)%nat ->
    at2 bf out t n == nth t (ret_rec g (map (fun k => at2 bf r k n) (seq 0 T))) 0.
Proof. exact return_eq_spec. Qed.
Print Assumptions c18_return_eq_spec.

(* the only error: an input that is not two-dimensional *)
Theorem c18_return_error_iff : forall r g bf,
  time_distributed_return r g bf = Err ERuntime <-> length (shape r) <> 2%nat.
Proof. exact return_error_iff. Qed.
Print Assumptions c18_return_error_iff.

Example c18_return_nonvacuous :
  time_distributed_return (mkT [3; 2]%nat [1; 2; 3; 4; 5; 6]) (1 # 2) false =
    Ok (mkT [3; 2]%nat [15 # 4; 11 # 2; 11 # 2; 7; 5; 6]) /\
  time_distributed_return (mkT [2; 3]%nat [1; 3; 5; 2; 4; 6]) 3 true =
    Ok (mkT [2; 3]%nat [55; 18; 5; 68; 22; 6]) /\
  ret_rec 3 [1; 3; 5] = [1 + 3 * (3 + 3 * (5 + 3 * 0)); 3 + 3 * (5 + 3 * 0); 5 + 3 * 0].
Proof. split; [vm_compute; reflexivity|]. split; [vm_compute; reflexivity|]. reflexivity. Qed.

(* ---- the tie to the source text (returns) --------------------------------------------------
   PV.Gen.C18Src.tdr_body is regenerated from /repo/src/pydrobert/torch/_rl.py on every run
   (harness/py2coq/translate.py: the body of `time_distributed_return`, node for node);
   PV.MiniPy.Interp is the semantics of the translated subset; SrcRun.ext18 gives the torch calls
   (dim, size, arange, unsqueeze, broadcasting -, clamp_min, pow, tril/triu, matmul) the
   exact-rational meaning defined in PV.MiniTorch.Ops.  The theorems below are about that
   regenerated term, for EVERY reward tensor (any shape, any rationals), discount and layout. *)
From PV Require MiniPy.Syntax MiniPy.Interp MiniTorch.Ops MiniTorch.Value Gen.C18Src C18.SrcRun C18.Tie.

(* whenever the model returns a tensor, running the source text returns exactly that tensor
   (same shape, every entry the same rational) *)
Theorem c18_source_return_is_model : forall r g bf out,
  time_distributed_return r g bf = Ok out ->
  exists st,
    Interp.run SrcRun.ext18 C18Src.tdr_body (SrcRun.return_vars r g bf)
    = Interp.Ok (SrcRun.enc_tensor out) st.
Proof. exact Tie.return_tie_ok. Qed.
Print Assumptions c18_source_return_is_model.

(* an input that is not two-dimensional: the source raises RuntimeError, before anything else *)
Theorem c18_source_return_raises : forall r g bf,
  length (shape r) <> 2%nat ->
  Interp.run SrcRun.ext18 C18Src.tdr_body (SrcRun.return_vars r g bf)
  = Interp.Exc SrcRun.runtime_error (Interp.mkState (SrcRun.return_vars r g bf) []).
Proof. exact Tie.run_not_matrix. Qed.
Print Assumptions c18_source_return_raises.

(* both at once, in the executable form the harness evaluates on the cases of every run:
   the interpreted source IS the model, outcome for outcome *)
Theorem c18_source_return_refines_model : forall r g bf,
  SrcRun.src_return r g bf = Some (time_distributed_return r g bf).
Proof. exact Tie.src_return_tie. Qed.
Print Assumptions c18_source_return_refines_model.

Theorem c18_source_return_check_is_check : forall r g bf tol impl,
  SrcRun.src_return_check r g bf tol impl = check_return r g bf tol impl.
Proof. exact Tie.src_return_check_is_check. Qed.
Print Assumptions c18_source_return_check_is_check.

(* composed with c18_return_recursion: a statement purely about the interpreted source -
   on a T x N (or N x T, batch_first) reward matrix the source returns a tensor of the same shape
   whose entries satisfy R_t = r_t + gamma * R_(t+1), R_T = 0, for every gamma *)
Theorem c18_source_return_recursion : forall r g (bf : bool) T N,
  shape r = (if bf then [N; T] else [T; N]) ->
  exists out st,
    Interp.run SrcRun.ext18 C18Src.tdr_body (SrcRun.return_vars r g bf)
      = Interp.Ok (SrcRun.enc_tensor out) st /\
    shape out = shape r /\
    forall t n, (t < T)%nat -> (n < N)%nat ->
      at2 bf out t n == at2 bf r t n + g * (if (S t <? T)%nat then at2 bf out (S t) n else 0).
Proof. exact Tie.source_return_recursion. Qed.
Print Assumptions c18_source_return_recursion.

(* ... hence what the source returns is THE discounted return of every reward column *)
Theorem c18_source_return_eq_spec : forall r g (bf : bool) T N,
  shape r = (if bf then [N; T] else [T; N]) ->
  exists out st,
    Interp.run SrcRun.ext18 C18Src.tdr_body (SrcRun.return_vars r g bf)
      = Interp.Ok (SrcRun.enc_tensor out) st /\
    forall t n, (t < T)%nat -> (n < N)%nat ->
      at2 bf out t n == nth t (ret_rec g (map (fun k => at2 bf r k n) (seq 0 T))) 0.
Proof. exact Tie.source_return_eq_spec. Qed.
Print Assumptions c18_source_return_eq_spec.

(* non-vacuity: the interpreted source on the two concrete matrices of c18_return_nonvacuous *)
Example c18_source_return_nonvacuous :
  SrcRun.src_return (mkT [3; 2]%nat [1; 2; 3; 4; 5; 6]) (1 # 2) false =
    Some (Ok (mkT [3; 2]%nat [15 # 4; 11 # 2; 11 # 2; 7; 5; 6])) /\
  SrcRun.src_return (mkT [2; 3]%nat [1; 3; 5; 2; 4; 6]) 3 true =
    Some (Ok (mkT [2; 3]%nat [55; 18; 5; 68; 22; 6])) /\
  SrcRun.src_return (mkT [2; 3; 1]%nat [1; 3; 5; 2; 4; 6]) 3 true = Some (Err ERuntime).
Proof. split; [vm_compute; reflexivity|]. split; vm_compute; reflexivity. Qed.

(* ---- the tie to the source text, second part (MeanVarianceNormalization.accumulate / store) --------------------
   PV.Gen.C18BSrc.acc_body / store_body are regenerated from /repo/src/pydrobert/torch/_feats.py on every run;
   SrcRunB.ext_t gives the torch calls the exact-rational meaning of PV.MiniTorch.OpsC18B; sqrt is an oracle [sq]
   (any function).  `self` is a dictionary of attributes and buffers in the variable store (SrcRunB.self_val).
   Theorems named `_partial` rest on the hand-written glue of SrcRunB.src_accumulate: the in-place `+=` on the local
   names that alias the buffers is not rendered by MiniPy's value semantics, the new statistics are read from those
   locals.  Hypothesis [stats_wf] (sum and sumsq of one length) is what accumulate produces (c18_source_accumulate_wf). *)
From Coq Require Import String.
From PV Require MiniTorch.OpsC18B Gen.C18BSrc C18.SrcRunB C18.TieB C18.TieBStore C18.TieBHist.

(* accumulate on a module that already holds statistics: the interpreted body ends normally and its locals
   count, sum_, sumsq (= the buffer objects, updated in place) hold exactly Model.accumulate's statistics *)
Theorem c18_source_accumulate_run : forall sq dim eps mean std s0 x s',
  accumulate dim (Some s0) x = Ok s' ->
  exists fin,
    Interp.run (SrcRunB.ext_t sq) C18BSrc.acc_body (SrcRunB.acc_vars (SrcRunB.mkM dim eps mean std (Some s0)) x)
      = Interp.Ok Syntax.VNone fin /\
    Interp.lookup "count"%string (Interp.vars fin) = Some (SrcRun.enc_tensor (mkT [1%nat] [cnt s'])) /\
    Interp.lookup "sum_"%string (Interp.vars fin) = Some (SrcRun.enc_tensor (SrcRunB.vec (ssum s'))) /\
    Interp.lookup "sumsq"%string (Interp.vars fin) = Some (SrcRun.enc_tensor (SrcRunB.vec (ssq s'))).
Proof. exact (fun sq dim eps mean std s0 => TieB.acc_run sq dim eps mean std (Some s0)). Qed.
Print Assumptions c18_source_accumulate_run.

(* the first accumulate (count is None): the buffers are created with torch.zeros and then updated *)
Theorem c18_source_accumulate_first_run : forall sq dim eps mean std x s',
  accumulate dim None x = Ok s' ->
  exists fin,
    Interp.run (SrcRunB.ext_t sq) C18BSrc.acc_body (SrcRunB.acc_vars (SrcRunB.mkM dim eps mean std None) x)
      = Interp.Ok Syntax.VNone fin /\
    Interp.lookup "count"%string (Interp.vars fin) = Some (SrcRun.enc_tensor (mkT [1%nat] [cnt s'])) /\
    Interp.lookup "sum_"%string (Interp.vars fin) = Some (SrcRun.enc_tensor (SrcRunB.vec (ssum s'))) /\
    Interp.lookup "sumsq"%string (Interp.vars fin) = Some (SrcRun.enc_tensor (SrcRunB.vec (ssq s'))).
Proof. exact (fun sq dim eps mean std => TieB.acc_run sq dim eps mean std None). Qed.
Print Assumptions c18_source_accumulate_first_run.

Theorem c18_source_accumulate_is_model_partial : forall sq m x s',
  accumulate (SrcRunB.m_dim m) (SrcRunB.m_stats m) x = Ok s' -> SrcRunB.src_accumulate sq m x = Some (Ok s').
Proof. exact TieB.src_accumulate_ok_partial. Qed.
Print Assumptions c18_source_accumulate_is_model_partial.

Theorem c18_source_accumulate_wf : forall dim st x s',
  TieBHist.ostats_wf st -> accumulate dim st x = Ok s' -> TieBStore.stats_wf s'.
Proof. exact TieBHist.accumulate_wf. Qed.
Print Assumptions c18_source_accumulate_wf.

(* store, whole function, no glue: whenever Model.store returns (mean, variance) the interpreted body leaves the
   module with self.mean = mean, self.std = map sq variance, and the accumulators deleted or kept as asked *)
Theorem c18_source_store_is_model : forall sq dim eps mean0 std0 s (del bessel : bool) mean var,
  TieBStore.stats_wf s -> store (Some s) bessel = Ok (mean, var) ->
  exists fin,
    Interp.run (SrcRunB.ext_t sq) C18BSrc.store_body
      (SrcRunB.store_vars (SrcRunB.mkM dim eps mean0 std0 (Some s)) del bessel) = Interp.Ok Syntax.VNone fin /\
    Interp.lookup "self"%string (Interp.vars fin) =
      Some (SrcRunB.self_val (SrcRunB.mkM dim eps (Some mean) (Some (map sq var)) (if del then None else Some s))).
Proof. exact TieBStore.store_ok. Qed.
Print Assumptions c18_source_store_is_model.

(* no statistics: RuntimeError before anything else; fewer than two frames: RuntimeError, the module as it was *)
Theorem c18_source_store_raises_none : forall sq dim eps mean0 std0 (del bessel : bool),
  Interp.run (SrcRunB.ext_t sq) C18BSrc.store_body (SrcRunB.store_vars (SrcRunB.mkM dim eps mean0 std0 None) del bessel)
  = Interp.Exc "RuntimeError"%string (Interp.mkState (SrcRunB.store_vars (SrcRunB.mkM dim eps mean0 std0 None) del bessel) []).
Proof. exact TieBStore.store_none. Qed.
Print Assumptions c18_source_store_raises_none.

Theorem c18_source_store_raises_few : forall sq dim eps mean0 std0 s (del bessel : bool),
  Qle_bool 2 (cnt s) = false ->
  exists fin,
    Interp.run (SrcRunB.ext_t sq) C18BSrc.store_body
      (SrcRunB.store_vars (SrcRunB.mkM dim eps mean0 std0 (Some s)) del bessel) = Interp.Exc "RuntimeError"%string fin /\
    Interp.lookup "self"%string (Interp.vars fin) = Some (SrcRunB.self_val (SrcRunB.mkM dim eps mean0 std0 (Some s))).
Proof. exact TieBStore.store_few. Qed.
Print Assumptions c18_source_store_raises_few.

(* all three at once, in the executable form the harness evaluates: the interpreted store IS Model.store *)
Theorem c18_source_store_refines_model : forall sq m del bessel,
  TieBHist.ostats_wf (SrcRunB.m_stats m) ->
  SrcRunB.src_store sq m del bessel = Some (TieBHist.store_model sq m del bessel).
Proof. exact TieBHist.src_store_is_model. Qed.
Print Assumptions c18_source_store_refines_model.

(* histories of the module run through the interpreted source (accumulate / store in any sequence; sqrt oracle =
   identity so that self.std shows the variance): whenever no accumulate of the history raises, the store results
   and the final accumulators are exactly those of Model.run_ops - so c18_histories and the statistics theorems
   apply to the source *)
Theorem c18_source_histories_partial : forall ops m outs stores final,
  TieBHist.ostats_wf (SrcRunB.m_stats m) ->
  run_ops (SrcRunB.m_dim m) (SrcRunB.m_stats m) ops outs = (stores, Ok final) ->
  SrcRunB.src_run_ops (fun v => v) m ops outs = Some (stores, Ok final).
Proof. exact TieBHist.src_run_ops_is_model_partial. Qed.
Print Assumptions c18_source_histories_partial.

Theorem c18_source_ops_check_is_check_partial : forall dim ops tol tola impl_stores impl_final stores final,
  run_ops dim None ops [] = (stores, Ok final) ->
  SrcRunB.src_ops_check dim ops tol tola impl_stores impl_final = check_ops dim ops tol tola impl_stores impl_final.
Proof. exact TieBHist.src_ops_check_is_check_partial. Qed.
Print Assumptions c18_source_ops_check_is_check_partial.

(* composed with c18_store_is_pooled_mean_var - a statement purely about the interpreted source: accumulate ANY
   non-empty list of tensors (any shapes and numbers of dimensions that agree on the X coefficients along dim, at
   least two frames) with the interpreted accumulate, then run the interpreted store: self.mean is the pooled
   population mean of every coefficient, self.std the oracle's root of its pooled (biased or Bessel) variance *)
Theorem c18_source_acc_store_pooled_partial : forall sq dim X xs (del b : bool),
  xs <> [] -> uniform dim X xs -> (2 <= frames dim xs)%nat ->
  exists s mean var,
    SrcRunB.src_run_ops (fun v => v) (SrcRunB.fresh_module dim) (map OpAcc xs) [] = Some ([], Ok (Some s)) /\
    SrcRunB.src_store sq (SrcRunB.mkM dim 0 None None (Some s)) del b
      = Some (Ok (mean, map sq var),
              SrcRunB.mkM dim 0 (Some mean) (Some (map sq var)) (if del then None else Some s)) /\
    List.length mean = X /\ List.length var = X /\
    forall i, (i < X)%nat ->
      nth i mean 0 == pop_mean (pooled dim xs i) /\ nth i var 0 == pop_var b (pooled dim xs i).
Proof. exact TieBHist.source_acc_store_pooled_partial. Qed.
Print Assumptions c18_source_acc_store_pooled_partial.

(* non-vacuity: the interpreted source on the history of c18_stats_nonvacuous, on a forward call and on the delta
   example of c18_deltas_nonvacuous (forward / mean_var_norm / feat_deltas are translated and run - SrcRunB - but
   not yet tied by a theorem) *)
Example c18_source_mvn_nonvacuous :
  let xs := [mkT [2; 2]%nat [1; 2; 3; 6]; mkT [1; 2]%nat [5; 1]] in
  (exists mean var,
     SrcRunB.src_run_ops (fun v => v) (SrcRunB.fresh_module (-1)) (map OpAcc xs ++ [OpStore true true]) []
       = Some ([Ok (mean, var)], Ok None) /\ Forall2 Qeq mean [3; 3] /\ Forall2 Qeq var [4; 7]) /\
  SrcRunB.src_forward (fun v => v) (SrcRunB.mkM (-1) (1 # 100) (Some [1; 2]) (Some [2; 4]) None) (mkT [2; 2]%nat [1; 2; 3; 6])
    = Some (Ok (mkT [2; 2]%nat [0 # 2; 0 # 4; 2 # 2; 4 # 4])) /\
  SrcRunB.src_deltas (mkT [3; 2]%nat [1; 2; 3; 4; 5; 7]) (-1) (-2) true 2 1 Reflect 0 =
    Some (Ok (mkT [3; 6]%nat [1; 2; 0; 0; 2; 5 # 2;   3; 4; 2; 5 # 2; 0; 0;   5; 7; 0; 0; -2; -5 # 2])).
Proof.
  cbv zeta. split; [|split; vm_compute; reflexivity].
  eexists. eexists. split; [vm_compute; reflexivity|]. split; repeat constructor; reflexivity.
Qed.
