(* C18 — delta features of one time line: the composite FIR filters applied by one
   convolution equal the recursive regression formula on the edge-extended line. *)
From Coq Require Import List ZArith QArith Qabs Bool Arith Lia Permutation.
From PV Require Import MiniTorch.Lemmas C18.Model C18.Spec C18.QLemmas C18.ProofsPad.
Import ListNotations.
Local Open Scope Q_scope.

Lemma zrange_length : forall lo n, length (zrange lo n) = n.
Proof. intros. unfold zrange. now rewrite map_length, seq_length. Qed.

Lemma in_zrange : forall lo n z, In z (zrange lo n) <-> (lo <= z < lo + Z.of_nat n)%Z.
Proof.
  intros lo n z. unfold zrange. rewrite in_map_iff. split.
  - intros [k [<- Hk]]. apply in_seq in Hk. lia.
  - intros H. exists (Z.to_nat (z - lo)). split; [lia|]. apply in_seq. lia.
Qed.

Lemma seq_shift_add : forall a s b, map (fun k => (a + k)%nat) (seq s b) = seq (a + s) b.
Proof.
  intros a s b. revert s. induction b as [|b IH]; intros s; [reflexivity|].
  cbn [seq map]. f_equal. rewrite IH. f_equal. lia.
Qed.

Lemma zrange_app : forall lo a b, zrange lo (a + b) = zrange lo a ++ zrange (lo + Z.of_nat a) b.
Proof.
  intros lo a b. unfold zrange. rewrite seq_app, map_app. f_equal.
  cbn [Nat.add]. rewrite <- (Nat.add_0_r a) at 1. rewrite <- seq_shift_add, map_map.
  apply map_ext. intros k. lia.
Qed.

Lemma zrange_shift : forall {A} (g : Z -> A) lo n d,
  map (fun j => g (j - d)%Z) (zrange lo n) = map g (zrange (lo - d) n).
Proof.
  intros A g lo n d. unfold zrange. rewrite !map_map. apply map_ext. intros k. f_equal. lia.
Qed.

Lemma NoDup_zrange : forall lo n, NoDup (zrange lo n).
Proof.
  intros lo n. unfold zrange. apply FinFun.Injective_map_NoDup; [|apply seq_NoDup].
  intros a b H. lia.
Qed.

(* restricting a sum to a sub-range that carries the whole support *)
Lemma Qsum_zrange_restrict : forall (a : Z -> Q) lo n al k,
  (lo <= al)%Z -> (al + Z.of_nat k <= lo + Z.of_nat n)%Z ->
  (forall j, (lo <= j < lo + Z.of_nat n)%Z -> ~ (al <= j < al + Z.of_nat k)%Z -> a j == 0) ->
  Qsum (map a (zrange lo n)) == Qsum (map a (zrange al k)).
Proof.
  intros a lo n al k H1 H2 Hz.
  set (n1 := Z.to_nat (al - lo)). set (n3 := Z.to_nat (lo + Z.of_nat n - (al + Z.of_nat k))).
  replace n with (n1 + (k + n3))%nat by lia.
  rewrite !zrange_app, !map_app, !Qsum_app.
  replace (lo + Z.of_nat n1)%Z with al by lia.
  rewrite (Qsum_map_zero a (zrange lo n1)).
  - rewrite (Qsum_map_zero a (zrange (al + Z.of_nat k) n3)); [ring|].
    intros j Hj. apply in_zrange in Hj. apply Hz; lia.
  - intros j Hj. apply in_zrange in Hj. apply Hz; lia.
Qed.

Lemma window_in : forall w m, In m (window w) <-> (- Z.of_nat w <= m <= Z.of_nat w)%Z.
Proof. intros w m. unfold window. rewrite in_zrange. lia. Qed.

(* the window is symmetric *)
Lemma Qsum_window_flip : forall w (h : Z -> Q),
  Qsum (map h (window w)) == Qsum (map (fun m => h (- m)%Z) (window w)).
Proof.
  intros w h. rewrite <- (map_map Z.opp h). apply Qsum_perm, Permutation_map.
  apply NoDup_Permutation.
  - apply NoDup_zrange.
  - apply FinFun.Injective_map_NoDup; [|apply NoDup_zrange]. intros a b H. lia.
  - intros m. rewrite in_map_iff, window_in. split.
    + intros H. exists (- m)%Z. split; [lia|]. apply window_in. lia.
    + intros [m' [<- H]]. apply window_in in H. lia.
Qed.

Lemma length_conv1d : forall x f, length (conv1d x f) = (length x + 1 - length f)%nat.
Proof. intros. unfold conv1d. now rewrite map_length, seq_length. Qed.

Lemma nth_conv1d : forall x f t, (t < length x + 1 - length f)%nat ->
  nth t (conv1d x f) 0 = qsum (map (fun j => nth (t + j) x 0 * nth j f 0) (seq 0 (length f))).
Proof. intros x f t H. unfold conv1d. now rewrite nth_map_seq. Qed.

Lemma length_delta_kernel : forall w, length (delta_kernel w) = (2 * w + 1)%nat.
Proof. intros. unfold delta_kernel. now rewrite !map_length, seq_length. Qed.

Lemma kernel_norm : forall w,
  qsum (map qsq (map (fun k => inject_Z (Z.of_nat w - Z.of_nat k)) (seq 0 (2 * w + 1)))) == sumsq_w w.
Proof.
  intros w. rewrite qsum_Qsum. unfold sumsq_w, window, zrange. rewrite !map_map.
  apply Qsum_map_ext. intros k. unfold qsq. rewrite <- inject_Z_mult.
  replace ((Z.of_nat w - Z.of_nat k) * (Z.of_nat w - Z.of_nat k))%Z
    with ((- Z.of_nat w + Z.of_nat k) * (- Z.of_nat w + Z.of_nat k))%Z by ring.
  reflexivity.
Qed.

Lemma nth_delta_kernel : forall w k, (k < 2 * w + 1)%nat ->
  nth k (delta_kernel w) 0 == inject_Z (Z.of_nat w - Z.of_nat k) / sumsq_w w.
Proof.
  intros w k H. unfold delta_kernel.
  rewrite (nth_map_gen _ _ k 0 0) by now rewrite map_length, seq_length.
  rewrite nth_map_seq by assumption. rewrite kernel_norm. reflexivity.
Qed.

Lemma nthZ_outside : forall l j, (j < 0 \/ Z.of_nat (length l) <= j)%Z -> nthZ l j = 0.
Proof.
  intros l j H. unfold nthZ. destruct (Z.ltb_spec j 0); [reflexivity|].
  apply nth_overflow. lia.
Qed.

Lemma nth_zero_padded : forall w l i,
  nth i (repeat 0 w ++ l ++ repeat 0 w) 0 = nthZ l (Z.of_nat i - Z.of_nat w).
Proof.
  intros w l i. rewrite nth_app3, repeat_length.
  destruct (Nat.ltb_spec i w); [|destruct (Nat.ltb_spec i (w + length l))].
  - rewrite nth_repeat0. symmetry. apply nthZ_outside. lia.
  - symmetry. apply nthZ_eq. lia.
  - rewrite nth_repeat0. symmetry. apply nthZ_outside. lia.
Qed.

Definition step (w : nat) (l : list Q) : list Q :=
  conv1d (repeat 0 w ++ l ++ repeat 0 w) (delta_kernel w).

Lemma length_step : forall w l, length (step w l) = length l.
Proof.
  intros. unfold step. rewrite length_conv1d, !app_length, !repeat_length, length_delta_kernel. lia.
Qed.

Lemma nth_step : forall w l j, (j < length l)%nat ->
  nth j (step w l) 0 ==
  Qsum (map (fun m => nthZ l (Z.of_nat j + m) * (inject_Z (- m) / sumsq_w w)) (window w)).
Proof.
  intros w l j Hj. unfold step.
  rewrite nth_conv1d by (rewrite !app_length, !repeat_length, length_delta_kernel; lia).
  rewrite qsum_Qsum, length_delta_kernel. unfold window, zrange. rewrite map_map.
  apply Qsum_map_ext_in. intros k Hk. apply in_seq in Hk.
  rewrite nth_zero_padded, nth_delta_kernel by lia.
  replace (Z.of_nat (j + k) - Z.of_nat w)%Z with (Z.of_nat j + (- Z.of_nat w + Z.of_nat k))%Z by lia.
  replace (- (- Z.of_nat w + Z.of_nat k))%Z with (Z.of_nat w - Z.of_nat k)%Z by lia.
  reflexivity.
Qed.

Fixpoint iter (w u : nat) (f0 : list Q) : list Q :=
  match u with O => f0 | S u' => step w (iter w u' f0) end.

Lemma iter_step_comm : forall w u f0, iter w u (step w f0) = step w (iter w u f0).
Proof. induction u as [|u IH]; intros f0; cbn [iter]; [reflexivity|]. now rewrite IH. Qed.

Lemma filter_stack_nth : forall w n last u, (u <= n)%nat ->
  nth u (last :: filter_stack n w (delta_kernel w) last) [] = iter w u last.
Proof.
  intros w n. induction n as [|n IH]; intros last u Hu.
  - assert (u = 0)%nat by lia. subst. reflexivity.
  - destruct u as [|u]; [reflexivity|].
    change (nth (S u) (last :: filter_stack (S n) w (delta_kernel w) last) [])
      with (nth u (step w last :: filter_stack n w (delta_kernel w) (step w last)) []).
    rewrite (IH (step w last) u) by lia. cbn [iter]. apply iter_step_comm.
Qed.

Lemma length_delta_filters : forall o w, length (delta_filters o w) = S o.
Proof.
  intros o w. unfold delta_filters. cbn [length]. f_equal.
  generalize (onehot (1 + 2 * w * o) (w * o)). generalize (delta_kernel w).
  induction o as [|n IH]; intros K l; cbn [filter_stack length]; [reflexivity|]. now rewrite IH.
Qed.

Section Filters.
  Variables w o : nat.
  Let c := (w * o)%nat.
  Let L := (1 + 2 * w * o)%nat.

  Definition filt (u : nat) : list Q := iter w u (onehot L c).
  Definition phi (u : nat) (j : Z) : Q := nthZ (filt u) j.

  Lemma length_filt : forall u, length (filt u) = L.
  Proof.
    unfold filt. induction u as [|u IH]; cbn [iter].
    - unfold onehot. now rewrite map_length, seq_length.
    - now rewrite length_step.
  Qed.

  Lemma delta_filters_nth : forall u, (u <= o)%nat -> nth u (delta_filters o w) [] = filt u.
  Proof. intros u Hu. unfold delta_filters. now apply filter_stack_nth. Qed.

  Lemma phi_outside : forall u j, (j < 0 \/ Z.of_nat L <= j)%Z -> phi u j = 0.
  Proof. intros u j H. unfold phi. apply nthZ_outside. now rewrite length_filt. Qed.

  Lemma phi0 : forall j, phi 0 j = if (j =? Z.of_nat c)%Z then 1 else 0.
  Proof.
    intros j. destruct (Z.ltb_spec j 0) as [H|H]; [|destruct (Z.leb_spec (Z.of_nat L) j) as [H'|H']].
    - rewrite phi_outside by lia. destruct (Z.eqb_spec j (Z.of_nat c)); [lia|reflexivity].
    - rewrite phi_outside by lia. destruct (Z.eqb_spec j (Z.of_nat c)); [unfold c, L in *; lia|reflexivity].
    - unfold phi, filt. cbn [iter]. rewrite (nthZ_eq _ j (Z.to_nat j)) by lia.
      unfold onehot. rewrite nth_map_seq by lia.
      destruct (Nat.eqb_spec (Z.to_nat j) c); destruct (Z.eqb_spec j (Z.of_nat c)); try lia; reflexivity.
  Qed.

  Lemma phi_step : forall u j, (0 <= j < Z.of_nat L)%Z ->
    phi (S u) j == Qsum (map (fun m => phi u (j + m) * (inject_Z (- m) / sumsq_w w)) (window w)).
  Proof.
    intros u j Hj. unfold phi, filt. cbn [iter]. fold (filt u).
    rewrite (nthZ_eq _ j (Z.to_nat j)) by lia.
    rewrite nth_step by (rewrite length_filt; lia).
    rewrite Z2Nat.id by lia. reflexivity.
  Qed.

  (* the u-th filter lives within w*u taps of the centre *)
  Lemma phi_support : forall u j, (u <= o)%nat ->
    (j < Z.of_nat c - Z.of_nat (w * u) \/ Z.of_nat c + Z.of_nat (w * u) < j)%Z -> phi u j == 0.
  Proof.
    induction u as [|u IH]; intros j Hu Hj.
    - rewrite phi0. destruct (Z.eqb_spec j (Z.of_nat c)); [lia|reflexivity].
    - destruct (Z.ltb_spec j 0) as [H|H]; [rewrite phi_outside by lia; reflexivity|].
      destruct (Z.leb_spec (Z.of_nat L) j) as [H'|H']; [rewrite phi_outside by lia; reflexivity|].
      rewrite phi_step by lia. apply Qsum_map_zero. intros m Hm. apply window_in in Hm.
      rewrite IH; [ring|lia|nia].
  Qed.

  (* the single convolution with the u-th filter, at position s of the extended line f *)
  Definition G (u : nat) (f : Z -> Q) (s : Z) : Q :=
    Qsum (map (fun j => f (s - Z.of_nat c + j)%Z * phi u j) (zrange 0 L)).

  Lemma G0 : forall f s, G 0 f s == f s.
  Proof.
    intros f s. unfold G.
    rewrite (Qsum_zrange_restrict _ 0 L (Z.of_nat c) 1); try (unfold c, L; lia).
    - cbn [zrange seq map]. rewrite Qsum_cons, Qsum_nil, phi0.
      replace (Z.of_nat c + Z.of_nat 0)%Z with (Z.of_nat c) by lia. rewrite Z.eqb_refl.
      replace (s - Z.of_nat c + Z.of_nat c)%Z with s by lia. ring.
    - intros j _ Hn. rewrite phi0. destruct (Z.eqb_spec j (Z.of_nat c)); [lia|ring].
  Qed.

  Lemma G_step : forall u f s, (S u <= o)%nat ->
    G (S u) f s == Qsum (map (fun m => G u f (s + m) * (inject_Z m / sumsq_w w)) (window w)).
  Proof.
    intros u f s Hu. unfold G at 1.
    (* expand the (u+1)-th filter *)
    rewrite (Qsum_map_ext_in _
      (fun j => Qsum (map (fun m => f (s - Z.of_nat c + j)%Z * phi u (j - m) * (inject_Z m / sumsq_w w)) (window w)))).
    2:{ intros j Hj. apply in_zrange in Hj. rewrite phi_step by lia.
        rewrite (Qsum_window_flip w (fun m => phi u (j + m) * (inject_Z (- m) / sumsq_w w))).
        cbv beta. rewrite Qmult_comm, <- Qsum_map_scal. apply Qsum_map_ext. intros m.
        replace (- - m)%Z with m by lia. replace (j + - m)%Z with (j - m)%Z by lia. ring. }
    rewrite (Qsum_swap (fun j m => f (s - Z.of_nat c + j)%Z * phi u (j - m) * (inject_Z m / sumsq_w w))).
    apply Qsum_map_ext_in. intros m Hm. apply window_in in Hm. cbv beta.
    rewrite (Qsum_map_scal (fun j => f (s - Z.of_nat c + j)%Z * phi u (j - m))). apply Qmult_comp; [|reflexivity].
    (* both sums are the sum of a(j') = f(s - c + j' + m) * phi u j' over the support of phi u *)
    set (a := fun j' => f (s - Z.of_nat c + j' + m)%Z * phi u j').
    assert (Hsupp : forall j', ~ (Z.of_nat w <= j' < Z.of_nat w + Z.of_nat (L - 2 * w))%Z -> a j' == 0).
    { intros j' Hn. unfold a. rewrite phi_support; [ring|lia|]. unfold c, L in *. nia. }
    transitivity (Qsum (map a (zrange (Z.of_nat w) (L - 2 * w)))).
    - rewrite (map_ext _ (fun j => a (j - m)%Z)).
      2:{ intros j. unfold a. f_equal. f_equal. lia. }
      rewrite (zrange_shift a 0 L m).
      apply Qsum_zrange_restrict; try (unfold c, L in *; nia). intros j' _ Hn. now apply Hsupp.
    - symmetry. unfold G.
      rewrite (map_ext _ a).
      2:{ intros j. unfold a. f_equal. f_equal. lia. }
      apply Qsum_zrange_restrict; try (unfold c, L in *; nia). intros j' _ Hn. now apply Hsupp.
  Qed.

  (* convolution with the composite filter = the recursive regression formula *)
  Lemma G_regress : forall u f s, (u <= o)%nat -> G u f s == regress w u f s.
  Proof.
    induction u as [|u IH]; intros f s Hu.
    - apply G0.
    - rewrite G_step by assumption. cbn [regress].
      apply Qsum_map_ext. intros m. rewrite IH by lia. reflexivity.
  Qed.
End Filters.

Lemma length_delta_line : forall m v o w x, length (delta_line m v o w x) = S o.
Proof. intros. unfold delta_line. now rewrite map_length, length_delta_filters. Qed.

Lemma delta_line_nth : forall m v o w x u, (u <= o)%nat ->
  nth u (delta_line m v o w x) [] = conv1d (pad m v (w * o) x) (filt w o u).
Proof.
  intros m v o w x u Hu. unfold delta_line.
  rewrite (nth_map_gen _ _ u [] []) by (rewrite length_delta_filters; lia).
  now rewrite delta_filters_nth.
Qed.

Lemma length_delta_line_nth : forall m v o w x u, (u <= o)%nat ->
  pad_ok m (w * o) (length x) = true ->
  length (nth u (delta_line m v o w x) []) = length x.
Proof.
  intros m v o w x u Hu Hok. rewrite delta_line_nth by assumption.
  rewrite length_conv1d, length_pad, length_filt by assumption. lia.
Qed.

Lemma delta_line_eq_regression : forall m v o w x u t,
  (1 <= length x)%nat -> pad_ok m (w * o) (length x) = true -> (u <= o)%nat -> (t < length x)%nat ->
  nth t (nth u (delta_line m v o w x) []) 0 == regress w u (ext m v x) (Z.of_nat t).
Proof.
  intros m v o w x u t HT Hok Hu Ht.
  rewrite delta_line_nth by assumption.
  rewrite nth_conv1d by (rewrite length_pad, length_filt by assumption; lia).
  rewrite qsum_Qsum, length_filt.
  rewrite <- (G_regress w o u (ext m v x) (Z.of_nat t) Hu).
  unfold G, zrange. rewrite map_map.
  apply Qsum_map_ext_in. intros k Hk. apply in_seq in Hk.
  rewrite pad_spec by (try assumption; lia).
  replace (Z.of_nat (t + k) - Z.of_nat (w * o))%Z with (Z.of_nat t - Z.of_nat (w * o) + (0 + Z.of_nat k))%Z by lia.
  unfold phi. rewrite (nthZ_eq _ (0 + Z.of_nat k)%Z k) by lia. reflexivity.
Qed.
