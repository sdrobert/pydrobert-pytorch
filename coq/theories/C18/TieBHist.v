(* C18, second tie — the executable forms used by the harness (SrcRunB.src_accumulate / src_store / src_run_ops /
   src_ops_check) against the model, and statements purely about the interpreted source obtained by composing the
   tie with the model theorems.  No symbolic execution here: everything follows from TieB.v / TieBStore.v. *)
From Coq Require Import ZArith QArith List String Bool Arith Lia.
From PV Require Import MiniPy.Syntax MiniPy.Interp MiniTorch.Value Gen.C18BSrc.
From PV Require Import C18.SrcRun MiniTorch.OpsC18B MiniTorch.LemmasC18B C18.SrcRunB.
From PV Require Import C18.Model C18.Spec C18.QLemmas C18.Tensor C18.ProofsMvn C18.TieB C18.TieBStore.
Import ListNotations.
Local Open Scope string_scope.

Definition ostats_wf (o : option stats) : Prop := match o with None => True | Some s => stats_wf s end.

Lemma iadd_length : forall a b l, Model.iadd a b = Ok l -> List.length l = List.length a.
Proof.
  intros a b l H. unfold Model.iadd in H. destruct (Nat.eqb_spec (List.length a) (List.length b)) as [E|E].
  - injection H as <-. now apply length_zipw.
  - destruct b as [|v [|w b]]; try discriminate. injection H as <-. apply map_length.
Qed.

Lemma accumulate_wf : forall dim st x s', ostats_wf st -> accumulate dim st x = Ok s' -> stats_wf s'.
Proof.
  intros dim st x s' Hwf H. destruct (accumulate_inv _ _ _ _ H) as [d [s1 [s2 [_ [E1 [E2 ->]]]]]].
  unfold stats_wf. cbn [ssum ssq]. rewrite (iadd_length _ _ _ E1), (iadd_length _ _ _ E2).
  destruct st as [s|]; cbn [ssum ssq]; [exact Hwf|now rewrite !repeat_length].
Qed.

Lemma dec_opt_vec_enc : forall o, dec_opt_vec (opt_vec o) = Some o.
Proof.
  intros [l|]; [|reflexivity]. unfold opt_vec, dec_opt_vec. now rewrite dec_vec_enc.
Qed.

Lemma dec_stats_enc : forall o, dec_stats (count_val o) (sum_val o) (sumsq_val o) = Some o.
Proof.
  intros [[c s q]|]; [|reflexivity]. unfold count_val, sum_val, sumsq_val, opt_vec, dec_stats. cbn [option_map cnt ssum ssq].
  now rewrite dec_count_enc, !dec_vec_enc.
Qed.

Lemma dec_self_val : forall m, dec_self (self_val m) = Some m.
Proof.
  intros [dim eps mean std st]. unfold self_val, dec_self. cbn [m_dim m_eps m_mean m_std m_stats].
  rewrite !dec_opt_vec_enc, dec_stats_enc. reflexivity.
Qed.

(* what Model.store says about a module: the recorded result (self.std is [map sq variance]) and the new module *)
Definition store_model (sq : Q -> Q) (m : mstate) (del bessel : bool) : result (list Q * list Q) * mstate :=
  match Model.store (m_stats m) bessel with
  | Ok (mean, var) =>
      (Ok (mean, map sq var),
       mkM (m_dim m) (m_eps m) (Some mean) (Some (map sq var)) (if del then None else m_stats m))
  | Err e => (Err e, m)
  end.

Theorem src_store_is_model : forall sq m del bessel,
  ostats_wf (m_stats m) -> src_store sq m del bessel = Some (store_model sq m del bessel).
Proof.
  intros sq [dim eps mean0 std0 st] del bessel Hwf. unfold src_store, store_model. cbn [m_dim m_eps m_stats] in *.
  destruct st as [s|].
  - destruct (Model.store (Some s) bessel) as [[mean var]|e] eqn:E.
    + destruct (store_ok sq dim eps mean0 std0 s del bessel mean var Hwf E) as [fin [-> ->]].
      cbn [option_map]. rewrite dec_self_val. reflexivity.
    + assert (Hc : Qle_bool 2 (cnt s) = false /\ e = ERuntime).
      { unfold Model.store in E. destruct (Qle_bool 2 (cnt s)); [discriminate|]. injection E as <-. auto. }
      destruct Hc as [Hc ->].
      destruct (store_few sq dim eps mean0 std0 s del bessel Hc) as [fin [-> ->]].
      cbn [option_map]. rewrite dec_self_val. reflexivity.
  - rewrite store_none. cbn [Model.store vars store_vars lookup String.eqb Ascii.eqb Bool.eqb option_map].
    rewrite dec_self_val. reflexivity.
Qed.

(* _partial (accumulate's glue): every history of the module in which no accumulate raises - stores may fail - run
   through the INTERPRETED source (sqrt oracle = identity, so that self.std holds the variance) gives exactly the
   store results and final accumulators of Model.run_ops *)
Theorem src_run_ops_is_model_partial : forall ops m outs stores final,
  ostats_wf (m_stats m) ->
  run_ops (m_dim m) (m_stats m) ops outs = (stores, Ok final) ->
  src_run_ops (fun v => v) m ops outs = Some (stores, Ok final).
Proof.
  induction ops as [|[x|del b] ops IH]; intros m outs stores final Hwf H; cbn [run_ops src_run_ops] in *.
  - injection H as <- <-. reflexivity.
  - destruct (accumulate (m_dim m) (m_stats m) x) as [s|e] eqn:E; [|discriminate].
    rewrite (src_accumulate_ok_partial _ m x s E).
    apply IH; cbn [set_stats m_dim m_stats]; [exact (accumulate_wf _ _ _ _ Hwf E)|exact H].
  - rewrite (src_store_is_model _ m del b Hwf). unfold store_model.
    destruct (Model.store (m_stats m) b) as [[mean var]|e] eqn:E.
    + rewrite map_id. apply IH; cbn [m_dim m_stats].
      * destruct del; [exact I|exact Hwf].
      * exact H.
    + apply IH; [exact Hwf|exact H].
Qed.

(* the harness's check on such histories IS the model's check *)
Theorem src_ops_check_is_check_partial : forall dim ops tol tola impl_stores impl_final stores final,
  run_ops dim None ops [] = (stores, Ok final) ->
  src_ops_check dim ops tol tola impl_stores impl_final = check_ops dim ops tol tola impl_stores impl_final.
Proof.
  intros dim ops tol tola is_ if_ stores final H. unfold src_ops_check, check_ops.
  rewrite (src_run_ops_is_model_partial ops (fresh_module dim) [] stores final I H), H. reflexivity.
Qed.

Lemma run_ops_acc : forall dim ys st outs, run_ops dim st (map OpAcc ys) outs = (rev outs, accumulate_all dim st ys).
Proof.
  induction ys as [|y ys IH]; intros st outs; cbn [map run_ops accumulate_all]; [reflexivity|].
  destruct (accumulate dim st y) as [s1|e1]; cbn [Model.bind]; [apply IH|reflexivity].
Qed.

Lemma accumulate_all_wf : forall dim ys st s, ostats_wf st -> accumulate_all dim st ys = Ok (Some s) -> stats_wf s.
Proof.
  induction ys as [|y ys IH]; intros st s W A; cbn [accumulate_all] in A.
  - injection A as ->. exact W.
  - destruct (accumulate dim st y) as [s2|] eqn:E2; cbn [Model.bind] in A; [|discriminate].
    apply (IH (Some s2) s); [exact (accumulate_wf _ _ _ _ W E2)|exact A].
Qed.

(* accumulate any non-empty list of tensors (any shapes that agree on the X coefficients along dim), then store: the
   interpreted source leaves in self.mean the pooled population mean of every coefficient and in self.std the oracle's
   root of its (biased or Bessel-corrected) pooled variance *)
Theorem source_acc_store_pooled_partial : forall sq dim X xs (del b : bool),
  xs <> [] -> uniform dim X xs -> (2 <= frames dim xs)%nat ->
  exists s mean var,
    src_run_ops (fun v => v) (fresh_module dim) (map OpAcc xs) [] = Some ([], Ok (Some s)) /\
    src_store sq (mkM dim 0 None None (Some s)) del b
      = Some (Ok (mean, map sq var), mkM dim 0 (Some mean) (Some (map sq var)) (if del then None else Some s)) /\
    List.length mean = X /\ List.length var = X /\
    forall i, (i < X)%nat ->
      (nth i mean 0 == pop_mean (pooled dim xs i))%Q /\ (nth i var 0 == pop_var b (pooled dim xs i))%Q.
Proof.
  intros sq dim X xs del b Hne Hu Hf.
  destruct (store_is_pooled_mean_var dim X xs b Hne Hu Hf) as [mean [var [Hst [Hm [Hv Hi]]]]].
  destruct (accumulate_all dim None xs) as [[s|]|e] eqn:Ea; cbn [Model.bind] in Hst; try discriminate.
  exists s, mean, var.
  split; [|split; [|split; [exact Hm|split; [exact Hv|exact Hi]]]].
  - apply (src_run_ops_is_model_partial (map OpAcc xs) (fresh_module dim) [] [] (Some s) I).
    cbn [fresh_module m_dim m_stats]. rewrite run_ops_acc, Ea. reflexivity.
  - rewrite (src_store_is_model sq (mkM dim 0 None None (Some s)) del b (accumulate_all_wf dim xs None s I Ea)).
    unfold store_model. cbn [m_stats m_dim m_eps]. rewrite Hst. reflexivity.
Qed.
