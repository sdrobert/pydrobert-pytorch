(* C18, second tie — MeanVarianceNormalization.store (PV.Gen.C18BSrc.store_body) against Model.store, and whole
   histories of the module (accumulate / store in any sequence) against Model.run_ops.  See TieB.v. *)
From Coq Require Import ZArith QArith List String Bool Arith Lia.
From PV Require Import MiniPy.Syntax MiniPy.Interp MiniTorch.Value MiniTorch.Lemmas Gen.C18BSrc.
From PV Require MiniTorch.Ops.
From PV Require Import C18.SrcRun MiniTorch.OpsC18B MiniTorch.LemmasC18B C18.SrcRunB.
From PV Require Import C18.Model C18.Spec C18.QLemmas C18.Tensor C18.ProofsMvn C18.TieSeq C18.TieB.
Import ListNotations.
Local Open Scope string_scope.

Lemma lt_truth_1 : forall c q, lt_scalar_truth (mkT [1%nat] [c]) q = ROk (negb (Qle_bool q c)).
Proof. reflexivity. Qed.

Lemma count_nonzero : forall c, Qle_bool 2 c = true -> Qeq_bool c 0 = false /\ Qeq_bool (c - inject_Z 1) 0 = false.
Proof.
  intros c H. apply Qle_bool_iff in H. split.
  - destruct (Qeq_bool c 0) eqn:E; [|reflexivity]. apply Qeq_bool_eq in E. rewrite E in H. exfalso. apply H. reflexivity.
  - destruct (Qeq_bool (c - inject_Z 1) 0) eqn:E; [|reflexivity]. apply Qeq_bool_eq in E.
    assert (c == 1)%Q as E1. { rewrite <- (Qplus_0_r 1). rewrite <- E. change (inject_Z 1) with 1%Q. ring. }
    rewrite E1 in H. exfalso. apply H. reflexivity.
Qed.

(* the operations of store on vectors, with the lengths kept inside [vec] *)
Lemma div_vec_one : forall a c, Qeq_bool c 0 = false ->
  OpsC18B.div (vec a) (mkT [1%nat] [c]) = ROk (vec (map (fun u => (u / c)%Q) a)).
Proof.
  intros a c Hc. unfold OpsC18B.div, vec. cbn [data existsb]. rewrite Hc, map_length. cbn [orb]. now apply ew2_vec_one.
Qed.

Lemma div_one_one : forall a c, Qeq_bool c 0 = false ->
  OpsC18B.div (mkT [1%nat] [a]) (mkT [1%nat] [c]) = ROk (mkT [1%nat] [(a / c)%Q]).
Proof. intros a c. exact (div_vec_one [a] c). Qed.

Lemma sub_vec : forall a b, List.length a = List.length b ->
  OpsC18B.sub (vec a) (vec b) = ROk (vec (zipw Qminus a b)).
Proof. intros a b H. unfold OpsC18B.sub, vec. rewrite (length_zipw _ _ _ H), <- H. now apply ew2_vec. Qed.

Lemma imul_vec_one : forall a c, OpsC18B.imul (vec a) (mkT [1%nat] [c]) = ROk (vec (map (fun u => (u * c)%Q) a)).
Proof. intros a c. unfold OpsC18B.imul, vec. rewrite map_length. apply iop2_vec_one. Qed.

Lemma square_vec : forall a, square (vec a) = vec (map qsq a).
Proof. intros. unfold vec. now rewrite map_length. Qed.

Lemma clamp_vec : forall a c, OpsC18B.clamp_min (vec a) c = vec (map (fun v => qmax v c) a).
Proof. intros. unfold vec. now rewrite map_length. Qed.

Lemma sqrt_vec : forall sq a, sqrt_ sq (vec a) = vec (map sq a).
Proof. intros. unfold vec. now rewrite map_length. Qed.

Lemma sub_scalar_1 : forall c q, sub_scalar (mkT [1%nat] [c]) q = mkT [1%nat] [(c - q)%Q].
Proof. reflexivity. Qed.

Lemma var_fusion : forall (c : Q) ssq mean,
  map (fun v => qmax v (inject_Z 0)) (zipw Qminus (map (fun u => (u / c)%Q) ssq) (map qsq mean))
  = zipw (fun q m => qmax (q / c - qsq m) 0) ssq mean.
Proof.
  intros c ssq. induction ssq as [|q ssq IH]; intros [|m mean]; try reflexivity.
  cbn [map zipw]. f_equal. apply IH.
Qed.

#[local] Opaque enc_tensor dect OpsC18B.size OpsC18B.transpose OpsC18B.unsqueeze OpsC18B.flatten OpsC18B.view zeros square sum1 OpsC18B.iadd OpsC18B.imul OpsC18B.sub OpsC18B.div
  add_scalar sub_scalar OpsC18B.clamp_min sqrt_ lt_scalar_truth Model.transpose Z.of_nat Z.eqb foreign cmp_eval Qplus Qminus Qmult Qdiv
  Qle_bool Qeq_bool qsum qsq qmax rows rows_width repeat zipw inject_Z vec.

(* the statistics a module can hold: both sums have one length (preserved by accumulate, see [accumulate_wf]) *)
Definition stats_wf (s : stats) : Prop := List.length (ssum s) = List.length (ssq s).

Lemma store_ok : forall sq dim eps mean0 std0 s (del bessel : bool) mean var,
  stats_wf s -> Model.store (Some s) bessel = Ok (mean, var) ->
  exists fin, run_store sq (mkM dim eps mean0 std0 (Some s)) del bessel = Interp.Ok VNone fin /\
    lookup "self" (vars fin) =
      Some (self_val (mkM dim eps (Some mean) (Some (map sq var)) (if del then None else Some s))).
Proof.
  intros sq dim eps mean0 std0 s del bessel mean var Hwf Hst. unfold stats_wf in Hwf.
  unfold Model.store in Hst. destruct (Qle_bool 2 (cnt s)) eqn:Hc; [|discriminate].
  destruct (count_nonzero _ Hc) as [Hc0 Hc1].
  injection Hst as <- <-.
  unfold run_store, Interp.run, store_body, store_vars. hide_names.
  (* `if self.count is None`; count, sum_, sumsq = self.count, self.sum, self.sumsq; assert isinstance(..) *)
  do 6 step by ev.
  (* `if count < 2` *)
  step by (ev; change (inject_Z 2) with 2%Q; rewrite ?lt_truth_1, ?Hc).
  (* self.mean = mean = sum_ / count *)
  step by (ev; rewrite ?(div_vec_one _ _ Hc0)).
  (* var = (sumsq / count - mean.square()).clamp_min_(0) *)
  step by (ev; rewrite ?(div_vec_one _ _ Hc0), ?square_vec, ?clamp_vec, ?sub_vec by (rewrite !map_length; congruence)).
  rewrite var_fusion.
  (* `if bessel: var *= count / (count - 1)`; self.std = var.sqrt_(); `if delete_stats: self.sum = self.sumsq = self.count = None` *)
  destruct bessel;
    (step by (ev; rewrite ?sub_scalar_1, ?(div_one_one _ _ Hc1), ?imul_vec_one)); (step by (ev; rewrite ?sqrt_vec));
    destruct del; run by ev; eexists; split; reflexivity.
Qed.

(* `if self.count is None: raise RuntimeError` *)
Lemma store_none : forall sq dim eps mean0 std0 (del bessel : bool),
  run_store sq (mkM dim eps mean0 std0 None) del bessel
  = Interp.Exc "RuntimeError" (mkState (store_vars (mkM dim eps mean0 std0 None) del bessel) []).
Proof.
  intros. unfold run_store, Interp.run, store_body. erewrite exec_seq_exc; [reflexivity|].
  run by ev. reflexivity.
Qed.

(* `if count < 2: raise RuntimeError`: the module is left as it was *)
Lemma store_few : forall sq dim eps mean0 std0 s (del bessel : bool),
  Qle_bool 2 (cnt s) = false ->
  exists fin, run_store sq (mkM dim eps mean0 std0 (Some s)) del bessel = Interp.Exc "RuntimeError" fin /\
    lookup "self" (vars fin) = Some (self_val (mkM dim eps mean0 std0 (Some s))).
Proof.
  intros sq dim eps mean0 std0 s del bessel Hc. unfold run_store, Interp.run, store_body, store_vars. hide_names.
  do 6 step by ev. erewrite exec_seq_exc by (run by (ev; change (inject_Z 2) with 2%Q; rewrite ?lt_truth_1, ?Hc); reflexivity).
  eexists. split; reflexivity.
Qed.
