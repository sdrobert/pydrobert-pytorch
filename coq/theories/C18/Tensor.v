(* C18 — row-major tensors: multi-indices, offsets, tabulate/get, transposition. *)
From Coq Require Import List ZArith QArith Bool Arith Lia Permutation.
From PV Require Import MiniTorch.Lemmas C18.Model C18.Spec.
Import ListNotations.
Local Open Scope nat_scope.

Lemma valid_length : forall sh idx, valid sh idx -> length idx = length sh.
Proof. intros sh idx H. induction H; cbn; congruence. Qed.

Lemma valid_nth : forall sh idx k, valid sh idx -> k < length sh -> nth k idx 0 < nth k sh 0.
Proof.
  intros sh idx k H. revert k. induction H as [|i s idx sh Hi H IH]; intros k Hk; cbn in *; [lia|].
  destruct k; [assumption|]. apply IH. lia.
Qed.

Lemma valid_intro : forall sh idx, length idx = length sh ->
  (forall k, k < length sh -> nth k idx 0 < nth k sh 0) -> valid sh idx.
Proof.
  induction sh as [|s sh IH]; intros [|i idx] HL H; cbn in *; try discriminate.
  - constructor.
  - constructor.
    + apply (H 0). lia.
    + apply IH; [lia|]. intros k Hk. apply (H (S k)). lia.
Qed.

Lemma NoDup_app_intro : forall {A} (a b : list A),
  NoDup a -> NoDup b -> (forall x, In x a -> In x b -> False) -> NoDup (a ++ b).
Proof.
  induction a as [|x a IH]; intros b Ha Hb H; cbn [app]; [assumption|].
  inversion Ha as [|? ? Hx Ha']; subst. constructor.
  - intros Hin. apply in_app_or in Hin. destruct Hin as [Hin|Hin]; [contradiction|].
    apply (H x); [now left|assumption].
  - apply IH; try assumption. intros y Hy. apply H. now right.
Qed.

Lemma prodn_cons : forall s sh, prodn (s :: sh) = s * prodn sh.
Proof. reflexivity. Qed.

Lemma prodn_app : forall a b, prodn (a ++ b) = prodn a * prodn b.
Proof.
  induction a as [|x a IH]; intros b; cbn [app]; [cbn; lia|].
  rewrite !prodn_cons, IH. lia.
Qed.

Lemma skipn_app_plus : forall {A} (a b : list A) k, skipn (length a + k) (a ++ b) = skipn k b.
Proof. induction a as [|x a IH]; intros b k; cbn; [reflexivity|apply IH]. Qed.

Lemma chunk_flat_map_const : forall {A} (g : A -> list Q) l P i da,
  (forall a, In a l -> length (g a) = P) -> i < length l ->
  chunk P i (flat_map g l) = g (nth i l da).
Proof.
  unfold chunk.
  induction l as [|a l IH]; intros P i da H Hi; cbn [flat_map length] in *; [lia|].
  destruct i as [|i].
  - cbn [Nat.mul skipn nth]. rewrite firstn_app, (H a) by now left.
    rewrite Nat.sub_diag. cbn [firstn]. rewrite app_nil_r.
    rewrite <- (H a) at 1 by now left. apply firstn_all.
  - cbn [nth]. replace (S i * P) with (length (g a) + i * P) by (rewrite (H a) by (now left); lia).
    rewrite skipn_app_plus.
    apply IH; [intros; apply H; now right|lia].
Qed.

Lemma indices_cons : forall s sh,
  indices (s :: sh) = flat_map (fun i => map (cons i) (indices sh)) (seq 0 s).
Proof. reflexivity. Qed.

Lemma length_indices : forall sh, length (indices sh) = prodn sh.
Proof.
  induction sh as [|s sh IH]; [reflexivity|].
  rewrite indices_cons, (length_flat_map_const _ _ (prodn sh)).
  - rewrite seq_length. reflexivity.
  - intros a _. rewrite map_length. exact IH.
Qed.

Lemma in_indices : forall sh idx, In idx (indices sh) <-> valid sh idx.
Proof.
  induction sh as [|s sh IH]; intros idx.
  - cbn. split.
    + intros [<-|[]]. constructor.
    + intros H. inversion H. now left.
  - rewrite indices_cons, in_flat_map. split.
    + intros [i [Hi Hin]]. apply in_map_iff in Hin. destruct Hin as [t [<- Ht]].
      apply in_seq in Hi. constructor; [lia|]. now apply IH.
    + intros H. inversion H as [|i s' t sh' Hi Ht]; subst.
      exists i. split; [apply in_seq; lia|]. apply in_map. now apply IH.
Qed.

Lemma NoDup_flat_map : forall {A B} (f : A -> list B) l,
  NoDup l -> (forall a, In a l -> NoDup (f a)) ->
  (forall a b x, In a l -> In b l -> In x (f a) -> In x (f b) -> a = b) -> NoDup (flat_map f l).
Proof.
  induction l as [|a l IH]; intros ND Hf Hd; cbn [flat_map]; [constructor|].
  inversion ND as [|? ? Ha ND']; subst. apply NoDup_app_intro.
  - apply Hf. now left.
  - apply IH; [assumption|intros; apply Hf; now right|intros b c x Hb Hc; apply Hd; now right].
  - intros x H1 H2. apply in_flat_map in H2. destruct H2 as [b [Hb Hx]].
    rewrite (Hd a b x (or_introl eq_refl) (or_intror Hb) H1 Hx) in Ha. contradiction.
Qed.

(* the blocks of indices (s :: sh) differ in their first component *)
Lemma NoDup_indices : forall sh, NoDup (indices sh).
Proof.
  induction sh as [|s sh IH]; [cbn; repeat constructor; intros []|].
  rewrite indices_cons. apply NoDup_flat_map.
  - apply seq_NoDup.
  - intros i _. apply FinFun.Injective_map_NoDup; [|exact IH]. intros a b E. now inversion E.
  - intros i j x _ _ Hi Hj. apply in_map_iff in Hi, Hj.
    destruct Hi as [t [<- _]], Hj as [t' [E _]]. now inversion E.
Qed.

Lemma ravel_lt : forall sh idx, valid sh idx -> ravel sh idx < prodn sh.
Proof.
  intros sh idx H. induction H as [|i s idx sh Hi H IH]; cbn [ravel]; [cbn; lia|].
  rewrite prodn_cons. nia.
Qed.

Lemma nth_ravel_indices : forall sh idx d, valid sh idx -> nth (ravel sh idx) (indices sh) d = idx.
Proof.
  intros sh idx d H. induction H as [|i s idx sh Hi H IH]; [reflexivity|].
  cbn [ravel]. rewrite indices_cons.
  rewrite (nth_flat_map_const _ _ (prodn sh) i (ravel sh idx) 0 d).
  - rewrite seq_nth by assumption. cbn [Nat.add].
    rewrite (nth_indep _ d (i :: d)) by (rewrite map_length, length_indices; now apply ravel_lt).
    rewrite map_nth. f_equal. exact IH.
  - intros a _. rewrite map_length. apply length_indices.
  - rewrite seq_length. assumption.
  - now apply ravel_lt.
Qed.

Lemma get_tabulate : forall sh f idx, valid sh idx -> get (tabulate sh f) idx = f idx.
Proof.
  intros sh f idx H. unfold get, tabulate. cbn [shape data].
  rewrite (nth_indep _ 0%Q (f idx)) by (rewrite map_length, length_indices; now apply ravel_lt).
  rewrite map_nth. f_equal. now apply nth_ravel_indices.
Qed.

(* offsets of concatenated index blocks *)
Lemma ravel_app : forall sh1 idx1 sh2 idx2, length idx1 = length sh1 ->
  ravel (sh1 ++ sh2) (idx1 ++ idx2) = ravel sh1 idx1 * prodn sh2 + ravel sh2 idx2.
Proof.
  induction sh1 as [|s sh1 IH]; intros [|i idx1] sh2 idx2 HL; cbn in HL; try discriminate.
  - cbn. lia.
  - cbn [app ravel]. rewrite IH by lia. rewrite prodn_app. lia.
Qed.

Lemma valid_app : forall sh1 idx1 sh2 idx2, valid sh1 idx1 -> valid sh2 idx2 -> valid (sh1 ++ sh2) (idx1 ++ idx2).
Proof. intros. now apply Forall2_app. Qed.

Lemma valid_app_inv : forall sh1 sh2 idx, valid (sh1 ++ sh2) idx ->
  exists idx1 idx2, idx = idx1 ++ idx2 /\ valid sh1 idx1 /\ valid sh2 idx2.
Proof.
  intros sh1 sh2 idx H. apply Forall2_app_inv_r in H. destruct H as [i1 [i2 [H1 [H2 E]]]].
  exists i1, i2. auto.
Qed.

Definition tau (i j k : nat) : nat := if k =? i then j else if k =? j then i else k.

Lemma tau_invol : forall i j k, tau i j (tau i j k) = k.
Proof.
  intros i j k. unfold tau.
  destruct (Nat.eqb_spec k i); [|destruct (Nat.eqb_spec k j)];
    repeat match goal with |- context [?a =? ?b] => destruct (Nat.eqb_spec a b) end; subst; lia.
Qed.

Lemma tau_lt : forall i j k n, i < n -> j < n -> k < n -> tau i j k < n.
Proof. intros. unfold tau. destruct (k =? i); [lia|]. destruct (k =? j); lia. Qed.

Lemma length_swapl : forall l i j, length (swapl l i j) = length l.
Proof. intros. unfold swapl. now rewrite map_length, seq_length. Qed.

Lemma nth_swapl : forall l i j k, k < length l -> nth k (swapl l i j) 0 = nth (tau i j k) l 0.
Proof.
  intros l i j k Hk. unfold swapl. now rewrite nth_map_seq.
Qed.

Lemma nth_ext_nat : forall (a b : list nat), length a = length b ->
  (forall k, k < length a -> nth k a 0 = nth k b 0) -> a = b.
Proof. intros a b HL H. apply (nth_ext a b 0 0); assumption. Qed.

Lemma swapl_invol : forall l i j, i < length l -> j < length l -> swapl (swapl l i j) i j = l.
Proof.
  intros l i j Hi Hj. apply nth_ext_nat; [now rewrite !length_swapl|].
  intros k Hk. rewrite !length_swapl in Hk.
  rewrite nth_swapl by (now rewrite length_swapl).
  rewrite nth_swapl by (now apply tau_lt).
  now rewrite tau_invol.
Qed.

Lemma valid_swapl : forall sh idx i j, i < length sh -> j < length sh ->
  valid sh idx -> valid (swapl sh i j) (swapl idx i j).
Proof.
  intros sh idx i j Hi Hj H. pose proof (valid_length _ _ H) as HL.
  apply valid_intro; [now rewrite !length_swapl|].
  intros k Hk. rewrite length_swapl in Hk.
  rewrite !nth_swapl by lia. apply valid_nth; [assumption|now apply tau_lt].
Qed.

Lemma valid_swapl_inv : forall sh idx i j, i < length sh -> j < length sh ->
  valid (swapl sh i j) idx -> valid sh (swapl idx i j).
Proof.
  intros sh idx i j Hi Hj H.
  rewrite <- (swapl_invol sh i j) by assumption.
  apply valid_swapl; rewrite ?length_swapl; assumption.
Qed.

Lemma get_transpose : forall x i j idx, i < length (shape x) -> j < length (shape x) ->
  valid (swapl (shape x) i j) idx -> get (transpose x i j) idx = get x (swapl idx i j).
Proof. intros x i j idx Hi Hj H. unfold transpose. now rewrite get_tabulate. Qed.

Lemma shape_transpose : forall x i j, shape (transpose x i j) = swapl (shape x) i j.
Proof. reflexivity. Qed.

Lemma data_transpose : forall x i j,
  data (transpose x i j) = map (fun idx => get x (swapl idx i j)) (indices (swapl (shape x) i j)).
Proof. reflexivity. Qed.

Lemma swapl_same : forall l i, i < length l -> swapl l i i = l.
Proof.
  intros l i Hi. apply nth_ext_nat; [apply length_swapl|].
  intros k Hk. rewrite length_swapl in Hk. rewrite nth_swapl by assumption.
  unfold tau. destruct (k =? i) eqn:E; [apply Nat.eqb_eq in E; now subst|reflexivity].
Qed.

Lemma valid1 : forall a i, i < a -> valid [a] [i].
Proof. intros. constructor; [assumption|constructor]. Qed.

Lemma valid2 : forall a b i j, i < a -> j < b -> valid [a; b] [i; j].
Proof. intros. constructor; [assumption|]. now apply valid1. Qed.

Lemma norm_dim_lt : forall D dim d, norm_dim D dim = Some d -> (d < D)%nat.
Proof.
  intros D dim d H. unfold norm_dim in H.
  destruct ((dim <? - Z.of_nat D) || (Z.of_nat D <=? dim))%Z eqn:E; [discriminate|].
  inversion H; subst d; clear H. apply orb_false_iff in E. destruct E as [E1 E2].
  apply Z.ltb_ge in E1. apply Z.leb_gt in E2.
  assert (0 < Z.of_nat D)%Z by lia.
  pose proof (Z.mod_pos_bound (dim + Z.of_nat D) (Z.of_nat D) ltac:(lia)). lia.
Qed.

