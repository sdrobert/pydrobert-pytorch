(* C18 — the model's edge padding (lists, as torch.nn.functional.pad builds them) is the
   position-wise extension [ext] of the specification. *)
From Coq Require Import List ZArith QArith Bool Arith Lia ZifyBool ZifyNat.
From PV Require Import C18.Model C18.Spec.
Import ListNotations.
Ltac Zify.zify_post_hook ::= Z.to_euclidean_division_equations.

Lemma nth_skipn_Q : forall (l : list Q) n k, nth k (skipn n l) 0%Q = nth (n + k) l 0%Q.
Proof.
  induction l as [|a l IH]; intros n k.
  - rewrite skipn_nil. destruct k, (n + 0)%nat; destruct n; reflexivity.
  - destruct n; [reflexivity|]. cbn [skipn Nat.add nth]. apply IH.
Qed.

Lemma nth_firstn_Q : forall (l : list Q) n k, (k < n)%nat -> nth k (firstn n l) 0%Q = nth k l 0%Q.
Proof.
  induction l as [|a l IH]; intros n k H.
  - rewrite firstn_nil. reflexivity.
  - destruct n; [lia|]. destruct k; [reflexivity|]. cbn [firstn nth]. apply IH. lia.
Qed.

Lemma nth_repeat_Q : forall (v : Q) n k, (k < n)%nat -> nth k (repeat v n) 0%Q = v.
Proof. induction n; intros k H; [lia|]. destruct k; [reflexivity|]. cbn. apply IHn. lia. Qed.

Lemma last_nth : forall {A} (l : list A) d, last l d = nth (length l - 1) l d.
Proof.
  induction l as [|a l IH]; intros d; [reflexivity|].
  destruct l as [|b l]; [reflexivity|].
  change (last (a :: b :: l) d) with (last (b :: l) d). rewrite IH.
  cbn [length]. replace (S (S (length l)) - 1)%nat with (S (length l)) by lia.
  cbn [nth]. replace (S (length l) - 1)%nat with (length l) by lia. reflexivity.
Qed.

Lemma hd_nth_Q : forall (l : list Q), hd 0%Q l = nth 0 l 0%Q.
Proof. destruct l; reflexivity. Qed.

Lemma nthZ_nat : forall x (k : nat), nthZ x (Z.of_nat k) = nth k x 0%Q.
Proof.
  intros x k. unfold nthZ. destruct (Z.ltb_spec (Z.of_nat k) 0); [lia|]. now rewrite Nat2Z.id.
Qed.

Lemma nthZ_eq : forall x (z : Z) (k : nat), z = Z.of_nat k -> nthZ x z = nth k x 0%Q.
Proof. intros x z k ->. apply nthZ_nat. Qed.

Lemma mod_neg_shift : forall a T : Z, (- T <= a < 0)%Z -> (a mod T = a + T)%Z.
Proof. intros a T H. symmetry. apply (Z.mod_unique a T (-1) (a + T)); lia. Qed.

Lemma mod_pos_shift : forall a T : Z, (T <= a < 2 * T)%Z -> (a mod T = a - T)%Z.
Proof. intros a T H. symmetry. apply (Z.mod_unique a T 1 (a - T)); lia. Qed.

Lemma length_pad : forall m v p x, pad_ok m p (length x) = true ->
  length (pad m v p x) = (length x + 2 * p)%nat.
Proof.
  intros m v p x H. unfold pad. destruct m; cbn [pad_ok] in H;
    rewrite ?app_length, ?rev_length, ?firstn_length, ?skipn_length, ?repeat_length; try lia.
Qed.

(* three-way split of a position of  left ++ x ++ right  with |left| = |right| = p *)
Lemma nth_app3 : forall (a x b : list Q) j,
  nth j (a ++ x ++ b) 0%Q =
  if (j <? length a)%nat then nth j a 0%Q
  else if (j <? length a + length x)%nat then nth (j - length a) x 0%Q
  else nth (j - length a - length x) b 0%Q.
Proof.
  intros a x b j. destruct (Nat.ltb_spec j (length a)).
  - now rewrite app_nth1.
  - rewrite app_nth2 by lia. destruct (Nat.ltb_spec j (length a + length x)).
    + rewrite app_nth1 by lia. reflexivity.
    + rewrite app_nth2 by lia. reflexivity.
Qed.

Lemma pad_spec : forall m v p x j,
  (1 <= length x)%nat -> pad_ok m p (length x) = true -> (j < length x + 2 * p)%nat ->
  nth j (pad m v p x) 0%Q = ext m v x (Z.of_nat j - Z.of_nat p).
Proof.
  intros m v p x j HT Hok Hj. set (T := length x) in *.
  unfold pad. fold T. destruct m; cbn [pad_ok] in Hok; rewrite nth_app3;
    rewrite ?rev_length, ?firstn_length, ?skipn_length, ?repeat_length; fold T; unfold ext; fold T.
  - (* Replicate *)
    destruct (Nat.ltb_spec j p); [|destruct (Nat.ltb_spec j (p + T))].
    + rewrite nth_repeat_Q by lia. rewrite hd_nth_Q. symmetry. apply nthZ_eq. lia.
    + symmetry. apply nthZ_eq. lia.
    + rewrite nth_repeat_Q by lia. rewrite last_nth. fold T. symmetry. apply nthZ_eq. lia.
  - (* Constant *)
    destruct (Nat.ltb_spec j p); [|destruct (Nat.ltb_spec j (p + T))]; rewrite ?nth_repeat_Q by lia;
      (destruct ((0 <=? Z.of_nat j - Z.of_nat p)%Z && (Z.of_nat j - Z.of_nat p <? Z.of_nat T)%Z) eqn:E;
       try lia; try reflexivity).
    symmetry. apply nthZ_eq. lia.
  - (* Reflect *)
    assert (Hp : (p < T)%nat) by lia.
    replace (Nat.min p (T - 1)) with p by lia.
    destruct (Nat.ltb_spec j p); [|destruct (Nat.ltb_spec j (p + T))];
      try (rewrite rev_nth by (rewrite firstn_length, skipn_length; fold T; lia);
           rewrite firstn_length, skipn_length; fold T; rewrite Nat.min_l by lia;
           rewrite nth_firstn_Q, nth_skipn_Q by lia);
      destruct (Z.ltb_spec (Z.of_nat j - Z.of_nat p) 0); try lia;
      try (destruct (Z.leb_spec (Z.of_nat T) (Z.of_nat j - Z.of_nat p)); try lia);
      symmetry; apply nthZ_eq; lia.
  - (* Circular *)
    assert (Hp : (p <= T)%nat) by lia.
    replace (T - (T - p))%nat with p by lia.
    destruct (Nat.ltb_spec j p); [|destruct (Nat.ltb_spec j (p + T))].
    + rewrite nth_skipn_Q. symmetry. apply nthZ_eq. rewrite mod_neg_shift; lia.
    + symmetry. apply nthZ_eq. rewrite Z.mod_small; lia.
    + rewrite nth_firstn_Q by lia. symmetry. apply nthZ_eq. rewrite mod_pos_shift; lia.
Qed.
