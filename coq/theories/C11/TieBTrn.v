(* C11, second source tie - write_trn: the helper _handle_x (recursive, any nesting depth) and the whole function. *)
From Coq Require Import ZArith QArith List String Ascii Bool Lia.
From PV Require C11.ProofsTrn.
From PV Require Import C11.Model C11.ModelB MiniPy.Syntax MiniPy.Interp MiniPy.Lemmas Gen.C11BSrc C11.SrcRun C11.TieBase
  C11.SrcRunB C11.TieBBase.
Import ListNotations.
Local Open Scope string_scope.

#[local] Arguments as_text : simpl never.
#[local] Arguments texts : simpl never.
#[local] Arguments call_pure : simpl never.
#[local] Arguments call_file : simpl never.
#[local] Arguments handle_x : simpl never.
#[local] Arguments join : simpl never.
#[local] Arguments List.concat : simpl never.

Ltac txt := repeat (first [rewrite as_text_lit | rewrite as_text_enc | rewrite as_text_enc' | rewrite texts_tv
                           | rewrite as_text_tv | rewrite is_file_mk'' | rewrite is_file_mk]).
Ltac step := repeat (progress (cbn; posnat; lk; txt)).

(* ---- the statements of _handle_x --------------------------------------------------------------------------- *)
Definition hx_outer : stmt :=
  match src_handle_x with SSeq _ (SSeq _ (SSeq (SFor _ _ b) _)) => b | _ => SPass end.
Definition hx_inner : stmt :=
  match hx_outer with SSeq _ (SSeq (SFor _ _ b) _) => b | _ => SPass end.
Definition hx_tail : stmt :=
  match src_handle_x with SSeq _ (SSeq _ (SSeq _ t)) => t | _ => SPass end.

(* persistent variables of a _handle_x frame *)
Definition hxP (X R : val) : list (string * val) :=
  [("x", X); ("str", str_type); ("config", config_obj); ("ret", R)].

Definition hx_ok (y : elem) : Prop :=
  forall n, (edepth y <= n)%nat -> exists st, run_handle_x n (enc_elem y) = Ok (VList (map enc_chr (handle_x y))) st.

Lemma call_handle n y st : hx_ok y -> (edepth y <= n)%nat ->
  call_pure (extB n) src_handle_x src_handle_x_params [enc_elem y] [] st = Ok (VList (map enc_chr (handle_x y))) st.
Proof.
  intros H Hd. destruct (H n Hd) as [st' Hr]. unfold call_pure. cbn [bind_args src_handle_x_params option_map].
  unfold run_handle_x in Hr. cbn [app] in Hr |- *. rewrite Hr. reflexivity.
Qed.

(* what `elem` / `line` holds after the texts [ws] have been added to it: nothing is added by an empty loop, and the
   first `+=` turns the initial "" into a list *)
Definition accum (acc : option str) (ws : list str) : option str :=
  match ws with [] => acc | _ :: _ => Some (tx acc ++ List.concat ws)%list end.

Lemma accum_cons acc w ws : accum (Some (tx acc ++ w)%list) ws = accum acc (w :: ws).
Proof.
  destruct ws as [|w' ws]; cbn [accum tx]; rewrite !concat_cons, ?concat_nil; [rewrite app_nil_r|rewrite <- app_assoc]; reflexivity.
Qed.

Lemma inner_loop n' X R evs : forall (b : list elem), Forall hx_ok b -> Forall (fun y => (edepth y <= n')%nat) b ->
  forall acc rest, lookup "elem" rest = Some (tv acc) ->
  exists rest',
    for_loop (extB (S n')) "xx" hx_inner (map enc_elem b) (mkState (hxP X R ++ rest) evs)
    = Ok CNormal (mkState (hxP X R ++ rest') evs)
    /\ lookup "elem" rest' = Some (tv (accum acc (map handle_x b))).
Proof.
  induction b as [|y b IH]; intros Hok Hd acc rest He.
  - exists rest. split; [reflexivity|exact He].
  - inversion Hok as [|? ? Hy Hok']; subst. inversion Hd as [|? ? Dy Hd']; subst.
    cbn [map for_loop].
    assert (Hstep : exists rest1,
              exec (extB (S n')) hx_inner (set_var "xx" (enc_elem y) (mkState (hxP X R ++ rest) evs))
              = Ok CNormal (mkState (hxP X R ++ rest1) evs)
              /\ lookup "elem" rest1 = Some (tv (Some (tx acc ++ handle_x y)%list))).
    { unfold hx_inner, hx_outer, src_handle_x, hxP. step. rewrite He. step.
      rewrite (call_handle n' y _ Hy Dy). step.
      destruct acc as [a|]; cbn [tv tx].
      - step. rewrite enc_str_app. eexists. split; [reflexivity|]. lk. reflexivity.
      - step. eexists. split; [reflexivity|]. lk. reflexivity. }
    destruct Hstep as [rest1 [Hx He1]]. rewrite Hx. cbn [bind].
    destruct (IH Hok' Hd' _ _ He1) as [rest2 [Hl He2]]. exists rest2. split; [exact Hl|].
    rewrite He2, accum_cons. reflexivity.
Qed.

Definition bacc (b : list elem) : option str := accum None (map handle_x b).

Lemma tx_bacc b : tx (bacc b) = List.concat (map handle_x b).
Proof. destruct b; reflexivity. Qed.

Lemma outer_step n' X evs (b : list elem) : Forall hx_ok b -> Forall (fun y => (edepth y <= n')%nat) b ->
  forall done rest, exists rest',
    exec (extB (S n')) hx_outer (set_var "alts" (VList (map enc_elem b)) (mkState (hxP X (VList (map tv done)) ++ rest) evs))
    = Ok CNormal (mkState (hxP X (VList (map tv (done ++ [bacc b]))) ++ rest') evs).
Proof.
  intros Hok Hd done rest. erewrite (eq_refl : hx_outer = SSeq _ (SSeq (SFor _ _ hx_inner) _)).
  erewrite exec_seq_ok by (unfold hxP; run).
  rewrite exec_seq, exec_for, (eval_name _ "alts" _ (VList (map enc_elem b))) by (cbn; lk; reflexivity).
  cbn [bind iter_items container_items].
  match goal with |- context [for_loop _ _ _ _ (mkState (_ :: _ :: _ :: _ :: ?r) _)] =>
    destruct (inner_loop n' X (VList (map tv done)) evs b Hok Hd None r) as [rest1 [Hl He]]; [lk; reflexivity|] end.
  unfold hxP in Hl. cbn [app] in Hl. rewrite Hl. cbn [bind].
  unfold hxP. step. rewrite He. step.
  eexists. rewrite map_app. reflexivity.
Qed.

Lemma outer_loop n' X evs : forall (brs : list (list elem)), Forall (Forall hx_ok) brs ->
  Forall (Forall (fun y => (edepth y <= n')%nat)) brs ->
  forall done rest, exists rest',
    for_loop (extB (S n')) "alts" hx_outer (map (fun b => VList (map enc_elem b)) brs)
      (mkState (hxP X (VList (map tv done)) ++ rest) evs)
    = Ok CNormal (mkState (hxP X (VList (map tv (done ++ map bacc brs))) ++ rest') evs).
Proof.
  induction brs as [|b brs IH]; intros Hok Hd done rest.
  - exists rest. cbn [map for_loop]. rewrite app_nil_r. reflexivity.
  - inversion Hok as [|? ? Hb Hok']; subst. inversion Hd as [|? ? Db Hd']; subst.
    cbn [map for_loop].
    destruct (outer_step n' X evs b Hb Db done rest) as [rest1 Hx]. rewrite Hx. cbn [bind].
    destruct (IH Hok' Hd' (done ++ [bacc b])%list rest1) as [rest2 Hl]. exists rest2.
    rewrite Hl. rewrite <- app_assoc. reflexivity.
Qed.

Lemma max2_le {A B} (f : B -> nat) (g : A -> list B) l n : (list_max (map (fun a => list_max (map f (g a))) l) <= n)%nat ->
  Forall (fun a => Forall (fun b => (f b <= n)%nat) (g a)) l.
Proof.
  intros H. apply list_max_le in H. rewrite Forall_map in H. eapply Forall_impl; [|exact H].
  intros a Ha. cbn beta in Ha. apply list_max_le in Ha. rewrite Forall_map in Ha. exact Ha.
Qed.

Lemma depth_branches brs n' : (edepth (Alt brs) <= S n')%nat ->
  Forall (Forall (fun y => (edepth y <= n')%nat)) brs.
Proof. intros H. apply le_S_n in H. exact (max2_le edepth (fun b => b) brs n' H). Qed.

Lemma join_tx brs :
  join [47; 32]%Z (map tx (map bacc brs)) = join [c_slash; c_sp] (map (fun alts => List.concat (map handle_x alts)) brs).
Proof. rewrite map_map. f_equal. apply map_ext. intros b. apply tx_bacc. Qed.

Theorem handle_x_tie : forall x, hx_ok x.
Proof.
  induction x as [t|brs IH] using ProofsTrn.elem_ind2; intros n Hd.
  - unfold run_handle_x, Interp.run, src_handle_x.
    destruct n; step; eexists; reflexivity.
  - destruct n as [|n']; [cbn [edepth] in Hd; lia|].
    pose proof (depth_branches brs n' Hd) as Hdb.
    unfold run_handle_x, Interp.run.
    erewrite (eq_refl : src_handle_x = SSeq _ (SSeq _ (SSeq (SFor _ _ hx_outer) hx_tail))).
    erewrite exec_seq_ok by reflexivity.
    erewrite exec_seq_ok
      by (instantiate (1 := mkState (hxP (enc_elem (Alt brs)) (VList (map tv [])) ++ []) []); reflexivity).
    rewrite exec_seq, exec_for, (eval_name _ "x" _ (enc_elem (Alt brs))) by reflexivity.
    cbn [bind enc_elem iter_items container_items].
    destruct (outer_loop n' (VTuple (map (fun b => VList (map enc_elem b)) brs)) [] brs IH Hdb [] []) as [rest' Hl].
    cbn [enc_elem] in Hl. rewrite Hl. cbn [bind app].
    unfold hx_tail, src_handle_x, hxP. step.
    rewrite join_tx. eexists. reflexivity.
Qed.

(* ============================ write_trn ======================================================================= *)
#[local] Arguments is_file : simpl never.

Definition wt_loop : stmt := match src_write_trn with SSeq _ (SFor _ _ b) => b | _ => SPass end.
Definition wt_xbody : stmt :=
  match wt_loop with SSeq _ (SSeq _ (SSeq _ (SSeq (SFor _ _ b) _))) => b | _ => SPass end.
Definition wt_post : stmt :=
  match wt_loop with SSeq _ (SSeq _ (SSeq _ (SSeq _ t))) => t | _ => SPass end.

Definition wtP (TS F : val) : list (string * val) :=
  [("transcripts", TS); ("trn", F); ("str", str_type); ("config", config_obj)].

Definition wt_try : stmt := match wt_xbody with SSeq t _ => t | _ => SPass end.
Definition wt_aug : stmt := match wt_xbody with SSeq _ a => a | _ => SPass end.

#[local] Arguments is_real : simpl never.
#[local] Arguments enc_pynum : simpl never.

Lemma is_real_pynum s : is_real (enc_pynum s) = true.
Proof. destruct s; reflexivity. Qed.

(* an element is not an object of a library: indexing a triple that starts with it is MiniPy's own *)
Lemma foreign_elem x : match enc_elem x with VStr (String c _) => (c =? "$")%char | _ => false end = false.
Proof. destruct x; reflexivity. Qed.

(* try: if len(x) == 3 and np.isreal(x[1]) and np.isreal(x[2]): x = x[0] / except TypeError: pass *)
Lemma try_tie n' TS F evs (t : top) rest :
  exists rest',
    exec (extB (S n')) wt_try (set_var "x" (enc_top t) (mkState (wtP TS F ++ rest) evs))
    = Ok CNormal (mkState (wtP TS F ++ rest') evs)
    /\ lookup "x" rest' = Some (enc_elem (untimed t))
    /\ lookup "line" rest' = lookup "line" rest /\ lookup "utt_id" rest' = lookup "utt_id" rest.
Proof.
  cbv beta iota delta [wt_try wt_xbody wt_loop src_write_trn wtP].
  destruct t as [s|x s e]; cbn [enc_top untimed] in *.
  - (* a bare token: len(x) == 3 only for a three-character token, whose x[1] is a character *)
    step. rewrite map_length.
    match goal with |- context [(Z.of_nat (@List.length ?A s) =? 3)%Z] =>
      destruct (Z.of_nat (@List.length A s) =? 3)%Z eqn:E3 end.
    + destruct (len3 s E3) as (a & b & c & ->). step. eexists. split; [reflexivity|]. lk. repeat split.
    + step. eexists. split; [reflexivity|]. lk. repeat split.
  - (* (x, start, end): the times are dropped *)
    repeat (progress (cbn; posnat; lk; rewrite ?foreign_elem, ?is_real_pynum)).
    eexists. split; [reflexivity|]. lk. repeat split.
Qed.

Lemma aug_tie n' TS F evs y acc rest : (edepth y <= n')%nat ->
  lookup "x" rest = Some (enc_elem y) -> lookup "line" rest = Some (tv acc) ->
  exec (extB (S n')) wt_aug (mkState (wtP TS F ++ rest) evs)
  = Ok CNormal (mkState (wtP TS F ++ update "line" (tv (Some (tx acc ++ handle_x y)%list)) rest) evs).
Proof.
  intros Hd Hx Hl. cbv beta iota delta [wt_aug wt_xbody wt_loop src_write_trn wtP].
  step. rewrite Hl. step. rewrite Hx. step. rewrite (call_handle n' y _ (handle_x_tie _) Hd).
  destruct acc as [w|]; cbn [tv tx]; step; rewrite ?enc_str_app; reflexivity.
Qed.

Lemma x_step n' TS F evs (t : top) : (edepth (untimed t) <= n')%nat ->
  forall acc rest, lookup "line" rest = Some (tv acc) ->
  exists rest',
    exec (extB (S n')) wt_xbody (set_var "x" (enc_top t) (mkState (wtP TS F ++ rest) evs))
    = Ok CNormal (mkState (wtP TS F ++ rest') evs)
    /\ lookup "line" rest' = Some (tv (Some (tx acc ++ handle_x (untimed t))%list))
    /\ lookup "utt_id" rest' = lookup "utt_id" rest.
Proof.
  intros Hd acc rest Hl. destruct (try_tie n' TS F evs t rest) as (rest1 & H1 & Hx & Hl1 & Hu1).
  rewrite Hl in Hl1. eexists. split; [|split].
  - change wt_xbody with (SSeq wt_try wt_aug). erewrite exec_seq_ok by exact H1.
    exact (aug_tie n' TS F evs _ acc rest1 Hd Hx Hl1).
  - apply lookup_update_eq.
  - rewrite lookup_update_neq by reflexivity. exact Hu1.
Qed.

Lemma x_loop n' TS F evs : forall (tr : list top), Forall (fun t => (edepth (untimed t) <= n')%nat) tr ->
  forall acc rest, lookup "line" rest = Some (tv acc) ->
  exists rest',
    for_loop (extB (S n')) "x" wt_xbody (map enc_top tr) (mkState (wtP TS F ++ rest) evs)
    = Ok CNormal (mkState (wtP TS F ++ rest') evs)
    /\ lookup "line" rest' = Some (tv (accum acc (map handle_x (map untimed tr))))
    /\ lookup "utt_id" rest' = lookup "utt_id" rest.
Proof.
  induction tr as [|t tr IH]; intros Hd acc rest Hl.
  - exists rest. split; [reflexivity|]. split; [exact Hl|reflexivity].
  - inversion Hd as [|? ? Dt Hd']; subst. cbn [map for_loop].
    destruct (x_step n' TS F evs t Dt acc rest Hl) as (rest1 & Hx & Hl1 & Hu1). rewrite Hx. cbn [bind].
    destruct (IH Hd' _ _ Hl1) as (rest2 & Hf & Hl2 & Hu2). exists rest2. split; [exact Hf|]. split; [|congruence].
    rewrite Hl2, accum_cons. reflexivity.
Qed.

Definition trn_line_of (ut : str * list top) : str := write_trn_line (untimed_utt ut).

Lemma utt_step n' TS p evs (ut : str * list top) :
  Forall (fun t => (edepth (untimed t) <= n')%nat) (snd ut) ->
  forall c rest, exists rest',
    exec (extB (S n')) wt_loop (set_var "$t1" (enc_trn_utt ut) (mkState (wtP TS (mk_file p c) ++ rest) evs))
    = Ok CNormal (mkState (wtP TS (mk_file p (c ++ trn_line_of ut)%list) ++ rest') evs).
Proof.
  intros Hd c rest. destruct ut as [u tr]. cbn [snd] in Hd.
  erewrite (eq_refl : wt_loop = SSeq _ (SSeq _ (SSeq _ (SSeq (SFor _ _ wt_xbody) wt_post)))).
  unfold enc_trn_utt, wtP. cbn [fst snd]. do 3 erewrite exec_seq_ok by run.
  rewrite exec_seq, exec_for, (eval_name _ "transcript" _ (VList (map enc_top tr))) by (cbn; lk; reflexivity).
  cbn [bind iter_items container_items].
  match goal with |- context [for_loop _ _ _ _ (mkState (_ :: _ :: _ :: _ :: ?r) _)] =>
    destruct (x_loop n' TS (mk_file p c) evs tr Hd None r) as (rest1 & Hf & Hl & Hu); [lk; reflexivity|] end.
  unfold wtP in Hf. cbn [app] in Hf. rewrite Hf. cbn [bind].
  rewrite lookup_update_neq, lookup_update_neq, lookup_update_eq in Hu by reflexivity.
  unfold wt_post, wt_loop, src_write_trn, mk_file. step. rewrite Hl. step. rewrite Hu. step.
  unfold trn_line_of, write_trn_line, untimed_utt, enc_str, mk_file. cbn [fst snd].
  match goal with |- context [tx ?m] =>
    replace (tx m) with (write_elems (map untimed tr)) by (destruct tr; reflexivity) end.
  eexists. step. rewrite <- !app_assoc. reflexivity.
Qed.

Lemma utt_loop n' TS p evs : forall (ts : list (str * list top)),
  Forall (fun ut => Forall (fun t => (edepth (untimed t) <= n')%nat) (snd ut)) ts ->
  forall c rest, exists rest',
    for_loop (extB (S n')) "$t1" wt_loop (map enc_trn_utt ts) (mkState (wtP TS (mk_file p c) ++ rest) evs)
    = Ok CNormal (mkState (wtP TS (mk_file p (c ++ write_trn_tops ts)%list) ++ rest') evs).
Proof.
  induction ts as [|ut ts IH]; intros Hd c rest.
  - exists rest. cbn [map for_loop]. unfold write_trn_tops, write_trn_file. cbn [map]. rewrite concat_nil, app_nil_r. reflexivity.
  - inversion Hd as [|? ? Du Hd']; subst. cbn [map for_loop].
    destruct (utt_step n' TS p evs ut Du c rest) as [rest1 Hx]. rewrite Hx. cbn [bind].
    destruct (IH Hd' (c ++ trn_line_of ut)%list rest1) as [rest2 Hl]. exists rest2. rewrite Hl.
    unfold write_trn_tops, write_trn_file, trn_line_of. cbn [map]. rewrite concat_cons, <- app_assoc. reflexivity.
Qed.

Lemma tdepth_le ts n' : (tdepth ts <= n')%nat ->
  Forall (fun ut : str * list top => Forall (fun t => (edepth (untimed t) <= n')%nat) (snd ut)) ts.
Proof. exact (max2_le (fun t => edepth (untimed t)) snd ts n'). Qed.

(* write_trn on an open file (any path tag p, any text c already in it) *)
Theorem write_trn_open_tie ts n p c : (S (tdepth ts) <= n)%nat ->
  exists st, run_write_trn n (enc_trn_ts ts) (mk_file p c) = Ok VNone st
             /\ lookup "trn" (vars st) = Some (mk_file p (c ++ write_trn_tops ts)%list)
             /\ events st = [].
Proof.
  intros Hn. destruct n as [|n']; [lia|]. apply le_S_n in Hn.
  unfold run_write_trn, Interp.run.
  erewrite (eq_refl : src_write_trn = SSeq _ (SFor _ _ wt_loop)).
  erewrite exec_seq_ok by reflexivity.
  rewrite exec_for, (eval_name _ "transcripts" _ (enc_trn_ts ts)) by reflexivity.
  cbn [bind]. unfold enc_trn_ts at 1. cbn [iter_items container_items].
  destruct (utt_loop n' (enc_trn_ts ts) p [] ts (tdepth_le ts n' Hn) c []) as [rest' Hl].
  change ([("transcripts", enc_trn_ts ts); ("trn", mk_file p c)] ++ globalsB)%list with (wtP (enc_trn_ts ts) (mk_file p c) ++ [])%list.
  rewrite Hl. eexists. split; [reflexivity|]. split; reflexivity.
Qed.

Lemma call_write_trn n ts p c st : (S (tdepth ts) <= n)%nat ->
  call_file (extB n) src_write_trn src_write_trn_params src_write_trn_defaults "trn" [enc_trn_ts ts; mk_file p c] [] st
  = Ok VNone (mkState (vars st) (events st ++ [("$written", [mk_file p (c ++ write_trn_tops ts)%list])])).
Proof.
  intros Hn. destruct (write_trn_open_tie ts n p c Hn) as (st' & Hr & Hv & He).
  unfold call_file. cbn [bind_args src_write_trn_params option_map].
  unfold run_write_trn in Hr. cbn [app] in Hr |- *. rewrite Hr, Hv, He. reflexivity.
Qed.

(* write_trn given a path: open, re-call on the file object, close *)
Theorem write_trn_path_tie ts n (path : str) : (S (S (tdepth ts)) <= n)%nat ->
  exists st, run_write_trn n (enc_trn_ts ts) (enc_str path) = Ok VNone st
             /\ events st = [("$written", [mk_file (enc_str path) (write_trn_tops ts)])].
Proof.
  intros Hn. destruct n as [|n']; [lia|]. apply le_S_n in Hn.
  unfold run_write_trn, Interp.run, src_write_trn. step.
  rewrite (call_write_trn n' ts (VList (map enc_chr path)) [] _ Hn). step.
  eexists. split; reflexivity.
Qed.
