(* C11 - lemmas: trn writer / reader round trip, for alternates nested to any depth. *)
From Coq Require Import List ZArith Bool Lia.
From PV Require Import C11.Model C11.Spec.
Import ListNotations.
Local Open Scope Z_scope.

(* ---------- induction principle for the nested type ---------------------------------- *)
Section ElemInd.
  Variable P : elem -> Prop.
  Hypothesis HTok : forall t, P (Tok t).
  Hypothesis HAlt : forall brs, Forall (Forall P) brs -> P (Alt brs).
  Fixpoint elem_ind2 (x : elem) : P x :=
    match x with
    | Tok t => HTok t
    | Alt brs =>
        HAlt brs
          ((fix go (l : list (list elem)) : Forall (Forall P) l :=
              match l with
              | [] => Forall_nil _
              | b :: bs =>
                  Forall_cons b
                    ((fix go2 (m : list elem) : Forall P m :=
                        match m with
                        | [] => Forall_nil _
                        | y :: ys => Forall_cons y (elem_ind2 y) (go2 ys)
                        end) b)
                    (go bs)
              end) brs)
    end.
End ElemInd.

(* ---------- run ------------------------------------------------------------------------ *)

Lemma run_app s a b :
  run s (a ++ b) = match run s a with Ok s' => run s' b | Raise e => Raise e end.
Proof.
  revert s; induction a as [|c a IH]; intros s; cbn [run app]; [reflexivity|].
  destruct (step c s); [apply IH|reflexivity].
Qed.

Definition nonempty_stack (s : pst) : bool := negb (is_nil (p_stack s)).

(* append finished elements at the place the reader is filling *)
Definition push (s : pst) (xs : list elem) : pst :=
  match p_stack s with
  | [] => mkP (p_out s ++ xs) (p_tok s) []
  | f :: fs => mkP (p_out s) (p_tok s) (mkF (f_done f) (f_cur f ++ xs) :: fs)
  end.

Lemma push_nil s : push s [] = s.
Proof.
  destruct s as [o t st]; unfold push; cbn. destruct st as [|[d c] fs]; cbn; rewrite app_nil_r; reflexivity.
Qed.

Lemma push_app s a b : push (push s a) b = push s (a ++ b).
Proof.
  destruct s as [o t st]; unfold push; cbn. destruct st as [|[d c] fs]; cbn; rewrite app_assoc; reflexivity.
Qed.

Lemma push_tok s xs : p_tok (push s xs) = p_tok s.
Proof. destruct s as [o t st]; unfold push; cbn. destruct st as [|[d c] fs]; reflexivity. Qed.

Lemma push_nonempty s xs : nonempty_stack (push s xs) = nonempty_stack s.
Proof. destruct s as [o t st]; unfold push, nonempty_stack; cbn. destruct st as [|[d c] fs]; reflexivity. Qed.

Lemma flush_notok s : p_tok s = [] -> flush s = s.
Proof. intros H; unfold flush; rewrite H; reflexivity. Qed.

Lemma flush_tok o t st : t <> [] -> flush (mkP o t st) = push (mkP o [] st) [Tok t].
Proof.
  intros H. unfold flush, push; cbn. destruct t as [|c t]; [congruence|]. destruct st as [|[d cu] fs]; reflexivity.
Qed.

Definition plain_for (inside : bool) (c : char) : bool := if inside then plain_in c else plain_top c.

Lemma plain_top_facts c : plain_top c = true -> is_space c = false /\ (c =? c_lbrace) = false.
Proof.
  unfold plain_top. rewrite andb_true_iff, !negb_true_iff. tauto.
Qed.

Lemma plain_in_facts c : plain_in c = true ->
  is_space c = false /\ (c =? c_lbrace) = false /\ (c =? c_slash) = false /\ (c =? c_rbrace) = false.
Proof.
  unfold plain_in. rewrite !andb_true_iff, !negb_true_iff. intros [[H1 H2] H3].
  apply plain_top_facts in H1. tauto.
Qed.

Lemma not_space_not_sp c : is_space c = false -> (c =? c_sp) = false.
Proof.
  intros H. destruct (c =? c_sp) eqn:E; [|reflexivity].
  apply Z.eqb_eq in E. subst c. discriminate H.
Qed.

Lemma step_plain s c :
  plain_for (nonempty_stack s) c = true ->
  step c s = Ok (mkP (p_out s) (p_tok s ++ [c]) (p_stack s)).
Proof.
  unfold plain_for, nonempty_stack. intros H. unfold step.
  destruct (p_stack s) as [|f fs] eqn:Est; cbn [is_nil negb] in H.
  - apply plain_top_facts in H. destruct H as [Hs Hb]. rewrite Hb, (not_space_not_sp _ Hs).
    cbn. rewrite !andb_false_r. reflexivity.
  - apply plain_in_facts in H. destruct H as (Hs & Hb & Hsl & Hrb).
    rewrite Hb, Hsl, Hrb, (not_space_not_sp _ Hs). reflexivity.
Qed.

Lemma run_plain t : forall s rest,
  forallb (plain_for (nonempty_stack s)) t = true ->
  run s (t ++ rest) = run (mkP (p_out s) (p_tok s ++ t) (p_stack s)) rest.
Proof.
  induction t as [|c t IH]; intros s rest H.
  - cbn. rewrite app_nil_r. destruct s; reflexivity.
  - cbn [forallb] in H. apply andb_true_iff in H. destruct H as [Hc Ht].
    cbn [app run]. rewrite (step_plain _ _ Hc). rewrite IH; cbn [p_out p_tok p_stack].
    + rewrite <- app_assoc. reflexivity.
    + exact Ht.
Qed.

Lemma step_space s : step c_sp s = Ok (flush s).
Proof. reflexivity. Qed.

(* ---------- one element, any depth ------------------------------------------------------- *)

Definition elem_good (x : elem) : Prop :=
  forall s rest, p_tok s = [] -> elem_okb (nonempty_stack s) x = true ->
    run s (handle_x x ++ rest) = run (push s [x]) rest.

Lemma run_list xs : Forall elem_good xs ->
  forall s rest, p_tok s = [] -> forallb (elem_okb (nonempty_stack s)) xs = true ->
    run s (write_elems xs ++ rest) = run (push s xs) rest.
Proof.
  induction 1 as [|x xs Hx _ IH]; intros s rest Ht Hok.
  - cbn. rewrite push_nil. reflexivity.
  - cbn [forallb] in Hok. apply andb_true_iff in Hok. destruct Hok as [Hx1 Hxs].
    unfold write_elems. cbn [map concat]. rewrite <- app_assoc.
    rewrite (Hx s _ Ht Hx1). fold (write_elems xs).
    rewrite IH.
    + rewrite push_app. reflexivity.
    + rewrite push_tok. exact Ht.
    + rewrite push_nonempty. exact Hxs.
Qed.

Lemma tok_good t : elem_good (Tok t).
Proof.
  intros s rest Ht Hok. cbn [handle_x elem_okb] in *.
  unfold tok_okb in Hok. destruct t as [|c t]; [discriminate|].
  rewrite <- app_assoc. rewrite run_plain.
  - cbn [app run]. rewrite step_space. rewrite Ht. cbn [app].
    rewrite flush_tok by discriminate. destruct s as [o tk st]. cbn in Ht. subst tk. reflexivity.
  - unfold plain_for. destruct (nonempty_stack s); exact Hok.
Qed.

Lemma step_open o st : step c_lbrace (mkP o [] st) = Ok (mkP o [] (mkF [] [] :: st)).
Proof. reflexivity. Qed.

Lemma step_slash o d c fs :
  step c_slash (mkP o [] (mkF d c :: fs)) = Ok (mkP o [] (mkF (d ++ [c]) [] :: fs)).
Proof. reflexivity. Qed.

Lemma step_close o d c fs : c <> [] ->
  step c_rbrace (mkP o [] (mkF d c :: fs)) = Ok (push (mkP o [] fs) [Alt (d ++ [c])]).
Proof.
  intros H. unfold step. cbn. destruct c as [|x c]; [congruence|].
  destruct fs as [|[gd gc] gs]; reflexivity.
Qed.

Lemma run_branches brs :
  Forall (Forall elem_good) brs -> brs <> [] -> last brs [] <> [] ->
  forallb (fun b => forallb (elem_okb true) b) brs = true ->
  forall o d fs rest,
    run (mkP o [] (mkF d [] :: fs))
        (join [c_slash; c_sp] (map write_elems brs) ++ c_rbrace :: rest)
    = run (push (mkP o [] fs) [Alt (d ++ brs)]) rest.
Proof.
  induction 1 as [|b bs Hb Hbs IH]; intros Hne Hlast Hok o d fs rest; [congruence|].
  cbn [forallb] in Hok. apply andb_true_iff in Hok. destruct Hok as [Hokb Hokbs].
  destruct bs as [|b' bs'].
  - cbn [map join]. rewrite (run_list b Hb); [|reflexivity|exact Hokb].
    unfold push at 1; cbn [p_stack p_out p_tok f_done f_cur app].
    cbn [run]. rewrite step_close; [reflexivity|exact Hlast].
  - cbn [map join]. rewrite <- !app_assoc.
    rewrite (run_list b Hb); [|reflexivity|exact Hokb].
    unfold push at 1; cbn [p_stack p_out p_tok f_done f_cur app].
    cbn [run]. rewrite step_slash. rewrite step_space. rewrite flush_notok by reflexivity.
    change (join [c_slash; c_sp] (write_elems b' :: map write_elems bs'))
      with (join [c_slash; c_sp] (map write_elems (b' :: bs'))).
    rewrite IH; [|discriminate|exact Hlast|exact Hokbs].
    rewrite <- app_assoc. reflexivity.
Qed.

Lemma alt_good brs : Forall (Forall elem_good) brs -> elem_good (Alt brs).
Proof.
  intros HF s rest Ht Hok. cbn [elem_okb] in Hok.
  apply andb_true_iff in Hok. destruct Hok as [Hok Hall].
  apply andb_true_iff in Hok. destruct Hok as [Hne Hlast].
  destruct s as [o tk st]. cbn in Ht. subst tk.
  cbn [handle_x]. change (map (fun alts => concat (map handle_x alts)) brs) with (map write_elems brs).
  cbn [app run]. rewrite step_open. rewrite step_space. rewrite flush_notok by reflexivity.
  rewrite <- app_assoc. cbn [app].
  rewrite (run_branches brs HF).
  - cbn [run]. rewrite step_space. rewrite flush_notok.
    + destruct st as [|[gd gc] gs]; reflexivity.
    + apply push_tok.
  - destruct brs; [discriminate|discriminate].
  - destruct (last brs []); [discriminate|discriminate].
  - exact Hall.
Qed.

Lemma all_good x : elem_good x.
Proof. induction x using elem_ind2; [apply tok_good|apply alt_good; assumption]. Qed.

Lemma run_elems xs s rest :
  p_tok s = [] -> forallb (elem_okb (nonempty_stack s)) xs = true ->
  run s (write_elems xs ++ rest) = run (push s xs) rest.
Proof.
  apply run_list. apply Forall_forall. intros x _. apply all_good.
Qed.

(* ---------- characters of a written transcript ---------------------------------------------- *)

Lemma in_join c sep l : In c (join sep l) -> In c sep \/ exists x, In x l /\ In c x.
Proof.
  induction l as [|x t IH]; cbn [join]; [intros []|].
  destruct t as [|y t'].
  - intros H. right. exists x. split; [left; reflexivity|exact H].
  - intros H. apply in_app_or in H. destruct H as [H|H].
    + right. exists x. split; [left; reflexivity|exact H].
    + apply in_app_or in H. destruct H as [H|H]; [left; exact H|].
      destruct (IH H) as [H'|[z [Hz Hc]]]; [left; exact H'|].
      right. exists z. split; [right; exact Hz|exact Hc].
Qed.

Definition char_fine (c : char) : Prop := is_space c = false \/ c = c_sp.

Definition elem_chars (x : elem) : Prop :=
  forall inside, elem_okb inside x = true -> forall c, In c (handle_x x) -> char_fine c.

Lemma list_chars xs : Forall elem_chars xs -> forall inside,
  forallb (elem_okb inside) xs = true -> forall c, In c (write_elems xs) -> char_fine c.
Proof.
  induction 1 as [|x xs Hx _ IH]; intros inside Hok c Hc; [destruct Hc|].
  cbn [forallb] in Hok. apply andb_true_iff in Hok. destruct Hok as [H1 H2].
  unfold write_elems in Hc. cbn [map concat] in Hc. apply in_app_or in Hc. destruct Hc as [Hc|Hc].
  - exact (Hx inside H1 c Hc).
  - exact (IH inside H2 c Hc).
Qed.

Lemma plain_for_fine (inside : bool) (t : str) : forallb (if inside then plain_in else plain_top) t = true ->
  forall c, In c t -> is_space c = false.
Proof.
  intros H c Hc. rewrite forallb_forall in H. specialize (H c Hc).
  destruct inside; [apply plain_in_facts in H|apply plain_top_facts in H]; tauto.
Qed.

(* "{ ", "/ ", "} " *)
Lemma sep_fine x c : is_space x = false -> In c [x; c_sp] -> char_fine c.
Proof. intros Hx [Hc|[Hc|[]]]; subst c; [left; exact Hx|right; reflexivity]. Qed.

Lemma all_chars x : elem_chars x.
Proof.
  induction x as [t|brs IH] using elem_ind2; intros inside Hok c Hc.
  - cbn [handle_x elem_okb] in *. unfold tok_okb in Hok. destruct t as [|a t]; [discriminate|].
    apply in_app_or in Hc. destruct Hc as [Hc|[Hc|[]]].
    + left. exact (plain_for_fine inside _ Hok c Hc).
    + right. symmetry. exact Hc.
  - cbn [handle_x elem_okb] in *.
    apply andb_true_iff in Hok. destruct Hok as [_ Hall].
    change (map (fun alts => concat (map handle_x alts)) brs) with (map write_elems brs) in Hc.
    apply in_app_or in Hc. destruct Hc as [Hc|Hc]; [exact (sep_fine c_lbrace c eq_refl Hc)|].
    apply in_app_or in Hc. destruct Hc as [Hc|Hc]; [|exact (sep_fine c_rbrace c eq_refl Hc)].
    apply in_join in Hc. destruct Hc as [Hc|[w [Hw Hc]]]; [exact (sep_fine c_slash c eq_refl Hc)|].
    apply in_map_iff in Hw. destruct Hw as [b [Hb Hin]]. subst w.
    rewrite Forall_forall in IH. rewrite forallb_forall in Hall.
    exact (list_chars b (IH b Hin) true (Hall b Hin) c Hc).
Qed.

Lemma write_elems_chars inside xs c :
  forallb (elem_okb inside) xs = true -> In c (write_elems xs) -> char_fine c.
Proof.
  intros H. apply (list_chars xs) with (inside := inside); [|exact H]. apply Forall_forall. intros x _. apply all_chars.
Qed.

Lemma last_in {A} (l : list A) d : l <> [] -> In (last l d) l.
Proof.
  induction l as [|x t IH]; [congruence|]. intros _. destruct t as [|y t']; [left; reflexivity|].
  right. apply IH. discriminate.
Qed.

(* a written, non-empty transcript starts with a visible character and ends with
   <visible character><space> *)
Lemma handle_x_shape inside x : elem_okb inside x = true ->
  exists a m z, handle_x x = a :: m /\ is_space a = false /\
                handle_x x = z ++ [c_sp] /\ z <> [] /\ is_space (last z 0) = false.
Proof.
  destruct x as [t|brs]; cbn [elem_okb handle_x]; intros Hok.
  - unfold tok_okb in Hok. destruct t as [|a t]; [discriminate|].
    exists a, (t ++ [c_sp]), (a :: t). repeat split; try discriminate.
    + apply (plain_for_fine inside _ Hok). left; reflexivity.
    + apply (plain_for_fine inside _ Hok). apply last_in. discriminate.
  - exists c_lbrace, ([c_sp] ++ join [c_slash; c_sp] (map (fun alts => concat (map handle_x alts)) brs) ++ [c_rbrace; c_sp]),
           ([c_lbrace; c_sp] ++ join [c_slash; c_sp] (map (fun alts => concat (map handle_x alts)) brs) ++ [c_rbrace]).
    repeat split.
    + rewrite <- !app_assoc. reflexivity.
    + discriminate.
    + rewrite app_assoc. rewrite last_last. reflexivity.
Qed.

Lemma write_elems_shape inside xs : xs <> [] -> forallb (elem_okb inside) xs = true ->
  exists a m z, write_elems xs = a :: m /\ is_space a = false /\
                write_elems xs = z ++ [c_sp] /\ z <> [] /\ is_space (last z 0) = false.
Proof.
  intros Hne Hok.
  destruct xs as [|x xs]; [congruence|].
  assert (Hx : elem_okb inside x = true) by (cbn in Hok; apply andb_true_iff in Hok; tauto).
  destruct (handle_x_shape inside x Hx) as (a & m & _ & Ha & Hsp & _).
  destruct (@exists_last _ (x :: xs)) as [ys [y Hy]]; [discriminate|].
  assert (Hyok : elem_okb inside y = true).
  { rewrite forallb_forall in Hok. apply Hok. rewrite Hy. apply in_or_app. right. left. reflexivity. }
  destruct (handle_x_shape inside y Hyok) as (_ & _ & z & _ & _ & Hz & Hzne & Hzl).
  exists a, (m ++ write_elems xs), (write_elems ys ++ z). repeat split.
  - unfold write_elems. cbn [map concat]. rewrite Ha. reflexivity.
  - exact Hsp.
  - rewrite Hy. unfold write_elems. rewrite map_app, concat_app. cbn [map concat].
    rewrite app_nil_r, Hz, app_assoc. reflexivity.
  - destruct z; [congruence|]. destruct (write_elems ys); discriminate.
  - destruct (@exists_last _ z Hzne) as [z' [w Hw]]. rewrite Hw in *.
    rewrite app_assoc, last_last. rewrite last_last in Hzl. exact Hzl.
Qed.

(* ---------- strip, rindex --------------------------------------------------------------- *)

Lemma drop_while_hd (l : str) : l <> [] -> is_space (hd 0 l) = false -> drop_while is_space l = l.
Proof. destruct l as [|a l]; [congruence|]. cbn. intros _ H. rewrite H. reflexivity. Qed.

Lemma strip_id (l : str) : l <> [] -> is_space (hd 0 l) = false -> is_space (last l 0) = false ->
  strip l = l.
Proof.
  intros Hne Hh Hl. unfold strip. rewrite (drop_while_hd l Hne Hh).
  destruct (@exists_last _ l Hne) as [l' [z Hz]]. subst l.
  rewrite last_last in Hl. rewrite rev_app_distr. cbn [rev app].
  cbn [drop_while]. rewrite Hl. cbn [rev]. rewrite rev_involutive. reflexivity.
Qed.

Lemma strip_trailing (l : str) w : l <> [] -> is_space (hd 0 l) = false -> is_space (last l 0) = false ->
  is_space w = true -> strip (l ++ [w]) = l.
Proof.
  intros Hne Hh Hl Hw. transitivity (strip l); [|exact (strip_id l Hne Hh Hl)]. unfold strip.
  rewrite (drop_while_hd l Hne Hh), (drop_while_hd (l ++ [w])).
  - rewrite rev_app_distr. cbn [rev app drop_while]. rewrite Hw. reflexivity.
  - destruct l; [congruence|discriminate].
  - destruct l; [congruence|exact Hh].
Qed.

Lemma rindex_none c (l : str) : ~ In c l -> rindex c l = None.
Proof.
  induction l as [|x t IH]; intros H; [reflexivity|]. cbn [rindex].
  rewrite IH by (intros H'; apply H; right; exact H').
  destruct (x =? c) eqn:E; [|reflexivity]. apply Z.eqb_eq in E. exfalso. apply H. left. exact E.
Qed.

Lemma rindex_app c (a b : str) : ~ In c b -> rindex c (a ++ c :: b) = Some (length a).
Proof.
  intros H. induction a as [|x a IH]; cbn [app rindex length].
  - rewrite (rindex_none c b H). rewrite Z.eqb_refl. reflexivity.
  - rewrite IH. reflexivity.
Qed.

(* ---------- one line -------------------------------------------------------------------- *)

Lemma finish_flush s : finish (flush s) = finish s.
Proof.
  destruct s as [o t st]. unfold flush, finish; cbn.
  destruct t as [|c t]; [reflexivity|]. destruct st as [|[d cu] fs]; cbn; [reflexivity|reflexivity].
Qed.

Definition written_line (ut : str * list elem) : str :=
  write_elems (snd ut) ++ [c_lpar] ++ fst ut ++ [c_rpar].

Lemma write_trn_line_eq ut : write_trn_line ut = written_line ut ++ [c_nl].
Proof. unfold write_trn_line, written_line. rewrite <- !app_assoc. reflexivity. Qed.

Lemma utt_ok_facts u : utt_okb u = true -> ~ In c_lpar u /\ ~ In c_nl u.
Proof.
  unfold utt_okb. rewrite forallb_forall. intros H. split; intros Hin; specialize (H _ Hin); discriminate H.
Qed.

Lemma body_finish xs : forallb (elem_okb false) xs = true ->
  match run (mkP [] [] []) (strip (write_elems xs)) with Ok s => finish s = xs | Raise _ => False end.
Proof.
  intros Hok. destruct xs as [|x xs'] eqn:Exs.
  - cbn. reflexivity.
  - rewrite <- Exs in *. assert (Hne : xs <> []) by (rewrite Exs; discriminate).
    destruct (write_elems_shape false xs Hne Hok) as (a & m & z & Ha & Has & Hz & Hzne & Hzl).
    assert (Hzh : is_space (hd 0 z) = false).
    { destruct z as [|z0 z']; [congruence|]. rewrite Hz in Ha. cbn in Ha. inversion Ha. subst. exact Has. }
    rewrite Hz. rewrite (strip_trailing z c_sp Hzne Hzh Hzl eq_refl).
    pose proof (run_elems xs (mkP [] [] []) [] eq_refl Hok) as Hrun.
    rewrite app_nil_r in Hrun. rewrite Hz in Hrun. rewrite run_app in Hrun.
    destruct (run (mkP [] [] []) z) as [s'|e]; [|discriminate Hrun].
    cbn [run] in Hrun. rewrite step_space in Hrun. inversion Hrun as [Hfl].
    rewrite <- finish_flush. rewrite Hfl. reflexivity.
Qed.

Lemma trn_line_nonempty line : strip line <> [] ->
  trn_line line =
  Some match rindex c_lpar (strip line), rindex c_rpar (strip line) with
       | Some o, Some c =>
           if (c <? o)%nat then Raise IOError
           else match run (mkP [] [] []) (strip (firstn o (strip line))) with
                | Ok s => Ok (sub (strip line) (S o) c, finish s)
                | Raise e => Raise e
                end
       | _, _ => Raise IOError
       end.
Proof. unfold trn_line. destruct (strip line); [congruence|reflexivity]. Qed.

Lemma hd_body xs rest : forallb (elem_okb false) xs = true ->
  is_space (hd 0 (write_elems xs ++ [c_lpar] ++ rest)) = false.
Proof.
  destruct xs as [|x xs']; [reflexivity|]. intros Hok.
  destruct (write_elems_shape false (x :: xs')) as (a & m & _ & Ha & Has & _); [discriminate|exact Hok|].
  rewrite Ha. exact Has.
Qed.

Lemma trn_line_written u xs :
  utt_okb u = true -> forallb (elem_okb false) xs = true ->
  trn_line (written_line (u, xs)) = Some (Ok (u, xs)).
Proof.
  intros Hu Hok. destruct (utt_ok_facts u Hu) as [Hnl _].
  unfold written_line. cbn [fst snd].
  pose proof (hd_body xs (u ++ [c_rpar]) Hok) as Hhd.
  pose proof (body_finish xs Hok) as Hb.
  set (W := write_elems xs) in *.
  assert (HL : strip (W ++ [c_lpar] ++ u ++ [c_rpar]) = W ++ [c_lpar] ++ u ++ [c_rpar]).
  { apply strip_id.
    - destruct W; discriminate.
    - exact Hhd.
    - rewrite !app_assoc. rewrite last_last. reflexivity. }
  clear Hhd. rewrite trn_line_nonempty by (rewrite HL; destruct W; discriminate). rewrite HL.
  assert (Ho : rindex c_lpar (W ++ [c_lpar] ++ u ++ [c_rpar]) = Some (length W)).
  { cbn [app]. apply rindex_app. intros H. apply in_app_or in H. destruct H as [H|[H|[]]]; [exact (Hnl H)|discriminate H]. }
  assert (Hc : rindex c_rpar (W ++ [c_lpar] ++ u ++ [c_rpar]) = Some (length W + 1 + length u)%nat).
  { replace (W ++ [c_lpar] ++ u ++ [c_rpar]) with ((W ++ [c_lpar] ++ u) ++ c_rpar :: []) by (rewrite <- !app_assoc; reflexivity).
    rewrite rindex_app by (intros []). rewrite !app_length. cbn [length]. f_equal. lia. }
  rewrite Ho, Hc.
  destruct (length W + 1 + length u <? length W)%nat eqn:E; [apply Nat.ltb_lt in E; lia|].
  rewrite firstn_app, firstn_all, Nat.sub_diag. cbn [firstn]. rewrite app_nil_r.
  destruct (run (mkP [] [] []) (strip W)) as [s|e]; [|destruct Hb].
  rewrite Hb. f_equal. f_equal. f_equal.
  unfold sub.
  replace (W ++ [c_lpar] ++ u ++ [c_rpar]) with ((W ++ [c_lpar]) ++ u ++ [c_rpar]) by (rewrite <- !app_assoc; reflexivity).
  replace (S (length W)) with (length (W ++ [c_lpar])) by (rewrite app_length; cbn; lia).
  rewrite skipn_app, skipn_all, Nat.sub_diag. cbn [skipn app].
  replace (length W + 1 + length u - length (W ++ [c_lpar]))%nat with (length u) by (rewrite app_length; cbn; lia).
  rewrite firstn_app, firstn_all, Nat.sub_diag. cbn [firstn]. rewrite app_nil_r. reflexivity.
Qed.

(* ---------- whole file ------------------------------------------------------------------- *)

Lemma lines_aux_app (L : str) : ~ In c_nl L -> forall cur rest,
  lines_aux cur (L ++ c_nl :: rest) = (rev cur ++ L) :: lines_aux [] rest.
Proof.
  induction L as [|c L IH]; intros Hn cur rest.
  - cbn. rewrite app_nil_r. reflexivity.
  - cbn [app lines_aux]. destruct (c =? c_nl) eqn:E.
    + apply Z.eqb_eq in E. exfalso. apply Hn. left. exact E.
    + rewrite IH by (intros H; apply Hn; right; exact H). cbn [rev]. rewrite <- app_assoc. reflexivity.
Qed.

Lemma written_line_no_nl u xs : utt_okb u = true -> forallb (elem_okb false) xs = true ->
  ~ In c_nl (written_line (u, xs)).
Proof.
  intros Hu Hok H. unfold written_line in H. cbn [fst snd] in H.
  apply in_app_or in H. destruct H as [H|H].
  - destruct (write_elems_chars false xs c_nl Hok H) as [H'|H']; discriminate H'.
  - cbn [app] in H. destruct H as [H|H]; [discriminate H|]. apply in_app_or in H. destruct H as [H|[H|[]]].
    + exact (proj2 (utt_ok_facts u Hu) H).
    + discriminate H.
Qed.

Lemma lines_written ts : trn_okb ts = true ->
  lines (write_trn_file ts) = map written_line ts.
Proof.
  unfold lines, write_trn_file. induction ts as [|[u xs] ts IH]; intros Hok; [reflexivity|].
  cbn [trn_okb forallb fst snd] in Hok. apply andb_true_iff in Hok. destruct Hok as [H1 H2].
  apply andb_true_iff in H1. destruct H1 as [Hu Hx].
  cbn [map concat]. rewrite write_trn_line_eq. rewrite <- app_assoc. cbn [app].
  rewrite lines_aux_app by (apply written_line_no_nl; assumption).
  cbn [rev app map]. f_equal. apply IH. exact H2.
Qed.

Lemma trn_roundtrip ts : trn_okb ts = true -> read_trn_serial (write_trn_file ts) = Ok ts.
Proof.
  intros Hok. unfold read_trn_serial. rewrite (lines_written ts Hok).
  induction ts as [|[u xs] ts IH]; [reflexivity|].
  cbn [trn_okb forallb fst snd] in Hok. apply andb_true_iff in Hok. destruct Hok as [H1 H2].
  apply andb_true_iff in H1. destruct H1 as [Hu Hx].
  cbn [map collect]. rewrite (trn_line_written u xs Hu Hx). cbn [collect].
  rewrite (IH H2). reflexivity.
Qed.
