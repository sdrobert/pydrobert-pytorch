(* C11 - lemmas: ctm write/read round trip up to the mandated ordering, any (wfn, chan) mapping. *)
From Coq Require Import List ZArith Bool Lia Permutation Sorted.
From PV Require Import C11.Model C11.Spec C11.ProofsSort.
Import ListNotations.
Local Open Scope Z_scope.

Definition mkseg (wc : str * str) (tk : timed) : seg :=
  (fst wc, snd wc, t_start tk, t_end tk - t_start tk, t_tok tk).


(* ---------- small facts -------------------------------------------------------------------- *)

Lemma str_eqb_eq a : forall b, str_eqb a b = true <-> a = b.
Proof.
  induction a as [|x a IH]; destruct b as [|y b]; cbn [str_eqb]; try (split; intros H; (discriminate || reflexivity)).
  rewrite andb_true_iff, Z.eqb_eq, IH. split; [intros [? ?]; subst; reflexivity|intros H; inversion H; auto].
Qed.

Lemma str_eqb_refl a : str_eqb a a = true.
Proof. apply str_eqb_eq. reflexivity. Qed.

Lemma str_eqb_neq a b : a <> b -> str_eqb a b = false.
Proof. intros H. destruct (str_eqb a b) eqn:E; [apply str_eqb_eq in E; congruence|reflexivity]. Qed.

Lemma wc_eqb_eq a b : wc_eqb a b = true <-> a = b.
Proof.
  destruct a as [a1 a2], b as [b1 b2]. unfold wc_eqb; cbn [fst snd].
  rewrite andb_true_iff, !str_eqb_eq. split; [intros [? ?]; subst; reflexivity|intros H; inversion H; auto].
Qed.

Lemma good_wc : good wc_cmp.
Proof. apply good_pair; apply good_str. Qed.

Lemma good_seg : good seg_cmp.
Proof. repeat apply good_pair; try apply good_str; try apply good_Z. Qed.

Lemma good_tok3 : good tok3_cmp.
Proof.
  unfold tok3_cmp. apply good_inj.
  - repeat apply good_pair; try apply good_str; apply good_Z.
  - intros [[t1 s1] e1] [[t2 s2] e2]. unfold tok_key, t_start, t_end, t_tok; cbn [fst snd].
    intros H. inversion H. subst. f_equal. lia.
Qed.

Lemma map_res_map {A B C} (f : B -> res C) (h : A -> B) (g : A -> C) l :
  (forall x, In x l -> f (h x) = Ok (g x)) -> map_res f (map h l) = Ok (map g l).
Proof.
  induction l as [|x l IH]; intros H; [reflexivity|]. cbn [map_res map].
  rewrite (H x (or_introl eq_refl)). rewrite IH; [reflexivity|]. intros y Hy. apply H. right. exact Hy.
Qed.

Lemma perm_flat_same {A B} (f g : A -> list B) l :
  (forall x, Permutation (f x) (g x)) -> Permutation (concat (map f l)) (concat (map g l)).
Proof.
  intros Hfg. induction l as [|z l IH]; cbn [map concat]; [constructor|]. apply Permutation_app; [apply Hfg|exact IH].
Qed.

Lemma Permutation_flat_map2 {A B} (f g : A -> list B) l1 l2 :
  Permutation l1 l2 -> (forall x, Permutation (f x) (g x)) ->
  Permutation (concat (map f l1)) (concat (map g l2)).
Proof.
  intros Hp Hfg. eapply Permutation_trans; [apply perm_flat_same, Hfg|].
  rewrite <- !flat_map_concat_map. apply Permutation_flat_map, Hp.
Qed.

Lemma sorted_weaken {A} (R S : A -> A -> Prop) l :
  (forall a b, R a b -> S a b) -> StronglySorted R l -> StronglySorted S l.
Proof.
  intros H. induction 1 as [|a l Hs IH Hf]; constructor; [exact IH|].
  rewrite Forall_forall in *. intros b Hb. apply H, Hf, Hb.
Qed.

Lemma sorted_map {A B} (g : A -> B) (R : B -> B -> Prop) l :
  StronglySorted (fun a b => R (g a) (g b)) l -> StronglySorted R (map g l).
Proof.
  induction 1 as [|a l Hs IH Hf]; cbn [map]; constructor; [exact IH|].
  rewrite Forall_forall in *. intros b Hb. apply in_map_iff in Hb. destruct Hb as [x [Hx Hin]]. subst. apply Hf, Hin.
Qed.

Lemma sorted_concat {A} (R : A -> A -> Prop) (ls : list (list A)) :
  Forall (StronglySorted R) ls ->
  StronglySorted (fun l1 l2 => forall a b, In a l1 -> In b l2 -> R a b) ls ->
  StronglySorted R (concat ls).
Proof.
  intros Hin Hout. induction Hout as [|l ls Hs IH Hf]; cbn [concat]; [constructor|].
  inversion Hin as [|? ? Hl Hls]; subst. specialize (IH Hls).
  induction Hl as [|a l Hsl IHl Hfl]; cbn [app]; [exact IH|].
  constructor.
  - apply IHl.
    + constructor; [|exact Hls]. exact Hsl.
    + rewrite Forall_forall in *. intros l2 Hl2 x y Hx Hy. apply (Hf l2 Hl2); [right; exact Hx|exact Hy].
  - rewrite Forall_forall in *. intros b Hb. apply in_app_or in Hb. destruct Hb as [Hb|Hb].
    + apply Hfl. exact Hb.
    + apply in_concat in Hb. destruct Hb as [l2 [Hl2 Hb]]. apply (Hf l2 Hl2); [left; reflexivity|exact Hb].
Qed.

Lemma fold_left_concat {A B} (f : A -> B -> A) (ls : list (list B)) : forall a,
  fold_left f (concat ls) a = fold_left (fun a l => fold_left f l a) ls a.
Proof.
  induction ls as [|l ls IH]; intros a; [reflexivity|]. cbn [concat fold_left]. rewrite fold_left_app. apply IH.
Qed.

(* ---------- the writer ------------------------------------------------------------------------ *)


Lemma segments_of_ok m key u tr :
  key_of m u = Some (key u) -> Forall valid_tok tr ->
  ctm_segments_of m (u, map (fun tk => (t_tok tk, Some (t_start tk, t_end tk))) tr)
  = Ok (map (mkseg (key u)) tr).
Proof.
  intros Hk Hv. unfold ctm_segments_of.
  assert (Hm : match m with
               | inl d => match assoc str_eqb u d with Some wc => Ok wc | None => Raise KeyError end
               | inr ch => Ok (u, ch)
               end = Ok (key u)).
  { unfold key_of in Hk. destruct m as [d|ch]; [rewrite Hk; reflexivity|inversion Hk; reflexivity]. }
  rewrite Hm. destruct (key u) as [wfn chan] eqn:Ek.
  apply map_res_map. intros tk Hin. cbn [fst snd].
  rewrite Forall_forall in Hv. specialize (Hv tk Hin). unfold valid_tok in Hv.
  destruct (t_start tk <? 0) eqn:E1; [apply Z.ltb_lt in E1; lia|].
  destruct (t_end tk <? 0) eqn:E2; [apply Z.ltb_lt in E2; lia|].
  destruct (t_end tk - t_start tk <? 0) eqn:E3; [apply Z.ltb_lt in E3; lia|]. reflexivity.
Qed.

Lemma write_ok m key ts :
  (forall u tr, In (u, tr) ts -> key_of m u = Some (key u) /\ Forall valid_tok tr) ->
  write_ctm_file (with_times ts) m
  = Ok (sort_by seg_leb (concat (map (fun ut => map (mkseg (key (fst ut))) (snd ut)) ts))).
Proof.
  intros H. unfold write_ctm_file, with_times.
  rewrite map_res_map with (g := fun ut => map (mkseg (key (fst ut))) (snd ut)); [reflexivity|].
  intros [u tr] Hin. destruct (H u tr Hin) as [Hk Hv]. exact (segments_of_ok m key u tr Hk Hv).
Qed.

(* ---------- the written file, explicitly --------------------------------------------------- *)

Definition group (key : str -> str * str) (ut : str * list timed) : list seg :=
  map (mkseg (key (fst ut))) (sort_by tok3_leb (snd ut)).

Definition written (key : str -> str * str) (ts : list (str * list timed)) : list seg :=
  concat (map (group key) (sort_by (key_leb key) ts)).

Lemma seg_cmp_same wc a b : seg_cmp (mkseg wc a) (mkseg wc b) = tok3_cmp a b.
Proof.
  unfold seg_cmp, tok3_cmp, mkseg, tok_key, pair_cmp, lexc; cbn [fst snd].
  fold (pair_cmp str_cmp str_cmp (fst wc, snd wc) (fst wc, snd wc)).
  replace (wc_cmp (fst wc, snd wc) (fst wc, snd wc)) with Eq; [reflexivity|].
  symmetry. apply (g_eq _ good_wc). reflexivity.
Qed.

Lemma seg_cmp_lt wc1 wc2 a b : wc_cmp wc1 wc2 = Lt -> seg_cmp (mkseg wc1 a) (mkseg wc2 b) = Lt.
Proof.
  intros H. unfold seg_cmp, mkseg, pair_cmp, lexc; cbn [fst snd].
  destruct wc1, wc2. cbn [fst snd]. unfold wc_cmp, pair_cmp, lexc in H; cbn [fst snd] in H.
  unfold wc_cmp, pair_cmp, lexc; cbn [fst snd]. rewrite H. reflexivity.
Qed.

Section Written.
  Variable key : str -> str * str.
  Variable ts : list (str * list timed).
  Hypothesis Hnodup : NoDup (map fst ts).
  Hypothesis Hinj : forall u u', In u (map fst ts) -> In u' (map fst ts) -> key u = key u' -> u = u'.

  Let S := sort_by (key_leb key) ts.

  Lemma S_perm : Permutation ts S.
  Proof. apply sort_by_perm. Qed.

  Lemma S_sorted : StronglySorted (fun a b => key_leb key a b = true) S.
  Proof. apply sort_by_is_sorted; intros *; [apply (le_total wc_cmp good_wc)|apply (le_trans wc_cmp good_wc)]. Qed.

  Lemma S_nodup : NoDup (map fst S).
  Proof. eapply Permutation_NoDup; [apply Permutation_map, S_perm|exact Hnodup]. Qed.

  Lemma S_strict : StronglySorted (fun a b => wc_cmp (key (fst a)) (key (fst b)) = Lt) S.
  Proof.
    pose proof S_sorted as Hs. pose proof S_nodup as Hn.
    assert (Hin : forall x, In x S -> In (fst x) (map fst ts)).
    { intros x Hx. apply in_map. apply (Permutation_in _ (Permutation_sym S_perm)). exact Hx. }
    induction Hs as [|a l Hs IH Hf]; [constructor|].
    cbn [map] in Hn. inversion Hn as [|? ? Hna Hnl]; subst.
    constructor.
    - apply IH; [exact Hnl|]. intros x Hx. apply Hin. right. exact Hx.
    - rewrite Forall_forall in *. intros b Hb. specialize (Hf b Hb).
      unfold key_leb, leb_of in Hf. destruct (wc_cmp (key (fst a)) (key (fst b))) eqn:E; [|reflexivity|discriminate].
      exfalso. apply (g_eq _ good_wc) in E. apply Hinj in E.
      + apply Hna. rewrite E. apply in_map. exact Hb.
      + apply Hin. left. reflexivity.
      + apply Hin. right. exact Hb.
  Qed.


  Lemma written_sorted : StronglySorted (fun a b => seg_leb a b = true) (written key ts).
  Proof.
    unfold written. fold S. apply sorted_concat.
    - rewrite Forall_forall. intros l Hl. apply in_map_iff in Hl. destruct Hl as [ut [Hl _]]. subst l.
      unfold group. apply sorted_map.
      eapply sorted_weaken; [|apply (sort_by_is_sorted tok3_leb (le_total tok3_cmp good_tok3) (le_trans tok3_cmp good_tok3))].
      intros a b Hab. cbn beta. unfold seg_leb, leb_of. rewrite seg_cmp_same. exact Hab.
    - apply sorted_map. eapply sorted_weaken; [|exact S_strict].
      intros a b Hab x y Hx Hy. cbn beta in *.
      unfold group in Hx, Hy. apply in_map_iff in Hx. destruct Hx as [x' [Hx _]]. apply in_map_iff in Hy. destruct Hy as [y' [Hy _]].
      subst x y. unfold seg_leb, leb_of. rewrite (seg_cmp_lt _ _ _ _ Hab). reflexivity.
  Qed.

  Lemma written_perm :
    Permutation (concat (map (fun ut => map (mkseg (key (fst ut))) (snd ut)) ts)) (written key ts).
  Proof.
    unfold written. apply Permutation_flat_map2; [exact S_perm|].
    intros [u tr]. unfold group. cbn [fst snd]. apply Permutation_map. apply sort_by_perm.
  Qed.

  Lemma sort_segments :
    sort_by seg_leb (concat (map (fun ut => map (mkseg (key (fst ut))) (snd ut)) ts)) = written key ts.
  Proof.
    apply sort_by_unique.
    - apply (le_total seg_cmp good_seg).
    - apply (le_trans seg_cmp good_seg).
    - apply (le_antisym seg_cmp good_seg).
    - exact written_perm.
    - exact written_sorted.
  Qed.
End Written.

(* ---------- the reader ------------------------------------------------------------------------- *)

Lemma od_append_skip {V} u (v : V) d t : ~ In u (map fst d) -> od_append u v (d ++ t) = d ++ od_append u v t.
Proof.
  induction d as [|[k vs] d IH]; intros H; [reflexivity|]. cbn [od_append app].
  rewrite str_eqb_neq by (intros E; apply H; left; symmetry; exact E).
  rewrite IH; [reflexivity|]. intros Hin. apply H. right. exact Hin.
Qed.

Lemma od_append_fresh {V} u (v : V) d : ~ In u (map fst d) -> od_append u v d = d ++ [(u, [v])].
Proof. intros H. rewrite <- (app_nil_r d) at 1. exact (od_append_skip u v d [] H). Qed.

Lemma od_append_last {V} u (v : V) vs d : ~ In u (map fst d) ->
  od_append u v (d ++ [(u, vs)]) = d ++ [(u, vs ++ [v])].
Proof. intros H. rewrite (od_append_skip u v d _ H). cbn [od_append]. rewrite str_eqb_refl. reflexivity. Qed.

Lemma read_step_ok wc2utt wc u tk d :
  utt_of wc2utt wc = Some u -> valid_tok tk ->
  read_ctm_step wc2utt (Ok d) (mkseg wc tk) = Ok (od_append u tk d).
Proof.
  intros Hu Hv. unfold read_ctm_step, mkseg.
  assert (Hm : match wc2utt with
               | None => Ok (fst wc)
               | Some m => match assoc wc_eqb (fst wc, snd wc) m with Some u0 => Ok u0 | None => Raise KeyError end
               end = Ok u).
  { unfold utt_of in Hu. destruct wc2utt as [inv|].
    - destruct wc. cbn [fst snd]. rewrite Hu. reflexivity.
    - inversion Hu. reflexivity. }
  rewrite Hm. unfold valid_tok in Hv.
  destruct (t_start tk <? 0) eqn:E1; [apply Z.ltb_lt in E1; lia|].
  destruct (t_start tk + (t_end tk - t_start tk) <? t_start tk) eqn:E2; [apply Z.ltb_lt in E2; lia|].
  cbn [orb]. replace (t_start tk + (t_end tk - t_start tk)) with (t_end tk) by lia.
  destruct tk as [[t s] e]. reflexivity.
Qed.

Lemma read_group_aux wc2utt wc u : utt_of wc2utt wc = Some u ->
  forall toks pre d, Forall valid_tok toks -> ~ In u (map fst d) ->
  fold_left (read_ctm_step wc2utt) (map (mkseg wc) toks) (Ok (d ++ [(u, pre)])) = Ok (d ++ [(u, pre ++ toks)]).
Proof.
  intros Hu. induction toks as [|tk toks IH]; intros pre d Hv Hfresh.
  - cbn. rewrite app_nil_r. reflexivity.
  - inversion Hv as [|? ? Hv1 Hvs]; subst. cbn [map fold_left].
    rewrite (read_step_ok _ _ _ _ _ Hu Hv1). rewrite (od_append_last u tk pre d Hfresh).
    rewrite IH by assumption. rewrite <- app_assoc. reflexivity.
Qed.

Lemma read_group wc2utt wc u : utt_of wc2utt wc = Some u ->
  forall toks d, toks <> [] -> Forall valid_tok toks -> ~ In u (map fst d) ->
  fold_left (read_ctm_step wc2utt) (map (mkseg wc) toks) (Ok d) = Ok (d ++ [(u, toks)]).
Proof.
  intros Hu toks d Hne Hv Hfresh. destruct toks as [|tk toks]; [congruence|].
  inversion Hv as [|? ? Hv1 Hvs]; subst. cbn [map fold_left].
  rewrite (read_step_ok _ _ _ _ _ Hu Hv1). rewrite (od_append_fresh u tk d Hfresh).
  apply (read_group_aux _ _ _ Hu toks [tk] d Hvs Hfresh).
Qed.

Lemma read_groups wc2utt key (S : list (str * list timed)) :
  (forall ut, In ut S -> utt_of wc2utt (key (fst ut)) = Some (fst ut) /\ snd ut <> [] /\ Forall valid_tok (snd ut)) ->
  forall d, NoDup (map fst d ++ map fst S) ->
  fold_left (read_ctm_step wc2utt) (concat (map (group key) S)) (Ok d)
  = Ok (d ++ map (fun ut => (fst ut, sort_by tok3_leb (snd ut))) S).
Proof.
  induction S as [|[u tr] S IH]; intros H d Hn.
  - cbn. rewrite app_nil_r. reflexivity.
  - cbn [map concat]. rewrite fold_left_app.
    destruct (H (u, tr) (or_introl eq_refl)) as (Hu & Hne & Hv). cbn [fst snd] in *.
    change (group key (u, tr)) with (map (mkseg (key u)) (sort_by tok3_leb tr)).
    rewrite (read_group wc2utt (key u) u Hu).
    + rewrite IH.
      * rewrite <- app_assoc. reflexivity.
      * intros ut Hut. apply H. right. exact Hut.
      * rewrite map_app. cbn [map fst]. rewrite <- app_assoc. exact Hn.
    + intros E. apply (f_equal (@length _)) in E.
      rewrite <- (Permutation_length (sort_by_perm tok3_leb tr)) in E. destruct tr; [congruence|discriminate].
    + rewrite Forall_forall in *. intros x Hx. apply Hv. apply (Permutation_in _ (Permutation_sym (sort_by_perm tok3_leb tr))). exact Hx.
    + apply NoDup_remove_2 in Hn. intros Hin. apply Hn. apply in_or_app. left. exact Hin.
Qed.

Lemma tok3_le_start a b : tok3_leb a b = true -> timed_start_leb a b = true.
Proof.
  unfold tok3_leb, leb_of, tok3_cmp, pair_cmp, lexc, tok_key, timed_start_leb, t_start; cbn [fst snd].
  destruct (snd (fst a) ?= snd (fst b)) eqn:E; intros H.
  - apply Z.compare_eq in E. rewrite E. apply Z.leb_refl.
  - rewrite Z.compare_lt_iff in E. apply Z.leb_le. lia.
  - discriminate.
Qed.

Lemma resort_noop tr : sort_by timed_start_leb (sort_by tok3_leb tr) = sort_by tok3_leb tr.
Proof.
  apply sort_by_sorted. eapply sorted_weaken; [|apply (sort_by_is_sorted tok3_leb)].
  - intros a b. apply tok3_le_start.
  - apply (le_total tok3_cmp good_tok3).
  - apply (le_trans tok3_cmp good_tok3).
Qed.

(* ---------- the theorem ----------------------------------------------------------------------- *)


Lemma ok_injective m wc2utt key ts : ctm_ok m wc2utt key ts ->
  forall u u', In u (map fst ts) -> In u' (map fst ts) -> key u = key u' -> u = u'.
Proof.
  intros H u u' Hu Hu' E.
  apply in_map_iff in Hu. destruct Hu as [[u1 tr1] [E1 H1]]. apply in_map_iff in Hu'. destruct Hu' as [[u2 tr2] [E2 H2]].
  cbn [fst] in *. subst u1 u2.
  pose proof (ok_inv _ _ _ _ H u tr1 H1) as A. pose proof (ok_inv _ _ _ _ H u' tr2 H2) as B.
  rewrite E in A. rewrite A in B. inversion B. reflexivity.
Qed.

Lemma ctm_roundtrip m wc2utt key ts : ctm_ok m wc2utt key ts ->
  exists segs, write_ctm_file (with_times ts) m = Ok segs
               /\ segs = written key ts
               /\ read_ctm_file segs wc2utt = Ok (expected key ts).
Proof.
  intros H. exists (written key ts). split; [|split; [reflexivity|]].
  - rewrite (write_ok m key ts).
    + f_equal. apply sort_segments; [exact (ok_nodup _ _ _ _ H)|exact (ok_injective _ _ _ _ H)].
    + intros u tr Hin. split; [exact (ok_key _ _ _ _ H u tr Hin)|exact (ok_times _ _ _ _ H u tr Hin)].
  - unfold read_ctm_file, written.
    assert (Hperm := sort_by_perm (key_leb key) ts).
    rewrite (read_groups wc2utt key (sort_by (key_leb key) ts)).
    + cbn [app]. unfold expected. rewrite map_map. f_equal. apply map_ext. intros [u tr]. cbn [fst snd].
      rewrite resort_noop. reflexivity.
    + intros [u tr] Hin. apply (Permutation_in _ (Permutation_sym Hperm)) in Hin. cbn [fst snd].
      split; [exact (ok_inv _ _ _ _ H u tr Hin)|split; [exact (ok_nonempty _ _ _ _ H u tr Hin)|exact (ok_times _ _ _ _ H u tr Hin)]].
    + cbn [map app]. eapply Permutation_NoDup; [apply Permutation_map, Hperm|exact (ok_nodup _ _ _ _ H)].
Qed.

(* consequences in the spec's own words *)
Lemma expected_perm key ts : Permutation (map fst ts) (map fst (expected key ts)).
Proof.
  unfold expected. rewrite map_map. cbn [fst].
  change (map (fun x : str * list timed => fst x) (sort_by (key_leb key) ts)) with (map fst (sort_by (key_leb key) ts)).
  apply Permutation_map. apply sort_by_perm.
Qed.

Lemma expected_tokens key ts u tr : In (u, tr) ts ->
  exists tr', In (u, tr') (expected key ts) /\ Permutation tr tr'
              /\ StronglySorted (fun a b => t_start a <= t_start b) tr'.
Proof.
  intros Hin. exists (sort_by tok3_leb tr). split; [|split].
  - unfold expected. apply in_map_iff. exists (u, tr). split; [reflexivity|].
    apply (Permutation_in _ (sort_by_perm (key_leb key) ts)). exact Hin.
  - apply sort_by_perm.
  - eapply sorted_weaken; [|apply (sort_by_is_sorted tok3_leb (le_total tok3_cmp good_tok3) (le_trans tok3_cmp good_tok3))].
    intros a b Hab. apply tok3_le_start in Hab. unfold timed_start_leb in Hab. apply Z.leb_le in Hab. exact Hab.
Qed.

Lemma expected_order key ts :
  StronglySorted (fun a b => leb_of wc_cmp (key (fst a)) (key (fst b)) = true) (expected key ts).
Proof.
  unfold expected. apply sorted_map. cbn [fst].
  apply (sort_by_is_sorted (key_leb key)).
  - intros a b. apply (le_total wc_cmp good_wc).
  - intros a b c. apply (le_trans wc_cmp good_wc).
Qed.

Lemma swap_pairs_works {K V} (veqb : V -> V -> bool) (Hv : forall a b, veqb a b = true <-> a = b) (d : list (K * V)) :
  NoDup (map snd d) -> forall k v, In (k, v) d -> assoc veqb v (swap_pairs d) = Some k.
Proof.
  induction d as [|[k0 v0] d IH]; intros Hn k v Hin; [destruct Hin|].
  cbn [swap_pairs map fst snd assoc]. cbn [map snd] in Hn. inversion Hn as [|? ? Hna Hnd]; subst.
  destruct Hin as [Hin|Hin].
  - inversion Hin. subst. rewrite (proj2 (Hv v v) eq_refl). reflexivity.
  - destruct (veqb v v0) eqn:E.
    + apply Hv in E. subst. exfalso. apply Hna. apply in_map_iff. exists (k, v0). split; [reflexivity|exact Hin].
    + apply IH; assumption.
Qed.

(* "with any waveform/channel mapping" *)
Lemma inverse_mapping_works (d : list (str * (str * str))) :
  NoDup (map snd d) ->
  forall u wc, In (u, wc) d -> assoc wc_eqb wc (map (fun p => (snd p, fst p)) d) = Some u.
Proof. exact (swap_pairs_works wc_eqb wc_eqb_eq d). Qed.
