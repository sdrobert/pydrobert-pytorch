(* C11 source tie - write_ctm (open-file branch): interpreting the regenerated source term PV.Gen.C11Src.src_write_ctm
   writes exactly the lines of Model.write_ctm_file, in the same order, and raises KeyError / ValueError exactly when the
   model does - for every list of transcripts, utt2wc a dict or a channel string.
   Inner loop = map_res of the model's per-token function, outer loop = map_res ctm_segments_of (invariants over
   MiniPy.Lemmas.for_loop), sorted(segments) = ext "$sorted" = Model.sort_by seg_leb ([sorted_tie]: Python's tuple / str
   ordering [SrcRun.val_cmp] on the encoded segments is Model.seg_cmp), the writing loop appends one line per segment. *)
From Coq Require Import ZArith QArith List String Ascii Bool Lia.
From PV Require C11.ProofsCtm.
From PV Require Import C11.Model MiniPy.Syntax MiniPy.Interp MiniPy.Lemmas Gen.C11Src C11.SrcRun C11.TieBase.
Import ListNotations.
Local Open Scope string_scope.

#[local] Arguments Qred : simpl never.
#[local] Arguments Qplus : simpl never.
#[local] Arguments Qminus : simpl never.
#[local] Arguments Qcompare : simpl never.
#[local] Arguments inject_Z : simpl never.
#[local] Arguments str_eqb : simpl never.

Ltac qz := change (0#1) with (inject_Z 0); rewrite ?Qred_inject_sub, ?Qcompare_inject, ?ltb_match.

(* ---- the ordering of encoded segments ------------------------------------------------------------------------------ *)
Definition enc_segt (x : seg) : val :=
  let '(w, c, s, d, t) := x in VTuple [enc_str w; enc_str c; qz s; qz d; enc_str t].

Lemma val_cmp_str a : forall b, val_cmp (enc_str a) (enc_str b) = Some (str_cmp a b).
Proof.
  unfold enc_str. induction a as [|x a IH]; intros [|y b]; try reflexivity.
  specialize (IH b). cbn in IH |- *.
  destruct (x ?= y)%Z; cbn [lexc]; try reflexivity. exact IH.
Qed.

Lemma val_cmp_qz a b : val_cmp (qz a) (qz b) = Some (a ?= b)%Z.
Proof. unfold qz. cbn [val_cmp]. rewrite Qcompare_inject. reflexivity. Qed.

Lemma val_cmp_seg a b : val_cmp (enc_segt a) (enc_segt b) = Some (seg_cmp a b).
Proof.
  destruct a as [[[[w c] s] d] t], b as [[[[w' c'] s'] d'] t'].
  unfold seg_cmp, wc_cmp, pair_cmp, enc_segt. cbn [fst snd].
  cbn [val_cmp]. rewrite (val_cmp_str w w').
  destruct (str_cmp w w'); cbn [lexc]; try reflexivity.
  rewrite (val_cmp_str c c'). destruct (str_cmp c c'); cbn [lexc]; try reflexivity.
  rewrite val_cmp_qz. destruct (s ?= s')%Z; cbn [lexc]; try reflexivity.
  rewrite val_cmp_qz. destruct (d ?= d')%Z; cbn [lexc]; try reflexivity.
  rewrite (val_cmp_str t t'). destruct (str_cmp t t'); reflexivity.
Qed.

Definition dup (x : seg) : val * val := (enc_segt x, enc_segt x).

Lemma insert_kv_tie x (l : list seg) : insert_kv (dup x) (map dup l) = Some (map dup (insert_by seg_leb x l)).
Proof.
  induction l as [|y t IH]; [reflexivity|].
  cbn [map insert_kv insert_by]. unfold dup at 1 2. cbn [fst]. rewrite val_cmp_seg.
  unfold seg_leb, leb_of. destruct (seg_cmp y x); try (rewrite IH; reflexivity). reflexivity.
Qed.

Lemma sort_kv_tie (l : list seg) : sort_kv (map dup l) = Some (map dup (sort_by seg_leb l)).
Proof.
  unfold sort_kv, sort_by.
  assert (H : forall acc, fold_left (fun a e => match a with Some a0 => insert_kv e a0 | None => None end)
                            (map dup l) (Some (map dup acc))
                          = Some (map dup (fold_left (fun a x => insert_by seg_leb x a) l acc))).
  { induction l as [|x l IH]; intros acc; [reflexivity|].
    cbn [map fold_left]. rewrite insert_kv_tie. apply IH. }
  exact (H []).
Qed.

Lemma combine_dup (l : list seg) : combine (map enc_segt l) (map enc_segt l) = map dup l.
Proof. induction l as [|x l IH]; [reflexivity|]. cbn [map combine]. rewrite IH. reflexivity. Qed.

(* MiniPy's own sort knows numbers only: on two or more tuples it has no answer *)
Lemma sort_keyed_tuples (l : list seg) : (2 <= List.length l)%nat -> sort_keyed_aux (map dup l) = None.
Proof.
  induction l as [|x [|y l] IH]; cbn [List.length]; intros H; try lia.
  cbn [map sort_keyed_aux] in IH |- *.
  destruct l as [|z l].
  - cbn. destruct y as [[[[w c] s] d] t], x as [[[[w' c'] s'] d'] t']. reflexivity.
  - rewrite IH by (cbn [List.length]; lia). reflexivity.
Qed.

(* ---- the statements of the block ------------------------------------------------------------------------------------ *)
Definition outer_body : stmt :=
  match src_write_ctm with SSeq _ (SSeq _ (SSeq (SFor _ _ b) _)) => b | _ => SPass end.
Definition inner_body : stmt :=
  match outer_body with SSeq _ (SSeq _ (SSeq _ (SFor _ _ b))) => b | _ => SPass end.
Definition tail_stmt : stmt :=
  match src_write_ctm with SSeq _ (SSeq _ (SSeq _ t)) => t | _ => SPass end.
Definition write_body : stmt :=
  match tail_stmt with SSeq _ (SFor _ _ b) => b | _ => SPass end.

Definition wbase (TS F M : val) (b : bool) (S : list seg) : list (string * val) :=
  [("transcripts", TS); ("ctm", F); ("utt2wc", M); ("str", str_type); ("is_dict", VBool b);
   ("segments", VList (map enc_segt S))].
(* the model's per-token function (the body of ctm_segments_of's map_res) *)
Definition tokf (w c : str) (tup : str * option (Z * Z)) : res seg :=
  match snd tup with
  | None => Raise ValueError
  | Some (s, e) =>
      if ((s <? 0) || (e <? 0))%Z then Raise ValueError
      else if (e - s <? 0)%Z then Raise ValueError
      else Model.Ok (w, c, s, (e - s)%Z, fst tup)
  end.

Lemma segs_snoc S x : VList (map enc_segt S ++ [enc_segt x]) = VList (map enc_segt (S ++ [x])).
Proof. rewrite map_app. reflexivity. Qed.

Lemma inner_step_tie TS F M b w c x S rest evs :
  lookup "wfn" rest = Some (enc_str w) -> lookup "chan" rest = Some (enc_str c) ->
  let st := set_var "tup" (enc_wtok x) (mkState (wbase TS F M b S ++ rest) evs) in
  match tokf w c x with
  | Model.Ok sg => exists rest',
      exec ext11 inner_body st = Ok CNormal (mkState (wbase TS F M b (S ++ [sg]) ++ rest') evs)
      /\ lookup "wfn" rest' = Some (enc_str w) /\ lookup "chan" rest' = Some (enc_str c)
  | Model.Raise e => exists st', exec ext11 inner_body st = Exc (exn_name e) st'
  end.
Proof.
  intros Hw Hc. cbv zeta. destruct x as [tok [[s e]|]]; unfold tokf, enc_wtok; cbn [fst snd].
  2:{ eexists. cbv beta iota delta [inner_body outer_body src_write_ctm wbase].
      erewrite exec_seq_exc by run. reflexivity. }
  cbv beta iota delta [inner_body outer_body src_write_ctm wbase].
  match goal with |- context [exec _ (SSeq (SIf ?g _ _) _) ?st] =>
    assert (Hg : eval ext11 g st = Ok (VBool ((s <? 0) || (e <? 0))%Z) st) end.
  { repeat (progress (cbn; lk; posnat)). qz. destruct (s <? 0)%Z; [reflexivity|].
    repeat (progress (cbn; lk; posnat)). qz. reflexivity. }
  destruct ((s <? 0) || (e <? 0))%Z.
  { eexists. erewrite exec_seq_exc by (rewrite exec_if, Hg; reflexivity). reflexivity. }
  erewrite exec_seq_ok by (rewrite exec_if, Hg; reflexivity). clear Hg.
  rewrite exec_seq_assoc. erewrite exec_seq_ok by run.
  do 2 (rewrite exec_seq_assoc; erewrite exec_seq_ok by run).
  erewrite exec_seq_ok by run.
  erewrite exec_seq_ok by run_with ltac:(rewrite ?Qred_inject_sub).
  match goal with |- context [exec _ (SSeq (SIf ?g _ _) _) ?st] =>
    assert (Hg : eval ext11 g st = Ok (VBool (e - s <? 0)%Z) st) end.
  { repeat (progress (cbn; lk)). qz. reflexivity. }
  destruct (e - s <? 0)%Z.
  { eexists. erewrite exec_seq_exc by (rewrite exec_if, Hg; reflexivity). reflexivity. }
  erewrite exec_seq_ok by (rewrite exec_if, Hg; reflexivity). clear Hg.
  eexists. split.
  { repeat (progress (cbn; lk; rewrite ?Hw, ?Hc)).
    change (VTuple [enc_str w; enc_str c; qz s; VQ (inject_Z (e - s)); enc_str tok])
      with (enc_segt (w, c, s, (e - s)%Z, tok)).
    rewrite segs_snoc. reflexivity. }
  split; lk; assumption.
Qed.

Lemma inner_loop_tie TS F M b w c evs : forall tr S rest,
  lookup "wfn" rest = Some (enc_str w) -> lookup "chan" rest = Some (enc_str c) ->
  ends (fun sgs => wbase TS F M b (S ++ sgs)) evs (map_res (tokf w c) tr)
    (for_loop ext11 "tup" inner_body (map enc_wtok tr) (mkState (wbase TS F M b S ++ rest) evs)).
Proof.
  induction tr as [|x tr IH]; intros S rest Hw Hc.
  - cbn [map_res map for_loop]. exists rest. rewrite app_nil_r. reflexivity.
  - cbn [map_res map for_loop].
    pose proof (inner_step_tie TS F M b w c x S rest evs Hw Hc) as Hstep. cbv zeta in Hstep.
    destruct (tokf w c x) as [sg|e].
    + destruct Hstep as (rest1 & Hx & Hw1 & Hc1). rewrite Hx. cbn [bind].
      specialize (IH (S ++ [sg])%list rest1 Hw1 Hc1).
      destruct (map_res (tokf w c) tr) as [sgs|e]; [|exact IH].
      destruct IH as [rest2 Hy]. exists rest2. rewrite Hy, <- app_assoc. reflexivity.
    + destruct Hstep as [st' Hx]. rewrite Hx. exists st'. reflexivity.
Qed.

(* ---- one utterance --------------------------------------------------------------------------------------------------- *)
Definition is_dict_of (m : utt2wc_t) : bool := match m with inl _ => true | inr _ => false end.

Lemma u2w_get u (d : list (str * (str * str))) :
  dict_get (map (fun kv => (enc_str (fst kv), VTuple [enc_str (fst (snd kv)); enc_str (snd (snd kv))])) d) (enc_str u)
  = option_map (fun wc : str * str => VTuple [enc_str (fst wc); enc_str (snd wc)]) (assoc str_eqb u d).
Proof.
  exact (al_get str_eqb enc_str (fun wc : str * str => VTuple [enc_str (fst wc); enc_str (snd wc)])
           (fun a b => val_eqb_enc_str a b) u d).
Qed.

Definition key_res (m : utt2wc_t) (utt : str) : res (str * str) :=
  match m with
  | inl d => match assoc str_eqb utt d with Some wc => Model.Ok wc | None => Raise KeyError end
  | inr ch => Model.Ok (utt, ch)
  end.

Lemma pre_tie TS F m utt tr S rest evs :
  let st := set_var "$t3" (enc_wutt (utt, tr)) (mkState (wbase TS F (enc_utt2wc m) (is_dict_of m) S ++ rest) evs) in
  match key_res m utt with
  | Model.Ok (w, c) => exists rest',
      exec ext11 outer_body st = exec ext11 (SFor "tup" (EName "transcript") inner_body)
                                   (mkState (wbase TS F (enc_utt2wc m) (is_dict_of m) S ++ rest') evs)
      /\ lookup "transcript" rest' = Some (VList (map enc_wtok tr))
      /\ lookup "wfn" rest' = Some (enc_str w) /\ lookup "chan" rest' = Some (enc_str c)
  | Model.Raise e => exists st', exec ext11 outer_body st = Exc (exn_name e) st'
  end.
Proof.
  cbv zeta. unfold key_res, enc_wutt. cbn [fst snd].
  cbv beta iota delta [outer_body src_write_ctm wbase].
  do 2 erewrite exec_seq_ok by run. rewrite exec_seq, exec_tryexc.
  destruct m as [d|ch]; unfold enc_utt2wc, is_dict_of.
  - destruct (assoc str_eqb utt d) as [[w c]|] eqn:Ea.
    + erewrite exec_seq_ok by run_with ltac:(rewrite ?u2w_get, ?Ea).
      erewrite exec_seq_ok by run. run_last idtac.
      eexists. split; [reflexivity|]. repeat split; lk; reflexivity.
    + erewrite exec_seq_exc by run_with ltac:(rewrite ?u2w_get, ?Ea). eexists. reflexivity.
  - erewrite exec_seq_ok by run. erewrite exec_seq_ok by run. run_last idtac.
    eexists. split; [reflexivity|]. repeat split; lk; reflexivity.
Qed.

Lemma segs_of_eq m utt tr :
  ctm_segments_of m (utt, tr) =
  match key_res m utt with Model.Raise e => Model.Raise e | Model.Ok (w, c) => map_res (tokf w c) tr end.
Proof. destruct m as [d|ch]; cbn; [destruct (assoc str_eqb utt d) as [[w c]|]|]; reflexivity. Qed.

Lemma outer_step_tie TS F m ut S rest evs :
  ends (fun sgs => wbase TS F (enc_utt2wc m) (is_dict_of m) (S ++ sgs)) evs (ctm_segments_of m ut)
    (exec ext11 outer_body
       (set_var "$t3" (enc_wutt ut) (mkState (wbase TS F (enc_utt2wc m) (is_dict_of m) S ++ rest) evs))).
Proof.
  destruct ut as [utt tr]. rewrite segs_of_eq.
  pose proof (pre_tie TS F m utt tr S rest evs) as Hpre. cbv zeta in Hpre.
  destruct (key_res m utt) as [[w c]|e].
  - destruct Hpre as (rest1 & Hx & Ht & Hw & Hc). rewrite Hx, exec_for.
    rewrite (eval_name ext11 "transcript" _ (VList (map enc_wtok tr))) by exact Ht.
    cbn [bind iter_items container_items].
    exact (inner_loop_tie TS F (enc_utt2wc m) (is_dict_of m) w c evs tr S rest1 Hw Hc).
  - destruct Hpre as [st' Hx]. rewrite Hx. exists st'. reflexivity.
Qed.

Lemma outer_loop_tie TS F m evs : forall ts S rest,
  ends (fun sgss => wbase TS F (enc_utt2wc m) (is_dict_of m) (S ++ List.concat sgss)) evs
    (map_res (ctm_segments_of m) ts)
    (for_loop ext11 "$t3" outer_body (map enc_wutt ts)
       (mkState (wbase TS F (enc_utt2wc m) (is_dict_of m) S ++ rest) evs)).
Proof.
  induction ts as [|ut ts IH]; intros S rest.
  - cbn [map_res map for_loop List.concat]. exists rest. rewrite app_nil_r. reflexivity.
  - cbn [map_res map for_loop].
    pose proof (outer_step_tie TS F m ut S rest evs) as Hstep.
    destruct (ctm_segments_of m ut) as [sgs|e].
    + destruct Hstep as [rest1 Hx]. rewrite Hx. cbn [bind].
      specialize (IH (S ++ sgs)%list rest1).
      destruct (map_res (ctm_segments_of m) ts) as [sgss|e]; [|exact IH].
      destruct IH as [rest2 Hy]. exists rest2. rewrite Hy. cbn [List.concat]. rewrite <- app_assoc. reflexivity.
    + destruct Hstep as [st' Hx]. rewrite Hx. exists st'. reflexivity.
Qed.

(* ---- segments = sorted(segments) --------------------------------------------------------------------------------------- *)
Definition keys_state (items : list val) (st : state) : state := fold_left (fun s i => set_var "$k" i s) items st.

Lemma keys_self items : forall st,
  sorted_keys ext11 "$k" (EName "$k") items st = Ok (map (fun i => (i, i)) items) (keys_state items st).
Proof.
  induction items as [|i r IH]; intros st; [reflexivity|].
  cbn [sorted_keys map keys_state fold_left]. cbn [eval set_var vars]. rewrite lookup_update_eq. cbn [bind].
  change (mkState (update "$k" i (vars st)) (events st)) with (set_var "$k" i st).
  rewrite IH. reflexivity.
Qed.

Lemma lookup_keys_state y items : forall st, String.eqb y "$k" = false ->
  lookup y (vars (keys_state items st)) = lookup y (vars st).
Proof.
  induction items as [|i r IH]; intros st Hy; [reflexivity|].
  cbn [keys_state fold_left]. fold (keys_state r (set_var "$k" i st)). rewrite IH by exact Hy.
  cbn [set_var vars]. apply lookup_update_neq. exact Hy.
Qed.

Lemma ext_sorted items st :
  ext11 "$sorted" [VList items; VList items] [] st =
  match sort_kv (combine items items) with
  | Some s => Ok (VList (map snd s)) st
  | None => Stuck "C11: sorted: keys without an order"
  end.
Proof. reflexivity. Qed.

Lemma sorted_tie (S : list seg) st : lookup "segments" (vars st) = Some (VList (map enc_segt S)) ->
  eval ext11 (ESorted (EName "segments") "$k" (EName "$k")) st
  = Ok (VList (map enc_segt (sort_by seg_leb S))) (keys_state (map enc_segt S) st).
Proof.
  intros H. rewrite eval_sorted, (eval_name ext11 "segments" st _ H). cbn [bind container_items].
  rewrite keys_self. cbn [bind]. rewrite map_map. change (fun x : seg => (enc_segt x, enc_segt x)) with dup.
  destruct S as [|x [|y S]]; [reflexivity|reflexivity|].
  unfold sort_keyed. rewrite sort_keyed_tuples by (cbn [List.length]; lia). cbn [option_map].
  rewrite !map_map. cbn [dup fst snd]. change (fun x : seg => enc_segt x) with enc_segt.
  rewrite ext_sorted, combine_dup, sort_kv_tie, map_map. reflexivity.
Qed.

(* ---- for segment in segments: ctm.write(...) --------------------------------------------------------------------------- *)
Lemma write_loop_tie : forall (l : list seg) st L, lookup "ctm" (vars st) = Some (VList L) ->
  exists st', for_loop ext11 "segment" write_body (map enc_segt l) st = Ok CNormal st' /\
              lookup "ctm" (vars st') = Some (VList (L ++ map enc_seg_line l)).
Proof.
  induction l as [|x l IH]; intros st L H.
  - exists st. rewrite app_nil_r. split; [reflexivity|exact H].
  - cbn [map for_loop].
    assert (Hx : exec ext11 write_body (set_var "segment" (enc_segt x) st)
                 = Ok CNormal (set_var "ctm" (VList (L ++ [enc_seg_line x]))
                                 (set_var "segment" (enc_segt x) st))).
    { destruct x as [[[[w c] s] d] t]. unfold write_body, tail_stmt, src_write_ctm, enc_segt.
      cbn. rewrite lookup_update_neq by reflexivity. rewrite H. cbn. rewrite lookup_update_eq. reflexivity. }
    rewrite Hx. cbn [bind].
    destruct (IH (set_var "ctm" (VList (L ++ [enc_seg_line x])) (set_var "segment" (enc_segt x) st))
                 (L ++ [enc_seg_line x])%list) as [st' [Hf Hl]].
    { cbn [set_var vars]. apply lookup_update_eq. }
    exists st'. split; [exact Hf|]. rewrite Hl. rewrite <- app_assoc. reflexivity.
Qed.

(* ---- the whole block --------------------------------------------------------------------------------------------------- *)
Theorem write_ctm_tie ts m :
  match write_ctm_file ts m with
  | Model.Ok segs => exists st, run_write_ctm (VList (map enc_wutt ts)) (enc_utt2wc m) = Ok VNone st /\
                                lookup "ctm" (vars st) = Some (VList (map enc_seg_line segs))
  | Model.Raise e => exists st, run_write_ctm (VList (map enc_wutt ts)) (enc_utt2wc m) = Exc (exn_name e) st
  end.
Proof.
  unfold run_write_ctm, Interp.run, write_ctm_file.
  set (TS := VList (map enc_wutt ts)).
  erewrite (eq_refl : src_write_ctm = SSeq _ (SSeq _ (SSeq (SFor _ _ outer_body) tail_stmt))).
  rewrite <- exec_seq_assoc.
  erewrite exec_seq_ok by (instantiate (1 := mkState (wbase TS (VList []) (enc_utt2wc m) (is_dict_of m) [] ++ []) []);
                           destruct m; reflexivity).
  rewrite exec_seq, exec_for. change (eval ext11 (EName "transcripts") ?s) with (Ok TS s).
  cbn [bind]. change (iter_items TS) with (Some (map enc_wutt ts)). cbn iota.
  pose proof (outer_loop_tie TS (VList []) m [] ts [] []) as Hl.
  destruct (map_res (ctm_segments_of m) ts) as [sgss|e].
  - destruct Hl as [orest Hf]. rewrite Hf. cbn [bind app].
    set (S := List.concat sgss).
    set (st0 := mkState (wbase TS (VList []) (enc_utt2wc m) (is_dict_of m) S ++ orest) []).
    erewrite (eq_refl : tail_stmt = SSeq _ (SFor _ _ write_body)). rewrite exec_seq, exec_assign1.
    rewrite (sorted_tie S st0) by reflexivity. cbn [bind].
    set (st1 := set_var "segments" (VList (map enc_segt (sort_by seg_leb S))) (keys_state (map enc_segt S) st0)).
    rewrite exec_for. rewrite (eval_name ext11 "segments" st1 (VList (map enc_segt (sort_by seg_leb S))))
      by (unfold st1; cbn [set_var vars]; apply lookup_update_eq).
    cbn [bind iter_items container_items].
    destruct (write_loop_tie (sort_by seg_leb S) st1 []) as [st' [Hw Hc]].
    { unfold st1. cbn [set_var vars]. rewrite lookup_update_neq by reflexivity.
      rewrite lookup_keys_state by reflexivity. reflexivity. }
    rewrite Hw. exists st'. split; [reflexivity|exact Hc].
  - destruct Hl as [st' Hf]. exists st'. rewrite Hf. reflexivity.
Qed.
