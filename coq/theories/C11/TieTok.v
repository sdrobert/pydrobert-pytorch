(* C11 source tie - transcript_to_token, whole function: the prelude (unk resolution, torch.empty), one iteration =
   the model's per-item row (TieTokTry.try_tie, TieTokStore.id_tie and the store_tie lemmas), the loop (invariant: the rows written so
   far, the rest of the tensor unwritten), the result.  Main result: [to_token_tie]. *)
From Coq Require Import ZArith QArith Qround List String Ascii Bool Lia.
From PV Require C11.Spec.
From PV Require Import C11.Model MiniPy.Syntax MiniPy.Interp MiniPy.Lemmas MiniTorch.OpsC11 Gen.C11Src C11.SrcRun C11.TieBase
  C11.TieTokTry C11.TieTokStore.
Import ListNotations.
Local Open Scope string_scope.

#[local] Arguments Z.of_nat : simpl never.
#[local] Arguments qtrunc : simpl never.
#[local] Arguments dec_lt : simpl never.
#[local] Arguments tempty : simpl never.
#[local] Arguments Qeq_bool : simpl never.
#[local] Arguments inject_Z : simpl never.

(* ---- the model, item by item ------------------------------------------------------------------------------------------------ *)
Definition unk_res (t2i : option (list (tk * Z))) (unk : option tk) : option tk :=
  match t2i, unk with
  | Some d, Some u => match assoc tk_eqb u d with Some i => Some (TInt i) | None => Some u end
  | _, _ => unk
  end.

Definition tok_row (t2i : option (list (tk * Z))) (fs : option Q) (unk' : option tk) (skip : bool) (it : Model.item)
  : res (Z * Z * Z) :=
  match id_of t2i unk' (C11.Spec.item_tok it) with
  | TInt i => Model.Ok (i, if skip then (-1)%Z else fst (times_of fs it), if skip then (-1)%Z else snd (times_of fs it))
  | TStr _ => Raise TypeError
  end.

Lemma model_is_map_res tr t2i fs unk skip :
  Model.transcript_to_token tr t2i fs unk skip = map_res (tok_row t2i fs (unk_res t2i unk) skip) tr.
Proof.
  unfold Model.transcript_to_token. fold (unk_res t2i unk).
  induction tr as [|it tr IH]; [reflexivity|]. cbn [map_res]. rewrite IH. f_equal.
  unfold tok_row, id_of, times_of. destruct it as [t|t s e]; cbn [C11.Spec.item_tok]; [reflexivity|].
  destruct (frames_of fs s e) as [sf ef]. reflexivity.
Qed.

(* ---- the statements ---------------------------------------------------------------------------------------------------------- *)
Definition pre_rest (k : Z) (itv : val) (rest : list (string * val)) : list (string * val) :=
  update "end" (VInt (-1)) (update "start" (VInt (-1)) (update "token" itv (update "i" (VInt k)
    (update "$t3" (VTuple [VInt k; itv]) rest)))).

Lemma pre_tie TR T2I FS UNK skip SZ TOK k itv rest evs :
  exec ext11 tk_body (set_var "$t3" (VTuple [VInt k; itv]) (mkState (kbase TR T2I FS UNK skip SZ TOK ++ rest) evs))
  = exec ext11 (SSeq tk_try (SSeq tk_id tk_store)) (mkState (kbase TR T2I FS UNK skip SZ TOK ++ pre_rest k itv rest) evs).
Proof.
  cbv beta iota delta [tk_store tk_id tk_try tk_body src_to_token kbase pre_rest].
  do 3 erewrite exec_seq_ok by run_with zofnat. reflexivity.
Qed.

(* ---- the tensor being filled --------------------------------------------------------------------------------------------------- *)
Definition row_cells (r : Z * Z * Z) : list cell := [Some (fst (fst r)); Some (snd (fst r)); Some (snd r)].
Definition blank : list cell := [None; None; None].
Definition tens (skip : bool) (done : list (Z * Z * Z)) (n : nat) : ltens :=
  if skip then T1 (map (fun r => Some (fst (fst r))) done ++ repeat None n)
  else T2 (map row_cells done ++ repeat blank n).

Lemma tk_step TR t2i fs unk' skip SZ it done n rest evs : fs_ok fs ->
  let P := fun TOK => kbase TR (enc_t2i t2i) (enc_fs fs) (enc_unk unk') skip SZ TOK in
  ends (fun r => P (enc_lt (tens skip (done ++ [r]) n))) evs (tok_row t2i fs unk' skip it)
    (exec ext11 tk_body (set_var "$t3" (VTuple [VInt (Z.of_nat (List.length done)); enc_item it])
                           (mkState (P (enc_lt (tens skip done (S n))) ++ rest) evs))).
Proof.
  intros Hfs P. subst P. cbv beta. rewrite pre_tie, exec_seq.
  set (idt := id_of t2i unk' (C11.Spec.item_tok it)).
  destruct (try_tie TR (enc_t2i t2i) fs (enc_unk unk') skip SZ (enc_lt (tens skip done (S n))) it
              (pre_rest (Z.of_nat (List.length done)) (enc_item it) rest) evs Hfs)
    as (rest1 & sv & ev & Hx & Ht1 & Hs1 & He1 & Hsf & Hef & Hi1); [unfold pre_rest; lk; reflexivity..|].
  rewrite Hx. cbn [bind].
  rewrite exec_seq, (id_tie TR t2i (enc_fs fs) unk' skip SZ (enc_lt (tens skip done (S n))) _ rest1 evs Ht1).
  cbn [bind]. fold idt. set (rest2 := update "id_" (enc_tk idt) rest1).
  assert (Hid : lookup "id_" rest2 = Some (enc_tk idt)) by apply lookup_update_eq.
  assert (Hi2 : lookup "i" rest2 = Some (VInt (Z.of_nat (List.length done))))
    by (unfold rest2; rewrite lookup_update_neq, Hi1 by reflexivity; unfold pre_rest; lk; reflexivity).
  assert (Hs2 : lookup "start" rest2 = Some sv) by (unfold rest2; lk; exact Hs1).
  assert (He2 : lookup "end" rest2 = Some ev) by (unfold rest2; lk; exact He1).
  unfold tok_row. fold idt. unfold tens. destruct skip; cbn [repeat].
  - (* (R,) tensor *)
    replace (List.length done) with (List.length (map (fun r : Z * Z * Z => Some (fst (fst r))) done)) in Hi2
      by apply map_length.
    pose proof (store_tie_skip TR (enc_t2i t2i) (enc_fs fs) (enc_unk unk') SZ _ None (repeat None n) rest2 evs
                  idt Hi2 Hid) as Hst. cbv zeta in Hst. clearbody idt.
    destruct idt as [z|s]; [|exact Hst].
    exists rest2. etransitivity; [exact Hst|]. rewrite map_app, <- app_assoc. reflexivity.
  - unfold blank at 1.
    replace (List.length done) with (List.length (map row_cells done)) in Hi2 by apply map_length.
    pose proof (store_tie_full TR (enc_t2i t2i) (enc_fs fs) (enc_unk unk') SZ _ None None None (repeat blank n) rest2 evs
                  idt sv ev _ _ Hi2 Hid Hs2 He2 Hsf Hef) as Hst. cbv zeta in Hst. clearbody idt.
    destruct idt as [z|s]; [|exact Hst].
    exists rest2. etransitivity; [exact Hst|]. rewrite map_app, <- app_assoc. reflexivity.
Qed.

(* ---- the loop ------------------------------------------------------------------------------------------------------------------- *)
Lemma tk_loop TR t2i fs unk' skip SZ : fs_ok fs -> forall items done rest evs,
  let P := fun TOK => kbase TR (enc_t2i t2i) (enc_fs fs) (enc_unk unk') skip SZ TOK in
  ends (fun rows => P (enc_lt (tens skip (done ++ rows) 0))) evs (map_res (tok_row t2i fs unk' skip) items)
    (for_loop ext11 "$t3" tk_body (enum_from (Z.of_nat (List.length done)) (map enc_item items))
       (mkState (P (enc_lt (tens skip done (List.length items))) ++ rest) evs)).
Proof.
  intros Hfs. induction items as [|it items IH]; intros done rest evs; cbv zeta.
  - cbn [map_res map enum_from for_loop List.length]. exists rest. rewrite app_nil_r. reflexivity.
  - cbn [map_res map enum_from for_loop List.length].
    pose proof (tk_step TR t2i fs unk' skip SZ it done (List.length items) rest evs Hfs) as Hstep. cbv zeta in Hstep.
    destruct (tok_row t2i fs unk' skip it) as [r|e].
    + destruct Hstep as [rest1 Hx]. rewrite Hx. cbn [bind].
      specialize (IH (done ++ [r])%list rest1 evs). cbv zeta in IH.
      replace (Z.of_nat (List.length (done ++ [r]))) with (Z.of_nat (List.length done) + 1)%Z in IH
        by (rewrite app_length; cbn [List.length]; lia).
      destruct (map_res (tok_row t2i fs unk' skip) items) as [rows|e].
      * destruct IH as [rest2 Hy]. exists rest2. rewrite Hy. rewrite <- app_assoc. reflexivity.
      * exact IH.
    + destruct Hstep as [st' Hx]. rewrite Hx. exists st'. reflexivity.
Qed.

(* ---- the prelude ---------------------------------------------------------------------------------------------------------------- *)
Lemma mem_keys u (d : list (tk * Z)) :
  mem (enc_tk u) (map fst (map (fun kv => (enc_tk (fst kv), VInt (snd kv))) d))
  = match assoc tk_eqb u d with Some _ => true | None => false end.
Proof.
  induction d as [|[k v] d IH]; [reflexivity|].
  cbn [map fst snd mem assoc]. rewrite val_eqb_enc_tk. destruct (tk_eqb u k); [reflexivity|exact IH].
Qed.

Lemma mem_none (d : list (tk * Z)) :
  mem VNone (map fst (map (fun kv => (enc_tk (fst kv), VInt (snd kv))) d)) = false.
Proof.
  induction d as [|[k v] d IH]; [reflexivity|].
  cbn [map fst snd mem]. rewrite IH. destruct k as [z|[|c s]]; reflexivity.
Qed.

Lemma tempty1 m : tempty [Z.of_nat m] = Some (T1 (repeat None m)).
Proof.
  unfold tempty. destruct (Z.leb_spec 0 (Z.of_nat m)); [|lia]. rewrite Nat2Z.id. reflexivity.
Qed.

Lemma tempty2 m : tempty [Z.of_nat m; 3%Z] = Some (T2 (repeat blank m)).
Proof.
  unfold tempty. destruct (Z.leb_spec 0 (Z.of_nat m)); [|lia]. rewrite Nat2Z.id. reflexivity.
Qed.

Definition tk_tail : stmt :=
  match src_to_token with SSeq _ (SSeq _ (SSeq _ (SSeq _ t))) => t | _ => SPass end.

Definition size_of (skip : bool) (n : nat) : val :=
  VTuple (VInt (Z.of_nat n) :: if skip then [] else [VInt 3]).

Lemma prelude_tie (tr : list Model.item) t2i fs unk skip :
  let TR := VList (map enc_item tr) in
  exec ext11 src_to_token
    (mkState [("transcript", TR); ("token2id", enc_t2i t2i); ("frame_shift_ms", enc_fs fs); ("unk", enc_unk unk);
              ("skip_frame_times", VBool skip); ("torch", torch_obj)] [])
  = exec ext11 tk_tail
      (mkState (kbase TR (enc_t2i t2i) (enc_fs fs) (enc_unk (unk_res t2i unk)) skip
                  (size_of skip (List.length tr)) (enc_lt (tens skip [] (List.length tr))) ++ []) []).
Proof.
  cbv zeta. cbv beta iota delta [tk_tail src_to_token kbase size_of tens].
  (* unk = token2id[unk], if it is there *)
  erewrite exec_seq_ok.
  2:{ instantiate (1 := mkState [_; (_, enc_t2i t2i); _; (_, enc_unk (unk_res t2i unk)); _; _] []).
      unfold unk_res. destruct t2i as [d|]; unfold enc_t2i; (destruct unk as [u|]; unfold enc_unk).
      1: destruct (assoc tk_eqb u d) as [i|] eqn:Ea.
      all: run_with ltac:(rewrite ?mem_keys, ?mem_none, ?t2i_get, ?Ea). }
  erewrite exec_seq_ok by run_with ltac:(rewrite ?map_length).
  destruct skip.
  - erewrite exec_seq_ok by run. erewrite exec_seq_ok by run_with ltac:(rewrite ?tempty1). reflexivity.
  - erewrite exec_seq_ok by run. erewrite exec_seq_ok by run_with ltac:(rewrite ?tempty2). reflexivity.
Qed.

(* ---- the whole function --------------------------------------------------------------------------------------------------------- *)
(* the tensor returned: shape (R, 3), or (R,) with skip_frame_times *)
Definition enc_rows (skip : bool) (rows : list (Z * Z * Z)) : val := enc_lt (tens skip rows 0).

Theorem to_token_tie tr t2i fs unk skip : fs_ok fs ->
  match Model.transcript_to_token tr t2i fs unk skip with
  | Model.Ok rows => exists st, run_to_token (VList (map enc_item tr)) (enc_t2i t2i) (enc_fs fs) (enc_unk unk) skip
                                = Ok (enc_rows skip rows) st
  | Model.Raise e => exists st, run_to_token (VList (map enc_item tr)) (enc_t2i t2i) (enc_fs fs) (enc_unk unk) skip
                                = Exc (exn_name e) st
  end.
Proof.
  intros Hfs. unfold run_to_token, Interp.run. rewrite model_is_map_res.
  pose proof (prelude_tie tr t2i fs unk skip) as Hp. cbv zeta in Hp. rewrite Hp. clear Hp.
  set (TR := VList (map enc_item tr)).
  erewrite (eq_refl : tk_tail = SSeq (SFor _ _ tk_body) _).
  rewrite exec_seq, exec_for.
  change (eval ext11 (ECall "enumerate" [EName "transcript"] []) ?s)
    with (Ok (VList (enum_from 0 (map enc_item tr))) s).
  cbn [bind iter_items container_items].
  pose proof (tk_loop TR t2i fs (unk_res t2i unk) skip (size_of skip (List.length tr)) Hfs tr [] [] []) as Hl.
  cbv zeta in Hl. change (Z.of_nat (List.length (@nil (Z * Z * Z)))) with 0%Z in Hl.
  destruct (map_res (tok_row t2i fs (unk_res t2i unk) skip) tr) as [rows|e].
  - destruct Hl as [rest' Hf]. eexists. rewrite Hf. cbn [bind app]. unfold kbase. cbn. reflexivity.
  - destruct Hl as [st' Hf]. exists st'. rewrite Hf. reflexivity.
Qed.
