(* C11 - lemmas: seconds <-> frames, token ids, transcript <-> token tensor round trip. *)
From Coq Require Import List ZArith Bool Lia QArith Qround Qabs Lqa.
From PV Require Import C11.Model C11.Spec C11.ProofsCtm.
Import ListNotations.
Local Open Scope Z_scope.


Lemma floordiv_bounds a d : (0 < d)%Q ->
  (inject_Z (floordiv a d) * d <= a)%Q /\ (a < (inject_Z (floordiv a d) + 1) * d)%Q.
Proof.
  intros Hd. unfold floordiv. set (y := (a / d)%Q).
  assert (Hy : (y * d == a)%Q) by (unfold y; field; lra).
  pose proof (Qfloor_le y) as H1. pose proof (Qlt_floor y) as H2.
  rewrite inject_Z_plus in H2. change (inject_Z 1) with 1%Q in H2.
  split; nra.
Qed.

Lemma floordiv_nonneg a d : (0 < d)%Q -> (0 <= a)%Q -> 0 <= floordiv a d.
Proof.
  intros Hd Ha. unfold floordiv. set (y := (a / d)%Q).
  assert (Hy : (y * d == a)%Q) by (unfold y; field; lra).
  assert (H0 : (0 <= y)%Q) by nra.
  pose proof (Qfloor_resp_le 0 y H0) as H. exact H.
Qed.

Lemma frames_within d s e : (0 < d)%Q -> (s <= e)%Q ->
  within_shift d s (back d (fst (frames_of (Some d) s e)))
  /\ within_shift d e (back d (snd (frames_of (Some d) s e)))
  /\ fst (frames_of (Some d) s e) <= snd (frames_of (Some d) s e)
  /\ ((s < e)%Q -> fst (frames_of (Some d) s e) < snd (frames_of (Some d) s e))
  /\ ((0 <= s)%Q -> 0 <= fst (frames_of (Some d) s e)).
Proof.
  intros Hd Hse. unfold frames_of, within_shift, back, Qdiv. change (/ 1000)%Q with (1 # 1000)%Q.
  destruct (floordiv_bounds (1000 * s) d Hd) as [S1 S2].
  set (sf := floordiv (1000 * s) d) in *.
  destruct (Qeq_bool s e) eqn:Eq; cbn [fst snd].
  - apply Qeq_bool_iff in Eq. repeat split.
    + apply Qabs_Qlt_condition. split; lra.
    + apply Qabs_Qlt_condition. split; lra.
    + lia.
    + intros H. lra.
    + intros H. apply floordiv_nonneg; lra.
  - assert (Hlt : (s < e)%Q).
    { destruct (Qlt_le_dec s e) as [H|H]; [exact H|]. exfalso.
      assert (E : (s == e)%Q) by lra. apply Qeq_bool_iff in E. congruence. }
    destruct (floordiv_bounds (1000 * e + (1 # 2) * d) d Hd) as [E1 E2].
    set (g := floordiv (1000 * e + (1 # 2) * d) d) in *.
    repeat split.
    + apply Qabs_Qlt_condition. split; lra.
    + destruct (Z.max_spec g (sf + 1)) as [[Hc Hm]|[Hc Hm]]; rewrite Hm.
      * (* the rounded end was not beyond the start frame: one frame is forced *)
        assert (Hq : (inject_Z g <= inject_Z sf)%Q) by (rewrite <- Zle_Qle; lia).
        rewrite inject_Z_plus. change (inject_Z 1) with 1%Q.
        apply Qabs_Qlt_condition. split; nra.
      * apply Qabs_Qlt_condition. split; lra.
    + lia.
    + intros _. lia.
    + intros H. apply floordiv_nonneg; lra.
Qed.

(* ---------- token ids ------------------------------------------------------------------------- *)

Lemma tk_eqb_eq a b : tk_eqb a b = true <-> a = b.
Proof.
  destruct a as [x|x], b as [y|y]; cbn [tk_eqb]; try (split; intros H; discriminate).
  - rewrite Z.eqb_eq. split; [intros ->; reflexivity|intros H; inversion H; reflexivity].
  - rewrite str_eqb_eq. split; [intros ->; reflexivity|intros H; inversion H; reflexivity].
Qed.


Lemma assoc_in {K V} (eqb : K -> K -> bool) (He : forall a b, eqb a b = true -> a = b) k (l : list (K * V)) v :
  assoc eqb k l = Some v -> In (k, v) l.
Proof.
  induction l as [|[k0 v0] l IH]; cbn [assoc]; [discriminate|].
  destruct (eqb k k0) eqn:E; [intros H; inversion H; apply He in E; subst; left; reflexivity|intros H; right; apply IH; exact H].
Qed.

(* id2token = the inverse of an injective token2id *)
Lemma assoc_inverse (t2i : list (tk * Z)) t i :
  NoDup (map snd t2i) -> assoc tk_eqb t t2i = Some i -> assoc Z.eqb i (swap_pairs t2i) = Some t.
Proof.
  intros Hn H. apply (swap_pairs_works Z.eqb Z.eqb_eq t2i Hn). exact (assoc_in tk_eqb (fun a b => proj1 (tk_eqb_eq a b)) _ _ _ H).
Qed.

(* ---------- transcript -> tensor -> transcript ------------------------------------------------ *)




Lemma one_item_back d (t : tk) (s e : Q) :
  (0 < d)%Q -> (0 <= s)%Q -> (s <= e)%Q ->
  let fr := frames_of (Some d) s e in
  ((fst fr =? -1) || (snd fr =? -1)) = false
  /\ within_shift d s (inject_Z (fst fr) * d / 1000) /\ within_shift d e (inject_Z (snd fr) * d / 1000).
Proof.
  intros Hd Hs Hse fr. destruct (frames_within d s e Hd Hse) as (W1 & W2 & L1 & _ & N).
  fold fr in W1, W2, L1, N. specialize (N Hs). split; [|split; assumption].
  apply orb_false_iff. split; apply Z.eqb_neq; lia.
Qed.

(* with or without a vocabulary: [t] has the id [i] *)
Definition has_id (t2i : option (list (tk * Z))) (t : tk) (i : Z) : Prop :=
  match t2i with Some l => assoc tk_eqb t l = Some i | None => t = TInt i end.
Definition ids_distinct (t2i : option (list (tk * Z))) : Prop :=
  match t2i with Some l => NoDup (map snd l) | None => True end.

Theorem tokens_roundtrip_any t2i d unk tr :
  (0 < d)%Q -> ids_distinct t2i ->
  Forall (fun a => (exists i, has_id t2i (item_tok a) i) /\ item_times_ok a) tr ->
  exists rows, transcript_to_token tr t2i (Some d) unk false = Ok rows
               /\ Forall2 (item_close d) tr (token_to_transcript rows (option_map swap_pairs t2i) (Some d)).
Proof.
  intros Hd Hn H. unfold transcript_to_token.
  induction H as [|a tr [[i Hi] Ht] _ IH].
  - exists []. split; [reflexivity|constructor].
  - destruct IH as [rows [Hr Hf]]. cbn [map_res].
    (* the id stored is i, and i is mapped back to the token *)
    assert (Hid : forall u',
              match t2i with
              | None => item_tok a
              | Some l => match assoc tk_eqb (item_tok a) l with
                          | Some j => TInt j
                          | None => match u' with None => item_tok a | Some u => u end
                          end
              end = TInt i
              /\ match option_map swap_pairs t2i with
                 | None => TInt i
                 | Some l => match assoc Z.eqb i l with Some t => t | None => TInt i end
                 end = item_tok a).
    { intros u'. destruct t2i as [l|]; cbn [has_id ids_distinct option_map] in *.
      - rewrite Hi, (assoc_inverse l _ i Hn Hi). split; reflexivity.
      - rewrite Hi. split; reflexivity. }
    destruct a as [t|t s e]; cbn [item_tok item_times_ok] in *.
    + rewrite (proj1 (Hid _)), Hr. exists ((i, -1, -1) :: rows). split; [reflexivity|].
      cbn [token_to_transcript map]. rewrite (proj2 (Hid None)). cbn. constructor; [reflexivity|exact Hf].
    + destruct Ht as [Hs Hse].
      destruct (one_item_back d t s e Hd Hs Hse) as (Hm & W1 & W2).
      destruct (frames_of (Some d) s e) as [sf ef] eqn:Ef. cbn [fst snd] in *.
      rewrite (proj1 (Hid _)), Hr. exists ((i, sf, ef) :: rows). split; [reflexivity|].
      cbn [token_to_transcript map]. rewrite (proj2 (Hid None)), Hm.
      constructor; [|exact Hf]. cbn. repeat split; assumption.
Qed.

Lemma tokens_roundtrip_vocab t2i d unk tr :
  (0 < d)%Q -> NoDup (map snd t2i) ->
  Forall (fun a => (exists i, assoc tk_eqb (item_tok a) t2i = Some i) /\ item_times_ok a) tr ->
  exists rows, transcript_to_token tr (Some t2i) (Some d) unk false = Ok rows
               /\ Forall2 (item_close d) tr (token_to_transcript rows (Some (swap_pairs t2i)) (Some d)).
Proof. exact (tokens_roundtrip_any (Some t2i) d unk tr). Qed.

(* without a vocabulary: integer tokens are their own ids *)
Lemma tokens_roundtrip_plain d unk tr :
  (0 < d)%Q ->
  Forall (fun a => (exists i, item_tok a = TInt i) /\ item_times_ok a) tr ->
  exists rows, transcript_to_token tr None (Some d) unk false = Ok rows
               /\ Forall2 (item_close d) tr (token_to_transcript rows None (Some d)).
Proof. intros Hd. exact (tokens_roundtrip_any None d unk tr Hd I). Qed.
