(* C11, second source tie - facts shared by the TieB* files: text values, the fuel-indexed ext, variables. *)
From Coq Require Import ZArith QArith List String Ascii Bool Lia.
From PV Require Import C11.Model C11.ModelB MiniPy.Syntax MiniPy.Interp MiniPy.Lemmas C11.SrcRun C11.TieBase C11.SrcRunB.
Import ListNotations.
Local Open Scope string_scope.

(* ---- text ------------------------------------------------------------------------------------------------ *)
Lemma dec_str_enc s : dec_str (VList (map enc_chr s)) = Some s.
Proof.
  unfold dec_str. induction s as [|c s IH]; [reflexivity|].
  cbn [map SrcRun.all_some dec_chr enc_chr]. cbn. cbn in IH. rewrite IH. reflexivity.
Qed.

Lemma as_text_enc s : as_text (VList (map enc_chr s)) = Some s.
Proof. exact (dec_str_enc s). Qed.

Lemma as_text_enc' s : as_text (enc_str s) = Some s.
Proof. exact (dec_str_enc s). Qed.

Lemma as_text_lit s : as_text (VStr s) = Some (codes s).
Proof. reflexivity. Qed.

Lemma enc_str_app a b : VList (map enc_chr a ++ map enc_chr b) = VList (map enc_chr (a ++ b)).
Proof. rewrite map_app. reflexivity. Qed.

(* a text variable that starts as the literal "" and becomes a char list with the first `+=` *)
Definition tv (a : option str) : val := match a with None => VStr "" | Some s => VList (map enc_chr s) end.
Definition tx (a : option str) : str := match a with None => [] | Some s => s end.

Lemma as_text_tv a : as_text (tv a) = Some (tx a).
Proof. destruct a; [apply as_text_enc|reflexivity]. Qed.

Lemma texts_tv l : texts (map tv l) = Some (map tx l).
Proof.
  induction l as [|a l IH]; [reflexivity|].
  cbn [map texts]. rewrite as_text_tv, IH. reflexivity.
Qed.

Lemma texts_enc l : texts (map (fun s => VList (map enc_chr s)) l) = Some l.
Proof.
  induction l as [|a l IH]; [reflexivity|].
  cbn [map texts]. rewrite as_text_enc, IH. reflexivity.
Qed.

(* ---- extB on the names that are not functions of the unit ---------------------------------------------------- *)
Definition own_name (f : string) : bool :=
  (String.eqb f "_handle_x" || String.eqb f "write_trn" || String.eqb f "write_textgrid")%bool.

Lemma extB_other n f args kw st : own_name f = false -> extB n f args kw st = extB0 f args kw st.
Proof.
  unfold own_name. intros H. destruct n; [reflexivity|]. cbn [extB]. unfold is.
  destruct (String.eqb f "_handle_x"); [discriminate|].
  destruct (String.eqb f "write_trn"); [discriminate|].
  destruct (String.eqb f "write_textgrid"); [discriminate|]. reflexivity.
Qed.

Lemma is_file_mk p c : is_file (mk_file p c) = Some (p, c).
Proof. unfold is_file, mk_file. cbn [String.eqb Ascii.eqb Bool.eqb]. unfold enc_str. rewrite dec_str_enc. reflexivity. Qed.

Lemma is_file_mk'' p c : is_file (VTuple [VStr "$file"; p; enc_str c]) = Some (p, c).
Proof. exact (is_file_mk p c). Qed.

Lemma texts_cons v r :
  texts (v :: r) = match as_text v, texts r with Some t, Some ts => Some (t :: ts) | _, _ => None end.
Proof. reflexivity. Qed.

Lemma texts_nil : texts [] = Some [].
Proof. reflexivity. Qed.

(* as for [ext11] in TieBase *)
Arguments extB n f args kw !st.
Arguments extB0 f args kw !st.
