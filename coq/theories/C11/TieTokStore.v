(* C11 source tie - transcript_to_token: the token id ([id_tie]: token2id / unk resolution = the model's) and the stores into
   the long tensor ([store_tie_skip], [store_tie_full]: tok[i] = id_ / tok[i, 0..2] = id_, start, end through MiniTorch.OpsC11.set1 / set2; a str id
   raises TypeError).  Same technique as TieTokTry: concrete prefix of persistent variables, arbitrary tail. *)
From Coq Require Import ZArith QArith Qround List String Ascii Bool Lia.
From PV Require C11.Spec.
From PV Require Import C11.Model MiniPy.Syntax MiniPy.Interp MiniPy.Lemmas MiniTorch.OpsC11 Gen.C11Src C11.SrcRun C11.TieBase
  C11.TieTokTry.
Import ListNotations.
Local Open Scope string_scope.

#[local] Arguments Z.of_nat : simpl never.
#[local] Arguments qtrunc : simpl never.
#[local] Arguments dec_lt : simpl never.
#[local] Arguments set1 : simpl never.
#[local] Arguments set2 : simpl never.

Definition tk_id : stmt :=
  match tk_body with SSeq _ (SSeq _ (SSeq _ (SSeq _ (SSeq i _)))) => i | _ => SPass end.
Definition tk_store : stmt :=
  match tk_body with SSeq _ (SSeq _ (SSeq _ (SSeq _ (SSeq _ s)))) => s | _ => SPass end.

(* ---- token ids ----------------------------------------------------------------------------------------------------------- *)
Lemma val_eqb_enc_tk a b : val_eqb (enc_tk a) (enc_tk b) = tk_eqb a b.
Proof.
  destruct a as [x|x], b as [y|y]; cbn [enc_tk tk_eqb]; try reflexivity.
  all: try (unfold enc_str; destruct x; reflexivity).
  apply val_eqb_enc_str.
Qed.

Lemma t2i_get t (l : list (tk * Z)) :
  dict_get (map (fun kv => (enc_tk (fst kv), VInt (snd kv))) l) (enc_tk t) = option_map VInt (assoc tk_eqb t l).
Proof. exact (al_get tk_eqb enc_tk VInt val_eqb_enc_tk t l). Qed.

(* the model's id of a token, [unk'] being the resolved out-of-vocabulary id *)
Definition id_of (t2i : option (list (tk * Z))) (unk' : option tk) (t : tk) : tk :=
  match t2i with
  | None => t
  | Some d => match assoc tk_eqb t d with
              | Some i => TInt i
              | None => match unk' with None => t | Some u => u end
              end
  end.

Lemma id_tie TR t2i FS unk' skip SZ TOK t rest evs :
  lookup "token" rest = Some (enc_tk t) ->
  exec ext11 tk_id (mkState (kbase TR (enc_t2i t2i) FS (enc_unk unk') skip SZ TOK ++ rest) evs)
  = Ok CNormal (mkState (kbase TR (enc_t2i t2i) FS (enc_unk unk') skip SZ TOK
                         ++ update "id_" (enc_tk (id_of t2i unk' t)) rest) evs).
Proof.
  intros Ht. unfold tk_id, tk_body, src_to_token, kbase, id_of.
  destruct t2i as [d|]; unfold enc_t2i; [|run_with ltac:(rewrite ?Ht)].
  destruct unk' as [u|]; unfold enc_unk; [destruct u as [x|x]; cbn [enc_tk]; unfold enc_str|].
  all: norm_with ltac:(rewrite ?Ht, ?t2i_get); destruct (assoc tk_eqb t d); reflexivity.
Qed.

(* ---- the tensor ------------------------------------------------------------------------------------------------------------ *)
Lemma all_some_cells l : all_some (map dec_cell (map enc_cell l)) = Some l.
Proof.
  induction l as [|c l IH]; [reflexivity|]. cbn [map all_some].
  destruct c as [z|]; cbn [enc_cell dec_cell]; rewrite IH; reflexivity.
Qed.

Lemma dec_enc_T1 l : dec_lt (enc_lt (T1 l)) = Some (T1 l).
Proof. unfold dec_lt, enc_lt. rewrite all_some_cells. reflexivity. Qed.

Lemma all_some_rows rows :
  all_some (map dec_row (map (fun r => VTuple (map enc_cell r)) rows)) = Some rows.
Proof.
  induction rows as [|r rows IH]; [reflexivity|]. cbn [map all_some dec_row].
  rewrite all_some_cells, IH. reflexivity.
Qed.

Lemma dec_enc_T2 r rows : dec_lt (enc_lt (T2 (r :: rows))) = Some (T2 (r :: rows)).
Proof.
  unfold dec_lt, enc_lt. cbn [map all_some dec_cell dec_row].
  rewrite all_some_cells, all_some_rows. reflexivity.
Qed.

Lemma pos_of_mid {A} (done : list A) c todo :
  pos_of (Z.of_nat (List.length done)) (List.length (done ++ c :: todo)) = Some (List.length done).
Proof.
  unfold pos_of. rewrite app_length. cbn [List.length].
  destruct (Z.ltb_spec (Z.of_nat (List.length done)) 0); [lia|].
  destruct (Z.leb_spec 0 (Z.of_nat (List.length done))); [|lia].
  destruct (Z.ltb_spec (Z.of_nat (List.length done)) (Z.of_nat (List.length done + S (List.length todo)))); [|lia].
  cbn [andb]. rewrite Nat2Z.id. reflexivity.
Qed.

Lemma set_nth_mid {A} (done : list A) c todo x : set_nth (done ++ c :: todo) (List.length done) x = (done ++ x :: todo)%list.
Proof. induction done as [|d done IH]; [reflexivity|]. cbn [app List.length set_nth]. rewrite IH. reflexivity. Qed.

Lemma nth_mid {A} (done : list A) c todo dflt : nth (List.length done) (done ++ c :: todo) dflt = c.
Proof. induction done as [|d done IH]; [reflexivity|]. exact IH. Qed.

Lemma set1_mid done c todo v :
  set1 (T1 (done ++ c :: todo)) (Z.of_nat (List.length done)) v = Some (T1 (done ++ Some v :: todo)).
Proof. unfold set1. rewrite pos_of_mid, set_nth_mid. reflexivity. Qed.

Lemma set2_mid done row todo j v :
  set2 (T2 (done ++ row :: todo)) (Z.of_nat (List.length done)) j v
  = match pos_of j (List.length row) with
    | Some q => Some (T2 (done ++ set_nth row q (Some v) :: todo))
    | None => None
    end.
Proof.
  unfold set2. rewrite pos_of_mid, nth_mid. destruct (pos_of j (List.length row)); [rewrite set_nth_mid|]; reflexivity.
Qed.

(* a tensor with at least one row decodes to itself *)
Lemma dec_enc_T2_mid done r todo : dec_lt (enc_lt (T2 (done ++ r :: todo))) = Some (T2 (done ++ r :: todo)).
Proof. destruct done as [|d done]; apply dec_enc_T2. Qed.

Lemma dec_T1' l : dec_lt (VTuple (map enc_cell l)) = Some (T1 l).
Proof. exact (dec_enc_T1 l). Qed.
Lemma dec_T2' done r todo :
  dec_lt (VTuple (map (fun r0 : list cell => VTuple (map enc_cell r0)) (done ++ r :: todo)))
  = Some (T2 (done ++ r :: todo)).
Proof. exact (dec_enc_T2_mid done r todo). Qed.

(* ---- the stores ------------------------------------------------------------------------------------------------------------- *)
Lemma app_cons_mid {A} (done : list A) x todo : (done ++ x :: todo = (done ++ [x]) ++ todo)%list.
Proof. rewrite <- app_assoc. reflexivity. Qed.

Lemma store_tie_skip TR T2I FS UNK SZ done c todo rest evs idt :
  lookup "i" rest = Some (VInt (Z.of_nat (List.length done))) -> lookup "id_" rest = Some (enc_tk idt) ->
  let st := mkState (kbase TR T2I FS UNK true SZ (enc_lt (T1 (done ++ c :: todo))) ++ rest) evs in
  match idt with
  | TInt z => exec ext11 tk_store st
              = Ok CNormal (mkState (kbase TR T2I FS UNK true SZ (enc_lt (T1 (done ++ Some z :: todo))) ++ rest) evs)
  | TStr _ => exists st', exec ext11 tk_store st = Exc "TypeError" st'
  end.
Proof.
  intros Hi Hid. cbv zeta. unfold tk_store, tk_body, src_to_token, kbase.
  destruct idt as [z|s]; cbn [enc_tk] in Hid.
  - norm_with ltac:(rewrite ?Hi, ?Hid, ?dec_T1', ?set1_mid). reflexivity.
  - unfold enc_str in Hid. norm_with ltac:(rewrite ?Hi, ?Hid, ?dec_T1'). eexists. reflexivity.
Qed.

Lemma store_tie_full TR T2I FS UNK SZ done c0 c1 c2 todo rest evs idt sv ev sf ef :
  lookup "i" rest = Some (VInt (Z.of_nat (List.length done))) -> lookup "id_" rest = Some (enc_tk idt) ->
  lookup "start" rest = Some sv -> lookup "end" rest = Some ev -> to_long sv = Some sf -> to_long ev = Some ef ->
  let st := mkState (kbase TR T2I FS UNK false SZ (enc_lt (T2 (done ++ [c0; c1; c2] :: todo))) ++ rest) evs in
  match idt with
  | TInt z => exec ext11 tk_store st
              = Ok CNormal (mkState (kbase TR T2I FS UNK false SZ
                                       (enc_lt (T2 (done ++ [Some z; Some sf; Some ef] :: todo))) ++ rest) evs)
  | TStr _ => exists st', exec ext11 tk_store st = Exc "TypeError" st'
  end.
Proof.
  intros Hi Hid Hs He Hsf Hef. cbv zeta. unfold tk_store, tk_body, src_to_token, kbase.
  destruct idt as [z|s]; cbn [enc_tk] in Hid.
  - norm_with ltac:(rewrite ?Hi, ?Hid, ?Hs, ?He, ?Hsf, ?Hef, ?dec_T2', ?set2_mid; cbv [pos_of]).
    reflexivity.
  - unfold enc_str in Hid.
    norm_with ltac:(rewrite ?Hi, ?Hid, ?Hs, ?He, ?Hsf, ?Hef, ?dec_T2'). eexists. reflexivity.
Qed.
