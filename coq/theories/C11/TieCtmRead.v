(* C11 source tie - read_ctm (open-file branch), whole block: the loop over the lines is the model's fold of
   read_ctm_step (TieCtmStep.step_tie per line, invariant over MiniPy.Lemmas.forc_loop), the final comprehension with
   its sort by start time is the model's map / sort_by.  Main result: [read_ctm_tie]. *)
From Coq Require Import ZArith QArith List String Ascii Bool Lia.
From PV Require C11.Spec.
From PV Require Import C11.Model MiniPy.Syntax MiniPy.Interp MiniPy.Lemmas Gen.C11Src C11.SrcRun C11.TieBase C11.TieCtmStep.
Import ListNotations.
Local Open Scope string_scope.

#[local] Arguments Qred : simpl never.
#[local] Arguments Qplus : simpl never.
#[local] Arguments Qcompare : simpl never.
#[local] Arguments inject_Z : simpl never.
#[local] Arguments str_eqb : simpl never.
#[local] Arguments enc_od : simpl never.

(* ---- the loop ------------------------------------------------------------------------------------------------ *)
Lemma fold_raise m e ls : fold_left (read_ctm_step m) ls (Model.Raise e) = Model.Raise e.
Proof. induction ls as [|l ls IH]; [reflexivity|exact IH]. Qed.

Lemma loop_tie m C evs : forall ls i d rest,
  ends (base C (enc_wc2utt m)) evs (fold_left (read_ctm_step m) ls (Model.Ok d))
    (forc_loop ext11 "$t2" loop_body (enum_from i (map enc_seg_line ls))
       (mkState (base C (enc_wc2utt m) d ++ rest) evs)).
Proof.
  induction ls as [|l ls IH]; intros i d rest.
  - exists rest. reflexivity.
  - cbn [fold_left map enum_from forc_loop].
    pose proof (step_tie m C i l d rest evs) as Hstep.
    destruct (read_ctm_step m (Model.Ok d) l) as [d1|e]; destruct Hstep as [x Hx]; rewrite Hx.
    + apply IH.
    + rewrite fold_raise. exists x. destruct e; reflexivity.
Qed.

(* ---- sorted(transcript, key=lambda x: x[1]) ------------------------------------------------------------------- *)
Local Notation t_start := C11.Spec.t_start.
Definition kf (x : timed) : val * val := (qz (t_start x), enc_timed x).

Lemma t_start_eq (x : timed) : t_start x = snd (fst x).
Proof. reflexivity. Qed.

Lemma keys_tie (vs : list timed) : forall st,
  exists st', sorted_keys ext11 "x" (ESub (EName "x") (EConst (VInt 1))) (map enc_timed vs) st = Ok (map kf vs) st'.
Proof.
  induction vs as [|[[t s] e] vs IH]; intros st.
  - exists st. reflexivity.
  - cbn [map sorted_keys]. cbv [eval].
    unfold set_var at 1. cbn [vars]. rewrite lookup_update_eq. cbn [bind].
    change (subscript (enc_timed (t, s, e)) (VInt 1) (set_var "x" (enc_timed (t, s, e)) st))
      with (Ok (qz s) (set_var "x" (enc_timed (t, s, e)) st)).
    cbn [bind].
    destruct (IH (set_var "x" (enc_timed (t, s, e)) st)) as [st' Hk].
    exists st'. rewrite Hk. reflexivity.
Qed.

Lemma cmp_lt_qz a b : cmp_eval Lt (qz a) (qz b) = Some (a <? b)%Z.
Proof. unfold qz. cbn. rewrite Qcompare_inject. reflexivity. Qed.

Lemma insert_tie e (l : list timed) :
  insert_keyed (kf e) (map kf l) = Some (map kf (ins_r t_start e l)).
Proof.
  induction l as [|y t IH]; [reflexivity|].
  cbn [map insert_keyed ins_r]. unfold kf at 1 2. cbn [fst]. rewrite cmp_lt_qz.
  destruct (t_start y <? t_start e)%Z; [|reflexivity].
  rewrite IH. reflexivity.
Qed.

Lemma sort_start_tie (vs : list timed) :
  sort_keyed (map kf vs) = Some (map enc_timed (sort_by timed_start_leb vs)).
Proof.
  unfold sort_keyed.
  assert (H : sort_keyed_aux (map kf vs) = Some (map kf (sort_r t_start vs))).
  { induction vs as [|e vs IH]; [reflexivity|].
    cbn [map sort_keyed_aux]. rewrite IH. cbn [sort_r fold_right]. apply insert_tie. }
  rewrite H. cbn [option_map]. rewrite map_map. cbn [kf snd].
  rewrite (sort_r_sort_by t_start vs). reflexivity.
Qed.

(* ---- the final comprehension ------------------------------------------------------------------------------------- *)
Definition comp_elt : expr :=
  ETupleLit [EName "utt_id"; ESorted (EName "transcript") "x" (ESub (EName "x") (EConst (VInt 1)))].

Definition item_of (ut : str * list timed) : val := VTuple [enc_str (fst ut); enc_tl (snd ut)].

Lemma comp_tie (d : list (str * list timed)) : forall st,
  exists st', comp_loop ext11 comp_elt "$t3" ["utt_id"; "transcript"] (EConst (VBool true)) (map item_of d) st
              = Ok (map enc_utt (map (fun ut => (fst ut, sort_by timed_start_leb (snd ut))) d)) st'.
Proof.
  induction d as [|[u vs] d IH]; intros st.
  - exists st. reflexivity.
  - cbn [map comp_loop]. unfold item_of at 1. cbn [fst snd].
    unfold bind_item, enc_str at 1. cbn [foreign List.length Nat.eqb set_vars bind].
    change (eval ext11 (EConst (VBool true)) ?s) with (Ok (VBool true) s).
    cbn [bind truthy]. unfold comp_elt. rewrite eval_tuple2.
    rewrite (eval_name ext11 "utt_id" _ (enc_str u))
      by (cbn [set_var vars]; rewrite lookup_update_neq by reflexivity; apply lookup_update_eq).
    cbn [bind]. rewrite eval_sorted.
    rewrite (eval_name ext11 "transcript" _ (enc_tl vs)) by (cbn [set_var vars]; apply lookup_update_eq).
    cbn [bind]. unfold enc_tl at 1. cbn [container_items].
    match goal with |- context [sorted_keys ext11 "x" _ _ ?s] => destruct (keys_tie vs s) as [st1 Hk] end.
    rewrite Hk. cbn [bind]. rewrite sort_start_tie. cbn [bind].
    destruct (IH st1) as [st2 Hc]. unfold comp_elt in Hc. rewrite Hc. cbn [bind]. exists st2. reflexivity.
Qed.

Lemma items_enc (d : list (str * list timed)) :
  map (fun kv : val * val => VTuple [fst kv; snd kv]) (enc_od d) = map item_of d.
Proof. unfold enc_od, enc_al. rewrite map_map. reflexivity. Qed.

(* ---- the whole block -------------------------------------------------------------------------------------------- *)
Theorem read_ctm_tie ls m :
  match read_ctm_file ls m with
  | Model.Ok out => exists st, run_read_ctm (map enc_seg_line ls) (enc_wc2utt m) = Ok (VList (map enc_utt out)) st
  | Model.Raise e => exists st, run_read_ctm (map enc_seg_line ls) (enc_wc2utt m) = Exc (exn_name e) st
  end.
Proof.
  unfold run_read_ctm, Interp.run, read_ctm_file.
  set (lines := map enc_seg_line ls). set (W := enc_wc2utt m).
  erewrite (eq_refl : src_read_ctm = SSeq _ (SSeq (SForC _ _ loop_body) ret_stmt)).
  erewrite exec_seq_ok by (instantiate (1 := mkState (base (VList lines) W [] ++ []) []); reflexivity).
  rewrite exec_seq, exec_forc.
  change (eval ext11 (ECall "enumerate" ?a ?k) ?s) with (Ok (VList (enum_from 0 lines)) s).
  cbn [bind iter_items container_items].
  pose proof (loop_tie m (VList lines) [] ls 0%Z [] []) as Hl. fold lines W in Hl.
  destruct (fold_left (read_ctm_step m) ls (Model.Ok [])) as [d'|e].
  - destruct Hl as [rest' Hf]. rewrite Hf. cbn [bind].
    unfold ret_stmt, src_read_ctm. cbn [exec]. rewrite eval_listcomp.
    match goal with |- context [eval ext11 (ECall "list" ?a ?k) ?s] =>
      change (eval ext11 (ECall "list" a k) s)
        with (Ok (VList (map (fun kv : val * val => VTuple [fst kv; snd kv]) (enc_od d'))) s) end.
    cbn [bind foreign container_items]. rewrite items_enc.
    match goal with |- context [comp_loop ext11 ?e ?x ?ns ?c ?l ?s] => destruct (comp_tie d' s) as [st1 Hc] end.
    unfold comp_elt in Hc. rewrite Hc. cbn [bind]. eexists. reflexivity.
  - destruct Hl as [st' Hf]. rewrite Hf. cbn [bind]. eexists. reflexivity.
Qed.
