(* C11 source tie - read_ctm (open-file branch): interpreting the regenerated source term PV.Gen.C11Src.src_read_ctm on
   the field-level encoding of a ctm file (C11.SrcRun) returns exactly the encoding of Model.read_ctm_file, and raises
   ValueError / KeyError exactly when the model does - for every file, with and without wc2utt.
   One iteration of the loop = Model.read_ctm_step ([step_tie]); the loop = fold_left of it ([loop_tie], invariant over
   MiniPy.Lemmas.forc_loop); the final comprehension with its stable sort by start time = the model's map / sort_by
   ([comp_tie], [sort_start_tie]). *)
From Coq Require Import ZArith QArith List String Ascii Bool Lia.
From PV Require C11.ProofsCtm.
From PV Require Import C11.Model MiniPy.Syntax MiniPy.Interp MiniPy.Lemmas Gen.C11Src C11.SrcRun C11.TieBase.
Import ListNotations.
Local Open Scope string_scope.

#[local] Arguments Qred : simpl never.
#[local] Arguments Qplus : simpl never.
#[local] Arguments Qcompare : simpl never.
#[local] Arguments inject_Z : simpl never.
#[local] Arguments str_eqb : simpl never.
#[local] Arguments wc_eqb : simpl never.

Definition loop_body : stmt :=
  match src_read_ctm with SSeq _ (SSeq (SForC _ _ b) _) => b | _ => SPass end.
Definition ret_stmt : stmt :=
  match src_read_ctm with SSeq _ (SSeq _ r) => r | _ => SPass end.

(* ---- the OrderedDict of transcripts ------------------------------------------------------------------------ *)
Definition enc_tl (vs : list timed) : val := VList (map enc_timed vs).
Definition enc_od (d : list (str * list timed)) : list (val * val) := enc_al enc_str enc_tl d.
#[local] Arguments enc_od : simpl never.

Lemma od_get u d : dict_get (enc_od d) (enc_str u) = option_map enc_tl (assoc str_eqb u d).
Proof. apply al_get. intros a b. apply val_eqb_enc_str. Qed.

Lemma od_set u vs d : dict_set (enc_od d) (enc_str u) (enc_tl vs) = enc_od (al_set str_eqb u vs d).
Proof. apply (al_set_enc str_eqb enc_str enc_tl). intros a b. apply val_eqb_enc_str. Qed.

Lemma od_append_set u (x : timed) (d : list (str * list timed)) :
  od_append u x d = al_set str_eqb u (match assoc str_eqb u d with Some vs => vs ++ [x] | None => [x] end)%list d.
Proof.
  induction d as [|[k vs] t IH]; [reflexivity|].
  cbn [od_append al_set assoc]. destruct (str_eqb u k); [reflexivity|]. rewrite IH. reflexivity.
Qed.

Lemma al_set_set u (a b : list timed) d : al_set str_eqb u a (al_set str_eqb u b d) = al_set str_eqb u a d.
Proof.
  induction d as [|[k vs] t IH]; cbn [al_set].
  - rewrite C11.ProofsCtm.str_eqb_refl. reflexivity.
  - destruct (str_eqb u k) eqn:E; cbn [al_set]; rewrite E; [reflexivity|rewrite IH; reflexivity].
Qed.

Lemma assoc_al_set u (a : list timed) d : assoc str_eqb u (al_set str_eqb u a d) = Some a.
Proof.
  induction d as [|[k vs] t IH]; cbn [al_set assoc].
  - rewrite C11.ProofsCtm.str_eqb_refl. reflexivity.
  - destruct (str_eqb u k) eqn:E; cbn [assoc]; rewrite E; [reflexivity|exact IH].
Qed.

Lemma enc_tl_snoc vs x : VList (map enc_timed vs ++ [enc_timed x]) = enc_tl (vs ++ [x]).
Proof. unfold enc_tl. rewrite map_app. reflexivity. Qed.

(* wc2utt[(wfn, chan)] *)
Lemma wc_get w c (l : list ((str * str) * str)) :
  dict_get (map (fun kv => (VTuple [enc_str (fst (fst kv)); enc_str (snd (fst kv))], enc_str (snd kv))) l)
           (VTuple [enc_str w; enc_str c])
  = option_map enc_str (assoc wc_eqb (w, c) l).
Proof.
  exact (al_get wc_eqb (fun wc : str * str => VTuple [enc_str (fst wc); enc_str (snd wc)]) enc_str
           (fun a b => val_eqb_wc (fst a) (snd a) (fst b) (snd b)) (w, c) l).
Qed.

(* The frame is the three persistent variables followed by an arbitrary tail, where the loop's temporaries live once
   they are assigned: the body reads none of them before it has set it. *)
Definition base (C W : val) (d : list (str * list timed)) : list (string * val) :=
  [("ctm", C); ("wc2utt", W); ("transcripts", VDict (enc_od d))].

Definition try_handlers : list (list string * stmt) :=
  match loop_body with SSeq _ (SSeq _ (SSeq _ (SSeq _ (SSeq _ (STryExc _ h))))) => h | _ => [] end.
(* from `start = float(start)` on: what follows the choice of the utterance id *)
Definition try_tail : stmt :=
  match loop_body with
  | SSeq _ (SSeq _ (SSeq _ (SSeq _ (SSeq _ (STryExc (SSeq _ (SSeq _ (SSeq _ t))) _))))) => t
  | _ => SPass
  end.

Lemma tail_tie C W d rest evs u s dd t :
  lookup "utt_id" rest = Some (enc_str u) -> lookup "start" rest = Some (enc_num s) ->
  lookup "dur" rest = Some (enc_num dd) -> lookup "token" rest = Some (enc_str t) ->
  ends (base C W) evs
    (if (s <? 0)%Z || (s + dd <? s)%Z then Raise ValueError else Model.Ok (od_append u (t, s, (s + dd)%Z) d))
    match exec ext11 try_tail (mkState (base C W d ++ rest) evs) with
    | Exc n st1 => pick_handler ext11 n st1 try_handlers
    | o => o
    end.
Proof.
  intros Hu Hs Hd Ht. cbv beta iota zeta delta [try_tail try_handlers loop_body src_read_ctm base].
  erewrite exec_seq_ok by run_with ltac:(rewrite ?Hs).
  erewrite exec_seq_ok by run_with ltac:(rewrite ?Hd, ?Qred_inject_add).
  match goal with |- context [exec _ (SSeq (SIf ?e _ _) _) ?st] =>
    assert (Hc : eval ext11 e st = Ok (VBool ((s <? 0)%Z || (s + dd <? s)%Z)) st) end.
  { repeat (cbn; lk). change (0#1) with (inject_Z 0). rewrite !Qcompare_inject, ltb_match, gtb_match.
    destruct (s <? 0)%Z; reflexivity. }
  destruct ((s <? 0)%Z || (s + dd <? s)%Z).
  { erewrite exec_seq_exc by (rewrite exec_if, Hc; reflexivity). eexists. reflexivity. }
  erewrite exec_seq_ok by (rewrite exec_if, Hc; reflexivity). clear Hc.
  (* setdefault, append: whether the utterance is new or not *)
  rewrite od_append_set. destruct (@assoc str (list timed) str_eqb u d) as [vs|] eqn:Ea.
  - erewrite exec_seq_ok by run_with ltac:(rewrite ?Hu, ?od_get, ?Ea).
    repeat (progress (cbn; lk; rewrite ?Hu, ?Ht, ?od_get, ?Ea)).
    change (VTuple [enc_str t; VQ (inject_Z s); VQ (inject_Z (s + dd))]) with (enc_timed (t, s, (s + dd)%Z)).
    rewrite enc_tl_snoc, od_set. eexists. reflexivity.
  - erewrite exec_seq_ok by run_with ltac:(rewrite ?Hu, ?od_get, ?Ea).
    change (VList []) with (enc_tl []). rewrite od_set.
    repeat (progress (cbn; lk; rewrite ?Hu, ?Ht, ?od_get, ?assoc_al_set)).
    change (VTuple [enc_str t; VQ (inject_Z s); VQ (inject_Z (s + dd))]) with (enc_timed (t, s, (s + dd)%Z)).
    change (VList [enc_timed ?x]) with (enc_tl [x]). rewrite od_set, al_set_set. eexists. reflexivity.
Qed.

Lemma step_tie m C i l d rest evs :
  ends (base C (enc_wc2utt m)) evs (read_ctm_step m (Model.Ok d) l)
    (exec ext11 loop_body
       (set_var "$t2" (VTuple [VInt i; enc_seg_line l]) (mkState (base C (enc_wc2utt m) d ++ rest) evs))).
Proof.
  destruct l as [[[[w c] s] dd] t]. set (W := enc_wc2utt m).
  cbv beta iota delta [loop_body src_read_ctm base enc_seg_line mk_line].
  do 5 erewrite exec_seq_ok by run.
  rewrite exec_tryexc.
  erewrite exec_seq_ok by run.
  rewrite exec_seq_assoc. erewrite exec_seq_ok by run.
  do 4 (rewrite exec_seq_assoc; erewrite exec_seq_ok by run).
  erewrite exec_seq_ok by run.
  (* utt_id: the recording's name, or wc2utt[(wfn, chan)] *)
  subst W. unfold read_ctm_step. destruct m as [m|]; cbn [enc_wc2utt].
  - destruct (assoc wc_eqb (w, c) m) as [u|] eqn:Ew.
    + erewrite exec_seq_ok by run_with ltac:(rewrite ?wc_get, ?Ew).
      apply tail_tie; lk; reflexivity.
    + erewrite exec_seq_exc by run_with ltac:(rewrite ?wc_get, ?Ew). eexists. reflexivity.
  - erewrite exec_seq_ok by run. apply tail_tie; lk; reflexivity.
Qed.
