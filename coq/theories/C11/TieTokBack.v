(* C11 source tie - token_to_transcript: interpreting the regenerated source term PV.Gen.C11Src.src_to_transcript on a long
   tensor of shape (R, 3), (R, 1) or (R,) (MiniTorch.OpsC11 as MiniPy values: the tuple of its rows) returns, item by item,
   the encoding of Model.token_to_transcript's transcript - every tensor, id2token None or a dict, every frame shift
   (None, or a rational that is not 0: the model's convention for a "falsy" frame_shift_ms).  Times: the source computes
   Qred (Qred (s * d) / 1000), the model s * d / 1000: equal as rationals ([num_rel]). *)
From Coq Require Import ZArith QArith List String Ascii Bool Lia.
From PV Require Import C11.Model MiniPy.Syntax MiniPy.Interp MiniPy.Lemmas MiniTorch.OpsC11 Gen.C11Src C11.SrcRun C11.TieBase.
Import ListNotations.
Local Open Scope string_scope.

#[local] Arguments Qred : simpl never.
#[local] Arguments Qmult : simpl never.
#[local] Arguments Qdiv : simpl never.
#[local] Arguments Qeq_bool : simpl never.
#[local] Arguments inject_Z : simpl never.

Definition tt_body : stmt :=
  match src_to_transcript with SSeq _ (SSeq (SFor _ _ b) _) => b | _ => SPass end.

(* the frame: the four persistent variables, then an arbitrary tail where the loop's temporaries live *)
Definition tbase (R I F : val) (vs : list val) : list (string * val) :=
  [("ref", R); ("id2token", I); ("frame_shift_ms", F); ("transcript", VList vs)].

(* the model's per-row function *)
Definition tok_of (i2t : option (list (Z * tk))) (i : Z) : tk :=
  match i2t with
  | None => TInt i
  | Some d => match assoc Z.eqb i d with Some t => t | None => TInt i end
  end.
Definition timed_of (fs : option Q) (t : tk) (s e : Z) : Model.item :=
  if ((s =? -1) || (e =? -1))%Z then Plain t
  else match fs with
       | Some d => Timed t (inject_Z s * d / 1000) (inject_Z e * d / 1000)
       | None => Timed t (inject_Z s) (inject_Z e)
       end.
Definition tt_item (i2t : option (list (Z * tk))) (fs : option Q) (row : Z * Z * Z) : Model.item :=
  let '(i, s, e) := row in timed_of fs (tok_of i2t i) s e.

Lemma model_is_map ref i2t fs : Model.token_to_transcript ref i2t fs = map (tt_item i2t fs) ref.
Proof. unfold Model.token_to_transcript. apply map_ext. intros [[i s] e]. reflexivity. Qed.

(* a value that stands for the rational q *)
Definition num_rel (q : Q) (v : val) : Prop := exists p, num_q v = Some p /\ p == q.
Definition item_rel (it : Model.item) (v : val) : Prop :=
  match it with
  | Plain t => v = enc_tk t
  | Timed t s e => exists vs ve, v = VTuple [enc_tk t; vs; ve] /\ num_rel s vs /\ num_rel e ve
  end.

(* a row of the tensor: [cols] = 3 for (R, 3), 1 for (R, 1), 0 for (R,) *)
Definition enc_row (cols : nat) (r : Z * Z * Z) : val :=
  match cols with
  | O => VInt (fst (fst r))
  | S O => VTuple [VInt (fst (fst r))]
  | _ => VTuple [VInt (fst (fst r)); VInt (snd (fst r)); VInt (snd r)]
  end.
Definition norm_row (cols : nat) (r : Z * Z * Z) : Z * Z * Z :=
  match cols with O | S O => (fst (fst r), -1, -1)%Z | _ => r end.

Lemma enc_ref_rows cols rows : enc_ref cols rows = VTuple (map (enc_row cols) rows).
Proof. destruct cols as [|[|c]]; reflexivity. Qed.

Lemma i2t_get i (l : list (Z * tk)) :
  dict_get (map (fun kv => (VInt (fst kv), enc_tk (snd kv))) l) (VInt i) = option_map enc_tk (assoc Z.eqb i l).
Proof. exact (al_get Z.eqb VInt enc_tk (fun a b => eq_refl) i l). Qed.

Definition fs_ok (fs : option Q) : Prop := match fs with Some d => Qeq_bool d 0 = false | None => True end.

Lemma q1000 : Qeq_bool (inject_Z 1000) 0 = false.
Proof. reflexivity. Qed.

Lemma time_rel z d : num_rel (inject_Z z * d / 1000) (VQ (Qred (Qred (inject_Z z * d) / inject_Z 1000))).
Proof.
  eexists. split; [reflexivity|]. rewrite !Qred_correct. reflexivity.
Qed.

Lemma int_rel z : num_rel (inject_Z z) (VInt z).
Proof. eexists. split; reflexivity. Qed.

(* start = end = -1; id_ (and start, end of a row of three) from the row; token from id_ *)
Definition tt_head : stmt := match tt_body with SSeq a (SSeq b (SSeq c _)) => SSeq a (SSeq b c) | _ => SPass end.
Definition tt_append : stmt := match tt_body with SSeq _ (SSeq _ (SSeq _ d)) => d | _ => SPass end.

Lemma head_tie R i2t F vs cols row rest evs : (cols = 0 \/ cols = 1 \/ cols = 3)%nat ->
  exists rest',
    exec ext11 tt_head (set_var "tup" (enc_row cols row) (mkState (tbase R (enc_i2t i2t) F vs ++ rest) evs))
    = Ok CNormal (mkState (tbase R (enc_i2t i2t) F vs ++ rest') evs) /\
    lookup "token" rest' = Some (enc_tk (tok_of i2t (fst (fst (norm_row cols row))))) /\
    lookup "start" rest' = Some (VInt (snd (fst (norm_row cols row)))) /\
    lookup "end" rest' = Some (VInt (snd (norm_row cols row))).
Proof.
  intros Hc. destruct row as [[i s] e]. cbv beta iota delta [tt_head tt_body src_to_transcript tbase tok_of].
  destruct Hc as [->|[->| ->]]; unfold enc_row, norm_row; cbn [fst snd].
  all: do 2 erewrite exec_seq_ok by run.
  all: destruct i2t as [l|]; unfold enc_i2t; [destruct (assoc Z.eqb i l) eqn:Ea|].
  all: eexists; split; [run_with ltac:(rewrite ?i2t_get, ?Ea)|]; repeat split; lk; reflexivity.
Qed.

Lemma append_tie R I fs vs t s e rest evs : fs_ok fs ->
  lookup "token" rest = Some (enc_tk t) -> lookup "start" rest = Some (VInt s) -> lookup "end" rest = Some (VInt e) ->
  exists v rest',
    exec ext11 tt_append (mkState (tbase R I (enc_fs fs) vs ++ rest) evs)
    = Ok CNormal (mkState (tbase R I (enc_fs fs) (vs ++ [v]) ++ rest') evs) /\
    item_rel (timed_of fs t s e) v.
Proof.
  intros Hfs Ht Hs He. cbv beta iota delta [tt_append tt_body src_to_transcript tbase timed_of].
  rewrite exec_if.
  match goal with |- context [eval ext11 ?c ?st] =>
    assert (Hc : eval ext11 c st = Ok (VBool ((s =? -1) || (e =? -1))%Z) st) end.
  { repeat (progress (cbn; lk; rewrite ?Hs, ?He)). destruct (s =? -1)%Z; reflexivity. }
  rewrite Hc. cbn [bind truthy]. clear Hc. destruct ((s =? -1) || (e =? -1))%Z.
  { do 2 eexists. split; [run_with ltac:(rewrite ?Ht)|reflexivity]. }
  destruct fs as [d|]; unfold enc_fs, fs_ok in *.
  - do 2 eexists. split; [run_with ltac:(rewrite ?Ht, ?Hs, ?He, ?Hfs, ?q1000)|].
    do 2 eexists. split; [reflexivity|]. split; apply time_rel.
  - do 2 eexists. split; [run_with ltac:(rewrite ?Ht, ?Hs, ?He)|].
    do 2 eexists. split; [reflexivity|]. split; apply int_rel.
Qed.

Lemma tt_step R i2t fs cols row vs rest evs : fs_ok fs -> (cols = 0 \/ cols = 1 \/ cols = 3)%nat ->
  exists v rest',
    exec ext11 tt_body (set_var "tup" (enc_row cols row) (mkState (tbase R (enc_i2t i2t) (enc_fs fs) vs ++ rest) evs))
    = Ok CNormal (mkState (tbase R (enc_i2t i2t) (enc_fs fs) (vs ++ [v]) ++ rest') evs)
    /\ item_rel (tt_item i2t fs (norm_row cols row)) v.
Proof.
  intros Hfs Hc.
  destruct (head_tie R i2t (enc_fs fs) vs cols row rest evs Hc) as (rest1 & H1 & Ht & Hs & He).
  destruct (norm_row cols row) as [[i s] e]. cbn [fst snd] in Ht, Hs, He.
  destruct (append_tie R (enc_i2t i2t) fs vs _ s e rest1 evs Hfs Ht Hs He) as (v & rest2 & H3 & Hr).
  exists v, rest2. split; [|exact Hr].
  cbv beta iota delta [tt_body src_to_transcript]. rewrite exec_seq_group3.
  erewrite exec_seq_ok by exact H1. exact H3.
Qed.

Lemma tt_loop R i2t fs cols : fs_ok fs -> (cols = 0 \/ cols = 1 \/ cols = 3)%nat ->
  forall rows vs rest evs,
  exists ws rest',
    for_loop ext11 "tup" tt_body (map (enc_row cols) rows) (mkState (tbase R (enc_i2t i2t) (enc_fs fs) vs ++ rest) evs)
    = Ok CNormal (mkState (tbase R (enc_i2t i2t) (enc_fs fs) (vs ++ ws) ++ rest') evs)
    /\ Forall2 item_rel (map (tt_item i2t fs) (map (norm_row cols) rows)) ws.
Proof.
  intros Hfs Hc. induction rows as [|row rows IH]; intros vs rest evs.
  - exists [], rest. rewrite app_nil_r. split; [reflexivity|constructor].
  - cbn [map for_loop].
    destruct (tt_step R i2t fs cols row vs rest evs Hfs Hc) as (v & rest1 & Hx & Hr).
    rewrite Hx. cbn [bind].
    destruct (IH (vs ++ [v])%list rest1 evs) as (ws & rest2 & Hy & Hrs).
    exists (v :: ws), rest2. split.
    + rewrite Hy. rewrite <- app_assoc. reflexivity.
    + constructor; assumption.
Qed.

(* the whole function *)
Theorem to_transcript_tie cols rows i2t fs : fs_ok fs -> (cols = 0 \/ cols = 1 \/ cols = 3)%nat ->
  exists ws st, run_to_transcript (enc_ref cols rows) (enc_i2t i2t) (enc_fs fs) = Ok (VList ws) st /\
                Forall2 item_rel (Model.token_to_transcript (map (norm_row cols) rows) i2t fs) ws.
Proof.
  intros Hfs Hc. unfold run_to_transcript, Interp.run. rewrite model_is_map, enc_ref_rows.
  set (R := VTuple (map (enc_row cols) rows)).
  erewrite (eq_refl : src_to_transcript = SSeq _ (SSeq (SFor _ _ tt_body) _)).
  erewrite exec_seq_ok by (instantiate (1 := mkState (tbase R (enc_i2t i2t) (enc_fs fs) [] ++ []) []); reflexivity).
  rewrite exec_seq, exec_for.
  change (eval ext11 (EName "ref") ?s) with (Ok R s).
  cbn [bind]. change (iter_items R) with (Some (map (enc_row cols) rows)). cbn iota.
  destruct (tt_loop R i2t fs cols Hfs Hc rows [] [] []) as (ws & rest' & Hl & Hrel).
  rewrite Hl. cbn [bind app]. exists ws. eexists. split; [reflexivity|exact Hrel].
Qed.
