(* C11 source tie - facts shared by the tie lemmas: encodings vs the model's equality tests, exact rationals of
   integers, variables of the interpreter state, insertion sorts. *)
From Coq Require Import ZArith QArith Qreduction List String Ascii Bool Lia.
From PV Require Import C11.Model MiniPy.Syntax MiniPy.Interp C11.SrcRun.
From PV Require Export MiniPy.Lemmas.
Import ListNotations.
Local Open Scope string_scope.

(* ---- strings ---------------------------------------------------------------------------------------- *)
Lemma val_eqb_enc_str a : forall b, val_eqb (enc_str a) (enc_str b) = str_eqb a b.
Proof.
  unfold enc_str. induction a as [|x a IH]; intros [|y b]; try reflexivity.
  specialize (IH b). cbn in IH |- *. rewrite IH. rewrite andb_true_r. reflexivity.
Qed.

Lemma val_eqb_wc w c w' c' :
  val_eqb (VTuple [enc_str w; enc_str c]) (VTuple [enc_str w'; enc_str c']) = wc_eqb (w, c) (w', c').
Proof.
  unfold wc_eqb. cbn [fst snd]. rewrite <- !val_eqb_enc_str. cbn. rewrite andb_true_r. reflexivity.
Qed.

Lemma len3 {A} (l : list A) : (Z.of_nat (List.length l) =? 3)%Z = true -> exists a b c, l = [a; b; c].
Proof.
  intros H. apply Z.eqb_eq in H. destruct l as [|a [|b [|c [|d l]]]]; cbn [List.length] in H; try lia.
  exists a, b, c. reflexivity.
Qed.

(* ---- rationals of integers ---------------------------------------------------------------------------- *)
Lemma Qred_inject z : Qred (inject_Z z) = inject_Z z.
Proof.
  unfold Qred, inject_Z.
  generalize (Z.ggcd_gcd z 1) (Z.ggcd_correct_divisors z 1).
  destruct (Z.ggcd z 1) as [g [aa bb]]. cbn [fst snd]. intros Hg [Ha Hb].
  rewrite Z.gcd_1_r in Hg. subst g. rewrite Z.mul_1_l in Ha, Hb. subst. reflexivity.
Qed.

Lemma Qred_inject_add a b : Qred (inject_Z a + inject_Z b) = inject_Z (a + b).
Proof.
  unfold Qplus, inject_Z. cbn [Qnum Qden]. rewrite !Z.mul_1_r. change (1 * 1)%positive with 1%positive.
  apply (Qred_inject (a + b)).
Qed.

Lemma Qred_inject_sub a b : Qred (inject_Z a - inject_Z b) = inject_Z (a - b).
Proof.
  unfold Qminus, Qplus, Qopp, inject_Z. cbn [Qnum Qden]. rewrite !Z.mul_1_r. change (1 * 1)%positive with 1%positive.
  apply (Qred_inject (a + - b)).
Qed.

Lemma Qcompare_inject a b : (inject_Z a ?= inject_Z b)%Q = (a ?= b)%Z.
Proof. unfold Qcompare, inject_Z. cbn [Qnum Qden]. rewrite !Z.mul_1_r. reflexivity. Qed.

Lemma ltb_match a b : match (a ?= b)%Z with Datatypes.Lt => true | _ => false end = (a <? b)%Z.
Proof. reflexivity. Qed.
Lemma gtb_match a b : match (a ?= b)%Z with Datatypes.Gt => true | _ => false end = (b <? a)%Z.
Proof. rewrite <- Z.gtb_ltb. reflexivity. Qed.

(* ---- association lists as encoded dicts ------------------------------------------------------------------ *)
Section Assoc.
  Context {K V : Type} (eqb : K -> K -> bool) (ek : K -> val) (ev : V -> val).
  Hypothesis ek_eqb : forall a b, val_eqb (ek a) (ek b) = eqb a b.

  Definition enc_al (l : list (K * V)) : list (val * val) := map (fun kv => (ek (fst kv), ev (snd kv))) l.

  Lemma al_get k l : dict_get (enc_al l) (ek k) = option_map ev (assoc eqb k l).
  Proof.
    induction l as [|[k' v] t IH]; [reflexivity|].
    cbn [enc_al map dict_get assoc fst snd]. rewrite ek_eqb. destruct (eqb k k'); [reflexivity|exact IH].
  Qed.

  (* replace the value of k, or add the entry at the end *)
  Fixpoint al_set (k : K) (v : V) (l : list (K * V)) : list (K * V) :=
    match l with
    | [] => [(k, v)]
    | (k', w) :: t => if eqb k k' then (k', v) :: t else (k', w) :: al_set k v t
    end.

  Lemma al_set_enc k v l : dict_set (enc_al l) (ek k) (ev v) = enc_al (al_set k v l).
  Proof.
    induction l as [|[k' w] t IH]; [reflexivity|].
    cbn [enc_al map dict_set al_set fst snd]. rewrite ek_eqb. destruct (eqb k k'); cbn [map fst snd]; [reflexivity|].
    unfold enc_al in IH. rewrite IH. reflexivity.
  Qed.
End Assoc.

(* ---- two stable insertion sorts agree ----------------------------------------------------------------------
   MiniPy (Interp.sort_keyed_aux): from the right, each item in front of the first one whose key is not smaller;
   C11.Model.sort_by: from the left, each item behind the last one whose key is not greater. *)
Section Sorts.
  Context {A : Type} (k : A -> Z).

  Fixpoint ins_r (x : A) (l : list A) : list A :=
    match l with
    | [] => [x]
    | y :: t => if (k y <? k x)%Z then y :: ins_r x t else x :: y :: t
    end.
  Definition sort_r (l : list A) : list A := fold_right ins_r [] l.

  Definition kleb (a b : A) : bool := (k a <=? k b)%Z.

  Lemma ins_commute x e : forall l, insert_by kleb x (ins_r e l) = ins_r e (insert_by kleb x l).
  Proof.
    induction l as [|y t IH]; cbn [ins_r insert_by]; unfold kleb in *.
    all: repeat (match goal with
                 | |- context [(?a <? ?b)%Z] => destruct (Z.ltb_spec a b)
                 | |- context [(?a <=? ?b)%Z] => destruct (Z.leb_spec a b)
                 end; cbn [ins_r insert_by]); try lia; rewrite ?IH; reflexivity.
  Qed.

  Lemma fold_ins_commute e : forall t acc,
    fold_left (fun a x => insert_by kleb x a) t (ins_r e acc) = ins_r e (fold_left (fun a x => insert_by kleb x a) t acc).
  Proof.
    induction t as [|x t IH]; intros acc; [reflexivity|].
    cbn [fold_left]. rewrite ins_commute. apply IH.
  Qed.

  Lemma sort_r_sort_by l : sort_r l = sort_by kleb l.
  Proof.
    unfold sort_by. induction l as [|e t IH]; [reflexivity|].
    cbn [sort_r fold_right fold_left insert_by]. change [e] with (ins_r e []).
    rewrite fold_ins_commute. fold (sort_r t). rewrite IH. reflexivity.
  Qed.
End Sorts.

(* what a run has to end in, given the model's result: the frame of that result followed by some tail, or the exception *)
Definition ends {A} (frame : A -> list (string * val)) (evs : list event) (r : res A) (o : outcome ctl) : Prop :=
  match r with
  | Model.Ok a => exists rest', o = Ok CNormal (mkState (frame a ++ rest') evs)
  | Model.Raise e => exists st', o = Exc (exn_name e) st'
  end.

Lemma exec_seq_group3 ext a b c d st :
  exec ext (SSeq a (SSeq b (SSeq c d))) st = exec ext (SSeq (SSeq a (SSeq b c)) d) st.
Proof.
  rewrite (exec_seq_assoc ext a (SSeq b c) d), !(exec_seq ext a).
  destruct (exec ext a st) as [[|v] s|n s|w]; cbn [bind]; try reflexivity. symmetry. apply exec_seq_assoc.
Qed.

Lemma eval_tuple2 ext x it y key st :
  eval ext (ETupleLit [EName x; ESorted it y key]) st =
  bind (eval ext (EName x) st) (fun va st1 =>
    bind (eval ext (ESorted it y key) st1) (fun vb st2 => Ok (VTuple [va; vb]) st2)).
Proof.
  cbn [eval]. destruct (lookup x (vars st)); cbn [bind]; [|reflexivity].
  match goal with |- bind (bind (bind ?X _) _) _ = bind ?X _ => destruct X; reflexivity end.
Qed.

(* The interpreter, writing through a place and the unit's foreign calls unfold only on a state that is known
   ([mkState ..]): under the binders of a continuation, where the state is a bound variable, [cbn] leaves them folded
   instead of expanding their case analyses on values that are not there yet (a whole-goal [cbn] on a run whose head is
   stuck on a lookup in the unknown part of the frame is seconds per call otherwise). *)
Arguments exec ext s !st.
Arguments eval ext e !st.
Arguments store ext place v !st.
Arguments ext11 f args kw !st.

(* A block is run one statement at a time: [exec_seq_ok] takes the first statement on its own, so that the rest of the
   program is not in the goal that is reduced; [run_with tac] solves its premise when the statement runs through once
   the lookups in the unknown part of the frame ([lk], [tac]) are resolved. *)
Ltac lk := repeat (rewrite lookup_update_eq || rewrite lookup_update_neq by reflexivity).
Ltac posnat := repeat match goal with |- context [Pos.to_nat ?p] =>
  let v := eval compute in (Pos.to_nat p) in change (Pos.to_nat p) with v end.
(* the new state is left as [mkState ..] with the updates pushed through the known front of the frame; a run that is
   stuck is refused, not left to the conversion in [reflexivity] *)
Ltac run_with tac :=
  repeat (progress (cbn; lk; posnat; tac));
  unfold set_var; cbn [vars events update String.eqb Ascii.eqb Bool.eqb andb];
  lazymatch goal with |- Ok _ _ = _ => reflexivity | |- Exc _ _ = _ => reflexivity end.
Ltac run := run_with idtac.
(* the same for a statement that is not followed by another *)
Ltac run_last tac := match goal with |- context [exec ?ext ?a ?st] =>
  let H := fresh in eassert (H : exec ext a st = Ok CNormal _) by run_with tac; rewrite H; clear H end.
