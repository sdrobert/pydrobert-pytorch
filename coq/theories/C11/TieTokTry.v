(* C11 source tie - transcript_to_token, the time conversion: the `try: ... except TypeError: pass` statement of the loop
   body ([try_tie]).  For a plain token (an int: len() raises TypeError, caught; a str: len(token) == 3 may hold, then
   np.isreal(token[1]) is False) start and end stay -1; for a (token, start, end) triple they become Model.frames_of
   (floor / round-half-up / max(+1) with a frame shift, int() without).  The variables the statement assigns live in an
   ARBITRARY tail [rest] of the variable list (nothing is assumed about which temporaries already exist): lookups in it
   are resolved by rewriting, the persistent variables are a concrete prefix ([kbase]). *)
From Coq Require Import ZArith QArith Qround List String Ascii Bool Lia.
From PV Require C11.Spec.
From PV Require Import C11.Model MiniPy.Syntax MiniPy.Interp MiniPy.Lemmas MiniTorch.OpsC11 Gen.C11Src C11.SrcRun C11.TieBase.
Import ListNotations.
Local Open Scope string_scope.

#[local] Arguments Qred : simpl never.
#[local] Arguments Qmult : simpl never.
#[local] Arguments Qplus : simpl never.
#[local] Arguments Qdiv : simpl never.
#[local] Arguments Qeq_bool : simpl never.
#[local] Arguments Qcompare : simpl never.
#[local] Arguments inject_Z : simpl never.
#[local] Arguments Z.of_nat : simpl never.
#[local] Arguments floordiv : simpl never.
#[local] Arguments qtrunc : simpl never.

Ltac zofnat := repeat match goal with
  | |- context [Z.of_nat 0] => change (Z.of_nat 0) with 0%Z
  | |- context [Z.of_nat 1] => change (Z.of_nat 1) with 1%Z
  | |- context [Z.of_nat 2] => change (Z.of_nat 2) with 2%Z
  | |- context [Z.of_nat 3] => change (Z.of_nat 3) with 3%Z
  end.
Ltac norm_with tac := repeat (progress (cbn; zofnat; lk; posnat; tac)).

Definition tk_body : stmt :=
  match src_to_token with SSeq _ (SSeq _ (SSeq _ (SSeq _ (SSeq (SFor _ _ b) _)))) => b | _ => SPass end.
Definition tk_try : stmt :=
  match tk_body with SSeq _ (SSeq _ (SSeq _ (SSeq t _))) => t | _ => SPass end.

Definition kbase (TR T2I FS UNK : val) (skip : bool) (SZ TOK : val) : list (string * val) :=
  [("transcript", TR); ("token2id", T2I); ("frame_shift_ms", FS); ("unk", UNK); ("skip_frame_times", VBool skip);
   ("torch", torch_obj); ("tok_size", SZ); ("tok", TOK)].

Definition fs_ok (fs : option Q) : Prop := match fs with Some d => Qeq_bool d 0 = false | None => True end.

(* the model's (start, end) of an item *)
Definition times_of (fs : option Q) (it : Model.item) : Z * Z :=
  match it with Plain _ => (-1, -1)%Z | Timed _ s e => frames_of fs s e end.

(* ---- numbers ---------------------------------------------------------------------------------------------------------- *)
Lemma qtrunc_inject z : qtrunc (inject_Z z) = z.
Proof.
  unfold qtrunc. destruct (Qlt_le_dec (inject_Z z) 0) as [H|H].
  - change (- inject_Z z)%Q with (inject_Z (- z)). rewrite Qfloor_Z. lia.
  - apply Qfloor_Z.
Qed.

Lemma floordiv_comp p p' d : p == p' -> floordiv p d = floordiv p' d.
Proof. intros H. unfold floordiv. apply Qfloor_comp. rewrite H. reflexivity. Qed.

Lemma floordiv_red p d : floordiv (Qred p) d = floordiv p d.
Proof. apply floordiv_comp. apply Qred_correct. Qed.

Lemma floordiv_red_add a b d : floordiv (Qred (Qred a + Qred b)) d = floordiv (a + b) d.
Proof. apply floordiv_comp. rewrite !Qred_correct. reflexivity. Qed.

Lemma gt_inject a b :
  match (inject_Z a ?= inject_Z b)%Q with Datatypes.Gt => true | _ => false end = (b <? a)%Z.
Proof. rewrite Qcompare_inject, <- Z.gtb_ltb. reflexivity. Qed.

Lemma max_pick ef sf : (if (ef <? sf + 1)%Z then (sf + 1)%Z else ef) = Z.max ef (sf + 1).
Proof. destruct (Z.ltb_spec ef (sf + 1)); lia. Qed.

(* a token is not an object of a library: indexing a triple that starts with it is MiniPy's own *)
Lemma foreign_tk t : match enc_tk t with VStr (String c _) => (c =? "$")%char | _ => false end = false.
Proof. destruct t; reflexivity. Qed.

Ltac fin Ht Hs He :=
  do 3 eexists; split; [reflexivity|]; repeat split; lk; rewrite ?Ht, ?Hs, ?He; try reflexivity.

Lemma try_tie TR T2I fs UNK skip SZ TOK it rest evs :
  fs_ok fs ->
  lookup "token" rest = Some (enc_item it) ->
  lookup "start" rest = Some (VInt (-1)) -> lookup "end" rest = Some (VInt (-1)) ->
  exists rest' sv ev,
    exec ext11 tk_try (mkState (kbase TR T2I (enc_fs fs) UNK skip SZ TOK ++ rest) evs)
    = Ok CNormal (mkState (kbase TR T2I (enc_fs fs) UNK skip SZ TOK ++ rest') evs) /\
    lookup "token" rest' = Some (enc_tk (C11.Spec.item_tok it)) /\
    lookup "start" rest' = Some sv /\ lookup "end" rest' = Some ev /\
    to_long sv = Some (fst (times_of fs it)) /\ to_long ev = Some (snd (times_of fs it)) /\
    lookup "i" rest' = lookup "i" rest.
Proof.
  intros Hfs Ht Hs He. unfold tk_try, tk_body, src_to_token, kbase.
  destruct it as [t|t s e]; cbn [enc_item C11.Spec.item_tok times_of] in *.
  - (* a plain token *)
    destruct t as [z|str0]; cbn [enc_tk] in *.
    + norm_with ltac:(rewrite ?Ht). fin Ht Hs He.
    + (* len(token) == 3 only for a three-character token, whose token[1] is a character *)
      unfold enc_str in Ht. norm_with ltac:(rewrite ?Ht, ?map_length).
      match goal with |- context [(Z.of_nat (@List.length ?A str0) =? 3)%Z] =>
        destruct (Z.of_nat (@List.length A str0) =? 3)%Z eqn:E3 end.
      * destruct (len3 str0 E3) as (a & b & c & ->). cbn [map] in Ht. norm_with ltac:(rewrite ?Ht). fin Ht Hs He.
      * norm_with ltac:(rewrite ?Ht). fin Ht Hs He.
  - (* (token, start, end) *)
    rewrite exec_tryexc, exec_if.
    match goal with |- context [eval ext11 ?c ?st] => assert (Hc : eval ext11 c st = Ok (VBool true) st) end.
    { repeat (progress (cbn; lk; zofnat; posnat; rewrite ?Ht, ?foreign_tk)). reflexivity. }
    rewrite Hc. cbn [bind truthy]. clear Hc.
    rewrite exec_seq_assoc. erewrite exec_seq_ok by run_with ltac:(rewrite ?Ht).
    do 2 (rewrite exec_seq_assoc; erewrite exec_seq_ok by run_with ltac:(zofnat; rewrite ?foreign_tk)).
    erewrite exec_seq_ok by run_with ltac:(zofnat; rewrite ?foreign_tk).
    destruct fs as [d|]; unfold enc_fs, fs_ok, frames_of in *.
    + rewrite exec_if.
      match goal with |- context [eval ext11 ?c ?st] => assert (Hc : eval ext11 c st = Ok (VQ d) st) by run end.
      rewrite Hc. cbn [bind truthy]. rewrite Hfs. cbn [negb]. clear Hc.
      rewrite exec_if.
      match goal with |- context [eval ext11 ?c ?st] =>
        assert (Hc : eval ext11 c st = Ok (VBool (Qeq_bool s e)) st) by run end.
      rewrite Hc. cbn [bind truthy]. clear Hc.
      destruct (Qeq_bool s e).
      * run_last ltac:(rewrite ?Hfs). fin Ht Hs He.
        all: cbn [to_long]; rewrite qtrunc_inject, floordiv_red; reflexivity.
      * erewrite exec_seq_ok by run_with ltac:(rewrite ?Hfs).
        erewrite exec_seq_ok by run_with ltac:(rewrite ?Hfs).
        run_last ltac:(rewrite ?Qred_inject_add, ?gt_inject). fin Ht Hs He.
        { cbn [to_long]. rewrite qtrunc_inject, floordiv_red. reflexivity. }
        rewrite floordiv_red_add, floordiv_red. change (inject_Z 1000) with (1000 # 1). cbn [snd].
        rewrite <- max_pick. destruct (_ <? _)%Z; cbn [to_long]; rewrite qtrunc_inject; reflexivity.
    + rewrite exec_if.
      match goal with |- context [eval ext11 ?c ?st] => assert (Hc : eval ext11 c st = Ok VNone st) by run end.
      rewrite Hc. cbn [bind truthy]. clear Hc.
      do 2 erewrite exec_seq_ok by run_with zofnat.
      run_last zofnat. fin Ht Hs He.
Qed.


