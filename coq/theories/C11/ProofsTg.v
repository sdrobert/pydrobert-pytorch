(* C11 - lemmas: TextGrid write/read round trip to the print precision, gap filling. *)
From Coq Require Import List ZArith Bool Lia QArith Qround Qabs Lqa Sorted Permutation.
From PV Require Import C11.Model C11.Spec C11.ProofsSort C11.ProofsTrn C11.ProofsCtm C11.ProofsNum.
Import ListNotations.
Local Open Scope Z_scope.

(* ---------- lines / unlines -------------------------------------------------------------------- *)

Lemma lines_unlines ls : Forall (fun l => ~ In c_nl l) ls -> lines (unlines ls) = ls.
Proof.
  unfold lines, unlines. induction 1 as [|l ls Hl _ IH]; [reflexivity|].
  cbn [map concat]. rewrite <- app_assoc. cbn [app]. rewrite (lines_aux_app l Hl). cbn [rev app].
  f_equal. exact IH.
Qed.

Lemma unquote_quoted t : unquote (quoted t) = Some t.
Proof.
  unfold unquote, quoted. rewrite Z.eqb_refl. rewrite rev_app_distr. cbn [rev app].
  rewrite Z.eqb_refl. rewrite rev_involutive. reflexivity.
Qed.

(* ---------- what the writer writes ------------------------------------------------------------- *)



Definition entry_lines (p : nat) (point : bool) (x : entry) : list str :=
  if point then [fmt_time p (e_start x); quoted (e_tok x)]
  else [fmt_time p (e_start x); fmt_time p (e_end x); quoted (e_tok x)].

Lemma write_shape tr st en name pt p file :
  write_textgrid_file tr st en name pt p = Ok file ->
  tr <> [] /\ exists a b,
    file = unlines ([s_filetype; s_objclass; fmt_time p a; fmt_time p b; s_exists; [49];
                     quoted (if is_point tr pt p then s_texttier else s_intervaltier); quoted name;
                     fmt_time p (tier_min tr); fmt_time p (tier_max tr);
                     int_digits (Z.of_nat (length tr))]
                    ++ concat (map (entry_lines p (is_point tr pt p)) tr)).
Proof.
  unfold write_textgrid_file. destruct tr as [|x0 rest]; [discriminate|]. intros H. split; [discriminate|].
  fold (tier_min (x0 :: rest)) in H. fold (tier_max (x0 :: rest)) in H.
  fold (is_point (x0 :: rest) pt p) in H.
  destruct (match st with
            | Some s => if Qlt_le_dec (tier_min (x0 :: rest)) s then Raise ValueError else Ok s
            | None => Ok (tier_min (x0 :: rest)) end) as [a|e]; [|discriminate].
  destruct (match en with
            | Some e => if Qlt_le_dec e (tier_max (x0 :: rest)) then Raise ValueError else Ok e
            | None => Ok (tier_max (x0 :: rest)) end) as [b|e]; [|discriminate].
  inversion H. exists a, b. reflexivity.
Qed.

(* ---------- the reader on such a file ----------------------------------------------------------- *)


Definition raw_of (p : nat) (point : bool) (x : entry) : str * str * str :=
  (fmt_time p (e_start x), if point then fmt_time p (e_start x) else fmt_time p (e_end x), e_tok x).

Lemma tg_entries_written p point tr : forall fuel, (length tr <= fuel)%nat ->
  tg_entries fuel point (concat (map (entry_lines p point) tr)) = map (raw_of p point) tr.
Proof.
  induction tr as [|x tr IH]; intros fuel Hf.
  - destruct fuel; [reflexivity|]. cbn. destruct point; reflexivity.
  - destruct fuel as [|fuel]; [cbn in Hf; lia|].
    cbn [map concat]. unfold entry_lines at 1, raw_of at 1.
    destruct point; cbn [app tg_entries]; rewrite unquote_quoted; f_equal; apply IH; cbn in Hf; lia.
Qed.


Lemma to_entries p point tr : Forall entry_nonneg tr ->
  all_some (map to_entry (map (raw_of p point) tr)) = Some (map (rt p point) tr).
Proof.
  induction 1 as [|x tr [Hs He] _ IH]; [reflexivity|].
  cbn [map all_some]. unfold raw_of at 1, to_entry at 1.
  rewrite (parse_fmt_time p _ Hs).
  destruct point; [rewrite (parse_fmt_time p _ Hs)|rewrite (parse_fmt_time p _ He)]; rewrite IH; reflexivity.
Qed.

Lemma fill_none st xmax tr : fill_gaps None st xmax tr = tr.
Proof. revert st; induction tr as [|x tr IH]; intros st; cbn; [reflexivity|]. rewrite IH. reflexivity. Qed.

Lemma resort_entries p point tr :
  Forall entry_nonneg tr -> StronglySorted (fun a b => (e_start a <= e_start b)%Q) tr ->
  sort_by entry_start_leb (map (rt p point) tr) = map (rt p point) tr.
Proof.
  intros Hn Hs. apply sort_by_sorted. apply sorted_map.
  assert (Hn' : forall x, In x tr -> entry_nonneg x) by (apply Forall_forall; exact Hn).
  clear Hn. induction Hs as [|a l Hs IH Hf]; constructor.
  - apply IH. intros x Hx. apply Hn'. right. exact Hx.
  - rewrite Forall_forall in *. intros b Hb. specialize (Hf b Hb).
    unfold entry_start_leb, rt, e_start; cbn [fst snd].
    destruct (Qlt_le_dec _ _) as [Hlt|Hle]; [|reflexivity].
    exfalso. destruct (Hn' a (or_introl eq_refl)) as [Ha _].
    pose proof (rq_mono p _ _ Ha Hf) as Hm. unfold e_start in *. lra.
Qed.

Lemma tier_min_nonneg tr : Forall entry_nonneg tr -> (0 <= tier_min tr)%Q.
Proof.
  destruct 1 as [|x0 rest [H0 _] Hr]; [cbn; lra|]. unfold tier_min.
  revert H0. generalize (e_start x0). induction Hr as [|x l [Hx _] _ IH]; intros m Hm; cbn [fold_left]; [exact Hm|].
  apply IH. unfold qmin. destruct (Qlt_le_dec _ _); assumption.
Qed.

Lemma tier_max_nonneg tr : Forall entry_nonneg tr -> (0 <= tier_max tr)%Q.
Proof.
  destruct 1 as [|x0 rest [_ H0] Hr]; [cbn; lra|]. unfold tier_max.
  revert H0. generalize (e_end x0). induction Hr as [|x l [_ Hx] _ IH]; intros m Hm; cbn [fold_left]; [exact Hm|].
  apply IH. unfold qmax. destruct (Qlt_le_dec _ _); assumption.
Qed.


Lemma quoted_no_nl t : no_nl t -> ~ In c_nl (quoted t).
Proof.
  intros H Hin. unfold quoted in Hin. destruct Hin as [Hin|Hin]; [discriminate Hin|].
  apply in_app_or in Hin. destruct Hin as [Hin|[Hin|[]]]; [exact (H Hin)|discriminate Hin].
Qed.

Lemma entry_lines_no_nl p point tr : Forall (fun x => no_nl (e_tok x)) tr ->
  Forall (fun l => ~ In c_nl l) (concat (map (entry_lines p point) tr)).
Proof.
  induction 1 as [|x tr Hx _ IH]; [constructor|]. cbn [map concat]. apply Forall_app. split; [|exact IH].
  unfold entry_lines. destruct point; repeat constructor; try apply fmt_time_no_nl; apply quoted_no_nl; exact Hx.
Qed.

Lemma length_concat_entries p point tr :
  length (concat (map (entry_lines p point) tr)) = ((if point then 2 else 3) * length tr)%nat.
Proof.
  induction tr as [|x tr IH]; [destruct point; reflexivity|]. cbn [map concat]. rewrite app_length, IH.
  unfold entry_lines. destruct point; cbn [length]; lia.
Qed.


Lemma tg_roundtrip tr st en name pt p file tid fill :
  write_textgrid_file tr st en name pt p = Ok file ->
  Forall entry_nonneg tr -> Forall (fun x => no_nl (e_tok x)) tr -> no_nl name ->
  StronglySorted (fun a b => (e_start a <= e_start b)%Q) tr ->
  tier_id_ok tid name ->
  read_textgrid_file NumericSort file tid fill
  = Ok (fill_gaps fill (rq p (tier_min tr)) (rq p (tier_max tr)) (map (rt p (is_point tr pt p)) tr),
        rq p (tier_min tr), rq p (tier_max tr)).
Proof.
  intros Hw Hnn Htok Hname Hsorted Htid.
  destruct (write_shape _ _ _ _ _ _ _ Hw) as [Hne [a [b Hfile]]]. subst file.
  set (point := is_point tr pt p).
  unfold read_textgrid_file. rewrite lines_unlines.
  2:{ apply Forall_app. split.
      - repeat constructor; try apply fmt_time_no_nl; try apply quoted_no_nl; try exact Hname;
          try apply int_digits_no_nl; try (intros H; repeat (destruct H as [H|H]; [discriminate H|]); destruct H).
        destruct point; intros H; repeat (destruct H as [H|H]; [discriminate H|]); destruct H.
      - apply entry_lines_no_nl. exact Htok. }
  cbn [app]. rewrite !unquote_quoted.
  rewrite (parse_fmt_time p _ (tier_min_nonneg tr Hnn)), (parse_fmt_time p _ (tier_max_nonneg tr Hnn)).
  replace (str_eqb (strip s_filetype) s_filetype) with true by reflexivity. cbn [negb].
  assert (Hid : match tid with inl nm => str_eqb nm name | inr i => (i =? 0) || (i =? -1) end = true).
  { destruct Htid as [ -> | [ -> | -> ] ]; [reflexivity|reflexivity|apply str_eqb_refl]. }
  rewrite Hid. cbn [negb].
  assert (Hpt : str_eqb (if point then s_texttier else s_intervaltier) s_texttier = point)
    by (destruct point; reflexivity).
  rewrite Hpt.
  rewrite tg_entries_written.
  2:{ rewrite length_concat_entries. destruct point; lia. }
  rewrite (to_entries p point tr Hnn).
  rewrite (resort_entries p point tr Hnn Hsorted). reflexivity.
Qed.

(* ---------- "unlabelled gaps filled on request" ------------------------------------------------ *)


Lemma fill_contiguous ft l : forall t xmax, chain_ok t xmax l ->
  contiguous t xmax (fill_gaps (Some ft) t xmax l).
Proof.
  induction l as [|x r IH]; intros t xmax H; cbn [chain_ok fill_gaps] in *.
  - destruct (Qlt_le_dec t xmax) as [Hlt|Hle]; cbn [contiguous].
    + split; [reflexivity|reflexivity].
    + lra.
  - destruct H as (H1 & H2 & H3). destruct (Qlt_le_dec t (e_start x)) as [Hlt|Hle]; cbn [app contiguous].
    + split; [reflexivity|]. split; [reflexivity|]. apply IH. exact H3.
    + split; [lra|]. apply IH. exact H3.
Qed.

Lemma fill_filled_from ft l : forall t xmax, filled_from ft l (fill_gaps (Some ft) t xmax l).
Proof.
  induction l as [|x r IH]; intros t xmax; cbn [fill_gaps].
  - destruct (Qlt_le_dec t xmax) as [Hlt|Hle]; [apply ff_gap; [exact Hlt|constructor]|constructor].
  - destruct (Qlt_le_dec t (e_start x)) as [Hlt|Hle]; cbn [app].
    + apply ff_gap; [exact Hlt|]. apply ff_keep. apply IH.
    + apply ff_keep. apply IH.
Qed.

(* rounding to the print precision keeps a tiling a tiling (interval tiers) *)
Lemma chain_rounded p l : forall t xmax, (0 <= t)%Q -> chain_ok t xmax l ->
  chain_ok (rq p t) (rq p xmax) (map (rt p false) l).
Proof.
  induction l as [|x r IH]; intros t xmax Ht H; cbn [chain_ok map] in *.
  - apply rq_mono; assumption.
  - destruct H as (H1 & H2 & H3). unfold rt at 1 2 3. unfold e_start at 1 3, e_end at 1 3. cbn [fst snd].
    split; [apply rq_mono; assumption|]. split; [apply rq_mono; lra|]. apply IH; [lra|exact H3].
Qed.

(* ---------- the repaired defect: sorting the captured strings ---------------------------------- *)

Lemma string_sort_refuted :
  exists file,
    write_textgrid_file [([97], 8 # 1, 9 # 1); ([98], 9 # 1, 10 # 1); ([99], 10 # 1, 23 # 2)]
                        None None [116] None 3 = Ok file
    /\ read_textgrid_file StringSort file (inr 0) None <> read_textgrid_file NumericSort file (inr 0) None.
Proof.
  eexists. split; [vm_compute; reflexivity|]. vm_compute. discriminate.
Qed.
