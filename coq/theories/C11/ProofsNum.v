(* C11 - lemmas: decimal printing and parsing of times (f"{x:.pf}" / float(s)), rounding. *)
From Coq Require Import List ZArith Bool Lia QArith Qround Qabs Lqa.
From PV Require Import C11.Model C11.Spec.
Import ListNotations.
Local Open Scope Z_scope.

(* ---------- round half even ------------------------------------------------------------------ *)

Lemma inject_Z_succ f : (inject_Z (f + 1) == inject_Z f + 1)%Q.
Proof. rewrite inject_Z_plus. reflexivity. Qed.

Lemma rhe_cases x :
  (round_half_even x = Qfloor x /\ (x - inject_Z (Qfloor x) <= 1 # 2)%Q)
  \/ (round_half_even x = Qfloor x + 1 /\ (1 # 2 <= x - inject_Z (Qfloor x))%Q).
Proof.
  unfold round_half_even.
  destruct (Qcompare_spec (x - inject_Z (Qfloor x)) (1 # 2)) as [H|H|H].
  - destruct (Z.even (Qfloor x)); [left|right]; split; try reflexivity; lra.
  - left. split; [reflexivity|lra].
  - right. split; [reflexivity|lra].
Qed.

Lemma rhe_close x : (Qabs (inject_Z (round_half_even x) - x) <= 1 # 2)%Q.
Proof.
  pose proof (Qfloor_le x) as H1. pose proof (Qlt_floor x) as H2. rewrite inject_Z_succ in H2.
  apply Qabs_Qle_condition.
  destruct (rhe_cases x) as [[E H]|[E H]]; rewrite E; [|rewrite inject_Z_succ]; split; lra.
Qed.

Lemma rhe_mono x y : (x <= y)%Q -> round_half_even x <= round_half_even y.
Proof.
  intros Hxy.
  pose proof (Qfloor_resp_le x y Hxy) as Hfg.
  pose proof (Qfloor_le x) as X1. pose proof (Qlt_floor x) as X2. rewrite inject_Z_succ in X2.
  pose proof (Qfloor_le y) as Y1. pose proof (Qlt_floor y) as Y2. rewrite inject_Z_succ in Y2.
  destruct (Z.eq_dec (Qfloor x) (Qfloor y)) as [E|NE].
  - unfold round_half_even. rewrite <- E.
    destruct (Qcompare_spec (x - inject_Z (Qfloor x)) (1 # 2)) as [A|A|A];
    destruct (Qcompare_spec (y - inject_Z (Qfloor x)) (1 # 2)) as [B|B|B];
    destruct (Z.even (Qfloor x)); try lia; exfalso; lra.
  - destruct (rhe_cases x) as [[Ex _]|[Ex _]]; destruct (rhe_cases y) as [[Ey _]|[Ey _]]; lia.
Qed.

Lemma pow10_pos p : 0 < pow10 p.
Proof. unfold pow10. apply Z.pow_pos_nonneg; lia. Qed.

Lemma pow10_posQ p : (0 < inject_Z (pow10 p))%Q.
Proof. change 0%Q with (inject_Z 0). rewrite <- Zlt_Qlt. apply pow10_pos. Qed.

Lemma pow10_succ p : pow10 (S p) = 10 * pow10 p.
Proof. unfold pow10. rewrite Nat2Z.inj_succ, Z.pow_succ_r by lia. reflexivity. Qed.


Lemma rq_div p x : (rq p x == inject_Z (fmt_num p x) / inject_Z (pow10 p))%Q.
Proof.
  unfold rq. rewrite Qmake_Qdiv. rewrite Z2Pos.id by apply pow10_pos. reflexivity.
Qed.

Lemma Qabs_pos_eq x : (0 <= x)%Q -> Qabs x = x.
Proof.
  destruct x as [n d]. unfold Qle; cbn [Qnum Qden]. intros H. unfold Qabs. f_equal. apply Z.abs_eq. lia.
Qed.

(* "to within the print precision": half a unit of the last printed digit *)
Lemma rq_close p x : (0 <= x)%Q -> (Qabs (rq p x - x) <= half_unit p)%Q.
Proof.
  intros Hx. rewrite rq_div. unfold fmt_num. rewrite (Qabs_pos_eq x Hx).
  set (P := inject_Z (pow10 p)).
  pose proof (pow10_posQ p) as HP. fold P in HP.
  pose proof (rhe_close (x * P)) as Hc. apply Qabs_Qle_condition in Hc.
  set (n := inject_Z (round_half_even (x * P))) in *.
  assert (Hh : (half_unit p == (1 # 2) / P)%Q).
  { unfold half_unit, P. rewrite (Qmake_Qdiv 1 (2 * Z.to_pos (pow10 p))).
    rewrite Pos2Z.inj_mul, Z2Pos.id by apply pow10_pos.
    rewrite inject_Z_mult. field. intros E. fold P in E. lra. }
  rewrite Hh.
  set (y := (n / P)%Q). assert (Hy : (y * P == n)%Q) by (unfold y; field; lra).
  set (h := ((1 # 2) / P)%Q). assert (Hhp : (h * P == 1 # 2)%Q) by (unfold h; field; lra).
  apply Qabs_Qle_condition. destruct Hc as [Hc1 Hc2]. split.
  - assert (((- h - (y - x)) * P <= 0)%Q) by nra. nra.
  - assert (((y - x - h) * P <= 0)%Q) by nra. nra.
Qed.

Lemma rq_mono p x y : (0 <= x)%Q -> (x <= y)%Q -> (rq p x <= rq p y)%Q.
Proof.
  intros Hx Hxy. unfold rq, Qle; cbn [Qnum Qden].
  apply Z.mul_le_mono_nonneg_r; [lia|].
  unfold fmt_num. rewrite (Qabs_pos_eq x Hx), (Qabs_pos_eq y) by lra.
  apply rhe_mono.
  pose proof (pow10_posQ p). nra.
Qed.

Lemma fmt_num_nonneg p x : 0 <= fmt_num p x.
Proof.
  unfold fmt_num.
  assert (H : (0 <= Qabs x * inject_Z (pow10 p))%Q).
  { apply Qmult_le_0_compat; [apply Qabs_nonneg|apply Qlt_le_weak, pow10_posQ]. }
  pose proof (rhe_mono 0 _ H) as Hm.
  replace (round_half_even 0) with 0 in Hm by reflexivity. exact Hm.
Qed.

(* ---------- digits --------------------------------------------------------------------------- *)

Definition is_digit (c : char) : Prop := 48 <= c <= 57.

Lemma digit_val_digit d : 0 <= d < 10 -> digit_val (digit d) = Some d.
Proof.
  intros H. unfold digit_val, digit.
  destruct ((48 <=? 48 + d) && (48 + d <=? 57)) eqn:E.
  - f_equal. lia.
  - apply andb_false_iff in E. destruct E as [E|E]; apply Z.leb_gt in E; lia.
Qed.

Lemma of_digits_app a : forall acc b,
  of_digits acc (a ++ b) = match of_digits acc a with Some v => of_digits v b | None => None end.
Proof.
  induction a as [|c a IH]; intros acc b; cbn [app of_digits]; [reflexivity|].
  destruct (digit_val c); [apply IH|reflexivity].
Qed.

Lemma frac_digits_length p : forall r, length (frac_digits p r) = p.
Proof.
  induction p as [|p IH]; intros r; cbn [frac_digits]; [reflexivity|].
  rewrite app_length, IH. cbn. lia.
Qed.

Lemma frac_digits_are_digits p : forall r c, In c (frac_digits p r) -> is_digit c.
Proof.
  induction p as [|p IH]; intros r c H; cbn [frac_digits] in H; [destruct H|].
  apply in_app_or in H. destruct H as [H|[H|[]]].
  - exact (IH _ _ H).
  - subst c. unfold is_digit, digit. pose proof (Z.mod_pos_bound r 10). lia.
Qed.

Lemma of_digits_frac p : forall r acc, 0 <= r ->
  of_digits acc (frac_digits p r) = Some (acc * pow10 p + r mod pow10 p).
Proof.
  induction p as [|p IH]; intros r acc Hr.
  - cbn [frac_digits of_digits]. f_equal. unfold pow10. cbn. rewrite Z.mod_1_r. lia.
  - cbn [frac_digits]. rewrite of_digits_app. rewrite IH by (apply Z.div_pos; lia).
    cbn [of_digits]. rewrite digit_val_digit by (apply Z.mod_pos_bound; lia). f_equal.
    rewrite pow10_succ. pose proof (pow10_pos p).
    rewrite (Z.rem_mul_r r 10 (pow10 p)) by lia. lia.
Qed.

Lemma strip_zeros_cons c c' t :
  strip_zeros (c :: c' :: t) = if c =? 48 then strip_zeros (c' :: t) else c :: c' :: t.
Proof. reflexivity. Qed.

Lemma strip_zeros_value l : of_digits 0 (strip_zeros l) = of_digits 0 l.
Proof.
  induction l as [|c t IH]; [reflexivity|]. destruct t as [|c' t']; [reflexivity|].
  rewrite strip_zeros_cons.
  destruct (c =? 48) eqn:E; [|reflexivity]. apply Z.eqb_eq in E. subst c. rewrite IH. reflexivity.
Qed.

Lemma strip_zeros_nonempty l : l <> [] -> strip_zeros l <> [].
Proof.
  induction l as [|c t IH]; [congruence|]. intros _. destruct t as [|c' t']; [discriminate|].
  rewrite strip_zeros_cons.
  destruct (c =? 48); [apply IH; discriminate|discriminate].
Qed.

Lemma strip_zeros_subset l c : In c (strip_zeros l) -> In c l.
Proof.
  induction l as [|a t IH]; [intros []|]. destruct t as [|c' t']; [intros H; exact H|].
  rewrite strip_zeros_cons.
  destruct (a =? 48); [intros H; right; apply IH; exact H|intros H; exact H].
Qed.

Lemma int_digits_are_digits q c : In c (int_digits q) -> is_digit c.
Proof. unfold int_digits. intros H. apply strip_zeros_subset in H. exact (frac_digits_are_digits _ _ _ H). Qed.

Lemma int_digits_nonempty q : int_digits q <> [].
Proof.
  unfold int_digits. apply strip_zeros_nonempty. intros E. apply (f_equal (@length _)) in E.
  rewrite frac_digits_length in E. discriminate.
Qed.

Lemma int_digits_value q : 0 <= q -> of_digits 0 (int_digits q) = Some q.
Proof.
  intros Hq. unfold int_digits. rewrite strip_zeros_value. rewrite of_digits_frac by exact Hq.
  f_equal. rewrite Z.mod_small; [lia|]. split; [exact Hq|].
  set (k := Z.to_nat (Z.log2 q)).
  destruct (Z.eq_dec q 0) as [->|Hne]; [apply pow10_pos|].
  assert (Hlog : 0 <= Z.log2 q) by apply Z.log2_nonneg.
  destruct (Z.log2_spec q) as [_ Hlt]; [lia|].
  unfold pow10. rewrite Nat2Z.inj_succ. unfold k. rewrite Z2Nat.id by exact Hlog.
  eapply Z.lt_le_trans; [exact Hlt|]. apply Z.pow_le_mono_l. lia.
Qed.

Lemma split_at_none c l : ~ In c l -> split_at c l = (l, None).
Proof.
  induction l as [|x t IH]; intros H; [reflexivity|]. cbn [split_at].
  destruct (x =? c) eqn:E; [apply Z.eqb_eq in E; exfalso; apply H; left; exact E|].
  rewrite IH by (intros H'; apply H; right; exact H'). reflexivity.
Qed.

Lemma split_at_some c a b : ~ In c a -> split_at c (a ++ c :: b) = (a, Some b).
Proof.
  induction a as [|x t IH]; intros H; cbn [app split_at].
  - rewrite Z.eqb_refl. reflexivity.
  - destruct (x =? c) eqn:E; [apply Z.eqb_eq in E; exfalso; apply H; left; exact E|].
    rewrite IH by (intros H'; apply H; right; exact H'). reflexivity.
Qed.

Lemma digit_not_dot c : is_digit c -> c <> c_dot.
Proof. unfold is_digit, c_dot. lia. Qed.

(* float(f"{x:.pf}") is the printed decimal *)
Lemma parse_dec_str p n : 0 <= n ->
  parse_time (dec_str p n) = Some (Qmake n (Z.to_pos (pow10 p))).
Proof.
  intros Hn. pose proof (pow10_pos p) as HP. unfold parse_time, dec_str.
  assert (Hnd : ~ In c_dot (int_digits (n / pow10 p))).
  { intros H. apply int_digits_are_digits in H. exact (digit_not_dot _ H eq_refl). }
  assert (Hq : 0 <= n / pow10 p) by (apply Z.div_pos; lia).
  destruct p as [|p'].
  - rewrite app_nil_r. rewrite split_at_none by exact Hnd.
    destruct (int_digits (n / pow10 0)) as [|c t] eqn:E; [exfalso; exact (int_digits_nonempty _ E)|].
    rewrite <- E. rewrite int_digits_value by exact Hq.
    unfold pow10. cbn [Z.of_nat Z.pow Z.to_pos]. rewrite Z.div_1_r. reflexivity.
  - rewrite split_at_some by exact Hnd.
    destruct (int_digits (n / pow10 (S p'))) as [|c t] eqn:E; [exfalso; exact (int_digits_nonempty _ E)|].
    rewrite <- E. rewrite int_digits_value by exact Hq.
    rewrite of_digits_frac by (apply Z.mod_pos_bound; lia).
    rewrite frac_digits_length. f_equal. f_equal.
    rewrite Z.mod_mod by lia. pose proof (Z.div_mod n (pow10 (S p'))). lia.
Qed.

Lemma parse_fmt_time p x : (0 <= x)%Q -> parse_time (fmt_time p x) = Some (rq p x).
Proof.
  intros Hx. unfold fmt_time. destruct (Qlt_le_dec x 0) as [H|H]; [exfalso; lra|].
  cbn [app]. apply parse_dec_str. apply fmt_num_nonneg.
Qed.

Lemma dec_str_chars p n c : In c (dec_str p n) -> is_digit c \/ c = c_dot.
Proof.
  unfold dec_str. intros H. apply in_app_or in H. destruct H as [H|H].
  - left. exact (int_digits_are_digits _ _ H).
  - destruct p as [|p']; [destruct H|]. destruct H as [H|H]; [right; symmetry; exact H|].
    left. exact (frac_digits_are_digits _ _ _ H).
Qed.

Lemma fmt_time_no_nl p x : ~ In c_nl (fmt_time p x).
Proof.
  unfold fmt_time. intros H. apply in_app_or in H. destruct H as [H|H].
  - destruct (Qlt_le_dec x 0); [destruct H as [H|[]]; discriminate H|destruct H].
  - apply dec_str_chars in H. destruct H as [H|H]; [unfold is_digit, c_nl in H; lia|discriminate H].
Qed.

Lemma int_digits_no_nl q : ~ In c_nl (int_digits q).
Proof. intros H. apply int_digits_are_digits in H. unfold is_digit, c_nl in H. lia. Qed.
