(* C01 - infrastructure of the source tie of `_string_matching`: what reaches SrcRun.ext01 call by call, rules for
   evaluating an expression node by node and for executing one statement (for any environment), and the tactics of
   the symbolic runs. *)
From Coq Require Import ZArith QArith List String Bool Arith Lia ZifyBool ZifyNat.
From PV Require Export MiniPy.Lemmas.
From PV Require Import MiniPy.Syntax MiniPy.Interp MiniTorch.Ops MiniTorch.Lemmas MiniTorch.OpsC07 MiniTorch.LemmasC07
  MiniTorch.OpsC01 MiniTorch.LemmasC01 MiniTorch.OpsC01P MiniTorch.LemmasC01P.
From PV Require Import Gen.C01Src C01.SrcRun C01.SrcRunP C01.TieMath.
From PV Require C01.Model.
Import ListNotations.
Local Open Scope string_scope.

(* reduction of the runs: the tensor operations, the encodings and the environments stay folded *)
Ltac cbn_t :=
  cbn -[dec01 enc_b enc_i enc_x tab2 tab3 qz Z.add Z.sub select0 slice0 set_slice0 broadcast where_f min_dim gather0 unsqueeze
        squeeze_dim expand2 triu_f transpose2 arange_f full fadd fsub fmul fdiv fmin b2f z2f empty2 set_select0 size_dim
        expand_as2 arange ge_t masked_fill long_mul_float ext01 ext01p ext01p_new zf ofx seq Qeq_bool Qcompare any_b].

Section ExtLemmas.
  Notation ext := ext01.
  (* ext01 decodes its tensor arguments and hands them to the operation *)
  Ltac ext_by := unfold ext01, ext01_ops; cbn_t; now rewrite ?dec01_enc_i, ?dec01_enc_b, ?dec01_enc_x.
  Lemma ext_cmp_lt c y st : ext "compare" [VStr "lt"; VInt c; enc_i y] [] st = Ok (enc_b (map_t (fun v => Z.ltb c v) y)) st.
  Proof. ext_by. Qed.
  Lemma ext_cmp_ge x c st : ext "compare" [VStr "ge"; enc_i x; VInt c] [] st = Ok (enc_b (ge_s x c)) st.
  Proof. ext_by. Qed.
  Lemma ext_cmp_eq x c st : ext "compare" [VStr "eq"; enc_i x; VInt c] [] st = Ok (enc_b (eq_s x c)) st.
  Proof. ext_by. Qed.
  Lemma ext_cmp_ne x y st : ext "compare" [VStr "ne"; enc_i x; enc_i y] [] st =
    ret01 "ne" (option_map AB (cmp_i (fun u v => negb (Z.eqb u v)) x y)) st.
  Proof. ext_by. Qed.
  Lemma ext_float_b x st : ext "$method.float" [enc_b x] [] st = Ok (enc_x (bool_to_float x)) st.
  Proof. ext_by. Qed.
  Lemma ext_getitem_int_i x i st : ext "$getitem" [enc_i x; VInt i] [] st =
    match select0 x i with Some (Some r) => Ok (enc_i r) st | Some None => Exc index_error st | None => oob "getitem" end.
  Proof. ext_by. Qed.
  Lemma ext_mul_q_x q y st : ext "operator" [VStr "mul"; VQ q; enc_x y] [] st = Ok (enc_x (map_t (fmul (Fq q)) y)) st.
  Proof. ext_by. Qed.
  Lemma ext_mul_x_q x q st : ext "operator" [VStr "mul"; enc_x x; VQ q] [] st = Ok (enc_x (map_t (fun e => fmul e (Fq q)) x)) st.
  Proof. ext_by. Qed.
  Lemma ext_add_x x y st : ext "operator" [VStr "add"; enc_x x; enc_x y] [] st = ret01 "add" (option_map AX (bin_f fadd x y)) st.
  Proof. ext_by. Qed.
  Lemma ext_sub_x x y st : ext "operator" [VStr "sub"; enc_x x; enc_x y] [] st = ret01 "sub" (option_map AX (bin_f fsub x y)) st.
  Proof. ext_by. Qed.
  Lemma ext_getitem_slice_x x a b st :
    ext "$getitem" [enc_x x; VTuple [VStr "$slice"; a; b; VNone]] [] st =
    match dec_bound a, dec_bound b with
    | Some a', Some b' => ret01 "getitem slice" (option_map AX (slice0 x a' b')) st
    | _, _ => Stuck "getitem"
    end.
  Proof. unfold ext01, ext01_ops. cbn_t. rewrite dec01_enc_x. destruct (dec_bound a), (dec_bound b); reflexivity. Qed.
  Lemma ext_setitem_slice_x x a b y st :
    ext "$setitem" [enc_x x; VTuple [VStr "$slice"; a; b; VNone]; enc_x y] [] st =
    match dec_bound a, dec_bound b with
    | Some a', Some b' => ret01 "setitem slice" (option_map AX (set_slice0 x a' b' y)) st
    | _, _ => Stuck "setitem"
    end.
  Proof. unfold ext01, ext01_ops. cbn_t. rewrite !dec01_enc_x. destruct (dec_bound a), (dec_bound b); reflexivity. Qed.
  Lemma ext_torch_min x y st : ext "torch.min" [enc_x x; enc_x y] [] st = ret01 "min" (option_map AX (bin_f fmin x y)) st.
  Proof. ext_by. Qed.
  Lemma ext_min_dim x d st : ext "$method.min" [enc_x x; VInt d] [] st =
    match min_dim x d with
    | Some (Some (v, i)) => Ok (VTuple [enc_x v; enc_i i]) st
    | Some None => Exc index_error st
    | None => oob "min"
    end.
  Proof. ext_by. Qed.
  Lemma ext_where c x y st : ext "torch.where" [enc_b c; enc_x x; enc_x y] [] st = ret01 "where" (option_map AX (where_f c x y)) st.
  Proof. ext_by. Qed.
  Lemma ext_dim_i x st : ext "$method.dim" [enc_i x] [] st = Ok (VInt (Z.of_nat (List.length (shp x)))) st.
  Proof. ext_by. Qed.
  Lemma ext_t_i x st : ext "$method.t" [enc_i x] [] st = ret01 "t" (option_map AI (transpose2 0%Z x)) st.
  Proof. ext_by. Qed.
  Lemma ext_empty st : ext "torch.empty" [VInt 0] [] st = Ok (enc_x (mkTn [0%nat] [])) st.
  Proof. reflexivity. Qed.
  Lemma ext_detach_i x st : ext "$method.detach" [enc_i x] [] st = Ok (enc_i x) st.
  Proof. ext_by. Qed.
  Lemma ext_shape_i x st : ext "$attr.shape" [enc_i x] [] st = Ok (VTuple (map (fun n => VInt (Z.of_nat n)) (shp x))) st.
  Proof. ext_by. Qed.
  Lemma ext_device_i x st : ext "$attr.device" [enc_i x] [] st = Ok device_token st.
  Proof. ext_by. Qed.
  Lemma ext_dtype_i x st : ext "$attr.dtype" [enc_i x] [] st = Ok long_token st.
  Proof. ext_by. Qed.
  Lemma ext_dtype_x x st : ext "$attr.dtype" [enc_x x] [] st = Ok float_token st.
  Proof. ext_by. Qed.
  Lemma ext_lens tok e d st : ext "_lens_from_eos" [tok; e; d] [] st =
    C07.SrcRun.call_body (fun x => x) sm_lens (("tok", tok) :: ("eos", e) :: ("dim", d) :: C07.SrcRun.globals07) st.
  Proof. reflexivity. Qed.
  Lemma ext_add_i_int x c st : ext "operator" [VStr "add"; enc_i x; VInt c] [] st = Ok (enc_i (add_s x c)) st.
  Proof. ext_by. Qed.
  Lemma ext_sub_i x y st : ext "operator" [VStr "sub"; enc_i x; enc_i y] [] st = ret01 "sub" (option_map AI (bin_i Z.sub x y)) st.
  Proof. ext_by. Qed.
  Lemma ext_div_x x y st : ext "operator" [VStr "truediv"; enc_x x; enc_x y] [] st = ret01 "truediv" (option_map AX (bin_f fdiv x y)) st.
  Proof. ext_by. Qed.
  Lemma ext_any x st : ext "$method.any" [enc_b x] [] st = Ok (VBool (any_b x)) st.
  Proof. ext_by. Qed.
  Lemma ext_to_b_long x st : ext "$method.to" [enc_b x; long_token] [] st = Ok (enc_i (bool_to_long x)) st.
  Proof. ext_by. Qed.
  Lemma ext_to_b_float x st : ext "$method.to" [enc_b x; float_token] [] st = Ok (enc_x (bool_to_float x)) st.
  Proof. ext_by. Qed.
  Lemma ext_to_i_float x st : ext "$method.to" [enc_i x; float_token] [] st = Ok (enc_x (long_to_float x)) st.
  Proof. ext_by. Qed.
  Lemma ext_full n v st : ext "torch.full" [VTuple [VInt n]; VInt v] [("device", device_token); ("dtype", long_token)] st =
    if Z.ltb n 0 then oob "full" else Ok (enc_i (full [Z.to_nat n] v)) st.
  Proof. reflexivity. Qed.
  Lemma ext_arange_f n st : ext "torch.arange" [VInt n] [("device", device_token); ("dtype", float_token)] st =
    ret01 "arange" (option_map AX (arange_f n)) st.
  Proof. reflexivity. Qed.
  Lemma ext_float_inf st : ext "float" [VStr "inf"] [] st = Ok (VInf true) st.
  Proof. reflexivity. Qed.
  Lemma ext_full_like_inf x st : ext "torch.full_like" [enc_x x; VInf true] [] st = Ok (enc_x (full (shp x) FPInf)) st.
  Proof. ext_by. Qed.
  Lemma ext_triu x k st : ext "$method.triu" [enc_x x; VInt k] [] st = ret01 "triu" (option_map AX (triu_f x k)) st.
  Proof. ext_by. Qed.
  Lemma ext_unsqueeze_x x d st : ext "$method.unsqueeze" [enc_x x; VInt d] [] st = ret01 "unsqueeze" (option_map AX (unsqueeze x d)) st.
  Proof. ext_by. Qed.
  Lemma ext_unsqueeze_i x d st : ext "$method.unsqueeze" [enc_i x; VInt d] [] st = ret01 "unsqueeze" (option_map AI (unsqueeze x d)) st.
  Proof. ext_by. Qed.
  Lemma ext_squeeze_x x d st : ext "$method.squeeze" [enc_x x; VInt d] [] st = ret01 "squeeze" (option_map AX (squeeze_dim x d)) st.
  Proof. ext_by. Qed.
  Lemma ext_expand_x x a b st : ext "$method.expand" [enc_x x; VInt a; VInt b] [] st = ret01 "expand" (option_map AX (expand2 FNaN x a b)) st.
  Proof. ext_by. Qed.
  Lemma ext_gather x y st : ext "$method.gather" [enc_x x; VInt 0; enc_i y] [] st = ret01 "gather" (option_map AX (gather0 x y)) st.
  Proof. ext_by. Qed.
  Lemma ext_eq_m x c st : ext "$method.eq" [enc_i x; VInt c] [] st = Ok (enc_b (eq_s x c)) st.
  Proof. ext_by. Qed.
  Lemma ext_gt_m x c st : ext "$method.gt" [enc_i x; VInt c] [] st = Ok (enc_b (cmp_scalar Z.gtb x c)) st.
  Proof. ext_by. Qed.
End ExtLemmas.

Lemma method_enc_i t m args : method (enc_i t) m args = None.  Proof. reflexivity. Qed.
Lemma method_enc_b t m args : method (enc_b t) m args = None.  Proof. reflexivity. Qed.
Lemma method_enc_x t m args : method (enc_x t) m args = None.  Proof. reflexivity. Qed.
Lemma foreign_enc_i t : foreign (enc_i t) = true.  Proof. reflexivity. Qed.
Lemma foreign_enc_b t : foreign (enc_b t) = true.  Proof. reflexivity. Qed.
Lemma foreign_enc_x t : foreign (enc_x t) = true.  Proof. reflexivity. Qed.
Lemma subscript_enc_i_int t i st : subscript (enc_i t) (VInt i) st = Stuck "item of a library object".
Proof. reflexivity. Qed.
Lemma subscript_enc_x_tuple t k st : subscript (enc_x t) (VTuple k) st = Stuck "subscript".
Proof. reflexivity. Qed.
Lemma binop_mul_q_x q t st : binop_eval Mul (VQ q) (enc_x t) st = Stuck "mul".  Proof. reflexivity. Qed.
Lemma binop_mul_x_q q t st : binop_eval Mul (enc_x t) (VQ q) st = Stuck "mul".  Proof. reflexivity. Qed.
Lemma binop_add_x_x t u st : binop_eval Add (enc_x t) (enc_x u) st = Stuck "add".  Proof. reflexivity. Qed.
Lemma binop_sub_x_x t u st : binop_eval Sub (enc_x t) (enc_x u) st = Stuck "sub".  Proof. reflexivity. Qed.
Lemma binop_div_x_x t u st : binop_eval Div (enc_x t) (enc_x u) st = Stuck "truediv".  Proof. reflexivity. Qed.
Lemma binop_add_i_int t c st : binop_eval Add (enc_i t) (VInt c) st = Stuck "add".  Proof. reflexivity. Qed.
Lemma binop_sub_i_i t u st : binop_eval Sub (enc_i t) (enc_i u) st = Stuck "sub".  Proof. reflexivity. Qed.

Lemma attribute_enc_i ext t a st : attribute ext (enc_i t) a st = ext ("$attr." ++ a) [enc_i t] [] st.  Proof. reflexivity. Qed.
Lemma attribute_enc_x ext t a st : attribute ext (enc_x t) a st = ext ("$attr." ++ a) [enc_x t] [] st.  Proof. reflexivity. Qed.

Section Exec.
  Variable E : string -> list val -> list (string * val) -> state -> outcome val.
  (* `if c: pass` (a warning the model leaves out): whatever the test says *)
  Lemma gexec_seq_if_pass c b st v st1 : eval E c st = Ok v st1 -> exec E (SSeq (SIf c SPass SPass) b) st = exec E b st1.
  Proof. intros H. rewrite (exec_seq_if E c SPass SPass b st v st1 H). now destruct (truthy v). Qed.
  (* x[k] = e on a float tensor held by the variable x (the evaluations leave the state as it is) *)
  Lemma gexec_setitem x ke e st v kv t nv :
    eval E e st = Ok v st -> lookup x (vars st) = Some (enc_x t) -> eval E ke st = Ok kv st ->
    E "$setitem" [enc_x t; kv; v] [] st = Ok nv st ->
    exec E (SAssign [TSub (EName x) ke] e) st = Ok CNormal (set_var x nv st).
  Proof.
    intros He Hx Hk Hs. cbn [exec]. rewrite He. cbn [bind assign_all place_of store eval]. rewrite Hx. cbn [bind].
    rewrite Hk. cbn [bind]. unfold enc_x at 1. fold (enc_x t). rewrite Hs. cbn [bind]. reflexivity.
  Qed.
  Lemma gexec_seq_setitem x ke e b st v kv t nv :
    eval E e st = Ok v st -> lookup x (vars st) = Some (enc_x t) -> eval E ke st = Ok kv st ->
    E "$setitem" [enc_x t; kv; v] [] st = Ok nv st ->
    exec E (SSeq (SAssign [TSub (EName x) ke] e) b) st = exec E b (set_var x nv st).
  Proof. intros He Hx Hk Hs. now rewrite exec_seq, (gexec_setitem x ke e st v kv t nv). Qed.
End Exec.

(* Evaluation of an expression that leaves the state as it is, node by node: the sub-expressions first, then what the
   node itself does with their values (the last premise of each rule; for a foreign call it is the call). *)
Section Eval.
  Variable E : string -> list val -> list (string * val) -> state -> outcome val.

  Fixpoint evals (l : list expr) (st : state) {struct l} : outcome (list val) :=
    match l with
    | [] => Ok [] st
    | EStar x :: r =>
        bind (eval E x st) (fun v st1 =>
          match container_items v with
          | Some items => bind (evals r st1) (fun vs st2 => Ok (items ++ vs)%list st2)
          | None => Stuck "star of a non-container"
          end)
    | x :: r => bind (eval E x st) (fun v st1 => bind (evals r st1) (fun vs st2 => Ok (v :: vs) st2))
    end.

  Fixpoint evalkw (l : list (string * expr)) (st : state) {struct l} : outcome (list (string * val)) :=
    match l with
    | [] => Ok [] st
    | (n, x) :: r => bind (eval E x st) (fun v st1 => bind (evalkw r st1) (fun vs st2 => Ok ((n, v) :: vs) st2))
    end.

  Lemma ev_attr o a st ov r : eval E o st = Ok ov st -> attribute E ov a st = r -> eval E (EAttr o a) st = r.
  Proof. intros Ho Hr. cbn [eval]. now rewrite Ho. Qed.
  Lemma ev_sub o k st ov kv r : eval E o st = Ok ov st -> eval E k st = Ok kv st ->
    match subscript ov kv st with Stuck _ => E "$getitem" [ov; kv] [] st | x => x end = r -> eval E (ESub o k) st = r.
  Proof. intros Ho Hk Hr. cbn [eval]. rewrite Ho. cbn [bind]. now rewrite Hk. Qed.
  Lemma ev_bin op a b st av bv r : eval E a st = Ok av st -> eval E b st = Ok bv st ->
    match binop_eval op av bv st with Stuck _ => E "operator" [VStr (binop_name op); av; bv] [] st | x => x end = r ->
    eval E (EBin op a b) st = r.
  Proof. intros Ha Hb Hr. cbn [eval]. rewrite Ha. cbn [bind]. now rewrite Hb. Qed.
  Lemma ev_cmp op a b st av bv r : eval E a st = Ok av st -> eval E b st = Ok bv st ->
    (if (rich op && (foreign av || foreign bv))%bool then E "compare" [VStr (cmpop_name op); av; bv] [] st
     else match cmp_eval op av bv with
          | Some x => Ok (VBool x) st
          | None => E "compare" [VStr (cmpop_name op); av; bv] [] st
          end) = r ->
    eval E (ECmp op a b) st = r.
  Proof. intros Ha Hb Hr. cbn [eval]. rewrite Ha. cbn [bind]. now rewrite Hb. Qed.
  Lemma ev_neg a st av r : eval E a st = Ok av st ->
    match av with
    | VInt z => Ok (VInt (- z)) st
    | VQ q => Ok (VQ (Qopp q)) st
    | VInf p => Ok (VInf (negb p)) st
    | _ => E "$neg" [av] [] st
    end = r -> eval E (ENeg a) st = r.
  Proof. intros Ha Hr. cbn [eval]. now rewrite Ha. Qed.
  Lemma ev_not a st av b : eval E a st = Ok av st -> negb (truthy av) = b -> eval E (ENot a) st = Ok (VBool b) st.
  Proof. intros Ha Hb. cbn [eval]. rewrite Ha. cbn [bind]. now rewrite Hb. Qed.
  Lemma ev_and a b st av r : eval E a st = Ok av st -> (if truthy av then eval E b st else Ok av st) = r ->
    eval E (EAnd a b) st = r.
  Proof. intros Ha Hr. cbn [eval]. now rewrite Ha. Qed.
  Lemma ev_or a b st av r : eval E a st = Ok av st -> (if truthy av then Ok av st else eval E b st) = r ->
    eval E (EOr a b) st = r.
  Proof. intros Ha Hr. cbn [eval]. now rewrite Ha. Qed.
  Lemma ev_ifexp c a b st cv r : eval E c st = Ok cv st -> (if truthy cv then eval E a st else eval E b st) = r ->
    eval E (EIfExp c a b) st = r.
  Proof. intros Hc Hr. cbn [eval]. now rewrite Hc. Qed.
  Lemma ev_call f args kw st vs kvs r : evals args st = Ok vs st -> evalkw kw st = Ok kvs st ->
    match kvs, builtin f vs st with [], Some o => o | _, _ => E f vs kvs st end = r ->
    eval E (ECall f args kw) st = r.
  Proof. intros Ha Hk Hr. cbn [eval]. fold evals evalkw. rewrite Ha. cbn [bind]. now rewrite Hk. Qed.
  Lemma ev_meth o m args st ov vs r : eval E o st = Ok ov st -> evals args st = Ok vs st ->
    match method ov m vs with
    | Some (x, None) => Ok x st
    | None => E ("$method." ++ m) (ov :: vs) [] st
    | _ => Stuck ("method " ++ m)
    end = r ->
    eval E (EMeth o m args []) st = r.
  Proof. intros Ho Ha Hr. cbn [eval]. fold evals. rewrite Ho. cbn [bind]. rewrite Ha. cbn [bind]. rewrite <- Hr. destruct (method ov m vs) as [[x [y|]]|]; reflexivity. Qed.
  (* over encoded tensors the interpreter's own operation does not apply and the node is the foreign call *)
  Lemma sub_call ov kv st w r : subscript ov kv st = Stuck w -> E "$getitem" [ov; kv] [] st = r ->
    match subscript ov kv st with Stuck _ => E "$getitem" [ov; kv] [] st | x => x end = r.
  Proof. intros H. now rewrite H. Qed.
  Lemma bin_call op av bv st w r : binop_eval op av bv st = Stuck w ->
    E "operator" [VStr (binop_name op); av; bv] [] st = r ->
    match binop_eval op av bv st with Stuck _ => E "operator" [VStr (binop_name op); av; bv] [] st | x => x end = r.
  Proof. intros H. now rewrite H. Qed.
  Lemma cmp_call op av bv st r : (rich op && (foreign av || foreign bv))%bool = true ->
    E "compare" [VStr (cmpop_name op); av; bv] [] st = r ->
    (if (rich op && (foreign av || foreign bv))%bool then E "compare" [VStr (cmpop_name op); av; bv] [] st
     else match cmp_eval op av bv with
          | Some x => Ok (VBool x) st
          | None => E "compare" [VStr (cmpop_name op); av; bv] [] st
          end) = r.
  Proof. intros H. now rewrite H. Qed.
  Lemma fun_call f vs kvs st r : builtin f vs st = None -> E f vs kvs st = r ->
    match kvs, builtin f vs st with [], Some o => o | _, _ => E f vs kvs st end = r.
  Proof. intros H. rewrite H. now destruct kvs. Qed.
  Lemma meth_call ov m vs st r : method ov m vs = None -> E ("$method." ++ m) (ov :: vs) [] st = r ->
    match method ov m vs with
    | Some (x, None) => Ok x st
    | None => E ("$method." ++ m) (ov :: vs) [] st
    | _ => Stuck ("method " ++ m)
    end = r.
  Proof. intros H. now rewrite H. Qed.

  Lemma ev_tuple items st vs : evals items st = Ok vs st -> eval E (ETupleLit items) st = Ok (VTuple vs) st.
  Proof. intros H. cbn [eval]. fold evals. now rewrite H. Qed.
  Lemma ev_list items st vs : evals items st = Ok vs st -> eval E (EListLit items) st = Ok (VList vs) st.
  Proof. intros H. cbn [eval]. fold evals. now rewrite H. Qed.
  Lemma evals_nil st : evals [] st = Ok [] st.
  Proof. reflexivity. Qed.
  Lemma evals_cons x r st v vs : eval E x st = Ok v st -> evals r st = Ok vs st -> evals (x :: r) st = Ok (v :: vs) st.
  Proof. intros Hx Hr. destruct x; try discriminate Hx; cbn [evals]; rewrite Hx; cbn [bind]; now rewrite Hr. Qed.
  Lemma evalkw_nil st : evalkw [] st = Ok [] st.
  Proof. reflexivity. Qed.
  Lemma evalkw_cons n x r st v vs : eval E x st = Ok v st -> evalkw r st = Ok vs st ->
    evalkw ((n, x) :: r) st = Ok ((n, v) :: vs) st.
  Proof. intros Hx Hr. cbn [evalkw]. rewrite Hx. cbn [bind]. now rewrite Hr. Qed.
End Eval.

Create HintDb c01 discriminated.
#[export] Hint Rewrite lookup_update foreign_enc_i foreign_enc_b foreign_enc_x method_enc_i method_enc_b method_enc_x
  attribute_enc_i attribute_enc_x
  subscript_enc_i_int subscript_enc_x_tuple binop_mul_q_x binop_mul_x_q binop_add_x_x binop_sub_x_x binop_div_x_x
  binop_add_i_int binop_sub_i_i : c01.

(* the equations of the foreign calls, found by the name of the call and the kinds of its arguments *)
Create HintDb c01x discriminated.
#[export] Hint Resolve ext_cmp_lt ext_cmp_ge ext_cmp_eq ext_cmp_ne ext_float_b ext_getitem_int_i ext_mul_q_x ext_mul_x_q ext_add_x ext_sub_x
  ext_getitem_slice_x ext_setitem_slice_x ext_torch_min ext_min_dim ext_where
  ext_dim_i ext_t_i ext_empty ext_detach_i ext_shape_i ext_device_i ext_dtype_i ext_dtype_x ext_add_i_int ext_sub_i ext_div_x
  ext_any ext_to_b_long ext_to_b_float ext_to_i_float ext_full ext_arange_f ext_float_inf ext_full_like_inf ext_triu
  ext_unsqueeze_x ext_unsqueeze_i ext_squeeze_x ext_expand_x ext_gather ext_eq_m ext_gt_m : c01x.

(* an environment that answers as ext01 wherever ext01 answers ([ext01] itself, [SrcRunP.ext01p g]) *)
Definition extends (E : string -> list val -> list (string * val) -> state -> outcome val) : Prop :=
  forall f a k st, E f a k st = match ext01 f a k st with Stuck _ => E f a k st | r => r end.

Lemma extends_ext01 : extends ext01.
Proof. intros f a k st. now destruct (ext01 f a k st). Qed.

Lemma extends_call E (HE : extends E) f a k st r :
  ext01 f a k st = r -> E f a k st = match r with Stuck _ => E f a k st | x => x end.
Proof. intros <-. rewrite (HE f a k st) at 1. now destruct (ext01 f a k st). Qed.

Ltac look := repeat match goal with H : lookup ?x (vars ?s) = _ |- context [lookup ?x (vars ?s)] => rewrite H end.
(* a foreign call at the head of the left-hand side is replaced by the right-hand side of its equation *)
Ltac ext_step :=
  eapply eq_trans;
  [ first [ match goal with HE : extends ?E |- ?E _ _ _ _ = _ => apply (extends_call E HE) end; solve [auto with c01x nocore]
          | solve [auto with c01x nocore] ] |].
Ltac to_call :=
  first [ eapply meth_call; [reflexivity|] | eapply sub_call; [reflexivity|] | eapply bin_call; [reflexivity|]
        | eapply cmp_call; [reflexivity|] | eapply fun_call; [reflexivity|]
        | rewrite attribute_enc_i | rewrite attribute_enc_x ];
  cbn [append binop_name cmpop_name].
Ltac ev := repeat (progress (cbn_t; autorewrite with c01; try ext_step; look)).

(* normal forms of the operations on tabulated arguments, tried only for the operation that occurs *)
Ltac norm :=
  unfold bool_to_float, bool_to_long, long_to_float, ge_s, eq_s, cmp_scalar, add_s, bin_f, bin_i, cmp_i, map_t, ge_t,
    long_mul_float; cbn [shp dat];
  rewrite ?map_map, ?map_tab2;
  repeat match goal with
  | |- context [@broadcast] =>
      progress rewrite ?broadcast_mat_row, ?broadcast_same2, ?broadcast_same1, ?broadcast_3_mat, ?broadcast_col_row,
        ?broadcast_col_vec
  | |- context [where_f] => progress rewrite ?where_row_mat, ?where_same1, ?where_1row_mat
  | |- context [@slice0] => progress rewrite ?slice0_init, ?slice0_tail
  | |- context [@set_slice0] => rewrite set_slice0_tail
  | |- context [@unsqueeze] => progress rewrite ?unsqueeze_1_0, ?unsqueeze_1_1, ?unsqueeze_2_m1
  | |- context [@squeeze_dim] => rewrite squeeze_2_0
  | |- context [@masked_fill] => rewrite masked_fill_mat
  | |- context [@size_dim] => rewrite size_dim_2_0
  | |- context [@transpose2] => rewrite transpose2_mat
  end;
  cbn [option_map ret01 enc01].
Ltac evn := repeat (progress (ev; norm)).

(* [eval E e st = Ok _ st] by the rules above; [leaf] closes the last premise of each node *)
Ltac ev_expr leaf :=
  lazymatch goal with
  | |- eval _ (EConst _) _ = _ => apply eval_const
  | |- eval _ (EName _) _ = _ =>
      apply eval_name; match goal with L : lookup ?x (vars ?s) = _ |- lookup ?x (vars ?s) = _ => exact L end
  | |- eval _ (EAttr _ _) _ = _ => eapply ev_attr; [ev_expr leaf | leaf]
  | |- eval _ (ESub _ _) _ = _ => eapply ev_sub; [ev_expr leaf | ev_expr leaf | leaf]
  | |- eval _ (EBin _ _ _) _ = _ => eapply ev_bin; [ev_expr leaf | ev_expr leaf | leaf]
  | |- eval _ (ECmp _ _ _) _ = _ => eapply ev_cmp; [ev_expr leaf | ev_expr leaf | leaf]
  | |- eval _ (ENeg _) _ = _ => eapply ev_neg; [ev_expr leaf | leaf]
  | |- eval _ (ENot _) _ = _ => eapply ev_not; [ev_expr leaf | cbn [negb truthy]; reflexivity]
  | |- eval _ (EAnd _ _) _ = _ => eapply ev_and; [ev_expr leaf | cbn [truthy]; ev_expr leaf]
  | |- eval _ (EOr _ _) _ = _ => eapply ev_or; [ev_expr leaf | cbn [truthy]; ev_expr leaf]
  | |- eval _ (EIfExp _ _ _) _ = _ => eapply ev_ifexp; [ev_expr leaf | cbn [truthy]; ev_expr leaf]
  | |- eval _ (ECall _ _ _) _ = _ => eapply ev_call; [ev_expr leaf | ev_expr leaf | leaf]
  | |- eval _ (EMeth _ _ _ []) _ = _ => eapply ev_meth; [ev_expr leaf | ev_expr leaf | leaf]
  | |- eval _ (ETupleLit _) _ = _ => eapply ev_tuple; ev_expr leaf
  | |- eval _ (EListLit _) _ = _ => eapply ev_list; ev_expr leaf
  | |- evals _ [] _ = _ => apply evals_nil
  | |- evals _ (_ :: _) _ = _ => eapply evals_cons; [ev_expr leaf | ev_expr leaf]
  | |- evalkw _ [] _ = _ => apply evalkw_nil
  | |- evalkw _ (_ :: _) _ = _ => eapply evalkw_cons; [ev_expr leaf | ev_expr leaf]
  | |- Ok _ _ = _ => reflexivity
  | |- _ => leaf
  end.
(* at a node: the call's equation and the normal forms; [tac] where that stops short; the value must have been
   reached ([ok_refl]: no evaluation of tensor operations by unification) *)
Ltac ok_refl := lazymatch goal with |- Ok _ _ = Ok _ _ => reflexivity end.
Ltac eval_with tac :=
  ev_expr ltac:(first [solve [to_call; ext_step; cbn_t; norm; cbn_t; ok_refl] | solve [tac] | solve [cbn_t; ok_refl] | solve [evn; ok_refl]]).
Ltac eval_std := eval_with fail.

(* Abstract states: all that is known of a state is a set of [lookup x (vars st) = Some v] hypotheses. *)
Definition runs_to (P : state -> Prop) (o : outcome ctl) : Prop := exists st', o = Ok CNormal st' /\ P st'.

Lemma runs_to_ok : forall (P : state -> Prop) st, P st -> runs_to P (Ok CNormal st).
Proof. intros P st H. exists st. split; [reflexivity|exact H]. Qed.

(* a block that runs to [P], then the rest: one statement for whatever is claimed of the whole ([runs_to Q],
   [returns v], [raises n]) *)
Lemma run_seq E (P : state -> Prop) (Q : outcome ctl -> Prop) a b st :
  runs_to P (exec E a st) -> (forall st1, P st1 -> Q (exec E b st1)) -> Q (exec E (SSeq a b) st).
Proof. intros [st1 [He P1]] Hb. cbn [exec]. rewrite He. cbn [bind]. now apply Hb. Qed.

Lemma lookup_set_var_ne : forall z y v st w, String.eqb z y = false ->
  lookup z (vars st) = w -> lookup z (vars (set_var y v st)) = w.
Proof. intros z y v st w E H. unfold set_var. cbn [vars]. rewrite lookup_update, E. exact H. Qed.

Lemma lookup_set_var_eq : forall y v st, lookup y (vars (set_var y v st)) = Some v.
Proof. intros. unfold set_var. cbn [vars]. rewrite lookup_update, String.eqb_refl. reflexivity. Qed.

(* replace [set_var y v st] in the goal by a fresh state variable and carry the lookup hypotheses over *)
Ltac push_state :=
  match goal with
  | |- context [set_var ?y ?v ?st] =>
      is_var st;
      let stn := fresh "st" in
      let Hst := fresh "Hst" in
      remember (set_var y v st) as stn eqn:Hst;
      repeat match goal with
      | H : lookup ?z (vars st) = ?w |- _ =>
          let b := eval vm_compute in (String.eqb z y) in
          lazymatch b with
          | true => clear H
          | false =>
              let H' := fresh "L" in
              assert (H' : lookup z (vars stn) = w) by (rewrite Hst; exact (lookup_set_var_ne z y v st w eq_refl H));
              clear H
          end
      end;
      let Hy := fresh "L" in
      assert (Hy : lookup y (vars stn) = Some v) by (rewrite Hst; apply lookup_set_var_eq);
      clear Hst
  end.

(* One statement at the head of a sequence.  The goals of the runs are [P (exec E prog st)] ([runs_to Q],
   [returns v], ...).  A step proves the equation [exec E prog st = exec E rest st'] of its statement and replaces the
   run by it ([eq_ind_r]); nothing searches the program.  Then the new state is named and the lookups are carried over. *)
Lemma name_state (Q : state -> Prop) y v st :
  (forall s, (forall z w, String.eqb z y = false -> lookup z (vars st) = w -> lookup z (vars s) = w) ->
             lookup y (vars s) = Some v -> Q s) ->
  Q (set_var y v st).
Proof. intros H. apply H; [intros z w; apply lookup_set_var_ne | apply lookup_set_var_eq]. Qed.

Ltac step_by eqn := lazymatch goal with |- ?P (exec _ _ _) => refine (eq_ind_r P _ eqn) end.

(* the goal is [Q (set_var y v st)]: a name for that state, the lookups known at [st] carried over *)
Ltac name_under Q st :=
  let stn := fresh "st" in
  let Hne := fresh "Hne" in
  let Hy := fresh "L" in
  apply (name_state Q); intros stn Hne Hy;
  repeat match goal with
  | H : lookup ?z (vars st) = ?w |- _ =>
      try (let H' := fresh "L" in pose proof (Hne z w eq_refl H) as H'); clear H
  end;
  clear Hne.
Ltac new_state :=
  lazymatch goal with
  | |- ?P (?run (set_var ?y ?v ?st)) => name_under (fun s => P (run s)) st
  | |- _ => push_state
  end.

Ltac run_form :=
  lazymatch goal with
  | |- _ (exec _ _ _) => idtac
  | |- context [exec ?E ?p ?st] => pattern (exec E p st)
  | |- _ => idtac
  end.
Ltac seqnorm :=
  run_form;
  repeat (lazymatch goal with
          | |- _ (exec ?E (SSeq (SSeq ?a ?b) ?c) ?st) => step_by (exec_seq_assoc E a b c st)
          | |- _ (exec ?E (SSeq SPass ?b) ?st) => step_by (exec_seq_pass E b st)
          | |- _ (exec _ (SSeq _ _) _) => fail
          | |- _ (exec _ SPass _) => fail
          | |- _ (exec ?E ?a ?st) => step_by (eq_sym (exec_seq_pass_r E a st))
          end; run_form).

Ltac assign tac :=
  seqnorm;
  lazymatch goal with
  | |- _ (exec ?E (SSeq (SAssign [TName ?x] ?e) ?b) ?st) =>
      let H := fresh "Hev" in
      eassert (H : eval E e st = Ok _ st); [ solve [eval_with tac] | step_by (exec_seq_assign E x e b st _ _ H); clear H; new_state ]
  end.
Ltac asg := assign fail.

(* the same with the value given (for expressions whose evaluation splits on a flag) *)
Ltac assign_v v tac :=
  seqnorm;
  lazymatch goal with
  | |- _ (exec ?E (SSeq (SAssign [TName ?x] ?e) ?b) ?st) =>
      let H := fresh "Hev" in
      assert (H : eval E e st = Ok v st); [ solve [tac] | step_by (exec_seq_assign E x e b st _ _ H); clear H; new_state ]
  end.

Ltac assign3 :=
  seqnorm;
  lazymatch goal with
  | |- _ (exec ?E (SSeq (SAssign [TName ?x; TName ?y; TName ?z] ?e) ?b) ?st) =>
      let H := fresh "Hev" in
      eassert (H : eval E e st = Ok _ st);
      [ solve [eval_std]
      | step_by (exec_seq_assign3 E x y z e b st _ _ H); clear H;
        lazymatch goal with |- ?P (?run (set_var z ?v (set_var y ?v (set_var x ?v st)))) =>
          name_under (fun s => P (run (set_var z v (set_var y v s)))) st
        end;
        lazymatch goal with |- ?P (?run (set_var z ?v (set_var y ?v ?s1))) =>
          name_under (fun s => P (run (set_var z v s))) s1
        end;
        new_state ]
  end.

Ltac ifstep_t tac :=
  seqnorm;
  lazymatch goal with
  | |- _ (exec ?E (SSeq (SIf ?c SPass SPass) ?b) ?st) =>
      let H := fresh "Hev" in
      eassert (H : eval E c st = Ok _ st); [ solve [eval_with tac] | step_by (gexec_seq_if_pass E c b st _ _ H); clear H ]
  | |- _ (exec ?E (SSeq (SIf ?c ?t ?f) ?b) ?st) =>
      let H := fresh "Hev" in
      eassert (H : eval E c st = Ok _ st);
      [ solve [eval_with tac] | step_by (exec_seq_if E c t f b st _ _ H); clear H; cbn [truthy] ]
  end.
Ltac ifstep := ifstep_t fail.

Ltac assertstep :=
  seqnorm;
  lazymatch goal with
  | |- _ (exec ?E (SSeq (SAssert ?e) ?b) ?st) =>
      let H := fresh "Hev" in
      eassert (H : eval E e st = Ok _ st); [ solve [eval_std] | step_by (exec_seq_assert E e b st _ H eq_refl); clear H ]
  end.

Ltac setitem_t tac :=
  seqnorm;
  lazymatch goal with
  | |- _ (exec ?E (SSeq (SAssign [TSub (EName ?x) ?ke] ?e) ?b) ?st) =>
      let H1 := fresh "Hv" in let H2 := fresh "Hx" in let H3 := fresh "Hk" in let H4 := fresh "Hs" in
      eassert (H1 : eval E e st = Ok _ st); [ solve [eval_with tac] |];
      eassert (H2 : lookup x (vars st) = Some (enc_x _)); [ solve [look; reflexivity] |];
      eassert (H3 : eval E ke st = Ok _ st); [ solve [eval_std] |];
      lazymatch type of H1 with _ = Ok ?v _ =>
      lazymatch type of H2 with _ = Some (enc_x ?t) =>
      lazymatch type of H3 with _ = Ok ?kv _ =>
        eassert (H4 : E "$setitem" [enc_x t; kv; v] [] st = Ok _ st); [ first [solve [tac] | solve [evn; ok_refl]] |];
        step_by (gexec_seq_setitem E x ke e b st v kv t _ H1 H2 H3 H4); clear H1 H2 H3 H4; new_state
      end end end
  end.
Ltac setitem := setitem_t fail.

Fixpoint seq_drop (n : nat) (s : stmt) : stmt :=
  match n with
  | O => s
  | S n' => match s with SSeq _ b => seq_drop n' b | _ => SPass end
  end.

Fixpoint seq_take (n : nat) (s : stmt) : stmt :=
  match n with
  | O => SPass
  | S n' => match s with SSeq a b => SSeq a (seq_take n' b) | x => x end
  end.

Lemma gexec_take_drop E : forall n s st, exec E (SSeq (seq_take n s) (seq_drop n s)) st = exec E s st.
Proof.
  induction n as [|n IH]; intros s st; [reflexivity|].
  destruct s; cbn [seq_take seq_drop]; try apply exec_seq_pass_r.
  rewrite exec_seq_assoc. cbn [exec]. destruct (exec E s1 st) as [[|v] st1|m st1|w]; cbn [bind]; try reflexivity.
  apply IH.
Qed.

(* sequences of statements up to re-association *)
Fixpoint flatten (s : stmt) : list stmt :=
  match s with
  | SSeq a b => flatten a ++ flatten b
  | SPass => []
  | x => [x]
  end.

Section Flatten.
  Variable E : string -> list val -> list (string * val) -> state -> outcome val.

  Fixpoint gexec_list (l : list stmt) (st : state) : outcome ctl :=
    match l with
    | [] => Ok CNormal st
    | x :: r => bind (exec E x st) (fun c st1 => match c with CNormal => gexec_list r st1 | CReturn _ => Ok c st1 end)
    end.

  Lemma gexec_list_app : forall l1 l2 st,
    gexec_list (l1 ++ l2) st =
    bind (gexec_list l1 st) (fun c st1 => match c with CNormal => gexec_list l2 st1 | CReturn _ => Ok c st1 end).
  Proof.
    induction l1 as [|x l1 IH]; intros l2 st; [reflexivity|].
    cbn [app gexec_list]. destruct (exec E x st) as [[|v] st1|n st1|w]; cbn [bind]; try reflexivity. apply IH.
  Qed.

  Lemma gexec_flatten : forall s st, exec E s st = gexec_list (flatten s) st.
  Proof.
    induction s; intros st;
      try (cbn [flatten gexec_list];
           match goal with |- ?e = bind ?e _ => destruct e as [[|v] st1|n st1|w]; reflexivity end).
    - reflexivity.
    - cbn [flatten]. rewrite gexec_list_app. cbn [exec]. rewrite IHs1.
      destruct (gexec_list (flatten s1) st) as [[|v] st1|n st1|w]; cbn [bind]; try reflexivity. apply IHs2.
  Qed.
End Flatten.

