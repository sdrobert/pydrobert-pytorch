(* C01, prefix tie - the blocks of `_string_matching` around the loop, run in the configuration of prefix_edit_distances
   (return_prf_dsts = True, either exclude_last) under [ext01p g]: the preamble (sm_pre: asserts, checks, uniform-cost
   shortcut, layout, sizes, lengths), row 0 and del_mat (sm_row0), the flag block before the loop (the uninitialised table
   `torch.empty`, its row 0 = ref_lens * del_cost), and the exit after the loop (mult, the normalisation with the
   empty-reference convention, the padding past each hypothesis length, the layout, `return prefix_ers`).  The scripts of
   TieBlocks / TiePre re-run with the flags of this configuration. *)
From Coq Require Import ZArith QArith List String Bool Arith Lia ZifyBool ZifyNat.
From PV Require Import MiniPy.Syntax MiniPy.Interp MiniPy.Lemmas MiniTorch.Ops MiniTorch.Lemmas MiniTorch.OpsC07 MiniTorch.LemmasC07
  MiniTorch.OpsC01 MiniTorch.LemmasC01 MiniTorch.OpsC01P MiniTorch.LemmasC01P.
From PV Require Import Gen.C01Src C01.SrcRun C01.SrcRunP C01.TieLib C01.TieMath C01.TieLoop C01.TieBlocks C01.TieWhole C01.TieLens
  C01.TiePre C01.TieBody C01.TiePLib C01.TiePMath C01.TiePLoop.
From PV Require C01.Model C01.Proofs.
Import ListNotations.
Local Open Scope string_scope.

#[local] Arguments Z.of_nat : simpl nomatch.
#[local] Arguments Z.eqb : simpl nomatch.



(* the call made by prefix_edit_distances, and the state its preamble leaves (TailP.stageA' at the effective costs) *)
Definition params_p (s : positive) (c : C01.Model.cfg) (R N H : nat) (rf hf : nat -> nat -> Z) :=
  params_of true (C01.Model.c_excl c) (C01.Model.c_pad c)
    (in_tensor (C01.Model.c_bf c) R N rf) (in_tensor (C01.Model.c_bf c) H N hf) s c.
Definition stageAp (s : positive) (c : C01.Model.cfg) :=
  stageA_of true (C01.Model.c_excl c) (C01.Model.c_pad c) s c.

Theorem pre_run_p g s c R N H rf hf w : forall st, (C01.Model.c_eos c <> None -> R <> 0%nat /\ H <> 0%nat) ->
  known st (params_p s c R N H rf hf w) ->
  runs_to (fun st' => known st' (stageAp s c R N H rf hf w)) (exec (ext01p g) sm_pre st).
Proof. exact (pre_run_of (ext01p g) (extends_ext01p g) true _ _ s c R N H rf hf w (fun _ => eq_refl)). Qed.

(* ---- from the preamble's state on: row 0, the flag block, the loop, the exit ------------------------------------------ *)
Section TailP.
  Variable g : nat -> fx.
  Variables (s : positive) (ci cd cs : Z) (mult : Q) (R N H : nat) (rf hf : nat -> nat -> Z) (rl hl : nat -> nat).
  Variables (nm w bf excl : bool) (pad : Z).
  Hypothesis Hrl : forall n, (n < N)%nat -> (rl n <= R)%nat.
  Notation E := (ext01p g).
  Notation T := (tsize H excl).

  Definition stageA' : list (string * val) :=
    [("exclude_last", VBool excl); ("return_mistakes", VBool false); ("return_mask", VBool false);
     ("return_prf_dsts", VBool true); ("norm", VBool nm); ("warn", VBool w);
     ("padding", VInt pad); ("batch_first", VBool bf);
     ("ref", enc_i (mkTn [R; N] (tab2 R N rf))); ("hyp", enc_i (mkTn [H; N] (tab2 H N hf)));
     ("max_ref_steps", VInt (Z.of_nat R)); ("batch_size", VInt (Z.of_nat N)); ("max_hyp_steps", VInt (Z.of_nat H));
     ("device", device_token); ("torch", torch_module);
     ("ins_cost", VQ (qz s ci)); ("del_cost", VQ (qz s cd)); ("sub_cost", VQ (qz s cs)); ("mult", VQ mult);
     ("ref_lens", lens_tensor N rl); ("hyp_lens", lens_tensor N hl)].

  Lemma row0_run_p : forall st, known st stageA' ->
    runs_to (fun st' => known st' (stageA' ++ stageB s cd R N)) (exec E sm_row0 st).
  Proof.
    intros st K. unfold stageA' in K. open_known K. unfold sm_row0.
    assign ltac:(evn; replace (Z.of_nat R + 1)%Z with (Z.of_nat (S R)) by lia; rewrite arange_f_nat; evn; reflexivity).
    ifstep. rewrite !exec_seq_assoc.
    asg. asg.
    assign ltac:(evn; change 1%Z with (Z.of_nat 1); rewrite full_mat, triu_mat; evn; reflexivity).
    asg.
    assign ltac:(evn; replace (Z.of_nat R + 1)%Z with (Z.of_nat (S R)) by lia; rewrite expand2_col; evn; reflexivity).
    apply runs_to_ok. unfold stageA', stageB. close_known.
    - match goal with L : lookup "del_mat" _ = _ |- _ => rewrite L end. do 3 f_equal. apply tab2_ext. intros i j Hi Hj.
      apply del_entry_src.
    - match goal with L : lookup "row" _ = _ |- _ => rewrite L end. do 3 f_equal. apply tab2_ext. intros i j Hi Hj.
      apply fmul_z2f_zf.
  Qed.

  (* the table when the loop starts: row 0 = ref_lens * del_cost, the rest uninitialised *)
  Definition tab0 : nat -> nat -> fx :=
    fun i n => if (i =? 0)%nat then zf s (Z.of_nat (rl n) * cd) else g (i * N + n)%nat.

  Notation pre_loop := (body_pre_p s ci cd cs R N H rf hf rl hl excl (VQ mult) (VBool nm) (VBool w) (VInt pad) (VBool bf)).

  Lemma flags_run_p : forall st, (0 < T)%nat -> known st (stageA' ++ stageB s cd R N) ->
    runs_to (fun st' => pre_loop (fun i _ => (Z.of_nat i * cd)%Z) tab0 st' /\
                        lookup "max_hyp_steps" (vars st') = Some (VInt (Z.of_nat H)))
            (exec E main_flags st).
  Proof.
    intros st HT K. unfold stageA', stageB in K. open_known K. unfold main_flags, sm_main. cbv iota.
    ifstep. ifstep.
    assign_v (enc_x (mkTn [T; N] (tab2 T N (fun i j => g (i * N + j)%nat))))
      ltac:(unfold tsize; destruct excl;
            [ eval_with ltac:(evn; replace (Z.of_nat H + 0)%Z with (Z.of_nat (H + 0)) by lia; rewrite empty2_nat; reflexivity)
            | eval_with ltac:(evn; replace (Z.of_nat H + 1)%Z with (Z.of_nat (H + 1)) by lia; rewrite empty2_nat; reflexivity) ]).
    unfold lens_tensor in *.
    setitem_t ltac:(repeat (progress (evn; change 0%Z with (Z.of_nat 0); rewrite ?set_select0_row by exact HT)); reflexivity).
    apply runs_to_ok. split; [|assumption]. unfold body_pre_p, lens_tensor. repeat (split; [assumption|]).
    match goal with L : lookup "prefix_ers" _ = _ |- _ => rewrite L end. do 3 f_equal. apply tab2_ext. intros i n Hi Hn.
    unfold tab0. destruct (i =? 0)%nat; [apply fmul_z2f_zf|reflexivity].
  Qed.

End TailP.
