(* C01, prefix tie - the `for hyp_idx in range(1, max_hyp_steps + (0 if exclude_last else 1))` loop of `_string_matching` in
   the configuration of prefix_edit_distances (return_prf_dsts = True, return_mask = return_mistakes = False, either
   exclude_last): one execution of the body leaves Model.step_row (with that exclude_last) in every column of `row` AND
   writes row hyp_idx of `prefix_ers` = that row gathered at ref_lens; the loop iterates it.  Environment [ext01p g], for
   every content g of the uninitialised table.  Both loops: Gen.C01Src.sm_loop and the loop inside sm_body (TieBody.loop3). *)
From Coq Require Import ZArith QArith List String Bool Arith Lia ZifyBool ZifyNat.
From PV Require Import MiniPy.Syntax MiniPy.Interp MiniPy.Lemmas MiniTorch.Ops MiniTorch.Lemmas MiniTorch.OpsC07 MiniTorch.LemmasC07
  MiniTorch.OpsC01 MiniTorch.LemmasC01 MiniTorch.OpsC01P MiniTorch.LemmasC01P.
From PV Require Import Gen.C01Src C01.SrcRun C01.SrcRunP C01.TieLib C01.TieMath C01.TieLoop C01.TieBlocks C01.TieWhole C01.TieBody
  C01.TiePLib C01.TiePMath.
From PV Require C01.Model C01.Proofs.
Import ListNotations.
Local Open Scope string_scope.

#[local] Arguments Z.of_nat : simpl nomatch.

(* the number of rows of the table: max_hyp_steps + (0 if exclude_last else 1) *)
Definition tsize (H : nat) (excl : bool) : nat := (H + (if excl then 0 else 1))%nat.

(* what the loop reads and preserves in the prefix configuration: the flags, the tensors of the preamble, the lengths, the
   current row and the table; [vmult vnorm vwarn vpad vbf] are carried along untouched for the epilogue *)
Definition body_pre_p (s : positive) (ci cd cs : Z) (R N H : nat) (rf hf : nat -> nat -> Z) (rl hl : nat -> nat) (excl : bool)
  (vmult vnorm vwarn vpad vbf : val) (lf : nat -> nat -> Z) (pf : nat -> nat -> fx) (st : state) : Prop :=
  lookup "exclude_last" (vars st) = Some (VBool excl) /\
  lookup "return_mistakes" (vars st) = Some (VBool false) /\
  lookup "return_mask" (vars st) = Some (VBool false) /\
  lookup "return_prf_dsts" (vars st) = Some (VBool true) /\
  lookup "hyp_lens" (vars st) = Some (lens_tensor N hl) /\
  lookup "ref" (vars st) = Some (enc_i (mkTn [R; N] (tab2 R N rf))) /\
  lookup "hyp" (vars st) = Some (enc_i (mkTn [H; N] (tab2 H N hf))) /\
  lookup "ins_cost" (vars st) = Some (VQ (qz s ci)) /\
  lookup "sub_cost" (vars st) = Some (VQ (qz s cs)) /\
  lookup "del_mat" (vars st) =
    Some (enc_x (mkTn [S R; S R; 1%nat] (tab2 (S R) (S R) (fun i j => ofx s (C01.Model.del_entry cd i j))))) /\
  lookup "ref_lens" (vars st) = Some (lens_tensor N rl) /\
  lookup "mult" (vars st) = Some vmult /\
  lookup "norm" (vars st) = Some vnorm /\
  lookup "warn" (vars st) = Some vwarn /\
  lookup "padding" (vars st) = Some vpad /\
  lookup "batch_first" (vars st) = Some vbf /\
  lookup "device" (vars st) = Some device_token /\
  lookup "row" (vars st) = Some (enc_x (mkTn [S R; N] (tab2 (S R) N (fun i n => zf s (lf i n))))) /\
  lookup "prefix_ers" (vars st) = Some (enc_x (mkTn [tsize H excl; N] (tab2 (tsize H excl) N pf))).

Lemma body_pre_p_ext s ci cd cs R N H rf hf rl hl excl vmult vnorm vwarn vpad vbf lf lf' pf pf' st :
  (forall i n, (i < S R)%nat -> (n < N)%nat -> lf i n = lf' i n) ->
  (forall i n, (i < tsize H excl)%nat -> (n < N)%nat -> pf i n = pf' i n) ->
  body_pre_p s ci cd cs R N H rf hf rl hl excl vmult vnorm vwarn vpad vbf lf pf st ->
  body_pre_p s ci cd cs R N H rf hf rl hl excl vmult vnorm vwarn vpad vbf lf' pf' st.
Proof.
  intros E1 E2 P. unfold body_pre_p in *.
  destruct P as (H1 & H2 & H3 & H4 & H5 & H6 & H7 & H8 & H9 & H10 & H11 & H12 & H13 & H14 & H15 & H16 & H17 & P & Q).
  repeat (split; [assumption|]). split.
  - rewrite P. do 3 f_equal. apply tab2_ext. intros i n Hi Hn. now rewrite E1.
  - rewrite Q. do 3 f_equal. apply tab2_ext. intros i n Hi Hn. now apply E2.
Qed.

Section BodyP.
  Variable g : nat -> fx.
  Variables (s : positive) (ci cd cs : Z) (R N H : nat) (rf hf : nat -> nat -> Z) (rl hl : nat -> nat) (excl : bool).
  Variables (vmult vnorm vwarn vpad vbf : val).
  Hypothesis Hrl : forall n, (n < N)%nat -> (rl n <= R)%nat.

  Notation E := (ext01p g).
  Notation pre := (body_pre_p s ci cd cs R N H rf hf rl hl excl vmult vnorm vwarn vpad vbf).
  Notation T := (tsize H excl).

  (* one column after one step *)
  Definition step_col_x (k : nat) (lf : nat -> nat -> Z) (n : nat) : list Z :=
    C01.Model.step_row ci cd cs (colf R rf n) (colf H hf n) (hl n) excl k (colf (S R) lf n).

  (* the table after the step: row k holds the new row gathered at ref_lens *)
  Definition step_tab (k : nat) (lf : nat -> nat -> Z) (pf : nat -> nat -> fx) : nat -> nat -> fx :=
    fun i n => if (i =? k)%nat then zf s (nth (rl n) (step_col_x k lf n) 0%Z) else pf i n.

  (* the symbolic run of the loop body, shared by the body of sm_loop and the body of the loop inside sm_body *)
  Ltac body_script_p k Hk HkT :=
    push_state;
    assign_v (enc_b (mkTn [N] (map (fun n => (Z.of_nat k - (if excl then 0 else 1) <? Z.of_nat (hl n))%Z) (seq 0 N))))
      ltac:(destruct excl; eval_std);
    asg; asg;
    assign ltac:(ev; replace (Z.of_nat k - 1)%Z with (Z.of_nat (k - 1)) by lia; rewrite select0_mat by lia; evn; reflexivity);
    asg; asg;
    ifstep; rewrite exec_seq_assoc;
    setitem; rewrite !exec_seq_assoc;
    assign ltac:(evn; rewrite min_dim_3 by lia; reflexivity);
    rewrite !exec_seq_assoc; asg; asg; asg; ifstep; ifstep; ifstep;
    setitem_t ltac:(repeat (progress (evn; rewrite ?gather0_row by (intros j Hj; specialize (Hrl j Hj); lia);
                                       rewrite ?set_select0_row by exact HkT)); reflexivity);
    apply runs_to_ok; unfold body_pre_p; repeat (split; [assumption|]); split;
    [ match goal with L : lookup "row" _ = _ |- _ => rewrite L end;
      do 3 f_equal; apply tab2_ext; intros ? ? ? ?;
      match goal with
      | Hi0 : (?i0 < S R)%nat
        |- context [zf s (nth ?i0 (C01.Model.step_row ci cd cs (colf R rf ?n0) (colf H hf ?n0) (hl ?n0) excl k (colf _ ?lf0 ?n0)) _)] =>
          apply (step_entry_src_x ci cd cs R H (fun j => rf j n0) (fun t => hf t n0) (fun i1 => lf0 i1 n0) (hl n0) k Hk excl s i0 Hi0)
      end
    | match goal with L : lookup "prefix_ers" _ = _ |- _ => rewrite L end;
      do 3 f_equal; apply tab2_ext; intros ? ? ? ?; unfold step_tab, step_col_x;
      match goal with |- context [(?i0 =? k)%nat] => destruct (i0 =? k)%nat; [|reflexivity] end;
      match goal with
      | Hn0 : (?n0 < N)%nat
        |- context [zf s (nth (rl ?n0) (C01.Model.step_row ci cd cs (colf R rf ?n0) (colf H hf ?n0) (hl ?n0) excl k (colf _ ?lf0 ?n0)) _)] =>
          apply (step_entry_src_x ci cd cs R H (fun j => rf j n0) (fun t => hf t n0) (fun i1 => lf0 i1 n0) (hl n0) k Hk excl s (rl n0));
          specialize (Hrl n0 Hn0); lia
      end ].

  Theorem body_run_p : forall st k lf pf, (1 <= k <= H)%nat -> (k < T)%nat -> pre lf pf st ->
    runs_to (pre (fun i n => nth i (step_col_x k lf n) 0%Z) (step_tab k lf pf))
            (exec E loop_body (set_var "hyp_idx" (VInt (Z.of_nat k)) st)).
  Proof.
    intros st k lf pf Hk HkT (Hexcl & Hmist & Hmask & Hprf & Hhl & Href & Hhyp & Hci & Hcs & Hdm & Hrl' & Hmu & Hno & Hwa & Hpad & Hbf &
                              Hdev & Hrow & Hpe).
    unfold lens_tensor in *. unfold loop_body, sm_loop. cbv iota. unfold step_col_x. body_script_p k Hk HkT.
  Qed.

  Theorem body_run_p3 : forall st k lf pf, (1 <= k <= H)%nat -> (k < T)%nat -> pre lf pf st ->
    runs_to (pre (fun i n => nth i (step_col_x k lf n) 0%Z) (step_tab k lf pf))
            (exec E body3 (set_var "hyp_idx" (VInt (Z.of_nat k)) st)).
  Proof.
    intros st k lf pf Hk HkT (Hexcl & Hmist & Hmask & Hprf & Hhl & Href & Hhyp & Hci & Hcs & Hdm & Hrl' & Hmu & Hno & Hwa & Hpad & Hbf &
                              Hdev & Hrow & Hpe).
    unfold lens_tensor in *. unfold body3, loop3, sm_body. cbn [seq_drop]. cbv iota. unfold step_col_x. body_script_p k Hk HkT.
  Qed.

  (* ---- the loop: range(1, H + (0 if exclude_last else 1)) ---------------------------------------------------------- *)
  Definition iter_col_x (m a : nat) (lf : nat -> nat -> Z) (n : nat) : list Z :=
    iter_rows_x ci cd cs (colf R rf n) (colf H hf n) (hl n) excl m (S a) (colf (S R) lf n).

  (* the table after the steps a+1 .. a+m *)
  Definition iter_tab (m a : nat) (lf : nat -> nat -> Z) (pf : nat -> nat -> fx) : nat -> nat -> fx :=
    fun i n => if ((a <? i) && (i <=? a + m))%nat then zf s (nth (rl n) (iter_col_x (i - a) a lf n) 0%Z) else pf i n.

  Lemma step_col_x_length k lf n : (1 <= k <= H)%nat -> List.length (step_col_x k lf n) = S R.
  Proof. intros Hk. unfold step_col_x, colf. now apply step_row_length_x. Qed.

  Lemma colf_step k lf n : (1 <= k <= H)%nat ->
    colf (S R) (fun i n0 => nth i (step_col_x k lf n0) 0%Z) n = step_col_x k lf n.
  Proof.
    intros Hk. unfold colf.
    transitivity (map (fun i0 => nth i0 (step_col_x k lf n) 0%Z) (seq 0 (List.length (step_col_x k lf n)))).
    - rewrite step_col_x_length by exact Hk. reflexivity.
    - apply Proofs.map_nth_seq.
  Qed.

  Section AnyBody.
    Variable bd : stmt.
    Hypothesis Hbd : forall st k lf pf, (1 <= k <= H)%nat -> (k < T)%nat -> pre lf pf st ->
      runs_to (pre (fun i n => nth i (step_col_x k lf n) 0%Z) (step_tab k lf pf))
              (exec E bd (set_var "hyp_idx" (VInt (Z.of_nat k)) st)).

    Lemma loop_run_gen_p : forall m a lf pf st, (a + m <= H)%nat -> (a + m < T)%nat -> pre lf pf st ->
      runs_to (pre (fun i n => nth i (iter_col_x m a lf n) 0%Z) (iter_tab m a lf pf))
              (for_loop E "hyp_idx" bd (map (fun i => VInt (1 + Z.of_nat i)) (seq a m)) st).
    Proof.
      induction m as [|m IH]; intros a lf pf st Ham HamT P.
      - apply runs_to_ok. eapply body_pre_p_ext; [| |exact P].
        + intros i n Hi Hn. cbv beta. unfold iter_col_x, iter_rows_x, colf. rewrite Proofs.nth_map_seq by exact Hi. reflexivity.
        + intros i n Hi Hn. unfold iter_tab. replace ((a <? i) && (i <=? a + 0))%nat with false by lia. reflexivity.
      - rewrite <- cons_seq. cbn [map for_loop].
        replace (1 + Z.of_nat a)%Z with (Z.of_nat (S a)) by lia.
        destruct (Hbd st (S a) lf pf ltac:(lia) ltac:(lia) P) as [st1 [He P1]]. rewrite He. cbn [bind].
        destruct (IH (S a) _ _ st1 ltac:(lia) ltac:(lia) P1) as [st2 [He2 P2]]. exists st2. split; [exact He2|].
        assert (Hcol : forall j n, iter_col_x j (S a) (fun i n0 => nth i (step_col_x (S a) lf n0) 0%Z) n = iter_col_x (S j) a lf n).
        { intros j n. unfold iter_col_x. cbn [iter_rows_x]. f_equal. apply colf_step. lia. }
        eapply body_pre_p_ext; [| |exact P2].
        + intros i n Hi Hn. cbv beta. f_equal. apply Hcol.
        + intros i n Hi Hn. unfold iter_tab, step_tab.
          destruct ((S a <? i) && (i <=? S a + m))%nat eqn:C1.
          * replace ((a <? i) && (i <=? a + S m))%nat with true by lia. rewrite Hcol. do 3 f_equal. lia.
          * destruct (i =? S a)%nat eqn:C2.
            -- replace ((a <? i) && (i <=? a + S m))%nat with true by lia.
               replace (i - a)%nat with 1%nat by lia. reflexivity.
            -- replace ((a <? i) && (i <=? a + S m))%nat with false by lia. reflexivity.
    Qed.

    Lemma zrange_1_x : zrange 1 (Z.of_nat H + (if excl then 0 else 1)) = map (fun i => VInt (1 + Z.of_nat i)) (seq 0 (T - 1)).
    Proof.
      unfold zrange, tsize. replace (Z.to_nat (Z.of_nat H + (if excl then 0 else 1) - 1)) with (H + (if excl then 0 else 1) - 1)%nat
        by (destruct excl; lia). reflexivity.
    Qed.

    Theorem loop_tie_gen_p : forall st lf pf, pre lf pf st -> lookup "max_hyp_steps" (vars st) = Some (VInt (Z.of_nat H)) ->
      (0 < T)%nat ->
      runs_to (pre (fun i n => nth i (iter_col_x (T - 1) 0 lf n) 0%Z) (iter_tab (T - 1) 0 lf pf))
              (exec E (SFor "hyp_idx" loop_iter bd) st).
    Proof.
      intros st lf pf P Hmax HT. rewrite exec_for.
      assert (Hexcl : lookup "exclude_last" (vars st) = Some (VBool excl)) by apply P.
      assert (Hit : eval E loop_iter st = Ok (VList (zrange 1 (Z.of_nat H + (if excl then 0 else 1)))) st).
      { unfold loop_iter, sm_loop. cbv iota. destruct excl; eval_std. }
      rewrite Hit. cbn [bind iter_items container_items]. rewrite zrange_1_x.
      apply loop_run_gen_p; [unfold tsize; destruct excl; lia|lia|exact P].
    Qed.
  End AnyBody.

  Theorem loop_tie_p : forall st lf pf, pre lf pf st -> lookup "max_hyp_steps" (vars st) = Some (VInt (Z.of_nat H)) ->
    (0 < T)%nat ->
    runs_to (pre (fun i n => nth i (iter_col_x (T - 1) 0 lf n) 0%Z) (iter_tab (T - 1) 0 lf pf)) (exec E sm_loop st).
  Proof. rewrite sm_loop_eq. exact (loop_tie_gen_p loop_body body_run_p). Qed.

  Theorem loop_tie_p3 : forall st lf pf, pre lf pf st -> lookup "max_hyp_steps" (vars st) = Some (VInt (Z.of_nat H)) ->
    (0 < T)%nat ->
    runs_to (pre (fun i n => nth i (iter_col_x (T - 1) 0 lf n) 0%Z) (iter_tab (T - 1) 0 lf pf)) (exec E loop3 st).
  Proof. rewrite loop3_eq. exact (loop_tie_gen_p body3 body_run_p3). Qed.
End BodyP.
