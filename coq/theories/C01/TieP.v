(* C01, second half of the property ("per prefix") - the source tie of `_string_matching` in the configuration of
   prefix_edit_distances (return_prf_dsts = True, exclude_last / padding as given, return_mask = return_mistakes = False):
   PV.Gen.C01Src.sm_body (the WHOLE body of the function, regenerated from /repo on every run) and the block sequence
   sm_pre; sm_row0; sm_main; sm_fin, interpreted by PV.MiniPy.Interp with the torch calls of PV.C01.SrcRunP.ext01p g
   (= SrcRun.ext01 plus the vocabulary of this path; g = the contents of the uninitialised `torch.empty` table, ANY g),
   return the tensor of PV.C01.Model.prefix_edit_distances, entry for entry, in the layout asked for; composed with
   Proofs.prefix_edit_distances_correct: entry (j, n) is the Levenshtein distance between the reference and the length-j
   prefix of hypothesis n (each cut at its eos), the padding value past the hypothesis's own length. *)
From Coq Require Import ZArith QArith List String Bool Arith Lia ZifyBool ZifyNat.
From PV Require Import MiniPy.Syntax MiniPy.Interp MiniPy.Lemmas MiniTorch.Ops MiniTorch.Lemmas MiniTorch.OpsC07 MiniTorch.LemmasC07
  MiniTorch.OpsC01 MiniTorch.LemmasC01 MiniTorch.OpsC01P MiniTorch.LemmasC01P.
From PV Require Import Gen.C01Src C01.SrcRun C01.SrcRunP C01.TieLib C01.TieMath C01.TieLoop C01.TieBlocks C01.TieWhole C01.TieLens
  C01.TiePre C01.TieBody C01.Tie C01.TiePLib C01.TiePMath C01.TiePLoop C01.TiePBlocks C01.TiePRest C01.TiePValue.
From PV Require C01.Obs C01.Spec C01.Model C01.Proofs.
Import ListNotations.
Local Open Scope string_scope.


Lemma greturns_seq_l : forall E v a b st, returns v (exec E a st) -> returns v (exec E (SSeq a b) st).
Proof. intros E v a b st [st1 He]. cbn [exec]. rewrite He. cbn [bind]. eexists. reflexivity. Qed.

(* a loop statement with the property of TiePLoop.loop_tie_p *)
Definition loop_ok_p (g : nat -> fx) (lp : stmt) : Prop :=
  forall s ci cd cs R N H rf hf rl hl excl vmult vnorm vwarn vpad vbf,
    (forall n, (n < N)%nat -> (rl n <= R)%nat) ->
    forall st lf pf,
    body_pre_p s ci cd cs R N H rf hf rl hl excl vmult vnorm vwarn vpad vbf lf pf st ->
    lookup "max_hyp_steps" (vars st) = Some (VInt (Z.of_nat H)) -> (0 < tsize H excl)%nat ->
    runs_to (body_pre_p s ci cd cs R N H rf hf rl hl excl vmult vnorm vwarn vpad vbf
               (fun i n => nth i (iter_col_x ci cd cs R H rf hf hl excl (tsize H excl - 1) 0 lf n) 0%Z)
               (iter_tab s ci cd cs R H rf hf rl hl excl (tsize H excl - 1) 0 lf pf))
            (exec (ext01p g) lp st).

Lemma sm_loop_ok_p : forall g, loop_ok_p g sm_loop.
Proof. unfold loop_ok_p. intros. now apply loop_tie_p. Qed.

Lemma loop3_ok_p : forall g, loop_ok_p g loop3.
Proof. unfold loop_ok_p. intros. now apply loop_tie_p3. Qed.

Section TailAll.
  Variable g : nat -> fx.
  Variables (s : positive) (ci cd cs : Z) (mult : Q) (R N H : nat) (rf hf : nat -> nat -> Z) (rl hl : nat -> nat).
  Variables (nm w bf excl : bool) (pad : Z).
  Hypothesis Hrl : forall n, (n < N)%nat -> (rl n <= R)%nat.
  Hypothesis HT : (0 < tsize H excl)%nat.
  Notation E := (ext01p g).

  Theorem tail_run_p : forall lp, loop_ok_p g lp -> forall st,
    known st (stageA' s ci cd cs mult R N H rf hf rl hl nm w bf excl pad) ->
    returns (enc_x (out_tensor g s ci cd cs mult R N H rf hf rl hl nm bf excl pad))
            (exec E (SSeq sm_row0 (SSeq (SSeq main_flags (SSeq lp main_rest)) sm_fin)) st).
  Proof.
    intros lp Hlp st K.
    eapply run_seq; [exact (row0_run_p g s ci cd cs mult R N H rf hf rl hl nm w bf excl pad Hrl st K)|]. intros st1 K1.
    apply greturns_seq_l.
    eapply run_seq; [exact (flags_run_p g s ci cd cs mult R N H rf hf rl hl nm w bf excl pad Hrl st1 HT K1)|]. intros st2 [P2 Hmax].
    eapply run_seq; [apply Hlp; [exact Hrl|exact P2|exact Hmax|exact HT]|]. intros st3 P3.
    eapply rest_run_p. exact P3.
  Qed.
End TailAll.

Definition run_prefix_prog (g : nat -> fx) (prog : stmt) (s : positive) (c : C01.Model.cfg) (N : nat) (ref hyp : list (list Z))
  (w : bool) : outcome val :=
  Interp.run (ext01p g) prog
    (smp_vars (mat_tensor (C01.Model.c_bf c) N ref) (mat_tensor (C01.Model.c_bf c) N hyp)
       (C01.Model.c_eos c) (C01.Model.c_incl c) (C01.Model.c_bf c)
       (qz s (C01.Model.c_ins c)) (qz s (C01.Model.c_del c)) (qz s (C01.Model.c_sub c)) w (C01.Model.c_norm c)
       (C01.Model.c_pad c) (C01.Model.c_excl c)).

(* the shape of the returned table and the row-major position of entry (j, n) *)
Definition out_shape (bf : bool) (T N : nat) : list nat := if bf then [N; T] else [T; N].
Definition out_pos (bf : bool) (T N j n : nat) : nat := if bf then (n * T + j)%nat else (j * N + n)%nat.

Lemma out_tensor_entry : forall g s ci cd cs mult R N H rf hf rl hl nm bf excl pad j n,
  (j < tsize H excl)%nat -> (n < N)%nat ->
  nth (out_pos bf (tsize H excl) N j n) (dat (out_tensor g s ci cd cs mult R N H rf hf rl hl nm bf excl pad)) FNaN =
  fin_entry_p g s ci cd cs mult R N H rf hf rl hl nm excl pad j n.
Proof. intros. unfold out_tensor, out_pos. destruct bf; cbn [dat]; now rewrite nth_tab2. Qed.

(* the table after the loop, entry by entry: ers_at of the column *)
Lemma tabL_entry : forall g s ci cd cs R N H rf hf rl hl excl j n, (j < tsize H excl)%nat ->
  tabL g s ci cd cs R N H rf hf rl hl excl j n =
  zf s (ers_at ci cd cs (colf R rf n) (colf H hf n) (rl n) (hl n) excl j).
Proof.
  intros g s ci cd cs R N H rf hf rl hl excl j n Hj. unfold tabL, iter_tab, tab0, ers_at.
  destruct j as [|j].
  - reflexivity.
  - replace ((0 <? S j) && (S j <=? 0 + (tsize H excl - 1)))%nat with true by lia.
    unfold iter_col_x. rewrite Nat.sub_0_r. do 3 f_equal.
    unfold Model.row0, colf. now rewrite map_length, seq_length.
Qed.

Lemma time_len_src : forall bf N H hyp, (0 < N)%nat -> wf_src bf N H hyp -> C01.Proofs.time_len bf hyp = H.
Proof.
  intros bf N H hyp HN Hh. unfold C01.Proofs.time_len, wf_src in *. destruct bf; destruct Hh as [HL HW]; [|exact HL].
  destruct hyp as [|row hyp]; [cbn in HL; lia|]. apply HW. left. reflexivity.
Qed.

Section Whole.
  Variable g : nat -> fx.
  Notation E := (ext01p g).

  (* any program that runs like sm_pre; sm_row0; flag block; <a loop with the property of sm_loop>; exits; gather; sm_fin *)
  Lemma prefix_prog_is_model :
    forall (prog lp : stmt), loop_ok_p g lp ->
    (forall st, exec E prog st
                = exec E (SSeq sm_pre (SSeq sm_row0 (SSeq (SSeq main_flags (SSeq lp main_rest)) sm_fin))) st) ->
    forall (s : positive) (c : C01.Model.cfg) (N R H : nat) (ref hyp : list (list Z)) (w : bool),
    (0 < N)%nat -> wf_src (C01.Model.c_bf c) N R ref -> wf_src (C01.Model.c_bf c) N H hyp ->
    (C01.Model.c_eos c <> None -> R <> 0%nat /\ H <> 0%nat) ->
    (C01.Model.c_excl c = true -> H <> 0%nat) ->
    let T := tsize H (C01.Model.c_excl c) in
    exists out st',
      run_prefix_prog g prog s c N ref hyp w = Ok (enc_x (mkTn (out_shape (C01.Model.c_bf c) T N) out)) st' /\
      List.length out = (T * N)%nat /\
      forall j n, (j < T)%nat -> (n < N)%nat ->
        nth (out_pos (C01.Model.c_bf c) T N j n) out FNaN =
        val_fx s (C01.Proofs.entry (C01.Model.c_bf c) j n (C01.Model.prefix_edit_distances c N ref hyp)).
  Proof.
    intros prog lp Hlp Hprog s c N R H ref hyp w HN Hr Hh Hnz Hex T.
    unfold run_prefix_prog, Interp.run. rewrite Hprog.
    rewrite (mat_tensor_in _ N R ref HN Hr), (mat_tensor_in _ N H hyp HN Hh).
    set (rf := at_src (C01.Model.c_bf c) ref). set (hf := at_src (C01.Model.c_bf c) hyp).
    match goal with |- context [exec E _ ?st0] => set (st0' := st0) end.
    assert (K : known st0' (params_p s c R N H rf hf w)).
    { unfold st0', params_p, smp_vars, globals01, torch_module. cbn [known app]. repeat split; reflexivity. }
    assert (HT : (0 < T)%nat).
    { unfold T, tsize. destruct (C01.Model.c_excl c); [specialize (Hex eq_refl)|]; lia. }
    assert (Hrl : forall n, (n < N)%nat -> (ref_len c R rf n <= R)%nat).
    { intros n Hn. unfold ref_len. rewrite <- (colf_length R rf n) at 2. apply C01.Proofs.eff_len_le. }
    set (ot := out_tensor g (eff_scale s c) (eff_ci c) (eff_cd c) (eff_cs c) (eff_mult s c) R N H rf hf
                 (ref_len c R rf) (hyp_len c H hf) (C01.Model.c_norm c) (C01.Model.c_bf c) (C01.Model.c_excl c) (C01.Model.c_pad c)).
    assert (Hret : returns (enc_x ot)
                     (exec E (SSeq sm_pre (SSeq sm_row0 (SSeq (SSeq main_flags (SSeq lp main_rest)) sm_fin))) st0')).
    { eapply run_seq; [apply pre_run_p; [exact Hnz|exact K]|]. intros st1 K1.
      eapply tail_run_p; [exact Hrl|exact HT|exact Hlp|]. exact K1. }
    destruct Hret as [st' He]. rewrite He.
    exists (dat ot), st'.
    assert (Hshape : shp ot = out_shape (C01.Model.c_bf c) T N /\ List.length (dat ot) = (T * N)%nat).
    { unfold ot, out_tensor, out_shape, T. destruct (C01.Model.c_bf c); cbn [shp dat]; (split; [reflexivity|]);
        rewrite tab2_length; lia. }
    destruct Hshape as [Hs Hl]. split; [|split; [exact Hl|]].
    - rewrite <- Hs. destruct ot; reflexivity.
    - intros j n Hj Hn.
      pose proof (out_tensor_entry g (eff_scale s c) (eff_ci c) (eff_cd c) (eff_cs c) (eff_mult s c) R N H rf hf
                  (ref_len c R rf) (hyp_len c H hf) (C01.Model.c_norm c) (C01.Model.c_bf c) (C01.Model.c_excl c)
                  (C01.Model.c_pad c) j n Hj Hn) as Hent.
      fold ot in Hent. fold T in Hent. rewrite Hent. clear Hent.
      rewrite C01.Proofs.prefix_edit_distances_nth; try assumption; try (eapply wf_src_model; eassumption).
      2:{ rewrite (time_len_src _ N H hyp HN Hh). exact Hj. }
      rewrite <- (colf_seq_of _ N R ref n Hn Hr), <- (colf_seq_of _ N H hyp n Hn Hh). fold rf. fold hf.
      unfold fin_entry_p. rewrite tabL_entry by exact Hj. unfold ref_len, hyp_len.
      apply (prefix_value s c R H (colf R rf n) (colf H hf n) j (colf_length R rf n) (colf_length H hf n)).
      exact Hj.
  Qed.
End Whole.

Lemma sm_blocks_split_p : forall g st,
  exec (ext01p g) sm_blocks st =
  exec (ext01p g) (SSeq sm_pre (SSeq sm_row0 (SSeq (SSeq main_flags (SSeq sm_loop main_rest)) sm_fin))) st.
Proof. intros g st. unfold sm_blocks. rewrite !gexec_flatten. f_equal. Qed.

(* the call prefix_edit_distances makes, on the WHOLE body of the function as one term *)
Definition run_prefix (g : nat -> fx) (s : positive) (c : C01.Model.cfg) (N : nat) (ref hyp : list (list Z)) (w : bool)
  : outcome val := run_prefix_prog g sm_body s c N ref hyp w.

(* the same call on the block sequence sm_pre; sm_row0; sm_main; sm_fin *)
Definition run_prefix_blocks (g : nat -> fx) (s : positive) (c : C01.Model.cfg) (N : nat) (ref hyp : list (list Z)) (w : bool)
  : outcome val := run_prefix_prog g sm_blocks s c N ref hyp w.

Theorem prefix_is_model :
  forall (g : nat -> fx) (s : positive) (c : C01.Model.cfg) (N R H : nat) (ref hyp : list (list Z)) (w : bool),
  (0 < N)%nat -> wf_src (C01.Model.c_bf c) N R ref -> wf_src (C01.Model.c_bf c) N H hyp ->
  (C01.Model.c_eos c <> None -> R <> 0%nat /\ H <> 0%nat) ->
  (C01.Model.c_excl c = true -> H <> 0%nat) ->
  let T := tsize H (C01.Model.c_excl c) in
  exists out st',
    run_prefix g s c N ref hyp w = Ok (enc_x (mkTn (out_shape (C01.Model.c_bf c) T N) out)) st' /\
    List.length out = (T * N)%nat /\
    forall j n, (j < T)%nat -> (n < N)%nat ->
      nth (out_pos (C01.Model.c_bf c) T N j n) out FNaN =
      val_fx s (C01.Proofs.entry (C01.Model.c_bf c) j n (C01.Model.prefix_edit_distances c N ref hyp)).
Proof.
  intros g s c N R H ref hyp w. apply (prefix_prog_is_model g sm_body loop3 (loop3_ok_p g) (sm_body_split (ext01p g))).
Qed.

Theorem prefix_blocks_is_model :
  forall (g : nat -> fx) (s : positive) (c : C01.Model.cfg) (N R H : nat) (ref hyp : list (list Z)) (w : bool),
  (0 < N)%nat -> wf_src (C01.Model.c_bf c) N R ref -> wf_src (C01.Model.c_bf c) N H hyp ->
  (C01.Model.c_eos c <> None -> R <> 0%nat /\ H <> 0%nat) ->
  (C01.Model.c_excl c = true -> H <> 0%nat) ->
  let T := tsize H (C01.Model.c_excl c) in
  exists out st',
    run_prefix_blocks g s c N ref hyp w = Ok (enc_x (mkTn (out_shape (C01.Model.c_bf c) T N) out)) st' /\
    List.length out = (T * N)%nat /\
    forall j n, (j < T)%nat -> (n < N)%nat ->
      nth (out_pos (C01.Model.c_bf c) T N j n) out FNaN =
      val_fx s (C01.Proofs.entry (C01.Model.c_bf c) j n (C01.Model.prefix_edit_distances c N ref hyp)).
Proof.
  intros g s c N R H ref hyp w. apply (prefix_prog_is_model g sm_blocks sm_loop (sm_loop_ok_p g) (sm_blocks_split_p g)).
Qed.

(* composed with Proofs.prefix_edit_distances_correct: purely about the interpreted source.  Entry (j, n) of the returned
   table is the value the property names for the length-j prefix of hypothesis n - the (normalised, when asked) weighted
   Levenshtein distance to reference n, both cut at their eos - and the padding value past the hypothesis's own length *)
Theorem prefix_is_spec :
  forall (g : nat -> fx) (s : positive) (c : C01.Model.cfg) (N R H : nat) (ref hyp : list (list Z)) (w : bool),
  (0 < N)%nat -> wf_src (C01.Model.c_bf c) N R ref -> wf_src (C01.Model.c_bf c) N H hyp ->
  (C01.Model.c_eos c <> None -> R <> 0%nat /\ H <> 0%nat) ->
  (C01.Model.c_excl c = true -> H <> 0%nat) ->
  let T := tsize H (C01.Model.c_excl c) in
  exists out st',
    run_prefix g s c N ref hyp w = Ok (enc_x (mkTn (out_shape (C01.Model.c_bf c) T N) out)) st' /\
    List.length out = (T * N)%nat /\
    forall j n, (j < T)%nat -> (n < N)%nat ->
      let rn := C01.Spec.denote (C01.Model.c_eos c) (C01.Model.c_incl c) (C01.Proofs.seq_of (C01.Model.c_bf c) n ref) in
      let hn := C01.Spec.denote (C01.Model.c_eos c) (C01.Model.c_incl c) (C01.Proofs.seq_of (C01.Model.c_bf c) n hyp) in
      nth (out_pos (C01.Model.c_bf c) T N j n) out FNaN =
      if (j <? List.length hn + (if C01.Model.c_excl c then 0 else 1))%nat
      then val_fx s (C01.Spec.spec_value (C01.Model.c_norm c) (C01.Model.c_ins c) (C01.Model.c_del c) (C01.Model.c_sub c)
                       rn (firstn j hn))
      else z2f (C01.Model.c_pad c).
Proof.
  intros g s c N R H ref hyp w HN Hr Hh Hnz Hex. cbv zeta.
  destruct (prefix_is_model g s c N R H ref hyp w HN Hr Hh Hnz Hex) as (out & st' & He & Hl & Hent).
  exists out, st'. split; [exact He|]. split; [exact Hl|].
  intros j n Hj Hn. rewrite (Hent j n Hj Hn).
  set (rn := C01.Spec.denote (C01.Model.c_eos c) (C01.Model.c_incl c) (C01.Proofs.seq_of (C01.Model.c_bf c) n ref)).
  set (hn := C01.Spec.denote (C01.Model.c_eos c) (C01.Model.c_incl c) (C01.Proofs.seq_of (C01.Model.c_bf c) n hyp)).
  rewrite C01.Proofs.prefix_edit_distances_correct; try assumption; try (eapply wf_src_model; eassumption).
  2:{ rewrite (time_len_src _ N H hyp HN Hh). exact Hj. }
  fold rn. fold hn. destruct (j <? List.length hn + (if C01.Model.c_excl c then 0 else 1))%nat; reflexivity.
Qed.

Theorem prefix_is_lev :
  forall (g : nat -> fx) (s : positive) (c : C01.Model.cfg) (N R H : nat) (ref hyp : list (list Z)) (w : bool),
  (0 < N)%nat -> wf_src (C01.Model.c_bf c) N R ref -> wf_src (C01.Model.c_bf c) N H hyp ->
  (C01.Model.c_eos c <> None -> R <> 0%nat /\ H <> 0%nat) ->
  (C01.Model.c_excl c = true -> H <> 0%nat) -> C01.Model.c_norm c = false ->
  let T := tsize H (C01.Model.c_excl c) in
  exists out st',
    run_prefix g s c N ref hyp w = Ok (enc_x (mkTn (out_shape (C01.Model.c_bf c) T N) out)) st' /\
    List.length out = (T * N)%nat /\
    forall j n, (j < T)%nat -> (n < N)%nat ->
      let rn := C01.Spec.denote (C01.Model.c_eos c) (C01.Model.c_incl c) (C01.Proofs.seq_of (C01.Model.c_bf c) n ref) in
      let hn := C01.Spec.denote (C01.Model.c_eos c) (C01.Model.c_incl c) (C01.Proofs.seq_of (C01.Model.c_bf c) n hyp) in
      nth (out_pos (C01.Model.c_bf c) T N j n) out FNaN =
      if (j <? List.length hn + (if C01.Model.c_excl c then 0 else 1))%nat
      then zf s (C01.Spec.lev (C01.Model.c_ins c) (C01.Model.c_del c) (C01.Model.c_sub c) rn (firstn j hn))
      else z2f (C01.Model.c_pad c).
Proof.
  intros g s c N R H ref hyp w HN Hr Hh Hnz Hex Hnorm. cbv zeta.
  destruct (prefix_is_spec g s c N R H ref hyp w HN Hr Hh Hnz Hex) as (out & st' & He & Hl & Hent).
  exists out, st'. split; [exact He|]. split; [exact Hl|].
  intros j n Hj Hn. rewrite (Hent j n Hj Hn).
  unfold C01.Spec.spec_value. rewrite Hnorm. reflexivity.
Qed.

(* the executable the harness evaluates on the cases of every run IS that run (uninitialised table = NaN) *)
Corollary src_prefix_is_model :
  forall (c : C01.Model.cfg) (scale : Z) (N R H : nat) (ref hyp : list (list Z)),
  (0 < N)%nat -> wf_src (C01.Model.c_bf c) N R ref -> wf_src (C01.Model.c_bf c) N H hyp ->
  (C01.Model.c_eos c <> None -> R <> 0%nat /\ H <> 0%nat) ->
  (C01.Model.c_excl c = true -> H <> 0%nat) ->
  let T := tsize H (C01.Model.c_excl c) in
  exists out,
    src_prefix sm_body c scale N ref hyp = Some (Some (mkTn (out_shape (C01.Model.c_bf c) T N) out)) /\
    List.length out = (T * N)%nat /\
    forall j n, (j < T)%nat -> (n < N)%nat ->
      nth (out_pos (C01.Model.c_bf c) T N j n) out FNaN =
      val_fx (Z.to_pos scale) (C01.Proofs.entry (C01.Model.c_bf c) j n (C01.Model.prefix_edit_distances c N ref hyp)).
Proof.
  intros c scale N R H ref hyp HN Hr Hh Hnz Hex. cbv zeta.
  destruct (prefix_is_model garbage_nan (Z.to_pos scale) c N R H ref hyp false HN Hr Hh Hnz Hex) as (out & st' & He & Hl & Hent).
  exists out. split; [|split; [exact Hl|exact Hent]].
  unfold src_prefix, cfgp_vars, cost_q. unfold run_prefix, run_prefix_prog, qz in He. rewrite He.
  rewrite dec01_enc_x. reflexivity.
Qed.

(* one execution of the loop body of the whole function (TieBody.body3) in this configuration *)
Definition run_loop_body_p (g : nat -> fx) (k : nat) (st : state) : outcome ctl :=
  exec (ext01p g) body3 (set_var "hyp_idx" (VInt (Z.of_nat k)) st).

Theorem prefix_loop_body_is_step_row :
  forall (g : nat -> fx) (s : positive) (ci cd cs : Z) (R N H : nat) (rf hf : nat -> nat -> Z) (rl hl : nat -> nat) (excl : bool)
         (vmult vnorm vwarn vpad vbf : val),
  (forall n, (n < N)%nat -> (rl n <= R)%nat) ->
  forall (st : state) (k : nat) (lf : nat -> nat -> Z) (pf : nat -> nat -> fx),
  (1 <= k <= H)%nat -> (k < tsize H excl)%nat ->
  body_pre_p s ci cd cs R N H rf hf rl hl excl vmult vnorm vwarn vpad vbf lf pf st ->
  runs_to (body_pre_p s ci cd cs R N H rf hf rl hl excl vmult vnorm vwarn vpad vbf
             (fun i n => nth i (C01.Model.step_row ci cd cs (colf R rf n) (colf H hf n) (hl n) excl k (colf (S R) lf n)) 0%Z)
             (fun i n => if (i =? k)%nat
                         then zf s (nth (rl n) (C01.Model.step_row ci cd cs (colf R rf n) (colf H hf n) (hl n) excl k (colf (S R) lf n)) 0%Z)
                         else pf i n))
          (run_loop_body_p g k st).
Proof. intros. now apply body_run_p3. Qed.
