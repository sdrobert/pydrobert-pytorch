(* C01, prefix tie - one entry of Model.pair_prefix as the float the interpreted source leaves in the returned table:
   row 0 = ref_lens * del_cost, row j = the row after j steps gathered at ref_lens ([ers_at]), then mult, the normalisation
   with the empty-reference convention, the padding value past the hypothesis length.  No interpreter here. *)
From Coq Require Import ZArith QArith List Bool Arith Lia ZifyBool ZifyNat.
From PV Require Import MiniTorch.Ops MiniTorch.Lemmas MiniTorch.OpsC07 MiniTorch.LemmasC07 MiniTorch.OpsC01 MiniTorch.LemmasC01.
From PV Require Import C01.TieMath C01.TieWhole C01.TiePMath.
From PV Require C01.Obs C01.Model C01.Proofs.
Import ListNotations.
Local Open Scope Z_scope.

(* prefix_ers[j][n] before mult: ref_lens * del_cost for j = 0, else the row after j steps at ref_lens *)
Definition ers_at (ci cd cs : Z) (r h : list Z) (rl hl : nat) (excl : bool) (j : nat) : Z :=
  match j with
  | O => Z.of_nat rl * cd
  | S _ => nth rl (iter_rows_x ci cd cs r h hl excl j 1 (Model.row0 cd r)) 0
  end.

Lemma pair_prefix_nth : forall c r h j,
  (j < length h + (if Model.c_excl c then 0 else 1))%nat ->
  let rl := Model.eff_len (Model.c_eos c) (Model.c_incl c) r in
  let hl := Model.eff_len (Model.c_eos c) (Model.c_incl c) h in
  nth j (Model.pair_prefix c r h) (Obs.Lit 0) =
  if (hl + (if Model.c_excl c then 0 else 1) <=? j)%nat then Obs.Lit (Model.c_pad c)
  else Model.normalise (Model.c_norm c) rl
         (ers_at (eff_ci c) (eff_cd c) (eff_cs c) r h rl hl (Model.c_excl c) j * eff_m c) (0 <? j)%nat.
Proof.
  intros c r h j Hj rl hl. unfold Model.pair_prefix. rewrite eff_costs_eq. cbv beta iota. fold rl. fold hl.
  set (out_len := (length h + (if Model.c_excl c then 0 else 1))%nat) in *.
  set (rows := Model.all_rows (eff_ci c) (eff_cd c) (eff_cs c) r h hl (Model.c_excl c) (out_len - 1)).
  set (ers := Z.of_nat rl * eff_cd c :: map (fun row => nth rl row 0) (tl rows)).
  assert (Hrows : length rows = S (out_len - 1)) by (unfold rows; apply Proofs.all_rows_length).
  assert (Hers_len : length ers = S (out_len - 1)).
  { unfold ers. cbn [length]. rewrite map_length, Proofs.length_tl, Hrows. lia. }
  rewrite (Proofs.nth_map2 _ _ _ j 0%nat 0 (Obs.Lit 0)) by (rewrite ?seq_length, ?Hers_len; lia).
  rewrite seq_nth by exact Hj. cbn [Nat.add].
  replace (nth j ers 0) with (ers_at (eff_ci c) (eff_cd c) (eff_cs c) r h rl hl (Model.c_excl c) j); [reflexivity|].
  unfold ers_at, ers. destruct j as [|j]; [reflexivity|]. cbn [nth].
  rewrite (Proofs.nth_map_lt _ _ _ []) by (rewrite Proofs.length_tl, Hrows; lia).
  rewrite Proofs.nth_tl. unfold rows. rewrite all_rows_nth_x by lia. reflexivity.
Qed.

Lemma prefix_value : forall (s : positive) (c : Model.cfg) (R H : nat) (r h : list Z) (j : nat),
  length r = R -> length h = H -> (j < H + (if Model.c_excl c then 0 else 1))%nat ->
  let rlen := Model.eff_len (Model.c_eos c) (Model.c_incl c) r in
  let hlen := Model.eff_len (Model.c_eos c) (Model.c_incl c) h in
  (if (Z.of_nat j >=? Z.of_nat hlen + (if Model.c_excl c then 0 else 1))%Z then z2f (Model.c_pad c)
   else
     let x := fmul (zf (eff_scale s c) (ers_at (eff_ci c) (eff_cd c) (eff_cs c) r h rlen hlen (Model.c_excl c) j))
                   (Fq (eff_mult s c)) in
     if Model.c_norm c
     then (if (Z.of_nat rlen =? 0)%Z then b2f (Z.of_nat j >? 0)%Z else fdiv x (z2f (Z.of_nat rlen)))
     else x)
  = val_fx s (nth j (Model.pair_prefix c r h) (Obs.Lit 0)).
Proof.
  intros s c R H r h j Lr Lh Hj rlen hlen.
  rewrite pair_prefix_nth by (rewrite Lh; exact Hj). fold rlen. fold hlen.
  replace (Z.of_nat j >=? Z.of_nat hlen + (if Model.c_excl c then 0 else 1))%Z
    with (hlen + (if Model.c_excl c then 0 else 1) <=? j)%nat by (destruct (Model.c_excl c); lia).
  destruct (hlen + (if Model.c_excl c then 0 else 1) <=? j)%nat; [reflexivity|].
  replace (Z.of_nat j >? 0)%Z with (0 <? j)%nat by lia.
  apply norm_value, eff_mult_zf.
Qed.
