(* C01 - `_lens_from_eos(tok, eos, 0)` on a (T x B) tensor: the body PV.Gen.C01Src.sm_lens (the same text as
   C07's unit), interpreted by C07.SrcRun.call_body with the C07 environment, returns for every column the
   index of its first eos, or T when there is none - PV.C01.Model.first_eos.  The run is C07.Tie.lens_ops_run (the
   tensor operations the body performs, for any tensor and dimension); here the operations on a tabulated (T x B)
   tensor along dimension 0.  (C07.Tie does the same for the (A x T x B) layout along dimension 1.) *)
From Coq Require Import ZArith QArith List String Bool Arith Lia ZifyBool ZifyNat.
From PV Require Import MiniPy.Syntax MiniPy.Interp MiniTorch.Ops MiniTorch.Lemmas MiniTorch.OpsC07 MiniTorch.LemmasC07
  MiniTorch.OpsC01 MiniTorch.LemmasC01.
From PV Require Import Gen.C01Src C07.SrcRun C07.Tie.
From PV Require Gen.C07LensSrc C07.Model C07.Spec C07.ProofsSlp C01.Model.
Import ListNotations.
Local Open Scope string_scope.

Lemma first_eos_same : forall e l, C07.Model.lens_from_eos e l = C01.Model.first_eos e l.
Proof.
  intros e l. rewrite C07.ProofsSlp.lens_from_eos_spec. induction l as [|x t IH]; [reflexivity|].
  cbn [C07.Spec.first_eos C01.Model.first_eos List.length].
  destruct (x =? e)%Z; [reflexivity|]. rewrite <- IH. destruct (C07.Spec.first_eos e t); reflexivity.
Qed.

(* the unit's copy of `_lens_from_eos` is the text of C07's unit *)
Lemma sm_lens_same : sm_lens = Gen.C07LensSrc.lens_from_eos_body.
Proof. reflexivity. Qed.

Lemma eq_s_tab2 T B h e : eq_s (mkTn [T; B] (tab2 T B h)) e = mkTn [T; B] (tab2 T B (fun t b => (h t b =? e)%Z)).
Proof. unfold eq_s, cmp_scalar. cbn [shp dat]. now rewrite map_tab2. Qed.

Lemma lens_ops_2 T B h e :
  let m := fun t b => nth t (run_sum 0 (map b2z (map (fun s => (h s b =? e)%Z) (seq 0 T)))) 0%Z in
  cumsum_bool (eq_s (mkTn [T; B] (tab2 T B h)) e) 0 = Some (mkTn [T; B] (tab2 T B m)) /\
  band (eq_s (mkTn [T; B] (tab2 T B m)) 1) (eq_s (mkTn [T; B] (tab2 T B h)) e) =
  Some (mkTn [T; B] (tab2 T B (fun t b => (m t b =? 1)%Z && (h t b =? e)%Z))).
Proof.
  intros m. rewrite !eq_s_tab2. split; [apply cumsum_bool_2|].
  unfold band, zip_same. cbn [shp dat]. now rewrite nats_eqb_refl, zipw_tab2.
Qed.

Lemma lens_run_2 : forall lsm T B h e, T <> 0%nat ->
  exists st, Interp.run (ext07_ops lsm) sm_lens
               (("tok", enc_i (mkTn [T; B] (tab2 T B h))) :: ("eos", VInt e) :: ("dim", VInt 0) :: globals07) =
    Ok (enc_i (mkTn [B] (map (fun b => Z.of_nat (C01.Model.first_eos e (map (fun t => h t b) (seq 0 T)))) (seq 0 B)))) st.
Proof.
  intros lsm T B h e HT. destruct (lens_ops_2 T B h e) as (Hx & Hh).
  destruct (lens_ops_run lsm (mkTn [T; B] (tab2 T B h)) e 0 _ _ _ ltac:(unfold rank; cbn [shp List.length]; lia) Hx Hh
              (max_bool_2 _ _ _ HT)) as [st H].
  exists st. rewrite sm_lens_same. fold (lens_vars (mkTn [T; B] (tab2 T B h)) e 0). fold (run_lens lsm (mkTn [T; B] (tab2 T B h)) e 0).
  change (Z.of_nat 0) with 0%Z in H. rewrite H. cbv beta iota.
  unfold masked_fill, zip_same, eq_sb. cbn [shp dat nth]. rewrite nats_eqb_refl, map_map, zipw_map. cbn [option_map ret_any enc_any].
  do 3 f_equal. apply map_ext_seq. intros b Hb.
  rewrite <- first_eos_same. apply (lens_col e T (fun t => h t b)).
Qed.

Lemma lens_run_2_empty : forall lsm B h e,
  exists st, Interp.run (ext07_ops lsm) sm_lens
               (("tok", enc_i (mkTn [0%nat; B] (tab2 0 B h))) :: ("eos", VInt e) :: ("dim", VInt 0) :: globals07) =
    Exc index_error st.
Proof.
  intros lsm B h e. rewrite sm_lens_same. destruct (lens_ops_2 0 B h e) as (Hx & Hh).
  exact (lens_ops_run lsm (mkTn [0%nat; B] (tab2 0 B h)) e 0 _ _ _ ltac:(unfold rank; cbn [shp List.length]; lia) Hx Hh
           (max_bool_2_empty _ _)).
Qed.
