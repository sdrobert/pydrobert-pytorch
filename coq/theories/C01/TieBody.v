(* C01 - the WHOLE body of `_string_matching` as one term (PV.Gen.C01Src.sm_body): it is the sequence of the blocks
   sm_pre; sm_row0; <flag block; loop; exits; gather>; sm_fin, where the loop differs from sm_loop only in the name of the
   tuple-unpacking temporary ($t3 for $t1: the translator numbers them per translated term).  The loop body is run
   again with the script of TieLoop; everything else is literally the blocks. *)
From Coq Require Import ZArith QArith List String Bool Arith Lia ZifyBool ZifyNat.
From PV Require Import MiniPy.Syntax MiniPy.Interp MiniPy.Lemmas MiniTorch.Ops MiniTorch.Lemmas MiniTorch.OpsC07 MiniTorch.LemmasC07
  MiniTorch.OpsC01 MiniTorch.LemmasC01.
From PV Require Import Gen.C01Src C01.SrcRun C01.TieLib C01.TieMath C01.TieLoop C01.TieBlocks C01.TieWhole.
From PV Require C01.Model C01.Proofs.
Import ListNotations.
Local Open Scope string_scope.

#[local] Arguments Z.of_nat : simpl nomatch.

Definition loop3 : stmt := match seq_drop 19 sm_body with SSeq a _ => a | _ => SPass end.
Definition body3 : stmt := match loop3 with SFor _ _ b => b | _ => SPass end.
Lemma loop3_eq : loop3 = SFor "hyp_idx" loop_iter body3.
Proof. reflexivity. Qed.

Lemma sm_body_split : forall E st,
  exec E sm_body st =
  exec E (SSeq sm_pre (SSeq sm_row0 (SSeq (SSeq main_flags (SSeq loop3 main_rest)) sm_fin))) st.
Proof. intros E st. rewrite !gexec_flatten. f_equal. Qed.

Section Body3.
  Variables (s : positive) (ci cd cs : Z) (R N H : nat) (rf hf : nat -> nat -> Z) (hl : nat -> nat).
  Variables (vrl vmult vnorm vwarn : val).
  Notation pre := (body_pre s ci cd cs R N H rf hf hl vrl vmult vnorm vwarn).

  Theorem body_run3 : forall st k lf, (1 <= k <= H)%nat -> pre lf st ->
    runs_to (pre (fun i n => nth i (step_col ci cd cs R H rf hf hl k lf n) 0%Z))
            (exec ext01 body3 (set_var "hyp_idx" (VInt (Z.of_nat k)) st)).
  Proof.
    intros st k lf Hk (Hexcl & Hmist & Hmask & Hprf & Hhl & Href & Hhyp & Hci & Hcs & Hdm & Hrl & Hmu & Hno & Hwa & Hrow).
    unfold body3, loop3, sm_body. cbn [seq_drop]. cbv iota. unfold step_col. body_script k Hk.
  Qed.

  Theorem loop_tie3 : forall st lf, pre lf st -> lookup "max_hyp_steps" (vars st) = Some (VInt (Z.of_nat H)) ->
    runs_to (pre (fun i n => nth i (iter_col ci cd cs R H rf hf hl H 0 lf n) 0%Z)) (exec ext01 loop3 st).
  Proof. rewrite loop3_eq. exact (loop_tie_gen s ci cd cs R N H rf hf hl vrl vmult vnorm vwarn body3 body_run3). Qed.
End Body3.
