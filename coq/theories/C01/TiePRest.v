(* C01, prefix tie - the exit of `_string_matching` after the loop, run in the configuration of prefix_edit_distances
   (return_prf_dsts = True, either exclude_last) under [ext01p g]: the preamble (sm_pre: asserts, checks, uniform-cost
   shortcut, layout, sizes, lengths), row 0 and del_mat (sm_row0), the flag block before the loop (the uninitialised table
   `torch.empty`, its row 0 = ref_lens * del_cost), and the exit after the loop (mult, the normalisation with the
   empty-reference convention, the padding past each hypothesis length, the layout, `return prefix_ers`).  The scripts of
   TieBlocks / TiePre re-run with the flags of this configuration. *)
From Coq Require Import ZArith QArith List String Bool Arith Lia ZifyBool ZifyNat.
From PV Require Import MiniPy.Syntax MiniPy.Interp MiniPy.Lemmas MiniTorch.Ops MiniTorch.Lemmas MiniTorch.OpsC07 MiniTorch.LemmasC07
  MiniTorch.OpsC01 MiniTorch.LemmasC01 MiniTorch.OpsC01P MiniTorch.LemmasC01P.
From PV Require Import Gen.C01Src C01.SrcRun C01.SrcRunP C01.TieLib C01.TieMath C01.TieLoop C01.TieBlocks C01.TieWhole C01.TieLens
  C01.TiePre C01.TieBody C01.TiePLib C01.TiePMath C01.TiePLoop C01.TiePBlocks.
From PV Require C01.Model C01.Proofs.
Import ListNotations.
Local Open Scope string_scope.

#[local] Arguments Z.of_nat : simpl nomatch.
#[local] Arguments Z.eqb : simpl nomatch.

Section RestP.
  Variable g : nat -> fx.
  Variables (s : positive) (ci cd cs : Z) (mult : Q) (R N H : nat) (rf hf : nat -> nat -> Z) (rl hl : nat -> nat).
  Variables (nm w bf excl : bool) (pad : Z).
  Notation E := (ext01p g).
  Notation T := (tsize H excl).
  Notation pre_loop := (body_pre_p s ci cd cs R N H rf hf rl hl excl (VQ mult) (VBool nm) (VBool w) (VInt pad) (VBool bf)).

  (* the table after the loop, as the loop lemma states it *)
  Definition tabL : nat -> nat -> fx :=
    iter_tab s ci cd cs R H rf hf rl hl excl (T - 1) 0 (fun i _ => (Z.of_nat i * cd)%Z) (tab0 g s cd N rl).

  (* entry (j, n) of the returned table *)
  Definition fin_entry_p (j n : nat) : fx :=
    let x := fmul (tabL j n) (Fq mult) in
    let y := if nm then (if (Z.of_nat (rl n) =? 0)%Z then b2f (Z.of_nat j >? 0)%Z else fdiv x (z2f (Z.of_nat (rl n)))) else x in
    if (Z.of_nat j >=? Z.of_nat (hl n) + (if excl then 0 else 1))%Z then z2f pad else y.

  Definition out_tensor : tn fx :=
    if bf then mkTn [N; T] (tab2 N T (fun n j => fin_entry_p j n)) else mkTn [T; N] (tab2 T N fin_entry_p).

  (* the last three statements of the prefix exit: the padding past each hypothesis length, the layout, the return *)
  Definition fill_stmt : stmt :=
    SAssign [(TName "prefix_ers")] (EMeth (EName "prefix_ers") "masked_fill" [(EMeth (EMeth (ECall "torch.arange" [(EMeth (EName "prefix_ers") "size" [(EConst (VInt (0)%Z))] [])] [("device", (EName "device"))]) "unsqueeze" [(EConst (VInt (1)%Z))] []) "ge" [(EBin Add (EName "hyp_lens") (EIfExp (EName "exclude_last") (EConst (VInt (0)%Z)) (EConst (VInt (1)%Z))))] []); (EName "padding")] []).
  Definition layout_stmt : stmt :=
    SIf (EName "batch_first") (SAssign [(TName "prefix_ers")] (EMeth (EName "prefix_ers") "t" [] [])) SPass.

  Lemma fill_run : forall tl sx pf,
    lookup "prefix_ers" (vars sx) = Some (enc_x (mkTn [T; N] (tab2 T N pf))) ->
    lookup "hyp_lens" (vars sx) = Some (enc_i (mkTn [N] (map (fun n => Z.of_nat (hl n)) (seq 0 N)))) ->
    lookup "exclude_last" (vars sx) = Some (VBool excl) -> lookup "device" (vars sx) = Some device_token ->
    lookup "padding" (vars sx) = Some (VInt pad) -> lookup "batch_first" (vars sx) = Some (VBool bf) ->
    (forall j n, (j < T)%nat -> (n < N)%nat ->
       (if (Z.of_nat j >=? Z.of_nat (hl n) + (if excl then 0 else 1))%Z then z2f pad else pf j n) = fin_entry_p j n) ->
    returns (enc_x out_tensor)
      (exec E (SSeq fill_stmt (SSeq (SSeq layout_stmt (SReturn (EName "prefix_ers"))) tl)) sx).
  Proof.
    intros tl sx pf Lp Lh Le Ld Lpad Lbf Hfin. unfold fill_stmt, layout_stmt.
    assign_v (enc_x (mkTn [T; N] (tab2 T N (fun j n =>
                 if (Z.of_nat j >=? Z.of_nat (hl n) + (if excl then 0 else 1))%Z then z2f pad else pf j n))))
      ltac:(destruct excl; eval_with ltac:(repeat (progress (evn; rewrite ?arange_nat)); reflexivity)).
    unfold out_tensor. destruct bf.
    - ifstep. asg. cbn [exec eval]. look. cbn [bind]. eexists. do 4 f_equal. apply tab2_ext. intros n j Hn Hj. now apply Hfin.
    - ifstep. seqnorm. cbn [exec eval]. look. cbn [bind]. eexists. do 4 f_equal. apply tab2_ext. intros j n Hj Hn. now apply Hfin.
  Qed.

  Lemma rest_run_p : forall st lfL, pre_loop lfL tabL st -> returns (enc_x out_tensor) (exec E main_rest st).
  Proof.
    intros st lfL (Hexcl & Hmist & Hmask & Hprf & Hhl & Href & Hhyp & Hci & Hcs & Hdm & Hrl' & Hmu & Hno & Hwa & Hpad & Hbf &
                   Hdev & Hrow & Hpe).
    unfold lens_tensor in *. unfold main_rest, sm_main. cbv iota.
    ifstep. ifstep. asg. ifstep.
    destruct nm eqn:Enm; cbv iota.
    - asg. asg. ifstep.
      match goal with |- context [if ?b then _ else _] => destruct b eqn:Hany end.
      + ifstep.
        assign ltac:(repeat (progress (evn; rewrite ?arange_nat, ?expand_as2_col)); reflexivity).
        seqnorm. eapply fill_run; try eassumption. intros j n Hj Hn. unfold fin_entry_p. rewrite Enm. reflexivity.
      + seqnorm. eapply fill_run; try eassumption.
        intros j n Hj Hn. unfold fin_entry_p. rewrite Enm.
        replace (Z.of_nat (rl n) =? 0)%Z with false; [reflexivity|].
        symmetry. exact (any_false_at rf hf (fun n0 => (Z.of_nat (rl n0) =? 0)%Z) N n Hn Hany).
    - seqnorm. eapply fill_run; try eassumption. intros j n Hj Hn. unfold fin_entry_p. rewrite Enm. reflexivity.
  Qed.
End RestP.
