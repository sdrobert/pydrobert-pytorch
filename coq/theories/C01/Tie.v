(* C01 - the source tie of `_string_matching` (src/pydrobert/torch/_string.py) for the plain edit-distance call
   (what `edit_distance` / `EditDistance` make: return_mask = return_prf_dsts = return_mistakes = False), checked by
   the kernel.  PV.Gen.C01Src.{sm_pre, sm_row0, sm_main, sm_fin, sm_loop, sm_lens} are the MiniPy terms
   harness/py2coq/translate.py regenerates from /repo on every run; PV.MiniPy.Interp is their semantics; the torch
   calls mean what PV.MiniTorch.OpsC01 / OpsC07 say (through SrcRun.ext01).  Statements, for EVERY batch size,
   tensor widths, token values, lengths, eos / include_eos / norm / batch_first setting and costs (integers ci cd cs
   over any common denominator s, i.e. the floats c / s):

     loop_body_is_step_row   one execution of the loop body = Model.step_row in every column (TieLoop.body_run)
     loop_is_rows            the whole `for hyp_idx` loop = the iteration of step_row (TieLoop.loop_tie)
     edit_distance_is_model  the blocks sm_pre; sm_row0; sm_main; sm_fin run in sequence on the arguments of the call
                             return the tensor of Model.edit_distance (as floats: Cost v -> v / s, Ratio v d -> (v / s) / d,
                             Lit z -> z)
     edit_distance_is_lev    composed with Proofs.edit_distance_correct: without norm, entry n is the weighted
                             Levenshtein distance of the two sequences cut at their first eos

   If the source is edited so that one of these stops being true, this development stops compiling and the C01
   check reports the broken obligation. *)
From Coq Require Import ZArith QArith List String Bool Arith Lia ZifyBool ZifyNat.
From PV Require Import MiniPy.Syntax MiniPy.Interp MiniPy.Lemmas MiniTorch.Ops MiniTorch.Lemmas MiniTorch.OpsC07 MiniTorch.LemmasC07
  MiniTorch.OpsC01 MiniTorch.LemmasC01.
From PV Require Import Gen.C01Src C01.SrcRun C01.TieLib C01.TieMath C01.TieLoop C01.TieBlocks C01.TieWhole C01.TieLens C01.TiePre C01.TieBody.
From PV Require C01.Obs C01.Spec C01.Model C01.LevFacts C01.Proofs.
Import ListNotations.
Local Open Scope string_scope.


(* names used by the statements of Properties.v (which holds no string literal) *)
Definition hyp_idx_name : string := "hyp_idx".
Definition max_hyp_steps_name : string := "max_hyp_steps".

(* one execution of the loop body with hyp_idx = k *)
Definition run_loop_body (k : nat) (st : state) : outcome ctl :=
  exec ext01 loop_body (set_var hyp_idx_name (VInt (Z.of_nat k)) st).

Definition run_loop (st : state) : outcome ctl := exec ext01 sm_loop st.

Definition max_hyp_steps_is (H : nat) (st : state) : Prop :=
  lookup max_hyp_steps_name (vars st) = Some (VInt (Z.of_nat H)).

(* the call edit_distance makes: _string_matching(ref, hyp, eos, include_eos, batch_first, ins, del, sub, warn, norm) *)
Definition run_edit_distance (s : positive) (c : C01.Model.cfg) (N : nat) (ref hyp : list (list Z)) (w : bool) (pad : Z)
  : outcome val :=
  Interp.run ext01 sm_blocks
    (sm_vars (mat_tensor (C01.Model.c_bf c) N ref) (mat_tensor (C01.Model.c_bf c) N hyp)
       (C01.Model.c_eos c) (C01.Model.c_incl c) (C01.Model.c_bf c)
       (qz s (C01.Model.c_ins c)) (qz s (C01.Model.c_del c)) (qz s (C01.Model.c_sub c)) w (C01.Model.c_norm c) pad).

Theorem loop_body_is_step_row :
  forall (s : positive) (ci cd cs : Z) (R N H : nat) (rf hf : nat -> nat -> Z) (hl : nat -> nat)
         (vrl vmult vnorm vwarn : val) (st : state) (k : nat) (lf : nat -> nat -> Z),
  (1 <= k <= H)%nat ->
  body_pre s ci cd cs R N H rf hf hl vrl vmult vnorm vwarn lf st ->
  runs_to (body_pre s ci cd cs R N H rf hf hl vrl vmult vnorm vwarn
             (fun i n => nth i (C01.Model.step_row ci cd cs (colf R rf n) (colf H hf n) (hl n) false k (colf (S R) lf n)) 0%Z))
          (run_loop_body k st).
Proof. intros. now apply body_run. Qed.

Theorem loop_is_rows :
  forall (s : positive) (ci cd cs : Z) (R N H : nat) (rf hf : nat -> nat -> Z) (hl : nat -> nat)
         (vrl vmult vnorm vwarn : val) (st : state) (lf : nat -> nat -> Z),
  body_pre s ci cd cs R N H rf hf hl vrl vmult vnorm vwarn lf st -> max_hyp_steps_is H st ->
  runs_to (body_pre s ci cd cs R N H rf hf hl vrl vmult vnorm vwarn
             (fun i n => nth i (iter_rows ci cd cs (colf R rf n) (colf H hf n) (hl n) H 1 (colf (S R) lf n)) 0%Z))
          (run_loop st).
Proof. intros. now apply loop_tie. Qed.

(* the inputs as the harness hands them over: a (N x T) batch-first or (T x N) time-major matrix as a list of rows *)
Definition wf_src (bf : bool) (N T : nat) (m : list (list Z)) : Prop :=
  if bf then List.length m = N /\ C01.Proofs.rect T m else List.length m = T /\ C01.Proofs.rect N m.

Definition at_src (bf : bool) (m : list (list Z)) (t n : nat) : Z :=
  if bf then nth t (nth n m []) 0%Z else nth n (nth t m []) 0%Z.

Lemma concat_rect : forall (m : list (list Z)) W, C01.Proofs.rect W m ->
  List.concat m = tab2 (List.length m) W (fun i j => nth j (nth i m []) 0%Z).
Proof.
  induction m as [|row m IH]; intros W HW; [reflexivity|].
  cbn [List.concat List.length]. rewrite tab2_S. cbn [nth]. f_equal.
  - rewrite <- (HW row) by (left; reflexivity). symmetry. apply C01.Proofs.map_nth_seq.
  - apply IH. intros r Hr. apply HW. right. exact Hr.
Qed.

Lemma mat_tensor_in : forall bf N T m, (0 < N)%nat -> wf_src bf N T m ->
  mat_tensor bf N m = in_tensor bf T N (at_src bf m).
Proof.
  intros bf N T m HN Hwf. unfold mat_tensor, in_tensor, wf_src, at_src in *. destruct bf; destruct Hwf as [HL HW].
  - assert (Hhd : List.length (hd [] m) = T).
    { destruct m as [|row m]; [cbn in HL; lia|]. apply HW. left. reflexivity. }
    rewrite Hhd, (concat_rect m T HW), HL. reflexivity.
  - rewrite (concat_rect m N HW), HL. reflexivity.
Qed.

Lemma colf_seq_of : forall bf N T m n, (n < N)%nat -> wf_src bf N T m ->
  colf T (at_src bf m) n = C01.Proofs.seq_of bf n m.
Proof.
  intros bf N T m n Hn Hwf. unfold colf, at_src, C01.Proofs.seq_of, wf_src in *. destruct bf; destruct Hwf as [HL HW].
  - rewrite <- (HW (nth n m [])) by (apply nth_In; lia). apply C01.Proofs.map_nth_seq.
  - unfold C01.Model.col. rewrite <- HL. symmetry.
    rewrite <- (C01.Proofs.map_nth_seq m []) at 1. apply map_map.
Qed.

Lemma wf_src_model : forall bf N T m, wf_src bf N T m -> C01.Proofs.wf_tensor bf N m.
Proof. intros bf N T m H. unfold wf_src, C01.Proofs.wf_tensor in *. destruct bf; [|exact I]. destruct H as [HL HW]. split; [exact HL|now exists T]. Qed.

Definition run_prog (prog : stmt) (s : positive) (c : C01.Model.cfg) (N : nat) (ref hyp : list (list Z)) (w : bool) (pad : Z)
  : outcome val :=
  Interp.run ext01 prog
    (sm_vars (mat_tensor (C01.Model.c_bf c) N ref) (mat_tensor (C01.Model.c_bf c) N hyp)
       (C01.Model.c_eos c) (C01.Model.c_incl c) (C01.Model.c_bf c)
       (qz s (C01.Model.c_ins c)) (qz s (C01.Model.c_del c)) (qz s (C01.Model.c_sub c)) w (C01.Model.c_norm c) pad).

(* any program that runs like sm_pre; sm_row0; flag block; <a loop with the property of sm_loop>; exits; gather; sm_fin *)
Lemma prog_is_model :
  forall (prog lp : stmt), loop_ok lp ->
  (forall st, exec ext01 prog st
              = exec ext01 (SSeq sm_pre (SSeq sm_row0 (SSeq (SSeq main_flags (SSeq lp main_rest)) sm_fin))) st) ->
  forall (s : positive) (c : C01.Model.cfg) (N R H : nat) (ref hyp : list (list Z)) (w : bool) (pad : Z),
  (0 < N)%nat -> wf_src (C01.Model.c_bf c) N R ref -> wf_src (C01.Model.c_bf c) N H hyp ->
  (C01.Model.c_eos c <> None -> R <> 0%nat /\ H <> 0%nat) ->
  exists st', run_prog prog s c N ref hyp w pad
              = Ok (enc_x (mkTn [N] (map (val_fx s) (C01.Model.edit_distance c N ref hyp)))) st'.
Proof.
  intros prog lp Hlp Hprog s c N R H ref hyp w pad HN Hr Hh Hnz.
  unfold run_prog, Interp.run. rewrite Hprog.
  rewrite (mat_tensor_in _ N R ref HN Hr), (mat_tensor_in _ N H hyp HN Hh).
  set (rf := at_src (C01.Model.c_bf c) ref). set (hf := at_src (C01.Model.c_bf c) hyp).
  match goal with |- context [exec ext01 _ ?st0] => set (st0' := st0) end.
  assert (K : known st0' (params pad s c R N H rf hf w)).
  { unfold st0', params, params_of, sm_vars, globals01, torch_module. cbn [known app]. repeat split; reflexivity. }
  assert (Hret : returns (enc_x (mkTn [N] (map (fin_value (eff_scale s c) (eff_ci c) (eff_cd c) (eff_cs c) (eff_mult s c)
                                                   R H rf hf (ref_len c R rf) (hyp_len c H hf) (C01.Model.c_norm c)) (seq 0 N))))
                         (exec ext01 (SSeq sm_pre (SSeq sm_row0 (SSeq (SSeq main_flags (SSeq lp main_rest)) sm_fin))) st0')).
  { eapply run_seq; [apply (pre_run s c R N H rf hf w pad); [exact Hnz|exact K]|]. intros st1 K1.
    eapply tail_run_gen; [exact Hlp| |exact K1].
    intros n Hn. unfold ref_len. rewrite <- (colf_length R rf n) at 2. apply C01.Proofs.eff_len_le. }
  destruct Hret as [st' He]. rewrite He. exists st'. do 4 f_equal.
  apply (nth_ext _ _ FNaN FNaN).
  - now rewrite !map_length, seq_length, C01.Proofs.edit_distance_length.
  - intros n Hn. rewrite map_length, seq_length in Hn.
    rewrite nth_map_seq by exact Hn.
    rewrite (C01.Proofs.nth_map_lt (val_fx s) _ n (C01.Obs.Lit 0)) by (now rewrite C01.Proofs.edit_distance_length).
    rewrite C01.Proofs.edit_distance_nth by (try exact Hn; eapply wf_src_model; eassumption).
    rewrite <- (colf_seq_of _ N R ref n Hn Hr), <- (colf_seq_of _ N H hyp n Hn Hh). fold rf. fold hf.
    unfold fin_value, final_col, iter_col, ref_len, hyp_len.
    apply (pair_value s c R H (colf R rf n) (colf H hf n) (colf_length R rf n) (colf_length H hf n)).
Qed.

(* the blocks in sequence *)
Theorem edit_distance_is_model :
  forall (s : positive) (c : C01.Model.cfg) (N R H : nat) (ref hyp : list (list Z)) (w : bool) (pad : Z),
  (0 < N)%nat -> wf_src (C01.Model.c_bf c) N R ref -> wf_src (C01.Model.c_bf c) N H hyp ->
  (C01.Model.c_eos c <> None -> R <> 0%nat /\ H <> 0%nat) ->
  exists st', run_edit_distance s c N ref hyp w pad
              = Ok (enc_x (mkTn [N] (map (val_fx s) (C01.Model.edit_distance c N ref hyp)))) st'.
Proof.
  intros. apply (prog_is_model sm_blocks sm_loop sm_loop_ok) with (R := R) (H := H); try assumption.
  intros st. unfold sm_blocks. rewrite !gexec_flatten. f_equal.
Qed.

(* the whole body of the function, as one term *)
Definition run_string_matching (s : positive) (c : C01.Model.cfg) (N : nat) (ref hyp : list (list Z)) (w : bool) (pad : Z)
  : outcome val := run_prog sm_body s c N ref hyp w pad.

Theorem string_matching_is_model :
  forall (s : positive) (c : C01.Model.cfg) (N R H : nat) (ref hyp : list (list Z)) (w : bool) (pad : Z),
  (0 < N)%nat -> wf_src (C01.Model.c_bf c) N R ref -> wf_src (C01.Model.c_bf c) N H hyp ->
  (C01.Model.c_eos c <> None -> R <> 0%nat /\ H <> 0%nat) ->
  exists st', run_string_matching s c N ref hyp w pad
              = Ok (enc_x (mkTn [N] (map (val_fx s) (C01.Model.edit_distance c N ref hyp)))) st'.
Proof.
  intros. apply (prog_is_model sm_body loop3) with (R := R) (H := H); try assumption.
  - unfold loop_ok. intros. now apply loop_tie3.
  - exact (sm_body_split ext01).
Qed.

(* the executable of the harness is this run: [src_ed] computes the values the run returns *)
Lemma src_ed_of_run : forall prog c scale N ref hyp out st',
  run_prog prog (Z.to_pos scale) c N ref hyp false (C01.Model.c_pad c) = Ok (enc_x (mkTn [N] out)) st' ->
  src_ed prog c scale N ref hyp = Some (Some out).
Proof.
  intros prog c scale N ref hyp out st' He. unfold src_ed, cfg_vars, cost_q. unfold run_prog, qz in He. rewrite He.
  rewrite dec01_enc_x. cbn [shp dat]. rewrite nats_eqb_refl. reflexivity.
Qed.

Corollary src_ed_is_model :
  forall (c : C01.Model.cfg) (scale : Z) (N R H : nat) (ref hyp : list (list Z)),
  (0 < N)%nat -> wf_src (C01.Model.c_bf c) N R ref -> wf_src (C01.Model.c_bf c) N H hyp ->
  (C01.Model.c_eos c <> None -> R <> 0%nat /\ H <> 0%nat) ->
  src_ed sm_blocks c scale N ref hyp
  = Some (Some (map (val_fx (Z.to_pos scale)) (C01.Model.edit_distance c N ref hyp))).
Proof.
  intros c scale N R H ref hyp HN Hr Hh Hnz.
  destruct (edit_distance_is_model (Z.to_pos scale) c N R H ref hyp false (C01.Model.c_pad c) HN Hr Hh Hnz) as [st' He].
  exact (src_ed_of_run sm_blocks c scale N ref hyp _ st' He).
Qed.

(* without normalisation every entry is the weighted Levenshtein distance of the two sequences cut at eos *)
Lemma model_entries_lev : forall s c N R H ref hyp,
  wf_src (C01.Model.c_bf c) N R ref -> wf_src (C01.Model.c_bf c) N H hyp -> C01.Model.c_norm c = false ->
  let out := map (val_fx s) (C01.Model.edit_distance c N ref hyp) in
  List.length out = N /\
  forall n, (n < N)%nat ->
    nth n out FNaN =
    zf s (C01.Spec.lev (C01.Model.c_ins c) (C01.Model.c_del c) (C01.Model.c_sub c)
            (C01.Spec.denote (C01.Model.c_eos c) (C01.Model.c_incl c) (C01.Proofs.seq_of (C01.Model.c_bf c) n ref))
            (C01.Spec.denote (C01.Model.c_eos c) (C01.Model.c_incl c) (C01.Proofs.seq_of (C01.Model.c_bf c) n hyp))).
Proof.
  intros s c N R H ref hyp Hr Hh Hnorm. split.
  - now rewrite map_length, C01.Proofs.edit_distance_length.
  - intros n Hn.
    rewrite (C01.Proofs.nth_map_lt (val_fx s) _ n (C01.Obs.Lit 0)) by (now rewrite C01.Proofs.edit_distance_length).
    destruct (C01.Proofs.edit_distance_correct c N ref hyp n Hn (wf_src_model _ _ _ _ Hr) (wf_src_model _ _ _ _ Hh) Hnorm)
      as [v [Hv [Hlev _]]].
    rewrite Hv. cbn [val_fx]. now rewrite Hlev.
Qed.

Theorem edit_distance_is_lev :
  forall (s : positive) (c : C01.Model.cfg) (N R H : nat) (ref hyp : list (list Z)) (w : bool) (pad : Z),
  (0 < N)%nat -> wf_src (C01.Model.c_bf c) N R ref -> wf_src (C01.Model.c_bf c) N H hyp ->
  (C01.Model.c_eos c <> None -> R <> 0%nat /\ H <> 0%nat) -> C01.Model.c_norm c = false ->
  exists out st', run_edit_distance s c N ref hyp w pad = Ok (enc_x (mkTn [N] out)) st' /\
    List.length out = N /\
    forall n, (n < N)%nat ->
      nth n out FNaN =
      zf s (C01.Spec.lev (C01.Model.c_ins c) (C01.Model.c_del c) (C01.Model.c_sub c)
              (C01.Spec.denote (C01.Model.c_eos c) (C01.Model.c_incl c) (C01.Proofs.seq_of (C01.Model.c_bf c) n ref))
              (C01.Spec.denote (C01.Model.c_eos c) (C01.Model.c_incl c) (C01.Proofs.seq_of (C01.Model.c_bf c) n hyp))).
Proof.
  intros s c N R H ref hyp w pad HN Hr Hh Hnz Hnorm.
  destruct (edit_distance_is_model s c N R H ref hyp w pad HN Hr Hh Hnz) as [st' He].
  eexists. exists st'. split; [exact He|]. exact (model_entries_lev s c N R H ref hyp Hr Hh Hnorm).
Qed.

Theorem string_matching_is_lev :
  forall (s : positive) (c : C01.Model.cfg) (N R H : nat) (ref hyp : list (list Z)) (w : bool) (pad : Z),
  (0 < N)%nat -> wf_src (C01.Model.c_bf c) N R ref -> wf_src (C01.Model.c_bf c) N H hyp ->
  (C01.Model.c_eos c <> None -> R <> 0%nat /\ H <> 0%nat) -> C01.Model.c_norm c = false ->
  exists out st', run_string_matching s c N ref hyp w pad = Ok (enc_x (mkTn [N] out)) st' /\
    List.length out = N /\
    forall n, (n < N)%nat ->
      nth n out FNaN =
      zf s (C01.Spec.lev (C01.Model.c_ins c) (C01.Model.c_del c) (C01.Model.c_sub c)
              (C01.Spec.denote (C01.Model.c_eos c) (C01.Model.c_incl c) (C01.Proofs.seq_of (C01.Model.c_bf c) n ref))
              (C01.Spec.denote (C01.Model.c_eos c) (C01.Model.c_incl c) (C01.Proofs.seq_of (C01.Model.c_bf c) n hyp))).
Proof.
  intros s c N R H ref hyp w pad HN Hr Hh Hnz Hnorm.
  destruct (string_matching_is_model s c N R H ref hyp w pad HN Hr Hh Hnz) as [st' He].
  eexists. exists st'. split; [exact He|]. exact (model_entries_lev s c N R H ref hyp Hr Hh Hnorm).
Qed.

Corollary src_ed_body_is_model :
  forall (c : C01.Model.cfg) (scale : Z) (N R H : nat) (ref hyp : list (list Z)),
  (0 < N)%nat -> wf_src (C01.Model.c_bf c) N R ref -> wf_src (C01.Model.c_bf c) N H hyp ->
  (C01.Model.c_eos c <> None -> R <> 0%nat /\ H <> 0%nat) ->
  src_ed sm_body c scale N ref hyp
  = Some (Some (map (val_fx (Z.to_pos scale)) (C01.Model.edit_distance c N ref hyp))).
Proof.
  intros c scale N R H ref hyp HN Hr Hh Hnz.
  destruct (string_matching_is_model (Z.to_pos scale) c N R H ref hyp false (C01.Model.c_pad c) HN Hr Hh Hnz) as [st' He].
  exact (src_ed_of_run sm_body c scale N ref hyp _ st' He).
Qed.
