(* C01 — lemmas tying Model.v (what _string_matching does) to Spec.v (weighted Levenshtein).
   Central, reusable statements: [del_fold_is_sweep], [row_invariant] / [all_rows_nth]
   (the cost table is lev on prefixes), [pair_ed_correct], [pair_prefix_correct]. *)
From Coq Require Import List ZArith QArith Bool Arith Lia.
From PV Require Import C01.Obs C01.Spec C01.Model C01.LevFacts.
Import ListNotations.
Local Open Scope Z_scope.

Lemma nth_map_lt {A B} (f : A -> B) (l : list A) (i : nat) (d : A) (d' : B) :
  (i < length l)%nat -> nth i (map f l) d' = f (nth i l d).
Proof.
  revert i; induction l as [|x l IH]; intros i Hi; cbn [length] in Hi; [lia|].
  destruct i as [|i]; [reflexivity|]. cbn [map nth]. apply IH. lia.
Qed.

Lemma nth_map_seq {B} (f : nat -> B) (s n i : nat) (d : B) :
  (i < n)%nat -> nth i (map f (seq s n)) d = f (s + i)%nat.
Proof.
  intros Hi. rewrite (nth_map_lt f (seq s n) i 0%nat) by (rewrite seq_length; exact Hi).
  rewrite seq_nth by exact Hi. reflexivity.
Qed.

Lemma map_nth_seq {A} (l : list A) (d : A) : map (fun j => nth j l d) (seq 0 (length l)) = l.
Proof.
  induction l as [|x l IH]; [reflexivity|].
  cbn [length seq map nth]. f_equal. rewrite <- seq_shift, map_map. exact IH.
Qed.

Lemma map2_length {A B C} (f : A -> B -> C) l1 l2 :
  length (map2 f l1 l2) = Nat.min (length l1) (length l2).
Proof.
  revert l2; induction l1 as [|x l1 IH]; intros [|y l2]; cbn [map2 length]; try reflexivity.
  rewrite IH. reflexivity.
Qed.

Lemma nth_map2 {A B C} (f : A -> B -> C) l1 l2 i d1 d2 d :
  (i < length l1)%nat -> (i < length l2)%nat ->
  nth i (map2 f l1 l2) d = f (nth i l1 d1) (nth i l2 d2).
Proof.
  revert l2 i; induction l1 as [|x l1 IH]; intros [|y l2] i H1 H2; cbn [length] in *; try lia.
  destruct i as [|i]; [reflexivity|]. cbn [map2 nth]. apply IH; lia.
Qed.

Lemma map2_map_seq {A B C} (f : A -> B -> C) (g : nat -> A) (g' : nat -> B) s n :
  map2 f (map g (seq s n)) (map g' (seq s n)) = map (fun k => f (g k) (g' k)) (seq s n).
Proof.
  revert s; induction n as [|n IH]; intros s; [reflexivity|].
  cbn [seq map map2]. f_equal. apply IH.
Qed.

Lemma hd_nth0 {A} (l : list A) d : hd d l = nth 0 l d.
Proof. destruct l; reflexivity. Qed.

Lemma nth_tl {A} (l : list A) i d : nth i (tl l) d = nth (S i) l d.
Proof. destruct l as [|x l]; [destruct i; reflexivity|reflexivity]. Qed.

Lemma length_tl {A} (l : list A) : length (tl l) = (length l - 1)%nat.
Proof. destruct l; cbn [tl length]; lia. Qed.

Lemma length_removelast {A} (l : list A) : length (removelast l) = (length l - 1)%nat.
Proof.
  induction l as [|x l IH]; [reflexivity|].
  destruct l as [|y l]; [reflexivity|].
  change (removelast (x :: y :: l)) with (x :: removelast (y :: l)).
  cbn [length] in *. lia.
Qed.

Lemma nth_removelast {A} (l : list A) i d :
  (i < length l - 1)%nat -> nth i (removelast l) d = nth i l d.
Proof.
  revert i; induction l as [|x l IH]; intros i Hi; [cbn in Hi; lia|].
  destruct l as [|y l]; [cbn in Hi; lia|].
  change (removelast (x :: y :: l)) with (x :: removelast (y :: l)).
  destruct i as [|i]; [reflexivity|]. cbn [nth]. apply IH. cbn [length] in *. lia.
Qed.

Lemma last_nth {A} (l : list A) d : last l d = nth (length l - 1) l d.
Proof.
  induction l as [|x l IH]; [reflexivity|].
  destruct l as [|y l]; [reflexivity|].
  change (last (x :: y :: l) d) with (last (y :: l) d). rewrite IH.
  cbn [length]. replace (S (S (length l)) - 1)%nat with (S (S (length l) - 1)) by lia.
  reflexivity.
Qed.

Lemma firstn_snoc_nth {A} (l : list A) i d :
  (i < length l)%nat -> firstn (S i) l = firstn i l ++ [nth i l d].
Proof.
  revert i; induction l as [|x l IH]; intros i Hi; [cbn in Hi; lia|].
  destruct i as [|i]; [reflexivity|].
  cbn [firstn nth app]. f_equal. apply IH. cbn [length] in Hi. lia.
Qed.

(* the deletion fold through the triangular matrix is the sequential sweep
   for i = 1..: v[i] = min(v[i], v[i-1] + d) *)
Fixpoint sweep_at (cd : Z) (v : list Z) (i : nat) : Z :=
  match i with
  | O => nth 0 v 0
  | S k => Z.min (nth (S k) v 0) (sweep_at cd v k + cd)
  end.

Definition sweep (cd : Z) (v : list Z) : list Z := map (sweep_at cd v) (seq 0 (length v)).

Lemma omin_assoc a b c : omin a (omin b c) = omin (omin a b) c.
Proof. destruct a, b, c; cbn [omin]; try reflexivity. rewrite Z.min_assoc. reflexivity. Qed.

Lemma omin_list_app l1 l2 : omin_list (l1 ++ l2) = omin (omin_list l1) (omin_list l2).
Proof.
  induction l1 as [|a l1 IH]; [reflexivity|].
  unfold omin_list in *. cbn [app fold_right]. rewrite IH. apply omin_assoc.
Qed.

Lemma omin_list_none {A} (l : list A) : omin_list (map (fun _ => None) l) = None.
Proof. induction l as [|a l IH]; [reflexivity|]. unfold omin_list in *. cbn [map fold_right]. rewrite IH. reflexivity. Qed.

Lemma tri_prefix (cd : Z) (v : list Z) (i k : nat) : (k <= i)%nat ->
  omin_list (map (fun j => Some (Z.of_nat i * cd - Z.of_nat j * cd + nth j v 0)) (seq 0 (S k)))
  = Some (sweep_at cd v k + (Z.of_nat i - Z.of_nat k) * cd).
Proof.
  induction k as [|k IH]; intros Hk.
  - cbn [seq map omin_list fold_right omin sweep_at]. f_equal. lia.
  - rewrite seq_S, map_app, omin_list_app, IH by lia.
    cbn [Nat.add map omin_list fold_right omin sweep_at]. f_equal.
    rewrite Nat2Z.inj_succ. lia.
Qed.

Lemma del_fold_length cd v : length (del_fold cd v) = length v.
Proof. unfold del_fold. rewrite map_length, seq_length. reflexivity. Qed.

Lemma del_fold_nth cd v i : (i < length v)%nat -> nth i (del_fold cd v) 0 = sweep_at cd v i.
Proof.
  intros Hi. unfold del_fold. rewrite nth_map_seq by exact Hi. cbn [Nat.add].
  replace (length v) with (S i + (length v - S i))%nat at 1 by lia.
  rewrite seq_app, map_app, omin_list_app.
  rewrite (map_ext_in _ (fun _ => None) (seq (0 + S i) (length v - S i))).
  2:{ intros j Hj. apply in_seq in Hj. unfold del_entry. destruct (Nat.leb_spec j i); [lia|reflexivity]. }
  rewrite omin_list_none.
  rewrite (map_ext_in _ (fun j => Some (Z.of_nat i * cd - Z.of_nat j * cd + nth j v 0)) (seq 0 (S i))).
  2:{ intros j Hj. apply in_seq in Hj. unfold del_entry. destruct (Nat.leb_spec j i); [reflexivity|lia]. }
  rewrite tri_prefix by lia. cbn [omin]. lia.
Qed.

Theorem del_fold_is_sweep cd v : del_fold cd v = sweep cd v.
Proof.
  apply (nth_ext _ _ 0 0).
  - unfold sweep. rewrite del_fold_length, map_length, seq_length. reflexivity.
  - intros i Hi. rewrite del_fold_length in Hi. rewrite del_fold_nth by exact Hi.
    unfold sweep. rewrite nth_map_seq by exact Hi. reflexivity.
Qed.

(* lengths from eos: the code's arithmetic cuts the column where the spec says *)
Lemma first_eos_le e l : (first_eos e l <= length l)%nat.
Proof. induction l as [|x l IH]; cbn [first_eos length]; [lia|]. destruct (x =? e); lia. Qed.

Lemma firstn_first_eos e l : firstn (first_eos e l) l = before_eos e l.
Proof.
  induction l as [|x l IH]; [reflexivity|]. cbn [first_eos before_eos].
  destruct (x =? e); [reflexivity|]. cbn [firstn]. rewrite IH. reflexivity.
Qed.

Lemma has_eos_first e l : has_eos e l = (first_eos e l <? length l)%nat.
Proof.
  induction l as [|x l IH]; [reflexivity|]. unfold has_eos in *. cbn [existsb first_eos length].
  rewrite (Z.eqb_sym e x). destruct (x =? e); [reflexivity|]. cbn [orb]. rewrite IH. reflexivity.
Qed.

Lemma firstn_first_eos_S e l : (first_eos e l < length l)%nat ->
  firstn (first_eos e l + 1) l = before_eos e l ++ [e].
Proof.
  induction l as [|x l IH]; cbn [first_eos before_eos length]; [lia|].
  destruct (x =? e) eqn:E; intros H.
  - apply Z.eqb_eq in E. subst x. reflexivity.
  - cbn [Nat.add firstn app]. f_equal. apply IH. lia.
Qed.

Lemma eff_len_le eos incl l : (eff_len eos incl l <= length l)%nat.
Proof.
  unfold eff_len. destruct eos as [e|]; [|lia].
  pose proof (first_eos_le e l). destruct incl; [|lia].
  destruct (Nat.eqb_spec (first_eos e l) (length l)); lia.
Qed.

Lemma firstn_eff_len eos incl l : firstn (eff_len eos incl l) l = denote eos incl l.
Proof.
  unfold eff_len, denote. destruct eos as [e|]; [|apply firstn_all].
  rewrite has_eos_first. pose proof (first_eos_le e l) as Hle.
  destruct incl; cbn [andb]; [|apply firstn_first_eos].
  destruct (Nat.eqb_spec (first_eos e l) (length l)) as [E|E];
    destruct (Nat.ltb_spec (first_eos e l) (length l)); try lia.
  - rewrite Nat.add_sub. apply firstn_first_eos.
  - apply firstn_first_eos_S. lia.
Qed.

Lemma length_denote eos incl l : length (denote eos incl l) = eff_len eos incl l.
Proof. rewrite <- firstn_eff_len, firstn_length. pose proof (eff_len_le eos incl l). lia. Qed.

(* the row invariant: row_j[i] = lev (firstn i r) (firstn j h) *)
Section Rows.
  Variables ci cd cs : Z.
  Variables r h : list Z.
  Notation lev := (lev ci cd cs).

  (* column j of the Levenshtein table: reference prefixes against hypothesis prefix j *)
  Definition lrow (j : nat) : list Z :=
    map (fun i => lev (firstn i r) (firstn j h)) (seq 0 (S (length r))).

  Lemma lrow_length j : length (lrow j) = S (length r).
  Proof. unfold lrow. rewrite map_length, seq_length. reflexivity. Qed.

  Lemma lrow_nth j i : (i <= length r)%nat -> nth i (lrow j) 0 = lev (firstn i r) (firstn j h).
  Proof. intros Hi. unfold lrow. rewrite nth_map_seq by lia. reflexivity. Qed.

  Lemma row0_lrow : row0 cd r = lrow 0.
  Proof.
    unfold row0, lrow. apply map_ext_in. intros i Hi. apply in_seq in Hi.
    cbn [firstn]. rewrite lev_nil_r, firstn_length, Nat.min_l by lia. reflexivity.
  Qed.

  (* the row before the deletion fold: insertion and substitution candidates *)
  Definition cand_row (tok m : Z) (last : list Z) : list Z :=
    let neq_mask := map (fun a => if a =? tok then 0 else 1) r in
    let row := map (fun x => x + ci * m) last in
    let sub_row := map2 (fun x m => x + cs * m) (removelast last) neq_mask in
    hd 0 row :: map2 Z.min (tl row) sub_row.

  Lemma step_row_unfold hlen excl idx last :
    step_row ci cd cs r h hlen excl idx last =
    if (idx - (if excl then 0 else 1) <? hlen)%nat
    then del_fold cd (cand_row (nth (idx - 1) h 0) (if (idx <=? hlen)%nat then 1 else 0) last)
    else last.
  Proof. reflexivity. Qed.

  Lemma cand_row_length tok m last : length last = S (length r) ->
    length (cand_row tok m last) = S (length r).
  Proof.
    intros HL. unfold cand_row. cbn [length].
    rewrite !map2_length, length_tl, length_removelast, !map_length, HL. lia.
  Qed.

  Lemma cand_row_0 tok m last : length last = S (length r) ->
    nth 0 (cand_row tok m last) 0 = nth 0 last 0 + ci * m.
  Proof.
    intros HL. unfold cand_row. cbn [nth]. rewrite hd_nth0.
    rewrite (nth_map_lt _ last 0%nat 0) by lia. reflexivity.
  Qed.

  Lemma cand_row_S tok m last i : length last = S (length r) -> (i < length r)%nat ->
    nth (S i) (cand_row tok m last) 0 =
    Z.min (nth (S i) last 0 + ci * m)
          (nth i last 0 + cs * (if nth i r 0 =? tok then 0 else 1)).
  Proof.
    intros HL Hi. unfold cand_row. cbn [nth].
    rewrite (nth_map2 Z.min _ _ i 0 0 0).
    2:{ rewrite length_tl, map_length, HL. lia. }
    2:{ rewrite map2_length, length_removelast, map_length, HL. lia. }
    rewrite nth_tl, (nth_map_lt _ last (S i) 0) by lia.
    rewrite (nth_map2 _ _ _ i 0 0 0).
    2:{ rewrite length_removelast, HL. lia. }
    2:{ rewrite map_length. exact Hi. }
    rewrite nth_removelast by lia.
    rewrite (nth_map_lt _ r i 0) by exact Hi. reflexivity.
  Qed.

  (* one live step of the loop turns column j into column j+1 *)
  Lemma sweep_cand_lrow j : (S j <= length h)%nat -> forall i, (i <= length r)%nat ->
    sweep_at cd (cand_row (nth j h 0) 1 (lrow j)) i = lev (firstn i r) (firstn (S j) h).
  Proof.
    intros Hj. induction i as [|i IH]; intros Hi.
    - cbn [sweep_at]. rewrite cand_row_0 by apply lrow_length.
      rewrite lrow_nth by lia. change (firstn 0 r) with (@nil Z). rewrite !lev_nil_l, !firstn_length, !Nat.min_l by lia.
      rewrite Nat2Z.inj_succ. ring.
    - cbn [sweep_at]. rewrite IH by lia.
      rewrite cand_row_S by (try apply lrow_length; lia).
      rewrite !lrow_nth by lia.
      rewrite (firstn_snoc_nth r i 0), (firstn_snoc_nth h j 0) by lia.
      rewrite lev_snoc. unfold sub_cost.
      destruct (nth i r 0 =? nth j h 0); lia.
  Qed.

  Lemma step_lrow j : (S j <= length h)%nat ->
    del_fold cd (cand_row (nth j h 0) 1 (lrow j)) = lrow (S j).
  Proof.
    intros Hj. apply (nth_ext _ _ 0 0).
    - rewrite del_fold_length, cand_row_length, lrow_length by apply lrow_length. reflexivity.
    - intros i Hi. rewrite del_fold_length, cand_row_length in Hi by apply lrow_length.
      rewrite del_fold_nth by (rewrite cand_row_length by apply lrow_length; exact Hi).
      rewrite sweep_cand_lrow by lia. rewrite lrow_nth by lia. reflexivity.
  Qed.

  (* ---- the loop, with freezing -------------------------------------------------------- *)
  Variables (hlen : nat) (excl : bool).

  (* the last hyp_idx for which not_done holds *)
  Definition frozen : nat := if excl then pred hlen else hlen.

  Lemma step_row_live idx : (hlen <= length h)%nat -> (1 <= idx)%nat -> (idx <= frozen)%nat ->
    step_row ci cd cs r h hlen excl idx (lrow (idx - 1)) = lrow idx.
  Proof.
    intros Hh H1 Hf. rewrite step_row_unfold. unfold frozen in Hf.
    replace (idx - (if excl then 0 else 1) <? hlen)%nat with true
      by (symmetry; apply Nat.ltb_lt; destruct excl; lia).
    replace (idx <=? hlen)%nat with true by (symmetry; apply Nat.leb_le; destruct excl; lia).
    replace idx with (S (idx - 1)) at 3 by lia.
    apply step_lrow. destruct excl; lia.
  Qed.

  Lemma step_row_frozen idx last : (frozen < idx)%nat ->
    step_row ci cd cs r h hlen excl idx last = last.
  Proof.
    intros Hf. rewrite step_row_unfold. unfold frozen in Hf.
    replace (idx - (if excl then 0 else 1) <? hlen)%nat with false
      by (symmetry; apply Nat.ltb_ge; destruct excl; lia).
    reflexivity.
  Qed.

  Lemma rows_loop_length fuel : forall idx last,
    length (rows_loop ci cd cs r h hlen excl fuel idx last) = fuel.
  Proof. induction fuel as [|f IH]; intros; cbn [rows_loop length]; [reflexivity|]. rewrite IH. reflexivity. Qed.

  Lemma rows_loop_nth : (hlen <= length h)%nat -> forall fuel idx last k,
    (1 <= idx)%nat -> last = lrow (Nat.min (idx - 1) frozen) -> (k < fuel)%nat ->
    nth k (rows_loop ci cd cs r h hlen excl fuel idx last) [] = lrow (Nat.min (idx + k) frozen).
  Proof.
    intros Hh. induction fuel as [|f IH]; intros idx last k H1 HL Hk; [lia|].
    cbn [rows_loop].
    assert (Hstep : step_row ci cd cs r h hlen excl idx last = lrow (Nat.min idx frozen)).
    { subst last. destruct (le_lt_dec idx frozen) as [Hle|Hgt].
      - rewrite !Nat.min_l by lia. apply step_row_live; assumption.
      - rewrite step_row_frozen by exact Hgt. rewrite !Nat.min_r by lia. reflexivity. }
    destruct k as [|k]; cbn [nth].
    - rewrite Hstep. f_equal. lia.
    - rewrite (IH (S idx) _ k); [f_equal; lia|lia| |lia].
      rewrite Hstep. f_equal. lia.
  Qed.

  Lemma all_rows_length steps : length (all_rows ci cd cs r h hlen excl steps) = S steps.
  Proof. unfold all_rows. cbn [length]. rewrite rows_loop_length. reflexivity. Qed.

  Lemma all_rows_nth steps k : (hlen <= length h)%nat -> (k <= steps)%nat ->
    nth k (all_rows ci cd cs r h hlen excl steps) [] = lrow (Nat.min k frozen).
  Proof.
    intros Hh Hk. unfold all_rows. destruct k as [|k]; cbn [nth].
    - rewrite row0_lrow. reflexivity.
    - rewrite (rows_loop_nth Hh steps 1 (row0 cd r) k); [reflexivity|lia| |lia].
      rewrite row0_lrow. reflexivity.
  Qed.

  (* headline form: entry i of the row after hyp_idx = j, while the pair is still live *)
  Theorem row_invariant steps j i :
    (hlen <= length h)%nat -> (j <= steps)%nat -> (j <= frozen)%nat -> (i <= length r)%nat ->
    nth i (nth j (all_rows ci cd cs r h hlen excl steps) []) 0
    = lev (firstn i r) (firstn j h).
  Proof.
    intros Hh Hj Hf Hi. rewrite all_rows_nth, Nat.min_l, lrow_nth by assumption. reflexivity.
  Qed.

  (* ... and once it is finished the row no longer moves *)
  Theorem rows_freeze steps j :
    (hlen <= length h)%nat -> (j <= steps)%nat -> (frozen <= j)%nat ->
    nth j (all_rows ci cd cs r h hlen excl steps) [] = lrow frozen.
  Proof. intros Hh Hj Hf. rewrite all_rows_nth, Nat.min_r by assumption. reflexivity. Qed.
End Rows.

(* one pair: what the code returns is what the spec demands *)
(* the uniform-cost shortcut (rescale to unit costs, multiply back) is harmless *)
Lemma eff_costs_lev i d s m a b c r h :
  eff_costs i d s = (m, (a, b, c)) -> lev a b c r h * m = lev i d s r h.
Proof.
  unfold eff_costs. destruct ((i =? d) && (d =? s) && (0 <? s)) eqn:E; intros H; inversion H; subst.
  - apply andb_true_iff in E as [E E3]. apply andb_true_iff in E as [E1 E2].
    apply Z.eqb_eq in E1, E2. apply Z.ltb_lt in E3. subst.
    rewrite (lev_scale s) by lia. ring.
  - ring.
Qed.

Lemma normalise_spec norm ci cd cs (r' h' : list Z) :
  normalise norm (length r') (lev ci cd cs r' h') (0 <? length h')%nat
  = spec_value norm ci cd cs r' h'.
Proof.
  unfold normalise, spec_value. destruct norm; [|reflexivity].
  destruct (length r'); reflexivity.
Qed.

Theorem pair_ed_correct c r h :
  pair_ed c r h
  = spec_pair_ed (c_eos c) (c_incl c) (c_norm c) (c_ins c) (c_del c) (c_sub c) r h.
Proof.
  unfold pair_ed, spec_pair_ed.
  destruct (eff_costs (c_ins c) (c_del c) (c_sub c)) as [mult [[ci cd] cs]] eqn:EC.
  pose proof (eff_len_le (c_eos c) (c_incl c) r) as Hr.
  pose proof (eff_len_le (c_eos c) (c_incl c) h) as Hh.
  rewrite last_nth, all_rows_length.
  replace (S (length h) - 1)%nat with (length h) by lia.
  rewrite all_rows_nth by lia. unfold frozen. rewrite Nat.min_r by lia.
  rewrite lrow_nth by lia.
  rewrite (eff_costs_lev _ _ _ _ _ _ _ _ _ EC).
  rewrite !firstn_eff_len, <- !length_denote. apply normalise_spec.
Qed.

Lemma firstn_firstn_le {A} (l : list A) k n : (k <= n)%nat -> firstn k (firstn n l) = firstn k l.
Proof. intros H. rewrite firstn_firstn, Nat.min_l by exact H. reflexivity. Qed.

Theorem pair_prefix_correct c r h :
  pair_prefix c r h
  = spec_pair_prefix (c_eos c) (c_incl c) (c_norm c) (c_ins c) (c_del c) (c_sub c)
      (c_excl c) (c_pad c) (length h + (if c_excl c then 0 else 1)) r h.
Proof.
  unfold pair_prefix, spec_pair_prefix.
  destruct (eff_costs (c_ins c) (c_del c) (c_sub c)) as [mult [[ci cd] cs]] eqn:EC.
  rewrite length_denote.
  pose proof (eff_len_le (c_eos c) (c_incl c) r) as Hr.
  pose proof (eff_len_le (c_eos c) (c_incl c) h) as Hh.
  set (rl := eff_len (c_eos c) (c_incl c) r) in *.
  set (hl := eff_len (c_eos c) (c_incl c) h) in *.
  set (e := if c_excl c then 0%nat else 1%nat).
  set (out_len := (length h + e)%nat).
  set (rows := all_rows ci cd cs r h hl (c_excl c) (out_len - 1)).
  (* the head written out is row 0 gathered at ref_lens like the others *)
  replace (Z.of_nat rl * cd) with (nth rl (row0 cd r) 0) by (unfold row0; rewrite nth_map_seq by lia; reflexivity).
  change (nth rl (row0 cd r) 0 :: map (fun row => nth rl row 0) (tl rows)) with (map (fun row => nth rl row 0) rows).
  assert (Hrows : length rows = S (out_len - 1)) by apply all_rows_length.
  apply (nth_ext _ _ (Lit 0) (Lit 0)).
  - rewrite map2_length, seq_length, !map_length, Hrows, seq_length. lia.
  - rewrite map2_length, seq_length, map_length, Hrows. intros k Hk.
    assert (Hk' : (k < out_len)%nat) by lia.
    rewrite (nth_map2 _ _ _ k 0%nat 0 (Lit 0)) by (rewrite ?seq_length, ?map_length, ?Hrows; lia).
    rewrite seq_nth, nth_map_seq by exact Hk'. cbn [Nat.add].
    rewrite Nat.leb_antisym. destruct (Nat.ltb_spec k (hl + e)) as [E|E]; cbn [negb]; [|reflexivity].
    assert (Hkh : (k <= hl /\ k <= frozen hl (c_excl c))%nat) by (unfold frozen, e in *; destruct (c_excl c); lia).
    rewrite (nth_map_lt _ rows k []) by lia.
    unfold rows. rewrite all_rows_nth, Nat.min_l, lrow_nth by lia.
    rewrite (eff_costs_lev _ _ _ _ _ _ _ _ _ EC).
    unfold rl, hl. rewrite <- !firstn_eff_len. fold rl. fold hl.
    rewrite (firstn_firstn_le h k hl) by lia.
    replace (0 <? k)%nat with (0 <? length (firstn k h))%nat
      by (rewrite firstn_length, Nat.min_l by lia; reflexivity).
    replace rl with (length (firstn rl r)) at 1 by (rewrite firstn_length; lia).
    apply normalise_spec.
Qed.

(* ---- garbage after the first eos --------------------------------------------------- *)
Lemma before_eos_app e body g : ~ In e body -> before_eos e (body ++ e :: g) = body.
Proof.
  induction body as [|x body IH]; intros Hn; cbn [app before_eos].
  - rewrite Z.eqb_refl. reflexivity.
  - destruct (x =? e) eqn:E.
    + apply Z.eqb_eq in E. exfalso. apply Hn. left. exact E.
    + f_equal. apply IH. intros Hin. apply Hn. right. exact Hin.
Qed.

Lemma has_eos_app e body g : has_eos e (body ++ e :: g) = true.
Proof.
  unfold has_eos. apply existsb_exists. exists e. split; [|apply Z.eqb_refl].
  apply in_or_app. right. left. reflexivity.
Qed.

Lemma denote_garbage e incl body g : ~ In e body ->
  denote (Some e) incl (body ++ e :: g) = body ++ (if incl then [e] else []).
Proof.
  intros Hn. unfold denote. rewrite has_eos_app, before_eos_app by exact Hn.
  destruct incl; cbn [andb]; [reflexivity|]. rewrite app_nil_r. reflexivity.
Qed.

Theorem pair_ed_post_eos c r r' h h' :
  denote (c_eos c) (c_incl c) r = denote (c_eos c) (c_incl c) r' ->
  denote (c_eos c) (c_incl c) h = denote (c_eos c) (c_incl c) h' ->
  pair_ed c r h = pair_ed c r' h'.
Proof. intros Hr Hh. rewrite !pair_ed_correct. unfold spec_pair_ed. rewrite Hr, Hh. reflexivity. Qed.

Theorem pair_prefix_post_eos c r r' h h' :
  denote (c_eos c) (c_incl c) r = denote (c_eos c) (c_incl c) r' ->
  denote (c_eos c) (c_incl c) h = denote (c_eos c) (c_incl c) h' ->
  length h = length h' ->
  pair_prefix c r h = pair_prefix c r' h'.
Proof.
  intros Hr Hh HL. rewrite !pair_prefix_correct. unfold spec_pair_prefix.
  rewrite Hr, Hh, HL. reflexivity.
Qed.

(* the batch, both layouts *)
Definition rect (W : nat) (m : list (list Z)) : Prop := forall row, In row m -> length row = W.

(* sequence n of a tensor in the given layout *)
Definition seq_of (bf : bool) (n : nat) (m : list (list Z)) : list Z :=
  if bf then nth n m [] else col 0 n m.

(* a batch-first tensor is a list of N rows of equal width; a time-major one is any list
   of rows (missing entries read as 0; never happens for a real tensor) *)
Definition wf_tensor (bf : bool) (N : nat) (m : list (list Z)) : Prop :=
  if bf then length m = N /\ exists W, rect W m else True.

Lemma col_transpose n W m : (n < length m)%nat -> rect W m ->
  col 0 n (transpose 0 W m) = nth n m [].
Proof.
  intros Hn HW. unfold transpose, col. rewrite map_map.
  rewrite (map_ext _ (fun k => nth k (nth n m []) 0)).
  2:{ intros k. apply (nth_map_lt (fun row => nth k row 0) m n []). exact Hn. }
  rewrite <- (HW (nth n m [])) by (apply nth_In; exact Hn). apply map_nth_seq.
Qed.

Lemma sequences_nth bf N m n : (n < N)%nat -> wf_tensor bf N m ->
  nth n (sequences bf N m) [] = seq_of bf n m.
Proof.
  intros Hn Hwf. unfold sequences, seq_of. rewrite nth_map_seq by exact Hn. cbn [Nat.add].
  destruct bf; [|reflexivity]. destruct Hwf as [HL [W HW]].
  assert (length (hd [] m) = W) as ->.
  { destruct m as [|row m]; [cbn in HL; lia|]. apply HW. left. reflexivity. }
  apply col_transpose; [lia|exact HW].
Qed.

Lemma sequences_length bf N m : length (sequences bf N m) = N.
Proof. unfold sequences. rewrite map_length, seq_length. reflexivity. Qed.

Theorem edit_distance_nth c N ref hyp n :
  (n < N)%nat -> wf_tensor (c_bf c) N ref -> wf_tensor (c_bf c) N hyp ->
  nth n (edit_distance c N ref hyp) (Lit 0)
  = pair_ed c (seq_of (c_bf c) n ref) (seq_of (c_bf c) n hyp).
Proof.
  intros Hn Hr Hh. unfold edit_distance.
  rewrite (nth_map2 _ _ _ n [] [] (Lit 0)) by (rewrite sequences_length; exact Hn).
  rewrite !sequences_nth by assumption. reflexivity.
Qed.

Lemma edit_distance_length c N ref hyp : length (edit_distance c N ref hyp) = N.
Proof. unfold edit_distance. rewrite map2_length, !sequences_length. lia. Qed.

(* width of the hypothesis tensor along time *)
Definition time_len (bf : bool) (m : list (list Z)) : nat :=
  if bf then length (hd [] m) else length m.

Lemma seq_of_length bf N m n : (n < N)%nat -> wf_tensor bf N m ->
  length (seq_of bf n m) = time_len bf m.
Proof.
  intros Hn Hwf. unfold seq_of, time_len, col. destruct bf; [|apply map_length].
  destruct Hwf as [HL [W HW]].
  rewrite (HW (nth n m [])) by (apply nth_In; lia).
  destruct m as [|row m]; [cbn in HL; lia|]. symmetry. apply HW. left. reflexivity.
Qed.

(* entry (k, n) of the returned table — (n, k) when batch_first *)
Definition entry (bf : bool) (k n : nat) (out : list (list val)) : val :=
  if bf then nth k (nth n out []) (Lit 0) else nth n (nth k out []) (Lit 0).

Lemma transpose_nth {A} (d : A) W m i j : (i < W)%nat -> (j < length m)%nat ->
  nth j (nth i (transpose d W m) []) d = nth i (nth j m []) d.
Proof.
  intros Hi Hj. unfold transpose, col. rewrite nth_map_seq by exact Hi. cbn [Nat.add].
  apply (nth_map_lt (fun row => nth i row d) m j []). exact Hj.
Qed.

(* [entry] reads the table of the pairs, whichever layout is returned *)
Lemma entry_transpose bf k n W N (m : list (list val)) : (k < W)%nat -> (n < N)%nat -> (n < length m)%nat ->
  entry bf k n (if bf then transpose (Lit 0) N (transpose (Lit 0) W m) else transpose (Lit 0) W m)
  = nth k (nth n m []) (Lit 0).
Proof.
  intros Hk Hn Hm. unfold entry. destruct bf; [rewrite transpose_nth|]; try apply transpose_nth; try assumption.
  unfold transpose. rewrite map_length, seq_length. exact Hk.
Qed.

(* the returned table of any per-pair function [f], read through [entry] *)
Lemma prefix_table_nth (f : list Z -> list Z -> list val) bf N W ref hyp n k :
  (n < N)%nat -> wf_tensor bf N ref -> wf_tensor bf N hyp -> (k < W)%nat ->
  entry bf k n (if bf then transpose (Lit 0) N (transpose (Lit 0) W (map2 f (sequences bf N ref) (sequences bf N hyp)))
                else transpose (Lit 0) W (map2 f (sequences bf N ref) (sequences bf N hyp)))
  = nth k (f (seq_of bf n ref) (seq_of bf n hyp)) (Lit 0).
Proof.
  intros Hn Hr Hh Hk.
  rewrite entry_transpose; [|exact Hk|exact Hn|rewrite map2_length, !sequences_length; lia].
  rewrite (nth_map2 _ _ _ n [] [] []) by (rewrite sequences_length; exact Hn).
  rewrite !sequences_nth by assumption. reflexivity.
Qed.

Theorem prefix_edit_distances_nth c N ref hyp n k :
  (n < N)%nat -> wf_tensor (c_bf c) N ref -> wf_tensor (c_bf c) N hyp ->
  (k < time_len (c_bf c) hyp + (if c_excl c then 0 else 1))%nat ->
  entry (c_bf c) k n (prefix_edit_distances c N ref hyp)
  = nth k (pair_prefix c (seq_of (c_bf c) n ref) (seq_of (c_bf c) n hyp)) (Lit 0).
Proof.
  intros Hn Hr Hh Hk. unfold prefix_edit_distances. cbv zeta.
  rewrite hd_nth0, sequences_nth, (seq_of_length _ N) by (assumption || lia).
  now apply prefix_table_nth.
Qed.

Section Headline.
  Variable c : cfg.
  Variables (N : nat) (ref hyp : list (list Z)).
  Let bf := c_bf c.
  (* the sequences pair n of the batch denotes *)
  Let R n := denote (c_eos c) (c_incl c) (seq_of bf n ref).
  Let H n := denote (c_eos c) (c_incl c) (seq_of bf n hyp).
  Let out_len := (time_len bf hyp + (if c_excl c then 0 else 1))%nat.

  Theorem edit_distance_spec n :
    (n < N)%nat -> wf_tensor bf N ref -> wf_tensor bf N hyp ->
    nth n (edit_distance c N ref hyp) (Lit 0)
    = spec_value (c_norm c) (c_ins c) (c_del c) (c_sub c) (R n) (H n).
  Proof.
    intros Hn Hr Hh. rewrite edit_distance_nth by assumption. apply pair_ed_correct.
  Qed.

  Theorem edit_distance_correct n :
    (n < N)%nat -> wf_tensor bf N ref -> wf_tensor bf N hyp -> c_norm c = false ->
    exists v, nth n (edit_distance c N ref hyp) (Lit 0) = Cost v
              /\ v = lev (c_ins c) (c_del c) (c_sub c) (R n) (H n)
              /\ min_edit_cost (c_ins c) (c_del c) (c_sub c) (R n) (H n) v.
  Proof.
    intros Hn Hr Hh Hnorm. eexists. split; [|split; [reflexivity|apply lev_is_min_edit_cost]].
    rewrite edit_distance_spec by assumption. unfold spec_value. rewrite Hnorm. reflexivity.
  Qed.

  Theorem edit_distance_norm n :
    (n < N)%nat -> wf_tensor bf N ref -> wf_tensor bf N hyp -> c_norm c = true ->
    nth n (edit_distance c N ref hyp) (Lit 0)
    = match length (R n) with
      | O => Lit (if (0 <? length (H n))%nat then 1 else 0)
      | S _ => Ratio (lev (c_ins c) (c_del c) (c_sub c) (R n) (H n)) (length (R n))
      end.
  Proof.
    intros Hn Hr Hh Hnorm. rewrite edit_distance_spec by assumption.
    unfold spec_value. rewrite Hnorm. reflexivity.
  Qed.

  Theorem prefix_edit_distances_correct n k :
    (n < N)%nat -> wf_tensor bf N ref -> wf_tensor bf N hyp -> (k < out_len)%nat ->
    entry bf k n (prefix_edit_distances c N ref hyp)
    = if (k <? length (H n) + (if c_excl c then 0 else 1))%nat
      then spec_value (c_norm c) (c_ins c) (c_del c) (c_sub c) (R n) (firstn k (H n))
      else Lit (c_pad c).
  Proof.
    intros Hn Hr Hh Hk. subst bf. rewrite prefix_edit_distances_nth by assumption.
    rewrite pair_prefix_correct. unfold spec_pair_prefix.
    rewrite (seq_of_length _ N) by assumption.
    rewrite nth_map_seq by exact Hk. reflexivity.
  Qed.

  (* the un-normalised reading, spelled out *)
  Corollary prefix_edit_distances_cost n k :
    (n < N)%nat -> wf_tensor bf N ref -> wf_tensor bf N hyp -> (k < out_len)%nat ->
    c_norm c = false -> (k < length (H n) + (if c_excl c then 0 else 1))%nat ->
    entry bf k n (prefix_edit_distances c N ref hyp)
    = Cost (lev (c_ins c) (c_del c) (c_sub c) (R n) (firstn k (H n)))
    /\ min_edit_cost (c_ins c) (c_del c) (c_sub c) (R n) (firstn k (H n))
         (lev (c_ins c) (c_del c) (c_sub c) (R n) (firstn k (H n))).
  Proof.
    intros Hn Hr Hh Hk Hnorm Hlive. split; [|apply lev_is_min_edit_cost].
    rewrite prefix_edit_distances_correct by assumption.
    replace (k <? _)%nat with true by (symmetry; apply Nat.ltb_lt; exact Hlive).
    unfold spec_value. rewrite Hnorm. reflexivity.
  Qed.

  Corollary prefix_edit_distances_padding n k :
    (n < N)%nat -> wf_tensor bf N ref -> wf_tensor bf N hyp -> (k < out_len)%nat ->
    (length (H n) + (if c_excl c then 0 else 1) <= k)%nat ->
    entry bf k n (prefix_edit_distances c N ref hyp) = Lit (c_pad c).
  Proof.
    intros Hn Hr Hh Hk Hpad. rewrite prefix_edit_distances_correct by assumption.
    replace (k <? _)%nat with false by (symmetry; apply Nat.ltb_ge; exact Hpad). reflexivity.
  Qed.
End Headline.

(* a pair's result is a function of that pair alone: same two sequences, same result,
   whatever the batch around them and wherever they sit in it *)
Theorem batch_pointwise c N ref hyp n N' ref' hyp' n' :
  (n < N)%nat -> wf_tensor (c_bf c) N ref -> wf_tensor (c_bf c) N hyp ->
  (n' < N')%nat -> wf_tensor (c_bf c) N' ref' -> wf_tensor (c_bf c) N' hyp' ->
  denote (c_eos c) (c_incl c) (seq_of (c_bf c) n ref)
    = denote (c_eos c) (c_incl c) (seq_of (c_bf c) n' ref') ->
  denote (c_eos c) (c_incl c) (seq_of (c_bf c) n hyp)
    = denote (c_eos c) (c_incl c) (seq_of (c_bf c) n' hyp') ->
  nth n (edit_distance c N ref hyp) (Lit 0) = nth n' (edit_distance c N' ref' hyp') (Lit 0).
Proof.
  intros Hn Hr Hh Hn' Hr' Hh' ER EH.
  rewrite (edit_distance_spec c N ref hyp n), (edit_distance_spec c N' ref' hyp' n') by assumption.
  rewrite ER, EH. reflexivity.
Qed.

Theorem batch_pointwise_prefix c N ref hyp n N' ref' hyp' n' k :
  (n < N)%nat -> wf_tensor (c_bf c) N ref -> wf_tensor (c_bf c) N hyp ->
  (n' < N')%nat -> wf_tensor (c_bf c) N' ref' -> wf_tensor (c_bf c) N' hyp' ->
  (k < time_len (c_bf c) hyp + (if c_excl c then 0 else 1))%nat ->
  (k < time_len (c_bf c) hyp' + (if c_excl c then 0 else 1))%nat ->
  denote (c_eos c) (c_incl c) (seq_of (c_bf c) n ref)
    = denote (c_eos c) (c_incl c) (seq_of (c_bf c) n' ref') ->
  denote (c_eos c) (c_incl c) (seq_of (c_bf c) n hyp)
    = denote (c_eos c) (c_incl c) (seq_of (c_bf c) n' hyp') ->
  entry (c_bf c) k n (prefix_edit_distances c N ref hyp)
  = entry (c_bf c) k n' (prefix_edit_distances c N' ref' hyp').
Proof.
  intros Hn Hr Hh Hn' Hr' Hh' Hk Hk' ER EH.
  rewrite (prefix_edit_distances_correct c N ref hyp n k) by assumption.
  rewrite (prefix_edit_distances_correct c N' ref' hyp' n' k) by assumption.
  rewrite ER, EH. reflexivity.
Qed.
