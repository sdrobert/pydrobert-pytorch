(* C01 - the blocks of `_string_matching` around the loop, for the plain edit-distance configuration: row 0 and
   del_mat (sm_row0), the loop with the gather at ref_lens (sm_main), `mult` and the normalisation (sm_fin), and the
   preamble with the length inference (sm_pre).  Each lemma: from a description of the state ([known st l]: the
   listed variables hold the listed values) the interpreted block runs to a state described by the next list. *)
From Coq Require Import ZArith QArith List String Bool Arith Lia ZifyBool ZifyNat.
From PV Require Import MiniPy.Syntax MiniPy.Interp MiniPy.Lemmas MiniTorch.Ops MiniTorch.Lemmas MiniTorch.OpsC07 MiniTorch.LemmasC07
  MiniTorch.OpsC01 MiniTorch.LemmasC01.
From PV Require Import Gen.C01Src C01.SrcRun C01.TieLib C01.TieMath C01.TieLoop.
From PV Require C01.Model C01.Proofs.
Import ListNotations.
Local Open Scope string_scope.

(* the listed variables hold the listed values *)
Fixpoint known (st : state) (l : list (string * val)) : Prop :=
  match l with
  | [] => True
  | (x, v) :: r => lookup x (vars st) = Some v /\ known st r
  end.

Ltac open_known H := cbn [known app] in H; repeat match type of H with _ /\ _ => let L := fresh "K" in destruct H as [L H] end; clear H.
Ltac close_known := cbn [known app]; repeat split; try assumption.

Definition returns (v : val) (o : outcome ctl) : Prop := exists st', o = Ok (CReturn v) st'.



Definition torch_module : val := VDict [(VStr "long", long_token); (VStr "float", float_token); (VStr "bool", bool_token)].

Definition lens_tensor (N : nat) (l : nat -> nat) : val := enc_i (mkTn [N] (map (fun n => Z.of_nat (l n)) (seq 0 N))).

(* after the preamble: flags of the plain configuration, time-major tensors, sizes, effective costs over the
   denominator s, mult, the lengths *)
Definition stageA (s : positive) (ci cd cs : Z) (mult : Q) (R N H : nat) (rf hf : nat -> nat -> Z) (rl hl : nat -> nat)
  (nm w : bool) : list (string * val) :=
  [("exclude_last", VBool false); ("return_mistakes", VBool false); ("return_mask", VBool false);
   ("return_prf_dsts", VBool false); ("norm", VBool nm); ("warn", VBool w);
   ("ref", enc_i (mkTn [R; N] (tab2 R N rf))); ("hyp", enc_i (mkTn [H; N] (tab2 H N hf)));
   ("max_ref_steps", VInt (Z.of_nat R)); ("batch_size", VInt (Z.of_nat N)); ("max_hyp_steps", VInt (Z.of_nat H));
   ("device", device_token); ("torch", torch_module);
   ("ins_cost", VQ (qz s ci)); ("del_cost", VQ (qz s cd)); ("sub_cost", VQ (qz s cs)); ("mult", VQ mult);
   ("ref_lens", lens_tensor N rl); ("hyp_lens", lens_tensor N hl)].

Definition stageB (s : positive) (cd : Z) (R N : nat) : list (string * val) :=
  [("del_mat", enc_x (mkTn [S R; S R; 1%nat] (tab2 (S R) (S R) (fun i j => ofx s (C01.Model.del_entry cd i j)))));
   ("row", enc_x (mkTn [S R; N] (tab2 (S R) N (fun i _ => zf s (Z.of_nat i * cd)))))].

Section Blocks.
  Variables (s : positive) (ci cd cs : Z) (mult : Q) (R N H : nat) (rf hf : nat -> nat -> Z) (rl hl : nat -> nat) (nm w : bool).
  Notation A := (stageA s ci cd cs mult R N H rf hf rl hl nm w).

  Lemma row0_run : forall st, known st A -> runs_to (fun st' => known st' (A ++ stageB s cd R N)) (exec ext01 sm_row0 st).
  Proof.
    intros st K. unfold stageA in K. open_known K. unfold sm_row0.
    assign ltac:(evn; replace (Z.of_nat R + 1)%Z with (Z.of_nat (S R)) by lia; rewrite arange_f_nat; evn; reflexivity).
    ifstep. rewrite !exec_seq_assoc.
    asg. asg.
    assign ltac:(evn; change 1%Z with (Z.of_nat 1); rewrite full_mat, triu_mat; evn; reflexivity).
    asg.
    assign ltac:(evn; replace (Z.of_nat R + 1)%Z with (Z.of_nat (S R)) by lia; rewrite expand2_col; evn; reflexivity).
    apply runs_to_ok. unfold stageA, stageB. close_known.
    - match goal with L : lookup "del_mat" _ = _ |- _ => rewrite L end. do 3 f_equal. apply tab2_ext. intros i j Hi Hj.
      apply del_entry_src.
    - match goal with L : lookup "row" _ = _ |- _ => rewrite L end. do 3 f_equal. apply tab2_ext. intros i j Hi Hj.
      apply fmul_z2f_zf.
  Qed.

  (* ---- sm_main: the flag block, the loop, the exits of the other configurations, the gather ------------ *)
  Definition main_flags : stmt := match sm_main with SSeq a _ => a | _ => SPass end.
  Definition main_rest : stmt := match sm_main with SSeq _ (SSeq _ r) => r | _ => SPass end.
  Lemma sm_main_eq : sm_main = SSeq main_flags (SSeq sm_loop main_rest).
  Proof. reflexivity. Qed.

  (* column n of the table after all H steps, from row 0 = arange * del_cost *)
  Definition final_col (n : nat) : list Z :=
    iter_col ci cd cs R H rf hf hl H 0 (fun i _ => Z.of_nat i * cd)%Z n.

  Definition stageC : list (string * val) :=
    [("er", enc_x (mkTn [N] (map (fun n => zf s (nth (rl n) (final_col n) 0%Z)) (seq 0 N))));
     ("mult", VQ mult); ("norm", VBool nm); ("warn", VBool w);
     ("ref_lens", lens_tensor N rl); ("hyp_lens", lens_tensor N hl)].

  (* with any loop statement that has the property of [loop_tie] (sm_loop, or the loop inside sm_body) *)
  Section AnyLoop.
    Variable lp : stmt.
    Hypothesis Hlp : forall st lf,
      body_pre s ci cd cs R N H rf hf hl (lens_tensor N rl) (VQ mult) (VBool nm) (VBool w) lf st ->
      lookup "max_hyp_steps" (vars st) = Some (VInt (Z.of_nat H)) ->
      runs_to (body_pre s ci cd cs R N H rf hf hl (lens_tensor N rl) (VQ mult) (VBool nm) (VBool w)
                 (fun i n => nth i (iter_col ci cd cs R H rf hf hl H 0 lf n) 0%Z)) (exec ext01 lp st).

    Lemma main_run_gen : forall st, (forall n, (n < N)%nat -> (rl n <= R)%nat) ->
      known st (A ++ stageB s cd R N) ->
      runs_to (fun st' => known st' stageC) (exec ext01 (SSeq main_flags (SSeq lp main_rest)) st).
    Proof.
      intros st Hrl K. unfold stageA, stageB in K. open_known K.
      unfold main_flags, sm_main. cbv iota. ifstep. ifstep. seqnorm.
      eapply run_seq.
      - apply (Hlp st (fun i _ => Z.of_nat i * cd)%Z); [|assumption].
        unfold body_pre. repeat split; assumption.
      - intros st1 P1. destruct P1 as (Hexcl & Hmist & Hmask & Hprf & Hhl & Href & Hhyp & Hci & Hcs & Hdm & Hrl' & Hmu & Hno & Hwa & Hrow).
        unfold main_rest, sm_main. cbv iota. unfold lens_tensor in *.
        ifstep. ifstep. ifstep.
        assign ltac:(evn; rewrite gather0_row by (intros j Hj; specialize (Hrl j Hj); lia); evn; reflexivity).
        apply runs_to_ok. unfold stageC, lens_tensor. close_known.
    Qed.
  End AnyLoop.

  Lemma main_run : forall st, (forall n, (n < N)%nat -> (rl n <= R)%nat) ->
    known st (A ++ stageB s cd R N) -> runs_to (fun st' => known st' stageC) (exec ext01 sm_main st).
  Proof.
    rewrite sm_main_eq. apply main_run_gen. intros st lf P Hm.
    exact (loop_tie s ci cd cs R N H rf hf hl (lens_tensor N rl) (VQ mult) (VBool nm) (VBool w) st lf P Hm).
  Qed.

  (* ---- sm_fin: mult, the normalisation, return ---------------------------------------------------------------- *)
  Definition fin_value (n : nat) : fx :=
    let x := fmul (zf s (nth (rl n) (final_col n) 0%Z)) (Fq mult) in
    if nm then (if (Z.of_nat (rl n) =? 0)%Z then b2f (Z.of_nat (hl n) >? 0)%Z else fdiv x (z2f (Z.of_nat (rl n))))
    else x.

  Lemma fin_run : forall st, known st stageC ->
    returns (enc_x (mkTn [N] (map fin_value (seq 0 N)))) (exec ext01 sm_fin st).
  Proof.
    intros st K. unfold stageC, lens_tensor in K. open_known K. unfold sm_fin.
    asg. ifstep. unfold fin_value. destruct nm; cbv iota.
    - asg. asg. ifstep.
      match goal with |- context [if ?b then _ else _] => destruct b eqn:Hany end.
      + ifstep. asg. cbn [exec eval]. look. cbn [bind]. eexists. reflexivity.
      + seqnorm. cbn [exec eval]. look. cbn [bind]. eexists. do 4 f_equal.
        apply map_ext_seq. intros n Hn.
        replace (Z.of_nat (rl n) =? 0)%Z with false; [reflexivity|].
        unfold any_b in Hany. cbn [dat] in Hany. symmetry.
        destruct (Z.of_nat (rl n) =? 0)%Z eqn:E; [|reflexivity].
        rewrite <- Hany. symmetry. apply existsb_exists. exists true. split; [|reflexivity].
        apply in_map_iff. exists n. split; [exact E|apply in_seq; lia].
    - seqnorm. cbn [exec eval]. look. cbn [bind]. eexists. reflexivity.
  Qed.
End Blocks.
