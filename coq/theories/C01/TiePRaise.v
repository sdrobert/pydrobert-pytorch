(* C01, prefix tie - the RAISE paths of the call made by prefix_edit_distances (PV.Gen.C01Src.sm_body, return_prf_dsts = True,
   environment SrcRunP.ext01p g): the dimension check (RuntimeError) and `exclude_last=True` with a hypothesis tensor without
   time steps - `prefix_ers = torch.empty((0, N))`, then `prefix_ers[0] = ...` raises IndexError (shown without an eos; with
   one `_lens_from_eos` raises first).  The second is the boundary of the hypothesis `c_excl c = true -> H <> 0` of
   TieP.prefix_is_model: there Model.prefix_edit_distances returns an empty table, the source raises. *)
From Coq Require Import ZArith QArith List String Bool Arith Lia ZifyBool ZifyNat.
From PV Require Import MiniPy.Syntax MiniPy.Interp MiniPy.Lemmas MiniTorch.Ops MiniTorch.Lemmas MiniTorch.OpsC07 MiniTorch.LemmasC07
  MiniTorch.OpsC01 MiniTorch.LemmasC01 MiniTorch.OpsC01P MiniTorch.LemmasC01P.
From PV Require Import Gen.C01Src C01.SrcRun C01.SrcRunP C01.TieLib C01.TieMath C01.TieLoop C01.TieBlocks C01.TieWhole C01.TieLens
  C01.TiePre C01.TieRaise C01.TieBody C01.Tie C01.TiePLib C01.TiePMath C01.TiePLoop C01.TiePBlocks C01.TieP.
From PV Require C01.Model C01.Proofs.
Import ListNotations.
Local Open Scope string_scope.

#[local] Arguments Z.of_nat : simpl nomatch.
#[local] Arguments Z.eqb : simpl nomatch.

(* ---- the dimension check ---------------------------------------------------------------------------------------- *)
Theorem prefix_raises_dim :
  forall (g : nat -> fx) (x y : tn Z) (eos : option Z) (incl bf : bool) (qi qd qs : Q) (w nm : bool) (pad : Z) (excl : bool),
  (List.length (shp x) <> 2 \/ List.length (shp y) <> 2)%nat ->
  exists st', Interp.run (ext01p g) sm_body (smp_vars x y eos incl bf qi qd qs w nm pad excl) = Exc runtime_error st'.
Proof.
  intros. apply run_raises. rewrite sm_body_split. apply raises_seq_l.
  apply (pre_raises_dim (ext01p g) (extends_ext01p g) _ x y true excl (fun _ => eq_refl)); try reflexivity. assumption.
Qed.

(* ---- exclude_last on a hypothesis tensor without time steps ------------------------------------------------------ *)
Section EmptyTable.
  Variable g : nat -> fx.
  Variables (s : positive) (ci cd cs : Z) (mult : Q) (R N : nat) (rf hf : nat -> nat -> Z) (rl hl : nat -> nat).
  Variables (nm w bf : bool) (pad : Z).
  Notation E := (ext01p g).

  Lemma flags_raises_p : forall st,
    known st (stageA' s ci cd cs mult R N 0 rf hf rl hl nm w bf true pad ++ stageB s cd R N) ->
    raises index_error (exec E main_flags st).
  Proof.
    intros st K. unfold stageA', stageB in K. open_known K. unfold raises, main_flags, sm_main. cbv iota.
    ifstep. ifstep.
    assign_v (enc_x (mkTn [0%nat; N] (tab2 0 N (fun i j => g (i * N + j)%nat))))
      ltac:(evn; change (0 + 0)%Z with (Z.of_nat 0); rewrite empty2_nat; reflexivity).
    unfold lens_tensor in *.
    lazymatch goal with
    | |- context [exec ?E0 (SSeq (SAssign [TSub (EName ?x) ?ke] ?e) ?b) ?st0] =>
        eassert (H1 : eval E0 e st0 = Ok _ st0) by eval_std;
        eassert (H2 : lookup x (vars st0) = Some (enc_x _)) by (look; reflexivity);
        eassert (H3 : eval E0 ke st0 = Ok _ st0) by eval_std;
        lazymatch type of H1 with _ = Ok ?v _ =>
        lazymatch type of H2 with _ = Some (enc_x ?t) =>
        lazymatch type of H3 with _ = Ok ?kv _ =>
          assert (H4 : E0 "$setitem" [enc_x t; kv; v] [] st0 = Exc index_error st0)
            by (rewrite extp_setitem_row; cbn [tab2]; rewrite set_select0_empty; reflexivity);
          rewrite (gexec_seq_setitem_exc E0 x ke e b st0 v kv t _ H1 H2 H3 H4)
        end end end
    end.
    eexists. reflexivity.
  Qed.
End EmptyTable.

Theorem prefix_raises_empty_hyp :
  forall (g : nat -> fx) (s : positive) (c : C01.Model.cfg) (N R : nat) (ref hyp : list (list Z)) (w : bool),
  (0 < N)%nat -> wf_src (C01.Model.c_bf c) N R ref -> wf_src (C01.Model.c_bf c) N 0 hyp ->
  C01.Model.c_eos c = None -> C01.Model.c_excl c = true ->
  exists st', run_prefix g s c N ref hyp w = Exc index_error st'.
Proof.
  intros g s c N R ref hyp w HN Hr Hh Heos Hex.
  unfold run_prefix, run_prefix_prog. apply run_raises. rewrite sm_body_split.
  rewrite (mat_tensor_in _ N R ref HN Hr), (mat_tensor_in _ N 0 hyp HN Hh).
  set (rf := at_src (C01.Model.c_bf c) ref). set (hf := at_src (C01.Model.c_bf c) hyp).
  match goal with |- context [exec _ _ ?st0] => set (st0' := st0) end.
  assert (K : known st0' (params_p s c R N 0 rf hf w)).
  { unfold st0', params_p, smp_vars, globals01, torch_module. cbn [known app]. repeat split; reflexivity. }
  eapply run_seq; [apply pre_run_p; [rewrite Heos; intros HH; now elim HH|exact K]|]. intros st1 K1.
  unfold stageAp in K1. rewrite Hex in K1.
  assert (Hrl : forall n, (n < N)%nat -> (ref_len c R rf n <= R)%nat).
  { intros n Hn. unfold ref_len. rewrite <- (colf_length R rf n) at 2. apply C01.Proofs.eff_len_le. }
  eapply run_seq;
    [exact (row0_run_p g (eff_scale s c) (eff_ci c) (eff_cd c) (eff_cs c) (eff_mult s c) R N 0 rf hf (ref_len c R rf)
              (hyp_len c 0 hf) (C01.Model.c_norm c) w (C01.Model.c_bf c) true (C01.Model.c_pad c) Hrl st1 K1)|].
  intros st2 K2. apply raises_seq_l. apply raises_seq_l.
  eapply flags_raises_p. exact K2.
Qed.
