(* C01 - the RAISE paths of the whole call of `_string_matching` (PV.Gen.C01Src.sm_body, plain edit-distance configuration,
   environment SrcRun.ext01): the dimension check (RuntimeError when ref or hyp is not 2-dimensional), the batch-size check
   (RuntimeError when the batch sizes differ), and a zero-width tensor together with an eos (IndexError out of
   `_lens_from_eos`: torch.max over an empty dimension).  The model has no raise paths: these inputs are outside its
   well-formedness predicate; the theorems say what the source does there. *)
From Coq Require Import ZArith QArith List String Bool Arith Lia ZifyBool ZifyNat.
From PV Require Import MiniPy.Syntax MiniPy.Interp MiniPy.Lemmas MiniTorch.Ops MiniTorch.Lemmas MiniTorch.OpsC07 MiniTorch.LemmasC07
  MiniTorch.OpsC01 MiniTorch.LemmasC01.
From PV Require Import Gen.C01Src C01.SrcRun C01.TieLib C01.TieMath C01.TieLoop C01.TieBlocks C01.TieWhole C01.TieLens C01.TiePre
  C01.TieBody.
From PV Require C07.SrcRun C01.Obs C01.Model C01.Proofs.
Import ListNotations.
Local Open Scope string_scope.

#[local] Arguments Z.of_nat : simpl nomatch.
#[local] Arguments Z.eqb : simpl nomatch.

Definition raises (n : string) (o : outcome ctl) : Prop := exists st', o = Exc n st'.

Lemma raises_seq_l : forall E n a b st, raises n (exec E a st) -> raises n (exec E (SSeq a b) st).
Proof. intros E n a b st [st1 He]. cbn [exec]. rewrite He. eexists. reflexivity. Qed.

Lemma exec_seq_assign_exc : forall x e b st n st1, eval ext01 e st = Exc n st1 ->
  exec ext01 (SSeq (SAssign [TName x] e) b) st = Exc n st1.
Proof. intros x e b st n st1 H. cbn [exec]. rewrite H. reflexivity. Qed.

Lemma run_raises : forall E n body vars0, raises n (exec E body (mkState vars0 [])) ->
  exists st', Interp.run E body vars0 = Exc n st'.
Proof. intros E n body vars0 [st' He]. unfold Interp.run. rewrite He. eexists. reflexivity. Qed.

(* ---- (1) the dimension check ------------------------------------------------------------------------------------ *)
Lemma pre_raises_dim : forall E, extends E -> forall st (x y : tn Z) prf excl, (excl = true -> prf = true) ->
  lookup "return_mask" (vars st) = Some (VBool false) -> lookup "return_prf_dsts" (vars st) = Some (VBool prf) ->
  lookup "exclude_last" (vars st) = Some (VBool excl) ->
  lookup "ref" (vars st) = Some (enc_i x) -> lookup "hyp" (vars st) = Some (enc_i y) ->
  (List.length (shp x) <> 2 \/ List.length (shp y) <> 2)%nat ->
  raises runtime_error (exec E sm_pre st).
Proof.
  intros E HE st x y prf excl Hfl Lm Lp Le Lx Ly Hd. unfold sm_pre.
  assertstep. seqnorm.
  lazymatch goal with
  | |- _ (exec _ (SSeq (SAssert ?e) ?b) ?st0) =>
      assert (Hev : eval E e st0 = Ok (VBool true) st0) by (destruct excl; [rewrite (Hfl eq_refl) in *|]; eval_std);
      step_by (exec_seq_assert E e b st0 _ Hev eq_refl); clear Hev
  end.
  destruct (Z.of_nat (List.length (shp x)) =? 2)%Z eqn:E1; destruct (Z.of_nat (List.length (shp y)) =? 2)%Z eqn:E2;
    try (exfalso; lia);
    (ifstep_t ltac:(repeat (progress (evn; rewrite ?E1, ?E2)); reflexivity); cbn [negb]; cbn [exec]; eexists; reflexivity).
Qed.

Theorem string_matching_raises_dim :
  forall (x y : tn Z) (eos : option Z) (incl bf : bool) (qi qd qs : Q) (w nm : bool) (pad : Z),
  (List.length (shp x) <> 2 \/ List.length (shp y) <> 2)%nat ->
  exists st', Interp.run ext01 sm_body (sm_vars x y eos incl bf qi qd qs w nm pad) = Exc runtime_error st'.
Proof.
  intros. apply run_raises. rewrite sm_body_split. apply raises_seq_l.
  apply (pre_raises_dim ext01 extends_ext01 _ x y false false (fun h => h)); try reflexivity. assumption.
Qed.

(* ---- (2) the batch-size check: ref (R x N) / hyp (H x N') in the layout asked for, N <> N' ------------------------ *)
Section Mismatch.
  Variables (s : positive) (c : C01.Model.cfg) (R N H N' : nat) (rf hf : nat -> nat -> Z) (w : bool).
  Hypothesis HNN : N <> N'.

  Notation x := (in_tensor (C01.Model.c_bf c) R N rf).
  Notation y := (in_tensor (C01.Model.c_bf c) H N' hf).

  Lemma pre_b_raises_mm : forall pad st, known st (stageP1 false false pad x y s c w) ->
    raises runtime_error (exec ext01 pre_b st).
  Proof.
    intros pad st K. rewrite pre_b_split.
    eapply run_seq; [exact (pre_b1_run ext01 extends_ext01 false false pad s c R N H rf hf w N' st K)|]. clear st K. intros st K.
    eapply run_seq; [exact (pre_b2_run ext01 extends_ext01 false false pad s c R N H rf hf w N' st K)|]. clear st K. intros st K.
    unfold stageP2_of in K. open_known K. unfold pre_b3, pre_b, sm_pre. cbn [seq_take seq_drop].
    ifstep_t ltac:(repeat (progress (evn; replace (Z.of_nat N =? Z.of_nat N')%Z with false by lia)); reflexivity).
    cbn [negb]. cbn [exec]. eexists. reflexivity.
  Qed.

  Theorem string_matching_raises_batch : forall (pad : Z),
    exists st', Interp.run ext01 sm_body
                  (sm_vars (in_tensor (C01.Model.c_bf c) R N rf) (in_tensor (C01.Model.c_bf c) H N' hf)
                     (C01.Model.c_eos c) (C01.Model.c_incl c) (C01.Model.c_bf c)
                     (qz s (C01.Model.c_ins c)) (qz s (C01.Model.c_del c)) (qz s (C01.Model.c_sub c)) w (C01.Model.c_norm c) pad)
                = Exc runtime_error st'.
  Proof.
    intros pad. apply run_raises. rewrite sm_body_split. apply raises_seq_l. rewrite sm_pre_split.
    eapply run_seq.
    - apply (pre_a_run ext01 extends_ext01 false false pad (fun h => h) x y s c w); try apply in_tensor_rank.
      unfold params_of, sm_vars, globals01, torch_module. cbn [known app vars]. repeat split; reflexivity.
    - intros st1 K1. apply raises_seq_l. apply (pre_b_raises_mm pad). exact K1.
  Qed.
End Mismatch.

(* ---- (3) an eos together with a zero-width tensor: IndexError out of `_lens_from_eos` ------------------------------- *)
Section ZeroWidth.
  Variables (s : positive) (c : C01.Model.cfg) (R N H : nat) (rf hf : nat -> nat -> Z) (w : bool).

  Lemma pre_c_raises_zero : forall pad st e, C01.Model.c_eos c = Some e -> (R = 0 \/ H = 0)%nat ->
    known st (stageP2 false false pad s c R N H rf hf w) -> raises index_error (exec ext01 pre_c st).
  Proof.
    intros pad st e He Hz K. unfold stageP2, stageP2_of in K. rewrite He in K. cbn [opt_int] in K. open_known K.
    unfold pre_c, sm_pre. cbn [seq_drop].
    ifstep.
    destruct (Nat.eq_dec R 0) as [HR|HR].
    - subst R. destruct (lens_run_2_empty (fun x => x) N rf e) as [sr Hr].
      seqnorm.
      match goal with |- context [exec ext01 (SSeq (SAssign [TName ?x] ?ee) ?b) ?st0] =>
        assert (Hev : eval ext01 ee st0 = Exc index_error st0)
          by (ev; rewrite ext_lens; unfold C07.SrcRun.call_body; rewrite Hr; reflexivity);
        rewrite (exec_seq_assign_exc x ee b st0 _ _ Hev) end.
      eexists. reflexivity.
    - assert (HH : H = 0%nat) by lia. subst H.
      destruct (lens_run_2 (fun x => x) R N rf e HR) as [sr Hr].
      destruct (lens_run_2_empty (fun x => x) N hf e) as [sh Hh].
      assign ltac:(ev; rewrite ext_lens; unfold C07.SrcRun.call_body; rewrite Hr; reflexivity).
      seqnorm.
      match goal with |- context [exec ext01 (SSeq (SAssign [TName ?x] ?ee) ?b) ?st0] =>
        assert (Hev : eval ext01 ee st0 = Exc index_error st0)
          by (ev; rewrite ext_lens; unfold C07.SrcRun.call_body; rewrite Hh; reflexivity);
        rewrite (exec_seq_assign_exc x ee b st0 _ _ Hev) end.
      eexists. reflexivity.
  Qed.

  Theorem string_matching_raises_zero_width : forall (e pad : Z), C01.Model.c_eos c = Some e -> (R = 0 \/ H = 0)%nat ->
    exists st', Interp.run ext01 sm_body
                  (sm_vars (in_tensor (C01.Model.c_bf c) R N rf) (in_tensor (C01.Model.c_bf c) H N hf)
                     (C01.Model.c_eos c) (C01.Model.c_incl c) (C01.Model.c_bf c)
                     (qz s (C01.Model.c_ins c)) (qz s (C01.Model.c_del c)) (qz s (C01.Model.c_sub c)) w (C01.Model.c_norm c) pad)
                = Exc index_error st'.
  Proof.
    intros e pad He Hz. apply run_raises. rewrite sm_body_split. apply raises_seq_l. rewrite sm_pre_split.
    eapply run_seq.
    - apply (pre_a_run ext01 extends_ext01 false false pad (fun h => h) (in_tensor (C01.Model.c_bf c) R N rf)
               (in_tensor (C01.Model.c_bf c) H N hf) s c w); try apply in_tensor_rank.
      unfold params_of, sm_vars, globals01, torch_module. cbn [known app vars]. repeat split; reflexivity.
    - intros st1 K1. eapply run_seq; [apply (pre_b_run ext01 extends_ext01); exact K1|]. intros st2 K2.
      eapply (pre_c_raises_zero pad); eassumption.
  Qed.
End ZeroWidth.
