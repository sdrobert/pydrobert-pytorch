(* C01 - the blocks composed: from the state the preamble leaves (TieBlocks.stageA) the interpreted
   sm_row0; sm_main; sm_fin return, for every pair n, the float of PV.C01.Model.pair_ed on column n
   ([tail_run], [pair_value]); with the preamble ([TiePre]) this gives the whole-function theorems of Tie.v. *)
From Coq Require Import ZArith QArith List String Bool Arith Lia ZifyBool ZifyNat.
From PV Require Import MiniPy.Syntax MiniPy.Interp MiniPy.Lemmas MiniTorch.Ops MiniTorch.Lemmas MiniTorch.OpsC07 MiniTorch.LemmasC07
  MiniTorch.OpsC01 MiniTorch.LemmasC01.
From PV Require Import Gen.C01Src C01.SrcRun C01.TieLib C01.TieMath C01.TieLoop C01.TieBlocks.
From PV Require C01.Obs C01.Model C01.Proofs.
Import ListNotations.
Local Open Scope string_scope.

(* a loop statement with the property of TieLoop.loop_tie *)
Definition loop_ok (lp : stmt) : Prop :=
  forall s ci cd cs R N H rf hf hl vrl vmult vnorm vwarn st lf,
    body_pre s ci cd cs R N H rf hf hl vrl vmult vnorm vwarn lf st ->
    lookup "max_hyp_steps" (vars st) = Some (VInt (Z.of_nat H)) ->
    runs_to (body_pre s ci cd cs R N H rf hf hl vrl vmult vnorm vwarn
               (fun i n => nth i (iter_col ci cd cs R H rf hf hl H 0 lf n) 0%Z)) (exec ext01 lp st).

Lemma sm_loop_ok : loop_ok sm_loop.
Proof. unfold loop_ok. intros. now apply loop_tie. Qed.

Section Tail.
  Variables (s : positive) (ci cd cs : Z) (mult : Q) (R N H : nat) (rf hf : nat -> nat -> Z) (rl hl : nat -> nat) (nm w : bool).

  Theorem tail_run_gen : forall lp, loop_ok lp -> forall st, (forall n, (n < N)%nat -> (rl n <= R)%nat) ->
    known st (stageA s ci cd cs mult R N H rf hf rl hl nm w) ->
    returns (enc_x (mkTn [N] (map (fin_value s ci cd cs mult R H rf hf rl hl nm) (seq 0 N))))
            (exec ext01 (SSeq sm_row0 (SSeq (SSeq main_flags (SSeq lp main_rest)) sm_fin)) st).
  Proof.
    intros lp Hlp st Hrl K.
    eapply run_seq; [apply row0_run; exact K|]. intros st1 K1.
    eapply run_seq; [apply main_run_gen; [intros; now apply Hlp|exact Hrl|exact K1]|]. intros st2 K2.
    eapply fin_run. exact K2.
  Qed.

  Theorem tail_run : forall st, (forall n, (n < N)%nat -> (rl n <= R)%nat) ->
    known st (stageA s ci cd cs mult R N H rf hf rl hl nm w) ->
    returns (enc_x (mkTn [N] (map (fin_value s ci cd cs mult R H rf hf rl hl nm) (seq 0 N))))
            (exec ext01 (SSeq sm_row0 (SSeq sm_main sm_fin)) st).
  Proof. rewrite sm_main_eq. apply tail_run_gen. exact sm_loop_ok. Qed.
End Tail.

(* the value of a model result as the float the source computes *)
Definition val_fx (s : positive) (v : C01.Obs.val) : fx :=
  match v with
  | C01.Obs.Cost x => zf s x
  | C01.Obs.Ratio n d => Fq (Qred (qz s n / inject_Z (Z.of_nat d)))
  | C01.Obs.Lit z => z2f z
  end.

Definition uniformb (i d sb : Z) : bool := ((i =? d) && (d =? sb) && (0 <? sb))%Z.

(* the effective scale, costs and mult after the uniform-cost shortcut *)
Definition eff_scale (s : positive) (c : C01.Model.cfg) : positive :=
  if uniformb (C01.Model.c_ins c) (C01.Model.c_del c) (C01.Model.c_sub c) then 1%positive else s.
Definition eff_ci (c : C01.Model.cfg) : Z :=
  if uniformb (C01.Model.c_ins c) (C01.Model.c_del c) (C01.Model.c_sub c) then 1%Z else C01.Model.c_ins c.
Definition eff_cd (c : C01.Model.cfg) : Z :=
  if uniformb (C01.Model.c_ins c) (C01.Model.c_del c) (C01.Model.c_sub c) then 1%Z else C01.Model.c_del c.
Definition eff_cs (c : C01.Model.cfg) : Z :=
  if uniformb (C01.Model.c_ins c) (C01.Model.c_del c) (C01.Model.c_sub c) then 1%Z else C01.Model.c_sub c.
Definition eff_mult (s : positive) (c : C01.Model.cfg) : Q :=
  if uniformb (C01.Model.c_ins c) (C01.Model.c_del c) (C01.Model.c_sub c) then qz s (C01.Model.c_ins c) else 1%Q.

Definition eff_m (c : C01.Model.cfg) : Z :=
  if uniformb (C01.Model.c_ins c) (C01.Model.c_del c) (C01.Model.c_sub c) then C01.Model.c_ins c else 1%Z.

Lemma eff_costs_eq : forall c,
  C01.Model.eff_costs (C01.Model.c_ins c) (C01.Model.c_del c) (C01.Model.c_sub c) = (eff_m c, (eff_ci c, eff_cd c, eff_cs c)).
Proof. intros c. unfold C01.Model.eff_costs, eff_m, eff_ci, eff_cd, eff_cs, uniformb. now destruct (_ && _ && _)%bool. Qed.

(* the table is computed at unit costs over denominator 1 and multiplied back, or as it is and multiplied by 1 *)
Lemma eff_mult_zf : forall s c v, fmul (zf (eff_scale s c) v) (Fq (eff_mult s c)) = zf s (v * eff_m c).
Proof.
  intros s c v. unfold eff_scale, eff_mult, eff_m. destruct (uniformb _ _ _); unfold fmul, zf.
  - now rewrite qz_mul_1_s.
  - now rewrite qz_mul_s_1, Z.mul_1_r.
Qed.

(* mult, then the normalisation with the empty-reference convention, as the model's [normalise] *)
Lemma norm_value : forall (s s' : positive) (mq : Q) (m v : Z) (nm nb : bool) (rlen : nat),
  fmul (zf s' v) (Fq mq) = zf s (v * m) ->
  (let x := fmul (zf s' v) (Fq mq) in
   if nm then (if (Z.of_nat rlen =? 0)%Z then b2f nb else fdiv x (z2f (Z.of_nat rlen))) else x)
  = val_fx s (C01.Model.normalise nm rlen (v * m) nb).
Proof.
  intros s s' mq m v nm nb rlen Ex. cbv zeta. rewrite Ex. unfold C01.Model.normalise. destruct nm; [|reflexivity].
  replace (Z.of_nat rlen =? 0)%Z with (Nat.eqb rlen 0) by lia. destruct (Nat.eqb rlen 0) eqn:E0; cbn [val_fx].
  - destruct nb; reflexivity.
  - unfold fdiv, zf, z2f. replace (Qeq_bool (inject_Z (Z.of_nat rlen)) 0) with false; [reflexivity|].
    symmetry. apply not_true_is_false. intros E. apply Qeq_bool_iff in E. unfold Qeq in E. cbn in E. lia.
Qed.

Lemma pair_value : forall (s : positive) (c : C01.Model.cfg) (R H : nat) (r h : list Z),
  List.length r = R -> List.length h = H ->
  let rlen := C01.Model.eff_len (C01.Model.c_eos c) (C01.Model.c_incl c) r in
  let hlen := C01.Model.eff_len (C01.Model.c_eos c) (C01.Model.c_incl c) h in
  (let x := fmul (zf (eff_scale s c)
                    (nth rlen (iter_rows (eff_ci c) (eff_cd c) (eff_cs c) r h hlen H 1
                                 (map (fun i => Z.of_nat i * eff_cd c)%Z (seq 0 (S R)))) 0%Z))
                 (Fq (eff_mult s c)) in
   if C01.Model.c_norm c
   then (if (Z.of_nat rlen =? 0)%Z then b2f (Z.of_nat hlen >? 0)%Z else fdiv x (z2f (Z.of_nat rlen)))
   else x)
  = val_fx s (C01.Model.pair_ed c r h).
Proof.
  intros s c R H r h Lr Lh rlen hlen.
  replace (map (fun i => Z.of_nat i * eff_cd c)%Z (seq 0 (S R))) with (C01.Model.row0 (eff_cd c) r)
    by (unfold C01.Model.row0; now rewrite Lr).
  rewrite iter_rows_all. replace (Z.of_nat hlen >? 0)%Z with (0 <? hlen)%nat by lia.
  unfold C01.Model.pair_ed. rewrite eff_costs_eq, Lh. cbv beta iota. fold rlen. fold hlen.
  apply norm_value, eff_mult_zf.
Qed.
