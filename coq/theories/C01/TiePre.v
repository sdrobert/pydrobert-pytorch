(* C01 - the preamble of `_string_matching` (PV.Gen.C01Src.sm_pre) for the plain edit-distance call: argument
   checks, the uniform-cost shortcut (mult), transposition of batch-first input, sizes, and the lengths -
   torch.full without eos, `_lens_from_eos` (TieLens) and the include_eos fix-up with eos - leave the state
   TieBlocks.stageA describes, with the effective costs of Model.eff_costs and the lengths Model.eff_len. *)
From Coq Require Import ZArith QArith List String Bool Arith Lia ZifyBool ZifyNat.
From PV Require Import MiniPy.Syntax MiniPy.Interp MiniPy.Lemmas MiniTorch.Ops MiniTorch.Lemmas MiniTorch.OpsC07 MiniTorch.LemmasC07
  MiniTorch.OpsC01 MiniTorch.LemmasC01.
From PV Require Import Gen.C01Src C01.SrcRun C01.TieLib C01.TieMath C01.TieLoop C01.TieBlocks C01.TieWhole C01.TieLens.
From PV Require C07.SrcRun C01.Obs C01.Model C01.Proofs.
Import ListNotations.
Local Open Scope string_scope.

#[local] Arguments Z.of_nat : simpl nomatch.
#[local] Arguments Z.eqb : simpl nomatch.

Definition in_tensor (bf : bool) (T N : nat) (f : nat -> nat -> Z) : tn Z :=
  if bf then mkTn [N; T] (tab2 N T (fun n t => f t n)) else mkTn [T; N] (tab2 T N f).

Lemma in_tensor_rank bf T N f : List.length (shp (in_tensor bf T N f)) = 2%nat.
Proof. destruct bf; reflexivity. Qed.

(* the arguments of a call of `_string_matching`: [prf] is return_prf_dsts, [excl] exclude_last *)
Definition params_of (prf excl : bool) (pad : Z) (x y : tn Z) (s : positive) (c : C01.Model.cfg) (w : bool)
  : list (string * val) :=
  [("ref", enc_i x); ("hyp", enc_i y);
   ("eos", opt_int (C01.Model.c_eos c)); ("include_eos", VBool (C01.Model.c_incl c));
   ("batch_first", VBool (C01.Model.c_bf c));
   ("ins_cost", VQ (qz s (C01.Model.c_ins c))); ("del_cost", VQ (qz s (C01.Model.c_del c)));
   ("sub_cost", VQ (qz s (C01.Model.c_sub c)));
   ("warn", VBool w); ("norm", VBool (C01.Model.c_norm c)); ("return_mask", VBool false);
   ("return_prf_dsts", VBool prf); ("exclude_last", VBool excl); ("padding", VInt pad); ("return_mistakes", VBool false);
   ("torch", torch_module)].

(* the call made by edit_distance (padding is not read on this path) *)
Definition params (pad : Z) (s : positive) (c : C01.Model.cfg) (R N H : nat) (rf hf : nat -> nat -> Z) :=
  params_of false false pad (in_tensor (C01.Model.c_bf c) R N rf) (in_tensor (C01.Model.c_bf c) H N hf) s c.

Definition pre_a : stmt := seq_take 5 sm_pre.
Definition pre_b : stmt := seq_take 9 (seq_drop 5 sm_pre).
Definition pre_c : stmt := seq_drop 14 sm_pre.

(* pre_b: `if batch_first: ref, hyp = ref.t(), hyp.t()`; the size queries; the comparison of the two batch sizes *)
Definition pre_b1 : stmt := seq_take 1 pre_b.
Definition pre_b2 : stmt := seq_take 7 (seq_drop 1 pre_b).
Definition pre_b3 : stmt := seq_drop 8 pre_b.

Lemma pre_b_split : forall E st, exec E pre_b st = exec E (SSeq pre_b1 (SSeq pre_b2 pre_b3)) st.
Proof. intros E st. rewrite !gexec_flatten. f_equal. Qed.

Lemma sm_pre_split : forall E st, exec E sm_pre st = exec E (SSeq pre_a (SSeq pre_b pre_c)) st.
Proof. intros E st. rewrite !gexec_flatten. f_equal. Qed.

Lemma update_same x v l : lookup x l = Some v -> update x v l = l.
Proof.
  induction l as [|[y w] l IH]; cbn [lookup update]; [discriminate|].
  destruct (String.eqb x y); [intros [= ->]; reflexivity|intros H; now rewrite IH].
Qed.

Lemma set_var_same x v st : lookup x (vars st) = Some v -> set_var x v st = st.
Proof. intros H. unfold set_var. rewrite (update_same _ _ _ H). now destruct st. Qed.

(* `if b: s` where s assigns x and runs whatever b is: the run does not branch, b chooses the value of x *)
Lemma gexec_seq_when E (b : bool) s r st x v v0 :
  lookup x (vars st) = Some v0 -> exec E s st = Ok CNormal (set_var x v st) ->
  exec E (SSeq (if b then s else SPass) r) st = exec E r (set_var x (if b then v else v0) st).
Proof.
  intros L Ev. destruct b; [cbn [exec]; now rewrite Ev|]. now rewrite exec_seq_pass, (set_var_same _ _ _ L).
Qed.

Lemma colf_length : forall T f n, List.length (colf T f n) = T.
Proof. intros. unfold colf. now rewrite map_length, seq_length. Qed.

(* the include_eos fix-up on one length, when some / no sequence of the batch lacks the eos ([rf hf] are not used:
   C03.TiePre passes its two matrices there) *)
Lemma fixup_any : forall (rf hf : nat -> nat -> Z) e T f n,
  (Z.of_nat (C01.Model.first_eos e (colf T f n)) + 1
   - b2z (Z.of_nat (C01.Model.first_eos e (colf T f n)) =? Z.of_nat T))%Z
  = Z.of_nat (C01.Model.eff_len (Some e) true (colf T f n)).
Proof.
  intros. unfold C01.Model.eff_len. rewrite colf_length.
  replace (Z.of_nat (C01.Model.first_eos e (colf T f n)) =? Z.of_nat T)%Z
    with (Nat.eqb (C01.Model.first_eos e (colf T f n)) T) by lia.
  destruct (Nat.eqb (C01.Model.first_eos e (colf T f n)) T); cbn [b2z]; lia.
Qed.

Lemma fixup_none : forall (rf hf : nat -> nat -> Z) e T f n,
  (Z.of_nat (C01.Model.first_eos e (colf T f n)) =? Z.of_nat T)%Z = false ->
  (Z.of_nat (C01.Model.first_eos e (colf T f n)) + 1)%Z = Z.of_nat (C01.Model.eff_len (Some e) true (colf T f n)).
Proof.
  intros _ _ e T f n Hne. unfold C01.Model.eff_len. rewrite colf_length.
  replace (Nat.eqb (C01.Model.first_eos e (colf T f n)) T) with false by lia. lia.
Qed.

Lemma any_false_at : forall (rf hf : nat -> nat -> Z) (g : nat -> bool) M n, (n < M)%nat ->
  any_b (mkTn [M] (map g (seq 0 M))) = false -> g n = false.
Proof.
  intros _ _ g M n Hn Hany. unfold any_b in Hany. cbn [dat] in Hany.
  destruct (g n) eqn:Hg; [|reflexivity]. rewrite <- Hany. symmetry.
  apply existsb_exists. exists true. split; [|reflexivity]. apply in_map_iff. exists n. split; [exact Hg|apply in_seq; lia].
Qed.

(* the preamble, in any environment that extends ext01 and for either caller *)
Section PreA.
  Variable E : string -> list val -> list (string * val) -> state -> outcome val.
  Hypothesis HE : extends E.
  Variables (prf excl : bool) (pad : Z).
  Hypothesis Hfl : excl = true -> prf = true.
  Variables (x y : tn Z) (s : positive) (c : C01.Model.cfg) (w : bool).
  Hypotheses (Hx : List.length (shp x) = 2%nat) (Hy : List.length (shp y) = 2%nat).

  (* after the argument checks and the uniform-cost shortcut *)
  Definition stageP1 : list (string * val) :=
    [("ref", enc_i x); ("hyp", enc_i y);
     ("eos", opt_int (C01.Model.c_eos c)); ("include_eos", VBool (C01.Model.c_incl c));
     ("batch_first", VBool (C01.Model.c_bf c));
     ("ins_cost", VQ (qz (eff_scale s c) (eff_ci c))); ("del_cost", VQ (qz (eff_scale s c) (eff_cd c)));
     ("sub_cost", VQ (qz (eff_scale s c) (eff_cs c))); ("mult", VQ (eff_mult s c));
     ("warn", VBool w); ("norm", VBool (C01.Model.c_norm c)); ("return_mask", VBool false);
     ("return_prf_dsts", VBool prf); ("exclude_last", VBool excl); ("padding", VInt pad); ("return_mistakes", VBool false);
     ("torch", torch_module)].

  (* the test of the uniform-cost shortcut; no foreign call is made, so any environment *)
  Lemma cost_cond : forall st,
    lookup "ins_cost" (vars st) = Some (VQ (qz s (C01.Model.c_ins c))) ->
    lookup "del_cost" (vars st) = Some (VQ (qz s (C01.Model.c_del c))) ->
    lookup "sub_cost" (vars st) = Some (VQ (qz s (C01.Model.c_sub c))) ->
    exists v, eval E (EAnd (ECmp Eq (EName "ins_cost") (EName "del_cost"))
                        (EAnd (ECmp Eq (EName "del_cost") (EName "sub_cost"))
                              (ECmp Gt (EName "sub_cost") (EConst (VQ (0 # 1)%Q))))) st = Ok v st /\
              truthy v = uniformb (C01.Model.c_ins c) (C01.Model.c_del c) (C01.Model.c_sub c).
  Proof.
    intros st Hi Hd Hs. unfold uniformb.
    destruct (C01.Model.c_ins c =? C01.Model.c_del c)%Z eqn:E1;
    destruct (C01.Model.c_del c =? C01.Model.c_sub c)%Z eqn:E2;
    destruct (0 <? C01.Model.c_sub c)%Z eqn:E3;
    (eexists; split;
     [ eval_with ltac:(cbn_t; rewrite ?qz_eqb, ?qz_gt0, ?E1, ?E2, ?E3; reflexivity) | reflexivity ]).
  Qed.

  Lemma pre_a_run : forall st, known st (params_of prf excl pad x y s c w) ->
    runs_to (fun st' => known st' stageP1) (exec E pre_a st).
  Proof.
    intros st K. unfold params_of in K. open_known K. unfold pre_a, sm_pre. cbn [seq_take].
    assertstep. seqnorm.
    lazymatch goal with
    | |- _ (exec _ (SSeq (SAssert ?e) ?b) ?st0) =>
        assert (Hev : eval E e st0 = Ok (VBool true) st0) by (destruct excl; [rewrite (Hfl eq_refl) in *|]; eval_std);
        step_by (exec_seq_assert E e b st0 _ Hev eq_refl); clear Hev
    end.
    ifstep_t ltac:(repeat (progress (evn; rewrite ?Hx, ?Hy)); reflexivity).
    asg. seqnorm.
    match goal with
    | Hi : lookup "ins_cost" (vars ?st0) = _, Hd : lookup "del_cost" (vars ?st0) = _, Hs : lookup "sub_cost" (vars ?st0) = _
      |- context [exec E (SSeq (SIf ?cc ?t ?f) ?b) ?st0] =>
        destruct (cost_cond st0 Hi Hd Hs) as [v [Hv Ht]]; rewrite (exec_seq_if E cc t f b st0 v st0 Hv), Ht; clear Hv Ht v
    end.
    unfold stageP1, eff_scale, eff_ci, eff_cd, eff_cs, eff_mult.
    destruct (uniformb (C01.Model.c_ins c) (C01.Model.c_del c) (C01.Model.c_sub c)).
    - ifstep. asg. assign3. asg. seqnorm. apply runs_to_ok. close_known.
    - ifstep. seqnorm. apply runs_to_ok. close_known.
  Qed.
End PreA.

Section Pre.
  Variable E : string -> list val -> list (string * val) -> state -> outcome val.
  Hypothesis HE : extends E.
  Variables (prf excl : bool) (pad : Z).
  Variables (s : positive) (c : C01.Model.cfg) (R N H : nat) (rf hf : nat -> nat -> Z) (w : bool).
  (* after the transposition and the size queries: time-major tensors, hyp with N' columns *)
  Definition stageP2_of (N' : nat) : list (string * val) :=
    [("ref", enc_i (mkTn [R; N] (tab2 R N rf))); ("hyp", enc_i (mkTn [H; N'] (tab2 H N' hf)));
     ("eos", opt_int (C01.Model.c_eos c)); ("include_eos", VBool (C01.Model.c_incl c));
     ("batch_first", VBool (C01.Model.c_bf c));
     ("ins_cost", VQ (qz (eff_scale s c) (eff_ci c))); ("del_cost", VQ (qz (eff_scale s c) (eff_cd c)));
     ("sub_cost", VQ (qz (eff_scale s c) (eff_cs c))); ("mult", VQ (eff_mult s c));
     ("warn", VBool w); ("norm", VBool (C01.Model.c_norm c)); ("return_mask", VBool false);
     ("return_prf_dsts", VBool prf); ("exclude_last", VBool excl); ("padding", VInt pad); ("return_mistakes", VBool false);
     ("torch", torch_module);
     ("max_ref_steps", VInt (Z.of_nat R)); ("batch_size", VInt (Z.of_nat N)); ("max_hyp_steps", VInt (Z.of_nat H));
     ("batch_size_", VInt (Z.of_nat N')); ("device", device_token)].
  Definition stageP2 : list (string * val) := stageP2_of N.

  Ltac asg_t tac := assign ltac:(repeat (progress (evn; tac)); reflexivity).

  Lemma pre_b1_run : forall N' st,
    known st (stageP1 prf excl pad (in_tensor (C01.Model.c_bf c) R N rf) (in_tensor (C01.Model.c_bf c) H N' hf) s c w) ->
    runs_to (fun st' => known st' (stageP1 prf excl pad (in_tensor false R N rf) (in_tensor false H N' hf) s c w))
            (exec E pre_b1 st).
  Proof.
    intros N' st K. unfold stageP1 in *. open_known K. unfold pre_b1, pre_b, sm_pre. cbn [seq_take seq_drop].
    destruct (C01.Model.c_bf c); unfold in_tensor in *; ifstep.
    - asg_t ltac:(rewrite ?transpose2_mat). asg_t ltac:(rewrite ?transpose2_mat). apply runs_to_ok. close_known.
    - apply runs_to_ok. close_known.
  Qed.

  Lemma pre_b2_run : forall N' st,
    known st (stageP1 prf excl pad (in_tensor false R N rf) (in_tensor false H N' hf) s c w) ->
    runs_to (fun st' => known st' (stageP2_of N')) (exec E pre_b2 st).
  Proof.
    intros N' st K. unfold stageP1, in_tensor in K. open_known K. unfold pre_b2, pre_b, sm_pre, stageP2_of. cbn [seq_take seq_drop].
    assign3. asg. asg. asg. asg. asg. asg. asg. asg. asg. asg.
    seqnorm. apply runs_to_ok. close_known.
  Qed.

  Lemma pre_b_run : forall st,
    known st (stageP1 prf excl pad (in_tensor (C01.Model.c_bf c) R N rf) (in_tensor (C01.Model.c_bf c) H N hf) s c w) ->
    runs_to (fun st' => known st' stageP2) (exec E pre_b st).
  Proof.
    intros st K. rewrite pre_b_split.
    eapply run_seq; [exact (pre_b1_run N st K)|]. clear st K. intros st K.
    eapply run_seq; [exact (pre_b2_run N st K)|]. clear st K. intros st K.
    unfold stageP2_of in K. open_known K. unfold pre_b3, pre_b, sm_pre, stageP2, stageP2_of. cbn [seq_take seq_drop].
    ifstep_t ltac:(repeat (progress (evn; rewrite ?Z.eqb_refl)); reflexivity).
    seqnorm. apply runs_to_ok. close_known.
  Qed.

  (* the lengths *)
  Definition ref_len (n : nat) : nat := C01.Model.eff_len (C01.Model.c_eos c) (C01.Model.c_incl c) (colf R rf n).
  Definition hyp_len (n : nat) : nat := C01.Model.eff_len (C01.Model.c_eos c) (C01.Model.c_incl c) (colf H hf n).

  (* after the preamble; TieBlocks.stageA is the part of it edit_distance goes on with *)
  Definition stageA_of : list (string * val) :=
    [("exclude_last", VBool excl); ("return_mistakes", VBool false); ("return_mask", VBool false);
     ("return_prf_dsts", VBool prf); ("norm", VBool (C01.Model.c_norm c)); ("warn", VBool w);
     ("padding", VInt pad); ("batch_first", VBool (C01.Model.c_bf c));
     ("ref", enc_i (mkTn [R; N] (tab2 R N rf))); ("hyp", enc_i (mkTn [H; N] (tab2 H N hf)));
     ("max_ref_steps", VInt (Z.of_nat R)); ("batch_size", VInt (Z.of_nat N)); ("max_hyp_steps", VInt (Z.of_nat H));
     ("device", device_token); ("torch", torch_module);
     ("ins_cost", VQ (qz (eff_scale s c) (eff_ci c))); ("del_cost", VQ (qz (eff_scale s c) (eff_cd c)));
     ("sub_cost", VQ (qz (eff_scale s c) (eff_cs c))); ("mult", VQ (eff_mult s c));
     ("ref_lens", lens_tensor N ref_len); ("hyp_lens", lens_tensor N hyp_len)].
  Notation A := stageA_of.

  (* `if x_eq_mask.any(): (warn); x_lens = x_lens - x_eq_mask.to(x_lens.dtype)`, the test already evaluated *)
  Ltac fixup_step :=
    lazymatch goal with
    | |- _ (exec ?X (SSeq (if ?b then SSeq (SIf ?c SPass SPass) (SAssign [TName ?x] ?e) else SPass) ?r) ?st) =>
        let L := fresh "L" in let Hc := fresh "Hc" in let Ev := fresh "Ev" in
        eassert (L : lookup x (vars st) = Some _) by eassumption;
        eassert (Hc : eval X c st = Ok _ st) by (solve [eval_std]);
        eassert (Ev : exec X (SSeq (SIf c SPass SPass) (SAssign [TName x] e)) st = Ok CNormal (set_var x _ st));
        [ rewrite (gexec_seq_if_pass X c _ st _ _ Hc); apply exec_assign_ok; solve [eval_std]
        | step_by (gexec_seq_when X b _ r st x _ _ L Ev); clear L Hc Ev; new_state ]
    end.

  (* close a goal about one of the two length tensors; which way a fix-up went is asked only here *)
  Ltac close_lens :=
    match goal with
    | L : lookup ?x (vars ?st) = Some _ |- lookup ?x (vars ?st) = Some _ =>
        rewrite L; try match goal with |- context [if any_b ?m then _ else _] => destruct (any_b m) eqn:? end;
        unfold lens_tensor, ref_len, hyp_len; do 3 f_equal; apply map_ext_seq; intros n Hn;
        first [ apply (fixup_any rf hf)
              | apply (fixup_none rf hf);
                match goal with Hany : any_b _ = false |- _ => exact (any_false_at rf hf _ _ n Hn Hany) end
              | reflexivity ]
    end.

  Lemma pre_c_run : forall st, (C01.Model.c_eos c <> None -> R <> 0%nat /\ H <> 0%nat) ->
    known st stageP2 -> runs_to (fun st' => known st' A) (exec E pre_c st).
  Proof.
    intros st Hnz K. unfold stageP2, stageP2_of in K. open_known K. unfold pre_c, sm_pre, stageA_of. cbn [seq_drop].
    unfold ref_len, hyp_len. destruct (C01.Model.c_eos c) as [e|]; cbn [opt_int] in *.
    - destruct (Hnz ltac:(discriminate)) as [HR HH].
      destruct (lens_run_2 (fun x => x) R N rf e HR) as [sr Hr].
      destruct (lens_run_2 (fun x => x) H N hf e HH) as [sh Hh].
      ifstep.
      assign ltac:(ev; rewrite (HE "_lens_from_eos"), ext_lens; unfold C07.SrcRun.call_body; rewrite Hr; reflexivity).
      assign ltac:(ev; rewrite (HE "_lens_from_eos"), ext_lens; unfold C07.SrcRun.call_body; rewrite Hh; reflexivity).
      clear Hr Hh sr sh.
      destruct (C01.Model.c_incl c).
      + ifstep. asg. asg. ifstep. fixup_step.
        asg. asg. ifstep. fixup_step.
        apply runs_to_ok. close_known; close_lens.
      + ifstep. seqnorm. apply runs_to_ok. close_known; close_lens.
    - ifstep.
      asg_t ltac:(replace (Z.of_nat N <? 0)%Z with false by lia; rewrite ?Nat2Z.id, ?full_vec).
      asg_t ltac:(replace (Z.of_nat N <? 0)%Z with false by lia; rewrite ?Nat2Z.id, ?full_vec).
      apply runs_to_ok. close_known;
      match goal with
      | L : lookup ?x (vars ?st) = Some _ |- lookup ?x (vars ?st) = Some _ =>
          rewrite L; unfold lens_tensor; do 3 f_equal; apply map_ext_seq; intros n Hn;
          cbn [C01.Model.eff_len]; now rewrite colf_length
      end.
  Qed.

  Theorem pre_run_of : (excl = true -> prf = true) ->
    forall st, (C01.Model.c_eos c <> None -> R <> 0%nat /\ H <> 0%nat) ->
    known st (params_of prf excl pad (in_tensor (C01.Model.c_bf c) R N rf) (in_tensor (C01.Model.c_bf c) H N hf) s c w) ->
    runs_to (fun st' => known st' A) (exec E sm_pre st).
  Proof.
    intros Hfl st Hnz K. rewrite sm_pre_split.
    eapply run_seq; [apply (pre_a_run E HE prf excl pad Hfl); [apply in_tensor_rank|apply in_tensor_rank|exact K]|]. intros st1 K1.
    eapply run_seq; [apply pre_b_run; exact K1|]. intros st2 K2.
    apply pre_c_run; assumption.
  Qed.
End Pre.

(* the call of edit_distance; what the run goes on with is TieBlocks.stageA *)
Theorem pre_run : forall s c R N H rf hf w pad st, (C01.Model.c_eos c <> None -> R <> 0%nat /\ H <> 0%nat) ->
  known st (params pad s c R N H rf hf w) ->
  runs_to (fun st' => known st' (stageA (eff_scale s c) (eff_ci c) (eff_cd c) (eff_cs c) (eff_mult s c) R N H rf hf
                                       (ref_len c R rf) (hyp_len c H hf) (C01.Model.c_norm c) w))
          (exec ext01 sm_pre st).
Proof.
  intros s c R N H rf hf w pad st Hnz K.
  destruct (pre_run_of ext01 extends_ext01 false false pad s c R N H rf hf w (fun h => h) st Hnz K) as [st' [He K']].
  exists st'. split; [exact He|]. unfold stageA_of in K'. open_known K'. unfold stageA. close_known.
Qed.
