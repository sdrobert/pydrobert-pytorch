(* C01 - the arithmetic behind the source tie, free of the interpreter: the float expressions the
   interpreted `_string_matching` builds per entry (MiniTorch.OpsC01 arithmetic on [zf s z] = the
   float z / s) are the integers of PV.C01.Model ([step_row], [row0], [del_entry], the gather and
   the normalisation), scaled by the common denominator s. *)
From Coq Require Import ZArith QArith List Bool Arith Lia ZifyBool ZifyNat.
From PV Require Import MiniTorch.Ops MiniTorch.Lemmas MiniTorch.OpsC07 MiniTorch.LemmasC07 MiniTorch.OpsC01 MiniTorch.LemmasC01.
From PV Require C01.Model C01.Proofs.
Import ListNotations.
Local Open Scope Z_scope.

(* the model's integers as floats: z / s in lowest terms; None = +inf *)
Definition zf (s : positive) (z : Z) : fx := Fq (qz s z).
Definition ofx (s : positive) (o : option Z) : fx := match o with Some a => zf s a | None => FPInf end.

Lemma fadd_zf : forall s a b, fadd (zf s a) (zf s b) = zf s (a + b).
Proof. intros. unfold fadd, zf. now rewrite qz_add. Qed.

Lemma fsub_zf : forall s a b, fsub (zf s a) (zf s b) = zf s (a - b).
Proof. intros. unfold fsub, zf. now rewrite qz_sub. Qed.

Lemma fmul_zf_b2f : forall s c (b : bool), fmul (Fq (qz s c)) (b2f b) = zf s (c * (if b then 1 else 0)).
Proof. intros. unfold fmul, b2f, zf. now rewrite qz_mul_bool. Qed.

Lemma fmin_zf : forall s a b, fmin (zf s a) (zf s b) = zf s (Z.min a b).
Proof.
  intros. unfold fmin, zf. rewrite qz_le. destruct (Z.leb_spec a b).
  - now rewrite Z.min_l by lia.
  - now rewrite Z.min_r by lia.
Qed.

Lemma fmul_z2f_zf : forall s i c, fmul (z2f i) (Fq (qz s c)) = zf s (i * c).
Proof. intros. unfold fmul, z2f, zf. now rewrite qz_mul_int_l. Qed.

Lemma fadd_zf_0 : forall s a, fadd (zf s a) (Fq 0) = zf s a.
Proof. intros. unfold fadd, zf. now rewrite qz_add_0. Qed.

(* an entry of del_mat as the source builds it: (row0[i] - row0[j]) + (inf above the diagonal, else 0) *)
Lemma del_entry_src : forall s cd i j,
  fadd (fsub (fmul (z2f (Z.of_nat i)) (Fq (qz s cd))) (fmul (z2f (Z.of_nat j)) (Fq (qz s cd))))
       (if (i + 1 <=? j)%nat then FPInf else Fq 0)
  = ofx s (Model.del_entry cd i j).
Proof.
  intros. rewrite !fmul_z2f_zf, fsub_zf. unfold Model.del_entry.
  replace (j <=? i)%nat with (negb (i + 1 <=? j)%nat) by lia.
  destruct (i + 1 <=? j)%nat; cbn [negb ofx]; [reflexivity|apply fadd_zf_0].
Qed.

Lemma fadd_ofx_zf : forall s o x, fadd (ofx s o) (zf s x) = ofx s (Model.oadd o x).
Proof. intros s [a|] x; cbn [ofx Model.oadd]; [apply fadd_zf|reflexivity]. Qed.

Lemma fmin_ofx : forall s a b, fmin (ofx s a) (ofx s b) = ofx s (Model.omin a b).
Proof. intros s [a|] [b|]; cbn [ofx Model.omin]; try reflexivity. apply fmin_zf. Qed.

Lemma fmin_list_ofx : forall s (l : list (option Z)), fmin_list (map (ofx s) l) = ofx s (Model.omin_list l).
Proof.
  intros s l. induction l as [|a l IH]; [reflexivity|].
  unfold fmin_list, Model.omin_list in *. cbn [map fold_right]. rewrite IH. apply fmin_ofx.
Qed.

Lemma omin_list_some : forall (l : list (option Z)) a, In (Some a) l -> exists x, Model.omin_list l = Some x.
Proof.
  induction l as [|b l IH]; intros a Hin; [destruct Hin|destruct Hin as [Hb|Hl]].
  - subst b. unfold Model.omin_list. cbn [fold_right]. destruct (fold_right Model.omin None l); eexists; reflexivity.
  - destruct (IH a Hl) as [x Hx]. unfold Model.omin_list in *. cbn [fold_right]. rewrite Hx.
    destruct b; eexists; reflexivity.
Qed.

(* the fold over row i of del_mat is finite: the diagonal entry is *)
Lemma del_fold_some : forall cd i n (f : nat -> Z), (i < n)%nat ->
  exists x, Model.omin_list (map (fun j => Model.oadd (Model.del_entry cd i j) (f j)) (seq 0 n)) = Some x.
Proof.
  intros cd i n f Hi. apply (omin_list_some _ (Z.of_nat i * cd - Z.of_nat i * cd + f i)).
  apply in_map_iff. exists i. split; [|apply in_seq; lia]. unfold Model.del_entry.
  replace (i <=? i)%nat with true by lia. reflexivity.
Qed.

(* entry i of the deletion fold, as the option the fold computes *)
Lemma del_fold_entry : forall cd v i, (i < length v)%nat ->
  Model.omin_list (map (fun j => Model.oadd (Model.del_entry cd i j) (nth j v 0)) (seq 0 (length v)))
  = Some (nth i (Model.del_fold cd v) 0).
Proof.
  intros cd v i Hi. destruct (del_fold_some cd i (length v) (fun j => nth j v 0) Hi) as [x Hx].
  rewrite Hx. unfold Model.del_fold. rewrite Proofs.nth_map_seq by exact Hi. cbn [Nat.add]. now rewrite Hx.
Qed.

(* the candidates of one step, by index *)
Section Step.
  Variables (ci cd cs : Z) (R H : nat).
  Variables (rcol : nat -> Z) (hcol : nat -> Z) (lcol : nat -> Z) (hlen k : nat).

  Let r := map rcol (seq 0 R).
  Let h := map hcol (seq 0 H).
  Let last := map lcol (seq 0 (S R)).

  (* insertion / substitution candidates of entry j (before the deletion fold) *)
  Definition cand (j : nat) : Z :=
    let im := if (k <=? hlen)%nat then 1 else 0 in
    match j with
    | O => lcol 0%nat + ci * im
    | S j' => Z.min (lcol (S j') + ci * im) (lcol j' + cs * (if rcol j' =? hcol (k - 1)%nat then 0 else 1))
    end.

  Hypothesis Hk : (1 <= k <= H)%nat.

  Lemma cands_list :
    let im := if (k <=? hlen)%nat then 1 else 0 in
    let tok := nth (k - 1) h 0 in
    let neq_mask := map (fun a => if a =? tok then 0 else 1) r in
    let row := map (fun x => x + ci * im) last in
    let sub_row := Model.map2 (fun x m => x + cs * m) (removelast last) neq_mask in
    hd 0 row :: Model.map2 Z.min (tl row) sub_row = map cand (seq 0 (S R)).
  Proof.
    intros im tok neq_mask row sub_row.
    change (hd 0 row :: Model.map2 Z.min (tl row) sub_row) with (Proofs.cand_row ci cs r tok im last).
    assert (Htok : tok = hcol (k - 1)%nat).
    { unfold tok, h. rewrite Proofs.nth_map_seq by lia. reflexivity. }
    assert (Lr : length r = R) by (unfold r; now rewrite map_length, seq_length).
    assert (Ll : length last = S (length r)) by (unfold last; now rewrite map_length, seq_length, Lr).
    apply (nth_ext _ _ 0 0).
    - now rewrite Proofs.cand_row_length, map_length, seq_length, Lr.
    - intros i Hi. rewrite Proofs.cand_row_length, Lr in Hi by exact Ll.
      rewrite Proofs.nth_map_seq by exact Hi. cbn [Nat.add]. destruct i as [|i'].
      + rewrite Proofs.cand_row_0 by exact Ll. unfold last. rewrite Proofs.nth_map_seq by lia. reflexivity.
      + rewrite Proofs.cand_row_S by (rewrite ?Lr; lia || exact Ll).
        unfold last, r. rewrite !Proofs.nth_map_seq by lia. cbn [Nat.add]. rewrite Htok. reflexivity.
  Qed.

  (* one entry of the row after the step *)
  Lemma step_row_entry : forall i, (i < S R)%nat ->
    nth i (Model.step_row ci cd cs r h hlen false k last) 0 =
    if (k - 1 <? hlen)%nat
    then match Model.omin_list (map (fun j => Model.oadd (Model.del_entry cd i j) (cand j)) (seq 0 (S R))) with
         | Some x => x
         | None => 0
         end
    else lcol i.
  Proof.
    intros i Hi. unfold Model.step_row. cbv zeta.
    destruct (k - 1 <? hlen)%nat.
    - rewrite cands_list. unfold Model.del_fold. rewrite map_length, seq_length.
      rewrite Proofs.nth_map_seq by exact Hi. cbn [Nat.add].
      replace (map (fun j => Model.oadd (Model.del_entry cd i j) (nth j (map cand (seq 0 (S R))) 0)) (seq 0 (S R)))
        with (map (fun j => Model.oadd (Model.del_entry cd i j) (cand j)) (seq 0 (S R))); [reflexivity|].
      apply map_ext_in. intros j Hj. apply in_seq in Hj. rewrite Proofs.nth_map_seq by lia. reflexivity.
    - unfold last. rewrite Proofs.nth_map_seq by exact Hi. reflexivity.
  Qed.

  Lemma step_row_length : length (Model.step_row ci cd cs r h hlen false k last) = S R.
  Proof.
    unfold Model.step_row. cbv zeta. destruct (k - 1 <? hlen)%nat.
    - rewrite cands_list, Proofs.del_fold_length, map_length, seq_length. reflexivity.
    - unfold last. now rewrite map_length, seq_length.
  Qed.

  (* the float expression the interpreted loop body leaves at entry i *)
  Lemma step_entry_src : forall s i, (i < S R)%nat ->
    (if (Z.of_nat (k - 1) <? Z.of_nat hlen)%Z
     then fmin_list (map (fun j =>
            fadd (ofx s (Model.del_entry cd i j))
              match j with
              | O => fadd (zf s (lcol 0%nat)) (fmul (Fq (qz s ci)) (b2f (Z.of_nat hlen >=? Z.of_nat k)%Z))
              | S j' => fmin (fadd (zf s (lcol (S j'))) (fmul (Fq (qz s ci)) (b2f (Z.of_nat hlen >=? Z.of_nat k)%Z)))
                             (fadd (zf s (lcol j')) (fmul (Fq (qz s cs)) (b2f (negb (rcol j' =? hcol (k - 1)%nat)%Z))))
              end) (seq 0 (S R)))
     else zf s (lcol i))
    = zf s (nth i (Model.step_row ci cd cs r h hlen false k last) 0).
  Proof.
    intros s i Hi. rewrite (step_row_entry i Hi).
    replace (Z.of_nat (k - 1) <? Z.of_nat hlen)%Z with (k - 1 <? hlen)%nat by lia.
    destruct (k - 1 <? hlen)%nat; [|reflexivity].
    rewrite (map_ext _ (fun j => ofx s (Model.oadd (Model.del_entry cd i j) (cand j)))).
    - rewrite <- (map_map (fun j => Model.oadd (Model.del_entry cd i j) (cand j)) (ofx s)), fmin_list_ofx.
      destruct (del_fold_some cd i (S R) cand Hi) as [x Hx]. rewrite Hx. reflexivity.
    - intros j. rewrite <- fadd_ofx_zf. f_equal. unfold cand.
      replace (Z.of_nat hlen >=? Z.of_nat k)%Z with (k <=? hlen)%nat by lia.
      destruct j as [|j'].
      + rewrite fmul_zf_b2f, fadd_zf. reflexivity.
      + rewrite !fmul_zf_b2f, !fadd_zf, fmin_zf. f_equal. f_equal. f_equal. f_equal.
        destruct (rcol j' =? hcol (k - 1)%nat)%Z; reflexivity.
  Qed.
End Step.

(* the rows of the model as an iteration *)
Fixpoint iter_rows (ci cd cs : Z) (r h : list Z) (hlen : nat) (fuel k : nat) (last : list Z) : list Z :=
  match fuel with
  | O => last
  | S f => iter_rows ci cd cs r h hlen f (S k) (Model.step_row ci cd cs r h hlen false k last)
  end.

Lemma last_cons : forall {A} (l : list A) a d, List.last (a :: l) d = List.last l a.
Proof.
  intros A l. induction l as [|b l IH]; intros a d; [reflexivity|].
  change (List.last (a :: b :: l) d) with (List.last (b :: l) d). rewrite !IH. reflexivity.
Qed.

Lemma iter_rows_loop : forall ci cd cs r h hlen fuel k last,
  iter_rows ci cd cs r h hlen fuel k last = List.last (Model.rows_loop ci cd cs r h hlen false fuel k last) last.
Proof.
  intros ci cd cs r h hlen fuel. induction fuel as [|f IH]; intros k last; [reflexivity|].
  cbn [iter_rows Model.rows_loop]. rewrite IH, last_cons. reflexivity.
Qed.

Lemma iter_rows_all : forall ci cd cs r h hlen steps,
  iter_rows ci cd cs r h hlen steps 1 (Model.row0 cd r) = List.last (Model.all_rows ci cd cs r h hlen false steps) [].
Proof.
  intros. rewrite iter_rows_loop. unfold Model.all_rows. now rewrite last_cons.
Qed.
