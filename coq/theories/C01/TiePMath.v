(* C01, prefix tie - the arithmetic, free of the interpreter: TieMath's facts with `exclude_last` as a parameter, the rows of
   the model's table as an iteration, and the value of one entry of Model.pair_prefix as the float expression the
   interpreted source leaves in `prefix_ers` (row 0 = ref_lens * del_cost, row j = gather of the row after j steps, then
   mult, the normalisation with its empty-reference convention, the padding past each hypothesis length). *)
From Coq Require Import ZArith QArith List Bool Arith Lia ZifyBool ZifyNat.
From PV Require Import MiniTorch.Ops MiniTorch.Lemmas MiniTorch.OpsC07 MiniTorch.LemmasC07 MiniTorch.OpsC01 MiniTorch.LemmasC01.
From PV Require Import C01.TieMath C01.TieWhole.
From PV Require C01.Obs C01.Model C01.Proofs.
Import ListNotations.
Local Open Scope Z_scope.

(* exclude_last only changes the freezing test: hyp_idx < hyp_lens instead of hyp_idx - 1 < hyp_lens *)
Lemma step_row_excl : forall ci cd cs r h hlen k last,
  Model.step_row ci cd cs r h hlen true k last =
  if (k <? hlen)%nat then Model.step_row ci cd cs r h hlen false k last else last.
Proof.
  intros. unfold Model.step_row. cbv zeta. rewrite Nat.sub_0_r.
  destruct (k <? hlen)%nat eqn:E; [|reflexivity].
  replace (k - 1 <? hlen)%nat with true by lia. reflexivity.
Qed.

Section StepX.
  Variables (ci cd cs : Z) (R H : nat).
  Variables (rcol : nat -> Z) (hcol : nat -> Z) (lcol : nat -> Z) (hlen k : nat).
  Hypothesis Hk : (1 <= k <= H)%nat.

  Lemma step_row_length_x : forall excl : bool,
    length (Model.step_row ci cd cs (map rcol (seq 0 R)) (map hcol (seq 0 H)) hlen excl k (map lcol (seq 0 (S R)))) = S R.
  Proof.
    intros [|].
    - rewrite step_row_excl. destruct (k <? hlen)%nat; [now apply step_row_length|now rewrite map_length, seq_length].
    - now apply step_row_length.
  Qed.

  (* the float expression the interpreted loop body leaves at entry i, either setting of exclude_last *)
  Lemma step_entry_src_x : forall (excl : bool) s i, (i < S R)%nat ->
    (if (Z.of_nat k - (if excl then 0 else 1) <? Z.of_nat hlen)%Z
     then fmin_list (map (fun j =>
            fadd (ofx s (Model.del_entry cd i j))
              match j with
              | O => fadd (zf s (lcol 0%nat)) (fmul (Fq (qz s ci)) (b2f (Z.of_nat hlen >=? Z.of_nat k)%Z))
              | S j' => fmin (fadd (zf s (lcol (S j'))) (fmul (Fq (qz s ci)) (b2f (Z.of_nat hlen >=? Z.of_nat k)%Z)))
                             (fadd (zf s (lcol j')) (fmul (Fq (qz s cs)) (b2f (negb (rcol j' =? hcol (k - 1)%nat)%Z))))
              end) (seq 0 (S R)))
     else zf s (lcol i))
    = zf s (nth i (Model.step_row ci cd cs (map rcol (seq 0 R)) (map hcol (seq 0 H)) hlen excl k (map lcol (seq 0 (S R)))) 0).
  Proof.
    intros excl s i Hi. pose proof (step_entry_src ci cd cs R H rcol hcol lcol hlen k Hk s i Hi) as P.
    destruct excl.
    - rewrite step_row_excl.
      replace (Z.of_nat k - 0 <? Z.of_nat hlen)%Z with (k <? hlen)%nat by lia.
      destruct (k <? hlen)%nat eqn:E.
      + replace (Z.of_nat (k - 1) <? Z.of_nat hlen)%Z with true in P by lia. exact P.
      + rewrite Proofs.nth_map_seq by exact Hi. reflexivity.
    - replace (Z.of_nat k - 1)%Z with (Z.of_nat (k - 1)) by lia. exact P.
  Qed.
End StepX.

(* the rows of the model as an iteration, either setting of exclude_last *)
Fixpoint iter_rows_x (ci cd cs : Z) (r h : list Z) (hlen : nat) (excl : bool) (fuel k : nat) (last : list Z) : list Z :=
  match fuel with
  | O => last
  | S f => iter_rows_x ci cd cs r h hlen excl f (S k) (Model.step_row ci cd cs r h hlen excl k last)
  end.

Lemma rows_loop_nth_x : forall ci cd cs r h hlen excl fuel k last j, (j < fuel)%nat ->
  nth j (Model.rows_loop ci cd cs r h hlen excl fuel k last) [] = iter_rows_x ci cd cs r h hlen excl (S j) k last.
Proof.
  intros ci cd cs r h hlen excl fuel. induction fuel as [|f IH]; intros k last j Hj; [lia|].
  cbn [Model.rows_loop]. destruct j as [|j]; [reflexivity|].
  cbn [nth]. rewrite IH by lia. reflexivity.
Qed.

Lemma all_rows_nth_x : forall ci cd cs r h hlen excl steps j, (j <= steps)%nat ->
  nth j (Model.all_rows ci cd cs r h hlen excl steps) [] = iter_rows_x ci cd cs r h hlen excl j 1 (Model.row0 cd r).
Proof.
  intros. unfold Model.all_rows. destruct j as [|j]; [reflexivity|]. cbn [nth]. apply rows_loop_nth_x. lia.
Qed.
