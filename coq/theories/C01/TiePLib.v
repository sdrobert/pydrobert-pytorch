(* C01, prefix tie - what reaches SrcRunP.ext01p call by call: the lemmas of TieLib about ext01, lifted through "ext01
   first, its Stuck replaced", plus the calls only the `return_prf_dsts` path makes.  The runs in TiePLoop.v /
   TiePBlocks.v use TieLib's tactics; the equations below are added to their base c01x.  No statement about the source
   itself here. *)
From Coq Require Import ZArith QArith List String Bool Arith Lia ZifyBool ZifyNat.
From PV Require Import MiniPy.Syntax MiniPy.Interp MiniPy.Lemmas MiniTorch.Ops MiniTorch.Lemmas MiniTorch.OpsC07 MiniTorch.LemmasC07
  MiniTorch.OpsC01 MiniTorch.LemmasC01 MiniTorch.OpsC01P MiniTorch.LemmasC01P.
From PV Require Import Gen.C01Src C01.SrcRun C01.SrcRunP C01.TieLib.
From PV Require C01.Model.
Import ListNotations.
Local Open Scope string_scope.

(* ret01 with the answer for [None] left open (it is ext01p_new's; never met on a proved run) *)
Definition retp (o : option any01) (alt : outcome val) (st : state) : outcome val :=
  match o with Some t => Ok (enc01 t) st | None => alt end.

Lemma lift_ret : forall why o alt st,
  match ret01 why o st with Stuck _ => alt | r => r end = retp o alt st.
Proof. intros why [t|] alt st; reflexivity. Qed.

Lemma extends_ext01p g : extends (ext01p g).
Proof. intros f a k st. unfold ext01p. now destruct (ext01 f a k st). Qed.

Section ExtLemmas.
  Variable g : nat -> fx.
  Notation ext := (ext01p g).
  Notation new := (ext01p_new g).

  Ltac lift_ok L := intros; unfold ext01p; rewrite L; reflexivity.
  Ltac lift_r L := intros; unfold ext01p; rewrite L; apply lift_ret.

  (* ---- the calls ext01 answers (TieLib), as ext01p sees them ---- *)
  Lemma extp_cmp_lt c y st : ext "compare" [VStr "lt"; VInt c; enc_i y] [] st = Ok (enc_b (map_t (fun v => Z.ltb c v) y)) st.
  Proof. lift_ok ext_cmp_lt. Qed.
  Lemma extp_cmp_ge x c st : ext "compare" [VStr "ge"; enc_i x; VInt c] [] st = Ok (enc_b (ge_s x c)) st.
  Proof. lift_ok ext_cmp_ge. Qed.
  Lemma extp_cmp_eq x c st : ext "compare" [VStr "eq"; enc_i x; VInt c] [] st = Ok (enc_b (eq_s x c)) st.
  Proof. lift_ok ext_cmp_eq. Qed.
  Lemma extp_cmp_ne x y st : ext "compare" [VStr "ne"; enc_i x; enc_i y] [] st =
    retp (option_map AB (cmp_i (fun u v => negb (Z.eqb u v)) x y)) (new "compare" [VStr "ne"; enc_i x; enc_i y] [] st) st.
  Proof. lift_r ext_cmp_ne. Qed.
  Lemma extp_float_b x st : ext "$method.float" [enc_b x] [] st = Ok (enc_x (bool_to_float x)) st.
  Proof. lift_ok ext_float_b. Qed.
  Lemma extp_getitem_int_i x i st : ext "$getitem" [enc_i x; VInt i] [] st =
    match select0 x i with
    | Some (Some r) => Ok (enc_i r) st
    | Some None => Exc index_error st
    | None => new "$getitem" [enc_i x; VInt i] [] st
    end.
  Proof. intros. unfold ext01p. rewrite ext_getitem_int_i. destruct (select0 x i) as [[r|]|]; reflexivity. Qed.
  Lemma extp_mul_q_x q y st : ext "operator" [VStr "mul"; VQ q; enc_x y] [] st = Ok (enc_x (map_t (fmul (Fq q)) y)) st.
  Proof. lift_ok ext_mul_q_x. Qed.
  Lemma extp_mul_x_q x q st : ext "operator" [VStr "mul"; enc_x x; VQ q] [] st = Ok (enc_x (map_t (fun e => fmul e (Fq q)) x)) st.
  Proof. lift_ok ext_mul_x_q. Qed.
  Lemma extp_add_x x y st : ext "operator" [VStr "add"; enc_x x; enc_x y] [] st =
    retp (option_map AX (bin_f fadd x y)) (new "operator" [VStr "add"; enc_x x; enc_x y] [] st) st.
  Proof. lift_r ext_add_x. Qed.
  Lemma extp_sub_x x y st : ext "operator" [VStr "sub"; enc_x x; enc_x y] [] st =
    retp (option_map AX (bin_f fsub x y)) (new "operator" [VStr "sub"; enc_x x; enc_x y] [] st) st.
  Proof. lift_r ext_sub_x. Qed.
  Lemma extp_getitem_slice_x x a b st :
    ext "$getitem" [enc_x x; VTuple [VStr "$slice"; a; b; VNone]] [] st =
    match dec_bound a, dec_bound b with
    | Some a', Some b' => retp (option_map AX (slice0 x a' b')) (new "$getitem" [enc_x x; VTuple [VStr "$slice"; a; b; VNone]] [] st) st
    | _, _ => new "$getitem" [enc_x x; VTuple [VStr "$slice"; a; b; VNone]] [] st
    end.
  Proof.
    intros. unfold ext01p. rewrite ext_getitem_slice_x. destruct (dec_bound a), (dec_bound b); try reflexivity. apply lift_ret.
  Qed.
  Lemma extp_setitem_slice_x x a b y st :
    ext "$setitem" [enc_x x; VTuple [VStr "$slice"; a; b; VNone]; enc_x y] [] st =
    match dec_bound a, dec_bound b with
    | Some a', Some b' => retp (option_map AX (set_slice0 x a' b' y))
                            (new "$setitem" [enc_x x; VTuple [VStr "$slice"; a; b; VNone]; enc_x y] [] st) st
    | _, _ => new "$setitem" [enc_x x; VTuple [VStr "$slice"; a; b; VNone]; enc_x y] [] st
    end.
  Proof.
    intros. unfold ext01p. rewrite ext_setitem_slice_x. destruct (dec_bound a), (dec_bound b); try reflexivity. apply lift_ret.
  Qed.
  Lemma extp_torch_min x y st : ext "torch.min" [enc_x x; enc_x y] [] st =
    retp (option_map AX (bin_f fmin x y)) (new "torch.min" [enc_x x; enc_x y] [] st) st.
  Proof. lift_r ext_torch_min. Qed.
  Lemma extp_min_dim x d st : ext "$method.min" [enc_x x; VInt d] [] st =
    match min_dim x d with
    | Some (Some (v, i)) => Ok (VTuple [enc_x v; enc_i i]) st
    | Some None => Exc index_error st
    | None => new "$method.min" [enc_x x; VInt d] [] st
    end.
  Proof. intros. unfold ext01p. rewrite ext_min_dim. destruct (min_dim x d) as [[[v i]|]|]; reflexivity. Qed.
  Lemma extp_where c x y st : ext "torch.where" [enc_b c; enc_x x; enc_x y] [] st =
    retp (option_map AX (where_f c x y)) (new "torch.where" [enc_b c; enc_x x; enc_x y] [] st) st.
  Proof. lift_r ext_where. Qed.
  Lemma extp_dim_i x st : ext "$method.dim" [enc_i x] [] st = Ok (VInt (Z.of_nat (List.length (shp x)))) st.
  Proof. lift_ok ext_dim_i. Qed.
  Lemma extp_t_i x st : ext "$method.t" [enc_i x] [] st =
    retp (option_map AI (transpose2 0%Z x)) (new "$method.t" [enc_i x] [] st) st.
  Proof. lift_r ext_t_i. Qed.
  Lemma extp_empty st : ext "torch.empty" [VInt 0] [] st = Ok (enc_x (mkTn [0%nat] [])) st.
  Proof. lift_ok ext_empty. Qed.
  Lemma extp_detach_i x st : ext "$method.detach" [enc_i x] [] st = Ok (enc_i x) st.
  Proof. lift_ok ext_detach_i. Qed.
  Lemma extp_shape_i x st : ext "$attr.shape" [enc_i x] [] st = Ok (VTuple (map (fun n => VInt (Z.of_nat n)) (shp x))) st.
  Proof. lift_ok ext_shape_i. Qed.
  Lemma extp_device_i x st : ext "$attr.device" [enc_i x] [] st = Ok device_token st.
  Proof. lift_ok ext_device_i. Qed.
  Lemma extp_dtype_i x st : ext "$attr.dtype" [enc_i x] [] st = Ok long_token st.
  Proof. lift_ok ext_dtype_i. Qed.
  Lemma extp_dtype_x x st : ext "$attr.dtype" [enc_x x] [] st = Ok float_token st.
  Proof. lift_ok ext_dtype_x. Qed.
  Lemma extp_lens tok e d st : ext "_lens_from_eos" [tok; e; d] [] st =
    match C07.SrcRun.call_body (fun x => x) sm_lens (("tok", tok) :: ("eos", e) :: ("dim", d) :: C07.SrcRun.globals07) st with
    | Stuck _ => new "_lens_from_eos" [tok; e; d] [] st
    | o => o
    end.
  Proof. reflexivity. Qed.
  Lemma extp_add_i_int x c st : ext "operator" [VStr "add"; enc_i x; VInt c] [] st = Ok (enc_i (add_s x c)) st.
  Proof. lift_ok ext_add_i_int. Qed.
  Lemma extp_sub_i x y st : ext "operator" [VStr "sub"; enc_i x; enc_i y] [] st =
    retp (option_map AI (bin_i Z.sub x y)) (new "operator" [VStr "sub"; enc_i x; enc_i y] [] st) st.
  Proof. lift_r ext_sub_i. Qed.
  Lemma extp_div_x x y st : ext "operator" [VStr "truediv"; enc_x x; enc_x y] [] st =
    retp (option_map AX (bin_f fdiv x y)) (new "operator" [VStr "truediv"; enc_x x; enc_x y] [] st) st.
  Proof. lift_r ext_div_x. Qed.
  Lemma extp_any x st : ext "$method.any" [enc_b x] [] st = Ok (VBool (any_b x)) st.
  Proof. lift_ok ext_any. Qed.
  Lemma extp_to_b_long x st : ext "$method.to" [enc_b x; long_token] [] st = Ok (enc_i (bool_to_long x)) st.
  Proof. lift_ok ext_to_b_long. Qed.
  Lemma extp_to_b_float x st : ext "$method.to" [enc_b x; float_token] [] st = Ok (enc_x (bool_to_float x)) st.
  Proof. lift_ok ext_to_b_float. Qed.
  Lemma extp_to_i_float x st : ext "$method.to" [enc_i x; float_token] [] st = Ok (enc_x (long_to_float x)) st.
  Proof. lift_ok ext_to_i_float. Qed.
  Lemma extp_full n v st : ext "torch.full" [VTuple [VInt n]; VInt v] [("device", device_token); ("dtype", long_token)] st =
    if Z.ltb n 0 then new "torch.full" [VTuple [VInt n]; VInt v] [("device", device_token); ("dtype", long_token)] st
    else Ok (enc_i (full [Z.to_nat n] v)) st.
  Proof. intros. unfold ext01p. rewrite ext_full. destruct (Z.ltb n 0); reflexivity. Qed.
  Lemma extp_arange_f n st : ext "torch.arange" [VInt n] [("device", device_token); ("dtype", float_token)] st =
    retp (option_map AX (arange_f n)) (new "torch.arange" [VInt n] [("device", device_token); ("dtype", float_token)] st) st.
  Proof. lift_r ext_arange_f. Qed.
  Lemma extp_float_inf st : ext "float" [VStr "inf"] [] st = Ok (VInf true) st.
  Proof. lift_ok ext_float_inf. Qed.
  Lemma extp_full_like_inf x st : ext "torch.full_like" [enc_x x; VInf true] [] st = Ok (enc_x (full (shp x) FPInf)) st.
  Proof. lift_ok ext_full_like_inf. Qed.
  Lemma extp_triu x k st : ext "$method.triu" [enc_x x; VInt k] [] st =
    retp (option_map AX (triu_f x k)) (new "$method.triu" [enc_x x; VInt k] [] st) st.
  Proof. lift_r ext_triu. Qed.
  Lemma extp_unsqueeze_x x d st : ext "$method.unsqueeze" [enc_x x; VInt d] [] st =
    retp (option_map AX (unsqueeze x d)) (new "$method.unsqueeze" [enc_x x; VInt d] [] st) st.
  Proof. lift_r ext_unsqueeze_x. Qed.
  Lemma extp_unsqueeze_i x d st : ext "$method.unsqueeze" [enc_i x; VInt d] [] st =
    retp (option_map AI (unsqueeze x d)) (new "$method.unsqueeze" [enc_i x; VInt d] [] st) st.
  Proof. lift_r ext_unsqueeze_i. Qed.
  Lemma extp_squeeze_x x d st : ext "$method.squeeze" [enc_x x; VInt d] [] st =
    retp (option_map AX (squeeze_dim x d)) (new "$method.squeeze" [enc_x x; VInt d] [] st) st.
  Proof. lift_r ext_squeeze_x. Qed.
  Lemma extp_expand_x x a b st : ext "$method.expand" [enc_x x; VInt a; VInt b] [] st =
    retp (option_map AX (expand2 FNaN x a b)) (new "$method.expand" [enc_x x; VInt a; VInt b] [] st) st.
  Proof. lift_r ext_expand_x. Qed.
  Lemma extp_gather x y st : ext "$method.gather" [enc_x x; VInt 0; enc_i y] [] st =
    retp (option_map AX (gather0 x y)) (new "$method.gather" [enc_x x; VInt 0; enc_i y] [] st) st.
  Proof. lift_r ext_gather. Qed.
  Lemma extp_eq_m x c st : ext "$method.eq" [enc_i x; VInt c] [] st = Ok (enc_b (eq_s x c)) st.
  Proof. lift_ok ext_eq_m. Qed.
  Lemma extp_gt_m x c st : ext "$method.gt" [enc_i x; VInt c] [] st = Ok (enc_b (cmp_scalar Z.gtb x c)) st.
  Proof. lift_ok ext_gt_m. Qed.

  (* ---- calls ext01 answers that only the prefix path makes ---- *)
  Lemma extp_unsqueeze_b x d st : ext "$method.unsqueeze" [enc_b x; VInt d] [] st =
    retp (option_map AB (unsqueeze x d)) (new "$method.unsqueeze" [enc_b x; VInt d] [] st) st.
  Proof.
    intros. unfold ext01p.
    replace (ext01 "$method.unsqueeze" [enc_b x; VInt d] [] st) with (ret01 "unsqueeze" (option_map AB (unsqueeze x d)) st)
      by (unfold ext01, ext01_ops; cbn_t; now rewrite dec01_enc_b).
    apply lift_ret.
  Qed.
  Lemma extp_t_x x st : ext "$method.t" [enc_x x] [] st =
    retp (option_map AX (transpose2 FNaN x)) (new "$method.t" [enc_x x] [] st) st.
  Proof.
    intros. unfold ext01p.
    replace (ext01 "$method.t" [enc_x x] [] st) with (ret01 "t" (option_map AX (transpose2 FNaN x)) st)
      by (unfold ext01, ext01_ops; cbn_t; now rewrite dec01_enc_x).
    apply lift_ret.
  Qed.

  (* ---- the calls only ext01p answers ---- *)
  Lemma extp_empty2 a b st :
    ext "torch.empty" [VTuple [VInt a; VInt b]] [("device", device_token); ("dtype", float_token)] st =
    ret01 "empty" (option_map AX (empty2 g a b)) st.
  Proof. reflexivity. Qed.
  Lemma extp_arange_i n st : ext "torch.arange" [VInt n] [("device", device_token)] st =
    ret01 "arange" (option_map AI (arange n)) st.
  Proof. reflexivity. Qed.
  Lemma extp_setitem_row x i y st : ext "$setitem" [enc_x x; VInt i; enc_x y] [] st =
    match set_select0 x i y with
    | Some (Some r) => Ok (enc_x r) st
    | Some None => Exc index_error st
    | None => oob "setitem row"
    end.
  Proof.
    unfold ext01p. replace (ext01 "$setitem" [enc_x x; VInt i; enc_x y] [] st) with (@Stuck val "setitem")
      by (unfold ext01, ext01_ops; cbn_t; now rewrite !dec01_enc_x).
    unfold ext01p_new. cbn_t. now rewrite !dec01_enc_x.
  Qed.
  Lemma extp_mul_i_q x q st : ext "operator" [VStr "mul"; enc_i x; VQ q] [] st = Ok (enc_x (long_mul_float x q)) st.
  Proof.
    unfold ext01p. replace (ext01 "operator" [VStr "mul"; enc_i x; VQ q] [] st) with (@Stuck val "mul")
      by (unfold ext01, ext01_ops; cbn_t; now rewrite dec01_enc_i).
    unfold ext01p_new. cbn_t. now rewrite dec01_enc_i.
  Qed.
  Lemma extp_size x d st : ext "$method.size" [enc_x x; VInt d] [] st =
    match size_dim x d with Some n => Ok (VInt (Z.of_nat n)) st | None => oob "size" end.
  Proof. unfold ext01p. change (ext01 "$method.size" [enc_x x; VInt d] [] st) with (@Stuck val "ext01: $method.size").
    unfold ext01p_new. cbn_t. now rewrite dec01_enc_x. Qed.
  Lemma extp_expand_as_x x y st : ext "$method.expand_as" [enc_x x; enc_x y] [] st =
    ret01 "expand_as" (option_map AX (expand_as2 FNaN x (shp y))) st.
  Proof. unfold ext01p. change (ext01 "$method.expand_as" [enc_x x; enc_x y] [] st) with (@Stuck val "ext01: $method.expand_as").
    unfold ext01p_new. cbn_t. now rewrite !dec01_enc_x. Qed.
  Lemma extp_ge_t x y st : ext "$method.ge" [enc_i x; enc_i y] [] st = ret01 "ge" (option_map AB (ge_t x y)) st.
  Proof. unfold ext01p. change (ext01 "$method.ge" [enc_i x; enc_i y] [] st) with (@Stuck val "ext01: $method.ge").
    unfold ext01p_new. cbn_t. now rewrite !dec01_enc_i. Qed.
  Lemma extp_masked_fill x m v st : ext "$method.masked_fill" [enc_x x; enc_b m; VInt v] [] st =
    ret01 "masked_fill" (option_map AX (masked_fill x m (z2f v))) st.
  Proof. unfold ext01p. change (ext01 "$method.masked_fill" [enc_x x; enc_b m; VInt v] [] st) with (@Stuck val "ext01: $method.masked_fill").
    unfold ext01p_new. cbn_t. now rewrite dec01_enc_x, dec01_enc_b. Qed.
End ExtLemmas.

Section Exec.
  Variable E : string -> list val -> list (string * val) -> state -> outcome val.
  (* x[k] = e when the item assignment raises *)
  Lemma gexec_seq_setitem_exc x ke e b st v kv t n :
    eval E e st = Ok v st -> lookup x (vars st) = Some (enc_x t) -> eval E ke st = Ok kv st ->
    E "$setitem" [enc_x t; kv; v] [] st = Exc n st ->
    exec E (SSeq (SAssign [TSub (EName x) ke] e) b) st = Exc n st.
  Proof.
    intros He Hx Hk Hs. cbn [exec]. rewrite He. cbn [bind assign_all place_of store eval]. rewrite Hx. cbn [bind].
    rewrite Hk. cbn [bind]. unfold enc_x at 1. fold (enc_x t). rewrite Hs. reflexivity.
  Qed.
End Exec.

Lemma binop_mul_i_q t q st : binop_eval Mul (enc_i t) (VQ q) st = Stuck "mul".  Proof. reflexivity. Qed.
#[export] Hint Rewrite binop_mul_i_q : c01.

#[export] Hint Resolve extp_cmp_lt extp_cmp_ge extp_cmp_eq extp_cmp_ne extp_float_b extp_getitem_int_i extp_mul_q_x extp_mul_x_q extp_add_x extp_sub_x
  extp_getitem_slice_x extp_setitem_slice_x extp_torch_min extp_min_dim extp_where
  extp_dim_i extp_t_i extp_empty extp_detach_i extp_shape_i extp_device_i extp_dtype_i extp_dtype_x extp_add_i_int extp_sub_i extp_div_x
  extp_any extp_to_b_long extp_to_b_float extp_to_i_float extp_full extp_arange_f extp_float_inf extp_full_like_inf extp_triu
  extp_unsqueeze_x extp_unsqueeze_i extp_squeeze_x extp_expand_x extp_gather extp_eq_m extp_gt_m
  extp_unsqueeze_b extp_t_x extp_empty2 extp_arange_i extp_setitem_row extp_mul_i_q extp_size extp_expand_as_x extp_ge_t
  extp_masked_fill : c01x.
