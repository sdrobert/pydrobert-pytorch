(* MiniTorch, unit C09BSrc — algebra of the operations of OpsC09B on tabulated tensors (no axioms). *)
From Coq Require Import List ZArith Bool Arith Lia String ZifyBool ZifyNat.
From PV Require Import MiniPy.Syntax MiniTorch.Ops MiniTorch.OpsC09 MiniTorch.LemmasC09 MiniTorch.OpsC09B.
Import ListNotations.
Local Open Scope nat_scope.

Lemma neg_tab1 s n a : neg (mkTn s (tab1 n a)) = mkTn s (tab1 n (fun i => (- a i)%Z)).
Proof. unfold neg. cbn [shp dat]. now rewrite map_tab1. Qed.

Lemma clamp_min_tab1 s n a c : clamp_min (mkTn s (tab1 n a)) c = mkTn s (tab1 n (fun i => Z.max c (a i))).
Proof. unfold clamp_min. cbn [shp dat]. now rewrite map_tab1. Qed.

Lemma masked_fill_tab1 n a b v :
  masked_fill (mkTn [n] (tab1 n a)) (mkTn [n] (tab1 n b)) v
  = Some (mkTn [n] (tab1 n (fun i => if b i then v else a i))).
Proof. unfold masked_fill. cbn [shp dat]. now rewrite nats_eqb_refl, zipw_tab1. Qed.

Lemma expand1_full {X} (d c : X) n : expand1 d (full [1] c) n = Some (mkTn [n] (tab1 n (fun _ => c))).
Proof. reflexivity. Qed.

Lemma select_last2_tab2 {X} (d : X) n m f c :
  c < m -> select_last2 d (mkTn [n; m] (tab2 n m f)) c = Some (mkTn [n] (tab1 n (fun i => f i c))).
Proof.
  intros H. unfold select_last2. cbn [shp dat]. replace (c <? m) with true by lia. f_equal. f_equal.
  apply tab1_ext. intros i Hi. now apply at2_tab2.
Qed.

(* equal 3-dimensional shapes *)
Lemma band_bc_same3 n m k f g :
  band_bc (mkTn [n; m; k] (tab3 n m k f)) (mkTn [n; m; k] (tab3 n m k g))
  = Some (mkTn [n; m; k] (tab3 n m k (fun i j l => f i j l && g i j l))).
Proof.
  unfold band_bc. cbn [shp dat]. rewrite Nat.eqb_refl, !xdim_ok_refl. cbn [andb]. f_equal. f_equal.
  apply tab3_ext. intros i j l Hi Hj Hl. rewrite !xidx_lt by assumption. now rewrite !at3_tab3 by assumption.
Qed.

(* (n, m, k) & (n, 1, 1) *)
Lemma band_bc_n11 n m k f g :
  band_bc (mkTn [n; m; k] (tab3 n m k f)) (mkTn [n; 1; 1] (tab1 n g))
  = Some (mkTn [n; m; k] (tab3 n m k (fun i j l => f i j l && g i))).
Proof.
  unfold band_bc. cbn [shp dat]. rewrite Nat.eqb_refl, !xdim_ok_1. cbn [andb]. f_equal. f_equal.
  apply tab3_ext. intros i j l Hi Hj Hl. change (xidx 1 j) with 0. change (xidx 1 l) with 0.
  now rewrite at3_tab3, at3_tab1_n11 by assumption.
Qed.

(* equal 2-dimensional shapes: OpsC09.band *)
Lemma zipw_tab2' {X Y W} (f : X -> Y -> W) n m a b :
  zipw f (tab2 n m a) (tab2 n m b) = tab2 n m (fun i j => f (a i j) (b i j)).
Proof. apply zipw_tab2. Qed.

Lemma band_bc_same2 n m f g :
  band_bc (mkTn [n; m] (tab2 n m f)) (mkTn [n; m] (tab2 n m g))
  = Some (mkTn [n; m] (tab2 n m (fun i j => f i j && g i j))).
Proof. unfold band_bc, band. cbn [shp dat]. now rewrite nats_eqb_refl, zipw_tab2. Qed.

(* number of true entries, as the integer torch returns *)
Definition countZ (m : nat) (f : nat -> bool) : Z :=
  fold_right Z.add 0%Z (map (fun j => if f j then 1%Z else 0%Z) (seq 0 m)).

Lemma sum1_bool_tab2 n m f :
  sum1_bool (mkTn [n; m] (tab2 n m f)) = Some (mkTn [n] (tab1 n (fun i => countZ m (f i)))).
Proof.
  unfold sum1_bool. cbn [shp dat]. f_equal. f_equal. apply tab1_ext. intros i Hi. unfold countZ. f_equal.
  apply map_ext_in. intros j Hj. apply in_seq in Hj. rewrite at2_tab2 by lia. reflexivity.
Qed.

Lemma transpose01_tab2 {X} (d : X) a b f :
  transpose01 d (mkTn [a; b] (tab2 a b f)) = Some (mkTn [b; a] (tab2 b a (fun i j => f j i))).
Proof.
  unfold transpose01. cbn [shp dat]. f_equal. f_equal. apply tab2_ext. intros i j Hi Hj. now apply at2_tab2.
Qed.

Lemma transpose01_tab3 {X} (d : X) a b c f :
  transpose01 d (mkTn [a; b; c] (tab3 a b c f)) = Some (mkTn [b; a; c] (tab3 b a c (fun i j l => f j i l))).
Proof.
  unfold transpose01. cbn [shp dat]. f_equal. f_equal. apply tab3_ext. intros i j l Hi Hj Hl. now apply at3_tab3.
Qed.

Lemma full_like_3 {X} n m k (d : list X) (v : X) :
  full_like (mkTn [n; m; k] d) v = mkTn [n; m; k] (tab3 n m k (fun _ _ _ => v)).
Proof. unfold full_like. cbn [shp]. apply full_3. Qed.

Lemma ew2_scalar {X Y W} (f : X -> Y -> W) dx dy a b :
  ew2 f dx dy (mkTn [] [a]) (mkTn [] [b]) = Some (mkTn [] [f a b]).
Proof. reflexivity. Qed.

Lemma view_nm1 {X} n m (d : list X) : view (mkTn [n; m] d) [n; m; 1] = Some (mkTn [n; m; 1] d).
Proof.
  unfold view. cbn [shp dat numel]. replace (n * (m * 1) =? n * (m * (1 * 1))) with true; [reflexivity|].
  symmetry. apply Nat.eqb_eq. lia.
Qed.

Lemma ew_s_tab1' {X Y W} (f : X -> Y -> W) s n a c : ew_s f (mkTn s (tab1 n a)) c = mkTn s (tab1 n (fun i => f (a i) c)).
Proof. apply ew_s_tab1. Qed.


(* a flat list of the right length is the tabulation of its own entries *)
Lemma tab3_of_list {X} (d : X) n m k (l : list X) :
  List.length l = (n * (m * k))%nat -> l = tab3 n m k (fun i j c => at3 d m k l i j c).
Proof.
  intros H. apply (nth_ext _ _ d d); [now rewrite tab3_length|]. intros p Hp. rewrite H in Hp.
  assert (Hk : (k <> 0)%nat) by (intros ->; nia). assert (Hm : (m <> 0)%nat) by (intros ->; nia).
  set (c := (p mod k)%nat). set (q := (p / k)%nat). set (j := (q mod m)%nat). set (i := (q / m)%nat).
  assert (Hc : (c < k)%nat) by (apply Nat.mod_upper_bound; assumption).
  assert (Hj : (j < m)%nat) by (apply Nat.mod_upper_bound; assumption).
  assert (Ep : p = ((i * m + j) * k + c)%nat).
  { subst c j i. pose proof (Nat.div_mod p k Hk). pose proof (Nat.div_mod q m Hm). subst q. nia. }
  assert (Hi : (i < n)%nat).
  { destruct (Nat.lt_ge_cases i n) as [|Hge]; [assumption|]. exfalso. clearbody i j c q.
    assert (n * m <= i * m)%nat by nia. assert (n * m * k <= i * m * k)%nat by nia. nia. }
  rewrite Ep at 2. change (nth ((i * m + j) * k + c) (tab3 n m k (fun i j c => at3 d m k l i j c)) d)
    with (at3 d m k (tab3 n m k (fun i j c => at3 d m k l i j c)) i j c).
  rewrite at3_tab3 by assumption. unfold at3. now rewrite <- Ep.
Qed.

Lemma mscatter_length_le {X} (m : list bool) (dst src l : list X) :
  mscatter m dst src = Some l -> List.length l = Nat.min (List.length m) (List.length dst).
Proof.
  revert dst src l. induction m as [|b m IH]; intros dst src l E; [cbn in E; injection E as <-; reflexivity|].
  destruct dst as [|c dst]; [cbn in E; injection E as <-; reflexivity|]. cbn in E. destruct b.
  - destruct src as [|s src]; [discriminate|].
    destruct (mscatter m dst src) as [l'|] eqn:E'; [|discriminate]. injection E as <-. cbn. now rewrite (IH _ _ _ E').
  - destruct (mscatter m dst src) as [l'|] eqn:E'; [|discriminate]. injection E as <-. cbn. now rewrite (IH _ _ _ E').
Qed.

