(* MiniTorch, unit C08 - the algebra of OpsC08.v needed by the C08 tie (no new definitions of meaning):
   the operations on tensors in canonical form ([T1 n f], [T2 n m f]) are again in canonical form. *)
From Coq Require Import List ZArith QArith Qround Bool Arith Lia.
From Coq Require String.
From PV Require Import MiniPy.Syntax MiniTorch.Ops MiniTorch.OpsC08.
From PV Require MiniTorch.Lemmas C08.Model.
Export MiniTorch.Lemmas(bdim_same, bdim_1_r).
Import ListNotations.

(* ---- tables ------------------------------------------------------------------------------------- *)
Lemma get2_tabl {X} (d : X) n m (f : nat -> nat -> X) i j :
  (i < n)%nat -> (j < m)%nat -> get2 d m (tabl n m f) i j = f i j.
Proof.
  intros Hi Hj. unfold get2, tabl.
  rewrite (Lemmas.nth_flat_map_const _ _ m i j 0%nat d).
  - rewrite seq_nth by assumption. cbn [Nat.add]. now apply Lemmas.nth_map_seq.
  - intros x _. now rewrite map_length, seq_length.
  - now rewrite seq_length.
  - assumption.
Qed.

Lemma tabl_ext {X} n m (f g : nat -> nat -> X) :
  (forall i j, (i < n)%nat -> (j < m)%nat -> f i j = g i j) -> tabl n m f = tabl n m g.
Proof.
  intros H. unfold tabl. apply Lemmas.flat_map_ext_in. intros i Hi. apply in_seq in Hi.
  apply map_ext_in. intros j Hj. apply in_seq in Hj. apply H; lia.
Qed.

Lemma T2_ext {X} n m (f g : nat -> nat -> X) :
  (forall i j, (i < n)%nat -> (j < m)%nat -> f i j = g i j) -> T2 n m f = T2 n m g.
Proof. intros H. unfold T2. f_equal. now apply tabl_ext. Qed.

Lemma T1_ext {X} n (f g : nat -> X) : (forall i, (i < n)%nat -> f i = g i) -> T1 n f = T1 n g.
Proof. intros H. unfold T1. f_equal. apply map_ext_in. intros i Hi. apply in_seq in Hi. apply H. lia. Qed.

Lemma tabl_length {X} n m (f : nat -> nat -> X) : length (tabl n m f) = (n * m)%nat.
Proof.
  unfold tabl. rewrite (Lemmas.length_flat_map_const _ _ m), seq_length; [reflexivity|].
  intros i _. now rewrite map_length, seq_length.
Qed.

Lemma map_tabl {X Y} (h : X -> Y) n m (f : nat -> nat -> X) : map h (tabl n m f) = tabl n m (fun i j => h (f i j)).
Proof.
  unfold tabl. rewrite Lemmas.map_flat_map. apply Lemmas.flat_map_ext_in. intros i _. now rewrite map_map.
Qed.

Lemma tabl_row {X} n (f : nat -> X) : tabl 1 n (fun _ => f) = map f (seq 0 n).
Proof. unfold tabl. cbn [seq flat_map]. now rewrite app_nil_r. Qed.

Lemma tabl_col {X} n (f : nat -> X) : tabl n 1 (fun i _ => f i) = map f (seq 0 n).
Proof. unfold tabl. cbn [seq map]. now rewrite (Lemmas.flat_map_singleton f). Qed.

(* row-major enumeration of n * m positions *)
Lemma nth_tabl {X} (d : X) n m (f : nat -> nat -> X) k :
  (k < n * m)%nat -> nth k (tabl n m f) d = f (k / m)%nat (k mod m)%nat.
Proof.
  intros Hk. assert (Hm : m <> 0%nat) by (intros ->; lia).
  pose proof (Nat.div_mod k m Hm) as E. pose proof (Nat.mod_upper_bound k m Hm) as Hr.
  assert (Hq : (k / m < n)%nat) by (apply Nat.div_lt_upper_bound; [assumption|lia]).
  rewrite <- (get2_tabl d n m f (k / m) (k mod m) Hq Hr). unfold get2. f_equal. lia.
Qed.

Lemma map_seq_tabl {X} (g : nat -> X) n m :
  map g (seq 0 (n * m)) = tabl n m (fun i j => g (i * m + j)%nat).
Proof.
  destruct (Nat.eq_dec m 0) as [->|Hm].
  - rewrite Nat.mul_0_r. cbn [seq map]. unfold tabl. cbn [seq map]. induction (seq 0 n); [reflexivity|assumption].
  - apply (nth_ext _ _ (g 0%nat) (g 0%nat)).
    + now rewrite map_length, seq_length, tabl_length.
    + intros k Hk. rewrite map_length, seq_length in Hk.
      rewrite nth_tabl by assumption. rewrite Lemmas.nth_map_seq by assumption.
      f_equal. pose proof (Nat.div_mod k m Hm). lia.
Qed.

(* ---- canonical forms ---------------------------------------------------------------------------- *)
Lemma tmap_T1 {X Y} (h : X -> Y) n f : tmap h (T1 n f) = T1 n (fun i => h (f i)).
Proof. unfold tmap, T1. cbn [shp dat]. now rewrite map_map. Qed.

Lemma tmap_T2 {X Y} (h : X -> Y) n m f : tmap h (T2 n m f) = T2 n m (fun i j => h (f i j)).
Proof. unfold tmap, T2. cbn [shp dat]. now rewrite map_tabl. Qed.

Lemma tmap_list {X Y} (f : X -> Y) (d : X) (l : list X) :
  tmap f (mkTn [length l] l) = T1 (length l) (fun n => f (nth n l d)).
Proof.
  unfold tmap, T1. cbn [shp dat]. f_equal.
  apply (nth_ext _ _ (f d) (f d)); [now rewrite !map_length, seq_length|].
  intros n Hn. rewrite map_length in Hn. rewrite map_nth.
  rewrite (Lemmas.nth_map_seq (fun n => f (nth n l d))) by assumption. reflexivity.
Qed.

Lemma nats_eqb_refl l : nats_eqb l l = true.
Proof. induction l as [|x l IH]; [reflexivity|]. cbn [nats_eqb]. now rewrite Nat.eqb_refl. Qed.

Lemma unsqueeze_T1_1 {X} n (f : nat -> X) : unsqueeze (T1 n f) 1 = Some (T2 n 1 (fun i _ => f i)).
Proof.
  unfold unsqueeze, T1, T2. cbn [shp dat length].
  change (wrap_dim 2 1) with (Some 1%nat). cbn [firstn skipn app]. now rewrite tabl_col.
Qed.

Lemma rand_1 rnd k n : rand rnd k [n] = T1 n (rnd k).
Proof. unfold rand, T1, numel. cbn [fold_right]. now rewrite Nat.mul_1_r. Qed.

Lemma rand_2 rnd k n m : rand rnd k [n; m] = T2 n m (fun i j => rnd k (i * m + j)%nat).
Proof. unfold rand, T2, numel. cbn [fold_right]. rewrite Nat.mul_1_r. now rewrite map_seq_tabl. Qed.

(* ---- broadcasting -------------------------------------------------------------------------------- *)
Lemma bidx_self n i : (i < n)%nat -> bidx n i = i.
Proof. intros H. unfold bidx. destruct (Nat.eqb_spec n 1); lia. Qed.

Lemma bidx_one i : bidx 1 i = 0%nat.
Proof. reflexivity. Qed.

Lemma bdim_1_n n : bdim 1 n = Some n.
Proof. unfold bdim. destruct (Nat.eqb_spec 1 n) as [<-|]; reflexivity. Qed.

Lemma bc2_tabl {X Y W} (dx : X) (dy : Y) (h : X -> Y -> W) sa sb na ma a nb mb b n m :
  as2 sa = Some (na, ma) -> as2 sb = Some (nb, mb) -> bdim na nb = Some n -> bdim ma mb = Some m ->
  bc2 dx dy h (mkTn sa (tabl na ma a)) (mkTn sb (tabl nb mb b)) =
  Some (mkTn (skipn (2 - Nat.max (length sa) (length sb)) [n; m])
             (tabl n m (fun i j => h (a (bidx na i) (bidx ma j)) (b (bidx nb i) (bidx mb j))))).
Proof.
  intros Ha Hb Hn Hm. unfold bc2. cbn [shp dat]. rewrite Ha, Hb, Hn, Hm. f_equal. f_equal.
  apply tabl_ext. intros i j Hi Hj.
  rewrite !get2_tabl by eauto using Lemmas.bidx_lt_l, Lemmas.bidx_lt_r. reflexivity.
Qed.

(* after [bc2_tabl]: the two tables agree entry by entry, a broadcast index being 0 or the index itself *)
Ltac bc2_entries :=
  cbn [length Nat.max Nat.sub skipn]; f_equal; f_equal; apply tabl_ext; intros i j Hi Hj; cbv beta;
  now rewrite ?bidx_one, ?(bidx_self _ i Hi), ?(bidx_self _ j Hj).

(* (n) op (n) *)
Lemma bc2_T1_T1 {X Y W} (dx : X) (dy : Y) (h : X -> Y -> W) n a b :
  bc2 dx dy h (T1 n a) (T1 n b) = Some (T1 n (fun i => h (a i) (b i))).
Proof.
  unfold T1. rewrite <- !tabl_row.
  rewrite (bc2_tabl dx dy h [n] [n] 1 n _ 1 n _ 1 n eq_refl eq_refl eq_refl (bdim_same n)).
  bc2_entries.
Qed.

(* (n, m) op (n, 1) *)
Lemma bc2_T2_col {X Y W} (dx : X) (dy : Y) (h : X -> Y -> W) n m a b :
  bc2 dx dy h (T2 n m a) (T2 n 1 b) = Some (T2 n m (fun i j => h (a i j) (b i 0%nat))).
Proof.
  unfold T2.
  rewrite (bc2_tabl dx dy h [n; m] [n; 1%nat] n m _ n 1 _ n m eq_refl eq_refl (bdim_same n) (bdim_1_r m)).
  bc2_entries.
Qed.

(* (n, 1) op (n, m) *)
Lemma bc2_col_T2 {X Y W} (dx : X) (dy : Y) (h : X -> Y -> W) n m a b :
  bc2 dx dy h (T2 n 1 a) (T2 n m b) = Some (T2 n m (fun i j => h (a i 0%nat) (b i j))).
Proof.
  unfold T2.
  rewrite (bc2_tabl dx dy h [n; 1%nat] [n; m] n 1 _ n m _ n m eq_refl eq_refl (bdim_same n) (bdim_1_n m)).
  bc2_entries.
Qed.

(* (n, m) op (n, m) *)
Lemma bc2_T2_T2 {X Y W} (dx : X) (dy : Y) (h : X -> Y -> W) n m a b :
  bc2 dx dy h (T2 n m a) (T2 n m b) = Some (T2 n m (fun i j => h (a i j) (b i j))).
Proof.
  unfold T2.
  rewrite (bc2_tabl dx dy h [n; m] [n; m] n m _ n m _ n m eq_refl eq_refl (bdim_same n) (bdim_same m)).
  bc2_entries.
Qed.

(* (n, 1) op (m) *)
Lemma bc2_col_T1 {X Y W} (dx : X) (dy : Y) (h : X -> Y -> W) n m a b :
  bc2 dx dy h (T2 n 1 a) (T1 m b) = Some (T2 n m (fun i j => h (a i 0%nat) (b j))).
Proof.
  unfold T2, T1. rewrite <- (tabl_row m b).
  rewrite (bc2_tabl dx dy h [n; 1%nat] [m] n 1 _ 1 m _ n m eq_refl eq_refl (bdim_1_r n) (bdim_1_n m)).
  bc2_entries.
Qed.

(* ---- encodings ------------------------------------------------------------------------------------ *)
Lemma dec_nats_enc l : dec_nats (map (fun n => VInt (Z.of_nat n)) l) = Some l.
Proof.
  induction l as [|x l IH]; [reflexivity|]. cbn [map dec_nats].
  replace (0 <=? Z.of_nat x)%Z with true by (symmetry; apply Z.leb_le; lia).
  rewrite IH, Nat2Z.id. reflexivity.
Qed.

Lemma dec_list_map {X} (dv : val -> option X) (inj : X -> val) l :
  (forall x, dv (inj x) = Some x) -> dec_list dv (map inj l) = Some l.
Proof. intros H. induction l as [|x l IH]; [reflexivity|]. cbn [map dec_list]. now rewrite H, IH. Qed.

Lemma dec_any_enc_f t : dec_any (enc_f t) = Some (TF t).
Proof. destruct t as [s d]. unfold dec_any, enc_f, enc_shape. cbn [shp dat]. rewrite dec_nats_enc. cbn. now rewrite (dec_list_map val_q VQ). Qed.
Lemma dec_any_enc_l t : dec_any (enc_l t) = Some (TL t).
Proof. destruct t as [s d]. unfold dec_any, enc_l, enc_shape. cbn [shp dat]. rewrite dec_nats_enc. cbn. now rewrite (dec_list_map val_z VInt). Qed.
Lemma dec_any_enc_b t : dec_any (enc_b t) = Some (TB t).
Proof. destruct t as [s d]. unfold dec_any, enc_b, enc_shape. cbn [shp dat]. rewrite dec_nats_enc. cbn. now rewrite (dec_list_map val_b VBool). Qed.

Lemma dec_feats_enc sh eps : dec_feats (enc_feats sh eps) = Some (sh, eps).
Proof. unfold dec_feats, enc_feats, enc_shape. cbn. now rewrite dec_nats_enc. Qed.

Lemma dec_any_feats sh eps : dec_any (enc_feats sh eps) = None.
Proof. reflexivity. Qed.
