(* MiniTorch, unit C18B — algebra of the operations of OpsC18B.v (no new definitions of semantics). *)
From Coq Require Import List ZArith QArith Bool Arith Lia String ZifyBool ZifyNat.
From PV Require MiniTorch.Ops MiniTorch.Lemmas.
From PV Require Import MiniTorch.OpsC18B.
From PV Require Import C18.Model C18.Spec C18.QLemmas C18.Tensor C18.ProofsMvn.
Import ListNotations.
Local Open Scope nat_scope.

#[local] Ltac Zify.zify_post_hook ::= Z.div_mod_to_equations.

Lemma wrap_norm : forall D d, Ops.wrap_dim D d = norm_dim D d.
Proof.
  intros D d. unfold Ops.wrap_dim, norm_dim.
  destruct (Z.leb_spec (- Z.of_nat D) d), (Z.ltb_spec d (Z.of_nat D)); cbn [andb];
    destruct (Z.ltb_spec d (- Z.of_nat D)), (Z.leb_spec (Z.of_nat D) d); cbn [orb]; try lia; try reflexivity.
  f_equal. f_equal. destruct (Z.ltb_spec d 0).
  - now rewrite Z.mod_small by lia.
  - replace (d + Z.of_nat D)%Z with (d + 1 * Z.of_nat D)%Z by lia. now rewrite Z_mod_plus_full, Z.mod_small by lia.
Qed.

Lemma norm_dim_pos : forall D dim d, norm_dim D dim = Some d -> (0 < D)%nat.
Proof. intros D dim d H. pose proof (norm_dim_lt _ _ _ H). lia. Qed.

Lemma wrap_dim_in : forall D d, (- Z.of_nat D <= d < Z.of_nat D)%Z ->
  Ops.wrap_dim D d = Some (Z.to_nat (if (d <? 0)%Z then d + Z.of_nat D else d)).
Proof.
  intros D d H. unfold Ops.wrap_dim. now replace ((- Z.of_nat D <=? d) && (d <? Z.of_nat D))%Z with true by lia.
Qed.

Lemma norm_dim_0 : forall D, (0 < D)%nat -> norm_dim D 0 = Some 0%nat.
Proof. intros D H. now rewrite <- wrap_norm, wrap_dim_in by lia. Qed.

Lemma size_ok : forall x dim d, norm_dim (List.length (shape x)) dim = Some d ->
  OpsC18B.size x dim = ROk (nth d (shape x) 0).
Proof. intros x dim d H. unfold OpsC18B.size, ndim. now rewrite wrap_norm, H. Qed.

Lemma size_err : forall x dim, norm_dim (List.length (shape x)) dim = None ->
  OpsC18B.size x dim = RRaise index_error.
Proof. intros x dim H. unfold OpsC18B.size, ndim. now rewrite wrap_norm, H. Qed.

Lemma transpose0_ok : forall x dim d, norm_dim (List.length (shape x)) dim = Some d ->
  OpsC18B.transpose x 0 dim = ROk (Model.transpose x 0 d).
Proof.
  intros x dim d H. pose proof (norm_dim_pos _ _ _ H) as HD. unfold OpsC18B.transpose, ndim.
  destruct (List.length (shape x)) as [|n] eqn:E; [lia|].
  rewrite !wrap_norm, H, norm_dim_0 by lia. reflexivity.
Qed.

Lemma transpose0_err : forall x dim, (0 < List.length (shape x))%nat -> norm_dim (List.length (shape x)) dim = None ->
  OpsC18B.transpose x 0 dim = RRaise index_error.
Proof.
  intros x dim HD H. unfold OpsC18B.transpose, ndim.
  destruct (List.length (shape x)) as [|n] eqn:E; [lia|].
  rewrite !wrap_norm, H, norm_dim_0 by lia. reflexivity.
Qed.

Lemma unsqueeze_last : forall t, OpsC18B.unsqueeze t (-1) = ROk (mkT (shape t ++ [1]) (data t)).
Proof.
  intros t. unfold OpsC18B.unsqueeze, ndim. rewrite wrap_dim_in by lia. change (-1 <? 0)%Z with true. cbv iota.
  replace (Z.to_nat (-1 + Z.of_nat (S (List.length (shape t))))) with (List.length (shape t)) by lia.
  now rewrite firstn_all, skipn_all.
Qed.

(* x.transpose(0, dim).unsqueeze(-1).flatten(1): (X, M) with the data of the transposed tensor *)
Lemma flatten_rows : forall h tl dat,
  OpsC18B.flatten (mkT ((h :: tl) ++ [1]) dat) 1 (-1) = ROk (mkT [h; prodn tl] dat).
Proof.
  intros h tl dat. unfold OpsC18B.flatten, ndim. cbn [shape data app List.length].
  set (n := List.length (tl ++ [1])).
  assert (Hn : n = S (List.length tl)) by (unfold n; rewrite app_length; cbn; lia).
  rewrite !wrap_dim_in by lia. change (1 <? 0)%Z with false. change (-1 <? 0)%Z with true. cbv iota.
  replace (Z.to_nat 1) with 1 by reflexivity.
  replace (Z.to_nat (-1 + Z.of_nat (S n))) with n by lia.
  replace (1 <=? n) with true by lia.
  cbn [firstn skipn app]. replace (n - 1 + 1) with n by lia.
  unfold n at 1 2. rewrite firstn_all, skipn_all. f_equal. f_equal. f_equal.
  rewrite prodn_app. cbn. now rewrite Nat.mul_1_r.
Qed.

Lemma flatten_rows_0d : forall dat, OpsC18B.flatten (mkT [1] dat) 1 (-1) = RRaise index_error.
Proof. reflexivity. Qed.

Lemma rows_of_rows : forall x d, (d < List.length (shape x))%nat ->
  rows_of x d = rows (nth d (shape x) 0) (rows_width x d) (data (Model.transpose x 0 d)).
Proof.
  intros x d Hd. unfold rows_of, rows, rows_width. cbv zeta. rewrite shape_transpose.
  replace (hd 0 (swapl (shape x) 0 d)) with (nth d (shape x) 0) by (now rewrite (swapl_hd _ _ Hd)). reflexivity.
Qed.

Lemma chunk_map : forall (f : Q -> Q) m i l, chunk m i (map f l) = map f (chunk m i l).
Proof. intros. unfold chunk. now rewrite skipn_map, firstn_map. Qed.

Lemma rows_map : forall (f : Q -> Q) n m l, rows n m (map f l) = map (map f) (rows n m l).
Proof. intros. unfold rows. rewrite map_map. apply map_ext. intros i. apply chunk_map. Qed.

Lemma length_rows : forall n m l, List.length (rows n m l) = n.
Proof. intros. unfold rows. now rewrite map_length, seq_length. Qed.

Lemma iop2_vec : forall f a b,
  iop2 f (mkT [List.length a] a) (mkT [List.length b] b) =
  if (List.length a =? List.length b) then ROk (mkT [List.length a] (zipw f a b))
  else match b with
       | [v] => ROk (mkT [List.length a] (map (fun u => f u v) a))
       | _ => RRaise runtime_error
       end.
Proof.
  intros f a b. unfold iop2. cbn [shape data nats_eqb]. rewrite andb_true_r.
  destruct (List.length a =? List.length b); [reflexivity|].
  unfold one_elt. cbn [data shape]. destruct b as [|v [|w b]]; reflexivity.
Qed.

Lemma iadd_vec : forall a b,
  OpsC18B.iadd (mkT [List.length a] a) (mkT [List.length b] b) =
  match Model.iadd a b with
  | Ok l => ROk (mkT [List.length l] l)
  | Err _ => RRaise runtime_error
  end.
Proof.
  intros a b. unfold OpsC18B.iadd, Model.iadd. rewrite iop2_vec.
  destruct (Nat.eqb_spec (List.length a) (List.length b)) as [E|E].
  - now rewrite length_zipw.
  - destruct b as [|v [|w b]]; try reflexivity. now rewrite map_length.
Qed.

Lemma iop2_vec_one : forall f a c,
  iop2 f (mkT [List.length a] a) (mkT [1] [c]) = ROk (mkT [List.length a] (map (fun u => f u c) a)).
Proof.
  intros f a c. change (mkT [1] [c]) with (mkT [List.length [c]] [c]). rewrite iop2_vec. cbn [List.length].
  destruct (Nat.eqb_spec (List.length a) 1) as [E|E]; [|reflexivity].
  destruct a as [|u [|w a]]; try discriminate. reflexivity.
Qed.


Lemma indices1 : forall n, indices [n] = map (fun i => [i]) (seq 0 n).
Proof.
  intros n. cbn [indices map]. induction (seq 0 n) as [|i l IH]; cbn [flat_map map app]; [reflexivity|now rewrite IH].
Qed.

Lemma zipw_seq_nth : forall (f : Q -> Q -> Q) a b n, List.length a = n -> List.length b = n ->
  map (fun i => f (nth i a 0%Q) (nth i b 0%Q)) (seq 0 n) = zipw f a b.
Proof.
  intros f a. induction a as [|x a IH]; intros [|y b] n Ha Hb; cbn [List.length] in *; subst; try discriminate; [reflexivity|].
  cbn [seq map zipw nth]. f_equal. rewrite <- seq_shift, map_map. cbn [nth]. apply IH; [reflexivity|lia].
Qed.

Lemma map_seq_nth : forall (g : Q -> Q) a, map (fun i => g (nth i a 0%Q)) (seq 0 (List.length a)) = map g a.
Proof.
  intros g a. induction a as [|x a IH]; [reflexivity|]. cbn [List.length seq map nth]. f_equal.
  rewrite <- seq_shift, map_map. cbn [nth]. exact IH.
Qed.

Lemma get_vec : forall n a i, get (mkT [n] a) [i] = nth i a 0%Q.
Proof. intros. unfold get. cbn [shape data ravel prodn fold_right]. f_equal. lia. Qed.

Lemma ew2_vec : forall f a b n, List.length a = n -> List.length b = n ->
  ew2 f (mkT [n] a) (mkT [n] b) = ROk (mkT [n] (zipw f a b)).
Proof.
  intros f a b n Ha Hb. unfold ew2, scalar0, ndim. cbn [shape data List.length Nat.eqb bshape].
  rewrite MiniTorch.Lemmas.bdim_same. unfold tabulate. rewrite indices1, map_map. do 2 f_equal.
  rewrite <- (zipw_seq_nth f a b n Ha Hb). apply map_ext_in. intros i Hi. apply in_seq in Hi.
  cbn [zipw]. rewrite MiniTorch.Lemmas.bidx_same by lia. now rewrite !get_vec.
Qed.

Lemma ew2_vec_one : forall f a c n, List.length a = n ->
  ew2 f (mkT [n] a) (mkT [1] [c]) = ROk (mkT [n] (map (fun u => f u c) a)).
Proof.
  intros f a c n Ha. unfold ew2, scalar0, ndim. cbn [shape data List.length Nat.eqb bshape].
  rewrite MiniTorch.Lemmas.bdim_1_r. unfold tabulate. rewrite indices1, map_map. do 2 f_equal.
  subst n. rewrite <- (map_seq_nth (fun u => f u c) a). apply map_ext_in. intros i Hi. apply in_seq in Hi.
  cbn [zipw]. rewrite MiniTorch.Lemmas.bidx_same by lia. rewrite !get_vec. reflexivity.
Qed.

(* the shape [1, .., 1, X, 1, .., 1] (D sizes, X at position d) of `mean.view(shape)` *)
Fixpoint ones_but (D d X : nat) : list nat :=
  match D with
  | O => []
  | S D' => match d with
            | O => X :: repeat 1 D'
            | S d' => 1 :: ones_but D' d' X
            end
  end.

Lemma length_ones_but : forall D d X, List.length (ones_but D d X) = D.
Proof.
  induction D as [|D IH]; intros [|d] X; cbn [ones_but List.length]; try reflexivity;
    [now rewrite repeat_length|now rewrite IH].
Qed.

Lemma prodn_ones : forall k, prodn (repeat 1 k) = 1.
Proof. induction k as [|k IH]; [reflexivity|]. cbn [repeat]. rewrite prodn_cons, IH. reflexivity. Qed.

Lemma prodn_ones_but : forall D d X, d < D -> prodn (ones_but D d X) = X.
Proof.
  induction D as [|D IH]; intros [|d] X H; try lia; cbn [ones_but]; rewrite prodn_cons.
  - rewrite prodn_ones. lia.
  - rewrite IH by lia. lia.
Qed.

Lemma bshape_ones : forall sh, bshape sh (repeat 1 (List.length sh)) = Some sh.
Proof. induction sh as [|s sh IH]; [reflexivity|]. cbn [List.length repeat bshape]. now rewrite MiniTorch.Lemmas.bdim_1_r, IH. Qed.

Lemma bshape_ones_but : forall sh d, d < List.length sh ->
  bshape sh (ones_but (List.length sh) d (nth d sh 0)) = Some sh.
Proof.
  induction sh as [|s sh IH]; intros [|d] H; cbn [List.length] in *; try lia; cbn [ones_but nth bshape].
  - now rewrite MiniTorch.Lemmas.bdim_same, bshape_ones.
  - rewrite MiniTorch.Lemmas.bdim_1_r, IH by lia. reflexivity.
Qed.

Lemma zipw_bidx_valid : forall sh idx, valid sh idx -> zipw Ops.bidx sh idx = idx.
Proof.
  intros sh idx H. induction H as [|i s idx sh Hi H IH]; [reflexivity|].
  cbn [zipw]. now rewrite MiniTorch.Lemmas.bidx_same, IH.
Qed.

Lemma ravel_ones : forall k r, ravel (repeat 1 k) (zipw Ops.bidx (repeat 1 k) r) = 0.
Proof.
  induction k as [|k IH]; intros [|i r]; try reflexivity.
  cbn [repeat zipw ravel]. rewrite IH. reflexivity.
Qed.

Lemma ravel_ones_but : forall D d X idx, List.length idx = D -> d < D -> nth d idx 0 < X ->
  ravel (ones_but D d X) (zipw Ops.bidx (ones_but D d X) idx) = nth d idx 0.
Proof.
  induction D as [|D IH]; intros [|d] X [|i r] HL Hd Hi; cbn [List.length] in *; try lia;
    cbn [ones_but zipw ravel nth] in *.
  - rewrite ravel_ones, prodn_ones, MiniTorch.Lemmas.bidx_same by lia. lia.
  - rewrite IH by lia. reflexivity.
Qed.

(* x - mean.view(shape), x / std.view(shape)...: the vector v laid along dimension d *)
Lemma ew2_bcast : forall f x d v,
  d < List.length (shape x) ->
  ew2 f x (mkT (ones_but (List.length (shape x)) d (nth d (shape x) 0)) v) = ROk (bcast x d v f).
Proof.
  intros f x d v Hd. unfold ew2, scalar0, ndim. cbn [shape data].
  destruct (ones_but (List.length (shape x)) d (nth d (shape x) 0)) as [|o os] eqn:E.
  { pose proof (length_ones_but (List.length (shape x)) d (nth d (shape x) 0)) as HL. rewrite E in HL. cbn in HL. lia. }
  rewrite <- E. rewrite length_ones_but, Nat.eqb_refl, bshape_ones_but by assumption.
  unfold bcast, tabulate. do 2 f_equal. apply map_ext_in. intros idx Hin. apply in_indices in Hin.
  rewrite (zipw_bidx_valid _ _ Hin). f_equal.
  unfold get at 1. cbn [shape data]. f_equal. apply ravel_ones_but.
  - apply (valid_length _ _ Hin).
  - assumption.
  - apply (valid_nth _ _ _ Hin Hd).
Qed.

(* mean.view(shape) for a vector *)
Lemma forallb_nonneg : forall l, forallb (fun z => (-1 <=? z)%Z) (map Z.of_nat l) = true.
Proof.
  induction l as [|n l IH]; [reflexivity|]. cbn [map forallb]. rewrite IH.
  replace (-1 <=? Z.of_nat n)%Z with true by lia. reflexivity.
Qed.

Lemma filter_m1_nonneg : forall l, filter (fun z => (z =? -1)%Z) (map Z.of_nat l) = [].
Proof.
  induction l as [|n l IH]; [reflexivity|]. cbn [map filter].
  replace (Z.of_nat n =? -1)%Z with false by lia. exact IH.
Qed.

Lemma zprod_of_nat : forall l, zprod (map Z.of_nat l) = Z.of_nat (prodn l).
Proof.
  induction l as [|n l IH]; [reflexivity|]. cbn [map]. unfold zprod in *. cbn [fold_right].
  rewrite IH, prodn_cons. lia.
Qed.

Lemma to_of_nat_list : forall l, map Z.to_nat (map Z.of_nat l) = l.
Proof. induction l as [|n l IH]; [reflexivity|]. cbn [map]. now rewrite IH, Nat2Z.id. Qed.

Lemma view_nat : forall x sh,
  OpsC18B.view x (map Z.of_nat sh) =
  if (prodn sh =? List.length (data x)) then ROk (mkT sh (data x)) else RRaise runtime_error.
Proof.
  intros x sh. unfold OpsC18B.view. rewrite forallb_nonneg, filter_m1_nonneg, zprod_of_nat, to_of_nat_list.
  destruct (Nat.eqb_spec (prodn sh) (List.length (data x))) as [E|E].
  - replace (Z.of_nat (prodn sh) =? Z.of_nat (List.length (data x)))%Z with true by lia. reflexivity.
  - replace (Z.of_nat (prodn sh) =? Z.of_nat (List.length (data x)))%Z with false by lia. reflexivity.
Qed.
