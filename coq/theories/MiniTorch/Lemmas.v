(* MiniTorch — the algebra of Ops.v / Value.v needed by the ties (no new definitions of meaning). *)
From Coq Require Import List ZArith QArith Bool Arith Lia.
From Coq Require String.
From PV Require Import MiniPy.Syntax MiniPy.Interp MiniTorch.Ops MiniTorch.Value.
Import ListNotations.
Local Open Scope Q_scope.

(* ---- lists ------------------------------------------------------------------------------ *)
Lemma length_flat_map_const : forall {A B} (g : A -> list B) l P,
  (forall a, List.In a l -> length (g a) = P) -> length (flat_map g l) = (length l * P)%nat.
Proof.
  induction l as [|a l IH]; intros P H; cbn [flat_map length]; [reflexivity|].
  rewrite app_length, (H a) by now left. rewrite (IH P) by (intros; apply H; now right). lia.
Qed.

Lemma nth_flat_map_const : forall {A B} (g : A -> list B) l P i r da db,
  (forall a, List.In a l -> length (g a) = P) -> (i < length l)%nat -> (r < P)%nat ->
  nth (i * P + r) (flat_map g l) db = nth r (g (nth i l da)) db.
Proof.
  induction l as [|a l IH]; intros P i r da db H Hi Hr; cbn [flat_map length] in *; [lia|].
  destruct i as [|i].
  - cbn [Nat.mul Nat.add nth]. rewrite app_nth1 by (rewrite (H a) by (now left); lia). reflexivity.
  - rewrite app_nth2 by (rewrite (H a) by (now left); lia).
    rewrite (H a) by now left.
    replace (S i * P + r - P)%nat with (i * P + r)%nat by lia.
    cbn [nth]. apply IH; [intros; apply H; now right|lia|lia].
Qed.

Lemma nth_map_seq : forall {A} (h : nat -> A) n i d, (i < n)%nat -> nth i (map h (seq 0 n)) d = h i.
Proof.
  intros A h n i d Hi. rewrite (nth_indep _ d (h 0%nat)) by now rewrite map_length, seq_length.
  rewrite map_nth, seq_nth by assumption. reflexivity.
Qed.

Lemma flat_map_singleton : forall {A B} (f : A -> B) l, flat_map (fun a => [f a]) l = map f l.
Proof. induction l as [|a l IH]; cbn; [reflexivity|now rewrite IH]. Qed.

Lemma map_flat_map : forall {A B C} (h : B -> C) (g : A -> list B) l,
  map h (flat_map g l) = flat_map (fun a => map h (g a)) l.
Proof. induction l as [|a l IH]; cbn; [reflexivity|]. now rewrite map_app, IH. Qed.

Lemma flat_map_ext_in : forall {A B} (f g : A -> list B) l,
  (forall a, List.In a l -> f a = g a) -> flat_map f l = flat_map g l.
Proof.
  induction l as [|a l IH]; intros H; cbn; [reflexivity|].
  rewrite (H a) by now left. rewrite IH by (intros; apply H; now right). reflexivity.
Qed.

(* ---- tab2 / getm ------------------------------------------------------------------------- *)
Lemma getm_tab2 : forall n m f i j, (i < n)%nat -> (j < m)%nat -> getm m (tab2 n m f) i j = f i j.
Proof.
  intros n m f i j Hi Hj. unfold getm, tab2. cbn [tdata].
  rewrite (nth_flat_map_const _ _ m i j 0%nat 0).
  - rewrite seq_nth by assumption. cbn [Nat.add]. now apply nth_map_seq.
  - intros a _. now rewrite map_length, seq_length.
  - now rewrite seq_length.
  - assumption.
Qed.

Lemma tab2_ext : forall n m f g,
  (forall i j, (i < n)%nat -> (j < m)%nat -> f i j = g i j) -> tab2 n m f = tab2 n m g.
Proof.
  intros n m f g H. unfold tab2. f_equal. apply flat_map_ext_in. intros i Hi. apply in_seq in Hi.
  apply map_ext_in. intros j Hj. apply in_seq in Hj. apply H; lia.
Qed.

Lemma tmap_tab2 : forall h n m f, tmap h (tab2 n m f) = tab2 n m (fun i j => h (f i j)).
Proof.
  intros h n m f. unfold tmap, tab2. cbn [tshape tdata]. f_equal. rewrite map_flat_map.
  apply flat_map_ext_in. intros i _. now rewrite map_map.
Qed.

Lemma in_tab2 : forall n m f q, List.In q (tdata (tab2 n m f)) ->
  exists i j, (i < n)%nat /\ (j < m)%nat /\ q = f i j.
Proof.
  intros n m f q H. unfold tab2 in H. cbn [tdata] in H. apply in_flat_map in H.
  destruct H as [i [Hi H]]. apply in_map_iff in H. destruct H as [j [E Hj]].
  apply in_seq in Hi. apply in_seq in Hj. exists i, j. repeat split; [lia|lia|now symmetry].
Qed.

(* ---- encoding ------------------------------------------------------------------------------ *)
Lemma dec_nats_enc : forall l, dec_nats (map (fun n => VInt (Z.of_nat n)) l) = Some l.
Proof.
  induction l as [|x l IH]; [reflexivity|]. cbn [map dec_nats].
  replace (0 <=? Z.of_nat x)%Z with true by (symmetry; apply Z.leb_le; lia).
  rewrite IH, Nat2Z.id. reflexivity.
Qed.

Lemma dec_qs_enc : forall l, dec_qs (map VQ l) = Some l.
Proof. induction l as [|x l IH]; [reflexivity|]. cbn [map dec_qs]. now rewrite IH. Qed.

Lemma dec_enc : forall t, dec (enc t) = Some t.
Proof.
  intros [sh d]. unfold dec, enc. cbn [tshape tdata]. rewrite String.eqb_refl, dec_nats_enc, dec_qs_enc.
  reflexivity.
Qed.

(* ---- the operations on tabulated arguments --------------------------------------------------- *)
Lemma unsqueeze_tab1_0 : forall n f, unsqueeze (tab1 n f) 0 = Some (tab2 1 n (fun _ j => f j)).
Proof.
  intros n f. unfold unsqueeze, tab1, tab2, dim. cbn [tshape tdata length].
  change (wrap_dim 2 0) with (Some 0%nat). cbn [firstn skipn app seq flat_map].
  now rewrite app_nil_r.
Qed.

Lemma unsqueeze_tab1_1 : forall n f, unsqueeze (tab1 n f) 1 = Some (tab2 n 1 (fun i _ => f i)).
Proof.
  intros n f. unfold unsqueeze, tab1, tab2, dim. cbn [tshape tdata length].
  change (wrap_dim 2 1) with (Some 1%nat). cbn [firstn skipn app seq map].
  now rewrite (flat_map_singleton f).
Qed.

Lemma bdim_same : forall n, bdim n n = Some n.
Proof. intros n. unfold bdim. now rewrite Nat.eqb_refl. Qed.

Lemma bdim_1_l : forall n, bdim 1 n = Some n.
Proof. intros n. unfold bdim. destruct (Nat.eqb_spec 1 n); [now subst|reflexivity]. Qed.

Lemma bdim_1_r : forall n, bdim n 1 = Some n.
Proof. intros n. unfold bdim. destruct (Nat.eqb_spec n 1); reflexivity. Qed.

Lemma bidx_same : forall n i, (i < n)%nat -> bidx n i = i.
Proof. intros n i H. unfold bidx. destruct (Nat.eqb_spec n 1); lia. Qed.

Lemma bidx_1 : forall i, bidx 1 i = 0%nat.
Proof. reflexivity. Qed.

Lemma bidx_lt_l : forall a b n i, bdim a b = Some n -> (i < n)%nat -> (bidx a i < a)%nat.
Proof.
  intros a b n i H Hi. unfold bdim in H. unfold bidx.
  destruct (Nat.eqb_spec a b); [inversion H; subst; destruct (Nat.eqb_spec n 1); lia|].
  destruct (Nat.eqb_spec a 1); [lia|].
  destruct (Nat.eqb_spec b 1); [inversion H; subst; lia|discriminate].
Qed.

Lemma bidx_lt_r : forall a b n i, bdim a b = Some n -> (i < n)%nat -> (bidx b i < b)%nat.
Proof.
  intros a b n i H Hi. unfold bdim in H. unfold bidx.
  destruct (Nat.eqb_spec a b); [inversion H; subst; destruct (Nat.eqb_spec n 1); lia|].
  destruct (Nat.eqb_spec a 1); [inversion H; subst; destruct (Nat.eqb_spec n 1); lia|].
  destruct (Nat.eqb_spec b 1); [lia|discriminate].
Qed.

Lemma broadcast2_tab2 : forall h na ma a nb mb b n m,
  bdim na nb = Some n -> bdim ma mb = Some m ->
  broadcast2 h (tab2 na ma a) (tab2 nb mb b) =
  Some (tab2 n m (fun i j => h (a (bidx na i) (bidx ma j)) (b (bidx nb i) (bidx mb j)))).
Proof.
  intros h na ma a nb mb b n m Hn Hm. unfold broadcast2.
  change (as2 (tab2 na ma a)) with (Some (na, ma)). change (as2 (tab2 nb mb b)) with (Some (nb, mb)).
  cbv beta iota. rewrite Hn, Hm. change (dim (tab2 na ma a)) with 2%nat. change (dim (tab2 nb mb b)) with 2%nat.
  cbn [Nat.max Nat.sub skipn]. f_equal.
  change (mkTens [n; m] (tdata (tab2 n m ?F))) with (tab2 n m F).
  apply tab2_ext. intros i j Hi Hj.
  rewrite !getm_tab2 by eauto using bidx_lt_l, bidx_lt_r. reflexivity.
Qed.

Lemma pow_scalar_tab2 : forall g n m f k,
  (forall i j, (i < n)%nat -> (j < m)%nat -> nat_of_q (f i j) = Some (k i j)) ->
  pow_scalar g (tab2 n m f) = Some (tab2 n m (fun i j => qpow g (k i j))).
Proof.
  intros g n m f k H. unfold pow_scalar.
  replace (forallb is_nat_q (tdata (tab2 n m f))) with true.
  - rewrite tmap_tab2. f_equal. apply tab2_ext. intros i j Hi Hj. now rewrite H.
  - symmetry. apply forallb_forall. intros q Hq. apply in_tab2 in Hq.
    destruct Hq as [i [j [Hi [Hj ->]]]]. unfold is_nat_q. now rewrite H.
Qed.

Lemma triu_tab2 : forall n m f, triu (tab2 n m f) = Some (tab2 n m (fun i j => if (i <=? j)%nat then f i j else 0)).
Proof.
  intros n m f. unfold triu. cbn [tab2 tshape]. f_equal. apply tab2_ext. intros i j Hi Hj.
  fold (tab2 n m f). now rewrite getm_tab2.
Qed.

Lemma tril_tab2 : forall n m f, tril (tab2 n m f) = Some (tab2 n m (fun i j => if (j <=? i)%nat then f i j else 0)).
Proof.
  intros n m f. unfold tril. cbn [tab2 tshape]. f_equal. apply tab2_ext. intros i j Hi Hj.
  fold (tab2 n m f). now rewrite getm_tab2.
Qed.

Lemma matmul_2d : forall a b n k m, tshape a = [n; k] -> tshape b = [k; m] ->
  matmul a b = Some (tab2 n m (fun i j => qsum (map (fun l => getm k a i l * getm m b l j) (seq 0 k)))).
Proof. intros a b n k m Ha Hb. unfold matmul. now rewrite Ha, Hb, Nat.eqb_refl. Qed.

(* ---- numbers ----------------------------------------------------------------------------------- *)
Lemma qsum_ext_in : forall {A} (f g : A -> Q) l, (forall a, List.In a l -> f a == g a) -> qsum (map f l) = qsum (map g l).
Proof.
  induction l as [|a l IH]; intros H; [reflexivity|]. cbn [map qsum fold_right].
  fold (qsum (map f l)). fold (qsum (map g l)).
  rewrite IH by (intros; apply H; now right). apply Qred_complete. rewrite (H a) by now left. reflexivity.
Qed.

Lemma Qred_inject_Z : forall z, Qred (inject_Z z) = inject_Z z.
Proof.
  intros z. unfold Qred, inject_Z.
  pose proof (Z.ggcd_gcd z 1) as Hg. pose proof (Z.ggcd_correct_divisors z 1) as Hd.
  destruct (Z.ggcd z 1) as [g [aa bb]]. cbn [fst snd] in *. rewrite Z.gcd_1_r in Hg. subst g.
  destruct Hd as [Ha Hb]. rewrite Z.mul_1_l in Ha, Hb. subst. reflexivity.
Qed.

Lemma nat_of_q_int : forall q z, q == inject_Z z -> (0 <= z)%Z -> nat_of_q q = Some (Z.to_nat z).
Proof.
  intros q z H Hz. unfold nat_of_q. rewrite (Qred_complete _ _ H), Qred_inject_Z. cbn [Qden Qnum inject_Z].
  replace (0 <=? z)%Z with true by (symmetry; now apply Z.leb_le). reflexivity.
Qed.

(* max(j - i, 0) on the integers arange produces is the truncated subtraction of naturals *)
Lemma nat_of_q_clamped_diff : forall a b,
  nat_of_q (qmax 0 (inject_Z (Z.of_nat a) - inject_Z (Z.of_nat b))) = Some (a - b)%nat.
Proof.
  intros a b.
  assert (E : qmax 0 (inject_Z (Z.of_nat a) - inject_Z (Z.of_nat b)) == inject_Z (Z.of_nat (a - b))).
  { unfold qmax. destruct (Qle_bool 0 (inject_Z (Z.of_nat a) - inject_Z (Z.of_nat b))) eqn:E.
    - apply Qle_bool_iff in E. unfold Qle, Qminus, Qplus, Qopp, inject_Z in E. cbn in E.
      unfold Qeq, Qminus, Qplus, Qopp, inject_Z. cbn. lia.
    - assert (~ 0 <= inject_Z (Z.of_nat a) - inject_Z (Z.of_nat b)) as N
        by (intros N; apply Qle_bool_iff in N; congruence).
      unfold Qle, Qminus, Qplus, Qopp, inject_Z in N. cbn in N.
      replace (a - b)%nat with 0%nat by lia. reflexivity. }
  rewrite (nat_of_q_int _ _ E) by lia. now rewrite Nat2Z.id.
Qed.
