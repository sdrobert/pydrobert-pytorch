(* MiniTorch, unit C02BSrc — the algebra of OpsC02B.v needed by the second C02 tie (no new definitions of meaning):
   rows of a flat list, Tensor.repeat on the two expansions of a 2-D reference, reshape / view of the ranks
   `minimum_error_rate_loss` meets, mean / sum on tabulated matrices, broadcasting a matrix against a column. *)
From Coq Require Import List ZArith QArith Bool Arith Lia.
From Coq Require String.
From PV Require Import MiniPy.Syntax MiniTorch.Ops MiniTorch.Lemmas MiniTorch.OpsC07 MiniTorch.LemmasC07 MiniTorch.OpsC01
  MiniTorch.LemmasC01 MiniTorch.OpsC02B.
Import ListNotations.
Local Open Scope nat_scope.

Definition rectw {X} (W : nat) (m : list (list X)) : Prop := forall row, List.In row m -> length row = W.

Lemma split_rows_length : forall {X} w n (l : list X), length (split_rows w n l) = n.
Proof. intros X w n. induction n as [|n IH]; intros l; cbn [split_rows length]; [reflexivity|now rewrite IH]. Qed.

Lemma split_rows_concat : forall {X} W (m : list (list X)), rectw W m -> split_rows W (length m) (concat m) = m.
Proof.
  intros X W m. induction m as [|row m IH]; intros H; [reflexivity|].
  cbn [length split_rows concat].
  assert (Hr : length row = W) by (apply H; now left).
  rewrite <- Hr, firstn_app, Nat.sub_diag, firstn_all, firstn_O, app_nil_r.
  rewrite skipn_app, Nat.sub_diag, skipn_all, skipn_O. cbn [app]. rewrite Hr. f_equal.
  apply IH. intros r Hin. apply H. now right.
Qed.

Lemma split_rows_1 : forall {X} (l : list X), split_rows 1 (length l) l = map (fun x => [x]) l.
Proof. intros X l. induction l as [|x l IH]; [reflexivity|]. cbn [length split_rows firstn skipn map]. now rewrite IH. Qed.

Lemma split_rows_map : forall {X Y} (f : X -> Y) w n (l : list X),
  split_rows w n (map f l) = map (map f) (split_rows w n l).
Proof.
  intros X Y f w n. induction n as [|n IH]; intros l; [reflexivity|].
  cbn [split_rows map]. now rewrite firstn_map, skipn_map, IH.
Qed.

Lemma concat_split_rows : forall {X} w n (l : list X), length l = n * w -> concat (split_rows w n l) = l.
Proof.
  intros X w n. induction n as [|n IH]; intros l H.
  - destruct l; [reflexivity|discriminate].
  - cbn [split_rows concat]. rewrite IH by (rewrite skipn_length; lia). apply firstn_skipn.
Qed.

Lemma length_concat_rect : forall {X} W (m : list (list X)), rectw W m -> length (concat m) = length m * W.
Proof.
  intros X W m. induction m as [|row m IH]; intros H; [reflexivity|].
  cbn [concat length]. rewrite app_length, IH by (intros r Hr; apply H; now right).
  rewrite (H row) by now left. lia.
Qed.

Lemma concat_concat_map : forall {X} (t : list (list (list X))), concat (map (@concat X) t) = concat (concat t).
Proof. intros X t. induction t as [|p t IH]; [reflexivity|]. cbn [map concat]. now rewrite concat_app, IH. Qed.

Lemma concat_rectw_tab2 : forall {X} (d : X) A B (m : list (list X)), length m = A -> rectw B m ->
  concat m = tab2 A B (fun i j => nth j (nth i m []) d).
Proof.
  intros X d A B m HA HB. subst A. induction m as [|row m IH]; [reflexivity|].
  cbn [concat length]. rewrite tab2_S. cbn [nth]. f_equal.
  - rewrite <- (HB row) by (now left). symmetry. clear. induction row as [|x row IH]; [reflexivity|].
    cbn [length seq map nth]. f_equal. rewrite <- seq_shift, map_map. exact IH.
  - apply IH. intros r Hr. apply HB. now right.
Qed.

Lemma rep_list_1 : forall {X} (l : list X), rep_list 1 l = l.
Proof. intros. unfold rep_list. cbn. apply app_nil_r. Qed.

Lemma rep_list_single : forall {X} k (x : X), rep_list k [x] = repeat x k.
Proof. intros X k x. unfold rep_list. induction k as [|k IH]; [reflexivity|]. cbn [repeat concat app]. now rewrite IH. Qed.

Lemma map_id_ext : forall {X} (f : X -> X) l, (forall x, f x = x) -> map f l = l.
Proof. intros X f l H. rewrite (map_ext f (fun x => x) H). apply map_id. Qed.

(* Tensor.repeat on the two expansions of a 2-D reference *)
(* (N, 1, R).repeat(1, M, 1): every row M times *)
Lemma repeat3_rows : forall {X} N R M (m : list (list X)), length m = N -> rectw R m ->
  repeat3 (mkTn [N; 1; R] (concat m)) 1 (Z.of_nat M) 1 =
  Some (mkTn [N; M; R] (concat (concat (map (fun s => repeat s M) m)))).
Proof.
  intros X N R M m HN HR. subst N. unfold repeat3. cbn [shp dat].
  replace ((1 <? 0)%Z || (Z.of_nat M <? 0)%Z || (1 <? 0)%Z) with false
    by (symmetry; apply orb_false_iff; split; [apply orb_false_iff; split|]; apply Z.ltb_ge; lia).
  rewrite Nat2Z.id. change (Z.to_nat 1) with 1. rewrite !Nat.mul_1_l, !Nat.mul_1_r.
  rewrite (split_rows_concat R m HR).
  rewrite (map_id_ext (rep_list 1)) by apply rep_list_1.
  rewrite split_rows_1, map_map. rewrite rep_list_1.
  do 4 f_equal. apply map_ext. intros s. apply rep_list_single.
Qed.

(* (R, N, 1).repeat(1, 1, M): every entry M times *)
Lemma repeat3_entries : forall {X} R N M (m : list (list X)), length m = R -> rectw N m ->
  repeat3 (mkTn [R; N; 1] (concat m)) 1 1 (Z.of_nat M) =
  Some (mkTn [R; N; M] (concat (concat (map (fun row => map (fun x => repeat x M) row) m)))).
Proof.
  intros X R N M m HR HN. subst R. unfold repeat3. cbn [shp dat].
  replace ((1 <? 0)%Z || (1 <? 0)%Z || (Z.of_nat M <? 0)%Z) with false
    by (symmetry; apply orb_false_iff; split; [apply orb_false_iff; split|]; apply Z.ltb_ge; lia).
  rewrite Nat2Z.id. change (Z.to_nat 1) with 1. rewrite !Nat.mul_1_l, !Nat.mul_1_r.
  rewrite <- (length_concat_rect N m HN), split_rows_1, map_map.
  rewrite (map_ext (fun x => rep_list M [x]) (fun x => repeat x M)) by (intros; apply rep_list_single).
  rewrite split_rows_map. rewrite (split_rows_concat N m HN).
  rewrite (map_id_ext (rep_list 1)) by apply rep_list_1. rewrite rep_list_1. reflexivity.
Qed.

(* the tests of view_shape on a size that comes from a nat *)
Lemma nat_ltb_m1 n : (Z.of_nat n <? -1)%Z = false.  Proof. apply Z.ltb_ge. lia. Qed.
Lemma nat_leb_0 n : (0 <=? Z.of_nat n)%Z = true.  Proof. apply Z.leb_le. lia. Qed.
Lemma nat_eqb_m1 n : (Z.of_nat n =? -1)%Z = false.  Proof. apply Z.eqb_neq. lia. Qed.

Lemma view_3_tail : forall {X} A B C (d : list X), C <> 0 ->
  view (mkTn [A; B; C] d) [(-1)%Z; Z.of_nat C] = Some (mkTn [A * B; C] d).
Proof.
  intros X A B C d HC. unfold view, view_shape. cbn [shp dat existsb filter map].
  rewrite nat_ltb_m1, nat_leb_0, nat_eqb_m1.
  cbn [orb Z.ltb Z.leb Z.eqb Z.compare filter map length numel]. rewrite Nat2Z.id.
  replace (C =? 0) with false by (symmetry; apply Nat.eqb_neq; exact HC).
  replace (A * (B * C)) with ((A * B) * C) by lia. rewrite Nat.mod_mul by exact HC. cbn [Nat.eqb option_map].
  rewrite Nat.div_mul by exact HC. reflexivity.
Qed.

Lemma view_3_head : forall {X} A B C (d : list X), A <> 0 ->
  view (mkTn [A; B; C] d) [Z.of_nat A; (-1)%Z] = Some (mkTn [A; B * C] d).
Proof.
  intros X A B C d HA. unfold view, view_shape. cbn [shp dat existsb filter map].
  rewrite nat_ltb_m1, nat_leb_0, nat_eqb_m1.
  cbn [orb Z.ltb Z.leb Z.eqb Z.compare filter map length numel]. rewrite Nat2Z.id.
  replace (A =? 0) with false by (symmetry; apply Nat.eqb_neq; exact HA).
  replace (A * (B * C)) with ((B * C) * A) by lia. rewrite Nat.mod_mul by exact HA. cbn [Nat.eqb option_map].
  rewrite Nat.div_mul by exact HA. reflexivity.
Qed.

Lemma view_1_2 : forall {X} N M (d : list X),
  view (mkTn [N * M] d) [Z.of_nat N; Z.of_nat M] = Some (mkTn [N; M] d).
Proof.
  intros X N M d. unfold view, view_shape. cbn [shp dat existsb filter map].
  rewrite !nat_ltb_m1, !nat_leb_0, !nat_eqb_m1.
  cbn [orb filter map length numel]. rewrite !Nat2Z.id, Nat.eqb_refl. reflexivity.
Qed.

Lemma broadcast_mat_col : forall {X Y W} (f : X -> Y -> W) dx dy A B g h,
  broadcast f dx dy (mkTn [A; B] (tab2 A B g)) (mkTn [A; 1] (map h (seq 0 A))) =
  Some (mkTn [A; B] (tab2 A B (fun i j => f (g i j) (h i)))).
Proof.
  intros. unfold broadcast. cbn [rank shp dat length Nat.max pad_shape Nat.sub repeat app bc_shape].
  rewrite bdim_refl, bdim_1_r. rewrite (bc_data_2 f dx dy A B A 1 A B) by (apply bdim_refl || apply bdim_1_r).
  do 2 f_equal. apply tab2_ext. intros i j Hi Hj. change (bidx 1 j) with 0.
  rewrite (bidx_same A i), (bidx_same B j) by assumption.
  replace (i * 1 + 0) with i by lia. now rewrite nth_tab2, nth_map_seq.
Qed.

Lemma mean_keep_rows : forall N M (g : nat -> nat -> fx),
  mean_keep (mkTn [N; M] (tab2 N M g)) 1 =
  Some (mkTn [N; 1] (map (fun n => fdiv (fsum (map (g n) (seq 0 M))) (z2f (Z.of_nat M))) (seq 0 N))).
Proof.
  intros N M g. unfold mean_keep. cbn [rank shp dat length].
  change (wrap_dim 2 1) with (Some 1).
  cbn [firstn skipn app extent nth inner outer numel]. rewrite tab2_col1. do 2 f_equal.
  apply map_ext_seq. intros n Hn. do 2 f_equal. unfold fibre. apply map_ext_seq. intros t Ht.
  replace ((n * M + t) * 1 + 0) with (n * M + t) by lia. now apply nth_tab2.
Qed.

Lemma numel_2 : forall N M, numel [N; M] = N * M.
Proof. reflexivity. Qed.
