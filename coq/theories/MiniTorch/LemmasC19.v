(* MiniTorch, unit C19 - the algebra of OpsC19.v needed by the C19 tie (no new definitions of meaning). *)
From Coq Require Import List ZArith QArith Bool Arith Lia.
From PV Require Import MiniTorch.Ops MiniTorch.Lemmas MiniTorch.OpsC19.
Import ListNotations.

(* ---- shapes, map2 ---------------------------------------------------------------------------------- *)
Lemma shape_eqb_refl : forall s, shape_eqb s s = true.
Proof. induction s as [|x s IH]; [reflexivity|]. cbn. now rewrite Nat.eqb_refl. Qed.

Lemma shape_eqb_eq : forall a b, shape_eqb a b = true -> a = b.
Proof.
  induction a as [|x a IH]; intros [|y b] H; try discriminate; [reflexivity|].
  cbn in H. apply andb_prop in H. destruct H as [H1 H2]. apply Nat.eqb_eq in H1. f_equal; auto.
Qed.

Lemma map2_length : forall f a b, length a = length b -> length (map2 f a b) = length a.
Proof. intros f a b H. unfold map2. rewrite map_length, combine_length. lia. Qed.

Lemma map2_cons : forall f x a y b, map2 f (x :: a) (y :: b) = f x y :: map2 f a b.
Proof. reflexivity. Qed.

Lemma map2_maps : forall {A B} f (g : A -> Q) (h : B -> Q) a b,
  map2 f (map g a) (map h b) = map (fun xy => f (g (fst xy)) (h (snd xy))) (combine a b).
Proof.
  intros A B f g h. induction a as [|x a IH]; intros [|y b]; try reflexivity.
  cbn [map]. rewrite map2_cons. cbn [combine map fst snd]. now rewrite IH.
Qed.

Lemma nth_map2 : forall f a b i, length a = length b -> (i < length a)%nat ->
  nth i (map2 f a b) 0%Q = f (nth i a 0%Q) (nth i b 0%Q).
Proof.
  intros f. induction a as [|x a IH]; intros [|y b] i Hl Hi; cbn [length] in *; try lia.
  rewrite map2_cons. destruct i; [reflexivity|]. cbn [nth]. apply IH; lia.
Qed.

(* ---- integers inside Q --------------------------------------------------------------------------------- *)
Lemma Qred_z : forall q z, (q == inject_Z z)%Q -> Qred q = inject_Z z.
Proof. intros q z H. rewrite <- (Qred_inject_Z z). now apply Qred_complete. Qed.

Lemma Qred_z_minus : forall a b, Qred (inject_Z a - inject_Z b) = inject_Z (a - b).
Proof. intros. apply Qred_z. unfold Qeq, Qminus, Qplus, Qopp, inject_Z. cbn. lia. Qed.

Lemma Qred_z_plus : forall a b, Qred (inject_Z a + inject_Z b) = inject_Z (a + b).
Proof. intros. apply Qred_z. unfold Qeq, Qplus, inject_Z. cbn. lia. Qed.

Lemma Qred_z_mult : forall a b, Qred (inject_Z a * inject_Z b) = inject_Z (a * b).
Proof. intros. apply Qred_z. unfold Qeq, Qmult, inject_Z. cbn. lia. Qed.

Lemma Qle_bool_z : forall a b, Qle_bool (inject_Z a) (inject_Z b) = (a <=? b)%Z.
Proof. intros. unfold Qle_bool, inject_Z. cbn. now rewrite !Z.mul_1_r. Qed.

Lemma Qeq_bool_z : forall a b, Qeq_bool (inject_Z a) (inject_Z b) = (a =? b)%Z.
Proof.
  intros. destruct (Z.eqb_spec a b) as [E|E].
  - subst. apply Qeq_bool_iff. reflexivity.
  - destruct (Qeq_bool (inject_Z a) (inject_Z b)) eqn:H; [|reflexivity].
    apply Qeq_bool_iff in H. unfold Qeq, inject_Z in H. cbn in H. lia.
Qed.

Lemma qmax_z : forall c x, qmax (inject_Z c) (inject_Z x) = inject_Z (Z.max x c).
Proof.
  intros. unfold qmax. rewrite Qle_bool_z. destruct (Z.leb_spec c x); f_equal; lia.
Qed.

Lemma qmin_z : forall c x, qmin (inject_Z c) (inject_Z x) = inject_Z (Z.min x c).
Proof.
  intros. unfold qmin. rewrite Qle_bool_z. destruct (Z.leb_spec x c); f_equal; lia.
Qed.

Lemma int_of_q_z : forall z, int_of_q (inject_Z z) = z.
Proof. intros. unfold int_of_q, inject_Z. cbn. apply Z.quot_1_r. Qed.

Lemma is_int_q_z : forall z, is_int_q (inject_Z z) = true.
Proof. intros. unfold is_int_q. rewrite int_of_q_z. apply Qeq_bool_iff. reflexivity. Qed.

Lemma qbool_z : forall b, qbool b = inject_Z (if b then 1 else 0).
Proof. destruct b; reflexivity. Qed.

Lemma qtrue_qbool : forall b, qtrue (qbool b) = b.
Proof. destruct b; reflexivity. Qed.

Lemma q_gt_z : forall a b, q_gt (inject_Z a) (inject_Z b) = (b <? a)%Z.
Proof. intros. unfold q_gt. rewrite Qle_bool_z. now rewrite Z.ltb_antisym. Qed.

Lemma q_lt_z : forall a b, q_lt (inject_Z a) (inject_Z b) = (a <? b)%Z.
Proof. intros. unfold q_lt. rewrite Qle_bool_z. now rewrite Z.ltb_antisym. Qed.

(* ---- max of a list of integers ------------------------------------------------------------------------ *)
Definition zmax1 (a : Z) (r : list Z) : Z := fold_left Z.max r a.

Lemma fold_left_qmax_z : forall r a, fold_left qmax (map inject_Z r) (inject_Z a) = inject_Z (zmax1 a r).
Proof.
  induction r as [|x r IH]; intros a; [reflexivity|]. cbn [map fold_left]. unfold zmax1. cbn [fold_left].
  rewrite qmax_z. rewrite IH. f_equal. unfold zmax1. f_equal. lia.
Qed.

Lemma max_all_z : forall sh a r, max_all (mkTens sh (map inject_Z (a :: r))) = Some (inject_Z (zmax1 a r)).
Proof. intros. unfold max_all. cbn [tdata map]. now rewrite fold_left_qmax_z. Qed.

Lemma zmax1_ge_init : forall r a, (a <= zmax1 a r)%Z.
Proof.
  induction r as [|x r IH]; intros a; unfold zmax1; cbn [fold_left]; [lia|].
  specialize (IH (Z.max a x)). unfold zmax1 in IH. lia.
Qed.

Lemma zmax1_cons : forall a y r, zmax1 a (y :: r) = zmax1 (Z.max a y) r.
Proof. reflexivity. Qed.

Lemma zmax1_ge : forall r a x, In x (a :: r) -> (x <= zmax1 a r)%Z.
Proof.
  induction r as [|y r IH]; intros a x H.
  - destruct H as [H|[]]. subst. unfold zmax1. cbn. lia.
  - rewrite zmax1_cons. pose proof (IH (Z.max a y) (Z.max a y) (or_introl eq_refl)) as Hm.
    destruct H as [H|[H|H]]; subst; try lia. apply IH. now right.
Qed.

Lemma zmax1_in : forall r a, In (zmax1 a r) (a :: r).
Proof.
  induction r as [|y r IH]; intros a; [now left|].
  rewrite zmax1_cons. destruct (IH (Z.max a y)) as [H|H].
  - rewrite <- H. destruct (Z.max_spec a y) as [[_ E]|[_ E]]; rewrite E; [right; now left|now left].
  - right. now right.
Qed.

(* ---- lists ---------------------------------------------------------------------------------------------- *)
Lemma in_range_b : forall t n, (0 <= t < n)%Z -> ((0 <=? t)%Z && (t <? n)%Z)%bool = true.
Proof. intros t n H. apply andb_true_intro. split; [apply Z.leb_le|apply Z.ltb_lt]; lia. Qed.

Lemma nth_map_lt : forall {A B} (f : A -> B) l j da db, (j < length l)%nat -> nth j (map f l) db = f (nth j l da).
Proof. intros. rewrite (nth_indep _ db (f da)) by now rewrite map_length. apply map_nth. Qed.

Lemma existsb_map' : forall {A B} (f : B -> bool) (g : A -> B) l, existsb f (map g l) = existsb (fun x => f (g x)) l.
Proof. induction l as [|x l IH]; [reflexivity|]. cbn. now rewrite IH. Qed.

Lemma existsb_ext' : forall {A} (f g : A -> bool) l, (forall x, f x = g x) -> existsb f l = existsb g l.
Proof. intros A f g l H. induction l as [|x l IH]; [reflexivity|]. cbn. now rewrite H, IH. Qed.

Lemma forallb_map' : forall {A B} (f : B -> bool) (g : A -> B) l, forallb f (map g l) = forallb (fun x => f (g x)) l.
Proof. induction l as [|x l IH]; [reflexivity|]. cbn. now rewrite IH. Qed.

Lemma forallb_true' : forall {A} (f : A -> bool) l, (forall x, f x = true) -> forallb f l = true.
Proof. intros A f l H. induction l as [|x l IH]; [reflexivity|]. cbn. now rewrite H, IH. Qed.

Lemma numel_app : forall a b, numel (a ++ b) = (numel a * numel b)%nat.
Proof.
  induction a as [|x a IH]; intros b.
  - cbn [app]. unfold numel at 2. cbn [fold_right]. lia.
  - change (numel ((x :: a) ++ b)) with (x * numel (a ++ b))%nat. change (numel (x :: a)) with (x * numel a)%nat. rewrite IH. lia.
Qed.

Lemma numel_cons : forall n sh, numel (n :: sh) = (n * numel sh)%nat.
Proof. reflexivity. Qed.

Lemma length_tab2 : forall n m f, length (tdata (tab2 n m f)) = (n * m)%nat.
Proof.
  intros. unfold tab2. cbn [tdata]. rewrite (length_flat_map_const _ _ m).
  - now rewrite seq_length.
  - intros a _. now rewrite map_length, seq_length.
Qed.

Lemma Qcompare_z : forall a b, (inject_Z a ?= inject_Z b)%Q = (a ?= b)%Z.
Proof. intros. unfold Qcompare, inject_Z. cbn. now rewrite !Z.mul_1_r. Qed.

Lemma length_concat_uniform : forall {A} (rows : list (list A)) N,
  Forall (fun r => length r = N) rows -> length (concat rows) = (length rows * N)%nat.
Proof.
  intros A rows N H. induction H as [|r rs Hr _ IH]; [reflexivity|]. cbn [concat length]. rewrite app_length, IH, Hr. lia.
Qed.
