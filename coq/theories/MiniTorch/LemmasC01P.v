(* MiniTorch, unit C01Src, second part — the algebra of OpsC01P.v (and of the OpsC07 / OpsC01 operations on the shapes the
   `return_prf_dsts` path of `_string_matching` meets) needed by the C01 prefix tie.  No new definitions of meaning. *)
From Coq Require Import List ZArith QArith Bool Arith Lia ZifyBool ZifyNat.
From PV Require Import MiniPy.Syntax MiniTorch.Ops MiniTorch.Lemmas MiniTorch.OpsC07 MiniTorch.LemmasC07 MiniTorch.OpsC01
  MiniTorch.LemmasC01 MiniTorch.OpsC01P.
Import ListNotations.
Local Open Scope nat_scope.

Lemma empty2_nat : forall g A B,
  empty2 g (Z.of_nat A) (Z.of_nat B) = Some (mkTn [A; B] (tab2 A B (fun i j => g (i * B + j)))).
Proof.
  intros. unfold empty2. replace ((Z.of_nat A <? 0) || (Z.of_nat B <? 0))%Z with false by lia.
  now rewrite !Nat2Z.id.
Qed.

(* x[t] = v on (A x B) with a row of B entries *)
Lemma set_select0_row : forall {X} A B (f : nat -> nat -> X) (h : nat -> X) t, t < A ->
  set_select0 (mkTn [A; B] (tab2 A B f)) (Z.of_nat t) (mkTn [B] (map h (seq 0 B))) =
  Some (Some (mkTn [A; B] (tab2 A B (fun i j => if i =? t then h j else f i j)))).
Proof.
  intros X A B f h t Ht. unfold set_select0. cbn [shp dat numel].
  replace (Z.of_nat t <? 0)%Z with false by lia.
  replace ((0 <=? Z.of_nat t) && (Z.of_nat t <? Z.of_nat A))%Z with true by lia.
  rewrite Nat2Z.id, nats_eqb_refl, length_row, Nat.eqb_refl. cbn [andb]. do 3 f_equal.
  replace A with (t + S (A - S t)) by lia.
  rewrite firstn_tab2.
  replace (S t * B) with ((t + 1) * B) by lia.
  replace (t + S (A - S t)) with ((t + 1) + (A - S t)) at 1 by lia. rewrite skipn_tab2.
  symmetry.
  replace (t + S (A - S t)) with (t + (1 + (A - S t))) by lia.
  assert (Hsplit : forall (F : nat -> nat -> X) a b, tab2 (a + b) B F = tab2 a B F ++ tab2 b B (fun i j => F (a + i) j)).
  { intros F a b. unfold tab2. rewrite seq_app, flat_map_app. f_equal. cbn [Nat.add].
    rewrite (seq_plus b a), flat_map_concat_map, map_map, <- flat_map_concat_map. reflexivity. }
  rewrite (Hsplit _ t), (Hsplit _ 1). f_equal; [|f_equal].
  - apply tab2_ext. intros i j Hi Hj. replace (i =? t) with false by lia. reflexivity.
  - rewrite tab2_1. apply map_ext_seq. intros j Hj. replace (t + 0 =? t) with true by lia. reflexivity.
  - apply tab2_ext. intros i j Hi Hj. replace (t + (1 + i) =? t) with false by lia. f_equal. lia.
Qed.

(* x[0] = v on a tensor without rows: IndexError *)
Lemma set_select0_empty : forall {X} B (d : list X) v, set_select0 (mkTn [0; B] d) 0 v = Some None.
Proof. reflexivity. Qed.

Lemma size_dim_2_0 : forall {X} A B (d : list X), size_dim (mkTn [A; B] d) 0 = Some A.
Proof. reflexivity. Qed.

Lemma arange_nat : forall n, arange (Z.of_nat n) = Some (mkTn [n] (map Z.of_nat (seq 0 n))).
Proof. intros. unfold arange. replace (Z.of_nat n <? 0)%Z with false by lia. now rewrite Nat2Z.id. Qed.

Lemma expand_as2_col : forall {X} (dflt : X) A B (g : nat -> X),
  expand_as2 dflt (mkTn [A; 1] (map g (seq 0 A))) [A; B] = Some (mkTn [A; B] (tab2 A B (fun i _ => g i))).
Proof. intros. unfold expand_as2. apply expand2_col. Qed.

(* (1 x B) against (A x B) *)
Lemma broadcast_1row_mat : forall {X Y W} (f : X -> Y -> W) dx dy A B g h,
  broadcast f dx dy (mkTn [1; B] (map g (seq 0 B))) (mkTn [A; B] (tab2 A B h)) =
  Some (mkTn [A; B] (tab2 A B (fun i j => f (g j) (h i j)))).
Proof.
  intros. apply (broadcast_2 f dx dy 1 B A B); [reflexivity | reflexivity | apply bdim_1_l | apply bdim_refl | ].
  intros i j Hi Hj. cbn [dat]. rewrite (bidx_same A i), (bidx_same B j) by assumption.
  now rewrite nth_tab2, nth_map_seq.
Qed.

Lemma where_1row_mat : forall A B c g h,
  where_f (mkTn [1; B] (map c (seq 0 B))) (mkTn [A; B] (tab2 A B g)) (mkTn [A; B] (tab2 A B h)) =
  Some (mkTn [A; B] (tab2 A B (fun i j => if c j then g i j else h i j))).
Proof. intros. unfold where_f. rewrite broadcast_1row_mat, broadcast_same2. reflexivity. Qed.

Lemma masked_fill_mat : forall {X} A B (f : nat -> nat -> X) m v,
  masked_fill (mkTn [A; B] (tab2 A B f)) (mkTn [A; B] (tab2 A B m)) v =
  Some (mkTn [A; B] (tab2 A B (fun i j => if m i j then v else f i j))).
Proof.
  intros. unfold masked_fill, zip_same. cbn [shp dat]. rewrite nats_eqb_refl. do 2 f_equal. apply zipw_tab2.
Qed.
