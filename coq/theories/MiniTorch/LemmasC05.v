(* MiniTorch, unit C05 — algebra of the operations of OpsC05.v on TABULATED tensors (no new definitions of
   semantics).  Core: [get d (tab sh f) ix = f ix] for a multi-index of the shape, extensionality of [tab],
   then each operation on tabulated arguments of the ranks the C05 tie meets. *)
From Coq Require Import List ZArith QArith Qcanon Bool Arith Lia ZifyBool ZifyNat.
From PV Require Import MiniTorch.Ops MiniTorch.OpsC05.
From PV Require MiniTorch.Lemmas.
Export MiniTorch.Lemmas(bdim_1_l, bdim_1_r, bidx_same, bidx_1).
Import ListNotations.
Local Open Scope nat_scope.

(* ---- lists ------------------------------------------------------------------------------------------ *)
Lemma flat_map_length_const {A B} (f : A -> list B) (l : list A) (c : nat) :
  (forall a, In a l -> List.length (f a) = c) -> List.length (flat_map f l) = List.length l * c.
Proof.
  induction l as [|a l IH]; intros H; [reflexivity|]. cbn [flat_map List.length]. rewrite app_length, IH, H.
  - lia.
  - now left.
  - intros b Hb. apply H. now right.
Qed.

Lemma nth_flat_map_seq {B} (f : nat -> list B) (c : nat) (d : B) :
  (forall i, List.length (f i) = c) ->
  forall n i p, i < n -> p < c -> nth (i * c + p) (flat_map f (seq 0 n)) d = nth p (f i) d.
Proof.
  intros Hc n.
  assert (G : forall s i p, i < n -> p < c -> nth (i * c + p) (flat_map f (seq s n)) d = nth p (f (s + i)) d).
  { induction n as [|n IH]; intros s i p Hi Hp; [lia|]. cbn [seq flat_map]. destruct i as [|i].
    - rewrite app_nth1 by (rewrite Hc; lia). now rewrite Nat.add_0_r.
    - rewrite app_nth2 by (rewrite Hc; lia). rewrite Hc. replace (S i * c + p - c) with (i * c + p) by lia.
      rewrite IH by lia. f_equal. f_equal. lia. }
  intros i p Hi Hp. now rewrite G.
Qed.

(* ---- multi-indices -------------------------------------------------------------------------------------- *)
Lemma indices_length sh : List.length (indices sh) = numel sh.
Proof.
  induction sh as [|n r IH]; [reflexivity|]. cbn [indices numel].
  rewrite (flat_map_length_const _ _ (numel r)).
  - now rewrite seq_length.
  - intros a _. now rewrite map_length.
Qed.

Lemma inb_ravel_lt sh : forall ix, inb sh ix = true -> ravel sh ix < numel sh.
Proof.
  induction sh as [|n r IH]; intros [|i ix] H; cbn in *; try discriminate; [lia|].
  apply andb_true_iff in H. destruct H as [H1 H2]. apply Nat.ltb_lt in H1. specialize (IH ix H2). nia.
Qed.

Lemma nth_indices_ravel sh : forall ix d, inb sh ix = true -> nth (ravel sh ix) (indices sh) d = ix.
Proof.
  induction sh as [|n r IH]; intros [|i ix] d H; cbn [inb] in H; try discriminate; [reflexivity|].
  apply andb_true_iff in H. destruct H as [H1 H2]. apply Nat.ltb_lt in H1. cbn [ravel indices].
  rewrite (nth_flat_map_seq _ (numel r)).
  - rewrite (nth_indep _ d (i :: d)) by (rewrite map_length, indices_length; now apply inb_ravel_lt).
    rewrite map_nth. f_equal. now apply IH.
  - intros j. now rewrite map_length, indices_length.
  - exact H1.
  - now apply inb_ravel_lt.
Qed.

Lemma in_indices_inb sh : forall ix, In ix (indices sh) -> inb sh ix = true.
Proof.
  induction sh as [|n r IH]; intros ix H; cbn in H.
  - destruct H as [<-|[]]. reflexivity.
  - apply in_flat_map in H. destruct H as [i [Hi H]]. apply in_map_iff in H. destruct H as [ix' [<- H]].
    apply in_seq in Hi. cbn [inb]. apply andb_true_iff. split; [apply Nat.ltb_lt; lia|now apply IH].
Qed.

Lemma get_tab {X} (d : X) sh f ix : inb sh ix = true -> get d (tab sh f) ix = f ix.
Proof.
  intros H. unfold get, tab. cbn [shp dat].
  rewrite (nth_indep _ d (f ix)) by (rewrite map_length, indices_length; now apply inb_ravel_lt).
  rewrite map_nth. f_equal. now apply nth_indices_ravel.
Qed.

Lemma tab_ext {X} sh (f g : list nat -> X) :
  (forall ix, inb sh ix = true -> f ix = g ix) -> tab sh f = tab sh g.
Proof. intros H. unfold tab. f_equal. apply map_ext_in. intros ix Hi. apply H. now apply in_indices_inb. Qed.

Lemma forallb_tab {X} (p : X -> bool) sh f :
  (forall ix, inb sh ix = true -> p (f ix) = true) -> forallb p (dat (tab sh f)) = true.
Proof.
  intros H. unfold tab. cbn [dat]. apply forallb_forall. intros x Hx. apply in_map_iff in Hx.
  destruct Hx as [ix [<- Hi]]. apply H. now apply in_indices_inb.
Qed.

Lemma tmap_tab {X Y} (g : X -> Y) sh f : tmap g (tab sh f) = tab sh (fun ix => g (f ix)).
Proof. unfold tmap, tab. cbn [shp dat]. now rewrite map_map. Qed.

Lemma shp_tab {X} sh (f : list nat -> X) : shp (tab sh f) = sh. Proof. reflexivity. Qed.

(* ---- tabulation by rank ---------------------------------------------------------------------------------- *)
Definition T1 {X} (a : nat) (F : nat -> X) : tn X := tab [a] (fun ix => F (at_ ix 0)).
Definition T2 {X} (a b : nat) (F : nat -> nat -> X) : tn X := tab [a; b] (fun ix => F (at_ ix 0) (at_ ix 1)).
Definition T3 {X} (a b c : nat) (F : nat -> nat -> nat -> X) : tn X :=
  tab [a; b; c] (fun ix => F (at_ ix 0) (at_ ix 1) (at_ ix 2)).
Definition T4 {X} (a b c e : nat) (F : nat -> nat -> nat -> nat -> X) : tn X :=
  tab [a; b; c; e] (fun ix => F (at_ ix 0) (at_ ix 1) (at_ ix 2) (at_ ix 3)).

Lemma inb_nil ix : inb [] ix = true -> ix = [].
Proof. destruct ix; [reflexivity|discriminate]. Qed.
Lemma inb_cons n r ix : inb (n :: r) ix = true -> exists i ix', ix = i :: ix' /\ i < n /\ inb r ix' = true.
Proof.
  destruct ix as [|i ix']; cbn [inb]; [discriminate|]. intros H. apply andb_true_iff in H. destruct H as [H1 H2].
  exists i, ix'. split; [reflexivity|]. split; [now apply Nat.ltb_lt|exact H2].
Qed.

Lemma inb1 a ix : inb [a] ix = true -> exists i, ix = [i] /\ i < a.
Proof.
  intros H. destruct (inb_cons _ _ _ H) as (i & r & -> & Hi & H1). apply inb_nil in H1. subst r. eauto.
Qed.
Lemma inb2 a b ix : inb [a; b] ix = true -> exists i j, ix = [i; j] /\ i < a /\ j < b.
Proof.
  intros H. destruct (inb_cons _ _ _ H) as (i & r & -> & Hi & H1). destruct (inb1 _ _ H1) as (j & -> & Hj). eauto.
Qed.
Lemma inb3 a b c ix : inb [a; b; c] ix = true -> exists i j k, ix = [i; j; k] /\ i < a /\ j < b /\ k < c.
Proof.
  intros H. destruct (inb_cons _ _ _ H) as (i & r & -> & Hi & H1). destruct (inb2 _ _ _ H1) as (j & k & -> & Hj & Hk).
  exists i, j, k. auto.
Qed.
Lemma inb4 a b c e ix : inb [a; b; c; e] ix = true ->
  exists i j k l, ix = [i; j; k; l] /\ i < a /\ j < b /\ k < c /\ l < e.
Proof.
  intros H. destruct (inb_cons _ _ _ H) as (i & r & -> & Hi & H1).
  destruct (inb3 _ _ _ _ H1) as (j & k & l & -> & Hj & Hk & Hl). exists i, j, k, l. auto.
Qed.

Lemma inb1_i a i : i < a -> inb [a] [i] = true.
Proof. intros. cbn. rewrite andb_true_r. now apply Nat.ltb_lt. Qed.
Lemma inb2_i a b i j : i < a -> j < b -> inb [a; b] [i; j] = true.
Proof. intros. cbn. rewrite andb_true_r. apply andb_true_iff. split; now apply Nat.ltb_lt. Qed.
Lemma inb3_i a b c i j k : i < a -> j < b -> k < c -> inb [a; b; c] [i; j; k] = true.
Proof. intros. cbn. rewrite andb_true_r. repeat (apply andb_true_iff; split); now apply Nat.ltb_lt. Qed.
Lemma inb4_i a b c e i j k l : i < a -> j < b -> k < c -> l < e -> inb [a; b; c; e] [i; j; k; l] = true.
Proof. intros. cbn. rewrite andb_true_r. repeat (apply andb_true_iff; split); now apply Nat.ltb_lt. Qed.

Lemma tab1_ext {X} a (f g : list nat -> X) : (forall i, i < a -> f [i] = g [i]) -> tab [a] f = tab [a] g.
Proof. intros H. apply tab_ext. intros ix Hi. destruct (inb1 _ _ Hi) as (i & -> & ?). now apply H. Qed.
Lemma tab2_ext {X} a b (f g : list nat -> X) :
  (forall i j, i < a -> j < b -> f [i; j] = g [i; j]) -> tab [a; b] f = tab [a; b] g.
Proof. intros H. apply tab_ext. intros ix Hi. destruct (inb2 _ _ _ Hi) as (i & j & -> & ? & ?). now apply H. Qed.
Lemma tab3_ext {X} a b c (f g : list nat -> X) :
  (forall i j k, i < a -> j < b -> k < c -> f [i; j; k] = g [i; j; k]) -> tab [a; b; c] f = tab [a; b; c] g.
Proof.
  intros H. apply tab_ext. intros ix Hi. destruct (inb3 _ _ _ _ Hi) as (i & j & k & -> & ? & ? & ?). now apply H.
Qed.
Lemma tab4_ext {X} a b c e (f g : list nat -> X) :
  (forall i j k l, i < a -> j < b -> k < c -> l < e -> f [i; j; k; l] = g [i; j; k; l]) ->
  tab [a; b; c; e] f = tab [a; b; c; e] g.
Proof.
  intros H. apply tab_ext. intros ix Hi. destruct (inb4 _ _ _ _ _ Hi) as (i & j & k & l & -> & ? & ? & ? & ?).
  now apply H.
Qed.

Lemma T1_ext {X} a (F G : nat -> X) : (forall i, i < a -> F i = G i) -> T1 a F = T1 a G.
Proof. intros H. apply tab1_ext. intros. now apply H. Qed.
Lemma T2_ext {X} a b (F G : nat -> nat -> X) : (forall i j, i < a -> j < b -> F i j = G i j) -> T2 a b F = T2 a b G.
Proof. intros H. apply tab2_ext. intros. now apply H. Qed.
Lemma T3_ext {X} a b c (F G : nat -> nat -> nat -> X) :
  (forall i j k, i < a -> j < b -> k < c -> F i j k = G i j k) -> T3 a b c F = T3 a b c G.
Proof. intros H. apply tab3_ext. intros. now apply H. Qed.
Lemma T4_ext {X} a b c e (F G : nat -> nat -> nat -> nat -> X) :
  (forall i j k l, i < a -> j < b -> k < c -> l < e -> F i j k l = G i j k l) -> T4 a b c e F = T4 a b c e G.
Proof. intros H. apply tab4_ext. intros. now apply H. Qed.

Lemma get_T1 {X} (d : X) a F i : i < a -> get d (T1 a F) [i] = F i.
Proof. intros. unfold T1. rewrite get_tab by (now apply inb1_i). reflexivity. Qed.
Lemma get_T2 {X} (d : X) a b F i j : i < a -> j < b -> get d (T2 a b F) [i; j] = F i j.
Proof. intros. unfold T2. rewrite get_tab by (now apply inb2_i). reflexivity. Qed.
Lemma get_T3 {X} (d : X) a b c F i j k : i < a -> j < b -> k < c -> get d (T3 a b c F) [i; j; k] = F i j k.
Proof. intros. unfold T3. rewrite get_tab by (now apply inb3_i). reflexivity. Qed.
Lemma get_T4 {X} (d : X) a b c e F i j k l :
  i < a -> j < b -> k < c -> l < e -> get d (T4 a b c e F) [i; j; k; l] = F i j k l.
Proof. intros. unfold T4. rewrite get_tab by (now apply inb4_i). reflexivity. Qed.


Lemma get_tab1 {X} (d : X) a f i : i < a -> get d (tab [a] f) [i] = f [i].
Proof. intros. apply get_tab. now apply inb1_i. Qed.
Lemma get_tab2 {X} (d : X) a b f i j : i < a -> j < b -> get d (tab [a; b] f) [i; j] = f [i; j].
Proof. intros. apply get_tab. now apply inb2_i. Qed.
Lemma get_tab3 {X} (d : X) a b c f i j k : i < a -> j < b -> k < c -> get d (tab [a; b; c] f) [i; j; k] = f [i; j; k].
Proof. intros. apply get_tab. now apply inb3_i. Qed.
Lemma get_tab4 {X} (d : X) a b c e f i j k l :
  i < a -> j < b -> k < c -> l < e -> get d (tab [a; b; c; e] f) [i; j; k; l] = f [i; j; k; l].
Proof. intros. apply get_tab. now apply inb4_i. Qed.
Lemma forallb_tab2 {X} (p : X -> bool) a b f :
  (forall i j, i < a -> j < b -> p (f [i; j]) = true) -> forallb p (dat (tab [a; b] f)) = true.
Proof. intros H. apply forallb_tab. intros ix Hi. destruct (inb2 _ _ _ Hi) as (i & j & -> & ? & ?). now apply H. Qed.
Lemma forallb_tab3 {X} (p : X -> bool) a b c f :
  (forall i j k, i < a -> j < b -> k < c -> p (f [i; j; k]) = true) -> forallb p (dat (tab [a; b; c] f)) = true.
Proof.
  intros H. apply forallb_tab. intros ix Hi. destruct (inb3 _ _ _ _ Hi) as (i & j & k & -> & ? & ? & ?). now apply H.
Qed.

Lemma forallb_T2 {X} (p : X -> bool) a b F :
  (forall i j, i < a -> j < b -> p (F i j) = true) -> forallb p (dat (T2 a b F)) = true.
Proof. intros H. apply forallb_tab. intros ix Hi. destruct (inb2 _ _ _ Hi) as (i & j & -> & ? & ?). now apply H. Qed.
Lemma forallb_T3 {X} (p : X -> bool) a b c F :
  (forall i j k, i < a -> j < b -> k < c -> p (F i j k) = true) -> forallb p (dat (T3 a b c F)) = true.
Proof.
  intros H. apply forallb_tab. intros ix Hi. destruct (inb3 _ _ _ _ Hi) as (i & j & k & -> & ? & ? & ?). now apply H.
Qed.

Lemma tmap_T1 {X Y} (g : X -> Y) a F : tmap g (T1 a F) = T1 a (fun i => g (F i)).
Proof. unfold T1. now rewrite tmap_tab. Qed.
Lemma tmap_T2 {X Y} (g : X -> Y) a b F : tmap g (T2 a b F) = T2 a b (fun i j => g (F i j)).
Proof. unfold T2. now rewrite tmap_tab. Qed.
Lemma tmap_T3 {X Y} (g : X -> Y) a b c F : tmap g (T3 a b c F) = T3 a b c (fun i j k => g (F i j k)).
Proof. unfold T3. now rewrite tmap_tab. Qed.
Lemma tmap_T4 {X Y} (g : X -> Y) a b c e F : tmap g (T4 a b c e F) = T4 a b c e (fun i j k l => g (F i j k l)).
Proof. unfold T4. now rewrite tmap_tab. Qed.

(* ---- broadcasting bits ---------------------------------------------------------------------------------- *)
Lemma bdim_refl a : bdim a a = Some a. Proof. unfold bdim. now rewrite Nat.eqb_refl. Qed.

(* ---- the operations on tabulated tensors ---------------------------------------------------------------- *)
Module M := PV.C05.Model.

Lemma wrap_nonneg D (d : nat) : d < D -> wrap_dim D (Z.of_nat d) = Some d.
Proof.
  intros H. unfold wrap_dim. replace ((- Z.of_nat D <=? Z.of_nat d)%Z && (Z.of_nat d <? Z.of_nat D)%Z) with true by lia.
  replace (Z.of_nat d <? 0)%Z with false by lia. now rewrite Nat2Z.id.
Qed.

Lemma nats_eqb_refl a : nats_eqb a a = true.
Proof. induction a as [|x a IH]; [reflexivity|]. cbn. now rewrite Nat.eqb_refl. Qed.

Lemma nat_sizes_of l : nat_sizes (map Z.of_nat l) = Some l.
Proof.
  unfold nat_sizes. replace (forallb (fun z => (0 <=? z)%Z) (map Z.of_nat l)) with true.
  - f_equal. rewrite map_map. rewrite <- (map_id l) at 2. apply map_ext. intros. apply Nat2Z.id.
  - symmetry. apply forallb_forall. intros z Hz. apply in_map_iff in Hz. destruct Hz as [n [<- _]]. lia.
Qed.

Lemma nat_sizes2 a b : nat_sizes [Z.of_nat a; Z.of_nat b] = Some [a; b]. Proof. apply (nat_sizes_of [a; b]). Qed.
Lemma nat_sizes3 a b c : nat_sizes [Z.of_nat a; Z.of_nat b; Z.of_nat c] = Some [a; b; c].
Proof. apply (nat_sizes_of [a; b; c]). Qed.

Ltac leb_true := repeat match goal with
  | H : ?a <= ?b |- context [?a <=? ?b] => replace (a <=? b) with true by (symmetry; apply Nat.leb_le; exact H)
  end.

(* constructors *)
Lemma full_T2 {X} a b (v : X) : full [Z.of_nat a; Z.of_nat b] v = Some (T2 a b (fun _ _ => v)).
Proof. unfold full. now rewrite nat_sizes2. Qed.
Lemma full_T3 {X} a b c (v : X) : full [Z.of_nat a; Z.of_nat b; Z.of_nat c] v = Some (T3 a b c (fun _ _ _ => v)).
Proof. unfold full. now rewrite nat_sizes3. Qed.

(* unsqueeze, all by the same steps: the dimension is in range, and a cell of the result is the cell of the argument
   with the new index dropped *)
Ltac unsq :=
  unfold unsqueeze, T1, T2, T3, T4; cbn [rank shp tab List.length];
  match goal with |- context [wrap_dim ?a ?b] => let v := eval lazy in (wrap_dim a b) in change (wrap_dim a b) with v end;
  cbv beta iota; f_equal; cbn [insert_at firstn skipn app]; first [apply tab2_ext | apply tab3_ext | apply tab4_ext]; intros;
  cbn [remove_at firstn skipn app at_ nth]; first [now rewrite get_tab1 | now rewrite get_tab2 | now rewrite get_tab3].
Lemma unsqueeze_T1_1 {X} (d : X) a F : unsqueeze d (T1 a F) 1 = Some (T2 a 1 (fun i _ => F i)).
Proof. unsq. Qed.
Lemma unsqueeze_T2_0 {X} (d : X) a b F : unsqueeze d (T2 a b F) 0 = Some (T3 1 a b (fun _ i j => F i j)).
Proof. unsq. Qed.
Lemma unsqueeze_T2_1 {X} (d : X) a b F : unsqueeze d (T2 a b F) 1 = Some (T3 a 1 b (fun i _ j => F i j)).
Proof. unsq. Qed.
Lemma unsqueeze_T2_2 {X} (d : X) a b F : unsqueeze d (T2 a b F) 2 = Some (T3 a b 1 (fun i j _ => F i j)).
Proof. unsq. Qed.
Lemma unsqueeze_T3_3 {X} (d : X) a b c F : unsqueeze d (T3 a b c F) 3 = Some (T4 a b c 1 (fun i j k _ => F i j k)).
Proof. unsq. Qed.

(* expand: sizes equal or the tensor's size 1 *)
Definition exp_ok (s s' : nat) : Prop := s = s' \/ s = 1.
Lemma exp_ok_b s s' : exp_ok s s' -> (s =? s') || (s =? 1) = true.
Proof. intros [->| ->]; [now rewrite Nat.eqb_refl|apply orb_true_r]. Qed.
Lemma exp_bidx s s' i : exp_ok s s' -> i < s' -> bidx s i < s.
Proof. intros [->| ->] H; [now rewrite bidx_same|cbn; lia]. Qed.

Lemma expand_T3 {X} (d : X) a b c a' b' c' F : exp_ok a a' -> exp_ok b b' -> exp_ok c c' ->
  expand d (T3 a b c F) [Z.of_nat a'; Z.of_nat b'; Z.of_nat c']
  = Some (T3 a' b' c' (fun i j k => F (bidx a i) (bidx b j) (bidx c k))).
Proof.
  unfold T2, T3, T4.
  intros Ha Hb Hc. unfold expand. rewrite nat_sizes3. cbn [rank shp T3 tab List.length Nat.eqb combine forallb fst snd andb].
  rewrite (exp_ok_b _ _ Ha), (exp_ok_b _ _ Hb), (exp_ok_b _ _ Hc). cbn [andb]. f_equal.
  apply tab3_ext. intros i j k Hi Hj Hk. cbn [zipw at_ nth].
  rewrite get_tab3; [reflexivity|eapply exp_bidx; eassumption..].
Qed.

(* transpose(0, 1) of a 3-D tensor *)
Lemma transpose_T3_01 {X} (d : X) a b c F : transpose d (T3 a b c F) 0 1 = Some (T3 b a c (fun i j k => F j i k)).
Proof.
  unfold transpose. unfold T2, T3, T4; cbn [rank shp tab List.length]. change (wrap_dim 3 0) with (Some 0). change (wrap_dim 3 1) with (Some 1). cbv beta iota.
  f_equal. cbn [swap_at set_at nth]. apply tab3_ext. intros i j k Hi Hj Hk. cbn [swap_at set_at nth at_].
  now rewrite get_tab3.
Qed.

(* view (a, b, c) -> (a, b * c) *)
Lemma view_merge_T3 {X} (d : X) a b c F : 0 < c ->
  view_merge d (T3 a b c F) [Z.of_nat a; (Z.of_nat b * Z.of_nat c)%Z]
  = Some (T2 a (b * c) (fun i r => F i (r / c) (r mod c))).
Proof.
  unfold T2, T3, T4.
  intros Hc. unfold view_merge. cbn [shp T3 tab]. rewrite <- Nat2Z.inj_mul, nat_sizes2. rewrite !Nat.eqb_refl. cbn [andb].
  f_equal. apply tab2_ext. intros i r Hi Hr. cbn [at_ nth]. rewrite get_tab3; [reflexivity|exact Hi| |].
  - apply Nat.div_lt_upper_bound; lia.
  - apply Nat.mod_upper_bound. lia.
Qed.

(* cat *)
(* cat, all by the same steps: the other sizes agree; a cell of the result is a cell of the first or of the second *)
Ltac cat :=
  unfold cat2, T2, T3; cbn [rank shp tab List.length];
  match goal with |- context [wrap_dim ?a ?b] => let v := eval lazy in (wrap_dim a b) in change (wrap_dim a b) with v end;
  cbv beta iota; cbn [remove_at firstn skipn app nats_eqb Nat.eqb nth set_at]; rewrite !Nat.eqb_refl; cbn [andb]; f_equal;
  first [apply tab2_ext | apply tab3_ext]; intros; cbn [at_ nth set_at];
  match goal with |- context [?x <? ?y] => destruct (Nat.ltb_spec x y) end;
  first [rewrite get_tab2 by lia | rewrite get_tab3 by lia]; reflexivity.
Lemma cat2_T2_1 {X} (d : X) a b b' F G :
  cat2 d (T2 a b F) (T2 a b' G) 1 = Some (T2 a (b + b') (fun i j => if j <? b then F i j else G i (j - b))).
Proof. cat. Qed.
Lemma cat2_T3_0 {X} (d : X) a a' b c F G :
  cat2 d (T3 a b c F) (T3 a' b c G) 0 = Some (T3 (a + a') b c (fun i j k => if i <? a then F i j k else G (i - a) j k)).
Proof. cat. Qed.
Lemma cat2_T3_1 {X} (d : X) a b b' c F G :
  cat2 d (T3 a b c F) (T3 a b' c G) 1 = Some (T3 a (b + b') c (fun i j k => if j <? b then F i j k else G i (j - b) k)).
Proof. cat. Qed.
Lemma cat2_T3_2 {X} (d : X) a b c c' F G :
  cat2 d (T3 a b c F) (T3 a b c' G) 2 = Some (T3 a b (c + c') (fun i j k => if k <? c then F i j k else G i j (k - c))).
Proof. cat. Qed.

(* gather *)
Lemma zin_true n z : (0 <= z < Z.of_nat n)%Z -> zin n z = true.
Proof. intros H. unfold zin. lia. Qed.

(* gather, all by the same steps: shapes fit, indices in range; a cell of the result reads the argument at the index *)
Ltac gath :=
  intros; unfold gather, T2, T3; cbn [rank shp tab List.length];
  match goal with |- context [wrap_dim ?a ?b] => let v := eval lazy in (wrap_dim a b) in change (wrap_dim a b) with v end;
  cbv beta iota; cbn [Nat.eqb remove_at firstn skipn app combine forallb fst snd nth]; leb_true; cbn [andb];
  match goal with HG : forall _, _ |- _ =>
    first [rewrite forallb_tab2 by (intros; apply zin_true; now apply HG)
          |rewrite forallb_tab3 by (intros; apply zin_true; now apply HG)];
    f_equal; first [apply tab2_ext; intros i j Hi Hj; specialize (HG i j Hi Hj)
                   |apply tab3_ext; intros i j k Hi Hj Hk; specialize (HG i j k Hi Hj Hk)]
  end;
  rewrite ?get_tab2, ?get_tab3 by assumption; cbn [set_at at_ nth];
  first [rewrite get_tab2 by lia | rewrite get_tab3 by lia]; reflexivity.
Lemma gather_T2_1 {X} (d : X) a b a' b' F G : a' <= a ->
  (forall i j, i < a' -> j < b' -> (0 <= G i j < Z.of_nat b)%Z) ->
  gather d (T2 a b F) 1 (T2 a' b' G) = Some (T2 a' b' (fun i j => F i (Z.to_nat (G i j)))).
Proof. gath. Qed.
Lemma gather_T3_0 {X} (d : X) a b c a' b' c' F G : b' <= b -> c' <= c ->
  (forall i j k, i < a' -> j < b' -> k < c' -> (0 <= G i j k < Z.of_nat a)%Z) ->
  gather d (T3 a b c F) 0 (T3 a' b' c' G) = Some (T3 a' b' c' (fun i j k => F (Z.to_nat (G i j k)) j k)).
Proof. gath. Qed.
Lemma gather_T3_1 {X} (d : X) a b c a' b' c' F G : a' <= a -> c' <= c ->
  (forall i j k, i < a' -> j < b' -> k < c' -> (0 <= G i j k < Z.of_nat b)%Z) ->
  gather d (T3 a b c F) 1 (T3 a' b' c' G) = Some (T3 a' b' c' (fun i j k => F i (Z.to_nat (G i j k)) k)).
Proof. gath. Qed.
Lemma gather_T3_2 {X} (d : X) a b c a' b' c' F G : a' <= a -> b' <= b ->
  (forall i j k, i < a' -> j < b' -> k < c' -> (0 <= G i j k < Z.of_nat c)%Z) ->
  gather d (T3 a b c F) 2 (T3 a' b' c' G) = Some (T3 a' b' c' (fun i j k => F i j (Z.to_nat (G i j k)))).
Proof. gath. Qed.

(* scatter with a single index layer *)
Lemma scatter_value_T3_2 {X} (d : X) a b c F G v :
  (forall i j, i < a -> j < b -> (0 <= G i j 0%nat < Z.of_nat c)%Z) ->
  scatter_value d (T3 a b c F) 2 (T3 a b 1 G) v
  = Some (T3 a b c (fun i j k => if k =? Z.to_nat (G i j 0) then v else F i j k)).
Proof.
  intros HG. unfold scatter_value, scatter_with. unfold T2, T3, T4; cbn [rank shp tab List.length]. change (wrap_dim 3 2) with (Some 2). cbv beta iota.
  cbn [Nat.ltb Nat.leb set_at nth]. rewrite nats_eqb_refl. cbn [andb].
  rewrite forallb_tab3 by (intros i j k Hi Hj Hk; apply zin_true; replace k with 0 by lia; now apply HG). f_equal.
  apply tab3_ext. intros i j k Hi Hj Hk. cbn [set_at at_ nth]. rewrite get_tab3 by (assumption || lia).
  now rewrite get_tab3.
Qed.
Lemma scatter_src_T3_0 {X} (d : X) a b c F G S :
  (forall j k, j < b -> k < c -> (0 <= G 0%nat j k < Z.of_nat a)%Z) ->
  scatter_src d (T3 a b c F) 0 (T3 1 b c G) (T3 1 b c S)
  = Some (T3 a b c (fun i j k => if i =? Z.to_nat (G 0 j k) then S 0 j k else F i j k)).
Proof.
  unfold T2, T3, T4.
  intros HG. unfold scatter_src. cbn [shp T3 tab]. rewrite nats_eqb_refl. unfold scatter_with.
  cbn [rank shp tab List.length]. change (wrap_dim 3 0) with (Some 0). cbv beta iota.
  cbn [Nat.ltb Nat.leb set_at nth]. rewrite nats_eqb_refl. cbn [andb].
  rewrite forallb_tab3 by (intros i j k Hi Hj Hk; apply zin_true; replace i with 0 by lia; now apply HG). f_equal.
  apply tab3_ext. intros i j k Hi Hj Hk. cbn [set_at at_ nth]. rewrite !get_tab3 by (assumption || lia).
  reflexivity.
Qed.

(* one_hot of a 3-D tensor *)
Lemma one_hot_T3 a b c n G : 1 <= n ->
  (forall i j k, i < a -> j < b -> k < c -> (0 <= G i j k < Z.of_nat n)%Z) ->
  one_hot (T3 a b c G) (Z.of_nat n)
  = Some (T4 a b c n (fun i j k l => if l =? Z.to_nat (G i j k) then 1%Z else 0%Z)).
Proof.
  unfold T2, T3, T4.
  intros Hn HG. unfold one_hot. replace (1 <=? Z.of_nat n)%Z with true by lia. rewrite Nat2Z.id.
  rewrite forallb_tab3 by (intros; apply zin_true; now apply HG). cbn [andb shp T3 tab app]. f_equal.
  apply tab4_ext. intros i j k l Hi Hj Hk Hl. cbn [last removelast at_ nth].
  now rewrite get_tab3.
Qed.

(* where on equal shapes *)
Lemma where_T2 {X} (d : X) a b C F G :
  where_ d (T2 a b C) (T2 a b F) (T2 a b G) = Some (T2 a b (fun i j => if C i j then F i j else G i j)).
Proof.
  unfold T2, T3, T4.
  unfold where_. cbn [shp T2 tab]. rewrite nats_eqb_refl. cbn [andb]. f_equal. apply tab2_ext. intros i j Hi Hj.
  cbn [at_ nth]. now rewrite !get_tab2.
Qed.

(* reductions *)
Lemma fsum_T3_1 a b c F :
  fsum (T3 a b c F) 1 = Some (T2 a c (fun i k => fold_right M.madd (M.Fin 0%Qc) (map (fun j => F i j k) (seq 0 b)))).
Proof.
  unfold fsum. unfold T2, T3, T4; cbn [rank shp tab List.length]. change (wrap_dim 3 1) with (Some 1). cbv beta iota. f_equal.
  cbn [remove_at firstn skipn app nth]. apply tab2_ext. intros i k Hi Hk. cbn [at_ nth]. f_equal.
  apply map_ext_in. intros j Hj. apply in_seq in Hj. cbn [insert_at firstn skipn app].
  rewrite get_tab3; [reflexivity|exact Hi|lia|exact Hk].
Qed.
Lemma bany_T4_2 a b c e F :
  bany (T4 a b c e F) 2 = Some (T3 a b e (fun i j l => existsb (fun k => F i j k l) (seq 0 c))).
Proof.
  unfold bany. unfold T3, T4; cbn [rank shp tab List.length]. change (wrap_dim 4 2) with (Some 2). cbv beta iota. f_equal.
  cbn [remove_at firstn skipn app nth]. apply tab3_ext. intros i j l Hi Hj Hl. cbn [at_ nth].
  assert (E : forall s, (forall k, In k s -> k < c) ->
    existsb (fun t => get false (tab [a; b; c; e] (fun ix => F (at_ ix 0) (at_ ix 1) (at_ ix 2) (at_ ix 3))) (insert_at 2 t [i; j; l])) s
    = existsb (fun k => F i j k l) s).
  { induction s as [|k s IH]; intros Hs; [reflexivity|]. cbn [existsb]. rewrite IH by (intros; apply Hs; now right).
    f_equal. cbn [insert_at firstn skipn app]. rewrite get_tab4; [reflexivity|exact Hi|exact Hj|apply Hs; now left|exact Hl]. }
  apply E. intros k Hk. apply in_seq in Hk. lia.
Qed.

(* element-wise with broadcasting, equal ranks *)
Lemma bdim_bidx_l a1 a2 a i : bdim a1 a2 = Some a -> i < a -> bidx a1 i < a1.
Proof.
  unfold bdim, bidx. destruct (Nat.eqb_spec a1 a2) as [->|]; [intros [= ->] H; destruct (Nat.eqb_spec a 1); lia|].
  destruct (Nat.eqb_spec a1 1) as [->|]; [intros; lia|]. destruct (Nat.eqb_spec a2 1) as [->|]; [intros [= ->] H; lia|discriminate].
Qed.
Lemma bdim_bidx_r a1 a2 a i : bdim a1 a2 = Some a -> i < a -> bidx a2 i < a2.
Proof.
  unfold bdim, bidx. destruct (Nat.eqb_spec a1 a2) as [->|]; [intros [= ->] H; destruct (Nat.eqb_spec a 1); lia|].
  destruct (Nat.eqb_spec a1 1) as [->|].
  - intros [= ->] H. destruct (Nat.eqb_spec a 1); lia.
  - destruct (Nat.eqb_spec a2 1) as [->|]; [intros; lia|discriminate].
Qed.

Lemma zipb_T2 {X Y W} (dx : X) (dy : Y) (f : X -> Y -> W) a1 b1 a2 b2 a b F G :
  bdim a1 a2 = Some a -> bdim b1 b2 = Some b ->
  zipb dx dy f (T2 a1 b1 F) (T2 a2 b2 G)
  = Some (T2 a b (fun i j => f (F (bidx a1 i) (bidx b1 j)) (G (bidx a2 i) (bidx b2 j)))).
Proof.
  unfold T2, T3, T4.
  intros Ha Hb. unfold zipb. cbn [shp T2 tab bc_shape]. rewrite Ha, Hb. f_equal.
  apply tab2_ext. intros i j Hi Hj. cbn [zipw at_ nth].
  rewrite !get_tab2; eauto using bdim_bidx_l, bdim_bidx_r.
Qed.
Lemma zipb_T3 {X Y W} (dx : X) (dy : Y) (f : X -> Y -> W) a1 b1 c1 a2 b2 c2 a b c F G :
  bdim a1 a2 = Some a -> bdim b1 b2 = Some b -> bdim c1 c2 = Some c ->
  zipb dx dy f (T3 a1 b1 c1 F) (T3 a2 b2 c2 G)
  = Some (T3 a b c (fun i j k => f (F (bidx a1 i) (bidx b1 j) (bidx c1 k)) (G (bidx a2 i) (bidx b2 j) (bidx c2 k)))).
Proof.
  unfold T2, T3, T4.
  intros Ha Hb Hc. unfold zipb. cbn [shp T3 tab bc_shape]. rewrite Ha, Hb, Hc. f_equal.
  apply tab3_ext. intros i j k Hi Hj Hk. cbn [zipw at_ nth].
  rewrite !get_tab3; eauto using bdim_bidx_l, bdim_bidx_r.
Qed.
Lemma zipb_T4 {X Y W} (dx : X) (dy : Y) (f : X -> Y -> W) a1 b1 c1 e1 a2 b2 c2 e2 a b c e F G :
  bdim a1 a2 = Some a -> bdim b1 b2 = Some b -> bdim c1 c2 = Some c -> bdim e1 e2 = Some e ->
  zipb dx dy f (T4 a1 b1 c1 e1 F) (T4 a2 b2 c2 e2 G)
  = Some (T4 a b c e (fun i j k l => f (F (bidx a1 i) (bidx b1 j) (bidx c1 k) (bidx e1 l))
                                      (G (bidx a2 i) (bidx b2 j) (bidx c2 k) (bidx e2 l)))).
Proof.
  unfold T2, T3, T4.
  intros Ha Hb Hc He. unfold zipb. cbn [shp T4 tab bc_shape]. rewrite Ha, Hb, Hc, He. f_equal.
  apply tab4_ext. intros i j k l Hi Hj Hk Hl. cbn [zipw at_ nth].
  rewrite !get_tab4; eauto using bdim_bidx_l, bdim_bidx_r.
Qed.

Lemma masked_fill_T2 {X} (d : X) a b a2 b2 F G v : bdim a a2 = Some a -> bdim b b2 = Some b ->
  masked_fill d (T2 a b F) (T2 a2 b2 G) v
  = Some (T2 a b (fun i j => if G (bidx a2 i) (bidx b2 j) then v else F (bidx a i) (bidx b j))).
Proof.
  intros Ha Hb. unfold masked_fill. rewrite (zipb_T2 _ _ _ _ _ _ _ a b) by assumption.
  unfold T2. cbn [shp tab]. now rewrite nats_eqb_refl.
Qed.
Lemma masked_fill_T3 {X} (d : X) a b c a2 b2 c2 F G v : bdim a a2 = Some a -> bdim b b2 = Some b -> bdim c c2 = Some c ->
  masked_fill d (T3 a b c F) (T3 a2 b2 c2 G) v
  = Some (T3 a b c (fun i j k => if G (bidx a2 i) (bidx b2 j) (bidx c2 k) then v else F (bidx a i) (bidx b j) (bidx c k))).
Proof.
  intros Ha Hb Hc. unfold masked_fill. rewrite (zipb_T3 _ _ _ _ _ _ _ _ _ a b c) by assumption.
  unfold T3. cbn [shp tab]. now rewrite nats_eqb_refl.
Qed.

(* topk with the oracle's answers *)
Lemma topk_T2 sel a m k F :
  k <= m ->
  (forall i, i < a -> List.length (sel i (map (F i) (seq 0 m)) k) = k /\
                      forall j, In j (sel i (map (F i) (seq 0 m)) k) -> j < m) ->
  topk sel (T2 a m F) (Z.of_nat k) 1
  = Some (T2 a k (fun i j => F i (nth j (sel i (map (F i) (seq 0 m)) k) 0)),
          T2 a k (fun i j => Z.of_nat (nth j (sel i (map (F i) (seq 0 m)) k) 0))).
Proof.
  unfold T2, T3, T4.
  intros Hk Hs. unfold topk. cbn [shp T2 tab]. change (wrap_dim 2 1) with (Some 1). cbv beta iota.
  replace ((0 <=? Z.of_nat k)%Z && (Z.of_nat k <=? Z.of_nat m)%Z) with true by lia. rewrite Nat2Z.id.
 
  assert (Er : forall i, i < a -> map (fun j => get M.NegInf (tab [a; m] (fun ix => F (at_ ix 0) (at_ ix 1))) [i; j]) (seq 0 m)
                                 = map (F i) (seq 0 m)).
  { intros i Hi. apply map_ext_in. intros j Hj. apply in_seq in Hj. rewrite get_tab2; [reflexivity|exact Hi|lia]. }
  replace (forallb _ (seq 0 a)) with true.
  - f_equal. f_equal.
    + apply tab2_ext. intros i j Hi Hj. cbn [at_ nth]. rewrite (Er i Hi). destruct (Hs i Hi) as [Hl Hin].
      rewrite get_tab2; [reflexivity|exact Hi|]. apply Hin. apply nth_In. now rewrite Hl.
    + apply tab2_ext. intros i j Hi Hj. cbn [at_ nth]. now rewrite (Er i Hi).
  - symmetry. apply forallb_forall. intros i Hi. apply in_seq in Hi. rewrite (Er i) by lia.
    destruct (Hs i) as [Hl Hin]; [lia|]. rewrite Hl, Nat.eqb_refl. cbn [andb]. apply forallb_forall.
    intros j Hj. apply Nat.ltb_lt. now apply Hin.
Qed.

(* ---- the broadcasting patterns the function uses ------------------------------------------------------ *)
(* the general lemma instantiated, what is left is that the broadcast index of a cell is 0 (size 1) or the cell's own *)
Ltac bcast :=
  f_equal; first [apply T2_ext | apply T3_ext | apply T4_ext]; intros; rewrite ?bidx_1; now rewrite ?bidx_same by assumption.
Lemma zipb_T2_same {X Y W} (dx : X) (dy : Y) (f : X -> Y -> W) a b F G :
  zipb dx dy f (T2 a b F) (T2 a b G) = Some (T2 a b (fun i j => f (F i j) (G i j))).
Proof.
  rewrite (zipb_T2 _ _ _ a b a b a b) by apply bdim_refl. bcast.
Qed.
Lemma zipb_T2_col {X Y W} (dx : X) (dy : Y) (f : X -> Y -> W) a b F G :
  zipb dx dy f (T2 a b F) (T2 a 1 G) = Some (T2 a b (fun i j => f (F i j) (G i 0))).
Proof.
  rewrite (zipb_T2 _ _ _ a b a 1 a b) by (apply bdim_refl || apply bdim_1_r). bcast.
Qed.
Lemma zipb_T3_same {X Y W} (dx : X) (dy : Y) (f : X -> Y -> W) a b c F G :
  zipb dx dy f (T3 a b c F) (T3 a b c G) = Some (T3 a b c (fun i j k => f (F i j k) (G i j k))).
Proof.
  rewrite (zipb_T3 _ _ _ a b c a b c a b c) by apply bdim_refl. bcast.
Qed.
Lemma zipb_T3_last1 {X Y W} (dx : X) (dy : Y) (f : X -> Y -> W) a b c F G :
  zipb dx dy f (T3 a b c F) (T3 a b 1 G) = Some (T3 a b c (fun i j k => f (F i j k) (G i j 0))).
Proof.
  rewrite (zipb_T3 _ _ _ a b c a b 1 a b c) by (apply bdim_refl || apply bdim_1_r). bcast.
Qed.
Lemma zipb_T3_outer {X Y W} (dx : X) (dy : Y) (f : X -> Y -> W) a b c F G :
  zipb dx dy f (T3 a b 1 F) (T3 a 1 c G) = Some (T3 a b c (fun i j k => f (F i j 0) (G i 0 k))).
Proof.
  rewrite (zipb_T3 _ _ _ a b 1 a 1 c a b c) by (apply bdim_refl || apply bdim_1_r || apply bdim_1_l). bcast.
Qed.
Lemma zipb_T4_last1 {X Y W} (dx : X) (dy : Y) (f : X -> Y -> W) a b c e F G :
  zipb dx dy f (T4 a b c e F) (T4 a b c 1 G) = Some (T4 a b c e (fun i j k l => f (F i j k l) (G i j k 0))).
Proof.
  rewrite (zipb_T4 _ _ _ a b c e a b c 1 a b c e) by (apply bdim_refl || apply bdim_1_r). bcast.
Qed.
Lemma masked_fill_T2_same {X} (d : X) a b F G v :
  masked_fill d (T2 a b F) (T2 a b G) v = Some (T2 a b (fun i j => if G i j then v else F i j)).
Proof.
  rewrite masked_fill_T2 by apply bdim_refl. bcast.
Qed.
Lemma masked_fill_T3_same {X} (d : X) a b c F G v :
  masked_fill d (T3 a b c F) (T3 a b c G) v = Some (T3 a b c (fun i j k => if G i j k then v else F i j k)).
Proof.
  rewrite masked_fill_T3 by apply bdim_refl. bcast.
Qed.
Lemma masked_fill_T3_last1 {X} (d : X) a b c F G v :
  masked_fill d (T3 a b c F) (T3 a b 1 G) v = Some (T3 a b c (fun i j k => if G i j 0 then v else F i j k)).
Proof.
  rewrite masked_fill_T3 by (apply bdim_refl || apply bdim_1_r). bcast.
Qed.

(* expand patterns *)
Lemma expand_T3_last {X} (d : X) a b c F :
  expand d (T3 a b 1 F) [Z.of_nat a; Z.of_nat b; Z.of_nat c] = Some (T3 a b c (fun i j _ => F i j 0)).
Proof.
  rewrite expand_T3 by (unfold exp_ok; auto). bcast.
Qed.
Lemma expand_T3_first {X} (d : X) a b c F :
  expand d (T3 1 b c F) [Z.of_nat a; Z.of_nat b; Z.of_nat c] = Some (T3 a b c (fun _ j k => F 0 j k)).
Proof.
  rewrite expand_T3 by (unfold exp_ok; auto). bcast.
Qed.
Lemma expand_T3_mid {X} (d : X) a b c F :
  expand d (T3 a 1 c F) [Z.of_nat a; Z.of_nat b; Z.of_nat c] = Some (T3 a b c (fun i _ k => F i 0 k)).
Proof.
  rewrite expand_T3 by (unfold exp_ok; auto). bcast.
Qed.

Lemma fold_madd_fin (g : nat -> Qc) l :
  fold_right M.madd (M.Fin 0%Qc) (map (fun k => M.Fin (g k)) l) = M.Fin (M.qsum (map g l)).
Proof. induction l as [|x l IH]; [reflexivity|]. cbn [map fold_right]. rewrite IH. reflexivity. Qed.
Lemma zipb_T3_last1_l {X Y W} (dx : X) (dy : Y) (f : X -> Y -> W) a b c F G :
  zipb dx dy f (T3 a b 1 F) (T3 a b c G) = Some (T3 a b c (fun i j k => f (F i j 0) (G i j k))).
Proof.
  rewrite (zipb_T3 _ _ _ a b 1 a b c a b c) by (apply bdim_refl || apply bdim_1_l). bcast.
Qed.
