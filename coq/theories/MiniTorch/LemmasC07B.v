(* MiniTorch, unit C07B - the algebra of OpsC07B.v needed by the second C07 tie (no new definitions of meaning): each
   operation on tabulated arguments of the ranks `ctc_greedy_search`, `random_walk_advance` and
   `_sequence_log_probs_ps` meet. *)
From Coq Require Import List ZArith QArith Bool Arith Lia.
From Coq Require String.
From PV Require Import MiniPy.Syntax MiniTorch.Ops MiniTorch.Lemmas MiniTorch.OpsC07 MiniTorch.LemmasC07 MiniTorch.OpsC01
  MiniTorch.LemmasC01 MiniTorch.OpsC07B.
Import ListNotations.
Local Open Scope nat_scope.

(* ---- tabulated data -------------------------------------------------------------------------------------------- *)
Lemma tab2_col1 : forall {X} N (F : nat -> nat -> X), tab2 N 1 F = map (fun n => F n 0) (seq 0 N).
Proof. intros. unfold tab2. cbn [seq map]. apply flat_map_singleton. Qed.

Lemma tab1_as_tab2 : forall {X} N (F : nat -> X), map F (seq 0 N) = tab2 N 1 (fun n _ => F n).
Proof. intros. now rewrite tab2_col1. Qed.

Lemma tab3_inner1 : forall {X} A B (F : nat -> nat -> nat -> X), tab3 A B 1 F = tab2 A B (fun a b => F a b 0).
Proof.
  intros. unfold tab3, tab2. apply flat_map_ext_seq. intros a Ha. cbn [seq map]. apply flat_map_singleton.
Qed.

Lemma tab2_as_map : forall {X} N T (G : nat -> X), map G (seq 0 (N * T)) = tab2 N T (fun n t => G (n * T + t)).
Proof. intros. unfold tab2. apply seq_mul. Qed.

Lemma length_tab2 : forall {X} N T (f : nat -> nat -> X), length (tab2 N T f) = N * T.
Proof. intros. unfold tab2. apply length_plane. Qed.

Lemma nth_tab2' : forall {X} N T (f : nat -> nat -> X) n t d, n < N -> t < T -> nth ((n * T + t) * 1 + 0) (tab2 N T f) d = f n t.
Proof. intros. replace ((n * T + t) * 1 + 0) with (n * T + t) by lia. now apply nth_tab2. Qed.

Lemma forallb_tab2 : forall {X} (p : X -> bool) N T f,
  (forall n t, n < N -> t < T -> p (f n t) = true) -> forallb p (tab2 N T f) = true.
Proof.
  intros X p N T f H. apply forallb_forall. intros x Hx. unfold tab2 in Hx.
  apply in_flat_map in Hx. destruct Hx as [n [Hn Hx]]. apply in_map_iff in Hx. destruct Hx as [t [<- Ht]].
  apply in_seq in Hn, Ht. apply H; lia.
Qed.

Lemma forallb_map_seq : forall {X} (p : X -> bool) N f, (forall n, n < N -> p (f n) = true) -> forallb p (map f (seq 0 N)) = true.
Proof.
  intros X p N f H. apply forallb_forall. intros x Hx. apply in_map_iff in Hx. destruct Hx as [n [<- Hn]].
  apply in_seq in Hn. apply H. lia.
Qed.

Lemma tab2_rows : forall {X} N T (f : nat -> nat -> X), tab2 N T f = concat (map (fun n => map (f n) (seq 0 T)) (seq 0 N)).
Proof. intros. unfold tab2. now rewrite flat_map_concat_map. Qed.

(* ---- shape / data movement ---------------------------------------------------------------------------------------- *)
Lemma transpose01_3 : forall {X} (d : X) A B C g,
  transpose01 d (mkTn [A; B; C] (tab3 A B C g)) = Some (mkTn [B; A; C] (tab3 B A C (fun j i k => g i j k))).
Proof.
  intros. unfold transpose01. cbn [shp dat numel]. do 2 f_equal. apply tab3_ext. intros j i k Hj Hi Hk. now apply nth_tab3.
Qed.

Lemma transpose01_2 : forall {X} (d : X) A B g,
  transpose01 d (mkTn [A; B] (tab2 A B g)) = Some (mkTn [B; A] (tab2 B A (fun j i => g i j))).
Proof.
  intros. unfold transpose01. cbn [shp dat numel]. rewrite tab3_inner1. do 2 f_equal. apply tab2_ext.
  intros j i Hj Hi. now apply nth_tab2'.
Qed.

(* x[:, 1:] *)
Lemma slice_cols_from1 : forall {X} (d : X) N T g,
  slice_cols d (mkTn [N; T] (tab2 N T g)) (Some 1%Z) None = Some (mkTn [N; T - 1] (tab2 N (T - 1) (fun n j => g n (S j)))).
Proof.
  intros. unfold slice_cols. cbn [shp dat norm_bound]. change (1 <? 0)%Z with false. cbv iota.
  change (Z.to_nat 1) with 1. replace (T - Nat.min T 1) with (T - 1) by lia. do 2 f_equal.
  apply tab2_ext. intros n j Hn Hj. replace (Nat.min T 1) with 1 by lia.
  replace (n * T + (1 + j)) with (n * T + S j) by lia. apply nth_tab2; lia.
Qed.

(* x[:, :-1] *)
Lemma slice_cols_to_m1 : forall {X} (d : X) N T g,
  slice_cols d (mkTn [N; T] (tab2 N T g)) None (Some (-1)%Z) = Some (mkTn [N; T - 1] (tab2 N (T - 1) (fun n j => g n j))).
Proof.
  intros. unfold slice_cols. cbn [shp dat norm_bound]. change (-1 <? 0)%Z with true. cbv iota.
  replace (Z.to_nat (Z.max 0 (-1 + Z.of_nat T)) - 0) with (T - 1) by lia. do 2 f_equal.
  apply tab2_ext. intros n j Hn Hj. cbn [Nat.add]. apply nth_tab2; lia.
Qed.

(* x[:, :1] *)
Lemma slice_cols_to1 : forall {X} (d : X) N T g,
  slice_cols d (mkTn [N; T] (tab2 N T g)) None (Some 1%Z) = Some (mkTn [N; Nat.min T 1] (tab2 N (Nat.min T 1) (fun n j => g n j))).
Proof.
  intros. unfold slice_cols. cbn [shp dat norm_bound]. change (1 <? 0)%Z with false. cbv iota.
  change (Z.to_nat 1) with 1. rewrite Nat.sub_0_r. do 2 f_equal.
  apply tab2_ext. intros n j Hn Hj. cbn [Nat.add]. apply nth_tab2; lia.
Qed.

(* torch.cat([x[:, :1], y], 1) with y of T - 1 columns: T columns again *)
Lemma cat2_first_rest : forall {X} (d : X) N T g1 g2,
  cat2 d (mkTn [N; Nat.min T 1] (tab2 N (Nat.min T 1) g1)) (mkTn [N; T - 1] (tab2 N (T - 1) g2)) 1 =
  Some (mkTn [N; T] (tab2 N T (fun n j => if j <? 1 then g1 n j else g2 n (j - 1)))).
Proof.
  intros. unfold cat2. cbn [shp dat]. change (wrap_dim 2 1) with (Some 1). cbv iota. rewrite Nat.eqb_refl.
  replace (Nat.min T 1 + (T - 1)) with T by lia. do 2 f_equal.
  apply tab2_ext. intros n j Hn Hj.
  destruct (Nat.ltb_spec j (Nat.min T 1)), (Nat.ltb_spec j 1); try lia.
  - apply nth_tab2; lia.
  - replace (j - Nat.min T 1) with (j - 1) by lia. apply nth_tab2; lia.
Qed.

(* torch.cat([y (S x N), row (1 x N)], 0) *)
Lemma cat2_rows : forall {X} (d : X) R N g1 g2,
  cat2 d (mkTn [R; N] (tab2 R N g1)) (mkTn [1; N] (tab2 1 N g2)) 0 =
  Some (mkTn [R + 1; N] (tab2 (R + 1) N (fun r n => if r <? R then g1 r n else g2 0 n))).
Proof.
  intros. unfold cat2. cbn [shp dat]. change (wrap_dim 2 0) with (Some 0). cbv iota. rewrite Nat.eqb_refl.
  do 2 f_equal. unfold tab2. rewrite seq_app, flat_map_app. f_equal.
  - apply flat_map_ext_seq. intros r Hr. replace (r <? R) with true by (symmetry; apply Nat.ltb_lt; lia). reflexivity.
  - cbn [seq flat_map Nat.add]. rewrite Nat.ltb_irrefl. reflexivity.
Qed.

(* ---- element-wise ------------------------------------------------------------------------------------------------- *)
(* arange(T).unsqueeze(0) < lens.unsqueeze(1): (1 x T) against (N x 1) *)
Lemma lt_t_row_col : forall N T (f g : nat -> Z),
  lt_t (mkTn [1; T] (map f (seq 0 T))) (mkTn [N; 1] (map g (seq 0 N))) =
  Some (mkTn [N; T] (tab2 N T (fun n t => Z.ltb (f t) (g n)))).
Proof.
  intros. unfold lt_t, broadcast. cbn [rank shp dat length Nat.max pad_shape Nat.sub repeat app bc_shape].
  rewrite !bdim_1_l, !bdim_1_r. rewrite (bc_data_2 _ _ _ 1 T N 1 N T) by (apply bdim_1_l || apply bdim_1_r).
  do 2 f_equal. apply tab2_ext. intros n t Hn Ht. change (bidx 1 n) with 0. change (bidx 1 t) with 0.
  rewrite (bidx_same N n), (bidx_same T t) by assumption. cbn [Nat.mul Nat.add].
  replace (n * 1 + 0) with n by lia. now rewrite !nth_map_seq.
Qed.

(* arange(N).unsqueeze(1) < batch_sizes: (N x 1) against (L) *)
Lemma lt_t_col_vec : forall N L (f g : nat -> Z),
  lt_t (mkTn [N; 1] (map f (seq 0 N))) (mkTn [L] (map g (seq 0 L))) =
  Some (mkTn [N; L] (tab2 N L (fun n t => Z.ltb (f n) (g t)))).
Proof.
  intros. unfold lt_t, broadcast. cbn [rank shp dat length Nat.max pad_shape Nat.sub repeat app bc_shape].
  rewrite !bdim_1_l, !bdim_1_r. rewrite (bc_data_2 _ _ _ N 1 1 L N L) by (apply bdim_1_l || apply bdim_1_r).
  do 2 f_equal. apply tab2_ext. intros n t Hn Ht. change (bidx 1 n) with 0. change (bidx 1 t) with 0.
  rewrite (bidx_same N n), (bidx_same L t) by assumption. cbn [Nat.mul Nat.add].
  replace (n * 1 + 0) with n by lia. now rewrite !nth_map_seq.
Qed.

(* ---- reductions ------------------------------------------------------------------------------------------------------ *)
Lemma row_of_tab3 : forall {X} (d : X) N T V f n t, n < N -> t < T ->
  row_of d V (tab3 N T V f) (n * T + t) = map (f n t) (seq 0 V).
Proof. intros. unfold row_of. apply map_ext_seq. intros v Hv. now apply nth_tab3. Qed.

Lemma row_of_tab2 : forall {X} (d : X) N V f n, n < N -> row_of d V (tab2 N V f) n = map (f n) (seq 0 V).
Proof. intros. unfold row_of. apply map_ext_seq. intros v Hv. now apply nth_tab2. Qed.

Lemma max_last_3 : forall N T V f, V <> 0 ->
  max_last (mkTn [N; T; V] (tab3 N T V f)) 2 =
  Some (Some (mkTn [N; T] (tab2 N T (fun n t => fst (xargmax (map (f n t) (seq 0 V))))),
              mkTn [N; T] (tab2 N T (fun n t => Z.of_nat (snd (xargmax (map (f n t) (seq 0 V)))))))).
Proof.
  intros N T V f HV. unfold max_last. cbn [rank shp dat length]. change (wrap_dim 3 2) with (Some 2).
  cbn [Nat.eqb last removelast numel]. replace (V =? 0) with false by (symmetry; now apply Nat.eqb_neq).
  rewrite !tab2_as_map. do 3 f_equal; f_equal; apply tab2_ext; intros n t Hn Ht; now rewrite row_of_tab3.
Qed.

Lemma sum_long_2 : forall N T g,
  sum_long (mkTn [N; T] (tab2 N T g)) 1 =
  Some (mkTn [N] (map (fun n => fold_right Z.add 0%Z (map (g n) (seq 0 T))) (seq 0 N))).
Proof.
  intros. unfold sum_long. cbn [rank shp dat length]. change (wrap_dim 2 1) with (Some 1).
  cbv beta iota zeta. cbn [outer extent inner drop_dim firstn skipn nth numel app]. rewrite tab2_col1. do 2 f_equal.
  apply map_ext_seq. intros n Hn. f_equal. unfold fibre. apply map_ext_seq. intros t Ht. now apply nth_tab2'.
Qed.

Lemma sum_dim_2 : forall N T g,
  sum_dim (mkTn [N; T] (tab2 N T g)) 1 =
  Some (mkTn [N] (map (fun n => fold_right xadd xzero (map (g n) (seq 0 T))) (seq 0 N))).
Proof.
  intros. unfold sum_dim. cbn [rank shp dat length]. change (wrap_dim 2 1) with (Some 1).
  cbv beta iota zeta. cbn [outer extent inner drop_dim firstn skipn nth numel app]. rewrite tab2_col1. do 2 f_equal.
  apply map_ext_seq. intros n Hn. f_equal. unfold fibre. apply map_ext_seq. intros t Ht. now apply nth_tab2'.
Qed.

Lemma prod_dim_2 : forall N T g, (forall n t, n < N -> t < T -> is_fin (g n t) = true) ->
  prod_dim (mkTn [N; T] (tab2 N T g)) 1 =
  Some (mkTn [N] (map (fun n => fold_right xmul xone (map (g n) (seq 0 T))) (seq 0 N))).
Proof.
  intros N T g H. unfold prod_dim. cbn [rank shp dat length]. change (wrap_dim 2 1) with (Some 1).
  cbv beta iota zeta. cbn [outer extent inner drop_dim firstn skipn nth numel app].
  rewrite forallb_tab2 by assumption. rewrite tab2_col1. do 2 f_equal.
  apply map_ext_seq. intros n Hn. f_equal. unfold fibre. apply map_ext_seq. intros t Ht. now apply nth_tab2'.
Qed.
