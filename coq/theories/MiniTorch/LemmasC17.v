(* MiniTorch, unit C17Src - facts about the operations of OpsC17 (no new definitions of semantics):
   the operations on tensors given by their constructors, Python slices of lists, stack / cumsum. *)
From Coq Require Import List ZArith Bool Arith Lia ZifyBool ZifyNat.
From PV Require Import MiniTorch.OpsC17.
Import ListNotations.
Local Open Scope Z_scope.

(* ---- the operations on constructor forms (all by computation) ---- *)
Lemma zeros1_1 : zeros1 1 = Some (L1 [0]).
Proof. reflexivity. Qed.
Lemma ucc_L1 : forall v, unique_consecutive_counts (L1 v) = Some (L1 (map fst (runs v)), L1 (map snd (runs v))).
Proof. reflexivity. Qed.
Lemma cat1_2 : forall a b, cat1 [L1 a; L1 b] = Some (a ++ b).
Proof. intros. cbn. now rewrite app_nil_r. Qed.
Lemma cumsum_L1 : forall v, cumsum (L1 v) 0 = Some (L1 (cumsum_from 0 v)).
Proof. reflexivity. Qed.
Lemma get_slice1_L1 : forall v a b, get_slice1 (L1 v) a b = Some (L1 (slice_list a b v)).
Proof. reflexivity. Qed.
Lemma stack_last_3 : forall a b c,
  stack_last [L1 a; L1 b; L1 c]
  = if (Nat.eqb (length b) (length a) && (Nat.eqb (length c) (length a) && true))%bool
    then Some (L2 3 (transpose (length a) [a; b; c])) else None.
Proof. reflexivity. Qed.
Lemma ndim_L1 : forall v, ndim (L1 v) = 1%nat. Proof. reflexivity. Qed.
Lemma ndim_L2 : forall w rows, ndim (L2 w rows) = 2%nat. Proof. reflexivity. Qed.
Lemma size_L2_0 : forall w rows, size (L2 w rows) 0 = Some (length rows). Proof. reflexivity. Qed.
Lemma size_L2_1 : forall w rows, size (L2 w rows) 1 = Some w. Proof. reflexivity. Qed.
Lemma size_L1_0 : forall v, size (L1 v) 0 = Some (length v). Proof. reflexivity. Qed.
Lemma shape_L2 : forall w rows, shape (L2 w rows) = [length rows; w]. Proof. reflexivity. Qed.
Lemma shape_L1 : forall v, shape (L1 v) = [length v]. Proof. reflexivity. Qed.
Lemma numel_L1 : forall v, numel (L1 v) = length v.
Proof. intros. unfold numel. cbn. lia. Qed.
Lemma get_block_L2 : forall w rows a b c d,
  get_block (L2 w rows) a b c d = Some (L2 (slice_len c d w) (map (slice_list c d) (slice_list a b rows))).
Proof. reflexivity. Qed.
Lemma compare_L2_Z : forall k w rows z,
  compare k (OT (L2 w rows)) (OZ z) = Some (B2 w (map (map (fun e => zcmp k e z)) rows)).
Proof. intros. destruct w as [|[|w]]; reflexivity. Qed.
Lemma compare_L1_L1 : forall k x y,
  compare k (OT (L1 x)) (OT (L1 y)) = if Nat.eqb (length x) (length y) then Some (B1 (map2 (zcmp k) x y)) else None.
Proof. reflexivity. Qed.
Lemma compare_L1_Z : forall k x z, compare k (OT (L1 x)) (OZ z) = Some (B1 (map (fun e => zcmp k e z) x)).
Proof. reflexivity. Qed.
Lemma compare_Z_L1 : forall k z y, compare k (OZ z) (OT (L1 y)) = Some (B1 (map (zcmp k z) y)).
Proof. reflexivity. Qed.
Lemma compare_L21_L1 : forall k rows y,
  compare k (OT (L2 1 rows)) (OT (L1 y)) = Some (B2 (length y) (map (fun r => map (zcmp k (hd 0 r)) y) rows)).
Proof. reflexivity. Qed.
Lemma any_B1 : forall x, any (B1 x) = Some (existsb (fun b => b) x). Proof. reflexivity. Qed.
Lemma any_B2 : forall w rows, any (B2 w rows) = Some (existsb (existsb (fun b => b)) rows). Proof. reflexivity. Qed.
Lemma all_dim1_B2 : forall w rows, all_dim1 (B2 w rows) = Some (B1 (map (forallb (fun b => b)) rows)).
Proof. reflexivity. Qed.
Lemma sub_L1 : forall x y, sub (L1 x) (L1 y) = if Nat.eqb (length x) (length y) then Some (L1 (map2 Z.sub x y)) else None.
Proof. reflexivity. Qed.
Lemma and_B1 : forall x y,
  logical_and (B1 x) (B1 y) = if Nat.eqb (length x) (length y) then Some (B1 (map2 andb x y)) else None.
Proof. reflexivity. Qed.
Lemma invert_B1 : forall x, invert (B1 x) = Some (B1 (map negb x)). Proof. reflexivity. Qed.
Lemma ones_like_B1 : forall x, ones_like (B1 x) = Some (B1 (map (fun _ => true) x)). Proof. reflexivity. Qed.
Lemma long_B1 : forall x, long (B1 x) = Some (L1 (map (fun b : bool => if b then 1 else 0) x)). Proof. reflexivity. Qed.
Lemma square_L1 : forall x, square (L1 x) = Some (L1 (map (fun z => z * z) x)). Proof. reflexivity. Qed.
Lemma unsqueeze1_L1 : forall x, unsqueeze1 (L1 x) = Some (L2 1 (map (fun z => [z]) x)). Proof. reflexivity. Qed.
Lemma sum_L1 : forall x, sum (L1 x) = Some (fold_right Z.add 0 x). Proof. reflexivity. Qed.
Lemma nonzero_B1 : forall x, nonzero (B1 x) = Some (L2 1 (map (fun i => [i]) (true_positions 0 x))). Proof. reflexivity. Qed.
Lemma flatten_L2 : forall w rows, flatten (L2 w rows) = Some (L1 (concat rows)). Proof. reflexivity. Qed.
Lemma tolist_L1 : forall x, tolist (L1 x) = Some x. Proof. reflexivity. Qed.
Lemma masked_L1 : forall v k, masked (L1 v) (B1 k) = if Nat.eqb (length v) (length k) then Some (L1 (select v k)) else None.
Proof. reflexivity. Qed.
Lemma repeat_interleave_L1 : forall x c,
  repeat_interleave (L1 x) (L1 c)
  = if Nat.eqb (length x) (length c) then
      Some (if existsb (fun n => n <? 0) c then None
            else Some (L1 (concat (map2 (fun v n => repeat v (Z.to_nat n)) x c))))
    else None.
Proof. reflexivity. Qed.

(* ---- Python slices of lists ---- *)
Lemma slice_all : forall A (l : list A), slice_list None None l = l.
Proof.
  intros. unfold slice_list, slice_lo, slice_hi. cbn [skipn]. rewrite Nat.sub_0_r. apply firstn_all.
Qed.

Lemma slice_from1 : forall A (x : A) l, slice_list (Some 1) None (x :: l) = l.
Proof.
  intros. unfold slice_list, slice_lo, slice_hi, clip. cbn [length]. change (1 <? 0) with false. cbv iota.
  replace (Z.to_nat (Z.min 1 (Z.of_nat (S (length l))))) with 1%nat by lia.
  cbn [skipn]. replace (S (length l) - 1)%nat with (length l) by lia. apply firstn_all.
Qed.

Lemma slice_from1_nil : forall A, slice_list (Some 1) None (@nil A) = [].
Proof. reflexivity. Qed.

Lemma slice_from1_tl : forall A (l : list A), slice_list (Some 1) None l = tl l.
Proof. intros A [|x l]; [reflexivity|apply slice_from1]. Qed.

Lemma slice_to1 : forall A (x : A) l, slice_list None (Some 1) (x :: l) = [x].
Proof.
  intros. unfold slice_list, slice_lo, slice_hi, clip. cbn [length skipn]. change (1 <? 0) with false. cbv iota.
  replace (Z.to_nat (Z.min 1 (Z.of_nat (S (length l)))) - 0)%nat with 1%nat by lia.
  reflexivity.
Qed.

Lemma slice_butlast : forall A (l : list A), slice_list None (Some (-1)) l = removelast l.
Proof.
  intros. unfold slice_list, slice_lo, slice_hi, clip. cbn [skipn].
  change (-1 <? 0) with true. cbv iota.
  replace (Z.to_nat (Z.max (-1 + Z.of_nat (length l)) 0) - 0)%nat with (pred (length l)) by lia.
  symmetry. apply removelast_firstn_len.
Qed.

Lemma slice_len_from1_3 : slice_len (Some 1) None 3 = 2%nat.
Proof. reflexivity. Qed.
Lemma slice_len_to1_3 : slice_len None (Some 1) 3 = 1%nat.
Proof. reflexivity. Qed.

Lemma norm_index_lit : forall n k, (k < n)%nat -> norm_index n (Z.of_nat k) = Some k.
Proof.
  intros n k H. unfold norm_index. replace (Z.of_nat k <? 0) with false by lia.
  replace ((0 <=? Z.of_nat k) && (Z.of_nat k <? Z.of_nat n))%bool with true by lia. now rewrite Nat2Z.id.
Qed.

Lemma norm_index_last : forall n, (0 < n)%nat -> norm_index n (-1) = Some (pred n).
Proof.
  intros n H. unfold norm_index. change (-1 <? 0) with true. cbv iota.
  replace ((0 <=? -1 + Z.of_nat n) && (-1 + Z.of_nat n <? Z.of_nat n))%bool with true by lia. f_equal. lia.
Qed.

Lemma get_col_3 : forall rows a b k, (k < 3)%nat ->
  get_col (L2 3 rows) a b (Z.of_nat k) = Some (L1 (map (fun r => nth k r 0) (slice_list a b rows))).
Proof. intros rows a b k H. unfold get_col. now rewrite norm_index_lit by exact H. Qed.

Lemma get_cell_first : forall r rows, get_cell (L2 3 (r :: rows)) 0 1 = Some (nth 1 (nth 0 (r :: rows) []) 0).
Proof. reflexivity. Qed.
Lemma get_cell_last : forall r rows,
  get_cell (L2 3 (r :: rows)) (-1) 2 = Some (nth 2 (nth (pred (length (r :: rows))) (r :: rows) []) 0).
Proof. intros. unfold get_cell. now rewrite norm_index_last by (cbn; lia). Qed.

(* ---- lengths ---- *)
Lemma map2_length : forall A B C (f : A -> B -> C) a b, length a = length b -> length (map2 f a b) = length a.
Proof. induction a as [|x a IH]; intros [|y b] H; cbn in *; try lia. now rewrite IH by lia. Qed.

Lemma cumsum_from_length : forall l s, length (cumsum_from s l) = length l.
Proof. induction l as [|x l IH]; intros s; cbn; [reflexivity|now rewrite IH]. Qed.

Lemma removelast_length : forall A (l : list A), length (removelast l) = pred (length l).
Proof. intros. rewrite removelast_firstn_len, firstn_length. lia. Qed.

Lemma select_all_true : forall A (l : list A), select l (map (fun _ => true) l) = l.
Proof. induction l as [|x l IH]; cbn; [reflexivity|now rewrite IH]. Qed.
