(* MiniTorch, unit C08B - the algebra of OpsC08B.v needed by the second C08 tie (no new definitions of meaning):
   the operations on tensors in canonical form ([T1 n f], [T2 n m f], [T3 n m k f]) are again in canonical form. *)
From Coq Require Import List ZArith QArith Qround Bool Arith Lia.
From Coq Require String.
From PV Require Import MiniPy.Syntax MiniTorch.Ops MiniTorch.OpsC08 MiniTorch.LemmasC08 MiniTorch.OpsC08B.
From PV Require MiniTorch.Lemmas C08.Model.
Import ListNotations.

(* ---- tables ------------------------------------------------------------------------------------- *)
Lemma tabl3_length {X} n m k (f : nat -> nat -> nat -> X) : length (tabl3 n m k f) = (n * (m * k))%nat.
Proof.
  unfold tabl3. rewrite (Lemmas.length_flat_map_const _ _ (m * k)), seq_length; [reflexivity|].
  intros i _. apply tabl_length.
Qed.

Lemma get3_tabl3 {X} (d : X) n m k (f : nat -> nat -> nat -> X) i j h :
  (i < n)%nat -> (j < m)%nat -> (h < k)%nat -> get3 d m k (tabl3 n m k f) i j h = f i j h.
Proof.
  intros Hi Hj Hh. unfold get3, tabl3.
  replace ((i * m + j) * k + h)%nat with (i * (m * k) + (j * k + h))%nat by lia.
  rewrite (Lemmas.nth_flat_map_const _ _ (m * k) i (j * k + h) 0%nat d).
  - rewrite seq_nth by assumption. cbn [Nat.add]. exact (get2_tabl d m k (f i) j h Hj Hh).
  - intros x _. apply tabl_length.
  - now rewrite seq_length.
  - nia.
Qed.

Lemma tabl3_ext {X} n m k (f g : nat -> nat -> nat -> X) :
  (forall i j h, (i < n)%nat -> (j < m)%nat -> (h < k)%nat -> f i j h = g i j h) -> tabl3 n m k f = tabl3 n m k g.
Proof.
  intros H. unfold tabl3. apply Lemmas.flat_map_ext_in. intros i Hi. apply in_seq in Hi.
  apply tabl_ext. intros j h Hj Hh. apply H; lia.
Qed.

Lemma T3_ext {X} n m k (f g : nat -> nat -> nat -> X) :
  (forall i j h, (i < n)%nat -> (j < m)%nat -> (h < k)%nat -> f i j h = g i j h) -> T3 n m k f = T3 n m k g.
Proof. intros H. unfold T3. f_equal. now apply tabl3_ext. Qed.

Lemma tabl3_one {X} m k (f : nat -> nat -> X) : tabl3 1 m k (fun _ => f) = tabl m k f.
Proof. unfold tabl3. cbn [seq flat_map]. now rewrite app_nil_r. Qed.

(* an n x m table of single entries is the n x m x 1 table *)
Lemma tabl_tabl3_col {X} n m (f : nat -> nat -> X) : tabl n m f = tabl3 n m 1 (fun i j _ => f i j).
Proof.
  unfold tabl3, tabl at 1. apply Lemmas.flat_map_ext_in. intros i _.
  unfold tabl. cbn [seq map]. now rewrite (Lemmas.flat_map_singleton (f i)).
Qed.

(* the rows of an n x k table, one slab of one row each *)
Lemma tabl_tabl3_row {X} n k (f : nat -> nat -> X) : tabl n k f = tabl3 n 1 k (fun i _ h => f i h).
Proof.
  unfold tabl3, tabl at 1. apply Lemmas.flat_map_ext_in. intros i _.
  unfold tabl. cbn [seq flat_map]. now rewrite app_nil_r.
Qed.

(* ---- canonical forms: unsqueeze ------------------------------------------------------------------- *)
Lemma unsqueeze_T1_0 {X} n (f : nat -> X) : unsqueeze (T1 n f) 0 = Some (T2 1 n (fun _ j => f j)).
Proof.
  unfold unsqueeze, T1, T2. cbn [shp dat length].
  change (wrap_dim 2 0) with (Some 0%nat). cbn [firstn skipn app]. now rewrite tabl_row.
Qed.

Lemma unsqueeze_T2_2 {X} n m (f : nat -> nat -> X) : unsqueeze (T2 n m f) 2 = Some (T3 n m 1 (fun i j _ => f i j)).
Proof.
  unfold unsqueeze, T2, T3. cbn [shp dat length].
  change (wrap_dim 3 2) with (Some 2%nat). cbn [firstn skipn app]. now rewrite tabl_tabl3_col.
Qed.

Lemma unsqueeze_T2_1 {X} n k (f : nat -> nat -> X) : unsqueeze (T2 n k f) 1 = Some (T3 n 1 k (fun i _ h => f i h)).
Proof.
  unfold unsqueeze, T2, T3. cbn [shp dat length].
  change (wrap_dim 3 1) with (Some 1%nat). cbn [firstn skipn app]. now rewrite tabl_tabl3_row.
Qed.

(* ---- broadcasting ------------------------------------------------------------------------------------ *)
Lemma bc3_tabl3 {X Y W} (dx : X) (dy : Y) (h : X -> Y -> W) sa sb na ma ka a nb mb kb b n m k :
  as3 sa = Some (na, ma, ka) -> as3 sb = Some (nb, mb, kb) ->
  bdim na nb = Some n -> bdim ma mb = Some m -> bdim ka kb = Some k ->
  bc3 dx dy h (mkTn sa (tabl3 na ma ka a)) (mkTn sb (tabl3 nb mb kb b)) =
  Some (mkTn (skipn (3 - Nat.max (length sa) (length sb)) [n; m; k])
             (tabl3 n m k (fun i j l => h (a (bidx na i) (bidx ma j) (bidx ka l)) (b (bidx nb i) (bidx mb j) (bidx kb l))))).
Proof.
  intros Ha Hb Hn Hm Hk. unfold bc3. cbn [shp dat]. rewrite Ha, Hb, Hn, Hm, Hk. f_equal. f_equal.
  apply tabl3_ext. intros i j l Hi Hj Hl.
  rewrite !get3_tabl3 by eauto using Lemmas.bidx_lt_l, Lemmas.bidx_lt_r. reflexivity.
Qed.

Ltac bidx_norm :=
  cbv beta; rewrite ?bidx_one;
  repeat match goal with H : (?i < ?n)%nat |- context [bidx ?n ?i] => rewrite (bidx_self n i H) end.

(* after [bc3_tabl3]: the two tables agree entry by entry, a broadcast index being 0 or the index itself *)
Ltac bc3_entries :=
  cbn [length Nat.max Nat.sub skipn]; f_equal; f_equal; apply tabl3_ext; intros i j l Hi Hj Hl; now bidx_norm.

(* (n, m, k) op (n, m, k) *)
Lemma bc3_T3_T3 {X Y W} (dx : X) (dy : Y) (h : X -> Y -> W) n m k a b :
  bc3 dx dy h (T3 n m k a) (T3 n m k b) = Some (T3 n m k (fun i j l => h (a i j l) (b i j l))).
Proof.
  unfold T3.
  rewrite (bc3_tabl3 dx dy h [n; m; k] [n; m; k] n m k _ n m k _ n m k eq_refl eq_refl (bdim_same n) (bdim_same m) (bdim_same k)).
  bc3_entries.
Qed.

(* (1, m, 1) op (n, 1, k) *)
Lemma bc3_row_cols {X Y W} (dx : X) (dy : Y) (h : X -> Y -> W) n m k a b :
  bc3 dx dy h (T3 1 m 1 a) (T3 n 1 k b) = Some (T3 n m k (fun i j l => h (a 0%nat j 0%nat) (b i 0%nat l))).
Proof.
  unfold T3.
  rewrite (bc3_tabl3 dx dy h [1%nat; m; 1%nat] [n; 1%nat; k] 1 m 1 _ n 1 k _ n m k eq_refl eq_refl (bdim_1_n n) (bdim_1_r m) (bdim_1_n k)).
  bc3_entries.
Qed.

(* (n, m, 1) op (n, 1, k) *)
Lemma bc3_col_row {X Y W} (dx : X) (dy : Y) (h : X -> Y -> W) n m k a b :
  bc3 dx dy h (T3 n m 1 a) (T3 n 1 k b) = Some (T3 n m k (fun i j l => h (a i j 0%nat) (b i 0%nat l))).
Proof.
  unfold T3.
  rewrite (bc3_tabl3 dx dy h [n; m; 1%nat] [n; 1%nat; k] n m 1 _ n 1 k _ n m k eq_refl eq_refl (bdim_same n) (bdim_1_r m) (bdim_1_n k)).
  bc3_entries.
Qed.

(* (n, m, k) op (n, m, 1) *)
Lemma bc3_T3_col {X Y W} (dx : X) (dy : Y) (h : X -> Y -> W) n m k a b :
  bc3 dx dy h (T3 n m k a) (T3 n m 1 b) = Some (T3 n m k (fun i j l => h (a i j l) (b i j 0%nat))).
Proof.
  unfold T3.
  rewrite (bc3_tabl3 dx dy h [n; m; k] [n; m; 1%nat] n m k _ n m 1 _ n m k eq_refl eq_refl (bdim_same n) (bdim_same m) (bdim_1_r k)).
  bc3_entries.
Qed.

(* (n, m, k) op (n, 1, k) *)
Lemma bc3_T3_row {X Y W} (dx : X) (dy : Y) (h : X -> Y -> W) n m k a b :
  bc3 dx dy h (T3 n m k a) (T3 n 1 k b) = Some (T3 n m k (fun i j l => h (a i j l) (b i 0%nat l))).
Proof.
  unfold T3.
  rewrite (bc3_tabl3 dx dy h [n; m; k] [n; 1%nat; k] n m k _ n 1 k _ n m k eq_refl eq_refl (bdim_same n) (bdim_1_r m) (bdim_same k)).
  bc3_entries.
Qed.

(* (n, m) op (n, m): two dimensions inside the three-dimensional rule *)
Lemma bc3_T2_T2 {X Y W} (dx : X) (dy : Y) (h : X -> Y -> W) n m a b :
  bc3 dx dy h (T2 n m a) (T2 n m b) = Some (T2 n m (fun i j => h (a i j) (b i j))).
Proof.
  unfold T2. rewrite <- !tabl3_one.
  rewrite (bc3_tabl3 dx dy h [n; m] [n; m] 1 n m _ 1 n m _ 1 n m eq_refl eq_refl eq_refl (bdim_same n) (bdim_same m)).
  bc3_entries.
Qed.

(* ---- any -------------------------------------------------------------------------------------------------- *)
Lemma existsb_ext_seq (f g : nat -> bool) k :
  (forall h, (h < k)%nat -> f h = g h) -> existsb f (seq 0 k) = existsb g (seq 0 k).
Proof.
  intros H. assert (G : forall s, (forall h, (s <= h < s + k)%nat -> f h = g h) -> existsb f (seq s k) = existsb g (seq s k)).
  { clear H. induction k as [|k IH]; intros s H; [reflexivity|]. cbn [seq existsb].
    rewrite (H s) by lia. rewrite (IH (S s)) by (intros; apply H; lia). reflexivity. }
  apply G. intros h Hh. apply H. lia.
Qed.

Lemma any_last_T3 n m k (p : nat -> nat -> nat -> bool) (keep : bool) :
  any_last (T3 n m k p) 2 keep
  = Some (if keep then T3 n m 1 (fun i j _ => existsb (p i j) (seq 0 k)) else T2 n m (fun i j => existsb (p i j) (seq 0 k))).
Proof.
  unfold any_last, T3. cbn [shp dat]. change (wrap_dim 3 2) with (Some 2%nat). cbv iota.
  assert (E : tabl n m (fun i j => existsb (fun h => get3 false m k (tabl3 n m k p) i j h) (seq 0 k))
              = tabl n m (fun i j => existsb (p i j) (seq 0 k))).
  { apply tabl_ext. intros i j Hi Hj. apply existsb_ext_seq. intros h Hh. now apply get3_tabl3. }
  rewrite E. destruct keep; unfold T3, T2; [|reflexivity]. now rewrite tabl_tabl3_col.
Qed.

(* ---- masked_fill ------------------------------------------------------------------------------------------ *)

Lemma masked_fill_c_col n m k (c : nat -> nat -> nat -> val) (p : nat -> nat -> nat -> bool) v :
  masked_fill_c (T3 n m k c) (T3 n m 1 p) v = Some (T3 n m k (fun i j l => if p i j 0%nat then v else c i j l)).
Proof. unfold masked_fill_c. rewrite bc3_T3_col. cbn [shp T3]. now rewrite nats_eqb_refl. Qed.

Lemma masked_fill_c_row n m k (c : nat -> nat -> nat -> val) (p : nat -> nat -> nat -> bool) v :
  masked_fill_c (T3 n m k c) (T3 n 1 k p) v = Some (T3 n m k (fun i j l => if p i 0%nat l then v else c i j l)).
Proof. unfold masked_fill_c. rewrite bc3_T3_row. cbn [shp T3]. now rewrite nats_eqb_refl. Qed.

Lemma masked_fill_c_full n m k (c : nat -> nat -> nat -> val) (p : nat -> nat -> nat -> bool) v :
  masked_fill_c (T3 n m k c) (T3 n m k p) v = Some (T3 n m k (fun i j l => if p i j l then v else c i j l)).
Proof. unfold masked_fill_c. rewrite bc3_T3_T3. cbn [shp T3]. now rewrite nats_eqb_refl. Qed.

(* ---- encodings ---------------------------------------------------------------------------------------------- *)
Lemma dec_c_enc eps t : dec_c (enc_c eps t) = Some (t, eps).
Proof. destruct t as [s d]. unfold dec_c, enc_c, enc_shape. cbn. now rewrite dec_nats_enc. Qed.

Lemma dec_any_enc_c eps t : dec_any (enc_c eps t) = None.
Proof. reflexivity. Qed.

Lemma dec_c_enc_f t : dec_c (enc_f t) = None.  Proof. reflexivity. Qed.
Lemma dec_c_enc_l t : dec_c (enc_l t) = None.  Proof. reflexivity. Qed.
Lemma dec_c_enc_b t : dec_c (enc_b t) = None.  Proof. reflexivity. Qed.
