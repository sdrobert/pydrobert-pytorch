(* MiniTorch, unit C10BSrc — the algebra of OpsC10B.v (and some more of OpsC10.v) needed by the second C10 tie
   (no new definitions of meaning): operations on TABULATED tensors (LemmasC10.C1/C2/C3 ...) are tabulated, and the
   list-level operations (mask rows, nonzero, 1-D slices, integer indexing) are the list functions one expects. *)
From Coq Require Import List ZArith Bool Arith Lia ZifyBool.
From PV Require Import MiniTorch.Ops MiniTorch.OpsC10 MiniTorch.LemmasC10 MiniTorch.OpsC10B.
Import ListNotations.

Definition B1 (k : nat) (b : nat -> bool) : itens := C1 k (fun l => CBool (b l)).

(* ---- arange ---- *)
Lemma arange3_I1 : forall a b s, (0 < s)%Z -> (a <= b)%Z ->
  arange3 a b s = Some (I1 (Z.to_nat ((b - a + s - 1) / s)) (fun i => (a + Z.of_nat i * s)%Z)).
Proof.
  intros a b s Hs Hab. unfold arange3.
  replace ((s <=? 0)%Z || (b <? a)%Z) with false by (symmetry; apply orb_false_iff; split; lia).
  reflexivity.
Qed.

(* ---- element-wise operations with a Python number / between tensors of the same shape ---- *)
(* all by bcast_tab: the data of the result is one block; in range, an index into a dimension that is not 1 is itself *)
Ltac by_tab t H :=
  rewrite t;
  [ cbn [C1 C2 ndim ishape length Nat.max Nat.sub skipn]; unfold C1, C2; now rewrite D3_1, ?D2_1
  | intros; cbn [bidx Nat.eqb]; rewrite ?bidx_same by assumption; now apply H ].

Lemma bcast_C1_scalar : forall f k fa z c,
  (forall l, (l < k)%nat -> f (fa l) (CInt z) = Some (c l)) ->
  bcast f (C1 k fa) (scalar_int z) = Some (C1 k c).
Proof.
  intros f k fa z c H.
  by_tab (bcast_tab f (C1 k fa) (scalar_int z) 1 1 k 1 1 1 (fun _ _ => fa) (fun _ _ _ => CInt z) 1 1 k (fun _ _ => c)
             eq_refl (data_C1 _ _) eq_refl eq_refl (bdim_same 1) (bdim_same 1) (bdim_1_r k)) H.
Qed.

Lemma bcast_C2_scalar : forall f m k fa z c,
  (forall j l, (j < m)%nat -> (l < k)%nat -> f (fa j l) (CInt z) = Some (c j l)) ->
  bcast f (C2 m k fa) (scalar_int z) = Some (C2 m k c).
Proof.
  intros f m k fa z c H.
  by_tab (bcast_tab f (C2 m k fa) (scalar_int z) 1 m k 1 1 1 (fun _ => fa) (fun _ _ _ => CInt z) 1 m k (fun _ => c)
             eq_refl (data_C2 _ _ _) eq_refl eq_refl (bdim_same 1) (bdim_1_r m) (bdim_1_r k)) H.
Qed.

Lemma bcast_C2_C2 : forall f m k fa fb c,
  (forall j l, (j < m)%nat -> (l < k)%nat -> f (fa j l) (fb j l) = Some (c j l)) ->
  bcast f (C2 m k fa) (C2 m k fb) = Some (C2 m k c).
Proof.
  intros f m k fa fb c H.
  by_tab (bcast_tab f (C2 m k fa) (C2 m k fb) 1 m k 1 m k (fun _ => fa) (fun _ => fb) 1 m k (fun _ => c)
             eq_refl (data_C2 _ _ _) eq_refl (data_C2 _ _ _) (bdim_same 1) (bdim_same m) (bdim_same k)) H.
Qed.

(* (m, 1) op (m, k) and (m, k) op (m, 1) *)
Lemma bcast_C2col_C2 : forall f m k fa fb c,
  (forall j l, (j < m)%nat -> (l < k)%nat -> f (fa j 0%nat) (fb j l) = Some (c j l)) ->
  bcast f (C2 m 1 fa) (C2 m k fb) = Some (C2 m k c).
Proof.
  intros f m k fa fb c H.
  by_tab (bcast_tab f (C2 m 1 fa) (C2 m k fb) 1 m 1 1 m k (fun _ => fa) (fun _ => fb) 1 m k (fun _ => c)
             eq_refl (data_C2 _ _ _) eq_refl (data_C2 _ _ _) (bdim_same 1) (bdim_same m) (bdim_1_l k)) H.
Qed.

Lemma bcast_C2_C2col : forall f m k fa fb c,
  (forall j l, (j < m)%nat -> (l < k)%nat -> f (fa j l) (fb j 0%nat) = Some (c j l)) ->
  bcast f (C2 m k fa) (C2 m 1 fb) = Some (C2 m k c).
Proof.
  intros f m k fa fb c H.
  by_tab (bcast_tab f (C2 m k fa) (C2 m 1 fb) 1 m k 1 m 1 (fun _ => fa) (fun _ => fb) 1 m k (fun _ => c)
             eq_refl (data_C2 _ _ _) eq_refl (data_C2 _ _ _) (bdim_same 1) (bdim_same m) (bdim_1_r k)) H.
Qed.

(* (m, 1) op (k)  ->  (m, k) *)
Lemma bcast_C2col_C1 : forall f m k fa fb c,
  (forall j l, (j < m)%nat -> (l < k)%nat -> f (fa j 0%nat) (fb l) = Some (c j l)) ->
  bcast f (C2 m 1 fa) (C1 k fb) = Some (C2 m k c).
Proof.
  intros f m k fa fb c H.
  by_tab (bcast_tab f (C2 m 1 fa) (C1 k fb) 1 m 1 1 1 k (fun _ => fa) (fun _ _ => fb) 1 m k (fun _ => c)
             eq_refl (data_C2 _ _ _) eq_refl (data_C1 _ _) (bdim_same 1) (bdim_1_r m) (bdim_1_l k)) H.
Qed.

Lemma bcast_C1_C1 : forall f k fa fb c,
  (forall l, (l < k)%nat -> f (fa l) (fb l) = Some (c l)) ->
  bcast f (C1 k fa) (C1 k fb) = Some (C1 k c).
Proof.
  intros f k fa fb c H.
  by_tab (bcast_tab f (C1 k fa) (C1 k fb) 1 1 k 1 1 k (fun _ _ => fa) (fun _ _ => fb) 1 1 k (fun _ _ => c)
             eq_refl (data_C1 _ _) eq_refl (data_C1 _ _) (bdim_same 1) (bdim_same 1) (bdim_same k)) H.
Qed.

Lemma compare_I2col_I1 : forall o n r a b,
  compare o (I2 n 1 a) (I1 r b) = Some (B2 n r (fun i j => zcmp o (a i 0%nat) (b j))).
Proof. intros. now apply bcast_C2col_C1. Qed.
Lemma compare_I2col_I2 : forall o n r a b,
  compare o (I2 n 1 a) (I2 n r b) = Some (B2 n r (fun i j => zcmp o (a i 0%nat) (b i j))).
Proof. intros. now apply bcast_C2col_C2. Qed.
Lemma compare_I2_I2 : forall o n r a b,
  compare o (I2 n r a) (I2 n r b) = Some (B2 n r (fun i j => zcmp o (a i j) (b i j))).
Proof. intros. now apply bcast_C2_C2. Qed.
Lemma and_B2_B2 : forall n r a b,
  logical_and (B2 n r a) (B2 n r b) = Some (B2 n r (fun i j => a i j && b i j)).
Proof. intros. now apply bcast_C2_C2. Qed.

(* ---- expand with -1 / to more dimensions ---- *)
Lemma expand_to_C1_rows : forall k f N,
  expand_to (C1 k f) [Z.of_nat N; (-1)%Z] = Some (C2 N k (fun _ j => f j)).
Proof.
  intros k f N. unfold expand_to. cbn [C1 ndim ishape idata length Nat.leb Nat.sub repeat app resolve_sizes Nat.pred].
  replace (Z.of_nat N =? -1)%Z with false by lia. replace (Z.of_nat N <? 0)%Z with false by lia.
  cbn [Z.eqb Pos.eqb option_map]. rewrite Nat2Z.id.
  unfold expand. cbn [ishape idata expandable norm3].
  replace (((1 =? N) || (1 =? 1)) && (((k =? k) || (k =? 1)) && true))%nat with true
    by (rewrite (Nat.eqb_refl k), (Nat.eqb_refl 1), orb_true_r; reflexivity).
  unfold C2. f_equal. f_equal. rewrite <- (D3_1 N k (fun _ _ j => f j)). apply D3_ext. intros i j l Hi Hj Hl.
  cbn [bidx Nat.eqb]. rewrite <- (D2_1 k (fun _ => f)), <- (D3_1 1 k (fun _ _ => f)).
  replace i with 0%nat by lia. cbn [bidx Nat.eqb].
  unfold bidx. destruct (k =? 1)%nat eqn:E.
  - apply Nat.eqb_eq in E. subst k. replace l with 0%nat by lia. apply get3_D3; lia.
  - apply get3_D3; lia.
Qed.

Lemma get3_D3_bidx_k : forall n m k f i j l, (i < n)%nat -> (j < m)%nat -> (l < k)%nat ->
  get3 m k (D3 n m k f) i j (bidx k l) = f i j l.
Proof.
  intros. unfold bidx. destruct (k =? 1)%nat eqn:E.
  - apply Nat.eqb_eq in E. subst k. replace l with 0%nat by lia. apply get3_D3; lia.
  - now apply get3_D3.
Qed.

Lemma expand_to_C2col : forall n k f,
  expand_to (C2 n 1 f) [Z.of_nat n; Z.of_nat k] = Some (C2 n k (fun i _ => f i 0%nat)).
Proof.
  intros n k f. unfold expand_to. cbn [C2 ndim ishape idata length Nat.leb Nat.sub repeat app resolve_sizes Nat.pred].
  replace (Z.of_nat n =? -1)%Z with false by lia. replace (Z.of_nat n <? 0)%Z with false by lia.
  replace (Z.of_nat k =? -1)%Z with false by lia. replace (Z.of_nat k <? 0)%Z with false by lia.
  cbn [option_map]. rewrite !Nat2Z.id.
  unfold expand. cbn [ishape idata expandable norm3].
  replace (((n =? n) || (n =? 1)) && (((1 =? k) || (1 =? 1)) && true))%nat with true
    by (rewrite (Nat.eqb_refl n), (Nat.eqb_refl 1), orb_true_r; reflexivity).
  unfold C2. f_equal. f_equal. rewrite <- (D3_1 n k (fun _ i _ => f i 0%nat)). apply D3_ext. intros i j l Hi Hj Hl.
  rewrite <- (D3_1 n 1 (fun _ => f)).
  replace i with 0%nat by lia. cbn [bidx Nat.eqb].
  unfold bidx. destruct (n =? 1)%nat eqn:E.
  - apply Nat.eqb_eq in E. subst n. replace j with 0%nat by lia. apply get3_D3; lia.
  - apply get3_D3; lia.
Qed.

(* ---- view / flatten ---- *)
Lemma view_C1_col : forall n f, view (C1 n f) [n; 1%nat] = Some (C2 n 1 (fun i _ => f i)).
Proof.
  intros. unfold view, C1, C2. cbn [ishape idata numel fold_right].
  replace (n * 1 =? n * (1 * 1))%nat with true by (symmetry; apply Nat.eqb_eq; lia).
  now rewrite D2_col.
Qed.

Lemma flatten_3_01 : forall n m k d, flatten (mkIT [n; m; k] d) 0 1 = Some (mkIT [numel [n; m]; k] d).
Proof. reflexivity. Qed.

Lemma flatten_2_all : forall n m d, flatten (mkIT [n; m] d) 0 (-1) = Some (mkIT [numel [n; m]] d).
Proof. reflexivity. Qed.

(* ---- stack along a new last dimension ---- *)
Lemma interleave_app : forall a1 b1 a2 b2, length a1 = length b1 ->
  interleave (a1 ++ a2) (b1 ++ b2) = interleave a1 b1 ++ interleave a2 b2.
Proof.
  induction a1 as [|x a1 IH]; intros b1 a2 b2 H; destruct b1 as [|y b1]; cbn in H; try discriminate; [reflexivity|].
  cbn [app interleave]. rewrite IH by lia. reflexivity.
Qed.

Lemma interleave_map : forall {A} (f g : A -> cell) l, interleave (map f l) (map g l) = flat_map (fun x => [f x; g x]) l.
Proof. induction l as [|x l IH]; cbn; [reflexivity|now rewrite IH]. Qed.

Definition pair_cell {A} (f g : A) (l : nat) : A := match l with O => f | S _ => g end.

Lemma interleave_D2 : forall m k f g,
  interleave (D2 m k f) (D2 m k g) = D3 m k 2 (fun j l => pair_cell (f j l) (g j l)).
Proof.
  intros. unfold D2, D3. induction (seq 0 m) as [|j s IH]; [reflexivity|]. cbn [flat_map].
  rewrite interleave_app by now rewrite !length_D1. rewrite IH. f_equal.
  unfold D1, D2. rewrite interleave_map. apply flat_map_ext_in. intros l _. unfold D1. reflexivity.
Qed.

Lemma stack2_C2 : forall m k f g,
  stack2_last (C2 m k f) (C2 m k g) 2 = Some (C3 m k 2 (fun j l => pair_cell (f j l) (g j l))).
Proof.
  intros. unfold stack2_last. cbn [C2 ishape idata ndim length shape_eqb]. rewrite !Nat.eqb_refl. cbn [andb Z.eqb Z.of_nat Pos.of_succ_nat Pos.succ Pos.eqb app].
  unfold C3. now rewrite interleave_D2.
Qed.

Lemma stack2_V1 : forall a b, length a = length b ->
  stack2_last (V1 a) (V1 b) 1 = Some (mkIT [length a; 2%nat] (interleave a b)).
Proof.
  intros a b H. unfold stack2_last, V1. cbn [ishape idata ndim length shape_eqb]. rewrite H, Nat.eqb_refl. reflexivity.
Qed.

(* ---- boolean mask over the first dimension ---- *)
Lemma select_rows_app : forall {A} (r1 r2 : list (list A)) m1 m2 o1 o2,
  select_rows r1 m1 = Some o1 -> select_rows r2 m2 = Some o2 -> select_rows (r1 ++ r2) (m1 ++ m2) = Some (o1 ++ o2).
Proof.
  induction r1 as [|x r1 IH]; intros r2 m1 m2 o1 o2 H1 H2; destruct m1 as [|c m1]; cbn in H1; try discriminate.
  - inversion H1; subst. exact H2.
  - destruct c as [z|bb|]; try discriminate. cbn [app select_rows].
    destruct (select_rows r1 m1) as [r|] eqn:E; [|discriminate]. rewrite (IH r2 m1 m2 r o2 E H2).
    cbn in H1 |- *. inversion H1; subst. destruct bb; reflexivity.
Qed.

Lemma select_rows_flat_map : forall {A X} (F : X -> list (list A)) (M : X -> list cell) c l,
  (forall x, In x l -> select_rows (F x) (M x) = Some (c x)) ->
  select_rows (flat_map F l) (flat_map M l) = Some (flat_map c l).
Proof.
  induction l as [|x l IH]; intros H; [reflexivity|]. cbn [flat_map].
  apply select_rows_app; [apply H; now left|apply IH; intros; apply H; now right].
Qed.

Lemma select_rows_map : forall {A X} (F : X -> list A) (b : X -> bool) l,
  select_rows (map F l) (map (fun x => CBool (b x)) l) = Some (map F (filter b l)).
Proof.
  induction l as [|x l IH]; [reflexivity|]. cbn [map select_rows filter]. rewrite IH. cbn [option_map]. now destruct (b x).
Qed.

(* the (i, j) kept by a mask, row-major *)
Definition kept2 (n m : nat) (b : nat -> nat -> bool) : list (nat * nat) :=
  flat_map (fun i => map (pair i) (filter (b i) (seq 0 m))) (seq 0 n).

Lemma mask_rows_D3 : forall n m rest f b,
  mask_rows (mkIT (numel [n; m] :: rest) (D3 n m (numel rest) f)) (mkIT [numel [n; m]] (D2 n m (fun i j => CBool (b i j))))
  = Some (mkIT (length (kept2 n m b) :: rest) (flat_map (fun p => D1 (numel rest) (f (fst p) (snd p))) (kept2 n m b))).
Proof.
  intros. unfold mask_rows. cbn [ishape idata]. rewrite Nat.eqb_refl, chunks_D3.
  unfold D2 at 1 2.
  rewrite (select_rows_flat_map _ _ (fun i => map (fun j => D1 (numel rest) (f i j)) (filter (b i) (seq 0 m)))).
  - f_equal. f_equal.
    + f_equal. unfold kept2.
      clear. induction (seq 0 n) as [|i s IH]; [reflexivity|]. cbn [flat_map]. rewrite !app_length, !map_length, IH. reflexivity.
    + unfold kept2. rewrite concat_flat_map', flat_map_flat_map. apply flat_map_ext_in. intros i _.
      rewrite concat_map_flat, flat_map_map'. reflexivity.
  - intros i _. unfold D1 at 1 2. apply select_rows_map.
Qed.

Lemma mask_rows_D2 : forall n m g b,
  mask_rows (mkIT [numel [n; m]] (D2 n m g)) (mkIT [numel [n; m]] (D2 n m (fun i j => CBool (b i j))))
  = Some (V1 (map (fun p => g (fst p) (snd p)) (kept2 n m b))).
Proof.
  intros. replace (D2 n m g) with (D3 n m 1 (fun i j _ => g i j)) by (rewrite D3_col; reflexivity).
  pose proof (mask_rows_D3 n m [] (fun i j _ => g i j) b) as H. change (numel []) with 1%nat in H. rewrite H.
  unfold V1. rewrite map_length. do 2 apply f_equal.
  unfold D1. cbn [seq map]. apply (flat_map_singleton (fun p => g (fst p) (snd p))).
Qed.
