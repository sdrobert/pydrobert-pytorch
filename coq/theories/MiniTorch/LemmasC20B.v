(* MiniTorch, unit C20B - algebra of the operations of OpsC20B.v (and of the view operations of OpsC07 /
   the linear of OpsC20 as MultiHeadedAttention uses them): on materialised model tensors they are the
   model's index maps (Model.linear, unflatten_last, flatten_last2, unsq, expand).  No axioms. *)
From Coq Require Import List ZArith QArith Bool Arith Lia.
From PV Require Import MiniPy.Syntax MiniTorch.Ops MiniTorch.Lemmas MiniTorch.OpsC07 MiniTorch.LemmasC07 MiniTorch.OpsC20 MiniTorch.LemmasC20.
From PV Require Import MiniTorch.OpsC20B.
From PV Require Import C20.Model C20.Spec C20.Index C20.Broadcast C20.SrcRun.
Import ListNotations.
Local Open Scope nat_scope.

(* ---- lists ------------------------------------------------------------------------------------------ *)
Lemma flat_map_map {A B C} (k : A -> B) (F : B -> list C) l : flat_map F (map k l) = flat_map (fun x => F (k x)) l.
Proof. induction l as [|x l IH]; [reflexivity|]. cbn. now rewrite IH. Qed.

Lemma flat_map_flat_map {A B C} (F : B -> list C) (G : A -> list B) l :
  flat_map F (flat_map G l) = flat_map (fun x => flat_map F (G x)) l.
Proof. induction l as [|x l IH]; [reflexivity|]. cbn. now rewrite flat_map_app, IH. Qed.

(* ---- the last axis of size H*d seen as two axes (H, d): same row-major order ------------------------- *)
Lemma map_renum_split {A} (g : index -> A) H d s :
  map g (renum ((H * d) :: s))
  = map (fun i => match i with j :: h :: r => g ((h * d + j) :: r) | _ => g [] end) (renum (d :: H :: s)).
Proof.
  cbn [renum]. rewrite flat_map_flat_map, !map_flat_map.
  apply flat_map_ext_in. intros r _.
  rewrite map_map, (seq_mul (fun x => g (x :: r)) H d).
  rewrite flat_map_map, map_flat_map. apply flat_map_ext_in. intros h _.
  rewrite !map_map. reflexivity.
Qed.

Lemma valid2 d H s i : valid (d :: H :: s) i -> exists j h r, i = j :: h :: r /\ j < d /\ h < H /\ valid s r.
Proof.
  intros Hv. destruct i as [|j i]; [inversion Hv|].
  apply valid_cons_inv in Hv. destruct Hv as [Hj Hv].
  destruct i as [|h r]; [inversion Hv|].
  apply valid_cons_inv in Hv. destruct Hv as [Hh Hv].
  exists j, h, r. repeat split; assumption.
Qed.

(* unflatten(x, -1, [H, d]) is a view: the data of the model's index map are the data of its argument *)
Lemma to_flat_unflatten H d (T : tensor Q) : hd 0 (tshape T) = H * d -> tshape T <> [] ->
  to_flat (unflatten_last H d T) = to_flat T.
Proof.
  intros Hh Hne. destruct (tshape T) as [|n s] eqn:E; [congruence|]. cbn [hd] in Hh. subst n.
  unfold to_flat. rewrite E. cbn [unflatten_last tshape tat]. rewrite E. cbn [tl].
  rewrite (map_renum_split (tat T) H d s).
  apply map_ext_in. intros i Hi. apply renum_valid in Hi.
  destruct (valid2 _ _ _ _ Hi) as [j [h [r [-> _]]]]. reflexivity.
Qed.

(* x.flatten(-2) likewise *)
Lemma to_flat_flatten d H s (T : tensor Q) : tshape T = d :: H :: s ->
  to_flat (flatten_last2 T) = to_flat T.
Proof.
  intros E. unfold to_flat. cbn [flatten_last2 tshape tat]. rewrite E. cbn [hd tl].
  rewrite (map_renum_split _ H d s).
  apply map_ext_in. intros i Hi. apply renum_valid in Hi.
  destruct (valid2 _ _ _ _ Hi) as [j [h [r [-> [Hj _]]]]].
  assert (Hd : d <> 0) by lia.
  replace (h * d + j) with (j + h * d) by lia.
  rewrite Nat.mod_add, Nat.div_add, Nat.mod_small, Nat.div_small by assumption. reflexivity.
Qed.

Lemma unflatten_last_mat H d (T : tensor Q) : hd 0 (tshape T) = H * d -> tshape T <> [] ->
  OpsC20B.unflatten_last (mat T) [H; d] = Some (mat (Model.unflatten_last H d T)).
Proof.
  intros Hh Hne. unfold OpsC20B.unflatten_last. rewrite rshp_mat.
  destruct (tshape T) as [|n s] eqn:E; [congruence|]. cbn [hd] in Hh. subst n.
  cbn [numel]. rewrite Nat.eqb_refl. f_equal. unfold mat. cbn [shp dat].
  rewrite to_flat_unflatten; [|rewrite E; reflexivity|rewrite E; discriminate].
  cbn [Model.unflatten_last tshape]. rewrite E. cbn [tl rev]. rewrite <- !app_assoc. reflexivity.
Qed.

Lemma wrap_dim_m2 n : wrap_dim (S (S n)) (-2) = Some n.
Proof.
  unfold wrap_dim.
  assert (B : ((- Z.of_nat (S (S n)) <=? -2)%Z && (-2 <? Z.of_nat (S (S n)))%Z) = true).
  { apply andb_true_iff. split; [apply Z.leb_le|apply Z.ltb_lt]; lia. }
  rewrite B. f_equal. replace (-2 <? 0)%Z with true by reflexivity. lia.
Qed.

Lemma flatten_from_mat d H s (T : tensor Q) : tshape T = d :: H :: s ->
  flatten_from (mat T) (-2) = Some (mat (flatten_last2 T)).
Proof.
  intros E. unfold flatten_from. rewrite rank_mat, E. cbn [length]. rewrite wrap_dim_m2. f_equal.
  unfold mat. cbn [shp dat]. rewrite (to_flat_flatten d H s) by exact E.
  cbn [flatten_last2 tshape]. rewrite E. cbn [hd tl rev].
  rewrite <- !app_assoc. cbn [app].
  rewrite <- (rev_length s) at 1 2. rewrite firstn_app_exact, skipn_app_exact. cbn [numel].
  reflexivity.
Qed.

(* mask.unsqueeze(-1): a trailing axis of size 1, the data unchanged *)
Lemma to_flat_unsq0 {X} (T : tensor X) : to_flat (unsq 0 T) = to_flat T.
Proof.
  unfold to_flat. cbn [unsq tshape tat firstn skipn app renum].
  induction (renum (tshape T)) as [|r L IH]; [reflexivity|].
  cbn [flat_map seq map app]. f_equal. exact IH.
Qed.

Lemma runsq0_mat {X} (T : tensor X) : runsq 0 (mat T) = mat (unsq 0 T).
Proof.
  unfold runsq, mat. cbn [shp dat]. rewrite to_flat_unsq0, rev_involutive. reflexivity.
Qed.

(* ---- linear ------------------------------------------------------------------------------------------- *)
Lemma nth_concat_rows {A} (d : A) n : forall (W : list (list A)) t j,
  Forall (fun w => length w = n) W -> t < length W -> j < n ->
  nth (t * n + j) (concat W) d = nth j (nth t W []) d.
Proof.
  induction W as [|w W IH]; intros t j Hall Ht Hj; [cbn in Ht; lia|].
  inversion Hall as [|? ? Hw Hall']; subst. cbn [concat].
  destruct t as [|t].
  - cbn [Nat.mul Nat.add nth]. apply app_nth1. lia.
  - rewrite app_nth2 by lia. replace (S t * length w + j - length w) with (t * length w + j) by lia.
    cbn [nth]. apply IH; [exact Hall'|cbn in Ht; lia|exact Hj].
Qed.

Lemma map_nth_seq {A} (d : A) (l : list A) : map (fun j => nth j l d) (seq 0 (length l)) = l.
Proof.
  induction l as [|x l IH]; [reflexivity|]. cbn [length seq map nth]. f_equal.
  rewrite <- seq_shift, map_map. exact IH.
Qed.

Lemma weight_row n W t : Forall (fun w => length w = n) W -> t < length W ->
  map (fun j => tat (rd 0%Q (rows_tensor n W)) [j; t]) (seq 0 n) = nth t W [].
Proof.
  intros Hall Ht.
  assert (Hlen : length (nth t W []) = n) by (rewrite Forall_forall in Hall; apply Hall, nth_In; exact Ht).
  etransitivity; [|apply (map_nth_seq 0%Q)]. rewrite Hlen.
  apply map_ext_in. intros c Hc. apply in_seq in Hc.
  unfold rd, rows_tensor, of_flat. cbn [shp dat rev app tat rfi].
  replace ((0 * length W + t) * n + c) with (t * n + c) by lia.
  apply nth_concat_rows; [exact Hall|lia|lia].
Qed.

(* F.linear on a materialised tensor = the model's linear, materialised: weight rows of the input's feature
   size, a bias (if any) with one entry per row *)
Lemma linear_mat (T : tensor Q) W b n s :
  tshape T = n :: s -> Forall (fun w => length w = n) W ->
  match b with None => True | Some bl => length bl = length W end ->
  OpsC20.linear (mat T) (rows_tensor n W) (option_map vec_tensor b) = Some (mat (Model.linear W b T)).
Proof.
  intros E Hall Hb. unfold OpsC20.linear. cbn [rows_tensor shp]. rewrite rshp_mat, E, Nat.eqb_refl.
  assert (Hbb : match option_map vec_tensor b with None => true | Some bt => nats_eqb (shp bt) [length W] end = true).
  { destruct b as [bl|]; [|reflexivity]. cbn [option_map vec_tensor shp nats_eqb]. rewrite Hb, Nat.eqb_refl. reflexivity. }
  rewrite Hbb. cbn [andb]. f_equal.
  unfold Model.linear. rewrite E. cbn [tl hd].
  apply mat_ext. intros ci Hv. destruct ci as [|c i]; [reflexivity|].
  apply valid_cons_inv in Hv. destruct Hv as [Hc Hi].
  assert (Hrow : map (fun j => tat (rd 0%Q (mat T)) (j :: i)) (seq 0 n) = map (fun j => tat T (j :: i)) (seq 0 n)).
  { apply map_ext_in. intros j Hj. apply in_seq in Hj. apply tat_rd_mat. rewrite E. apply valid_cons; [lia|exact Hi]. }
  rewrite Hrow, (weight_row n W c Hall Hc).
  destruct b as [bl|]; cbn [option_map]; [|reflexivity].
  f_equal.
Qed.

(* ---- expand, cat, tanh, squeeze (ConcatSoftAttention) --------------------------------------------------------------- *)
(* query.unsqueeze(dim).expand(shape + [query_size]) *)
Lemma expand_unsq_mat p (T : tensor Q) bs :
  p <= length (tshape T) -> intob (ins p 1 (tshape T)) bs = true ->
  expand_to (runsq p (mat T)) (rev bs) = Some (mat (mkT bs (fun i => bget (unsq p T) i))).
Proof.
  intros Hp Hi. unfold expand_to. rewrite rshp_runsq, rshp_mat, rev_involutive, Hi. f_equal.
  apply mat_ext. intros i Hv. apply (bget_rd_runsq 0%Q p T bs); assumption.
Qed.

(* key.expand(shape + [key_size]) *)
Lemma expand_mat (T : tensor Q) bs :
  intob (tshape T) bs = true -> expand_to (mat T) (rev bs) = Some (mat (mkT bs (fun i => bget T i))).
Proof.
  intros Hi. unfold expand_to. rewrite rshp_mat, rev_involutive, Hi. f_equal.
  apply mat_ext. intros i Hv. apply (bget_rd_mat 0%Q T bs); assumption.
Qed.

Lemma cat_last_mat (A B : tensor Q) na nb s : tshape A = na :: s -> tshape B = nb :: s ->
  cat_last (mat A) (mat B)
  = Some (mat (mkT ((na + nb) :: s)
                   (fun ci => match ci with
                              | c :: i => if c <? na then tat A (c :: i) else tat B ((c - na) :: i)
                              | [] => 0%Q
                              end))).
Proof.
  intros EA EB. unfold cat_last. rewrite !rshp_mat, EA, EB, nats_eqb_refl. f_equal.
  apply mat_ext. intros ci Hv. destruct ci as [|c i]; [reflexivity|].
  apply valid_cons_inv in Hv. destruct Hv as [Hc Hi].
  destruct (c <? na) eqn:L.
  - apply Nat.ltb_lt in L. apply tat_rd_mat. rewrite EA. apply valid_cons; assumption.
  - apply Nat.ltb_ge in L. apply tat_rd_mat. rewrite EB. apply valid_cons; [lia|assumption].
Qed.

Lemma tanh_mat f (T : tensor Q) : tanh_t f (mat T) = mat (mkT (tshape T) (fun i => f (tat T i))).
Proof. unfold tanh_t. apply (map_mat f). Qed.

(* v.unsqueeze(0): the vector as a one-row weight matrix *)
Lemma unsqueeze_vec v : unsqueeze (vec_tensor v) 0 = Some (rows_tensor (length v) [v]).
Proof. unfold unsqueeze, vec_tensor, rows_tensor. cbn. rewrite app_nil_r. reflexivity. Qed.

Lemma to_flat_head1 {X} (T : tensor X) s : tshape T = 1 :: s -> to_flat T = map (fun i => tat T (0 :: i)) (renum s).
Proof.
  intros E. unfold to_flat. rewrite E. cbn [renum].
  induction (renum s) as [|r L IH]; [reflexivity|]. cbn [flat_map seq map app]. f_equal. exact IH.
Qed.

(* x.squeeze(-1) on a tensor whose last dimension has size 1 *)
Lemma squeeze_last_mat (T : tensor Q) s : tshape T = 1 :: s ->
  squeeze_dim (mat T) (-1) = Some (mat (mkT s (fun i => tat T (0 :: i)))).
Proof.
  intros E. unfold squeeze_dim. rewrite rank_mat, E. cbn [length]. rewrite wrap_dim_last.
  unfold extent, drop_dim. rewrite shp_mat, E. cbn [rev].
  assert (Hn : nth (length s) (rev s ++ [1]) 0 = 1).
  { rewrite app_nth2 by (rewrite rev_length; lia). rewrite rev_length, Nat.sub_diag. reflexivity. }
  rewrite Hn. cbn [Nat.eqb]. f_equal. unfold mat at 2. cbn [tshape tat]. f_equal.
  - rewrite <- (rev_length s) at 1. rewrite firstn_app_exact.
    replace (S (length s)) with (length (rev s ++ [1])) by (rewrite app_length, rev_length; cbn; lia).
    rewrite skipn_all. apply app_nil_r.
  - cbn [dat mat]. apply (to_flat_head1 T s E).
Qed.
