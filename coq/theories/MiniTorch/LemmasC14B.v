(* Lemmas about PV.MiniTorch.OpsC14B (sequence-encoded tensors) and the fragment of MiniPy.Interp the C14 units are
   run with: equations to run a body one statement at a time, comprehensions and conditionals as values, integers,
   slices.  No new definitions of semantics. *)
From Coq Require Import ZArith QArith List String Bool Arith Lia.
From PV Require Export MiniPy.Lemmas.
From PV Require Import MiniPy.Syntax MiniPy.Interp MiniTorch.OpsC14B.
Import ListNotations.
Local Open Scope string_scope.
Local Open Scope list_scope.

(* A reduction of `exec (SSeq a b) st` that gets stuck inside `a` also normalises `b` on an abstract state.  With
   these equations the current statement (or expression) is run in a goal of its own. *)

Lemma update_update x v w l : update x v (update x w l) = update x v l.
Proof.
  induction l as [|[y u] t IH]; cbn [update].
  - rewrite String.eqb_refl. reflexivity.
  - destruct (String.eqb x y) eqn:E; cbn [update]; rewrite E; [reflexivity|rewrite IH; reflexivity].
Qed.

Lemma set_var_set_var x v w st : set_var x v (set_var x w st) = set_var x v st.
Proof. unfold set_var. cbn [vars events]. rewrite update_update. reflexivity. Qed.

Lemma if_set_var (b : bool) x v1 v2 s1 s2 :
  (if b then set_var x v1 s1 else set_var x v2 s2) = set_var x (if b then v1 else v2) (if b then s1 else s2).
Proof. destruct b; reflexivity. Qed.

Lemma if_same {A} (b : bool) (x : A) : (if b then x else x) = x.
Proof. destruct b; reflexivity. Qed.

Lemma restore_fresh x st st' : lookup x (vars st) = None -> (st' = st \/ exists v, st' = set_var x v st) ->
  restore_vars [x] (vars st) st' = st.
Proof.
  intros H Hst. unfold restore_vars, restore_var. cbn [fold_left]. rewrite H.
  destruct st as [l ev]. cbn [vars] in H. destruct Hst as [->|[v ->]]; unfold set_var; cbn [vars events]; f_equal.
  - induction l as [|[y w] t IH]; cbn [remove_var lookup] in *; [reflexivity|].
    destruct (String.eqb x y); [discriminate|]. rewrite (IH H). reflexivity.
  - induction l as [|[y w] t IH]; cbn [update remove_var lookup] in *; [rewrite String.eqb_refl; reflexivity|].
    destruct (String.eqb x y) eqn:E; [discriminate|]. cbn [remove_var]. rewrite E, (IH H). reflexivity.
Qed.

Section Step.
  Variable ext : string -> list val -> list (string * val) -> state -> outcome val.

  (* a conditional whose test is a model-level boolean, run once: the case split moves into the values *)
  Lemma exec_if_both (b : bool) t f st st1 st2 :
    (b = true -> exec ext t st = Ok CNormal st1) -> (b = false -> exec ext f st = Ok CNormal st2) ->
    exec ext (if b then t else f) st = Ok CNormal (if b then st1 else st2).
  Proof. destruct b; intros H1 H2; [apply H1|apply H2]; reflexivity. Qed.

  Lemma exec_assign t e st :
    exec ext (SAssign [t] e) st
    = bind (eval ext e st) (fun v st1 => bind (store ext (place_of t) v st1) (fun _ st2 => Ok CNormal st2)).
  Proof.
    cbn [exec assign_all]. destruct (eval ext e st) as [v st1| |]; cbn [bind]; try reflexivity.
    destruct (store ext (place_of t) v st1); reflexivity.
  Qed.

  (* the first argument of a call can be evaluated on its own.  For a call or a comprehension as argument (what the
     units use): with an arbitrary argument the check compares the body of the interpreter once per constructor of
     expr. *)
  Lemma eval_call_arg f a args kw st :
    match a with ECall _ _ _ | EListComp _ _ _ _ _ => True | _ => False end ->
    eval ext (ECall f (a :: args) kw) st
    = bind (eval ext a st) (fun v st1 => eval ext (ECall f (EConst v :: args) kw) st1).
  Proof.
    destruct a; try contradiction; intros _; cbn [eval];
      match goal with |- bind (bind ?o _) _ = _ => destruct o; reflexivity end.
  Qed.

  Lemma comp_loop_map elt x (f : val -> val) l : forall st,
    (forall i st0, List.In i l -> eval ext elt (set_var x i st0) = Ok (f i) (set_var x i st0)) ->
    comp_loop ext elt x [] (EConst (VBool true)) l st
    = Ok (map f l) (match l with [] => st | _ => set_var x (last l VNone) st end).
  Proof.
    induction l as [|i r IH]; intros st He; [reflexivity|].
    cbn [comp_loop bind_item bind eval truthy]. rewrite (He i st (or_introl eq_refl)). cbn [bind].
    rewrite IH by (intros j st0 Hj; apply He; right; exact Hj). cbn [bind map].
    destruct r as [|j r']; [reflexivity|]. rewrite set_var_set_var. reflexivity.
  Qed.

  Lemma eval_comp_map elt x y (f : val -> val) v l st :
    lookup y (vars st) = Some v -> (if foreign v then None else container_items v) = Some l ->
    lookup x (vars st) = None ->
    (forall i st0, List.In i l -> eval ext elt (set_var x i st0) = Ok (f i) (set_var x i st0)) ->
    eval ext (EListComp elt x [] (EName y) (EConst (VBool true))) st = Ok (VList (map f l)) st.
  Proof.
    intros Hy Hl Hx He. rewrite eval_listcomp. cbn [eval]. rewrite Hy. cbn [bind]. rewrite Hl.
    rewrite (comp_loop_map elt x f l st He). cbn [bind].
    rewrite (restore_fresh x st); [reflexivity|exact Hx|]. destruct l; [left|right; eexists]; reflexivity.
  Qed.
End Step.

(* every string literal of the goal (names in the program, keys of the frame) as a local definition: the goals of a
   run repeat them, and they are most of their size; reduction unfolds them where a comparison needs them *)
Ltac hide_names :=
  repeat match goal with |- context [String ?a ?b] => let x := fresh "nm" in set (x := String a b) end.

(* run the first statement of a sequence in a goal of its own; [run] has to bring it to the form Ok CNormal st' *)
Ltac step run :=
  rewrite ?exec_seq_assoc;
  erewrite exec_seq_ok by (run; lazymatch goal with |- Ok CNormal _ = _ => reflexivity end).

Lemma qcmp_int a b : (inject_Z a ?= inject_Z b)%Q = (a ?= b)%Z.
Proof. unfold Qcompare. cbn [Qnum Qden inject_Z]. rewrite !Z.mul_1_r. reflexivity. Qed.

Lemma cmp_eq_int a b : cmp_eval Eq (VInt a) (VInt b) = Some (a =? b)%Z.
Proof. reflexivity. Qed.

Lemma max_int a b st : extreme_of true [VInt a; VInt b] st = Ok (VInt (Z.max a b)) st.
Proof.
  unfold extreme_of, q_extreme. rewrite cmp_gt_int. unfold Z.max, Z.ltb.
  destruct (a ?= b)%Z; reflexivity.
Qed.

Lemma sub_list_at l z st v :
  (0 <=? z)%Z = true -> nth_error l (Z.to_nat z) = Some v -> subscript (VList l) (VInt z) st = Ok v st.
Proof.
  intros Hz Hn. apply Z.leb_le in Hz. unfold subscript.
  assert (Hl : (Z.to_nat z < List.length l)%nat) by (apply nth_error_Some; congruence).
  destruct (Z.ltb_spec z 0); [lia|]. destruct (Z.leb_spec 0 z); [|lia].
  destruct (Z.ltb_spec z (Z.of_nat (List.length l))); [|lia]. cbn [andb]. f_equal.
  apply nth_error_nth. exact Hn.
Qed.

Lemma nat_of_int z : (0 <= z)%Z -> VInt z = VInt (Z.of_nat (Z.to_nat z)).
Proof. intros. rewrite Z2Nat.id by assumption. reflexivity. Qed.

Lemma cells_ints (r : list Z) : forallb is_cell (map VInt r) = true.
Proof. induction r as [|x r IH]; [reflexivity|exact IH]. Qed.

Lemma cut_map {A B} (f : A -> B) (l : list A) lo hi : cut (map f l) lo hi = map f (cut l lo hi).
Proof. unfold cut. rewrite skipn_map, firstn_map. reflexivity. Qed.

Lemma cut_length {A} (l : list A) lo hi : List.length (cut l lo hi) = Nat.min (hi - lo) (List.length l - lo).
Proof. unfold cut. rewrite firstn_length, skipn_length. reflexivity. Qed.

Lemma firstn_app_exact {A} (a b : list A) n : List.length a = n -> firstn n (a ++ b) = a.
Proof. intros <-. rewrite firstn_app, Nat.sub_diag, firstn_all. cbn. apply app_nil_r. Qed.

Lemma skipn_app_exact {A} (a b : list A) n : List.length a = n -> skipn n (a ++ b) = b.
Proof. intros <-. rewrite skipn_app, Nat.sub_diag, skipn_all. reflexivity. Qed.

Lemma hd_map {A B} (f : A -> B) (l : list A) d : hd (f d) (map f l) = f (hd d l).
Proof. destruct l; reflexivity. Qed.

Lemma last_map {A B} (f : A -> B) (l : list A) d : last (map f l) (f d) = f (last l d).
Proof.
  induction l as [|x t IH]; [reflexivity|]. destruct t as [|y t']; [reflexivity|].
  change (last (map f (x :: y :: t')) (f d)) with (last (map f (y :: t')) (f d)). rewrite IH. reflexivity.
Qed.

Lemma map_repeat {A B} (f : A -> B) x n : map f (repeat x n) = repeat (f x) n.
Proof. induction n as [|n IH]; [reflexivity|]. cbn. rewrite IH. reflexivity. Qed.

Definition slice_key (a b : val) : val := VTuple [VStr "$slice"; a; b; VNone].

Lemma slice_bounds_key n a b :
  slice_bounds n (slice_key a b) =
  match norm_bound (Z.of_nat n) 0 a, norm_bound (Z.of_nat n) (Z.of_nat n) b with
  | Some lo, Some hi => Some (Z.to_nat lo, Z.to_nat hi)
  | _, _ => None
  end.
Proof. reflexivity. Qed.

(* a:b with 0 <= a, 0 <= b *)
Lemma slice_bounds_pos n a b : (0 <= a)%Z -> (0 <= b)%Z ->
  slice_bounds n (slice_key (VInt a) (VInt b)) = Some (Nat.min (Z.to_nat a) n, Nat.min (Z.to_nat b) n).
Proof.
  intros Ha Hb. rewrite slice_bounds_key. cbn [norm_bound].
  destruct (a <? 0)%Z eqn:E1; [lia|]. destruct (b <? 0)%Z eqn:E2; [lia|].
  f_equal. f_equal; lia.
Qed.

(* :b with 0 <= b *)
Lemma slice_bounds_to n b : (0 <= b)%Z ->
  slice_bounds n (slice_key VNone (VInt b)) = Some (0%nat, Nat.min (Z.to_nat b) n).
Proof.
  intros Hb. rewrite slice_bounds_key. cbn [norm_bound]. destruct (b <? 0)%Z eqn:E2; [lia|].
  f_equal. f_equal; lia.
Qed.

(* -a: with 0 < a *)
Lemma slice_bounds_from_end n a : (0 < a)%Z ->
  slice_bounds n (slice_key (VInt (- a)) VNone) = Some ((n - Z.to_nat a)%nat, n).
Proof.
  intros Ha. rewrite slice_bounds_key. cbn [norm_bound]. destruct (- a <? 0)%Z eqn:E; [|lia].
  f_equal. f_equal; lia.
Qed.
