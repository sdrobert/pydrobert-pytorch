(* MiniTorch, unit C10Src — the algebra of OpsC10.v needed by the C10 tie (no new definitions of meaning):
   every operation on TABULATED tensors (C1/C2/C3: data = D1/D2/D3 of an index function) is again tabulated. *)
From Coq Require Import List ZArith Bool Arith Lia.
From PV Require Export MiniTorch.Lemmas.
From PV Require Import MiniTorch.Ops MiniTorch.OpsC10.
Import ListNotations.

(* ---- lists ------------------------------------------------------------------------------------ *)
Lemma flat_map_flat_map : forall {A B C} (g : B -> list C) (f : A -> list B) l,
  flat_map g (flat_map f l) = flat_map (fun a => flat_map g (f a)) l.
Proof. induction l as [|a l IH]; cbn; [reflexivity|]. now rewrite flat_map_app, IH. Qed.

Lemma flat_map_map' : forall {A B C} (f : A -> B) (g : B -> list C) l, flat_map g (map f l) = flat_map (fun a => g (f a)) l.
Proof. induction l as [|a l IH]; cbn; [reflexivity|now rewrite IH]. Qed.

Lemma filter_map_comm : forall {A B} (p : B -> bool) (f : A -> B) l, filter p (map f l) = map f (filter (fun a => p (f a)) l).
Proof. induction l as [|a l IH]; cbn; [reflexivity|]. destruct (p (f a)); cbn; now rewrite IH. Qed.

Lemma concat_flat_map' : forall {A B} (g : A -> list (list B)) l, concat (flat_map g l) = flat_map (fun a => concat (g a)) l.
Proof. induction l as [|a l IH]; cbn; [reflexivity|]. now rewrite concat_app, IH. Qed.

Lemma concat_map_flat : forall {A B} (g : A -> list B) l, concat (map g l) = flat_map g l.
Proof. induction l as [|a l IH]; cbn; [reflexivity|now rewrite IH]. Qed.

Lemma flat_map_const_repeat : forall {A} (c : A) b s a, flat_map (fun _ : nat => repeat c b) (seq s a) = repeat c (a * b).
Proof.
  intros A c b s a. revert s. induction a as [|a IH]; intros s; [reflexivity|].
  cbn [seq flat_map Nat.mul]. now rewrite IH, repeat_app.
Qed.

Lemma map_const_repeat : forall {A} (c : A) s k, map (fun _ : nat => c) (seq s k) = repeat c k.
Proof. intros A c s k. revert s. induction k as [|k IH]; intros s; [reflexivity|]. cbn. now rewrite IH. Qed.

(* ---- all_some --------------------------------------------------------------------------------- *)
Lemma all_some_map_ext : forall {A B} (F : A -> option B) (c : A -> B) l,
  (forall x, In x l -> F x = Some (c x)) -> all_some (map F l) = Some (map c l).
Proof.
  induction l as [|x l IH]; intros H; [reflexivity|]. cbn [map all_some].
  rewrite (H x) by now left. rewrite IH by (intros; apply H; now right). reflexivity.
Qed.

Lemma all_some_app : forall {A} (l1 l2 : list (option A)) r1 r2,
  all_some l1 = Some r1 -> all_some l2 = Some r2 -> all_some (l1 ++ l2) = Some (r1 ++ r2).
Proof.
  induction l1 as [|[x|] l1 IH]; intros l2 r1 r2 H1 H2; cbn in *.
  - inversion H1; subst. exact H2.
  - destruct (all_some l1) as [r|] eqn:E; [|discriminate]. inversion H1; subst.
    rewrite (IH l2 r r2 eq_refl H2). reflexivity.
  - discriminate.
Qed.

Lemma all_some_flat_map : forall {A B} (F : A -> list (option B)) (c : A -> list B) l,
  (forall x, In x l -> all_some (F x) = Some (c x)) -> all_some (flat_map F l) = Some (flat_map c l).
Proof.
  induction l as [|x l IH]; intros H; [reflexivity|]. cbn [flat_map].
  apply all_some_app; [apply H; now left|apply IH; intros; apply H; now right].
Qed.

(* ---- D1 / D2 / D3 -------------------------------------------------------------------------------- *)
Lemma length_D1 : forall {A} k (f : nat -> A), length (D1 k f) = k.
Proof. intros. unfold D1. now rewrite map_length, seq_length. Qed.

Lemma length_D2 : forall {A} m k (f : nat -> nat -> A), length (D2 m k f) = (m * k)%nat.
Proof.
  intros. unfold D2. rewrite (length_flat_map_const _ _ k) by (intros; apply length_D1). now rewrite seq_length.
Qed.

Lemma length_D3 : forall {A} n m k (f : nat -> nat -> nat -> A), length (D3 n m k f) = (n * (m * k))%nat.
Proof.
  intros. unfold D3. rewrite (length_flat_map_const _ _ (m * k)%nat) by (intros; apply length_D2). now rewrite seq_length.
Qed.

Lemma D1_ext : forall {A} k (f g : nat -> A), (forall l, (l < k)%nat -> f l = g l) -> D1 k f = D1 k g.
Proof. intros A k f g H. unfold D1. apply map_ext_in. intros l Hl. apply in_seq in Hl. apply H. lia. Qed.

Lemma D2_ext : forall {A} m k (f g : nat -> nat -> A),
  (forall j l, (j < m)%nat -> (l < k)%nat -> f j l = g j l) -> D2 m k f = D2 m k g.
Proof.
  intros A m k f g H. unfold D2. apply flat_map_ext_in. intros j Hj. apply in_seq in Hj.
  apply D1_ext. intros l Hl. apply H; lia.
Qed.

Lemma D3_ext : forall {A} n m k (f g : nat -> nat -> nat -> A),
  (forall i j l, (i < n)%nat -> (j < m)%nat -> (l < k)%nat -> f i j l = g i j l) -> D3 n m k f = D3 n m k g.
Proof.
  intros A n m k f g H. unfold D3. apply flat_map_ext_in. intros i Hi. apply in_seq in Hi.
  apply D2_ext. intros j l Hj Hl. apply H; lia.
Qed.

Lemma map_D1 : forall {A B} (h : A -> B) k f, map h (D1 k f) = D1 k (fun l => h (f l)).
Proof. intros. unfold D1. now rewrite map_map. Qed.

Lemma map_D2 : forall {A B} (h : A -> B) m k f, map h (D2 m k f) = D2 m k (fun j l => h (f j l)).
Proof. intros. unfold D2. rewrite map_flat_map. apply flat_map_ext_in. intros; apply map_D1. Qed.

Lemma map_D3 : forall {A B} (h : A -> B) n m k f, map h (D3 n m k f) = D3 n m k (fun i j l => h (f i j l)).
Proof. intros. unfold D3. rewrite map_flat_map. apply flat_map_ext_in. intros; apply map_D2. Qed.

Lemma D2_1 : forall {A} k (F : nat -> nat -> A), D2 1 k F = D1 k (F 0%nat).
Proof. intros. unfold D2. cbn [seq flat_map]. apply app_nil_r. Qed.

Lemma D3_1 : forall {A} m k (F : nat -> nat -> nat -> A), D3 1 m k F = D2 m k (F 0%nat).
Proof. intros. unfold D3. cbn [seq flat_map]. apply app_nil_r. Qed.

Lemma D2_col : forall {A} m (F : nat -> nat -> A), D2 m 1 F = D1 m (fun j => F j 0%nat).
Proof. intros. unfold D2, D1. cbn [seq map]. apply flat_map_singleton. Qed.

Lemma D3_col : forall {A} n m (F : nat -> nat -> nat -> A), D3 n m 1 F = D2 n m (fun i j => F i j 0%nat).
Proof. intros. unfold D3, D2 at 2. apply flat_map_ext_in. intros i _. apply D2_col. Qed.

Lemma D1_const : forall {A} k (c : A), D1 k (fun _ => c) = repeat c k.
Proof. intros. unfold D1. apply map_const_repeat. Qed.

Lemma D2_const : forall {A} m k (c : A), D2 m k (fun _ _ => c) = repeat c (m * k).
Proof.
  intros. unfold D2. rewrite (flat_map_ext_in _ (fun _ => repeat c k)) by (intros; apply D1_const).
  apply flat_map_const_repeat.
Qed.

Lemma D3_const : forall {A} n m k (c : A), D3 n m k (fun _ _ _ => c) = repeat c (n * (m * k)).
Proof.
  intros. unfold D3. rewrite (flat_map_ext_in _ (fun _ => repeat c (m * k))) by (intros; apply D2_const).
  apply flat_map_const_repeat.
Qed.

Lemma nth_D1 : forall {A} k (f : nat -> A) l d, (l < k)%nat -> nth l (D1 k f) d = f l.
Proof. intros. unfold D1. now apply nth_map_seq. Qed.

Lemma nth_D2 : forall {A} m k (f : nat -> nat -> A) j l d, (j < m)%nat -> (l < k)%nat -> nth (j * k + l) (D2 m k f) d = f j l.
Proof.
  intros A m k f j l d Hj Hl. unfold D2.
  rewrite (nth_flat_map_const _ _ k j l 0%nat d) by (intros; try apply length_D1; try rewrite seq_length; lia).
  rewrite seq_nth by assumption. cbn [Nat.add]. now apply nth_D1.
Qed.

Lemma get3_D3 : forall n m k f i j l, (i < n)%nat -> (j < m)%nat -> (l < k)%nat -> get3 m k (D3 n m k f) i j l = f i j l.
Proof.
  intros n m k f i j l Hi Hj Hl. unfold get3, D3.
  replace ((i * m + j) * k + l)%nat with (i * (m * k) + (j * k + l))%nat by lia.
  assert (j * k + l < m * k)%nat by nia.
  rewrite (nth_flat_map_const _ _ (m * k)%nat i (j * k + l)%nat 0%nat CUndef)
    by (intros; try apply length_D2; try rewrite seq_length; lia).
  rewrite seq_nth by assumption. cbn [Nat.add]. now apply nth_D2.
Qed.

Lemma all_some_D3 : forall {A} n m k (F : nat -> nat -> nat -> option A) c,
  (forall i j l, (i < n)%nat -> (j < m)%nat -> (l < k)%nat -> F i j l = Some (c i j l)) ->
  all_some (D3 n m k F) = Some (D3 n m k c).
Proof.
  intros A n m k F c H. unfold D3. apply all_some_flat_map. intros i Hi. apply in_seq in Hi.
  unfold D2. apply all_some_flat_map. intros j Hj. apply in_seq in Hj.
  unfold D1. apply all_some_map_ext. intros l Hl. apply in_seq in Hl. apply H; lia.
Qed.

Lemma firstn_skipn_D1 : forall {A} k (f : nat -> A) lo len, (lo + len <= k)%nat ->
  firstn len (skipn lo (D1 k f)) = D1 len (fun l => f (lo + l)%nat).
Proof.
  intros A k f lo len H. unfold D1.
  replace k with (lo + (len + (k - lo - len)))%nat by lia.
  rewrite seq_app, map_app.
  rewrite skipn_app, skipn_all2 by (rewrite map_length, seq_length; lia).
  rewrite map_length, seq_length, Nat.sub_diag. cbn [skipn app].
  rewrite seq_app, map_app, firstn_app, firstn_all2 by (rewrite map_length, seq_length; lia).
  rewrite map_length, seq_length, Nat.sub_diag. cbn [firstn]. rewrite app_nil_r. cbn [Nat.add].
  rewrite <- (Nat.add_0_r lo) at 1. rewrite (Nat.add_comm lo 0).
  clear. generalize 0%nat. induction len as [|len IH]; intros s; [reflexivity|].
  cbn [seq map]. f_equal; [f_equal; lia|]. replace (S (s + lo)) with (S s + lo)%nat by lia. apply IH.
Qed.

(* ---- rows along the last dimension ----------------------------------------------------------------- *)
Lemma chunks_concat : forall {A} k (rows : list (list A)),
  Forall (fun r => length r = k) rows -> chunks (length rows) k (concat rows) = rows.
Proof.
  intros A k rows H. induction H as [|r rows Hr _ IH]; [reflexivity|].
  cbn [length chunks concat]. rewrite firstn_app, firstn_all2 by lia.
  replace (k - length r)%nat with 0%nat by lia. cbn [firstn]. rewrite app_nil_r.
  rewrite skipn_app, skipn_all2 by lia. replace (k - length r)%nat with 0%nat by lia. cbn [skipn app].
  now rewrite IH.
Qed.

Lemma Forall_D1 : forall {A} (P : A -> Prop) k f, (forall l, (l < k)%nat -> P (f l)) -> Forall P (D1 k f).
Proof.
  intros A P k f H. unfold D1. apply Forall_forall. intros x Hx. apply in_map_iff in Hx.
  destruct Hx as [l [<- Hl]]. apply in_seq in Hl. apply H. lia.
Qed.

Lemma Forall_D2 : forall {A} (P : A -> Prop) m k f, (forall j l, (j < m)%nat -> (l < k)%nat -> P (f j l)) -> Forall P (D2 m k f).
Proof.
  intros A P m k f H. unfold D2. apply Forall_forall. intros x Hx. apply in_flat_map in Hx.
  destruct Hx as [j [Hj Hx]]. apply in_seq in Hj.
  assert (F : Forall P (D1 k (f j))) by (apply Forall_D1; intros; apply H; lia).
  rewrite Forall_forall in F. now apply F.
Qed.

Lemma D3_rows : forall {A} n m k (f : nat -> nat -> nat -> A), D3 n m k f = concat (D2 n m (fun i j => D1 k (f i j))).
Proof.
  intros. unfold D3, D2 at 2. rewrite concat_flat_map'. apply flat_map_ext_in. intros i _.
  unfold D1 at 1. now rewrite concat_map_flat.
Qed.

Lemma D2_rows : forall {A} m k (f : nat -> nat -> A), D2 m k f = concat (D1 m (fun j => D1 k (f j))).
Proof. intros. unfold D2, D1 at 2. now rewrite concat_map_flat. Qed.

Lemma chunks_D3 : forall {A} n m k (f : nat -> nat -> nat -> A),
  chunks (numel [n; m]) k (D3 n m k f) = D2 n m (fun i j => D1 k (f i j)).
Proof.
  intros. rewrite D3_rows. replace (numel [n; m]) with (length (D2 n m (fun i j => D1 k (f i j)))).
  - apply chunks_concat. apply Forall_D2. intros. apply length_D1.
  - rewrite length_D2. cbn [numel fold_right]. lia.
Qed.

Lemma chunks_D2 : forall {A} m k (f : nat -> nat -> A),
  chunks (numel [m]) k (D2 m k f) = D1 m (fun j => D1 k (f j)).
Proof.
  intros. rewrite D2_rows. replace (numel [m]) with (length (D1 m (fun j => D1 k (f j)))).
  - apply chunks_concat. apply Forall_D1. intros. apply length_D1.
  - rewrite length_D1. cbn [numel fold_right]. lia.
Qed.

(* ---- tabulated tensors ------------------------------------------------------------------------------ *)
Definition C1 (k : nat) (f : nat -> cell) : itens := mkIT [k] (D1 k f).
Definition C2 (m k : nat) (f : nat -> nat -> cell) : itens := mkIT [m; k] (D2 m k f).
Definition C3 (n m k : nat) (f : nat -> nat -> nat -> cell) : itens := mkIT [n; m; k] (D3 n m k f).

Lemma rows_last_C3 : forall n m k f, rows_last (C3 n m k f) = Some ([n; m], k, D2 n m (fun i j => D1 k (f i j))).
Proof. intros. unfold rows_last, C3. cbn [ishape idata split_last removelast last]. now rewrite chunks_D3. Qed.

Lemma rows_last_C2 : forall m k f, rows_last (C2 m k f) = Some ([m], k, D1 m (fun j => D1 k (f j))).
Proof. intros. unfold rows_last, C2. cbn [ishape idata split_last removelast last]. now rewrite chunks_D2. Qed.

Lemma full_3 : forall n m k c, full [n; m; k] c = C3 n m k (fun _ _ _ => c).
Proof. intros. unfold full, C3. rewrite D3_const. cbn [numel fold_right]. now rewrite Nat.mul_1_r. Qed.

Lemma full_2 : forall m k c, full [m; k] c = C2 m k (fun _ _ => c).
Proof. intros. unfold full, C2. rewrite D2_const. cbn [numel fold_right]. now rewrite Nat.mul_1_r. Qed.

(* shape-changing operations that keep the row-major data *)
Lemma unsqueeze_C1_1 : forall n f, unsqueeze (C1 n f) 1 = Some (C2 n 1 (fun i _ => f i)).
Proof. intros. unfold unsqueeze, C1, C2. cbn. now rewrite D2_col. Qed.

Lemma unsqueeze_C2_2 : forall n m f, unsqueeze (C2 n m f) 2 = Some (C3 n m 1 (fun i j _ => f i j)).
Proof. intros. unfold unsqueeze, C2, C3. cbn. now rewrite D3_col. Qed.

Lemma view_C1_n11 : forall n f, view (C1 n f) [n; 1; 1]%nat = Some (C3 n 1 1 (fun i _ _ => f i)).
Proof.
  intros. unfold view, C1, C3. cbn [ishape idata numel fold_right].
  replace (n * 1 =? n * (1 * (1 * 1)))%nat with true by (symmetry; apply Nat.eqb_eq; lia).
  now rewrite D3_col, D2_col.
Qed.

(* x[..., c] *)
Lemma select_last_C3 : forall n m k f z p, wrap_dim k z = Some p ->
  select_last (C3 n m k f) z = Some (C2 n m (fun i j => f i j p)).
Proof.
  intros n m k f z p H. unfold select_last. rewrite rows_last_C3, H. unfold C2. f_equal. f_equal.
  rewrite map_D2. apply D2_ext. intros i j Hi Hj.
  destruct (Nat.lt_ge_cases p k) as [Hp|Hp]; [now apply nth_D1|].
  exfalso. unfold wrap_dim in H. destruct ((- Z.of_nat k <=? z)%Z && (z <? Z.of_nat k)%Z) eqn:E; [|discriminate].
  inversion H; subst p. destruct (z <? 0)%Z eqn:E2; lia.
Qed.

Lemma select_last_C2 : forall m k f z p, wrap_dim k z = Some p ->
  select_last (C2 m k f) z = Some (C1 m (fun j => f j p)).
Proof.
  intros m k f z p H. unfold select_last. rewrite rows_last_C2, H. unfold C1. f_equal. f_equal.
  rewrite map_D1. apply D1_ext. intros j Hj.
  destruct (Nat.lt_ge_cases p k) as [Hp|Hp]; [now apply nth_D1|].
  exfalso. unfold wrap_dim in H. destruct ((- Z.of_nat k <=? z)%Z && (z <? Z.of_nat k)%Z) eqn:E; [|discriminate].
  inversion H; subst p. destruct (z <? 0)%Z eqn:E2; lia.
Qed.

(* x[..., a:b] *)
Lemma slice_last_C3 : forall n m k f a b lo len,
  slice_bound k 0 a = lo -> (slice_bound k k b - lo)%nat = len -> (lo + len <= k)%nat ->
  slice_last (C3 n m k f) a b = Some (C3 n m len (fun i j l => f i j (lo + l)%nat)).
Proof.
  intros n m k f a b lo len Hlo Hlen Hk. unfold slice_last. rewrite rows_last_C3, Hlo, Hlen. unfold C3.
  cbn [app]. f_equal. f_equal. rewrite map_D2, D3_rows. f_equal. apply D2_ext. intros i j _ _.
  now apply firstn_skipn_D1.
Qed.

Lemma slice_last_C2 : forall m k f a b lo len,
  slice_bound k 0 a = lo -> (slice_bound k k b - lo)%nat = len -> (lo + len <= k)%nat ->
  slice_last (C2 m k f) a b = Some (C2 m len (fun j l => f j (lo + l)%nat)).
Proof.
  intros m k f a b lo len Hlo Hlen Hk. unfold slice_last. rewrite rows_last_C2, Hlo, Hlen. unfold C2.
  cbn [app]. f_equal. f_equal. rewrite map_D1, D2_rows. f_equal. apply D1_ext. intros j _.
  now apply firstn_skipn_D1.
Qed.

(* x[..., a:b] = v *)
Lemma combine_map_map' : forall {A B C} (f : A -> B) (g : A -> C) l, combine (map f l) (map g l) = map (fun x => (f x, g x)) l.
Proof. induction l as [|x l IH]; cbn; [reflexivity|now rewrite IH]. Qed.

Lemma combine_app' : forall {A B} (a1 a2 : list A) (b1 b2 : list B), length a1 = length b1 ->
  combine (a1 ++ a2) (b1 ++ b2) = combine a1 b1 ++ combine a2 b2.
Proof.
  induction a1 as [|x a1 IH]; intros a2 b1 b2 H; destruct b1 as [|y b1]; cbn in *; try discriminate; [reflexivity|].
  rewrite IH by lia. reflexivity.
Qed.

Lemma combine_D1 : forall {A B} k (f : nat -> A) (g : nat -> B), combine (D1 k f) (D1 k g) = D1 k (fun l => (f l, g l)).
Proof. intros. unfold D1. apply combine_map_map'. Qed.

Lemma combine_D2 : forall {A B} m k (f : nat -> nat -> A) (g : nat -> nat -> B),
  combine (D2 m k f) (D2 m k g) = D2 m k (fun j l => (f j l, g j l)).
Proof.
  intros. unfold D2. induction (seq 0 m) as [|j s IH]; [reflexivity|]. cbn [flat_map].
  rewrite combine_app' by now rewrite !length_D1. now rewrite IH, combine_D1.
Qed.

Lemma map_seq_from : forall {A} (H : nat -> A) s n, map H (seq s n) = map (fun l => H (s + l)%nat) (seq 0 n).
Proof.
  intros A H s n. revert s H. induction n as [|n IH]; intros s H; [reflexivity|].
  cbn [seq map]. rewrite Nat.add_0_r. f_equal. rewrite (IH (S s)), (IH 1%nat).
  apply map_ext. intros l. f_equal. lia.
Qed.

Lemma D1_three_parts : forall {A} k lo len (H : nat -> A), (lo + len <= k)%nat ->
  D1 k H = D1 lo H ++ D1 len (fun l => H (lo + l)%nat) ++ D1 (k - lo - len) (fun l => H (lo + len + l)%nat).
Proof.
  intros A k lo len H Hk. unfold D1.
  replace k with (lo + (len + (k - lo - len)))%nat at 1 by lia.
  rewrite seq_app, map_app. cbn [Nat.add]. rewrite seq_app, map_app.
  now rewrite (map_seq_from H lo len), (map_seq_from H (lo + len)).
Qed.

Definition merge3 {A} (lo len : nat) (f g : nat -> A) (l : nat) : A :=
  if (l <? lo)%nat then f l else if (l <? lo + len)%nat then g (l - lo)%nat else f l.

Lemma set_row : forall {A} k lo len (F G : nat -> A), (lo + len <= k)%nat ->
  firstn lo (D1 k F) ++ D1 len G ++ skipn (lo + len) (D1 k F) = D1 k (merge3 lo len F G).
Proof.
  intros A k lo len F G Hk.
  rewrite (D1_three_parts k lo len (merge3 lo len F G) Hk).
  replace (firstn lo (D1 k F)) with (firstn lo (skipn 0 (D1 k F))) by reflexivity.
  rewrite (firstn_skipn_D1 k F 0 lo) by lia.
  rewrite <- (firstn_all2 (n := (k - lo - len)%nat) (skipn (lo + len) (D1 k F)))
    by (rewrite skipn_length, length_D1; lia).
  rewrite (firstn_skipn_D1 k F (lo + len) (k - lo - len)) by lia.
  f_equal; [|f_equal]; apply D1_ext; intros l Hl; unfold merge3; cbn [Nat.add].
  - destruct (Nat.ltb_spec l lo); [reflexivity|lia].
  - destruct (Nat.ltb_spec (lo + l) lo); [lia|]. destruct (Nat.ltb_spec (lo + l) (lo + len)); [|lia]. f_equal. lia.
  - destruct (Nat.ltb_spec (lo + len + l) lo); [lia|]. destruct (Nat.ltb_spec (lo + len + l) (lo + len)); [lia|reflexivity].
Qed.

Lemma set_slice_last_C3 : forall n m k f a b lo len g,
  slice_bound k 0 a = lo -> (slice_bound k k b - lo)%nat = len -> (lo + len <= k)%nat ->
  set_slice_last (C3 n m k f) a b (C3 n m len g) = Some (C3 n m k (fun i j => merge3 lo len (f i j) (g i j))).
Proof.
  intros n m k f a b lo len g Hlo Hlen Hk. unfold set_slice_last. rewrite rows_last_C3, Hlo, Hlen.
  cbn [C3 ishape idata app shape_eqb]. rewrite !Nat.eqb_refl. cbn [andb].
  rewrite chunks_D3, combine_D2, map_D2. unfold C3. f_equal. f_equal. rewrite D3_rows. f_equal.
  apply D2_ext. intros i j _ _. cbn [fst snd]. now apply set_row.
Qed.

(* ---- typed tabulated tensors: integer, boolean, integer-or-uninitialised ----------------------------- *)
Definition I1 (k : nat) (a : nat -> Z) : itens := C1 k (fun l => CInt (a l)).
Definition I2 (m k : nat) (a : nat -> nat -> Z) : itens := C2 m k (fun j l => CInt (a j l)).
Definition I3 (n m k : nat) (a : nat -> nat -> nat -> Z) : itens := C3 n m k (fun i j l => CInt (a i j l)).
Definition B2 (m k : nat) (b : nat -> nat -> bool) : itens := C2 m k (fun j l => CBool (b j l)).
Definition B3 (n m k : nat) (b : nat -> nat -> nat -> bool) : itens := C3 n m k (fun i j l => CBool (b i j l)).
Definition ocell (o : option Z) : cell := match o with Some z => CInt z | None => CUndef end.
Definition O3 (n m k : nat) (h : nat -> nat -> nat -> option Z) : itens := C3 n m k (fun i j l => ocell (h i j l)).
(* a 1-D tensor given by its list of elements *)
Definition V1 (d : list cell) : itens := mkIT [length d] d.

Lemma all_some_D2 : forall {A} m k (F : nat -> nat -> option A) c,
  (forall j l, (j < m)%nat -> (l < k)%nat -> F j l = Some (c j l)) -> all_some (D2 m k F) = Some (D2 m k c).
Proof.
  intros A m k F c H. unfold D2. apply all_some_flat_map. intros j Hj. apply in_seq in Hj.
  unfold D1. apply all_some_map_ext. intros l Hl. apply in_seq in Hl. apply H; lia.
Qed.

Lemma all_some_D1 : forall {A} k (F : nat -> option A) c,
  (forall l, (l < k)%nat -> F l = Some (c l)) -> all_some (D1 k F) = Some (D1 k c).
Proof. intros A k F c H. unfold D1. apply all_some_map_ext. intros l Hl. apply in_seq in Hl. apply H; lia. Qed.

(* Tensor.all(last dim) *)
Lemma all_row_bools : forall k (b : nat -> bool), all_row (D1 k (fun l => CBool (b l))) = Some (CBool (forallb (fun x => x) (D1 k b))).
Proof.
  intros. unfold all_row. rewrite map_D1. cbn [as_bool].
  rewrite (all_some_D1 k (fun l => Some (b l)) b) by reflexivity. reflexivity.
Qed.

Lemma all_last_B3 : forall n m k b,
  all_last (B3 n m k b) 2 = Some (B2 n m (fun i j => forallb (fun x => x) (D1 k (b i j)))).
Proof.
  intros. unfold all_last, B3. replace (is_last_dim (C3 n m k _) 2) with true by reflexivity.
  rewrite rows_last_C3, map_D2.
  rewrite (all_some_D2 n m _ (fun i j => CBool (forallb (fun x => x) (D1 k (b i j))))) by (intros; apply all_row_bools).
  reflexivity.
Qed.

(* Tensor.sum(last dim) *)
Lemma sum_row_ints : forall k (a : nat -> Z), sum_row (D1 k (fun l => CInt (a l))) = Some (CInt (zsum (D1 k a))).
Proof.
  intros. unfold sum_row. rewrite map_D1. cbn [as_int].
  rewrite (all_some_D1 k (fun l => Some (a l)) a) by reflexivity. reflexivity.
Qed.

Lemma sum_last_I2 : forall m k a, sum_last (I2 m k a) 1 = Some (I1 m (fun j => zsum (D1 k (a j)))).
Proof.
  intros. unfold sum_last, I2. replace (is_last_dim (C2 m k _) 1) with true by reflexivity.
  rewrite rows_last_C2, map_D1.
  rewrite (all_some_D1 m _ (fun j => CInt (zsum (D1 k (a j))))) by (intros; apply sum_row_ints).
  reflexivity.
Qed.

Lemma long_B2 : forall m k b, long (B2 m k b) = I2 m k (fun j l => if b j l then 1%Z else 0%Z).
Proof. intros. unfold long, B2, I2, C2. cbn [ishape idata]. now rewrite map_D2. Qed.

(* ---- expand ------------------------------------------------------------------------------------------ *)

Lemma bidx_in : forall n n' i, ((n =? n') || (n =? 1))%nat = true -> (i < n')%nat -> (bidx n i < n)%nat.
Proof.
  intros n n' i H Hi. unfold bidx. destruct (Nat.eqb_spec n 1); [lia|].
  destruct (Nat.eqb_spec n n'); [lia|discriminate].
Qed.

Lemma expand_C3 : forall n m k f n' m' k', expandable [n; m; k] [n'; m'; k'] = true ->
  expand (C3 n m k f) [n'; m'; k'] = Some (C3 n' m' k' (fun i j l => f (bidx n i) (bidx m j) (bidx k l))).
Proof.
  intros n m k f n' m' k' H. unfold expand. cbn [C3 ishape idata]. rewrite H. cbn [norm3].
  unfold C3. f_equal. f_equal. cbn [expandable] in H.
  apply andb_prop in H. destruct H as [H1 H]. apply andb_prop in H. destruct H as [H2 H].
  apply andb_prop in H. destruct H as [H3 _].
  apply D3_ext. intros i j l Hi Hj Hl. apply get3_D3; eauto using bidx_in.
Qed.

Lemma expand_C3_last : forall n m k f, expand (C3 n m 1 f) [n; m; k] = Some (C3 n m k (fun i j _ => f i j 0%nat)).
Proof.
  intros. rewrite expand_C3 by (cbn [expandable]; rewrite !Nat.eqb_refl, ?orb_true_r; reflexivity).
  unfold C3. f_equal. f_equal. apply D3_ext. intros i j l Hi Hj Hl. now rewrite !bidx_same by assumption.
Qed.

Lemma expand_C3_n11 : forall n m k f, expand (C3 n 1 1 f) [n; m; k] = Some (C3 n m k (fun i _ _ => f i 0%nat 0%nat)).
Proof.
  intros. rewrite expand_C3 by (cbn [expandable]; rewrite !Nat.eqb_refl, ?orb_true_r; reflexivity).
  unfold C3. f_equal. f_equal. apply D3_ext. intros i j l Hi Hj Hl. now rewrite !bidx_same by assumption.
Qed.

(* ---- broadcasting -------------------------------------------------------------------------------------- *)

Lemma bcast_tab : forall f a b na ma ka nb mb kb fa fb n m k c,
  norm3 (ishape a) = Some (na, ma, ka) -> idata a = D3 na ma ka fa ->
  norm3 (ishape b) = Some (nb, mb, kb) -> idata b = D3 nb mb kb fb ->
  bdim na nb = Some n -> bdim ma mb = Some m -> bdim ka kb = Some k ->
  (forall i j l, (i < n)%nat -> (j < m)%nat -> (l < k)%nat ->
     f (fa (bidx na i) (bidx ma j) (bidx ka l)) (fb (bidx nb i) (bidx mb j) (bidx kb l)) = Some (c i j l)) ->
  bcast f a b = Some (mkIT (skipn (3 - Nat.max (ndim a) (ndim b)) [n; m; k]) (D3 n m k c)).
Proof.
  intros f a b na ma ka nb mb kb fa fb n m k c Ha Da Hb Db Hn Hm Hk H.
  unfold bcast. rewrite Ha, Hb, Hn, Hm, Hk, Da, Db.
  rewrite (all_some_D3 n m k _ c); [reflexivity|].
  intros i j l Hi Hj Hl. rewrite !get3_D3 by eauto using bidx_lt_l, bidx_lt_r. now apply H.
Qed.

Lemma data_C1 : forall k f, idata (C1 k f) = D3 1 1 k (fun _ _ => f).
Proof. intros. cbn [C1 idata]. now rewrite D3_1, D2_1. Qed.

Lemma data_C2 : forall m k f, idata (C2 m k f) = D3 1 m k (fun _ => f).
Proof. intros. cbn [C2 idata]. now rewrite D3_1. Qed.

(* (n, m, k) op python int *)
Lemma compare_I3_scalar : forall o n m k a z,
  compare o (I3 n m k a) (scalar_int z) = Some (B3 n m k (fun i j l => zcmp o (a i j l) z)).
Proof.
  intros. unfold compare.
  rewrite (bcast_tab (cmp_cell o) (I3 n m k a) (scalar_int z) n m k 1 1 1 _ (fun _ _ _ => CInt z) n m k (fun i j l => CBool (zcmp o (a i j l) z))
             eq_refl eq_refl eq_refl eq_refl (bdim_1_r n) (bdim_1_r m) (bdim_1_r k)).
  - reflexivity.
  - intros i j l Hi Hj Hl. now rewrite !bidx_same by assumption.
Qed.

(* (n, m, k) + (n, m, k), the left operand possibly uninitialised *)
Lemma add_O3_I3 : forall n m k h a,
  add (O3 n m k h) (I3 n m k a) = Some (O3 n m k (fun i j l => option_map (fun z => (z + a i j l)%Z) (h i j l))).
Proof.
  intros. unfold add.
  rewrite (bcast_tab add_cell (O3 n m k h) (I3 n m k a) n m k n m k _ _ n m k (fun i j l => ocell (option_map (fun z => (z + a i j l)%Z) (h i j l)))
             eq_refl eq_refl eq_refl eq_refl (bdim_same n) (bdim_same m) (bdim_same k)).
  - reflexivity.
  - intros i j l Hi Hj Hl. rewrite !bidx_same by assumption. destruct (h i j l); reflexivity.
Qed.

(* ---- boolean-mask selection -------------------------------------------------------------------------------- *)
Lemma select_app : forall d1 m1 d2 m2 r1 r2,
  select d1 m1 = Some r1 -> select d2 m2 = Some r2 -> select (d1 ++ d2) (m1 ++ m2) = Some (r1 ++ r2).
Proof.
  induction d1 as [|x d1 IH]; intros m1 d2 m2 r1 r2 H1 H2; destruct m1 as [|c m1]; cbn in H1; try discriminate.
  - inversion H1; subst. exact H2.
  - destruct c as [z|bb|]; try discriminate. cbn [app select].
    destruct (select d1 m1) as [r|] eqn:E; [|discriminate]. rewrite (IH m1 d2 m2 r r2 E H2).
    cbn in H1 |- *. inversion H1; subst. destruct bb; reflexivity.
Qed.

Lemma select_flat_map : forall {A} (F M : A -> list cell) c l,
  (forall x, In x l -> select (F x) (M x) = Some (c x)) -> select (flat_map F l) (flat_map M l) = Some (flat_map c l).
Proof.
  induction l as [|x l IH]; intros H; [reflexivity|]. cbn [flat_map].
  apply select_app; [apply H; now left|apply IH; intros; apply H; now right].
Qed.

Lemma select_row_const : forall k f bb, select (D1 k f) (D1 k (fun _ => CBool bb)) = Some (if bb then D1 k f else []).
Proof.
  intros k f bb. unfold D1. induction (seq 0 k) as [|l s IH]; [now destruct bb|].
  cbn [map select]. rewrite IH. destruct bb; reflexivity.
Qed.

(* the elements of the rows (i, j) with b i j, in row-major order *)
Definition sel3 (n m k : nat) (f : nat -> nat -> nat -> cell) (b : nat -> nat -> bool) : list cell :=
  flat_map (fun i => flat_map (fun j => if b i j then D1 k (f i j) else []) (seq 0 m)) (seq 0 n).

Lemma masked_select_C3 : forall n m k f b,
  masked_select (C3 n m k f) (B3 n m k (fun i j _ => b i j)) = Some (V1 (sel3 n m k f b)).
Proof.
  intros. unfold masked_select, B3, C3. cbn [ishape idata shape_eqb]. rewrite !Nat.eqb_refl. cbn [andb].
  unfold D3, D2. rewrite (select_flat_map _ _ (fun i => flat_map (fun j => if b i j then D1 k (f i j) else []) (seq 0 m))).
  - reflexivity.
  - intros i _. apply select_flat_map. intros j _. apply select_row_const.
Qed.

(* ---- masked_scatter_ of such a selection into prefix masks ------------------------------------------------- *)
Lemma scatter_true_block : forall s1 d1 d2 m2 rest, length d1 = length s1 ->
  scatter (d1 ++ d2) (repeat (CBool true) (length s1) ++ m2) (s1 ++ rest) = option_map (app s1) (scatter d2 m2 rest).
Proof.
  induction s1 as [|x s1 IH]; intros d1 d2 m2 rest H; destruct d1 as [|y d1]; cbn in H; try discriminate.
  - cbn. now destruct (scatter d2 m2 rest).
  - cbn [length repeat app scatter]. rewrite IH by lia. now destruct (scatter d2 m2 rest).
Qed.

Lemma scatter_false_block : forall d1 d2 m2 src,
  scatter (d1 ++ d2) (repeat (CBool false) (length d1) ++ m2) src = option_map (app d1) (scatter d2 m2 src).
Proof.
  induction d1 as [|y d1 IH]; intros d2 m2 src.
  - cbn. now destruct (scatter d2 m2 src).
  - cbn [length repeat app scatter]. rewrite IH. now destruct (scatter d2 m2 src).
Qed.

Lemma scatter_rows : forall (dflt : cell) R k (cnt : nat -> nat) (srow : nat -> list cell) l rest,
  (forall n, In n l -> (cnt n <= R)%nat /\ length (srow n) = (cnt n * k)%nat) ->
  scatter (flat_map (fun _ => repeat dflt (R * k)) l)
          (flat_map (fun n => repeat (CBool true) (cnt n * k) ++ repeat (CBool false) ((R - cnt n) * k)) l)
          (flat_map srow l ++ rest)
  = Some (flat_map (fun n => srow n ++ repeat dflt ((R - cnt n) * k)) l).
Proof.
  intros dflt R k cnt srow l. induction l as [|n l IH]; intros rest H; [reflexivity|].
  destruct (H n (or_introl eq_refl)) as [Hc Hl]. cbn [flat_map].
  assert (E : repeat dflt (R * k) = repeat dflt (length (srow n)) ++ repeat dflt ((R - cnt n) * k)).
  { rewrite <- repeat_app. f_equal. nia. }
  rewrite E at 1. rewrite <- !app_assoc. rewrite <- Hl at 1.
  rewrite scatter_true_block by now rewrite repeat_length.
  rewrite <- (repeat_length dflt ((R - cnt n) * k)) at 2.
  rewrite scatter_false_block, IH by (intros; apply H; now right).
  reflexivity.
Qed.

Lemma prefix_mask_row : forall R k c (p : nat -> bool), (c <= R)%nat ->
  (forall r, (r < R)%nat -> p r = (r <? c)%nat) ->
  D2 R k (fun r _ => CBool (p r)) = repeat (CBool true) (c * k) ++ repeat (CBool false) ((R - c) * k).
Proof.
  intros R k c p Hc Hp. unfold D2.
  replace R with (c + (R - c))%nat at 1 by lia. rewrite seq_app, flat_map_app. cbn [Nat.add]. f_equal.
  - rewrite (flat_map_ext_in _ (fun _ => repeat (CBool true) k)).
    + apply flat_map_const_repeat.
    + intros r Hr. apply in_seq in Hr. rewrite Hp by lia. replace (r <? c)%nat with true by (symmetry; apply Nat.ltb_lt; lia).
      apply D1_const.
  - rewrite (flat_map_ext_in _ (fun _ => repeat (CBool false) k)).
    + apply flat_map_const_repeat.
    + intros r Hr. apply in_seq in Hr. rewrite Hp by lia. replace (r <? c)%nat with false by (symmetry; apply Nat.ltb_ge; lia).
      apply D1_const.
Qed.

Lemma flat_map_filter : forall {A B} (p : A -> bool) (g : A -> list B) l,
  flat_map (fun x => if p x then g x else []) l = flat_map g (filter p l).
Proof.
  induction l as [|x l IH]; [reflexivity|]. cbn [flat_map filter]. destruct (p x); cbn [flat_map app]; now rewrite IH.
Qed.

Lemma flat_map_nth_seq : forall {A B} (g : A -> list B) (ki : list A) d,
  flat_map (fun r => g (nth r ki d)) (seq 0 (length ki)) = flat_map g ki.
Proof.
  intros A B g ki d. rewrite <- (flat_map_map' (fun r => nth r ki d) g). f_equal.
  induction ki as [|x ki IH]; [reflexivity|]. cbn [length seq map nth]. f_equal.
  rewrite <- seq_shift, map_map. exact IH.
Qed.

Lemma filter_len_le' : forall {A} (p : A -> bool) l, (length (filter p l) <= length l)%nat.
Proof. induction l as [|x l IH]; cbn; [lia|]. destruct (p x); cbn; lia. Qed.

(* the positions kept in row i, and what row r of the scattered tensor holds *)
Definition kept_idx (m : nat) (b : nat -> bool) : list nat := filter b (seq 0 m).

Lemma length_flat_map_D1 : forall {A} k (g : nat -> nat -> A) (ki : list nat),
  length (flat_map (fun p => D1 k (g p)) ki) = (length ki * k)%nat.
Proof. intros. apply length_flat_map_const. intros. apply length_D1. Qed.

Theorem scatter_of_select : forall n m k (a : nat -> nat -> nat -> Z) (b : nat -> nat -> bool) (lens : nat -> Z),
  (forall i, (i < n)%nat -> lens i = Z.of_nat (length (kept_idx m (b i)))) ->
  masked_scatter (C3 n m k (fun _ _ _ => CUndef))
                 (B3 n m k (fun i j _ => (lens i >? Z.of_nat j)%Z))
                 (V1 (sel3 n m k (fun i j l => CInt (a i j l)) b))
  = Some (O3 n m k (fun i r l => option_map (fun p => a i p l) (nth_error (kept_idx m (b i)) r))).
Proof.
  intros n m k a b lens Hlens. unfold masked_scatter, B3, C3, V1. cbn [ishape idata shape_eqb].
  rewrite !Nat.eqb_refl. cbn [andb].
  set (cnt := fun i => length (kept_idx m (b i))).
  set (srow := fun i => flat_map (fun p => D1 k (fun l => CInt (a i p l))) (kept_idx m (b i))).
  assert (Hcnt : forall i, (cnt i <= m)%nat).
  { intros i. unfold cnt, kept_idx. etransitivity; [apply filter_len_le'|]. now rewrite seq_length. }
  assert (Hd : D3 n m k (fun _ _ _ => CUndef) = flat_map (fun _ => repeat CUndef (m * k)) (seq 0 n)).
  { unfold D3. apply flat_map_ext_in. intros; apply D2_const. }
  assert (Hm : D3 n m k (fun i j _ => CBool (lens i >? Z.of_nat j)%Z)
               = flat_map (fun i => repeat (CBool true) (cnt i * k) ++ repeat (CBool false) ((m - cnt i) * k)) (seq 0 n)).
  { unfold D3. apply flat_map_ext_in. intros i Hi. apply in_seq in Hi.
    apply (prefix_mask_row m k (cnt i) (fun j => (lens i >? Z.of_nat j)%Z) (Hcnt i)).
    intros r Hr. rewrite Hlens by lia. fold (cnt i).
    destruct (Nat.ltb_spec r (cnt i)); [apply Z.gtb_lt; lia|].
    rewrite Z.gtb_ltb. apply Z.ltb_ge. lia. }
  assert (Hs : sel3 n m k (fun i j l => CInt (a i j l)) b = flat_map srow (seq 0 n)).
  { unfold sel3, srow, kept_idx. apply flat_map_ext_in. intros i _. apply flat_map_filter. }
  rewrite Hd, Hm, Hs, <- (app_nil_r (flat_map srow (seq 0 n))).
  rewrite (scatter_rows CUndef m k cnt srow (seq 0 n) []).
  - cbn [option_map]. unfold O3, C3. f_equal. f_equal. unfold D3. apply flat_map_ext_in. intros i _.
    unfold D2. replace m with (cnt i + (m - cnt i))%nat at 2 by (specialize (Hcnt i); lia).
    rewrite seq_app, flat_map_app. cbn [Nat.add]. f_equal.
    + unfold srow, cnt. rewrite <- (flat_map_nth_seq (fun p => D1 k (fun l => CInt (a i p l))) (kept_idx m (b i)) 0%nat).
      apply flat_map_ext_in. intros r Hr. apply in_seq in Hr.
      rewrite (nth_error_nth' _ 0%nat) by lia. reflexivity.
    + rewrite (flat_map_ext_in _ (fun _ => repeat CUndef k)).
      * symmetry. apply flat_map_const_repeat.
      * intros r Hr. apply in_seq in Hr. fold (cnt i) in Hr.
        replace (nth_error (kept_idx m (b i)) r) with (@None nat) by (symmetry; apply nth_error_None; fold (cnt i); lia).
        cbn [option_map ocell]. apply D1_const.
  - intros i _. split; [apply Hcnt|]. unfold srow, cnt. apply length_flat_map_D1.
Qed.
