(* MiniTorch, unit C01Src — the algebra of OpsC01.v needed by the C01 tie (no new definitions of
   meaning): the encoding round trip, broadcasting on the shapes `_string_matching` meets, slices /
   rows of tabulated matrices, the reduction along a dimension, gather, and the arithmetic of floats
   that are integers over a common denominator ([qz s z] = z / s in lowest terms). *)
From Coq Require Import List ZArith QArith Bool Arith Lia ZifyBool ZifyNat.
From Coq Require String.
From PV Require Import MiniPy.Syntax MiniTorch.Ops MiniTorch.Lemmas MiniTorch.OpsC07 MiniTorch.LemmasC07 MiniTorch.OpsC01.
Import ListNotations.
Local Open Scope nat_scope.

(* ---- encoding round trip ------------------------------------------------------------------------------ *)
Lemma val_fx_val : forall x, val_fx (fx_val x) = Some x.
Proof. intros [q| | |]; reflexivity. Qed.

Lemma dec01_enc_b : forall t, dec01 (enc_b t) = Some (AB t).
Proof.
  intros [sh d]. unfold dec01, enc_b, enc_shape. cbn [shp dat]. rewrite dec_nats_enc.
  change (String.eqb tag_bool tag_bool) with true. cbv iota.
  rewrite (dec_list_map val_bool VBool) by reflexivity. reflexivity.
Qed.

Lemma dec01_enc_i : forall t, dec01 (enc_i t) = Some (AI t).
Proof.
  intros [sh d]. unfold dec01, enc_i, enc_shape. cbn [shp dat]. rewrite dec_nats_enc.
  change (String.eqb tag_long tag_bool) with false. change (String.eqb tag_long tag_long) with true. cbv iota.
  rewrite (dec_list_map val_int VInt) by reflexivity. reflexivity.
Qed.

Lemma dec01_enc_x : forall t, dec01 (enc_x t) = Some (AX t).
Proof.
  intros [sh d]. unfold dec01, enc_x, enc_shape. cbn [shp dat]. rewrite dec_nats_enc.
  change (String.eqb tag_float tag_bool) with false. change (String.eqb tag_float tag_long) with false.
  change (String.eqb tag_float tag_float) with true. cbv iota.
  rewrite (dec_list_map val_fx fx_val) by apply val_fx_val. reflexivity.
Qed.

(* ---- lists --------------------------------------------------------------------------------------------- *)
Lemma tab2_length : forall {X} O I (f : nat -> nat -> X), length (tab2 O I f) = O * I.
Proof. intros. unfold tab2. apply length_plane. Qed.

Lemma tab2_S : forall {X} O I (f : nat -> nat -> X),
  tab2 (S O) I f = map (f 0) (seq 0 I) ++ tab2 O I (fun i j => f (S i) j).
Proof.
  intros. unfold tab2. cbn [seq flat_map]. f_equal.
  rewrite <- seq_shift, flat_map_concat_map, map_map, <- flat_map_concat_map. reflexivity.
Qed.

Lemma tab2_snoc : forall {X} O I (f : nat -> nat -> X),
  tab2 (S O) I f = tab2 O I f ++ map (f O) (seq 0 I).
Proof. intros. unfold tab2. rewrite seq_S, flat_map_app. cbn [flat_map Nat.add]. now rewrite app_nil_r. Qed.

Lemma tab2_1 : forall {X} I (f : nat -> nat -> X), tab2 1 I f = map (f 0) (seq 0 I).
Proof. intros. unfold tab2. cbn [seq flat_map]. apply app_nil_r. Qed.

Lemma tab2_col1 : forall {X} O (f : nat -> nat -> X), tab2 O 1 f = map (fun i => f i 0) (seq 0 O).
Proof. intros. unfold tab2. cbn [seq map]. apply (flat_map_singleton (fun i => f i 0)). Qed.

Lemma tab3_1 : forall {X} N I (f : nat -> nat -> nat -> X), tab3 1 N I f = tab2 N I (f 0).
Proof. intros. unfold tab3, tab2. cbn [seq flat_map]. apply app_nil_r. Qed.

Lemma tab3_col1 : forall {X} O N (f : nat -> nat -> nat -> X), tab3 O N 1 f = tab2 O N (fun o t => f o t 0).
Proof.
  intros. unfold tab3, tab2. apply flat_map_ext_seq. intros o Ho. cbn [seq map].
  apply (flat_map_singleton (fun t => f o t 0)).
Qed.

(* rows lo .. of a tabulated matrix *)
Lemma skipn_tab2 : forall {X} lo O I (f : nat -> nat -> X),
  skipn (lo * I) (tab2 (lo + O) I f) = tab2 O I (fun i j => f (lo + i) j).
Proof.
  induction lo as [|lo IH]; intros O I f; [reflexivity|].
  cbn [Nat.add]. rewrite tab2_S. cbn [Nat.mul].
  rewrite skipn_app, length_row. rewrite (skipn_all2 (map _ _)) by (rewrite length_row; lia).
  replace (I + lo * I - I) with (lo * I) by lia. cbn [app]. rewrite IH. reflexivity.
Qed.

Lemma firstn_tab2 : forall {X} O O' I (f : nat -> nat -> X),
  firstn (O * I) (tab2 (O + O') I f) = tab2 O I f.
Proof.
  induction O as [|O IH]; intros O' I f; [reflexivity|].
  cbn [Nat.add]. rewrite !tab2_S. cbn [Nat.mul].
  rewrite firstn_app, length_row. rewrite (firstn_all2 (map _ _)) by (rewrite length_row; lia).
  replace (I + O * I - I) with (O * I) by lia. rewrite IH. reflexivity.
Qed.

Lemma skipn_tab2_1 : forall {X} O I (f : nat -> nat -> X),
  skipn I (tab2 (S O) I f) = tab2 O I (fun i j => f (S i) j).
Proof.
  intros. rewrite tab2_S, skipn_app, length_row, Nat.sub_diag. cbn [skipn].
  rewrite skipn_all2 by (rewrite length_row; lia). reflexivity.
Qed.

Lemma repeat_as_map : forall {X} (v : X) n, repeat v n = map (fun _ => v) (seq 0 n).
Proof.
  intros X v n. induction n as [|n IH]; [reflexivity|]. cbn [repeat seq map]. f_equal.
  rewrite <- seq_shift, map_map. exact IH.
Qed.

Lemma repeat_tab2 : forall {X} (v : X) O I, repeat v (O * I) = tab2 O I (fun _ _ => v).
Proof.
  intros X v O I. induction O as [|O IH]; [reflexivity|].
  rewrite tab2_S, <- IH. cbn [Nat.mul]. rewrite repeat_app, repeat_as_map. reflexivity.
Qed.

Lemma bdim_refl : forall n, bdim n n = Some n.
Proof. intros n. unfold bdim. now rewrite Nat.eqb_refl. Qed.

(* ---- broadcasting: the general two- and three-dimensional walks ------------------------------------------ *)
Lemma bc_data_2 : forall {X Y W} (f : X -> Y -> W) dx dy a1 a2 b1 b2 n1 n2 la lb,
  bdim a1 b1 = Some n1 -> bdim a2 b2 = Some n2 ->
  bc_data f dx dy [a1; a2] [b1; b2] la lb 0 0 =
  tab2 n1 n2 (fun i j => f (nth (bidx a1 i * a2 + bidx a2 j) la dx) (nth (bidx b1 i * b2 + bidx b2 j) lb dy)).
Proof.
  intros X Y W f dx dy a1 a2 b1 b2 n1 n2 la lb H1 H2. cbn [bc_data]. rewrite H1. unfold tab2.
  apply flat_map_ext_seq. intros i Hi. rewrite H2. cbn [Nat.mul Nat.add].
  apply (flat_map_singleton (fun j => f (nth (bidx a1 i * a2 + bidx a2 j) la dx) (nth (bidx b1 i * b2 + bidx b2 j) lb dy))).
Qed.

Lemma bc_data_3 : forall {X Y W} (f : X -> Y -> W) dx dy a1 a2 a3 b1 b2 b3 n1 n2 n3 la lb,
  bdim a1 b1 = Some n1 -> bdim a2 b2 = Some n2 -> bdim a3 b3 = Some n3 ->
  bc_data f dx dy [a1; a2; a3] [b1; b2; b3] la lb 0 0 =
  tab3 n1 n2 n3 (fun i j k => f (nth ((bidx a1 i * a2 + bidx a2 j) * a3 + bidx a3 k) la dx)
                                 (nth ((bidx b1 i * b2 + bidx b2 j) * b3 + bidx b3 k) lb dy)).
Proof.
  intros X Y W f dx dy a1 a2 a3 b1 b2 b3 n1 n2 n3 la lb H1 H2 H3. cbn [bc_data]. rewrite H1. unfold tab3.
  apply flat_map_ext_seq. intros i Hi. rewrite H2. apply flat_map_ext_seq. intros j Hj. rewrite H3.
  cbn [Nat.mul Nat.add].
  apply (flat_map_singleton (fun k => f (nth ((bidx a1 i * a2 + bidx a2 j) * a3 + bidx a3 k) la dx)
                                          (nth ((bidx b1 i * b2 + bidx b2 j) * b3 + bidx b3 k) lb dy))).
Qed.

(* two operands of at most two dimensions: the walk over the padded shapes, up to a pointwise description k *)
Lemma broadcast_2 : forall {X Y W} (f : X -> Y -> W) dx dy a1 a2 b1 b2 n1 n2 (ta : tn X) (tb : tn Y) k,
  pad_shape (Nat.max (rank ta) (rank tb)) (shp ta) = [a1; a2] ->
  pad_shape (Nat.max (rank ta) (rank tb)) (shp tb) = [b1; b2] ->
  bdim a1 b1 = Some n1 -> bdim a2 b2 = Some n2 ->
  (forall i j, i < n1 -> j < n2 ->
     f (nth (bidx a1 i * a2 + bidx a2 j) (dat ta) dx) (nth (bidx b1 i * b2 + bidx b2 j) (dat tb) dy) = k i j) ->
  broadcast f dx dy ta tb = Some (mkTn [n1; n2] (tab2 n1 n2 k)).
Proof.
  intros X Y W f dx dy a1 a2 b1 b2 n1 n2 ta tb k Ha Hb H1 H2 Hk. unfold broadcast. rewrite Ha, Hb.
  cbn [bc_shape]. rewrite H1, H2. rewrite (bc_data_2 f dx dy a1 a2 b1 b2 n1 n2) by assumption.
  do 2 f_equal. apply tab2_ext. exact Hk.
Qed.

(* equal shapes, two dimensions *)
Lemma broadcast_same2 : forall {X Y W} (f : X -> Y -> W) dx dy A B g h,
  broadcast f dx dy (mkTn [A; B] (tab2 A B g)) (mkTn [A; B] (tab2 A B h)) =
  Some (mkTn [A; B] (tab2 A B (fun i j => f (g i j) (h i j)))).
Proof.
  intros. apply (broadcast_2 f dx dy A B A B); [reflexivity | reflexivity | apply bdim_refl | apply bdim_refl | ].
  intros i j Hi Hj. cbn [dat]. rewrite (bidx_same A i), (bidx_same B j) by assumption. now rewrite !nth_tab2.
Qed.

(* equal shapes, one dimension *)
Lemma broadcast_same1 : forall {X Y W} (f : X -> Y -> W) dx dy B g h,
  broadcast f dx dy (mkTn [B] (map g (seq 0 B))) (mkTn [B] (map h (seq 0 B))) =
  Some (mkTn [B] (map (fun j => f (g j) (h j)) (seq 0 B))).
Proof.
  intros. unfold broadcast. cbn [rank shp dat length Nat.max pad_shape Nat.sub repeat app bc_shape bc_data].
  rewrite !bdim_refl. do 2 f_equal. cbn [Nat.mul Nat.add].
  rewrite (flat_map_singleton (fun j => f (nth (bidx B j) (map g (seq 0 B)) dx) (nth (bidx B j) (map h (seq 0 B)) dy))).
  apply map_ext_seq. intros j Hj. rewrite (bidx_same B j) by assumption. now rewrite !nth_map_seq.
Qed.

(* (A x B) against (B): the vector is repeated along the rows *)
Lemma broadcast_mat_row : forall {X Y W} (f : X -> Y -> W) dx dy A B g h,
  broadcast f dx dy (mkTn [A; B] (tab2 A B g)) (mkTn [B] (map h (seq 0 B))) =
  Some (mkTn [A; B] (tab2 A B (fun i j => f (g i j) (h j)))).
Proof.
  intros. apply (broadcast_2 f dx dy A B 1 B); [reflexivity | reflexivity | apply bdim_1_r | apply bdim_refl | ].
  intros i j Hi Hj. cbn [dat]. rewrite (bidx_same A i), (bidx_same B j) by assumption.
  now rewrite nth_tab2, nth_map_seq.
Qed.

(* (B) against (A x B) *)
Lemma broadcast_row_mat : forall {X Y W} (f : X -> Y -> W) dx dy A B g h,
  broadcast f dx dy (mkTn [B] (map g (seq 0 B))) (mkTn [A; B] (tab2 A B h)) =
  Some (mkTn [A; B] (tab2 A B (fun i j => f (g j) (h i j)))).
Proof.
  intros. apply (broadcast_2 f dx dy 1 B A B); [reflexivity | reflexivity | apply bdim_1_l | apply bdim_refl | ].
  intros i j Hi Hj. cbn [dat]. rewrite (bidx_same A i), (bidx_same B j) by assumption.
  now rewrite nth_tab2, nth_map_seq.
Qed.

(* (A x 1) against (B): the outer combination (i, j) -> f (g i) (h j) *)
Lemma broadcast_col_vec : forall {X Y W} (f : X -> Y -> W) dx dy A B g h,
  broadcast f dx dy (mkTn [A; 1] (map g (seq 0 A))) (mkTn [B] (map h (seq 0 B))) =
  Some (mkTn [A; B] (tab2 A B (fun i j => f (g i) (h j)))).
Proof.
  intros. apply (broadcast_2 f dx dy A 1 1 B); [reflexivity | reflexivity | apply bdim_1_r | apply bdim_1_l | ].
  intros i j Hi Hj. cbn [dat]. rewrite (bidx_same A i), (bidx_same B j) by assumption.
  replace (i * 1 + bidx 1 j) with i by (cbn; lia). now rewrite !nth_map_seq.
Qed.

Lemma broadcast_col_row : forall {X Y W} (f : X -> Y -> W) dx dy A g h,
  broadcast f dx dy (mkTn [A; 1] (map g (seq 0 A))) (mkTn [A] (map h (seq 0 A))) =
  Some (mkTn [A; A] (tab2 A A (fun i j => f (g i) (h j)))).
Proof. intros. apply broadcast_col_vec. Qed.

(* (A x C x 1) against (C x B): (i, j, k) -> f (g i j) (h j k) *)
Lemma broadcast_3_mat : forall {X Y W} (f : X -> Y -> W) dx dy A C B g h,
  broadcast f dx dy (mkTn [A; C; 1] (tab2 A C g)) (mkTn [C; B] (tab2 C B h)) =
  Some (mkTn [A; C; B] (tab3 A C B (fun i j k => f (g i j) (h j k)))).
Proof.
  intros. unfold broadcast. cbn [rank shp dat length Nat.max pad_shape Nat.sub repeat app bc_shape].
  rewrite bdim_1_r, bdim_refl, bdim_1_l.
  rewrite (bc_data_3 f dx dy A C 1 1 C B A C B) by (apply bdim_1_r || apply bdim_1_l || apply bdim_refl).
  do 2 f_equal. apply tab3_ext. intros i j k Hi Hj Hk. change (bidx 1 i) with 0. change (bidx 1 k) with 0.
  rewrite (bidx_same A i), (bidx_same C j), (bidx_same B k) by assumption. cbn [Nat.mul Nat.add].
  replace ((i * C + j) * 1 + 0) with (i * C + j) by lia. now rewrite !nth_tab2.
Qed.

(* ---- torch.where ------------------------------------------------------------------------------------------- *)
Lemma where_row_mat : forall A B c g h,
  where_f (mkTn [B] (map c (seq 0 B))) (mkTn [A; B] (tab2 A B g)) (mkTn [A; B] (tab2 A B h)) =
  Some (mkTn [A; B] (tab2 A B (fun i j => if c j then g i j else h i j))).
Proof. intros. unfold where_f. rewrite broadcast_row_mat, broadcast_same2. reflexivity. Qed.

Lemma where_same1 : forall B c g h,
  where_f (mkTn [B] (map c (seq 0 B))) (mkTn [B] (map g (seq 0 B))) (mkTn [B] (map h (seq 0 B))) =
  Some (mkTn [B] (map (fun j => if c j then g j else h j) (seq 0 B))).
Proof. intros. unfold where_f. rewrite !broadcast_same1. reflexivity. Qed.

(* ---- rows and slices of a tabulated matrix ---------------------------------------------------------------- *)
Lemma select0_mat : forall {X} A B (f : nat -> nat -> X) (t : nat), t < A ->
  select0 (mkTn [A; B] (tab2 A B f)) (Z.of_nat t) = Some (Some (mkTn [B] (map (f t) (seq 0 B)))).
Proof.
  intros X A B f t Ht. unfold select0. cbn [shp dat numel].
  replace (Z.of_nat t <? 0)%Z with false by lia.
  replace ((0 <=? Z.of_nat t) && (Z.of_nat t <? Z.of_nat A))%Z with true by lia.
  rewrite Nat2Z.id. do 3 f_equal.
  replace A with (t + S (A - S t)) by lia. rewrite skipn_tab2, tab2_S, firstn_app, length_row.
  rewrite Nat.sub_diag. cbn [firstn]. rewrite app_nil_r, firstn_all2 by (rewrite length_row; lia).
  apply map_ext. intros j. f_equal. lia.
Qed.

(* x[:-1] on (S R x B) *)
Lemma slice0_init : forall {X} R B (f : nat -> nat -> X),
  slice0 (mkTn [S R; B] (tab2 (S R) B f)) None (Some (-1)%Z) = Some (mkTn [R; B] (tab2 R B f)).
Proof.
  intros. unfold slice0. cbn [shp dat numel slice_bound].
  change (-1 <? 0)%Z with true. cbv iota.
  replace (Nat.min (S R) (Z.to_nat (-1 + Z.of_nat (S R)))) with R by lia.
  rewrite Nat.sub_0_r. cbn [Nat.mul skipn]. do 2 f_equal.
  replace (S R) with (R + 1) by lia. apply firstn_tab2.
Qed.

(* x[1:] on (S R x B) *)
Lemma slice0_tail : forall {X} R B (f : nat -> nat -> X),
  slice0 (mkTn [S R; B] (tab2 (S R) B f)) (Some 1%Z) None = Some (mkTn [R; B] (tab2 R B (fun i j => f (S i) j))).
Proof.
  intros. unfold slice0. cbn [shp dat numel slice_bound].
  change (1 <? 0)%Z with false. cbv iota. change (Z.to_nat 1) with 1.
  replace (Nat.min (S R) 1) with 1 by lia. replace (S R - 1) with R by lia.
  do 2 f_equal. rewrite Nat.mul_1_l, skipn_tab2_1. apply firstn_all2. rewrite tab2_length. lia.
Qed.

(* x[1:] = v on (S R x B) *)
Lemma set_slice0_tail : forall {X} R B (f g : nat -> nat -> X),
  set_slice0 (mkTn [S R; B] (tab2 (S R) B f)) (Some 1%Z) None (mkTn [R; B] (tab2 R B g)) =
  Some (mkTn [S R; B] (tab2 (S R) B (fun i j => match i with O => f 0 j | S i' => g i' j end))).
Proof.
  intros. unfold set_slice0. cbn [shp dat numel slice_bound].
  change (1 <? 0)%Z with false. cbv iota. change (Z.to_nat 1) with 1.
  replace (Nat.min (S R) 1) with 1 by lia. replace (S R - 1) with R by lia.
  rewrite nats_eqb_refl, tab2_length, Nat.eqb_refl. cbn [andb]. do 2 f_equal.
  replace (Nat.max 1 (S R)) with (S R) by lia.
  rewrite skipn_all2 by (rewrite tab2_length; lia). rewrite app_nil_r.
  rewrite (tab2_S R B (fun i j => match i with O => f 0 j | S i' => g i' j end)). f_equal.
  rewrite Nat.mul_1_l, tab2_S, firstn_app, length_row, Nat.sub_diag. cbn [firstn].
  rewrite app_nil_r. apply firstn_all2. rewrite length_row. lia.
Qed.

(* ---- shape-only ------------------------------------------------------------------------------------------------ *)
Lemma unsqueeze_1_0 : forall {X} N (d : list X), unsqueeze (mkTn [N] d) 0 = Some (mkTn [1; N] d).
Proof. reflexivity. Qed.
Lemma unsqueeze_1_1 : forall {X} N (d : list X), unsqueeze (mkTn [N] d) 1 = Some (mkTn [N; 1] d).
Proof. reflexivity. Qed.
Lemma unsqueeze_2_m1 : forall {X} A B (d : list X), unsqueeze (mkTn [A; B] d) (-1) = Some (mkTn [A; B; 1] d).
Proof. reflexivity. Qed.
Lemma squeeze_2_0 : forall {X} N (d : list X), squeeze_dim (mkTn [1; N] d) 0 = Some (mkTn [N] d).
Proof. reflexivity. Qed.

(* x.unsqueeze(1).expand(A, B) of a vector: every column is the vector *)
Lemma expand2_col : forall {X} (dflt : X) A B (g : nat -> X),
  expand2 dflt (mkTn [A; 1] (map g (seq 0 A))) (Z.of_nat A) (Z.of_nat B) =
  Some (mkTn [A; B] (tab2 A B (fun i _ => g i))).
Proof.
  intros. unfold expand2. cbn [shp dat]. unfold expand_size.
  replace (Z.of_nat A =? -1)%Z with false by lia. replace (Z.of_nat A <? 0)%Z with false by lia.
  replace (Z.of_nat B =? -1)%Z with false by lia. replace (Z.of_nat B <? 0)%Z with false by lia.
  rewrite !Nat2Z.id, Nat.eqb_refl.
  assert (E : (if B =? 1 then Some 1 else if 1 =? 1 then Some B else None) = Some B).
  { destruct (Nat.eqb_spec B 1); [now subst|reflexivity]. }
  rewrite E. do 2 f_equal. apply tab2_ext. intros i j Hi Hj. change (bidx 1 j) with 0.
  rewrite (bidx_same A i) by assumption. replace (i * 1 + 0) with i by lia. now apply nth_map_seq.
Qed.

Lemma transpose2_mat : forall {X} (d : X) A B (f : nat -> nat -> X),
  transpose2 d (mkTn [A; B] (tab2 A B f)) = Some (mkTn [B; A] (tab2 B A (fun j i => f i j))).
Proof.
  intros. unfold transpose2. cbn [shp dat]. do 2 f_equal. apply tab2_ext. intros j i Hj Hi. now apply nth_tab2.
Qed.

Lemma triu_mat : forall A B (f : nat -> nat -> fx) k,
  triu_f (mkTn [A; B] (tab2 A B f)) (Z.of_nat k) =
  Some (mkTn [A; B] (tab2 A B (fun i j => if i + k <=? j then f i j else Fq 0))).
Proof.
  intros. unfold triu_f. cbn [shp dat]. replace (Z.of_nat k <? 0)%Z with false by lia. rewrite Nat2Z.id.
  do 2 f_equal. apply tab2_ext. intros i j Hi Hj. now rewrite nth_tab2.
Qed.

Lemma full_mat : forall {X} (v : X) A B, full [A; B] v = mkTn [A; B] (tab2 A B (fun _ _ => v)).
Proof. intros. unfold full. cbn [numel]. now rewrite repeat_tab2. Qed.

Lemma full_vec : forall {X} (v : X) B, full [B] v = mkTn [B] (map (fun _ => v) (seq 0 B)).
Proof. intros. unfold full. cbn [numel]. now rewrite repeat_as_map. Qed.

Lemma arange_f_nat : forall n, arange_f (Z.of_nat n) = Some (mkTn [n] (map (fun i => z2f (Z.of_nat i)) (seq 0 n))).
Proof. intros. unfold arange_f. replace (Z.of_nat n <? 0)%Z with false by lia. now rewrite Nat2Z.id. Qed.

(* ---- gather along dimension 0 with one row of indices ------------------------------------------------------- *)
Lemma forallb_map_seq : forall {X} (p : X -> bool) (g : nat -> X) n,
  (forall i, i < n -> p (g i) = true) -> forallb p (map g (seq 0 n)) = true.
Proof.
  intros X p g n H. apply forallb_forall. intros x Hx. apply in_map_iff in Hx. destruct Hx as [i [<- Hi]].
  apply in_seq in Hi. apply H. lia.
Qed.

Lemma gather0_row : forall A B (f : nat -> nat -> fx) (g : nat -> nat), (forall j, j < B -> g j < A) ->
  gather0 (mkTn [A; B] (tab2 A B f)) (mkTn [1; B] (map (fun j => Z.of_nat (g j)) (seq 0 B))) =
  Some (mkTn [1; B] (map (fun j => f (g j) j) (seq 0 B))).
Proof.
  intros A B f g Hg. unfold gather0. cbn [shp dat]. rewrite Nat.eqb_refl. cbn [andb].
  rewrite forallb_map_seq by (intros j Hj; specialize (Hg j Hj); lia).
  do 2 f_equal. rewrite tab2_1. apply map_ext_seq. intros j Hj. cbn [Nat.mul Nat.add].
  rewrite nth_map_seq by assumption. rewrite Nat2Z.id. apply nth_tab2; auto.
Qed.

(* ---- the minimum along dimension 1 of (A x C x B) ------------------------------------------------------------ *)
Definition argmin_3 (A C B : nat) (g : nat -> nat -> nat -> fx) : tn Z :=
  mkTn [A; B] (tab2 A B (fun i k => let f := map (fun j => g i j k) (seq 0 C) in Z.of_nat (first_at (fmin_list f) f))).

Lemma min_dim_3 : forall A C B (g : nat -> nat -> nat -> fx), C <> 0 ->
  min_dim (mkTn [A; C; B] (tab3 A C B g)) 1 =
    Some (Some (mkTn [A; B] (tab2 A B (fun i k => fmin_list (map (fun j => g i j k) (seq 0 C)))), argmin_3 A C B g)).
Proof.
  intros A C B g HC. unfold min_dim, argmin_3. cbn [rank shp dat length]. change (wrap_dim 3 1) with (Some 1).
  cbv beta iota zeta. cbn [outer extent inner drop_dim firstn skipn nth numel app].
  replace (C =? 0) with false by (symmetry; now apply Nat.eqb_neq).
  do 3 f_equal; f_equal; apply tab2_ext; intros i k Hi Hk; now rewrite fibre_tab3.
Qed.

(* ---- OpsC07's cumsum / max of a boolean (T x B) tensor along dimension 0 (`_lens_from_eos(tok, eos, 0)`) ------ *)
Lemma fibre_tab2_0 : forall {X} (d : X) T B f b, b < B ->
  fibre d T B (tab2 T B f) 0 b = map (fun t => f t b) (seq 0 T).
Proof. intros. unfold fibre. apply map_ext_seq. intros t Ht. cbn [Nat.mul Nat.add]. now apply nth_tab2. Qed.

Lemma cumsum_bool_2 : forall T B m,
  cumsum_bool (mkTn [T; B] (tab2 T B m)) 0 =
  Some (mkTn [T; B] (tab2 T B (fun t b => nth t (run_sum 0 (map b2z (map (fun s => m s b) (seq 0 T)))) 0%Z))).
Proof.
  intros. unfold cumsum_bool. cbn [rank shp dat length]. change (wrap_dim 2 0) with (Some 0).
  cbv beta iota zeta. cbn [outer extent inner firstn skipn nth numel]. do 2 f_equal. rewrite tab3_1.
  apply tab2_ext. intros t b Ht Hb. now rewrite fibre_tab2_0.
Qed.

Lemma max_bool_2 : forall T B m, T <> 0 ->
  max_bool (mkTn [T; B] (tab2 T B m)) 0 =
  Some (Some (mkTn [B] (map (fun b => match first_true (map (fun t => m t b) (seq 0 T)) with
                                      | Some _ => true | None => false end) (seq 0 B)),
              mkTn [B] (map (fun b => match first_true (map (fun t => m t b) (seq 0 T)) with
                                      | Some j => Z.of_nat j | None => 0%Z end) (seq 0 B)))).
Proof.
  intros T B m HT. unfold max_bool. cbn [rank shp dat length]. change (wrap_dim 2 0) with (Some 0).
  cbv beta iota zeta. cbn [outer extent inner drop_dim firstn skipn nth numel app].
  replace (T =? 0) with false by (symmetry; now apply Nat.eqb_neq).
  rewrite !tab2_1. do 3 f_equal; f_equal; apply map_ext_seq; intros b Hb; now rewrite fibre_tab2_0.
Qed.

Lemma max_bool_2_empty : forall B d, max_bool (mkTn [0; B] d) 0 = Some None.
Proof. reflexivity. Qed.

(* ---- floats that are integers over a common denominator ------------------------------------------------------ *)
Definition qz (s : positive) (z : Z) : Q := Qred (z # s).

Lemma qz_eq : forall s z, qz s z == z # s.
Proof. intros. apply Qred_correct. Qed.

Lemma qz_add : forall s a b, Qred (qz s a + qz s b) = qz s (a + b).
Proof.
  intros. apply Qred_complete. rewrite !qz_eq. unfold Qeq, Qplus. cbn [Qnum Qden]. rewrite Pos2Z.inj_mul. ring.
Qed.

Lemma qz_sub : forall s a b, Qred (qz s a - qz s b) = qz s (a - b).
Proof.
  intros. apply Qred_complete. rewrite !qz_eq. unfold Qeq, Qminus, Qplus, Qopp. cbn [Qnum Qden].
  rewrite Pos2Z.inj_mul. ring.
Qed.

Lemma qz_add_0 : forall s a, Qred (qz s a + 0) = qz s a.
Proof. intros. apply Qred_complete. rewrite Qplus_0_r. apply Qred_correct. Qed.

Lemma qz_mul_int_l : forall s i c, Qred (inject_Z i * qz s c) = qz s (i * c).
Proof.
  intros. apply Qred_complete. rewrite !qz_eq. unfold Qeq, Qmult, inject_Z. cbn [Qnum Qden].
  rewrite Pos2Z.inj_mul. ring.
Qed.

Lemma qz_mul_int_r : forall s i c, Qred (qz s c * inject_Z i) = qz s (c * i).
Proof.
  intros. apply Qred_complete. rewrite !qz_eq. unfold Qeq, Qmult, inject_Z. cbn [Qnum Qden].
  rewrite Pos2Z.inj_mul. ring.
Qed.

Lemma qz_mul_bool : forall s c (b : bool), Qred (qz s c * (if b then 1 else 0)) = qz s (c * (if b then 1 else 0)).
Proof.
  intros s c b. destruct b.
  - change 1%Q with (inject_Z 1). apply qz_mul_int_r.
  - change 0%Q with (inject_Z 0). apply qz_mul_int_r.
Qed.

Lemma qz_le : forall s a b, Qle_bool (qz s a) (qz s b) = (a <=? b)%Z.
Proof.
  intros. apply eq_true_iff_eq. rewrite Qle_bool_iff, !qz_eq. unfold Qle. cbn [Qnum Qden].
  rewrite Z.leb_le. split; intros H; nia.
Qed.

Lemma qz_1 : forall z, qz 1 z = inject_Z z.
Proof. intros. unfold qz. apply Qred_inject_Z. Qed.

(* a scaled product: (v over 1) * (m over s) *)
Lemma qz_mul_1_s : forall s v m, Qred (qz 1 v * qz s m) = qz s (v * m).
Proof. intros. rewrite qz_1. apply qz_mul_int_l. Qed.

Lemma qz_mul_s_1 : forall s v, Qred (qz s v * 1) = qz s v.
Proof. intros. apply Qred_complete. rewrite Qmult_1_r. apply Qred_correct. Qed.

Lemma qz_eqb : forall s a b, Qeq_bool (qz s a) (qz s b) = (a =? b)%Z.
Proof.
  intros. apply eq_true_iff_eq. rewrite Qeq_bool_iff, !qz_eq. unfold Qeq. cbn [Qnum Qden].
  rewrite Z.eqb_eq. split; intros H; nia.
Qed.

Lemma qz_gt0 : forall s a, match Qcompare (qz s a) 0 with Datatypes.Gt => true | _ => false end = (0 <? a)%Z.
Proof.
  intros. destruct (Qcompare (qz s a) 0) eqn:E.
  - apply Qeq_alt in E. rewrite qz_eq in E. unfold Qeq in E. cbn in E. lia.
  - apply Qlt_alt in E. rewrite qz_eq in E. unfold Qlt in E. cbn in E. lia.
  - apply Qgt_alt in E. rewrite qz_eq in E. unfold Qlt in E. cbn in E. lia.
Qed.
