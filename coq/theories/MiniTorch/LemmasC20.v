(* MiniTorch, unit C20 - algebra of the operations of OpsC20.v: decoding of encoded tensors, reading a
   materialised tensor, unsqueeze as an index map, each operation in r-coordinates.  No axioms. *)
From Coq Require Import List ZArith QArith Bool Arith Lia.
From PV Require Import MiniPy.Syntax MiniTorch.Ops MiniTorch.OpsC07 MiniTorch.LemmasC07 MiniTorch.OpsC20.
From PV Require Import C20.Model C20.Spec C20.Index C20.Broadcast.
Import ListNotations.
Local Open Scope nat_scope.

(* ---- decoding ------------------------------------------------------------------------------------ *)
Lemma dec_q_enc_q t : dec_q (enc_q t) = Some t.
Proof.
  destruct t as [s l]. unfold dec_q, dec_with, enc_q, enc_f, enc_shape. cbn.
  rewrite dec_nats_enc, map_map. rewrite (dec_list_map val_q (fun x => xq_val (Fin x))) by reflexivity. reflexivity.
Qed.

Lemma dec_x_enc_f t : dec_x (enc_f t) = Some t.
Proof.
  destruct t as [s l]. unfold dec_x, dec_with, enc_f, enc_shape. cbn.
  rewrite dec_nats_enc. rewrite (dec_list_map val_xq xq_val) by (intros [q|]; reflexivity). reflexivity.
Qed.

Lemma dec_x_enc_q t : dec_x (enc_q t) = Some (mkTn (shp t) (map Fin (dat t))).
Proof. unfold enc_q. apply dec_x_enc_f. Qed.

Lemma dec_b_enc_b t : dec_b (enc_b t) = Some t.
Proof.
  destruct t as [s l]. unfold dec_b, dec_with, enc_b, enc_shape. cbn.
  rewrite dec_nats_enc. rewrite (dec_list_map val_bool VBool) by reflexivity. reflexivity.
Qed.

Lemma dec_x_enc_b t : dec_x (enc_b t) = None.
Proof. reflexivity. Qed.

Lemma dec_q_VQ c : dec_q (VQ c) = None.
Proof. reflexivity. Qed.

(* ---- rd / mat ------------------------------------------------------------------------------------- *)
Lemma shp_mat {X} (T : tensor X) : shp (mat T) = rev (tshape T).
Proof. reflexivity. Qed.

Lemma rshp_mat {X} (T : tensor X) : rev (shp (mat T)) = tshape T.
Proof. cbn. apply rev_involutive. Qed.

Lemma rank_mat {X} (T : tensor X) : rank (mat T) = length (tshape T).
Proof. unfold rank. cbn. apply rev_length. Qed.

Lemma rd_mat {X} (d : X) (T : tensor X) : rd d (mat T) = memo d T.
Proof. unfold rd, mat, memo. cbn. rewrite rev_involutive. reflexivity. Qed.

Lemma tshape_rd {X} (d : X) (t : tn X) : tshape (rd d t) = rev (shp t).
Proof. reflexivity. Qed.

Lemma tat_rd_mat {X} (d : X) (T : tensor X) i : valid (tshape T) i -> tat (rd d (mat T)) i = tat T i.
Proof. intros H. rewrite rd_mat. apply memo_at, H. Qed.

Lemma bget_memo {X} (d : X) (T : tensor X) bs I :
  intob (tshape T) bs = true -> valid bs I -> bget (memo d T) I = bget T I.
Proof.
  intros Hi Hv. unfold bget. rewrite memo_shape. apply memo_at. apply (clamp_valid _ bs); assumption.
Qed.

Lemma bget_rd_mat {X} (d : X) (T : tensor X) bs I :
  intob (tshape T) bs = true -> valid bs I -> bget (rd d (mat T)) I = bget T I.
Proof. intros. rewrite rd_mat. apply (bget_memo d T bs); assumption. Qed.

Lemma mat_ext {X} s (f g : index -> X) :
  (forall i, valid s i -> f i = g i) -> mat (mkT s f) = mat (mkT s g).
Proof.
  intros H. unfold mat, to_flat. cbn [tshape tat]. f_equal.
  apply map_ext_in. intros i Hi. apply H, renum_valid, Hi.
Qed.

Lemma mat_memo {X} (d : X) (T : tensor X) : mat (memo d T) = mat (mkT (tshape T) (tat T)).
Proof.
  unfold memo at 1, of_flat. apply mat_ext. intros i Hv.
  change (tat (memo d T) i = tat T i). apply memo_at, Hv.
Qed.

Lemma mat_eta {X} (T : tensor X) : mat (mkT (tshape T) (tat T)) = mat T.
Proof. destruct T; reflexivity. Qed.

(* an element-wise map of a materialised tensor is the materialisation of the mapped index function *)
Lemma map_mat {X Y} (h : X -> Y) (T : tensor X) :
  mkTn (shp (mat T)) (map h (dat (mat T))) = mat (mkT (tshape T) (fun i => h (tat T i))).
Proof. unfold mat, to_flat. cbn. rewrite map_map. reflexivity. Qed.

(* ---- dimensions ----------------------------------------------------------------------------------- *)
Lemma rpos_some D d p : rpos D d = Some p -> exists k, wrap_dim D d = Some k /\ p = D - 1 - k /\ k < D.
Proof.
  unfold rpos. destruct (wrap_dim D d) as [k|] eqn:E; [|discriminate].
  intros H. injection H as <-. exists k. split; [reflexivity|split; [reflexivity|]].
  unfold wrap_dim in E.
  destruct ((- Z.of_nat D <=? d)%Z && (d <? Z.of_nat D)%Z) eqn:B; [|discriminate].
  injection E as <-. apply andb_true_iff in B. destruct B as [B1 B2].
  apply Z.leb_le in B1. apply Z.ltb_lt in B2.
  destruct (d <? 0)%Z eqn:N; [apply Z.ltb_lt in N|apply Z.ltb_ge in N]; lia.
Qed.

Lemma wrap_dim_last n : wrap_dim (S n) (-1) = Some n.
Proof.
  unfold wrap_dim.
  assert (B : ((- Z.of_nat (S n) <=? -1)%Z && (-1 <? Z.of_nat (S n))%Z) = true).
  { apply andb_true_iff. split; [apply Z.leb_le|apply Z.ltb_lt]; lia. }
  rewrite B. f_equal. replace (-1 <? 0)%Z with true by reflexivity. lia.
Qed.

Lemma rpos_last D : 1 <= D -> rpos D (-1) = Some 0.
Proof.
  intros H. destruct D as [|n]; [lia|]. unfold rpos. rewrite wrap_dim_last. cbn [option_map]. f_equal. lia.
Qed.

(* the module's dim against a key of rank kr: the sequence axis is at r-position p *)
Lemma axis_pos_inv dim kr p : axis_pos dim kr = Some p ->
  1 <= p < kr /\ rpos kr dim = Some p /\ wrap_dim kr dim = Some (kr - 1 - p) /\
  rpos (kr - 1) (if (0 <=? dim)%Z then dim else (dim + 1)%Z) = Some (p - 1).
Proof.
  unfold axis_pos. set (ax := if (dim <? 0)%Z then (dim + Z.of_nat kr)%Z else dim).
  destruct ((1 - Z.of_nat kr <=? dim)%Z && (0 <=? ax)%Z && (ax <? Z.of_nat kr - 1)%Z) eqn:B; [|discriminate].
  intros H. injection H as <-.
  apply andb_true_iff in B. destruct B as [B B3]. apply andb_true_iff in B. destruct B as [B1 B2].
  apply Z.leb_le in B1, B2. apply Z.ltb_lt in B3.
  assert (Hw : wrap_dim kr dim = Some (Z.to_nat ax)).
  { unfold wrap_dim.
    assert (C : ((- Z.of_nat kr <=? dim)%Z && (dim <? Z.of_nat kr)%Z) = true).
    { apply andb_true_iff. split; [apply Z.leb_le|apply Z.ltb_lt]; subst ax;
        destruct (dim <? 0)%Z eqn:N; try apply Z.ltb_lt in N; try apply Z.ltb_ge in N; lia. }
    rewrite C. reflexivity. }
  split; [lia|]. split; [unfold rpos; rewrite Hw; reflexivity|].
  split; [rewrite Hw; f_equal; lia|].
  unfold rpos, wrap_dim. subst ax.
  destruct (0 <=? dim)%Z eqn:P.
  - apply Z.leb_le in P. assert (N : (dim <? 0)%Z = false) by (apply Z.ltb_ge; lia). rewrite N in *.
    assert (C : ((- Z.of_nat (kr - 1) <=? dim)%Z && (dim <? Z.of_nat (kr - 1))%Z) = true)
      by (apply andb_true_iff; split; [apply Z.leb_le|apply Z.ltb_lt]; lia).
    rewrite C. cbn [option_map]. f_equal. lia.
  - apply Z.leb_gt in P. assert (N : (dim <? 0)%Z = true) by (apply Z.ltb_lt; lia). rewrite N in *.
    assert (C : ((- Z.of_nat (kr - 1) <=? dim + 1)%Z && (dim + 1 <? Z.of_nat (kr - 1))%Z) = true)
      by (apply andb_true_iff; split; [apply Z.leb_le|apply Z.ltb_lt]; lia).
    rewrite C. cbn [option_map]. f_equal.
    assert (N1 : (dim + 1 <? 0)%Z = true) by (apply Z.ltb_lt; lia). rewrite N1. lia.
Qed.

(* ---- unsqueeze as an index map ---------------------------------------------------------------------- *)
(* the unsqueezed tensor in r-coordinates: a 1 inserted at r-position p, the data unchanged *)
Definition runsq {X} (p : nat) (x : tn X) : tn X := mkTn (rev (ins p 1 (rev (shp x)))) (dat x).

Lemma firstn_app_exact {A} (a b : list A) : firstn (length a) (a ++ b) = a.
Proof. induction a as [|x a IH]; [reflexivity|]. cbn. f_equal. exact IH. Qed.

Lemma skipn_app_exact {A} (a b : list A) : skipn (length a) (a ++ b) = b.
Proof. induction a as [|x a IH]; [reflexivity|]. cbn. exact IH. Qed.

Lemma rev_ins {A} (x : A) (l : list A) k : k <= length l ->
  rev (firstn k l ++ x :: skipn k l) = firstn (length l - k) (rev l) ++ x :: skipn (length l - k) (rev l).
Proof.
  intros H. rewrite rev_app_distr. cbn [rev]. rewrite <- app_assoc. cbn [app].
  assert (L : length (rev (skipn k l)) = length l - k) by (rewrite rev_length, skipn_length; reflexivity).
  assert (R : rev l = rev (skipn k l) ++ rev (firstn k l))
    by (rewrite <- rev_app_distr, firstn_skipn; reflexivity).
  rewrite <- L, R, firstn_app_exact, skipn_app_exact. reflexivity.
Qed.

Lemma unsqueeze_runsq {X} (x : tn X) d k :
  wrap_dim (S (rank x)) d = Some k -> k <= rank x -> unsqueeze x d = Some (runsq (rank x - k) x).
Proof.
  intros Hw Hk. unfold unsqueeze. rewrite Hw. f_equal. unfold runsq. f_equal.
  unfold ins, rank in *. symmetry.
  rewrite (rev_ins 1 (rev (shp x)) (length (shp x) - k)) by (rewrite rev_length; lia).
  rewrite rev_involutive, rev_length.
  replace (length (shp x) - (length (shp x) - k)) with k by lia. reflexivity.
Qed.

Lemma rshp_runsq {X} p (x : tn X) : rev (shp (runsq p x)) = ins p 1 (rev (shp x)).
Proof. unfold runsq. cbn. apply rev_involutive. Qed.

Lemma rank_runsq {X} p (x : tn X) : rank (runsq p x) = S (rank x).
Proof. unfold rank, runsq. cbn. rewrite rev_length. unfold ins. rewrite ins_length, rev_length. reflexivity. Qed.

(* the row-major position in the shape with the inserted axis, at an index that is 0 on that axis *)
Lemma rfi_ins p : forall s J, p <= length s -> nth p J 0 = 0 -> rfi (ins p 1 s) J = rfi s (del p J).
Proof.
  induction p as [|p IH]; intros s J Hp H0.
  - rewrite ins_0. destruct J as [|x J]; [destruct s; reflexivity|].
    cbn in H0. subst x. rewrite del_0. cbn [rfi]. lia.
  - destruct s as [|n s]; [cbn in Hp; lia|].
    rewrite ins_S. destruct J as [|x J]; [reflexivity|].
    rewrite del_S. cbn [rfi]. cbn [nth] in H0. rewrite (IH s J) by (cbn in Hp; lia || exact H0). reflexivity.
Qed.

Lemma nth_clamp_ins_one p : forall s I, p <= length s -> nth p (clamp (ins p 1 s) I) 0 = 0.
Proof.
  induction p as [|p IH]; intros s I H.
  - rewrite ins_0. destruct I as [|x I]; [destruct s; reflexivity|]. reflexivity.
  - destruct s as [|n s]; [cbn in H; lia|]. rewrite ins_S.
    destruct I as [|x I]; [reflexivity|]. cbn [clamp nth]. apply IH. cbn in H. lia.
Qed.

(* reading the unsqueezed flat tensor = reading the unsqueezed index function *)
Lemma bget_rd_runsq {X} (d : X) p (T : tensor X) bs I :
  p <= length (tshape T) -> intob (ins p 1 (tshape T)) bs = true -> valid bs I ->
  bget (rd d (runsq p (mat T))) I = bget (unsq p T) I.
Proof.
  intros Hp Hi Hv. rewrite bget_unsq by exact Hp.
  unfold bget at 1. rewrite tshape_rd, rshp_runsq, rshp_mat.
  unfold rd. rewrite rshp_runsq, rshp_mat. unfold of_flat. cbn [tat].
  rewrite rfi_ins by (exact Hp || apply nth_clamp_ins_one, Hp).
  rewrite del_clamp_ins by exact Hp.
  change (dat (runsq p (mat T))) with (to_flat T).
  change (tat (memo d T) (clamp (tshape T) (del p I)) = bget T (del p I)).
  apply memo_at.
  pose proof (clamp_valid _ _ _ Hi Hv) as H1. apply (valid_del p) in H1.
  rewrite del_clamp_ins in H1 by exact Hp.
  unfold ins in H1. fold (ins p 1 (tshape T)) in H1. rewrite del_ins in H1 by exact Hp. exact H1.
Qed.

(* ---- the operations in r-coordinates ---------------------------------------------------------------- *)
Lemma mul_r (a b : tn Q) s : bshape (rev (shp a)) (rev (shp b)) = Some s ->
  mul a b = Some (mat (mkT s (fun i => (bget (rd 0%Q a) i * bget (rd 0%Q b) i)%Q))).
Proof. intros H. unfold mul, bzip. rewrite H. reflexivity. Qed.

Lemma sum_dim_r (x : tn Q) d p : rpos (rank x) d = Some p ->
  sum_dim x d = Some (mat (mkT (del p (rev (shp x)))
                              (fun j => qsum (map (fun t => tat (rd 0%Q x) (ins p t j)) (seq 0 (nth p (rev (shp x)) 0)))))).
Proof. intros H. unfold sum_dim. rewrite H. reflexivity. Qed.

Lemma softmax_r expf (x : tn xq) d p : rpos (rank x) d = Some p ->
  softmax expf x d =
  let s := rev (shp x) in
  let w := fun i => match tat (rd NInf x) i with Fin e => expf e | NInf => 0%Q end in
  let den := fun i => qsum (map (fun t => w (setp p t i)) (seq 0 (nth p s 0))) in
  Some (mat (mkT s (fun i => (w i / den i)%Q))).
Proof. intros H. unfold softmax. rewrite H. reflexivity. Qed.

Lemma mul_s_mat (T : tensor Q) c : mul_s (mat T) c = mat (mkT (tshape T) (fun i => (tat T i * c)%Q)).
Proof. unfold mul_s. apply (map_mat (fun v => (v * c)%Q)). Qed.

(* reading the inverted mask (outside the buffer: True) = negating the mask read (outside: False) *)
Lemma bget_rd_invert (T : tensor bool) bs I :
  intob (tshape T) bs = true -> valid bs I -> bget (rd true (invert (mat T))) I = negb (bget T I).
Proof.
  intros Hi Hv. unfold bget at 1. unfold rd, invert. cbn [shp dat]. rewrite rshp_mat. unfold of_flat. cbn [tat tshape].
  change true with (negb false) at 1. rewrite map_nth.
  f_equal. change (tat (memo false T) (clamp (tshape T) I) = bget T I).
  apply memo_at. apply (clamp_valid _ bs); assumption.
Qed.

Lemma vmul_map {A} (f g : A -> Q) l : vmul (map f l) (map g l) = map (fun c => (f c * g c)%Q) l.
Proof. unfold vmul. induction l as [|x l IH]; [reflexivity|]. cbn. f_equal. exact IH. Qed.

Lemma bshape_same_head x a b r : bshape a b = Some r -> bshape (x :: a) (x :: b) = Some (x :: r).
Proof. intros H. cbn [bshape]. rewrite H, Nat.eqb_refl. reflexivity. Qed.
