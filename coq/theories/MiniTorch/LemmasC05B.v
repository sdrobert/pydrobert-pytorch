(* MiniTorch, unit C05B — algebra of the operations of OpsC05B.v on TABULATED tensors (T1 .. T4 of LemmasC05.v), in
   the ranks and broadcasting patterns the loop body and the epilogue of `CTCPrefixSearch.forward` meet.  No new
   definitions of semantics. *)
From Coq Require Import List ZArith QArith Qcanon Bool Arith Lia ZifyBool ZifyNat.
From PV Require Import MiniTorch.Ops MiniTorch.OpsC05 MiniTorch.LemmasC05 MiniTorch.OpsC05B.
Import ListNotations.
Local Open Scope nat_scope.

#[local] Ltac Zify.zify_post_hook ::= Z.to_euclidean_division_equations.

(* ---- the flat data of a 1-D tabulation ------------------------------------------------------------------- *)
Lemma indices1 a : indices [a] = map (fun i => [i]) (seq 0 a).
Proof.
  change (indices [a]) with (flat_map (fun i => map (cons i) [[]]) (seq 0 a)).
  generalize (seq 0 a). intros l. induction l as [|i l IH]; [reflexivity|]. cbn [flat_map]. rewrite IH. reflexivity.
Qed.

Lemma dat_T1 {X} a (F : nat -> X) : dat (T1 a F) = map F (seq 0 a).
Proof. unfold T1, tab. cbn [dat]. rewrite indices1, map_map. reflexivity. Qed.

Lemma shp_T1 {X} a (F : nat -> X) : shp (T1 a F) = [a]. Proof. reflexivity. Qed.
Lemma shp_T2 {X} a b (F : nat -> nat -> X) : shp (T2 a b F) = [a; b]. Proof. reflexivity. Qed.
Lemma shp_T3 {X} a b c (F : nat -> nat -> nat -> X) : shp (T3 a b c F) = [a; b; c]. Proof. reflexivity. Qed.

Lemma forallb_T1 {X} (p : X -> bool) a F : (forall i, i < a -> p (F i) = true) -> forallb p (dat (T1 a F)) = true.
Proof.
  intros H. rewrite dat_T1. apply forallb_forall. intros x Hx. apply in_map_iff in Hx. destruct Hx as [i [<- Hi]].
  apply in_seq in Hi. apply H. lia.
Qed.

(* ---- x[i] --------------------------------------------------------------------------------------------------- *)
Lemma select0_T3 {X} (d : X) a b c F i : i < a ->
  select0 d (T3 a b c F) (Z.of_nat i) = Some (T2 b c (fun j k => F i j k)).
Proof.
  intros Hi. unfold select0. cbn [shp T3 tab]. unfold zin.
  replace ((0 <=? Z.of_nat i)%Z && (Z.of_nat i <? Z.of_nat a)%Z) with true by lia. rewrite Nat2Z.id. f_equal.
  apply tab2_ext. intros j k Hj Hk. cbn [at_ nth]. fold (T3 a b c F). now rewrite get_T3.
Qed.
Lemma select0_T2 {X} (d : X) a b F i : i < a ->
  select0 d (T2 a b F) (Z.of_nat i) = Some (T1 b (fun j => F i j)).
Proof.
  intros Hi. unfold select0. cbn [shp T2 tab]. unfold zin.
  replace ((0 <=? Z.of_nat i)%Z && (Z.of_nat i <? Z.of_nat a)%Z) with true by lia. rewrite Nat2Z.id. f_equal.
  apply tab1_ext. intros j Hj. cbn [at_ nth]. fold (T2 a b F). now rewrite get_T2.
Qed.

(* ---- expand(-1, -1, w) ---------------------------------------------------------------------------------------- *)
Lemma expand_keep_T3_last {X} (d : X) a b c c' F : exp_ok c c' ->
  expand_keep d (T3 a b c F) [(-1)%Z; (-1)%Z; Z.of_nat c']
  = Some (T3 a b c' (fun i j k => F i j (bidx c k))).
Proof.
  intros Hc. unfold expand_keep. cbn [List.length rank shp T3 tab Nat.eqb zipw].
  change ((-1 =? -1)%Z) with true. cbv iota.
  replace (Z.of_nat c' =? -1)%Z with false by lia.
  fold (T3 a b c F). rewrite expand_T3 by (unfold exp_ok; auto). f_equal. apply T3_ext. intros i j k Hi Hj Hk.
  now rewrite !bidx_same by assumption.
Qed.

(* ---- views ---------------------------------------------------------------------------------------------------- *)
Lemma view_split_T2 {X} (d : X) a b c F :
  view_split d (T2 (a * b) c F) [Z.of_nat a; Z.of_nat b; Z.of_nat c] = Some (T3 a b c (fun i j k => F (i * b + j) k)).
Proof.
  unfold view_split. cbn [shp T2 tab]. rewrite nat_sizes3. rewrite !Nat.eqb_refl. cbn [andb]. f_equal.
  apply tab3_ext. intros i j k Hi Hj Hk. cbn [at_ nth]. fold (T2 (a * b) c F). rewrite get_T2; [reflexivity| |exact Hk]. nia.
Qed.
Lemma view_split_T1 {X} (d : X) a F :
  view_split d (T1 a F) [Z.of_nat a; 1%Z; 1%Z] = Some (T3 a 1 1 (fun i _ _ => F i)).
Proof.
  unfold view_split. cbn [shp T1 tab]. change [Z.of_nat a; 1%Z; 1%Z] with [Z.of_nat a; Z.of_nat 1; Z.of_nat 1].
  rewrite nat_sizes3. rewrite Nat.eqb_refl. f_equal.
  apply tab3_ext. intros i j k Hi Hj Hk. cbn [at_ nth]. fold (T1 a F). now rewrite get_T1.
Qed.

Lemma flatten2_T2 {X} (d : X) a b F : flatten2 d (T2 a b F) = Some (T1 (a * b) (fun r => F (r / b) (r mod b))).
Proof.
  unfold flatten2. cbn [shp T2 tab]. f_equal. apply tab1_ext. intros r Hr. cbn [at_ nth]. fold (T2 a b F).
  assert (0 < b) by nia. rewrite get_T2; [reflexivity| |].
  - apply Nat.div_lt_upper_bound; lia.
  - apply Nat.mod_upper_bound. lia.
Qed.

Lemma flatten1_3_T3 {X} (d : X) a b c F : 0 < c ->
  flatten1_3 d (T3 a b c F) = Some (T2 a (b * c) (fun i r => F i (r / c) (r mod c))).
Proof. intros Hc. unfold flatten1_3. cbn [shp T3 tab]. fold (T3 a b c F). now apply view_merge_T3. Qed.
(* a hist with no token positions at all *)
Lemma flatten1_3_T3_0 {X} (d : X) b c F G : flatten1_3 d (T3 0 b c F) = Some (T2 0 (b * c) G).
Proof.
  unfold flatten1_3. cbn [shp T3 tab]. unfold view_merge. cbn [shp T3 tab].
  replace (Z.of_nat b * Z.of_nat c)%Z with (Z.of_nat (b * c)) by lia. rewrite nat_sizes2.
  rewrite !Nat.eqb_refl. reflexivity.
Qed.

(* ---- repeat ---------------------------------------------------------------------------------------------------- *)
Lemma repeat_T3 {X} (d : X) a b c ra rb rc F : 0 < a -> 0 < b -> 0 < c ->
  repeat_ d (T3 a b c F) [Z.of_nat ra; Z.of_nat rb; Z.of_nat rc]
  = Some (T3 (a * ra) (b * rb) (c * rc) (fun i j k => F (i mod a) (j mod b) (k mod c))).
Proof.
  intros Ha Hb Hc. unfold repeat_. rewrite nat_sizes3. cbn [List.length rank shp T3 tab Nat.eqb zipw]. f_equal.
  apply tab3_ext. intros i j k Hi Hj Hk. cbn [zipw at_ nth]. fold (T3 a b c F).
  rewrite get_T3; [reflexivity|apply Nat.mod_upper_bound; lia..].
Qed.
Lemma repeat_T3_0 {X} (d : X) b c ra rb rc F G :
  repeat_ d (T3 0 b c F) [Z.of_nat ra; Z.of_nat rb; Z.of_nat rc] = Some (T3 0 (b * rb) (c * rc) G).
Proof. unfold repeat_. rewrite nat_sizes3. cbn [List.length rank shp T3 tab Nat.eqb zipw]. f_equal. Qed.
Lemma repeat_T2 {X} (d : X) a b ra rb F : 0 < a -> 0 < b ->
  repeat_ d (T2 a b F) [Z.of_nat ra; Z.of_nat rb] = Some (T2 (a * ra) (b * rb) (fun i j => F (i mod a) (j mod b))).
Proof.
  intros Ha Hb. unfold repeat_. rewrite nat_sizes2. cbn [List.length rank shp T2 tab Nat.eqb zipw]. f_equal.
  apply tab2_ext. intros i j Hi Hj. cbn [zipw at_ nth]. fold (T2 a b F).
  rewrite get_T2; [reflexivity|apply Nat.mod_upper_bound; lia..].
Qed.

(* ---- arange ------------------------------------------------------------------------------------------------------ *)
Lemma arange3_T1 n k : 0 < k ->
  arange3 0 (Z.of_nat k * Z.of_nat n) (Z.of_nat k) = Some (T1 n (fun i => Z.of_nat (i * k))).
Proof.
  intros Hk. unfold arange3. replace (0 <? Z.of_nat k)%Z with true by lia.
  replace (Z.to_nat ((Z.of_nat k * Z.of_nat n - 0 + Z.of_nat k - 1) / Z.of_nat k)) with n.
  - f_equal. apply tab1_ext. intros i Hi. cbn [at_ nth]. lia.
  - replace (Z.of_nat k * Z.of_nat n - 0 + Z.of_nat k - 1)%Z with (Z.of_nat n * Z.of_nat k + (Z.of_nat k - 1))%Z by lia.
    rewrite Z.div_add_l by lia. rewrite Z.div_small by lia. lia.
Qed.

(* ---- element-wise with a scalar ------------------------------------------------------------------------------ *)
Lemma smul_T3 c a b e F :
  smul c (T3 a b e (fun i j k => M.Fin (F i j k))) = Some (T3 a b e (fun i j k => M.Fin (c * F i j k)%Qc)).
Proof.
  unfold smul. rewrite forallb_T3 by reflexivity. now rewrite tmap_T3.
Qed.
Lemma rsub_s_T3 c a b e F :
  rsub_s c (T3 a b e (fun i j k => M.Fin (F i j k))) = Some (T3 a b e (fun i j k => M.Fin (c - F i j k)%Qc)).
Proof.
  unfold rsub_s. rewrite forallb_T3 by reflexivity. now rewrite tmap_T3.
Qed.

(* ---- where with broadcasting ------------------------------------------------------------------------------------ *)
Lemma where_b_T2 {X} (d : X) a0 b0 a1 b1 a2 b2 a b C F G :
  bdim a1 a2 = Some a -> bdim b1 b2 = Some b -> bdim a0 a = Some a -> bdim b0 b = Some b ->
  where_b d (T2 a0 b0 C) (T2 a1 b1 F) (T2 a2 b2 G)
  = Some (T2 a b (fun i j => if C (bidx a0 i) (bidx b0 j) then F (bidx a1 i) (bidx b1 j) else G (bidx a2 i) (bidx b2 j))).
Proof.
  intros H1 H2 H3 H4. unfold where_b. rewrite (zipb_T2 _ _ _ a1 b1 a2 b2 a b) by assumption.
  rewrite (zipb_T2 _ _ _ a0 b0 a b a b) by assumption. f_equal. apply T2_ext. intros i j Hi Hj.
  rewrite !(bidx_same a) by assumption. rewrite !(bidx_same b) by assumption. reflexivity.
Qed.
Lemma where_b_T3 {X} (d : X) a0 b0 c0 a1 b1 c1 a2 b2 c2 a b c C F G :
  bdim a1 a2 = Some a -> bdim b1 b2 = Some b -> bdim c1 c2 = Some c ->
  bdim a0 a = Some a -> bdim b0 b = Some b -> bdim c0 c = Some c ->
  where_b d (T3 a0 b0 c0 C) (T3 a1 b1 c1 F) (T3 a2 b2 c2 G)
  = Some (T3 a b c (fun i j k => if C (bidx a0 i) (bidx b0 j) (bidx c0 k) then F (bidx a1 i) (bidx b1 j) (bidx c1 k)
                                 else G (bidx a2 i) (bidx b2 j) (bidx c2 k))).
Proof.
  intros H1 H2 H3 H4 H5 H6. unfold where_b. rewrite (zipb_T3 _ _ _ a1 b1 c1 a2 b2 c2 a b c) by assumption.
  rewrite (zipb_T3 _ _ _ a0 b0 c0 a b c a b c) by assumption. f_equal. apply T3_ext. intros i j k Hi Hj Hk.
  rewrite !(bidx_same a) by assumption. rewrite !(bidx_same b) by assumption. rewrite !(bidx_same c) by assumption. reflexivity.
Qed.

(* the patterns of the loop body: a (1, 1) / (1, 1, 1) mask over one batch element *)
Lemma where_b_T2_mask {X} (d : X) w w' (m : bool) F G : exp_ok w' w ->
  where_b d (T2 1 1 (fun _ _ => m)) (T2 1 w F) (T2 1 w' G)
  = Some (T2 1 w (fun i j => if m then F i j else G i (bidx w' j))).
Proof.
  intros Hw. assert (Hb : bdim w w' = Some w).
  { destruct Hw as [->| ->]; [apply bdim_refl|apply bdim_1_r]. }
  rewrite (where_b_T2 _ 1 1 1 w 1 w' 1 w) by (try apply bdim_refl; try apply bdim_1_l; assumption).
  f_equal. apply T2_ext. intros i j Hi Hj. rewrite !bidx_1. rewrite (bidx_same w) by assumption.
  replace i with 0 by lia. reflexivity.
Qed.
Lemma where_b_T3_mask {X} (d : X) s w (m : bool) F G :
  where_b d (T3 1 1 1 (fun _ _ _ => m)) (T3 s 1 w F) (T3 s 1 w G)
  = Some (T3 s 1 w (fun i j k => if m then F i j k else G i j k)).
Proof.
  rewrite (where_b_T3 _ 1 1 1 s 1 w s 1 w s 1 w) by (try apply bdim_refl; try apply bdim_1_l).
  f_equal. apply T3_ext. intros i j k Hi Hj Hk. rewrite !bidx_1. rewrite (bidx_same s), (bidx_same w) by assumption.
  replace j with 0 by lia. reflexivity.
Qed.

(* ---- broadcasting patterns of the fusion block --------------------------------------------------------------- *)
Lemma zipb_T3_mid1 {X Y W} (dx : X) (dy : Y) (f : X -> Y -> W) a b c F G :
  zipb dx dy f (T3 a b c F) (T3 a 1 c G) = Some (T3 a b c (fun i j k => f (F i j k) (G i 0 k))).
Proof.
  rewrite (zipb_T3 _ _ _ a b c a 1 c a b c) by (apply bdim_refl || apply bdim_1_r). bcast.
Qed.
Lemma zipb_T3_mid1_l {X Y W} (dx : X) (dy : Y) (f : X -> Y -> W) a b c F G :
  zipb dx dy f (T3 a 1 c F) (T3 a b c G) = Some (T3 a b c (fun i j k => f (F i 0 k) (G i j k))).
Proof.
  rewrite (zipb_T3 _ _ _ a 1 c a b c a b c) by (apply bdim_refl || apply bdim_1_l). bcast.
Qed.
Lemma zipb_T3_11 {X Y W} (dx : X) (dy : Y) (f : X -> Y -> W) a b c F G :
  zipb dx dy f (T3 a b c F) (T3 a 1 1 G) = Some (T3 a b c (fun i j k => f (F i j k) (G i 0 0))).
Proof.
  rewrite (zipb_T3 _ _ _ a b c a 1 1 a b c) by (apply bdim_refl || apply bdim_1_r). bcast.
Qed.
Lemma zipb_T2_row_l {X Y W} (dx : X) (dy : Y) (f : X -> Y -> W) a b F G :
  zipb dx dy f (T2 a 1 F) (T2 a b G) = Some (T2 a b (fun i j => f (F i 0) (G i j))).
Proof.
  rewrite (zipb_T2 _ _ _ a 1 a b a b) by (apply bdim_refl || apply bdim_1_l). bcast.
Qed.

Lemma full_T2' {X} a b (v : X) : full [Z.of_nat a; Z.of_nat b] v = Some (T2 a b (fun _ _ => v)).
Proof. apply full_T2. Qed.

Lemma unsqueeze_T1_0 {X} (d : X) a F : unsqueeze d (T1 a F) 0 = Some (T2 1 a (fun _ i => F i)).
Proof.
  unfold unsqueeze. unfold T1, T2; cbn [rank shp tab List.length]. change (wrap_dim 2 0) with (Some 0). cbv beta iota. f_equal.
  cbn [insert_at firstn skipn app]. apply tab2_ext. intros i j Hi Hj. cbn [remove_at firstn skipn app at_ nth].
  now rewrite get_tab1.
Qed.
