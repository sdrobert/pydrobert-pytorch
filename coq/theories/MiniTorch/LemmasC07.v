(* MiniTorch, unit C07 — the algebra of OpsC07.v needed by the C07 tie (no new definitions of meaning):
   tabulated tensors, the encoding round trip, and each operation on tabulated arguments of the
   ranks `_sequence_log_probs_tensor` meets on the (outer, time, inner) normal form. *)
From Coq Require Import List ZArith QArith Bool Arith Lia.
From Coq Require String.
From PV Require Import MiniPy.Syntax MiniTorch.Ops MiniTorch.Lemmas MiniTorch.OpsC07.
Import ListNotations.
Local Open Scope nat_scope.

(* ---- lists ------------------------------------------------------------------------------------ *)
Lemma zipw_map : forall {A X Y W} (f : X -> Y -> W) (g : A -> X) (h : A -> Y) l,
  zipw f (map g l) (map h l) = map (fun a => f (g a) (h a)) l.
Proof. induction l as [|a l IH]; cbn; [reflexivity|now rewrite IH]. Qed.

Lemma zipw_app : forall {X Y W} (f : X -> Y -> W) l1 m1 l2 m2, length l1 = length m1 ->
  zipw f (l1 ++ l2) (m1 ++ m2) = zipw f l1 m1 ++ zipw f l2 m2.
Proof.
  induction l1 as [|x l1 IH]; intros [|y m1] l2 m2 H; cbn in *; try discriminate; [reflexivity|].
  rewrite IH by lia. reflexivity.
Qed.

Lemma zipw_flat_map : forall {A X Y W} (f : X -> Y -> W) (F : A -> list X) (G : A -> list Y) l,
  (forall a, List.In a l -> length (F a) = length (G a)) ->
  zipw f (flat_map F l) (flat_map G l) = flat_map (fun a => zipw f (F a) (G a)) l.
Proof.
  induction l as [|a l IH]; intros H; cbn; [reflexivity|].
  rewrite zipw_app by (apply H; now left). rewrite IH by (intros; apply H; now right). reflexivity.
Qed.

Lemma length_row : forall {X} (f : nat -> X) I, length (map f (seq 0 I)) = I.
Proof. intros. now rewrite map_length, seq_length. Qed.

Lemma length_plane : forall {X} (f : nat -> nat -> X) N I,
  length (flat_map (fun t => map (f t) (seq 0 I)) (seq 0 N)) = N * I.
Proof.
  intros. rewrite (length_flat_map_const _ _ I) by (intros; apply length_row). now rewrite seq_length.
Qed.

Lemma flat_map_ext_seq : forall {X} (f g : nat -> list X) n,
  (forall i, i < n -> f i = g i) -> flat_map f (seq 0 n) = flat_map g (seq 0 n).
Proof. intros X f g n H. apply flat_map_ext_in. intros i Hi. apply in_seq in Hi. apply H. lia. Qed.

Lemma map_ext_seq : forall {X} (f g : nat -> X) n,
  (forall i, i < n -> f i = g i) -> map f (seq 0 n) = map g (seq 0 n).
Proof. intros X f g n H. apply map_ext_in. intros i Hi. apply in_seq in Hi. apply H. lia. Qed.

Lemma list_as_map_nth : forall {X} (l : list X) n d, length l = n -> l = map (fun i => nth i l d) (seq 0 n).
Proof.
  intros X l n d H. apply (nth_ext _ _ d d).
  - now rewrite length_row.
  - intros i Hi. rewrite nth_map_seq by lia. reflexivity.
Qed.

Lemma map_nth_zipw : forall {X Y W} (f : X -> Y -> W) l1 l2 n dx dy,
  length l1 = n -> length l2 = n ->
  map (fun t => f (nth t l1 dx) (nth t l2 dy)) (seq 0 n) = zipw f l1 l2.
Proof.
  intros X Y W f l1. induction l1 as [|x l1 IH]; intros [|y l2] n dx dy H1 H2; cbn in *; subst n; try discriminate;
    [reflexivity|].
  cbn [seq map nth zipw]. f_equal. rewrite <- seq_shift, map_map. apply IH; [reflexivity|lia].
Qed.

Lemma seq_plus : forall m s, seq s m = map (Nat.add s) (seq 0 m).
Proof.
  induction m as [|m IH]; intros s; [reflexivity|]. cbn [seq map]. f_equal; [lia|].
  rewrite <- (seq_shift m 0), map_map, (IH (S s)). apply map_ext. intros; lia.
Qed.

Lemma seq_mul : forall {X} (F : nat -> X) n m,
  map F (seq 0 (n * m)) = flat_map (fun i => map (fun j => F (i * m + j)) (seq 0 m)) (seq 0 n).
Proof.
  intros X F n m. induction n as [|n IH]; [reflexivity|].
  rewrite seq_S, flat_map_app. cbn [flat_map Nat.add]. rewrite app_nil_r, <- IH.
  replace (S n * m) with (n * m + m) by lia. rewrite seq_app, map_app. f_equal.
  cbn [Nat.add]. rewrite (seq_plus m (n * m)), map_map. reflexivity.
Qed.

(* ---- tabulated data ------------------------------------------------------------------------------ *)
Lemma tab2_ext : forall {X} O I (f g : nat -> nat -> X),
  (forall o i, o < O -> i < I -> f o i = g o i) -> tab2 O I f = tab2 O I g.
Proof. intros. unfold tab2. apply flat_map_ext_seq. intros o Ho. apply map_ext_seq. intros i Hi. now apply H. Qed.

Lemma tab3_ext : forall {X} O N I (f g : nat -> nat -> nat -> X),
  (forall o t i, o < O -> t < N -> i < I -> f o t i = g o t i) -> tab3 O N I f = tab3 O N I g.
Proof.
  intros. unfold tab3. apply flat_map_ext_seq. intros o Ho. apply flat_map_ext_seq. intros t Ht.
  apply map_ext_seq. intros i Hi. now apply H.
Qed.

Lemma map_tab2 : forall {X Y} (h : X -> Y) O I f, map h (tab2 O I f) = tab2 O I (fun o i => h (f o i)).
Proof. intros. unfold tab2. rewrite map_flat_map. apply flat_map_ext_seq. intros. now rewrite map_map. Qed.

Lemma map_tab3 : forall {X Y} (h : X -> Y) O N I f, map h (tab3 O N I f) = tab3 O N I (fun o t i => h (f o t i)).
Proof.
  intros. unfold tab3. rewrite map_flat_map. apply flat_map_ext_seq. intros. rewrite map_flat_map.
  apply flat_map_ext_seq. intros. now rewrite map_map.
Qed.

Lemma zipw_tab2 : forall {X Y W} (h : X -> Y -> W) O I f g,
  zipw h (tab2 O I f) (tab2 O I g) = tab2 O I (fun o i => h (f o i) (g o i)).
Proof.
  intros. unfold tab2. rewrite zipw_flat_map by (intros; now rewrite !length_row).
  apply flat_map_ext_seq. intros. apply zipw_map.
Qed.

Lemma zipw_tab3 : forall {X Y W} (h : X -> Y -> W) O N I f g,
  zipw h (tab3 O N I f) (tab3 O N I g) = tab3 O N I (fun o t i => h (f o t i) (g o t i)).
Proof.
  intros. unfold tab3. rewrite zipw_flat_map by (intros; now rewrite !length_plane).
  apply flat_map_ext_seq. intros. rewrite zipw_flat_map by (intros; now rewrite !length_row).
  apply flat_map_ext_seq. intros. apply zipw_map.
Qed.

Lemma nth_tab2 : forall {X} O I (f : nat -> nat -> X) o i d, o < O -> i < I -> nth (o * I + i) (tab2 O I f) d = f o i.
Proof.
  intros X O I f o i d Ho Hi. unfold tab2.
  rewrite (nth_flat_map_const _ _ I o i 0 d) by (try (intros; apply length_row); try (now rewrite seq_length); lia).
  rewrite seq_nth by assumption. now apply nth_map_seq.
Qed.

Lemma nth_tab3 : forall {X} O N I (f : nat -> nat -> nat -> X) o t i d, o < O -> t < N -> i < I ->
  nth ((o * N + t) * I + i) (tab3 O N I f) d = f o t i.
Proof.
  intros X O N I f o t i d Ho Ht Hi. unfold tab3.
  replace ((o * N + t) * I + i) with (o * (N * I) + (t * I + i)) by lia.
  rewrite (nth_flat_map_const _ _ (N * I) o (t * I + i) 0 d)
    by (try (intros; apply length_plane); try (now rewrite seq_length); nia).
  rewrite seq_nth by assumption. cbn [Nat.add]. now apply (nth_tab2 N I (f o)).
Qed.

Lemma length_tab3 : forall {X} O N I (f : nat -> nat -> nat -> X), length (tab3 O N I f) = O * (N * I).
Proof.
  intros. unfold tab3. rewrite (length_flat_map_const _ _ (N * I)) by (intros; apply length_plane).
  now rewrite seq_length.
Qed.

Lemma nth_tab4 : forall {X} O N I J (f : nat -> nat -> nat -> nat -> X) o t i j d, o < O -> t < N -> i < I -> j < J ->
  nth (((o * N + t) * I + i) * J + j) (tab4 O N I J f) d = f o t i j.
Proof.
  intros X O N I J f o t i j d Ho Ht Hi Hj. unfold tab4.
  replace (((o * N + t) * I + i) * J + j) with (o * (N * (I * J)) + ((t * I + i) * J + j)) by lia.
  rewrite (nth_flat_map_const _ _ (N * (I * J)) o ((t * I + i) * J + j) 0 d).
  - rewrite seq_nth by assumption. cbn [Nat.add]. now apply (nth_tab3 N I J (f o)).
  - intros a _. apply (length_tab3 N I J (f a)).
  - now rewrite seq_length.
  - assert (H1 : t * I + i < N * I) by nia. assert (H2 : (t * I + i) * J + j < N * I * J) by nia. lia.
Qed.

Lemma fibre_tab3 : forall {X} (d : X) O N I f o i, o < O -> i < I ->
  fibre d N I (tab3 O N I f) o i = map (fun t => f o t i) (seq 0 N).
Proof. intros. unfold fibre. apply map_ext_seq. intros t Ht. now apply nth_tab3. Qed.

Lemma forallb_tab3 : forall {X} (p : X -> bool) O N I f,
  (forall o t i, o < O -> t < N -> i < I -> p (f o t i) = true) -> forallb p (tab3 O N I f) = true.
Proof.
  intros X p O N I f H. apply forallb_forall. intros x Hx. unfold tab3 in Hx.
  apply in_flat_map in Hx. destruct Hx as [o [Ho Hx]]. apply in_flat_map in Hx. destruct Hx as [t [Ht Hx]].
  apply in_map_iff in Hx. destruct Hx as [i [<- Hi]]. apply in_seq in Ho, Ht, Hi. apply H; lia.
Qed.

(* the rows of a (A x T x B) tensor, one entry each: data indexed by the row number *)
Lemma rows_tab3 : forall {X} (G : nat -> nat -> X) A T B,
  tab2 (A * (T * B)) 1 G = tab3 A T B (fun a t b => G ((a * T + t) * B + b) 0).
Proof.
  intros X G A T B. unfold tab2, tab3. cbn [seq map].
  rewrite (flat_map_singleton (fun r => G r 0)), seq_mul. apply flat_map_ext_seq. intros a Ha.
  rewrite seq_mul. apply flat_map_ext_seq. intros t Ht. apply map_ext_seq. intros b Hb. f_equal. lia.
Qed.

Lemma nats_eqb_refl : forall l, nats_eqb l l = true.
Proof. induction l as [|x l IH]; [reflexivity|]. cbn. now rewrite Nat.eqb_refl, IH. Qed.

(* ---- encoding round trip --------------------------------------------------------------------------- *)
Lemma dec_nats_enc : forall l, dec_nats (map (fun n => VInt (Z.of_nat n)) l) = Some l.
Proof.
  induction l as [|x l IH]; [reflexivity|]. cbn [map dec_nats].
  replace (0 <=? Z.of_nat x)%Z with true by (symmetry; apply Z.leb_le; lia).
  rewrite IH, Nat2Z.id. reflexivity.
Qed.

Lemma dec_list_map : forall {X} (f : val -> option X) (g : X -> val) l,
  (forall x, f (g x) = Some x) -> dec_list f (map g l) = Some l.
Proof. intros X f g l H. induction l as [|x l IH]; [reflexivity|]. cbn [map dec_list]. now rewrite H, IH. Qed.

Lemma dec_any_enc_b : forall t, dec_any (enc_b t) = Some (TB t).
Proof.
  intros [sh d]. unfold dec_any, enc_b, enc_shape. cbn [shp dat]. rewrite dec_nats_enc.
  change (String.eqb tag_bool tag_bool) with true. cbv iota.
  rewrite (dec_list_map val_bool VBool) by reflexivity. reflexivity.
Qed.

Lemma dec_any_enc_i : forall t, dec_any (enc_i t) = Some (TI t).
Proof.
  intros [sh d]. unfold dec_any, enc_i, enc_shape. cbn [shp dat]. rewrite dec_nats_enc.
  change (String.eqb tag_long tag_bool) with false. change (String.eqb tag_long tag_long) with true. cbv iota.
  rewrite (dec_list_map val_int VInt) by reflexivity. reflexivity.
Qed.

Lemma dec_any_enc_f : forall t, dec_any (enc_f t) = Some (TF t).
Proof.
  intros [sh d]. unfold dec_any, enc_f, enc_shape. cbn [shp dat]. rewrite dec_nats_enc.
  change (String.eqb tag_float tag_bool) with false. change (String.eqb tag_float tag_long) with false.
  change (String.eqb tag_float tag_float) with true. cbv iota.
  rewrite (dec_list_map val_xq xq_val) by (intros [q|]; reflexivity). reflexivity.
Qed.

(* ---- the operations on tabulated (A x T x B) arguments, along dimension 1 --------------------------- *)
Lemma cumsum_bool_3 : forall A T B m,
  cumsum_bool (mkTn [A; T; B] (tab3 A T B m)) 1 =
  Some (mkTn [A; T; B] (tab3 A T B (fun a t b => nth t (run_sum 0 (map b2z (map (fun s => m a s b) (seq 0 T)))) 0%Z))).
Proof.
  intros. unfold cumsum_bool. cbn [rank shp dat length]. change (wrap_dim 3 1) with (Some 1).
  cbv beta iota zeta. cbn [outer extent inner firstn skipn nth numel]. do 2 f_equal.
  apply tab3_ext. intros a t b Ha Ht Hb. now rewrite fibre_tab3.
Qed.

Lemma max_bool_3 : forall A T B m, T <> 0 ->
  max_bool (mkTn [A; T; B] (tab3 A T B m)) 1 =
  Some (Some (mkTn [A; B] (tab2 A B (fun a b => match first_true (map (fun t => m a t b) (seq 0 T)) with
                                                | Some _ => true | None => false end)),
              mkTn [A; B] (tab2 A B (fun a b => match first_true (map (fun t => m a t b) (seq 0 T)) with
                                                | Some j => Z.of_nat j | None => 0%Z end)))).
Proof.
  intros A T B m HT. unfold max_bool. cbn [rank shp dat length]. change (wrap_dim 3 1) with (Some 1).
  cbv beta iota zeta. cbn [outer extent inner drop_dim firstn skipn nth numel app].
  replace (T =? 0) with false by (symmetry; now apply Nat.eqb_neq).
  do 3 f_equal; f_equal; apply tab2_ext; intros a b Ha Hb; now rewrite fibre_tab3.
Qed.

Lemma max_bool_3_empty : forall A B d, max_bool (mkTn [A; 0; B] d) 1 = Some None.
Proof. reflexivity. Qed.

Lemma sum_dim_3 : forall A T B g,
  sum_dim (mkTn [A; T; B] (tab3 A T B g)) 1 =
  Some (mkTn [A; B] (tab2 A B (fun a b => fold_right xadd xzero (map (fun t => g a t b) (seq 0 T))))).
Proof.
  intros. unfold sum_dim. cbn [rank shp dat length]. change (wrap_dim 3 1) with (Some 1).
  cbv beta iota zeta. cbn [outer extent inner drop_dim firstn skipn nth numel app]. do 2 f_equal.
  apply tab2_ext. intros a b Ha Hb. now rewrite fibre_tab3.
Qed.

(* arange(T).unsqueeze(-1) >= lens.unsqueeze(1): (T x 1) against (A x 1 x B) *)
Lemma ge_t_col_3 : forall A T B (f : nat -> Z) (g : nat -> nat -> Z),
  ge_t (mkTn [T; 1] (map f (seq 0 T))) (mkTn [A; 1; B] (tab2 A B g)) =
  Some (mkTn [A; T; B] (tab3 A T B (fun a t b => Z.geb (f t) (g a b)))).
Proof.
  intros. unfold ge_t, broadcast. cbn [rank shp dat length Nat.max pad_shape Nat.sub repeat app].
  cbn [bc_shape bc_data]. rewrite !bdim_1_l, !bdim_1_r. do 2 f_equal.
  unfold tab3. apply flat_map_ext_seq. intros a Ha. apply flat_map_ext_seq. intros t Ht.
  rewrite <- (flat_map_singleton (fun b => Z.geb (f t) (g a b))). apply flat_map_ext_seq. intros b Hb.
  change (bidx 1 a) with 0. change (bidx 1 t) with 0. change (bidx 1 b) with 0.
  rewrite (bidx_same A a), (bidx_same T t), (bidx_same B b) by assumption.
  f_equal. f_equal.
  - replace ((0 * 1 + 0) * T + t) with t by lia. replace (t * 1 + 0) with t by lia. now apply nth_map_seq.
  - replace (((0 * A + a) * 1 + 0) * B + b) with (a * B + b) by lia. now apply nth_tab2.
Qed.

(* logits.gather(-1, hyp.unsqueeze(-1)) on (A x T x B x V) and (A x T x B x 1) *)
Lemma gather_last_4 : forall A T B V l k,
  (forall a t b, a < A -> t < T -> b < B -> (0 <= k a t b < Z.of_nat V)%Z) ->
  gather_last (mkTn [A; T; B; V] (tab4 A T B V l)) (mkTn [A; T; B; 1] (tab3 A T B k)) =
  Some (mkTn [A; T; B; 1] (tab3 A T B (fun a t b => l a t b (Z.to_nat (k a t b))))).
Proof.
  intros A T B V l k Hk. unfold gather_last. cbn [shp dat last removelast].
  rewrite nats_eqb_refl. cbn [andb].
  rewrite forallb_tab3 by (intros a t b Ha Ht Hb; specialize (Hk a t b Ha Ht Hb); lia).
  do 2 f_equal. cbn [numel].
  rewrite rows_tab3.
  apply tab3_ext. intros a t b Ha Ht Hb.
  replace (((a * T + t) * B + b) * 1 + 0) with ((a * T + t) * B + b) by lia.
  rewrite nth_tab3 by assumption. apply nth_tab4; try assumption.
  specialize (Hk a t b Ha Ht Hb). lia.
Qed.
