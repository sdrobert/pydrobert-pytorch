(* C17 - tie between the Python text of the two alignment <-> token workers of command_line.py and PV.C17.Model,
   checked by the kernel.  PV.Gen.C17Src.ali2tok_body / tok2ali_body are the MiniPy terms that
   harness/py2coq/translate.py regenerates from /repo/src/pydrobert/torch/command_line.py on every run;
   PV.MiniPy.Interp is their semantics; the torch calls mean what PV.MiniTorch.OpsC17 says and the file system is
   data (SrcRun.ext17).  For EVERY file system, directory and base name, every stored alignment / token tensor:
   the interpreted worker saves exactly the tensor the model computes, at os.path.join(out_dir, basename), and
   nothing else; it raises exactly the model's exception, before any save.  If the source is edited so that this
   stops being true, this file stops compiling and the C17 check reports the broken obligation. *)
From Coq Require Import ZArith QArith List String Bool Arith Lia ZifyBool ZifyNat.
From PV Require Import C11.Model C17.Model.
From PV Require Import MiniPy.Syntax MiniPy.Interp MiniTorch.OpsC17 MiniTorch.ValueC17 MiniTorch.LemmasC17 Gen.C17Src
  C17.SrcRun C17.TieLib C17.TieAliSpec.
Import ListNotations.
Local Open Scope string_scope.

(* ---- lists: the stacked columns are the model's segments ---- *)
Lemma cumsum_from_cons : forall s x l, cumsum_from s (x :: l) = (s + x)%Z :: cumsum_from (s + x) l.
Proof. reflexivity. Qed.

Lemma transpose_segs : forall rs s,
  transpose (List.length rs) [map fst rs; removelast (s :: cumsum_from s (map snd rs)); cumsum_from s (map snd rs)]
  = segs s rs.
Proof.
  induction rs as [|[v c] t IH]; intros s; [reflexivity|].
  cbn [List.length map fst snd segs]. rewrite cumsum_from_cons.
  change (removelast (s :: (s + c)%Z :: cumsum_from (s + c) (map snd t)))
    with (s :: removelast ((s + c)%Z :: cumsum_from (s + c) (map snd t))).
  unfold transpose; fold transpose. cbn [map hd tl]. f_equal. apply IH.
Qed.

(* ref = torch.stack([tok, c[:-1], c[1:]], -1) with c the cumulative sums of [0] + counts *)
Lemma stack_is_segs : forall v,
  let c := cumsum_from 0 ([0%Z] ++ map snd (runs v)) in
  stack_last [L1 (map fst (runs v)); L1 (slice_list None (Some (-1)%Z) c); L1 (slice_list (Some 1%Z) None c)]
  = Some (L2 3 (segs 0 (rle v))).
Proof.
  intros v c. subst c. rewrite stack_last_3. cbn [app]. rewrite cumsum_from_cons. change (0 + 0)%Z with 0%Z.
  rewrite slice_butlast, slice_from1, removelast_length. cbn [List.length pred].
  rewrite cumsum_from_length, !map_length, Nat.eqb_refl. cbn [andb].
  rewrite transpose_segs, runs_rle. reflexivity.
Qed.

(* ---- ali -> tokens: the whole worker ---------------------------------------------------------------------- *)
Theorem ali2tok_tie : forall fs b ad rd v,
  dict_get fs (path ad b) = Some (enc_tensor (Vec v)) ->
  exists st, run_ali2tok fs b ad rd = Ok VNone st
             /\ events st = [save_event (enc_tensor (Mat 3 (segs 0 (rle v)))) (path rd b)].
Proof.
  intros fs b ad rd v H. unfold run_ali2tok.
  apply (worker_of_obs _ _ _ (Done (Mat 3 (segs 0 (rle v)))) (path rd b)). unfold ali2tok_body, ali2tok_vars.
  stmt. rewrite zeros1_1. isteps. close_stmt.
  stmt. close_stmt.
  stmt. rewrite H. icbn. close_stmt. unfold enc_tensor, lten_of.
  do 3 (stmt; close_stmt).
  stmt. rewrite cat1_2. isteps. rewrite cumsum_L1. isteps. close_stmt.
  do 3 (stmt; close_stmt).
  stmt. rewrite stack_is_segs. isteps. close_stmt.
  isteps. reflexivity.
Qed.

(* ---- tokens -> ali ------------------------------------------------------------------------------------------ *)
Lemma gap_lengths : forall (rows : list (list Z)) (f g : list Z -> Z),
  List.length (map f (slice_list None (Some (-1)%Z) rows)) = List.length (map g (slice_list (Some 1%Z) None rows)).
Proof.
  intros. rewrite !map_length, slice_butlast, slice_from1_tl, removelast_length. destruct rows; reflexivity.
Qed.

Definition feat_env (fs : list (val * val)) (b fdv : val) (fl : option (option tensor)) : Prop :=
  match fl with
  | None => fdv = VNone
  | Some x => (exists s, fdv = VStr s) /\ dict_get fs (path fdv b) = option_map enc_tensor x
  end.

Lemma size0_tlen : forall f, option_map vnat (size (lten_of f) 0) = Some (VInt (tlen f)).
Proof. intros [v|w rows]; reflexivity. Qed.

Lemma reps_len : forall rows, List.length (col 0 rows) = List.length (reps rows).
Proof. intros. unfold reps, col. rewrite map2_length; now rewrite !map_length. Qed.

Definition tok2ali_loaded (b rd ad fdv : val) (t : lten) : state :=
  mkState [("basename", b); ("ref_dir", rd); ("ali_dir", ad); ("feat_dir", fdv); ("torch", torch_module);
           ("ref_path", path rd b); ("ref", enc17 t); ("err_msg", msg)] [].

Lemma tok2ali_head : forall fs b rd ad fdv t,
  dict_get fs (path rd b) = Some (enc_tensor t) ->
  exec (ext17 fs) tok2ali_body (mkState (tok2ali_vars b rd ad fdv) [])
  = exec (ext17 fs) (drop_seq 3 tok2ali_body) (tok2ali_loaded b rd ad fdv (lten_of t)).
Proof.
  intros fs b rd ad fdv t H. unfold tok2ali_body, tok2ali_vars. cbn [drop_seq].
  stmt. close_stmt. stmt. rewrite H. icbn. close_stmt. stmt. close_stmt. reflexivity.
Qed.

(* ali = torch.repeat_interleave(..); torch.save(ali, ..), whatever else is bound *)
Lemma tok2ali_tail : forall fs vs b ad rows,
  lookup "ref" vs = Some (enc17 (L2 3 rows)) -> lookup "ali_dir" vs = Some ad -> lookup "basename" vs = Some b ->
  obs (exec (ext17 fs) (drop_seq 8 tok2ali_body) (mkState vs [])) = Some (exp_of (spec_expand rows) (path ad b)).
Proof.
  intros fs vs b ad rows Hr Ha Hb. unfold tok2ali_body, spec_expand. cbn [drop_seq].
  open_seq. fsteps.
  fold (col 2 rows) (col 1 rows) (col 0 rows) (reps rows).
  rewrite if_len_eq by (unfold col; now rewrite !map_length). isteps. rewrite if_len_eq by apply reps_len.
  destruct (existsb _ (reps rows)); [reflexivity|]. icbn. close_stmt.
  fsteps. reflexivity.
Qed.

Lemma tok2ali_rows : forall fs b rd ad fdv fl r rows,
  feat_env fs b fdv fl ->
  obs (exec (ext17 fs) (drop_seq 3 tok2ali_body) (tok2ali_loaded b rd ad fdv (L2 3 (r :: rows))))
  = Some (exp_of (spec_tok2ali (feat_len fl) (r :: rows)) (path ad b)).
Proof.
  intros fs b rd ad fdv fl r rows FE. unfold tok2ali_body, tok2ali_loaded, spec_tok2ali. cbn [drop_seq].
  stmt. close_stmt.
  stmt. rewrite compare_L2_Z. isteps. fold (g_neg (r :: rows)). destruct (g_neg (r :: rows)); [reflexivity|]. icbn. close_stmt.
  stmt. destruct (negb (nth 1 r 0 =? 0)%Z); [reflexivity|]. icbn. close_stmt.
  stmt. rewrite compare_L1_L1, if_len_eq by apply gap_lengths. isteps.
  fold (g_gap (r :: rows)). destruct (g_gap (r :: rows)); [reflexivity|]. icbn. close_stmt.
  open_seq. open_if.
  destruct fl as [[f|]|]; cbn [feat_env feat_len option_map] in *;
    [destruct FE as [[s ->] FE]|destruct FE as [[s ->] FE]|subst fdv]; isteps; subst_body.
  - stmt. close_stmt. stmt. rewrite FE. unfold enc_tensor. isteps. rewrite size0_tlen. isteps. close_stmt.
    open_if. isteps. rewrite get_cell_last. isteps.
    match goal with |- context [if ?c then exec _ bt _ else _] => destruct c end; subst_body; [reflexivity|].
    icbn. close_stmt. now apply tok2ali_tail.
  - stmt. close_stmt. stmt. rewrite FE. reflexivity.
  - icbn. close_stmt. now apply tok2ali_tail.
Qed.

(* ---- tokens -> ali: the whole worker, every stored tensor ---------------------------------------------------- *)
Lemma early_fail : forall fl t, ali_of_ref None t = Fail EValue -> ali_of_ref_fl fl t = Fail EValue.
Proof. intros fl t H. unfold ali_of_ref_fl. rewrite H. destruct fl; reflexivity. Qed.

Theorem tok2ali_tie : forall fs b rd ad fdv fl t,
  wf_tensor t -> dict_get fs (path rd b) = Some (enc_tensor t) -> feat_env fs b fdv fl ->
  worker_outcome (run_tok2ali fs b rd ad fdv) (path ad b) (ali_of_ref_fl fl t).
Proof.
  intros fs b rd ad fdv fl t W H FE. unfold run_tok2ali. apply worker_of_obs.
  rewrite (tok2ali_head _ _ _ _ _ _ H).
  destruct t as [v|w [|r rows]]; cbn [lten_of].
  - (* a vector: ndim != 2 *)
    rewrite early_fail by reflexivity. unfold tok2ali_body, tok2ali_loaded. cbn [drop_seq]. stmt. reflexivity.
  - (* no rows *)
    rewrite early_fail by (unfold ali_of_ref; now rewrite orb_true_r).
    unfold tok2ali_body, tok2ali_loaded. cbn [drop_seq]. stmt. reflexivity.
  - destruct (Nat.eq_dec w 3) as [->|Hw].
    + rewrite <- spec_tok2ali_model by exact W. now apply tok2ali_rows.
    + rewrite early_fail by (unfold ali_of_ref; apply Nat.eqb_neq in Hw; now rewrite Hw).
      unfold tok2ali_body, tok2ali_loaded. cbn [drop_seq]. stmt.
      replace (Z.of_nat w =? 3)%Z with false by lia. reflexivity.
Qed.
