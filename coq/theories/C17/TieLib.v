(* C17 - source tie, common part: the encodings are inverted by the decoders, how the interpreter's
   generic clauses treat an encoded tensor, and the stepping tactics.  No statement about the source yet. *)
From Coq Require Import ZArith QArith List String Bool Arith Lia ZifyBool ZifyNat.
From PV Require Import C11.Model C17.Model.
From PV Require Export MiniPy.Lemmas.
From PV Require Import MiniPy.Syntax MiniPy.Interp MiniTorch.OpsC17 MiniTorch.ValueC17 MiniTorch.LemmasC17 C17.SrcRun.
Import ListNotations.
Local Open Scope string_scope.

Lemma dec_ints_enc : forall v, dec_ints (map VInt v) = Some v.
Proof. induction v as [|z v IH]; [reflexivity|]. cbn [map dec_ints]. now rewrite IH. Qed.

Lemma dec_bools_enc : forall v, dec_bools (map VBool v) = Some v.
Proof. induction v as [|z v IH]; [reflexivity|]. cbn [map dec_bools]. now rewrite IH. Qed.

Lemma dec_rows_ints : forall rows, dec_rows dec_ints (map enc_ints rows) = Some rows.
Proof.
  induction rows as [|r rows IH]; [reflexivity|]. cbn [map dec_rows enc_ints]. now rewrite dec_ints_enc, IH.
Qed.

Lemma dec_rows_bools : forall rows, dec_rows dec_bools (map enc_bools rows) = Some rows.
Proof.
  induction rows as [|r rows IH]; [reflexivity|]. cbn [map dec_rows enc_bools]. now rewrite dec_bools_enc, IH.
Qed.

Lemma dec17_enc17 : forall t, dec17 (enc17 t) = Some t.
Proof.
  intros [v|w rows|v|w rows]; unfold dec17, enc17, enc_ints, enc_bools, long_tag, bool_tag.
  - cbn. now rewrite dec_ints_enc.
  - replace (Z.of_nat w <? 0)%Z with false by lia. cbn. fold (enc_ints). rewrite dec_rows_ints, Nat2Z.id. reflexivity.
  - cbn. now rewrite dec_bools_enc.
  - replace (Z.of_nat w <? 0)%Z with false by lia. cbn. rewrite dec_rows_bools, Nat2Z.id. reflexivity.
Qed.

Lemma operand_enc17 : forall t, operand (enc17 t) = Some (OT t).
Proof. intros t. unfold operand. rewrite dec17_enc17. destruct t; reflexivity. Qed.

Lemma dec_tensor_enc : forall t, dec_tensor (enc_tensor t) = Some t.
Proof. intros t. unfold dec_tensor, enc_tensor. rewrite dec17_enc17. destruct t; reflexivity. Qed.

Lemma runs_rle : forall v, runs v = rle v.
Proof.
  induction v as [|x t IH]; [reflexivity|]. cbn [runs rle]. rewrite IH. reflexivity.
Qed.

(* ---- the interpreter's own clauses on an encoded tensor ---- *)
Lemma method_enc17 : forall t m args, method (enc17 t) m args = None.
Proof. intros [| | |]; reflexivity. Qed.
Lemma foreign_enc17 : forall t, foreign (enc17 t) = true.
Proof. intros [| | |]; reflexivity. Qed.
Lemma subscript_enc17 : forall t k st, subscript (enc17 t) (VTuple k) st = Stuck "subscript".
Proof. intros [| | |]; reflexivity. Qed.
Lemma subscript_enc17_t : forall t k st, subscript (enc17 t) (enc17 k) st = Stuck "subscript".
Proof. intros [| | |] [| | |]; reflexivity. Qed.
Lemma attribute_enc17 : forall ext t a st, attribute ext (enc17 t) a st = ext ("$attr." ++ a) [enc17 t] [] st.
Proof. intros ext [| | |]; reflexivity. Qed.
Lemma binop_sub_enc17 : forall t u st, binop_eval Sub (enc17 t) (enc17 u) st = Stuck "sub".
Proof. intros [| | |] [| | |]; reflexivity. Qed.
Lemma binop_and_enc17 : forall t u st, binop_eval BitAnd (enc17 t) (enc17 u) st = Stuck "and".
Proof. intros [| | |] [| | |]; reflexivity. Qed.
Lemma dec_ix_enc17 : forall t, dec_ix (enc17 t) = None.
Proof. intros [| | |]; reflexivity. Qed.
Lemma getitem_mask : forall x m, getitem x (enc17 m) = option_map enc17 (masked x m).
Proof.
  intros x m. unfold getitem. rewrite dec_ix_enc17, dec17_enc17.
  destruct m; reflexivity.
Qed.
Lemma truthy_enc17 : forall t, truthy (enc17 t) = true.
Proof. intros [| | |]; reflexivity. Qed.
Lemma is_none_enc17 : forall t, cmp_eval IsNot (enc17 t) VNone = Some true.
Proof. intros [| | |]; reflexivity. Qed.

Lemma run_of_exec_ret : forall ext body vars0 v st,
  exec ext body (mkState vars0 []) = Ok (CReturn v) st -> Interp.run ext body vars0 = Ok v st.
Proof. intros ext body vars0 v st H. unfold Interp.run. now rewrite H. Qed.

Lemma run_of_exec_exc : forall ext body vars0 n st,
  exec ext body (mkState vars0 []) = Exc n st -> Interp.run ext body vars0 = Exc n st.
Proof. intros ext body vars0 n st H. unfold Interp.run. now rewrite H. Qed.

Definition then_ (ext : string -> list val -> list (string * val) -> state -> outcome val) (b : stmt)
  : ctl -> state -> outcome ctl :=
  fun c st1 => match c with CNormal => exec ext b st1 | CReturn v => Ok c st1 end.
Lemma then_normal : forall ext b st, then_ ext b CNormal st = exec ext b st.
Proof. reflexivity. Qed.
Lemma then_return : forall ext b v st, then_ ext b (CReturn v) st = Ok (CReturn v) st.
Proof. reflexivity. Qed.

Fixpoint drop_seq (k : nat) (s : stmt) : stmt :=
  match k, s with S k', SSeq _ b => drop_seq k' b | _, _ => s end.

Lemma if_len_eq : forall A a b (X : A), a = b -> (if Nat.eqb a b then Some X else None) = Some X.
Proof. intros. subst. now rewrite Nat.eqb_refl. Qed.

(* the statements that follow (the branches of an `if`) are hidden behind local definitions while one is run;
   [change], not [rewrite]: the rest of the program is not traversed *)
Ltac open_seq :=
  match goal with
  | |- context C [exec ?e (SSeq ?a ?b) ?st] =>
      let r := fresh "rest" in pose (r := b);
      let g := context C [bind (exec e a st) (then_ e r)] in change g
  end.
Ltac open_if :=
  match goal with
  | |- context C [exec ?e (SIf ?c ?t ?f) ?st] =>
      let bt := fresh "bt" in let bf := fresh "bf" in pose (bt := t); pose (bf := f);
      let g := context C [bind (eval e c st) (fun cv st1 => if truthy cv then exec e bt st1 else exec e bf st1)] in
      change g
  end.
Ltac subst_body := repeat match goal with |- context [exec _ ?x _] => is_var x; subst x end.
Ltac close_stmt :=
  unfold set_var; cbn [update vars events String.eqb Ascii.eqb Bool.eqb]; rewrite then_normal; subst_body.

(* so that [cbn] never unfolds the interpreter under the binders of a continuation *)
Arguments exec ext s !st.
Arguments eval ext e !st.
Arguments store ext place v !st : simpl nomatch.
Arguments assign_all ext ts v !st.
Arguments subscript o k !st : simpl nomatch.
Arguments attribute ext o a !st.
Arguments binop_eval op a b !st.
Arguments builtin f args !st.
Arguments ext17 fs f args kw !st.
Arguments ext17_ds ds_item tr f args kw !st.
Arguments method !o m !args.
Arguments cmp_eval op !a !b.
Arguments truthy !v.
Arguments compare k a b : simpl nomatch.
Arguments size !t d.
Arguments get_cell t i j : simpl nomatch.

(* [isteps] runs the exposed statement: [eval] is unfolded by [lazy] (the expression is closed; [cbn] is slow on
   [eval]), [wcbn] reduces with the interpreter, [ext17] and the tensor operations that are a case analysis - list-level
   terms stay as MiniTorch.LemmasC17 states them - and while the run is stuck on an encoded tensor [enc17_clause]
   picks the lemma from the stuck term (a `rewrite ?a, ?b ..` over these lemmas mostly fails, slowly). *)
Ltac wcbn :=
  cbn [exec eval store place_of assign_all bind lookup update set_var vars events emit
       is builtin container_items method foreign foreign_item subscript attribute truthy binop_eval binop_name
       cmp_eval cmpop_name rich is_inf inf_bin as_q as_z num_bin val_eqb String.eqb Ascii.eqb Bool.eqb String.append
       negb andb orb option_map Z.eqb Pos.eqb Z.of_nat Pos.of_succ_nat Pos.succ Z.ltb Z.leb Z.compare Pos.compare
       Pos.compare_cont Z.to_nat nth List.length Z.add Z.opp dict_get
       ext17 no_kw cmp_of_name ret17 operand dec_list getitem dec_ix dec_bound vnat torch_module long_dtype_token
       ext17_ds super_obj tuple_type int_type ds_self enc_i2t enc_tk
       ndim shape size nth_error sum any all_dim1 square long invert ones_like logical_and sub compare unsqueeze1 nonzero
       flatten tolist masked get_block get_slice1 get_col get_cell norm_index unique_consecutive_counts repeat_interleave].
(* [cbn] never unfolds [Pos.to_nat] *)
Ltac icbn :=
  wcbn; repeat (progress (change (Pos.to_nat 1) with 1%nat; change (Pos.to_nat 2) with 2%nat); wcbn).

Ltac enc17_clause :=
  match goal with
  | |- context [dec17 (enc17 _)] => rewrite dec17_enc17
  | |- context [operand (enc17 _)] => rewrite operand_enc17
  | |- context [method (enc17 _) _ _] => rewrite method_enc17
  | |- context [foreign (enc17 _)] => rewrite foreign_enc17
  | |- context [subscript (enc17 _) (VTuple _) _] => rewrite subscript_enc17
  | |- context [subscript (enc17 _) (enc17 _) _] => rewrite subscript_enc17_t
  | |- context [attribute _ (enc17 _) _ _] => rewrite attribute_enc17
  | |- context [binop_eval Sub (enc17 _) (enc17 _) _] => rewrite binop_sub_enc17
  | |- context [binop_eval BitAnd (enc17 _) (enc17 _) _] => rewrite binop_and_enc17
  | |- context [cmp_eval IsNot (enc17 _) VNone] => rewrite is_none_enc17
  | |- context [getitem _ (enc17 _)] => rewrite getitem_mask
  end.
Ltac unstick := first [progress unfold on1, on2, on1v | enc17_clause].
Ltac isteps := cbn [exec]; lazy [eval bind]; icbn; repeat (unstick; repeat unstick; icbn).
(* on a state known through [lookup] hypotheses only *)
Ltac funstick :=
  first [unstick | rewrite lookup_update
        | match goal with H : lookup ?x ?vs = Some _ |- context [lookup ?x ?vs] => rewrite H end].
Ltac fsteps := cbn [exec]; lazy [eval bind]; icbn; repeat (funstick; repeat funstick; icbn).
Ltac stmt := repeat open_seq; isteps.

Definition returns (o : outcome ctl) (v : val) : Prop := exists st, o = Ok (CReturn v) st /\ events st = [].

Lemma returns_intro : forall v st, events st = [] -> returns (Ok (CReturn v) st) v.
Proof. intros v st H. exists st. now split. Qed.

Lemma run_of_returns : forall ext body vars0 v,
  returns (exec ext body (mkState vars0 [])) v -> exists st, Interp.run ext body vars0 = Ok v st /\ events st = [].
Proof. intros ext body vars0 v [st [H E]]. exists st. split; [now apply run_of_exec_ret|exact E]. Qed.

(* what is observed of a run: how it ended (normally / the exception's name) and the events it emitted *)
Definition obs (o : outcome ctl) : option (option string * list event) :=
  match o with
  | Ok CNormal st => Some (None, events st)
  | Exc n st => Some (Some n, events st)
  | _ => None
  end.

(* the observation a worker run must give for a model outcome [m] and an output path [p] *)
Definition exp_of (m : out tensor) (p : val) : option string * list event :=
  match m with
  | Done a => (None, [save_event (enc_tensor a) p])
  | Fail e => (Some (name_of_err e), [])
  end.

(* the same as a statement about Interp.run *)
Definition worker_outcome (o : outcome val) (p : val) (m : out tensor) : Prop :=
  match m with
  | Done a => exists st, o = Ok VNone st /\ events st = [save_event (enc_tensor a) p]
  | Fail e => exists st, o = Exc (name_of_err e) st /\ events st = []
  end.

Lemma worker_of_obs : forall ext body vars0 m p,
  obs (exec ext body (mkState vars0 [])) = Some (exp_of m p) -> worker_outcome (Interp.run ext body vars0) p m.
Proof.
  intros ext body vars0 m p H. unfold Interp.run, worker_outcome.
  destruct (exec ext body (mkState vars0 [])) as [[|v] st|n st|w]; cbn [obs] in H; try discriminate;
    destruct m as [a|e]; cbn [exp_of] in H; inversion H; subst; eexists; split; reflexivity || eassumption.
Qed.
