(* C17 - lemmas: the unordered pool.  Disjoint writes commute; sums are order independent. *)
From Coq Require Import List ZArith Bool Arith Lia Permutation Morphisms.
From PV Require Import C11.Model C17.Model C17.Spec C17.ProofsSel.
Import ListNotations.
Local Open Scope Z_scope.

(* ---------- reorder is a permutation ------------------------------------------------------------ *)

Lemma reorder_seq {I} (items : list I) : reorder (seq 0 (length items)) items = items.
Proof.
  unfold reorder. induction items as [|a items IH]; [reflexivity|].
  cbn [length seq flat_map nth_error app]. f_equal.
  rewrite <- seq_shift. rewrite flat_map_concat_map, map_map, <- flat_map_concat_map.
  cbn [nth_error]. exact IH.
Qed.

Lemma reorder_perm {I} order (items : list I) :
  Permutation order (seq 0 (length items)) -> Permutation (reorder order items) items.
Proof.
  intros H. rewrite <- (reorder_seq items) at 2. unfold reorder.
  apply Permutation_flat_map. exact H.
Qed.

(* every schedule of the pool processes a permutation of the items *)
Lemma pool_items_perm {I} workers order (items : list I) :
  Permutation order (seq 0 (length items)) -> Permutation (pool_items workers order items) items.
Proof. destruct workers; [reflexivity|apply reorder_perm]. Qed.

Lemma pool_items_map {I J} (g : I -> J) workers order (items : list I) :
  pool_items workers order (map g items) = map g (pool_items workers order items).
Proof.
  destruct workers; [reflexivity|]. unfold pool_items, reorder.
  induction order as [|i o IH]; cbn [flat_map map]; [reflexivity|].
  rewrite nth_error_map, IH, map_app. destruct (nth_error items i); reflexivity.
Qed.

(* ---------- map_out ----------------------------------------------------------------------------- *)

Lemma map_out_done {A B} (f : A -> out B) l ys :
  map_out f l = Done ys <-> Forall2 (fun x y => f x = Done y) l ys.
Proof.
  revert ys. induction l as [|x t IH]; intros ys; cbn [map_out].
  - split; [intros H; inversion H; constructor|intros H; inversion H; reflexivity].
  - split.
    + destruct (f x) as [y|e] eqn:E; [|discriminate]. destruct (map_out f t) as [r|e]; [|discriminate].
      intros H. inversion H. subst. constructor; [exact E|apply IH; reflexivity].
    + intros H. inversion H as [|? y ? r H1 H2]; subst. rewrite H1, (proj2 (IH r) H2). reflexivity.
Qed.

Lemma map_out_fail_iff {A B} (f : A -> out B) l :
  (exists e, map_out f l = Fail e) <-> (exists x e, In x l /\ f x = Fail e).
Proof.
  induction l as [|x t IH]; cbn [map_out].
  - split; [intros [e H]; discriminate|intros [x [e [[] _]]]].
  - destruct (f x) as [y|e] eqn:E; [|split; eauto 6 using in_eq].
    split.
    + intros [e H]. destruct (map_out f t) as [r|e0]; [discriminate|].
      destruct (proj1 IH (ex_intro _ e0 eq_refl)) as [x' [e' [Hi Hf]]]. eauto 6 using in_cons.
    + intros [x' [e [[->|Hi] Hf]]]; [congruence|].
      destruct (proj2 IH (ex_intro _ x' (ex_intro _ e (conj Hi Hf)))) as [e0 H]. rewrite H. eauto.
Qed.

Lemma map_out_perm {A B} (f : A -> out B) l l' ys : Permutation l l' ->
  map_out f l = Done ys -> exists ys', map_out f l' = Done ys' /\ Permutation ys ys'.
Proof.
  intros P H. apply map_out_done in H. destruct (Permutation_Forall2 P H) as [ys' [Pp F]].
  exists ys'. split; [apply map_out_done, F|exact Pp].
Qed.

Lemma map_out_map {A B C} (f : B -> out C) (g : A -> B) (h : A -> C) l :
  (forall x, In x l -> f (g x) = Done (h x)) -> map_out f (map g l) = Done (map h l).
Proof.
  induction l as [|x t IH]; intros H; cbn [map map_out]; [reflexivity|].
  rewrite (H x (or_introl eq_refl)), IH by (intros y Hy; apply H; right; exact Hy). reflexivity.
Qed.

Lemma map_out_total {A B} (g : A -> B) l : map_out (fun x => Done (g x)) l = Done (map g l).
Proof. rewrite <- (map_id l) at 1. now apply map_out_map. Qed.

Lemma map_out_map_inv {A B} (f : B -> out A) (g : A -> B) l :
  (forall x, In x l -> f (g x) = Done x) -> map_out f (map g l) = Done l.
Proof. intros H. rewrite <- (map_id l) at 2. apply map_out_map, H. Qed.

Lemma map_out_ext_in {A B} (f g : A -> out B) l : (forall x, In x l -> f x = g x) -> map_out f l = map_out g l.
Proof.
  induction l as [|x t IH]; intros H; cbn [map_out]; [reflexivity|].
  rewrite (H x (or_introl eq_refl)). rewrite IH by (intros y Hy; apply H; right; exact Hy). reflexivity.
Qed.

(* ---------- effects = writes ------------------------------------------------------------------------ *)

(* a do_work function that computes one (name, content) pair from its item and stores it *)
Definition eff {I A} (w : I -> out (str * A)) (x : I) (d : gdir A) : out (gdir A) :=
  match w x with Done nv => Done (dir_put (fst nv) (snd nv) d) | Fail e => Fail e end.

Definition puts {A} (ws : list (str * A)) (d : gdir A) : gdir A :=
  fold_left (fun d nv => dir_put (fst nv) (snd nv) d) ws d.

Lemma run_effects_ext {I A} (f g : I -> gdir A -> out (gdir A)) items :
  (forall x d, f x d = g x d) -> forall d, run_effects f items d = run_effects g items d.
Proof.
  intros H. induction items as [|x t IH]; intros d; cbn [run_effects]; [reflexivity|].
  rewrite H. destruct (g x d); [apply IH|reflexivity].
Qed.

Lemma run_effects_map {I J A} (g : I -> J) (f : J -> gdir A -> out (gdir A)) items : forall d,
  run_effects f (map g items) d = run_effects (fun x => f (g x)) items d.
Proof. induction items as [|x t IH]; intros d; cbn [map run_effects]; [reflexivity|]. destruct (f (g x) d); auto. Qed.

Lemma run_effects_puts {I A} (w : I -> out (str * A)) items : forall d,
  run_effects (eff w) items d =
  match map_out w items with Done ws => Done (puts ws d) | Fail e => Fail e end.
Proof.
  induction items as [|x t IH]; intros d; cbn [run_effects map_out]; [reflexivity|].
  unfold eff at 1. destruct (w x) as [nv|e]; [|reflexivity].
  rewrite IH. destruct (map_out w t); reflexivity.
Qed.

Lemma puts_get {A} (ws : list (str * A)) : forall d, NoDup (map fst ws) -> forall m,
  (forall v, In (m, v) ws -> dir_get (puts ws d) m = Some v) /\
  (~ In m (map fst ws) -> dir_get (puts ws d) m = dir_get d m).
Proof.
  induction ws as [|[n v] t IH]; intros d N m; cbn [puts fold_left map fst snd] in *.
  - split; [intros v []|reflexivity].
  - inversion N as [|? ? Hn Nt]; subst. fold (puts t (dir_put n v d)).
    destruct (IH (dir_put n v d) Nt m) as [H1 H2]. split.
    + intros v' [Hi|Hi].
      * inversion Hi. subst. rewrite H2 by exact Hn. apply dir_get_put_same.
      * apply H1. exact Hi.
    + intros Hm. rewrite H2 by (intros Hi; apply Hm; right; exact Hi). apply dir_get_put_other. intros ->. apply Hm. left. reflexivity.
Qed.

Lemma in_names_dec (m : str) (l : list str) : {In m l} + {~ In m l}.
Proof. apply in_dec. apply list_eq_dec. apply Z.eq_dec. Qed.

(* "disjoint writes commute" *)
Lemma puts_perm {A} (ws ws' : list (str * A)) d : Permutation ws ws' -> NoDup (map fst ws) ->
  dir_equiv (puts ws d) (puts ws' d).
Proof.
  intros P N m.
  assert (N' : NoDup (map fst ws')) by (eapply Permutation_NoDup; [apply Permutation_map; exact P|exact N]).
  destruct (in_names_dec m (map fst ws)) as [Hi|Hi].
  - apply in_map_iff in Hi. destruct Hi as [[n v] [E Hi]]. cbn [fst] in E. subst n.
    rewrite (proj1 (puts_get ws d N m) v Hi).
    rewrite (proj1 (puts_get ws' d N' m) v (Permutation_in _ P Hi)). reflexivity.
  - rewrite (proj2 (puts_get ws d N m) Hi).
    rewrite (proj2 (puts_get ws' d N' m)); [reflexivity|].
    intros H. apply Hi. eapply Permutation_in; [apply Permutation_sym, Permutation_map; exact P|exact H].
Qed.

(* every completion order of the pool: same files when the names written are distinct; a run that
   raises, raises under every order *)
Lemma effects_schedule_invariant {I A} (w : I -> out (str * A)) items items' d :
  Permutation items items' ->
  (forall ws, map_out w items = Done ws -> NoDup (map fst ws)) ->
  (forall d1, run_effects (eff w) items d = Done d1 ->
     exists d2, run_effects (eff w) items' d = Done d2 /\ dir_equiv d1 d2) /\
  (forall e, run_effects (eff w) items d = Fail e -> exists e', run_effects (eff w) items' d = Fail e').
Proof.
  intros P N. rewrite !run_effects_puts. split.
  - intros d1 H. destruct (map_out w items) as [ws|e] eqn:E; [|discriminate]. inversion H. subst.
    destruct (map_out_perm w items items' ws P E) as [ws' [E' Pw]]. rewrite E'.
    exists (puts ws' d). split; [reflexivity|]. apply puts_perm; [exact Pw|apply N; reflexivity].
  - intros e H. destruct (map_out w items) as [ws|e0] eqn:E; [discriminate|].
    assert (F : exists e, map_out w items' = Fail e).
    { apply map_out_fail_iff. destruct (proj1 (map_out_fail_iff w items)) as [x [ex [Hi Hf]]]; [eauto|].
      exists x, ex. split; [eapply Permutation_in; eassumption|exact Hf]. }
    destruct F as [e' F]. rewrite F. eauto.
Qed.

(* the result of a successful run, file by file *)
Lemma effects_result {I A} (w : I -> out (str * A)) items d d1 :
  run_effects (eff w) items d = Done d1 ->
  exists ws, map_out w items = Done ws /\ d1 = puts ws d.
Proof.
  rewrite run_effects_puts. destruct (map_out w items) as [ws|e]; [|discriminate].
  intros H. inversion H. exists ws. split; reflexivity.
Qed.

(* ---------- sums ---------------------------------------------------------------------------------- *)

Definition mom_sum (ms : list mom) : mom := fold_right mom_add (0, 0, 0) ms.

Lemma mom_add_comm a b : mom_add a b = mom_add b a.
Proof. destruct a as [[s ss] c], b as [[s' ss'] c']. cbn. f_equal; [f_equal|]; lia. Qed.

Lemma mom_add_assoc a b c : mom_add a (mom_add b c) = mom_add (mom_add a b) c.
Proof. destruct a as [[? ?] ?], b as [[? ?] ?], c as [[? ?] ?]. cbn. f_equal; [f_equal|]; lia. Qed.

Lemma mom_add_0_l a : mom_add (0, 0, 0) a = a.
Proof. destruct a as [[? ?] ?]. reflexivity. Qed.

Lemma fold_mom ms : forall acc, fold_left mom_add ms acc = mom_add acc (mom_sum ms).
Proof.
  induction ms as [|m t IH]; intros acc; cbn [fold_left mom_sum fold_right].
  - destruct acc as [[s ss] c]. cbn. f_equal; [f_equal|]; lia.
  - rewrite IH. fold (mom_sum t). rewrite mom_add_assoc. reflexivity.
Qed.

Lemma mom_sum_perm ms ms' : Permutation ms ms' -> mom_sum ms = mom_sum ms'.
Proof.
  induction 1 as [|x l l' P IH|x y l|l l' l'' P1 IH1 P2 IH2]; cbn [mom_sum fold_right] in *.
  - reflexivity.
  - fold (mom_sum l) (mom_sum l') in *. rewrite IH. reflexivity.
  - fold (mom_sum l). rewrite !mom_add_assoc. f_equal. apply mom_add_comm.
  - congruence.
Qed.

Lemma sumZ_app a b : sumZ (a ++ b) = sumZ a + sumZ b.
Proof. unfold sumZ. induction a as [|x a IH]; cbn [app fold_right]; [reflexivity|]. rewrite IH. lia. Qed.

Lemma mom_of_app a b : mom_of (a ++ b) = mom_add (mom_of a) (mom_of b).
Proof.
  unfold mom_of, mom_add. rewrite map_app, !sumZ_app, app_length. f_equal. lia.
Qed.

(* pooled: the sum of the per-file moments is the moments of all lengths together *)
Lemma mom_sum_concat (ls : list (list Z)) : mom_sum (map mom_of ls) = mom_of (concat ls).
Proof.
  induction ls as [|l t IH]; cbn [map mom_sum fold_right concat]; [reflexivity|].
  fold (mom_sum (map mom_of t)). rewrite IH, mom_of_app. reflexivity.
Qed.
