(* C17 - lemmas: strings, file selection by prefix and suffix, directories as maps. *)
From Coq Require Import List ZArith Bool Arith Lia Permutation.
From PV Require Import C11.Model C17.Model C17.Spec.
Import ListNotations.
Local Open Scope Z_scope.

(* ---------- strings ------------------------------------------------------------------------- *)

Lemma str_eqb_iff a : forall b, str_eqb a b = true <-> a = b.
Proof.
  induction a as [|x a IH]; intros [|y b]; cbn [str_eqb]; try (split; [discriminate|congruence]).
  - split; reflexivity.
  - rewrite andb_true_iff, Z.eqb_eq, IH. split; [intros [-> ->]; reflexivity|intros H; inversion H; auto].
Qed.

Lemma str_eqb_refl a : str_eqb a a = true.
Proof. apply str_eqb_iff. reflexivity. Qed.

Lemma str_eqb_false a b : a <> b -> str_eqb a b = false.
Proof. intros H. destruct (str_eqb a b) eqn:E; [apply str_eqb_iff in E; contradiction|reflexivity]. Qed.

Lemma str_eqb_sym a b : str_eqb a b = str_eqb b a.
Proof.
  destruct (str_eqb a b) eqn:E.
  - apply str_eqb_iff in E. subst. symmetry. apply str_eqb_refl.
  - symmetry. apply str_eqb_false. intros ->. rewrite str_eqb_refl in E. discriminate.
Qed.

Lemma starts_with_app p x : starts_with p (p ++ x) = true.
Proof. induction p as [|a p IH]; cbn; [reflexivity|]. rewrite Z.eqb_refl. exact IH. Qed.

Lemma starts_with_split p : forall x, starts_with p x = true -> x = p ++ skipn (length p) x.
Proof.
  induction p as [|a p IH]; intros x H; [reflexivity|].
  destruct x as [|b x]; cbn in H; [discriminate|].
  apply andb_true_iff in H. destruct H as [H1 H2]. apply Z.eqb_eq in H1. subst b.
  cbn [length skipn app]. f_equal. apply IH. exact H2.
Qed.

Lemma ends_with_app s x : ends_with s (x ++ s) = true.
Proof. unfold ends_with. rewrite rev_app_distr. apply starts_with_app. Qed.

Lemma ends_with_split s x : ends_with s x = true -> x = firstn (length x - length s) x ++ s.
Proof.
  unfold ends_with. intros H. apply starts_with_split in H.
  assert (E : exists y, x = y ++ s).
  { exists (rev (skipn (length (rev s)) (rev x))).
    rewrite <- (rev_involutive x) at 1. rewrite H at 1. rewrite rev_app_distr, rev_involutive. reflexivity. }
  destruct E as [y E]. clear H. subst x.
  rewrite app_length. replace (length y + length s - length s)%nat with (length y) by lia.
  rewrite firstn_app, Nat.sub_diag, firstn_all. cbn [firstn]. rewrite app_nil_r. reflexivity.
Qed.

(* "for every file prefix and suffix": a written name is selected and gives its utterance back *)
Lemma select_written pre suf u :
  selected pre suf (fname pre suf u) = true /\ utt_of pre suf (fname pre suf u) = u.
Proof.
  unfold selected, fname, utt_of. split.
  - rewrite starts_with_app. rewrite app_assoc. rewrite ends_with_app. reflexivity.
  - rewrite skipn_app, skipn_all, Nat.sub_diag. cbn [skipn app].
    rewrite !app_length.
    replace (length pre + (length u + length suf) - length suf - length pre)%nat with (length u) by lia.
    rewrite firstn_app, Nat.sub_diag, firstn_all. cbn [firstn]. apply app_nil_r.
Qed.

(* a selected name that is long enough for both is prefix + utterance + suffix *)
Lemma select_wellformed pre suf x :
  selected pre suf x = true -> (length pre + length suf <= length x)%nat ->
  fname pre suf (utt_of pre suf x) = x.
Proof.
  unfold selected. intros H L. apply andb_true_iff in H. destruct H as [Hp Hs].
  apply starts_with_split in Hp. apply ends_with_split in Hs.
  unfold fname, utt_of. set (m := skipn (length pre) x) in *.
  assert (F : firstn (length x - length suf) x = pre ++ firstn (length x - length suf - length pre) m).
  { rewrite Hp at 2. rewrite firstn_app, (firstn_all2 pre) by lia. reflexivity. }
  rewrite F, <- app_assoc in Hs. symmetry. exact Hs.
Qed.

(* ... but the filter also takes names too short to be of that form *)
Lemma select_overlap_refuted :
  exists pre suf x, selected pre suf x = true /\ forall u, fname pre suf u <> x.
Proof.
  exists [97], [97], [97]. split; [reflexivity|].
  intros u H. unfold fname in H. apply (f_equal (@length Z)) in H.
  rewrite !app_length in H. cbn in H. lia.
Qed.

Lemma fname_inj pre suf u v : fname pre suf u = fname pre suf v -> u = v.
Proof.
  unfold fname. intros H. apply app_inv_head in H. apply app_inv_tail in H. exact H.
Qed.

(* ---------- directories ------------------------------------------------------------------------ *)

Lemma dir_get_put {A} n m (v : A) d :
  dir_get (dir_put n v d) m = if str_eqb m n then Some v else dir_get d m.
Proof.
  unfold dir_get. induction d as [|[k w] t IH]; cbn [dir_put assoc]; [reflexivity|].
  destruct (str_eqb n k) eqn:E; cbn [assoc].
  - apply str_eqb_iff in E. subst k. destruct (str_eqb m n); reflexivity.
  - rewrite IH. destruct (str_eqb m k) eqn:F, (str_eqb m n) eqn:G; try reflexivity.
    apply str_eqb_iff in F, G. subst. rewrite str_eqb_refl in E. discriminate.
Qed.

Lemma dir_get_put_same {A} n (v : A) d : dir_get (dir_put n v d) n = Some v.
Proof. now rewrite dir_get_put, str_eqb_refl. Qed.

Lemma dir_get_put_other {A} n m (v : A) d : n <> m -> dir_get (dir_put n v d) m = dir_get d m.
Proof. intros H. now rewrite dir_get_put, str_eqb_false by congruence. Qed.

Lemma dir_get_in {A} (d : gdir A) n v : dir_get d n = Some v -> In (n, v) d.
Proof.
  unfold dir_get. induction d as [|[m w] t IH]; cbn [assoc]; [discriminate|].
  destruct (str_eqb n m) eqn:E.
  - apply str_eqb_iff in E. subst. intros H. inversion H. left. reflexivity.
  - intros H. right. apply IH. exact H.
Qed.

Lemma dir_get_nodup {A} (d : gdir A) n v : NoDup (map fst d) -> In (n, v) d -> dir_get d n = Some v.
Proof.
  unfold dir_get. induction d as [|[m w] t IH]; intros Hn Hi; [contradiction|].
  cbn [map fst] in Hn. inversion Hn as [|? ? Hnot Hnd]; subst. cbn [assoc].
  destruct Hi as [Hi|Hi].
  - inversion Hi. subst. rewrite str_eqb_refl. reflexivity.
  - destruct (str_eqb n m) eqn:E.
    + apply str_eqb_iff in E. subst m. exfalso. apply Hnot. apply (in_map fst) in Hi. exact Hi.
    + apply IH; assumption.
Qed.

Lemma dir_get_none {A} (d : gdir A) n : ~ In n (map fst d) -> dir_get d n = None.
Proof.
  unfold dir_get. induction d as [|[m w] t IH]; intros H; [reflexivity|].
  cbn [assoc]. cbn [map fst] in H. destruct (str_eqb n m) eqn:E.
  - apply str_eqb_iff in E. subst. exfalso. apply H. left. reflexivity.
  - apply IH. intros Hi. apply H. right. exact Hi.
Qed.

Lemma dir_get_some_in {A} (d : gdir A) n v : dir_get d n = Some v -> In n (map fst d).
Proof. intros H. apply dir_get_in in H. apply (in_map fst) in H. exact H. Qed.

(* the names of a directory after a write *)
Lemma dir_put_names {A} n (v : A) d :
  map fst (dir_put n v d) = if existsb (str_eqb n) (map fst d) then map fst d else map fst d ++ [n].
Proof.
  induction d as [|[m w] t IH]; cbn [dir_put map fst existsb]; [reflexivity|].
  destruct (str_eqb n m) eqn:E; cbn [orb map fst]; [reflexivity|].
  rewrite IH. destruct (existsb (str_eqb n) (map fst t)); reflexivity.
Qed.

Lemma existsb_str_in n l : existsb (str_eqb n) l = true <-> In n l.
Proof.
  rewrite existsb_exists. split.
  - intros [x [Hi He]]. apply str_eqb_iff in He. subst. exact Hi.
  - intros H. exists n. split; [exact H|apply str_eqb_refl].
Qed.

Lemma dir_put_nodup {A} n (v : A) d : NoDup (map fst d) -> NoDup (map fst (dir_put n v d)).
Proof.
  intros H. rewrite dir_put_names. destruct (existsb (str_eqb n) (map fst d)) eqn:E; [exact H|].
  apply (Permutation_NoDup (Permutation_cons_append (map fst d) n)).
  constructor; [|exact H]. intros Hi. apply existsb_str_in in Hi. congruence.
Qed.
