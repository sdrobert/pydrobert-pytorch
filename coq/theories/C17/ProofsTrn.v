(* C17 - lemmas: transcripts -> token directory -> transcripts, for every prefix, suffix, tensor
   shape and pool schedule. *)
From Coq Require Import List ZArith Bool Arith Lia Permutation Sorted QArith FinFun.
From PV Require Import C11.Model C11.ProofsSort C17.Model C17.Spec C17.ProofsSel C17.ProofsPool C17.ProofsDir
  C17.ProofsEr.
Import ListNotations.
Local Open Scope Z_scope.

(* ---------- the save side as a write ------------------------------------------------------------------ *)

Definition save_w (t2i : list (tk * Z)) (fs : option Q) (unk : option tk) (skip featsz : bool)
  (it : out (str * list item)) : out (str * tensor) :=
  match it with
  | Fail e => Fail e
  | Done (base, tr) =>
      match transcript_to_token tr (Some t2i) fs unk (skip || featsz) with
      | Raise e => Fail (of_exn e)
      | Ok rows => Done (base, tok_tensor skip featsz rows)
      end
  end.

Lemma save_transcript_w t2i fs unk skip featsz it d :
  save_transcript t2i fs unk skip featsz it d = eff (save_w t2i fs unk skip featsz) it d.
Proof.
  unfold save_transcript, eff, save_w. destruct it as [[base tr]|e]; [|reflexivity].
  destruct (transcript_to_token tr (Some t2i) fs unk (skip || featsz)); reflexivity.
Qed.

Lemma save_transcript_eff t2i fs unk skip featsz items : forall d,
  run_effects (save_transcript t2i fs unk skip featsz) items d
  = run_effects (eff (save_w t2i fs unk skip featsz)) items d.
Proof. apply run_effects_ext, save_transcript_w. Qed.

Lemma sort_by_perm_eq (l l' : list str) : Permutation l l' -> sort_by str_leb l = sort_by str_leb l'.
Proof.
  intros P. pose proof good_str as G.
  apply (sort_by_unique str_leb (le_total str_cmp G) (le_trans str_cmp G) (le_antisym str_cmp G)).
  - eapply Permutation_trans; [exact P|apply sort_by_perm].
  - apply (sort_by_is_sorted str_leb (le_total str_cmp G) (le_trans str_cmp G)).
Qed.

Section Generic.
  Variables (pre suf : str) (t2i : list (tk * Z)) (fs : option Q) (unk : option tk) (skip featsz : bool).
  Variables (i2t : option (list (Z * tk))) (fs' : option Q) (strip : bool).
  (* the utterances with whatever the command read for each, [g] what it hands to the save side *)
  Context {X : Type}.
  Variable its : list (str * X).
  Variable g : X -> list item.
  Variable rows : str * X -> list row3.
  Variable back : str * X -> list item.
  Hypothesis Hnd : NoDup (map fst its).
  Hypothesis Henc : forall ut, In ut its ->
    transcript_to_token (g (snd ut)) (Some t2i) fs unk (skip || featsz) = Ok (rows ut).
  Hypothesis Hdec : forall ut, In ut its ->
    load_transcript i2t fs' strip (tok_tensor skip featsz (rows ut)) = Done (back ut).

  Let mk (ut : str * X) : out (str * list item) := Done (fname pre suf (fst ut), g (snd ut)).

  Lemma dir_roundtrip_generic workers order :
    Permutation order (seq 0 (length its)) ->
    exists d, run_effects (save_transcript t2i fs unk skip featsz) (pool_items workers order (map mk its)) [] = Done d
      /\ exists res, load_dir i2t pre suf fs' strip d = Done res
           /\ map fst res = sort_by str_leb (map fst its)
           /\ forall ut, In ut its -> In (fst ut, back ut) res.
  Proof.
    intros P. rewrite pool_items_map, run_effects_map.
    set (name := fun ut : str * X => fname pre suf (fst ut)).
    destruct (pool_writes (fun ut => save_w t2i fs unk skip featsz (mk ut)) name
                (fun ut => tok_tensor skip featsz (rows ut)) workers order its P) as (d & Hd & _ & Pl & Gd).
    { intros ut Hi. unfold mk, save_w. rewrite (Henc ut Hi). reflexivity. }
    { unfold name. rewrite <- (map_map fst (fname pre suf)). apply Injective_map_NoDup; [|exact Hnd].
      intros u v. apply fname_inj. }
    exists d. split; [rewrite <- Hd; apply run_effects_ext; intros ut d0; apply save_transcript_w|].
    assert (Hsel : filter (selected pre suf) (listdir d) = listdir d).
    { apply filter_all. intros x Hx. apply (Permutation_in _ Pl) in Hx. apply in_map_iff in Hx.
      destruct Hx as [ut [<- _]]. apply select_written. }
    assert (Hids : utt_ids pre suf d = sort_by str_leb (map fst its)).
    { unfold utt_ids. rewrite Hsel. apply sort_by_perm_eq.
      eapply Permutation_trans; [apply Permutation_map; exact Pl|]. rewrite map_map.
      rewrite (map_ext _ fst); [reflexivity|]. intros ut. apply select_written. }
    (* the utterances in the order of their sorted ids *)
    destruct (Permutation_map_inv fst its (Permutation_sym (sort_by_perm str_leb (map fst its)))) as (sits & Es & Ps).
    exists (map (fun ut => (fst ut, back ut)) sits). split; [|split].
    - unfold load_dir. rewrite Hids, Es. apply map_out_map. intros ut Hut.
      apply (Permutation_in _ (Permutation_sym Ps)) in Hut.
      change (fname pre suf (fst ut)) with (name ut). rewrite (Gd ut Hut), (Hdec ut Hut). reflexivity.
    - rewrite Es, map_map. reflexivity.
    - intros ut Hut. apply (in_map (fun ut => (fst ut, back ut))), (Permutation_in _ Ps), Hut.
  Qed.
End Generic.

(* ---------- trn: plain tokens --------------------------------------------------------------------------- *)

Definition inv_pairs {A B} (l : list (A * B)) : list (B * A) := map (fun p => (snd p, fst p)) l.

Lemma assoc_in_snd {K} (eqb : K -> K -> bool) k (l : list (K * Z)) i : assoc eqb k l = Some i -> In i (map snd l).
Proof.
  induction l as [|[k0 i0] l IH]; cbn [assoc map snd]; [discriminate|].
  destruct (eqb k k0); [intros H; inversion H; left; reflexivity|intros H; right; apply IH; exact H].
Qed.

Lemma assoc_inv (t2i : list (tk * Z)) t i :
  NoDup (map snd t2i) -> assoc tk_eqb t t2i = Some i -> assoc Z.eqb i (inv_pairs t2i) = Some t.
Proof.
  induction t2i as [|[t0 i0] l IH]; intros Hn H; [discriminate|].
  cbn [map snd] in Hn. inversion Hn as [|? ? Hna Hnl]; subst.
  cbn [assoc] in H. unfold inv_pairs. cbn [map fst snd assoc].
  destruct (tk_eqb t t0) eqn:E.
  - apply tk_eqb_iff in E. inversion H. subst. rewrite Z.eqb_refl. reflexivity.
  - destruct (i =? i0) eqn:Ei.
    + apply Z.eqb_eq in Ei. subst. exfalso. apply Hna. exact (assoc_in_snd _ _ _ _ H).
    + apply IH; assumption.
Qed.

Definition plain (toks : list str) : list item := map (fun t => Plain (TStr t)) toks.

Definition in_vocab (t2i : list (tk * Z)) (toks : list str) : Prop :=
  forall t, In t toks -> exists i, assoc tk_eqb (TStr t) t2i = Some i.

Definition id_rows (t2i : list (tk * Z)) (toks : list str) : list row3 :=
  map (fun t => (match assoc tk_eqb (TStr t) t2i with Some i => i | None => 0 end, -1, -1)) toks.

Lemma plain_to_token t2i unk sk toks : in_vocab t2i toks ->
  transcript_to_token (plain toks) (Some t2i) None unk sk = Ok (id_rows t2i toks).
Proof.
  unfold transcript_to_token, plain, id_rows. induction toks as [|t rest IH]; intros V; [reflexivity|].
  cbn [map map_res]. destruct (V t (or_introl eq_refl)) as [i Hi]. rewrite Hi.
  rewrite IH by (intros x Hx; apply V; right; exact Hx).
  destruct sk; reflexivity.
Qed.

Lemma rows_of_tok_tensor skip featsz (rs : list row3) :
  (forall r, In r rs -> snd (fst r) = -1 /\ snd r = -1) -> rows_of (tok_tensor skip featsz rs) = Done rs.
Proof.
  intros H.
  assert (E : forall r, In r rs -> r = (fst (fst r), -1, -1)).
  { intros [[i s] e] Hr. destruct (H _ Hr) as [Hs He]. cbn [fst snd] in *. now subst. }
  unfold tok_tensor. destruct featsz; [|destruct skip]; cbn [rows_of].
  - apply map_out_map_inv. intros r Hr. now rewrite (E r Hr) at 2.
  - f_equal. rewrite map_map. rewrite <- (map_id rs) at 2. apply map_ext_in. intros r Hr. now rewrite (E r Hr) at 2.
  - apply map_out_map_inv. now intros [[i s] e] _.
Qed.

Lemma plain_no_int toks : existsb (fun a => is_int (item_tk a)) (plain toks) = false.
Proof. unfold plain. induction toks as [|t r IH]; [reflexivity|]. cbn [map existsb item_tk is_int orb]. exact IH. Qed.

Lemma plain_back t2i skip featsz toks : NoDup (map snd t2i) -> in_vocab t2i toks ->
  load_transcript (Some (inv_pairs t2i)) None true (tok_tensor skip featsz (id_rows t2i toks)) = Done (plain toks).
Proof.
  intros N V. unfold load_transcript. rewrite rows_of_tok_tensor.
  2:{ intros r Hr. unfold id_rows in Hr. apply in_map_iff in Hr. destruct Hr as [t [<- _]]. split; reflexivity. }
  assert (E : token_to_transcript (id_rows t2i toks) (Some (inv_pairs t2i)) None = plain toks).
  { unfold token_to_transcript, id_rows, plain. rewrite map_map. apply map_ext_in. intros t Ht.
    destruct (V t Ht) as [i Hi]. rewrite Hi. rewrite (assoc_inv t2i (TStr t) i N Hi). reflexivity. }
  rewrite E.
  rewrite plain_no_int. f_equal. unfold plain. rewrite map_map. reflexivity.
Qed.

Lemma upto_fail_done {A} (l : list A) : upto_fail (map Done l) = map Done l.
Proof. induction l as [|x t IH]; cbn [map upto_fail]; [reflexivity|]. rewrite IH. reflexivity. Qed.

Lemma first_branch_toks toks : flat_map first_branch (map Tok toks) = toks.
Proof. induction toks as [|t r IH]; cbn [map flat_map first_branch app]; [reflexivity|]. rewrite IH. reflexivity. Qed.

(* "Converting a transcript file (trn ...) to a token directory and back yields the original
   transcripts ... for every file prefix and suffix ... zero, one or many worker processes":
   the transcripts handed to write_trn are the original ones, in utterance order *)
Lemma trn_dir_roundtrip pre suf t2i unk skip featsz workers order (ts : list (str * list str)) :
  NoDup (map fst ts) -> NoDup (map snd t2i) ->
  (forall ut, In ut ts -> in_vocab t2i (snd ut)) ->
  Permutation order (seq 0 (length ts)) ->
  exists d, trn_to_dir AltError pre suf t2i unk skip featsz workers order
                       (map (fun ut => (fst ut, map Tok (snd ut))) ts) [] = Done d
    /\ exists res, dir_to_trn (inv_pairs t2i) pre suf d = Done res
         /\ map fst res = sort_by str_leb (map fst ts)
         /\ forall ut, In ut ts -> In (fst ut, plain (snd ut)) res.
Proof.
  intros N Ni V P.
  assert (Hmatch : upto_fail (map (trn_item AltError pre suf) (map (fun ut : str * list str => (fst ut, map Tok (snd ut))) ts))
                   = map (fun ut => Done (fname pre suf (fst ut), plain (snd ut))) ts).
  { rewrite map_map, <- (map_map (fun ut : str * list str => (fname pre suf (fst ut), plain (snd ut))) Done).
    rewrite <- upto_fail_done. f_equal. rewrite map_map. apply map_ext. intros [u toks]. unfold trn_item. cbn [fst snd].
    assert (F : forallb is_tok (map Tok toks) = true) by (induction toks; [reflexivity|exact IHtoks]).
    rewrite F, first_branch_toks. reflexivity. }
  unfold trn_to_dir, dir_to_trn. rewrite Hmatch.
  apply (dir_roundtrip_generic pre suf t2i None unk skip featsz (Some (inv_pairs t2i)) None true ts plain
           (fun ut => id_rows t2i (snd ut)) (fun ut => plain (snd ut)) N).
  - intros ut Hut. apply plain_to_token, V, Hut.
  - intros ut Hut. apply plain_back; [exact Ni|apply V, Hut].
  - exact P.
Qed.
