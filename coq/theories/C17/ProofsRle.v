(* C17 - lemmas: alignments <-> token segments (run-length coding and the validity checks). *)
From Coq Require Import List ZArith Bool Arith Lia.
From PV Require Import C11.Model C17.Model C17.Spec.
Import ListNotations.
Local Open Scope Z_scope.

Definition runs_expand (runs : list (Z * Z)) : list Z :=
  flat_map (fun vc : Z * Z => repeat (fst vc) (Z.to_nat (snd vc))) runs.

Lemma rle_head l y c r : rle l = (y, c) :: r -> hd_error l = Some y.
Proof.
  destruct l as [|x t]; cbn [rle]; [discriminate|].
  destruct (rle t) as [|[y' c'] r'] eqn:E.
  - intros H. inversion H. reflexivity.
  - destruct (x =? y') eqn:Ex; intros H; inversion H; subst.
    + apply Z.eqb_eq in Ex. subst. reflexivity.
    + reflexivity.
Qed.

Lemma rle_nil l : rle l = [] -> l = [].
Proof.
  destruct l as [|x t]; [reflexivity|]. cbn [rle].
  destruct (rle t) as [|[y c] r]; [discriminate|]. destruct (x =? y); discriminate.
Qed.

Lemma rle_pos l : Forall (fun vc : Z * Z => 0 < snd vc) (rle l).
Proof.
  induction l as [|x t IH]; cbn [rle]; [constructor|].
  destruct (rle t) as [|[y c] r]; [repeat constructor|].
  inversion IH as [|? ? Hc Hr]; subst. cbn [snd] in Hc.
  destruct (x =? y); repeat constructor; cbn [snd]; try lia; assumption.
Qed.

Lemma rle_expand l : runs_expand (rle l) = l.
Proof.
  induction l as [|x t IH]; [reflexivity|]. cbn [rle].
  pose proof (rle_pos t) as P.
  destruct (rle t) as [|[y c] r] eqn:E.
  - apply rle_nil in E. subst. reflexivity.
  - pose proof (Forall_inv P) as Hc. cbn [snd] in Hc.
    destruct (x =? y) eqn:Ex.
    + apply Z.eqb_eq in Ex. rewrite Ex. unfold runs_expand in *. cbn [flat_map fst snd] in *.
      replace (Z.to_nat (c + 1)) with (S (Z.to_nat c)) by lia. cbn [repeat app]. rewrite IH. reflexivity.
    + unfold runs_expand in *. cbn [flat_map fst snd] in *. rewrite IH. reflexivity.
Qed.

(* neighbouring runs carry different values *)
Fixpoint runs_distinct (runs : list (Z * Z)) : Prop :=
  match runs with
  | a :: ((b :: _) as t) => fst a <> fst b /\ runs_distinct t
  | _ => True
  end.

Lemma rle_distinct l : runs_distinct (rle l).
Proof.
  induction l as [|x t IH]; cbn [rle]; [exact I|].
  destruct (rle t) as [|[y c] r] eqn:E; [exact I|].
  destruct (x =? y) eqn:Ex.
  - destruct r; [exact I|]. cbn [runs_distinct fst] in *. exact IH.
  - apply Z.eqb_neq in Ex. cbn [runs_distinct fst]. split; [exact Ex|exact IH].
Qed.

Lemma expand_segs runs : forall s,
  Forall (fun vc : Z * Z => 0 <= snd vc) runs -> expand_rows (segs s runs) = runs_expand runs.
Proof.
  induction runs as [|[v c] t IH]; intros s H; [reflexivity|].
  inversion H as [|? ? Hc Ht]; subst. cbn [segs]. unfold expand_rows, runs_expand in *.
  cbn [flat_map fst snd]. unfold row_tok, row_end, row_start. cbn [nth].
  replace (s + c - s) with c by lia. f_equal. apply IH. exact Ht.
Qed.

Lemma pos_nonneg runs : Forall (fun vc : Z * Z => 0 < snd vc) runs -> Forall (fun vc : Z * Z => 0 <= snd vc) runs.
Proof. apply Forall_impl. intros a H. lia. Qed.

(* decode (encode ali) = ali *)
Lemma expand_segs_rle v s : expand_rows (segs s (rle v)) = v.
Proof. rewrite expand_segs by (apply pos_nonneg, rle_pos). apply rle_expand. Qed.

Definition runs_total (runs : list (Z * Z)) : Z := fold_right (fun vc acc => snd vc + acc) 0 runs.

Lemma runs_total_len runs : Forall (fun vc : Z * Z => 0 <= snd vc) runs ->
  Z.of_nat (length (runs_expand runs)) = runs_total runs.
Proof.
  induction 1 as [|[v c] t Hc _ IH]; [reflexivity|]. unfold runs_expand in *. cbn [flat_map runs_total fold_right fst snd] in *.
  rewrite app_length, repeat_length. fold (runs_total t). lia.
Qed.

Lemma segs_partitions runs : forall s, Forall (fun vc : Z * Z => 0 <= snd vc) runs ->
  partitions_from s (segs s runs) (s + runs_total runs).
Proof.
  induction runs as [|[v c] t IH]; intros s H; cbn [segs partitions_from runs_total fold_right]; [lia|].
  inversion H as [|? ? Hc Ht]; subst. cbn [snd] in *. unfold row_start, row_end. cbn [nth length].
  repeat split; try lia. fold (runs_total t). replace (s + (c + runs_total t)) with (s + c + runs_total t) by lia.
  apply IH. exact Ht.
Qed.

Lemma segs_maximal runs : forall s, Forall (fun vc : Z * Z => 0 < snd vc) runs -> runs_distinct runs ->
  maximal (segs s runs).
Proof.
  induction runs as [|[v c] t IH]; intros s H D; cbn [segs maximal]; [exact I|].
  inversion H as [|? ? Hc Ht]; subst. cbn [snd] in *. unfold row_start, row_end, row_tok. cbn [nth].
  split; [lia|]. split.
  - destruct t as [|[v' c'] t']; [exact I|]. cbn [segs nth]. cbn [runs_distinct fst] in D. tauto.
  - apply IH; [exact Ht|]. destruct t; [exact I|]. cbn [runs_distinct] in D. tauto.
Qed.

(* the segmentation the command writes is the maximal partition of the alignment *)
Lemma ref_of_ali_valid v :
  partitions_from 0 (segs 0 (rle v)) (Z.of_nat (length v)) /\ maximal (segs 0 (rle v))
  /\ expand_rows (segs 0 (rle v)) = v.
Proof.
  split; [|split].
  - pose proof (segs_partitions (rle v) 0 (pos_nonneg _ (rle_pos v))) as H.
    rewrite <- (runs_total_len (rle v)) in H by (apply pos_nonneg, rle_pos).
    rewrite rle_expand in H. exact H.
  - apply segs_maximal; [apply rle_pos|apply rle_distinct].
  - apply expand_segs_rle.
Qed.

(* ---------- encode (decode rows) = rows ------------------------------------------------------- *)

Lemma rle_repeat_app v n w : (0 < n)%nat -> hd_error w <> Some v ->
  rle (repeat v n ++ w) = (v, Z.of_nat n) :: rle w.
Proof.
  intros Hn Hw. induction n as [|n IH]; [lia|].
  destruct n as [|n'].
  - cbn [repeat app rle]. destruct (rle w) as [|[y c] r] eqn:E; [reflexivity|].
    apply rle_head in E. destruct (v =? y) eqn:Ev; [|reflexivity].
    apply Z.eqb_eq in Ev. subst. contradiction.
  - change (repeat v (S (S n')) ++ w) with (v :: (repeat v (S n') ++ w)). cbn [rle].
    rewrite IH by lia. rewrite Z.eqb_refl. f_equal. f_equal. lia.
Qed.

Lemma expand_rows_cons r rest :
  expand_rows (r :: rest) = repeat (row_tok r) (Z.to_nat (row_end r - row_start r)) ++ expand_rows rest.
Proof. reflexivity. Qed.

Lemma expand_head r rest : row_start r < row_end r -> hd_error (expand_rows (r :: rest)) = Some (row_tok r).
Proof.
  intros H. unfold expand_rows. cbn [flat_map].
  destruct (Z.to_nat (row_end r - row_start r)) as [|n] eqn:E; [lia|]. reflexivity.
Qed.

Lemma row3_eq r : length r = 3%nat -> r = [row_tok r; row_start r; row_end r].
Proof.
  destruct r as [|a [|b [|c [|d t]]]]; cbn [length]; try discriminate. reflexivity.
Qed.

Lemma segs_rle_expand rows : forall t T, partitions_from t rows T -> maximal rows ->
  segs t (rle (expand_rows rows)) = rows.
Proof.
  induction rows as [|r rest IH]; intros t T P M; [reflexivity|].
  cbn [partitions_from] in P. destruct P as (L3 & Hs & Hle & P). cbn [maximal] in M. destruct M as (Hlt & Hd & M).
  rewrite expand_rows_cons, rle_repeat_app.
  - cbn [segs]. rewrite (IH (t + Z.of_nat (Z.to_nat (row_end r - row_start r))) T).
    + f_equal. transitivity [row_tok r; row_start r; row_end r]; [|symmetry; apply row3_eq; exact L3].
      replace (t + Z.of_nat (Z.to_nat (row_end r - row_start r))) with (row_end r) by lia.
      rewrite Hs. reflexivity.
    + replace (t + Z.of_nat (Z.to_nat (row_end r - row_start r))) with (row_end r) by lia. exact P.
    + exact M.
  - lia.
  - destruct rest as [|r' rest']; [cbn; discriminate|].
    cbn [maximal] in M. destruct M as (Hlt' & _ & _).
    rewrite expand_head by exact Hlt'. intros H. inversion H. congruence.
Qed.

(* ---------- the validity checks of the token -> alignment direction ------------------------------ *)

Lemma partitions_start t rows T : partitions_from t rows T -> t <= T /\ Forall (fun r => t <= row_start r /\ row_start r <= row_end r) rows.
Proof.
  revert t. induction rows as [|r rest IH]; intros t P; cbn [partitions_from] in P.
  - subst. split; [lia|constructor].
  - destruct P as (_ & Hs & Hle & P). destruct (IH _ P) as [H1 H2]. split; [lia|].
    constructor; [lia|]. eapply Forall_impl; [|exact H2]. cbn. intros a Ha. lia.
Qed.

Lemma partitions_last t r rows T : partitions_from t (r :: rows) T -> row_end (last (r :: rows) []) = T.
Proof.
  revert t r. induction rows as [|r' rest IH]; intros t r P.
  - cbn [partitions_from] in P. cbn [last]. tauto.
  - cbn [partitions_from] in P. destruct P as (_ & _ & _ & P).
    change (last (r :: r' :: rest) []) with (last (r' :: rest) []). eapply IH. exact P.
Qed.

(* the boolean chain the command checks, from a start t >= 0 *)
Lemma checks_iff rows : forall t, 0 <= t -> Forall (fun r => length r = 3%nat) rows -> rows <> [] ->
  (existsb (fun r => (row_start r <? 0) || (row_end r <? 0)) rows = false
   /\ row_start (hd [] rows) = t /\ contiguous_rows rows = true
   /\ existsb (fun r => row_end r <? row_start r) rows = false)
  <-> partitions_from t rows (row_end (last rows [])).
Proof.
  induction rows as [|r rest IH]; intros t Ht L N; [contradiction|].
  inversion L as [|? ? L3 Lr]; subst.
  destruct rest as [|r' rest'].
  - cbn [existsb hd contiguous_rows last partitions_from].
    rewrite !orb_false_r, orb_false_iff, !Z.ltb_ge. intuition (auto; try lia).
  - change (last (r :: r' :: rest') []) with (last (r' :: rest') []).
    change (contiguous_rows (r :: r' :: rest')) with ((row_end r =? row_start r') && contiguous_rows (r' :: rest')).
    change (row_start r') with (row_start (hd [] (r' :: rest'))).
    assert (Hne : r' :: rest' <> []) by discriminate. specialize (fun t Ht => IH t Ht Lr Hne).
    remember (r' :: rest') as rs eqn:Ers. clear Ers.
    cbn [existsb hd partitions_from]. rewrite !orb_false_iff, andb_true_iff, Z.eqb_eq, !Z.ltb_ge. split.
    + intros ((H1 & H1r) & H2 & (H3 & H3r) & H4 & H4r). repeat split; try lia.
      apply (IH (row_end r)); [lia|]. repeat split; try assumption. lia.
    + intros (_ & H2 & H3 & P).
      assert (Ht' : 0 <= row_end r) by lia. apply (IH _ Ht') in P. destruct P as (P1 & P2 & P3 & P4).
      repeat split; try assumption; lia.
Qed.

Lemma ali_of_ref_result T t a : ali_of_ref T t = Done a ->
  exists rows, t = Mat 3 rows /\ a = Vec (expand_rows rows).
Proof.
  unfold ali_of_ref. destruct t as [v|w rows]; [discriminate|].
  destruct (negb (Nat.eqb w 3) || match rows with [] => true | _ => false end) eqn:E1; [discriminate|].
  repeat match goal with |- (if ?c then _ else _) = _ -> _ => destruct c; [discriminate|] end.
  intros H. inversion H. apply orb_false_iff in E1. destruct E1 as [E1 _].
  apply negb_false_iff, Nat.eqb_eq in E1. subst w. exists rows. split; reflexivity.
Qed.

(* accepted exactly when the rows partition a frame sequence (of the length the features have) *)
Lemma ali_of_ref_accepts_iff T rows : Forall (fun r => length r = 3%nat) rows ->
  (ali_of_ref T (Mat 3 rows) = Done (Vec (expand_rows rows)))
  <-> (rows <> [] /\ exists n, partitions_from 0 rows n /\ match T with Some m => n = m | None => True end).
Proof.
  intros L. destruct rows as [|r rest] eqn:Er; [split; [discriminate|intros [H _]; contradiction]|].
  rewrite <- Er in *. assert (N : rows <> []) by (subst; discriminate).
  pose proof (checks_iff rows 0 (Z.le_refl 0) L N) as C.
  assert (Cn : forall n, partitions_from 0 rows n -> n = row_end (last rows [])).
  { intros n P. rewrite Er in *. symmetry. exact (partitions_last _ _ _ _ P). }
  transitivity (partitions_from 0 rows (row_end (last rows []))
                /\ match T with Some m => row_end (last rows []) = m | None => True end).
  - rewrite <- C. unfold ali_of_ref. rewrite Er at 1. cbn [Nat.eqb negb orb]. rewrite <- Z.eqb_eq.
    destruct (existsb _ rows), (row_start (hd [] rows) =? 0), (contiguous_rows rows), (existsb _ rows);
      cbn [negb]; try (split; [discriminate|intros [(? & ? & ? & ?) _]; congruence]).
    + split; [destruct T as [m|]; [destruct (negb _)|]; discriminate|intros [(_ & _ & _ & ?) _]; discriminate].
    + destruct T as [m|]; [destruct (Z.eqb_spec (row_end (last rows [])) m); cbn [negb]|];
        try (split; [intros _; repeat split; auto|reflexivity]).
      split; [discriminate|intros [_ ?]; contradiction].
  - split.
    + intros [P HT]. split; [exact N|]. exists (row_end (last rows [])). split; [exact P|destruct T; [exact HT|exact I]].
    + intros [_ [n [P HT]]]. pose proof (Cn n P) as E. subst n. split; [exact P|destruct T; [exact HT|exact I]].
Qed.

(* the expansion is the alignment the partition denotes *)
Lemma expand_length rows : forall t T, partitions_from t rows T ->
  Z.of_nat (length (expand_rows rows)) = T - t.
Proof.
  induction rows as [|r rest IH]; intros t T P; cbn [partitions_from] in P.
  - subst. cbn. lia.
  - destruct P as (_ & Hs & Hle & P). rewrite expand_rows_cons, app_length, repeat_length.
    rewrite Nat2Z.inj_add. rewrite (IH _ _ P). lia.
Qed.

Lemma nth_repeat {A} (a d : A) n k : (k < n)%nat -> nth k (repeat a n) d = a.
Proof. revert k. induction n as [|n IH]; intros [|k] H; cbn; try lia; [reflexivity|apply IH; lia]. Qed.

Lemma expand_nth rows : forall t T, partitions_from t rows T ->
  forall r, In r rows -> forall u, row_start r <= u < row_end r ->
  nth (Z.to_nat (u - t)) (expand_rows rows) (-1) = row_tok r.
Proof.
  induction rows as [|r0 rest IH]; intros t T P r Hin u Hu; [contradiction|].
  cbn [partitions_from] in P. destruct P as (_ & Hs & Hle & P). rewrite expand_rows_cons.
  destruct Hin as [->|Hin].
  - rewrite app_nth1 by (rewrite repeat_length; lia). apply nth_repeat. lia.
  - destruct (partitions_start _ _ _ P) as [_ F]. rewrite Forall_forall in F. specialize (F r Hin).
    rewrite app_nth2 by (rewrite repeat_length; lia). rewrite repeat_length.
    replace (Z.to_nat (u - t) - Z.to_nat (row_end r0 - row_start r0))%nat with (Z.to_nat (u - row_end r0)) by lia.
    apply (IH _ _ P r Hin). exact Hu.
Qed.

Lemma expand_denotes rows T : partitions_from 0 rows T -> denotes rows (expand_rows rows).
Proof.
  intros P. split.
  - rewrite (expand_length _ _ _ P). replace (T - 0) with T by lia. exact P.
  - intros r Hin u Hu. pose proof (expand_nth rows 0 T P r Hin u Hu) as H.
    replace (u - 0) with u in H by lia. exact H.
Qed.
