(* C17 - lemmas at the level of whole directories: alignment round trip, sub-setting, pooled moments. *)
From Coq Require Import List ZArith Bool Arith Lia Permutation.
From PV Require Import C11.Model C17.Model C17.Spec C17.ProofsSel C17.ProofsRle C17.ProofsPool.
Import ListNotations.
Local Open Scope Z_scope.

(* ---------- what a run of total, name-disjoint writes leaves behind ---------------------------------- *)

Lemma puts_names {A} (ws : list (str * A)) : forall d, NoDup (map fst d) ->
  NoDup (map fst (puts ws d)) /\
  forall m, In m (map fst (puts ws d)) <-> In m (map fst d) \/ In m (map fst ws).
Proof.
  induction ws as [|[n v] t IH]; intros d N; cbn [puts fold_left map fst snd].
  - split; [exact N|]. intros m. split; [auto|intros [H|[]]; exact H].
  - fold (puts t (dir_put n v d)). destruct (IH (dir_put n v d) (dir_put_nodup n v d N)) as [H1 H2].
    split; [exact H1|]. intros m. rewrite H2. rewrite dir_put_names.
    destruct (existsb (str_eqb n) (map fst d)) eqn:E.
    + apply existsb_str_in in E. split; [intros [H|H]; [left; exact H|right; right; exact H]|].
      intros [H|[H|H]]; [left; exact H|subst; left; exact E|right; exact H].
    + rewrite in_app_iff. cbn [In]. tauto.
Qed.

Lemma pool_writes {I A} (w : I -> out (str * A)) (name : I -> str) (val : I -> A) workers order items :
  Permutation order (seq 0 (length items)) ->
  (forall x, In x items -> w x = Done (name x, val x)) -> NoDup (map name items) ->
  exists d, run_effects (eff w) (pool_items workers order items) [] = Done d
            /\ NoDup (listdir d) /\ Permutation (listdir d) (map name items)
            /\ (forall x, In x items -> dir_get d (name x) = Some (val x)).
Proof.
  intros P Hw N. pose proof (pool_items_perm workers order items P) as Pp.
  set (its := pool_items workers order items) in *.
  pose proof (Permutation_map name Pp) as Pn.
  rewrite run_effects_puts.
  rewrite (map_out_ext_in w (fun x => Done (name x, val x)) its), map_out_total
    by (intros x Hx; apply Hw, (Permutation_in _ Pp), Hx).
  set (ws := map (fun x => (name x, val x)) its).
  assert (Ews : map fst ws = map name its) by (unfold ws; rewrite map_map; reflexivity).
  assert (Nws : NoDup (map fst ws)) by (rewrite Ews; apply (Permutation_NoDup (Permutation_sym Pn) N)).
  exists (puts ws []). split; [reflexivity|].
  destruct (puts_names ws [] (NoDup_nil _)) as [H1 H2]. split; [exact H1|]. split.
  - apply NoDup_Permutation; [exact H1|exact N|]. intros m. unfold listdir. rewrite H2, Ews. cbn [map In].
    split; [intros [[]|H]; apply (Permutation_in _ Pn), H|intros H; right; apply (Permutation_in _ (Permutation_sym Pn)), H].
  - intros x Hx. apply (proj1 (puts_get ws [] Nws (name x))).
    unfold ws. apply in_map_iff. exists x. split; [reflexivity|apply (Permutation_in _ (Permutation_sym Pp)), Hx].
Qed.

Lemma filter_all {A} (f : A -> bool) l : (forall x, In x l -> f x = true) -> filter f l = l.
Proof.
  induction l as [|x t IH]; intros H; cbn [filter]; [reflexivity|].
  rewrite (H x (or_introl eq_refl)). f_equal. apply IH. intros y Hy. apply H. right. exact Hy.
Qed.

Lemma listdir_get {A} (d : gdir A) n : In n (listdir d) -> exists v, dir_get d n = Some v.
Proof.
  unfold listdir, dir_get. induction d as [|[k w] t IH]; cbn [map fst assoc]; [contradiction|].
  intros [->|H]; [rewrite str_eqb_refl; eauto|]. destruct (str_eqb n k); [eauto|apply IH, H].
Qed.

(* ---------- alignments -> token segments -> alignments, whole directories, any schedules ------------- *)

Definition ali_w (src : dir) (n : str) : out (str * tensor) :=
  match dir_get src n with
  | None => Fail EOS
  | Some t => match ref_of_ali t with Done r => Done (n, r) | Fail e => Fail e end
  end.

Definition ref_w (feats : option dir) (src : dir) (n : str) : out (str * tensor) :=
  match dir_get src n with
  | None => Fail EOS
  | Some t => match ali_of_ref_feat feats n t with Done a => Done (n, a) | Fail e => Fail e end
  end.

Lemma ali_to_ref_dir_eff pre suf workers order src dst :
  ali_to_ref_dir pre suf workers order src dst =
  run_effects (eff (ali_w src)) (pool_items workers order (filter (selected pre suf) (listdir src))) dst.
Proof.
  apply run_effects_ext. intros n d. unfold eff, ali_w.
  destruct (dir_get src n) as [x|]; [destruct (ref_of_ali x)|]; reflexivity.
Qed.

Lemma ref_to_ali_dir_eff pre suf feats workers order src dst :
  ref_to_ali_dir pre suf feats workers order src dst =
  run_effects (eff (ref_w feats src)) (pool_items workers order (filter (selected pre suf) (listdir src))) dst.
Proof.
  apply run_effects_ext. intros n d. unfold eff, ref_w.
  destruct (dir_get src n) as [x|]; [destruct (ali_of_ref_feat feats n x)|]; reflexivity.
Qed.

Lemma segs_len3 runs : forall s, Forall (fun r => length r = 3%nat) (segs s runs).
Proof. induction runs as [|[v c] t IH]; intros s; cbn [segs]; constructor; [reflexivity|apply IH]. Qed.

(* one file: decode (encode v) = v for a non-empty alignment *)
Lemma ali_of_ref_of_ali v : v <> [] -> ali_of_ref None (Mat 3 (segs 0 (rle v))) = Done (Vec v).
Proof.
  intros Hv. destruct (ref_of_ali_valid v) as (P & _ & E).
  rewrite <- E at 2. apply ali_of_ref_accepts_iff; [apply segs_len3|]. split.
  - intros H. rewrite H in E. cbn in E. congruence.
  - exists (Z.of_nat (length v)). split; [exact P|exact I].
Qed.

Lemma filter_perm_nodup {A} (f : A -> bool) l l' : Permutation l l' -> Permutation (filter f l) (filter f l').
Proof.
  induction 1 as [|x l l' P IH|x y l|l l' l'' P1 IH1 P2 IH2]; cbn [filter].
  - constructor.
  - destruct (f x); [constructor|]; exact IH.
  - destruct (f x), (f y); try reflexivity. constructor.
  - eapply Permutation_trans; eassumption.
Qed.

Lemma ali_dir_roundtrip pre suf w1 o1 (src : dir) :
  NoDup (listdir src) ->
  (forall n t, In (n, t) src -> selected pre suf n = true -> exists v, t = Vec v /\ v <> []) ->
  Permutation o1 (seq 0 (length (filter (selected pre suf) (listdir src)))) ->
  exists r, ali_to_ref_dir pre suf w1 o1 src [] = Done r /\
    forall w2 o2, Permutation o2 (seq 0 (length (filter (selected pre suf) (listdir r)))) ->
    exists a, ref_to_ali_dir pre suf None w2 o2 r [] = Done a
              /\ forall n, dir_get a n = if selected pre suf n then dir_get src n else None.
Proof.
  intros N Hsrc P1. set (sel := filter (selected pre suf) (listdir src)) in *.
  assert (In1 : forall x, In x sel -> exists v, dir_get src x = Some (Vec v) /\ v <> []).
  { intros x Hx. apply filter_In in Hx. destruct Hx as [Hl Hs]. destruct (listdir_get src x Hl) as [t Ht].
    destruct (Hsrc x t (dir_get_in _ _ _ Ht) Hs) as [v [-> Hv]]. eauto. }
  set (val1 := fun x => match dir_get src x with Some (Vec v) => Mat 3 (segs 0 (rle v)) | _ => Vec [] end).
  destruct (pool_writes (ali_w src) (fun x => x) val1 w1 o1 sel P1) as (r & Hr & Nr & Lr & Gr).
  { intros x Hx. destruct (In1 x Hx) as [v [Hv _]]. unfold ali_w, val1. rewrite Hv. reflexivity. }
  { rewrite map_id. apply NoDup_filter, N. }
  rewrite map_id in Lr.
  exists r. split; [rewrite ali_to_ref_dir_eff; exact Hr|].
  (* the second pass selects every file of [r]: all were selected in the first *)
  assert (S2 : filter (selected pre suf) (listdir r) = listdir r).
  { apply filter_all. intros x Hx. apply (Permutation_in _ Lr), filter_In in Hx. apply Hx. }
  intros w2 o2 P2. rewrite ref_to_ali_dir_eff. rewrite S2 in *.
  set (val2 := fun x => match dir_get src x with Some t => t | None => Vec [] end).
  destruct (pool_writes (ref_w None r) (fun x => x) val2 w2 o2 (listdir r) P2) as (a & Ha & _ & La & Ga).
  { intros x Hx. apply (Permutation_in _ Lr) in Hx. destruct (In1 x Hx) as [v [Hv Hne]].
    unfold ref_w, val2, ali_of_ref_feat. rewrite (Gr x Hx). unfold val1. rewrite Hv.
    rewrite (ali_of_ref_of_ali v Hne). reflexivity. }
  { rewrite map_id. exact Nr. }
  rewrite map_id in La.
  exists a. split; [exact Ha|].
  intros n. destruct (in_names_dec n sel) as [Hn|Hn].
  - rewrite (Ga n (Permutation_in _ (Permutation_sym Lr) Hn)). unfold val2.
    destruct (In1 n Hn) as [v [-> _]]. apply filter_In in Hn. now rewrite (proj2 Hn).
  - rewrite dir_get_none by (intros Hi; apply Hn, (Permutation_in _ Lr), (Permutation_in _ La), Hi).
    destruct (selected pre suf n) eqn:Es; [|reflexivity].
    symmetry. apply dir_get_none. intros Hi. apply Hn, filter_In. now split.
Qed.

(* ---------- sub-setting -------------------------------------------------------------------------------- *)

Section SubsetFacts.
  Context {A : Type}.

  Lemma copy_fold_get (src : gdir A) names : forall d0 n,
    dir_get (fold_left (fun d b => copy_into src b d) names d0) n =
    if existsb (str_eqb n) names
    then match dir_get src n with Some x => Some x | None => dir_get d0 n end
    else dir_get d0 n.
  Proof.
    induction names as [|b t IH]; intros d0 n; cbn [fold_left existsb]; [reflexivity|].
    rewrite IH. unfold copy_into.
    destruct (str_eqb n b) eqn:E; cbn [orb].
    - apply str_eqb_iff in E. subst b.
      destruct (dir_get src n) as [x|] eqn:Ex.
      + rewrite dir_get_put_same. destruct (existsb (str_eqb n) t); reflexivity.
      + destruct (existsb (str_eqb n) t); reflexivity.
    - assert (Hne : b <> n) by (intros ->; rewrite str_eqb_refl in E; discriminate).
      destruct (dir_get src b) as [x|]; [rewrite (dir_get_put_other b n x d0 Hne)|]; reflexivity.
  Qed.

  Lemma copy_work_proj (src : sds A) names : forall d0,
    let r := fold_left (fun d b => copy_work src b d) names d0 in
    s_feat r = fold_left (fun d b => copy_into (s_feat src) b d) names (s_feat d0)
    /\ s_ali r = fold_left (fun d b => copy_opt (s_ali src) b d) names (s_ali d0)
    /\ s_ref r = fold_left (fun d b => copy_opt (s_ref src) b d) names (s_ref d0).
  Proof. induction names as [|b t IH]; intros d0; cbn [fold_left]; [auto|apply IH]. Qed.

  Lemma copy_opt_fold (s : option (gdir A)) names : forall d,
    fold_left (fun d b => copy_opt s b d) names d
    = match s, d with
      | Some sa, Some da => Some (fold_left (fun d b => copy_into sa b d) names da)
      | _, _ => d
      end.
  Proof.
    induction names as [|b t IH]; intros d; cbn [fold_left]; [destruct s, d; reflexivity|].
    rewrite IH. destruct s, d; reflexivity.
  Qed.

  Lemma existsb_perm (n : str) l l' : Permutation l l' -> existsb (str_eqb n) l = existsb (str_eqb n) l'.
  Proof.
    intros P. destruct (existsb (str_eqb n) l) eqn:E.
    - symmetry. apply existsb_str_in. apply (Permutation_in _ P). apply existsb_str_in. exact E.
    - destruct (existsb (str_eqb n) l') eqn:E'; [|reflexivity].
      apply existsb_str_in in E'. apply (Permutation_in _ (Permutation_sym P)), existsb_str_in in E'. congruence.
  Qed.

  (* into an empty destination: exactly the requested files, each identical to its source *)
  Lemma subset_is_filter (size0 : A -> Z) c pre suf workers order (src : sds A) :
    let names := map (fname pre suf) (choose size0 c pre suf (s_feat src)) in
    Permutation order (seq 0 (length names)) ->
    let dst := subset size0 c pre suf workers order src
                 (mkSds [] (option_map (fun _ => []) (s_ali src)) (option_map (fun _ => []) (s_ref src))) in
    is_filter_of names (s_feat src) (s_feat dst)
    /\ (forall sa, s_ali src = Some sa -> exists da, s_ali dst = Some da /\ is_filter_of names sa da)
    /\ (forall sr, s_ref src = Some sr -> exists dr, s_ref dst = Some dr /\ is_filter_of names sr dr)
    /\ (s_ali src = None -> s_ali dst = None) /\ (s_ref src = None -> s_ref dst = None).
  Proof.
    intros names P dst. unfold dst, subset. fold names.
    pose proof (pool_items_perm workers order names P) as Pp.
    set (items := pool_items workers order names) in *.
    assert (F : forall (s : gdir A) n, dir_get (fold_left (fun d b => copy_into s b d) items []) n
                                      = if existsb (str_eqb n) names then dir_get s n else None).
    { intros s n. rewrite copy_fold_get. rewrite (existsb_perm n items names Pp).
      destruct (existsb (str_eqb n) names); [destruct (dir_get s n)|]; reflexivity. }
    destruct (copy_work_proj src items
                (mkSds [] (option_map (fun _ => []) (s_ali src)) (option_map (fun _ => []) (s_ref src))))
      as (Ef & Ea & Er). cbn [s_feat s_ali s_ref] in *. rewrite copy_opt_fold in Ea, Er.
    split; [|split; [|split; [|split]]].
    - intros n. rewrite Ef. apply F.
    - intros sa Hs. rewrite Ea, Hs. eexists. split; [reflexivity|]. intros n. apply F.
    - intros sr Hs. rewrite Er, Hs. eexists. split; [reflexivity|]. intros n. apply F.
    - intros Hs. rewrite Ea, Hs. reflexivity.
    - intros Hs. rewrite Er, Hs. reflexivity.
  Qed.
End SubsetFacts.

(* ---------- pooled length moments ------------------------------------------------------------------------ *)

Definition ali_lens (excl : option (list Z)) (t : tensor) : list Z :=
  match t with
  | Vec v => map snd (filter (fun vc : Z * Z => negb (excluded excl (fst vc))) (rle v))
  | Mat _ _ => []
  end.

Definition dir_lens (excl : option (list Z)) (d : dir) (n : str) : list Z :=
  match dir_get d n with Some t => ali_lens excl t | None => [] end.

Lemma ali_moments_lens excl t : ali_moments excl t = mom_of (ali_lens excl t).
Proof. destruct t; reflexivity. Qed.

(* the printed figures come from the moments of all segment lengths of all selected files together,
   whatever the number of workers, the chunk size and the completion order *)
Lemma ali_dir_moments_perm pre suf excl workers order (d : dir) :
  Permutation (pool_items workers order (filter (selected pre suf) (listdir d))) (filter (selected pre suf) (listdir d)) ->
  ali_dir_moments pre suf excl workers order d
  = Done (mom_of (concat (map (dir_lens excl d) (filter (selected pre suf) (listdir d))))).
Proof.
  intros Pp. unfold ali_dir_moments, run_values.
  set (sel := filter (selected pre suf) (listdir d)) in *. set (items := pool_items workers order sel) in *.
  rewrite (map_out_ext_in _ (fun n => Done (mom_of (dir_lens excl d n))) items).
  - rewrite map_out_total, fold_mom, mom_add_0_l.
    rewrite (mom_sum_perm _ _ (Permutation_map (fun n => mom_of (dir_lens excl d n)) Pp)).
    rewrite <- (map_map (dir_lens excl d) mom_of). rewrite mom_sum_concat. reflexivity.
  - intros n Hn. apply (Permutation_in _ Pp) in Hn. unfold sel in Hn. apply filter_In in Hn.
    destruct (listdir_get d n (proj1 Hn)) as [t Ht]. unfold dir_lens. rewrite Ht, ali_moments_lens. reflexivity.
Qed.

Lemma ali_dir_moments_pooled pre suf excl workers order (d : dir) :
  Permutation order (seq 0 (length (filter (selected pre suf) (listdir d)))) ->
  ali_dir_moments pre suf excl workers order d
  = Done (mom_of (concat (map (dir_lens excl d) (filter (selected pre suf) (listdir d))))).
Proof. intros P. apply ali_dir_moments_perm, pool_items_perm, P. Qed.

Lemma ali_dir_moments_schedule pre suf excl workers order (d : dir) :
  Permutation order (seq 0 (length (filter (selected pre suf) (listdir d)))) ->
  ali_dir_moments pre suf excl workers order d = ali_dir_moments pre suf excl 0 [] d.
Proof.
  intros P. rewrite (ali_dir_moments_pooled _ _ _ workers order d P). symmetry. apply ali_dir_moments_perm. reflexivity.
Qed.

Lemma rle_empty_refuted : exists t, ref_of_ali (Vec []) = Done t /\ ali_of_ref None t = Fail EValue.
Proof. exists (Mat 3 []). split; reflexivity. Qed.

Lemma ali_commands_are_writes pre suf feats workers order src dst :
  ali_to_ref_dir pre suf workers order src dst =
    run_effects (eff (ali_w src)) (pool_items workers order (filter (selected pre suf) (listdir src))) dst
  /\ ref_to_ali_dir pre suf feats workers order src dst =
    run_effects (eff (ref_w feats src)) (pool_items workers order (filter (selected pre suf) (listdir src))) dst.
Proof. split; [apply ali_to_ref_dir_eff|apply ref_to_ali_dir_eff]. Qed.
