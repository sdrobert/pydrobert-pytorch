(* C17 - lemma: timed transcripts (ctm, TextGrid intervals) -> token directory -> timed transcripts:
   same utterances, same tokens, every time within one frame shift.  Composition of the directory
   layer with C11's seconds <-> frames lemma. *)
From Coq Require Import List ZArith Bool Arith Lia Permutation QArith.
From PV Require Import C11.Model C11.Spec C11.ProofsTok C17.Model C17.Spec C17.ProofsSel C17.ProofsPool
  C17.ProofsDir C17.ProofsTrn.
Import ListNotations.
Local Open Scope Z_scope.

Lemma rows_of_full (rs : list row3) : rows_of (tok_tensor false false rs) = Done rs.
Proof. unfold tok_tensor. cbn [rows_of]. apply map_out_map_inv. now intros [[i s] e] _. Qed.

Definition timed_ok (t2i : list (tk * Z)) (x : str * Q * Q) : Prop :=
  (exists i, assoc tk_eqb (TStr (fst (fst x))) t2i = Some i)
  /\ (0 <= snd (fst x))%Q /\ (snd (fst x) <= snd x)%Q.

Lemma close_no_int d tr : forall tr', Forall2 (C11.Spec.item_close d) (map timed_item tr) tr' ->
  existsb (fun a => is_int (item_tk a)) tr' = false.
Proof.
  induction tr as [|[[t s] e] r IH]; intros tr' H; inversion H as [|a b l l' Hab Hl]; subst; [reflexivity|].
  cbn [existsb]. rewrite (IH _ Hl). cbn [timed_item] in Hab. destruct b as [y|y s' e']; cbn [item_close] in Hab; [contradiction|].
  destruct Hab as [<- _]. reflexivity.
Qed.

Lemma timed_dir_roundtrip pre suf t2i d unk workers order (ts : list (str * list (str * Q * Q))) :
  (0 < d)%Q -> NoDup (map fst ts) -> NoDup (map snd t2i) ->
  (forall ut, In ut ts -> Forall (timed_ok t2i) (snd ut)) ->
  Permutation order (seq 0 (length ts)) ->
  exists dd, ctm_to_dir pre suf t2i (Some d) unk false false workers order ts [] = Done dd
    /\ exists res, dir_to_ctm (swap_pairs t2i) pre suf (Some d) dd = Done res
         /\ map fst res = sort_by str_leb (map fst ts)
         /\ forall ut, In ut ts -> exists tr', In (fst ut, tr') res
                                            /\ Forall2 (C11.Spec.item_close d) (map timed_item (snd ut)) tr'.
Proof.
  intros Hd N Ni V P.
  set (rows := fun ut : str * list (str * Q * Q) =>
                 match transcript_to_token (map timed_item (snd ut)) (Some t2i) (Some d) unk false with
                 | Ok r => r | Raise _ => [] end).
  set (backf := fun ut => token_to_transcript (rows ut) (Some (swap_pairs t2i)) (Some d)).
  assert (Hrt : forall ut, In ut ts ->
            transcript_to_token (map timed_item (snd ut)) (Some t2i) (Some d) unk false = Ok (rows ut)
            /\ Forall2 (C11.Spec.item_close d) (map timed_item (snd ut)) (backf ut)).
  { intros x Hx.
    destruct (tokens_roundtrip_vocab t2i d unk (map timed_item (snd x)) Hd Ni) as [r [Hr Hf]].
    - specialize (V x Hx). rewrite Forall_forall in *. intros a Ha. apply in_map_iff in Ha.
      destruct Ha as [[[t s] e] [<- Hy]]. destruct (V _ Hy) as (Hv & Hs & He). cbn [fst snd] in *.
      cbn [timed_item item_tok item_times_ok]. split; [exact Hv|split; assumption].
    - unfold backf, rows. rewrite Hr. split; [reflexivity|exact Hf]. }
  destruct (dir_roundtrip_generic pre suf t2i (Some d) unk false false (Some (swap_pairs t2i)) (Some d) false ts
              (map timed_item) rows backf N) with (workers := workers) (order := order)
    as (dd & Hdd & res & Hres & Hfst & Hin); [intros ut Hut; apply Hrt, Hut| |exact P|].
  - intros ut Hut. unfold load_transcript. rewrite rows_of_full. fold (backf ut).
    rewrite (close_no_int d (snd ut) _ (proj2 (Hrt ut Hut))). reflexivity.
  - exists dd. split; [exact Hdd|]. exists res. split; [exact Hres|]. split; [exact Hfst|].
    intros ut Hut. exists (backf ut). split; [apply (Hin _ Hut)|apply (Hrt _ Hut)].
Qed.
