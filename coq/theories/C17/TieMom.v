(* C17 - tie between the Python text of the two length-moment workers of command_line.py
   (_print_torch_ali_data_dir_length_moments, _print_torch_ref_data_dir_length_moments) and
   PV.C17.Model.ali_moments / ref_moments: for every file system, stored tensor and exclude list the interpreted
   worker returns exactly the model's (sum, sum of squares, count) - and, for the ref worker, a message exactly
   when the model says there is one - without any effect. *)
From Coq Require Import ZArith QArith List String Bool Arith Lia ZifyBool ZifyNat.
From PV Require Import C11.Model C17.Model.
From PV Require Import MiniPy.Syntax MiniPy.Interp MiniTorch.OpsC17 MiniTorch.ValueC17 MiniTorch.LemmasC17 Gen.C17Src
  C17.SrcRun C17.TieLib.
Import ListNotations.
Local Open Scope string_scope.

(* ---- lists ---- *)
Lemma map2_map_map : forall A B C D (g : B -> C -> D) (f1 : A -> B) (f2 : A -> C) l,
  map2 g (map f1 l) (map f2 l) = map (fun x => g (f1 x) (f2 x)) l.
Proof. induction l as [|x l IH]; cbn; [reflexivity|now rewrite IH]. Qed.

Lemma select_map_map : forall A B (f : A -> B) (p : A -> bool) l, select (map f l) (map p l) = map f (filter p l).
Proof. induction l as [|x l IH]; cbn; [reflexivity|]. destruct (p x); cbn; now rewrite IH. Qed.

Lemma forallb_ne : forall z e, forallb (fun b : bool => b) (map (zcmp KNe z) e) = negb (existsb (Z.eqb z) e).
Proof. induction e as [|x e IH]; cbn; [reflexivity|]. now rewrite IH, negb_orb. Qed.

Lemma filter_true_all : forall A (l : list A), filter (fun _ => true) l = l.
Proof. induction l as [|x l IH]; cbn; [reflexivity|now rewrite IH]. Qed.

(* the mask `(counts.unsqueeze(1) != exclude_ids).all(1)` keeps the runs whose value is not excluded *)
Lemma select_not_excluded : forall (rs : list (Z * Z)) e,
  select (map snd rs)
    (map (forallb (fun b : bool => b)) (map (fun r : list Z => map (zcmp KNe (hd 0%Z r)) e) (map (fun z : Z => [z]) (map fst rs))))
  = map snd (filter (fun vc : Z * Z => negb (existsb (Z.eqb (fst vc)) e)) rs).
Proof.
  intros rs e. rewrite !map_map. rewrite <- select_map_map. f_equal. apply map_ext. intros [v c]. cbn [hd fst].
  apply forallb_ne.
Qed.

Lemma sum_ind : forall A (P : A -> bool) l,
  negb (fold_right Z.add 0 (map (fun x => if P x then 1 else 0) l) =? 0)%Z = existsb P l.
Proof.
  intros A P. set (s := fun l => fold_right Z.add 0%Z (map (fun x => if P x then 1 else 0)%Z l)).
  assert (H : forall l, (0 <= s l)%Z) by (induction l as [|x l IH]; unfold s in *; cbn [map fold_right]; [lia|destruct (P x); lia]).
  induction l as [|x l IH]; [reflexivity|]. cbn [map fold_right existsb]. fold (s l). specialize (H l).
  destruct (P x); cbn [orb]; [lia|exact IH].
Qed.

Lemma existsb_ext' : forall A (f g : A -> bool) l, (forall x, f x = g x) -> existsb f l = existsb g l.
Proof. intros A f g l H. induction l as [|x l IH]; cbn; [reflexivity|now rewrite H, IH]. Qed.

Lemma hd_slice_to1 : forall x : list Z, hd 0%Z (slice_list None (Some 1%Z) x) = nth 0 x 0%Z.
Proof. intros [|a x]; [reflexivity|now rewrite slice_to1]. Qed.

Lemma keep_eq : forall x e,
  forallb (fun b : bool => b) (map (zcmp KNe (hd 0%Z (slice_list None (Some 1%Z) x))) e)
  = negb (existsb (Z.eqb (row_tok x)) e).
Proof. intros. rewrite hd_slice_to1. apply forallb_ne. Qed.

(* (s, ss, c) = lens.sum().item(), ..; return s, ss, c - whatever else is bound *)
Lemma ali_moments_tail : forall fs vs l,
  lookup "lens" vs = Some (enc17 (L1 l)) ->
  returns (exec (ext17 fs) (drop_seq 3 ali_moments_body) (mkState vs [])) (mom_value (mom_of l)).
Proof.
  intros fs vs l Hl. unfold ali_moments_body. cbn [drop_seq].
  repeat open_seq. fsteps. rewrite numel_L1. isteps. close_stmt.
  do 3 (repeat open_seq; fsteps; close_stmt).
  fsteps. apply returns_intro. reflexivity.
Qed.

Theorem ali_moments_tie : forall fs fn excl v,
  dict_get fs fn = Some (enc_tensor (Vec v)) ->
  exists st, run_ali_moments fs fn excl = Ok (mom_value (ali_moments excl (Vec v))) st /\ events st = [].
Proof.
  intros fs fn excl v H. apply run_of_returns. unfold ali_moments_body, ali_moments_vars, ali_moments, excluded.
  stmt. rewrite H. icbn. close_stmt. unfold enc_tensor, lten_of.
  do 3 (stmt; close_stmt).
  open_seq. open_if. destruct excl as [e|]; cbn [excl_arg]; isteps; subst_body.
  - stmt. close_stmt. stmt. rewrite if_len_eq by (now rewrite !map_length). isteps. close_stmt.
    rewrite select_not_excluded, runs_rle. now apply ali_moments_tail.
  - icbn. close_stmt. cbn [negb]. rewrite filter_true_all, runs_rle. now apply ali_moments_tail.
Qed.

Definition ref_file (d p u s : string) : val := path (VStr d) (VStr ((p ++ u) ++ s)).

Definition validf (x : list Z) : bool := ((0 <=? nth 1 x 0) && (nth 1 x 0 <=? nth 2 x 0))%Z.
Definition lenf (x : list Z) : Z := (nth 2 x 0 - nth 1 x 0)%Z.

(* lens = lens[valid & not_excluded]; (s, ss, c) = ..; return s, ss, c, err_msg - whatever else is bound *)
Lemma ref_moments_finish : forall fs vs l va ke em,
  lookup "lens" vs = Some (enc17 (L1 l)) -> lookup "valid" vs = Some (enc17 (B1 va)) ->
  lookup "not_excluded" vs = Some (enc17 (B1 ke)) -> lookup "err_msg" vs = Some em ->
  List.length l = List.length va -> List.length va = List.length ke ->
  returns (exec (ext17 fs) (drop_seq 8 ref_moments_body) (mkState vs []))
          (let '(s, ss, c) := mom_of (select l (map2 andb va ke)) in VTuple [VInt s; VInt ss; VInt c; em]).
Proof.
  intros fs vs l va ke em Hl Hv Hk He Lv Lk. unfold ref_moments_body. cbn [drop_seq].
  repeat open_seq. fsteps. rewrite if_len_eq by exact Lk. isteps.
  rewrite if_len_eq by (rewrite map2_length; congruence). isteps. close_stmt.
  repeat open_seq. fsteps. rewrite numel_L1. isteps. close_stmt.
  do 3 (repeat open_seq; fsteps; close_stmt).
  fsteps. apply returns_intro. reflexivity.
Qed.

(* the state after `not_excluded = ...` (statement 6), whatever the mask [K] is *)
Definition ref_mid_vars (u d p s : string) (ev : val) (rows : list (list Z)) (K : list Z -> bool) : list (string * val) :=
  [("utt_id", VStr u); ("dir_", VStr d); ("prefix", VStr p); ("suffix", VStr s); ("exclude_ids", ev);
   ("torch", torch_module); ("ref", enc17 (L2 3 rows)); ("eprefix", msg);
   ("lens", enc17 (L1 (map lenf rows))); ("valid", enc17 (B1 (map validf rows)));
   ("not_excluded", enc17 (B1 (map K rows)))].

Definition ref_result (rows : list (list Z)) (K : list Z -> bool) : val :=
  let '(s, ss, c) := mom_of (select (map lenf rows) (map2 andb (map validf rows) (map K rows))) in
  VTuple [VInt s; VInt ss; VInt c; if existsb (fun x => negb (validf x) && K x) rows then msg else VNone].

Lemma ref_tail : forall fs u d p s ev rows K,
  returns (exec (ext17 fs) (drop_seq 6 ref_moments_body) (mkState (ref_mid_vars u d p s ev rows K) []))
          (ref_result rows K).
Proof.
  intros. unfold ref_moments_body, ref_mid_vars, ref_result. cbn [drop_seq].
  stmt. rewrite if_len_eq by (now rewrite !map_length). isteps. close_stmt.
  open_seq. open_if. isteps. rewrite map_map, map2_map_map, map_map, sum_ind.
  destruct (existsb _ rows); subst_body.
  - stmt. close_stmt. stmt. close_stmt.
    apply ref_moments_finish; try reflexivity; now rewrite !map_length.
  - stmt. close_stmt.
    apply ref_moments_finish; try reflexivity; now rewrite !map_length.
Qed.

Definition keep_excl (e : list Z) (x : list Z) : bool :=
  forallb (fun b : bool => b) (map (zcmp KNe (hd 0%Z (slice_list None (Some 1%Z) x))) e).

Lemma ref_result_model : forall rows excl,
  ref_result rows (match excl with Some e => keep_excl e | None => fun _ => true end)
  = ref_moments_value (ref_moments excl (Mat 3 rows)).
Proof.
  intros rows excl. unfold ref_result, ref_moments_value, ref_moments, excluded, validf, lenf.
  rewrite map2_map_map, select_map_map. destruct excl as [e|].
  - unfold keep_excl. erewrite filter_ext, existsb_ext' by (intros x; rewrite keep_eq; reflexivity). reflexivity.
  - reflexivity.
Qed.

Theorem ref_moments_tie : forall fs u d p s excl t,
  dict_get fs (ref_file d p u s) = Some (enc_tensor t) ->
  exists st, run_ref_moments fs u d p s excl = Ok (ref_moments_value (ref_moments excl t)) st /\ events st = [].
Proof.
  intros fs u d p s excl t H. apply run_of_returns. unfold ref_moments_body, ref_moments_vars.
  stmt. fold (ref_file d p u s). rewrite H. icbn. close_stmt. unfold enc_tensor.
  stmt. close_stmt.
  open_seq. open_if. isteps.
  destruct t as [v|w rows]; cbn [lten_of]; isteps.
  - subst_body. stmt. close_stmt. isteps. apply returns_intro. reflexivity.
  - destruct (Nat.eq_dec w 3) as [->|Hw].
    + isteps. subst_body. icbn. close_stmt.
      stmt. rewrite if_len_eq by (now rewrite !map_length). isteps. close_stmt.
      stmt. rewrite compare_L1_L1, if_len_eq by (now rewrite !map_length). isteps.
      rewrite if_len_eq by (rewrite map2_length; now rewrite !map_length). isteps. close_stmt.
      rewrite !slice_all, !map_map, !map2_map_map.
      open_seq. open_if. rewrite <- ref_result_model. destruct excl as [e|]; cbn [excl_arg]; isteps; subst_body.
      * stmt. rewrite slice_len_to1_3, compare_L21_L1. isteps. close_stmt. rewrite slice_all, !map_map.
        exact (ref_tail fs u d p s (enc17 (L1 e)) rows (keep_excl e)).
      * stmt. close_stmt. rewrite map_map. exact (ref_tail fs u d p s VNone rows (fun _ => true)).
    + replace (ref_moments excl (Mat w rows)) with ((0, 0, 0)%Z, true)
        by (destruct w as [|[|[|[|w]]]]; try reflexivity; contradiction).
      replace (Z.of_nat w =? 3)%Z with false by lia. isteps.
      subst_body. stmt. close_stmt. isteps. apply returns_intro. reflexivity.
Qed.
