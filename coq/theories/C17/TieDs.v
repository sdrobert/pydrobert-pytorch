(* C17 - tie between the Python text of _TranscriptDataSet.__getitem__ (command_line.py) and the tail of
   PV.C17.Model.load_transcript: for every transcript returned by data.token_to_transcript (any length, plain and
   timed tokens), every id2token / strip_timing setting, the interpreted method returns (utt_id, the transcript with
   the timing stripped on request) or raises ValueError exactly when an id2token map was given and a token is still
   an int.  Proof: the `for idx in range(len(transcript))` loop by induction over the unprocessed items
   (MiniPy.Lemmas.for_loop); the body is run once, on variables known through what [lookup] finds in them, and splits
   where the source does (timed item or not, strip_timing, int token and id2token). *)
From Coq Require Import ZArith QArith List String Bool Arith Lia ZifyBool ZifyNat.
From PV Require Import C11.Model C17.Model.
From PV Require Import MiniPy.Syntax MiniPy.Interp MiniPy.Lemmas MiniTorch.OpsC17 MiniTorch.ValueC17 Gen.C17Src
  C17.SrcRun C17.TieLib.
Import ListNotations.
Local Open Scope string_scope.
Local Open Scope list_scope.

Definition strip_item (strip : bool) (a : item) : item := if strip then Plain (item_tk a) else a.

(* the tail of Model.load_transcript, after rows_of and token_to_transcript *)
Definition finish_transcript (i2t : option (list (Z * tk))) (strip : bool) (tr : list item) : out (list item) :=
  match i2t with
  | Some _ => if existsb (fun a => is_int (item_tk a)) tr then Fail EValue else Done (map (strip_item strip) tr)
  | None => Done (map (strip_item strip) tr)
  end.

Lemma load_transcript_finish : forall i2t fs strip t,
  load_transcript i2t fs strip t
  = match rows_of t with
    | Fail e => Fail e
    | Done rows => finish_transcript i2t strip (token_to_transcript rows i2t fs)
    end.
Proof.
  intros. unfold load_transcript, finish_transcript, strip_item. destruct (rows_of t) as [rows|e]; [|reflexivity].
  assert (M : map (fun a : item => a) (token_to_transcript rows i2t fs) = token_to_transcript rows i2t fs) by apply map_id.
  destruct i2t as [l|]; destruct strip; try reflexivity; rewrite M; reflexivity.
Qed.

(* an int token left in the transcript is not a key of id2token *)
Definition ints_unknown (i2t : option (list (Z * tk))) (tr : list item) : Prop :=
  match i2t with
  | None => True
  | Some l => forall a z, List.In a tr -> item_tk a = TInt z -> existsb (fun kv => Z.eqb z (fst kv)) l = false
  end.

(* ---- values ---- *)
Lemma dec_chars_enc : forall s, dec_chars (map VInt s) = Some s.
Proof. induction s as [|c s IH]; [reflexivity|]. cbn [map dec_chars]. now rewrite IH. Qed.

Lemma dec_tk_enc : forall t, dec_tk (enc_tk t) = Some t.
Proof. intros [z|s]; [reflexivity|]. unfold enc_tk, dec_tk. cbn. now rewrite dec_chars_enc. Qed.

Lemma dec_item_enc : forall a, dec_item (enc_item a) = Some a.
Proof.
  intros [t|t s e]; unfold dec_item, enc_item.
  - now rewrite dec_tk_enc.
  - replace (dec_tk (VTuple [enc_tk t; VQ s; VQ e])) with (@None tk) by (destruct t; reflexivity).
    now rewrite dec_tk_enc.
Qed.

Lemma dec_items_enc : forall l, dec_items (map enc_item l) = Some l.
Proof. induction l as [|a l IH]; [reflexivity|]. cbn [map dec_items]. now rewrite dec_item_enc, IH. Qed.

Lemma mem_keys : forall z (l : list (Z * tk)),
  mem (VInt z) (map fst (map (fun kv => (VInt (fst kv), enc_tk (snd kv))) l)) = existsb (fun kv => Z.eqb z (fst kv)) l.
Proof. induction l as [|[k t] l IH]; [reflexivity|]. cbn [map fst mem existsb val_eqb]. now rewrite IH. Qed.

(* ---- indexing the transcript at the loop position ---- *)
Lemma index_mid : forall (l1 : list val) x l2,
  let i := Z.of_nat (List.length l1) in
  (i <? 0)%Z = false /\ ((0 <=? i) && (i <? Z.of_nat (List.length (l1 ++ x :: l2))))%bool%Z = true.
Proof. intros. rewrite app_length. cbn [List.length]. lia. Qed.

Lemma subscript_mid : forall (l1 : list val) x l2 st,
  subscript (VList (l1 ++ x :: l2)) (VInt (Z.of_nat (List.length l1))) st = Ok x st.
Proof.
  intros. destruct (index_mid l1 x l2) as [H1 H2]. unfold subscript. rewrite H1, H2.
  rewrite Nat2Z.id, app_nth2, Nat.sub_diag by lia. reflexivity.
Qed.

Lemma list_set_mid : forall (l1 : list val) x l2 v, list_set (l1 ++ x :: l2) (List.length l1) v = l1 ++ v :: l2.
Proof. induction l1 as [|y l1 IH]; intros; cbn; [reflexivity|now rewrite IH]. Qed.

Lemma zrange_nat : forall m, zrange 0 (Z.of_nat m) = map (fun i => VInt (Z.of_nat i)) (seq 0 m).
Proof. intros. unfold zrange. rewrite Z.sub_0_r, Nat2Z.id. apply map_ext. intros. f_equal. Qed.

Lemma subscript_timed0 : forall t s e st, subscript (VTuple [enc_tk t; s; e]) (VInt 0) st = Ok (enc_tk t) st.
Proof. intros [z|c]; reflexivity. Qed.

Lemma store_transcript : forall ext vs ev pre x rest v,
  lookup "transcript" vs = Some (VList (pre ++ x :: rest)) ->
  lookup "idx" vs = Some (VInt (Z.of_nat (List.length pre))) ->
  store ext (ESub (EName "transcript") (EName "idx")) v (mkState vs ev)
  = Ok tt (mkState (update "transcript" (VList (pre ++ v :: rest)) vs) ev).
Proof.
  intros ext vs ev pre x rest v H1 H2. cbn [store eval vars]. rewrite H1. cbn [bind eval vars]. rewrite H2. cbn [bind].
  destruct (index_mid pre x rest) as [I1 I2]. rewrite I1, I2, Nat2Z.id, list_set_mid. reflexivity.
Qed.

Lemma is_tuple_item : forall a,
  match enc_item a with VTuple _ => negb (is_str_value (enc_item a)) | _ => false end
  = match a with Timed _ _ _ => true | Plain _ => false end.
Proof. intros [[z|c]|[z|c] s e]; reflexivity. Qed.

Lemma is_int_tk : forall t, match enc_tk t with VInt _ | VBool _ => true | _ => false end = is_int t.
Proof. intros [z|c]; reflexivity. Qed.

Section Ds.
  Variables (utt tok : val) (i2t : option (list (Z * tk))) (fs : option Q) (strip : bool) (tr : list item).
  Let ext := ext17_ds (VTuple [utt; tok]) tr.

  Definition for_body (s : stmt) : stmt :=
    match s with SSeq _ (SSeq _ (SSeq (SFor _ _ b) _)) => b | _ => SPass end.

  (* all that the loop and the final return read of the variables *)
  Definition ds_inv (trl : list val) (vs : list (string * val)) : Prop :=
    lookup "self" vs = Some (ds_self i2t fs strip) /\ lookup "tuple" vs = Some tuple_type
    /\ lookup "int" vs = Some int_type /\ lookup "utt_id" vs = Some utt /\ lookup "transcript" vs = Some (VList trl).

  Definition must_raise (a : item) : bool :=
    is_int (item_tk a) && match i2t with Some _ => true | None => false end.

  Lemma ds_inv_update : forall trl vs x v, ds_inv trl vs ->
    (if String.eqb "self" x || String.eqb "tuple" x || String.eqb "int" x || String.eqb "utt_id" x
        || String.eqb "transcript" x then False else True) ->
    ds_inv trl (update x v vs).
  Proof.
    intros trl vs x v (H1 & H2 & H3 & H4 & H5) N. unfold ds_inv. rewrite !lookup_update.
    destruct (String.eqb "self" x), (String.eqb "tuple" x), (String.eqb "int" x), (String.eqb "utt_id" x),
      (String.eqb "transcript" x); try contradiction. now repeat split.
  Qed.

  (* `if isinstance(token, int) and self.id2token is not None: ..`: the state is not changed *)
  Definition check_block (s : stmt) : stmt := match s with SSeq _ (SSeq _ c) => c | _ => SPass end.

  Lemma check_run : forall a trl vs, ds_inv trl vs -> lookup "token" vs = Some (enc_tk (item_tk a)) ->
    ints_unknown i2t [a] ->
    exec ext (check_block (for_body tds_getitem)) (mkState vs [])
    = (if must_raise a then Exc "ValueError" else Ok CNormal) (mkState vs []).
  Proof.
    intros a trl vs (Hs & Ht & Hi & Hu & Htr) Htok U. unfold ext, must_raise, tds_getitem, for_body, check_block.
    open_if. fsteps. rewrite is_int_tk. destruct (item_tk a) as [z|c] eqn:T; cbn [is_int andb]; fsteps; [|reflexivity].
    destruct i2t as [l|]; fsteps; [|reflexivity].
    subst_body. open_seq. fsteps. rewrite mem_keys, (U a z (or_introl eq_refl) T). reflexivity.
  Qed.

  Lemma ds_inv_update_tr : forall trl trl' vs, ds_inv trl vs -> ds_inv trl' (update "transcript" (VList trl') vs).
  Proof. intros trl trl' vs (H1 & H2 & H3 & H4 & H5). unfold ds_inv. rewrite !lookup_update. now repeat split. Qed.

  Ltac inv_upd := repeat (apply ds_inv_update; [|exact I]); eassumption.

  Lemma iter_run : forall a pre rest vs, ds_inv (pre ++ enc_item a :: rest) vs -> ints_unknown i2t [a] ->
    exists vs',
      exec ext (for_body tds_getitem) (mkState (update "idx" (VInt (Z.of_nat (List.length pre))) vs) [])
      = (if must_raise a then Exc "ValueError" else Ok CNormal) (mkState vs' [])
      /\ ds_inv (pre ++ enc_item (strip_item strip a) :: rest) vs'.
  Proof.
    intros a pre rest vs Inv U. pose proof Inv as (Hs & Ht & Hi & Hu & Htr). unfold tds_getitem, for_body.
    fold (check_block (for_body tds_getitem)). unfold ext.
    open_seq. fsteps. rewrite subscript_mid. fsteps. close_stmt.
    open_seq. open_if. fsteps. rewrite is_tuple_item. destruct a as [t|t s e]; fsteps; subst_body.
    - cbn [exec]. cbn iota. close_stmt. eexists. split.
      + apply (check_run (Plain t) (pre ++ enc_item (Plain t) :: rest)); [inv_upd|now rewrite lookup_update|exact U].
      + destruct strip; inv_upd.
    - repeat open_seq. fsteps. cbn [enc_item]. rewrite subscript_timed0. fsteps. close_stmt.
      open_if. fsteps. destruct strip; subst_body; fsteps.
      + erewrite store_transcript by (rewrite !lookup_update; first [exact Htr|reflexivity]).
        fsteps. close_stmt. eexists. split.
        * apply (check_run (Timed t s e) (pre ++ enc_tk t :: rest));
            [eapply ds_inv_update_tr; inv_upd|now rewrite !lookup_update|exact U].
        * eapply ds_inv_update_tr. inv_upd.
      + cbn [exec]. cbn iota. close_stmt. eexists. split.
        * apply (check_run (Timed t s e) (pre ++ enc_item (Timed t s e) :: rest)); [inv_upd|now rewrite lookup_update|exact U].
        * inv_upd.
  Qed.

  Lemma ints_unknown_cons : forall a rest, ints_unknown i2t (a :: rest) -> ints_unknown i2t [a] /\ ints_unknown i2t rest.
  Proof.
    intros a rest U. unfold ints_unknown in *. destruct i2t as [l|]; [|split; exact I]. split.
    - intros b z [<-|[]] Hb. apply (U a z); [now left|exact Hb].
    - intros b z Hin Hb. apply (U b z); [now right|exact Hb].
  Qed.

  (* the loop over the unprocessed items [rest]; [pre] = the (already processed) front of the transcript *)
  Lemma loop_run : forall rest pre vs, ds_inv (pre ++ map enc_item rest) vs -> ints_unknown i2t rest ->
    exists vs',
      for_loop ext "idx" (for_body tds_getitem)
        (map (fun i => VInt (Z.of_nat i)) (seq (List.length pre) (List.length rest))) (mkState vs [])
      = (if existsb must_raise rest then Exc "ValueError" else Ok CNormal) (mkState vs' [])
      /\ (existsb must_raise rest = false -> ds_inv (pre ++ map enc_item (map (strip_item strip) rest)) vs').
  Proof.
    induction rest as [|a rest IH]; intros pre vs Inv U.
    - exists vs. split; [reflexivity|intros _; exact Inv].
    - destruct (ints_unknown_cons _ _ U) as [Ua Ur]. cbn [map] in Inv.
      destruct (iter_run a pre (map enc_item rest) vs Inv Ua) as (vs1 & E & Inv1).
      cbn [existsb map seq List.length for_loop]. unfold set_var. cbn [vars events]. rewrite E.
      destruct (must_raise a); cbn [orb bind].
      + exists vs1. split; [reflexivity|discriminate].
      + destruct (IH (pre ++ [enc_item (strip_item strip a)]) vs1) as (vs' & E' & Inv');
          [now rewrite <- app_assoc|exact Ur|].
        rewrite app_length, Nat.add_1_r in E'. exists vs'. split; [exact E'|].
        intros N. specialize (Inv' N). now rewrite <- app_assoc in Inv'.
  Qed.

  Definition outcome_of (m : out (list item)) (o : outcome val) : Prop :=
    match m with
    | Done l => exists st, o = Ok (VTuple [utt; enc_items l]) st /\ events st = []
    | Fail e => exists st, o = Exc (name_of_err e) st /\ events st = []
    end.

  Lemma must_raise_model : forall l,
    match i2t with
    | Some _ => existsb (fun a => is_int (item_tk a)) l
    | None => false
    end = existsb must_raise l.
  Proof.
    intros l. unfold must_raise. destruct i2t as [d|].
    - induction l as [|a l IH]; [reflexivity|]. cbn [existsb]. now rewrite IH, andb_true_r.
    - induction l as [|a l IH]; [reflexivity|]. cbn [existsb]. now rewrite <- IH, andb_false_r.
  Qed.

  Theorem getitem_tie : ints_unknown i2t tr ->
    outcome_of (finish_transcript i2t strip tr)
               (Interp.run ext tds_getitem (getitem_vars (ds_self i2t fs strip) (VInt 0))).
  Proof.
    intros U.
    replace (finish_transcript i2t strip tr)
      with (if existsb must_raise tr then Fail EValue else Done (map (strip_item strip) tr))
      by (unfold finish_transcript; rewrite <- must_raise_model; destruct i2t; reflexivity).
    unfold Interp.run, ext, tds_getitem, getitem_vars.
    repeat open_seq. fsteps. close_stmt.
    do 3 (repeat open_seq; fsteps; close_stmt).
    open_seq. rewrite exec_for. unfold enc_items. fsteps. cbn [iter_items container_items List.length].
    rewrite map_length, zrange_nat.
    destruct (loop_run tr [] [("self", ds_self i2t fs strip); ("index", VInt 0); ("tuple", tuple_type); ("int", int_type);
                              ("$t1", VTuple [utt; tok]); ("utt_id", utt); ("tok", tok);
                              ("transcript", VList (map enc_item tr))])
      as (vs' & E & Inv'); [now repeat split|exact U|].
    unfold ext, tds_getitem, for_body in E. cbn [app List.length] in E. rewrite E.
    destruct (existsb must_raise tr); cbn iota.
    - eexists. split; reflexivity.
    - destruct (Inv' eq_refl) as (_ & _ & _ & Hu & Htr). close_stmt. fsteps. eexists. split; reflexivity.
  Qed.
End Ds.

(* ---- with data.token_to_transcript = C11's model: the whole of Model.load_transcript ---------------------------- *)
(* id2token maps ids to STRINGS (what _parse_token2id builds from a file of "token id" lines) *)
Definition i2t_strings (i2t : option (list (Z * tk))) : Prop :=
  match i2t with None => True | Some l => Forall (fun kv : Z * tk => is_int (snd kv) = false) l end.

Lemma assoc_cases : forall (l : list (Z * tk)) i,
  match assoc Z.eqb i l with
  | Some t => List.In (i, t) l
  | None => existsb (fun kv : Z * tk => Z.eqb i (fst kv)) l = false
  end.
Proof.
  induction l as [|[k v] l IH]; intros i; [reflexivity|]. cbn [assoc existsb fst].
  destruct (Z.eqb i k) eqn:E.
  - apply Z.eqb_eq in E. subst. now left.
  - specialize (IH i). destruct (assoc Z.eqb i l); [now right|exact IH].
Qed.

Lemma ints_unknown_ttt : forall i2t fs rows, i2t_strings i2t -> ints_unknown i2t (token_to_transcript rows i2t fs).
Proof.
  intros i2t fs rows S. unfold ints_unknown. destruct i2t as [l|]; [|exact I].
  intros a z Hin Ha. unfold token_to_transcript in Hin. apply in_map_iff in Hin. destruct Hin as [[[i s] e] [Hf _]].
  pose proof (assoc_cases l i) as C. cbn [i2t_strings] in S. rewrite Forall_forall in S.
  assert (T : item_tk a = match assoc Z.eqb i l with Some t => t | None => TInt i end).
  { subst a. destruct ((s =? -1)%Z || (e =? -1)%Z)%bool; [reflexivity|]. destruct fs; reflexivity. }
  rewrite Ha in T. destruct (assoc Z.eqb i l) as [t|].
  - subst t. specialize (S _ C). discriminate S.
  - inversion T. subst. exact C.
Qed.

Theorem load_transcript_tie : forall i2t fs strip t, i2t_strings i2t ->
  src_load_transcript i2t fs strip t = Some (load_transcript i2t fs strip t).
Proof.
  intros i2t fs strip t S. rewrite load_transcript_finish. unfold src_load_transcript.
  destruct (rows_of t) as [rows|e]; [|reflexivity].
  pose proof (getitem_tie (VStr "utt") (enc_tensor t) i2t fs strip (token_to_transcript rows i2t fs)
                          (ints_unknown_ttt i2t fs rows S)) as G.
  unfold run_getitem.
  destruct (finish_transcript i2t strip (token_to_transcript rows i2t fs)) as [l|e] eqn:F; cbn [outcome_of] in G.
  - destruct G as [st [G1 G2]]. rewrite G1, G2. unfold enc_items. cbn [val_eqb String.eqb Ascii.eqb Bool.eqb].
    now rewrite dec_items_enc.
  - assert (e = EValue) as ->.
    { unfold finish_transcript in F. destruct i2t; [destruct (existsb _ _) in F|]; inversion F; reflexivity. }
    destruct G as [st [G1 G2]]. rewrite G1, G2. reflexivity.
Qed.
