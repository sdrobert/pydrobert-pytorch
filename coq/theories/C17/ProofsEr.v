(* C17 - lemmas: error rates.  Levenshtein distance is invariant under injective renaming; the
   defaultdict numbering is injective; the batched accumulation does not depend on the batch size. *)
From Coq Require Import List ZArith Bool Arith Lia.
From PV Require Import C11.Model C11.ProofsSort C01.Spec C17.Model C17.Spec C17.ProofsSel.
Import ListNotations.
Local Open Scope Z_scope.

(* ---------- tokens ------------------------------------------------------------------------------ *)

Lemma tk_eqb_iff a b : tk_eqb a b = true <-> a = b.
Proof.
  destruct a as [x|x], b as [y|y]; cbn [tk_eqb]; try (split; intros H; discriminate).
  - rewrite Z.eqb_eq. split; [intros ->; reflexivity|intros H; inversion H; reflexivity].
  - rewrite str_eqb_iff. split; [intros ->; reflexivity|intros H; inversion H; reflexivity].
Qed.

Lemma tk_eqb_refl a : tk_eqb a a = true.
Proof. apply tk_eqb_iff. reflexivity. Qed.

(* ---------- renaming invariance of lev ------------------------------------------------------------ *)

(* two numberings that identify exactly the same tokens of l *)
Definition same_classes {T} (e1 e2 : T -> Z) (l : list T) : Prop :=
  forall a b, In a l -> In b l -> (e1 a = e1 b <-> e2 a = e2 b).

Definition inj_on {T} (e : T -> Z) (l : list T) : Prop :=
  forall a b, In a l -> In b l -> e a = e b -> a = b.

Lemma inj_same_classes {T} (e1 e2 : T -> Z) l : inj_on e1 l -> inj_on e2 l -> same_classes e1 e2 l.
Proof.
  intros H1 H2 a b Ha Hb. split; intros E.
  - rewrite (H1 a b Ha Hb E). reflexivity.
  - rewrite (H2 a b Ha Hb E). reflexivity.
Qed.

Lemma same_classes_incl {T} (e1 e2 : T -> Z) l l' : incl l' l -> same_classes e1 e2 l -> same_classes e1 e2 l'.
Proof. intros I H a b Ha Hb. apply H; apply I; assumption. Qed.

Lemma inj_on_incl {T} (e : T -> Z) l l' : incl l' l -> inj_on e l -> inj_on e l'.
Proof. intros I H a b Ha Hb. apply H; apply I; assumption. Qed.

Lemma incl_app_mid {T} (r h : list T) b : incl (r ++ h) (r ++ b :: h).
Proof. apply incl_app; [apply incl_appl|apply incl_appr, incl_tl]; apply incl_refl. Qed.

Section Lev.
  Variables ci cd cs : Z.

  Lemma lev_nil_l h : lev ci cd cs [] h = Z.of_nat (length h) * ci.
  Proof. reflexivity. Qed.

  Lemma lev_nil_r a r : lev ci cd cs (a :: r) [] = Z.of_nat (length (a :: r)) * cd.
  Proof. reflexivity. Qed.

  Lemma lev_cons a r b h :
    lev ci cd cs (a :: r) (b :: h) =
    Z.min (Z.min (lev ci cd cs r (b :: h) + cd) (lev ci cd cs (a :: r) h + ci))
          (lev ci cd cs r h + (if a =? b then 0 else cs)).
  Proof. reflexivity. Qed.

  Lemma lev_rename {T} (e1 e2 : T -> Z) : forall r h, same_classes e1 e2 (r ++ h) ->
    lev ci cd cs (map e1 r) (map e1 h) = lev ci cd cs (map e2 r) (map e2 h).
  Proof.
    induction r as [|a r IHr]; intros h S.
    - cbn [map]. rewrite !lev_nil_l, !map_length. reflexivity.
    - induction h as [|b h IHh].
      + cbn [map]. rewrite !lev_nil_r. cbn [length]. rewrite !map_length. reflexivity.
      + cbn [map]. rewrite !lev_cons.
        pose proof (IHr (b :: h)) as E1. cbn [map] in E1.
        rewrite E1 by (apply (same_classes_incl _ _ _ _ (incl_tl a (incl_refl _)) S)).
        pose proof IHh as E2. cbn [map] in E2.
        rewrite E2 by (apply (same_classes_incl _ _ _ _ (incl_app_mid (a :: r) h b) S)).
        rewrite (IHr h) by (apply (same_classes_incl _ _ _ _ (incl_tl a (incl_app_mid r h b)) S)).
        pose proof (S a b (or_introl eq_refl) (in_elt b (a :: r) h)) as Hab.
        replace (e1 a =? e1 b) with (e2 a =? e2 b); [reflexivity|].
        destruct (e1 a =? e1 b) eqn:X1, (e2 a =? e2 b) eqn:X2; try reflexivity;
          rewrite ?Z.eqb_eq, ?Z.eqb_neq in *; tauto.
  Qed.

  (* the usual statement: an injective renaming of the symbols does not change the distance *)
  Lemma lev_injective_renaming (f : Z -> Z) r h :
    inj_on f (r ++ h) -> lev ci cd cs (map f r) (map f h) = lev ci cd cs r h.
  Proof.
    intros H. rewrite <- (map_id r) at 2. rewrite <- (map_id h) at 2.
    apply lev_rename. apply inj_same_classes; [exact H|]. intros a b _ _ E. exact E.
  Qed.
End Lev.

(* what the accumulation needs of the per-pair edit count *)
Definition rename_invariant (E : list Z -> list Z -> Z) : Prop :=
  forall (e1 e2 : tk -> Z) r h, same_classes e1 e2 (r ++ h) ->
    E (map e1 r) (map e1 h) = E (map e2 r) (map e2 h).

Lemma lev_rename_invariant ci cd cs : rename_invariant (lev ci cd cs).
Proof. intros e1 e2 r h S. apply lev_rename. exact S. Qed.

(* ---------- the defaultdict numbering -------------------------------------------------------------- *)

Definition enc_tbl (tbl : list tk) (t : tk) : Z :=
  match index_of t tbl with Some i => Z.of_nat i | None => -1 end.

Lemma index_of_some t tbl i : index_of t tbl = Some i -> (i < length tbl)%nat /\ nth_error tbl i = Some t.
Proof.
  revert i. induction tbl as [|x r IH]; intros i; cbn [index_of]; [discriminate|].
  destruct (tk_eqb t x) eqn:E.
  - intros H. inversion H. subst. apply tk_eqb_iff in E. subst. cbn. split; [lia|reflexivity].
  - destruct (index_of t r) as [j|]; cbn [option_map]; [|discriminate].
    intros H. inversion H. subst. destruct (IH j eq_refl) as [H1 H2]. cbn. split; [lia|exact H2].
Qed.

Lemma index_of_none t tbl : index_of t tbl = None <-> ~ In t tbl.
Proof.
  induction tbl as [|x r IH]; cbn [index_of]; [split; [intros _ []|reflexivity]|].
  destruct (tk_eqb t x) eqn:E.
  - apply tk_eqb_iff in E. subst. split; [discriminate|]. intros H. exfalso. apply H. left. reflexivity.
  - destruct (index_of t r) as [j|] eqn:Ej; cbn [option_map].
    + split; [discriminate|]. intros H. exfalso. apply H. right.
      apply index_of_some in Ej. destruct Ej as [_ Ej]. eapply nth_error_In. exact Ej.
    + split; [|reflexivity]. intros _ [Hx|Hr].
      * subst. rewrite tk_eqb_refl in E. discriminate.
      * apply (proj1 IH); [reflexivity|exact Hr].
Qed.

Lemma index_of_app t tbl ext i : index_of t tbl = Some i -> index_of t (tbl ++ ext) = Some i.
Proof.
  revert i. induction tbl as [|x r IH]; intros i; cbn [index_of app]; [discriminate|].
  destruct (tk_eqb t x); [auto|].
  destruct (index_of t r) as [j|]; cbn [option_map]; [|discriminate].
  intros H. rewrite (IH j eq_refl). exact H.
Qed.

Lemma index_of_fresh t tbl : index_of t tbl = None -> index_of t (tbl ++ [t]) = Some (length tbl).
Proof.
  induction tbl as [|x r IH]; cbn [index_of app length]; [rewrite tk_eqb_refl; reflexivity|].
  destruct (tk_eqb t x); [discriminate|]. destruct (index_of t r); [discriminate|].
  intros _. rewrite IH by reflexivity. reflexivity.
Qed.

Lemma index_of_in t tbl : In t tbl -> exists i, index_of t tbl = Some i.
Proof.
  intros H. destruct (index_of t tbl) as [i|] eqn:E; [eauto|]. apply index_of_none in E. contradiction.
Qed.

Lemma enc_tbl_app t tbl ext : In t tbl -> enc_tbl (tbl ++ ext) t = enc_tbl tbl t.
Proof.
  intros H. destruct (index_of_in t tbl H) as [i Hi]. unfold enc_tbl. rewrite (index_of_app _ _ ext _ Hi), Hi. reflexivity.
Qed.

(* a token's id is its first position: different tokens of the table get different ids *)
Lemma enc_tbl_inj tbl : inj_on (enc_tbl tbl) tbl.
Proof.
  intros a b Ha Hb E. unfold enc_tbl in E.
  destruct (index_of_in a tbl Ha) as [i Hi]. destruct (index_of_in b tbl Hb) as [j Hj].
  rewrite Hi, Hj in E. apply Nat2Z.inj in E. subst j.
  apply index_of_some in Hi. apply index_of_some in Hj. destruct Hi as [_ Hi]. destruct Hj as [_ Hj]. congruence.
Qed.

Lemma get_id_spec tbl t : let '(tbl', i) := get_id tbl t in
  (exists ext, tbl' = tbl ++ ext) /\ In t tbl' /\ i = enc_tbl tbl' t.
Proof.
  unfold get_id. destruct (index_of t tbl) as [i|] eqn:E.
  - split; [exists []; symmetry; apply app_nil_r|]. split.
    + apply index_of_some in E. destruct E as [_ E]. eapply nth_error_In. exact E.
    + unfold enc_tbl. rewrite E. reflexivity.
  - split; [exists [t]; reflexivity|]. split; [apply in_app_iff; right; left; reflexivity|].
    unfold enc_tbl. rewrite (index_of_fresh t tbl E). reflexivity.
Qed.

Lemma ids_of_spec rep ign tr : forall tbl, let '(tbl', ids) := ids_of rep ign tbl tr in
  (exists ext, tbl' = tbl ++ ext) /\ (forall t, In t (filtered rep ign tr) -> In t tbl')
  /\ ids = map (enc_tbl tbl') (filtered rep ign tr).
Proof.
  induction tr as [|t rest IH]; intros tbl; cbn [ids_of].
  - split; [exists []; symmetry; apply app_nil_r|]. split; [intros t []|reflexivity].
  - unfold filtered. cbn [map filter]. fold (filtered rep ign rest).
    destruct (ignored ign (apply_replace rep t)) eqn:Eg; cbn [negb].
    + apply IH.
    + pose proof (get_id_spec tbl (apply_replace rep t)) as G.
      destruct (get_id tbl (apply_replace rep t)) as [tbl1 i].
      destruct G as ([ext1 E1] & Hin1 & Hi).
      specialize (IH tbl1). destruct (ids_of rep ign tbl1 rest) as [tbl2 r].
      destruct IH as ([ext2 E2] & Hin2 & Hr).
      split; [exists (ext1 ++ ext2); rewrite E2, E1, app_assoc; reflexivity|]. split.
      * intros x [Hx|Hx]; [subst x; rewrite E2; apply in_app_iff; left; exact Hin1|apply Hin2; exact Hx].
      * cbn [map]. f_equal; [|exact Hr]. rewrite Hi, E2. symmetry. apply enc_tbl_app. exact Hin1.
Qed.

Lemma ids_of_list_spec rep ign trs : forall tbl, let '(tbl', idss) := ids_of_list rep ign tbl trs in
  (exists ext, tbl' = tbl ++ ext) /\ (forall tr t, In tr trs -> In t (filtered rep ign tr) -> In t tbl')
  /\ idss = map (fun tr => map (enc_tbl tbl') (filtered rep ign tr)) trs.
Proof.
  induction trs as [|tr rest IH]; intros tbl; cbn [ids_of_list].
  - split; [exists []; symmetry; apply app_nil_r|]. split; [intros ? ? []|reflexivity].
  - pose proof (ids_of_spec rep ign tr tbl) as G. destruct (ids_of rep ign tbl tr) as [tbl1 i].
    destruct G as ([ext1 E1] & Hin1 & Hi).
    specialize (IH tbl1). destruct (ids_of_list rep ign tbl1 rest) as [tbl2 r].
    destruct IH as ([ext2 E2] & Hin2 & Hr).
    split; [exists (ext1 ++ ext2); rewrite E2, E1, app_assoc; reflexivity|]. split.
    + intros tr' t [Ht|Ht] Hf; [subst tr'; rewrite E2; apply in_app_iff; left; apply Hin1; exact Hf|eapply Hin2; eassumption].
    + cbn [map]. f_equal; [|exact Hr]. rewrite Hi. apply map_ext_in. intros t Ht.
      rewrite E2. symmetry. apply enc_tbl_app. apply Hin1. exact Ht.
Qed.

(* ---------- the accumulation ------------------------------------------------------------------------ *)

Lemma incl_firstn_skipn {A} n (l : list A) : incl (firstn n l) l /\ incl (skipn n l) l.
Proof. rewrite <- (firstn_skipn n l) at 2 4. split; [apply incl_appl|apply incl_appr]; apply incl_refl. Qed.

Section Acc.
  Variable E0 : list Z -> list Z -> Z.
  Hypothesis Hinv : rename_invariant E0.
  Variables (rep : list (tk * tk)) (ign : list tk) (distances : bool).

  (* the row the property asks for, under a numbering [enc] *)
  Definition spec_row (enc : tk -> Z) (r h : str * list tk) : er_row :=
    (fst r, E0 (map enc (filtered rep ign (snd r))) (map enc (filtered rep ign (snd h))),
     if distances then 1 else Z.of_nat (length (filtered rep ign (snd r)))).

  Fixpoint spec_rows (enc : tk -> Z) (refs hyps : utts) : list er_row :=
    match refs, hyps with
    | r :: rs, h :: hs => spec_row enc r h :: spec_rows enc rs hs
    | _, _ => []
    end.

  Definition corpus_tokens (refs hyps : utts) : list tk :=
    concat (map (fun u => filtered rep ign (snd u)) refs) ++ concat (map (fun u => filtered rep ign (snd u)) hyps).

  Lemma corpus_tokens_incl (refs' hyps' refs hyps : utts) :
    incl refs' refs -> incl hyps' hyps -> incl (corpus_tokens refs' hyps') (corpus_tokens refs hyps).
  Proof.
    intros I1 I2 t Ht. unfold corpus_tokens in *. apply in_app_iff in Ht. apply in_app_iff.
    destruct Ht as [Ht|Ht]; [left|right]; apply in_concat in Ht; destruct Ht as [l [Hl Ht]];
      apply in_map_iff in Hl; destruct Hl as [u [Eu Hu]]; subst l; apply in_concat;
      exists (filtered rep ign (snd u)); (split; [|exact Ht]);
      apply (in_map (fun u => filtered rep ign (snd u))); [apply I1|apply I2]; exact Hu.
  Qed.

  Lemma corpus_tokens_head r rs h hs :
    incl (filtered rep ign (snd r) ++ filtered rep ign (snd h)) (corpus_tokens (r :: rs) (h :: hs)).
  Proof.
    unfold corpus_tokens. cbn [map concat]. apply incl_app; [apply incl_appl|apply incl_appr]; apply incl_appl, incl_refl.
  Qed.

  Lemma er_rows_spec enc tbl : forall (refs hyps : utts) pos, length refs = length hyps ->
    inj_on enc (corpus_tokens refs hyps) ->
    (forall u t, In u (refs ++ hyps) -> In t (filtered rep ign (snd u)) -> In t tbl) ->
    er_rows (fun _ => E0) distances pos (map fst refs)
            (map (fun u => map (enc_tbl tbl) (filtered rep ign (snd u))) refs)
            (map (fun u => map (enc_tbl tbl) (filtered rep ign (snd u))) hyps)
    = spec_rows enc refs hyps.
  Proof.
    induction refs as [|r rs IH]; intros [|h hs] pos L Hinj Hin; cbn [map er_rows spec_rows]; try reflexivity; try discriminate.
    f_equal.
    - unfold spec_row. rewrite map_length. do 2 f_equal. apply Hinv, inj_same_classes.
      + eapply inj_on_incl; [|apply (enc_tbl_inj tbl)]. intros t Ht. apply in_app_iff in Ht.
        destruct Ht as [Ht|Ht]; [apply (Hin r)|apply (Hin h)]; try exact Ht; [apply in_eq|apply in_elt].
      + eapply inj_on_incl; [apply corpus_tokens_head|exact Hinj].
    - apply IH; [cbn [length] in L; lia|eapply inj_on_incl; [apply corpus_tokens_incl; apply incl_tl, incl_refl|exact Hinj]|].
      intros u t Hu. apply Hin. apply in_app_iff in Hu. right. apply in_app_iff.
      destruct Hu; [left|right; right]; assumption.
  Qed.

  Lemma spec_rows_app enc : forall a a' b b', length a = length b ->
    spec_rows enc (a ++ a') (b ++ b') = spec_rows enc a b ++ spec_rows enc a' b'.
  Proof.
    induction a as [|x a IH]; intros a' [|y b] b' L; cbn [app spec_rows length] in *; try reflexivity; try discriminate.
    f_equal. apply IH. lia.
  Qed.

  (* whatever the batch size, the accumulated rows are the specified ones *)
  Lemma er_batches_spec enc bs : (1 <= bs)%nat -> forall fuel pos tbl (refs hyps : utts),
    length refs = length hyps -> (length refs < fuel)%nat ->
    inj_on enc (corpus_tokens refs hyps) ->
    er_batches (fun _ => E0) rep ign distances fuel bs pos tbl refs hyps = spec_rows enc refs hyps.
  Proof.
    intros Hbs. induction fuel as [|fuel IH]; intros pos tbl refs hyps L F Hinj; [lia|].
    cbn [er_batches]. destruct refs as [|r0 rs0] eqn:Er.
    - destruct hyps; reflexivity.
    - rewrite <- Er in *.
      pose proof (ids_of_list_spec rep ign (map snd (firstn bs refs)) tbl) as G1.
      destruct (ids_of_list rep ign tbl (map snd (firstn bs refs))) as [tbl1 rids].
      destruct G1 as ([ext1 E1] & Hin1 & Hr).
      pose proof (ids_of_list_spec rep ign (map snd (firstn bs hyps)) tbl1) as G2.
      destruct (ids_of_list rep ign tbl1 (map snd (firstn bs hyps))) as [tbl2 hids].
      destruct G2 as ([ext2 E2] & Hin2 & Hh).
      replace (spec_rows enc refs hyps) with (spec_rows enc (firstn bs refs ++ skipn bs refs) (firstn bs hyps ++ skipn bs hyps))
        by (rewrite !firstn_skipn; reflexivity).
      assert (Lf : length (firstn bs refs) = length (firstn bs hyps)) by (rewrite !firstn_length; lia).
      rewrite spec_rows_app by exact Lf.
      assert (Sub1 : incl (corpus_tokens (firstn bs refs) (firstn bs hyps)) (corpus_tokens refs hyps))
        by (apply corpus_tokens_incl; apply incl_firstn_skipn).
      assert (Sub2 : incl (corpus_tokens (skipn bs refs) (skipn bs hyps)) (corpus_tokens refs hyps))
        by (apply corpus_tokens_incl; apply incl_firstn_skipn).
      f_equal.
      + (* this batch: the references were numbered with tbl1, a prefix of tbl2 *)
        replace rids with (map (fun u => map (enc_tbl tbl2) (filtered rep ign (snd u))) (firstn bs refs)).
        2:{ rewrite Hr, map_map. apply map_ext_in. intros u Hu. apply map_ext_in. intros t Ht.
            rewrite E2. apply enc_tbl_app. apply (Hin1 (snd u)); [apply in_map; exact Hu|exact Ht]. }
        rewrite Hh, map_map. apply er_rows_spec; [exact Lf|eapply inj_on_incl; eassumption|].
        intros u t Hu Ht. apply in_app_iff in Hu. destruct Hu as [Hu|Hu].
        * rewrite E2. apply in_app_iff. left. apply (Hin1 (snd u)); [apply in_map; exact Hu|exact Ht].
        * apply (Hin2 (snd u)); [apply in_map; exact Hu|exact Ht].
      + apply IH.
        * rewrite !skipn_length. lia.
        * rewrite skipn_length. rewrite Er in *. cbn [length] in *. lia.
        * eapply inj_on_incl; eassumption.
  Qed.
End Acc.

(* ---------- pairing ------------------------------------------------------------------------------------ *)

Lemma str_ltb_false_eq a b : str_ltb a b = false -> str_ltb b a = false -> a = b.
Proof.
  unfold str_ltb. intros H1 H2. pose proof good_str as G.
  rewrite (g_opp _ G a b) in H2.
  destruct (str_cmp a b) eqn:E; cbn [CompOpp] in *; try discriminate.
  apply (g_eq _ G). exact E.
Qed.

(* the pairs handed to the accumulation carry the same utterance ids, position by position *)
Lemma pair_up_aligned fuel warn : forall refs hyps a b,
  pair_up fuel warn refs hyps = Done (a, b) -> map fst a = map fst b /\ incl a refs /\ incl b hyps.
Proof.
  assert (Skip : forall (a b refs hyps refs' hyps' : utts), incl refs refs' -> incl hyps hyps' ->
            map fst a = map fst b /\ incl a refs /\ incl b hyps -> map fst a = map fst b /\ incl a refs' /\ incl b hyps').
  { intros a b refs hyps refs' hyps' I1 I2 (H1 & H2 & H3). repeat split; [exact H1| |]; eapply incl_tran; eassumption. }
  induction fuel as [|fuel IH]; intros refs hyps a b H; cbn [pair_up] in H.
  - inversion H. subst. repeat split; intros ? [].
  - destruct refs as [|r rs], hyps as [|h hs]; [inversion H; subst; repeat split; intros ? []| | |].
    1,2: destruct warn; [|discriminate]; apply IH in H; revert H; apply Skip; auto using incl_tl, incl_refl.
    destruct (str_ltb (fst r) (fst h)) eqn:E1; [|destruct (str_ltb (fst h) (fst r)) eqn:E2].
    1,2: destruct warn; [|discriminate]; apply IH in H; revert H; apply Skip; auto using incl_tl, incl_refl.
    destruct (pair_up fuel warn rs hs) as [[a' b']|e] eqn:Ep; [|discriminate].
    inversion H. subst. apply IH in Ep. destruct Ep as (H1 & H2 & H3). repeat split.
    + cbn [map]. f_equal; [apply str_ltb_false_eq; assumption|exact H1].
    + intros x [Hx|Hx]; [left; exact Hx|right; apply H2; exact Hx].
    + intros x [Hx|Hx]; [left; exact Hx|right; apply H3; exact Hx].
Qed.

(* ---------- totals ---------------------------------------------------------------------------------------- *)

Lemma spec_rows_total E0 rep ign distances enc : forall (refs hyps : utts), length refs = length hyps ->
  let rows := spec_rows E0 rep ign distances enc refs hyps in
  (sumZ (map (fun r : er_row => snd (fst r)) rows),
   if distances then Z.of_nat (length rows) else sumZ (map (fun r : er_row => snd r) rows))
  = er_total_spec (fun _ => E0) enc rep ign distances (combine (map snd refs) (map snd hyps)).
Proof.
  unfold er_total_spec.
  induction refs as [|r rs IH]; intros [|h hs] L; cbn [length] in L; try discriminate.
  - cbn. destruct distances; reflexivity.
  - assert (L' : length rs = length hs) by lia. specialize (IH hs L'). cbn zeta in IH.
    inversion IH as [[H1 H2]]. clear IH.
    cbn [spec_rows map combine length fst snd]. unfold sumZ in *. cbn [fold_right].
    unfold spec_row at 1 2. cbn [fst snd]. rewrite H1.
    f_equal. destruct distances.
    + rewrite !Nat2Z.inj_succ. rewrite H2. reflexivity.
    + rewrite H2. reflexivity.
Qed.

Lemma er_batch_size_irrelevant E0 rep ign distances bs1 bs2 (refs hyps : utts) :
  rename_invariant E0 -> (1 <= bs1)%nat -> (1 <= bs2)%nat -> length refs = length hyps ->
  er_batches (fun _ => E0) rep ign distances (S (length refs)) bs1 0 [] refs hyps
  = er_batches (fun _ => E0) rep ign distances (S (length refs)) bs2 0 [] refs hyps.
Proof.
  intros Hinv H1 H2 L.
  rewrite (er_batches_spec E0 Hinv rep ign distances (enc_tbl (corpus_tokens rep ign refs hyps)) bs1 H1)
    by (try apply enc_tbl_inj; lia).
  rewrite (er_batches_spec E0 Hinv rep ign distances (enc_tbl (corpus_tokens rep ign refs hyps)) bs2 H2)
    by (try apply enc_tbl_inj; lia).
  reflexivity.
Qed.

(* the whole command in total mode *)
Lemma er_command_total E0 o i2t pre suf (rd hd : dir) refs0 hyps0 refs hyps enc :
  rename_invariant E0 -> (1 <= eo_batch o)%nat -> eo_per_utt o = false ->
  load_dir i2t pre suf None true rd = Done refs0 -> load_dir i2t pre suf None true hd = Done hyps0 ->
  pair_up (S (length refs0 + length hyps0)) (eo_warn_missing o) (tokens_of refs0) (tokens_of hyps0) = Done (refs, hyps) ->
  inj_on enc (corpus_tokens (eo_rep o) (eo_ign o) refs hyps) ->
  error_rates (fun _ => E0) o i2t pre suf rd hd =
  let '(n, d) := er_total_spec (fun _ => E0) enc (eo_rep o) (eo_ign o) (eo_distances o)
                               (combine (map snd refs) (map snd hyps)) in
  if d =? 0 then Fail EZeroDiv else Done (Total n d).
Proof.
  intros Hinv Hb Hp Hr Hh Hpair Hinj. unfold error_rates. rewrite Hr, Hh, Hpair, Hp.
  assert (L : length refs = length hyps).
  { destruct (pair_up_aligned _ _ _ _ _ _ Hpair) as [E _]. rewrite <- (map_length fst refs), E. apply map_length. }
  rewrite (er_batches_spec E0 Hinv (eo_rep o) (eo_ign o) (eo_distances o) enc (eo_batch o) Hb) by (try assumption; lia).
  pose proof (spec_rows_total E0 (eo_rep o) (eo_ign o) (eo_distances o) enc refs hyps L) as T. cbn zeta in T.
  destruct (er_total_spec (fun _ => E0) enc (eo_rep o) (eo_ign o) (eo_distances o) (combine (map snd refs) (map snd hyps))) as [n d].
  inversion T as [[T1 T2]]. rewrite T1. reflexivity.
Qed.
