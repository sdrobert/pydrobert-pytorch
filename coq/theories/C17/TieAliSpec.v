(* C17 - source tie, tokens -> ali: the worker's guards and result as the operations of OpsC17 deliver them on
   the rows of a (R, 3) tensor ([spec_tok2ali]), and the proof that they are the model's (lists only; the symbolic
   execution of the source is in TieAli.v). *)
From Coq Require Import ZArith QArith List String Bool Arith Lia ZifyBool ZifyNat.
From PV Require Import C11.Model C17.Model C17.ProofsSel.
From PV Require Import MiniPy.Syntax MiniPy.Interp MiniTorch.OpsC17 MiniTorch.ValueC17 MiniTorch.LemmasC17 C17.SrcRun.
Import ListNotations.
Local Open Scope string_scope.

(* the guards and the result, as the operations of OpsC17 deliver them on the rows of a (R, 3) tensor *)
Definition g_neg (rows : list (list Z)) : bool :=
  existsb (existsb (fun b : bool => b))
    (map (map (fun e : Z => zcmp KLt e 0)) (map (slice_list (Some 1%Z) None) (slice_list None None rows))).
Definition g_gap (rows : list (list Z)) : bool :=
  existsb (fun b : bool => b)
    (map2 (zcmp KNe) (map (fun r => nth 2 r 0%Z) (slice_list None (Some (-1)%Z) rows))
                     (map (fun r => nth 1 r 0%Z) (slice_list (Some 1%Z) None rows))).
Definition col (k : nat) (rows : list (list Z)) : list Z := map (fun r => nth k r 0%Z) (slice_list None None rows).
Definition reps (rows : list (list Z)) : list Z := map2 Z.sub (col 2 rows) (col 1 rows).

(* ali = torch.repeat_interleave(ref[:, 0], ref[:, 2] - ref[:, 1]) *)
Definition spec_expand (rows : list (list Z)) : out tensor :=
  if existsb (fun n => (n <? 0)%Z) (reps rows) then Fail ERuntime
  else Done (Vec (List.concat (map2 (fun v n => repeat v (Z.to_nat n)) (col 0 rows) (reps rows)))).

(* T: None = no --feat-dir; Some None = the feature file is missing; Some (Some n) = it has n frames *)
Definition spec_tok2ali (T : option (option Z)) (rows : list (list Z)) : out tensor :=
  if g_neg rows then Fail EValue
  else if negb (nth 1 (nth 0 rows []) 0 =? 0)%Z then Fail EValue
  else if g_gap rows then Fail EValue
  else match T with
       | Some None => Fail EOS
       | _ =>
           if match T with Some (Some n) => negb (nth 2 (nth (pred (List.length rows)) rows []) 0 =? n)%Z | _ => false end
           then Fail EValue
           else spec_expand rows
       end.

Definition feat_len (fl : option (option tensor)) : option (option Z) := option_map (option_map tlen) fl.

(* ---- the guards and the result are the model's ---- *)
Definition rows3 (rows : list (list Z)) : Prop := Forall (fun r => List.length r = 3%nat) rows.

Lemma g_neg_model : forall rows, rows3 rows ->
  g_neg rows = existsb (fun r => (row_start r <? 0)%Z || (row_end r <? 0)%Z) rows.
Proof.
  intros rows W. unfold g_neg. rewrite slice_all. induction W as [|r rows Hr _ IH]; [reflexivity|].
  destruct r as [|a [|s [|e [|x t]]]]; try discriminate Hr.
  cbn [map existsb]. rewrite IH. rewrite slice_from1. cbn [map existsb]. unfold row_start, row_end. cbn [nth].
  now rewrite orb_false_r.
Qed.

Lemma g_gap_model : forall rows, g_gap rows = negb (contiguous_rows rows).
Proof.
  intros rows. unfold g_gap. rewrite slice_butlast, slice_from1_tl.
  induction rows as [|a [|b rest] IH]; [reflexivity|reflexivity|].
  change (removelast (a :: b :: rest)) with (a :: removelast (b :: rest)).
  change (contiguous_rows (a :: b :: rest)) with ((row_end a =? row_start b)%Z && contiguous_rows (b :: rest)).
  cbn [tl map map2 existsb] in *. rewrite IH, negb_andb. reflexivity.
Qed.

Lemma nth_pred_last : forall A (l : list A) d, nth (pred (List.length l)) l d = last l d.
Proof.
  induction l as [|x [|y l] IH]; intros d; [reflexivity|reflexivity|].
  change (last (x :: y :: l) d) with (last (y :: l) d). rewrite <- IH. reflexivity.
Qed.

Lemma reps_neg_model : forall rows,
  existsb (fun n => (n <? 0)%Z) (reps rows) = existsb (fun r => (row_end r <? row_start r)%Z) rows.
Proof.
  intros rows. unfold reps, col. rewrite slice_all. induction rows as [|r rows IH]; [reflexivity|].
  cbn [map map2 existsb]. rewrite IH. f_equal. unfold row_end, row_start. lia.
Qed.

Lemma expand_model : forall rows,
  List.concat (map2 (fun v n => repeat v (Z.to_nat n)) (col 0 rows) (reps rows)) = expand_rows rows.
Proof.
  intros rows. unfold reps, col, expand_rows. rewrite slice_all. induction rows as [|r rows IH]; [reflexivity|].
  cbn [map map2 List.concat flat_map]. rewrite IH. reflexivity.
Qed.

Lemma spec_tok2ali_model : forall fl r rows, rows3 (r :: rows) ->
  spec_tok2ali (feat_len fl) (r :: rows) = ali_of_ref_fl fl (Mat 3 (r :: rows)).
Proof.
  intros fl r rows W. unfold spec_tok2ali, spec_expand.
  rewrite (g_neg_model _ W), g_gap_model, reps_neg_model, expand_model, nth_pred_last.
  change (nth 1 (nth 0 (r :: rows) []) 0%Z) with (row_start (hd [] (r :: rows))).
  change (nth 2 (last (r :: rows) []) 0%Z) with (row_end (last (r :: rows) [])).
  unfold ali_of_ref_fl, ali_of_ref. cbn [Nat.eqb negb orb].
  set (R := r :: rows).
  destruct (existsb (fun r0 => (row_start r0 <? 0)%Z || (row_end r0 <? 0)%Z) R); [destruct fl as [[f|]|]; reflexivity|].
  destruct (negb (row_start (hd [] R) =? 0)%Z); [destruct fl as [[f|]|]; reflexivity|].
  destruct (negb (contiguous_rows R)); [destruct fl as [[f|]|]; reflexivity|].
  destruct fl as [[f|]|]; cbn [feat_len option_map].
  - destruct (existsb (fun r0 => (row_end r0 <? row_start r0)%Z) R); reflexivity.
  - destruct (existsb (fun r0 => (row_end r0 <? row_start r0)%Z) R); reflexivity.
  - reflexivity.
Qed.

Lemma ali_of_ref_fl_model : forall n fl t,
  ali_of_ref_fl fl t = ali_of_ref_feat (feats_of n fl) n t.
Proof.
  intros n fl t. unfold ali_of_ref_fl, ali_of_ref_feat, feats_of. destruct fl as [[f|]|]; try reflexivity.
  unfold dir_get. cbn [assoc]. rewrite C17.ProofsSel.str_eqb_refl. reflexivity.
Qed.

