(* C17 - source tie, composed statements: what the interpreted Python text of the two conversion workers does,
   said with the model's theorems (PV.C17.ProofsRle / ProofsDir) so that no model function is left in the
   conclusions.  Everything here follows from TieAli.ali2tok_tie / tok2ali_tie. *)
From Coq Require Import ZArith QArith List String Bool Arith Lia.
From PV Require Import C11.Model C17.Model C17.Spec C17.ProofsRle C17.ProofsDir.
From PV Require Import MiniPy.Syntax MiniPy.Interp MiniTorch.OpsC17 MiniTorch.ValueC17 Gen.C17Src
  C17.SrcRun C17.TieLib C17.TieAliSpec C17.TieAli C17.TieMom.
Import ListNotations.
Local Open Scope string_scope.

(* a worker run that saved exactly [t] at [p] and returned None *)
Definition saves (o : outcome val) (t : tensor) (p : val) : Prop :=
  exists st, o = Interp.Ok VNone st /\ events st = [save_event (enc_tensor t) p].
(* a worker run that raised [n] before any effect *)
Definition raises (o : outcome val) (n : string) : Prop :=
  exists st, o = Exc n st /\ events st = [].

Lemma rows3_of_partition : forall rows t T, partitions_from t rows T -> Forall (fun r => List.length r = 3%nat) rows.
Proof.
  induction rows as [|r rows IH]; intros t T P; [constructor|].
  cbn [partitions_from] in P. destruct P as (L & _ & _ & P). constructor; [exact L|eapply IH; exact P].
Qed.

(* tokens -> ali with the model's own feature-directory function *)
Theorem tok2ali_tie_model : forall fs b rd ad fdv fl n t,
  wf_tensor t -> dict_get fs (path rd b) = Some (enc_tensor t) -> feat_env fs b fdv fl ->
  worker_outcome (run_tok2ali fs b rd ad fdv) (path ad b) (ali_of_ref_feat (feats_of n fl) n t).
Proof. intros. rewrite <- ali_of_ref_fl_model. now apply tok2ali_tie. Qed.

(* alignment -> tokens -> alignment, purely about the interpreted source: whatever the first worker saved, the
   second worker, reading it back from any file system that holds it there, saves the original alignment *)
Theorem source_ali_roundtrip : forall v, v <> [] ->
  forall fs b ad rd, dict_get fs (path ad b) = Some (enc_tensor (Vec v)) ->
  exists x, (exists st, run_ali2tok fs b ad rd = Interp.Ok VNone st /\ events st = [save_event x (path rd b)])
    /\ forall fs' ad', dict_get fs' (path rd b) = Some x ->
         saves (run_tok2ali fs' b rd ad' VNone) (Vec v) (path ad' b).
Proof.
  intros v Hv fs b ad rd H. destruct (ali2tok_tie fs b ad rd v H) as [st [E1 E2]].
  exists (enc_tensor (Mat 3 (segs 0 (rle v)))). split; [exists st; split; assumption|].
  intros fs' ad' H'.
  pose proof (tok2ali_tie fs' b rd ad' VNone None (Mat 3 (segs 0 (rle v))) (segs_len3 _ _) H' eq_refl) as T.
  cbn [ali_of_ref_fl] in T. rewrite (ali_of_ref_of_ali v Hv) in T. exact T.
Qed.

(* tokens -> alignment -> tokens for contiguous, start-0, adjacent-distinct, positive-length segments *)
Theorem source_tokens_roundtrip : forall rows T, rows <> [] -> partitions_from 0 rows T -> maximal rows ->
  forall fs b rd ad, dict_get fs (path rd b) = Some (enc_tensor (Mat 3 rows)) ->
  exists x, (exists st, run_tok2ali fs b rd ad VNone = Interp.Ok VNone st /\ events st = [save_event x (path ad b)])
    /\ forall fs' rd', dict_get fs' (path ad b) = Some x ->
         saves (run_ali2tok fs' b ad rd') (Mat 3 rows) (path rd' b).
Proof.
  intros rows T Hne P M fs b rd ad H.
  pose proof (rows3_of_partition _ _ _ P) as W.
  pose proof (tok2ali_tie fs b rd ad VNone None (Mat 3 rows) W H eq_refl) as R. cbn [ali_of_ref_fl] in R.
  assert (A : ali_of_ref None (Mat 3 rows) = Done (Vec (expand_rows rows))).
  { apply ali_of_ref_accepts_iff; [exact W|]. split; [exact Hne|]. exists T. split; [exact P|exact I]. }
  rewrite A in R. exists (enc_tensor (Vec (expand_rows rows))). split; [exact R|].
  intros fs' rd' H'. destruct (ali2tok_tie fs' b ad rd' (expand_rows rows) H') as [st [E1 E2]].
  rewrite (segs_rle_expand rows 0 T P M) in E2. exists st. split; assumption.
Qed.

(* the worker (without --feat-dir) accepts exactly the partitions, and then saves the alignment they denote;
   otherwise it raises ValueError (a guard) or RuntimeError (a segment that ends before it starts), before any
   effect *)
Theorem source_tok2ali_accepts_iff_partition : forall fs b rd ad rows,
  Forall (fun r => List.length r = 3%nat) rows -> dict_get fs (path rd b) = Some (enc_tensor (Mat 3 rows)) ->
  (saves (run_tok2ali fs b rd ad VNone) (Vec (expand_rows rows)) (path ad b)
     <-> (rows <> [] /\ exists n, partitions_from 0 rows n))
  /\ (~ (rows <> [] /\ exists n, partitions_from 0 rows n) ->
      raises (run_tok2ali fs b rd ad VNone) "ValueError" \/ raises (run_tok2ali fs b rd ad VNone) "RuntimeError").
Proof.
  intros fs b rd ad rows W H.
  pose proof (tok2ali_tie fs b rd ad VNone None (Mat 3 rows) W H eq_refl) as R. cbn [ali_of_ref_fl] in R.
  assert (A : ali_of_ref None (Mat 3 rows) = Done (Vec (expand_rows rows))
              <-> rows <> [] /\ (exists n, partitions_from 0 rows n)).
  { rewrite (ali_of_ref_accepts_iff None rows W). split; [intros [N [n [P _]]]|intros [N [n P]]]; eauto. }
  destruct (ali_of_ref None (Mat 3 rows)) as [a|e] eqn:E.
  - destruct (ali_of_ref_result _ _ _ E) as [rows' [Er ->]]. inversion Er; subst rows'.
    split; [split; [intros _; apply A; reflexivity|intros _; exact R]|intros C; exfalso; apply C, A; reflexivity].
  - cbn [worker_outcome] in R. split; [split|].
    + intros [st [E1 _]]. destruct R as [st' [E3 _]]. rewrite E1 in E3. discriminate.
    + intros C. apply A in C. discriminate.
    + intros _. assert (He : e = EValue \/ e = ERuntime).
      { revert E. unfold ali_of_ref.
        repeat match goal with |- (if ?c then _ else _) = _ -> _ => destruct c end; intros E; inversion E; auto. }
      destruct He as [-> | ->]; [left|right]; exact R.
Qed.

(* ---- length moments ------------------------------------------------------------------------------------------ *)
(* the interpreted ali worker returns the moments of exactly the list of lengths that Model.ali_dir_moments pools
   (ProofsDir.ali_dir_moments_pooled): the lengths of the maximal runs whose label is not excluded *)
Theorem source_ali_moments_lens : forall fs fn excl v,
  dict_get fs fn = Some (enc_tensor (Vec v)) ->
  exists st, run_ali_moments fs fn excl = Interp.Ok (mom_value (mom_of (ali_lens excl (Vec v)))) st /\ events st = [].
Proof. intros. rewrite <- ali_moments_lens. now apply ali_moments_tie. Qed.

Lemma sum_runs : forall rs, sumZ (map snd rs) = runs_total rs.
Proof. induction rs as [|[v c] t IH]; [reflexivity|]. unfold sumZ, runs_total in *. cbn [map snd fold_right]. now rewrite IH. Qed.

(* composed with the run-length lemmas, purely about the interpreted source: without exclusions the first figure is
   the number of frames of the alignment *)
Theorem source_ali_moments_frames : forall fs fn v,
  dict_get fs fn = Some (enc_tensor (Vec v)) ->
  exists ss c st, run_ali_moments fs fn None
                  = Interp.Ok (VTuple [VInt (Z.of_nat (List.length v)); VInt ss; VInt c]) st /\ events st = [].
Proof.
  intros fs fn v H. destruct (ali_moments_tie fs fn None v H) as [st [E1 E2]].
  unfold ali_moments, excluded, mom_of, mom_value in E1. cbn [negb] in E1.
  rewrite filter_true_all in E1.
  rewrite sum_runs, <- (runs_total_len (rle v)) in E1 by (apply pos_nonneg, rle_pos). rewrite rle_expand in E1.
  eexists. eexists. exists st. split; [exact E1|exact E2].
Qed.
