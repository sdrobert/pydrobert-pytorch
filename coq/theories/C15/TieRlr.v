(* C15 — tie lemmas, part 2a: the learning-rate block. *)
From Coq Require Import ZArith QArith List String Bool Arith Lia ZifyBool ZifyNat ZifyComparison.
From PV Require Import C15.Model.
From PV Require Import MiniPy.Syntax MiniPy.Interp MiniPy.Lemmas Gen.C15Src C15.SrcRun C15.TieLib C15.TieLoop.
Import ListNotations.
Local Open Scope string_scope.
Local Open Scope Z_scope.

(* 10 ** self.params.reduce_lr_log10_epsilon, the exponent being [vlog10 q] *)
Lemma ext_pow10 q st : ext15 "operator" [VStr "pow"; VInt 10; VTuple [VStr "log10"; VQ q]] [] st = Ok (VQ q) st.
Proof. reflexivity. Qed.

(* What the block leaves behind: the variables it was entered with, info and optimizer updated, followed by
   its own temporaries (which ones depends on the branch taken). *)
Definition rlr_done (p : params) (c : list row) (os : list Q) (dflt : Q) (r : row) (u : list (val * val))
  (epoch va train : Z) (cont : bool) (x y : val) (lr : Q) (o : outcome ctl) : Prop :=
  match rlr_step p c r epoch va lr lr with
  | None => exists st, o = Exc "TypeError" st
  | Some (a, b, lr', _) =>
      exists tl, o = Ok CNormal (st_of (vars_es (enc_self p c) (enc_opt (map (rlr_o p c r epoch va lr) os) dflt)
                                          (enc_row_u (set_rlr r a b lr') u) epoch va train cont x y ++ tl))
  end.

Lemma rlr_run p c os dflt r u epoch va train cont x y lr : r_lr r = Some lr ->
  rlr_done p c os dflt r u epoch va train cont x y lr
    (exec ext15 ufe_rlr (st_of (vars_es (enc_self p c) (enc_opt os dflt) (enc_row_u r u) epoch va train cont x y))).
Proof.
  intros Hlr. unfold rlr_done, vars_es, vars_ctl. rewrite !enc_opt_optv. remember (exec ext15 ufe_rlr _) as o eqn:Ho.
  unfold ufe_rlr, st_of, enc_self, enc_params, enc_row_u, optv, vlog10 in Ho. rewrite Hlr in Ho. revert Ho.
  unfold rlr_o, rlr_step, below, nonzero.
  (* rlr_epoch = epoch - patience + info["rlr_patience_cd"] - 1; rlr_info = self.get_info(rlr_epoch) *)
  step. step. erewrite ext_get_info by repeat constructor. run.
  (* if info["rlr_resume_cd"]: info["rlr_resume_cd"] -= 1 *)
  step. destruct (r_rlrres r =? 0); run; [|step].
  (* elif max(rlr_info["val_met"] - val_met, 0) < threshold: *)
  1: destruct (hget c (epoch - rlr_pat p + r_rlrpcd r - 1)) as [ri|]; [destruct (r_val ri) as [v|]|]; step.
  3: intros ->; eexists; reflexivity.
  1: rewrite vmax, q_lt; destruct (Z.max (v - va) 0 <? rlr_thr p); run.
  (* info["rlr_patience_cd"] -= 1; if not info["rlr_patience_cd"]: *)
  1: step; step; destruct (r_rlrpcd r - 1 =? 0); run.
  (* old_lr = info["lr"]; new_lr = old_lr * factor; rlr_epsilon = 10 ** log10_epsilon;
     if old_lr - new_lr > rlr_epsilon: *)
  1: step; step; step; rewrite ext_pow10; run; step; rewrite q_gt_red.
  1: destruct (Qlt_b (rlr_eps p) (lr - Qred (lr * rlr_fac p))); run.
  (* info["lr"] = new_lr; for param_group in optimizer.param_groups: param_group["lr"] = new_lr *)
  1: step; rewrite exec_for; run.
  1: edestruct pg_loop_tie as [tl Ht]; [reflexivity|]; unfold st_of, loop_vars, optv in Ht; cbn [app] in Ht;
     rewrite Ht; clear Ht; run; rewrite upd_groups.
  (* (a negligible change: pass); info["rlr_resume_cd"] = cooldown; info["rlr_patience_cd"] = patience *)
  2: step.
  1, 2: step; step.
  (* (patience left: pass); else: info["rlr_patience_cd"] = patience, also with +inf as the reference *)
  3: step.
  4, 5: step.
  (* every branch but the first leaves the groups' rates as they were *)
  all: intros ->; rewrite ?map_id; eexists; reflexivity.
Qed.

(* rlr_epoch = ...; rlr_info = self.get_info(rlr_epoch); the learning-rate countdown statement *)
Lemma rlr_tie p c os dflt r u epoch va train cont x y lr : r_lr r = Some lr ->
  rlr_expected p c os dflt r u epoch va cont lr
    (exec ext15 ufe_rlr (st_of (vars_es (enc_self p c) (enc_opt os dflt) (enc_row_u r u) epoch va train cont x y))).
Proof.
  intros Hlr. pose proof (rlr_run p c os dflt r u epoch va train cont x y lr Hlr) as H.
  unfold rlr_done in H. unfold rlr_expected.
  destruct (rlr_step p c r epoch va lr lr) as [[[[a b] lr'] o']|]; [|exact H].
  destruct H as [tl ->]. eexists. repeat split; reflexivity.
Qed.
