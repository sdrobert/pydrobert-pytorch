(* C15 — tie lemmas, part 2: sequencing and the loop over optimizer.param_groups. *)
From Coq Require Import ZArith QArith List String Bool Arith Lia ZifyBool ZifyNat ZifyComparison.
From PV Require Import C15.Model.
From PV Require Import MiniPy.Syntax MiniPy.Interp MiniPy.Lemmas Gen.C15Src C15.SrcRun C15.TieLib.
Import ListNotations.
Local Open Scope string_scope.
Local Open Scope Z_scope.

(* ---- sequencing ---------------------------------------------------------------------------------------- *)
(* statement lists are right-nested SSeq; [seq_app] appends two of them *)
Fixpoint seq_app (a b : stmt) : stmt :=
  match a with SSeq x y => SSeq x (seq_app y b) | _ => SSeq a b end.

Definition then_ ext (b : stmt) (c : ctl) (st : state) : outcome ctl :=
  match c with CNormal => exec ext b st | CReturn _ => Ok c st end.

Lemma exec_seq_app ext a b : forall st,
  exec ext (seq_app a b) st = bind (exec ext a st) (then_ ext b).
Proof.
  induction a; intros st; try reflexivity.
  cbn [seq_app]. change (exec ext (SSeq a1 (seq_app a2 b)) st)
    with (bind (exec ext a1 st) (then_ ext (seq_app a2 b))).
  change (exec ext (SSeq a1 a2) st) with (bind (exec ext a1 st) (then_ ext a2)).
  destruct (exec ext a1 st) as [c st1|n st1|w]; cbn [bind]; try reflexivity.
  destruct c; cbn [then_]; [apply IHa2|reflexivity].
Qed.

Lemma control_split :
  ufe_control = seq_app ufe_es (seq_app ufe_es_cont (seq_app ufe_rlr ufe_record)).
Proof. reflexivity. Qed.

(* ---- the loop over optimizer.param_groups ---------------------------------------------------------------- *)
Fixpoint find_for (s : stmt) : option stmt :=
  match s with
  | SFor _ _ _ => Some s
  | SSeq a b => match find_for a with Some f => Some f | None => find_for b end
  | SIf _ a b => match find_for a with Some f => Some f | None => find_for b end
  | _ => None
  end.

(* the variables in scope at the loop, in the order the run binds them *)
Definition loop_vars (sv ov iv ev vv tv cv x y z w old nv eps : val) (tail : list (string * val))
  : list (string * val) :=
  ([("self", sv); ("optimizer", ov); ("info", iv); ("epoch", ev); ("val_met", vv); ("train_met", tv);
    ("cont", cv); ("es_epoch", x); ("es_info", y); ("rlr_epoch", z); ("rlr_info", w); ("old_lr", old);
    ("new_lr", nv); ("rlr_epsilon", eps)] ++ tail)%list.

Definition optv (gs : list val) (dv : val) : val :=
  VDict [(VStr "param_groups", VList gs); (VStr "defaults", dv)].

Definition upd_group (nv : val) (d : list (val * val)) : val := VDict (dict_set d (VStr "lr") nv).

Lemma subscript_nth l i g st : nth_error l i = Some g ->
  subscript (VList l) (VInt (0 + Z.of_nat i)) st = Ok g st.
Proof.
  intros H. unfold subscript.
  assert (Hi : (i < List.length l)%nat) by (apply nth_error_Some; congruence).
  replace (0 + Z.of_nat i <? 0) with false by lia.
  replace ((0 <=? 0 + Z.of_nat i) && (0 + Z.of_nat i <? Z.of_nat (List.length l)))%bool with true by lia.
  replace (Z.to_nat (0 + Z.of_nat i)) with i by lia.
  rewrite (nth_error_nth _ _ _ H). reflexivity.
Qed.

Lemma list_set_app a g b v : list_set (a ++ g :: b) (List.length a) v = (a ++ v :: b)%list.
Proof. induction a as [|x a IH]; cbn; [reflexivity|]. rewrite IH. reflexivity. Qed.

Definition loop_tail (tl : list (string * val)) : Prop :=
  tl = [] \/ exists a b, tl = [("$t1", a); ("param_group", b)].

(* the remaining iterations, [done] groups already rewritten *)
Lemma pg_loop_rest x e body sv dv iv ev vv tv cv a b z w old nv eps :
  find_for ufe_rlr = Some (SFor x e body) ->
  forall todo done tl, loop_tail tl ->
  exists tl',
    for_loop ext15 x body (map (fun j => VInt (0 + Z.of_nat j)) (seq (List.length done) (List.length todo)))
      (st_of (loop_vars sv (optv (map (upd_group nv) done ++ map VDict todo) dv) iv ev vv tv cv a b z w old nv eps tl))
    = Ok CNormal
        (st_of (loop_vars sv (optv (map (upd_group nv) (done ++ todo)) dv) iv ev vv tv cv a b z w old nv eps tl')).
Proof.
  intros HL. injection HL as <- _ <-.
  induction todo as [|d todo IH]; intros done tl Htl.
  - exists tl. cbn [List.length seq map for_loop]. rewrite !app_nil_r. reflexivity.
  - cbn [List.length seq map for_loop].
    assert (Hstep :
      exec ext15
        (SSeq (SAssign [TName "param_group"] (ESub (EAttr (EName "optimizer") "param_groups") (EName "$t1")))
           (SSeq (SAssign [TSub (EName "param_group") (EConst (VStr "lr"))] (EName "new_lr"))
              (SAssign [TSub (EAttr (EName "optimizer") "param_groups") (EName "$t1")] (EName "param_group"))))
        (set_var "$t1" (VInt (0 + Z.of_nat (List.length done)))
           (st_of (loop_vars sv (optv (map (upd_group nv) done ++ VDict d :: map VDict todo) dv) iv ev vv tv cv a b z w
                     old nv eps tl)))
      = Ok CNormal
          (st_of (loop_vars sv (optv (map (upd_group nv) (done ++ [d]) ++ map VDict todo) dv) iv ev vv tv cv a b z w
                    old nv eps [("$t1", VInt (0 + Z.of_nat (List.length done))); ("param_group", upd_group nv d)]))).
    { unfold st_of, loop_vars, optv, set_var.
      destruct Htl as [->|[a' [b' ->]]].
      all: lazy [exec eval bind store assign_all place_of]; cbn -[subscript list_set List.length Z.add Z.of_nat].
      all: erewrite subscript_nth
        by (rewrite nth_error_app2, map_length, Nat.sub_diag; [reflexivity | rewrite map_length; lia]).
      all: unfold set_var; cbn -[list_set List.length Z.add Z.of_nat Z.ltb Z.leb Z.to_nat].
      all: replace (0 + Z.of_nat (List.length done) <? 0) with false by lia.
      all: rewrite app_length, map_length; cbn [List.length].
      all: replace ((0 <=? 0 + Z.of_nat (List.length done)) &&
               (0 + Z.of_nat (List.length done) <? Z.of_nat (List.length done + S (List.length (map VDict todo)))))%bool
        with true by lia.
      all: replace (Z.to_nat (0 + Z.of_nat (List.length done))) with (List.length (map (upd_group nv) done))
        by (rewrite map_length; lia).
      all: rewrite list_set_app; cbn -[Z.add Z.of_nat].
      all: rewrite map_app, <- app_assoc; reflexivity. }
    rewrite Hstep. cbn [bind].
    destruct (IH (done ++ [d])%list [("$t1", VInt (0 + Z.of_nat (List.length done))); ("param_group", upd_group nv d)])
      as [tl' H]; [right; eauto|].
    exists tl'.
    rewrite app_length, Nat.add_1_r, <- app_assoc in H. cbn [app] in H. exact H.
Qed.

(* for param_group in optimizer.param_groups: param_group["lr"] = new_lr, once range(len(..)) is evaluated *)
Lemma pg_loop_tie x e body sv dv iv ev vv tv cv a b z w old nv eps ds :
  find_for ufe_rlr = Some (SFor x e body) ->
  exists tl,
    for_loop ext15 x body (zrange 0 (Z.of_nat (List.length (map VDict ds))))
      (st_of (loop_vars sv (optv (map VDict ds) dv) iv ev vv tv cv a b z w old nv eps []))
    = Ok CNormal (st_of (loop_vars sv (optv (map (upd_group nv) ds) dv) iv ev vv tv cv a b z w old nv eps tl)).
Proof.
  intros HL. unfold zrange. rewrite Z.sub_0_r, Nat2Z.id, map_length.
  exact (pg_loop_rest x e body sv dv iv ev vv tv cv a b z w old nv eps HL ds [] [] (or_introl eq_refl)).
Qed.

(* ---- the learning-rate block ------------------------------------------------------------------------------ *)
Definition grp (o : Q) : list (val * val) := [(VStr "lr", VQ o)].

Lemma enc_opt_optv os dflt :
  enc_opt os dflt = optv (map VDict (map grp os)) (VDict [(VStr "lr", VQ dflt)]).
Proof. unfold enc_opt, optv. rewrite map_map. reflexivity. Qed.

Lemma upd_groups n os : map (upd_group (VQ n)) (map grp os) = map VDict (map grp (map (fun _ => n) os)).
Proof. rewrite !map_map. reflexivity. Qed.

