(* C15 — lemmas, part 3: for ANY print/read rounding of the rate, a restart changes nothing but
   learning-rate fields (the exact extent of known finding K4) *)
From Coq Require Import List ZArith QArith Bool Lia.
From PV Require Import C15.Model C15.Spec C15.Proofs C15.Restart.
Import ListNotations.
Local Open Scope Z_scope.

Definition strip_row (r : row) : row :=
  mkRow (r_epoch r) (r_esres r) (r_espcd r) (r_rlrres r) (r_rlrpcd r) None (r_train r) (r_val r) (r_user r).
Definition strip_crow (c : crow) : crow :=
  mkCrow (c_epoch c) (c_esres c) (c_espcd c) (c_rlrres c) (c_rlrpcd c) 0%Q (c_train c) (c_val c) (c_user c).
Definition strip_obs (o : obs) : obs :=
  match o with OOk c ct _ info => OOk c ct 0%Q (strip_row info) | OErr e => OErr e end.

Definition SEq (a b : state) : Prop :=
  map strip_row (cache a) = map strip_row (cache b) /\
  map strip_crow (csv a) = map strip_crow (csv b) /\
  map fst (ckpt a) = map fst (ckpt b).

Definition WS (rd : Q -> Q) (p : params) (decl : list (nat * ukind)) (st : state) : Prop :=
  exists rs, parse_rows rd decl (csv st) = Some rs /\
             map strip_row (cache st) = map strip_row (row0 p :: rs) /\
             (rs <> [] -> In (last_epoch (cache st)) (map fst (ckpt st))).

Lemma last_epoch_map : forall c1 c2, map strip_row c1 = map strip_row c2 -> last_epoch c1 = last_epoch c2.
Proof.
  intros c1 c2 H. unfold last_epoch. apply (f_equal (@List.length row)) in H. rewrite !map_length in H. lia.
Qed.

Lemma hget_strip : forall c i, hget (map strip_row c) i = option_map strip_row (hget c i).
Proof. intros. unfold hget. destruct (i <? 0); [reflexivity|]. apply nth_error_map. Qed.

Lemma lookup_in : forall k l, In k (map fst l) -> exists q, lookup k l = Some q.
Proof.
  induction l as [|[k' v] t IH]; intros H; [destruct H|]. cbn in *.
  destruct (Z.eqb_spec k k'); [eauto|]. destruct H as [H|H]; [congruence|auto].
Qed.

Lemma es_step_strip : forall p c a e v, es_step p (map strip_row c) (strip_row a) e v = es_step p c a e v.
Proof.
  intros. unfold es_step. rewrite hget_strip. cbn [strip_row r_esres r_espcd]. destruct (hget c _); reflexivity.
Qed.

Definition cds (x : option (Z * Z * Q * Q)) : option (Z * Z) :=
  match x with Some (a, b, _, _) => Some (a, b) | None => None end.

Lemma rlr_step_strip : forall p c a e v l o l' o',
  cds (rlr_step p (map strip_row c) (strip_row a) e v l' o') = cds (rlr_step p c a e v l o).
Proof.
  intros. unfold rlr_step. rewrite hget_strip. cbn [strip_row r_rlrres r_rlrpcd].
  destruct (nonzero (r_rlrres a)); [reflexivity|].
  destruct (hget c _) as [x|]; [|reflexivity]. cbn [option_map strip_row r_val].
  destruct (below (r_val x) v (rlr_thr p)); [|reflexivity].
  destruct (nonzero (r_rlrpcd a - 1)); [reflexivity|].
  destruct (Qlt_b _ _), (Qlt_b _ _); reflexivity.
Qed.

Lemma hget_val : forall c1 c2 i, map strip_row c1 = map strip_row c2 ->
  match hget c1 i, hget c2 i with
  | Some a, Some b => strip_row a = strip_row b
  | None, None => True
  | _, _ => False
  end.
Proof.
  intros c1 c2 i H. pose proof (hget_strip c1 i) as E. rewrite H, hget_strip in E.
  destruct (hget c1 i), (hget c2 i); cbn in E; try congruence; auto.
Qed.

Lemma ct_strip : forall p a b, map strip_row (cache a) = map strip_row (cache b) ->
  continue_training p a = continue_training p b.
Proof.
  intros p a b H. unfold continue_training. rewrite (last_epoch_map _ _ H).
  pose proof (hget_val (cache a) (cache b) (last_epoch (cache b)) H) as Hv.
  destruct (hget (cache a) _) as [x|], (hget (cache b) _) as [y|]; try contradiction; [|reflexivity].
  apply (f_equal r_espcd) in Hv. cbn in Hv. rewrite Hv. reflexivity.
Qed.

Lemma last_row_strip : forall p a b, map strip_row (cache a) = map strip_row (cache b) ->
  strip_row (match hget (cache a) (last_epoch (cache a)) with Some r => r | None => row0 p end)
  = strip_row (match hget (cache b) (last_epoch (cache b)) with Some r => r | None => row0 p end).
Proof.
  intros p a b H. rewrite (last_epoch_map _ _ H).
  pose proof (hget_val (cache a) (cache b) (last_epoch (cache b)) H) as Hv.
  destruct (hget (cache a) _), (hget (cache b) _); try contradiction; auto.
Qed.

(* update_for_epoch on two states that agree up to rates: same exception, or same return value and
   again agreement up to rates *)
Lemma update_strip : forall rnd p decl dflt a b tr v kw,
  SEq a b ->
  match update rnd p decl dflt a tr v kw, update rnd p decl dflt b tr v kw with
  | inl e1, inl e2 => e1 = e2
  | inr (c1, a'), inr (c2, b') => c1 = c2 /\ SEq a' b'
  | _, _ => False
  end.
Proof.
  intros rnd p decl dflt a b tr v kw (Hc & Hf & Hk).
  unfold update. rewrite (last_epoch_map _ _ Hc).
  pose proof (hget_val (cache a) (cache b) (last_epoch (cache b) + 1 - 1) Hc) as Hv.
  destruct (hget (cache a) _) as [x|], (hget (cache b) _) as [y|]; try contradiction; [|reflexivity].
  destruct (check_kwargs decl kw); [reflexivity|].
  destruct (collect decl kw) as [u|]; [|reflexivity].
  rewrite <- (es_step_strip p (cache a) x), Hc, Hv, es_step_strip.
  destruct (es_step p (cache b) y (last_epoch (cache b) + 1) v) as [[esres espcd]|]; [|reflexivity].
  pose proof (rlr_step_strip p (cache b) y (last_epoch (cache b) + 1) v
                (match r_lr y with Some l => l | None => dflt end) (opt b) 0%Q 0%Q) as Hr.
  rewrite <- Hc, <- Hv, (rlr_step_strip p (cache a) x _ v (match r_lr x with Some l => l | None => dflt end) (opt a)) in Hr.
  destruct (rlr_step p (cache a) x _ v _ (opt a)) as [[[[r1 q1] l1] o1]|],
           (rlr_step p (cache b) y _ v _ (opt b)) as [[[[r2 q2] l2] o2]|]; cbn in Hr; try discriminate; [|reflexivity].
  injection Hr as -> ->. split; [reflexivity|].
  unfold SEq. cbn [cache csv ckpt]. rewrite !map_app, Hc, Hf. cbn [map fst]. rewrite Hk. auto.
Qed.

Lemma restart_ws : forall rd p decl dflt st, WS rd p decl st ->
  exists st', restart rd p decl dflt st = inr st' /\ SEq st' st /\ WS rd p decl st'.
Proof.
  intros rd p decl dflt st (rs & Hp & Hc & Hk).
  assert (Hle : last_epoch (row0 p :: rs) = last_epoch (cache st)) by (symmetry; apply last_epoch_map; exact Hc).
  assert (Hq : exists q, restart rd p decl dflt st = inr (mkState (row0 p :: rs) (csv st) q (ckpt st))).
  { unfold restart. rewrite Hp. cbv zeta. destruct (last_epoch (row0 p :: rs) =? 0) eqn:E0; [eauto|].
    destruct (lookup_in (last_epoch (row0 p :: rs)) (ckpt st)) as (q & ->); [|eauto].
    rewrite Hle. apply Hk. intros ->. discriminate E0. }
  destruct Hq as (q & ->). eexists. split; [reflexivity|]. split.
  - unfold SEq. cbn [cache csv ckpt]. auto.
  - exists rs. cbn [cache csv ckpt]. repeat split; auto. rewrite Hle. exact Hk.
Qed.

Lemma update_ws : forall rnd rd p decl dflt st tr v kw c st',
  NoDup (map fst decl) -> WS rd p decl st -> update rnd p decl dflt st tr v kw = inr (c, st') -> WS rd p decl st'.
Proof.
  intros rnd rd p decl dflt st tr v kw c st' Hnd (rs & Hp & Hc & _) Hu.
  destruct (update_inv _ _ _ _ _ _ _ _ _ _ Hu) as (esres & espcd & rres & rpcd & l & u & Hst & Hck & Hcol).
  cbn zeta in Hst. set (e := last_epoch (cache st) + 1) in *.
  destruct (parse_cells_print decl kw Hck decl u (fun n k H => declared_in decl n k Hnd H) Hcol) as (Hpc & _).
  exists (rs ++ [mkRow e esres espcd rres rpcd (Some (rd (rnd l))) (Some tr) (Some v) u]).
  rewrite Hst. cbn [cache csv ckpt]. split; [|split].
  - apply parse_rows_snoc; auto. unfold parse_row. cbn [c_user c_epoch c_esres c_espcd c_rlrres c_rlrpcd c_lr c_train c_val].
    rewrite Hpc. reflexivity.
  - rewrite map_app, Hc. cbn [map]. rewrite map_app. reflexivity.
  - intros _. rewrite last_epoch_snoc. fold e. cbn [map fst]. left. reflexivity.
Qed.

Lemma restart_only_rate_differs_from : forall rnd rd p decl dflt steps a b,
  NoDup (map fst decl) -> SEq a b -> WS rd p decl a -> WS rd p decl b ->
  map strip_obs (fst (run rnd rd p decl dflt a steps))
  = map strip_obs (fst (run rnd rd p decl dflt b (clear_restarts steps))) /\
  SEq (snd (run rnd rd p decl dflt a steps)) (snd (run rnd rd p decl dflt b (clear_restarts steps))).
Proof.
  intros rnd rd p decl dflt steps. induction steps as [|s t IH]; intros a b Hnd Hab Ha Hb; [cbn; auto|].
  cbn [clear_restarts map run s_restart s_train s_val s_kw]. fold (clear_restarts t).
  assert (H1 : exists a1, (if s_restart s then restart rd p decl dflt a else inr a) = inr a1 /\ SEq a1 b /\ WS rd p decl a1).
  { destruct (s_restart s); [|eauto].
    destruct (restart_ws rd p decl dflt a Ha) as (a1 & R1 & R2 & R3). exists a1. split; [exact R1|]. split; [|exact R3].
    destruct R2 as (X & Y & Z), Hab as (X' & Y' & Z'). unfold SEq. repeat split; congruence. }
  destruct H1 as (a1 & -> & Hab1 & Ha1).
  pose proof (update_strip rnd p decl dflt a1 b (s_train s) (s_val s) (s_kw s) Hab1) as Hu.
  destruct (update rnd p decl dflt a1 (s_train s) (s_val s) (s_kw s)) as [e1|[c1 a2]] eqn:U1,
           (update rnd p decl dflt b (s_train s) (s_val s) (s_kw s)) as [e2|[c2 b2]] eqn:U2; try contradiction.
  - subst e2. destruct (IH a1 b Hnd Hab1 Ha1 Hb) as [I1 I2].
    destruct (run rnd rd p decl dflt a1 t), (run rnd rd p decl dflt b (clear_restarts t)). cbn [fst snd map] in *.
    rewrite I1. auto.
  - destruct Hu as [-> Hab2].
    pose proof (update_ws _ _ _ _ _ _ _ _ _ _ _ Hnd Ha1 U1) as Ha2.
    pose proof (update_ws _ _ _ _ _ _ _ _ _ _ _ Hnd Hb U2) as Hb2.
    destruct (IH a2 b2 Hnd Hab2 Ha2 Hb2) as [I1 I2].
    destruct (run rnd rd p decl dflt a2 t), (run rnd rd p decl dflt b2 (clear_restarts t)). cbn [fst snd map] in *.
    rewrite I1. split; [|exact I2]. cbn [strip_obs]. destruct Hab2 as (X & _).
    rewrite (ct_strip p a2 b2 X), (last_row_strip p a2 b2 X). reflexivity.
Qed.

Lemma WS_init : forall rd p decl dflt, WS rd p decl (init_state p dflt).
Proof. intros. exists []. cbn. repeat split; auto; congruence. Qed.

Lemma restart_only_rate_differs : forall rnd rd p decl dflt steps,
  NoDup (map fst decl) ->
  let a := run rnd rd p decl dflt (init_state p dflt) steps in
  let b := run rnd rd p decl dflt (init_state p dflt) (clear_restarts steps) in
  map strip_obs (fst a) = map strip_obs (fst b) /\
  map strip_row (cache (snd a)) = map strip_row (cache (snd b)) /\
  map strip_crow (csv (snd a)) = map strip_crow (csv (snd b)).
Proof.
  intros rnd rd p decl dflt steps Hnd a b.
  destruct (restart_only_rate_differs_from rnd rd p decl dflt steps (init_state p dflt) (init_state p dflt) Hnd)
    as (H1 & H2 & H3 & _); auto using WS_init.
  unfold SEq. auto.
Qed.
