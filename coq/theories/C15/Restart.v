(* C15 — lemmas, part 2: restarts and user entries *)
From Coq Require Import List ZArith QArith Bool Lia String DecimalString DecimalZ Decimal DecimalPos.
From PV Require Import C15.Model C15.Spec C15.Proofs.
Import ListNotations.
Local Open Scope Z_scope.

(* ---------- user cells round-trip ------------------------------------------------------------ *)
Lemma parse_cell_print : forall v, parse_cell (kind_of v) (print_uval v) = Some v.
Proof.
  intros [z|s]; cbn; [|reflexivity].
  rewrite NilZero.isi.
  - rewrite DecimalZ.of_to. reflexivity.
  - destruct z; cbn; try discriminate. intro H. injection H as H. exact (Unsigned.to_uint_nonnil _ H).
  - destruct z; cbn; try discriminate. intro H. injection H as H. exact (Unsigned.to_uint_nonnil _ H).
Qed.

Lemma ukind_eqb_eq : forall a b, ukind_eqb a b = true -> a = b.
Proof. intros [] []; cbn; congruence. Qed.

Lemma check_kwargs_kind : forall decl kw n v,
  check_kwargs decl kw = None -> kw_get kw n = Some v -> declared decl n = Some (kind_of v).
Proof.
  intros decl kw. induction kw as [|[m w] t IH]; intros n v Hc Hg; cbn in *; [discriminate|].
  destruct (declared decl m) eqn:Hd; [|discriminate].
  destruct (ukind_eqb u (kind_of w)) eqn:He; [|discriminate].
  destruct (Nat.eqb_spec m n).
  - injection Hg as <-. subst. apply ukind_eqb_eq in He. congruence.
  - eauto.
Qed.

Lemma declared_in : forall decl n k, NoDup (map fst decl) -> In (n, k) decl -> declared decl n = Some k.
Proof.
  induction decl as [|[m j] t IH]; intros n k Hnd Hin; [destruct Hin|].
  cbn in *. inversion Hnd; subst. destruct Hin as [E|Hin].
  - inversion E; subst. rewrite Nat.eqb_refl. reflexivity.
  - destruct (Nat.eqb_spec m n); [|auto]. subst. exfalso. apply H1.
    change n with (fst (n, k)). apply in_map. exact Hin.
Qed.

Lemma parse_cells_print : forall decl kw, check_kwargs decl kw = None ->
  forall d u, (forall n k, In (n, k) d -> declared decl n = Some k) -> collect d kw = Some u ->
  parse_cells d (map (fun nv => print_uval (snd nv)) u) = Some u /\ map fst u = map fst d /\
  (forall n v, In (n, v) u -> kw_get kw n = Some v /\ declared decl n = Some (kind_of v)).
Proof.
  intros decl kw Hc. induction d as [|[n k] t IH]; intros u Hd Hcol; cbn in *.
  - injection Hcol as <-. cbn. split; [reflexivity|]. split; [reflexivity|]. intros ? ? [].
  - destruct (kw_get kw n) eqn:Hg; [|discriminate]. destruct (collect t kw) eqn:Ht; [|discriminate].
    injection Hcol as <-. cbn [map snd fst parse_cells].
    destruct (IH l (fun n k H => Hd n k (or_intror H)) eq_refl) as (IH1 & IH2 & IH3).
    pose proof (check_kwargs_kind _ _ _ _ Hc Hg) as Hk.
    rewrite (Hd n k (or_introl eq_refl)) in Hk. injection Hk as ->.
    rewrite parse_cell_print, IH1. split; [reflexivity|]. split; [cbn; congruence|].
    intros m w [E|Hin].
    + inversion E; subst. split; auto; apply (check_kwargs_kind _ _ _ _ Hc Hg).
    + auto.
Qed.

(* ---------- what a successful update does to the files ------------------------------------------ *)
Lemma update_inv : forall rnd p decl dflt st tr v kw c st',
  update rnd p decl dflt st tr v kw = inr (c, st') ->
  exists esres espcd rres rpcd l u,
    let e := last_epoch (cache st) + 1 in
    st' = mkState (cache st ++ [mkRow e esres espcd rres rpcd (Some l) (Some tr) (Some v) u])
                  (csv st ++ [mkCrow e esres espcd rres rpcd (rnd l) tr v (map (fun nv => print_uval (snd nv)) u)])
                  (opt st') ((e, opt st') :: ckpt st) /\
    check_kwargs decl kw = None /\ collect decl kw = Some u.
Proof.
  intros rnd p decl dflt st tr v kw c st'. unfold update.
  destruct (hget (cache st) (last_epoch (cache st) + 1 - 1)); [|discriminate].
  destruct (check_kwargs decl kw) eqn:Hc; [discriminate|].
  destruct (collect decl kw) as [u|] eqn:Hu; [|discriminate].
  destruct (es_step p (cache st) r (last_epoch (cache st) + 1) v) as [[esres espcd]|]; [|discriminate].
  destruct (rlr_step p (cache st) r (last_epoch (cache st) + 1) v _ (opt st)) as [[[[rres rpcd] l] o]|]; [|discriminate].
  intro H. injection H as _ <-. exists esres, espcd, rres, rpcd, l, u. cbn. auto.
Qed.

Lemma parse_rows_snoc : forall rd decl l rs x r,
  parse_rows rd decl l = Some rs -> parse_row rd decl x = Some r ->
  parse_rows rd decl (l ++ [x]) = Some (rs ++ [r]).
Proof.
  induction l as [|a t IH]; intros rs x r Hl Hx; cbn in *.
  - injection Hl as <-. rewrite Hx. reflexivity.
  - destruct (parse_row rd decl a); [|discriminate]. destruct (parse_rows rd decl t) eqn:Ht; [|discriminate].
    injection Hl as <-. rewrite (IH _ _ _ eq_refl Hx). reflexivity.
Qed.

Lemma parse_rows_length : forall rd decl l rs, parse_rows rd decl l = Some rs -> List.length rs = List.length l.
Proof.
  induction l as [|a t IH]; intros rs H; cbn in *.
  - injection H as <-. reflexivity.
  - destruct (parse_row rd decl a); [|discriminate]. destruct (parse_rows rd decl t); [|discriminate].
    injection H as <-. cbn. f_equal. auto.
Qed.

(* ---------- a state whose files say exactly what the controller remembers ---------------------- *)
Definition Synced (rd : Q -> Q) (p : params) (decl : list (nat * ukind)) (dflt : Q) (st : state) : Prop :=
  exists rs, cache st = row0 p :: rs /\ parse_rows rd decl (csv st) = Some rs /\
             (rs = [] -> opt st = init_opt p dflt) /\
             (rs <> [] -> lookup (last_epoch (cache st)) (ckpt st) = Some (opt st)).

Lemma Synced_init : forall rd p decl dflt, Synced rd p decl dflt (init_state p dflt).
Proof. intros. exists []. cbn. repeat split; auto. congruence. Qed.

Lemma restart_id : forall rd p decl dflt st, Synced rd p decl dflt st -> restart rd p decl dflt st = inr st.
Proof.
  intros rd p decl dflt [c f o k] (rs & Hc & Hp & H0 & H1). cbn in *. subst c.
  unfold restart. cbn [csv ckpt]. rewrite Hp.
  destruct rs as [|r rs'].
  - cbn. rewrite H0; auto.
  - assert (Hne : last_epoch (row0 p :: r :: rs') =? 0 = false).
    { apply Z.eqb_neq. unfold last_epoch. cbn [List.length]. lia. }
    rewrite Hne, H1; [reflexivity|discriminate].
Qed.

Lemma update_synced : forall rnd rd p decl dflt st tr v kw c st',
  NoDup (map fst decl) -> Synced rd p decl dflt st ->
  update rnd p decl dflt st tr v kw = inr (c, st') ->
  (forall r l, In r (cache st') -> r_lr r = Some l -> rd (rnd l) = l) ->
  Synced rd p decl dflt st'.
Proof.
  intros rnd rd p decl dflt st tr v kw c st' Hnd (rs & Hc & Hp & _ & _) Hu Hfix.
  destruct (update_inv _ _ _ _ _ _ _ _ _ _ Hu) as (esres & espcd & rres & rpcd & l & u & Hst & Hck & Hcol).
  cbn zeta in Hst. set (e := last_epoch (cache st) + 1) in *.
  set (info := mkRow e esres espcd rres rpcd (Some l) (Some tr) (Some v) u) in *.
  assert (Hl : rd (rnd l) = l).
  { apply (Hfix info); [|reflexivity]. rewrite Hst. cbn [cache]. apply in_or_app. right. left. reflexivity. }
  destruct (parse_cells_print decl kw Hck decl u (fun n k H => declared_in decl n k Hnd H) Hcol) as (Hpc & _).
  exists (rs ++ [info]). rewrite Hst. cbn [cache csv opt ckpt]. rewrite Hc. split; [reflexivity|]. split.
  - apply parse_rows_snoc; auto. unfold parse_row. cbn [c_user c_epoch c_esres c_espcd c_rlrres c_rlrpcd c_lr c_train c_val].
    rewrite Hpc, Hl. reflexivity.
  - split; [intro H; destruct rs; discriminate|]. intros _.
    change (row0 p :: rs ++ [info]) with ((row0 p :: rs) ++ [info]). rewrite <- Hc, last_epoch_snoc. fold e.
    cbn [lookup]. rewrite Z.eqb_refl. reflexivity.
Qed.

(* ---------- runs ------------------------------------------------------------------------------------ *)
Lemma run_clear_mono : forall rnd rd p decl dflt steps st r,
  In r (cache st) -> In r (cache (snd (run rnd rd p decl dflt st (clear_restarts steps)))).
Proof.
  induction steps as [|s t IH]; intros st r Hin; [exact Hin|].
  cbn [clear_restarts map run s_restart s_train s_val s_kw]. fold (clear_restarts t).
  destruct (update rnd p decl dflt st (s_train s) (s_val s) (s_kw s)) as [e|[c st2]] eqn:Hu.
  - specialize (IH st r Hin). destruct (run rnd rd p decl dflt st (clear_restarts t)). exact IH.
  - destruct (update_inv _ _ _ _ _ _ _ _ _ _ Hu) as (? & ? & ? & ? & ? & ? & Hst & _).
    assert (Hin2 : In r (cache st2)) by (rewrite Hst; cbn [cache]; apply in_or_app; auto).
    specialize (IH st2 r Hin2). destruct (run rnd rd p decl dflt st2 (clear_restarts t)). exact IH.
Qed.

Lemma restart_equivalent_from : forall rnd rd p decl dflt steps st,
  NoDup (map fst decl) -> Synced rd p decl dflt st ->
  (forall r l, In r (cache (snd (run rnd rd p decl dflt st (clear_restarts steps)))) -> r_lr r = Some l -> rd (rnd l) = l) ->
  run rnd rd p decl dflt st steps = run rnd rd p decl dflt st (clear_restarts steps).
Proof.
  intros rnd rd p decl dflt steps. induction steps as [|s t IH]; intros st Hnd Hs Hfix; [reflexivity|].
  cbn [clear_restarts map run s_restart s_train s_val s_kw] in *. fold (clear_restarts t) in *.
  assert (Hst1 : (if s_restart s then restart rd p decl dflt st else inr st) = inr st).
  { destruct (s_restart s); [apply restart_id; exact Hs|reflexivity]. }
  rewrite Hst1.
  destruct (update rnd p decl dflt st (s_train s) (s_val s) (s_kw s)) as [e|[c st2]] eqn:Hu.
  - rewrite IH; auto.
    intros r l Hin. apply Hfix. destruct (run rnd rd p decl dflt st (clear_restarts t)). exact Hin.
  - assert (Hfix2 : forall r l, In r (cache (snd (run rnd rd p decl dflt st2 (clear_restarts t)))) ->
                                r_lr r = Some l -> rd (rnd l) = l).
    { intros r l Hin. apply Hfix. destruct (run rnd rd p decl dflt st2 (clear_restarts t)). exact Hin. }
    rewrite IH; auto.
    eapply update_synced; eauto.
    intros r l Hin. apply Hfix2. apply run_clear_mono. exact Hin.
Qed.

Lemma restart_equivalent : forall rnd rd p decl dflt steps,
  NoDup (map fst decl) ->
  (forall r l, In r (cache (snd (run rnd rd p decl dflt (init_state p dflt) (clear_restarts steps)))) ->
               r_lr r = Some l -> rd (rnd l) = l) ->
  run rnd rd p decl dflt (init_state p dflt) steps
  = run rnd rd p decl dflt (init_state p dflt) (clear_restarts steps).
Proof. intros. apply restart_equivalent_from; auto using Synced_init. Qed.

(* ---------- user entries ------------------------------------------------------------------------------- *)
Lemma user_entries_typed : forall rnd p decl dflt st tr v kw c st',
  NoDup (map fst decl) -> update rnd p decl dflt st tr v kw = inr (c, st') ->
  exists info line,
    cache st' = cache st ++ [info] /\ csv st' = csv st ++ [line] /\
    map fst (r_user info) = map fst decl /\
    (forall n k, In (n, k) decl -> exists w, In (n, w) (r_user info) /\ kind_of w = k /\ kw_get kw n = Some w) /\
    parse_cells decl (c_user line) = Some (r_user info).
Proof.
  intros rnd p decl dflt st tr v kw c st' Hnd Hu.
  destruct (update_inv _ _ _ _ _ _ _ _ _ _ Hu) as (esres & espcd & rres & rpcd & l & u & Hst & Hck & Hcol).
  cbn zeta in Hst.
  destruct (parse_cells_print decl kw Hck decl u (fun n k H => declared_in decl n k Hnd H) Hcol) as (Hpc & Hfst & Hall).
  eexists. eexists. rewrite Hst. cbn [cache csv r_user c_user].
  split; [reflexivity|]. split; [reflexivity|]. split; [exact Hfst|]. split; [|exact Hpc].
  intros n k Hin.
  assert (Hn : In n (map fst u)). { rewrite Hfst. change n with (fst (n, k)). apply in_map. exact Hin. }
  apply in_map_iff in Hn. destruct Hn as ([m w] & E & Hw). cbn in E. subst m. exists w. destruct (Hall _ _ Hw) as [Hg Hd].
  rewrite (declared_in decl n k Hnd Hin) in Hd. injection Hd as ->. auto.
Qed.

(* ---------- K4: without the fixed-point hypothesis the restart clause is false ---------------------------- *)
Definition k4_p : params := mkParams None None 0 1 0 8 (1 # 2) 1 0 (1 # 100000000) 0.
(* the binary64 nearest to 0.0123456789 *)
Definition k4_rate : Q := Qred (3558399673195251 # 288230376151711744).
Definition k4_steps : list step_in := [mkStep false 1 8 []; mkStep true 4 8 []; mkStep false 7 8 []].

Definition obs_cont (o : obs) : option bool := match o with OOk c _ _ _ => Some c | OErr _ => None end.
Definition obs_rate (o : obs) : option Q := match o with OOk _ _ r _ => Some r | OErr _ => None end.

Lemma restart_rate_refuted :
  exists p decl dflt steps,
    wf p /\ NoDup (map fst decl) /\ plain decl (clear_restarts steps) /\ b64 dflt = dflt /\
    let a := run fmt5 b64 p decl dflt (init_state p dflt) steps in
    let b := run fmt5 b64 p decl dflt (init_state p dflt) (clear_restarts steps) in
    map obs_cont (fst a) = map obs_cont (fst b) /\
    b64 (fmt5 dflt) <> dflt /\
    map obs_rate (fst a) = [Some dflt; Some (Qred (b64 (fmt5 dflt) * (1 # 2))); Some (Qred (b64 (fmt5 dflt) * (1 # 4)))] /\
    map obs_rate (fst b) = [Some dflt; Some (Qred (dflt * (1 # 2))); Some (Qred (dflt * (1 # 4)))] /\
    map c_lr (csv (snd a)) <> map c_lr (csv (snd b)).
Proof.
  exists k4_p, [], k4_rate, k4_steps.
  split; [unfold wf; cbn; lia|]. split; [constructor|]. split.
  { repeat constructor; cbn; eauto. }
  split; [vm_compute; reflexivity|].
  cbv zeta. split; [vm_compute; reflexivity|]. split; [vm_compute; discriminate|].
  split; [vm_compute; reflexivity|]. split; [vm_compute; reflexivity|].
  vm_compute. discriminate.
Qed.
