(* C15 — tie lemmas, part 3: the control part of update_for_epoch as a whole, update_for_epoch and whole runs.
   Interpreting the regenerated source terms (PV.Gen.C15Src) computes exactly what Model.v computes, for
   every input.  See SrcRun.v for the environment and the encodings. *)
From Coq Require Import ZArith QArith List String Bool Arith Lia ZifyBool ZifyNat ZifyComparison.
From PV Require Import C15.Model C15.Spec C15.Proofs C15.Restart.
From PV Require Import MiniPy.Syntax MiniPy.Interp Gen.C15Src C15.SrcRun C15.TieLib C15.TieLoop C15.TieRlr C15.TieRec.
Import ListNotations.
Local Open Scope string_scope.
Local Open Scope Z_scope.

#[local] Arguments enc_user : simpl never.

(* es; es_cont; rlr; record *)
Lemma control_tie p c os dflt r u epoch va train cont lr : r_lr r = Some lr ->
  ctl_expected p c os dflt r u epoch va train cont lr
    (exec ext15 ufe_control
       (st_of (vars_ctl (enc_self p c) (enc_opt os dflt) (enc_row_u r u) epoch va train cont))).
Proof.
  intros Hlr. unfold ctl_expected. rewrite control_split, exec_seq_app.
  pose proof (es_tie p c os dflt r u epoch va train cont) as Hes. unfold es_expected in Hes.
  destruct (es_step p c r epoch va) as [[a b]|].
  - rewrite Hes. cbn [bind then_]. rewrite exec_seq_app, es_cont_tie. cbn [bind then_].
    pose proof (rlr_rec_tie p c os dflt (set_es r a b) u epoch va train (es_cont p (r_espcd (set_es r a b)) cont)
                  (VInt (epoch - es_pat p + r_espcd r - 1)) (vrow (hget c (epoch - es_pat p + r_espcd r - 1))) lr Hlr) as Hr.
    unfold rlr_rec_expected in Hr.
    change (rlr_step p c (set_es r a b) epoch va lr lr) with (rlr_step p c r epoch va lr lr) in Hr.
    destruct (rlr_step p c r epoch va lr lr) as [[[[a' b'] lr'] o']|]; exact Hr.
  - destruct Hes as [st Hst]. rewrite Hst. exists st. reflexivity.
Qed.

Lemma tail_tie p c os dflt prev u epoch va train cont :
  tail_expected p c os dflt prev u epoch va train cont
    (Interp.run ext15 ufe_tail (vars_ctl (enc_self p c) (enc_opt os dflt) (enc_row_u prev u) epoch va train cont)).
Proof.
  unfold tail_expected, Interp.run, ufe_tail.
  set (lr := match r_lr prev with Some l => l | None => dflt end).
  change (exec ext15 (SSeq ufe_lr_default ufe_control) ?s)
    with (bind (exec ext15 ufe_lr_default s) (then_ ext15 ufe_control)).
  change (mkState (vars_ctl (enc_self p c) (enc_opt os dflt) (enc_row_u prev u) epoch va train cont) [])
    with (st_of (vars_ctl (enc_self p c) (enc_opt os dflt) (enc_row_u prev u) epoch va train cont)).
  rewrite lr_default_tie. fold lr. cbn [bind then_].
  pose proof (control_tie p c os dflt (set_lr prev lr) u epoch va train cont lr eq_refl) as H.
  unfold ctl_expected in H.
  change (es_step p c (set_lr prev lr) epoch va) with (es_step p c prev epoch va) in H.
  change (rlr_step p c (set_lr prev lr) epoch va lr lr) with (rlr_step p c prev epoch va lr lr) in H.
  change (rlr_o p c (set_lr prev lr) epoch va lr) with (rlr_o p c prev epoch va lr) in H.
  change (r_user (set_lr prev lr)) with (r_user prev) in H.
  destruct (es_step p c prev epoch va) as [[a b]|].
  - destruct (rlr_step p c prev epoch va lr lr) as [[[[a' b'] lr'] o']|].
    + destruct H as [st [Ho H]]. exists st. rewrite Ho. split; [reflexivity|exact H].
    + destruct H as [st Ho]. exists st. rewrite Ho. reflexivity.
  - destruct H as [st Ho]. exists st. rewrite Ho. reflexivity.
Qed.

(* ---- update_for_epoch ------------------------------------------------------------------------------------ *)
Lemma user_eq_refl u : val_eqb (VDict (enc_user u)) (VDict (enc_user u)) = true.
Proof.
  induction u as [|[n v] u IH]; [reflexivity|].
  change (val_eqb (VDict (enc_user ((n, v) :: u))) (VDict (enc_user ((n, v) :: u))))
    with (val_eqb (uname n) (uname n) && val_eqb (enc_uval v) (enc_uval v)
          && val_eqb (VDict (enc_user u)) (VDict (enc_user u)))%bool.
  rewrite IH. unfold uname. cbn [val_eqb]. rewrite String.eqb_refl.
  destruct v; cbn [enc_uval val_eqb]; [rewrite Z.eqb_refl|rewrite String.eqb_refl]; reflexivity.
Qed.

Lemma q_same_refl q : q_same q q = true.
Proof. unfold q_same. rewrite Z.eqb_refl, Pos.eqb_refl. reflexivity. Qed.

(* the optimizer's rate in the model: the same statement applied to the single rate *)
Lemma rlr_step_o p c r e v lr o :
  rlr_step p c r e v lr o
  = match rlr_step p c r e v lr lr with
    | Some (a, b, l, _) => Some (a, b, l, rlr_o p c r e v lr o)
    | None => None
    end.
Proof.
  unfold rlr_o, rlr_step.
  repeat match goal with
         | |- context [if ?b then _ else _] =>
             lazymatch b with
             | context [if _ then _ else _] => fail
             | context [match _ with _ => _ end] => fail
             | _ => destruct b eqn:?
             end
         | |- context [match hget ?c ?e with _ => _ end] => destruct (hget c e) eqn:?
         end; reflexivity.
Qed.

Theorem src_update_tie rnd p decl dflt st train va kw : cache st <> [] -> num_ok p ->
  src_update rnd p decl dflt st train va kw = Some (Model.update rnd p decl dflt st train va kw).
Proof.
  intros Hc Hn. unfold src_update, Model.update.
  pose proof (head_tie p (cache st) (enc_opt (groups (opt st)) dflt) train va Hc Hn) as Hh.
  unfold head_expected in Hh. cbv zeta in Hh.
  set (epoch := last_epoch (cache st) + 1) in *.
  destruct (hget (cache st) (epoch - 1)) as [prev|].
  - destruct (Interp.run ext15 ufe_head _) as [v s1|n s1|w]; try contradiction.
    destruct v; try contradiction. destruct Hh as [He [Hct Hi]]. unfold var_in in *. rewrite He, Hct, Hi.
    unfold enc_row at 1, enc_row_u at 1.
    destruct (check_kwargs decl kw) as [e|]; [reflexivity|].
    destruct (collect decl kw) as [user|]; [|reflexivity].
    set (cont0 := match p_num p with Some n => epoch <? n | None => true end).
    set (lr := match r_lr prev with Some l => l | None => dflt end).
    match goal with |- context [vars_ctl _ _ ?i _ _ _ _] =>
      change i with (enc_row_u prev (enc_user user)) end.
    pose proof (tail_tie p (cache st) (groups (opt st)) dflt prev (enc_user user) epoch va train cont0) as Ht.
    unfold tail_expected in Ht. fold lr in Ht.
    rewrite (rlr_step_o p (cache st) prev epoch va lr (opt st)).
    destruct (es_step p (cache st) prev epoch va) as [[a b]|].
    + destruct (rlr_step p (cache st) prev epoch va lr lr) as [[[[a' b'] lr'] o']|].
      * destruct Ht as [s2 [Ho [Hi2 [Hc2 Hop]]]]. unfold var_in in *. rewrite Ho, Hi2, Hc2, Hop.
        pose proof (user_eq_refl user) as Hu.
        unfold enc_row_u, dec_row, dget, dec_opt, groups, enc_opt. cbn -[enc_user] in Hu |- *.
        rewrite Hu, q_same_refl. cbn.
        reflexivity.
      * destruct Ht as [s2 Ho]. rewrite Ho. reflexivity.
    + destruct Ht as [s2 Ho]. rewrite Ho. reflexivity.
  - destruct (Interp.run ext15 ufe_head _) as [v s1|n s1|w]; try contradiction.
    rewrite Hh. reflexivity.
Qed.

(* ---- whole runs ---------------------------------------------------------------------------------------------- *)
Lemma update_cache_nonempty rnd p decl dflt st train va kw cont st' :
  Model.update rnd p decl dflt st train va kw = inr (cont, st') -> cache st' <> [].
Proof.
  intros H. destruct (update_inv _ _ _ _ _ _ _ _ _ _ H) as (? & ? & ? & ? & ? & ? & -> & _).
  cbn [cache]. intros E. apply app_eq_nil in E. destruct E; discriminate.
Qed.

Lemma restart_cache_nonempty rd p decl dflt st st' :
  restart rd p decl dflt st = inr st' -> cache st' <> [].
Proof.
  unfold restart. intros H.
  destruct (parse_rows rd decl (csv st)); [|discriminate].
  destruct (last_epoch (row0 p :: l) =? 0).
  - injection H as H. subst st'. discriminate.
  - destruct (Model.lookup _ _); [|discriminate]. injection H as H. subst st'. discriminate.
Qed.

Theorem src_run_tie rnd rd p decl dflt steps : num_ok p -> forall st, cache st <> [] ->
  src_run rnd rd p decl dflt st steps = Some (Model.run rnd rd p decl dflt st steps).
Proof.
  intros Hn. induction steps as [|s t IH]; intros st Hc; [reflexivity|].
  cbn [src_run Model.run].
  destruct (if s_restart s then restart rd p decl dflt st else inr st) as [e|st1] eqn:Er.
  - rewrite (IH st Hc). destruct (Model.run rnd rd p decl dflt st t). reflexivity.
  - assert (Hc1 : cache st1 <> []).
    { destruct (s_restart s); [exact (restart_cache_nonempty _ _ _ _ _ _ Er)|]. injection Er as <-. exact Hc. }
    rewrite (src_update_tie rnd p decl dflt st1 _ _ _ Hc1 Hn).
    destruct (Model.update rnd p decl dflt st1 (s_train s) (s_val s) (s_kw s)) as [e|[cont st2]] eqn:Eu.
    + rewrite (IH st1 Hc1). destruct (Model.run rnd rd p decl dflt st1 t). reflexivity.
    + pose proof (update_cache_nonempty _ _ _ _ _ _ _ _ _ _ Eu) as Hc2.
      rewrite (continue_tie p st2 Hc2 Hn), (IH st2 Hc2).
      destruct (Model.run rnd rd p decl dflt st2 t). reflexivity.
Qed.

(* from a fresh controller *)
Corollary src_run_init_tie rnd rd p decl dflt steps : num_ok p ->
  src_run rnd rd p decl dflt (init_state p dflt) steps = Some (Model.run rnd rd p decl dflt (init_state p dflt) steps).
Proof. intros Hn. apply src_run_tie; [exact Hn|discriminate]. Qed.

(* composed with the model theorem: a statement purely about the translated source - the decisions, optimizer
   rates and recorded rates that interpreting the source produces are, epoch by epoch, those of the rules *)
Theorem source_trace_follows_rules rnd rd p decl dflt steps :
  wf p -> num_ok p -> plain decl steps -> quiet_before_last p (s_init p dflt) (map s_val steps) = true ->
  exists os stf,
    src_run rnd rd p decl dflt (init_state p dflt) steps = Some (os, stf) /\
    map obs_core os = map rule_obs (fst (s_run p (s_init p dflt) (map s_val steps))).
Proof.
  intros Hwf Hn Hpl Hq. rewrite (src_run_init_tie rnd rd p decl dflt steps Hn).
  pose proof (trace_follows_rules rnd rd p decl dflt steps Hwf Hpl Hq) as H.
  destruct (Model.run rnd rd p decl dflt (init_state p dflt) steps) as [os stf].
  exists os, stf. split; [reflexivity|exact H].
Qed.
