(* C15 — tie lemmas, part 1 (cache, get_last_epoch, continue_training, head, early stopping): interpreting the regenerated source terms (PV.Gen.C15Src) computes exactly what
   Model.v computes, for every input.  See SrcRun.v for the environment and the encodings. *)
From Coq Require Import ZArith QArith List String Bool Arith Lia ZifyBool ZifyNat ZifyComparison.
From PV Require Import C15.Model C15.Proofs.
From PV Require Import MiniPy.Syntax MiniPy.Interp MiniPy.Lemmas Gen.C15Src C15.SrcRun.
Import ListNotations.
Local Open Scope string_scope.
Local Open Scope Z_scope.

(* Evaluation of expressions and stores on a state whose variables are listed.  [exec] is not unfolded: the
   rest of the program stays as it is until [step] reaches it.  Left folded, and handled by the lemmas below:
   calls of [ext15], order comparisons ([q_cmp]) and all arithmetic of Z and Q.  A folded test inside a value
   does no harm; a folded call whose outcome the rest of a statement waits for makes [lazy] normalise that rest
   on bound variables, which is large: rewrite such a call at once. *)
Ltac run :=
  lazy [eval store assign_all place_of bind attribute subscript lookup update set_var vars events
        dict_get dict_set val_eqb String.eqb Ascii.eqb Bool.eqb truthy binop_eval is_inf orb andb negb inf_bin num_bin
        as_z as_q binop_name cmp_eval rich foreign cmpop_name builtin is extreme_of q_extreme container_items iter_items app hd
        vmet vrate vnum enc_row enc_row_u].

(* the next statement of the block, then [run].  A sequence or a conditional is exposed by its equation, put in
   by conversion (no rewriting step, with the whole goal as its motive, enters the proof); any other statement
   has no statement inside, so its clause of [exec] is simply unfolded. *)
Ltac step :=
  repeat match goal with |- context [exec ?x (SSeq ?a ?b) ?s] => by_conv (exec_seq x a b s) end;
  lazymatch goal with
  | |- context [exec ?x (SIf ?c ?t ?f) ?s] => by_conv (exec_if x c t f s)
  | |- context [exec ?x ?a ?s] => let r := eval lazy [exec] in (exec x a s) in change (exec x a s) with r
  end;
  run.

(* ---- the cache as a dict ---------------------------------------------------------------------- *)
Lemma dict_get_cache_from c : forall i e,
  dict_get (enc_cache_from i c) (VInt e)
  = if e <? i then None else option_map enc_row (nth_error c (Z.to_nat (e - i))).
Proof.
  induction c as [|r t IH]; intros i e; cbn [enc_cache_from dict_get].
  - destruct (e <? i); [reflexivity|]. destruct (Z.to_nat (e - i)); reflexivity.
  - change (val_eqb (VInt e) (VInt i)) with (e =? i).
    destruct (e =? i) eqn:E.
    + replace (e <? i) with false by lia. replace (Z.to_nat (e - i)) with O by lia. reflexivity.
    + rewrite IH. destruct (e <? i) eqn:E1.
      * replace (e <? i + 1) with true by lia. reflexivity.
      * replace (e <? i + 1) with false by lia.
        replace (Z.to_nat (e - i)) with (S (Z.to_nat (e - (i + 1)))) by lia. reflexivity.
Qed.

Lemma dict_get_cache c e : dict_get (enc_cache c) (VInt e) = option_map enc_row (hget c e).
Proof.
  unfold enc_cache, hget. rewrite dict_get_cache_from. rewrite Z.sub_0_r. destruct (e <? 0); reflexivity.
Qed.

(* self.get_info(e) and self.get_info(e, default) *)
Lemma ext_get_info e ds pv c st :
  lookup "self" (vars st) = Some (VDict [(VStr "params", pv); (VStr "cache_hist", VDict (enc_cache c))]) ->
  (List.length ds <= 1)%nat ->
  ext15 "self.get_info" (VInt e :: ds) [] st
  = Ok (match hget c e with Some r => enc_row r | None => hd VNone ds end) st.
Proof.
  intros H Hd. unfold ext15. rewrite H.
  assert (G : method (VDict (enc_cache c)) "get" (VInt e :: ds)
              = Some (match hget c e with Some r => enc_row r | None => hd VNone ds end, None)).
  { destruct ds as [|d [|d' ds]]; [| |cbn [List.length] in Hd; lia];
      cbn [method is String.eqb Ascii.eqb Bool.eqb]; rewrite dict_get_cache; destruct (hget c e); reflexivity. }
  cbn [is String.eqb Ascii.eqb Bool.eqb dict_get val_eqb]. rewrite G. reflexivity.
Qed.

Lemma max_keys t : forall i,
  q_extreme true (VInt (i - 1)) (map fst (enc_cache_from i t)) = Some (VInt (i - 1 + Z.of_nat (List.length t))).
Proof.
  induction t as [|r t IH]; intros i; cbn [enc_cache_from map fst q_extreme List.length].
  - f_equal. f_equal. lia.
  - cbn [cmp_eval as_q q_cmp]. unfold Qcompare; cbn [Qnum Qden inject_Z].
    replace (i * 1 ?= (i - 1) * 1) with Datatypes.Gt by lia.
    replace (VInt i) with (VInt (i + 1 - 1)) by (f_equal; lia). rewrite IH. f_equal. f_equal. lia.
Qed.

(* get_last_epoch = max(self.cache_hist) *)
Lemma last_epoch_tie ext p c : c <> [] ->
  Interp.run ext tsc_get_last_epoch [("self", enc_self p c)]
  = Ok (VInt (last_epoch c)) (mkState [("self", enc_self p c)] []).
Proof.
  intros Hc. destruct c as [|r t]; [contradiction|].
  unfold Interp.run, tsc_get_last_epoch, enc_self, enc_cache. cbn -[q_extreme Z.add last_epoch].
  change (0 + 1) with 1. change (VInt 0) with (VInt (1 - 1)) at 1. rewrite (max_keys t 1).
  unfold last_epoch. cbn [bind List.length]. do 2 f_equal. lia.
Qed.

(* self.get_last_epoch() *)
Lemma ext_last_epoch p c st : c <> [] -> lookup "self" (vars st) = Some (enc_self p c) ->
  ext15 "self.get_last_epoch" [] [] st = Ok (VInt (last_epoch c)) st.
Proof.
  intros Hc H. unfold ext15. rewrite H, (last_epoch_tie ext_none p c Hc). reflexivity.
Qed.

Lemma q_lt a b : q_cmp Lt (inject_Z a) (inject_Z b) = (a <? b).
Proof. unfold q_cmp, Qcompare; cbn [Qnum Qden inject_Z]. destruct (a * 1 ?= b * 1) eqn:E; lia. Qed.

Lemma q_gt a b : q_cmp Gt (inject_Z a) (inject_Z b) = (b <? a).
Proof. unfold q_cmp, Qcompare; cbn [Qnum Qden inject_Z]. destruct (a * 1 ?= b * 1) eqn:E; lia. Qed.

(* old_lr - new_lr > rlr_epsilon *)
Lemma q_gt_red a e : q_cmp Gt (Qred a) e = Qlt_b e a.
Proof.
  unfold q_cmp, Qlt_b. rewrite (Qred_correct a).
  destruct (Qle_bool a e) eqn:E.
  - apply Qle_bool_iff in E. destruct (a ?= e)%Q eqn:E1; try reflexivity. exfalso. apply (proj1 (Qle_alt a e) E). exact E1.
  - destruct (a ?= e)%Q eqn:E1; try reflexivity.
    all: assert (H : (a <= e)%Q) by (apply Qle_alt; rewrite E1; discriminate);
      apply Qle_bool_iff in H; congruence.
Qed.

(* max(x, 0) *)
Lemma vmax x : (if q_cmp Gt (inject_Z 0) (inject_Z x) then VInt 0 else VInt x) = VInt (Z.max x 0).
Proof. rewrite q_gt. destruct (x <? 0) eqn:E; f_equal; lia. Qed.

Lemma if_same {A} (b : bool) (x : A) : (if b then x else x) = x.
Proof. destruct b; reflexivity. Qed.

(* dict(None) *)
Lemma ext_dict_none st : ext15 "dict" [VNone] [] st = Exc "TypeError" st.
Proof. reflexivity. Qed.

(* epoch = get_last_epoch() + 1; cont; info = dict(self.get_info(epoch - 1, None)) *)
Lemma head_tie p c optim train va : c <> [] -> num_ok p ->
  head_expected p c (Interp.run ext15 ufe_head (vars_entry (enc_self p c) optim train va)).
Proof.
  intros Hc Hn. unfold head_expected, Interp.run, ufe_head, ufe_epoch, ufe_cont, ufe_info, vars_entry.
  (* if epoch is None: epoch = self.get_last_epoch() + 1 *)
  step. step. erewrite ext_last_epoch by (exact Hc || reflexivity). run.
  (* if not self.params.num_epochs: cont = True / else: cont = epoch < num_epochs *)
  unfold enc_self, enc_params, num_ok in *.
  destruct (p_num p) as [n|]; step.
  2: step.
  1: destruct (n =? 0) eqn:En; [exfalso; apply Hn; f_equal; lia|]; run.
  1: step; rewrite q_lt; step; rewrite q_gt, if_same; step.
  (* info = dict(self.get_info(epoch - 1, None)) *)
  all: step; erewrite ext_get_info by repeat constructor; destruct (hget c (last_epoch c + 1 - 1)); run.
  all: try rewrite ext_dict_none; repeat split; reflexivity.
Qed.

Lemma hget_last c : c <> [] -> exists r, hget c (last_epoch c) = Some r.
Proof. intros Hc. destruct (exists_last Hc) as (c' & x & ->). exists x. apply hget_snoc_last. Qed.

(* continue_training() *)
Lemma continue_tie p st : cache st <> [] -> num_ok p ->
  src_continue p st = Some (Model.continue_training p st).
Proof.
  intros Hc Hn. unfold src_continue, Model.continue_training, Interp.run, tsc_continue_training, nonzero.
  destruct (hget_last _ Hc) as [r Hr].
  (* if epoch is None: epoch = self.get_last_epoch() *)
  step. step. erewrite ext_last_epoch by (exact Hc || reflexivity). run.
  (* info = self.get_info(epoch) *)
  step. erewrite ext_get_info by repeat constructor. rewrite Hr. run.
  (* if not self.params.num_epochs: cont = True / else: cont = epoch < num_epochs *)
  unfold enc_self, enc_params, num_ok in *.
  destruct (p_num p) as [n|]; step.
  1: destruct (n =? 0) eqn:En; [exfalso; apply Hn; f_equal; lia|]; run.
  all: step; rewrite ?q_lt.
  (* if self.params.early_stopping_threshold and not info["es_patience_cd"]: cont = False
  (the conjunction's value, when false, is the threshold itself: its test comes up again) *)
  all: step; destruct (es_thr p =? 0) eqn:E; run; [rewrite E; run | destruct (r_espcd r =? 0); run].
  all: step; try step; reflexivity.
Qed.

(* ---- the control part of update_for_epoch ------------------------------------------------------------ *)
(* if info["lr"] is None: info["lr"] = optimizer.defaults["lr"] *)
Lemma lr_default_tie p c os dflt prev u epoch va train cont :
  exec ext15 ufe_lr_default
    (st_of (vars_ctl (enc_self p c) (enc_opt os dflt) (enc_row_u prev u) epoch va train cont))
  = Ok CNormal
      (st_of (vars_ctl (enc_self p c) (enc_opt os dflt)
                (enc_row_u (set_lr prev (match r_lr prev with Some l => l | None => dflt end)) u)
                epoch va train cont)).
Proof.
  unfold ufe_lr_default, st_of, vars_ctl, enc_opt, enc_row_u, set_lr.
  destruct (r_lr prev) as [l|]; step; [|step]; reflexivity.
Qed.

(* es_epoch = ...; es_info = self.get_info(es_epoch); the early-stopping countdown statement *)
Lemma es_tie p c os dflt r u epoch va train cont :
  es_expected p c os dflt r u epoch va train cont
    (exec ext15 ufe_es (st_of (vars_ctl (enc_self p c) (enc_opt os dflt) (enc_row_u r u) epoch va train cont))).
Proof.
  remember (exec ext15 ufe_es _) as o eqn:Ho.
  unfold ufe_es, st_of, vars_ctl, enc_self, enc_params in Ho. revert Ho.
  unfold es_expected, es_step, below, nonzero, vrow.
  (* es_epoch = epoch - patience + info["es_patience_cd"] - 1; es_info = self.get_info(es_epoch) *)
  step. step. erewrite ext_get_info by repeat constructor. run.
  (* if info["es_resume_cd"]: info["es_resume_cd"] -= 1 *)
  step. destruct (r_esres r =? 0); run; [|step; intros ->; reflexivity].
  (* elif max(es_info["val_met"] - val_met, 0) < threshold: *)
  destruct (hget c (epoch - es_pat p + r_espcd r - 1)) as [ri|]; [destruct (r_val ri) as [v|]|]; step.
  3: intros ->; eexists; reflexivity.
  1: rewrite vmax, q_lt; destruct (Z.max (v - va) 0 <? es_thr p); run.
  (* info["es_patience_cd"] -= 1; if info["es_patience_cd"] < 0: info["es_patience_cd"] = 0 *)
  1: step; step; rewrite q_lt; destruct (r_espcd r - 1 <? 0); run.
  (* else: info["es_patience_cd"] = patience *)
  all: step; intros ->; reflexivity.
Qed.

(* if self.params.early_stopping_threshold and not info["es_patience_cd"]: cont = False
   (the conjunction's value, when false, is the threshold itself: its test comes up again) *)
Lemma es_cont_tie p c os dflt r u epoch va train cont x y :
  exec ext15 ufe_es_cont
    (st_of (vars_es (enc_self p c) (enc_opt os dflt) (enc_row_u r u) epoch va train cont x y))
  = Ok CNormal
      (st_of (vars_es (enc_self p c) (enc_opt os dflt) (enc_row_u r u) epoch va train
                (es_cont p (r_espcd r) cont) x y)).
Proof.
  unfold es_cont, nonzero, ufe_es_cont, st_of, vars_es, vars_ctl, enc_self, enc_params.
  step. destruct (es_thr p =? 0) eqn:E; run; [rewrite E; run | destruct (r_espcd r =? 0); run].
  all: step; reflexivity.
Qed.
