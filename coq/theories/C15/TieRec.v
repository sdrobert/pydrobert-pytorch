(* C15 — tie lemmas, part 2b: the learning-rate block followed by the three recording assignments. *)
From Coq Require Import ZArith QArith List String Bool.
From PV Require Import C15.Model.
From PV Require Import MiniPy.Syntax MiniPy.Interp MiniPy.Lemmas Gen.C15Src C15.SrcRun C15.TieLib C15.TieLoop C15.TieRlr.
Import ListNotations.
Local Open Scope string_scope.
Local Open Scope Z_scope.

(* ... followed by info["epoch"] = epoch; info["val_met"] = val_met; info["train_met"] = train_met *)
Lemma rlr_rec_tie p c os dflt r u epoch va train cont x y lr : r_lr r = Some lr ->
  rlr_rec_expected p c os dflt r u epoch va train cont lr
    (exec ext15 (seq_app ufe_rlr ufe_record)
       (st_of (vars_es (enc_self p c) (enc_opt os dflt) (enc_row_u r u) epoch va train cont x y))).
Proof.
  intros Hlr. pose proof (rlr_run p c os dflt r u epoch va train cont x y lr Hlr) as H.
  unfold rlr_done in H. unfold rlr_rec_expected. rewrite exec_seq_app.
  destruct (rlr_step p c r epoch va lr lr) as [[[[a b] lr'] o']|].
  - destruct H as [tl ->]. cbn [bind then_]. unfold ufe_record, st_of, vars_es, vars_ctl.
    step. step. step. eexists. repeat split; reflexivity.
  - destruct H as [st ->]. exists st. reflexivity.
Qed.
