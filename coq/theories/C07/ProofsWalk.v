(* C07 - RandomWalk: length/eos bookkeeping, the log-probability chain, and the agreement with
   the distribution wrapper's log_prob. *)
From Coq Require Import List ZArith Bool Arith Lia.
From PV Require Import C07.Model C07.Spec C07.Lib C07.ProofsSlp.
Import ListNotations.

Lemma nth_repeat' {X} (x d : X) n N : n < N -> nth n (repeat x N) d = x.
Proof. revert n; induction N as [|N IH]; intros [|n] H; cbn; try lia; [reflexivity|apply IH; lia]. Qed.

Lemma all_some_spec {X} (d : X) : forall (l : list (option X)) r,
  all_some l = Some r ->
  length r = length l /\ forall n, n < length l -> nth n l None = Some (nth n r d).
Proof.
  induction l as [|o l IH]; intros r H; cbn in H.
  - injection H as <-. split; [reflexivity|cbn; lia].
  - destruct o as [x|]; [|discriminate]. destruct (all_some l) as [r'|]; [|discriminate].
    injection H as <-. destruct (IH r' eq_refl) as [Hl Hn]. split; [cbn; lia|].
    intros [|n] Hlt; [reflexivity|]. cbn in *. apply Hn. lia.
Qed.

Lemma list_max_ge x l : In x l -> x <= list_max l.
Proof. intros H. now apply (proj1 (Forall_forall _ l) (proj1 (list_max_le l _) (Nat.le_refl _))). Qed.

Lemma all_true_false l : all_true l = false -> exists n, n < length l /\ nth n l false = false.
Proof.
  induction l as [|b l IH]; intros H; [discriminate|].
  cbn in H. destruct b.
  - destruct (IH H) as (n & Hn & Hf). exists (S n). split; [cbn; lia|exact Hf].
  - exists 0. split; [cbn; lia|reflexivity].
Qed.

Lemma all_true_nth l n : all_true l = true -> n < length l -> nth n l false = true.
Proof.
  revert n; induction l as [|b l IH]; intros n H Hn; [cbn in Hn; lia|].
  cbn in H. apply andb_true_iff in H as [Hb Hl]. destruct n; [exact Hb|]. apply IH; [exact Hl|cbn in Hn; lia].
Qed.

Lemma map2_seq_id {X} (f : nat -> X -> X) : forall (y : list X) s d,
  (forall r, r < length y -> f (s + r) (nth r y d) = nth r y d) ->
  map2 f (seq s (length y)) y = y.
Proof.
  induction y as [|x y IH]; intros s d H; [reflexivity|].
  cbn [length seq map2]. f_equal.
  - specialize (H 0). cbn in H. rewrite Nat.add_0_r in H. apply H. lia.
  - apply (IH (S s) d). intros r Hr. specialize (H (S r)). cbn in H.
    rewrite Nat.add_succ_r in H. apply H. lia.
Qed.

Lemma map3_id {X Y} (f : X -> Y -> Y -> Y) : forall (l1 : list X) (l2 l3 : list Y) dx dy,
  length l1 = length l3 -> length l2 = length l3 ->
  (forall n, n < length l3 -> f (nth n l1 dx) (nth n l2 dy) (nth n l3 dy) = nth n l3 dy) ->
  map3 f l1 l2 l3 = l3.
Proof.
  induction l1 as [|x l1 IH]; intros [|y l2] [|u l3] dx dy H1 H2 H; try discriminate; [reflexivity|].
  cbn [map3]. f_equal.
  - apply (H 0). cbn; lia.
  - apply (IH l2 l3 dx dy); [cbn in *; lia..|].
    intros n Hn. apply (H (S n)). cbn; lia.
Qed.

Lemma forallb_repeat {X} (f : X -> bool) x n : f x = true -> forallb f (repeat x n) = true.
Proof. intros H. induction n; cbn; [reflexivity|now rewrite H]. Qed.

Lemma canonical_app_none e : forall s u, first_eos e s = None -> canonical e (s ++ u) = canonical e u.
Proof.
  induction s as [|k t IH]; intros u H; [reflexivity|]. cbn in *.
  destruct (k =? e)%Z; [discriminate|]. apply IH. destruct (first_eos e t); [discriminate|reflexivity].
Qed.

Lemma canonical_no_eos e s : first_eos e s = None -> canonical e s = true.
Proof. intros H. rewrite <- (app_nil_r s). apply (canonical_app_none e s [] H). Qed.

Lemma canonical_nth e : forall s i r, first_eos e s = Some i -> canonical e s = true ->
  i <= r -> r < length s -> nth r s 0%Z = e.
Proof.
  induction s as [|k t IH]; intros i r Hf Hc Hir Hr; [cbn in Hr; lia|]. cbn in *.
  destruct (k =? e)%Z eqn:E.
  - injection Hf as <-. destruct r; [apply Z.eqb_eq; exact E|].
    rewrite forallb_forall in Hc. specialize (Hc (nth r t 0%Z)).
    symmetry. apply Z.eqb_eq. apply Hc. apply nth_In. lia.
  - destruct (first_eos e t) as [j|] eqn:F; [|discriminate]. cbn in Hf. injection Hf as <-.
    destruct r; [lia|]. apply (IH j r eq_refl Hc); lia.
Qed.

Lemma first_eos_snoc_none e : forall s k, first_eos e s = None ->
  first_eos e (s ++ [k]) = if (k =? e)%Z then Some (length s) else None.
Proof.
  induction s as [|x t IH]; intros k H; cbn in *.
  - destruct (k =? e)%Z; reflexivity.
  - destruct (x =? e)%Z; [discriminate|].
    destruct (first_eos e t); [discriminate|]. rewrite (IH k eq_refl).
    destruct (k =? e)%Z; reflexivity.
Qed.

Lemma first_eos_app_some e : forall s u i, first_eos e s = Some i -> first_eos e (s ++ u) = Some i.
Proof.
  induction s as [|x t IH]; intros u i H; cbn in *; [discriminate|].
  destruct (x =? e)%Z; [exact H|].
  destruct (first_eos e t) as [j|]; [|discriminate]. rewrite (IH u j eq_refl). exact H.
Qed.

Lemma canonical_snoc_none e s k : first_eos e s = None -> canonical e (s ++ [k]) = true.
Proof. intros H. rewrite (canonical_app_none e s [k] H). cbn. destruct (k =? e)%Z; reflexivity. Qed.

Lemma canonical_pad e : forall s i k, first_eos e s = Some i -> canonical e s = true ->
  canonical e (s ++ repeat e k) = true.
Proof.
  induction s as [|x t IH]; intros i k Hf Hc; [discriminate|]. cbn in *.
  destruct (x =? e)%Z.
  - rewrite forallb_app, Hc. apply forallb_repeat. apply Z.eqb_refl.
  - destruct (first_eos e t) as [j|]; [|discriminate]. apply (IH j k eq_refl Hc).
Qed.

Section Walk.
  Context {A : Type} (op : A -> A -> A) (unit : A).
  Hypothesis unit_l : forall x, op unit x = x.
  Hypothesis unit_r : forall x, op x unit = x.
  Hypothesis op_assoc : forall x y z, op x (op y z) = op (op x y) z.

  Variable lm : nat -> list Z -> list A.
  Variable V : Z.

  Definition open_path (eos : option Z) (col : list Z) : Prop :=
    match eos with None => True | Some e => first_eos e col = None end.

  Lemma spec_slp_snoc_open eos : forall col rows r k,
    open_path eos col -> length rows = length col ->
    spec_slp op unit V eos (rows ++ [r]) (col ++ [k]) =
    op (spec_slp op unit V eos rows col) (if in_vocab V k then nth (Z.to_nat k) r unit else unit).
  Proof.
    induction col as [|c col IH]; intros rows r k Ho Hl.
    - destruct rows; [|discriminate]. cbn [app spec_slp].
      assert (E : match eos with Some e => if (k =? e)%Z then unit else unit | None => unit end = unit)
        by (destruct eos as [e|]; [destruct (k =? e)%Z|]; reflexivity).
      rewrite E.
      rewrite unit_l. destruct (in_vocab V k); [apply unit_r|reflexivity].
    - destruct rows as [|rw rows]; [discriminate|]. cbn [app spec_slp].
      assert (Ho' : open_path eos col /\ match eos with Some e => (c =? e)%Z = false | None => True end).
      { destruct eos as [e|]; cbn in *; [|split; exact I].
        destruct (c =? e)%Z; [discriminate|]. destruct (first_eos e col); [discriminate|]. split; reflexivity. }
      destruct Ho' as [Ho1 Ho2].
      rewrite (IH rows r k Ho1) by (cbn in Hl; lia).
      destruct eos as [e|]; [rewrite Ho2|]; destruct (in_vocab V c); try reflexivity; apply op_assoc.
  Qed.

  Lemma spec_slp_closed e : forall col rows rs ks i,
    first_eos e col = Some i -> length rows = length col ->
    spec_slp op unit V (Some e) (rows ++ rs) (col ++ ks) = spec_slp op unit V (Some e) rows col.
  Proof.
    induction col as [|c col IH]; intros rows rs ks i Hf Hl; [discriminate|].
    destruct rows as [|rw rows]; [discriminate|]. cbn [app spec_slp]. cbn in Hf.
    destruct (c =? e)%Z; [reflexivity|].
    destruct (first_eos e col) as [j|]; [|discriminate].
    rewrite (IH rows rs ks j eq_refl) by (cbn in Hl; lia). reflexivity.
  Qed.

  Lemma spec_slp_more_rows eos : forall col rows rs, length rows = length col ->
    spec_slp op unit V eos (rows ++ rs) col = spec_slp op unit V eos rows col.
  Proof.
    induction col as [|c col IH]; intros rows rs Hl.
    - destruct rows; [|discriminate]. destruct rs; reflexivity.
    - destruct rows as [|rw rows]; [discriminate|]. cbn [app spec_slp].
      rewrite IH by (cbn in Hl; lia). reflexivity.
  Qed.

  Lemma lm_rows_length n s : length (lm_rows lm n s) = length s.
  Proof. unfold lm_rows. now rewrite map_length, seq_length. Qed.

  Lemma lm_rows_app n s u : lm_rows lm n (s ++ u) =
    lm_rows lm n s ++ map (fun i => lm n (firstn i (s ++ u))) (seq (length s) (length u)).
  Proof.
    unfold lm_rows. rewrite app_length, seq_app, map_app. f_equal.
    apply map_ext_in. intros i Hi. apply in_seq in Hi. rewrite firstn_app_le by lia. reflexivity.
  Qed.

  Lemma lm_rows_snoc n s k : lm_rows lm n (s ++ [k]) = lm_rows lm n s ++ [lm n s].
  Proof. rewrite lm_rows_app. cbn. rewrite firstn_app_exact. reflexivity. Qed.

  Variable eos : option Z.
  Variable N : nat.

  Definition col_inv (n t : nat) (col : list Z) (len : nat) (fin : bool) (lp : A) : Prop :=
    length col = t /\
    lp = spec_slp op unit V eos (lm_rows lm n col) col /\
    match eos with
    | None => fin = false /\ len = t
    | Some e => if fin then exists i, first_eos e col = Some i /\ len = i + 1 /\ canonical e col = true
                else first_eos e col = None /\ len = t
    end.

  Definition Inv (done : list (list Z)) (st : wstate) : Prop :=
    wy st = done /\ (forall d, In d done -> length d = N) /\
    length (wlens st) = N /\ length (wfin st) = N /\ length (wlp st) = N /\
    forall n, n < N ->
      col_inv n (length done) (column 0%Z n done) (nth n (wlens st) 0) (nth n (wfin st) false)
              (nth n (wlp st) unit).

  Lemma inv_init : Inv [] (init_state unit N).
  Proof.
    unfold Inv, init_state. cbn [wy wlens wfin wlp]. rewrite !repeat_length.
    split; [reflexivity|]. split; [intros d []|]. split; [reflexivity|]. split; [reflexivity|].
    split; [reflexivity|].
    intros n Hn. unfold col_inv. rewrite !nth_repeat' by exact Hn. cbn.
    repeat split. destruct eos; split; reflexivity.
  Qed.

  Local Notation draw_ok := (draw_ok V N).

  Lemma draw_ok_nth d n : draw_ok d -> n < N -> in_vocab V (nth n d 0%Z) = true.
  Proof.
    intros [Hl Hf] Hn. rewrite forallb_forall in Hf. apply Hf. apply nth_In. lia.
  Qed.

  Lemma step_vals (st : @wstate A) d vals : length (wfin st) = N -> length d = N ->
    all_some (map3 (ext_val unit eos) (wfin st)
                   (map (fun n => lm n (column 0%Z n (wy st))) (seq 0 N)) d) = Some vals ->
    length vals = N /\
    forall n, n < N ->
      ext_val unit eos (nth n (wfin st) false) (lm n (column 0%Z n (wy st))) (nth n d 0%Z) = Some (nth n vals unit).
  Proof.
    intros Hf Hd Hv. destruct (all_some_spec unit _ _ Hv) as [Hvl Hvn].
    rewrite map3_length, Hf, map_length, seq_length, Hd, !Nat.min_id in Hvl, Hvn.
    split; [exact Hvl|]. intros n Hn. rewrite <- (Hvn n Hn).
    rewrite (map3_nth _ _ _ _ n false [] 0%Z) by (rewrite ?Hf, ?map_length, ?seq_length, ?Hd; lia).
    rewrite nth_map_seq by exact Hn. reflexivity.
  Qed.

  (* the buffer logic of random_walk_advance never changes what was drawn *)
  Lemma rw_advance_id done st d vals :
    Inv done st -> draw_ok d -> all_true (wfin st) = false ->
    all_some (map3 (ext_val unit eos) (wfin st)
                   (map (fun n => lm n (column 0%Z n (wy st))) (seq 0 N)) d) = Some vals ->
    rw_advance (wy st) (wlens st) d = done ++ [d].
  Proof.
    intros (Hy & Hrows & Hl1 & Hl2 & Hl3 & Hcol) [Hd Hdv] Hnf Hv.
    destruct (step_vals st d vals Hl2 Hd Hv) as [_ Hvn]. clear Hv.
    rewrite Hy. unfold rw_advance. destruct done as [|d0 done'] eqn:Ed; [reflexivity|].
    rewrite <- Ed in *. clear Ed d0 done'.
    destruct (all_true_false _ Hnf) as (n0 & Hn0 & Hf0). rewrite Hl2 in Hn0.
    assert (Hmax : length done <= list_max (wlens st)).
    { destruct (Hcol n0 Hn0) as (_ & _ & Hc). rewrite Hf0 in Hc.
      assert (nth n0 (wlens st) 0 = length done) as <- by (destruct eos; destruct Hc; assumption).
      apply list_max_ge, nth_In. lia. }
    apply Nat.leb_le in Hmax. rewrite Hmax.
    unfold scatter0.
    apply (map2_seq_id _ (done ++ [d]) 0 []).
    intros r Hr. cbn [Nat.add].
    assert (HrN : length (nth r (done ++ [d]) []) = N).
    { assert (Hin : In (nth r (done ++ [d]) []) (done ++ [d])) by (apply nth_In; exact Hr).
      apply in_app_or in Hin as [Hin|[<-|[]]]; [apply Hrows; exact Hin|exact Hd]. }
    apply (map3_id _ (wlens st) d (nth r (done ++ [d]) []) 0 0%Z); [lia..|].
    intros n Hn.
    destruct (Nat.eqb_spec (nth n (wlens st) 0) r) as [Hlr|]; [|reflexivity].
    assert (HnN : n < N) by lia.
    destruct (Nat.eq_dec r (length done)) as [->|Hne]; [rewrite app_nth2, Nat.sub_diag by lia; reflexivity|].
    rewrite app_length in Hr. cbn in Hr. rewrite app_nth1 in * by lia.
    destruct (Hcol n HnN) as (Hlen & _ & Hc).
    destruct eos as [e|]; [|destruct Hc; lia].
    destruct (nth n (wfin st) false) eqn:Hfin; [|destruct Hc; lia].
    destruct Hc as (i & Hfe & Hlen' & Hcan).
    (* the draw of a finished path is eos *)
    specialize (Hvn n HnN). rewrite Hfin in Hvn. cbn [ext_val] in Hvn.
    destruct (Z.eqb_spec (nth n d 0%Z) e) as [He|]; [|discriminate].
    rewrite He, <- column_nth.
    symmetry. apply (canonical_nth e _ i r Hfe Hcan); [lia|]. rewrite column_length. lia.
  Qed.

  (* one step of one column *)
  Definition len_next (len : nat) (fin : bool) : nat :=
    match eos with Some _ => len + b2n (negb fin) | None => S len end.
  Definition fin_next (col' : list Z) (len' : nat) (fin : bool) : bool :=
    match eos with Some e => (nth (len' - 1) col' 0 =? e)%Z | None => fin end.

  Lemma col_step n t col len fin lp tok val :
    col_inv n t col len fin lp -> in_vocab V tok = true ->
    ext_val unit eos fin (lm n col) tok = Some val ->
    col_inv n (S t) (col ++ [tok]) (len_next len fin)
            (fin_next (col ++ [tok]) (len_next len fin) fin) (op lp val).
  Proof.
    intros (Hlen & Hlp & Hc) Hiv Hval. unfold col_inv, len_next, fin_next.
    split; [rewrite app_length; cbn; lia|].
    rewrite lm_rows_snoc.
    destruct eos as [e|].
    - cbn [ext_val] in Hval. destruct fin.
      + destruct Hc as (i & Hfe & Hl & Hcan).
        destruct (Z.eqb_spec tok e) as [->|]; [|discriminate]. injection Hval as <-.
        pose proof (first_eos_lt e col i Hfe) as Hi.
        split.
        * rewrite unit_r, Hlp. symmetry. apply (spec_slp_closed e col _ _ _ i Hfe).
          apply lm_rows_length.
        * cbn [negb b2n]. rewrite Nat.add_0_r. subst len.
          replace (i + 1 - 1) with i by lia. rewrite app_nth1 by lia.
          rewrite (canonical_nth e col i i Hfe Hcan) by lia. rewrite Z.eqb_refl.
          exists i. split; [apply first_eos_app_some; exact Hfe|]. split; [reflexivity|].
          apply (canonical_pad e col i 1 Hfe Hcan).
      + destruct Hc as (Hfe & Hl). injection Hval as <-.
        split.
        * rewrite Hlp. rewrite (spec_slp_snoc_open (Some e)) by (try exact Hfe; apply lm_rows_length).
          rewrite Hiv. reflexivity.
        * cbn [negb b2n]. subst len. replace (t + 1 - 1) with t by lia.
          rewrite app_nth2, Hlen, Nat.sub_diag by lia. cbn [nth].
          rewrite (first_eos_snoc_none e col tok Hfe).
          destruct (tok =? e)%Z.
          -- exists (length col). split; [reflexivity|]. split; [lia|].
             apply canonical_snoc_none. exact Hfe.
          -- split; [reflexivity|lia].
    - cbn [ext_val] in Hval. injection Hval as <-. destruct Hc as [-> ->].
      split; [|split; reflexivity].
      rewrite Hlp. rewrite (spec_slp_snoc_open None) by (try exact I; apply lm_rows_length).
      rewrite Hiv. reflexivity.
  Qed.

  Lemma walk_step_inv done st d st' :
    Inv done st -> draw_ok d -> all_true (wfin st) = false ->
    walk_step op unit lm eos N st d = Some st' -> Inv (done ++ [d]) st'.
  Proof.
    intros HI Hd Hnf Hs. unfold walk_step in Hs.
    destruct (all_some _) as [vals|] eqn:Hv; [|discriminate].
    rewrite (rw_advance_id done st d vals HI Hd Hnf Hv) in Hs.
    pose proof (draw_ok_nth d) as Hdn. specialize (fun n => Hdn n Hd).
    destruct HI as (Hy & Hrows & Hl1 & Hl2 & Hl3 & Hcol). destruct Hd as [Hdl Hdv].
    destruct (step_vals st d vals Hl2 Hdl Hv) as [Hvl Hval]. rewrite Hy in Hval.
    assert (Hstep : forall n, n < N ->
              col_inv n (S (length done)) (column 0%Z n (done ++ [d]))
                      (len_next (nth n (wlens st) 0) (nth n (wfin st) false))
                      (fin_next (column 0%Z n (done ++ [d]))
                                (len_next (nth n (wlens st) 0) (nth n (wfin st) false))
                                (nth n (wfin st) false))
                      (op (nth n (wlp st) unit) (nth n vals unit))).
    { intros n Hn. rewrite column_app. cbn [column map].
      apply col_step; [apply Hcol; exact Hn|apply Hdn; exact Hn|apply Hval; exact Hn]. }
    assert (Hlen' : length (done ++ [d]) = S (length done)) by (rewrite app_length; cbn; lia).
    assert (Hrows' : forall d', In d' (done ++ [d]) -> length d' = N).
    { intros d' Hin. apply in_app_or in Hin as [Hin|[<-|[]]]; [apply Hrows; exact Hin|exact Hdl]. }
    unfold Inv. rewrite Hlen'.
    destruct eos as [e|] eqn:Eeos; injection Hs as <-; cbn [wy wlens wfin wlp];
      (split; [reflexivity|]); (split; [exact Hrows'|]);
      rewrite ?map_length, ?map2_length, ?seq_length, Hl1, Hl2, Hl3, Hvl; (do 3 (split; [lia|]));
      intros n Hn; specialize (Hstep n Hn); unfold len_next, fin_next in Hstep; rewrite Eeos in Hstep.
    - rewrite (map2_nth _ _ _ n 0 false 0) by lia.
      rewrite (map2_nth _ _ _ n 0 0 false) by (rewrite ?seq_length, ?map2_length; lia).
      rewrite seq_nth by lia. cbn [Nat.add].
      rewrite (map2_nth _ _ _ n 0 false 0) by lia.
      rewrite (map2_nth _ _ _ n unit unit unit) by lia.
      rewrite <- column_nth. exact Hstep.
    - rewrite (nth_map' S _ n 0 0) by lia.
      rewrite (map2_nth _ _ _ n unit unit unit) by lia.
      exact Hstep.
  Qed.

  Lemma walk_loop_inv mi : forall draws done st st',
    Inv done st -> (forall d, In d draws -> draw_ok d) ->
    (forall m, mi = Some m -> length done <= m) ->
    walk_loop op unit lm eos N mi draws (length done) st = Some st' ->
    Inv (done ++ draws) st' /\ walk_stop mi (length (done ++ draws)) st' = true /\
    (forall m, mi = Some m -> length (done ++ draws) <= m).
  Proof.
    induction draws as [|d ds IH]; intros done st st' HI Hd Hm Hw; cbn [walk_loop] in Hw.
    - rewrite app_nil_r. destruct (walk_stop mi (length done) st) eqn:Hst; [|discriminate].
      injection Hw as <-. split; [exact HI|]. split; [exact Hst|exact Hm].
    - destruct (walk_stop mi (length done) st) eqn:Hst; [discriminate|].
      destruct (walk_step op unit lm eos N st d) as [st1|] eqn:Hs; [|discriminate].
      unfold walk_stop in Hst. apply orb_false_iff in Hst as [Hst1 Hst2].
      pose proof (walk_step_inv done st d st1 HI (Hd d (or_introl eq_refl)) Hst2 Hs) as HI1.
      replace (done ++ d :: ds) with ((done ++ [d]) ++ ds) by (rewrite <- app_assoc; reflexivity).
      apply (IH (done ++ [d]) st1 st' HI1).
      + intros d' Hin. apply Hd. now right.
      + intros m ->. rewrite app_length. cbn. apply Nat.leb_gt in Hst1. lia.
      + replace (length (done ++ [d])) with (S (length done)) by (rewrite app_length; cbn; lia).
        exact Hw.
  Qed.

  Lemma walk_fin_length mi draws st :
    (forall d, In d draws -> draw_ok d) -> walk op unit lm eos N mi draws = Some st -> length (wfin st) = N.
  Proof.
    intros Hd Hw. unfold walk in Hw.
    now destruct (walk_loop_inv mi draws [] _ st inv_init Hd (fun m _ => Nat.le_0_l m) Hw) as ((_ & _ & _ & H & _) & _).
  Qed.

  Theorem walk_correct mi draws st :
    (forall d, In d draws -> draw_ok d) ->
    walk op unit lm eos N mi draws = Some st ->
    wy st = draws /\ length (wlens st) = N /\ length (wlp st) = N /\
    (forall m, mi = Some m -> length draws <= m) /\
    ((exists m, mi = Some m /\ length draws = m) \/ all_true (wfin st) = true) /\
    forall n, n < N ->
      let col := column 0%Z n draws in
      nth n (wlens st) 0 = path_len eos col /\
      nth n (wlp st) unit = spec_slp op unit V eos (lm_rows lm n col) col /\
      (forall e, eos = Some e -> canonical e col = true) /\
      (nth n (wfin st) false = true <-> exists e i, eos = Some e /\ first_eos e col = Some i).
  Proof.
    intros Hd Hw. unfold walk in Hw.
    destruct (walk_loop_inv mi draws [] (init_state unit N) st inv_init Hd
                (fun m _ => Nat.le_0_l m) Hw) as (HI & Hstop & Hm).
    cbn [app] in *. destruct HI as (Hy & Hrows & Hl1 & Hl2 & Hl3 & Hcol).
    split; [exact Hy|]. split; [exact Hl1|]. split; [exact Hl3|]. split; [exact Hm|]. split.
    - unfold walk_stop in Hstop. apply orb_true_iff in Hstop as [Hs|Hs]; [left|right; exact Hs].
      destruct mi as [m|]; [|discriminate]. exists m. split; [reflexivity|].
      apply Nat.leb_le in Hs. specialize (Hm m eq_refl). lia.
    - intros n Hn. destruct (Hcol n Hn) as (Hlen & Hlp & Hc). set (col := column 0%Z n draws) in *.
      unfold path_len.
      destruct eos as [e|]; [destruct (nth n (wfin st) false)|].
      + destruct Hc as (i & Hfe & Hl & Hcan). rewrite Hfe.
        split; [exact Hl|]. split; [exact Hlp|]. split; [intros ? [= <-]; exact Hcan|]. split; eauto.
      + destruct Hc as (Hfe & Hl). rewrite Hfe.
        split; [lia|]. split; [exact Hlp|]. split; [intros ? [= <-]; apply canonical_no_eos, Hfe|].
        split; [discriminate|]. intros (? & ? & [= <-] & ?). congruence.
      + destruct Hc as (Hf & Hl). rewrite Hf.
        split; [lia|]. split; [exact Hlp|]. split; [discriminate|].
        split; [discriminate|]. intros (? & ? & ? & _). discriminate.
  Qed.

  Lemma lm_full_rows n s : s <> [] -> lm_full lm n s = lm_rows lm n s.
  Proof.
    intros Hs. unfold lm_full, lm_rows.
    assert (Hl : length (removelast s) + 1 = length s).
    { destruct (exists_last Hs) as (s' & k & ->). rewrite removelast_last, app_length. cbn. lia. }
    rewrite Hl. apply map_ext_in. intros i Hi. apply in_seq in Hi.
    destruct (exists_last Hs) as (s' & k & ->). rewrite removelast_last.
    rewrite app_length in Hi. cbn in Hi. rewrite firstn_app_le by lia. reflexivity.
  Qed.

  Lemma dist_log_prob_spec value : (forall s, In s value -> s <> []) ->
    dist_log_prob op unit lm V eos value =
    map2 (fun n s => spec_slp op unit V eos (lm_rows lm n s) s) (seq 0 (length value)) value.
  Proof.
    intros Hne. unfold dist_log_prob.
    generalize 0 as s0. induction value as [|s value IH]; intros s0; [reflexivity|].
    cbn [length seq map2]. f_equal.
    - rewrite lm_full_rows by (apply Hne; left; reflexivity).
      apply (slp_col_correct op unit unit_l). apply lm_rows_length.
    - apply IH. intros s' Hin. apply Hne. now right.
  Qed.

  (* padding a finished path with eos (sample stacking) does not change its score *)
  Lemma spec_slp_padded e n s pad i : eos = Some e -> first_eos e s = Some i ->
    spec_slp op unit V eos (lm_rows lm n (s ++ pad)) (s ++ pad) =
    spec_slp op unit V eos (lm_rows lm n s) s.
  Proof.
    intros -> Hf. rewrite lm_rows_app. apply (spec_slp_closed e s _ _ _ i Hf). apply lm_rows_length.
  Qed.

  (* the wrapper's log_prob of the walk's paths, also after [pad] more rows: none, or rows of eos once every path has ended *)
  Lemma logprob_eq_walk_pad mi draws st pad :
    (forall d, In d draws -> draw_ok d) -> draws <> [] ->
    walk op unit lm eos N mi draws = Some st ->
    (pad = [] \/ exists e k, eos = Some e /\ pad = repeat (repeat e N) k /\ all_true (wfin st) = true) ->
    dist_log_prob op unit lm V eos (paths_of N (wy st ++ pad)) = wlp st.
  Proof.
    intros Hd Hne Hw Hp.
    destruct (walk_correct mi draws st Hd Hw) as (Hy & _ & Hl3 & _ & _ & Hcol).
    pose proof (walk_fin_length mi draws st Hd Hw) as Hlf.
    rewrite Hy. rewrite dist_log_prob_spec.
    - unfold paths_of. rewrite map_length, seq_length.
      rewrite (list_eq_map_nth unit (wlp st)), Hl3.
      rewrite map2_map_r, map2_same. apply map_ext_in. intros n Hn. apply in_seq in Hn.
      destruct (Hcol n ltac:(lia)) as (_ & Hlp & _ & Hfin). rewrite Hlp, column_app.
      destruct Hp as [->|(e & k & He & -> & Hall)]; [cbn [column map]; now rewrite app_nil_r|].
      assert (Hpad : column 0%Z n (repeat (repeat e N) k) = repeat e k).
      { unfold column. clear -Hn. induction k as [|k IH]; [reflexivity|]. cbn [repeat map].
        rewrite IH. f_equal. apply nth_repeat'. lia. }
      rewrite Hpad. pose proof (all_true_nth (wfin st) n Hall ltac:(lia)) as Hf.
      apply Hfin in Hf as (e' & i & He' & Hfe). rewrite He in He'. injection He' as <-.
      apply (spec_slp_padded e n _ _ i He Hfe).
    - intros s Hin. unfold paths_of in Hin. apply in_map_iff in Hin as (n & <- & _).
      destruct draws; [congruence|]. discriminate.
  Qed.

  Theorem dist_logprob_eq_walk mi draws st :
    (forall d, In d draws -> draw_ok d) -> draws <> [] ->
    walk op unit lm eos N mi draws = Some st ->
    dist_log_prob op unit lm V eos (paths_of N (wy st)) = wlp st.
  Proof.
    intros Hd Hne Hw. rewrite <- (app_nil_r (wy st)). apply (logprob_eq_walk_pad mi draws st [] Hd Hne Hw). now left.
  Qed.

  (* sample stacking: a walk that ended early is padded with rows of eos up to the longest walk
     of the batch of samples; re-scoring the padded paths still gives the walk's log-probabilities *)
  Theorem stacked_logprob_eq_walk mi draws st e k :
    eos = Some e ->
    (forall d, In d draws -> draw_ok d) -> draws <> [] ->
    walk op unit lm eos N mi draws = Some st ->
    (k = 0 \/ all_true (wfin st) = true) ->
    dist_log_prob op unit lm V eos (paths_of N (wy st ++ repeat (repeat e N) k)) = wlp st.
  Proof.
    intros He Hd Hne Hw Hk. apply (logprob_eq_walk_pad mi draws st _ Hd Hne Hw).
    destruct Hk as [->|Hall]; [now left|right; eauto].
  Qed.
End Walk.
