(* C07, source ties - what the interpreter does with one statement (generic over [ext]), and the tactics with which
   Tie.v and TieB.v run a source symbolically. *)
From Coq Require Import ZArith List String Bool Lia.
From PV Require Import MiniPy.Syntax MiniPy.Interp.
From PV Require Export MiniPy.Lemmas.
Import ListNotations.
Local Open Scope string_scope.

Section Exec.
  Variable E : string -> list val -> list (string * val) -> state -> outcome val.

  Definition fin (o : outcome ctl) : outcome val :=
    match o with
    | Ok CNormal st => Ok VNone st
    | Ok (CReturn v) st => Ok v st
    | Exc n st => Exc n st
    | Stuck w => Stuck w
    end.

  Lemma run_fin body vars0 : Interp.run E body vars0 = fin (exec E body (mkState vars0 [])).
  Proof. reflexivity. Qed.
End Exec.

(* the program after its first n statements *)
Fixpoint drop_stmts (n : nat) (s : stmt) : stmt :=
  match n, s with
  | S n', SSeq _ r => drop_stmts n' r
  | _, _ => s
  end.

Lemma subscript_pair_0 a b st : subscript (VTuple [a; b]) (VInt 0) st = Ok a st.  Proof. reflexivity. Qed.
Lemma subscript_pair_1 a b st : subscript (VTuple [a; b]) (VInt 1) st = Ok b st.  Proof. reflexivity. Qed.

(* x.shape[d] *)
Lemma subscript_shape sh d st : (d < List.length sh)%nat ->
  subscript (VTuple (map (fun n => VInt (Z.of_nat n)) sh)) (VInt (Z.of_nat d)) st = Ok (VInt (Z.of_nat (nth d sh 0%nat))) st.
Proof.
  intros H. unfold subscript.
  replace (foreign_item _ _) with false by (destruct sh as [|? [|? [|? ?]]]; reflexivity).
  rewrite map_length. replace (Z.of_nat d <? 0)%Z with false by lia.
  replace ((0 <=? Z.of_nat d)%Z && (Z.of_nat d <? Z.of_nat (List.length sh))%Z) with true by lia.
  rewrite Nat2Z.id. f_equal. rewrite (nth_indep _ VNone (VInt (Z.of_nat 0))) by now rewrite map_length.
  apply (map_nth (fun n => VInt (Z.of_nat n))).
Qed.

(* Running a source one statement at a time.  The files that use these tactics declare [exec] and [subscript]
   `simpl never` and the interpreter's other functions strict in the state, so that [cbn] stops at every call that reaches
   [ext] and at every `method` / `subscript` on an encoded tensor; the script then names the lemma for that call.
   [hide_names] (once, after unfolding the program) and [next] put the variable names and the rest of the program behind
   local definitions: they are most of every goal, and every goal is typed again at Qed.
   [merge_if x v]: both branches of the `if` at the head end in the same state, x := v. *)
Ltac hide_names :=
  repeat match goal with
         | |- context [EName ?s] => lazymatch s with String _ _ => let x := fresh "x" in set (x := s) end
         | |- context [TName ?s] => lazymatch s with String _ _ => let x := fresh "x" in set (x := s) end
         end.
Ltac run := lazy [eval bind]; cbn.
Ltac next :=
  try match goal with |- context [exec _ ?r _] => is_var r; subst r end;
  repeat (match goal with |- context C [exec ?F (SSeq ?a ?b) ?st] =>
            let r := fresh "rest" in pose (r := b); let g := context C [exec F (SSeq a r) st] in change g end;
          rewrite exec_seq).
Ltac sassign := next; rewrite exec_assign1; run.
Ltac sif := next; rewrite exec_if; run.
Ltac sreturn := next; rewrite exec_return; run.
Ltac ret H := rewrite H; cbn.
Ltac merge_if x v :=
  match goal with |- context [if ?c then exec ?F ?a ?s else exec ?F ?b ?s] =>
    let H := fresh "Hif" in
    assert (H : (if c then exec F a s else exec F b s) = Ok CNormal (mkState (update x v (vars s)) (events s))); [ | rewrite H; clear H; cbn ] end.
