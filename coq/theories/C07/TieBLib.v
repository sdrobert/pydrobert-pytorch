(* C07, second source tie - encoded tensors inside the interpreter and what reaches [SrcRunB.ext07B], call by call. *)
From Coq Require Import ZArith QArith List String Bool Arith Lia ZifyBool ZifyNat.
From PV Require Import MiniPy.Syntax MiniPy.Interp MiniTorch.Ops MiniTorch.OpsC07 MiniTorch.LemmasC07 MiniTorch.OpsC07B.
From PV Require Import C07.SrcRun C07.SrcRunB.
From PV Require Export C07.TieLib C07.Tie.
Import ListNotations.
Local Open Scope string_scope.

Section Exec.
  Variable E : string -> list val -> list (string * val) -> state -> outcome val.

  Lemma exec_aug1 x op e st :
    exec E (SAug (TName x) op e) st =
    bind (eval E (EName x) st) (fun old st1 => bind (eval E e st1) (fun v st2 =>
      bind (match binop_eval op old v st2 with
            | Stuck _ => E "operator" [VStr (binop_name op); old; v] [] st2
            | o => o
            end) (fun nv st3 => Ok CNormal (set_var x nv st3)))).
  Proof.
    cbn [exec place_of store eval]. destruct (lookup x (vars st)) as [old|]; cbn [bind]; [|reflexivity].
    destruct (eval E e st) as [v st2|n st2|w]; cbn [bind]; try reflexivity.
  Qed.
End Exec.

(* ---- tensors inside the interpreter ------------------------------------------------------------------------------- *)
Lemma foreign_enc_b t : foreign (enc_b t) = true.  Proof. reflexivity. Qed.
Lemma binop_enc_bb op t u st : exists m, binop_eval op (enc_b t) (enc_b u) st = Stuck m.
Proof. destruct op; eexists; reflexivity. Qed.
Lemma subscript_b_tuple t k st : subscript (enc_b t) (VTuple k) st = Stuck "subscript".  Proof. reflexivity. Qed.
Lemma subscript_i_tuple t k st : subscript (enc_i t) (VTuple k) st = Stuck "subscript".  Proof. reflexivity. Qed.
Lemma cmp_isnot_enc_i t : cmp_eval IsNot (enc_i t) VNone = Some true.  Proof. reflexivity. Qed.
Lemma cmp_isnot_none : cmp_eval IsNot VNone VNone = Some false.  Proof. reflexivity. Qed.
Lemma cmp_is_none : cmp_eval Is VNone VNone = Some true.  Proof. reflexivity. Qed.
Lemma cmp_ne_int a b : cmp_eval NotEq (VInt a) (VInt b) = Some (negb (a =? b)%Z).  Proof. reflexivity. Qed.
Lemma Qcompare_inject_Z a b : (inject_Z a ?= inject_Z b)%Q = (a ?= b)%Z.
Proof. unfold Qcompare. cbn [Qnum Qden inject_Z]. now rewrite !Z.mul_1_r. Qed.
Lemma cmp_gt_int a b : cmp_eval Gt (VInt a) (VInt b) = Some (a >? b)%Z.
Proof. cbn [cmp_eval as_q q_cmp]. now rewrite Qcompare_inject_Z. Qed.
Lemma cmp_ge_int a b : cmp_eval GtE (VInt a) (VInt b) = Some (a >=? b)%Z.
Proof. cbn [cmp_eval as_q q_cmp]. now rewrite Qcompare_inject_Z. Qed.

(* ---- what reaches ext07B --------------------------------------------------------------------------------------------- *)
#[local] Arguments dec_any : simpl never.
#[local] Arguments enc_b : simpl never.
#[local] Arguments enc_i : simpl never.
#[local] Arguments enc_f : simpl never.

(* [extB_red] selects the branch of [ext07B] for a literal call name: the dispatch on the name and on the shape of the
   argument list is evaluated, everything about tensors stays folded *)
Ltac extB_red := lazy beta iota zeta delta [ext07B ext07_ops is String.eqb Ascii.eqb Bool.eqb andb orb negb full_slice is_rank2
  any_shape any_transpose any_slice_cols any_cat2 val_eqb exp_tag tag_bool tag_long tag_float long_token].
Ltac extB_tac := intros; extB_red; rewrite ?dec_any_enc_f, ?dec_any_enc_i, ?dec_any_enc_b; extB_red; try reflexivity.

Section ExtLemmas.
  Variable lsm : tn xq -> tn xq.
  Variable mn : tn xq -> tn Z.
  Notation E := (ext07B lsm mn).

  Lemma ext_dim_f x st : E "$method.dim" [enc_f x] [] st = Ok (VInt (Z.of_nat (List.length (shp x)))) st.
  Proof. extB_tac. Qed.
  Lemma ext_dim_i x st : E "$method.dim" [enc_i x] [] st = Ok (VInt (Z.of_nat (List.length (shp x)))) st.
  Proof. extB_tac. Qed.
  Lemma ext_shape_f x st : E "$attr.shape" [enc_f x] [] st = Ok (VTuple (map (fun n => VInt (Z.of_nat n)) (shp x))) st.
  Proof. extB_tac. Qed.
  Lemma ext_shape_i x st : E "$attr.shape" [enc_i x] [] st = Ok (VTuple (map (fun n => VInt (Z.of_nat n)) (shp x))) st.
  Proof. extB_tac. Qed.
  Lemma ext_device_i x st : E "$attr.device" [enc_i x] [] st = Ok device_token st.
  Proof. extB_tac. Qed.

  Lemma ext_size_f x d k st : wrap_dim (List.length (shp x)) d = Some k ->
    E "$method.size" [enc_f x; VInt d] [] st = Ok (VInt (Z.of_nat (nth k (shp x) 0%nat))) st.
  Proof. intros H. extB_tac. now rewrite H. Qed.
  Lemma ext_size_i x d k st : wrap_dim (List.length (shp x)) d = Some k ->
    E "$method.size" [enc_i x; VInt d] [] st = Ok (VInt (Z.of_nat (nth k (shp x) 0%nat))) st.
  Proof. intros H. extB_tac. now rewrite H. Qed.

  Lemma ext_lsm_m x d k st : wrap_dim (rank x) d = Some k -> Nat.eqb (rank x) (S k) = true -> nats_eqb (shp (lsm x)) (shp x) = true ->
    E "$method.log_softmax" [enc_f x; VInt d] [] st = Ok (enc_f (lsm x)) st.
  Proof. intros H1 H2 H3. extB_tac. unfold rank in *. now rewrite H1, H2, H3. Qed.

  Lemma ext_lsm_f x st : (rank x =? 0)%nat = false -> nats_eqb (shp (lsm x)) (shp x) = true ->
    E "torch.nn.functional.log_softmax" [enc_f x; VInt (-1)] [] st = Ok (enc_f (lsm x)) st.
  Proof. intros H1 H2. extB_tac. unfold rank in *. now rewrite H1, H2. Qed.

  Lemma ext_transpose_f x st :
    E "$method.transpose" [enc_f x; VInt 0; VInt 1] [] st = ret_any "transpose" (option_map TF (transpose01 xzero x)) st.
  Proof. extB_tac. Qed.

  Lemma ext_t_i x st : List.length (shp x) = 2%nat ->
    E "$method.t" [enc_i x] [] st = ret_any "t" (option_map TI (transpose01 0%Z x)) st.
  Proof. intros H. extB_tac. unfold is_rank2. cbn. now rewrite H. Qed.

  Lemma ext_T_i x st : List.length (shp x) = 2%nat ->
    E "$attr.T" [enc_i x] [] st = ret_any "t" (option_map TI (transpose01 0%Z x)) st.
  Proof. intros H. extB_tac. unfold is_rank2. cbn. now rewrite H. Qed.

  Lemma ext_max_f x d st :
    E "$method.max" [enc_f x; VInt d] [] st =
    match max_last x d with
    | Some (Some (v, i)) => Ok (VTuple [enc_f v; enc_i i]) st
    | Some None => Exc index_error st
    | None => oob "max"
    end.
  Proof. extB_tac. Qed.

  Lemma ext_max_all x st :
    E "$method.max" [enc_i x] [] st = match max_all x with Some m => Ok (enc_i m) st | None => Exc runtime_error st end.
  Proof. extB_tac. Qed.

  Lemma ext_item x st : E "$method.item" [enc_i x] [] st = match item x with Some z => Ok (VInt z) st | None => oob "item" end.
  Proof. extB_tac. Qed.

  Lemma ext_int z st : E "int" [VInt z] [] st = Ok (VInt z) st.
  Proof. reflexivity. Qed.

  Lemma ext_ne_s x c st : E "compare" [VStr "ne"; enc_i x; VInt c] [] st = Ok (enc_b (ne_s x c)) st.
  Proof. extB_tac. Qed.
  Lemma ext_ne_t x y st : E "compare" [VStr "ne"; enc_i x; enc_i y] [] st = ret_any "ne" (option_map TB (ne_t x y)) st.
  Proof. extB_tac. Qed.
  Lemma ext_lt_t x y st : E "compare" [VStr "lt"; enc_i x; enc_i y] [] st = ret_any "lt" (option_map TB (lt_t x y)) st.
  Proof. extB_tac. Qed.

  Lemma ext_cols_b x lo hi l h st : bound lo = Some l -> bound hi = Some h ->
    E "$getitem" [enc_b x; VTuple [VTuple [VStr "$slice"; VNone; VNone; VNone]; VTuple [VStr "$slice"; lo; hi; VNone]]] [] st =
    ret_any "x[:, a:b]" (option_map TB (slice_cols false x l h)) st.
  Proof. intros H1 H2. extB_tac. now rewrite H1, H2. Qed.
  Lemma ext_cols_i x lo hi l h st : bound lo = Some l -> bound hi = Some h ->
    E "$getitem" [enc_i x; VTuple [VTuple [VStr "$slice"; VNone; VNone; VNone]; VTuple [VStr "$slice"; lo; hi; VNone]]] [] st =
    ret_any "x[:, a:b]" (option_map TI (slice_cols 0%Z x l h)) st.
  Proof. intros H1 H2. extB_tac. now rewrite H1, H2. Qed.

  Lemma ext_index1 x i st :
    E "$getitem" [enc_f x; enc_i i] [] st = ret_any "x[idx]" (option_map TF (index1 xzero x i)) st.
  Proof. intros. unfold ext07B. cbn. unfold enc_i at 1. cbn. rewrite dec_any_enc_f. fold (enc_i i). now rewrite dec_any_enc_i. Qed.

  Lemma ext_cat_b x y d st : E "torch.cat" [VList [enc_b x; enc_b y]; VInt d] [] st = ret_any "cat" (option_map TB (cat2 false x y d)) st.
  Proof. extB_tac. Qed.
  Lemma ext_cat_i x y d st : E "torch.cat" [VList [enc_i x; enc_i y]; VInt d] [] st = ret_any "cat" (option_map TI (cat2 0%Z x y d)) st.
  Proof. extB_tac. Qed.

  Lemma ext_and x y st : E "operator" [VStr "and"; enc_b x; enc_b y] [] st = ret_any "and" (option_map TB (band x y)) st.
  Proof. extB_tac. Qed.
  Lemma ext_or x y st : E "operator" [VStr "or"; enc_b x; enc_b y] [] st = ret_any "or" (option_map TB (bor x y)) st.
  Proof. extB_tac. Qed.
  Lemma ext_add_ff x y st : E "operator" [VStr "add"; enc_f x; enc_f y] [] st = ret_any "add" (option_map TF (add_t x y)) st.
  Proof. extB_tac. Qed.

  Lemma ext_arange_dev n st :
    E "torch.arange" [VInt n] [("device", device_token)] st = ret_any "arange" (option_map TI (arange n)) st.
  Proof. reflexivity. Qed.
  Lemma ext_arange n st : E "torch.arange" [VInt n] [] st = ret_any "arange" (option_map TI (arange n)) st.
  Proof. reflexivity. Qed.

  Lemma ext_unsqueeze_i x d st :
    E "$method.unsqueeze" [enc_i x; VInt d] [] st = ret_any "unsqueeze" (option_map TI (unsqueeze x d)) st.
  Proof. extB_tac. Qed.
  Lemma ext_squeeze_f x d st :
    E "$method.squeeze" [enc_f x; VInt d] [] st = ret_any "squeeze" (option_map TF (squeeze_dim x d)) st.
  Proof. extB_tac. Qed.

  Lemma ext_invert x st : E "$invert" [enc_b x] [] st = Ok (enc_b (bnot x)) st.
  Proof. extB_tac. Qed.
  Lemma ext_long x st : E "$method.long" [enc_b x] [] st = Ok (enc_i (to_long x)) st.
  Proof. extB_tac. Qed.
  Lemma ext_to_long x st : E "$method.to" [enc_b x; long_token] [] st = Ok (enc_i (to_long x)) st.
  Proof. extB_tac. Qed.

  Lemma ext_mfill_f x m q st :
    E "$method.masked_fill" [enc_f x; enc_b m; VQ q] [] st = ret_any "masked_fill" (option_map TF (masked_fill x m (Fin q))) st.
  Proof. extB_tac. Qed.
  Lemma ext_mfill_i x m c st :
    E "$method.masked_fill" [enc_i x; enc_b m; VInt c] [] st = ret_any "masked_fill" (option_map TI (masked_fill x m c)) st.
  Proof. extB_tac. Qed.

  Lemma ext_lt_s x c st : E "$method.lt" [enc_i x; VInt c] [] st = Ok (enc_b (lt_s x c)) st.
  Proof. extB_tac. Qed.
  Lemma ext_ge_s x c st : E "$method.ge" [enc_i x; VInt c] [] st = Ok (enc_b (ge_s x c)) st.
  Proof. extB_tac. Qed.

  Lemma ext_sum_i x d st : E "$method.sum" [enc_i x; VInt d] [] st = ret_any "sum" (option_map TI (sum_long x d)) st.
  Proof. extB_tac. Qed.
  Lemma ext_sum_f x d st : E "$method.sum" [enc_f x; VInt d] [] st = ret_any "sum" (option_map TF (sum_dim x d)) st.
  Proof. extB_tac. Qed.
  Lemma ext_prod x d st : E "$method.prod" [enc_f x; VInt d] [] st = ret_any "prod" (option_map TF (prod_dim x d)) st.
  Proof. extB_tac. Qed.

  Lemma ext_mselect x m st :
    E "$method.masked_select" [enc_i x; enc_b m] [] st = ret_any "masked_select" (option_map TI (masked_select x m)) st.
  Proof. extB_tac. Qed.
  Lemma ext_mscatter x m s st :
    E "$method.masked_scatter_" [enc_i x; enc_b m; enc_i s] [] st =
    ret_any "masked_scatter_" (option_map TI (masked_scatter x m s)) st.
  Proof. extB_tac. Qed.

  Lemma ext_exp x st : E "$method.exp" [enc_f x] [] st = Ok (VTuple [VStr exp_tag; enc_f x]) st.
  Proof. extB_tac. Qed.
  Lemma ext_multinomial x N V st : shp x = [N; V] -> shp (mn x) = [N; 1%nat] ->
    E "torch.multinomial" [VTuple [VStr exp_tag; enc_f x]; VInt 1; VBool true] [] st = Ok (enc_i (mn x)) st.
  Proof. intros H1 H2. extB_tac. rewrite H1, H2. cbn. now rewrite Nat.eqb_refl. Qed.

  Lemma ext_gather1 x y st : rank x = 2%nat -> rank y = 2%nat ->
    E "$method.gather" [enc_f x; VInt 1; enc_i y] [] st = ret_any "gather" (option_map TF (gather_last x y)) st.
  Proof. intros H1 H2. extB_tac. unfold rank in *. now rewrite H1, H2. Qed.

  Lemma ext_scatter x i s st :
    E "$method.scatter" [enc_i x; VInt 0; enc_i i; enc_i s] [] st = ret_any "scatter" (option_map TI (scatter0 x i s)) st.
  Proof. extB_tac. Qed.

  Lemma ext_index_select x d i st :
    E "torch.index_select" [enc_i x; VInt d; enc_i i] [] st = ret_any "index_select" (option_map TI (index_select2 0%Z x d i)) st.
  Proof. extB_tac. Qed.

  Lemma ext_pack x l b st :
    E "torch.nn.utils.rnn.pack_padded_sequence" [enc_i x; enc_i l] [("batch_first", VBool b)] st =
    match pack_padded x l b with
    | Some (d, bs) => Ok (VTuple [enc_i d; enc_i bs; VNone; VNone]) st
    | None => oob "pack_padded_sequence"
    end.
  Proof. extB_tac. Qed.

  Lemma ext_spoof a b st : E "SpoofPackedSequence" [a; b; VNone; VNone] [] st = Ok (VTuple [a; b; VNone; VNone]) st.
  Proof. reflexivity. Qed.

  Lemma ext_pad x bs st :
    E "torch.nn.utils.rnn.pad_packed_sequence" [VTuple [enc_f x; enc_i bs; VNone; VNone]] [("batch_first", VBool true)] st =
    match pad_packed x bs with
    | Some (p, l) => Ok (VTuple [enc_f p; enc_i l]) st
    | None => oob "pad_packed_sequence"
    end.
  Proof. extB_tac. Qed.
End ExtLemmas.

(* ---- small shape facts ---------------------------------------------------------------------------------------------- *)
Lemma unsqueeze_1_0 {X} T (d : list X) : unsqueeze (mkTn [T] d) 0 = Some (mkTn [1%nat; T] d).
Proof. reflexivity. Qed.
Lemma unsqueeze_1_1 {X} N (d : list X) : unsqueeze (mkTn [N] d) 1 = Some (mkTn [N; 1%nat] d).
Proof. reflexivity. Qed.
Lemma masked_select_same {X} sh (a : list X) m :
  masked_select (mkTn sh a) (mkTn sh m) = Some (mkTn [List.length (select m a)] (select m a)).
Proof. unfold masked_select. cbn [shp dat]. now rewrite nats_eqb_refl. Qed.
Lemma masked_scatter_same {X} sh (a : list X) m sh' s :
  masked_scatter (mkTn sh a) (mkTn sh m) (mkTn sh' s) = option_map (mkTn sh) (mscat m s a).
Proof. unfold masked_scatter. cbn [shp dat]. now rewrite nats_eqb_refl. Qed.
