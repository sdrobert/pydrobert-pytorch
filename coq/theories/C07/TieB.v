(* C07, second source tie - `ctc_greedy_search`.  PV.Gen.C07BSrc.greedy_body is the MiniPy term
   harness/py2coq/translate.py regenerates from /repo/src/pydrobert/torch/_decoding.py on every run (whole body of
   ctc_greedy_search); PV.MiniPy.Interp is its semantics; the torch calls mean what MiniTorch.OpsC07 / OpsC07B say
   (through SrcRunB.ext07B), Tensor.log_softmax is an oracle.
   [greedy_ops_run] runs the interpreter on the source with every tensor a variable and says which tensor operations
   the source performs, one hypothesis per torch call, in program order.  [greedy_tie] puts the tabulated model values
   in (every float carrier value, against ModelB.ctc_greedy_g); [greedy_tie_Z] is the case of floats that are integers
   (Model.ctc_greedy), [source_greedy_correct] its composition with the model theorem ProofsGreedy.greedy_correct. *)
From Coq Require Import ZArith QArith List String Bool Arith Lia ZifyBool ZifyNat.
From PV Require Import MiniPy.Syntax MiniPy.Interp MiniTorch.Ops MiniTorch.OpsC07 MiniTorch.LemmasC07 MiniTorch.OpsC07B MiniTorch.LemmasC07B.
From PV Require Import Gen.C07BSrc C07.SrcRun C07.SrcRunB C07.TieBLib.
From PV Require C07.Model C07.Spec C07.ModelB C07.TieBModel C07.ProofsGreedy MiniTorch.Lemmas.
Import ListNotations.
Local Open Scope string_scope.

#[local] Arguments enc_b : simpl never.
#[local] Arguments enc_i : simpl never.
#[local] Arguments enc_f : simpl never.
#[local] Arguments exec : simpl never.
#[local] Arguments ext07B : simpl never.
#[local] Arguments cmp_eval : simpl never.
#[local] Arguments subscript : simpl never.
#[local] Arguments eval ext e !st.
#[local] Arguments attribute ext o a !st.
#[local] Arguments binop_eval op a b !st.
#[local] Arguments builtin f args !st.
#[local] Arguments method !o m !args.
#[local] Arguments truthy !v.

(* well-formed batch-first scores: N elements, T frames each, V classes each *)
Definition wf_lp {X} (N T V : nat) (lp : list (list (list X))) : Prop :=
  List.length lp = N /\ forall fr, List.In fr lp -> List.length fr = T /\ forall row, List.In row fr -> List.length row = V.

Lemma lp_of_lp3 : forall N T V (lp : list (list (list xq))), wf_lp N T V lp -> TieBModel.lp_of N T V (lp3 xzero lp) = lp.
Proof.
  intros N T V lp [HN Hfr]. unfold TieBModel.lp_of, lp3. symmetry.
  rewrite (list_as_map_nth lp N [] HN) at 1. apply map_ext_seq. intros n Hn.
  assert (Hin : List.In (nth n lp []) lp) by (apply nth_In; lia). destruct (Hfr _ Hin) as [HT Hrow].
  rewrite (list_as_map_nth (nth n lp []) T [] HT) at 1. apply map_ext_seq. intros t Ht.
  assert (Hin2 : List.In (nth t (nth n lp []) []) (nth n lp [])) by (apply nth_In; lia).
  apply list_as_map_nth. now apply Hrow.
Qed.

Lemma xargmax_from_fin : forall l best bi i, is_fin best = true -> forallb is_fin l = true -> is_fin (fst (xargmax_from best bi i l)) = true.
Proof.
  induction l as [|x l IH]; intros best bi i Hb Hl; cbn [xargmax_from]; [assumption|].
  cbn [forallb] in Hl. apply andb_prop in Hl. destruct Hl as [Hx Hl]. destruct (xltb best x); now apply IH.
Qed.

Lemma xargmax_fin : forall row, forallb is_fin row = true -> is_fin (fst (xargmax row)) = true.
Proof.
  intros [|x t] H; [reflexivity|]. cbn [forallb] in H. apply andb_prop in H. destruct H. now apply xargmax_from_fin.
Qed.

Definition all_fin3 (lp : list (list (list xq))) : bool := forallb (forallb (forallb is_fin)) lp.

Lemma all_fin3_row : forall N T V lp n t, wf_lp N T V lp -> all_fin3 lp = true -> (n < N)%nat -> (t < T)%nat ->
  forallb is_fin (map (lp3 xzero lp n t) (seq 0 V)) = true.
Proof.
  intros N T V lp n t [HN Hfr] Hall Hn Ht.
  assert (Hin : List.In (nth n lp []) lp) by (apply nth_In; lia). destruct (Hfr _ Hin) as [HT Hrow].
  assert (Hin2 : List.In (nth t (nth n lp []) []) (nth n lp [])) by (apply nth_In; lia).
  unfold all_fin3 in Hall. rewrite forallb_forall in Hall. specialize (Hall _ Hin). rewrite forallb_forall in Hall.
  specialize (Hall _ Hin2). unfold lp3. rewrite <- (list_as_map_nth _ V xzero (Hrow _ Hin2)). exact Hall.
Qed.

Section Tie.
  Variables (lsm : tn xq -> tn xq) (mn : tn xq -> tn Z).
  Notation E := (ext07B lsm mn).

  (* the tensor program of ctc_greedy_search, one hypothesis per torch call *)
  Lemma greedy_ops_run (L0 L1 L2 mx mx' sc : tn xq) (am a1 a0 ol ol' data am' am'' : tn Z) (k1 d k_ kf km km' om : tn bool)
      (il : option (tn Z)) (blank b : Z) (bf ip : bool) (A B V N T : nat) :
    shp L0 = [A; B; V] ->
    (- Z.of_nat V <= blank <= Z.of_nat V - 1)%Z -> b = ((blank + Z.of_nat V) mod Z.of_nat V)%Z ->
    L1 = (if ip then L0 else lsm L0) -> (ip = false -> shp (lsm L0) = shp L0) ->
    (if bf then Some L1 else transpose01 xzero L1) = Some L2 ->
    max_last L2 2 = Some (Some (mx, am)) ->
    slice_cols false (ne_s am b) (Some 1%Z) None = Some k1 ->
    slice_cols 0%Z am (Some 1%Z) None = Some a1 ->
    slice_cols 0%Z am None (Some (-1)%Z) = Some a0 ->
    ne_t a1 a0 = Some d ->
    band k1 d = Some k_ ->
    slice_cols false (ne_s am b) None (Some 1%Z) = Some kf ->
    cat2 false kf k_ 1 = Some km ->
    shp am = [N; T] ->
    let ar := mkTn [1%nat; T] (map Z.of_nat (seq 0 T)) in
    match il with
    | Some l => exists l' im, unsqueeze l 1 = Some l' /\ lt_t ar l' = Some im /\ band km im = Some km' /\
                              masked_fill mx (bnot im) (Fin (if ip then 1 else 0)) = Some mx'
    | None => km' = km /\ mx' = mx
    end ->
    sum_long (to_long km') 1 = Some ol ->
    masked_select am km' = Some data ->
    unsqueeze ol 1 = Some ol' ->
    lt_t ar ol' = Some om ->
    (if ip then prod_dim mx' 1 else sum_dim mx' 1) = Some sc ->
    masked_scatter am om data = Some am' ->
    List.length (shp am') = 2%nat ->
    (if bf then Some am' else transpose01 0%Z am') = Some am'' ->
    exists st, run_greedy lsm mn L0 il blank bf ip = Ok (VTuple [enc_f sc; enc_i am''; enc_i ol]) st.
  Proof.
    intros Hsh Hb Hbz HL1 Hlsm HL2 Hmax Hk1 Ha1 Ha0 Hd Hk_ Hkf Hkm Ham ar Hil Hol Hdata Hol' Hom Hsc Ham' Hlen' Ham''. subst ar.
    assert (HV : (Z.of_nat V =? 0)%Z = false) by lia.
    assert (Hlo : (blank <? - Z.of_nat V)%Z = false) by lia.
    assert (Hhi : (blank >? Z.of_nat V - 1)%Z = false) by lia.
    unfold run_greedy. rewrite run_fin. unfold greedy_body, greedy_vars. hide_names.
    (* if logits.dim() != 3 *)
    sif. rewrite method_enc_f, ext_dim_f. cbn. rewrite cmp_ne_int, Hsh. cbn.
    rewrite exec_pass. cbn.
    (* V = logits.size(2) *)
    sassign. rewrite method_enc_f, (ext_size_f lsm mn L0 2 2) by (rewrite Hsh; reflexivity). rewrite Hsh. cbn [nth]. cbn.
    (* if blank_idx < -V or blank_idx > V - 1 *)
    sif. rewrite cmp_lt_int, Hlo. cbn.
    rewrite cmp_gt_int, Hhi. cbn. rewrite exec_pass. cbn.
    (* blank_idx = (blank_idx + V) % V *)
    sassign. rewrite HV. cbn. rewrite <- Hbz.
    (* if not is_probs: logits = logits.log_softmax(2) *)
    sif. merge_if "logits" (enc_f L1).
    { subst L1. destruct ip; cbn [negb]; [apply exec_pass|]. rewrite exec_assign1. cbn.
      rewrite method_enc_f, (ext_lsm_m lsm mn L0 2 2); [reflexivity| | |]; unfold rank; rewrite ?Hlsm, ?Hsh by reflexivity;
        try reflexivity; apply nats_eqb_refl. }
    (* if not batch_first: logits = logits.transpose(0, 1) *)
    sif. merge_if "logits" (enc_f L2).
    { destruct bf; cbn [negb]; [injection HL2 as <-; apply exec_pass|]. rewrite exec_assign1. cbn.
      rewrite method_enc_f, ext_transpose_f. ret HL2. reflexivity. }
    (* max_, argmax = logits.max(2) *)
    sassign. rewrite method_enc_f, ext_max_f, Hmax. cbn.
    sassign. rewrite subscript_pair_0. cbn. sassign. rewrite subscript_pair_1. cbn.
    (* keep_mask = argmax != blank_idx *)
    sassign. rewrite foreign_enc_i. cbn. rewrite ext_ne_s. cbn.
    (* keep_mask_ = keep_mask[:, 1:] & (argmax[:, 1:] != argmax[:, :-1]) *)
    sassign. rewrite subscript_b_tuple, (ext_cols_b lsm mn _ (VInt 1) VNone (Some 1%Z) None) by reflexivity. ret Hk1.
    rewrite subscript_i_tuple, (ext_cols_i lsm mn _ (VInt 1) VNone (Some 1%Z) None) by reflexivity. ret Ha1.
    rewrite subscript_i_tuple, (ext_cols_i lsm mn _ VNone (VInt (-1)) None (Some (-1)%Z)) by reflexivity. ret Ha0.
    rewrite foreign_enc_i. cbn. rewrite ext_ne_t. ret Hd. rewrite binop_and_enc, ext_and. ret Hk_.
    (* keep_mask = torch.cat([keep_mask[:, :1], keep_mask_], 1) *)
    sassign. rewrite subscript_b_tuple, (ext_cols_b lsm mn _ VNone (VInt 1) None (Some 1%Z)) by reflexivity. ret Hkf.
    rewrite ext_cat_b. ret Hkm.
    (* seq_size = argmax.size(1) *)
    sassign. rewrite method_enc_i, (ext_size_i lsm mn am 1 1) by (rewrite Ham; reflexivity). rewrite Ham. cbn.
    (* if in_lens is not None: in_len_mask = arange(seq_size).unsqueeze(0) < in_lens.unsqueeze(1);
       keep_mask = keep_mask & in_len_mask; max_ = max_.masked_fill(~in_len_mask, 1.0 if is_probs else 0.0) *)
    sif. destruct il as [l|]; cbn [opt_tensor_i].
    2: destruct Hil as [-> ->]; rewrite cmp_isnot_none; cbn; rewrite exec_pass; cbn.
    1: destruct Hil as (l' & im & Hl' & Him & Hkm' & Hmx'); rewrite cmp_isnot_enc_i; cbn.
    1: sassign; rewrite attribute_enc_i; cbn; rewrite ext_device_i; cbn; rewrite ext_arange_dev, arange_nat; cbn.
    1: rewrite method_enc_i, ext_unsqueeze_i, unsqueeze_1_0; cbn; rewrite method_enc_i, ext_unsqueeze_i; ret Hl'.
    1: rewrite foreign_enc_i; cbn; rewrite ext_lt_t; ret Him.
    1: sassign; rewrite binop_and_enc, ext_and; ret Hkm'.
    1: sif; merge_if "max_" (enc_f mx').
    1: destruct ip; rewrite exec_assign1; cbn; rewrite ext_invert; cbn; rewrite method_enc_f, ext_mfill_f; ret Hmx'; reflexivity.
    (* out_lens = keep_mask.long().sum(1) *)
    all: sassign; rewrite method_enc_b, ext_long; cbn; rewrite method_enc_i, ext_sum_i; ret Hol.
    (* data = argmax.masked_select(keep_mask) *)
    all: sassign; rewrite method_enc_i, ext_mselect; ret Hdata.
    (* out_len_mask = arange(seq_size).unsqueeze(0) < out_lens.unsqueeze(1) *)
    all: sassign; rewrite attribute_enc_i; cbn; rewrite ext_device_i; cbn; rewrite ext_arange_dev, arange_nat; cbn.
    all: rewrite method_enc_i, ext_unsqueeze_i, unsqueeze_1_0; cbn; rewrite method_enc_i, ext_unsqueeze_i; ret Hol'.
    all: rewrite foreign_enc_i; cbn; rewrite ext_lt_t; ret Hom.
    (* max_ = max_.prod(1) if is_probs else max_.sum(1) *)
    all: sif; merge_if "max_" (enc_f sc);
      [ destruct ip; rewrite exec_assign1; cbn; rewrite method_enc_f; [rewrite ext_prod|rewrite ext_sum_f]; ret Hsc; reflexivity | ].
    (* argmax = argmax.masked_scatter_(out_len_mask, data) *)
    all: sassign; rewrite method_enc_i, ext_mscatter; ret Ham'.
    (* if not batch_first: argmax = argmax.t() *)
    all: sif; merge_if "argmax" (enc_i am'');
      [ destruct bf; cbn [negb]; [injection Ham'' as <-; apply exec_pass|];
        rewrite exec_assign1; cbn; rewrite method_enc_i, (ext_t_i lsm mn) by assumption; ret Ham''; reflexivity | ].
    all: sreturn; eexists; reflexivity.
  Qed.

  (* blank index out of range: `raise RuntimeError`, whatever the other arguments are *)
  Lemma greedy_run_raises : forall (L0 : tn xq) il blank (bf ip : bool),
    List.length (shp L0) = 3%nat ->
    (blank < - Z.of_nat (nth 2 (shp L0) 0%nat) \/ Z.of_nat (nth 2 (shp L0) 0%nat) - 1 < blank)%Z ->
    exists st, run_greedy lsm mn L0 il blank bf ip = Exc runtime_error st.
  Proof.
    intros L0 il blank bf ip Hlen Hb. unfold run_greedy. rewrite run_fin. unfold greedy_body, greedy_vars.
    sif. rewrite method_enc_f, ext_dim_f. cbn. rewrite cmp_ne_int, Hlen. cbn.
    rewrite exec_pass. cbn.
    sassign. rewrite method_enc_f, (ext_size_f lsm mn L0 2 2) by (rewrite Hlen; reflexivity). cbn.
    sif. rewrite cmp_lt_int. destruct (blank <? - Z.of_nat (nth 2 (shp L0) 0%nat))%Z eqn:E1; cbn.
    - rewrite exec_raise. cbn. eexists. reflexivity.
    - rewrite cmp_gt_int. replace (blank >? Z.of_nat (nth 2 (shp L0) 0%nat) - 1)%Z with true by lia. cbn.
      rewrite exec_raise. cbn. eexists. reflexivity.
  Qed.

  (* ---- against ModelB.ctc_greedy_g: every float value (rationals and -inf) ------------------------------------------ *)
  Definition greedy_result (bf : bool) (N T : nat) (g : @ModelB.greedy_out_g xq) : val :=
    VTuple [enc_f (mkTn [N] (ModelB.gg_score g));
            enc_i (paths2 bf N T (fun n t => Z.of_nat (nth t (nth n (ModelB.gg_paths g) []) 0%nat)));
            enc_i (mkTn [N] (map Z.of_nat (ModelB.gg_lens g)))].

  Theorem greedy_tie : forall (L0 : tn xq) N T V (lp : list (list (list xq))) in_lens blank (bf ip : bool),
    shp L0 = (if bf then [N; T; V] else [T; N; V]) ->
    (if ip then L0 else lsm L0) = logits3 bf N T V (lp3 xzero lp) ->
    wf_lp N T V lp ->
    (forall ls, in_lens = Some ls -> List.length ls = N) ->
    (ip = true -> all_fin3 lp = true) ->
    match ModelB.ctc_greedy_g xltb xadd xmul xzero xone xone ip (Z.of_nat V) blank T in_lens lp with
    | Some g => exists st, run_greedy lsm mn L0 (in_lens_tensor in_lens) blank bf ip = Ok (greedy_result bf N T g) st
    | None => exists st, run_greedy lsm mn L0 (in_lens_tensor in_lens) blank bf ip = Exc runtime_error st
    end.
  Proof.
    intros L0 N T V lp in_lens blank bf ip Hsh HL Hwf Hil Hfin.
    assert (Hlen : List.length (shp L0) = 3%nat) by (rewrite Hsh; destruct bf; reflexivity).
    assert (HV : nth 2 (shp L0) 0%nat = V) by (rewrite Hsh; destruct bf; reflexivity).
    destruct ((blank <? - Z.of_nat V)%Z || (Z.of_nat V - 1 <? blank)%Z) eqn:Hb;
      [unfold ModelB.ctc_greedy_g; rewrite Hb; apply greedy_run_raises; [assumption|rewrite HV; lia]|].
    pose proof (TieBModel.ctc_greedy_g_tab N T V (lp3 xzero lp) (Z.to_nat ((blank + Z.of_nat V) mod Z.of_nat V)) in_lens ip Hil blank
                  ltac:(lia) eq_refl) as Hm.
    rewrite (lp_of_lp3 N T V lp Hwf) in Hm. rewrite Hm. clear Hm.
    unfold greedy_result. cbn [ModelB.gg_score ModelB.gg_paths ModelB.gg_lens]. rewrite map_map.
    (* the tabulated values into [greedy_ops_run] *)
    set (f := lp3 xzero lp). set (b := Z.to_nat ((blank + Z.of_nat V) mod Z.of_nat V)).
    assert (Hb' : (- Z.of_nat V <= blank <= Z.of_nat V - 1)%Z) by lia. assert (HV0 : V <> 0%nat) by lia.
    assert (Hsh' : exists A B, shp L0 = [A; B; V]) by (destruct bf; eauto). destruct Hsh' as (A & B & Hsh').
    set (am := fun n t => Z.of_nat (TieBModel.amf V f n t)).
    set (mx' := fun n t => if TieBModel.inm in_lens n t then TieBModel.mxf V f n t else TieBModel.fillv ip).
    eapply (greedy_ops_run L0 (logits3 bf N T V f) (mkTn [N; T; V] (tab3 N T V f)) (mkTn [N; T] (tab2 N T (TieBModel.mxf V f)))
              (mkTn [N; T] (tab2 N T mx')) _ (mkTn [N; T] (tab2 N T am)) _ _ _ _ _
              (mkTn [N; T] (tab2 N T (fun n t => Z.of_nat (nth t (nth n (TieBModel.paths_tab N T V f b in_lens) []) 0%nat)))) _
              _ _ _ _ (mkTn [N; T] (tab2 N T (TieBModel.keep0f V f b))) (mkTn [N; T] (tab2 N T (TieBModel.keepf V f b in_lens))) _
              (in_lens_tensor in_lens) blank (Z.of_nat b) bf ip A B V N T Hsh' Hb').
    all: cycle 1.
    - now symmetry.
    - intros ->. rewrite HL, Hsh. unfold logits3. destruct bf; reflexivity.
    - unfold logits3. destruct bf; [reflexivity|apply transpose01_3].
    - now apply max_last_3.
    - unfold ne_s, cmp_scalar. cbn [shp dat]. rewrite map_tab2. apply slice_cols_from1.
    - apply slice_cols_from1.
    - apply slice_cols_to_m1.
    - unfold ne_t, zip_same. cbn [shp dat]. rewrite nats_eqb_refl, zipw_tab2. reflexivity.
    - unfold band, zip_same. cbn [shp dat]. rewrite nats_eqb_refl, zipw_tab2. reflexivity.
    - unfold ne_s, cmp_scalar. cbn [shp dat]. rewrite map_tab2. apply slice_cols_to1.
    - rewrite cat2_first_rest. do 2 f_equal. apply tab2_ext. intros n j Hn Hj.
      unfold TieBModel.keep0f, am. destruct j as [|j]; cbn [Nat.ltb Nat.leb]; [rewrite andb_true_r; f_equal; lia|].
      replace (S j - 1)%nat with j by lia. f_equal; f_equal; lia.
    - reflexivity.
    - destruct in_lens as [ls|]; cbn [in_lens_tensor option_map].
      + replace (mkTn [List.length ls] ls) with (mkTn [N] (map (fun n => nth n ls 0%Z) (seq 0 N)))
          by (rewrite (Hil ls eq_refl); f_equal; symmetry; now apply list_as_map_nth, Hil).
        eexists _, _. split; [apply unsqueeze_1_1|]. split; [apply lt_t_row_col|].
        unfold band, masked_fill, bnot, zip_same. cbn [shp dat].
        rewrite nats_eqb_refl, zipw_tab2, map_tab2, zipw_tab2. split; do 2 f_equal; apply tab2_ext; intros n t Hn Ht.
        unfold mx', TieBModel.inm, TieBModel.fillv. destruct (Z.of_nat t <? nth n ls 0)%Z, ip; reflexivity.
      + split; f_equal; apply tab2_ext; intros n t Hn Ht.
        unfold TieBModel.keepf, TieBModel.inm. now rewrite andb_true_r.
    - unfold to_long. cbn [shp dat]. rewrite map_tab2, sum_long_2. do 2 f_equal. apply map_ext_seq. intros n Hn.
      unfold TieBModel.olen. now rewrite <- TieBModel.sumn_b2n_Z, map_map.
    - apply masked_select_same.
    - apply unsqueeze_1_1.
    - apply lt_t_row_col.
    - destruct ip; [rewrite prod_dim_2|rewrite sum_dim_2]; try reflexivity.
      intros n t Hn Ht. unfold mx'. destruct (TieBModel.inm in_lens n t); [|reflexivity].
      apply xargmax_fin, (all_fin3_row N T V lp n t Hwf (Hfin eq_refl) Hn Ht).
    - rewrite masked_scatter_same. unfold am. now rewrite (TieBModel.greedy_scatter_tab N T V f b in_lens).
    - reflexivity.
    - unfold paths2. destruct bf; [reflexivity|apply transpose01_2].
    - lia.
  Qed.

  (* ---- floats that are integers: Model.ctc_greedy itself, and the model theorem ----------------------------------------- *)
  Definition greedy_result_Z (bf : bool) (N T : nat) (g : Model.greedy_out) : val :=
    VTuple [enc_f (mkTn [N] (map zq (Model.g_score g)));
            enc_i (paths2 bf N T (fun n t => Z.of_nat (nth t (nth n (Model.g_paths g) []) 0%nat)));
            enc_i (mkTn [N] (map Z.of_nat (Model.g_lens g)))].

  Definition zq3 (lp : list (list (list Z))) : list (list (list xq)) := map (map (map zq)) lp.

  Lemma wf_lp_map : forall {X Y} (h : X -> Y) N T V lp, wf_lp N T V lp -> wf_lp N T V (map (map (map h)) lp).
  Proof.
    intros X Y h N T V lp [HN Hfr]. split; [now rewrite map_length|].
    intros fr Hin. apply in_map_iff in Hin. destruct Hin as [fr0 [<- Hin]]. destruct (Hfr _ Hin) as [HT Hrow].
    split; [now rewrite map_length|]. intros row Hr. apply in_map_iff in Hr. destruct Hr as [r0 [<- Hr]].
    rewrite map_length. now apply Hrow.
  Qed.

  Lemma all_fin3_zq : forall lp, all_fin3 (zq3 lp) = true.
  Proof.
    intros lp. unfold all_fin3, zq3. apply forallb_forall. intros fr Hfr. apply in_map_iff in Hfr. destruct Hfr as [fr0 [<- _]].
    apply forallb_forall. intros row Hr. apply in_map_iff in Hr. destruct Hr as [r0 [<- _]].
    apply forallb_forall. intros x Hx. apply in_map_iff in Hx. destruct Hx as [z0 [<- _]]. reflexivity.
  Qed.

  Theorem greedy_tie_Z : forall (L0 : tn xq) N T V (lp : list (list (list Z))) in_lens blank (bf ip : bool),
    shp L0 = (if bf then [N; T; V] else [T; N; V]) ->
    (if ip then L0 else lsm L0) = logits3 bf N T V (lp3 xzero (zq3 lp)) ->
    wf_lp N T V lp ->
    (forall ls, in_lens = Some ls -> List.length ls = N) ->
    match Model.ctc_greedy ip 1%Z (Z.of_nat V) blank T in_lens lp with
    | Some g => exists st, run_greedy lsm mn L0 (in_lens_tensor in_lens) blank bf ip = Ok (greedy_result_Z bf N T g) st
    | None => exists st, run_greedy lsm mn L0 (in_lens_tensor in_lens) blank bf ip = Exc runtime_error st
    end.
  Proof.
    intros L0 N T V lp in_lens blank bf ip Hsh HL Hwf Hil.
    pose proof (greedy_tie L0 N T V (zq3 lp) in_lens blank bf ip Hsh HL (wf_lp_map zq N T V lp Hwf) Hil (fun _ => all_fin3_zq lp)) as H.
    unfold zq3 in H. rewrite TieBModel.ctc_greedy_g_zq in H.
    destruct (Model.ctc_greedy ip 1%Z (Z.of_nat V) blank T in_lens lp) as [g|]; exact H.
  Qed.

  (* composed with ProofsGreedy.greedy_correct: purely about the interpreted source - it returns, per batch element, the
     frame-wise best labels within the valid length with repeats and blanks removed, their number, and the summed (or
     multiplied) frame maxima *)
  Theorem source_greedy_correct : forall (L0 : tn xq) N T V (lp : list (list (list Z))) in_lens blank (bf ip : bool),
    shp L0 = (if bf then [N; T; V] else [T; N; V]) ->
    (if ip then L0 else lsm L0) = logits3 bf N T V (lp3 xzero (zq3 lp)) ->
    wf_lp N T V lp ->
    (forall ls, in_lens = Some ls -> List.length ls = N) ->
    (- Z.of_nat V <= blank <= Z.of_nat V - 1)%Z ->
    let b := Spec.norm_blank (Z.of_nat V) blank in
    let ll := Spec.eff_lens T in_lens N in
    exists g st, run_greedy lsm mn L0 (in_lens_tensor in_lens) blank bf ip = Ok (greedy_result_Z bf N T g) st /\
      Model.g_lens g = Model.map2 (fun l fr => List.length (Spec.row_path b T l fr)) ll lp /\
      Model.map2 (fun l p => firstn l p) (Model.g_lens g) (Model.g_paths g) = Model.map2 (Spec.row_path b T) ll lp /\
      Model.g_score g = Model.map2 (Spec.row_score ip 1%Z T) ll lp.
  Proof.
    intros L0 N T V lp in_lens blank bf ip Hsh HL Hwf Hil Hb b ll.
    pose proof (greedy_tie_Z L0 N T V lp in_lens blank bf ip Hsh HL Hwf Hil) as H.
    destruct Hwf as [HN Hfr].
    destruct (ProofsGreedy.greedy_correct ip 1%Z (Z.of_nat V) blank T in_lens lp Hb
                (fun fr Hin => proj1 (Hfr fr Hin)) ltac:(intros ls Hls; rewrite HN; now apply Hil)) as [g [Hg [H1 [H2 H3]]]].
    rewrite Hg in H. destruct H as [st Hst]. exists g, st. rewrite HN in *. repeat split; assumption.
  Qed.
End Tie.
