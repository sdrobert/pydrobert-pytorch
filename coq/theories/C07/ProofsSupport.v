(* C07 - the wrapper's enumerated support: what it contains, that it has no duplicates, that
   the probabilities over it sum to one, and that samples lie in it. *)
From Coq Require Import List ZArith Bool Arith Lia ZifyBool QArith Permutation Sorted FinFun.
From PV Require Import C07.Model C07.Spec C07.Lib C07.ProofsSlp C07.ProofsWalk.
Import ListNotations.
Local Open Scope nat_scope.

(* ---------- enumerate_vocab_sequences --------------------------------------------------------- *)

Lemma enum_seqs_in T V : forall s,
  In s (enum_seqs T V) <-> length s = T /\ forallb (in_vocab (Z.of_nat V)) s = true.
Proof.
  induction T as [|T IH]; intros s; cbn [enum_seqs].
  - split.
    + intros [<-|[]]. split; reflexivity.
    + intros [Hl _]. destruct s; [left; reflexivity|discriminate].
  - rewrite in_flat_map. split.
    + intros (d & Hd & Hin). apply in_map_iff in Hin as (r & <- & Hr).
      apply IH in Hr as [Hl Hv]. apply in_seq in Hd. split.
      * rewrite app_length. cbn. lia.
      * rewrite forallb_app, Hv. cbn. unfold in_vocab. lia.
    + intros [Hl Hv]. destruct (exists_last (l := s)) as (r & k & ->); [destruct s; discriminate|].
      rewrite app_length in Hl. cbn in Hl. rewrite forallb_app in Hv.
      apply andb_true_iff in Hv as [Hv1 Hv2]. cbn in Hv2. unfold in_vocab in Hv2.
      exists (Z.to_nat k). split; [apply in_seq; lia|].
      apply in_map_iff. exists r. split; [rewrite Z2Nat.id by lia; reflexivity|].
      apply IH. split; [lia|exact Hv1].
Qed.

(* ---------- fill_after_eos ------------------------------------------------------------------------ *)

Fixpoint fill_rec (e : Z) (s : list Z) : list Z :=
  match s with
  | [] => []
  | k :: t => if (k =? e)%Z then k :: map (fun _ => e) t else k :: fill_rec e t
  end.

Definition fill_gen (e : Z) (a b : nat) (s : list Z) : list Z :=
  map2 (fun x k => if 1 <? x then e else k)
       (cumsum_from b (map (fun x => Nat.min x 1) (cumsum_from a (map (fun k => b2n (k =? e)%Z) s)))) s.

Lemma fill_gen_after e : forall s a b, 1 <= a -> 1 <= b -> fill_gen e a b s = map (fun _ => e) s.
Proof.
  induction s as [|k t IH]; intros a b Ha Hb; [reflexivity|].
  unfold fill_gen in *. cbn [map cumsum_from map2].
  replace (Nat.min (a + b2n (k =? e)%Z) 1) with 1 by lia.
  replace (1 <? b + 1) with true by (symmetry; apply Nat.ltb_lt; lia).
  f_equal. apply IH; lia.
Qed.

Lemma fill_gen_before e : forall s, fill_gen e 0 0 s = fill_rec e s.
Proof.
  induction s as [|k t IH]; [reflexivity|].
  unfold fill_gen in *. cbn [map cumsum_from map2 fill_rec]. cbn [Nat.add].
  destruct (k =? e)%Z; cbn [b2n Nat.min Nat.add Nat.ltb Nat.leb]; f_equal.
  - apply (fill_gen_after e t 1 1); lia.
  - exact IH.
Qed.

Lemma fill_after_eos_rec e s : fill_after_eos e s = fill_rec e s.
Proof. exact (fill_gen_before e s). Qed.

Lemma fill_rec_length e s : length (fill_rec e s) = length s.
Proof.
  induction s as [|k t IH]; [reflexivity|]. cbn. destruct (k =? e)%Z; cbn; [now rewrite map_length|now rewrite IH].
Qed.

Lemma fill_rec_canonical e s : canonical e (fill_rec e s) = true.
Proof.
  induction s as [|k t IH]; [reflexivity|]. cbn. destruct (k =? e)%Z eqn:E; cbn; rewrite E; [|exact IH].
  apply forallb_forall. intros x Hx. apply in_map_iff in Hx as (y & <- & _). apply Z.eqb_refl.
Qed.

Lemma fill_rec_fix e s : canonical e s = true -> fill_rec e s = s.
Proof.
  induction s as [|k t IH]; intros H; [reflexivity|]. cbn in *. destruct (k =? e)%Z.
  - f_equal. rewrite forallb_forall in H. clear IH. induction t as [|x t IHt]; [reflexivity|].
    cbn. rewrite IHt by (intros y Hy; apply H; now right). f_equal.
    apply Z.eqb_eq. apply H. now left.
  - f_equal. apply IH. exact H.
Qed.

Lemma fill_rec_vocab V e s : forallb (in_vocab V) s = true -> forallb (in_vocab V) (fill_rec e s) = true.
Proof.
  induction s as [|k t IH]; intros H; [reflexivity|]. cbn in *.
  apply andb_true_iff in H as [Hk Ht]. destruct (k =? e)%Z eqn:E; cbn; rewrite Hk; cbn.
  - apply Z.eqb_eq in E. subst k. apply forallb_forall. intros x Hx.
    apply in_map_iff in Hx as (y & <- & _). exact Hk.
  - apply IH. exact Ht.
Qed.

(* ---------- torch.unique(dim=0) ---------------------------------------------------------------------- *)

Lemma lex_cmp_eq : forall a b, lex_cmp a b = Eq <-> a = b.
Proof.
  induction a as [|x a IH]; intros [|y b]; cbn; split; intros H; try discriminate; try reflexivity.
  - destruct (Z.compare_spec x y) as [->|?|?]; try discriminate. f_equal. apply IH. exact H.
  - injection H as -> ->. rewrite Z.compare_refl. apply IH. reflexivity.
Qed.

Lemma lex_cmp_antisym : forall a b, lex_cmp b a = CompOpp (lex_cmp a b).
Proof.
  induction a as [|x a IH]; intros [|y b]; cbn; try reflexivity.
  rewrite (Z.compare_antisym x y). destruct (x ?= y)%Z; cbn; [apply IH|reflexivity|reflexivity].
Qed.

Lemma lex_cmp_trans : forall a b c, lex_cmp a b = Lt -> lex_cmp b c = Lt -> lex_cmp a c = Lt.
Proof.
  induction a as [|x a IH]; intros [|y b] [|z c] H1 H2; cbn in *; try discriminate; try reflexivity.
  destruct (Z.compare_spec x y) as [->|Hxy|Hxy]; try discriminate.
  - destruct (y ?= z)%Z; try discriminate; [apply (IH b c H1 H2)|reflexivity].
  - destruct (Z.compare_spec y z) as [->|Hyz|Hyz]; try discriminate.
    + apply Z.compare_lt_iff in Hxy. rewrite Hxy. reflexivity.
    + assert (Hxz : (x < z)%Z) by lia. apply Z.compare_lt_iff in Hxz. rewrite Hxz. reflexivity.
Qed.

Definition lex_lt (a b : list Z) : Prop := lex_cmp a b = Lt.

Lemma insert_uniq_in r : forall l x, In x (insert_uniq r l) <-> x = r \/ In x l.
Proof.
  induction l as [|y l IH]; intros x; cbn.
  - intuition.
  - destruct (lex_cmp r y) eqn:E; cbn.
    + apply lex_cmp_eq in E. subst y. intuition.
    + intuition.
    + rewrite IH. intuition.
Qed.

Lemma insert_uniq_sorted r : forall l, StronglySorted lex_lt l -> StronglySorted lex_lt (insert_uniq r l).
Proof.
  induction l as [|y l IH]; intros H; cbn.
  - constructor; constructor.
  - destruct (lex_cmp r y) eqn:E.
    + exact H.
    + constructor; [exact H|]. constructor; [exact E|].
      apply StronglySorted_inv in H as [_ Hy]. rewrite Forall_forall in *. intros z Hz.
      apply (lex_cmp_trans r y z E). apply Hy. exact Hz.
    + apply StronglySorted_inv in H as [Hl Hy]. constructor; [apply IH; exact Hl|].
      rewrite Forall_forall in *. intros z Hz. apply insert_uniq_in in Hz as [->|Hz].
      * unfold lex_lt. rewrite lex_cmp_antisym, E. reflexivity.
      * apply Hy. exact Hz.
Qed.

Lemma unique_rows_in l x : In x (unique_rows l) <-> In x l.
Proof.
  induction l as [|r l IH]; cbn; [reflexivity|]. rewrite insert_uniq_in, IH. intuition.
Qed.

Lemma unique_rows_sorted l : StronglySorted lex_lt (unique_rows l).
Proof. induction l as [|r l IH]; cbn; [constructor|apply insert_uniq_sorted; exact IH]. Qed.

Lemma sorted_nodup l : StronglySorted lex_lt l -> NoDup l.
Proof.
  induction l as [|x l IH]; intros H; [constructor|].
  apply StronglySorted_inv in H as [Hl Hx]. constructor; [|apply IH; exact Hl].
  intros Hin. rewrite Forall_forall in Hx. specialize (Hx x Hin).
  unfold lex_lt in Hx. assert (E : lex_cmp x x = Eq) by (apply lex_cmp_eq; reflexivity). congruence.
Qed.

Theorem support_characterised eos T V s :
  In s (enumerate_support eos T V) <-> in_support eos T (Z.of_nat V) s = true.
Proof.
  unfold enumerate_support, in_support. destruct eos as [e|].
  - rewrite unique_rows_in, in_map_iff. split.
    + intros (u & <- & Hu). apply enum_seqs_in in Hu as [Hl Hv].
      rewrite fill_after_eos_rec, fill_rec_length, Hl, Nat.eqb_refl, fill_rec_vocab, fill_rec_canonical by exact Hv.
      reflexivity.
    + intros H. apply andb_true_iff in H as [H Hc]. apply andb_true_iff in H as [Hl Hv].
      apply Nat.eqb_eq in Hl. exists s. split; [rewrite fill_after_eos_rec; apply fill_rec_fix; exact Hc|].
      apply enum_seqs_in. split; assumption.
  - rewrite enum_seqs_in, andb_true_r, andb_true_iff, Nat.eqb_eq. reflexivity.
Qed.

Lemma support_nodup_eos e T V : NoDup (enumerate_support (Some e) T V).
Proof. apply sorted_nodup, unique_rows_sorted. Qed.

(* ---------- the canonical list of support members, built from the first token --------------------- *)

Fixpoint canonL (e : Z) (T V : nat) : list (list Z) :=
  match T with
  | 0 => [[]]
  | S T' => flat_map (fun v => if (Z.of_nat v =? e)%Z then [repeat e (S T')]
                               else map (cons (Z.of_nat v)) (canonL e T' V)) (seq 0 V)
  end.

Lemma forallb_eqb_repeat e : forall s, forallb (Z.eqb e) s = true -> s = repeat e (length s).
Proof.
  induction s as [|k t IH]; intros H; [reflexivity|]. cbn in *.
  apply andb_true_iff in H as [Hk Ht]. apply Z.eqb_eq in Hk. subst k. f_equal. apply IH. exact Ht.
Qed.

Lemma in_vocab_of_nat V v : v < V -> in_vocab (Z.of_nat V) (Z.of_nat v) = true.
Proof. unfold in_vocab. lia. Qed.

Lemma canonL_in e V : forall T s,
  In s (canonL e T V) <-> in_support (Some e) T (Z.of_nat V) s = true.
Proof.
  unfold in_support. induction T as [|T IH]; intros s; cbn [canonL].
  - split.
    + intros [<-|[]]. reflexivity.
    + destruct s; [left; reflexivity|discriminate].
  - rewrite in_flat_map. split.
    + intros (v & Hv & Hin). apply in_seq in Hv.
      pose proof (in_vocab_of_nat V v ltac:(lia)) as Hiv.
      destruct (Z.eqb_spec (Z.of_nat v) e) as [He|He].
      * destruct Hin as [<-|[]]. rewrite repeat_length, Nat.eqb_refl. rewrite <- He in *.
        rewrite forallb_repeat by exact Hiv. cbn [repeat canonical]. rewrite Z.eqb_refl.
        apply forallb_repeat. apply Z.eqb_refl.
      * apply in_map_iff in Hin as (s' & <- & Hs'). apply IH in Hs'.
        apply andb_true_iff in Hs' as [H Hc]. apply andb_true_iff in H as [Hl Hvv].
        cbn [length forallb canonical]. rewrite Hiv, Hvv, Hc.
        apply Nat.eqb_eq in Hl. rewrite Hl, Nat.eqb_refl.
        destruct (Z.eqb_spec (Z.of_nat v) e); [contradiction|reflexivity].
    + intros H. apply andb_true_iff in H as [H Hc]. apply andb_true_iff in H as [Hl Hvv].
      apply Nat.eqb_eq in Hl. destruct s as [|k s']; [discriminate|].
      cbn in Hl, Hvv, Hc. apply andb_true_iff in Hvv as [Hk Hvv].
      unfold in_vocab in Hk. exists (Z.to_nat k). split; [apply in_seq; lia|]. rewrite Z2Nat.id by lia.
      destruct (Z.eqb_spec k e) as [->|He].
      * left. rewrite (forallb_eqb_repeat e s' Hc). cbn. f_equal. f_equal. lia.
      * apply in_map_iff. exists s'. split; [reflexivity|]. apply IH.
        rewrite Hvv, Hc. replace (length s') with T by lia. rewrite Nat.eqb_refl. reflexivity.
Qed.

Lemma NoDup_app' {X} (a b : list X) :
  NoDup a -> NoDup b -> (forall x, In x a -> ~ In x b) -> NoDup (a ++ b).
Proof.
  induction a as [|x a IH]; intros Ha Hb Hd; [exact Hb|].
  cbn. inversion Ha as [|? ? Hx Ha']; subst. constructor.
  - intros Hin. apply in_app_or in Hin as [Hin|Hin]; [contradiction|]. apply (Hd x); [now left|exact Hin].
  - apply IH; [exact Ha'|exact Hb|]. intros y Hy. apply Hd. now right.
Qed.

Lemma NoDup_flat_map {X Y} (f : X -> list Y) : forall l,
  NoDup l -> (forall x, In x l -> NoDup (f x)) ->
  (forall x y z, In x l -> In y l -> In z (f x) -> In z (f y) -> x = y) ->
  NoDup (flat_map f l).
Proof.
  induction l as [|a l IH]; intros Hl Hf Hd; [constructor|].
  cbn. inversion Hl as [|? ? Ha Hl']; subst. apply NoDup_app'.
  - apply Hf. now left.
  - apply IH; [exact Hl'| |]; intros; [apply Hf; now right|apply (Hd x y z); try (now right); assumption].
  - intros z Hz Hin. apply in_flat_map in Hin as (y & Hy & Hzy).
    assert (a = y) by (apply (Hd a y z); [now left|now right|exact Hz|exact Hzy]). subst y. contradiction.
Qed.

Lemma canonL_nodup e V : forall T, NoDup (canonL e T V).
Proof.
  induction T as [|T IH]; cbn [canonL]; [constructor; [intros []|constructor]|].
  apply NoDup_flat_map.
  - apply seq_NoDup.
  - intros v _. destruct (Z.of_nat v =? e)%Z; [constructor; [intros []|constructor]|].
    apply Injective_map_NoDup; [|exact IH]. intros a b H. injection H as ->. reflexivity.
  - intros v w z _ _ Hv Hw.
    assert (Hhd : forall u, In z (if (Z.of_nat u =? e)%Z then [repeat e (S T)]
                                 else map (cons (Z.of_nat u)) (canonL e T V)) ->
                            exists t, z = Z.of_nat u :: t).
    { intros u Hu. destruct (Z.eqb_spec (Z.of_nat u) e) as [He|He].
      - destruct Hu as [<-|[]]. exists (repeat e T). rewrite He. reflexivity.
      - apply in_map_iff in Hu as (t & <- & _). exists t. reflexivity. }
    destruct (Hhd v Hv) as (t1 & ->). destruct (Hhd w Hw) as (t2 & H). injection H as H _. lia.
Qed.

Lemma support_perm_canon e T V : Permutation (enumerate_support (Some e) T V) (canonL e T V).
Proof.
  apply NoDup_Permutation; [apply support_nodup_eos|apply canonL_nodup|].
  intros s. rewrite support_characterised, canonL_in. reflexivity.
Qed.

Local Open Scope Q_scope.

Lemma sumQ_cons x l : sumQ (x :: l) = x + sumQ l.
Proof. reflexivity. Qed.
Lemma sumQ_nil : sumQ [] = 0.
Proof. reflexivity. Qed.

Lemma sumQ_app a b : sumQ (a ++ b) == sumQ a + sumQ b.
Proof.
  induction a as [|x a IH]; cbn [app]; rewrite ?sumQ_cons, ?sumQ_nil; [ring|rewrite IH; ring].
Qed.

Lemma sumQ_perm {X} (f : X -> Q) l l' : Permutation l l' -> sumQ (map f l) == sumQ (map f l').
Proof.
  induction 1 as [|x l l' _ IH|x y l|l l' l'' _ IH1 _ IH2]; cbn [map]; rewrite ?sumQ_cons.
  - reflexivity.
  - rewrite IH. reflexivity.
  - ring.
  - rewrite IH1. exact IH2.
Qed.

Lemma sumQ_ext {X} (f g : X -> Q) l : (forall x, In x l -> f x == g x) -> sumQ (map f l) == sumQ (map g l).
Proof.
  induction l as [|x l IH]; intros H; cbn [map]; rewrite ?sumQ_cons; [reflexivity|].
  rewrite (H x) by (now left). rewrite IH by (intros; apply H; now right). reflexivity.
Qed.

Lemma sumQ_scale {X} (c : Q) (f : X -> Q) l : sumQ (map (fun x => c * f x) l) == c * sumQ (map f l).
Proof.
  induction l as [|x l IH]; cbn [map]; rewrite ?sumQ_cons, ?sumQ_nil; [ring|rewrite IH; ring].
Qed.

Lemma sumQ_flat_map {X Y} (g : Y -> Q) (f : X -> list Y) l :
  sumQ (map g (flat_map f l)) == sumQ (map (fun x => sumQ (map g (f x))) l).
Proof.
  induction l as [|x l IH]; cbn [flat_map map]; rewrite ?sumQ_cons; [reflexivity|].
  rewrite map_app, sumQ_app, IH. reflexivity.
Qed.

Lemma sumQ_plus {X} (f g : X -> Q) l :
  sumQ (map (fun x => f x + g x) l) == sumQ (map f l) + sumQ (map g l).
Proof.
  induction l as [|x l IH]; cbn [map]; rewrite ?sumQ_cons, ?sumQ_nil; [ring|rewrite IH; ring].
Qed.

Lemma sumQ_zero {X} (l : list X) : sumQ (map (fun _ => 0) l) == 0.
Proof. induction l as [|x l IH]; cbn [map]; rewrite ?sumQ_cons, ?sumQ_nil; [reflexivity|rewrite IH; ring]. Qed.

Lemma sumQ_swap {X Y} (f : X -> Y -> Q) lx ly :
  sumQ (map (fun x => sumQ (map (fun y => f x y) ly)) lx) ==
  sumQ (map (fun y => sumQ (map (fun x => f x y) lx)) ly).
Proof.
  induction lx as [|x lx IH]; cbn [map]; rewrite ?sumQ_cons, ?sumQ_nil.
  - rewrite sumQ_zero. reflexivity.
  - rewrite IH. rewrite <- sumQ_plus. apply sumQ_ext. intros y _. rewrite sumQ_cons. reflexivity.
Qed.

(* Q with multiplication is a monoid for Leibniz equality *)
Lemma Qmult_1_l_eq (x : Q) : Qmult 1 x = x.
Proof. destruct x as [n d]. unfold Qmult. cbn. destruct n; reflexivity. Qed.
Lemma Qmult_1_r_eq (x : Q) : Qmult x 1 = x.
Proof. destruct x as [n d]. unfold Qmult. cbn. rewrite Z.mul_1_r, Pos.mul_1_r. reflexivity. Qed.
Lemma Qmult_assoc_eq (x y z : Q) : Qmult x (Qmult y z) = Qmult (Qmult x y) z.
Proof. unfold Qmult. cbn. rewrite Z.mul_assoc, Pos.mul_assoc. reflexivity. Qed.

Section Mass.
  Variable p : list Z -> list Q.      (* extension probabilities after a prefix *)
  Variable V : nat.
  Hypothesis p_len : forall pre, length (p pre) = V.
  Hypothesis p_one : forall pre, sumQ (p pre) == 1.

  Definition rows_pre (pre s : list Z) : list (list Q) :=
    map (fun i => p (pre ++ firstn i s)) (seq 0 (length s)).

  Definition sprob (eos : option Z) (pre s : list Z) : Q :=
    spec_slp Qmult 1 (Z.of_nat V) eos (rows_pre pre s) s.

  Lemma rows_pre_cons pre k s : rows_pre pre (k :: s) = p pre :: rows_pre (pre ++ [k]) s.
  Proof.
    unfold rows_pre. cbn [length seq map firstn]. rewrite app_nil_r. f_equal.
    rewrite <- seq_shift, map_map. apply map_ext. intros i. cbn [firstn].
    rewrite <- app_assoc. reflexivity.
  Qed.

  Lemma sum_row pre : sumQ (map (fun v => nth v (p pre) 1) (seq 0 V)) == 1.
  Proof.
    rewrite <- (p_len pre). rewrite <- (list_eq_map_nth 1 (p pre)). apply p_one.
  Qed.

  Lemma mass_canonL e : forall T pre, sumQ (map (sprob (Some e) pre) (canonL e T V)) == 1.
  Proof.
    induction T as [|T IH]; intros pre; cbn [canonL].
    - cbn. ring.
    - rewrite sumQ_flat_map. rewrite <- (sum_row pre). apply sumQ_ext.
      intros v Hv. apply in_seq in Hv.
      pose proof (in_vocab_of_nat V v ltac:(lia)) as Hiv.
      destruct (Z.eqb_spec (Z.of_nat v) e) as [He|He].
      + cbn [map sumQ fold_right repeat]. unfold sprob. rewrite rows_pre_cons. cbn [spec_slp].
        rewrite <- He. rewrite Hiv, Z.eqb_refl, Nat2Z.id. ring.
      + rewrite map_map.
        rewrite (sumQ_ext _ (fun s' => nth v (p pre) 1 * sprob (Some e) (pre ++ [Z.of_nat v]) s')).
        * rewrite sumQ_scale, IH. ring.
        * intros s' _. unfold sprob. rewrite rows_pre_cons. cbn [spec_slp].
          rewrite Hiv, Nat2Z.id. destruct (Z.eqb_spec (Z.of_nat v) e); [contradiction|reflexivity].
  Qed.

  Lemma sprob_snoc r d : forallb (in_vocab (Z.of_nat V)) [d] = true ->
    sprob None [] (r ++ [d]) = Qmult (sprob None [] r) (nth (Z.to_nat d) (p r) 1).
  Proof.
    intros Hd. cbn in Hd. rewrite andb_true_r in Hd. unfold sprob.
    change (rows_pre [] (r ++ [d])) with (lm_rows (fun _ => p) 0 (r ++ [d])).
    change (rows_pre [] r) with (lm_rows (fun _ => p) 0 r).
    rewrite lm_rows_snoc.
    rewrite (spec_slp_snoc_open Qmult 1 Qmult_1_l_eq Qmult_1_r_eq Qmult_assoc_eq (Z.of_nat V) None)
      by (try exact I; apply lm_rows_length).
    rewrite Hd. reflexivity.
  Qed.

  Lemma mass_enum : forall T, sumQ (map (sprob None []) (enum_seqs T V)) == 1.
  Proof.
    induction T as [|T IH]; cbn [enum_seqs].
    - cbn. ring.
    - rewrite sumQ_flat_map.
      rewrite (sumQ_ext _ (fun d => sumQ (map (fun r => sprob None [] r * nth d (p r) 1) (enum_seqs T V)))).
      + rewrite <- (sumQ_swap (fun r d => sprob None [] r * nth d (p r) 1)).
        rewrite <- IH. apply sumQ_ext. intros r _. rewrite sumQ_scale, sum_row. ring.
      + intros d Hd. apply in_seq in Hd. rewrite map_map. apply sumQ_ext. intros r _.
        rewrite sprob_snoc by (cbn; rewrite in_vocab_of_nat by lia; reflexivity).
        rewrite Nat2Z.id. reflexivity.
  Qed.

  Lemma map2_const_l {X Y W} (g : Y -> W) : forall (l1 : list X) (l2 : list Y),
    length l1 = length l2 -> map2 (fun _ y => g y) l1 l2 = map g l2.
  Proof.
    induction l1 as [|x l1 IH]; intros [|y l2] H; try discriminate; [reflexivity|].
    cbn. f_equal. apply IH. cbn in H. lia.
  Qed.

  Lemma dist_log_prob_sprob eos value : (forall s, In s value -> s <> []) ->
    dist_log_prob Qmult 1 (fun _ => p) (Z.of_nat V) eos value = map (sprob eos []) value.
  Proof.
    intros Hne.
    rewrite (dist_log_prob_spec Qmult 1 Qmult_1_l_eq (fun _ => p) (Z.of_nat V) eos value Hne).
    apply (map2_const_l (sprob eos [])). apply seq_length.
  Qed.

  (* "the wrapper's probabilities over its enumerated support sum to one" *)
  Theorem support_mass_one eos T : (1 <= T)%nat ->
    sumQ (dist_log_prob Qmult 1 (fun _ => p) (Z.of_nat V) eos (enumerate_support eos T V)) == 1.
  Proof.
    intros HT. rewrite dist_log_prob_sprob.
    - destruct eos as [e|].
      + rewrite (sumQ_perm _ _ _ (support_perm_canon e T V)). apply mass_canonL.
      + apply mass_enum.
    - intros s Hs. apply support_characterised in Hs. unfold in_support in Hs.
      apply andb_true_iff in Hs as [Hs _]. apply andb_true_iff in Hs as [Hl _].
      apply Nat.eqb_eq in Hl. destruct s; [cbn in Hl; lia|discriminate].
  Qed.
End Mass.

Local Close Scope Q_scope.

Lemma first_eos_nth e : forall s i, first_eos e s = Some i -> nth i s 0%Z = e.
Proof.
  induction s as [|k t IH]; intros i H; [discriminate|]. cbn in H.
  destruct (Z.eqb_spec k e) as [->|]; [injection H as <-; reflexivity|].
  destruct (first_eos e t) as [j|]; [|discriminate]. injection H as <-. apply IH. reflexivity.
Qed.

(* a path within the limit that holds only eos after its first eos, padded with eos to the limit, is in the support
   as soon as it is full or has ended *)
Lemma pad_path_in_support eos T V col :
  forallb (in_vocab (Z.of_nat V)) col = true -> length col <= T ->
  (forall e, eos = Some e -> canonical e col = true) ->
  (length col = T \/ exists e i, eos = Some e /\ first_eos e col = Some i) ->
  in_support eos T (Z.of_nat V) (pad_path eos T col) = true.
Proof.
  intros Hvoc Hle Hcan HS. unfold in_support, pad_path. destruct eos as [e|].
  - specialize (Hcan e eq_refl). rewrite app_length, repeat_length.
    replace (length col + (T - length col)) with T by lia. rewrite Nat.eqb_refl.
    destruct (first_eos e col) as [i|] eqn:Hfe.
    + rewrite forallb_app, Hvoc, (canonical_pad e col i _ Hfe Hcan).
      rewrite forallb_repeat; [reflexivity|].
      rewrite <- (first_eos_nth e col i Hfe). rewrite forallb_forall in Hvoc. apply Hvoc.
      apply nth_In. apply (first_eos_lt e col i Hfe).
    + destruct HS as [HS|(e' & i & He & Hfe')]; [|congruence].
      rewrite HS, Nat.sub_diag. cbn [repeat]. rewrite app_nil_r, Hvoc, Hcan. reflexivity.
  - destruct HS as [HS|(e' & i & He & _)]; [|discriminate].
    rewrite HS, Nat.eqb_refl, Hvoc. reflexivity.
Qed.

Section Samples.
  Context {A : Type} (op : A -> A -> A) (unit : A).
  Hypothesis unit_l : forall x, op unit x = x.
  Hypothesis unit_r : forall x, op x unit = x.
  Hypothesis op_assoc : forall x y z, op x (op y z) = op (op x y) z.

  Theorem samples_in_support lm (V : nat) eos N T draws st :
    (forall d, In d draws -> draw_ok (Z.of_nat V) N d) ->
    walk op unit lm eos N (Some T) draws = Some st ->
    forall n, n < N -> In (pad_path eos T (column 0%Z n draws)) (enumerate_support eos T V).
  Proof.
    intros Hd Hw n Hn.
    destruct (walk_correct op unit unit_l unit_r op_assoc lm (Z.of_nat V) eos N (Some T) draws st Hd Hw)
      as (_ & _ & _ & Hm & Hstop & Hcol).
    destruct (Hcol n Hn) as (_ & _ & Hcan & Hfin). clear Hcol.
    pose proof (walk_fin_length op unit unit_l unit_r op_assoc lm (Z.of_nat V) eos N (Some T) draws st Hd Hw) as Hlf.
    apply support_characterised, pad_path_in_support; rewrite ?column_length.
    - apply forallb_forall. intros k Hk. unfold column in Hk.
      apply in_map_iff in Hk as (d & <- & Hin). apply (draw_ok_nth (Z.of_nat V) N d n (Hd d Hin) Hn).
    - apply Hm. reflexivity.
    - exact Hcan.
    - (* the walk stopped at the limit, or this path has ended *)
      destruct Hstop as [(m & Hm' & HS)|Hall]; [left; now injection Hm' as <-|right].
      apply Hfin, all_true_nth; [exact Hall|lia].
  Qed.
End Samples.
