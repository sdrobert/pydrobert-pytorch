(* C07 - ctc_greedy_search: argmax, repeat/blank removal, compaction and scores. *)
From Coq Require Import List ZArith Bool Arith Lia ZifyBool ZifyNat.
From PV Require Import C07.Model C07.Spec C07.Lib.
Import ListNotations.

(* ---------- argmax_first returns the first maximal entry --------------------------------- *)

Lemma argmax_from_spec : forall l pre best bi,
  bi < length pre -> nth bi pre 0%Z = best ->
  (forall j, j < length pre -> (nth j pre 0 <= best)%Z) ->
  (forall j, j < bi -> (nth j pre 0 < best)%Z) ->
  let '(v, r) := argmax_from best bi (length pre) l in is_best (pre ++ l) v r.
Proof.
  induction l as [|x t IH]; intros pre best bi Hbi Hnth Hle Hlt.
  - cbn. rewrite app_nil_r. repeat split; assumption.
  - cbn [argmax_from].
    assert (Hlen : length (pre ++ [x]) = S (length pre)) by (rewrite app_length; cbn; lia).
    replace (pre ++ x :: t) with ((pre ++ [x]) ++ t) by (rewrite <- app_assoc; reflexivity).
    rewrite <- Hlen.
    destruct (Z.ltb_spec best x) as [Hbx|Hbx].
    + apply IH.
      * lia.
      * rewrite app_nth2, Nat.sub_diag by lia. reflexivity.
      * intros j Hj. destruct (Nat.eq_dec j (length pre)) as [->|Hne].
        -- rewrite app_nth2, Nat.sub_diag by lia. cbn. lia.
        -- rewrite app_nth1 by lia. specialize (Hle j). lia.
      * intros j Hj. rewrite app_nth1 by lia. specialize (Hle j). lia.
    + apply IH.
      * lia.
      * rewrite app_nth1 by lia. exact Hnth.
      * intros j Hj. destruct (Nat.eq_dec j (length pre)) as [->|Hne].
        -- rewrite app_nth2, Nat.sub_diag by lia. cbn. lia.
        -- rewrite app_nth1 by lia. apply Hle. lia.
      * intros j Hj. rewrite app_nth1 by lia. apply Hlt. lia.
Qed.

Lemma argmax_first_spec row : row <> [] ->
  is_best row (fst (argmax_first row)) (snd (argmax_first row)).
Proof.
  destruct row as [|x t]; [congruence|]. intros _. unfold argmax_first.
  pose proof (argmax_from_spec t [x] x 0) as H. cbn [length] in H.
  destruct (argmax_from x 0 1 t) as [v r]. cbn [fst snd].
  apply H; cbn; try lia; try reflexivity.
  intros j Hj. destruct j; [lia|lia].
Qed.

(* ---------- prefix masks --------------------------------------------------------------------- *)

Definition pmask (l T : nat) : list bool := map (fun t => t <? l) (seq 0 T).

Lemma pmask_length l T : length (pmask l T) = T.
Proof. unfold pmask. now rewrite map_length, seq_length. Qed.

Lemma pmask_S l T : pmask l (S T) = (0 <? l) :: pmask (pred l) T.
Proof.
  unfold pmask. cbn [seq map]. f_equal.
  rewrite <- seq_shift, map_map. apply map_ext. intros a. destruct l; reflexivity.
Qed.

Lemma pmask_min l T : pmask (Nat.min T l) T = pmask l T.
Proof.
  unfold pmask. apply map_ext_in. intros a Ha. apply in_seq in Ha. lia.
Qed.

Lemma pmask_Z z T : map (fun t => (Z.of_nat t <? z)%Z) (seq 0 T) = pmask (Z.to_nat z) T.
Proof.
  unfold pmask. apply map_ext. intros a. lia.
Qed.

Lemma map_all_true {X} (f : X -> bool) : forall l,
  (forall a, In a l -> f a = true) -> map f l = repeat true (length l).
Proof.
  induction l as [|x l IH]; intros H; [reflexivity|].
  cbn. rewrite (H x) by (left; reflexivity). f_equal. apply IH. intros a Ha. apply H. now right.
Qed.

Lemma pmask_full T : repeat true T = pmask T T.
Proof.
  unfold pmask. rewrite map_all_true.
  - now rewrite seq_length.
  - intros a Ha. apply in_seq in Ha. apply Nat.ltb_lt. lia.
Qed.

(* ---------- keep mask = collapse --------------------------------------------------------------- *)

Fixpoint dedup_prev (p : nat) (l : list nat) : list nat :=
  match l with
  | [] => []
  | x :: t => if x =? p then dedup_prev x t else x :: dedup_prev x t
  end.

Lemma dedup_cons : forall t x, dedup (x :: t) = x :: dedup_prev x t.
Proof.
  induction t as [|y r IH]; intros x; [reflexivity|].
  change (dedup (x :: y :: r)) with (if x =? y then dedup (y :: r) else x :: dedup (y :: r)).
  rewrite IH. cbn [dedup_prev]. rewrite (Nat.eqb_sym y x).
  destruct (Nat.eqb_spec x y) as [->|Hne]; reflexivity.
Qed.

Definition dprev (prev : option nat) (l : list nat) : list nat :=
  match prev with None => dedup l | Some p => dedup_prev p l end.

Lemma select_keep b : forall am prev,
  select (keep_from b prev am) am = filter (fun a => negb (a =? b)) (dprev prev am).
Proof.
  induction am as [|a t IH]; intros prev; [destruct prev; reflexivity|].
  cbn [keep_from select]. rewrite IH. cbn [dprev].
  destruct prev as [p|]; cbn [dprev].
  - cbn [dedup_prev]. destruct (a =? p); cbn [negb andb].
    + rewrite andb_false_r. reflexivity.
    + rewrite andb_true_r. cbn [filter]. destruct (negb (a =? b)); reflexivity.
  - rewrite dedup_cons. rewrite andb_true_r. cbn [filter]. destruct (negb (a =? b)); reflexivity.
Qed.

Lemma keep_from_firstn b : forall am prev l,
  keep_from b prev (firstn l am) = firstn l (keep_from b prev am).
Proof.
  induction am as [|a t IH]; intros prev l; [destruct l; reflexivity|].
  destruct l; [reflexivity|]. cbn [firstn keep_from]. now rewrite IH.
Qed.

Lemma keep_from_length b : forall am prev, length (keep_from b prev am) = length am.
Proof. induction am as [|a t IH]; intros prev; cbn; [reflexivity|now rewrite IH]. Qed.

Lemma select_nil_r {X} (m : list bool) : select m (@nil X) = [].
Proof. destruct m; reflexivity. Qed.

Lemma select_pmask {X} : forall (am : list X) k l T,
  length k = length am -> length am = T ->
  select (map2 andb k (pmask l T)) am = select (firstn l k) (firstn l am).
Proof.
  induction am as [|a t IH]; intros k l T Hk HT.
  - rewrite select_nil_r. destruct l; cbn; rewrite ?select_nil_r; reflexivity.
  - destruct k as [|kk k']; [discriminate|]. destruct T as [|T']; [discriminate|].
    rewrite pmask_S. cbn [map2].
    destruct l as [|l'].
    + cbn [Nat.ltb Nat.leb andb]. rewrite andb_false_r. cbn [select pred firstn].
      rewrite (IH k' 0 T') by (cbn in *; lia). reflexivity.
    + cbn [pred]. replace (0 <? S l') with true by reflexivity. rewrite andb_true_r.
      cbn [firstn select]. rewrite (IH k' l' T') by (cbn in *; lia). reflexivity.
Qed.

Lemma count_select {X} : forall (k : list bool) (am : list X), length k = length am ->
  sumn (map b2n k) = length (select k am).
Proof.
  induction k as [|kk k IH]; intros [|a t] H; try discriminate; [reflexivity|].
  cbn [map sumn fold_right select]. change (fold_right Nat.add 0 (map b2n k)) with (sumn (map b2n k)).
  rewrite (IH t) by (cbn in H; lia). destruct kk; reflexivity.
Qed.

Lemma select_length_le {X} : forall (k : list bool) (am : list X), length (select k am) <= length am.
Proof.
  induction k as [|kk k IH]; intros [|a t]; cbn; try lia.
  destruct kk; cbn; specialize (IH t); lia.
Qed.

(* the row's kept labels are the collapse of the labels within the valid length *)
Lemma row_select b l T am : length am = T ->
  select (map2 andb (keep_from b None am) (pmask l T)) am = collapse b (firstn l am).
Proof.
  intros HT. rewrite (select_pmask am _ l T) by (rewrite ?keep_from_length; lia).
  rewrite <- keep_from_firstn, select_keep. reflexivity.
Qed.

(* ---------- compaction by masked_scatter ------------------------------------------------------- *)

Lemma mscatter_false {X} : forall (dst src : list X) T,
  mscatter (pmask 0 T) src dst = (dst, src).
Proof.
  induction dst as [|x t IH]; intros src T.
  - destruct (pmask 0 T) as [|[|] ?]; reflexivity.
  - destruct T as [|T']; [reflexivity|].
    rewrite pmask_S. cbn [Nat.ltb Nat.leb pred mscatter]. rewrite IH. reflexivity.
Qed.

Lemma mscatter_pmask {X} : forall (dst sel rest : list X),
  length sel <= length dst ->
  mscatter (pmask (length sel) (length dst)) (sel ++ rest) dst = (sel ++ skipn (length sel) dst, rest).
Proof.
  induction dst as [|x t IH]; intros sel rest H.
  - destruct sel; [reflexivity|cbn in H; lia].
  - cbn [length]. rewrite pmask_S. destruct sel as [|s sel'].
    + cbn [length Nat.ltb Nat.leb pred app mscatter skipn].
      rewrite mscatter_false. reflexivity.
    + cbn [length pred app mscatter skipn]. replace (0 <? S (length sel')) with true by reflexivity.
      rewrite IH by (cbn in H; lia). reflexivity.
Qed.

(* ---------- scores ----------------------------------------------------------------------------------- *)

Lemma score_sum : forall mx l T, length mx = T ->
  fold_right Z.add 0%Z (map2 (fun (i : bool) v => if i then v else 0%Z) (pmask l T) mx)
  = fold_right Z.add 0%Z (firstn l mx).
Proof.
  induction mx as [|v t IH]; intros l T HT.
  - destruct (pmask l T), l; reflexivity.
  - destruct T as [|T']; [discriminate|]. rewrite pmask_S. cbn [map2 fold_right].
    rewrite (IH (pred l) T') by (cbn in HT; lia).
    destruct l; cbn [Nat.ltb Nat.leb pred firstn fold_right]; [|reflexivity].
    destruct t; reflexivity.
Qed.

Lemma score_prod one : forall mx l T, length mx = T ->
  fold_right Z.mul 1%Z (map2 (fun (i : bool) v => if i then v else one) (pmask l T) mx)
  = (fold_right Z.mul 1 (firstn l mx) * one ^ Z.of_nat (T - l))%Z.
Proof.
  induction mx as [|v t IH]; intros l T HT.
  - cbn in HT. subst T. destruct l; reflexivity.
  - destruct T as [|T']; [discriminate|]. rewrite pmask_S. cbn [map2 fold_right].
    rewrite (IH (pred l) T') by (cbn in HT; lia).
    destruct l as [|l']; cbn [Nat.ltb Nat.leb pred firstn fold_right].
    + rewrite !Nat.sub_0_r. rewrite Nat2Z.inj_succ, Z.pow_succ_r by lia.
      destruct t; cbn [firstn fold_right]; ring.
    + replace (S T' - S l') with (T' - l') by lia. ring.
Qed.

(* ---------- the whole batch ---------------------------------------------------------------------------- *)

Lemma in_mask_eff T in_lens (lp : list (list (list Z))) :
  (forall ls, in_lens = Some ls -> length ls = length lp) ->
  match in_lens with
  | None => map (fun _ => repeat true T) lp
  | Some ls => map (fun l => map (fun t => (Z.of_nat t <? l)%Z) (seq 0 T)) ls
  end = map (fun l => pmask l T) (eff_lens T in_lens (length lp)).
Proof.
  intros H. destruct in_lens as [ls|]; cbn [eff_lens].
  - rewrite map_map. apply map_ext. intros z. rewrite pmask_Z, pmask_min. reflexivity.
  - clear H. induction lp as [|x t IH]; [reflexivity|].
    cbn [map length repeat]. rewrite IH, pmask_full. reflexivity.
Qed.

Lemma rows_paths b T : forall (lp : list (list (list Z))) ll rest,
  length ll = length lp -> (forall fr, In fr lp -> length fr = T) ->
  let am := map labels lp in
  let keep := map2 (map2 andb) (map (keep_from b None) am) (map (fun l => pmask l T) ll) in
  mscatter_rows (map (fun l => map (fun t => t <? l) (seq 0 T)) (map (fun k => sumn (map b2n k)) keep))
                (concat (map2 select keep am) ++ rest) am
  = map2 (fun l fr => row_path b T l fr ++ skipn (length (row_path b T l fr)) (labels fr)) ll lp.
Proof.
  induction lp as [|fr lp IH]; intros ll rest Hl HT; destruct ll as [|l ll]; try discriminate; [reflexivity|].
  cbn zeta in *. cbn [map map2 concat mscatter_rows].
  assert (Hfr : length (labels fr) = T)
    by (unfold labels; rewrite !map_length; apply HT; left; reflexivity).
  rewrite (row_select b l T (labels fr) Hfr).
  rewrite (count_select _ (labels fr)) by (rewrite map2_length, keep_from_length, pmask_length; lia).
  rewrite (row_select b l T (labels fr) Hfr).
  fold (row_path b T l fr). rewrite <- app_assoc.
  change (map (fun t => t <? length (row_path b T l fr)) (seq 0 T)) with (pmask (length (row_path b T l fr)) T).
  assert (Hle : length (row_path b T l fr) <= length (labels fr)).
  { unfold row_path. rewrite <- (row_select b l T (labels fr) Hfr). apply select_length_le. }
  match goal with |- context [mscatter _ (_ ++ ?R) _] =>
    pose proof (mscatter_pmask (labels fr) (row_path b T l fr) R Hle) as Hm end.
  rewrite Hfr in Hm. rewrite Hm. clear Hm.
  f_equal. apply IH; [cbn in Hl; lia|]. intros fr' Hin. apply HT. now right.
Qed.

Lemma rows_lens b T : forall (lp : list (list (list Z))) ll,
  length ll = length lp -> (forall fr, In fr lp -> length fr = T) ->
  map (fun k => sumn (map b2n k))
      (map2 (map2 andb) (map (keep_from b None) (map labels lp)) (map (fun l => pmask l T) ll))
  = map2 (fun l fr => length (row_path b T l fr)) ll lp.
Proof.
  induction lp as [|fr lp IH]; intros ll Hl HT; destruct ll as [|l ll]; try discriminate; [reflexivity|].
  cbn [map map2].
  assert (Hfr : length (labels fr) = T)
    by (unfold labels; rewrite !map_length; apply HT; left; reflexivity).
  rewrite (count_select _ (labels fr)) by (rewrite map2_length, keep_from_length, pmask_length; lia).
  rewrite (row_select b l T (labels fr) Hfr). f_equal.
  apply IH; [cbn in Hl; lia|]. intros fr' Hin. apply HT. now right.
Qed.

Lemma rows_scores (is_probs : bool) (one : Z) T : forall (lp : list (list (list Z))) ll,
  length ll = length lp -> (forall fr, In fr lp -> length fr = T) -> (forall l, In l ll -> l <= T) ->
  map (if is_probs then fold_right Z.mul 1%Z else fold_right Z.add 0%Z : list Z -> Z)
      (map2 (map2 (fun (i : bool) (v : Z) => if i then v else if is_probs then one else 0%Z))
            (map (fun l => pmask l T) ll) (map maxima lp))
  = map2 (row_score is_probs one T) ll lp.
Proof.
  induction lp as [|fr lp IH]; intros ll Hl HT Hle; destruct ll as [|l ll]; try discriminate; [reflexivity|].
  cbn [map map2].
  assert (Hfr : length (maxima fr) = T)
    by (unfold maxima; rewrite !map_length; apply HT; left; reflexivity).
  f_equal.
  - unfold row_score. destruct is_probs; [apply score_prod|apply score_sum]; exact Hfr.
  - apply IH; [cbn in Hl; lia| |]; intros; [apply HT|apply Hle]; now right.
Qed.

Lemma eff_lens_length T in_lens N : (forall ls, in_lens = Some ls -> length ls = N) ->
  length (eff_lens T in_lens N) = N.
Proof.
  intros H. destruct in_lens as [ls|]; cbn; [rewrite map_length; now apply H|apply repeat_length].
Qed.

Lemma eff_lens_le T in_lens N l : In l (eff_lens T in_lens N) -> l <= T.
Proof.
  destruct in_lens as [ls|]; cbn.
  - intros H. apply in_map_iff in H as (z & <- & _). lia.
  - intros H. apply repeat_spec in H. lia.
Qed.

Lemma map2_firstn_app {X} : forall (a : list (list X)) (b : list (list X)),
  length a = length b ->
  map2 (fun l p => firstn l p) (map (@length X) a) (map2 (fun x y => x ++ y) a b) = a.
Proof.
  induction a as [|x a IH]; intros [|y b] H; try discriminate; [reflexivity|].
  cbn [map map2]. rewrite firstn_app_exact, IH by (cbn in H; lia). reflexivity.
Qed.

Lemma firstn_rows b T : forall (lp : list (list (list Z))) (ll : list nat),
  map2 (fun l p => firstn l p)
       (map2 (fun l fr => length (row_path b T l fr)) ll lp)
       (map2 (fun l fr => row_path b T l fr ++ skipn (length (row_path b T l fr)) (labels fr)) ll lp)
  = map2 (row_path b T) ll lp.
Proof.
  induction lp as [|fr lp IH]; intros [|l ll]; try reflexivity.
  cbn [map2]. rewrite firstn_app_exact, IH. reflexivity.
Qed.

Theorem greedy_correct (is_probs : bool) (one : Z) V blank T in_lens (lp : list (list (list Z))) :
  (- V <= blank <= V - 1)%Z ->
  (forall fr, In fr lp -> length fr = T) ->
  (forall ls, in_lens = Some ls -> length ls = length lp) ->
  let b := norm_blank V blank in
  let ll := eff_lens T in_lens (length lp) in
  exists g, ctc_greedy is_probs one V blank T in_lens lp = Some g /\
    g_lens g = map2 (fun l fr => length (row_path b T l fr)) ll lp /\
    map2 (fun l p => firstn l p) (g_lens g) (g_paths g) = map2 (row_path b T) ll lp /\
    g_score g = map2 (row_score is_probs one T) ll lp.
Proof.
  intros Hb HT Hls b ll. unfold ctc_greedy.
  replace ((blank <? - V)%Z || (V - 1 <? blank)%Z) with false by lia.
  eexists; split; [reflexivity|]. cbn [g_lens g_paths g_score].
  rewrite (in_mask_eff T in_lens lp Hls). fold ll. fold b.
  assert (Hll : length ll = length lp) by (apply eff_lens_length; exact Hls).
  assert (Ham : map (map snd) (map (map argmax_first) lp) = map labels lp)
    by (rewrite map_map; reflexivity).
  assert (Hmx : map (map fst) (map (map argmax_first) lp) = map maxima lp)
    by (rewrite map_map; reflexivity).
  rewrite Ham, Hmx. change (Z.to_nat ((blank + V) mod V)) with b.
  rewrite (rows_lens b T lp ll Hll HT).
  split; [reflexivity|]. split.
  - pose proof (rows_paths b T lp ll [] Hll HT) as H. cbn zeta in H.
    rewrite app_nil_r in H. rewrite (rows_lens b T lp ll Hll HT) in H. rewrite H. clear H.
    apply firstn_rows.
  - apply (rows_scores is_probs one T lp ll Hll HT). intros l. apply eff_lens_le.
Qed.

Lemma greedy_error is_probs one V blank T in_lens lp :
  ctc_greedy is_probs one V blank T in_lens lp = None <-> (blank < - V \/ V - 1 < blank)%Z.
Proof.
  unfold ctc_greedy. destruct ((blank <? - V)%Z || (V - 1 <? blank)%Z) eqn:E; split; intros Hx; try reflexivity; try discriminate; lia.
Qed.
