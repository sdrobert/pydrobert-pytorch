(* C07 - sequence_log_probs on packed input: the pack / gather / unpack / un-sort pipeline gives,
   for every sequence, the declarative sum over its own length. *)
From Coq Require Import List ZArith Bool Arith Lia Sorted.
From PV Require Import C07.Model C07.Spec C07.Lib C07.ProofsSlp C07.ProofsWalk.
Import ListNotations.

Lemma cnt_cons t l ls : cnt t (l :: ls) = b2n (t <? l) + cnt t ls.
Proof. reflexivity. Qed.

Lemma cnt_le t ls : cnt t ls <= length ls.
Proof. induction ls as [|l ls IH]; [cbn; lia|]. rewrite cnt_cons. cbn [length]. destruct (t <? l); cbn; lia. Qed.

Lemma cnt_small t ls : (forall l, In l ls -> l <= t) -> cnt t ls = 0.
Proof.
  induction ls as [|l ls IH]; intros H; [reflexivity|]. rewrite cnt_cons, IH by (intros; apply H; now right).
  replace (t <? l) with false; [reflexivity|]. symmetry. apply Nat.ltb_ge. apply H. now left.
Qed.

Lemma cnt_prefix t : forall ls j, desc ls -> j < length ls -> (j <? cnt t ls) = (t <? nth j ls 0).
Proof.
  induction ls as [|l ls IH]; intros j Hd Hj; [cbn in Hj; lia|].
  apply StronglySorted_inv in Hd as [Hd Hl]. rewrite Forall_forall in Hl. rewrite cnt_cons.
  destruct j as [|j]; cbn [nth].
  - destruct (Nat.ltb_spec t l) as [Htl|Htl]; cbn [b2n]; [reflexivity|].
    rewrite cnt_small by (intros x Hx; specialize (Hl x Hx); lia). reflexivity.
  - destruct (Nat.ltb_spec t l) as [Htl|Htl]; cbn [b2n].
    + rewrite <- (IH j Hd) by (cbn in Hj; lia). reflexivity.
    + rewrite cnt_small by (intros x Hx; specialize (Hl x Hx); lia). cbn [Nat.add].
      assert (nth j ls 0 <= l) by (apply Hl, nth_In; cbn in Hj; lia).
      symmetry. apply Nat.ltb_ge. lia.
Qed.

Lemma cnt_zero ls : (forall l, In l ls -> 1 <= l) -> cnt 0 ls = length ls.
Proof.
  induction ls as [|l ls IH]; intros H; [reflexivity|]. rewrite cnt_cons, IH by (intros; apply H; now right).
  replace (0 <? l) with true; [reflexivity|]. symmetry. apply Nat.ltb_lt. apply H. now left.
Qed.

Lemma count_lt l : forall T s, sumn (map (fun t => b2n (t <? l)) (seq s T)) = Nat.min (l - s) T.
Proof.
  induction T as [|T IH]; intros s; [cbn; lia|].
  cbn [seq map sumn fold_right]. change (fold_right Nat.add 0 ?x) with (sumn x). rewrite IH.
  destruct (Nat.ltb_spec s l); cbn [b2n]; lia.
Qed.

Lemma lens_of_bs_pack ls Tm : desc ls -> (forall l, In l ls -> l <= Tm) ->
  lens_of_bs (length ls) (map (fun t => cnt t ls) (seq 0 Tm)) = ls.
Proof.
  intros Hd Hm. unfold lens_of_bs.
  transitivity (map (fun n => nth n ls 0) (seq 0 (length ls))); [|symmetry; apply list_eq_map_nth].
  apply map_ext_in. intros n Hn. apply in_seq in Hn. rewrite map_map.
  rewrite (map_ext _ (fun t => b2n (t <? nth n ls 0))) by (intros t; rewrite cnt_prefix by (try exact Hd; lia); reflexivity).
  rewrite count_lt. assert (nth n ls 0 <= Tm) by (apply Hm, nth_In; lia). lia.
Qed.

Lemma split_by_concat {X} : forall (chunks : list (list X)),
  split_by (map (@length X) chunks) (concat chunks) = chunks.
Proof.
  induction chunks as [|c chunks IH]; [reflexivity|].
  cbn [map concat split_by]. rewrite firstn_app_exact. f_equal.
  rewrite skipn_app, skipn_all, Nat.sub_diag. cbn. exact IH.
Qed.

Lemma pack_data_cnt {X} (x : list (list X)) ls :
  pack_data x ls = concat (map2 (fun t row => firstn (cnt t ls) row) (seq 0 (list_max ls)) x).
Proof. reflexivity. Qed.

Section Packed.
  Context {A : Type} (op : A -> A -> A) (unit : A).
  Hypothesis unit_l : forall x, op unit x = x.
  Variable V : Z.

  Definition term (row : list A) (k : Z) : A := if oov V k then unit else nth (Z.to_nat k) row unit.

  Definition G (d : list (list A)) (t : list Z) : list A := gather_masked unit (map (oov V) t) d t.

  Lemma G_cons row d k t : G (row :: d) (k :: t) = term row k :: G d t.
  Proof. unfold G, gather_masked, term. cbn [map map2]. destruct (oov V k); reflexivity. Qed.

  Lemma G_app : forall d1 t1 d2 t2, length d1 = length t1 ->
    G (d1 ++ d2) (t1 ++ t2) = G d1 t1 ++ G d2 t2.
  Proof.
    induction d1 as [|row d1 IH]; intros [|k t1] d2 t2 H; try discriminate; [reflexivity|].
    cbn [app]. rewrite !G_cons, IH by (cbn in H; lia). reflexivity.
  Qed.

  Lemma G_length : forall d t, length d = length t -> length (G d t) = length t.
  Proof.
    induction d as [|row d IH]; intros [|k t] H; try discriminate; [reflexivity|].
    rewrite G_cons. cbn [length]. rewrite IH by (cbn in H; lia). reflexivity.
  Qed.

  Lemma G_nth : forall d t j, length d = length t -> j < length t ->
    nth j (G d t) unit = term (nth j d []) (nth j t 0%Z).
  Proof.
    induction d as [|row d IH]; intros [|k t] j H Hj; try discriminate; [cbn in Hj; lia|].
    rewrite G_cons. destruct j; [reflexivity|]. cbn [nth]. apply IH; cbn in *; lia.
  Qed.

  Lemma G_concat : forall dch tch, length dch = length tch ->
    (forall i, i < length tch -> length (nth i dch []) = length (nth i tch [])) ->
    G (concat dch) (concat tch) = concat (map2 G dch tch).
  Proof.
    induction dch as [|d dch IH]; intros [|t tch] Hl H; try discriminate; [reflexivity|].
    cbn [concat map2]. rewrite G_app by (apply (H 0); cbn; lia). f_equal.
    apply IH; [cbn in Hl; lia|]. intros i Hi. apply (H (S i)). cbn. lia.
  Qed.

  Definition rect (n : nat) (lp' : list (list (list A))) (hyp' : list (list Z)) : Prop :=
    length lp' <= length hyp' /\ (forall r, In r lp' -> length r = n) /\ (forall r, In r hyp' -> length r = n).

  Lemma rect_cons n lrow lp' hyp' : rect n (lrow :: lp') hyp' ->
    exists hrow hyp'', hyp' = hrow :: hyp'' /\ length lrow = n /\ length hrow = n /\ rect n lp' hyp''.
  Proof.
    intros (Hlen & Hlp & Hhyp). destruct hyp' as [|hrow hyp'']; [cbn in Hlen; lia|].
    exists hrow, hyp''. split; [reflexivity|]. split; [apply Hlp; now left|]. split; [apply Hhyp; now left|].
    split; [cbn in Hlen; lia|]. split; intros r Hr; [apply Hlp|apply Hhyp]; now right.
  Qed.

  (* column j of the unpacked chunks is the declarative sum over the first [L] steps *)
  Lemma unpack_col (ls : list nat) (j : nat) : desc ls -> j < length ls ->
    forall (lp' : list (list (list A))) (hyp' : list (list Z)) s, rect (length ls) lp' hyp' ->
    sum_list op unit
      (map (fun ch => nth j ch unit)
           (map2 G (map2 (fun t row => firstn (cnt t ls) row) (seq s (length lp')) lp')
                   (map2 (fun t row => firstn (cnt t ls) row) (seq s (length lp')) hyp')))
    = spec_slp op unit V None (firstn (nth j ls 0 - s) (column [] j lp'))
                              (firstn (nth j ls 0 - s) (column 0%Z j hyp')).
  Proof.
    intros Hd Hj. induction lp' as [|lrow lp' IH]; intros hyp' s HR.
    - cbn [length seq map2 map sum_list fold_right column]. rewrite firstn_nil.
      destruct (firstn _ _); reflexivity.
    - destruct (rect_cons _ _ _ _ HR) as (hrow & hyp'' & -> & Hl1 & Hl2 & HR').
      cbn [length seq map2 map sum_list fold_right column].
      change (fold_right op unit ?x) with (sum_list op unit x).
      rewrite (IH hyp'' (S s) HR').
      pose proof (cnt_le s ls) as Hc.
      pose proof (cnt_prefix s ls j Hd Hj) as Hp.
      destruct (Nat.ltb_spec s (nth j ls 0)) as [HsL|HsL].
      + apply Nat.ltb_lt in Hp.
        rewrite G_nth by (rewrite !firstn_length; lia).
        rewrite !nth_firstn_lt by exact Hp.
        replace (nth j ls 0 - s) with (S (nth j ls 0 - S s)) by lia.
        cbn [firstn spec_slp]. unfold term. rewrite in_vocab_oov.
        destruct (oov V (nth j hrow 0%Z)); cbn [negb]; [apply unit_l|reflexivity].
      + apply Nat.ltb_ge in Hp.
        rewrite nth_overflow by (rewrite G_length; rewrite !firstn_length; lia).
        replace (nth j ls 0 - s) with 0 by lia. replace (nth j ls 0 - S s) with 0 by lia.
        cbn [firstn spec_slp]. apply unit_l.
  Qed.

  Lemma chunk_lengths (ls : list nat) :
    forall (lp' : list (list (list A))) (hyp' : list (list Z)) s, rect (length ls) lp' hyp' ->
    map (@length A)
        (map2 G (map2 (fun t row => firstn (cnt t ls) row) (seq s (length lp')) lp')
                (map2 (fun t row => firstn (cnt t ls) row) (seq s (length lp')) hyp'))
    = map (fun t => cnt t ls) (seq s (length lp')).
  Proof.
    induction lp' as [|lrow lp' IH]; intros hyp' s HR; [reflexivity|].
    destruct (rect_cons _ _ _ _ HR) as (hrow & hyp'' & -> & Hl1 & Hl2 & HR').
    cbn [length seq map2 map]. f_equal; [|apply IH; exact HR'].
    pose proof (cnt_le s ls). rewrite G_length; rewrite !firstn_length; lia.
  Qed.

  Lemma chunk_pair_lengths (ls : list nat) :
    forall (lp' : list (list (list A))) (hyp' : list (list Z)) s i, rect (length ls) lp' hyp' ->
    length (nth i (map2 (fun t row => firstn (cnt t ls) row) (seq s (length lp')) lp') []) =
    length (nth i (map2 (fun t row => firstn (cnt t ls) row) (seq s (length lp')) hyp') []).
  Proof.
    induction lp' as [|lrow lp' IH]; intros hyp' s i HR; [destruct i; reflexivity|].
    destruct (rect_cons _ _ _ _ HR) as (hrow & hyp'' & -> & Hl1 & Hl2 & HR').
    cbn [length seq map2]. destruct i as [|i]; cbn [nth]; [|apply IH; exact HR'].
    rewrite !firstn_length, Hl1, Hl2. reflexivity.
  Qed.

  (* lengths already sorted (enforce_sorted=True): no index tensors *)
  Theorem slp_ps_sorted (ls : list nat) (lp_s : list (list (list A))) (hyp_s : list (list Z)) :
    desc ls -> (forall l, In l ls -> 1 <= l) ->
    length lp_s = list_max ls -> list_max ls <= length hyp_s ->
    (forall r, In r lp_s -> length r = length ls) -> (forall r, In r hyp_s -> length r = length ls) ->
    slp_ps op unit V (pack_data lp_s ls) (map (fun t => cnt t ls) (seq 0 (list_max ls)))
           None None (length ls) hyp_s
    = map (fun j => spec_slp op unit V None (firstn (nth j ls 0) (column [] j lp_s))
                                            (firstn (nth j ls 0) (column 0%Z j hyp_s)))
          (seq 0 (length ls)).
  Proof.
    intros Hd H1 HT HTh Hlp Hhyp. unfold slp_ps.
    assert (HR : rect (length ls) lp_s hyp_s) by (split; [lia|split; assumption]).
    rewrite lens_of_bs_pack by (try exact Hd; intros l Hl; apply list_max_ge; exact Hl).
    rewrite !pack_data_cnt, <- HT in *.
    change (gather_masked unit (map (oov V) ?t) ?d ?t) with (G d t).
    rewrite G_concat.
    2:{ rewrite !map2_length, seq_length. lia. }
    2:{ intros i _. apply chunk_pair_lengths. exact HR. }
    unfold unpack.
    rewrite <- (chunk_lengths ls lp_s hyp_s 0 HR).
    rewrite split_by_concat.
    rewrite (chunk_lengths ls lp_s hyp_s 0 HR).
    assert (Hhd : hd 0 (map (fun t => cnt t ls) (seq 0 (length lp_s))) = length ls).
    { destruct lp_s as [|r lp']; cbn [length seq map hd].
      - destruct ls as [|l ls']; [reflexivity|].
        assert (l <= list_max (l :: ls')) by (apply list_max_ge; now left).
        specialize (H1 l (or_introl eq_refl)). cbn [length] in HT. lia.
      - apply cnt_zero. exact H1. }
    rewrite Hhd, map_map. apply map_ext_in. intros j Hj. apply in_seq in Hj.
    rewrite (unpack_col ls j Hd ltac:(lia) lp_s hyp_s 0 HR).
    rewrite Nat.sub_0_r. reflexivity.
  Qed.

  Lemma column_index_select {X} (d : X) (idx : list nat) (m : list (list X)) j :
    j < length idx -> column d j (index_select_cols d idx m) = column d (nth j idx 0) m.
  Proof.
    intros Hj. unfold column, index_select_cols. rewrite map_map. apply map_ext. intros row.
    rewrite (nth_map' (fun i => nth i row d) idx j 0 d) by exact Hj. reflexivity.
  Qed.

  (* lengths in any order (enforce_sorted=False): sorted_indices / unsorted_indices *)
  Theorem slp_ps_correct (lens0 : list nat) (sidx uidx : list nat)
    (lp : list (list (list A))) (hyp : list (list Z)) :
    let N := length lens0 in
    let ls := map (fun j => nth j lens0 0) sidx in
    length sidx = N -> length uidx = N ->
    (forall n, n < N -> nth n uidx 0 < N /\ nth (nth n uidx 0) sidx 0 = n) ->
    desc ls -> (forall l, In l lens0 -> 1 <= l) -> (forall j, In j sidx -> j < N) ->
    length lp = list_max ls -> list_max ls <= length hyp ->
    slp_ps op unit V (pack_data (index_select_cols [] sidx lp) ls)
           (map (fun t => cnt t ls) (seq 0 (list_max ls))) (Some sidx) (Some uidx) N hyp
    = map (fun n => spec_slp op unit V None (firstn (nth n lens0 0) (column [] n lp))
                                            (firstn (nth n lens0 0) (column 0%Z n hyp)))
          (seq 0 N).
  Proof.
    intros N ls Hs Hu Hinv Hd H1 Hsr HT HTh.
    assert (Hls : length ls = N) by (unfold ls; rewrite map_length; exact Hs).
    pose proof (slp_ps_sorted ls (index_select_cols [] sidx lp) (index_select_cols 0%Z sidx hyp) Hd) as Hcore.
    unfold slp_ps in *. rewrite Hls in Hcore.
    rewrite Hcore; clear Hcore.
    - rewrite (list_eq_map_nth 0 uidx) at 1. rewrite Hu, map_map. apply map_ext_in.
      intros n Hn. apply in_seq in Hn. destruct (Hinv n ltac:(lia)) as [Hun Hsn].
      rewrite nth_map_seq by exact Hun.
      rewrite !column_index_select by lia. unfold ls.
      rewrite (nth_map' (fun j => nth j lens0 0) sidx _ 0 0) by lia.
      rewrite Hsn. reflexivity.
    - intros l Hl. unfold ls in Hl. apply in_map_iff in Hl as (j & <- & Hj).
      apply H1. apply nth_In. apply Hsr. exact Hj.
    - unfold index_select_cols. rewrite map_length. exact HT.
    - unfold index_select_cols. rewrite map_length. exact HTh.
    - intros r Hr. unfold index_select_cols in Hr. apply in_map_iff in Hr as (row & <- & _).
      rewrite map_length. lia.
    - intros r Hr. unfold index_select_cols in Hr. apply in_map_iff in Hr as (row & <- & _).
      rewrite map_length. lia.
  Qed.

  (* padded convention 1: everything at or beyond the length is out-of-vocabulary, no eos handling *)
  Lemma spec_slp_pad_oov : forall (toks : list Z) (rows : list (list A)) L,
    length rows = length toks ->
    (forall t, L <= t -> t < length toks -> oov V (nth t toks 0%Z) = true) ->
    spec_slp op unit V None rows toks = spec_slp op unit V None (firstn L rows) (firstn L toks).
  Proof.
    induction toks as [|k toks IH]; intros rows L Hl H.
    - destruct rows; [|discriminate]. rewrite !firstn_nil. reflexivity.
    - destruct rows as [|row rows]; [discriminate|]. destruct L as [|L].
      + cbn [firstn spec_slp]. assert (H0 : oov V k = true) by (apply (H 0); cbn; lia).
        rewrite in_vocab_oov, H0. cbn [negb].
        rewrite (IH rows 0) by (try (cbn in Hl; lia); intros t _ Ht; apply (H (S t)); cbn; lia).
        reflexivity.
      + cbn [firstn spec_slp].
        rewrite (IH rows L) by (try (cbn in Hl; lia); intros t Ht1 Ht2; apply (H (S t)); cbn; lia).
        reflexivity.
  Qed.

  (* padded convention 2: the sequence ends with its first eos at position L-1 *)
  Lemma spec_slp_pad_eos e : forall (toks : list Z) (rows : list (list A)) L,
    length rows = length toks -> first_eos e toks = Some L ->
    spec_slp op unit V (Some e) rows toks = spec_slp op unit V None (firstn (L + 1) rows) (firstn (L + 1) toks).
  Proof.
    induction toks as [|k toks IH]; intros rows L Hl H; [discriminate|].
    destruct rows as [|row rows]; [discriminate|]. cbn in H.
    destruct (Z.eqb_spec k e) as [->|Hne].
    - injection H as <-. cbn [Nat.add firstn spec_slp]. rewrite Z.eqb_refl.
      destruct toks, rows; reflexivity.
    - destruct (first_eos e toks) as [i|] eqn:Hf; [|discriminate]. injection H as <-.
      cbn [Nat.add firstn spec_slp].
      destruct (Z.eqb_spec k e); [contradiction|].
      rewrite (IH rows i) by (try (cbn in Hl; lia); reflexivity). reflexivity.
  Qed.

  (* the packed result is the tensor-path result on the padded input *)
  Theorem slp_packed_eq_padded (eos : option Z) (lens0 : list nat) (sidx uidx : list nat)
    (lp : list (list (list A))) (hyp : list (list Z)) :
    let N := length lens0 in
    let ls := map (fun j => nth j lens0 0) sidx in
    length sidx = N -> length uidx = N ->
    (forall n, n < N -> nth n uidx 0 < N /\ nth (nth n uidx 0) sidx 0 = n) ->
    desc ls -> (forall l, In l lens0 -> 1 <= l) -> (forall j, In j sidx -> j < N) ->
    length lp = list_max ls -> length hyp = length lp ->
    (* how the padded token tensor marks the end of each sequence *)
    (forall n, n < N ->
       match eos with
       | None => forall t, nth n lens0 0 <= t -> t < length hyp -> oov V (nth t (column 0%Z n hyp) 0%Z) = true
       | Some e => first_eos e (column 0%Z n hyp) = Some (nth n lens0 0 - 1)
       end) ->
    slp_ps op unit V (pack_data (index_select_cols [] sidx lp) ls)
           (map (fun t => cnt t ls) (seq 0 (list_max ls))) (Some sidx) (Some uidx) N hyp
    = map (fun n => slp_col op unit V eos (column [] n lp) (column 0%Z n hyp)) (seq 0 N).
  Proof.
    intros N ls Hs Hu Hinv Hd H1 Hsr HT HTh Hpad.
    pose proof (slp_ps_correct lens0 sidx uidx lp hyp Hs Hu Hinv Hd H1 Hsr HT) as Hc.
    cbn zeta in Hc. fold ls in Hc. fold N in Hc. rewrite Hc by lia. clear Hc.
    apply map_ext_in. intros n Hn. apply in_seq in Hn.
    rewrite (slp_col_correct op unit unit_l) by (rewrite !column_length; lia).
    specialize (Hpad n ltac:(lia)). destruct eos as [e|].
    - assert (1 <= nth n lens0 0) by (apply H1, nth_In; lia).
      rewrite (spec_slp_pad_eos e _ _ (nth n lens0 0 - 1)) by (try exact Hpad; rewrite !column_length; lia).
      replace (nth n lens0 0 - 1 + 1) with (nth n lens0 0) by lia. reflexivity.
    - symmetry. apply spec_slp_pad_oov; [rewrite !column_length; lia|].
      intros t Ht1 Ht2. rewrite column_length in Ht2. apply Hpad; assumption.
  Qed.
End Packed.
