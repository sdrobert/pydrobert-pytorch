(* C07 - generic list lemmas used by the proofs. *)
From Coq Require Import List ZArith Bool Arith Lia.
From PV Require Import C07.Model.
Import ListNotations.

Lemma map2_length {X Y W} (f : X -> Y -> W) l1 l2 :
  length (map2 f l1 l2) = Nat.min (length l1) (length l2).
Proof.
  revert l2; induction l1 as [|x t IH]; intros [|y t2]; cbn; try reflexivity.
  now rewrite IH.
Qed.

Lemma map2_nth {X Y W} (f : X -> Y -> W) l1 l2 n dx dy dw :
  n < length l1 -> n < length l2 ->
  nth n (map2 f l1 l2) dw = f (nth n l1 dx) (nth n l2 dy).
Proof.
  revert l2 n; induction l1 as [|x t IH]; intros [|y t2] n H1 H2; cbn in *; try lia.
  destruct n; [reflexivity|]. apply IH; lia.
Qed.

Lemma map2_maps {A X Y W} (f : X -> Y -> W) (g : A -> X) (k : A -> Y) l :
  map2 f (map g l) (map k l) = map (fun a => f (g a) (k a)) l.
Proof. induction l as [|a l IH]; cbn; [reflexivity|now rewrite IH]. Qed.

Lemma map3_length {X Y U W} (f : X -> Y -> U -> W) l1 l2 l3 :
  length (map3 f l1 l2 l3) = Nat.min (length l1) (Nat.min (length l2) (length l3)).
Proof.
  revert l2 l3; induction l1 as [|x t IH]; intros [|y t2] [|u t3]; cbn; try reflexivity.
  now rewrite IH.
Qed.

Lemma map3_nth {X Y U W} (f : X -> Y -> U -> W) l1 l2 l3 n dx dy du dw :
  n < length l1 -> n < length l2 -> n < length l3 ->
  nth n (map3 f l1 l2 l3) dw = f (nth n l1 dx) (nth n l2 dy) (nth n l3 du).
Proof.
  revert l2 l3 n; induction l1 as [|x t IH]; intros [|y t2] [|u t3] n H1 H2 H3; cbn in *; try lia.
  destruct n; [reflexivity|]. apply IH; lia.
Qed.

Lemma map2_map_l {X X' Y W} (f : X' -> Y -> W) (g : X -> X') l1 l2 :
  map2 f (map g l1) l2 = map2 (fun x y => f (g x) y) l1 l2.
Proof.
  revert l2; induction l1 as [|x t IH]; intros [|y t2]; cbn; try reflexivity.
  now rewrite IH.
Qed.

Lemma map2_map_r {X Y Y' W} (f : X -> Y' -> W) (g : Y -> Y') l1 l2 :
  map2 f l1 (map g l2) = map2 (fun x y => f x (g y)) l1 l2.
Proof.
  revert l2; induction l1 as [|x t IH]; intros [|y t2]; cbn; try reflexivity.
  now rewrite IH.
Qed.

Lemma map2_ext_in {X Y W} (f g : X -> Y -> W) l1 l2 :
  (forall n dx dy, n < length l1 -> n < length l2 -> f (nth n l1 dx) (nth n l2 dy) = g (nth n l1 dx) (nth n l2 dy)) ->
  map2 f l1 l2 = map2 g l1 l2.
Proof.
  revert l2; induction l1 as [|x t IH]; intros [|y t2] H; cbn; try reflexivity.
  f_equal.
  - apply (H 0 x y); cbn; lia.
  - apply IH. intros n dx dy H1 H2. apply (H (S n) dx dy); cbn; lia.
Qed.

Lemma map2_same {X W} (f : X -> X -> W) l : map2 f l l = map (fun x => f x x) l.
Proof. induction l as [|x t IH]; cbn; [reflexivity|now rewrite IH]. Qed.

Lemma map2_app {X Y W} (f : X -> Y -> W) a1 b1 a2 b2 :
  length a1 = length a2 ->
  map2 f (a1 ++ b1) (a2 ++ b2) = map2 f a1 a2 ++ map2 f b1 b2.
Proof.
  revert a2; induction a1 as [|x t IH]; intros [|y t2] H; cbn in *; try lia; [reflexivity|].
  f_equal. apply IH. lia.
Qed.

Lemma nth_nil {X} n (d : X) : nth n [] d = d.
Proof. destruct n; reflexivity. Qed.

Lemma column_nth {X} (d : X) b m r : nth r (column d b m) d = nth b (nth r m []) d.
Proof.
  unfold column.
  rewrite <- (nth_nil b d) at 1.
  exact (map_nth (fun row => nth b row d) m [] r).
Qed.

Lemma column_length {X} (d : X) b m : length (column d b m) = length m.
Proof. apply map_length. Qed.

Lemma column_app {X} (d : X) b m1 m2 : column d b (m1 ++ m2) = column d b m1 ++ column d b m2.
Proof. apply map_app. Qed.

Lemma seq_snoc s n : seq s (S n) = seq s n ++ [s + n].
Proof. rewrite <- Nat.add_1_r at 1. rewrite seq_app. reflexivity. Qed.

Lemma firstn_app_exact {X} (a b : list X) : firstn (length a) (a ++ b) = a.
Proof. rewrite firstn_app, Nat.sub_diag, firstn_all; cbn. apply app_nil_r. Qed.

Lemma firstn_app_le {X} n (a b : list X) : n <= length a -> firstn n (a ++ b) = firstn n a.
Proof.
  intros H. rewrite firstn_app. replace (n - length a) with 0 by lia. cbn. apply app_nil_r.
Qed.

Lemma nth_map_seq {X} (f : nat -> X) N n d : n < N -> nth n (map f (seq 0 N)) d = f n.
Proof.
  intros H. rewrite (nth_indep _ d (f 0)) by (now rewrite map_length, seq_length).
  rewrite map_nth, seq_nth by exact H. reflexivity.
Qed.

Lemma nth_map' {X Y} (f : X -> Y) l n dx dy : n < length l -> nth n (map f l) dy = f (nth n l dx).
Proof.
  intros H. rewrite (nth_indep _ dy (f dx)) by (now rewrite map_length). apply map_nth.
Qed.

Lemma list_eq_map_nth {X} (d : X) l : l = map (fun n => nth n l d) (seq 0 (length l)).
Proof.
  apply (nth_ext _ _ d d); [now rewrite map_length, seq_length|].
  intros n Hn. rewrite nth_map_seq by exact Hn. reflexivity.
Qed.

Lemma nth_firstn_lt {X} (d : X) : forall l n j, j < n -> nth j (firstn n l) d = nth j l d.
Proof.
  induction l as [|x l IH]; intros n j H; [now rewrite firstn_nil|].
  destruct n; [lia|]. destruct j; [reflexivity|]. cbn. apply IH. lia.
Qed.
