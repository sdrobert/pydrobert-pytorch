(* C07, second source tie - facts about the as-coded helpers of ModelB.v, independent of the interpreter:
   * ctc_greedy_g at the carrier Z IS Model.ctc_greedy; it commutes with order-embedding homomorphisms of the carrier
     (in particular Z -> xq, z |-> the float z), so the model theorems transfer;
   * ctc_greedy_g on tabulated scores (lp[n][t][v] = f n t v) in the tabulated form the tensor program computes
     (keep mask by index, lengths as sums, the compaction as ONE masked_scatter over the flattened batch). *)
From Coq Require Import List ZArith QArith Bool Arith Lia ZifyBool ZifyNat.
From PV Require Import MiniPy.Syntax MiniTorch.Ops MiniTorch.Lemmas MiniTorch.OpsC07 MiniTorch.LemmasC07 MiniTorch.OpsC07B MiniTorch.LemmasC07B.
From PV Require Import C07.Model C07.Spec C07.Lib C07.ProofsGreedy C07.ModelB.
From PV Require C07.SrcRun.
Notation zq := SrcRun.zq.
Import ListNotations.
Local Close Scope Q_scope.
Local Open Scope nat_scope.

(* ---- the carrier Z ---------------------------------------------------------------------------------------------- *)
Lemma ctc_greedy_g_Z : forall ip one V blank T il lp,
  ctc_greedy_g Z.ltb Z.add Z.mul 0%Z 1%Z one ip V blank T il lp =
  option_map (fun g => mkGG (g_score g) (g_paths g) (g_lens g)) (ctc_greedy ip one V blank T il lp).
Proof. intros. unfold ctc_greedy_g, ctc_greedy. destruct (_ || _); reflexivity. Qed.

(* ---- homomorphisms of the carrier --------------------------------------------------------------------------------- *)
Lemma map_map2 : forall {X Y W U} (h : W -> U) (g : X -> Y -> W) l1 l2,
  map h (map2 g l1 l2) = map2 (fun x y => h (g x y)) l1 l2.
Proof. induction l1 as [|x l1 IH]; intros [|y l2]; cbn; try reflexivity. now rewrite IH. Qed.

Lemma map2_ext : forall {X Y W} (f g : X -> Y -> W) l1 l2, (forall x y, f x y = g x y) -> map2 f l1 l2 = map2 g l1 l2.
Proof. induction l1 as [|x l1 IH]; intros [|y l2] H; cbn; try reflexivity. now rewrite H, IH. Qed.

Section Hom.
  Context {A B : Type} (ltA : A -> A -> bool) (ltB : B -> B -> bool) (addA mulA : A -> A -> A) (addB mulB : B -> B -> B)
          (zA oA fA : A) (zB oB fB : B) (h : A -> B).
  Hypothesis Hlt : forall x y, ltB (h x) (h y) = ltA x y.
  Hypothesis Hadd : forall x y, h (addA x y) = addB (h x) (h y).
  Hypothesis Hmul : forall x y, h (mulA x y) = mulB (h x) (h y).
  Hypothesis Hz : h zA = zB.
  Hypothesis Ho : h oA = oB.
  Hypothesis Hf : h fA = fB.

  Lemma argmax_from_g_hom : forall l best bi i,
    argmax_from_g ltB (h best) bi i (map h l) = (h (fst (argmax_from_g ltA best bi i l)), snd (argmax_from_g ltA best bi i l)).
  Proof.
    induction l as [|x l IH]; intros; cbn [map argmax_from_g]; [reflexivity|]. rewrite Hlt. destruct (ltA best x); apply IH.
  Qed.

  Lemma argmax_first_g_hom : forall row,
    argmax_first_g ltB zB (map h row) = (h (fst (argmax_first_g ltA zA row)), snd (argmax_first_g ltA zA row)).
  Proof. intros [|x t]; cbn [map argmax_first_g fst snd]; [now rewrite Hz|]. apply argmax_from_g_hom. Qed.

  Lemma fold_hom : forall (opA : A -> A -> A) (opB : B -> B -> B) uA uB, h uA = uB -> (forall x y, h (opA x y) = opB (h x) (h y)) ->
    forall l, fold_right opB uB (map h l) = h (fold_right opA uA l).
  Proof. intros opA opB uA uB Hu Hop. induction l as [|x l IH]; cbn; [now rewrite Hu|]. now rewrite IH, Hop. Qed.

  Lemma fill_row_hom : forall (ip : bool) (m : list bool) (r : list A),
    map2 (fun (i : bool) v => if i then v else if ip then fB else zB) m (map h r)
    = map h (map2 (fun (i : bool) v => if i then v else if ip then fA else zA) m r).
  Proof.
    intros ip. induction m as [|i m IH]; intros [|x r]; cbn [map map2]; try reflexivity. rewrite IH. f_equal.
    destruct i; [reflexivity|]. destruct ip; symmetry; assumption.
  Qed.

  Lemma score_hom : forall (ip : bool) (im : list (list bool)) (mx : list (list A)),
    map (if ip then fold_right mulB oB else fold_right addB zB)
        (map2 (map2 (fun (i : bool) v => if i then v else if ip then fB else zB)) im (map (map h) mx))
    = map h (map (if ip then fold_right mulA oA else fold_right addA zA)
                (map2 (map2 (fun (i : bool) v => if i then v else if ip then fA else zA)) im mx)).
  Proof.
    intros ip. induction im as [|m im IH]; intros [|r mx]; cbn [map map2]; try reflexivity. rewrite IH. f_equal.
    rewrite fill_row_hom. destruct ip; now apply fold_hom.
  Qed.

  Lemma ctc_greedy_g_hom : forall ip V blank T il lp,
    ctc_greedy_g ltB addB mulB zB oB fB ip V blank T il (map (map (map h)) lp) =
    option_map (fun g => mkGG (map h (gg_score g)) (gg_paths g) (gg_lens g))
               (ctc_greedy_g ltA addA mulA zA oA fA ip V blank T il lp).
  Proof.
    intros. unfold ctc_greedy_g. destruct ((blank <? - V)%Z || (V - 1 <? blank)%Z); [reflexivity|].
    assert (Hmx : map (map (argmax_first_g ltB zB)) (map (map (map h)) lp) =
                  map (map (fun r => (h (fst (argmax_first_g ltA zA r)), snd (argmax_first_g ltA zA r)))) lp).
    { rewrite map_map. apply map_ext. intros fr. rewrite map_map. apply map_ext. intros r. apply argmax_first_g_hom. }
    rewrite Hmx, !(map_map (map _) (map _)), !(map_ext _ _ (fun fr => map_map _ _ fr)). cbn [fst snd].
    replace (greedy_in_mask T il (map (map (map h)) lp)) with (greedy_in_mask T il lp)
      by (unfold greedy_in_mask; destruct il; [reflexivity|now rewrite map_map]).
    destruct (greedy_core _ _ _ _) as [paths ol]. cbn [option_map gg_score gg_paths gg_lens]. do 2 f_equal.
    rewrite <- score_hom. do 2 f_equal. rewrite map_map. apply map_ext. intros fr. now rewrite map_map.
  Qed.
End Hom.

(* the floats that are integers: Z -> xq *)
Lemma xltb_zq : forall a b, xltb (zq a) (zq b) = Z.ltb a b.
Proof. intros. unfold xltb, zq, Qcompare, Z.ltb. cbn [Qnum Qden inject_Z]. now rewrite !Z.mul_1_r. Qed.

Lemma Qeq_bool_inject_0 : forall a, Qeq_bool (inject_Z a) 0 = (a =? 0)%Z.
Proof. intros. unfold Qeq_bool. cbn [Qnum Qden inject_Z]. rewrite Z.mul_1_r. cbn. destruct a; reflexivity. Qed.

Lemma xadd_zq : forall a b, xadd (zq a) (zq b) = zq (a + b).
Proof.
  intros. unfold xadd, zq. rewrite !Qeq_bool_inject_0.
  destruct (Z.eqb_spec a 0) as [->|Ha]; [reflexivity|].
  destruct (Z.eqb_spec b 0) as [->|Hb]; [now rewrite Z.add_0_r|].
  f_equal. replace (inject_Z a + inject_Z b)%Q with (inject_Z (a + b)).
  - apply Qred_inject_Z.
  - unfold Qplus, inject_Z. cbn [Qnum Qden]. now rewrite !Z.mul_1_r.
Qed.

Lemma xmul_zq : forall a b, xmul (zq a) (zq b) = zq (a * b).
Proof.
  intros. unfold xmul, zq. f_equal. replace (inject_Z a * inject_Z b)%Q with (inject_Z (a * b)) by reflexivity.
  apply Qred_inject_Z.
Qed.

(* ctc_greedy_g on floats that are integers = Model.ctc_greedy on those integers (fill 1.0 <-> one = 1) *)
Lemma ctc_greedy_g_zq : forall ip V blank T il lp,
  ctc_greedy_g xltb xadd xmul xzero xone xone ip V blank T il (map (map (map zq)) lp) =
  option_map (fun g => mkGG (map zq (g_score g)) (g_paths g) (g_lens g)) (ctc_greedy ip 1%Z V blank T il lp).
Proof.
  intros.
  rewrite (ctc_greedy_g_hom Z.ltb xltb Z.add Z.mul xadd xmul 0%Z 1%Z 1%Z xzero xone xone zq
             xltb_zq (fun x y => eq_sym (xadd_zq x y)) (fun x y => eq_sym (xmul_zq x y)) eq_refl eq_refl eq_refl).
  rewrite ctc_greedy_g_Z. destruct (ctc_greedy ip 1%Z V blank T il lp); reflexivity.
Qed.

(* ---- xargmax (OpsC07B) is the generic argmax at the carrier xq ---------------------------------------------------- *)
Lemma xargmax_g : forall row, xargmax row = argmax_first_g xltb xzero row.
Proof. reflexivity. Qed.

(* ---- lists ---------------------------------------------------------------------------------------------------------- *)
Lemma select_same : forall {X} (m : list bool) (l : list X), OpsC07B.select m l = Model.select m l.
Proof. reflexivity. Qed.

Lemma select_map : forall {X Y} (h : X -> Y) (m : list bool) (l : list X), Model.select m (map h l) = map h (Model.select m l).
Proof. induction m as [|b m IH]; intros [|x l]; cbn; try reflexivity. destruct b; cbn; now rewrite IH. Qed.

Lemma select_app : forall {X} (m1 m2 : list bool) (l1 l2 : list X), length m1 = length l1 ->
  Model.select (m1 ++ m2) (l1 ++ l2) = Model.select m1 l1 ++ Model.select m2 l2.
Proof.
  induction m1 as [|b m1 IH]; intros m2 [|x l1] l2 H; cbn in *; try discriminate; [reflexivity|].
  rewrite IH by lia. destruct b; reflexivity.
Qed.

Definition same_lengths {X Y} (a : list (list X)) (b : list (list Y)) : Prop := Forall2 (fun r s => length r = length s) a b.

Lemma same_lengths_maps : forall {A X Y} (f : A -> list X) (g : A -> list Y) l,
  (forall a, length (f a) = length (g a)) -> same_lengths (map f l) (map g l).
Proof. intros A X Y f g l H. induction l; constructor; auto. Qed.

Lemma select_concat : forall {X} (ms : list (list bool)) (ls : list (list X)), same_lengths ms ls ->
  Model.select (concat ms) (concat ls) = concat (map2 (@Model.select X) ms ls).
Proof. induction 1 as [|m l ms ls Hm _ IH]; [reflexivity|]. cbn [concat map2]. now rewrite select_app, IH. Qed.

Definition count (m : list bool) : nat := sumn (map b2n m).

Lemma mscatter_fst_length : forall {X} (m : list bool) (src d : list X), length (fst (mscatter m src d)) = length d.
Proof.
  induction m as [|b m IH]; intros src [|x d]; cbn; try reflexivity.
  destruct b.
  - destruct src as [|s st].
    + specialize (IH [] d). destruct (mscatter m [] d). cbn in *. now rewrite IH.
    + specialize (IH st d). destruct (mscatter m st d). cbn in *. now rewrite IH.
  - specialize (IH src d). destruct (mscatter m src d). cbn in *. now rewrite IH.
Qed.

Lemma count_cons : forall b m, count (b :: m) = b2n b + count m.
Proof. reflexivity. Qed.

Lemma mscatter_snd_length : forall {X} (m : list bool) (src d : list X), length m = length d -> count m <= length src ->
  length (snd (mscatter m src d)) = length src - count m.
Proof.
  induction m as [|b m IH]; intros src [|x d] H Hc; cbn [length] in H; try discriminate; [cbn; lia|].
  rewrite count_cons in *. cbn [mscatter]. destruct b; cbn [b2n] in *.
  - destruct src as [|s st]; [cbn in Hc; lia|]. cbn [length] in *.
    specialize (IH st d ltac:(lia) ltac:(lia)). destruct (mscatter m st d). cbn [snd] in *. lia.
  - specialize (IH src d ltac:(lia) ltac:(lia)). destruct (mscatter m src d). cbn [snd] in *. lia.
Qed.

Lemma mscat_row : forall {X} (m : list bool) (src d : list X) M D, length m = length d -> count m <= length src ->
  mscat (m ++ M) src (d ++ D) = option_map (app (fst (mscatter m src d))) (mscat M (snd (mscatter m src d)) D).
Proof.
  induction m as [|b m IH]; intros src [|x d] M D H Hc; cbn [length] in H; try discriminate.
  - cbn. now destruct (mscat M src D).
  - rewrite count_cons in Hc. cbn [app mscat mscatter]. destruct b; cbn [b2n] in *.
    + destruct src as [|s st]; [cbn in Hc; lia|]. cbn [length] in Hc.
      rewrite (IH st d M D) by lia. destruct (mscatter m st d) as [r rest]. cbn [fst snd].
      destruct (mscat M rest D); reflexivity.
    + rewrite (IH src d M D) by lia. destruct (mscatter m src d) as [r rest]. cbn [fst snd].
      destruct (mscat M rest D); reflexivity.
Qed.

Lemma mscat_rows : forall {X} (masks : list (list bool)) (dst : list (list X)), same_lengths masks dst ->
  forall src, sumn (map count masks) <= length src ->
  mscat (concat masks) src (concat dst) = Some (concat (mscatter_rows masks src dst)).
Proof.
  induction 1 as [|m d masks dst Hm _ IH]; intros src Hc; [reflexivity|].
  cbn [concat mscatter_rows map sumn fold_right] in *.
  rewrite mscat_row by (try assumption; lia).
  pose proof (mscatter_snd_length m src d Hm ltac:(lia)) as Hl.
  destruct (mscatter m src d) as [r rest]. cbn [fst snd] in *.
  rewrite IH; [reflexivity|].
  change (fold_right Nat.add 0 (map count masks)) with (sumn (map count masks)) in Hc. lia.
Qed.

Lemma mscat_map : forall {X Y} (h : X -> Y) (m : list bool) (src d : list X),
  mscat m (map h src) (map h d) = option_map (map h) (mscat m src d).
Proof.
  induction m as [|b m IH]; intros src [|x d]; cbn; try reflexivity.
  destruct b.
  - destruct src as [|s st]; cbn; [reflexivity|]. rewrite IH. destruct (mscat m st d); reflexivity.
  - rewrite IH. destruct (mscat m src d); reflexivity.
Qed.

Lemma mscatter_rows_length : forall {X} (masks : list (list bool)) (src : list X) dst,
  length (mscatter_rows masks src dst) = length dst.
Proof.
  induction masks as [|m masks IH]; intros src [|d dst]; cbn; try reflexivity.
  destruct (mscatter m src d) as [r rest]. cbn. now rewrite IH.
Qed.

Lemma mscatter_rows_row_length : forall {X} (masks : list (list bool)) (src : list X) dst n,
  length (nth n (mscatter_rows masks src dst) []) = length (nth n dst []).
Proof.
  induction masks as [|m masks IH]; intros src [|d dst] n; cbn; try reflexivity.
  pose proof (mscatter_fst_length m src d) as Hl. destruct (mscatter m src d) as [r rest]. cbn [fst] in Hl.
  destruct n; cbn; [assumption|apply IH].
Qed.

Lemma concat_as_tab2 : forall {X} (d : X) N T (P : list (list X)), length P = N -> (forall n, n < N -> length (nth n P []) = T) ->
  concat P = tab2 N T (fun n t => nth t (nth n P []) d).
Proof.
  intros X d N T P HN HT. rewrite tab2_rows. f_equal.
  rewrite (list_as_map_nth P N [] HN) at 1. apply map_ext_seq. intros n Hn. apply list_as_map_nth. now apply HT.
Qed.

Lemma count_pmask : forall T l, count (pmask l T) = Nat.min l T.
Proof.
  induction T as [|T IH]; intros l; [cbn; lia|]. rewrite pmask_S, count_cons, IH.
  destruct l; cbn [Nat.ltb Nat.leb b2n pred]; lia.
Qed.

Lemma count_le_length : forall m, count m <= length m.
Proof. induction m as [|b m IH]; [cbn; lia|]. rewrite count_cons. cbn [length]. destruct b; cbn [b2n]; lia. Qed.

Lemma sumn_b2n_Z : forall (k : list bool), fold_right Z.add 0%Z (map b2z k) = Z.of_nat (count k).
Proof.
  induction k as [|b k IH]; [reflexivity|]. rewrite count_cons. cbn [map fold_right]. rewrite IH.
  destruct b; cbn [b2z b2n]; lia.
Qed.

(* keep_from on a tabulated row: by index *)
Lemma keep_from_tab_gen : forall b (a : nat -> nat) T s prev,
  keep_from b prev (map a (seq s T)) =
  map (fun t => negb (a t =? b) && match (if t =? s then prev else Some (a (t - 1))) with None => true | Some p => negb (a t =? p) end)
      (seq s T).
Proof.
  intros b a. induction T as [|T IH]; intros s prev; [reflexivity|].
  cbn [seq map keep_from]. rewrite Nat.eqb_refl. f_equal. rewrite IH. apply map_ext_in. intros t Ht. apply in_seq in Ht.
  replace (t =? s) with false by (symmetry; apply Nat.eqb_neq; lia).
  destruct (Nat.eqb_spec t (S s)) as [->|_]; [|reflexivity]. now replace (S s - 1) with s by lia.
Qed.

Lemma keep_from_tab : forall b (a : nat -> nat) T,
  keep_from b None (map a (seq 0 T)) =
  map (fun t => negb (a t =? b) && (if t <? 1 then true else negb (a t =? a (t - 1)))) (seq 0 T).
Proof.
  intros. rewrite keep_from_tab_gen. apply map_ext. intros t. destruct t; reflexivity.
Qed.

(* ---- ctc_greedy_g on tabulated scores ------------------------------------------------------------------------------------ *)
Section Tab.
  Variables (N T V : nat) (f : nat -> nat -> nat -> xq) (b : nat) (inl : option (list Z)) (ip : bool).

  Definition lp_of : list (list (list xq)) := map (fun n => map (fun t => map (f n t) (seq 0 V)) (seq 0 T)) (seq 0 N).
  Definition amf (n t : nat) : nat := snd (xargmax (map (f n t) (seq 0 V))).
  Definition mxf (n t : nat) : xq := fst (xargmax (map (f n t) (seq 0 V))).
  Definition inm (n t : nat) : bool := match inl with None => true | Some ls => (Z.of_nat t <? nth n ls 0%Z)%Z end.
  Definition keep0f (n t : nat) : bool := negb (amf n t =? b) && (if t <? 1 then true else negb (amf n t =? amf n (t - 1))).
  Definition keepf (n t : nat) : bool := keep0f n t && inm n t.
  Definition olen (n : nat) : nat := count (map (keepf n) (seq 0 T)).
  Definition fillv : xq := if ip then xone else xzero.
  Definition scoref (n : nat) : xq :=
    (if ip then fold_right xmul xone else fold_right xadd xzero) (map (fun t => if inm n t then mxf n t else fillv) (seq 0 T)).

  Definition am_rows : list (list nat) := map (fun n => map (amf n) (seq 0 T)) (seq 0 N).
  Definition im_rows : list (list bool) := map (fun n => map (inm n) (seq 0 T)) (seq 0 N).
  Definition keep_rows : list (list bool) := map (fun n => map (keepf n) (seq 0 T)) (seq 0 N).
  Definition paths_tab : list (list nat) := fst (greedy_core b T im_rows am_rows).

  Hypothesis Hinl : forall ls, inl = Some ls -> length ls = N.

  Lemma in_mask_tab : greedy_in_mask T inl lp_of = im_rows.
  Proof.
    unfold greedy_in_mask, im_rows, inm, lp_of. destruct inl as [ls|].
    - rewrite (list_as_map_nth ls N 0%Z (Hinl ls eq_refl)) at 1. rewrite map_map. reflexivity.
    - rewrite map_map. apply map_ext. intros n. clear. induction T as [|T' IH]; [reflexivity|].
      rewrite seq_S, map_app. cbn [map]. rewrite <- IH. clear. induction T' as [|k IH]; [reflexivity|]. cbn. now rewrite <- IH.
  Qed.

  Lemma keep_tab : map2 (map2 andb) (map (keep_from b None) am_rows) im_rows = keep_rows.
  Proof.
    unfold am_rows, im_rows, keep_rows. rewrite map_map. rewrite (map2_maps (map2 andb)).
    apply map_ext. intros n. rewrite keep_from_tab. rewrite (map2_maps andb). reflexivity.
  Qed.

  Lemma greedy_core_lens : snd (greedy_core b T im_rows am_rows) = map olen (seq 0 N).
  Proof. unfold greedy_core. cbn [snd]. rewrite keep_tab. unfold keep_rows. rewrite map_map. reflexivity. Qed.

  Lemma ctc_greedy_g_tab : forall blank,
    (- Z.of_nat V <= blank <= Z.of_nat V - 1)%Z -> b = Z.to_nat ((blank + Z.of_nat V) mod Z.of_nat V) ->
    ctc_greedy_g xltb xadd xmul xzero xone xone ip (Z.of_nat V) blank T inl lp_of =
    Some (mkGG (map scoref (seq 0 N)) paths_tab (map olen (seq 0 N))).
  Proof.
    intros blank Hb Hbb. unfold ctc_greedy_g. rewrite <- Hbb.
    replace ((blank <? - Z.of_nat V)%Z || (Z.of_nat V - 1 <? blank)%Z) with false by lia.
    rewrite in_mask_tab.
    assert (Ham : map (map snd) (map (map (argmax_first_g xltb xzero)) lp_of) = am_rows).
    { unfold lp_of, am_rows, amf. rewrite !map_map. apply map_ext. intros n. rewrite !map_map. apply map_ext. intros t.
      reflexivity. }
    assert (Hmx : map (map fst) (map (map (argmax_first_g xltb xzero)) lp_of) = map (fun n => map (mxf n) (seq 0 T)) (seq 0 N)).
    { unfold lp_of, mxf. rewrite !map_map. apply map_ext. intros n. rewrite !map_map. apply map_ext. intros t.
      reflexivity. }
    rewrite Ham, Hmx.
    pose proof greedy_core_lens as Hl. unfold paths_tab.
    destruct (greedy_core b T im_rows am_rows) as [paths ol]. cbn [fst snd] in *.
    subst ol. do 2 f_equal.
    unfold im_rows. rewrite (map2_maps (map2 (fun (i : bool) v => if i then v else if ip then xone else xzero))).
    rewrite map_map. apply map_ext. intros n. unfold scoref, fillv. f_equal.
    apply (map2_maps (fun (i : bool) (v : xq) => if i then v else if ip then xone else xzero) (inm n) (mxf n)).
  Qed.

  (* the compaction as the tensor program does it: ONE masked_select / masked_scatter over the flattened batch *)
  Lemma olen_le : forall n, olen n <= T.
  Proof. intros n. unfold olen. etransitivity; [apply count_le_length|]. now rewrite map_length, seq_length. Qed.

  Lemma paths_tab_shape : length paths_tab = N /\ forall n, n < N -> length (nth n paths_tab []) = T.
  Proof.
    unfold paths_tab, greedy_core. cbn [fst]. split.
    - rewrite mscatter_rows_length. unfold am_rows. now rewrite map_length, seq_length.
    - intros n Hn. rewrite mscatter_rows_row_length. unfold am_rows.
      rewrite (nth_map_seq (fun n => map (amf n) (seq 0 T))) by assumption. now rewrite map_length, seq_length.
  Qed.

  Lemma greedy_scatter_tab :
    mscat (tab2 N T (fun n t => (Z.of_nat t <? Z.of_nat (olen n))%Z))
          (OpsC07B.select (tab2 N T keepf) (tab2 N T (fun n t => Z.of_nat (amf n t))))
          (tab2 N T (fun n t => Z.of_nat (amf n t)))
    = Some (tab2 N T (fun n t => Z.of_nat (nth t (nth n paths_tab []) 0))).
  Proof.
    destruct paths_tab_shape as [HPN HPT].
    assert (Eam : tab2 N T (fun n t => Z.of_nat (amf n t)) = map Z.of_nat (concat am_rows)).
    { rewrite <- (map_tab2 Z.of_nat). f_equal. apply tab2_rows. }
    assert (Ek : tab2 N T keepf = concat keep_rows) by (apply tab2_rows).
    assert (Em : tab2 N T (fun n t => (Z.of_nat t <? Z.of_nat (olen n))%Z) = concat (map (fun n => pmask (olen n) T) (seq 0 N))).
    { rewrite tab2_rows. f_equal. apply map_ext. intros n. apply map_ext. intros t. lia. }
    assert (Er : tab2 N T (fun n t => Z.of_nat (nth t (nth n paths_tab []) 0)) = map Z.of_nat (concat paths_tab)).
    { rewrite (concat_as_tab2 0 N T paths_tab HPN HPT). now rewrite map_tab2. }
    rewrite Eam, Ek, Em, Er, select_same, select_map, mscat_map.
    rewrite (select_concat keep_rows am_rows) by (apply same_lengths_maps; intros; now rewrite !map_length).
    unfold paths_tab, greedy_core. cbn [fst]. rewrite keep_tab.
    assert (Hol : map (fun l => map (fun t => t <? l) (seq 0 T)) (map (fun k => sumn (map b2n k)) keep_rows)
                  = map (fun n => pmask (olen n) T) (seq 0 N)).
    { unfold keep_rows. rewrite !map_map. reflexivity. }
    rewrite Hol.
    rewrite mscat_rows; [reflexivity| |].
    - apply same_lengths_maps. intros n. now rewrite pmask_length, map_length, seq_length.
    - rewrite map_map.
      assert (Hlen : length (concat (map2 (@Model.select nat) keep_rows am_rows)) = sumn (map olen (seq 0 N))).
      { unfold keep_rows, am_rows. rewrite (map2_maps (@Model.select nat)).
        clear. induction (seq 0 N) as [|n l IH]; [reflexivity|]. cbn [map concat sumn fold_right]. rewrite app_length, IH.
        f_equal. unfold olen, count. symmetry. apply count_select. now rewrite !map_length. }
      rewrite Hlen. apply Nat.eq_le_incl. f_equal. apply map_ext. intros n. rewrite count_pmask. pose proof (olen_le n). lia.
  Qed.
End Tab.
