(* C07 - tie between the Python text of `_sequence_log_probs_tensor` (_decoding.py) / `_lens_from_eos`
   (_string.py) and PV.C07.Model, checked by the kernel.  PV.Gen.C07Src.slp_tensor_body and
   PV.Gen.C07LensSrc.lens_from_eos_body are the MiniPy terms harness/py2coq/translate.py regenerates from
   /repo on every run; PV.MiniPy.Interp is their semantics; the torch calls mean what PV.MiniTorch.OpsC07
   says (through SrcRun.ext07), log_softmax is an oracle.  The lemmas below say: for EVERY input on the
   (outer, time, inner) normal form - hyp (A x T x B), logits (A x T x B x V), dim = 1 or -2, any eos, any
   oracle - interpreting the source computes exactly Model.slp_tensor (the same tensor, entry for entry,
   or an exception where the model has its error).  Proof: the interpreter is run on VARIABLE tensors, each torch
   call rewritten by its [ext_*] lemma, which says which tensor operations the source performs ([lens_ops_run],
   [slp_prefix], [slp_rest]); then the tabulated model values are put in and each operation is rewritten by its lemma
   on tabulated data (LemmasC07), down to a per-fibre equality with Model.slp_col / Model.lens_from_eos.  If the source
   is edited so that this stops being true, this file stops compiling and the C07 check reports the broken obligation.
   ([istep] is the step of the ties of C01 and C03, which import this file.) *)
From Coq Require Import ZArith QArith List String Bool Arith Lia ZifyBool ZifyNat.
From PV Require Import MiniPy.Syntax MiniPy.Interp MiniTorch.Ops MiniTorch.OpsC07 MiniTorch.LemmasC07.
From PV Require Import Gen.C07Src Gen.C07LensSrc C07.SrcRun C07.TieLib.
From PV Require C07.Model C07.Spec C07.Lib C07.ProofsSlp MiniTorch.Lemmas.
Import ListNotations.
Local Open Scope string_scope.

#[local] Arguments dec_any : simpl never.
#[local] Arguments enc_b : simpl never.
#[local] Arguments enc_i : simpl never.
#[local] Arguments enc_f : simpl never.
#[local] Arguments tab2 : simpl never.
#[local] Arguments tab3 : simpl never.
#[local] Arguments tab4 : simpl never.

(* ---- what reaches [ext07_ops], call by call ------------------------------------------------------ *)
(* [ext_red] selects the branch of [ext07_ops] for a literal call name: the dispatch on the name and on the shape of the
   argument list is evaluated, everything about tensors stays folded *)
Ltac ext_red := lazy beta iota zeta delta [ext07_ops is String.eqb Ascii.eqb Bool.eqb andb orb negb no_kw kw_is val_eqb long_token
  device_token any_shape any_map Z.eqb Pos.eqb].
Ltac ext_tac := intros; ext_red; rewrite ?dec_any_enc_f, ?dec_any_enc_i, ?dec_any_enc_b; ext_red; try reflexivity.

Section ExtLemmas.
  Variable lsm : tn xq -> tn xq.
  Notation ext := (ext07_ops lsm).

  Lemma ext_dim_i x st : ext "$method.dim" [enc_i x] [] st = Ok (VInt (Z.of_nat (List.length (shp x)))) st.
  Proof. ext_tac. Qed.

  Lemma ext_shape_i x st :
    ext "$attr.shape" [enc_i x] [] st = Ok (VTuple (map (fun n => VInt (Z.of_nat n)) (shp x))) st.
  Proof. ext_tac. Qed.

  Lemma ext_shape_f x st :
    ext "$attr.shape" [enc_f x] [] st = Ok (VTuple (map (fun n => VInt (Z.of_nat n)) (shp x))) st.
  Proof. ext_tac. Qed.

  Lemma ext_device_f x st : ext "$attr.device" [enc_f x] [] st = Ok device_token st.
  Proof. ext_tac. Qed.

  Lemma ext_lsm x st : (rank x =? 0)%nat = false -> nats_eqb (shp (lsm x)) (shp x) = true ->
    ext "torch.nn.functional.log_softmax" [enc_f x; VInt (-1)] [] st = Ok (enc_f (lsm x)) st.
  Proof. intros H1 H2. ext_tac. now rewrite H1, H2. Qed.

  Lemma ext_lt x c st : ext "$method.lt" [enc_i x; VInt c] [] st = Ok (enc_b (lt_s x c)) st.
  Proof. ext_tac. Qed.

  Lemma ext_ge x c st : ext "$method.ge" [enc_i x; VInt c] [] st = Ok (enc_b (ge_s x c)) st.
  Proof. ext_tac. Qed.

  Lemma ext_eq_i x c st : ext "$method.eq" [enc_i x; VInt c] [] st = Ok (enc_b (eq_s x c)) st.
  Proof. ext_tac. Qed.

  Lemma ext_eq_b x c st : ext "$method.eq" [enc_b x; VInt c] [] st = Ok (enc_b (eq_sb x c)) st.
  Proof. ext_tac. Qed.

  Lemma ext_or x y st : ext "operator" [VStr "or"; enc_b x; enc_b y] [] st = ret_any "or" (option_map TB (bor x y)) st.
  Proof. ext_tac. Qed.

  Lemma ext_and x y st : ext "operator" [VStr "and"; enc_b x; enc_b y] [] st = ret_any "and" (option_map TB (band x y)) st.
  Proof. ext_tac. Qed.

  Lemma ext_add x c st : ext "operator" [VStr "add"; enc_i x; VInt c] [] st = Ok (enc_i (add_s x c)) st.
  Proof. ext_tac. Qed.

  Lemma ext_cmp_ge x y st : ext "compare" [VStr "ge"; enc_i x; enc_i y] [] st = ret_any "ge" (option_map TB (ge_t x y)) st.
  Proof. ext_tac. Qed.

  Lemma ext_cumsum x d st :
    ext "torch.cumsum" [enc_b x; VInt d] [("dtype", long_token)] st = ret_any "cumsum" (option_map TI (cumsum_bool x d)) st.
  Proof. ext_tac. Qed.

  Lemma ext_arange n st :
    ext "torch.arange" [VInt n] [("device", device_token)] st = ret_any "arange" (option_map TI (arange n)) st.
  Proof. reflexivity. Qed.

  Lemma ext_max x d st :
    ext "$method.max" [enc_b x; VInt d] [] st =
    match max_bool x d with
    | Some (Some (v, i)) => Ok (VTuple [enc_b v; enc_i i]) st
    | Some None => Exc index_error st
    | None => oob "max"
    end.
  Proof. ext_tac. Qed.

  Lemma ext_mfill_i x m c st :
    ext "$method.masked_fill" [enc_i x; enc_b m; VInt c] [] st = ret_any "masked_fill" (option_map TI (masked_fill x m c)) st.
  Proof. ext_tac. Qed.

  Lemma ext_mfill_f x m q st :
    ext "$method.masked_fill" [enc_f x; enc_b m; VQ q] [] st = ret_any "masked_fill" (option_map TF (masked_fill x m (Fin q))) st.
  Proof. ext_tac. Qed.

  Lemma ext_unsqueeze_i x d st :
    ext "$method.unsqueeze" [enc_i x; VInt d] [] st = ret_any "unsqueeze" (option_map TI (unsqueeze x d)) st.
  Proof. ext_tac. Qed.

  Lemma ext_squeeze_f x d st :
    ext "$method.squeeze" [enc_f x; VInt d] [] st = ret_any "squeeze" (option_map TF (squeeze_dim x d)) st.
  Proof. ext_tac. Qed.

  Lemma ext_flatten_i x d st :
    ext "$method.flatten" [enc_i x; VInt d] [] st = ret_any "flatten" (option_map TI (flatten_from x d)) st.
  Proof. ext_tac. Qed.

  Lemma ext_view_as_b x y st :
    ext "$method.view_as" [enc_b x; enc_b y] [] st = ret_any "view_as" (option_map TB (view_as x (shp y))) st.
  Proof. ext_tac. Qed.

  Lemma ext_gather x y st :
    ext "$method.gather" [enc_f x; VInt (-1); enc_i y] [] st = ret_any "gather" (option_map TF (gather_last x y)) st.
  Proof. ext_tac. Qed.

  Lemma ext_sum x d st : ext "$method.sum" [enc_f x; VInt d] [] st = ret_any "sum" (option_map TF (sum_dim x d)) st.
  Proof. ext_tac. Qed.
End ExtLemmas.

(* ---- tensors inside the interpreter ------------------------------------------------------------------- *)
Lemma method_enc_i t m args : method (enc_i t) m args = None.  Proof. reflexivity. Qed.
Lemma method_enc_b t m args : method (enc_b t) m args = None.  Proof. reflexivity. Qed.
Lemma method_enc_f t m args : method (enc_f t) m args = None.  Proof. reflexivity. Qed.
Lemma attribute_enc_i ext t a st : attribute ext (enc_i t) a st = ext ("$attr." ++ a) [enc_i t] [] st.  Proof. reflexivity. Qed.
Lemma attribute_enc_f ext t a st : attribute ext (enc_f t) a st = ext ("$attr." ++ a) [enc_f t] [] st.  Proof. reflexivity. Qed.
Lemma binop_or_enc t u st : binop_eval BitOr (enc_b t) (enc_b u) st = Stuck "or".  Proof. reflexivity. Qed.
Lemma binop_and_enc t u st : binop_eval BitAnd (enc_b t) (enc_b u) st = Stuck "and".  Proof. reflexivity. Qed.
Lemma binop_add_enc t c st : binop_eval Add (enc_i t) (VInt c) st = Stuck "add".  Proof. reflexivity. Qed.
Lemma foreign_enc_i t : foreign (enc_i t) = true.  Proof. reflexivity. Qed.

#[local] Arguments ext07_ops : simpl never.

Ltac istep :=
  cbn;
  change (Pos.to_nat 1) with 1%nat; change (Pos.to_nat 2) with 2%nat; change (Pos.to_nat 3) with 3%nat; cbn;
  rewrite ?method_enc_i, ?method_enc_b, ?method_enc_f, ?attribute_enc_i, ?attribute_enc_f,
    ?binop_or_enc, ?binop_and_enc, ?binop_add_enc, ?foreign_enc_i;
  cbn.

(* ---- _lens_from_eos on one fibre: the MiniTorch computation is Model.lens_from_eos --------------------- *)
Lemma first_true_same l : OpsC07.first_true l = Model.first_true l.
Proof. reflexivity. Qed.

Lemma run_sum_length l : forall acc, List.length (run_sum acc l) = List.length l.
Proof. induction l as [|x l IH]; intros acc; cbn; [reflexivity|now rewrite IH]. Qed.

Lemma hit_model e col : forall acc,
  zipw (fun r (m : bool) => (r =? 1)%Z && m) (run_sum (Z.of_nat acc) (map b2z (map (fun k => (k =? e)%Z) col)))
       (map (fun k => (k =? e)%Z) col)
  = Model.map2 andb (map (Nat.eqb 1) (Model.cumsum_from acc (map Model.b2n (map (Z.eqb e) col)))) (map (Z.eqb e) col).
Proof.
  induction col as [|k col IH]; intros acc; [reflexivity|].
  cbn [map run_sum zipw Model.cumsum_from Model.map2]. rewrite (Z.eqb_sym e k). f_equal.
  - destruct (k =? e)%Z; cbn [b2z Model.b2n]; [|now rewrite !andb_false_r]. rewrite !andb_true_r.
    destruct (Nat.eqb_spec 1 (acc + 1)); lia.
  - replace (Z.of_nat acc + b2z (k =? e)%Z)%Z with (Z.of_nat (acc + Model.b2n (k =? e)%Z))
      by (destruct (k =? e)%Z; cbn [b2z Model.b2n]; lia).
    apply IH.
Qed.

Lemma lens_col e T (c : nat -> Z) :
  let hit := map (fun t => (nth t (run_sum 0 (map b2z (map (fun s => (c s =? e)%Z) (seq 0 T)))) 0 =? 1)%Z && (c t =? e)%Z) (seq 0 T) in
  (if (b2z match OpsC07.first_true hit with Some _ => true | None => false end =? 0)%Z then Z.of_nat T
   else match OpsC07.first_true hit with Some j => Z.of_nat j | None => 0%Z end)
  = Z.of_nat (Model.lens_from_eos e (map c (seq 0 T))).
Proof.
  intros hit.
  assert (E : hit = Model.map2 andb (map (Nat.eqb 1) (Model.cumsum (map Model.b2n (map (Z.eqb e) (map c (seq 0 T))))))
                               (map (Z.eqb e) (map c (seq 0 T)))).
  { unfold Model.cumsum. rewrite <- (hit_model e (map c (seq 0 T)) 0). unfold hit. rewrite !map_map.
    rewrite <- (map_nth_zipw _ _ _ T 0%Z false) by (rewrite ?run_sum_length, !map_length, seq_length; reflexivity).
    apply map_ext_seq. intros t Ht. rewrite (MiniTorch.Lemmas.nth_map_seq (fun x => (c x =? e)%Z)) by assumption. reflexivity. }
  rewrite first_true_same, E. unfold Model.lens_from_eos, Model.max_first_bool.
  destruct (Model.first_true _) as [j|]; cbn; [reflexivity|]. now rewrite !map_length, seq_length.
Qed.

#[local] Arguments exec : simpl never.
#[local] Arguments subscript : simpl never.
#[local] Arguments eval ext e !st.
#[local] Arguments attribute ext o a !st.
#[local] Arguments binop_eval op a b !st.
#[local] Arguments builtin f args !st.
#[local] Arguments method !o m !args.
#[local] Arguments truthy !v.
#[local] Arguments eq_s : simpl never.
#[local] Arguments eq_sb : simpl never.
#[local] Arguments lt_s : simpl never.
#[local] Arguments ge_s : simpl never.
#[local] Arguments add_s : simpl never.

(* _lens_from_eos as a tensor program: one hypothesis per torch call, in program order *)
Lemma lens_ops_run lsm tok e d (x : tn Z) (h : tn bool) r : (d < rank tok)%nat ->
  cumsum_bool (eq_s tok e) (Z.of_nat d) = Some x ->
  band (eq_s x 1) (eq_s tok e) = Some h ->
  max_bool h (Z.of_nat d) = Some r ->
  exists st, run_lens lsm tok e (Z.of_nat d) =
    match r with
    | Some (mxv, amx) => ret_any "masked_fill" (option_map TI (masked_fill amx (eq_sb mxv 0) (Z.of_nat (nth d (shp tok) 0%nat)))) st
    | None => Exc index_error st
    end.
Proof.
  intros Hd Hx Hh Hr. unfold run_lens. rewrite run_fin. unfold lens_from_eos_body, lens_vars, globals07. hide_names.
  (* mask = tok.eq(eos) *)
  sassign. rewrite method_enc_i, ext_eq_i. cbn.
  (* x = torch.cumsum(mask, dim, dtype=torch.long) *)
  sassign. rewrite ext_cumsum. ret Hx.
  (* max_, argmax = (x.eq(1) & mask).max(dim) *)
  sassign. rewrite method_enc_i, ext_eq_i. cbn. rewrite binop_and_enc, ext_and. ret Hh.
  rewrite method_enc_b, ext_max, Hr. destruct r as [[mxv amx]|]; cbn; [|eexists; reflexivity].
  sassign. rewrite subscript_pair_0. cbn. sassign. rewrite subscript_pair_1. cbn.
  (* return argmax.masked_fill(max_.eq(0), tok.shape[dim]) *)
  sreturn. rewrite method_enc_b, ext_eq_b. cbn. rewrite attribute_enc_i. cbn. rewrite ext_shape_i. cbn.
  rewrite subscript_shape by assumption. cbn. rewrite method_enc_i, ext_mfill_i. eexists. destruct (masked_fill _ _ _); reflexivity.
Qed.

Lemma eq_s_tab3 A T B h e : eq_s (mkTn [A; T; B] (tab3 A T B h)) e = mkTn [A; T; B] (tab3 A T B (fun a t b => (h a t b =? e)%Z)).
Proof. unfold eq_s, cmp_scalar. cbn [shp dat]. now rewrite map_tab3. Qed.

(* the running count of eos along each fibre, and the positions where it is 1 at an eos *)
Lemma lens_ops_3 A T B h e :
  let m := fun a t b => nth t (run_sum 0 (map b2z (map (fun s => (h a s b =? e)%Z) (seq 0 T)))) 0%Z in
  cumsum_bool (eq_s (mkTn [A; T; B] (tab3 A T B h)) e) 1 = Some (mkTn [A; T; B] (tab3 A T B m)) /\
  band (eq_s (mkTn [A; T; B] (tab3 A T B m)) 1) (eq_s (mkTn [A; T; B] (tab3 A T B h)) e) =
  Some (mkTn [A; T; B] (tab3 A T B (fun a t b => (m a t b =? 1)%Z && (h a t b =? e)%Z))).
Proof.
  intros m. rewrite !eq_s_tab3. split; [apply cumsum_bool_3|].
  unfold band, zip_same. cbn [shp dat]. now rewrite nats_eqb_refl, zipw_tab3.
Qed.

Lemma lens_run_3 lsm A T B h e : T <> 0%nat ->
  exists st, run_lens lsm (mkTn [A; T; B] (tab3 A T B h)) e 1 =
    Ok (enc_i (mkTn [A; B] (tab2 A B (fun a b => Z.of_nat (Model.lens_from_eos e (map (fun t => h a t b) (seq 0 T))))))) st.
Proof.
  intros HT. destruct (lens_ops_3 A T B h e) as (Hx & Hh).
  destruct (lens_ops_run lsm (mkTn [A; T; B] (tab3 A T B h)) e 1 _ _ _ ltac:(unfold rank; cbn [shp List.length]; lia) Hx Hh (max_bool_3 _ _ _ _ HT)) as [st H].
  exists st. change (Z.of_nat 1) with 1%Z in H. rewrite H. cbv beta iota. unfold masked_fill, zip_same, eq_sb. cbn [shp dat nth]. rewrite nats_eqb_refl, map_tab2, zipw_tab2. cbn [option_map ret_any enc_any].
  do 3 f_equal. apply tab2_ext. intros a b Ha Hb. apply lens_col.
Qed.

Lemma lens_run_3_empty lsm A B h e :
  exists st, run_lens lsm (mkTn [A; 0%nat; B] (tab3 A 0 B h)) e 1 = Exc index_error st.
Proof.
  destruct (lens_ops_3 A 0 B h e) as (Hx & Hh).
  exact (lens_ops_run lsm (mkTn [A; 0%nat; B] (tab3 A 0 B h)) e 1 _ _ _ ltac:(unfold rank; cbn [shp List.length]; lia) Hx Hh (max_bool_3_empty _ _ _)).
Qed.

Lemma unsqueeze_2_1 {X} A B (d : list X) : unsqueeze (mkTn [A; B] d) 1 = Some (mkTn [A; 1%nat; B] d).
Proof. reflexivity. Qed.
Lemma unsqueeze_1_m1 {X} T (d : list X) : unsqueeze (mkTn [T] d) (-1) = Some (mkTn [T; 1%nat] d).
Proof. reflexivity. Qed.
Lemma unsqueeze_3_m1 {X} A T B (d : list X) : unsqueeze (mkTn [A; T; B] d) (-1) = Some (mkTn [A; T; B; 1%nat] d).
Proof. reflexivity. Qed.
Lemma flatten_3_2 {X} A B (d : list X) : flatten_from (mkTn [A; 1%nat; B] d) 2 = Some (mkTn [A; 1%nat; B] d).
Proof. reflexivity. Qed.
Lemma squeeze_4_m1 {X} A T B (d : list X) : squeeze_dim (mkTn [A; T; B; 1%nat] d) (-1) = Some (mkTn [A; T; B] d).
Proof. reflexivity. Qed.
Lemma view_as_same {X} sh (d : list X) : view_as (mkTn sh d) sh = Some (mkTn sh d).
Proof. unfold view_as. cbn [shp dat]. now rewrite Nat.eqb_refl. Qed.
Lemma arange_nat T : arange (Z.of_nat T) = Some (mkTn [T] (map Z.of_nat (seq 0 T))).
Proof. unfold arange. replace (Z.of_nat T <? 0)%Z with false by lia. now rewrite Nat2Z.id. Qed.


Lemma call_body_lens lsm tok e d st :
  call_body lsm lens_from_eos_body (("tok", enc_i tok) :: ("eos", VInt e) :: ("dim", VInt d) :: globals07) st =
  match run_lens lsm tok e d with Ok v _ => Ok v st | Exc n _ => Exc n st | Stuck w => Stuck w end.
Proof. reflexivity. Qed.

#[local] Arguments call_body : simpl never.

(* hyp of rank 3, dim = 1 or -2: the statements up to `mask = hyp.lt(0) | hyp.ge(num_classes)`, and the state they leave *)
Definition slp_mid (lsm : tn xq -> tn xq) (logits : tn xq) (hyp : tn Z) (eos : option Z) (T V : nat) (m0 : tn bool) : state :=
  mkState [("logits", enc_f (lsm logits)); ("hyp", enc_i hyp); ("dim", VInt 1); ("eos", opt_int eos); ("hyp_dim", VInt 3);
           ("steps", VInt (Z.of_nat T)); ("num_classes", VInt (Z.of_nat V)); ("mask", enc_b m0)] [].

Lemma slp_prefix lsm logits hyp dim eos A T B V m0 : dim = 1%Z \/ dim = (-2)%Z ->
  shp hyp = [A; T; B] -> shp logits = [A; T; B; V] -> shp (lsm logits) = shp logits ->
  bor (lt_s hyp 0) (ge_s hyp (Z.of_nat V)) = Some m0 ->
  run_slp lsm logits hyp dim eos = fin (exec (ext07 lsm) (drop_stmts 7 slp_tensor_body) (slp_mid lsm logits hyp eos T V m0)).
Proof.
  intros Hd Hh Hl Hlsm Hm0. match goal with |- _ = ?R => set (rhs := R) end.
  unfold run_slp. rewrite run_fin. unfold slp_tensor_body, slp_vars. hide_names.
  (* hyp_dim = hyp.dim() *)
  sassign. rewrite method_enc_i, ext_dim_i, Hh. cbn.
  (* if dim < -hyp_dim or dim > hyp_dim - 1: raise; dim = (hyp_dim + dim) % hyp_dim *)
  destruct Hd as [-> | ->].
  all: sif; rewrite exec_pass; cbn; sassign.
  (* steps = hyp.shape[dim] *)
  all: sassign; rewrite attribute_enc_i; cbn; rewrite ext_shape_i, Hh; unfold subscript; cbn; change (Pos.to_nat 1) with 1%nat; cbn.
  (* num_classes = logits.shape[-1] *)
  all: sassign; rewrite attribute_enc_f; cbn; rewrite ext_shape_f, Hl; unfold subscript; cbn; change (Pos.to_nat 3) with 3%nat; cbn.
  (* logits = torch.nn.functional.log_softmax(logits, -1) *)
  all: sassign; rewrite ext_lsm by (unfold rank; rewrite ?Hlsm, Hl; reflexivity + apply nats_eqb_refl); cbn.
  (* mask = hyp.lt(0) | hyp.ge(num_classes) *)
  all: sassign; rewrite method_enc_i, ext_lt; cbn; rewrite method_enc_i, ext_ge; cbn; rewrite binop_or_enc, ext_or; ret Hm0.
  all: reflexivity.
Qed.

#[local] Arguments slp_mid : simpl never.

(* from there on *)
Lemma slp_rest lsm logits hyp eos T V m0 m hyp' hu g g' g'' out :
  match eos with
  | Some e => exists lens st' hl1 hl2 ar lm lm',
      run_lens lsm hyp e 1 = Ok (enc_i lens) st' /\ unsqueeze (add_s lens 1) 1 = Some hl1 /\ flatten_from hl1 2 = Some hl2 /\
      unsqueeze (mkTn [T] (map Z.of_nat (seq 0 T))) (-1) = Some ar /\ ge_t ar hl2 = Some lm /\
      view_as lm (shp m0) = Some lm' /\ bor m0 lm' = Some m
  | None => m = m0
  end ->
  masked_fill hyp m 0%Z = Some hyp' ->
  unsqueeze hyp' (-1) = Some hu ->
  gather_last (lsm logits) hu = Some g ->
  squeeze_dim g (-1) = Some g' ->
  masked_fill g' m (Fin 0) = Some g'' ->
  sum_dim g'' 1 = Some out ->
  exists st, fin (exec (ext07 lsm) (drop_stmts 7 slp_tensor_body) (slp_mid lsm logits hyp eos T V m0)) = Ok (enc_f out) st.
Proof.
  intros Heos Hhyp' Hhu Hg Hg' Hg'' Hout. cbv [drop_stmts slp_tensor_body slp_mid]. hide_names.
  (* if eos is not None *)
  sif. destruct eos as [e|]; cbn.
  2: subst m; rewrite exec_pass; cbn.
  1: destruct Heos as (lens & st' & hl1 & hl2 & ar & lm & lm' & Hlens & Hhl1 & Hhl2 & Har & Hlm & Hlm' & Hm).
  (* hyp_lens = _lens_from_eos(hyp, eos, dim) + 1 *)
  1: sassign; rewrite call_body_lens, Hlens; cbn; rewrite binop_add_enc, ext_add; cbn.
  (* if dim: hyp_lens = hyp_lens.unsqueeze(dim); if dim == hyp_dim - 1: .. else: hyp_lens = hyp_lens.flatten(dim + 1) *)
  1: sif; sassign; rewrite method_enc_i, ext_unsqueeze_i; ret Hhl1.
  1: sif; rewrite exec_assign1; run; rewrite method_enc_i, ext_flatten_i; ret Hhl2.
  (* len_mask = torch.arange(steps, device=logits.device).unsqueeze(-1) >= hyp_lens *)
  1: sassign; rewrite attribute_enc_f; cbn; rewrite ext_device_f; cbn; rewrite ext_arange, arange_nat; cbn.
  1: rewrite method_enc_i, ext_unsqueeze_i; ret Har.
  1: sassign; rewrite foreign_enc_i; cbn; rewrite ext_cmp_ge; ret Hlm.
  (* mask = mask | len_mask.view_as(mask) *)
  1: sassign; rewrite method_enc_b, ext_view_as_b; ret Hlm'.
  1: sassign; rewrite binop_or_enc, ext_or; ret Hm.
  (* hyp = hyp.masked_fill(mask, 0) *)
  all: sassign; rewrite method_enc_i, ext_mfill_i; ret Hhyp'.
  (* logits = logits.gather(-1, hyp.unsqueeze(-1)).squeeze(-1) *)
  all: sassign; rewrite method_enc_i, ext_unsqueeze_i; ret Hhu.
  all: rewrite method_enc_f, ext_gather; ret Hg.
  all: rewrite method_enc_f, ext_squeeze_f; ret Hg'.
  (* logits = logits.masked_fill(mask, 0.0) *)
  all: sassign; rewrite method_enc_f, ext_mfill_f; ret Hg''.
  (* return logits.sum(dim) *)
  all: sreturn; rewrite method_enc_f, ext_sum; ret Hout; eexists; reflexivity.
Qed.

(* eos set and `_lens_from_eos` raises (a time dimension of length zero) *)
Lemma slp_rest_raises lsm logits hyp e T V m0 n st' : run_lens lsm hyp e 1 = Exc n st' ->
  exists st, fin (exec (ext07 lsm) (drop_stmts 7 slp_tensor_body) (slp_mid lsm logits hyp (Some e) T V m0)) = Exc n st.
Proof.
  intros Hlens. cbv [drop_stmts slp_tensor_body slp_mid]. sif. sassign. rewrite call_body_lens, Hlens. cbn. eexists. reflexivity.
Qed.

(* the value the source computes for one (outer, inner) position, and the model's *)
Definition src_oov (V : nat) (k : Z) : bool := ((k <? 0) || (k >=? Z.of_nat V))%Z.

Lemma src_oov_model V k : src_oov V k = Model.oov (Z.of_nat V) k.
Proof. unfold src_oov, Model.oov. lia. Qed.

(* the mask of one fibre: out of vocabulary, or past the first eos *)
Definition src_mask (V : nat) (eos : option Z) T (c : nat -> Z) (t : nat) : bool :=
  src_oov V (c t) ||
  match eos with Some e => (Z.of_nat t >=? Z.of_nat (Model.lens_from_eos e (map c (seq 0 T))) + 1)%Z | None => false end.

Lemma slp_col_tab V eos T (r : nat -> list xq) (c : nat -> Z) :
  let mask := src_mask V eos T c in
  fold_right xadd xzero
    (map (fun t => if mask t then Fin 0 else nth (Z.to_nat (if mask t then 0%Z else c t)) (r t) xzero) (seq 0 T))
  = Model.slp_col xadd xzero (Z.of_nat V) eos (map r (seq 0 T)) (map c (seq 0 T)).
Proof.
  intros mask. unfold Model.slp_col, Model.gather_masked, Model.sum_list. f_equal.
  assert (Hm : Model.slp_mask (Z.of_nat V) eos (map c (seq 0 T)) = map mask (seq 0 T)).
  { unfold Model.slp_mask, mask, src_mask. rewrite !map_map. destruct eos as [e|].
    - rewrite map_length, seq_length, (Lib.map2_maps orb). apply map_ext_seq. intros t Ht. rewrite src_oov_model. f_equal. lia.
    - apply map_ext. intros t. now rewrite src_oov_model, orb_false_r. }
  rewrite Hm, (Lib.map2_maps (fun (m : bool) k => if m then 0%Z else k)), (Lib.map2_maps (fun row k => nth (Z.to_nat k) row xzero)).
  now rewrite (Lib.map2_maps (fun (m : bool) v => if m then xzero else v)).
Qed.

Section Tab.
  Variables (lsm : tn xq -> tn xq) (logits : tn xq) (A T B V : nat) (h : nat -> nat -> nat -> Z) (r : nat -> nat -> nat -> list xq).
  Hypothesis HV : (0 < V)%nat.
  Hypothesis Hsh : shp logits = [A; T; B; V].
  Hypothesis Hl : lsm logits = mkTn [A; T; B; V] (tab4 A T B V (fun a t b v => nth v (r a t b) xzero)).

  Let hyp := mkTn [A; T; B] (tab3 A T B h).

  Lemma oov_tab : bor (lt_s hyp 0) (ge_s hyp (Z.of_nat V)) = Some (mkTn [A; T; B] (tab3 A T B (fun a t b => src_oov V (h a t b)))).
  Proof. unfold bor, zip_same, lt_s, ge_s, cmp_scalar. cbn [hyp shp dat]. now rewrite nats_eqb_refl, !map_tab3, zipw_tab3. Qed.

  Lemma slp_run_tab eos dim : dim = 1%Z \/ dim = (-2)%Z -> eos = None \/ T <> 0%nat ->
    exists st, run_slp lsm logits hyp dim eos =
      Ok (enc_f (mkTn [A; B] (tab2 A B (fun a b =>
            Model.slp_col xadd xzero (Z.of_nat V) eos (map (fun t => r a t b) (seq 0 T)) (map (fun t => h a t b) (seq 0 T)))))) st.
  Proof.
    intros Hd HT. rewrite (slp_prefix lsm logits hyp dim eos A T B V _ Hd eq_refl Hsh ltac:(now rewrite Hl) oov_tab).
    set (mask := fun a t b => src_mask V eos T (fun t => h a t b) t).
    eapply (slp_rest lsm logits hyp eos T V _ (mkTn [A; T; B] (tab3 A T B mask))).
    - destruct eos as [e|]; [|unfold mask, src_mask; f_equal; apply tab3_ext; intros; apply orb_false_r].
      destruct HT as [HT|HT]; [discriminate|]. destruct (lens_run_3 lsm A T B h e HT) as [st' Hlens].
      eexists _, st', _, _, _, _, _. split; [exact Hlens|].
      unfold add_s. cbn [shp dat]. rewrite map_tab2.
      split; [apply unsqueeze_2_1|]. split; [apply flatten_3_2|]. split; [apply unsqueeze_1_m1|]. split; [apply ge_t_col_3|].
      split; [apply view_as_same|].
      unfold bor, zip_same. cbn [shp dat]. now rewrite nats_eqb_refl, zipw_tab3.
    - unfold masked_fill, zip_same. cbn [hyp shp dat]. now rewrite nats_eqb_refl, zipw_tab3.
    - apply unsqueeze_3_m1.
    - rewrite Hl. apply gather_last_4. intros a t b Ha Ht Hb. unfold mask, src_mask, src_oov. destruct (_ || _) eqn:E; lia.
    - apply squeeze_4_m1.
    - unfold masked_fill, zip_same. cbn [shp dat]. now rewrite nats_eqb_refl, zipw_tab3.
    - rewrite sum_dim_3. do 2 f_equal. apply tab2_ext. intros a b Ha Hb.
      apply (slp_col_tab V eos T (fun t => r a t b) (fun t => h a t b)).
  Qed.
End Tab.

(* eos set, zero-length time dimension: `.max(dim)` over an empty dimension raises *)
Lemma slp_run_tab_empty lsm logits A B V h e dim : dim = 1%Z \/ dim = (-2)%Z ->
  shp logits = [A; 0%nat; B; V] -> shp (lsm logits) = shp logits ->
  exists st, run_slp lsm logits (mkTn [A; 0%nat; B] (tab3 A 0 B h)) dim (Some e) = Exc index_error st.
Proof.
  intros Hd Hsh Hl. rewrite (slp_prefix lsm logits (mkTn [A; 0%nat; B] (tab3 A 0 B h)) dim (Some e) A 0 B V _ Hd eq_refl Hsh Hl (oov_tab A 0 B V h)).
  destruct (lens_run_3_empty lsm A B h e) as [st' Hlens]. now apply (slp_rest_raises lsm logits _ e 0 V _ index_error st').
Qed.

(* ---- the tie ---------------------------------------------------------------------------------------------
   The model's inputs: lp[a][t][b][v] (log-softmax values, as data) and hyp[a][t][b]; the same
   well-formedness as c07_slp_tensor_correct (A outer entries, each with T time steps). *)
Definition wf_slp {X} (A T : nat) (lp : list (list (list (list X)))) (hyp : list (list (list Z))) : Prop :=
  List.length lp = A /\ List.length hyp = A /\
  forall a, (a < A)%nat -> List.length (nth a lp []) = T /\ List.length (nth a hyp []) = T.

Lemma column_as_map {X} (d : X) b (m : list (list X)) T : List.length m = T ->
  Model.column d b m = map (fun t => nth b (nth t m []) d) (seq 0 T).
Proof.
  intros H. unfold Model.column. rewrite (list_as_map_nth m T [] H) at 1. now rewrite map_map.
Qed.

Lemma model_out_tab2 A T B V eos (lp : list (list (list (list xq)))) hyp : wf_slp A T lp hyp ->
  List.concat (Model.map2 (fun lp_a hyp_a =>
                  map (fun b => Model.slp_col xadd xzero V eos (Model.column [] b lp_a) (Model.column 0%Z b hyp_a)) (seq 0 B))
               lp hyp)
  = tab2 A B (fun a b => Model.slp_col xadd xzero V eos (map (fun t => lp_row lp a t b) (seq 0 T))
                                                        (map (fun t => hyp_at hyp a t b) (seq 0 T))).
Proof.
  intros [Hl [Hh Hrows]].
  rewrite (list_as_map_nth lp A [] Hl) at 1. rewrite (list_as_map_nth hyp A [] Hh) at 1.
  rewrite Lib.map2_maps, <- flat_map_concat_map. unfold tab2. apply flat_map_ext_seq. intros a Ha.
  destruct (Hrows a Ha) as [H1 H2]. apply map_ext_seq. intros b Hb.
  rewrite (column_as_map [] b _ T H1), (column_as_map 0%Z b _ T H2). reflexivity.
Qed.

(* dim = -2 on the normal form is dim = 1 (after `dim = (hyp_dim + dim) % hyp_dim` the two runs coincide) *)
Theorem slp_tensor_tie_dims : forall lsm logits A T B V eos lp hyp dim,
  dim = 1%Z \/ dim = (-2)%Z ->
  (0 < V)%nat -> shp logits = [A; T; B; V] -> lsm logits = lp_tensor A T B V lp -> wf_slp A T lp hyp ->
  match Model.slp_tensor xadd xzero (Z.of_nat V) eos T B lp hyp with
  | Some out => exists st, Interp.run (ext07 lsm) slp_tensor_body (slp_vars logits (hyp_tensor A T B hyp) dim eos)
                           = Ok (enc_f (out_tensor A B out)) st
  | None => exists st, Interp.run (ext07 lsm) slp_tensor_body (slp_vars logits (hyp_tensor A T B hyp) dim eos)
                       = Exc index_error st
  end.
Proof.
  intros lsm logits A T B V eos lp hyp dim Hd HV Hsh Hl Hwf. unfold Model.slp_tensor, hyp_tensor, out_tensor.
  destruct eos as [e|]; [destruct T as [|T']|].
  - apply (slp_run_tab_empty lsm logits A B V (hyp_at hyp) e dim Hd Hsh). now rewrite Hl.
  - rewrite (model_out_tab2 A (S T') B _ _ lp hyp Hwf).
    apply (slp_run_tab lsm logits A (S T') B V (hyp_at hyp) (lp_row lp) HV Hsh Hl (Some e) dim Hd (or_intror (Nat.neq_succ_0 T'))).
  - rewrite (model_out_tab2 A T B _ _ lp hyp Hwf).
    apply (slp_run_tab lsm logits A T B V (hyp_at hyp) (lp_row lp) HV Hsh Hl None dim Hd (or_introl eq_refl)).
Qed.

(* `_lens_from_eos` alone, on the normal form: the position of the first eos of every fibre *)
Theorem lens_tie : forall lsm A T B hyp e, T <> 0%nat ->
  exists st, Interp.run (ext07_ops lsm) lens_from_eos_body (lens_vars (hyp_tensor A T B hyp) e 1) =
    Ok (enc_i (mkTn [A; B] (tab2 A B (fun a b =>
          Z.of_nat (Model.lens_from_eos e (map (fun t => hyp_at hyp a t b) (seq 0 T))))))) st.
Proof. intros. now apply lens_run_3. Qed.

Theorem slp_tie_raises : forall lsm logits A B V e lp hyp,
  shp logits = [A; 0%nat; B; V] -> lsm logits = lp_tensor A 0 B V lp ->
  exists st, Interp.run (ext07 lsm) slp_tensor_body (slp_vars logits (hyp_tensor A 0 B hyp) 1 (Some e)) = Exc index_error st.
Proof.
  intros lsm logits A B V e lp hyp Hsh Hl. apply (slp_run_tab_empty lsm logits A B V (hyp_at hyp) e 1 (or_introl eq_refl) Hsh).
  now rewrite Hl.
Qed.

(* ---- composed with the model theorems: statements purely about the interpreted source ----------------- *)
Lemma xadd_unit_l : forall x, xadd xzero x = x.
Proof. intros [q|]; reflexivity. Qed.

(* the value returned by the source holds, at every (outer, inner) position, the declarative sum: the log-softmax
   values of the chosen tokens up to and including the first eos, out-of-vocabulary positions skipped *)
Theorem source_slp_eq_spec : forall lsm logits A T B V eos lp hyp dim,
  dim = 1%Z \/ dim = (-2)%Z ->
  (0 < V)%nat -> shp logits = [A; T; B; V] -> lsm logits = lp_tensor A T B V lp -> wf_slp A T lp hyp ->
  eos = None \/ (0 < T)%nat ->
  exists st, Interp.run (ext07 lsm) slp_tensor_body (slp_vars logits (hyp_tensor A T B hyp) dim eos)
    = Ok (enc_f (out_tensor A B
            (Model.map2 (fun lp_a hyp_a =>
               map (fun b => Spec.spec_slp xadd xzero (Z.of_nat V) eos (Model.column [] b lp_a) (Model.column 0%Z b hyp_a))
                   (seq 0 B)) lp hyp))) st.
Proof.
  intros lsm logits A T B V eos lp hyp dim Hd HV Hsh Hl Hwf HT.
  pose proof (slp_tensor_tie_dims lsm logits A T B V eos lp hyp dim Hd HV Hsh Hl Hwf) as H.
  destruct Hwf as [H1 [H2 H3]].
  rewrite (ProofsSlp.slp_tensor_correct xadd xzero xadd_unit_l (Z.of_nat V) eos T B lp hyp HT) in H.
  - exact H.
  - congruence.
  - intros a Ha. apply H3. congruence.
Qed.
