(* C19 tie - `binomial_coefficient`: the symbolic run of the translated body (PV.Gen.C19Src.binom_body), both branches:
   the factorial branch (length_ <= 20: arange / x[0] = 1 / cumprod / x[length] / trunc_divide / masked_fill_) and the
   Pascal-table branch (length_ > 20: empty / binom[..., 0] = 0 / binom[0] = 1 / the cumsum loop / flatten()[index]), for
   EVERY shape and every pair of integer tensors of that shape, and every content of uninitialised memory. *)
From Coq Require Import ZArith QArith List String Bool Arith Lia.
From PV Require Import MiniPy.Syntax MiniPy.Interp MiniPy.Lemmas.
From PV Require Import MiniTorch.Ops MiniTorch.Value MiniTorch.Lemmas MiniTorch.OpsC19 MiniTorch.LemmasC19 Gen.C19Src.
From PV Require Import C19.SrcRun C19.TieLib.
From PV Require Import C19.Combinatorics C19.Spec C19.ProofsComb.
Import ListNotations.
Local Open Scope string_scope.
Local Open Scope list_scope.

Definition bparts : list stmt := Eval cbv [flatten_seq binom_body app] in flatten_seq binom_body.
Definition branch_stmt : stmt := Eval cbv [bparts nth] in nth 3 bparts SPass.
Definition table_parts : list stmt := Eval cbv [branch_stmt flatten_seq app] in match branch_stmt with SIf _ t _ => flatten_seq t | _ => [] end.
Definition fact_parts : list stmt := Eval cbv [branch_stmt flatten_seq app] in match branch_stmt with SIf _ _ f => flatten_seq f | _ => [] end.



(* ---- lists ----------------------------------------------------------------------------------------------------------- *)
Lemma map2_same : forall {A} f (g h : A -> Q) l, map2 f (map g l) (map h l) = map (fun x => f (g x) (h x)) l.
Proof.
  intros. rewrite map2_maps. induction l as [|x l IH]; [reflexivity|]. cbn [combine map fst snd]. now rewrite IH.
Qed.

Lemma existsb_or : forall {A} (f g : A -> bool) l, existsb (fun x => f x || g x) l = existsb f l || existsb g l.
Proof.
  induction l as [|x l IH]; [reflexivity|]. cbn [existsb]. rewrite IH.
  destruct (f x), (g x), (existsb f l), (existsb g l); reflexivity.
Qed.

(* ---- numbers ----------------------------------------------------------------------------------------------------------- *)
Lemma cumprod_z : forall l a, OpsC19.cumprod_from (inject_Z a) (zinj l) = zinj (Combinatorics.cumprod_from a l).
Proof.
  induction l as [|x l IH]; intros a; [reflexivity|]. unfold zinj in *. cbn [map OpsC19.cumprod_from Combinatorics.cumprod_from].
  rewrite Qred_z_mult. now rewrite IH.
Qed.

Lemma cumsum_z : forall l a, OpsC19.cumsum_from (inject_Z a) (zinj l) = zinj (Combinatorics.cumsum_from a l).
Proof.
  induction l as [|x l IH]; intros a; [reflexivity|]. unfold zinj in *. cbn [map OpsC19.cumsum_from Combinatorics.cumsum_from].
  rewrite Qred_z_plus. now rewrite IH.
Qed.

(* x[idx] on integer data is the model's Python indexing *)
Lemma gather_z : forall {A} (g : A -> Z) FT n sh (l : list A),
  List.length FT = n -> Forall (fun a => (- Z.of_nat n <= g a < Z.of_nat n)%Z) l ->
  gather (mkTens [n] (zinj FT)) (mkTens sh (map (fun a => inject_Z (g a)) l)) =
  Some (mkTens sh (map (fun a => inject_Z (pyidx FT (g a))) l)).
Proof.
  intros A g FT n sh l Hn Hl. unfold gather. cbn [tshape tdata].
  replace (forallb _ (map (fun a => inject_Z (g a)) l)) with true.
  - f_equal. f_equal. rewrite map_map. apply map_ext_in. intros a Ha. rewrite Forall_forall in Hl. specialize (Hl a Ha).
    rewrite int_of_q_z, nth_zinj. f_equal. unfold pyidx. rewrite Hn.
    destruct (g a <? 0)%Z eqn:E; [apply Z.ltb_lt in E; f_equal; lia|reflexivity].
  - symmetry. rewrite forallb_map'. apply forallb_forall. intros a Ha. rewrite Forall_forall in Hl. specialize (Hl a Ha).
    rewrite is_int_q_z, int_of_q_z. cbn [andb]. apply andb_true_intro. split; [apply Z.leb_le|apply Z.ltb_lt]; lia.
Qed.

Lemma trunc_div_z : forall {A} (f g : A -> Z) sh (l : list A), Forall (fun a => g a <> 0%Z) l ->
  trunc_div (mkTens sh (map (fun a => inject_Z (f a)) l)) (mkTens sh (map (fun a => inject_Z (g a)) l)) =
  Some (mkTens sh (map (fun a => inject_Z (Z.quot (f a) (g a))) l)).
Proof.
  intros A f g sh l Hg. unfold trunc_div. cbn [tshape tdata]. rewrite shape_eqb_refl.
  rewrite !forallb_map', !(forallb_true' _ l) by (intros; apply is_int_q_z). cbn [andb].
  replace (existsb _ (map (fun a => inject_Z (g a)) l)) with false.
  - cbn [negb]. f_equal. f_equal. rewrite map2_same. apply map_ext. intros a. now rewrite !int_of_q_z.
  - symmetry. rewrite existsb_map'. apply not_true_is_false. intros H. apply existsb_exists in H. destruct H as [a [Ha E]].
    rewrite Forall_forall in Hg. specialize (Hg a Ha). change 0%Q with (inject_Z 0) in E. rewrite Qeq_bool_z in E.
    apply Z.eqb_eq in E. contradiction.
Qed.

(* arange(L + 2); x[0] = 1; cumprod(0)  is the model's table of factorials *)
Lemma fact_table_data : forall L, (0 <= L)%Z ->
  OpsC19.cumprod_from 1
    (firstn (Z.to_nat 0 * numel []) (map (fun i => inject_Z (Z.of_nat i)) (seq 0 (Z.to_nat (L + 2)))) ++
     repeat (inject_Z 1) (numel []) ++ skipn (S (Z.to_nat 0) * numel []) (map (fun i => inject_Z (Z.of_nat i)) (seq 0 (Z.to_nat (L + 2)))))
  = zinj (fact_table L).
Proof.
  intros L HL. change (numel []) with 1%nat. change (Z.to_nat 0) with 0%nat. change (0 * 1)%nat with 0%nat. change (1 * 1)%nat with 1%nat.
  replace (Z.to_nat (L + 2)) with (S (S (Z.to_nat L))) by lia. cbn [seq map firstn skipn repeat app].
  unfold fact_table. change 1%Q with (inject_Z 1). rewrite <- (cumprod_z _ 1). f_equal. unfold zinj. cbn [map]. f_equal.
  rewrite map_map. replace (Z.to_nat L + 1)%nat with (S (Z.to_nat L)) by lia. reflexivity.
Qed.

Lemma fact_table_len : forall L, (0 <= L)%Z -> List.length (fact_table L) = Z.to_nat (L + 2).
Proof. intros L HL. rewrite <- (Z2Nat.id L) at 1 by assumption. rewrite fact_table_length. lia. Qed.

Lemma pyidx_fact_pos : forall L i, (0 <= L)%Z -> (-1 <= i <= L)%Z -> (0 < pyidx (fact_table L) i)%Z.
Proof.
  intros L i HL Hi. unfold pyidx. rewrite fact_table_len by assumption.
  rewrite <- (Z2Nat.id L) by assumption.
  destruct (i <? 0)%Z eqn:E.
  - apply Z.ltb_lt in E. assert (i = -1)%Z by lia. subst i. rewrite fact_table_nth by lia. apply zfact_pos.
  - apply Z.ltb_ge in E. rewrite fact_table_nth by lia. apply zfact_pos.
Qed.

(* ---- the Pascal table, data level ------------------------------------------------------------------------------------- *)
(* one pass of the loop body on the flat table (rows of S m entries): row k+1 from its second entry on becomes the
   cumulative sum of row k without its last entry *)
Definition tstep (m k : nat) (D : list Q) : list Q :=
  firstn (S k * S m + 1) D ++ OpsC19.cumsum_from 0 (firstn m (skipn (k * S m) D)) ++ skipn (S (S k) * S m) D.

Fixpoint tloop (m k s : nat) (D : list Q) : list Q :=
  match s with O => D | S s' => tloop m (S k) s' (tstep m k D) end.

Definition zero_head (r : list Q) : list Q := inject_Z 0 :: tl r.

Lemma cumsum_len : forall l a, List.length (Combinatorics.cumsum_from a l) = List.length l.
Proof. induction l as [|x l IH]; intros a; [reflexivity|]. cbn. now rewrite IH. Qed.

Lemma prows_shape : forall m k, exists prev older,
  pascal_rows k (S m) = prev :: older /\ List.length prev = S m /\
  Forall (fun r => List.length r = S m) older /\ List.length older = k.
Proof.
  intros m. induction k as [|k IH].
  - exists (repeat 1%Z (S m)), []. cbn [pascal_rows]. repeat split; [apply repeat_length|constructor].
  - destruct IH as [prev [older [E [Hp [Ho Hl]]]]]. cbn [pascal_rows]. rewrite E.
    exists (0%Z :: Combinatorics.cumsum_from 0 (removelast prev)), (prev :: older). repeat split.
    + cbn [List.length]. rewrite cumsum_len, removelast_firstn_len, firstn_length, Hp. lia.
    + constructor; assumption.
    + cbn [List.length]. now rewrite Hl.
Qed.

Lemma tloop_pascal : forall m s k JR,
  List.length JR = s -> Forall (fun r => List.length r = S m) JR ->
  tloop m k s (zinj (List.concat (rev (pascal_rows k (S m)))) ++ flat_map zero_head JR)
  = zinj (List.concat (rev (pascal_rows (k + s) (S m)))).
Proof.
  intros m. induction s as [|s IH]; intros k JR Hl Hf.
  - destruct JR; [|discriminate]. cbn [tloop flat_map]. now rewrite app_nil_r, Nat.add_0_r.
  - destruct JR as [|rk JR]; [discriminate|]. inversion Hf as [|? ? Hrk Hf']; subst. cbn [tloop].
    replace (k + S s)%nat with (S k + s)%nat by lia. rewrite <- (IH (S k) JR) by (cbn in Hl; congruence || assumption).
    f_equal.
    destruct (prows_shape m k) as [prev [older [E [Hp [Ho Hlo]]]]].
    cbn [pascal_rows]. rewrite E. cbn [rev]. rewrite !concat_app. cbn [List.concat]. rewrite !app_nil_r.
    set (OLD := List.concat (rev older)).
    assert (HOLD : List.length OLD = (k * S m)%nat).
    { unfold OLD. rewrite (length_concat_uniform _ (S m)). - now rewrite rev_length, Hlo. - apply Forall_rev. exact Ho. }
    cbn [flat_map]. unfold tstep.
    rewrite !zinj_app.
    set (REST := flat_map zero_head JR).
    (* the table: OLD ++ prev ++ (0 :: tl rk) ++ REST *)
    assert (Hzh : List.length (zero_head rk) = S m) by (unfold zero_head; destruct rk; cbn in *; [discriminate|lia]).
    (* row k without its last entry *)
    assert (R1 : firstn m (skipn (k * S m) ((zinj OLD ++ zinj prev) ++ zero_head rk ++ REST)) = zinj (removelast prev)).
    { rewrite <- app_assoc. rewrite skipn_app, zinj_length, HOLD, Nat.sub_diag. cbn [skipn].
      rewrite skipn_all2 by (rewrite zinj_length; lia). cbn [app].
      rewrite firstn_app, zinj_length, Hp. replace (m - S m)%nat with 0%nat by lia. cbn [firstn]. rewrite app_nil_r.
      unfold zinj. rewrite firstn_map. f_equal. rewrite removelast_firstn_len, Hp. reflexivity. }
    rewrite R1. change 0%Q with (inject_Z 0). rewrite cumsum_z.
    (* everything up to and including the first entry of row k+1 *)
    assert (R2 : firstn (S k * S m + 1) ((zinj OLD ++ zinj prev) ++ zero_head rk ++ REST) = (zinj OLD ++ zinj prev) ++ [inject_Z 0]).
    { rewrite firstn_app. rewrite app_length, !zinj_length, HOLD, Hp.
      replace (S k * S m + 1 - (k * S m + S m))%nat with 1%nat by lia.
      rewrite firstn_all2 by (rewrite app_length, !zinj_length, HOLD, Hp; lia). reflexivity. }
    rewrite R2.
    assert (R3 : skipn (S (S k) * S m) ((zinj OLD ++ zinj prev) ++ zero_head rk ++ REST) = REST).
    { rewrite app_assoc.
      replace (S (S k) * S m)%nat with (List.length ((zinj OLD ++ zinj prev) ++ zero_head rk))
        by (rewrite !app_length, !zinj_length, HOLD, Hp, Hzh; lia).
      rewrite skipn_app, Nat.sub_diag, skipn_all. reflexivity. }
    rewrite R3. cbn [zinj map]. unfold zinj. cbn [map]. rewrite <- !app_assoc. reflexivity.
Qed.

Lemma rows_of_shape : forall n M d, List.length d = (n * M)%nat ->
  List.length (rows_of n M d) = n /\ Forall (fun r => List.length r = M) (rows_of n M d).
Proof.
  induction n as [|n IH]; intros M d Hd; cbn [rows_of]; [split; [reflexivity|constructor]|].
  destruct (IH M (skipn M d)) as [H1 H2]; [rewrite skipn_length; lia|].
  split; [cbn [List.length]; now rewrite H1|constructor; [rewrite firstn_length; lia|assumption]].
Qed.

Lemma repeat_zinj : forall x n, repeat (inject_Z x) n = zinj (repeat x n).
Proof. intros. unfold zinj. induction n as [|n IH]; [reflexivity|]. cbn. now rewrite IH. Qed.

(* binom[..., 0] = 0; binom[0] = 1 on an uninitialised (cn + 1) x (m + 1) table *)
Lemma table_init_data : forall cn m J, List.length J = (S cn * S m)%nat ->
  exists JR, List.length JR = cn /\ Forall (fun r => List.length r = S m) JR /\
    firstn (Z.to_nat 0 * numel [S m]) (flat_map (fun r => inject_Z 0 :: tl r) (rows_of (S cn) (S m) J)) ++
    repeat (inject_Z 1) (numel [S m]) ++
    skipn (S (Z.to_nat 0) * numel [S m]) (flat_map (fun r => inject_Z 0 :: tl r) (rows_of (S cn) (S m) J))
    = zinj (List.concat (rev (pascal_rows 0 (S m)))) ++ flat_map zero_head JR.
Proof.
  intros cn m J HJ. exists (rows_of cn (S m) (skipn (S m) J)).
  destruct (rows_of_shape cn (S m) (skipn (S m) J)) as [H1 H2]; [rewrite skipn_length; lia|].
  split; [assumption|split; [assumption|]].
  replace (numel [S m]) with (S m) by (unfold numel; cbn [fold_right]; lia).
  change (Z.to_nat 0) with 0%nat. change (0 * S m)%nat with 0%nat. rewrite Nat.mul_1_l. cbn [firstn app rows_of flat_map pascal_rows rev List.concat].
  rewrite app_nil_r, repeat_zinj. f_equal.
  change (fun r : list Q => inject_Z 0 :: tl r) with zero_head.
  destruct J as [|x J']; [cbn in HJ; lia|]. cbn [tl app skipn].
  assert (HJ' : (m <= List.length J')%nat) by (cbn [List.length] in HJ; lia).
  rewrite skipn_app, firstn_length, Nat.min_l by assumption.
  rewrite (@skipn_all2 _ m (firstn m J')) by (rewrite firstn_length; lia). now rewrite Nat.sub_diag.
Qed.

Lemma zrange_from1 : forall c, (0 <= c)%Z -> zrange 1 (c + 1) = map (fun i => VInt (Z.of_nat (S i))) (seq 0 (Z.to_nat c)).
Proof.
  intros c Hc. unfold zrange. replace (c + 1 - 1)%Z with c by lia. apply map_ext. intros i. f_equal. lia.
Qed.

Lemma exec_return_name : forall ext x st v, lookup x (vars st) = Some v -> exec ext (SReturn (EName x)) st = Ok (CReturn v) st.
Proof. intros. lazy [exec eval bind]. now rewrite H. Qed.

Section B.
  Variables (junk : nat -> Q).
  Notation ext := (ext19 (fun _ _ _ => false) junk).
  (* the two tensors have one shape; their entries as a list of pairs (length[i], count[i]) *)
  Variables (sh : list nat) (LC : list (Z * Z)) (lmax : Z).
  Let lens : list Z := map fst LC.
  Let cnts : list Z := map snd LC.
  Hypothesis Hmax : max_all (mkTens sh (zinj lens)) = Some (inject_Z lmax).

  Definition bst0 : state := mkState [("length", tv sh (zinj lens)); ("count", tv sh (zinj cnts)); ("torch", torch_module)] [].

  Definition negs : bool := existsb (fun v => (v <? 0)%Z) lens || existsb (fun v => (v <? 0)%Z) cnts.

  Lemma guard_z :
    existsb qtrue (map2 (fun x y => qbool (qtrue x || qtrue y))
                     (map (fun v => qbool (q_lt v (inject_Z 0))) (zinj cnts)) (map (fun v => qbool (q_lt v (inject_Z 0))) (zinj lens)))
    = negs.
  Proof.
    unfold negs, lens, cnts, zinj. rewrite !map_map, map2_same, existsb_map'.
    rewrite (existsb_ext' _ (fun x => (snd x <? 0)%Z || (fst x <? 0)%Z)).
    - rewrite existsb_or, !existsb_map'. apply orb_comm.
    - intros [l c]. cbn [fst snd]. now rewrite !qtrue_qbool, !q_lt_z.
  Qed.

  Definition bst_head : state :=
    mkState [("length", tv sh (zinj lens)); ("count", tv sh (zinj cnts)); ("torch", torch_module);
             ("device", device_token); ("length_", VInt lmax)] [].

  (* statements 0, 1: device, the guard against negative entries *)
  Lemma bguard : forall r,
    exec_list ext (firstn 2 bparts ++ r) bst0 =
    if negs then Exc "RuntimeError" (set_var "device" device_token bst0)
    else exec_list ext r (set_var "device" device_token bst0).
  Proof.
    intros r. unfold bparts, bst0. cbn [firstn app].
    stmt. rewrite E_device. interp.
    stmt. rewrite E_lt_s. interp. rewrite E_lt_s. interp. rewrite E_or. interp.
    rewrite E_any, guard_z. interp. destruct negs; reflexivity.
  Qed.

  (* statement 2: length_ *)
  Lemma bhead_ok : forall r, negs = false -> exec_list ext (firstn 3 bparts ++ r) bst0 = exec_list ext r bst_head.
  Proof.
    intros r Hn. change (firstn 3 bparts ++ r) with (firstn 2 bparts ++ (nth 2 bparts SPass :: r)). rewrite bguard, Hn.
    unfold bparts, bst0, bst_head. cbn [nth].
    stmt. rewrite (E_max _ _ _ _ _ _ Hmax). interp. rewrite E_item. interp.
    rewrite E_int, int_of_q_z. interp. reflexivity.
  Qed.

  (* ---- the factorial branch ------------------------------------------------------------------------------------------ *)
  Hypothesis Hrange : Forall (fun lc => (0 <= fst lc <= lmax)%Z /\ (0 <= snd lc)%Z) LC.

  Lemma lens_as_map : zinj lens = map (fun lc => inject_Z (fst lc)) LC.
  Proof. unfold lens, zinj. now rewrite map_map. Qed.

  Lemma cnts_clamped : map (qmin (inject_Z lmax)) (zinj cnts) = map (fun lc => inject_Z (Z.min (snd lc) lmax)) LC.
  Proof. unfold cnts, zinj. rewrite !map_map. apply map_ext. intros lc. apply qmin_z. Qed.

  Lemma lmc_data : map (qmax (inject_Z (-1))) (map2 (fun x y => Qred (x - y)) (zinj lens) (zinj cnts))
                   = map (fun lc => inject_Z (Z.max (fst lc - snd lc) (-1))) LC.
  Proof.
    unfold lens, cnts, zinj. rewrite !map_map, map2_same, map_map. apply map_ext. intros lc.
    now rewrite Qred_z_minus, qmax_z.
  Qed.

  (* x[idx] on the table of factorials, for an index tensor with entries in [-1, length_] *)
  Lemma fact_gather : forall (g : Z * Z -> Z) st, (0 <= lmax)%Z -> (forall lc, List.In lc LC -> (-1 <= g lc <= lmax)%Z) ->
    ext "$getitem" [tv [Z.to_nat (lmax + 2)] (zinj (fact_table lmax)); tv sh (map (fun lc => inject_Z (g lc)) LC)] [] st =
    Ok (tv sh (map (fun lc => inject_Z (pyidx (fact_table lmax) (g lc))) LC)) st.
  Proof.
    intros g st Hl0 Hg. apply E_gather, gather_z; [now apply fact_table_len|].
    apply Forall_forall. intros lc Hlc. specialize (Hg lc Hlc). lia.
  Qed.

  Lemma fact_run : (0 <= lmax)%Z ->
    exists vars', exec_list ext fact_parts bst_head = Ok CNormal (mkState vars' []) /\
      lookup "binom" vars' = Some (tv sh (map (fun lc => inject_Z (binom_fact_branch lmax (fst lc) (snd lc))) LC)).
  Proof.
    intros Hl0. unfold fact_parts, bst_head. eexists. split.
    (* length_m_count = (length - count).clamp_min_(-1); count = count.clamp_max(length_) *)
    stmt. rewrite E_sub_tt. interp. rewrite E_clamp_min_, lmc_data. interp.
    stmt. rewrite E_clamp_max, cnts_clamped. interp.
    (* x = torch.arange(length_ + 2, device=device); x[0] = 1; x = x.cumprod(0) *)
    stmt. rewrite E_arange_dev by lia. interp.
    stmt. rewrite E_setrow_s by lia. interp.
    stmt. rewrite E_cumprod, (fact_table_data lmax Hl0). interp.
    rewrite lens_as_map.
    rewrite Forall_forall in Hrange.
    assert (G4 : Forall (fun lc : Z * Z => (pyidx (fact_table lmax) (Z.min (snd lc) lmax) * pyidx (fact_table lmax) (Z.max (fst lc - snd lc) (-1)) <> 0)%Z) LC).
    { apply Forall_forall; intros lc Hlc; specialize (Hrange lc Hlc).
      pose proof (pyidx_fact_pos lmax (Z.min (snd lc) lmax) Hl0 ltac:(lia)).
      pose proof (pyidx_fact_pos lmax (Z.max (fst lc - snd lc) (-1)) Hl0 ltac:(lia)). nia. }
    (* binom = trunc_divide(x[length], x[count] * x[length_m_count]) *)
    stmt.
    rewrite (fact_gather (fun lc => fst lc) _ Hl0) by (intros lc Hlc; specialize (Hrange lc Hlc); lia). interp.
    rewrite (fact_gather (fun lc => Z.min (snd lc) lmax) _ Hl0) by (intros lc Hlc; specialize (Hrange lc Hlc); lia). interp.
    rewrite (fact_gather (fun lc => Z.max (fst lc - snd lc) (-1)) _ Hl0) by (intros lc Hlc; specialize (Hrange lc Hlc); lia). interp.
    rewrite E_mul_tt, map2_same. interp.
    rewrite (map_ext (fun lc => Qred (inject_Z (pyidx (fact_table lmax) (Z.min (snd lc) lmax)) *
                                       inject_Z (pyidx (fact_table lmax) (Z.max (fst lc - snd lc) (-1)))))
                     (fun lc => inject_Z (pyidx (fact_table lmax) (Z.min (snd lc) lmax) *
                                          pyidx (fact_table lmax) (Z.max (fst lc - snd lc) (-1))))) by (intros; apply Qred_z_mult).
    rewrite (E_trunc _ _ _ _ _ _ _ (trunc_div_z (fun lc => pyidx (fact_table lmax) (fst lc)) _ sh LC G4)). interp.
    (* binom.masked_fill_(length_m_count == -1, 0) *)
    stmt. rewrite E_eq_s. interp. rewrite E_masked_fill. interp.
    reflexivity.
    interp. rewrite map_map, map2_same. apply (f_equal (fun d => Some (tv sh d))).
    apply map_ext. intros lc. rewrite qtrue_qbool, Qeq_bool_z. unfold binom_fact_branch.
    destruct (Z.max (fst lc - snd lc) (-1) =? -1)%Z; reflexivity.
  Qed.

  Definition ret_b : stmt := Eval cbv [bparts nth] in nth 4 bparts SPass.

  (* if length_ > 20: the table, else the factorials *)
  Lemma branch_run :
    exec ext branch_stmt bst_head = exec_list ext (if (20 <? lmax)%Z then table_parts else fact_parts) bst_head.
  Proof.
    unfold branch_stmt, bst_head. rewrite exec_if_list. interp. rewrite Qcompare_z, (Z.ltb_compare 20 lmax), Z.compare_antisym.
    destruct (20 ?= lmax)%Z; reflexivity.
  Qed.

  Lemma binom_run_parts : forall vars' v, negs = false ->
    exec ext branch_stmt bst_head = Ok CNormal (mkState vars' []) -> lookup "binom" vars' = Some v ->
    Interp.run ext binom_body (binom_vars (mkTens sh (zinj lens)) (mkTens sh (zinj cnts))) = Ok v (mkState vars' []).
  Proof.
    intros vars' v Hn Hb Hv. rewrite run_flatten. change (flatten_seq binom_body) with bparts.
    change bparts with (firstn 3 bparts ++ [branch_stmt; ret_b]).
    change (mkState (binom_vars (mkTens sh (zinj lens)) (mkTens sh (zinj cnts))) []) with bst0.
    rewrite (bhead_ok _ Hn). erewrite exec_list_cons_ok by exact Hb.
    erewrite exec_list_cons_ret; [reflexivity|]. unfold ret_b. apply exec_return_name. exact Hv.
  Qed.

  Theorem binom_run_raises : negs = true ->
    exists st, Interp.run ext binom_body (binom_vars (mkTens sh (zinj lens)) (mkTens sh (zinj cnts))) = Exc "RuntimeError" st.
  Proof.
    intros Hn. rewrite run_flatten. change (flatten_seq binom_body) with (firstn 2 bparts ++ skipn 2 bparts).
    change (mkState (binom_vars (mkTens sh (zinj lens)) (mkTens sh (zinj cnts))) []) with bst0.
    rewrite bguard, Hn. now eexists.
  Qed.

  Theorem binom_run_fact : negs = false -> (0 <= lmax <= 20)%Z ->
    exists st, Interp.run ext binom_body (binom_vars (mkTens sh (zinj lens)) (mkTens sh (zinj cnts)))
               = Ok (tv sh (map (fun lc => inject_Z (binom_fact_branch lmax (fst lc) (snd lc))) LC)) st.
  Proof.
    intros Hn Hl. destruct (fact_run ltac:(lia)) as [vars' [Hrun Hv]].
    eexists. apply (binom_run_parts vars' _ Hn); [|exact Hv]. rewrite branch_run.
    replace (20 <? lmax)%Z with false by (symmetry; apply Z.ltb_ge; lia). exact Hrun.
  Qed.

  (* ---- the Pascal-table branch -------------------------------------------------------------------------------------- *)
  Variable cmax : Z.
  Hypothesis Hcmax : max_all (mkTens sh (zinj cnts)) = Some (inject_Z cmax).
  Hypothesis Hrange2 : Forall (fun lc => (snd lc <= cmax)%Z) LC.

  Definition tloop_stmt : stmt := Eval cbv [table_parts nth] in nth 4 table_parts SPass.
  Definition tbody : stmt := Eval cbv [tloop_stmt] in match tloop_stmt with SFor _ _ b => b | _ => SPass end.

  Definition st_t (D : list Q) (tail : list (string * val)) : state :=
    mkState ([("length", tv sh (zinj lens)); ("count", tv sh (zinj cnts)); ("torch", torch_module);
              ("device", device_token); ("length_", VInt lmax); ("count_", VInt cmax);
              ("binom", tv [Z.to_nat (cmax + 1); S (Z.to_nat lmax)] D)] ++ tail) [].

  (* the loop variable c lives in a frame [tail] that is not looked at: empty before the first iteration *)
  Lemma tbody_step : forall D tail k, (Z.of_nat (S k) < Z.of_nat (Z.to_nat (cmax + 1)))%Z ->
    exec ext tbody (set_var "c" (VInt (Z.of_nat (S k))) (st_t D tail)) =
    Ok CNormal (st_t (tstep (Z.to_nat lmax) k D) (update "c" (VInt (Z.of_nat (S k))) tail)).
  Proof.
    intros D tail k Hk. unfold tbody, st_t. cbn [app].
    assert (Hk1 : (0 <= Z.of_nat (S k) - 1 < Z.of_nat (Z.to_nat (cmax + 1)))%Z) by lia.
    assert (Hk2 : (0 <= Z.of_nat (S k) < Z.of_nat (Z.to_nat (cmax + 1)))%Z) by lia.
    interp. rewrite lookup_update_eq. interp. rewrite (E_getrow _ _ _ _ _ _ _ Hk1). interp. rewrite E_cumsum. interp.
    rewrite lookup_update_eq. interp. rewrite (E_setrow_from1 _ _ _ _ _ _ _ _ Hk2). interp.
    unfold tstep. replace (Z.to_nat (Z.of_nat (S k) - 1)) with k by lia. rewrite Nat2Z.id. reflexivity.
  Qed.

  Lemma tloop_run : forall s k D tail, (k + s = Z.to_nat cmax)%nat -> (0 <= cmax)%Z ->
    exists tail', for_loop ext "c" tbody (map (fun i => VInt (Z.of_nat (S i))) (seq k s)) (st_t D tail)
                  = Ok CNormal (st_t (tloop (Z.to_nat lmax) k s D) tail').
  Proof.
    induction s as [|s IH]; intros k D tail Hk Hc.
    - eexists. reflexivity.
    - cbn [seq map for_loop tloop]. rewrite tbody_step by lia. cbn [bind]. apply IH; [lia|assumption].
  Qed.

  Lemma table_run : (0 <= lmax)%Z -> (0 <= cmax)%Z ->
    exists vars', exec_list ext table_parts bst_head = Ok CNormal (mkState vars' []) /\
      lookup "binom" vars' = Some (tv sh (map (fun lc => inject_Z (binom_table_branch lmax cmax (fst lc) (snd lc))) LC)).
  Proof.
    intros Hl0 Hc0. set (m := Z.to_nat lmax). set (cn := Z.to_nat cmax).
    (* the uninitialised table after binom[..., 0] = 0; binom[0] = 1, and what the loop makes of it *)
    destruct (table_init_data cn m (map junk (seq 0 (numel [S cn; S m])))) as [JR [HJR [HJf HD0]]].
    { rewrite map_length, seq_length. unfold numel. cbn [fold_right]. lia. }
    set (D0 := zinj (List.concat (rev (pascal_rows 0 (S m)))) ++ flat_map zero_head JR) in HD0.
    destruct (tloop_run cn 0 D0 []) as [tail' HL]; [reflexivity|assumption|].
    unfold st_t in HL. replace (Z.to_nat (cmax + 1)) with (S cn) in HL by (unfold cn; lia). fold m in HL. cbn [app] in HL.
    unfold D0 in HL at 2. rewrite (tloop_pascal m cn 0 JR HJR HJf) in HL.
    rewrite Forall_forall in Hrange, Hrange2.
    unfold table_parts, bst_head, torch_module. eexists. split.
    (* count_ = int(count.max().item()) *)
    stmt. rewrite (E_max _ _ _ _ _ _ Hcmax). interp. rewrite E_item. interp.
    rewrite E_int, int_of_q_z. interp.
    (* binom = torch.empty((count_ + 1, length_ + 1), ..); binom[..., 0] = 0; binom[0] = 1 *)
    stmt. rewrite E_empty2 by lia. interp.
    replace (Z.to_nat (lmax + 1)) with (S m) by (unfold m; lia). replace (Z.to_nat (cmax + 1)) with (S cn) by (unfold cn; lia).
    stmt. rewrite E_setcol0. interp.
    stmt. rewrite E_setrow_s by lia. interp. rewrite HD0.
    erewrite exec_list_cons_ok.
    2:{ fold tbody. rewrite exec_for. interp. rewrite (zrange_from1 cmax Hc0). fold cn. exact HL. }
    cbn [Nat.add app].
    set (FT := List.concat (rev (pascal_rows cn (S m)))).
    assert (HFTlen : List.length FT = (S cn * S m)%nat).
    { unfold FT. destruct (prows_shape m cn) as [prev [older [E [Hp [Ho Hlo]]]]]. rewrite E.
      rewrite (length_concat_uniform _ (S m)); [now rewrite rev_length; cbn [List.length]; rewrite Hlo|].
      apply Forall_rev. constructor; assumption. }
    assert (G : Forall (fun lc : Z * Z => (- Z.of_nat (List.length (zinj FT)) <= fst lc + snd lc * (lmax + 1) < Z.of_nat (List.length (zinj FT)))%Z) LC).
    { apply Forall_forall. intros lc Hlc. specialize (Hrange lc Hlc). specialize (Hrange2 lc Hlc).
      rewrite zinj_length, HFTlen. unfold cn, m. nia. }
    assert (HI : map2 (fun x y => Qred (x + y)) (zinj lens) (map (fun v => Qred (v * inject_Z (lmax + 1))) (zinj cnts))
                 = map (fun lc => inject_Z (fst lc + snd lc * (lmax + 1))) LC).
    { unfold lens, cnts, zinj. rewrite !map_map, map2_same. apply map_ext. intros lc. now rewrite Qred_z_mult, Qred_z_plus. }
    (* binom = binom.flatten()[length + count * (length_ + 1)] *)
    stmt. rewrite E_flatten. interp. rewrite E_mul_ts. interp. rewrite E_add_tt, HI. interp.
    rewrite (E_gather _ _ _ _ _ _ _ _ (gather_z (fun lc => fst lc + snd lc * (lmax + 1))%Z FT _ sh LC (eq_sym (zinj_length FT)) G)).
    interp. reflexivity.
    interp. apply (f_equal (fun d => Some (tv sh d))).
    apply map_ext_in. intros lc Hlc. specialize (Hrange lc Hlc). specialize (Hrange2 lc Hlc). f_equal.
    rewrite pyidx_nonneg by nia. unfold binom_table_branch.
    fold m cn. rewrite Nat.add_1_r. reflexivity.
  Qed.

  Theorem binom_run_table : negs = false -> (20 < lmax)%Z -> (0 <= cmax)%Z ->
    exists st, Interp.run ext binom_body (binom_vars (mkTens sh (zinj lens)) (mkTens sh (zinj cnts)))
               = Ok (tv sh (map (fun lc => inject_Z (binom_table_branch lmax cmax (fst lc) (snd lc))) LC)) st.
  Proof.
    intros Hn Hl Hc. destruct (table_run ltac:(lia) Hc) as [vars' [Hrun Hv]].
    eexists. apply (binom_run_parts vars' _ Hn); [|exact Hv]. rewrite branch_run.
    replace (20 <? lmax)%Z with true by (symmetry; apply Z.ltb_lt; lia). exact Hrun.
  Qed.
End B.
