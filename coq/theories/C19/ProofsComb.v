(* C19 - lemmas about the combinatorics model (Combinatorics.v): Pascal's triangle, the fixed-cardinality
   sampler (cardinality/positions, uniformity), both branches of binomial_coefficient, the support
   enumerations, and "probabilities over the enumerated support sum to one". *)
From Coq Require Import List ZArith QArith Bool Lia.
From PV Require Import C19.Combinatorics C19.Model C19.Spec.
Import ListNotations.
Local Open Scope Z_scope.

(* ---------------- Pascal's triangle ---------------- *)
Lemma choose_0_r : forall n, choose n 0 = 1.
Proof. destruct n; reflexivity. Qed.

Lemma choose_S : forall n k, choose (S n) (S k) = choose n k + choose n (S k).
Proof. reflexivity. Qed.

Lemma choose_gt : forall n k, (n < k)%nat -> choose n k = 0.
Proof.
  induction n as [|n IH]; intros k H.
  - destruct k; [lia|reflexivity].
  - destruct k; [lia|]. rewrite choose_S, !IH by lia. reflexivity.
Qed.

Lemma choose_nonneg : forall n k, 0 <= choose n k.
Proof.
  induction n as [|n IH]; intros k.
  - destruct k; cbn; lia.
  - destruct k; [cbn; lia|]. rewrite choose_S. pose proof (IH k). pose proof (IH (S k)). lia.
Qed.

Lemma choose_pos : forall n k, (k <= n)%nat -> 0 < choose n k.
Proof.
  induction n as [|n IH]; intros k H.
  - assert (k = 0)%nat by lia. subst. cbn. lia.
  - destruct k; [cbn; lia|]. rewrite choose_S. pose proof (IH k ltac:(lia)). pose proof (choose_nonneg n (S k)). lia.
Qed.

Lemma choose_n_n : forall n, choose n n = 1.
Proof. induction n; [reflexivity|]. rewrite choose_S, IHn, choose_gt by lia. reflexivity. Qed.

Lemma choose_1_r : forall n, choose n 1 = Z.of_nat n.
Proof.
  induction n as [|n IH]; [reflexivity|]. rewrite choose_S, IH, choose_0_r. lia.
Qed.

(* absorption: (k+1) C(n+1, k+1) = (n+1) C(n, k) *)
Lemma choose_absorb : forall n k,
  Z.of_nat (S k) * choose (S n) (S k) = Z.of_nat (S n) * choose n k.
Proof.
  induction n as [|n IH]; intros k.
  - destruct k; cbn; lia.
  - destruct k as [|k].
    + rewrite choose_1_r, choose_0_r. lia.
    + rewrite (choose_S (S n) (S k)).
      pose proof (IH (S k)) as I1. pose proof (IH k) as I0.
      rewrite (choose_S n k) in *.
      replace (choose (S n) (S k)) with (choose n k + choose n (S k)) in * by reflexivity.
      lia.
Qed.

Lemma zfact_pos : forall n, 0 < zfact n.
Proof. induction n; cbn [zfact]; lia. Qed.

Lemma choose_fact : forall k n, (k <= n)%nat -> choose n k * zfact k * zfact (n - k) = zfact n.
Proof.
  induction k as [|k IH]; intros n H.
  - rewrite choose_0_r, Nat.sub_0_r. cbn [zfact]. lia.
  - destruct n as [|n]; [lia|].
    replace (S n - S k)%nat with (n - k)%nat by lia.
    pose proof (IH n ltac:(lia)) as I. pose proof (choose_absorb n k) as A.
    cbn [zfact]. rewrite <- I. 
    replace (choose (S n) (S k) * (Z.of_nat (S k) * zfact k) * zfact (n - k))
      with ((Z.of_nat (S k) * choose (S n) (S k)) * zfact k * zfact (n - k)) by ring.
    rewrite A. ring.
Qed.

(* ---------------- the sampler ---------------- *)
Local Open Scope Q_scope.

Lemma bern_bit : forall p u, bern p u = 0%Z \/ bern p u = 1%Z.
Proof. intros. unfold bern. destruct (Qle_bool p u); auto. Qed.

Lemma bern_zero : forall p u, p == 0 -> 0 <= u -> bern p u = 0%Z.
Proof.
  intros p u Hp Hu. unfold bern. destruct (Qle_bool p u) eqn:E; [reflexivity|].
  assert (Qle_bool p u = true) by (apply Qle_bool_iff; rewrite Hp; exact Hu). congruence.
Qed.

Lemma bern_one : forall p u, p == 1 -> u < 1 -> bern p u = 1%Z.
Proof.
  intros p u Hp Hu. unfold bern. destruct (Qle_bool p u) eqn:E; [|reflexivity].
  apply Qle_bool_iff in E. rewrite Hp in E. exfalso. apply (Qlt_irrefl u). eapply Qlt_le_trans; eassumption.
Qed.

Definition unit_u (u : Q) : Prop := 0 <= u /\ u < 1.

Lemma hd_unit : forall us, Forall unit_u us -> unit_u (hd 0 us).
Proof. intros [|u us] H; cbn. - split; [apply Qle_refl|reflexivity]. - inversion H; auto. Qed.

Lemma tl_unit : forall us, Forall unit_u us -> Forall unit_u (tl us).
Proof. intros [|u us] H; cbn; [constructor|inversion H; auto]. Qed.

Local Open Scope Z_scope.

(* the probability remainder_ell / remainder_t, for 0 <= ell <= t and 1 <= t *)
Lemma qdiv_z_pos : forall e pt, (inject_Z e / inject_Z (Zpos pt) == e # pt)%Q.
Proof. intros. unfold Qeq, Qdiv, Qmult, Qinv, inject_Z. cbn. lia. Qed.

Section Prob.
  Variables (e t : Z).
  Hypothesis Hinv : 0 <= e <= t /\ 1 <= t.
  Let p : Q := (inject_Z e / inject_Z t)%Q.

  Lemma p_is : exists pt, t = Zpos pt /\ (p == e # pt)%Q.
  Proof. destruct t as [|pt|pt]; try lia. exists pt. split; [reflexivity|apply qdiv_z_pos]. Qed.

  Lemma p_zero_iff : (p == 0)%Q <-> e = 0.
  Proof. destruct p_is as [pt [Ht Hp]]. rewrite Hp. unfold Qeq. cbn. lia. Qed.

  Lemma p_one_iff : (p == 1)%Q <-> e = t.
  Proof. destruct p_is as [pt [Ht Hp]]. rewrite Hp, Ht. unfold Qeq. cbn. lia. Qed.

  Lemma p_nonneg : (0 <= p)%Q.
  Proof. destruct p_is as [pt [Ht Hp]]. rewrite Hp. unfold Qle. cbn. lia. Qed.

  Lemma p_pos : e <> 0 -> (0 < p)%Q.
  Proof. intros He. destruct p_is as [pt [Ht Hp]]. rewrite Hp. unfold Qlt. cbn. lia. Qed.

  Lemma p_lt1 : e <> t -> (p < 1)%Q.
  Proof. intros He. destruct p_is as [pt [Ht Hp]]. rewrite Hp. unfold Qlt. cbn. lia. Qed.
End Prob.

(* one draw at probability e / t keeps the counts in range: it is 0 when no one is left to place (p = 0) and 1 when
   every position left needs one (p = 1) *)
Lemma bern_keeps_range : forall e t u, 0 <= e <= t /\ 1 <= t -> unit_u u ->
  let b := bern (inject_Z e / inject_Z t) u in (b = 0 \/ b = 1) /\ 0 <= e - b <= t - 1.
Proof.
  intros e t u Hinv [Hu0 Hu1] b. pose proof (bern_bit (inject_Z e / inject_Z t) u) as Hb. fold b in Hb.
  assert (Hb0 : e = 0 -> b = 0) by (intros E; apply bern_zero; [now apply p_zero_iff|exact Hu0]).
  assert (Hb1 : e = t -> b = 1) by (intros E; apply bern_one; [now apply p_one_iff|exact Hu1]).
  split; [exact Hb|]. destruct (Z.eq_dec e 0); [rewrite Hb0; lia|]. destruct (Z.eq_dec e t); [rewrite Hb1; lia|lia].
Qed.

(* invariant of the loop: t permitted positions left (the code keeps max t 1), 0 <= ell <= t ones still to place *)
Lemma srswor_loop_inv : forall out t ell us,
  0 <= ell <= Z.of_nat t -> Forall unit_u us ->
  let bits := srswor_loop out ell (Z.max (Z.of_nat t) 1) us in
  length bits = out /\ Forall (fun v => v = 0 \/ v = 1) bits /\
  ((t <= out)%nat -> zsum_s (firstn t bits) = ell /\ Forall (fun v => v = 0) (skipn t bits)).
Proof.
  induction out as [|out IH]; intros t ell us Hell Hus; cbn zeta; cbn [srswor_loop].
  - repeat split; [constructor|..]; assert (t = 0)%nat by lia; subst t; cbn; [lia|constructor].
  - set (b := bern (inject_Z ell / inject_Z (Z.max (Z.of_nat t) 1)) (hd 0%Q us)).
    destruct (bern_keeps_range ell (Z.max (Z.of_nat t) 1) (hd 0%Q us) ltac:(lia) (hd_unit us Hus)) as [Hb Hell'].
    fold b in Hb, Hell'.
    replace (Z.max (Z.max (Z.of_nat t) 1 - 1) 1) with (Z.max (Z.of_nat (pred t)) 1) by lia.
    destruct (IH (pred t) (ell - b) (tl us) ltac:(lia) (tl_unit us Hus)) as [Hl [Hf Hrest]].
    split; [cbn [length]; now f_equal|]. split; [now constructor|]. intros Ht.
    destruct Hrest as [Hs Hz]; [lia|]. destruct t as [|t]; cbn [pred firstn skipn] in *.
    + split; [cbn; lia|]. constructor; [lia|exact Hz].
    + split; [|exact Hz]. cbn [zsum_s fold_right]. fold (zsum_s (firstn t (srswor_loop out (ell - b) (Z.max (Z.of_nat t) 1) (tl us)))).
      rewrite Hs. lia.
Qed.

Theorem srswor_cardinality_and_positions : forall total given out us bits,
  0 <= given -> Forall unit_u us ->
  srswor total given out us = Some bits -> srswor_ok total given out bits.
Proof.
  intros total given out us bits Hg Hus H. unfold srswor in H.
  destruct (total <? given) eqn:E1; [discriminate|].
  destruct (Z.of_nat out <? total) eqn:E2; [discriminate|].
  apply Z.ltb_ge in E1. apply Z.ltb_ge in E2. inversion H; subst bits; clear H.
  destruct (srswor_loop_inv out (Z.to_nat total) given us ltac:(lia) Hus) as [Hl [Hb Hr]].
  rewrite Z2Nat.id in * by lia. destruct Hr as [Hs Hz]; [lia|]. unfold srswor_ok. auto.
Qed.

(* the sampler raises exactly when asked for more ones than positions, or more positions than width *)
Lemma srswor_error_iff : forall total given out us,
  srswor total given out us = None <-> (total < given \/ Z.of_nat out < total).
Proof.
  intros. unfold srswor.
  destruct (total <? given) eqn:E1; [apply Z.ltb_lt in E1; intuition|].
  destruct (Z.of_nat out <? total) eqn:E2; [apply Z.ltb_lt in E2; intuition|].
  apply Z.ltb_ge in E1. apply Z.ltb_ge in E2. split; [discriminate|lia].
Qed.

Lemma zsum_bits_le : forall l, Forall (fun v => v = 0 \/ v = 1) l -> 0 <= zsum_s l <= Z.of_nat (length l).
Proof.
  induction l as [|v l IH]; intros H; [cbn; lia|].
  inversion H as [|? ? Hv Hl]; subst. specialize (IH Hl). cbn [zsum_s fold_right length] in *.
  fold (zsum_s l). destruct Hv; subst; lia.
Qed.

Lemma Forall_firstn_skipn : forall {X} (P : X -> Prop) n l,
  Forall P l -> Forall P (firstn n l) /\ Forall P (skipn n l).
Proof. intros X P n l H. rewrite <- (firstn_skipn n l) in H. now apply Forall_app in H. Qed.

Lemma inject_Z_nz : forall t, t <> 0 -> ~ (inject_Z t == 0)%Q.
Proof. intros t H E. apply H. unfold Qeq in E; cbn in E. lia. Qed.

Lemma q_ratio : forall a t c c' : Z, t <> 0 -> a * c = t * c' ->
  (inject_Z a / inject_Z t * inject_Z c == inject_Z c')%Q.
Proof.
  intros a t c c' Ht H.
  assert (E : (inject_Z a * inject_Z c == inject_Z t * inject_Z c')%Q)
    by (rewrite <- !inject_Z_mult, H; reflexivity).
  pose proof (inject_Z_nz t Ht) as Hn.
  setoid_replace (inject_Z a / inject_Z t * inject_Z c)%Q with ((inject_Z a * inject_Z c) / inject_Z t)%Q
    by (field; exact Hn).
  rewrite E. field. exact Hn.
Qed.

Lemma q_ratio_compl : forall a t c c' : Z, t <> 0 -> (t - a) * c = t * c' ->
  ((1 - inject_Z a / inject_Z t) * inject_Z c == inject_Z c')%Q.
Proof.
  intros a t c c' Ht H.
  pose proof (inject_Z_nz t Ht) as Hn.
  setoid_replace ((1 - inject_Z a / inject_Z t) * inject_Z c)%Q
    with (inject_Z (t - a) / inject_Z t * inject_Z c)%Q.
  - apply q_ratio; assumption.
  - unfold Z.sub. rewrite inject_Z_plus, inject_Z_opp. field. exact Hn.
Qed.

(* the complementary form of the absorption identity: (n+1-k) C(n+1, k) = (n+1) C(n, k) *)
Lemma choose_absorb_compl : forall n k,
  (Z.of_nat (S n) - Z.of_nat k) * choose (S n) k = Z.of_nat (S n) * choose n k.
Proof.
  intros n [|k]; [rewrite !choose_0_r; lia|]. pose proof (choose_absorb n k) as A. rewrite choose_S in *. lia.
Qed.

(* every vector the sampler can emit has probability 1 / C(t, ell): one step multiplies by ell/t or 1 - ell/t, which
   is what the two absorption identities take off C(t, ell) *)
Lemma srswor_prob_choose : forall bits t ell,
  0 <= ell <= Z.of_nat t -> (t <= length bits)%nat -> Forall (fun v => v = 0 \/ v = 1) bits ->
  zsum_s (firstn t bits) = ell -> Forall (fun v => v = 0) (skipn t bits) ->
  (srswor_prob ell (Z.max (Z.of_nat t) 1) bits * inject_Z (choose t (Z.to_nat ell)) == 1)%Q.
Proof.
  induction bits as [|b rest IH]; intros t ell Hell Hlen Hbits Hsum Hzero; cbn [length] in Hlen.
  - assert (t = 0)%nat by lia. subst t. assert (ell = 0) by lia. subst ell. reflexivity.
  - apply Forall_cons_iff in Hbits as [Hb Hrest]. cbn [srswor_prob].
    replace (Z.max (Z.max (Z.of_nat t) 1 - 1) 1) with (Z.max (Z.of_nat (pred t)) 1) by lia.
    destruct t as [|t]; cbn [pred firstn skipn] in *.
    + assert (ell = 0) by lia. subst ell. apply Forall_cons_iff in Hzero as [-> Hz].
      pose proof (IH 0%nat 0 ltac:(lia) ltac:(lia) Hrest eq_refl Hz) as I. cbn in I |- *.
      change (inject_Z 0) with 0%Q in *. change (inject_Z 1) with 1%Q in *. eapply Qeq_trans; [|exact I]. field.
    + cbn [zsum_s fold_right] in Hsum. fold (zsum_s (firstn t rest)) in Hsum.
      pose proof (zsum_bits_le _ (proj1 (Forall_firstn_skipn _ t _ Hrest))) as Hle. rewrite firstn_length in Hle.
      pose proof (IH t (ell - b) ltac:(lia) ltac:(lia) Hrest ltac:(lia) Hzero) as I.
      rewrite (Z.max_l (Z.of_nat (S t)) 1) by lia.
      destruct Hb as [-> | ->]; cbn [Z.eqb Pos.eqb]; (eapply Qeq_trans; [|exact I]).
      * rewrite Z.sub_0_r.
        rewrite <- (q_ratio_compl ell (Z.of_nat (S t)) (choose (S t) (Z.to_nat ell)) (choose t (Z.to_nat ell))); [ring|lia|].
        rewrite <- (Z2Nat.id ell) at 1 by lia. apply choose_absorb_compl.
      * rewrite <- (q_ratio ell (Z.of_nat (S t)) (choose (S t) (Z.to_nat ell)) (choose t (Z.to_nat (ell - 1)))); [ring|lia|].
        replace (Z.to_nat ell) with (S (Z.to_nat (ell - 1))) by lia.
        replace ell with (Z.of_nat (S (Z.to_nat (ell - 1)))) at 1 by lia. apply choose_absorb.
Qed.

Theorem srswor_uniform : forall bits tau ell,
  0 <= ell <= tau -> tau <= Z.of_nat (length bits) -> srswor_ok tau ell (length bits) bits ->
  (srswor_prob ell (Z.max tau 1) bits * inject_Z (choose (Z.to_nat tau) (Z.to_nat ell)) == 1)%Q.
Proof.
  intros bits tau ell Hell Hlen [_ [Hbits [Hsum Hzero]]].
  pose proof (srswor_prob_choose bits (Z.to_nat tau) ell) as H. rewrite Z2Nat.id in H by lia. apply H; (assumption || lia).
Qed.

Local Close Scope Q_scope.

(* ---------------- factorial branch ---------------- *)
Lemma zfact_S : forall k, zfact (S k) = zfact k * Z.of_nat (S k).
Proof. intros. cbn [zfact]. ring. Qed.

Lemma cumprod_seq : forall n k i, (i < n)%nat ->
  nth i (cumprod_from (zfact k) (map Z.of_nat (seq (S k) n))) 0 = zfact (S k + i).
Proof.
  induction n as [|n IH]; intros k i Hi; [lia|].
  cbn [seq map cumprod_from]. rewrite <- zfact_S.
  destruct i as [|i].
  - cbn [nth]. f_equal. lia.
  - cbn [nth]. rewrite IH by lia. f_equal. lia.
Qed.

Lemma fact_table_nth : forall L i, (i <= L + 1)%nat -> nth i (fact_table (Z.of_nat L)) 0 = zfact i.
Proof.
  intros L i Hi. unfold fact_table. rewrite Nat2Z.id. cbn [cumprod_from].
  destruct i as [|i]; [reflexivity|]. cbn [nth].
  change (1 * 1) with (zfact 0). rewrite cumprod_seq by lia. reflexivity.
Qed.

Lemma cumprod_length : forall l acc, length (cumprod_from acc l) = length l.
Proof. induction l; intros; cbn; auto. Qed.

Lemma fact_table_length : forall L, length (fact_table (Z.of_nat L)) = (L + 2)%nat.
Proof.
  intros. unfold fact_table. rewrite cumprod_length, Nat2Z.id. cbn [length]. rewrite map_length, seq_length. lia.
Qed.

Lemma pyidx_nonneg : forall x i, 0 <= i -> pyidx x i = nth (Z.to_nat i) x 0.
Proof. intros x i H. unfold pyidx. now replace (i <? 0) with false by (symmetry; apply Z.ltb_ge; lia). Qed.

Theorem binom_fact_branch_is_pascal : forall length_ len cnt,
  0 <= len <= length_ -> 0 <= cnt ->
  binom_fact_branch length_ len cnt = choose (Z.to_nat len) (Z.to_nat cnt).
Proof.
  intros length_ len cnt Hl Hc. unfold binom_fact_branch.
  replace length_ with (Z.of_nat (Z.to_nat length_)) by lia. set (L := Z.to_nat length_).
  destruct (Z_lt_le_dec len cnt) as [Hgt|Hle].
  - rewrite (Z.max_r (len - cnt) (-1)) by lia. cbn [Z.eqb]. rewrite choose_gt by lia. reflexivity.
  - rewrite (Z.max_l (len - cnt) (-1)) by lia.
    destruct (len - cnt =? -1) eqn:E; [apply Z.eqb_eq in E; lia|].
    rewrite (Z.min_l cnt (Z.of_nat L)) by lia.
    rewrite !pyidx_nonneg by lia.
    rewrite !fact_table_nth by (unfold L; lia).
    pose proof (choose_fact (Z.to_nat cnt) (Z.to_nat len) ltac:(lia)) as F.
    replace (Z.to_nat len - Z.to_nat cnt)%nat with (Z.to_nat (len - cnt)) in F by lia.
    rewrite <- F. rewrite <- Z.mul_assoc. apply Z.quot_mul.
    pose proof (zfact_pos (Z.to_nat cnt)). pose proof (zfact_pos (Z.to_nat (len - cnt))). lia.
Qed.

(* ---------------- table branch (hockey-stick recursion) ---------------- *)
Definition pascal_row (ncols j : nat) : list Z := map (fun l => choose l j) (seq 0 ncols).

Lemma repeat_map_seq : forall {X} (x : X) n s, repeat x n = map (fun _ => x) (seq s n).
Proof. induction n; intros; cbn; [reflexivity|]. f_equal. apply IHn. Qed.

Lemma cumsum_choose : forall c m s,
  cumsum_from (choose s (S c)) (map (fun l => choose l c) (seq s m)) = map (fun l => choose l (S c)) (seq (S s) m).
Proof.
  induction m as [|m IH]; intros s; [reflexivity|].
  cbn [seq map cumsum_from].
  replace (choose s (S c) + choose s c) with (choose (S s) (S c)) by (rewrite choose_S; lia).
  f_equal. apply IH.
Qed.

Lemma removelast_map_seq : forall {X} (g : nat -> X) n s,
  removelast (map g (seq s (S n))) = map g (seq s n).
Proof.
  induction n as [|n IH]; intros s; [reflexivity|].
  change (seq s (S (S n))) with (s :: seq (S s) (S n)). cbn [map].
  change (removelast (g s :: map g (seq (S s) (S n)))) with (g s :: removelast (map g (seq (S s) (S n)))).
  rewrite IH. reflexivity.
Qed.

Lemma pascal_rows_spec : forall c ncols, (0 < ncols)%nat ->
  pascal_rows c ncols = map (pascal_row ncols) (rev (seq 0 (S c))).
Proof.
  induction c as [|c IH]; intros ncols Hn.
  - cbn [pascal_rows seq rev app map]. unfold pascal_row. f_equal.
    rewrite (repeat_map_seq 1 ncols 0). apply map_ext. intros. rewrite choose_0_r. reflexivity.
  - cbn [pascal_rows]. rewrite (IH ncols Hn).
    replace (seq 0 (S c)) with (seq 0 c ++ [c]) by (rewrite <- seq_S; reflexivity).
    rewrite rev_app_distr. cbn [rev app map].
    replace (seq 0 (S (S c))) with ((seq 0 c ++ [c]) ++ [S c]) by (rewrite <- !seq_S; reflexivity).
    rewrite !rev_app_distr. cbn [rev app map]. f_equal.
    unfold pascal_row. destruct ncols as [|n]; [lia|].
    rewrite removelast_map_seq. cbn [seq map].
    f_equal. rewrite <- seq_shift, map_map.
    pose proof (cumsum_choose c n 0%nat) as Hc. cbn [choose] in Hc. rewrite Hc.
    rewrite <- seq_shift, map_map. reflexivity.
Qed.

Lemma nth_concat_uniform : forall {X} (rows : list (list X)) w i j d,
  Forall (fun r => length r = w) rows -> (i < w)%nat -> (j < length rows)%nat ->
  nth (i + j * w) (concat rows) d = nth i (nth j rows []) d.
Proof.
  intros X rows. induction rows as [|r rows IH]; intros w i j d Hw Hi Hj; [cbn in Hj; lia|].
  inversion Hw as [|? ? Hr Hrows]; subst. cbn [concat].
  destruct j as [|j].
  - cbn [nth]. rewrite Nat.mul_0_l, Nat.add_0_r. apply app_nth1. lia.
  - cbn [nth]. rewrite app_nth2 by lia.
    replace (i + S j * length r - length r)%nat with (i + j * length r)%nat by lia.
    apply IH; auto. cbn in Hj. lia.
Qed.

Theorem binom_table_branch_is_pascal : forall length_ count_ len cnt,
  0 <= len <= length_ -> 0 <= cnt <= count_ ->
  binom_table_branch length_ count_ len cnt = choose (Z.to_nat len) (Z.to_nat cnt).
Proof.
  intros length_ count_ len cnt Hl Hc. unfold binom_table_branch.
  set (ncols := (Z.to_nat length_ + 1)%nat).
  rewrite pascal_rows_spec by (unfold ncols; lia).
  rewrite <- map_rev, rev_involutive.
  replace (Z.to_nat (len + cnt * (length_ + 1))) with (Z.to_nat len + Z.to_nat cnt * ncols)%nat
    by (unfold ncols; nia).
  rewrite (nth_concat_uniform _ ncols).
  - rewrite (nth_indep _ [] (pascal_row ncols 0)) by (rewrite map_length, seq_length; lia).
    rewrite map_nth, seq_nth by lia. unfold pascal_row.
    rewrite (nth_indep _ 0 (choose 0 (0 + Z.to_nat cnt))) by (rewrite map_length, seq_length; unfold ncols; lia).
    rewrite (map_nth (fun l => choose l (0 + Z.to_nat cnt))), seq_nth by (unfold ncols; lia). reflexivity.
  - apply Forall_forall. intros r Hr. apply in_map_iff in Hr. destruct Hr as [j [<- _]].
    unfold pascal_row. rewrite map_length, seq_length. reflexivity.
  - unfold ncols; lia.
  - rewrite map_length, seq_length. lia.
Qed.

(* ---------------- binomial_coefficient on a batch ---------------- *)
Lemma zmax_list_ge : forall l x, In x l -> x <= zmax_list l.
Proof.
  induction l as [|a l IH]; intros x H; [destruct H|].
  cbn [zmax_list fold_right]. fold (zmax_list l). destruct H as [->|H]; [lia|]. specialize (IH x H). lia.
Qed.

Lemma existsb_neg_false : forall l, Forall (fun v => 0 <= v) l -> existsb (fun v => v <? 0) l = false.
Proof.
  induction l as [|a l IH]; intros H; [reflexivity|]. inversion H; subst. cbn.
  rewrite IH by assumption. destruct (a <? 0) eqn:E; [apply Z.ltb_lt in E; lia|reflexivity].
Qed.

Theorem binomial_is_pascal : forall lens cnts,
  Forall (fun v => 0 <= v) lens -> Forall (fun v => 0 <= v) cnts ->
  binomial_coefficient lens cnts =
  Some (map (fun lc => choose (Z.to_nat (fst lc)) (Z.to_nat (snd lc))) (combine lens cnts)).
Proof.
  intros lens cnts Hl Hc. unfold binomial_coefficient.
  rewrite (existsb_neg_false lens Hl), (existsb_neg_false cnts Hc). cbn [orb].
  rewrite Forall_forall in Hl, Hc.
  assert (Hin : forall l c, In (l, c) (combine lens cnts) -> 0 <= l <= zmax_list lens /\ 0 <= c <= zmax_list cnts).
  { intros l c Hin. pose proof (in_combine_l _ _ _ _ Hin) as H1. pose proof (in_combine_r _ _ _ _ Hin) as H2.
    repeat split; auto using zmax_list_ge. }
  destruct (20 <? zmax_list lens); f_equal; apply map_ext_in; intros [l c] Hlc; destruct (Hin l c Hlc); cbn [fst snd].
  - now apply binom_table_branch_is_pascal.
  - apply binom_fact_branch_is_pascal; tauto.
Qed.

Lemma existsb_neg_true : forall l, existsb (fun v => v <? 0) l = true <-> Exists (fun v => v < 0) l.
Proof.
  intros l. rewrite existsb_exists, Exists_exists. split; intros [x [Hx Hv]]; exists x; split; auto.
  - apply Z.ltb_lt; assumption.
  - apply Z.ltb_lt; assumption.
Qed.

Theorem binomial_error_iff : forall lens cnts,
  binomial_coefficient lens cnts = None <-> (Exists (fun v => v < 0) lens \/ Exists (fun v => v < 0) cnts).
Proof.
  intros lens cnts. unfold binomial_coefficient. rewrite <- !existsb_neg_true.
  destruct (existsb (fun v => v <? 0) lens); destruct (existsb (fun v => v <? 0) cnts); cbn [orb];
    try (split; [intros _; auto | reflexivity]).
  destruct (20 <? zmax_list lens); split; try discriminate; intros [H|H]; discriminate.
Qed.

(* ---------------- enumerate_vocab_sequences ---------------- *)
Definition undigits (V : Z) (l : list Z) : Z := fold_right (fun d acc => d + V * acc) 0 l.

Lemma digits_length : forall V len s, length (digits V len s) = len.
Proof. induction len; intros; cbn; auto. Qed.

Lemma digits_range : forall V len s, 0 < V -> Forall (fun d => 0 <= d < V) (digits V len s).
Proof.
  induction len as [|len IH]; intros s HV; cbn [digits]; constructor; [|apply IH; assumption].
  apply Z.mod_pos_bound. assumption.
Qed.

Lemma undigits_digits : forall V len s, 0 < V -> 0 <= s < V ^ Z.of_nat len -> undigits V (digits V len s) = s.
Proof.
  induction len as [|len IH]; intros s HV Hs.
  - cbn in *. lia.
  - cbn [digits undigits fold_right]. fold (undigits V (digits V len (s / V))).
    rewrite Nat2Z.inj_succ, Z.pow_succ_r in Hs by lia.
    rewrite IH; auto.
    + pose proof (Z.div_mod s V ltac:(lia)). lia.
    + split; [apply Z.div_pos; lia|]. apply Z.div_lt_upper_bound; lia.
Qed.

Lemma undigits_range : forall V l, 0 < V -> Forall (fun d => 0 <= d < V) l ->
  0 <= undigits V l < V ^ Z.of_nat (length l).
Proof.
  induction l as [|d l IH]; intros HV H.
  - cbn. lia.
  - inversion H as [|? ? Hd Hl]; subst. specialize (IH HV Hl).
    cbn [undigits fold_right length]. fold (undigits V l).
    rewrite Nat2Z.inj_succ, Z.pow_succ_r by lia. nia.
Qed.

Lemma digits_undigits : forall V l, 0 < V -> Forall (fun d => 0 <= d < V) l ->
  digits V (length l) (undigits V l) = l.
Proof.
  induction l as [|d l IH]; intros HV H; [reflexivity|].
  inversion H as [|? ? Hd Hl]; subst.
  cbn [length digits undigits fold_right]. fold (undigits V l).
  replace ((d + V * undigits V l) mod V) with d.
  2:{ rewrite Z.mul_comm, Z.mod_add by lia. symmetry. apply Z.mod_small. assumption. }
  replace ((d + V * undigits V l) / V) with (undigits V l).
  2:{ rewrite Z.mul_comm, Z.div_add by lia. rewrite Z.div_small by assumption. lia. }
  f_equal. apply IH; assumption.
Qed.

Lemma NoDup_map_inj_in : forall {X Y} (g : X -> Y) l,
  (forall x y, In x l -> In y l -> g x = g y -> x = y) -> NoDup l -> NoDup (map g l).
Proof.
  induction l as [|a l IH]; intros Hinj Hnd; [constructor|].
  inversion Hnd as [|? ? Hni Hnd']; subst. cbn [map]. constructor.
  - intros Hin. apply in_map_iff in Hin. destruct Hin as [x [Hx Hxl]].
    assert (x = a) by (apply Hinj; auto using in_eq, in_cons). subst. contradiction.
  - apply IH; auto. intros x y Hx Hy. apply Hinj; auto using in_cons.
Qed.

Definition in_vocab (V : Z) (len : nat) (r : list Z) : Prop :=
  length r = len /\ Forall (fun d => 0 <= d < V) r.

Theorem enumerate_vocab_complete : forall len V, 0 <= len -> 0 < V ->
  exists rows, enumerate_vocab_sequences len V = Some rows /\
    NoDup rows /\ (forall r, In r rows <-> in_vocab V (Z.to_nat len) r) /\
    Z.of_nat (length rows) = V ^ len.
Proof.
  intros len V Hlen HV. unfold enumerate_vocab_sequences.
  destruct (len <? 0) eqn:E1; [apply Z.ltb_lt in E1; lia|].
  destruct (V <=? 0) eqn:E2; [apply Z.leb_le in E2; lia|].
  eexists; split; [reflexivity|].
  set (L := Z.to_nat len). assert (HL : len = Z.of_nat L) by (unfold L; lia).
  assert (Hpow : 0 < V ^ len) by (apply Z.pow_pos_nonneg; lia).
  repeat split.
  - apply NoDup_map_inj_in; [|apply seq_NoDup].
    intros x y Hx Hy Heq. apply in_seq in Hx. apply in_seq in Hy.
    assert (Z.of_nat x = Z.of_nat y); [|lia].
    assert (Hbx : 0 <= Z.of_nat x < V ^ Z.of_nat L) by (rewrite <- HL; lia).
    assert (Hby : 0 <= Z.of_nat y < V ^ Z.of_nat L) by (rewrite <- HL; lia).
    rewrite <- (undigits_digits V L (Z.of_nat x) HV Hbx), <- (undigits_digits V L (Z.of_nat y) HV Hby).
    f_equal. exact Heq.
  - apply in_map_iff in H. destruct H as [s [<- _]]. apply digits_length.
  - apply in_map_iff in H. destruct H as [s [<- _]]. apply digits_range. assumption.
  - intros [Hl Hr]. apply in_map_iff. exists (Z.to_nat (undigits V r)).
    pose proof (undigits_range V r HV Hr) as Hu. rewrite Hl, <- HL in Hu.
    split.
    + rewrite Z2Nat.id by lia. rewrite <- Hl. apply digits_undigits; assumption.
    + apply in_seq. lia.
  - rewrite map_length, seq_length. lia.
Qed.

Theorem enumerate_vocab_error_iff : forall len V,
  enumerate_vocab_sequences len V = None <-> (len < 0 \/ V <= 0).
Proof.
  intros. unfold enumerate_vocab_sequences.
  destruct (len <? 0) eqn:E1; [apply Z.ltb_lt in E1; intuition|].
  destruct (V <=? 0) eqn:E2; [apply Z.leb_le in E2; intuition|].
  apply Z.ltb_ge in E1. apply Z.leb_gt in E2. split; [discriminate|lia].
Qed.

(* ---------------- counting the binary sequences with a given sum ---------------- *)
Lemma seq_double_S : forall n, seq 0 (2 * S n) = seq 0 (2 * n) ++ [(2 * n)%nat; (2 * n + 1)%nat].
Proof.
  intros n. replace (2 * S n)%nat with (S (S (2 * n)%nat)) by lia.
  rewrite seq_S, seq_S, <- app_assoc. cbn [app plus]. replace (2 * n + 1)%nat with (S (2 * n)) by lia. reflexivity.
Qed.

Lemma count_even_odd : forall {X} (h : nat -> X) (p : X -> bool) n,
  length (filter p (map h (seq 0 (2 * n)))) =
  (length (filter p (map (fun q => h (2 * q)%nat) (seq 0 n))) +
   length (filter p (map (fun q => h (2 * q + 1)%nat) (seq 0 n))))%nat.
Proof.
  intros X h p. induction n as [|n IH]; [reflexivity|].
  rewrite seq_double_S, map_app, filter_app, app_length, IH.
  rewrite !seq_S, !map_app, !filter_app, !app_length. cbn [map filter app length plus].
  destruct (p (h (2 * n)%nat)), (p (h (2 * n + 1)%nat)); cbn [length]; lia.
Qed.

Definition card_count (L : nat) (c : Z) : nat :=
  length (filter (fun r => zsum r =? c) (map (fun s => digits 2 L (Z.of_nat s)) (seq 0 (Z.to_nat (2 ^ Z.of_nat L))))).

Lemma zsum_digits_nonneg : forall L s, 0 <= zsum (digits 2 L s).
Proof.
  induction L as [|L IH]; intros s; cbn [digits zsum fold_right]; [lia|].
  fold (zsum (digits 2 L (s / 2))). pose proof (IH (s / 2)). pose proof (Z.mod_pos_bound s 2 ltac:(lia)). lia.
Qed.

Lemma filter_none : forall {X} (p : X -> bool) l, (forall x, In x l -> p x = false) -> filter p l = [].
Proof.
  induction l as [|a l IH]; intros H; [reflexivity|]. cbn. rewrite (H a (in_eq _ _)). apply IH. auto using in_cons.
Qed.

Lemma card_count_neg : forall L c, c < 0 -> card_count L c = 0%nat.
Proof.
  intros L c Hc. unfold card_count. rewrite filter_none; [reflexivity|].
  intros r Hr. apply in_map_iff in Hr. destruct Hr as [s [<- _]].
  pose proof (zsum_digits_nonneg L (Z.of_nat s)). apply Z.eqb_neq. lia.
Qed.

Lemma filter_map_cons : forall (b c : Z) (g : nat -> list Z) l,
  length (filter (fun r => zsum r =? c) (map (fun q => b :: g q) l)) =
  length (filter (fun r => zsum r =? c - b) (map g l)).
Proof.
  intros b c g. induction l as [|a l IH]; [reflexivity|].
  cbn [map filter]. cbn [zsum fold_right]. fold (zsum (g a)).
  replace (b + zsum (g a) =? c) with (zsum (g a) =? c - b).
  - destruct (zsum (g a) =? c - b); cbn [length]; rewrite IH; reflexivity.
  - destruct (Z.eqb_spec (zsum (g a)) (c - b)), (Z.eqb_spec (b + zsum (g a)) c); try reflexivity; lia.
Qed.

Lemma card_count_S : forall L c, card_count (S L) c = (card_count L c + card_count L (c - 1))%nat.
Proof.
  intros L c. unfold card_count.
  replace (Z.to_nat (2 ^ Z.of_nat (S L))) with (2 * Z.to_nat (2 ^ Z.of_nat L))%nat.
  2:{ rewrite Nat2Z.inj_succ, Z.pow_succ_r by lia. pose proof (Z.pow_pos_nonneg 2 (Z.of_nat L) ltac:(lia) ltac:(lia)). lia. }
  rewrite count_even_odd.
  rewrite (map_ext (fun q => digits 2 (S L) (Z.of_nat (2 * q))) (fun q => 0 :: digits 2 L (Z.of_nat q))).
  2:{ intros q. cbn [digits]. replace (Z.of_nat (2 * q)) with (Z.of_nat q * 2) by lia.
      rewrite Z.mod_mul, Z.div_mul by lia. reflexivity. }
  rewrite (map_ext (fun q => digits 2 (S L) (Z.of_nat (2 * q + 1))) (fun q => 1 :: digits 2 L (Z.of_nat q))).
  2:{ intros q. cbn [digits]. replace (Z.of_nat (2 * q + 1)) with (1 + Z.of_nat q * 2) by lia.
      rewrite Z.mod_add, Z.div_add by lia. reflexivity. }
  rewrite !filter_map_cons. rewrite Z.sub_0_r. reflexivity.
Qed.

Lemma card_count_choose : forall L c, 0 <= c -> Z.of_nat (card_count L c) = choose L (Z.to_nat c).
Proof.
  induction L as [|L IH]; intros c Hc.
  - unfold card_count. change (Z.to_nat (2 ^ Z.of_nat 0)) with 1%nat.
    cbn [seq map digits filter zsum fold_right]. destruct (Z.eqb_spec 0 c).
    + subst. reflexivity.
    + destruct (Z.to_nat c) eqn:E; [lia|reflexivity].
  - rewrite card_count_S, Nat2Z.inj_add.
    destruct (Z.eq_dec c 0) as [->|Hn].
    + rewrite IH by lia. rewrite card_count_neg by lia. cbn [Z.to_nat]. rewrite !choose_0_r. reflexivity.
    + rewrite !IH by lia.
      replace (Z.to_nat c) with (S (Z.to_nat (c - 1))) by lia. rewrite choose_S. lia.
Qed.

Definition in_card (len cnt : Z) (r : list Z) : Prop :=
  length r = Z.to_nat len /\ Forall (fun d => d = 0 \/ d = 1) r /\ zsum r = cnt.

Theorem enumerate_card_complete : forall len cnt, 0 <= len -> 0 <= cnt ->
  exists rows, enumerate_card_int len cnt = Some rows /\
    NoDup rows /\ (forall r, In r rows <-> in_card len cnt r) /\
    Z.of_nat (length rows) = choose (Z.to_nat len) (Z.to_nat cnt).
Proof.
  intros len cnt Hlen Hcnt. unfold enumerate_card_int, enumerate_binary_sequences.
  destruct (enumerate_vocab_complete len 2 Hlen ltac:(lia)) as [rows [E [Hnd [Hin Hcount]]]].
  rewrite E. eexists; split; [reflexivity|]. split; [apply NoDup_filter; exact Hnd|]. split.
  - intros r. rewrite filter_In, Hin, Z.eqb_eq. unfold in_vocab, in_card.
    assert (Forall (fun d => 0 <= d < 2) r <-> Forall (fun d => d = 0 \/ d = 1) r)
      by (split; apply Forall_impl; intros; lia).
    tauto.
  - unfold enumerate_vocab_sequences in E.
    destruct (len <? 0); [discriminate|]. destruct (2 <=? 0); [discriminate|]. inversion E; subst rows.
    pose proof (card_count_choose (Z.to_nat len) cnt Hcnt) as C. unfold card_count in C.
    rewrite Z2Nat.id in C by lia. exact C.
Qed.

(* ---------------- SimpleRandomSamplingWithoutReplacement: support and probabilities ---------------- *)
Local Open Scope Q_scope.

Theorem support_sums_to_one : forall total given out, (0 <= given <= total)%Z ->
  exists rows, srswor_support total given out = Some rows /\
    Qn (length rows) * srswor_prob_value total given == 1.
Proof.
  intros total given out H. unfold srswor_support.
  destruct (enumerate_card_complete total given ltac:(lia) ltac:(lia)) as [rows [E [_ [_ Hc]]]].
  rewrite E. eexists; split; [reflexivity|]. rewrite map_length.
  unfold Qn. rewrite Hc. unfold srswor_prob_value.
  pose proof (choose_fact (Z.to_nat given) (Z.to_nat total) ltac:(lia)) as F.
  replace (Z.to_nat total - Z.to_nat given)%nat with (Z.to_nat (total - given)) in F by lia.
  rewrite <- F.
  pose proof (zfact_pos (Z.to_nat given)). pose proof (zfact_pos (Z.to_nat (total - given))).
  pose proof (choose_pos (Z.to_nat total) (Z.to_nat given) ltac:(lia)).
  rewrite !inject_Z_mult. field. repeat split; apply inject_Z_nz; lia.
Qed.

Lemma Forall_repeat' : forall {X} (P : X -> Prop) x n, P x -> Forall P (repeat x n).
Proof. intros X P x n H. apply Forall_forall. intros y Hy. apply repeat_spec in Hy. now subst. Qed.

(* every enumerated support row is a legal sample: the right number of ones in the permitted positions *)
Theorem support_rows_ok : forall total given out rows r, (0 <= given)%Z -> (0 <= total <= Z.of_nat out)%Z ->
  srswor_support total given out = Some rows -> In r rows -> srswor_ok total given out r.
Proof.
  intros total given out rows r Hg Ht E Hr. unfold srswor_support in E.
  destruct (enumerate_card_complete total given ltac:(lia) Hg) as [rows0 [E0 [_ [Hin _]]]].
  rewrite E0 in E. inversion E; subst rows. apply in_map_iff in Hr. destruct Hr as [r0 [<- Hr0]].
  apply Hin in Hr0. destruct Hr0 as [Hl [Hb Hs]].
  unfold srswor_ok. repeat split.
  - rewrite app_length, repeat_length, Hl. lia.
  - apply Forall_app. split; [exact Hb|]. apply Forall_repeat'. now left.
  - rewrite <- Hl, firstn_app, firstn_all, Nat.sub_diag. cbn [firstn]. rewrite app_nil_r. exact Hs.
  - rewrite <- Hl, skipn_app, skipn_all, Nat.sub_diag. cbn [skipn app]. now apply Forall_repeat'.
Qed.

Local Close Scope Q_scope.

(* BinaryCardinalityConstraint.check accepts exactly the legal samples *)
Lemma masked_sum_skipn : forall value t s,
  zsum (map (fun iv => if t <=? Z.of_nat (fst iv) then snd iv else 0) (combine (seq s (length value)) value))
  = zsum (skipn (Z.to_nat (t - Z.of_nat s)) value).
Proof.
  induction value as [|v value IH]; intros t s.
  - cbn. destruct (Z.to_nat (t - Z.of_nat s)); reflexivity.
  - cbn [length seq combine map zsum fold_right fst snd].
    fold (zsum (map (fun iv => if t <=? Z.of_nat (fst iv) then snd iv else 0) (combine (seq (S s) (length value)) value))).
    rewrite IH. destruct (t <=? Z.of_nat s) eqn:E.
    + apply Z.leb_le in E. replace (Z.to_nat (t - Z.of_nat s)) with 0%nat by lia.
      replace (Z.to_nat (t - Z.of_nat (S s))) with 0%nat by lia. cbn [skipn zsum fold_right]. reflexivity.
    + apply Z.leb_gt in E. replace (Z.to_nat (t - Z.of_nat s)) with (S (Z.to_nat (t - Z.of_nat (S s)))) by lia.
      cbn [skipn]. lia.
Qed.

Lemma zsum_zsum_s : forall l, zsum l = zsum_s l.
Proof. reflexivity. Qed.

Lemma zsum_split : forall n l, zsum l = zsum (firstn n l) + zsum (skipn n l).
Proof.
  induction n as [|n IH]; intros l; [reflexivity|]. destruct l as [|a l]; [reflexivity|].
  unfold zsum in *. cbn [firstn skipn fold_right]. rewrite (IH l). lia.
Qed.

Lemma bits_sum_zero : forall l, Forall (fun v => v = 0 \/ v = 1) l -> zsum l = 0 -> Forall (fun v => v = 0) l.
Proof.
  induction l as [|a l IH]; intros Hb Hs; [constructor|].
  inversion Hb as [|? ? Ha Hl]; subst. cbn [zsum fold_right] in Hs. fold (zsum l) in Hs.
  pose proof (zsum_bits_le l Hl) as [Hge _]. rewrite <- zsum_zsum_s in Hge.
  constructor; [lia|apply IH; [assumption|lia]].
Qed.

Lemma zeros_sum : forall l, Forall (fun v => v = 0) l -> zsum l = 0.
Proof. induction l as [|a l IH]; intros H; [reflexivity|]. inversion H; subst. cbn. fold (zsum l). rewrite IH; auto. Qed.

Theorem card_check_iff : forall total given value, 0 <= total ->
  card_check given (Some total) value = true <-> srswor_ok total given (length value) value.
Proof.
  intros total given value Ht. unfold card_check, srswor_ok.
  rewrite (masked_sum_skipn value total 0). rewrite Z.sub_0_r.
  rewrite !andb_true_iff, forallb_forall, !Z.eqb_eq.
  split.
  - intros [[Hb Hm] Hs].
    assert (Hbits : Forall (fun v => v = 0 \/ v = 1) value).
    { apply Forall_forall. intros v Hv. specialize (Hb v Hv). apply orb_true_iff in Hb.
      rewrite !Z.eqb_eq in Hb. exact Hb. }
    repeat split; auto.
    + rewrite (zsum_split (Z.to_nat total) value) in Hs. rewrite <- zsum_zsum_s. lia.
    + apply bits_sum_zero; [apply (Forall_firstn_skipn _ _ _ Hbits)|exact Hm].
  - intros [_ [Hbits [Hs Hz]]]. rewrite <- zsum_zsum_s in Hs.
    repeat split.
    + intros v Hv. rewrite Forall_forall in Hbits. specialize (Hbits v Hv). apply orb_true_iff.
      rewrite !Z.eqb_eq. exact Hbits.
    + apply zeros_sum. exact Hz.
    + rewrite (zsum_split (Z.to_nat total) value), Hs, (zeros_sum _ Hz). lia.
Qed.
