(* C19 - tie between the Python text of `simple_random_sampling_without_replacement` and PV.C19.Combinatorics.srswor,
   checked by the kernel.  PV.Gen.C19Src.srswor_body is the MiniPy term harness/py2coq/translate.py regenerates from
   /repo/src/pydrobert/torch/_combinatorics.py on every run; PV.MiniPy.Interp is its semantics; the torch calls mean what
   PV.MiniTorch.OpsC19 says (through SrcRun.ext19).  For EVERY batch shape, every pair of count tensors (of that shape, or
   a one-element given_count that broadcasts), out_size given or None, every content of uninitialised memory and every
   Bernoulli oracle that draws 1 at p = 1 and 0 at p = 0: the interpreted source raises RuntimeError exactly when the model
   returns None for some batch element, and otherwise returns the tensor of shape batch + (out_size,) whose n-th row is
   Model.srswor total[n] given[n] out_size run on a script of uniforms in [0, 1). *)
From Coq Require Import ZArith QArith List Bool Arith Lia.
From PV Require Import MiniPy.Syntax MiniPy.Interp.
From PV Require Import MiniTorch.Ops MiniTorch.Value MiniTorch.Lemmas MiniTorch.OpsC19 MiniTorch.LemmasC19 Gen.C19Src.
From PV Require Import C19.Combinatorics C19.Spec C19.ProofsComb.
From PV Require C19.Proofs.
From PV Require Import C19.SrcRun C19.TieLib C19.TieSrswor C19.TieModel.
Import ListNotations.
Local Open Scope Z_scope.

(* max of total_count (0 for no element: never used, the run raises there) *)
Definition zmaxl (l : list Z) : Z := match l with [] => 0 | a :: r => zmax1 a r end.
(* the effective out_size *)
Definition oeffz (out : option Z) (totals : list Z) : Z := match out with Some o => o | None => zmaxl totals end.
(* out_size, when given, is a size *)
Definition out_ok (out : option Z) : Prop := match out with Some o => 0 <= o | None => True end.
(* the guard of the source: some given count exceeds its total, or out_size is below the largest total *)
Definition guard (totals givens : list Z) (out : option Z) : bool :=
  over totals givens || (oeffz out totals <? zmaxl totals).

(* row n of the sample: the n-th entry of every step's draw *)
Definition rows_of_bits (N : nat) (bits : list (list bool)) : list (list Z) :=
  map (fun n => map (fun bt => b2z (nth n bt false)) bits) (seq 0 N).

(* ---- lists ------------------------------------------------------------------------------------------------------- *)
Lemma result_data_rows : forall N O bits, length bits = O ->
  result_data N O bits = zinj (concat (rows_of_bits N bits)).
Proof.
  intros N O bits Hl. unfold result_data, tab2, rows_of_bits, zinj. cbn [tdata].
  rewrite concat_map, map_map, flat_map_concat_map. f_equal. apply map_ext. intros n.
  replace (map (fun bt => b2z (nth n bt false)) bits)
    with (map (fun bt => b2z (nth n bt false)) (map (fun t => nth t bits []) (seq 0 (length bits))))
    by (now rewrite Proofs.map_nth_seq).
  rewrite Hl, !map_map. apply map_ext. intros t. now rewrite qbool_z.
Qed.

Lemma over_false_nth : forall totals givens n, length totals = length givens -> over totals givens = false ->
  (n < length totals)%nat -> nth n givens 0 <= nth n totals 0.
Proof.
  intros totals givens n Hl Hov Hn. unfold over in Hov.
  destruct (Z.le_gt_cases (nth n givens 0) (nth n totals 0)) as [H|H]; [assumption|exfalso].
  assert (E : existsb (fun gt : Z * Z => snd gt <? fst gt) (combine givens totals) = true); [|congruence].
  apply existsb_exists. exists (nth n givens 0, nth n totals 0). split.
  - rewrite <- combine_nth by congruence. apply nth_In. rewrite combine_length. lia.
  - cbn [fst snd]. apply Z.ltb_lt. lia.
Qed.

Lemma over_true_nth : forall totals givens, length totals = length givens -> over totals givens = true ->
  exists n, (n < length totals)%nat /\ nth n totals 0 < nth n givens 0.
Proof.
  intros totals givens Hl Hov. unfold over in Hov. apply existsb_exists in Hov. destruct Hov as [[g t] [Hin Hlt]].
  apply (In_nth _ _ (0, 0)) in Hin. destruct Hin as [n [Hn E]]. rewrite combine_length in Hn.
  rewrite combine_nth in E by congruence. inversion E; subst. exists n. split; [lia|].
  cbn [fst snd] in Hlt. now apply Z.ltb_lt in Hlt.
Qed.

Lemma zmaxl_ge : forall l n, (n < length l)%nat -> nth n l 0 <= zmaxl l.
Proof. intros [|a r] n H; [cbn in H; lia|]. apply zmax1_ge. now apply nth_In. Qed.

Lemma zmaxl_in : forall l, l <> [] -> exists n, (n < length l)%nat /\ nth n l 0 = zmaxl l.
Proof.
  intros [|a r] H; [congruence|]. destruct (In_nth _ _ 0 (zmax1_in r a)) as [n [Hn E]]. exists n. now split.
Qed.

Lemma map_repeat' : forall {A B} (f : A -> B) x n, map f (repeat x n) = repeat (f x) n.
Proof. induction n as [|n IH]; [reflexivity|]. cbn. now rewrite IH. Qed.

(* ---- the guard is the model's error condition, element by element ------------------------------------------------ *)
Lemma guard_iff : forall totals givens out, length totals = length givens -> totals <> [] -> out_ok out ->
  Forall (fun g => 0 <= g) givens ->
  (guard totals givens out = true <->
   exists n, (n < length totals)%nat /\
             forall us, srswor (nth n totals 0) (nth n givens 0) (Z.to_nat (oeffz out totals)) us = None).
Proof.
  intros totals givens out Hl Hne Hout Hg. unfold guard. split.
  - intros H. apply orb_prop in H. destruct H as [H|H].
    + destruct (over_true_nth _ _ Hl H) as [n [Hn Hlt]]. exists n. split; [assumption|]. intros us.
      apply srswor_error_iff. now left.
    + apply Z.ltb_lt in H. destruct (zmaxl_in totals Hne) as [n [Hn E]]. exists n. split; [assumption|]. intros us.
      apply srswor_error_iff.
      destruct (Z.lt_ge_cases (nth n totals 0) (nth n givens 0)) as [Hc|Hc]; [now left|right].
      rewrite E. assert (0 <= zmaxl totals).
      { rewrite <- E. rewrite Forall_forall in Hg. specialize (Hg (nth n givens 0) ltac:(apply nth_In; lia)). lia. }
      destruct out as [o|]; cbn [oeffz out_ok] in *; lia.
  - intros [n [Hn H]]. specialize (H []). apply srswor_error_iff in H.
    destruct (over totals givens) eqn:Hov; [reflexivity|]. cbn [orb]. apply Z.ltb_lt.
    pose proof (over_false_nth _ _ n Hl Hov Hn). destruct H as [H|H]; [lia|].
    pose proof (zmaxl_ge totals n Hn).
    rewrite Forall_forall in Hg. specialize (Hg (nth n givens 0) ltac:(apply nth_In; lia)). lia.
Qed.

(* ---- the general statement: any pair of tensors that broadcast to (totals, givens) of shape sh --------------------- *)
Section Gen.
  Variables (orc : oracle) (junk : nat -> Q).
  Hypothesis Hok : oracle_ok orc.
  Variables (s1 s2 sh : list nat) (d1 d2 : list Q) (totals givens : list Z).
  Hypothesis Hmax : max_all (mkTens s1 d1) = Some (inject_Z (zmaxl totals)).
  Hypothesis Hbc : broadcast_pair (mkTens s1 d1) (mkTens s2 d2) = Some (mkTens sh (zinj totals), mkTens sh (zinj givens)).
  Hypothesis Ht : length totals = numel sh.
  Hypothesis Hg : length givens = numel sh.
  Hypothesis Hne : totals <> [].
  Hypothesis Hg0 : Forall (fun g => 0 <= g) givens.

  Theorem srswor_tie_gen : forall out, out_ok out ->
    let O := Z.to_nat (oeffz out totals) in
    if guard totals givens out
    then exists st, Interp.run (ext19 orc junk) srswor_body (srswor_vars (mkTens s1 d1) (mkTens s2 d2) out)
                    = Exc runtime_error st
    else exists st rows,
           Interp.run (ext19 orc junk) srswor_body (srswor_vars (mkTens s1 d1) (mkTens s2 d2) out)
           = Ok (enc (ztens (sh ++ [O]) (concat rows))) st /\
           length rows = numel sh /\
           forall n, (n < numel sh)%nat ->
             exists us, Forall unit_u us /\ srswor (nth n totals 0) (nth n givens 0) O us = Some (nth n rows []).
  Proof.
    intros out Hout O.
    assert (EO : oeff (zmaxl totals) out = oeffz out totals) by (destruct out; reflexivity).
    destruct (guard totals givens out) eqn:G; unfold guard in G.
    - apply (srswor_run_raises orc junk s1 s2 sh d1 d2 totals givens (zmaxl totals) Hmax Hbc out). now rewrite EO.
    - apply orb_false_elim in G. destruct G as [Hov Hlt]. apply Z.ltb_ge in Hlt.
      assert (Hpos : 0 <= oeffz out totals).
      { destruct out as [o|]; [exact Hout|]. cbn [oeffz] in *.
        destruct totals as [|a r]; [congruence|]. destruct givens as [|g gs]; [cbn in Hg; cbn in Ht; lia|].
        pose proof (over_false_nth (a :: r) (g :: gs) 0%nat ltac:(congruence) Hov ltac:(cbn; lia)) as H. cbn [nth] in H.
        inversion Hg0; subst. pose proof (zmax1_ge_init r a). cbn [zmaxl]. lia. }
      destruct (srswor_run_ok orc junk s1 s2 sh d1 d2 totals givens (zmaxl totals) Hmax Hbc out Ht Hg Hov) as [st Hrun].
      { now rewrite EO. } { now rewrite EO. }
      rewrite EO in Hrun. fold O in Hrun.
      set (trems := map (fun t => Z.max t 1) totals) in *.
      set (bits := bloop orc 0 O givens trems) in *.
      destruct (bloop_rows orc O 0 givens trems (numel sh) Hg) as [Hlen Hrows]; [unfold trems; now rewrite map_length|].
      fold bits in Hlen, Hrows.
      exists st, (rows_of_bits (numel sh) bits). split; [|split].
      * rewrite Hrun. rewrite (result_data_rows _ O) by exact Hlen. reflexivity.
      * unfold rows_of_bits. now rewrite map_length, seq_length.
      * intros n Hn.
        assert (Hgn : nth n givens 0 <= nth n totals 0) by (apply over_false_nth; [congruence|assumption|lia]).
        assert (Hg0n : 0 <= nth n givens 0).
        { rewrite Forall_forall in Hg0. apply Hg0. apply nth_In. lia. }
        assert (Htn : nth n trems 0 = Z.max (nth n totals 0) 1).
        { exact (nth_map_lt (fun t => Z.max t 1) totals n 0 0 ltac:(lia)). }
        destruct (row_of_bloop orc Hok O 0 givens trems n) as [us [Hus Hrow]].
        { unfold trems. rewrite map_length. congruence. } { lia. } { rewrite Htn. unfold inv. lia. }
        exists us. split; [assumption|]. unfold srswor.
        replace (nth n totals 0 <? nth n givens 0) with false by (symmetry; apply Z.ltb_ge; lia).
        replace (Z.of_nat O <? nth n totals 0) with false.
        2:{ symmetry. apply Z.ltb_ge. unfold O. rewrite Z2Nat.id by lia. pose proof (zmaxl_ge totals n ltac:(lia)). lia. }
        f_equal. rewrite <- Htn, <- Hrow. unfold rows_of_bits.
        rewrite nth_map_seq by lia. reflexivity.
  Qed.
End Gen.

(* ---- count tensors of one shape ------------------------------------------------------------------------------------- *)
Definition srswor_conclusion (o : outcome val) (sh : list nat) (totals givens : list Z) (out : option Z) : Prop :=
  let O := Z.to_nat (oeffz out totals) in
  if guard totals givens out
  then exists st, o = Exc runtime_error st
  else exists st rows,
         o = Ok (enc (ztens (sh ++ [O]) (concat rows))) st /\
         length rows = numel sh /\
         forall n, (n < numel sh)%nat ->
           exists us, Forall unit_u us /\ srswor (nth n totals 0) (nth n givens 0) O us = Some (nth n rows []).

Theorem srswor_tie : forall orc junk sh totals givens out,
  oracle_ok orc -> length totals = numel sh -> length givens = numel sh -> totals <> [] ->
  Forall (fun g => 0 <= g) givens -> out_ok out ->
  srswor_conclusion (run_srswor orc junk (ztens sh totals) (ztens sh givens) out) sh totals givens out.
Proof.
  intros orc junk sh totals givens out Hok Ht Hg Hne Hg0 Hout.
  apply (srswor_tie_gen orc junk Hok sh sh sh (zinj totals) (zinj givens) totals givens); try assumption.
  - destruct totals as [|a r]; [congruence|]. apply max_all_z.
  - unfold broadcast_pair. cbn [tshape]. now rewrite shape_eqb_refl.
Qed.

(* ---- a one-element given_count (0-dim, or all sizes 1) against a batch of totals -------------------------------------- *)
Theorem srswor_tie_scalar_given : forall orc junk sh totals gsh g out,
  oracle_ok orc -> length totals = numel sh -> totals <> [] -> 0 <= g -> out_ok out ->
  shape_eqb sh gsh = false -> one_elt (ztens sh totals) (ztens gsh [g]) = false -> one_elt (ztens gsh [g]) (ztens sh totals) = true ->
  srswor_conclusion (run_srswor orc junk (ztens sh totals) (ztens gsh [g]) out) sh totals (repeat g (numel sh)) out.
Proof.
  intros orc junk sh totals gsh g out Hok Ht Hne Hg0 Hout H1 H2 H3.
  apply (srswor_tie_gen orc junk Hok sh gsh sh (zinj totals) (zinj [g]) totals (repeat g (numel sh))); try assumption.
  - destruct totals as [|a r]; [congruence|]. apply max_all_z.
  - unfold broadcast_pair, ztens, zinj in *. cbn [tshape] in *. rewrite H1, H2, H3.
    unfold expand_one. cbn [tdata map hd]. now rewrite map_repeat'.
  - apply repeat_length.
  - now apply Forall_repeat'.
Qed.

(* ---- consequences that speak about the interpreted source only --------------------------------------------------------- *)
Theorem srswor_source_raises_iff : forall orc junk sh totals givens out,
  oracle_ok orc -> length totals = numel sh -> length givens = numel sh -> totals <> [] ->
  Forall (fun g => 0 <= g) givens -> out_ok out ->
  ((exists st, run_srswor orc junk (ztens sh totals) (ztens sh givens) out = Exc runtime_error st) <->
   exists n, (n < numel sh)%nat /\
             forall us, srswor (nth n totals 0) (nth n givens 0) (Z.to_nat (oeffz out totals)) us = None).
Proof.
  intros orc junk sh totals givens out Hok Ht Hg Hne Hg0 Hout.
  pose proof (srswor_tie orc junk sh totals givens out Hok Ht Hg Hne Hg0 Hout) as T. unfold srswor_conclusion in T.
  pose proof (guard_iff totals givens out ltac:(congruence) Hne Hout Hg0) as G. rewrite Ht in G.
  destruct (guard totals givens out).
  - split; [intros _; now apply G|intros _; exact T].
  - split.
    + intros [st E]. destruct T as [st' [rows [E' _]]]. congruence.
    + intros H. apply G in H. discriminate.
Qed.

(* COMPOSED with the model theorem ProofsComb.srswor_cardinality_and_positions: whenever the interpreted source returns,
   it returns a tensor of shape batch + (out_size,) every row of which has exactly given[n] ones, all of them among the
   first total[n] positions - for every oracle with the two boundary properties and every uninitialised memory *)
Theorem srswor_source_cardinality_and_positions : forall orc junk sh totals givens out v st,
  oracle_ok orc -> length totals = numel sh -> length givens = numel sh -> totals <> [] ->
  Forall (fun g => 0 <= g) givens -> out_ok out ->
  run_srswor orc junk (ztens sh totals) (ztens sh givens) out = Ok v st ->
  exists rows, v = enc (ztens (sh ++ [Z.to_nat (oeffz out totals)]) (concat rows)) /\ length rows = numel sh /\
    forall n, (n < numel sh)%nat ->
      srswor_ok (nth n totals 0) (nth n givens 0) (Z.to_nat (oeffz out totals)) (nth n rows []).
Proof.
  intros orc junk sh totals givens out v st Hok Ht Hg Hne Hg0 Hout Hrun.
  pose proof (srswor_tie orc junk sh totals givens out Hok Ht Hg Hne Hg0 Hout) as T. unfold srswor_conclusion in T.
  destruct (guard totals givens out).
  - destruct T as [st' E]. congruence.
  - destruct T as [st' [rows [E [Hl Hrows]]]]. rewrite Hrun in E. inversion E; subst. exists rows. split; [reflexivity|split; [assumption|]].
    intros n Hn. destruct (Hrows n Hn) as [us [Hus Hs]].
    apply (srswor_cardinality_and_positions _ _ _ us); [|assumption|assumption].
    rewrite Forall_forall in Hg0. apply Hg0. apply nth_In. lia.
Qed.

Example srswor_source_nonvacuous :
  let us := [[1#2; 1#2]; [1#2; 1#2]; [1#2; 1#2]; [1#2; 1#2]; [1#2; 1#2]]%Q in
  agrees (run_srswor (orc_of_script us) junk_check (ztens [2%nat] [4; 3]) (ztens [2%nat] [2; 1]) (Some 5))
         (Some ([2%nat; 5%nat], [0; 1; 0; 1; 0; 0; 0; 1; 0; 0])) = true /\
  agrees (run_srswor (orc_of_script us) junk_check (ztens [2%nat] [4; 3]) (ztens [] [2]) None)
         (Some ([2%nat; 4%nat], [0; 1; 0; 1; 1; 0; 1; 0])) = true /\
  agrees (run_srswor (orc_of_script us) junk_check (ztens [2%nat] [4; 3]) (ztens [2%nat] [2; 4]) None) None = true /\
  agrees (run_srswor (orc_of_script us) junk_check (ztens [2%nat] [4; 3]) (ztens [2%nat] [2; 1]) (Some 3)) None = true.
Proof. vm_compute. repeat split. Qed.
