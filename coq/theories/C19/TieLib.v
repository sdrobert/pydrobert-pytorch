(* C19 tie - library: a statement sequence as a list, tensors inside the interpreter, and what each call
   of the translated bodies that reaches [ext19] answers on encoded tensors.  No new definitions of meaning. *)
From Coq Require Import ZArith QArith List String Bool Arith Lia.
From PV Require Import MiniPy.Syntax MiniPy.Interp.
From PV Require Export MiniPy.Lemmas.
From PV Require Import MiniTorch.Ops MiniTorch.Value MiniTorch.Lemmas MiniTorch.OpsC19 MiniTorch.LemmasC19.
From PV Require Import C19.SrcRun.
Import ListNotations.
Local Open Scope string_scope.

(* ---- SSeq trees as lists of statements -------------------------------------------------------------- *)
Fixpoint flatten_seq (s : stmt) : list stmt :=
  match s with SSeq a b => flatten_seq a ++ flatten_seq b | _ => [s] end.

Section ExecList.
  Variable ext : string -> list val -> list (string * val) -> state -> outcome val.

  Fixpoint exec_list (l : list stmt) (st : state) : outcome ctl :=
    match l with
    | [] => Ok CNormal st
    | s :: r => bind (exec ext s st) (fun c st1 => match c with CNormal => exec_list r st1 | CReturn v => Ok c st1 end)
    end.

  Lemma exec_list_app : forall a b st,
    exec_list (a ++ b) st =
    bind (exec_list a st) (fun c st1 => match c with CNormal => exec_list b st1 | CReturn v => Ok c st1 end).
  Proof.
    induction a as [|s a IH]; intros b st; [reflexivity|].
    cbn [app exec_list]. destruct (exec ext s st) as [c st1|n st1|w]; cbn [bind]; try reflexivity.
    destruct c; [apply IH|reflexivity].
  Qed.

  Lemma exec_list_one : forall s st, exec_list [s] st = exec ext s st.
  Proof.
    intros. cbn [exec_list]. destruct (exec ext s st) as [c st1|n st1|w]; cbn [bind]; try reflexivity.
    destruct c; reflexivity.
  Qed.

  Lemma exec_flatten : forall s st, exec ext s st = exec_list (flatten_seq s) st.
  Proof.
    induction s; intros st; try (symmetry; apply exec_list_one).
    cbn [flatten_seq]. rewrite exec_list_app, <- IHs1. cbn [exec].
    destruct (exec ext s1 st) as [c st1|n st1|w]; cbn [bind]; try reflexivity.
    destruct c; [apply IHs2|reflexivity].
  Qed.

  (* an `if` whose branches are sequences: they stay lists, so that [interp] does not enter them *)
  Lemma exec_if_list : forall c t f st,
    exec ext (SIf c t f) st =
    bind (eval ext c st) (fun cv st1 => exec_list (flatten_seq (if truthy cv then t else f)) st1).
  Proof. intros. rewrite exec_if. destruct (eval ext c st) as [cv st1| |]; cbn [bind]; [|reflexivity..]. destruct (truthy cv); apply exec_flatten. Qed.

  Lemma exec_list_cons : forall s r st,
    exec_list (s :: r) st =
    bind (exec ext s st) (fun c st1 => match c with CNormal => exec_list r st1 | CReturn v => Ok c st1 end).
  Proof. reflexivity. Qed.

  (* the translator's tuple unpacking `a, b = e`: $t = e; a = $t[0]; b = $t[1] *)
  Lemma exec_unpack0 : forall x t a b st, lookup t (vars st) = Some (VTuple [a; b]) ->
    exec ext (SAssign [TName x] (ESub (EName t) (EConst (VInt 0)))) st = Ok CNormal (set_var x a st).
  Proof. intros. cbn. now rewrite H. Qed.

  Lemma exec_unpack1 : forall x t a b st, lookup t (vars st) = Some (VTuple [a; b]) ->
    exec ext (SAssign [TName x] (ESub (EName t) (EConst (VInt 1)))) st = Ok CNormal (set_var x b st).
  Proof. intros. cbn. now rewrite H. Qed.

  Lemma exec_list_cons_ok : forall s r st st1,
    exec ext s st = Ok CNormal st1 -> exec_list (s :: r) st = exec_list r st1.
  Proof. intros. cbn [exec_list]. now rewrite H. Qed.

  Lemma exec_list_cons_ret : forall s r st v st1,
    exec ext s st = Ok (CReturn v) st1 -> exec_list (s :: r) st = Ok (CReturn v) st1.
  Proof. intros. cbn [exec_list]. now rewrite H. Qed.

  Lemma run_flatten : forall s vars0,
    Interp.run ext s vars0 =
    match exec_list (flatten_seq s) (mkState vars0 []) with
    | Ok CNormal st => Ok VNone st
    | Ok (CReturn v) st => Ok v st
    | Exc n st => Exc n st
    | Stuck w => Stuck w
    end.
  Proof. intros. unfold Interp.run. now rewrite exec_flatten. Qed.
End ExecList.

(* [interp] runs the interpreter up to the next call of [ext] (answered by one of the equations below), test on numbers
   that are not literals, or statement.  Nothing but the interpreter is unfolded: tensor data, [ext] and the statements
   still to come (behind [exec_list]) stay as they are.  Call-by-need reduction unfolds [exec] and [eval] on the concrete
   statement; [cbn] then computes the operations on values and states, which are declared strict in the state or value
   they inspect (after the lemmas above, which unfold them on a variable state) so that they stay folded in the
   continuation behind a stuck call, where these are bound variables.  One [change] installs the result: every step of
   the proof makes the kernel type the whole goal again. *)
#[global] Arguments subscript o k !st.
#[global] Arguments attribute ext o a !st.
#[global] Arguments binop_eval op a b !st.
#[global] Arguments builtin f args !st.
#[global] Arguments method !o m !args.
#[global] Arguments cmp_eval op !a !b.
#[global] Arguments truthy !v.

Ltac interp_term G :=
  let G1 := eval lazy [exec eval bind assign_all store place_of] in G in
  eval cbn [set_var update lookup vars events emit subscript foreign_item foreign attribute binop_eval is_inf inf_bin num_bin
            as_q as_z cmp_eval q_cmp rich cmpop_name binop_name dict_get val_eqb truthy builtin is method container_items
            iter_items String.eqb Ascii.eqb Bool.eqb andb orb Z.opp] in G1.

Ltac interp := lazymatch goal with |- ?G => let G' := interp_term G in change G' end.

(* [stmt] starts on the next statement of the list ([exec_list_cons]) and runs it, in the same single step *)
Ltac stmt :=
  lazymatch goal with |- context C [exec_list ?e (?s :: ?r) ?st] =>
    let g := context C [bind (exec e s st)
                          (fun c st1 => match c with CNormal => exec_list e r st1 | CReturn v => Ok c st1 end)] in
    let G' := interp_term g in change G'
  end.

(* ---- tensors inside the interpreter ------------------------------------------------------------------
   [tv sh d] is [enc (mkTens sh d)] with its constructor visible (the interpreter's matches on a value decide
   by computation) and its two lists behind constants that [interp] leaves folded. *)
Definition enc_sh (sh : list nat) : list val := map (fun n => VInt (Z.of_nat n)) sh.
Definition enc_dat (d : list Q) : list val := map VQ d.
Notation tv sh d := (VTuple [VStr "$tensor"; VList (enc_sh sh); VList (enc_dat d)]).

Lemma enc_tv : forall sh d, enc (mkTens sh d) = tv sh d.
Proof. reflexivity. Qed.

Lemma dec_tv : forall sh d, dec (tv sh d) = Some (mkTens sh d).
Proof. intros. rewrite <- enc_tv. apply dec_enc. Qed.

Lemma dec_nats_enc_sh : forall sh, dec_nats (enc_sh sh) = Some sh.
Proof. apply dec_nats_enc. Qed.

Lemma dec_size_enc : forall sh, dec_size (enc_size sh) = Some sh.
Proof. intros. apply dec_nats_enc. Qed.

Lemma dec_enc_size : forall sh, dec (enc_size sh) = None.
Proof.
  intros [|a [|b [|c [|e sh]]]]; reflexivity.
Qed.

Lemma scalar_enc_size : forall sh, scalar (enc_size sh) = None.
Proof. reflexivity. Qed.

Lemma ztens_tv : forall sh zs, enc (ztens sh zs) = tv sh (map inject_Z zs).
Proof. reflexivity. Qed.

Definition zinj (l : list Z) : list Q := map inject_Z l.

Lemma nth_zinj : forall l n, nth n (zinj l) 0%Q = inject_Z (nth n l 0%Z).
Proof. intros. unfold zinj. change 0%Q with (inject_Z 0). apply map_nth. Qed.

Lemma zinj_app : forall a b, zinj (a ++ b) = (zinj a ++ zinj b)%list.
Proof. intros. apply map_app. Qed.

Lemma zinj_length : forall a, List.length (zinj a) = List.length a.
Proof. intros. apply map_length. Qed.

(* a torch.Size inside the interpreter: [enc_size sh] with its constructor visible *)
Notation sv sh := (VTuple (enc_sh sh)).

Lemma enc_size_sv : forall sh, enc_size sh = sv sh.
Proof. reflexivity. Qed.

Lemma dec_sv : forall sh, dec (sv sh) = None.
Proof. apply dec_enc_size. Qed.

Lemma dec_size_sv : forall sh, dec_size (sv sh) = Some sh.
Proof. apply dec_size_enc. Qed.

(* ---- what the calls answer on encoded tensors ---------------------------------------------------------- *)
Section Ext.
  Variables (orc : oracle) (junk : nat -> Q).
  Notation ext := (ext19 orc junk).

  #[local] Arguments dec : simpl never.
  #[local] Arguments enc_sh : simpl never.
  #[local] Arguments enc_dat : simpl never.
  #[local] Arguments dec_size : simpl never.

  (* the dispatch of [ext19] on the name of the call, in one step: its unfolded body is large *)
  Ltac ext_eq :=
    intros;
    lazymatch goal with |- ?G =>
      let G1 := eval lazy [ext19 is String.eqb Ascii.eqb Bool.eqb] in G in let G2 := eval cbn in G1 in change G2
    end;
    rewrite ?dec_tv, ?dec_sv, ?dec_size_sv; cbn.

  Lemma E_max : forall sh d m st, max_all (mkTens sh d) = Some m ->
    ext "$method.max" [tv sh d] [] st = Ok (tv [] [m]) st.
  Proof. ext_eq. now rewrite H. Qed.

  Lemma E_max_empty : forall sh st, ext "$method.max" [tv sh []] [] st = Exc runtime_error st.
  Proof. ext_eq. reflexivity. Qed.

  Lemma E_item : forall sh q st, ext "$method.item" [tv sh [q]] [] st = Ok (VQ q) st.
  Proof. ext_eq. reflexivity. Qed.

  Lemma E_int : forall q st, ext "int" [VQ q] [] st = Ok (VInt (int_of_q q)) st.
  Proof. ext_eq. reflexivity. Qed.

  Lemma E_bcast : forall s1 d1 s2 d2 s1' d1' s2' d2' st,
    broadcast_pair (mkTens s1 d1) (mkTens s2 d2) = Some (mkTens s1' d1', mkTens s2' d2') ->
    ext "torch.broadcast_tensors" [tv s1 d1; tv s2 d2] [] st = Ok (VTuple [tv s1' d1'; tv s2' d2']) st.
  Proof. ext_eq. now rewrite H. Qed.

  Lemma E_gt : forall sh a b st,
    ext "compare" [VStr "gt"; tv sh a; tv sh b] [] st = Ok (tv sh (map2 (fun x y => qbool (q_gt x y)) a b)) st.
  Proof. ext_eq. unfold ext_compare. rewrite !dec_tv. cbn. unfold cmp_t. cbn. now rewrite shape_eqb_refl. Qed.

  Lemma E_any : forall sh d st, ext "$method.any" [tv sh d] [] st = Ok (VBool (existsb qtrue d)) st.
  Proof. ext_eq. reflexivity. Qed.

  Lemma E_Size : forall o st, (0 <= o)%Z -> ext "torch.Size" [VList [VInt o]] [] st = Ok (sv [Z.to_nat o]) st.
  Proof.
    ext_eq. replace (0 <=? o)%Z with true by (symmetry; now apply Z.leb_le). cbn.
    unfold enc_size, enc_sh. cbn [map]. now rewrite Z2Nat.id.
  Qed.

  Lemma E_shape : forall sh d st, ext "$attr.shape" [tv sh d] [] st = Ok (sv sh) st.
  Proof. ext_eq. reflexivity. Qed.

  Lemma E_add_size : forall a b st, ext "operator" [VStr "add"; sv a; sv b] [] st = Ok (sv (a ++ b)) st.
  Proof. ext_eq. unfold ext_operator. rewrite !dec_sv, !dec_size_sv. reflexivity. Qed.

  Lemma E_device : forall sh d st, ext "$attr.device" [tv sh d] [] st = Ok device_token st.
  Proof. ext_eq. reflexivity. Qed.

  Lemma E_empty_dev : forall sh st,
    ext "torch.empty" [sv sh] [("device", device_token)] st = Ok (tv sh (map junk (seq 0 (numel sh)))) st.
  Proof. ext_eq. reflexivity. Qed.

  Lemma E_clamp_min : forall sh d c st,
    ext "$method.clamp_min" [tv sh d; VInt c] [] st = Ok (tv sh (map (qmax (inject_Z c)) d)) st.
  Proof. ext_eq. reflexivity. Qed.

  Lemma E_clamp_min_ : forall sh d c st,
    ext "$method.clamp_min_" [tv sh d; VInt c] [] st = Ok (tv sh (map (qmax (inject_Z c)) d)) st.
  Proof. ext_eq. reflexivity. Qed.

  Lemma E_truediv : forall sh a b st, existsb (fun q => Qeq_bool q 0) b = false ->
    ext "operator" [VStr "truediv"; tv sh a; tv sh b] [] st = Ok (tv sh (map2 (fun x y => Qred (x / y)) a b)) st.
  Proof.
    ext_eq. unfold ext_operator. rewrite !dec_tv. cbn. unfold div_t, zip2. cbn. now rewrite H, shape_eqb_refl.
  Qed.

  Lemma E_bern : forall sh p st,
    ext "torch.bernoulli" [tv sh p] [] st =
    Ok (tv sh (map (fun i => qbool (orc (List.length (events st)) p i)) (seq 0 (List.length p))))
       (emit ("torch.bernoulli", [tv sh p]) st).
  Proof. ext_eq. reflexivity. Qed.

  Lemma E_setrow : forall n sh D t v st, (0 <= t < Z.of_nat n)%Z ->
    ext "$setitem" [tv (n :: sh) D; VInt t; tv sh v] [] st =
    Ok (tv (n :: sh) (firstn (Z.to_nat t * numel sh) D ++ v ++ skipn (S (Z.to_nat t) * numel sh) D)) st.
  Proof.
    ext_eq. unfold ext_setitem. rewrite !dec_tv. cbn. unfold set_row. cbn [tshape tdata].
    rewrite (in_range_b _ _ H).
    rewrite shape_eqb_refl. reflexivity.
  Qed.

  Lemma E_sub_tt : forall sh a b st,
    ext "operator" [VStr "sub"; tv sh a; tv sh b] [] st = Ok (tv sh (map2 (fun x y => Qred (x - y)) a b)) st.
  Proof. ext_eq. unfold ext_operator. rewrite !dec_tv. cbn. unfold zip2. cbn. now rewrite shape_eqb_refl. Qed.

  Lemma E_sub_ts : forall sh a c st,
    ext "operator" [VStr "sub"; tv sh a; VInt c] [] st = Ok (tv sh (map (fun v => Qred (v - inject_Z c)) a)) st.
  Proof. ext_eq. unfold ext_operator. rewrite !dec_tv. reflexivity. Qed.

  Lemma E_numel : forall sh d st, ext "$method.numel" [tv sh d] [] st = Ok (VInt (Z.of_nat (numel sh))) st.
  Proof. ext_eq. reflexivity. Qed.

  Lemma E_view2 : forall sh D a b st, (0 <= a)%Z -> (0 <= b)%Z -> (Z.to_nat a * Z.to_nat b)%nat = List.length D ->
    ext "$method.view" [tv sh D; VInt a; VInt b] [] st = Ok (tv [Z.to_nat a; Z.to_nat b] D) st.
  Proof.
    ext_eq. replace (0 <=? a)%Z with true by (symmetry; now apply Z.leb_le).
    replace (0 <=? b)%Z with true by (symmetry; now apply Z.leb_le). cbn.
    unfold view. cbn [tdata numel fold_right]. rewrite Nat.mul_1_r, H1, Nat.eqb_refl. reflexivity.
  Qed.

  Lemma E_T : forall n m D st,
    ext "$attr.T" [tv [n; m] D] [] st = Ok (tv [m; n] (tdata (tab2 m n (fun i j => nth (j * m + i) D 0%Q)))) st.
  Proof. ext_eq. reflexivity. Qed.

  Lemma E_view_sz : forall sh D sh' st, numel sh' = List.length D ->
    ext "$method.view" [tv sh D; sv sh'] [] st = Ok (tv sh' D) st.
  Proof.
    ext_eq. unfold view. cbn [tdata]. rewrite H, Nat.eqb_refl. reflexivity.
  Qed.

  (* ---- binomial_coefficient ------------------------------------------------------------------------------------ *)
  Lemma dec_int : forall c, dec (VInt c) = None.
  Proof. reflexivity. Qed.

  Lemma dec_pair_key : forall r s, dec (VTuple [VInt r; s]) = None.
  Proof. reflexivity. Qed.

  Lemma dec_ell_key : forall c, dec (VTuple [ellipsis_v; VInt c]) = None.
  Proof. reflexivity. Qed.

  Lemma E_lt_s : forall sh a c st,
    ext "compare" [VStr "lt"; tv sh a; VInt c] [] st = Ok (tv sh (map (fun v => qbool (q_lt v (inject_Z c))) a)) st.
  Proof. ext_eq. unfold ext_compare. rewrite dec_tv, dec_int. reflexivity. Qed.

  Lemma E_eq_s : forall sh a c st,
    ext "compare" [VStr "eq"; tv sh a; VInt c] [] st = Ok (tv sh (map (fun v => qbool (Qeq_bool v (inject_Z c))) a)) st.
  Proof. ext_eq. unfold ext_compare. rewrite dec_tv, dec_int. reflexivity. Qed.

  Lemma E_or : forall sh a b st,
    ext "operator" [VStr "or"; tv sh a; tv sh b] [] st = Ok (tv sh (map2 (fun x y => qbool (qtrue x || qtrue y)) a b)) st.
  Proof. ext_eq. unfold ext_operator. rewrite !dec_tv. cbn. unfold or_t. cbn. now rewrite shape_eqb_refl. Qed.

  Lemma E_empty2 : forall a b st, (0 <= a)%Z -> (0 <= b)%Z ->
    ext "torch.empty" [VTuple [VInt a; VInt b]] [("device", device_token); ("dtype", long_token)] st =
    Ok (tv [Z.to_nat a; Z.to_nat b] (map junk (seq 0 (numel [Z.to_nat a; Z.to_nat b])))) st.
  Proof.
    intros. unfold ext19. cbn. unfold dec_size. cbn.
    replace (0 <=? a)%Z with true by (symmetry; now apply Z.leb_le).
    replace (0 <=? b)%Z with true by (symmetry; now apply Z.leb_le). reflexivity.
  Qed.

  Lemma E_setcol0 : forall n m D c st,
    ext "$setitem" [tv [n; S m] D; VTuple [ellipsis_v; VInt 0]; VInt c] [] st =
    Ok (tv [n; S m] (flat_map (fun r => inject_Z c :: tl r) (rows_of n (S m) D))) st.
  Proof. ext_eq. unfold ext_setitem. rewrite dec_tv. reflexivity. Qed.

  Lemma E_setrow_s : forall n sh D t c st, (0 <= t < Z.of_nat n)%Z ->
    ext "$setitem" [tv (n :: sh) D; VInt t; VInt c] [] st =
    Ok (tv (n :: sh) (firstn (Z.to_nat t * numel sh) D ++ repeat (inject_Z c) (numel sh) ++ skipn (S (Z.to_nat t) * numel sh) D)) st.
  Proof.
    ext_eq. unfold ext_setitem. rewrite dec_tv, dec_int. cbn. unfold set_row_s. cbn [tshape tdata].
    rewrite (in_range_b _ _ H). reflexivity.
  Qed.

  Lemma E_getrow : forall n m D r st, (0 <= r < Z.of_nat n)%Z ->
    ext "$getitem" [tv [n; S m] D; VTuple [VInt r; slice_v VNone (VInt (-1)) VNone]] [] st =
    Ok (tv [m] (firstn m (skipn (Z.to_nat r * S m) D))) st.
  Proof.
    ext_eq. unfold ext_getitem. rewrite dec_tv, dec_pair_key. cbn. unfold row_but_last. cbn [tshape tdata].
    rewrite (in_range_b _ _ H). reflexivity.
  Qed.

  Lemma E_cumsum : forall m d st, ext "$method.cumsum" [tv [m] d; VInt 0] [] st = Ok (tv [m] (cumsum_from 0 d)) st.
  Proof. ext_eq. reflexivity. Qed.

  Lemma E_cumprod : forall m d st, ext "$method.cumprod" [tv [m] d; VInt 0] [] st = Ok (tv [m] (cumprod_from 1 d)) st.
  Proof. ext_eq. reflexivity. Qed.

  Lemma E_setrow_from1 : forall n m D r v st, (0 <= r < Z.of_nat n)%Z ->
    ext "$setitem" [tv [n; S m] D; VTuple [VInt r; slice_v (VInt 1) VNone VNone]; tv [m] v] [] st =
    Ok (tv [n; S m] (firstn (Z.to_nat r * S m + 1) D ++ v ++ skipn (S (Z.to_nat r) * S m) D)) st.
  Proof.
    ext_eq. unfold ext_setitem. rewrite !dec_tv. cbn. unfold set_row_from1. cbn [tshape tdata].
    rewrite (in_range_b _ _ H). rewrite Nat.eqb_refl. reflexivity.
  Qed.

  Lemma E_flatten : forall sh D st, ext "$method.flatten" [tv sh D] [] st = Ok (tv [List.length D] D) st.
  Proof. ext_eq. reflexivity. Qed.

  Lemma E_mul_ts : forall sh a c st,
    ext "operator" [VStr "mul"; tv sh a; VInt c] [] st = Ok (tv sh (map (fun v => Qred (v * inject_Z c)) a)) st.
  Proof. ext_eq. unfold ext_operator. rewrite dec_tv, dec_int. reflexivity. Qed.

  Lemma E_add_tt : forall sh a b st,
    ext "operator" [VStr "add"; tv sh a; tv sh b] [] st = Ok (tv sh (map2 (fun x y => Qred (x + y)) a b)) st.
  Proof. ext_eq. unfold ext_operator. rewrite !dec_tv. cbn. unfold zip2. cbn. now rewrite shape_eqb_refl. Qed.

  Lemma E_mul_tt : forall sh a b st,
    ext "operator" [VStr "mul"; tv sh a; tv sh b] [] st = Ok (tv sh (map2 (fun x y => Qred (x * y)) a b)) st.
  Proof. ext_eq. unfold ext_operator. rewrite !dec_tv. cbn. unfold zip2. cbn. now rewrite shape_eqb_refl. Qed.

  Lemma E_gather : forall n X sh I G st, gather (mkTens [n] X) (mkTens sh I) = Some (mkTens sh G) ->
    ext "$getitem" [tv [n] X; tv sh I] [] st = Ok (tv sh G) st.
  Proof. ext_eq. unfold ext_getitem. rewrite !dec_tv. cbv beta iota. now rewrite H. Qed.

  Lemma E_clamp_max : forall sh d c st,
    ext "$method.clamp_max" [tv sh d; VInt c] [] st = Ok (tv sh (map (qmin (inject_Z c)) d)) st.
  Proof. ext_eq. reflexivity. Qed.

  Lemma E_arange_dev : forall n st, (0 <= n)%Z ->
    ext "torch.arange" [VInt n] [("device", device_token)] st =
    Ok (tv [Z.to_nat n] (map (fun i => inject_Z (Z.of_nat i)) (seq 0 (Z.to_nat n)))) st.
  Proof.
    intros. unfold ext19. cbn. unfold arange. replace (n <? 0)%Z with false by (symmetry; apply Z.ltb_ge; lia). reflexivity.
  Qed.

  Lemma E_trunc : forall sh a b c st, trunc_div (mkTens sh a) (mkTens sh b) = Some (mkTens sh c) ->
    ext "trunc_divide" [tv sh a; tv sh b] [] st = Ok (tv sh c) st.
  Proof. ext_eq. unfold on_tens2. rewrite !dec_tv. cbv beta iota. now rewrite H. Qed.

  Lemma E_masked_fill : forall sh x m c st,
    ext "$method!.masked_fill_" [tv sh x; tv sh m; VInt c] [] st =
    Ok (tv sh (map2 (fun v mk => if qtrue mk then inject_Z c else v) x m)) st.
  Proof. ext_eq. unfold masked_fill. cbn. now rewrite shape_eqb_refl. Qed.
End Ext.
