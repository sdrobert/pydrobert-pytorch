(* C19 tie - one Metropolis-Hastings step of the interpreted blocks (mh_accept; mh_update) IS the model's step, for every
   batch element; and its composition with the model theorem mh_accepts_all_when_equal. *)
From Coq Require Import ZArith QArith List Bool Arith Lia.
From PV Require Import MiniPy.Syntax MiniPy.Interp.
From PV Require Import MiniTorch.Ops MiniTorch.Value MiniTorch.Lemmas MiniTorch.OpsC19 MiniTorch.LemmasC19 Gen.C19McSrc.
From PV Require Import C19.Model C19.Proofs.
From PV Require Import C19.SrcRun C19.SrcRunMc C19.TieLib C19.TieMc.
Import ListNotations.

Section Step.
  Variables (w f : nat -> nat -> Q) (props : list (list nat)) (us : list (list Q)).
  Notation ext := (ext19mc w f props us).
  Variables (Nz burn : Z) (Bs : nat) (nk : val) (B N : nat).
  Let UD : list lv := map lv_log (List.concat us).
  Notation stm := (st_mh (self_val Nz burn Bs) nk B N UD).

  (* torch.rand's rows: N rows of B uniforms, none negative *)
  Hypothesis Hus_len : length us = N.
  Hypothesis Hus_rows : Forall (fun r => length r = B) us.
  Hypothesis Hus_pos : Forall (Forall (fun u => (0 <= u)%Q)) us.

  (* the chain state of every batch element: last outcome, model ratio state, and the stored log-ratio that represents it *)
  Variables (lasts : list nat) (lastws : list (option Q)) (LR : list lv).
  Hypothesis Hlasts : length lasts = B.
  Hypothesis HLR : length LR = B.
  Hypothesis Hrel : forall j, (j < B)%nat -> rel_lv (nth j lastws None) (nth j LR LNaN).

  (* this step's proposals and uniforms *)
  Variables (evs : list event) (n : nat).
  Let d : list nat := nth (length evs) props [].
  Hypothesis Hd : length d = B.
  Hypothesis Hn : (n < N)%nat.

  Definition step_nxt (j : nat) : nat :=
    mnxt (w j) (nth j lasts 0%nat) (nth j lastws None) (nth j d 0%nat) (nth j (nth n us []) 0%Q).
  Definition step_nw (j : nat) : option Q :=
    mnw (w j) (nth j lastws None) (nth j d 0%nat) (nth j (nth n us []) 0%Q).

  Let CR0 : list lv := map lw (welt w d).
  Let ACC : list Q := acc_data B LR UD CR0 (Z.of_nat n).
  Let NR : list lv := nr_data LR CR0 ACC.

  Lemma LR_no_neginf : Forall (fun x => x <> LNegInf) LR.
  Proof.
    apply Forall_forall. intros x Hx. destruct (In_nth _ _ LNaN Hx) as [j [Hj E]]. subst x.
    apply (rel_lv_not_neginf (nth j lastws None)). apply Hrel. lia.
  Qed.

  Lemma row_ok : length (nth n us []) = B /\ Forall (fun u => (0 <= u)%Q) (nth n us []).
  Proof.
    rewrite Forall_forall in Hus_rows, Hus_pos.
    assert (Hin : List.In (nth n us []) us) by (apply nth_In; lia). split; [now apply Hus_rows|now apply Hus_pos].
  Qed.

  Lemma ud_len : length (ud_row B UD (Z.of_nat n)) = B.
  Proof. unfold UD. rewrite ud_row_us by (assumption || lia). rewrite map_length. apply row_ok. Qed.

  Lemma CR0_len : length CR0 = B.
  Proof. unfold CR0, welt. rewrite !map_length, combine_length, seq_length. lia. Qed.

  Lemma ACC_len : length ACC = B.
  Proof. pose proof CR0_len. pose proof ud_len. unfold ACC, acc_data. rewrite !zipl_length; rewrite ?zipl_length; lia. Qed.

  (* the accept bit of element j is the model's *)
  Lemma ACC_nth : forall j, (j < B)%nat ->
    nth j ACC 0%Q = qbool (macc (w j) (nth j lastws None) (nth j d 0%nat) (nth j (nth n us []) 0%Q)) /\
    rel_lv (step_nw j) (nth j NR LNaN).
  Proof.
    intros j Hj. destruct row_ok as [Hrl Hrp]. pose proof CR0_len as Lc. pose proof ud_len as Lu. pose proof ACC_len as La.
    assert (Hu : (0 <= nth j (nth n us []) 0)%Q).
    { rewrite Forall_forall in Hrp. apply Hrp. apply nth_In. lia. }
    pose proof (elt_step (w j (nth j d 0%nat)) (nth j (nth n us []) 0%Q) _ _ (Hrel j Hj) Hu) as [Ha Hr]. cbv zeta in Ha, Hr.
    assert (E : nth j ACC 0%Q = qbool (lgt (lsub' (lw (w j (nth j d 0%nat))) (nth j LR LNaN)) (lv_log (nth j (nth n us []) 0%Q)))).
    { unfold ACC, acc_data. rewrite !(zipl_nth _ _ _ LNaN LNaN) by (rewrite ?zipl_length; lia).
      unfold CR0. rewrite (nth_map_lt lw _ _ 0%Q) by (unfold welt; rewrite map_length, combine_length, seq_length; lia).
      rewrite welt_nth by lia. unfold UD. rewrite ud_row_us by (assumption || lia).
      rewrite (nth_map_lt lv_log _ _ 0%Q) by lia. reflexivity. }
    split.
    - rewrite E, Ha. unfold macc. reflexivity.
    - unfold NR, nr_data.
      assert (L0 : length (map (fun q => qbool (negb (qtrue q))) ACC) = B) by now rewrite map_length.
      rewrite (zipl_nth _ _ _ LNaN LNaN) by (rewrite !zipl_length; lia).
      rewrite !(zipl_nth _ _ _ 0%Q LNaN), (nth_map_lt _ _ _ 0%Q) by lia.
      rewrite E, !qtrue_qbool. unfold CR0. rewrite (nth_map_lt lw _ _ 0%Q) by (unfold welt; rewrite map_length, combine_length, seq_length; lia).
      rewrite welt_nth by lia. unfold step_nw, mnw, macc. rewrite <- Ha. exact Hr.
  Qed.

  (* the new sample of every element is the model's next state *)
  Lemma where_is_nxt : where_data ACC (inj_idx d) (inj_idx lasts) = inj_idx (map step_nxt (seq 0 B)).
  Proof.
    pose proof ACC_len as La. pose proof (inj_idx_length d) as Ld. pose proof (inj_idx_length lasts) as Ll.
    assert (Lw : length (where_data ACC (inj_idx d) (inj_idx lasts)) = B)
      by (unfold where_data; rewrite zipl_length; rewrite ?combine_length; lia).
    apply (nth_ext _ _ 0%Q 0%Q).
    - now rewrite Lw, inj_idx_length, List.map_length, seq_length.
    - intros j Hj. rewrite Lw in Hj. unfold where_data.
      rewrite (zipl_nth _ _ _ 0%Q (0%Q, 0%Q)), combine_nth by (rewrite ?combine_length; lia). cbn [fst snd].
      destruct (ACC_nth j Hj) as [Ea _]. rewrite Ea, qtrue_qbool, !inj_idx_nth.
      rewrite nth_map_seq by lia. unfold step_nxt, mnxt.
      destruct (macc (w j) (nth j lastws None) (nth j d 0%nat) (nth j (nth n us []) 0%Q)); reflexivity.
  Qed.

  (* ---- the step ---------------------------------------------------------------------------------------------------- *)
  Definition v_ok (vv : val) : Prop := (Z.of_nat n <= burn)%Z \/ exists V, vv = tv [B] V.

  Theorem mh_step_tie : forall vv cs cr ac fb t1, v_ok vv ->
    exists st1 LR' v' cs' cr' ac' fb' t1' evs',
      exec ext mh_accept (stm (inj_idx lasts) LR vv (VInt (Z.of_nat n)) cs cr ac fb t1 evs) = Ok CNormal st1 /\
      exec ext mh_update st1 = Ok CNormal (stm (inj_idx (map step_nxt (seq 0 B))) LR' v' (VInt (Z.of_nat n)) cs' cr' ac' fb' t1' evs') /\
      length LR' = B /\ (forall j, (j < B)%nat -> rel_lv (step_nw j) (nth j LR' LNaN)) /\
      length evs' = S (length evs).
  Proof.
    intros vv cs cr ac fb t1 Hv.
    pose proof (accept_run w f props us (self_val Nz burn Bs) vv nk B N (inj_idx lasts) LR UD (Z.of_nat n) cs cr ac fb t1 evs
                  ltac:(lia) Hd LR_no_neginf) as HA. cbv zeta in HA. fold d CR0 ACC NR in HA.
    assert (HNR : length NR = B).
    { pose proof CR0_len. pose proof ACC_len. unfold NR, nr_data. rewrite zipl_length; rewrite !zipl_length; rewrite ?map_length; lia. }
    assert (Hrel' : forall j, (j < B)%nat -> rel_lv (step_nw j) (nth j NR LNaN)) by (intros j Hj; apply ACC_nth; assumption).
    assert (Hev : forall e : event, length (evs ++ [e]) = S (length evs)) by (intros; rewrite app_length; cbn; lia).
    destruct (update_run w f props us Nz burn Bs nk B N UD (inj_idx lasts) LR vv (Z.of_nat n) (inj_idx d) NR ACC fb t1 Hv)
      as [v' [fb' HU]].
    eexists _, NR, v', _, _, _, fb', _, _. split; [exact HA|]. split; [|split; [exact HNR|split; [exact Hrel'|apply Hev]]].
    rewrite HU, where_is_nxt. reflexivity.
  Qed.
End Step.

(* one step of the model chain, read off the theorem about whole chains, started from an outcome other than the
   proposal: the chain can only move to the proposal by accepting it *)
Lemma model_step_accepts : forall (w : nat -> Q) c last prop u,
  (0 < c)%Q -> (forall i, (w i == c)%Q) -> (0 <= u)%Q /\ (u < 1)%Q ->
  macc w (Some (w last)) prop u = true.
Proof.
  intros w c last prop u Hc Hw Hu.
  destruct (mh_accepts_all_when_equal w c (fun _ => 0%Q) (S prop) [prop] [u] 0%nat Hc Hw ltac:(constructor; [exact Hu|constructor]) ltac:(cbn; lia)) as [E _].
  rewrite imh_chain_step in E. injection E as E1. unfold mnxt in E1.
  destruct (macc w (Some (w (S prop))) prop u) eqn:Em; [|lia]. rewrite <- Em. unfold macc. now rewrite !(Hw (S prop)), !(Hw last).
Qed.

Section Equal.
  Variables (w f : nat -> nat -> Q) (props : list (list nat)) (us : list (list Q)).
  Notation ext := (ext19mc w f props us).
  Variables (Nz burn : Z) (Bs : nat) (nk : val) (B N : nat).
  Notation stm := (st_mh (self_val Nz burn Bs) nk B N (map lv_log (List.concat us))).
  Hypothesis Hus_len : length us = N.
  Hypothesis Hus_rows : Forall (fun r => length r = B) us.
  Hypothesis Hus_unit : Forall (Forall (fun u => (0 <= u)%Q /\ (u < 1)%Q)) us.
  (* proposal = target: the ratio of every batch element is a positive constant *)
  Hypothesis Hw : forall j, (j < B)%nat -> exists c, (0 < c)%Q /\ forall i, (w j i == c)%Q.
  Variables (lasts : list nat) (LR : list lv).
  Hypothesis Hlasts : length lasts = B.
  Hypothesis HLR : length LR = B.
  (* the stored log-ratio is the ratio of the last sample *)
  Hypothesis Hrel : forall j, (j < B)%nat -> rel_lv (Some (w j (nth j lasts 0%nat))) (nth j LR LNaN).
  Variables (evs : list event) (n : nat).
  Hypothesis Hd : length (nth (length evs) props []) = B.
  Hypothesis Hn : (n < N)%nat.

  (* purely about the interpreted blocks: every batch element accepts - last_sample becomes this step's proposal *)
  Theorem mh_source_step_accepts_all : forall vv cs cr ac fb t1, v_ok burn B n vv ->
    exists st1 LR' v' cs' cr' ac' fb' t1' evs',
      exec ext mh_accept (stm (inj_idx lasts) LR vv (VInt (Z.of_nat n)) cs cr ac fb t1 evs) = Ok CNormal st1 /\
      exec ext mh_update st1 = Ok CNormal (stm (inj_idx (nth (length evs) props [])) LR' v' (VInt (Z.of_nat n)) cs' cr' ac' fb' t1' evs') /\
      (forall j, (j < B)%nat -> rel_lv (Some (w j (nth j (nth (length evs) props []) 0%nat))) (nth j LR' LNaN)).
  Proof.
    intros vv cs cr ac fb t1 Hv.
    set (lastws := map (fun j => Some (w j (nth j lasts 0%nat))) (seq 0 B)).
    assert (Hlw : forall j, (j < B)%nat -> nth j lastws None = Some (w j (nth j lasts 0%nat))).
    { intros j Hj. unfold lastws. now rewrite nth_map_seq. }
    assert (Hpos : Forall (Forall (fun u => (0 <= u)%Q)) us).
    { eapply Forall_impl; [|exact Hus_unit]. intros r Hr. eapply Forall_impl; [|exact Hr]. intros u [H _]. exact H. }
    assert (Hrel0 : forall j, (j < B)%nat -> rel_lv (nth j lastws None) (nth j LR LNaN)) by (intros j Hj; rewrite Hlw by assumption; now apply Hrel).
    destruct (mh_step_tie w f props us Nz burn Bs nk B N Hus_len Hus_rows Hpos lasts lastws LR Hlasts HLR Hrel0 evs n Hd Hn vv cs cr ac fb t1 Hv)
      as [st1 [LR' [v' [cs' [cr' [ac' [fb' [t1' [evs' [HA [HB [HL [HR HE]]]]]]]]]]]]].
    assert (Hnx : forall j, (j < B)%nat -> step_nxt w props us lasts lastws evs n j = nth j (nth (length evs) props []) 0%nat
                                          /\ step_nw w props us lastws evs n j = Some (w j (nth j (nth (length evs) props []) 0%nat))).
    { intros j Hj. destruct (Hw j Hj) as [c [Hc Hwc]].
      assert (Hu : (0 <= nth j (nth n us []) 0)%Q /\ (nth j (nth n us []) 0 < 1)%Q).
      { rewrite Forall_forall in Hus_unit, Hus_rows. assert (Hin : List.In (nth n us []) us) by (apply nth_In; lia).
        pose proof (Hus_unit _ Hin) as Hr. pose proof (Hus_rows _ Hin) as Hl. rewrite Forall_forall in Hr. apply Hr. apply nth_In. lia. }
      unfold step_nxt, step_nw, mnxt, mnw. rewrite Hlw by assumption.
      rewrite (model_step_accepts (w j) c (nth j lasts 0%nat) (nth j (nth (length evs) props []) 0%nat) _ Hc Hwc Hu). split; reflexivity. }
    assert (Hnxt : map (step_nxt w props us lasts lastws evs n) (seq 0 B) = nth (length evs) props []).
    { transitivity (map (fun j => nth j (nth (length evs) props []) 0%nat) (seq 0 B)); [|rewrite <- Hd; apply map_nth_seq].
      apply map_ext_in. intros j Hj. apply in_seq in Hj. apply Hnx. lia. }
    rewrite Hnxt in HB.
    eexists st1, LR', v', cs', cr', ac', fb', t1', evs'. split; [exact HA|split; [exact HB|]].
    intros j Hj. destruct (Hnx j Hj) as [_ E]. rewrite <- E. apply HR. exact Hj.
  Qed.
End Equal.
