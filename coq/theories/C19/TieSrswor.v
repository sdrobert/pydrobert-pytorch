(* C19 tie - `simple_random_sampling_without_replacement`: the symbolic run of the translated body
   (PV.Gen.C19Src.srswor_body) under MiniPy.Interp with the torch calls of SrcRun.ext19, statement by statement,
   for EVERY batch shape, count tensors, out_size, Bernoulli oracle and content of uninitialised memory.
   Result: the run either raises RuntimeError (a given count exceeds its total, or out_size is too small) or
   returns the tensor whose rows are the batch loop [bloop] (TieModel.v relates its rows to Model.srswor). *)
From Coq Require Import ZArith QArith List String Bool Arith Lia.
From PV Require Import MiniPy.Syntax MiniPy.Interp MiniPy.Lemmas.
From PV Require Import MiniTorch.Ops MiniTorch.Value MiniTorch.Lemmas MiniTorch.OpsC19 MiniTorch.LemmasC19 Gen.C19Src.
From PV Require Import C19.SrcRun C19.TieLib.
From PV Require C19.ProofsComb.
Import ListNotations.
Local Open Scope string_scope.
Local Open Scope list_scope.

(* the 12 statements of the body; the loop body's 5 *)
Definition parts : list stmt := Eval cbv [flatten_seq srswor_body app] in flatten_seq srswor_body.
Definition loop_stmt : stmt := Eval cbv [parts nth] in nth 10 parts SPass.
Definition loop_body : stmt := Eval cbv [loop_stmt] in match loop_stmt with SFor _ _ b => b | _ => SPass end.
Definition body_parts : list stmt := Eval cbv [flatten_seq loop_body app] in flatten_seq loop_body.

(* ---- Z-level facts about the guards ---------------------------------------------------------------------- *)

(* some given count exceeds its total *)
Definition over (totals givens : list Z) : bool := existsb (fun gt => (snd gt <? fst gt)%Z) (combine givens totals).

Lemma any_gt_z : forall givens totals,
  existsb qtrue (map2 (fun x y => qbool (q_gt x y)) (zinj givens) (zinj totals)) = over totals givens.
Proof.
  intros. unfold zinj, over. rewrite map2_maps, existsb_map'.
  apply existsb_ext'. intros [g t]. cbn [fst snd]. now rewrite qtrue_qbool, q_gt_z.
Qed.


(* ---- the head: everything before the loop ------------------------------------------------------------------ *)
Section Run.
  Variables (orc : oracle) (junk : nat -> Q).
  Notation ext := (ext19 orc junk).
  (* the count tensors as handed over, what broadcasting makes of them, the maximum of total_count *)
  Variables (s1 s2 sh : list nat) (d1 d2 : list Q) (totals givens : list Z) (tmax : Z).
  Hypothesis Hmax : max_all (mkTens s1 d1) = Some (inject_Z tmax).
  Hypothesis Hbc : broadcast_pair (mkTens s1 d1) (mkTens s2 d2) = Some (mkTens sh (zinj totals), mkTens sh (zinj givens)).

  Definition st0 (out : option Z) : state :=
    mkState [("total_count", tv s1 d1); ("given_count", tv s2 d2); ("out_size", out_val out)] [].

  (* the effective out_size *)
  Definition oeff (out : option Z) : Z := match out with Some o => o | None => tmax end.

  Definition st_bc (out : option Z) : state :=
    mkState [("total_count", tv sh (zinj totals)); ("given_count", tv sh (zinj givens)); ("out_size", VInt (oeff out));
             ("total_count_max", VInt tmax); ("$t1", VTuple [tv sh (zinj totals); tv sh (zinj givens)])] [].

  (* statements 2-4: the broadcast, once out_size is an integer *)
  Definition st_out (out : option Z) : state :=
    mkState [("total_count", tv s1 d1); ("given_count", tv s2 d2); ("out_size", VInt (oeff out)); ("total_count_max", VInt tmax)] [].

  Lemma bcast_run : forall out r, exec_list ext (firstn 3 (skipn 2 parts) ++ r) (st_out out) = exec_list ext r (st_bc out).
  Proof.
    intros out r. unfold parts, st_out, st_bc. cbn [firstn skipn app].
    stmt. rewrite (E_bcast _ _ _ _ _ _ _ _ _ _ _ Hbc). interp.
    rewrite exec_list_cons, (exec_unpack0 _ _ _ (tv sh (zinj totals)) (tv sh (zinj givens))) by reflexivity. interp.
    rewrite exec_list_cons, (exec_unpack1 _ _ _ (tv sh (zinj totals)) (tv sh (zinj givens))) by reflexivity. interp.
    reflexivity.
  Qed.

  (* statements 0, 1: total_count_max; if out_size is None: out_size = total_count_max *)
  Lemma head_bc : forall out r, exec_list ext (firstn 5 parts ++ r) (st0 out) = exec_list ext r (st_bc out).
  Proof.
    intros out r. change (firstn 5 parts ++ r) with (firstn 2 parts ++ (firstn 3 (skipn 2 parts) ++ r)). rewrite <- bcast_run.
    unfold parts at 1, st0. cbn [firstn app].
    stmt. rewrite (E_max _ _ _ _ _ _ Hmax). interp. rewrite E_item. interp. rewrite E_int, int_of_q_z. interp.
    stmt. destruct out as [o|]; interp; reflexivity.
  Qed.

  (* the state in which the loop runs: b, remainder_ell, remainder_t, and the loop's own variables (none before the
     first iteration) *)
  Definition st_loop (out : option Z) (D E R : list Q) (tail : list (string * val)) (evs : list event) : state :=
    mkState ([("total_count", tv sh (zinj totals)); ("given_count", tv sh (zinj givens)); ("out_size", VInt (oeff out));
              ("total_count_max", VInt tmax); ("$t1", VTuple [tv sh (zinj totals); tv sh (zinj givens)]);
              ("b", tv (Z.to_nat (oeff out) :: sh) D); ("remainder_ell", tv sh E); ("remainder_t", tv sh R)] ++ tail) evs.

  (* statements 5, 6: the two guards *)
  Lemma guards : forall out r,
    exec_list ext (firstn 2 (skipn 5 parts) ++ r) (st_bc out) =
    if over totals givens || (oeff out <? tmax)%Z then Exc "RuntimeError" (st_bc out) else exec_list ext r (st_bc out).
  Proof.
    intros out r. unfold parts, st_bc. cbn [firstn skipn app].
    stmt. rewrite E_gt. interp. rewrite E_any, any_gt_z. interp.
    destruct (over totals givens); [reflexivity|]. cbn [orb].
    stmt. rewrite Qcompare_z, (Z.ltb_compare (oeff out) tmax).
    destruct (oeff out ?= tmax)%Z; reflexivity.
  Qed.

  Lemma head_ok : forall out r, over totals givens = false -> (tmax <= oeff out)%Z -> (0 <= oeff out)%Z ->
    exec_list ext (firstn 10 parts ++ r) (st0 out) =
    exec_list ext r (st_loop out (map junk (seq 0 (numel (Z.to_nat (oeff out) :: sh)))) (zinj givens)
                       (map (qmax (inject_Z 1)) (zinj totals)) [] []).
  Proof.
    intros out r Hov Hout Hpos.
    change (firstn 10 parts ++ r) with (firstn 5 parts ++ (firstn 2 (skipn 5 parts) ++ (firstn 3 (skipn 7 parts) ++ r))).
    rewrite head_bc, guards, Hov. replace (oeff out <? tmax)%Z with false by (symmetry; apply Z.ltb_ge; lia). cbn [orb].
    unfold parts, st_bc, st_loop. cbn [firstn skipn app].
    (* b = torch.empty(torch.Size([out_size]) + total_count.shape, device=total_count.device) *)
    stmt. rewrite (E_Size _ _ _ _ Hpos). interp. rewrite E_shape. interp. rewrite E_add_size. interp.
    rewrite E_device. interp. rewrite E_empty_dev. interp.
    stmt.
    stmt. rewrite E_clamp_min. interp. reflexivity.
  Qed.

  Lemma head_raises : forall out r, over totals givens || (oeff out <? tmax)%Z = true ->
    exists st, exec_list ext (firstn 10 parts ++ r) (st0 out) = Exc "RuntimeError" st.
  Proof.
    intros out r H.
    change (firstn 10 parts ++ r) with (firstn 5 parts ++ (firstn 2 (skipn 5 parts) ++ (firstn 3 (skipn 7 parts) ++ r))).
    rewrite head_bc, guards, H. now eexists.
  Qed.

  (* ---- one iteration of the loop ---------------------------------------------------------------------------- *)
  Definition step_p (E R : list Q) : list Q := map2 (fun x y => Qred (x / y)) E R.
  Definition step_b (k : nat) (P : list Q) : list Q := map (fun i => qbool (orc k P i)) (seq 0 (List.length P)).
  Definition step_E (E B : list Q) : list Q := map2 (fun x y => Qred (x - y)) E B.
  Definition step_R (R : list Q) : list Q := map (qmax (inject_Z 1)) (map (fun v => Qred (v - inject_Z 1)) R).
  Definition step_D (k N : nat) (D B : list Q) : list Q := firstn (k * N) D ++ B ++ skipn (S k * N) D.

  (* the loop's own variables t, p, b_t live in a frame [tail] that is not looked at: none before the first iteration *)
  Lemma body_step : forall out D E R tail evs k,
    (0 <= k < Z.of_nat (Z.to_nat (oeff out)))%Z -> existsb (fun q => Qeq_bool q 0) R = false ->
    exec ext loop_body (set_var "t" (VInt k) (st_loop out D E R tail evs)) =
    Ok CNormal (st_loop out (step_D (Z.to_nat k) (numel sh) D (step_b (List.length evs) (step_p E R)))
                  (step_E E (step_b (List.length evs) (step_p E R))) (step_R R)
                  (update "b_t" (tv sh (step_b (List.length evs) (step_p E R)))
                     (update "p" (tv sh (step_p E R)) (update "t" (VInt k) tail)))
                  (evs ++ [("torch.bernoulli", [tv sh (step_p E R)])])).
  Proof.
    intros out D E R tail evs k Hk HR.
    rewrite exec_flatten. change (flatten_seq loop_body) with body_parts. unfold body_parts, st_loop. cbn [app].
    stmt. rewrite (E_truediv _ _ _ _ _ _ HR). interp.
    stmt. rewrite lookup_update_eq. interp. rewrite E_bern. interp.
    stmt. rewrite lookup_update_eq. interp. rewrite !lookup_update_neq, lookup_update_eq by reflexivity. interp.
    rewrite (E_setrow _ _ _ _ _ _ _ _ Hk). interp.
    stmt. rewrite lookup_update_eq. interp. rewrite E_sub_tt. interp.
    stmt. rewrite E_sub_ts. interp. rewrite E_clamp_min_. interp.
    reflexivity.
  Qed.

  (* ---- the loop over integer counts -------------------------------------------------------------------------- *)
  Definition b2z (b : bool) : Z := if b then 1%Z else 0%Z.
  Definition zsub (ells : list Z) (bits : list bool) : list Z := map (fun eb => (fst eb - b2z (snd eb))%Z) (combine ells bits).
  Definition zdec (trems : list Z) : list Z := map (fun t => Z.max (t - 1) 1) trems.
  (* the draws of step k: the oracle sees the whole vector of probabilities remainder_ell / remainder_t *)
  Definition draw (k : nat) (ells trems : list Z) : list bool :=
    map (orc k (step_p (zinj ells) (zinj trems))) (seq 0 (List.length (step_p (zinj ells) (zinj trems)))).

  (* the rows b_k, b_(k+1), ... the loop writes, from counts ells / trems before step k *)
  Fixpoint bloop (k s : nat) (ells trems : list Z) : list (list bool) :=
    match s with
    | O => []
    | S s' => draw k ells trems :: bloop (S k) s' (zsub ells (draw k ells trems)) (zdec trems)
    end.

  Fixpoint write (N k : nat) (rows : list (list Q)) (D : list Q) : list Q :=
    match rows with [] => D | r :: rs => write N (S k) rs (step_D k N D r) end.

  Lemma step_b_draw : forall k ells trems, step_b k (step_p (zinj ells) (zinj trems)) = map qbool (draw k ells trems).
  Proof. intros. unfold step_b, draw. now rewrite map_map. Qed.

  Lemma step_E_z : forall ells bits, step_E (zinj ells) (map qbool bits) = zinj (zsub ells bits).
  Proof.
    intros. unfold step_E, zinj, zsub. rewrite map2_maps, map_map. apply map_ext. intros [e b]. cbn [fst snd].
    rewrite qbool_z. apply Qred_z_minus.
  Qed.

  Lemma step_R_z : forall trems, step_R (zinj trems) = zinj (zdec trems).
  Proof.
    intros. unfold step_R, zinj, zdec. rewrite !map_map. apply map_ext. intros t. now rewrite Qred_z_minus, qmax_z.
  Qed.

  Lemma nozero_z : forall trems, Forall (fun t => (1 <= t)%Z) trems -> existsb (fun q => Qeq_bool q 0) (zinj trems) = false.
  Proof.
    intros trems H. unfold zinj. rewrite existsb_map'. induction H as [|t l Ht _ IH]; [reflexivity|]. cbn [existsb].
    rewrite IH, orb_false_r. change 0%Q with (inject_Z 0). rewrite Qeq_bool_z. apply Z.eqb_neq. lia.
  Qed.

  Lemma zdec_ge1 : forall trems, Forall (fun t => (1 <= t)%Z) (zdec trems).
  Proof. intros. unfold zdec. apply Forall_forall. intros x Hx. apply in_map_iff in Hx. destruct Hx as [t [<- _]]. lia. Qed.

  Lemma loop_run : forall out s k D ells trems tail evs,
    (k + s = Z.to_nat (oeff out))%nat -> List.length evs = k -> Forall (fun t => (1 <= t)%Z) trems ->
    exists E' R' tail' evs',
      for_loop ext "t" loop_body (map (fun i => VInt (Z.of_nat i)) (seq k s)) (st_loop out D (zinj ells) (zinj trems) tail evs)
      = Ok CNormal (st_loop out (write (numel sh) k (map (map qbool) (bloop k s ells trems)) D) E' R' tail' evs').
  Proof.
    intros out s. induction s as [|s IH]; intros k D ells trems tail evs Hk He Hr.
    - do 4 eexists. reflexivity.
    - cbn [seq map for_loop bloop write].
      rewrite body_step; [|lia|now apply nozero_z]. cbn [bind].
      rewrite He, step_b_draw, step_E_z, step_R_z, Nat2Z.id.
      apply IH; [lia|rewrite app_length; cbn [List.length]; lia|apply zdec_ge1].
  Qed.

  Lemma zrange_nat : forall o, zrange 0 o = map (fun i => VInt (Z.of_nat i)) (seq 0 (Z.to_nat o)).
  Proof. intros. unfold zrange. rewrite Z.sub_0_r. reflexivity. Qed.

  Lemma loop_stmt_run : forall out D ells trems, Forall (fun t => (1 <= t)%Z) trems ->
    exists E' R' tail' evs',
      exec ext loop_stmt (st_loop out D (zinj ells) (zinj trems) [] [])
      = Ok CNormal (st_loop out (write (numel sh) 0 (map (map qbool) (bloop 0 (Z.to_nat (oeff out)) ells trems)) D) E' R' tail' evs').
  Proof.
    intros out D ells trems Hr. unfold loop_stmt. fold loop_body. rewrite exec_for.
    unfold st_loop at 1. cbn [app]. interp. rewrite zrange_nat.
    apply (loop_run out (Z.to_nat (oeff out)) 0%nat D ells trems [] []); [reflexivity|reflexivity|assumption].
  Qed.

  (* ---- the return statement: view / .T / view ------------------------------------------------------------------- *)
  Definition ret_stmt : stmt := Eval cbv [parts nth] in nth 11 parts SPass.

  Lemma ret_run : forall out D E R tail evs, (0 <= oeff out)%Z -> List.length D = (Z.to_nat (oeff out) * numel sh)%nat ->
    exec ext ret_stmt (st_loop out D E R tail evs) =
    Ok (CReturn (tv (sh ++ [Z.to_nat (oeff out)])
                    (tdata (tab2 (numel sh) (Z.to_nat (oeff out)) (fun i j => nth (j * numel sh + i) D 0%Q)))))
       (st_loop out D E R tail evs).
  Proof.
    intros out D E R tail evs Hpos HD. unfold ret_stmt, st_loop. cbn [app]. interp. rewrite E_numel. interp.
    rewrite E_view2; [|assumption|lia|rewrite Nat2Z.id; symmetry; exact HD]. rewrite Nat2Z.id. interp. rewrite E_T. interp.
    rewrite E_shape. interp. rewrite (E_Size _ _ _ _ Hpos). interp. rewrite E_add_size. interp.
    rewrite E_view_sz; [reflexivity|]. rewrite numel_app, length_tab2. unfold numel at 2. cbn [fold_right]. lia.
  Qed.

  (* ---- what the loop leaves in b ---------------------------------------------------------------------------------- *)
  Lemma draw_length : forall k ells trems, List.length ells = List.length trems -> List.length (draw k ells trems) = List.length ells.
  Proof.
    intros. unfold draw, step_p, zinj. rewrite map_length, seq_length, map2_length; rewrite !map_length; auto.
  Qed.

  Lemma zsub_length : forall ells bits, List.length ells = List.length bits -> List.length (zsub ells bits) = List.length ells.
  Proof. intros. unfold zsub. rewrite map_length, combine_length. lia. Qed.

  Lemma bloop_rows : forall s k ells trems N, List.length ells = N -> List.length trems = N ->
    List.length (bloop k s ells trems) = s /\ Forall (fun r => List.length r = N) (bloop k s ells trems).
  Proof.
    induction s as [|s IH]; intros k ells trems N He Hr; cbn [bloop]; [split; [reflexivity|constructor]|].
    assert (Hd : List.length (draw k ells trems) = N) by (rewrite draw_length; congruence).
    destruct (IH (S k) (zsub ells (draw k ells trems)) (zdec trems) N) as [H1 H2].
    - rewrite zsub_length; congruence.
    - unfold zdec. now rewrite map_length.
    - split; [cbn [List.length]; now rewrite H1|constructor; assumption].
  Qed.

  Lemma write_spec : forall N rows k D, Forall (fun r => List.length r = N) rows ->
    List.length D = ((k + List.length rows) * N)%nat -> write N k rows D = firstn (k * N) D ++ List.concat rows.
  Proof.
    intros N rows. induction rows as [|r rs IH]; intros k D Hf HD; cbn [write List.concat].
    - rewrite app_nil_r. symmetry. apply firstn_all2. cbn [List.length] in HD. lia.
    - inversion Hf as [|? ? Hr Hrs]; subst. cbn [List.length] in HD.
      assert (Hfl : List.length (firstn (k * List.length r) D) = (k * List.length r)%nat) by (rewrite firstn_length; nia).
      rewrite IH; [|assumption|].
      + unfold step_D. rewrite app_assoc.
        rewrite firstn_app. replace (S k * List.length r - List.length (firstn (k * List.length r) D ++ r))%nat with 0%nat
          by (rewrite app_length, Hfl; lia).
        cbn [firstn]. rewrite app_nil_r. rewrite firstn_all2 by (rewrite app_length, Hfl; lia).
        now rewrite <- app_assoc.
      + unfold step_D. rewrite !app_length, Hfl, skipn_length. nia.
  Qed.

  Lemma clamp1_z : forall totals', map (qmax (inject_Z 1)) (zinj totals') = zinj (map (fun t => Z.max t 1) totals').
  Proof. intros. unfold zinj. rewrite !map_map. apply map_ext. intros t. apply qmax_z. Qed.

  (* ---- the whole body, no guard fires ------------------------------------------------------------------------------- *)
  Definition result_data (N O : nat) (bits : list (list bool)) : list Q :=
    tdata (tab2 N O (fun n t => qbool (nth n (nth t bits []) false))).

  Theorem srswor_run_ok : forall out,
    List.length totals = numel sh -> List.length givens = numel sh ->
    over totals givens = false -> (tmax <= oeff out)%Z -> (0 <= oeff out)%Z ->
    exists st, Interp.run ext srswor_body (srswor_vars (mkTens s1 d1) (mkTens s2 d2) out) =
      Ok (tv (sh ++ [Z.to_nat (oeff out)])
             (result_data (numel sh) (Z.to_nat (oeff out))
                (bloop 0 (Z.to_nat (oeff out)) givens (map (fun t => Z.max t 1) totals)))) st.
  Proof.
    intros out Ht Hg Hov Hout Hpos. rewrite run_flatten. change (flatten_seq srswor_body) with parts.
    change parts with (firstn 10 parts ++ [loop_stmt; ret_stmt]).
    change (mkState (srswor_vars (mkTens s1 d1) (mkTens s2 d2) out) []) with (st0 out).
    rewrite (head_ok out _ Hov Hout Hpos). rewrite clamp1_z.
    set (O := Z.to_nat (oeff out)). set (N := numel sh).
    set (trems := map (fun t => Z.max t 1) totals).
    assert (Htr : Forall (fun t => (1 <= t)%Z) trems).
    { unfold trems. apply Forall_forall. intros x Hx. apply in_map_iff in Hx. destruct Hx as [t [<- _]]. lia. }
    destruct (loop_stmt_run out (map junk (seq 0 (numel (O :: sh)))) givens trems Htr) as [E' [R' [tail' [evs' HL]]]].
    erewrite exec_list_cons_ok by exact HL. fold O N.
    destruct (bloop_rows O 0 givens trems N Hg) as [Hlen Hrows]; [unfold trems; now rewrite map_length|].
    set (bits := bloop 0 O givens trems) in *.
    assert (Hq : Forall (fun r => List.length r = N) (map (map qbool) bits)).
    { apply Forall_forall. intros r Hr. apply in_map_iff in Hr. destruct Hr as [b [<- Hb]]. rewrite map_length.
      rewrite Forall_forall in Hrows. now apply Hrows. }
    rewrite write_spec; [|assumption|rewrite !map_length, seq_length, numel_cons, Hlen; fold N; lia].
    change (0 * N)%nat with 0%nat. cbn [firstn app].
    erewrite exec_list_cons_ret.
    2:{ apply ret_run; [assumption|]. fold O N.
        rewrite (length_concat_uniform _ N) by assumption. now rewrite map_length, Hlen. }
    eexists. unfold result_data. fold O N.
    match goal with |- Ok (tv _ (tdata ?a)) _ = Ok (tv _ (tdata ?b)) _ => assert (EQ : a = b) end; [|rewrite EQ; reflexivity].
    apply tab2_ext. intros n t Hn Ht'.
    rewrite Nat.add_comm, ProofsComb.nth_concat_uniform; [|assumption|assumption|rewrite map_length; lia].
    change (@nil Q) with (map qbool []). rewrite map_nth. change 0%Q with (qbool false). now rewrite map_nth.
  Qed.

  (* ---- the two RuntimeError guards ------------------------------------------------------------------------------------ *)
  Theorem srswor_run_raises : forall out, over totals givens || (oeff out <? tmax)%Z = true ->
    exists st, Interp.run ext srswor_body (srswor_vars (mkTens s1 d1) (mkTens s2 d2) out) = Exc "RuntimeError" st.
  Proof.
    intros out H. rewrite run_flatten. change (flatten_seq srswor_body) with parts.
    change parts with (firstn 10 parts ++ [loop_stmt; ret_stmt]).
    change (mkState (srswor_vars (mkTens s1 d1) (mkTens s2 d2) out) []) with (st0 out).
    destruct (head_raises out [loop_stmt; ret_stmt] H) as [st Hst]. rewrite Hst. now exists st.
  Qed.
End Run.

(* total_count without elements: torch's max() raises, before anything else is looked at *)
Theorem srswor_run_empty : forall orc junk s1 s2 d2 out,
  exists st, Interp.run (ext19 orc junk) srswor_body (srswor_vars (mkTens s1 []) (mkTens s2 d2) out) = Exc "RuntimeError" st.
Proof.
  intros. rewrite run_flatten. change (flatten_seq srswor_body) with parts. unfold parts, srswor_vars. rewrite !enc_tv.
  eexists. stmt. change (enc_dat []) with (enc_dat (@nil Q)). rewrite E_max_empty. reflexivity.
Qed.
