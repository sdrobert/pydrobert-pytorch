(* C19 tie - from the batch loop of the interpreted sampler (TieSrswor.bloop) to the model's per-element
   sampler (Combinatorics.srswor): every row the source returns is Model.srswor run on a script of uniforms
   in [0, 1) that is read off the oracle's draws - PROVIDED the oracle draws 1 at p = 1 and 0 at p = 0
   ([oracle_ok]) and the given counts are non-negative.  Pure list / number reasoning, no interpreter. *)
From Coq Require Import ZArith QArith List Bool Arith Lia.
From PV Require Import MiniTorch.Ops MiniTorch.Lemmas MiniTorch.OpsC19 MiniTorch.LemmasC19.
From PV Require Import C19.Combinatorics C19.Spec C19.ProofsComb C19.TieLib C19.TieSrswor.
Import ListNotations.
Local Open Scope Z_scope.

Section Rows.
  Variable orc : oracle.
  Hypothesis Hok : oracle_ok orc.

  Definition inv (e t : Z) : Prop := 0 <= e <= t /\ 1 <= t.

  (* the uniform that reproduces the draw b at probability p *)
  Definition u_of (b : bool) (p : Q) : Q := if b then 0%Q else Qred p.

  (* the uniform u_of b p reproduces a draw b that is forced at p = 1 and p = 0: 0 for a one (then 0 < p), p itself
     for a zero (then p < 1) *)
  Lemma draw_as_uniform : forall e t b, inv e t -> (e = t -> b = true) -> (e = 0 -> b = false) ->
    let p := (inject_Z e / inject_Z t)%Q in
    bern p (u_of b p) = b2z b /\ unit_u (u_of b p) /\ inv (e - b2z b) (Z.max (t - 1) 1).
  Proof.
    intros e t b Hinv Hb1 Hb0 p. pose proof (Qred_correct p) as Hred.
    unfold bern, unit_u, u_of, inv in *. destruct b; cbn [b2z].
    - assert (He : e <> 0) by (intros E0; specialize (Hb0 E0); discriminate).
      split; [|split; [split; [apply Qle_refl|reflexivity]|lia]].
      destruct (Qle_bool p 0) eqn:E; [|reflexivity].
      apply Qle_bool_iff in E. exfalso. exact (Qlt_irrefl _ (Qlt_le_trans _ _ _ (p_pos e t Hinv He) E)).
    - assert (He : e <> t) by (intros E0; specialize (Hb1 E0); discriminate).
      split; [|split; [rewrite Hred; split; [now apply p_nonneg|now apply p_lt1]|lia]].
      replace (Qle_bool _ _) with true; [reflexivity|]. symmetry. apply Qle_bool_iff. rewrite Hred. apply Qle_refl.
  Qed.

  Lemma nth_zsub : forall ells bits n, length ells = length bits ->
    nth n (zsub ells bits) 0 = nth n ells 0 - b2z (nth n bits false).
  Proof.
    intros ells bits n H. unfold zsub.
    transitivity ((fun eb : Z * bool => fst eb - b2z (snd eb)) (nth n (combine ells bits) (0, false))).
    - exact (map_nth (fun eb : Z * bool => fst eb - b2z (snd eb)) (combine ells bits) (0, false) n).
    - now rewrite combine_nth by assumption.
  Qed.

  Lemma nth_zdec : forall trems n, (n < length trems)%nat -> nth n (zdec trems) 0 = Z.max (nth n trems 0 - 1) 1.
  Proof.
    intros trems n H. exact (nth_map_lt (fun t => Z.max (t - 1) 1) trems n 0 0 H).
  Qed.

  Lemma row_of_bloop : forall s k ells trems n,
    length ells = length trems -> (n < length ells)%nat -> inv (nth n ells 0) (nth n trems 0) ->
    exists us, Forall unit_u us /\
      map (fun bt => b2z (nth n bt false)) (bloop orc k s ells trems) = srswor_loop s (nth n ells 0) (nth n trems 0) us.
  Proof.
    induction s as [|s IH]; intros k ells trems n Hl Hn Hinv.
    - exists []. split; [constructor|reflexivity].
    - cbn [bloop map].
      set (e := nth n ells 0) in *. set (t := nth n trems 0) in *.
      set (P := step_p (zinj ells) (zinj trems)).
      assert (HP : length P = length ells).
      { unfold P, step_p, zinj. rewrite map2_length; rewrite !map_length; auto. }
      set (bits := draw orc k ells trems).
      assert (Hbl : length bits = length ells) by (unfold bits; now apply draw_length).
      assert (Hpn : nth n P 0%Q = Qred (inject_Z e / inject_Z t)).
      { unfold P, step_p. rewrite nth_map2; [|unfold zinj; rewrite !map_length; auto|unfold zinj; now rewrite map_length].
        now rewrite !nth_zinj. }
      set (b := nth n bits false).
      assert (Hb : b = orc k P n).
      { unfold b, bits, draw. fold P. now rewrite nth_map_seq by lia. }
      destruct (Hok k P n ltac:(lia)) as [H1 H0]. rewrite Hpn in H1, H0. rewrite <- Hb in H1, H0.
      pose proof (Qred_correct (inject_Z e / inject_Z t)) as Hred.
      assert (Hb1 : e = t -> b = true) by (intros E; apply H1; rewrite Hred; now apply p_one_iff).
      assert (Hb0 : e = 0 -> b = false) by (intros E; apply H0; rewrite Hred; now apply p_zero_iff).
      destruct (draw_as_uniform e t b Hinv Hb1 Hb0) as [Hbern [Hu Hinv']].
      destruct (IH (S k) (zsub ells bits) (zdec trems) n) as [us [Hus Hrow]].
      + rewrite zsub_length by congruence. unfold zdec. now rewrite map_length.
      + rewrite zsub_length by congruence. assumption.
      + rewrite nth_zsub by congruence. rewrite nth_zdec by lia. exact Hinv'.
      + exists (u_of b (inject_Z e / inject_Z t) :: us). split; [constructor; assumption|].
        cbn [srswor_loop hd tl]. fold b. rewrite Hbern. f_equal.
        rewrite Hrow. rewrite nth_zsub by congruence. rewrite nth_zdec by lia. reflexivity.
  Qed.
End Rows.
