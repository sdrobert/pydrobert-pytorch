(* C19 tie - the accept / reject bookkeeping of `IndependentMetropolisHastingsEstimator.__call__` (_mc.py): the marked
   blocks mh_accept and mh_update (PV.Gen.C19McSrc), interpreted with SrcRunMc.ext19mc, against the step of
   PV.C19.Model.imh_chain, for EVERY batch size, ratio table, proposal and uniform. *)
From Coq Require Import ZArith QArith List String Bool Arith Lia.
From PV Require Import MiniPy.Syntax MiniPy.Interp MiniPy.Lemmas.
From PV Require Import MiniTorch.Ops MiniTorch.Value MiniTorch.Lemmas MiniTorch.OpsC19 MiniTorch.LemmasC19 Gen.C19McSrc.
From PV Require Import C19.SrcRun C19.SrcRunMc C19.TieLib.
Import ListNotations.
Local Open Scope string_scope.
Local Open Scope list_scope.

(* ---- log tensors inside the interpreter ------------------------------------------------------------------------- *)
Definition enc_ldat (d : list lv) : list val := map enc_lv d.
Notation ltv sh d := (VTuple [VStr "$ltensor"; VList (enc_sh sh); VList (enc_ldat d)]).

Lemma dec_lvs_enc : forall d, dec_lvs (map enc_lv d) = Some d.
Proof. induction d as [|x d IH]; [reflexivity|]. destruct x; cbn [map enc_lv dec_lvs]; now rewrite IH. Qed.

Lemma dec_l_ltv : forall sh d, dec_l (ltv sh d) = Some (mkLT sh d).
Proof. intros. unfold dec_l. cbn. unfold enc_sh, enc_ldat. now rewrite dec_nats_enc, dec_lvs_enc. Qed.

Lemma dec_ltv : forall sh d, dec (ltv sh d) = None.
Proof. reflexivity. Qed.

Lemma dec_l_tv : forall sh d, dec_l (tv sh d) = None.
Proof. reflexivity. Qed.

Lemma enc_l_ltv : forall sh d, enc_l (mkLT sh d) = ltv sh d.
Proof. reflexivity. Qed.

Definition inj_idx (d : list nat) : list Q := map (fun i => inject_Z (Z.of_nat i)) d.

Section Ext.
  Variables (w f : nat -> nat -> Q) (props : list (list nat)) (us : list (list Q)).
  Notation ext := (ext19mc w f props us).

  #[local] Arguments dec : simpl never.
  #[local] Arguments dec_l : simpl never.
  #[local] Arguments enc_sh : simpl never.
  #[local] Arguments enc_dat : simpl never.
  #[local] Arguments enc_ldat : simpl never.

  Ltac ext_eq :=
    intros;
    lazymatch goal with |- ?G =>
      let G1 := eval lazy [ext19mc is String.eqb Ascii.eqb Bool.eqb] in G in let G2 := eval cbn in G1 in change G2
    end;
    rewrite ?dec_tv, ?dec_l_ltv, ?dec_ltv, ?dec_l_tv; cbn.

  Lemma M_sample : forall st,
    ext "self.proposal.sample" [VList [VInt 1]] [] st =
    Ok (tv [1%nat; List.length (nth (List.length (events st)) props [])] (inj_idx (nth (List.length (events st)) props [])))
       (emit ("proposal.sample", []) st).
  Proof. ext_eq. reflexivity. Qed.

  Lemma M_dens : forall sh idx st,
    ext "self.density.log_prob" [tv sh idx] [] st = Ok (ltv sh (map lv_of_w (per_elt w idx))) st.
  Proof. ext_eq. reflexivity. Qed.

  Lemma M_prop : forall sh idx st,
    ext "self.proposal.log_prob" [tv sh idx] [] st = Ok (ltv sh (map (fun _ => LFin 1) idx)) st.
  Proof. ext_eq. reflexivity. Qed.

  Lemma M_func : forall sh idx st, ext "self.func" [tv sh idx] [] st = Ok (tv sh (per_elt f idx)) st.
  Proof. ext_eq. reflexivity. Qed.

  Lemma M_sub : forall sh a b d st, lsub_t (mkLT sh a) (mkLT sh b) = Some (mkLT sh d) ->
    ext "operator" [VStr "sub"; ltv sh a; ltv sh b] [] st = Ok (ltv sh d) st.
  Proof. ext_eq. cbv beta iota. now rewrite H. Qed.

  Lemma M_add : forall sh a b st,
    ext "operator" [VStr "add"; ltv sh a; ltv sh b] [] st =
    Ok (ltv sh (map (fun xy => ladd (fst xy) (snd xy)) (combine a b))) st.
  Proof. ext_eq. unfold ladd_t. cbn. now rewrite shape_eqb_refl. Qed.

  Lemma M_mul : forall sh m x st,
    ext "operator" [VStr "mul"; tv sh m; ltv sh x] [] st =
    Ok (ltv sh (map (fun mx => bmul (qtrue (fst mx)) (snd mx)) (combine m x))) st.
  Proof. ext_eq. unfold bmul_t. cbn. now rewrite shape_eqb_refl. Qed.

  Lemma M_getrow : forall k sh UD n st, (0 <= n < Z.of_nat k)%Z ->
    ext "$getitem" [ltv (k :: sh) UD; VInt n] [] st =
    Ok (ltv sh (firstn (numel sh) (skipn (Z.to_nat n * numel sh) UD))) st.
  Proof.
    ext_eq. unfold lrow. cbn [lshape ldata].
    rewrite (in_range_b _ _ H). reflexivity.
  Qed.

  Lemma M_gt : forall sh a b st,
    ext "compare" [VStr "gt"; ltv (1%nat :: sh) a; ltv sh b] [] st =
    Ok (tv (1%nat :: sh) (map (fun xy => qbool (lgt (fst xy) (snd xy))) (combine a b))) st.
  Proof. ext_eq. unfold lgt_t. cbn [lshape ldata]. rewrite (shape_eqb_refl (1%nat :: sh)), orb_true_r. reflexivity. Qed.

  Lemma M_invert : forall sh m st,
    ext "$invert" [tv sh m] [] st = Ok (tv sh (map (fun q => qbool (negb (qtrue q))) m)) st.
  Proof. ext_eq. reflexivity. Qed.

  Lemma M_where : forall sh m a b st,
    ext "torch.where" [tv sh m; tv sh a; tv sh b] [] st =
    Ok (tv sh (map (fun mab => if qtrue (fst mab) then fst (snd mab) else snd (snd mab)) (combine m (combine a b)))) st.
  Proof. ext_eq. unfold where_t. cbn. now rewrite shape_eqb_refl. Qed.

  Lemma M_squeeze : forall sh d st, ext "$method.squeeze" [tv (1%nat :: sh) d; VInt 0] [] st = Ok (tv sh d) st.
  Proof. ext_eq. reflexivity. Qed.

  Lemma M_add_q : forall sh a b st,
    ext "operator" [VStr "add"; tv sh a; tv sh b] [] st = Ok (tv sh (map2 (fun x y => Qred (x + y)) a b)) st.
  Proof. ext_eq. unfold ext_operator. rewrite !dec_tv. cbn. unfold zip2. cbn. now rewrite shape_eqb_refl. Qed.
End Ext.

Definition aparts : list stmt := Eval cbv [flatten_seq mh_accept app] in flatten_seq mh_accept.
Definition uparts : list stmt := Eval cbv [flatten_seq mh_update app] in flatten_seq mh_update.
(* `if n >= self.burn_in: ...`, the one statement of mh_update that branches *)
Definition upd_if : stmt := Eval cbv [uparts nth] in nth 1 uparts SPass.

(* ---- data level: what the blocks compute on lists ------------------------------------------------------------------ *)
(* total version of a - b (nan where +inf would arise; excluded by the hypotheses below) *)
Definition lsub' (a b : lv) : lv := match lsub a b with Some x => x | None => LNaN end.
(* log_prob(density) - log_prob(proposal) of an outcome whose ratio is x *)
Definition lw (x : Q) : lv := lsub' (lv_of_w x) (LFin 1).

Definition zipl {A B X} (g : A -> B -> X) (a : list A) (b : list B) : list X :=
  map (fun xy => g (fst xy) (snd xy)) (combine a b).

Lemma zipl_length : forall {A B X} (g : A -> B -> X) a b, List.length a = List.length b ->
  List.length (zipl g a b) = List.length a.
Proof. intros. unfold zipl. rewrite map_length, combine_length. lia. Qed.

Lemma zipl_nth : forall {A B X} (g : A -> B -> X) a b da db d j, (j < List.length a)%nat -> List.length a = List.length b ->
  nth j (zipl g a b) d = g (nth j a da) (nth j b db).
Proof.
  intros A B X g a b da db d j Hj Hl. unfold zipl.
  rewrite (nth_map_lt _ _ _ (da, db)), combine_nth by (rewrite ?combine_length; lia). reflexivity.
Qed.

Lemma all_some_lsub : forall a b, Forall (fun x => x <> LNegInf) b ->
  all_some_lv (map (fun xy => lsub (fst xy) (snd xy)) (combine a b)) = Some (zipl lsub' a b).
Proof.
  induction a as [|x a IH]; intros [|y b] Hb; try reflexivity. inversion Hb; subst.
  cbn [combine map all_some_lv fst snd]. unfold zipl. cbn [combine map fst snd]. fold (zipl lsub' a b).
  rewrite IH by assumption. unfold lsub'. destruct x, y; try reflexivity; congruence.
Qed.

Lemma lsub_t_data : forall sh a b, Forall (fun x => x <> LNegInf) b ->
  lsub_t (mkLT sh a) (mkLT sh b) = Some (mkLT sh (zipl lsub' a b)).
Proof. intros. unfold lsub_t. cbn [lshape ldata]. rewrite shape_eqb_refl, all_some_lsub by assumption. reflexivity. Qed.

Lemma per_elt_inj : forall g d,
  per_elt g (inj_idx d) = map (fun ji => g (fst ji) (snd ji)) (combine (seq 0 (List.length d)) d).
Proof.
  intros g d. unfold per_elt, inj_idx. rewrite map_length.
  generalize (seq 0 (List.length d)). induction d as [|i d IH]; intros [|j s]; try reflexivity.
  cbn [map combine fst snd]. f_equal; [|apply IH]. unfold nat_of_q'. now rewrite int_of_q_z, Nat2Z.id.
Qed.

Definition welt (g : nat -> nat -> Q) (d : list nat) : list Q :=
  map (fun ji => g (fst ji) (snd ji)) (combine (seq 0 (List.length d)) d).

Lemma ratio_data : forall w' d,
  zipl lsub' (map lv_of_w (welt w' d)) (map (fun _ : Q => LFin 1) (inj_idx d)) = map lw (welt w' d).
Proof.
  intros w' d. unfold zipl, welt, inj_idx. rewrite !map_map.
  generalize (seq 0 (List.length d)). induction d as [|i d IH]; intros [|j s]; try reflexivity.
  cbn [map combine fst snd]. f_equal. apply IH.
Qed.

Section A.
  Variables (w f : nat -> nat -> Q) (props : list (list nat)) (us : list (list Q)).
  Notation ext := (ext19mc w f props us).
  Variables (self vv nk : val) (B N : nat) (LS : list Q) (LR UD : list lv).

  Definition st_mh (LS' : list Q) (LR' : list lv) (v' n cs cr ac fb t1 : val) (evs : list event) : state :=
    mkState [("self", self); ("last_sample", tv [1%nat; B] LS'); ("v", v'); ("num_kept", nk);
             ("last_ratio", ltv [1%nat; B] LR'); ("uniform_draws", ltv [N; B] UD);
             ("n", n); ("cur_sample", cs); ("cur_ratio", cr); ("accept", ac); ("fb", fb); ("$t1", t1)] evs.

  (* row n of the log-uniforms, the accept mask, the new ratios *)
  Definition ud_row (n : Z) : list lv := firstn (numel [B]) (skipn (Z.to_nat n * numel [B]) UD).
  Definition acc_data (CR0 : list lv) (n : Z) : list Q :=
    zipl (fun a u => qbool (lgt a u)) (zipl lsub' CR0 LR) (ud_row n).
  Definition nr_data (CR0 : list lv) (ACC : list Q) : list lv :=
    zipl ladd (zipl (fun m x => bmul (qtrue m) x) ACC CR0)
              (zipl (fun m x => bmul (qtrue m) x) (map (fun q => qbool (negb (qtrue q))) ACC) LR).

  Lemma accept_run : forall n cs cr ac fb t1 evs,
    (0 <= n < Z.of_nat N)%Z -> List.length (nth (List.length evs) props []) = B -> Forall (fun x => x <> LNegInf) LR ->
    let d := nth (List.length evs) props [] in
    let CR0 := map lw (welt w d) in
    exec ext mh_accept (st_mh LS LR vv (VInt n) cs cr ac fb t1 evs) =
    Ok CNormal (st_mh LS LR vv (VInt n) (tv [1%nat; B] (inj_idx d)) (ltv [1%nat; B] (nr_data CR0 (acc_data CR0 n)))
                  (tv [1%nat; B] (acc_data CR0 n)) fb t1 (evs ++ [("proposal.sample", [])])).
  Proof.
    intros n cs cr ac fb t1 evs Hn HB HLR d CR0. rewrite exec_flatten. change (flatten_seq mh_accept) with aparts.
    unfold aparts, st_mh.
    assert (H1 : Forall (fun x => x <> LNegInf) (map (fun _ : Q => LFin 1) (inj_idx d))).
    { apply Forall_forall. intros x Hx. apply in_map_iff in Hx. destruct Hx as [? [<- _]]. discriminate. }
    (* cur_sample = self.proposal.sample([1]) *)
    stmt. rewrite M_sample. interp. rewrite HB. fold d.
    (* cur_ratio = self.density.log_prob(cur_sample) - self.proposal.log_prob(cur_sample) *)
    stmt. rewrite M_dens. interp. rewrite M_prop. interp.
    rewrite (M_sub _ _ _ _ _ _ _ _ _ (lsub_t_data _ _ _ H1)). interp.
    rewrite per_elt_inj. fold (welt w d). rewrite (ratio_data w d). fold CR0.
    (* accept = cur_ratio - last_ratio > uniform_draws[n] *)
    stmt. rewrite (M_sub _ _ _ _ _ _ _ _ _ (lsub_t_data _ _ _ HLR)). interp.
    rewrite (M_getrow _ _ _ _ _ _ _ _ _ Hn). interp. rewrite M_gt. interp.
    (* cur_ratio = accept * cur_ratio + (~accept) * last_ratio *)
    stmt. rewrite M_mul. interp. rewrite M_invert. interp. rewrite M_mul. interp.
    rewrite M_add. interp. reflexivity.
  Qed.
End A.

Section U.
  Variables (w f : nat -> nat -> Q) (props : list (list nat)) (us : list (list Q)).
  Notation ext := (ext19mc w f props us).
  Variables (Nz burn : Z) (Bs : nat) (nk : val) (B N : nat) (UD : list lv).
  Notation stm := (st_mh (self_val Nz burn Bs) nk B N UD).

  Definition where_data (ACC CS LS : list Q) : list Q :=
    zipl (fun m ab => if qtrue m then fst ab else snd ab) ACC (combine CS LS).

  (* before the burn-in is over: v and fb stay *)
  Lemma if_burning : forall LS LR vv n cs cr ac fb t1 evs, (n < burn)%Z ->
    exec ext upd_if (stm LS LR vv (VInt n) cs cr ac fb t1 evs) = Ok CNormal (stm LS LR vv (VInt n) cs cr ac fb t1 evs).
  Proof.
    intros LS LR vv n cs cr ac fb t1 evs Hn. unfold upd_if, st_mh, self_val. rewrite exec_if_list. interp.
    rewrite Qcompare_z. destruct (Z.compare_spec n burn); try lia. reflexivity.
  Qed.

  (* fb = self.func(cur_sample).squeeze(0) *)
  Notation fb_of CS := (tv [B] (per_elt f CS)).

  (* the first kept state: v = fb *)
  Lemma if_first : forall LS LR vv CS cr ac fb t1 evs,
    exec ext upd_if (stm LS LR vv (VInt burn) (tv [1%nat; B] CS) cr ac fb t1 evs) =
    Ok CNormal (stm LS LR (fb_of CS) (VInt burn) (tv [1%nat; B] CS) cr ac (fb_of CS) t1 evs).
  Proof.
    intros LS LR vv CS cr ac fb t1 evs. unfold upd_if, st_mh, self_val. rewrite exec_if_list. interp.
    rewrite Qcompare_z, Z.compare_refl. cbn [flatten_seq app].
    stmt. rewrite M_func. interp. rewrite M_squeeze. interp.
    stmt. rewrite Z.eqb_refl. reflexivity.
  Qed.

  (* later kept states: v = v + fb *)
  Lemma if_adding : forall LS LR V n CS cr ac fb t1 evs, (burn < n)%Z ->
    exec ext upd_if (stm LS LR (tv [B] V) (VInt n) (tv [1%nat; B] CS) cr ac fb t1 evs) =
    Ok CNormal (stm LS LR (tv [B] (map2 (fun x y => Qred (x + y)) V (per_elt f CS))) (VInt n) (tv [1%nat; B] CS) cr ac
                  (fb_of CS) t1 evs).
  Proof.
    intros LS LR V n CS cr ac fb t1 evs Hn. unfold upd_if, st_mh, self_val. rewrite exec_if_list. interp.
    rewrite Qcompare_z. destruct (Z.compare_spec n burn); try lia. cbn [flatten_seq app].
    stmt. rewrite M_func. interp. rewrite M_squeeze. interp.
    stmt. replace (n =? burn)%Z with false by (symmetry; apply Z.eqb_neq; lia).
    rewrite M_add_q. reflexivity.
  Qed.

  (* mh_update: the chain moves to where(accept, cur_sample, last_sample) and to the new ratios; v (a tensor once the
     burn-in is over) and fb are what the `if` makes of them *)
  Lemma update_run : forall LS LR vv n CS NR ACC fb t1, (n <= burn)%Z \/ (exists V, vv = tv [B] V) ->
    exists v' fb', forall evs,
    exec ext mh_update (stm LS LR vv (VInt n) (tv [1%nat; B] CS) (ltv [1%nat; B] NR) (tv [1%nat; B] ACC) fb t1 evs) =
    Ok CNormal (stm (where_data ACC CS LS) NR v' (VInt n) (tv [1%nat; B] (where_data ACC CS LS)) (ltv [1%nat; B] NR)
                  (tv [1%nat; B] ACC) fb' (VTuple [tv [1%nat; B] (where_data ACC CS LS); ltv [1%nat; B] NR]) evs).
  Proof.
    intros LS LR vv n CS NR ACC fb t1 Hv.
    assert (Hif : exists v' fb', forall cr ac evs,
      exec ext upd_if (stm LS LR vv (VInt n) (tv [1%nat; B] (where_data ACC CS LS)) cr ac fb t1 evs) =
      Ok CNormal (stm LS LR v' (VInt n) (tv [1%nat; B] (where_data ACC CS LS)) cr ac fb' t1 evs)).
    { destruct (Z.lt_trichotomy n burn) as [Hlt|[->|Hgt]].
      - eexists _, _. intros. now apply if_burning.
      - eexists _, _. intros. apply if_first.
      - destruct Hv as [Hv|[V ->]]; [lia|]. eexists _, _. intros. now apply if_adding. }
    destruct Hif as [v' [fb' Hif]]. exists v', fb'. intros evs.
    rewrite exec_flatten. change (flatten_seq mh_update) with uparts. unfold uparts. fold upd_if. unfold st_mh at 1.
    stmt. rewrite M_where. interp.
    erewrite exec_list_cons_ok by apply Hif. unfold st_mh at 1.
    stmt.
    rewrite exec_list_cons, (exec_unpack0 _ _ _ (tv [1%nat; B] (where_data ACC CS LS)) (ltv [1%nat; B] NR)) by reflexivity. interp.
    rewrite exec_list_cons, (exec_unpack1 _ _ _ (tv [1%nat; B] (where_data ACC CS LS)) (ltv [1%nat; B] NR)) by reflexivity. interp.
    reflexivity.
  Qed.
End U.

From PV Require Import C19.Model.

(* the body of Model.imh_chain, named *)
Definition macc (w : nat -> Q) (lastw : option Q) (c : nat) (u : Q) : bool :=
  match lastw with None => false | Some wl => negb (Qle_bool (w c) (u * wl)) end.
Definition mnxt (w : nat -> Q) (last : nat) (lastw : option Q) (c : nat) (u : Q) : nat :=
  if macc w lastw c u then c else last.
Definition mnw (w : nat -> Q) (lastw : option Q) (c : nat) (u : Q) : option Q :=
  if macc w lastw c u then Some (w c) else if Qle_bool (w c) 0 then None else lastw.

Lemma imh_chain_step : forall w last lastw c ps u us,
  imh_chain w last lastw (c :: ps) (u :: us) =
  mnxt w last lastw c u :: imh_chain w (mnxt w last lastw c u) (mnw w lastw c u) ps us.
Proof. reflexivity. Qed.

(* the stored log-ratio represents the model's ratio state: nan for None, log of a POSITIVE rational for Some *)
Definition rel_lv (lastw : option Q) (lr : lv) : Prop :=
  match lastw with
  | None => lr = LNaN
  | Some wl => exists x, lr = LFin x /\ (x == wl)%Q /\ (0 < wl)%Q
  end.

Lemma rel_lv_not_neginf : forall lastw lr, rel_lv lastw lr -> lr <> LNegInf.
Proof. intros [wl|] lr H; cbn in H; [destruct H as [x [-> _]]|subst]; discriminate. Qed.

(* one batch element: the accept bit and the new ratio the source computes are the model's *)
Lemma elt_step : forall (wc u : Q) lastw lr, rel_lv lastw lr -> (0 <= u)%Q ->
  let a := lgt (lsub' (lw wc) lr) (lv_log u) in
  a = match lastw with None => false | Some wl => negb (Qle_bool wc (u * wl)) end /\
  rel_lv (if a then Some wc else if Qle_bool wc 0 then None else lastw)
         (ladd (bmul a (lw wc)) (bmul (negb a) lr)).
Proof.
  intros wc u lastw lr Hrel Hu. cbv zeta. unfold lw, lv_of_w.
  destruct (Qle_bool wc 0) eqn:Ewc.
  - (* zero target density: never accepted, the stored ratio becomes nan *)
    apply Qle_bool_iff in Ewc. destruct lastw as [wl|]; cbn in Hrel.
    + destruct Hrel as [x [-> [Hx Hwl]]]. cbn. split; [|reflexivity].
      symmetry. apply negb_false_iff. apply Qle_bool_iff. eapply Qle_trans; [exact Ewc|].
      apply Qmult_le_0_compat; [assumption|now apply Qlt_le_weak].
    + subst lr. cbn. split; reflexivity.
  - assert (Hwc : (0 < wc)%Q).
    { apply Qnot_le_lt. intros H. apply Qle_bool_iff in H. congruence. }
    destruct lastw as [wl|]; cbn in Hrel.
    + destruct Hrel as [x [-> [Hx Hwl]]].
      change (lsub' (LFin wc) (LFin 1)) with (LFin (Qred (wc / 1))).
      assert (Hx0 : (0 < x)%Q) by now rewrite Hx.
      set (r := Qred (Qred (wc / 1) / x)).
      change (lsub' (LFin (Qred (wc / 1))) (LFin x)) with (LFin r).
      assert (Hwl0 : ~ (wl == 0)%Q) by (intros E; rewrite E in Hwl; now apply Qlt_irrefl in Hwl).
      assert (Hr : (r == wc / wl)%Q) by (unfold r; rewrite !Qred_correct, Hx; now field).
      assert (Hacc : lgt (LFin r) (lv_log u) = negb (Qle_bool wc (u * wl))).
      { unfold lv_log. destruct (Qle_bool u 0) eqn:Eu.
        - apply Qle_bool_iff in Eu. assert (Hu0 : (u == 0)%Q) by now apply Qle_antisym.
          replace (Qeq_bool u 0) with true by (symmetry; now apply Qeq_bool_iff). cbn [lgt].
          symmetry. apply negb_true_iff. apply not_true_is_false. intros H. apply Qle_bool_iff in H.
          rewrite Hu0, Qmult_0_l in H. exact (Qlt_irrefl _ (Qlt_le_trans _ _ _ Hwc H)).
        - cbn [lgt]. unfold q_gt. f_equal. apply eq_true_iff_eq. rewrite !Qle_bool_iff.
          rewrite Hr, <- (Qmult_le_r _ _ wl Hwl). setoid_replace (wc / wl * wl)%Q with wc by now field. reflexivity. }
      rewrite Hacc. split; [reflexivity|].
      destruct (negb (Qle_bool wc (u * wl))); cbn.
      * exists (Qred (Qred (wc / 1) * 1)). split; [reflexivity|]. split; [|assumption]. rewrite !Qred_correct. field.
      * exists (Qred (1 * x)). split; [reflexivity|]. split; [|assumption]. rewrite Qred_correct, Hx. ring.
    + subst lr. cbn. split; reflexivity.
Qed.

(* ---- lists ------------------------------------------------------------------------------------------------------ *)
Lemma firstn_skipn_concat : forall {A} (rows : list (list A)) n B,
  Forall (fun r => List.length r = B) rows -> (n < List.length rows)%nat ->
  firstn B (skipn (n * B) (List.concat rows)) = nth n rows [].
Proof.
  intros A rows. induction rows as [|r rows IH]; intros n B Hf Hn; [cbn in Hn; lia|].
  inversion Hf as [|? ? Hr Hf']; subst. cbn [List.concat]. destruct n as [|n].
  - change (0 * List.length r)%nat with 0%nat. cbn [skipn nth]. rewrite firstn_app, Nat.sub_diag. cbn [firstn].
    rewrite app_nil_r. apply firstn_all.
  - cbn [nth]. rewrite skipn_app. rewrite (@skipn_all2 _ (S n * List.length r) r) by nia. cbn [app].
    replace (S n * List.length r - List.length r)%nat with (n * List.length r)%nat by nia.
    apply IH; [assumption|cbn in Hn; lia].
Qed.

Lemma ud_row_us : forall (us : list (list Q)) B n, Forall (fun r => List.length r = B) us -> (n < List.length us)%nat ->
  ud_row B (map lv_log (List.concat us)) (Z.of_nat n) = map lv_log (nth n us []).
Proof.
  intros us B n Hf Hn. unfold ud_row. replace (numel [B]) with B by (unfold numel; cbn [fold_right]; lia).
  rewrite Nat2Z.id, skipn_map, firstn_map. f_equal. now apply firstn_skipn_concat.
Qed.

Lemma welt_nth : forall g d j, (j < List.length d)%nat -> nth j (welt g d) 0%Q = g j (nth j d 0%nat).
Proof.
  intros g d j Hj. unfold welt.
  fold (zipl g (seq 0 (List.length d)) d). rewrite (zipl_nth g _ _ 0%nat 0%nat) by (rewrite ?seq_length; lia).
  now rewrite seq_nth.
Qed.

Lemma inj_idx_nth : forall d j, nth j (inj_idx d) 0%Q = inject_Z (Z.of_nat (nth j d 0%nat)).
Proof. intros. unfold inj_idx. change 0%Q with ((fun i => inject_Z (Z.of_nat i)) 0%nat). apply map_nth. Qed.

Lemma inj_idx_length : forall d, List.length (inj_idx d) = List.length d.
Proof. intros. unfold inj_idx. apply map_length. Qed.
