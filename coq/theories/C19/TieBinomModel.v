(* C19 tie - `binomial_coefficient`: the interpreted source (TieBinom) against Combinatorics.binomial_coefficient, and the
   compositions with the model theorems (Pascal's triangle; n! / (k! (n-k)!)). *)
From Coq Require Import ZArith QArith List Bool Arith Lia.
From PV Require Import MiniPy.Syntax MiniPy.Interp.
From PV Require Import MiniTorch.Ops MiniTorch.Value MiniTorch.Lemmas MiniTorch.OpsC19 MiniTorch.LemmasC19 Gen.C19Src.
From PV Require Import C19.Combinatorics C19.Spec C19.ProofsComb.
From PV Require Import C19.SrcRun C19.TieLib C19.TieBinom.
Import ListNotations.
Local Open Scope Z_scope.

Lemma combine_fst_snd : forall (lens cnts : list Z), length lens = length cnts ->
  map fst (combine lens cnts) = lens /\ map snd (combine lens cnts) = cnts.
Proof.
  induction lens as [|l lens IH]; intros [|c cnts] H; try discriminate; [split; reflexivity|].
  cbn in H. destruct (IH cnts ltac:(lia)) as [H1 H2]. cbn [combine map fst snd]. now rewrite H1, H2.
Qed.

Lemma zmax1_fold_right : forall r a, 0 <= a -> Forall (fun x => 0 <= x) r -> zmax1 a r = Z.max a (zmax_list r).
Proof.
  induction r as [|x r IH]; intros a Ha Hr.
  - unfold zmax1, zmax_list. cbn. lia.
  - inversion Hr; subst. rewrite zmax1_cons, IH by (assumption || lia). unfold zmax_list. cbn [fold_right]. lia.
Qed.

Lemma zmax_list_nonneg : forall l, 0 <= zmax_list l.
Proof. induction l as [|x l IH]; unfold zmax_list in *; cbn [fold_right]; lia. Qed.

Lemma max_all_zmax_list : forall sh l, l <> [] -> Forall (fun x => 0 <= x) l ->
  max_all (mkTens sh (zinj l)) = Some (inject_Z (zmax_list l)).
Proof.
  intros sh [|a r] Hne H; [congruence|]. inversion H; subst. unfold zinj. now rewrite max_all_z, zmax1_fold_right.
Qed.

Lemma existsb_neg_false_all : forall l, existsb (fun v => v <? 0) l = false -> Forall (fun x => 0 <= x) l.
Proof.
  intros l H. apply Forall_forall. intros x Hx. destruct (Z.lt_ge_cases x 0) as [Hl|Hl]; [|assumption].
  assert (E : existsb (fun v => v <? 0) l = true) by (apply existsb_exists; exists x; split; [assumption|now apply Z.ltb_lt]).
  congruence.
Qed.

(* the whole function: for every shape, every pair of integer tensors of that shape with at least one element, every
   content of uninitialised memory, the interpreted source raises RuntimeError / returns exactly what the model says *)
Theorem binom_tie : forall junk sh lens cnts, length lens = length cnts -> lens <> [] ->
  match binomial_coefficient lens cnts with
  | None => exists st, run_binom junk (ztens sh lens) (ztens sh cnts) = Exc runtime_error st
  | Some res => exists st, run_binom junk (ztens sh lens) (ztens sh cnts) = Ok (enc (ztens sh res)) st
  end.
Proof.
  intros junk sh lens cnts Hlen Hne. destruct (combine_fst_snd lens cnts Hlen) as [E1 E2].
  set (LC := combine lens cnts) in *. unfold binomial_coefficient. fold LC.
  destruct (existsb (fun v => v <? 0) lens || existsb (fun v => v <? 0) cnts) eqn:Hneg.
  - rewrite <- E1, <- E2. apply binom_run_raises. unfold negs. now rewrite E1, E2.
  - apply orb_false_elim in Hneg. destruct Hneg as [Hn1 Hn2].
    pose proof (existsb_neg_false_all _ Hn1) as Hl0. pose proof (existsb_neg_false_all _ Hn2) as Hc0.
    assert (Hne' : cnts <> []) by (destruct cnts, lens; cbn in Hlen; congruence).
    pose proof (max_all_zmax_list sh lens Hne Hl0) as Hm1. pose proof (max_all_zmax_list sh cnts Hne' Hc0) as Hm2.
    rewrite <- E1 in Hm1 at 1. rewrite <- E2 in Hm2 at 1.
    assert (Hr1 : Forall (fun lc : Z * Z => (0 <= fst lc <= zmax_list lens) /\ 0 <= snd lc) LC).
    { apply Forall_forall. intros [l k] Hin. cbn [fst snd].
      pose proof (in_combine_l _ _ _ _ Hin) as H1. pose proof (in_combine_r _ _ _ _ Hin) as H2.
      rewrite Forall_forall in Hl0, Hc0. pose proof (Hl0 _ H1). pose proof (Hc0 _ H2).
      pose proof (zmax_list_ge _ _ H1). lia. }
    assert (Hr2 : Forall (fun lc : Z * Z => snd lc <= zmax_list cnts) LC).
    { apply Forall_forall. intros [l k] Hin. cbn [fst snd]. pose proof (in_combine_r _ _ _ _ Hin) as H2.
      apply (zmax_list_ge _ _ H2). }
    assert (Hng : negs LC = false) by (unfold negs; now rewrite E1, E2, Hn1, Hn2).
    pose proof (zmax_list_nonneg lens). pose proof (zmax_list_nonneg cnts).
    destruct (20 <? zmax_list lens) eqn:Hbr.
    + apply Z.ltb_lt in Hbr.
      destruct (binom_run_table junk sh LC _ Hm1 Hr1 _ Hm2 Hr2 Hng Hbr ltac:(lia)) as [st Hrun].
      exists st. rewrite E1, E2 in Hrun. unfold run_binom, ztens. unfold zinj in Hrun. rewrite Hrun.
      unfold ztens. rewrite map_map. reflexivity.
    + apply Z.ltb_ge in Hbr.
      destruct (binom_run_fact junk sh LC _ Hm1 Hr1 Hng ltac:(lia)) as [st Hrun].
      exists st. rewrite E1, E2 in Hrun. unfold run_binom, ztens. unfold zinj in Hrun. rewrite Hrun.
      unfold ztens. rewrite map_map. reflexivity.
Qed.

(* COMPOSED with ProofsComb.binomial_is_pascal: on non-negative input the interpreted source returns Pascal's triangle *)
Theorem binom_source_is_pascal : forall junk sh lens cnts, length lens = length cnts -> lens <> [] ->
  Forall (fun v => 0 <= v) lens -> Forall (fun v => 0 <= v) cnts ->
  exists st, run_binom junk (ztens sh lens) (ztens sh cnts)
             = Ok (enc (ztens sh (map (fun lc => choose (Z.to_nat (fst lc)) (Z.to_nat (snd lc))) (combine lens cnts)))) st.
Proof.
  intros junk sh lens cnts Hlen Hne Hl Hc. pose proof (binom_tie junk sh lens cnts Hlen Hne) as T.
  rewrite (binomial_is_pascal lens cnts Hl Hc) in T. exact T.
Qed.

(* COMPOSED further with choose_fact (c19_binomial_pascal_eq_factorial): every returned entry b[i] with
   count[i] <= length[i] satisfies  b[i] * count[i]! * (length[i] - count[i])! = length[i]!  *)
Theorem binom_source_is_factorial_quotient : forall junk sh lens cnts, length lens = length cnts -> lens <> [] ->
  Forall (fun v => 0 <= v) lens -> Forall (fun v => 0 <= v) cnts ->
  exists st res, run_binom junk (ztens sh lens) (ztens sh cnts) = Ok (enc (ztens sh res)) st /\ length res = length lens /\
    forall i, (i < length lens)%nat -> nth i cnts 0 <= nth i lens 0 ->
      nth i res 0 * zfact (Z.to_nat (nth i cnts 0)) * zfact (Z.to_nat (nth i lens 0) - Z.to_nat (nth i cnts 0))
      = zfact (Z.to_nat (nth i lens 0)).
Proof.
  intros junk sh lens cnts Hlen Hne Hl Hc.
  destruct (binom_source_is_pascal junk sh lens cnts Hlen Hne Hl Hc) as [st Hrun].
  set (F := fun lc : Z * Z => choose (Z.to_nat (fst lc)) (Z.to_nat (snd lc))) in *.
  exists st, (map F (combine lens cnts)).
  split; [exact Hrun|]. split; [rewrite map_length, combine_length; lia|].
  intros i Hi Hle.
  rewrite (nth_map_lt F _ _ (0, 0)), combine_nth by (rewrite ?combine_length; lia). unfold F. cbn [fst snd].
  apply choose_fact. rewrite Forall_forall in Hl, Hc.
  pose proof (Hc (nth i cnts 0) ltac:(apply nth_In; lia)). lia.
Qed.

Example binom_source_nonvacuous :
  agrees (run_binom junk_check (ztens [2%nat] [25; 5]) (ztens [2%nat] [2; 3])) (Some ([2%nat], [300; 10])) = true /\
  agrees (run_binom junk_check (ztens [3%nat] [5; 4; 0]) (ztens [3%nat] [2; 5; 0])) (Some ([3%nat], [10; 0; 1])) = true /\
  agrees (run_binom junk_check (ztens [1%nat] [5]) (ztens [1%nat] [-1])) None = true.
Proof. vm_compute. repeat split. Qed.
