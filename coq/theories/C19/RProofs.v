(* C19 - the real-number reading of the relaxed-distribution formulas of Relaxed.v (exp, ln of Coq's
   Reals): density factorisation, thresholding a conditional sample, the conditional sample as a
   re-parametrised relaxed sample.  These are the only results that need the Reals axioms. *)
From Coq Require Import Reals Lra List Bool Lia.
From PV Require Import C19.Relaxed.
Import ListNotations.
Local Open Scope R_scope.

(* the real-number instance of the formulas of Relaxed.v *)
Definition Rleb (a b : R) : bool := if Rle_dec a b then true else false.
Definition Rarith : arith R :=
  mkArith R IZR Rplus Rminus Rmult Rdiv Ropp exp ln (fun x => ln (1 + x)) Rleb.

Lemma Rleb_true : forall a b, Rleb a b = true <-> a <= b.
Proof. intros. unfold Rleb. destruct (Rle_dec a b); split; auto; discriminate. Qed.
Lemma Rleb_false : forall a b, Rleb a b = false <-> b < a.
Proof. intros. unfold Rleb. destruct (Rle_dec a b); split; try discriminate; try lra; auto. Qed.

Lemma ln_pos : forall x, 1 < x -> 0 < ln x.
Proof. intros x H. rewrite <- ln_1. apply ln_increasing; lra. Qed.

Lemma ln_div' : forall a b, 0 < a -> 0 < b -> ln (a / b) = ln a - ln b.
Proof.
  intros a b Ha Hb. unfold Rdiv. rewrite ln_mult by (try apply Rinv_0_lt_compat; lra). rewrite ln_Rinv by lra. ring.
Qed.

(* ---------------- LogisticBernoulli ---------------- *)
(* "the relaxed density factors as threshold probability times conditional density" *)
Theorem logistic_density_factorises : forall l z,
  exists c, lb_clog_prob Rarith l z (lb_threshold Rarith z) = Some c /\
            lb_log_prob Rarith l z = lb_tlog_prob Rarith l (lb_threshold Rarith z) + c.
Proof.
  intros l z. unfold lb_clog_prob. rewrite eqb_reflx. eexists; split; [reflexivity|].
  unfold lb_log_prob, lb_tlog_prob, bnum. cbn [aadd asub amul aneg aexp alog1p aZ Rarith].
  destruct (lb_threshold Rarith z); ring.
Qed.

(* off the conditioning value the conditional density is zero (log = -inf) *)
Theorem logistic_clog_prob_off_value : forall l z b,
  b <> lb_threshold Rarith z -> lb_clog_prob Rarith l z b = None.
Proof.
  intros l z b H. unfold lb_clog_prob. destruct (eqb (lb_threshold Rarith z) b) eqn:E; [|reflexivity].
  apply eqb_prop in E. congruence.
Qed.

(* "thresholding a conditional relaxed sample always returns the conditioning value" *)
Theorem logistic_threshold_of_csample : forall p v b eps,
  0 < p < 1 -> 0 < v < 1 -> 0 <= eps ->
  lb_threshold Rarith (lb_csample Rarith p v b eps) = b.
Proof.
  intros p v b eps Hp Hv He. unfold lb_threshold, lb_csample, bnum.
  cbn [aadd asub amul adiv aneg alog aleb aZ Rarith].
  (* the logarithm is positive whichever of p, 1 - p stands in it *)
  assert (L : forall q, 0 < q -> 0 < ln (v / ((1 - v) * q) + 1)).
  { intros q Hq. apply ln_pos. assert (0 < v / ((1 - v) * q)) by (apply Rdiv_lt_0_compat; nra). lra. }
  destruct b; [apply Rleb_true; pose proof (L ((1 - 1) * p + 1 * (1 - p)) ltac:(lra))
              |apply Rleb_false; pose proof (L ((1 - 0) * p + 0 * (1 - p)) ltac:(lra))]; nra.
Qed.

(* the relaxed sample at logits ln(p/(1-p)) as one logarithm *)
Lemma rsample_ln : forall p u, 0 < p < 1 -> 0 < u < 1 ->
  lb_rsample Rarith (ln (p / (1 - p))) u = ln (p / (1 - p) * u / (1 - u)).
Proof.
  intros p u Hp Hu. unfold lb_rsample. cbn [aadd asub aneg alog alog1p Rarith].
  assert (Hpp : 0 < p / (1 - p)) by (apply Rdiv_lt_0_compat; lra).
  replace (1 + - u) with (1 - u) by ring. rewrite <- ln_mult by lra.
  rewrite <- ln_div' by (try apply Rmult_lt_0_compat; lra). reflexivity.
Qed.

(* the conditional sample IS the relaxed sample at an affinely mapped uniform: the map sends [0,1] onto the
   part of [0,1] whose relaxed sample thresholds to b (measure p resp. 1-p) - the conditional law is the
   relaxed law restricted to the threshold region *)
Theorem logistic_csample_is_rsample : forall p v,
  0 < p < 1 -> 0 < v < 1 ->
  lb_csample Rarith p v true 0 = lb_rsample Rarith (ln (p / (1 - p))) (1 - p + p * v) /\
  lb_csample Rarith p v false 0 = lb_rsample Rarith (ln (p / (1 - p))) ((1 - p) * (1 - v)).
Proof.
  intros p v Hp Hv. rewrite !rsample_ln by nra. unfold lb_csample, bnum.
  cbn [aadd asub amul adiv aneg alog aZ Rarith].
  split.
  - replace ((2 * 1 - 1) * ln (v / ((1 - v) * ((1 - 1) * p + 1 * (1 - p))) + 1) + 1 * 0)
      with (ln (v / ((1 - v) * (1 - p)) + 1)) by (replace ((1 - 1) * p + 1 * (1 - p)) with (1 - p) by ring; ring).
    f_equal. field. nra.
  - replace ((2 * 0 - 1) * ln (v / ((1 - v) * ((1 - 0) * p + 0 * (1 - p))) + 1) + 0 * 0)
      with (- ln (v / ((1 - v) * p) + 1)) by (replace ((1 - 0) * p + 0 * (1 - p)) with p by ring; ring).
    assert (Hz : 0 < v / ((1 - v) * p) + 1).
    { assert (0 < v / ((1 - v) * p)) by (apply Rdiv_lt_0_compat; nra). lra. }
    rewrite <- ln_Rinv by exact Hz. f_equal. field. nra.
Qed.

Definition bR (b : bool) : R := if b then 1 else 0.
Definition Rsum (l : list R) : R := fold_right Rplus 0 l.

Lemma asum_Rsum : forall l, asum Rarith l = Rsum l.
Proof. reflexivity. Qed.
Lemma bnum_bR : forall b, bnum Rarith b = bR b.
Proof. destruct b; reflexivity. Qed.

(* ---------------- one-hot vectors ---------------- *)
(* the mask (k = s), (k = s + 1), ... selects nothing when k < s and position k - s otherwise *)
Lemma mask_pick_none : forall zs s k, (k < s)%nat ->
  Rsum (zip2 (fun z b => z * bR b) zs (map (Nat.eqb k) (seq s (length zs)))) = 0.
Proof.
  induction zs as [|z zs IH]; intros s k H; [reflexivity|]. cbn [length seq map zip2 Rsum fold_right].
  fold (Rsum (zip2 (fun z b => z * bR b) zs (map (Nat.eqb k) (seq (S s) (length zs))))). rewrite IH by lia.
  replace (k =? s)%nat with false by (symmetry; apply Nat.eqb_neq; lia). cbn [bR]. ring.
Qed.

Lemma mask_pick : forall zs s k, (s <= k < s + length zs)%nat ->
  Rsum (zip2 (fun z b => z * bR b) zs (map (Nat.eqb k) (seq s (length zs)))) = nth (k - s) zs 0.
Proof.
  induction zs as [|z zs IH]; intros s k H; cbn [length] in H; [lia|]. cbn [length seq map zip2 Rsum fold_right].
  fold (Rsum (zip2 (fun z b => z * bR b) zs (map (Nat.eqb k) (seq (S s) (length zs))))).
  destruct (Nat.eqb_spec k s) as [->|Hne]; cbn [bR].
  - rewrite mask_pick_none, Nat.sub_diag by lia. cbn [nth]. ring.
  - rewrite IH by lia. replace (k - s)%nat with (S (k - S s)) by lia. cbn [nth]. ring.
Qed.

Lemma onehot_pick : forall zs k, (k < length zs)%nat ->
  Rsum (zip2 (fun z b => z * bR b) zs (one_hot k (length zs))) = nth k zs 0.
Proof. intros zs k H. unfold one_hot. rewrite mask_pick by lia. now rewrite Nat.sub_0_r. Qed.

Lemma mask_sum_none : forall n s k, (k < s)%nat -> Rsum (map bR (map (Nat.eqb k) (seq s n))) = 0.
Proof.
  induction n as [|n IH]; intros s k H; [reflexivity|]. cbn [seq map Rsum fold_right].
  fold (Rsum (map bR (map (Nat.eqb k) (seq (S s) n)))). rewrite IH by lia.
  replace (k =? s)%nat with false by (symmetry; apply Nat.eqb_neq; lia). cbn [bR]. ring.
Qed.

Lemma mask_sum : forall n s k, (s <= k < s + n)%nat -> Rsum (map bR (map (Nat.eqb k) (seq s n))) = 1.
Proof.
  induction n as [|n IH]; intros s k H; [lia|]. cbn [seq map Rsum fold_right].
  fold (Rsum (map bR (map (Nat.eqb k) (seq (S s) n)))).
  destruct (Nat.eqb_spec k s) as [->|Hne]; cbn [bR]; [rewrite mask_sum_none by lia|rewrite IH by lia]; ring.
Qed.

Lemma onehot_sum : forall n k, (k < n)%nat -> Rsum (map bR (one_hot k n)) = 1.
Proof. intros n k H. apply mask_sum. lia. Qed.

Lemma one_hot_length : forall k n, length (one_hot k n) = n.
Proof. intros. unfold one_hot. rewrite map_length, seq_length. reflexivity. Qed.

Lemma onehot_nth : forall n k j, (j < n)%nat -> nth j (one_hot k n) false = Nat.eqb k j.
Proof.
  intros n k j Hj. unfold one_hot.
  rewrite (nth_indep _ false (Nat.eqb k 0)) by (rewrite map_length, seq_length; exact Hj).
  rewrite map_nth, seq_nth by exact Hj. reflexivity.
Qed.

Lemma onehot_nth_true : forall n k j, nth j (one_hot k n) false = true -> j = k /\ (j < n)%nat.
Proof.
  intros n k j H. destruct (Nat.lt_ge_cases j n) as [Hj|Hj].
  - rewrite onehot_nth in H by exact Hj. apply Nat.eqb_eq in H. lia.
  - rewrite nth_overflow in H by (rewrite one_hot_length; exact Hj). discriminate.
Qed.

(* ---------------- argmax ---------------- *)
Lemma argmax_from_range : forall zs best bi i,
  argmax_from Rarith best bi i zs = bi \/
  (i <= argmax_from Rarith best bi i zs < i + length zs)%nat.
Proof.
  induction zs as [|z zs IH]; intros best bi i; [left; reflexivity|].
  cbn [argmax_from length]. destruct (aleb Rarith z best).
  - destruct (IH best bi (S i)) as [H|H]; [left; exact H|right; lia].
  - destruct (IH z i (S i)) as [H|H]; right; lia.
Qed.

Lemma argmax_lt : forall zs, zs <> [] -> (argmax Rarith zs < length zs)%nat.
Proof.
  intros [|z zs] H; [congruence|]. cbn [argmax length].
  destruct (argmax_from_range zs z 0%nat 1%nat) as [E|E]; lia.
Qed.

(* ---------------- the identity behind the factorisation ---------------- *)
(* the finite branch of g_clog_prob with z_k abstracted as Z *)
Definition clog_body (ls zc : list R) (bs : list bool) (Z : R) : R :=
  let negb_ := map (fun b => asub Rarith (aZ Rarith 1) (bnum Rarith b)) bs in
  let ls' := zip2 (amul Rarith) ls negb_ in
  let g := zip2 (fun l z => let g := asub Rarith l z in asub Rarith g (aexp Rarith g)) ls' zc in
  let G := zip2 (fun l nb => amul Rarith (aneg Rarith (aexp Rarith (asub Rarith l Z))) nb) ls' negb_ in
  asum Rarith (zip2 (asub Rarith) g G).

Lemma clog_unfold : forall ls zc bs,
  g_clog_prob Rarith ls zc bs =
  if bools_eqb (g_threshold Rarith zc) bs
  then Some (clog_body ls zc bs (asum Rarith (zip2 (fun z b => amul Rarith z (bnum Rarith b)) zc bs)))
  else None.
Proof. reflexivity. Qed.

Lemma gumbel_identity_aux : forall ls zs bs Z,
  length zs = length ls -> length bs = length ls ->
  (forall j, nth j bs false = true -> nth j zs 0 = Z) ->
  g_log_prob Rarith ls zs
  = g_tlog_prob Rarith ls bs + clog_body ls zs bs Z + exp (- Z) * (Rsum (map bR bs) - Rsum (map exp ls)).
Proof.
  unfold g_log_prob, g_tlog_prob, clog_body, asum.
  induction ls as [|l ls IH]; intros zs bs Z Hz Hb Hsel.
  - destruct zs, bs; try discriminate. cbn. ring.
  - destruct zs as [|z zs]; [discriminate|]. destruct bs as [|b bs]; [discriminate|].
    assert (Hsel' : forall j, nth j bs false = true -> nth j zs 0 = Z) by (intros j Hj; apply (Hsel (S j)); exact Hj).
    specialize (IH zs bs Z ltac:(cbn in Hz; lia) ltac:(cbn in Hb; lia) Hsel').
    cbn [zip2 map fold_right Rsum] in IH |- *. cbv zeta in IH |- *.
    cbn [aadd asub amul aneg aexp aZ Rarith bnum] in IH |- *.
    rewrite IH. clear IH.
    assert (El : exp (l - Z) = exp l * exp (- Z)) by (replace (l - Z) with (l + - Z) by ring; apply exp_plus).
    destruct b; cbn [bR]; change (bnum Rarith true) with 1; change (bnum Rarith false) with 0; unfold Rsum.
    + assert (z = Z) by (apply (Hsel 0%nat); reflexivity). subst z.
      replace (l * (1 - 1)) with 0 by ring. replace (0 - Z) with (- Z) by ring. rewrite El. ring.
    + replace (l * (1 - 0)) with l by ring. rewrite El. ring.
Qed.

Lemma bools_eqb_refl : forall l, bools_eqb l l = true.
Proof.
  intros l. unfold bools_eqb. rewrite Nat.eqb_refl. cbn [andb].
  induction l as [|b l IH]; [reflexivity|]. cbn. rewrite eqb_reflx. exact IH.
Qed.

Theorem gumbel_density_factorises : forall ls zs,
  length zs = length ls -> zs <> [] -> Rsum (map exp ls) = 1 ->
  exists c, g_clog_prob Rarith ls zs (g_threshold Rarith zs) = Some c /\
            g_log_prob Rarith ls zs = g_tlog_prob Rarith ls (g_threshold Rarith zs) + c.
Proof.
  intros ls zs Hlen Hne Hnorm. rewrite clog_unfold, bools_eqb_refl.
  eexists; split; [reflexivity|].
  unfold g_threshold.
  set (k := argmax Rarith zs). set (n := length zs).
  assert (Hk : (k < n)%nat) by (apply argmax_lt; exact Hne).
  set (Z := asum Rarith (zip2 (fun z b => amul Rarith z (bnum Rarith b)) zs (one_hot k n))).
  assert (HZ : Z = nth k zs 0).
  { exact (onehot_pick zs k Hk). }
  rewrite (gumbel_identity_aux ls zs (one_hot k n) Z Hlen ltac:(rewrite one_hot_length; unfold n; lia)).
  - rewrite onehot_sum, Hnorm by exact Hk. cbn [aadd Rarith]. ring.
  - intros j Hj. apply onehot_nth_true in Hj. destruct Hj as [-> _]. symmetry. exact HZ.
Qed.

Lemma nth_zip2 : forall {X Y W} (f : X -> Y -> W) la lb j da db d,
  (j < length la)%nat -> (j < length lb)%nat ->
  nth j (zip2 f la lb) d = f (nth j la da) (nth j lb db).
Proof.
  intros X Y W f la. induction la as [|a la IH]; intros lb j da db d Ha Hb; [cbn in Ha; lia|].
  destruct lb as [|b lb]; [cbn in Hb; lia|]. destruct j as [|j]; [reflexivity|].
  cbn [zip2 nth]. apply IH; cbn in Ha, Hb; lia.
Qed.

Lemma zip2_length : forall {X Y W} (f : X -> Y -> W) la lb,
  length (zip2 f la lb) = Nat.min (length la) (length lb).
Proof.
  intros X Y W f la. induction la as [|a la IH]; intros [|b lb]; cbn; auto.
Qed.

Lemma zip2_map_l : forall {X X' Y W} (f : X' -> Y -> W) (g : X -> X') la lb,
  zip2 f (map g la) lb = zip2 (fun x y => f (g x) y) la lb.
Proof. intros X X' Y W f g la. induction la as [|a la IH]; intros [|b lb]; cbn; auto. f_equal. apply IH. Qed.

(* argmax returns the position of a strict, unique maximum *)
Lemma argmax_from_keep : forall zs best bi i,
  (forall z, In z zs -> z <= best) -> argmax_from Rarith best bi i zs = bi.
Proof.
  induction zs as [|z zs IH]; intros best bi i H; [reflexivity|].
  cbn [argmax_from]. replace (aleb Rarith z best) with true.
  - apply IH. intros; apply H; auto using in_cons.
  - symmetry. apply Rleb_true. apply H. apply in_eq.
Qed.

Lemma argmax_from_unique : forall zs best bi i k M,
  (k < length zs)%nat -> nth k zs 0 = M ->
  (forall j, (j < length zs)%nat -> j <> k -> nth j zs 0 < M) -> best < M ->
  argmax_from Rarith best bi i zs = (i + k)%nat.
Proof.
  induction zs as [|z zs IH]; intros best bi i k M Hk HM Hlt Hb; [cbn in Hk; lia|].
  cbn [argmax_from]. destruct k as [|k].
  - cbn [nth] in HM. subst z.
    replace (aleb Rarith M best) with false by (symmetry; apply Rleb_false; exact Hb).
    rewrite argmax_from_keep; [lia|].
    intros z Hz. apply In_nth with (d := 0) in Hz. destruct Hz as [j [Hj <-]].
    left. apply (Hlt (S j)); cbn; lia.
  - cbn [nth] in HM.
    assert (Hz : z < M) by (apply (Hlt 0%nat); cbn; lia).
    assert (Hlt' : forall j, (j < length zs)%nat -> j <> k -> nth j zs 0 < M).
    { intros j Hj Hne. apply (Hlt (S j)); cbn; lia. }
    destruct (aleb Rarith z best).
    + rewrite (IH best bi (S i) k M); auto; cbn in Hk; lia.
    + rewrite (IH z i (S i) k M); auto; cbn in Hk; lia.
Qed.

Lemma argmax_unique : forall zs k M,
  (k < length zs)%nat -> nth k zs 0 = M ->
  (forall j, (j < length zs)%nat -> j <> k -> nth j zs 0 < M) -> argmax Rarith zs = k.
Proof.
  intros [|z zs] k M Hk HM Hlt; [cbn in Hk; lia|]. cbn [argmax].
  destruct k as [|k].
  - cbn [nth] in HM. subst z. apply argmax_from_keep.
    intros z Hz. apply In_nth with (d := 0) in Hz. destruct Hz as [j [Hj <-]].
    left. apply (Hlt (S j)); cbn; lia.
  - cbn [nth] in HM. rewrite (argmax_from_unique zs z 0%nat 1%nat k M); auto.
    + cbn in Hk; lia.
    + intros j Hj Hne. apply (Hlt (S j)); cbn; lia.
    + apply (Hlt 0%nat); cbn; lia.
Qed.

Lemma ln_neg : forall v, 0 < v < 1 -> ln v < 0.
Proof. intros v H. rewrite <- ln_1. apply ln_increasing; lra. Qed.

Lemma onehot_pick_map : forall (g : R -> R) xs k, (k < length xs)%nat ->
  Rsum (zip2 (fun x b => g x * bR b) xs (one_hot k (length xs))) = g (nth k xs 0).
Proof.
  intros g xs k H. rewrite <- (zip2_map_l (fun z b => z * bR b) g), <- (map_length g xs).
  rewrite onehot_pick, (nth_indep _ 0 (g 0)) by now rewrite map_length. apply map_nth.
Qed.

(* a non-selected entry -ln(-ln v_j / p_j - ln v_k) lies strictly below the selected one -ln(-ln v_k): the
   argument of the outer logarithm grows by the positive -ln v_j / p_j *)
Lemma csample_gap : forall vj vk p, 0 < vj < 1 -> 0 < vk < 1 -> 0 < p ->
  - ln (- ln vj / p - ln vk) < - ln (- ln vk).
Proof.
  intros vj vk p Hj Hk Hp. pose proof (ln_neg _ Hj). pose proof (ln_neg _ Hk).
  assert (0 < - ln vj / p) by (apply Rdiv_lt_0_compat; lra).
  apply Ropp_lt_contravar, ln_increasing; lra.
Qed.

(* "thresholding a conditional relaxed sample always returns the conditioning value" (categorical) *)
Theorem gumbel_threshold_of_csample : forall ps vs k eps,
  length ps = length vs -> (k < length vs)%nat ->
  Forall (fun p => 0 < p) ps -> Forall (fun v => 0 < v < 1) vs -> 0 <= eps ->
  g_threshold Rarith (g_csample Rarith ps vs (one_hot k (length vs)) eps) = one_hot k (length vs).
Proof.
  intros ps vs k eps Hlen Hk Hps Hvs Heps.
  set (n := length vs). set (bs := one_hot k n).
  unfold g_threshold, g_csample.
  set (log_v := map (alog Rarith) vs).
  set (zmatch := zip2 (fun lv b => amul Rarith (aneg Rarith (alog Rarith (aneg Rarith lv))) (bnum Rarith b)) log_v bs).
  set (M := asum Rarith zmatch).
  set (sb := asum Rarith (zip2 (fun lv b => amul Rarith lv (bnum Rarith b)) log_v bs)).
  set (znom := zip2 (fun lv p => aneg Rarith (alog Rarith (asub Rarith (adiv Rarith (aneg Rarith lv) p) sb))) log_v ps).
  set (znom' := zip2 (fun x b => amul Rarith (amin Rarith (asub Rarith M eps) x)
                                     (asub Rarith (aZ Rarith 1) (bnum Rarith b))) znom bs).
  set (out := zip2 (aadd Rarith) zmatch znom').
  assert (Llog : length log_v = n) by (unfold log_v; rewrite map_length; reflexivity).
  assert (Lbs : length bs = n) by (unfold bs; apply one_hot_length).
  assert (Lm : length zmatch = n) by (unfold zmatch; rewrite zip2_length, Llog, Lbs; lia).
  assert (Lnom : length znom = n) by (unfold znom; rewrite zip2_length, Llog, Hlen; fold n; lia).
  assert (Lnom' : length znom' = n) by (unfold znom'; rewrite zip2_length, Lnom, Lbs; lia).
  assert (Lout : length out = n) by (unfold out; rewrite zip2_length, Lm, Lnom'; lia).
  rewrite Lout.
  rewrite Forall_forall in Hvs, Hps.
  assert (Hv : forall j, (j < n)%nat -> 0 < nth j vs 0 < 1) by (intros j Hj; apply Hvs, nth_In, Hj).
  assert (Hp : forall j, (j < n)%nat -> 0 < nth j ps 1) by (intros j Hj; apply Hps, nth_In; rewrite Hlen; exact Hj).
  assert (Hlv : forall j, (j < n)%nat -> nth j log_v 0 = ln (nth j vs 0)).
  { intros j Hj. unfold log_v. rewrite (nth_indep _ 0 (alog Rarith 0)) by (rewrite map_length; exact Hj).
    rewrite map_nth. reflexivity. }
  (* M = -ln(-ln v_k),  sb = ln v_k *)
  assert (HM : M = - ln (- ln (nth k vs 0))).
  { rewrite <- Hlv by exact Hk. unfold M, zmatch, bs. rewrite <- Llog.
    apply (onehot_pick_map (fun lv => - ln (- lv))). rewrite Llog. exact Hk. }
  assert (Hsb : sb = ln (nth k vs 0)).
  { rewrite <- Hlv by exact Hk. unfold sb, bs. rewrite <- Llog. apply onehot_pick. rewrite Llog. exact Hk. }
  (* the entries *)
  assert (Hentry : forall j, (j < n)%nat ->
            nth j out 0 =
            (- ln (- ln (nth j vs 0))) * bR (Nat.eqb k j)
            + amin Rarith (M - eps) (- ln ((- ln (nth j vs 0)) / nth j ps 1 - sb)) * (1 - bR (Nat.eqb k j))).
  { intros j Hj. unfold out.
    rewrite (nth_zip2 _ zmatch znom' j 0 0 0) by lia.
    unfold zmatch. rewrite (nth_zip2 _ log_v bs j 0 false 0) by lia.
    unfold znom'. rewrite (nth_zip2 _ znom bs j 0 false 0) by lia.
    unfold znom. rewrite (nth_zip2 _ log_v ps j 0 1 0) by (rewrite ?Hlen; fold n; lia).
    unfold bs. rewrite onehot_nth, Hlv by exact Hj.
    cbn [aadd asub amul adiv aneg alog aZ Rarith]. rewrite bnum_bR. reflexivity. }
  assert (Emax : argmax Rarith out = k).
  { apply (argmax_unique out k M).
    - lia.
    - rewrite Hentry by exact Hk. rewrite Nat.eqb_refl. cbn [bR]. rewrite HM. ring.
    - intros j Hj Hne. rewrite Lout in Hj. rewrite Hentry by exact Hj.
      replace (Nat.eqb k j) with false by (symmetry; apply Nat.eqb_neq; lia). cbn [bR].
      pose proof (csample_gap _ _ _ (Hv j Hj) (Hv k Hk) (Hp j Hj)) as Hnom. rewrite <- HM, <- Hsb in Hnom.
      unfold amin. destruct (aleb Rarith (M - eps) _) eqn:E; [apply Rleb_true in E|]; lra. }
  rewrite Emax. reflexivity.
Qed.

(* the thresholded relaxed sample is 1 exactly on u in [1 - p, 1): an event of Lebesgue measure p *)
Theorem logistic_threshold_iff : forall p u, 0 < p < 1 -> 0 < u < 1 ->
  (lb_threshold Rarith (lb_rsample Rarith (ln (p / (1 - p))) u) = true <-> 1 - p <= u).
Proof.
  intros p u Hp Hu. unfold lb_threshold. rewrite rsample_ln by assumption. cbn [aleb aZ Rarith].
  assert (Hpp : 0 < p / (1 - p)) by (apply Rdiv_lt_0_compat; lra).
  set (x := p / (1 - p) * u / (1 - u)).
  assert (Hx : 0 < x) by (unfold x; apply Rdiv_lt_0_compat; [apply Rmult_lt_0_compat|]; lra).
  assert (Hxe : x - 1 = (u - (1 - p)) / ((1 - p) * (1 - u))) by (unfold x; field; lra).
  assert (Hden : 0 < (1 - p) * (1 - u)) by nra.
  rewrite Rleb_true. split.
  - intros H. destruct (Rle_or_lt (1 - p) u) as [|Hlt]; [assumption|]. exfalso.
    assert (x < 1).
    { assert ((u - (1 - p)) / ((1 - p) * (1 - u)) < 0); [|lra].
      pose proof (Rinv_0_lt_compat _ Hden). unfold Rdiv. nra. }
    pose proof (ln_increasing x 1 Hx H0) as L. rewrite ln_1 in L. lra.
  - intros H. assert (1 <= x).
    { assert (0 <= (u - (1 - p)) / ((1 - p) * (1 - u))); [|lra].
      pose proof (Rinv_0_lt_compat _ Hden). unfold Rdiv. nra. }
    rewrite <- ln_1. destruct H0 as [H0|H0]; [left; apply ln_increasing; lra|rewrite <- H0; right; reflexivity].
Qed.
