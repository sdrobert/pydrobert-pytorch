(* C03, second tie - the blocks of `hard_optimal_completion_distillation_loss` (PV.Gen.C03BSrc.loss_checks / loss_call / loss_ce /
   loss_red), interpreted with SrcRunB.ext03B on tabulated tensors: closed forms of what the statements leave (no interpreter in
   them).  TieBModel.v shows that these are PV.C03.Model.hard_ocd_loss; TieBWhole.v runs the whole body. *)
From Coq Require Import ZArith QArith List String Bool Arith Lia ZifyBool ZifyNat.
From PV Require Import MiniPy.Syntax MiniPy.Interp MiniPy.Lemmas MiniTorch.Ops MiniTorch.Lemmas MiniTorch.OpsC07 MiniTorch.LemmasC07
  MiniTorch.OpsC01 MiniTorch.LemmasC01 MiniTorch.OpsC03 MiniTorch.LemmasC03 MiniTorch.OpsC03B MiniTorch.LemmasC03B.
From PV Require Import Gen.C03Src Gen.C03BSrc C01.SrcRun C01.TieLib C03.SrcRun C03.TieLib C03.TieOcLib C03.SrcRunB C03.TieBLib.
Import ListNotations.
Local Open Scope string_scope.

(* ---- loss_ce: from the logits (A x B x V) and ANY (A x B x C) targets to the un-reduced loss (A x B) ------------------------ *)
Section CE.
  Variable lsm : list fx -> list Q.
  Variables (A B C V : nat) (lf : nat -> nat -> nat -> fx) (tf : nat -> nat -> nat -> Z) (w : option (list Q)) (ign : Z).
  Variables (bfv redv : val).

  Definition ce_stage0 : list (string * val) :=
    [("logits", enc_x (mkTn [A; B; V] (tab3 A B V lf))); ("optimals", enc_i (mkTn [A; B; C] (tab3 A B C tf)));
     ("weight", weight_val w); ("ignore_index", VInt ign); ("batch_first", bfv); ("reduction", redv)].

  (* cross_entropy(..., reduction="none") at (a, b, c) *)
  Definition cef (a b c : nat) : fx := ce_entry lsm (option_map (map Fq) w) ign (map (lf a b) (seq 0 V)) (tf a b c).
  (* loss.masked_fill(padding_mask, 0.0).sum(2) / (~padding_mask).sum(2).clamp_min(1) *)
  Definition lossf (a b : nat) : fx :=
    fdiv (fsum (map (fun c => if (tf a b c =? ign)%Z then Fq 0 else cef a b c) (seq 0 C)))
         (z2f (Z.max (count_row (map (fun c => negb (tf a b c =? ign)%Z) (seq 0 C))) 1)).

  Definition ce_stage1 : list (string * val) :=
    [("loss", enc_x (mkTn [A; B] (tab2 A B lossf)));
     ("padding_mask", enc_b (mkTn [A; B; C] (tab3 A B C (fun a b c => (tf a b c =? ign)%Z))));
     ("batch_first", bfv); ("reduction", redv)].

  Hypothesis Hw : match w with Some wv => List.length wv = V | None => True end.
  Hypothesis Hok : forall a b c, (a < A)%nat -> (b < B)%nat -> (c < C)%nat -> class_ok ign V (tf a b c) = true.

  Lemma Hw' : match option_map (map Fq) w with Some wv => List.length wv = V | None => True end.
  Proof. destruct w as [wv|]; [|exact I]. cbn [option_map]. now rewrite map_length. Qed.

  Lemma ce_run : forall st, known3 st ce_stage0 ->
    runs_to (fun st' => known3 st' ce_stage1) (exec (ext03B lsm) loss_ce st).
  Proof.
    intros st K0. unfold ce_stage0 in K0. open_known3 K0. unfold loss_ce.
    asgb. asgb. asgb.
    assign3x ltac:(evnb; rewrite ?(cross_entropy_tab lsm A B C V lf tf _ ign Hw' Hok); evnb; reflexivity).
    asgb. asgb. asgb.
    apply runs_to_ok. unfold ce_stage1, lossf, cef. close_known3.
  Qed.
End CE.

(* ---- loss_red: the reductions, from ANY un-reduced loss (A x B) and padding mask (A x B x C) ----------------------------------- *)
Section Red.
  Variable lsm : list fx -> list Q.
  Variables (A B C : nat) (g : nat -> nat -> fx) (pm : nat -> nat -> nat -> bool).

  Definition red_stage (bf : bool) (red : string) : list (string * val) :=
    [("loss", enc_x (mkTn [A; B] (tab2 A B g))); ("padding_mask", enc_b (mkTn [A; B; C] (tab3 A B C pm)));
     ("batch_first", VBool bf); ("reduction", VStr red)].

  (* (~padding_mask).any(2) *)
  Definition hasf (a b : nat) : bool := existsb (fun x => x) (map (fun c => negb (pm a b c)) (seq 0 C)).
  (* loss.sum(seq_dim) / (~padding_mask).any(2).sum(seq_dim).clamp_min(1): seq_dim = 1 / 0 *)
  Definition seq_bf (a : nat) : fx :=
    fdiv (fsum (map (g a) (seq 0 B))) (z2f (Z.max (count_row (map (hasf a) (seq 0 B))) 1)).
  Definition seq_tf (b : nat) : fx :=
    fdiv (fsum (map (fun a => g a b) (seq 0 A))) (z2f (Z.max (count_row (map (fun a => hasf a b) (seq 0 A))) 1)).

  Lemma red_none : forall bf st, known3 st (red_stage bf "none") ->
    returns3 (enc_x (mkTn [A; B] (tab2 A B g))) (exec (ext03B lsm) loss_red st).
  Proof.
    intros bf st K0. unfold red_stage in K0. open_known3 K0. unfold loss_red.
    ifstepb. ifstepb. ifstepb. seqnorm3. now apply xreturns_name.
  Qed.

  Lemma red_sum : forall bf st, known3 st (red_stage bf "sum") ->
    returns3 (enc_x (sum_all_f (mkTn [A; B] (tab2 A B g)))) (exec (ext03B lsm) loss_red st).
  Proof.
    intros bf st K0. unfold red_stage in K0. open_known3 K0. unfold loss_red.
    ifstepb. ifstepb. asgb. now apply xreturns_name.
  Qed.

  Lemma red_mean_bf : forall st, known3 st (red_stage true "mean") ->
    returns3 (enc_x (mean_all_f (mkTn [A] (map seq_bf (seq 0 A))))) (exec (ext03B lsm) loss_red st).
  Proof.
    intros st K0. unfold red_stage in K0. open_known3 K0. unfold loss_red.
    ifstepb. asgb. asgb. now apply xreturns_name.
  Qed.

  Lemma red_mean_tf : forall st, known3 st (red_stage false "mean") ->
    returns3 (enc_x (mean_all_f (mkTn [B] (map seq_tf (seq 0 B))))) (exec (ext03B lsm) loss_red st).
  Proof.
    intros st K0. unfold red_stage in K0. open_known3 K0. unfold loss_red.
    ifstepb. asgb. asgb. now apply xreturns_name.
  Qed.

  (* any other string: RuntimeError (after everything has been computed) *)
  Lemma red_bad : forall bf red st, String.eqb red "mean" = false -> String.eqb red "sum" = false -> String.eqb red "none" = false ->
    known3 st (red_stage bf red) -> exists st', exec (ext03B lsm) loss_red st = Exc "RuntimeError" st'.
  Proof.
    intros bf red st E1 E2 E3 K0. unfold red_stage in K0. open_known3 K0. unfold loss_red.
    ifstep3_t ltac:(evnb; rewrite ?E1, ?E2, ?E3; reflexivity). cbn [negb truthy].
    ifstep3_t ltac:(evnb; rewrite ?E1, ?E2, ?E3; reflexivity). cbn [negb truthy].
    ifstep3_t ltac:(evnb; rewrite ?E1, ?E2, ?E3; reflexivity). cbn [negb truthy].
    cbn [exec bind]. eexists. reflexivity.
  Qed.
End Red.
