(* C03 - the source tie of `optimal_completion` (src/pydrobert/torch/_string.py), whole body: the call of
   `_string_matching(..., return_mask=True, exclude_last=..)` (= the interpretation of PV.Gen.C03Src.sm3_body, Tie.mask_body_is_model),
   the post-processing (TieOc.post_run, fin_run) and the identification of its closed forms with PV.C03.Model (TieOcModel):
   the interpreted PV.Gen.C03Src.oc_body returns the tensor of Model.optimal_completion - for every batch, widths, tokens,
   eos / include_eos / batch_first / exclude_last / padding setting and costs c / s. *)
From Coq Require Import ZArith QArith List String Bool Arith Lia ZifyBool ZifyNat.
From PV Require Import MiniPy.Syntax MiniPy.Interp MiniPy.Lemmas MiniTorch.Ops MiniTorch.Lemmas MiniTorch.OpsC07 MiniTorch.LemmasC07
  MiniTorch.OpsC01 MiniTorch.LemmasC01 MiniTorch.OpsC03 MiniTorch.LemmasC03.
From PV Require Import Gen.C03Src C01.SrcRun C01.TieLib C01.TieWhole C01.TiePre C03.SrcRun C03.TieLib C03.TieOcLib C03.TieOc C03.TieOcModel C03.Tie.
From PV Require C01.Obs C01.Spec C01.Model C01.Proofs C01.TieLoop C01.TieBlocks C01.Tie
  C03.Spec C03.Model C03.ProofsSelect C03.ProofsTop C03.ProofsMask C03.ProofsMain.
Import ListNotations.
Local Open Scope string_scope.

Notation colf := C01.TieLoop.colf.
Notation wf_src := C01.Tie.wf_src.
Notation at_src := C01.Tie.at_src.

(* ---- nested lists and flat tables ------------------------------------------------------------------------------------ *)
Lemma chunk_tab3 : forall A B C (f : nat -> nat -> nat -> Z) a b, (a < A)%nat -> (b < B)%nat ->
  firstn C (skipn ((a * B + b) * C) (tab3 A B C f)) = map (f a b) (seq 0 C).
Proof.
  intros A B C f a b Ha Hb.
  assert (H1 : (a * B + b + 1 <= A * B)%nat) by nia.
  assert (H2 : ((a * B + b) * C + C <= A * (B * C))%nat).
  { replace ((a * B + b) * C + C)%nat with ((a * B + b + 1) * C)%nat by lia. rewrite Nat.mul_assoc. now apply Nat.mul_le_mono_r. }
  apply (nth_ext _ _ 0%Z 0%Z).
  - rewrite firstn_length, skipn_length, length_tab3, map_length, seq_length. lia.
  - intros i Hi. rewrite firstn_length, skipn_length, length_tab3 in Hi.
    assert (HiC : (i < C)%nat) by lia.
    rewrite C03.ProofsTop.nth_firstn_lt by exact HiC. rewrite nth_skipn_gen, nth_map_seq by exact HiC.
    now apply nth_tab3.
Qed.

Definition nest3 (A B C : nat) (f : nat -> nat -> nat -> Z) : list (list (list Z)) :=
  map (fun a => map (fun b => map (f a b) (seq 0 C)) (seq 0 B)) (seq 0 A).

Lemma unflatten_tab3 : forall A B C f, C03.Model.unflatten A B C (tab3 A B C f) = nest3 A B C f.
Proof.
  intros. unfold C03.Model.unflatten, nest3. apply map_ext_seq. intros a Ha. apply map_ext_seq. intros b Hb.
  now apply chunk_tab3.
Qed.

Lemma concat_nest3 : forall A B C f, List.concat (List.concat (nest3 A B C f)) = tab3 A B C f.
Proof.
  intros. unfold nest3, tab3. rewrite <- flat_map_concat_map, concat_flat_map.
  apply flat_map_ext_seq. intros a Ha. now rewrite <- flat_map_concat_map.
Qed.

Lemma transpose01_nest3 : forall A B C f,
  C03.Model.transpose01 A B (nest3 A B C f) = nest3 B A C (fun b a c => f a b c).
Proof.
  intros. unfold C03.Model.transpose01, nest3. apply map_ext_seq. intros b Hb. apply map_ext_seq. intros a Ha.
  rewrite (nth_map_seq (fun a0 => map (fun b0 => map (f a0 b0) (seq 0 C)) (seq 0 B)) A a []) by exact Ha.
  now rewrite (nth_map_seq (fun b0 => map (f a b0) (seq 0 C)) B b []) by exact Hb.
Qed.

(* ---- the model's cells are the source's ------------------------------------------------------------------------------ *)
Section Conn.
  Variables (c : C01.Model.cfg) (N R' H : nat) (ref hyp : list (list Z)).
  Notation R := (S R').
  Notation bf := (C01.Model.c_bf c).
  Hypothesis HN : (0 < N)%nat.
  Hypothesis Hr : wf_src bf N R ref.
  Hypothesis Hh : wf_src bf N H hyp.

  Let rf := at_src bf ref.
  Let K := C03.Model.oc_rows c N hyp.
  Let mk (k i n : nat) : bool := nth i (nth k (nth n (C03.Model.oc_masks c N ref hyp) []) []) false.
  Let Hwr := C01.Tie.wf_src_model _ _ _ _ Hr.
  Let Hwh := C01.Tie.wf_src_model _ _ _ _ Hh.

  Lemma refs_nth n : (n < N)%nat -> nth n (C01.Model.sequences bf N ref) [] = rcolz R' rf n.
  Proof. intros Hn. rewrite C01.Proofs.sequences_nth by assumption. symmetry. exact (C01.Tie.colf_seq_of _ N R ref n Hn Hr). Qed.

  Lemma masks_nth k n : (k < K)%nat -> (n < N)%nat ->
    nth k (nth n (C03.Model.oc_masks c N ref hyp) []) [] = mrow R' mk k n.
  Proof.
    intros Hk Hn. unfold mrow. apply list_as_map_nth.
    rewrite (C03.ProofsTop.oc_masks_nth c N ref hyp _ _ _ _ n (eff_costs_eq c) Hn).
    rewrite C03.ProofsMask.pair_masks_row_length by (try apply C01.Proofs.eff_len_le; unfold K in Hk; lia).
    rewrite refs_nth by exact Hn. unfold rcolz. now rewrite map_length, seq_length.
  Qed.

  Lemma cells_model : C03.ProofsTop.sel_rows c N ref hyp = sel_cells R' N K rf mk.
  Proof.
    unfold C03.ProofsTop.sel_rows, C03.Model.oc_cells, C03.Model.oc_grid, sel_cells. fold K.
    rewrite <- flat_map_concat_map, map_flat_map. apply flat_map_ext_seq. intros k Hk.
    rewrite (C03.ProofsTop.map2_seq _ _ _ N [] []) by (now rewrite ?C01.Proofs.sequences_length, ?C03.ProofsTop.oc_masks_length).
    rewrite map_map. apply map_ext_seq. intros n Hn. cbn [fst snd].
    rewrite refs_nth, masks_nth by assumption. reflexivity.
  Qed.

  Lemma width_model : C03.Model.oc_width c N ref hyp = widthf R' N K rf mk.
  Proof.
    unfold C03.Model.oc_width. rewrite C03.ProofsTop.oc_counts_sel, cells_model. symmetry. apply width_cells.
    - unfold K, C03.Model.oc_rows. lia.
    - lia.
  Qed.

  (* the tensor of the model's result, in the layout the function returns *)
  Definition model_oc_tensor : tn Z :=
    mkTn (if bf then [N; K; C03.Model.oc_width c N ref hyp] else [K; N; C03.Model.oc_width c N ref hyp])
         (List.concat (List.concat (C03.Model.optimal_completion c N ref hyp))).

  Lemma opt_as_nest :
    C03.Model.optimal_completion c N ref hyp =
    if bf then nest3 N K (widthf R' N K rf mk) (fun n k w => outf R' N K rf mk (C01.Model.c_pad c) k n w)
    else nest3 K N (widthf R' N K rf mk) (outf R' N K rf mk (C01.Model.c_pad c)).
  Proof.
    assert (HK : K <> 0%nat) by (unfold K, C03.Model.oc_rows; lia). assert (HN' : N <> 0%nat) by lia.
    unfold C03.Model.optimal_completion. cbv zeta.
    change (List.concat (map (fun sm => C03.Model.masked_select (fst sm) (snd sm)) (C03.Model.oc_cells c N ref hyp)))
      with (List.concat (C03.ProofsTop.sel_rows c N ref hyp)).
    rewrite C03.ProofsTop.oc_flat. fold K. rewrite width_model.
    assert (Eflat : List.concat (map (C03.ProofsTop.padrow c N ref hyp) (C03.ProofsTop.sel_rows c N ref hyp))
                    = tab3 K N (widthf R' N K rf mk) (outf R' N K rf mk (C01.Model.c_pad c))).
    { rewrite cells_model. rewrite <- (out_cells R' N K rf mk (C01.Model.c_pad c) HK HN').
      f_equal. apply map_ext. intros L. unfold C03.ProofsTop.padrow, padcell. now rewrite width_model. }
    rewrite Eflat, unflatten_tab3. destruct bf; [apply transpose01_nest3|reflexivity].
  Qed.

  Lemma result_model : oc_result bf R' N K rf mk (outf R' N K rf mk (C01.Model.c_pad c)) = enc_i model_oc_tensor.
  Proof.
    unfold oc_result, model_oc_tensor. rewrite opt_as_nest, width_model. destruct bf; now rewrite concat_nest3.
  Qed.

  (* row (k, n) of the returned tensor, read off its flat data, is the model's entry *)
  Lemma flat_row_entry k n : (k < K)%nat -> (n < N)%nat ->
    let W := C03.Model.oc_width c N ref hyp in
    firstn W (skipn ((if bf then n * K + k else k * N + n) * W) (dat model_oc_tensor))
    = C03.ProofsTop.entry3 bf k n (C03.Model.optimal_completion c N ref hyp).
  Proof.
    intros Hk Hn W. unfold model_oc_tensor, W. cbn [dat]. rewrite opt_as_nest, width_model. unfold C03.ProofsTop.entry3.
    destruct bf; rewrite concat_nest3, chunk_tab3 by assumption; unfold nest3.
    - rewrite (nth_map_seq _ N n []) by exact Hn. now rewrite (nth_map_seq _ K k []) by exact Hk.
    - rewrite (nth_map_seq _ K k []) by exact Hk. now rewrite (nth_map_seq _ N n []) by exact Hn.
  Qed.
End Conn.

(* ---- the whole body --------------------------------------------------------------------------------------------------- *)

(* optimal_completion(ref, hyp, eos, include_eos, batch_first, ins_cost, del_cost, sub_cost, padding, exclude_last, warn) *)
Definition oc_params (s : positive) (c : C01.Model.cfg) (N : nat) (ref hyp : list (list Z)) (w : bool) : list (string * val) :=
  [("ref", enc_i (mat_tensor (C01.Model.c_bf c) N ref)); ("hyp", enc_i (mat_tensor (C01.Model.c_bf c) N hyp));
   ("eos", opt_int (C01.Model.c_eos c)); ("include_eos", VBool (C01.Model.c_incl c)); ("batch_first", VBool (C01.Model.c_bf c));
   ("ins_cost", VQ (qz s (C01.Model.c_ins c))); ("del_cost", VQ (qz s (C01.Model.c_del c))); ("sub_cost", VQ (qz s (C01.Model.c_sub c)));
   ("padding", VInt (C01.Model.c_pad c)); ("exclude_last", VBool (C01.Model.c_excl c)); ("warn", VBool w)] ++ globals01.

Definition run_oc (prog : stmt) (s : positive) (c : C01.Model.cfg) (N : nat) (ref hyp : list (list Z)) (w : bool) : outcome val :=
  Interp.run ext03_oc prog (oc_params s c N ref hyp w).

(* the blocks in sequence: the call, the post-processing, the scatter and return *)
Definition oc_blocks : stmt := SSeq oc_call (SSeq oc_post oc_fin).

Lemma oc_body_split : forall st, exec ext03_oc oc_body st = exec ext03_oc oc_blocks st.
Proof. intros st. unfold oc_blocks. rewrite !(xexec_flatten ext03_oc). f_equal. Qed.

(* the input space of the property: matrices are matrices, N > 0, a reference of positive width, H > 0 when there is an eos *)
Section Whole.
  Variables (s : positive) (c : C01.Model.cfg) (N R' H : nat) (ref hyp : list (list Z)) (w : bool).
  Hypothesis HN : (0 < N)%nat.
  Hypothesis Hr : wf_src (C01.Model.c_bf c) N (S R') ref.
  Hypothesis Hh : wf_src (C01.Model.c_bf c) N H hyp.
  Hypothesis Hnz : C01.Model.c_eos c <> None -> H <> 0%nat.

Theorem oc_blocks_is_model :
  exists st', run_oc oc_blocks s c N ref hyp w = Ok (enc_i (model_oc_tensor c N ref hyp)) st'.
Proof.
  destruct (mask_body_is_model s c N (S R') H ref hyp w HN ltac:(discriminate) Hr Hh Hnz) as [stm Hm].
  unfold run_mask_body, run_prog3, ext03 in Hm.
  unfold run_oc, Interp.run. match goal with |- context [exec ext03_oc _ ?st0] => set (st0' := st0) end.
  assert (K0 : known3 st0' (oc_params s c N ref hyp w)).
  { unfold st0', oc_params, globals01. cbn [known3 app]. repeat split; reflexivity. }
  unfold oc_params, globals01 in K0. open_known3 K0.
  assert (Hret : returns3 (enc_i (model_oc_tensor c N ref hyp)) (exec ext03_oc oc_blocks st0')).
  { unfold oc_blocks, oc_call.
    assign3x ltac:(ev3; unfold call_body3;
                   try match goal with |- match ?r with _ => _ end = _ =>
                     replace r with (Ok (enc_b (model_mask_tensor c N (S R') ref hyp)) stm) by (symmetry; exact Hm)
                   end; reflexivity).
    match goal with L : lookup "ref" (vars _) = Some _ |- _ => rewrite (C01.Tie.mat_tensor_in _ N (S R') ref HN Hr) in L end.
    pose (rf := at_src (C01.Model.c_bf c) ref). pose (Kr := C03.Model.oc_rows c N hyp).
    pose (mk := fun k i n => nth i (nth k (nth n (C03.Model.oc_masks c N ref hyp) []) []) false).
    assert (HK : Kr <> 0%nat) by (unfold Kr, C03.Model.oc_rows; lia). assert (HN' : N <> 0%nat) by lia.
    eapply xreturns_seq.
    - apply (post_run (C01.Model.c_bf c) R' N Kr rf mk (C01.Model.c_pad c)); [exact HK|exact HN'|].
      unfold oc_stage0, model_mask_tensor in *. close_known3.
    - intros st1 K1. rewrite <- (result_model c N R' H ref hyp HN Hr Hh).
      apply (fin_run (C01.Model.c_bf c) R' N Kr rf mk (C01.Model.c_pad c)); [|exact K1].
      now apply scatter_cells. }
  destruct Hret as [st' He]. rewrite He. now exists st'.
Qed.

Theorem oc_body_is_model :
  exists st', run_oc oc_body s c N ref hyp w = Ok (enc_i (model_oc_tensor c N ref hyp)) st'.
Proof.
  destruct oc_blocks_is_model as [st' He]. exists st'.
  unfold run_oc, Interp.run in *. now rewrite oc_body_split.
Qed.

(* ---- composed with the property theorem of the model: a statement purely about the interpreted source ---------------- *)
Theorem oc_source_rows_correct :
  (0 < C01.Model.c_ins c)%Z -> (0 < C01.Model.c_del c)%Z -> (0 < C01.Model.c_sub c)%Z ->
  exists (K W : nat) (data : list Z) st',
    run_oc oc_body s c N ref hyp w
      = Ok (enc_i (mkTn (if C01.Model.c_bf c then [N; K; W] else [K; N; W]) data)) st' /\
    K = S (H + (if C01.Model.c_excl c then 0 else 1) - 1) /\
    forall n k, (n < N)%nat ->
      let rseq := C01.Spec.denote (C01.Model.c_eos c) (C01.Model.c_incl c) (C01.Proofs.seq_of (C01.Model.c_bf c) n ref) in
      let hseq := C01.Spec.denote (C01.Model.c_eos c) (C01.Model.c_incl c) (C01.Proofs.seq_of (C01.Model.c_bf c) n hyp) in
      (k = 0 \/ k < List.length hseq + (if C01.Model.c_excl c then 0 else 1))%nat ->
      exists L,
        firstn W (skipn ((if C01.Model.c_bf c then n * K + k else k * N + n) * W) data)
          = (L ++ repeat (C01.Model.c_pad c) (W - List.length L))%list /\
        (List.length L <= W)%nat /\ Sorted.StronglySorted Z.lt L /\
        forall t, List.In t L <->
          C03.Spec.preserving (C01.Model.c_ins c) (C01.Model.c_del c) (C01.Model.c_sub c) rseq (firstn k hseq) t.
Proof.
  intros Hi Hd Hs. destruct oc_body_is_model as [st' He].
  pose proof (C01.Tie.wf_src_model _ _ _ _ Hr) as Hwr. pose proof (C01.Tie.wf_src_model _ _ _ _ Hh) as Hwh.
  pose proof (time_len_src _ N H hyp HN Hh) as HT. pose proof (oc_rows_src c N H ref hyp HN Hh) as Hrows.
  exists (C03.Model.oc_rows c N hyp), (C03.Model.oc_width c N ref hyp), (dat (model_oc_tensor c N ref hyp)), st'.
  split; [exact He|]. split; [exact Hrows|].
  intros n k Hn rseq hseq Hk.
  assert (Hlen : (List.length hseq <= H)%nat).
  { unfold hseq. rewrite C01.Proofs.length_denote. rewrite <- HT, <- (C01.Proofs.seq_of_length _ N hyp n Hn Hwh).
    apply C01.Proofs.eff_len_le. }
  assert (HkK : (k < C03.Model.oc_rows c N hyp)%nat) by (rewrite Hrows; destruct Hk; lia).
  rewrite (flat_row_entry c N R' H ref hyp HN Hr Hh k n HkK Hn).
  exact (C03.ProofsMain.oc_row_correct c N ref hyp n Hn Hwr Hwh k Hi Hd Hs Hk).
Qed.
End Whole.

(* the executable of the harness is this run *)
Corollary src_oc_is_model :
  forall (c : C01.Model.cfg) (scale : Z) (N R' H : nat) (ref hyp : list (list Z)),
  (0 < N)%nat -> wf_src (C01.Model.c_bf c) N (S R') ref -> wf_src (C01.Model.c_bf c) N H hyp ->
  (C01.Model.c_eos c <> None -> H <> 0%nat) ->
  src_oc oc_body c scale N ref hyp = Some (Some (model_oc_tensor c N ref hyp)).
Proof.
  intros c scale N R' H ref hyp HN Hr Hh Hnz.
  destruct (oc_body_is_model (Z.to_pos scale) c N R' H ref hyp false HN Hr Hh Hnz) as [st' He].
  unfold src_oc, oc_vars, cost_q. unfold run_oc, oc_params, qz in He. rewrite He, dec01_enc_i. reflexivity.
Qed.

