(* C03, second tie - the source tie of `hard_optimal_completion_distillation_loss` (src/pydrobert/torch/_string.py), whole body:
   the argument checks (TieBChecks), the call of `optimal_completion` (= the interpretation of PV.Gen.C03Src.oc_body, the FIRST
   tie's theorem TieOcWhole.oc_body_is_model, with exclude_last = True and padding = ignore_index), the cross entropy and the
   division by the clamped number of targets (TieB.ce_run), the reductions (TieB.red_none .. red_bad), and the identification of the closed
   forms with PV.C03.Model.hard_ocd_loss (TieBModel): the interpreted PV.Gen.C03BSrc.loss_body returns the float tensor of
   Model.hard_ocd_loss on the oracle's log-probabilities - every batch, widths, tokens, eos / include_eos / batch_first setting,
   costs c / s, weight, ignore_index, reduction, logits, and EVERY log-softmax oracle. *)
From Coq Require Import ZArith QArith List String Bool Arith Lia ZifyBool ZifyNat.
From PV Require Import MiniPy.Syntax MiniPy.Interp MiniPy.Lemmas MiniTorch.Ops MiniTorch.Lemmas MiniTorch.OpsC07 MiniTorch.LemmasC07
  MiniTorch.OpsC01 MiniTorch.LemmasC01 MiniTorch.OpsC03 MiniTorch.LemmasC03 MiniTorch.OpsC03B MiniTorch.LemmasC03B.
From PV Require Import Gen.C03Src Gen.C03BSrc C01.SrcRun C01.TieLib C03.SrcRun C03.TieLib C03.TieOcLib C03.TieOcModel C03.TieOcWhole
  C03.SrcRunB C03.TieBLib C03.TieB C03.TieBChecks C03.TieBModel.
From PV Require C01.Obs C01.Spec C01.Model C01.Proofs C01.TieLoop C01.TiePre C01.Tie C03.Spec C03.Model C03.ProofsTop C03.ProofsMain C03.ProofsLoss.
Import ListNotations.
Local Open Scope string_scope.

Notation wf_src := C01.Tie.wf_src.
Notation at_src := C01.Tie.at_src.

(* ---- loss_ce; loss_red on tabulated tensors = Model.hard_ocd_loss as a function of the targets ------------------------------- *)
Section Core.
  Variable lsm : list fx -> list Q.
  Variables (A B C V : nat) (lgv : nat -> nat -> list fx) (tf : nat -> nat -> nat -> Z) (w : option (list Q)) (ign : Z).
  Hypothesis Hlg : forall a b, (a < A)%nat -> (b < B)%nat -> List.length (lgv a b) = V.
  Hypothesis Hw : match w with Some wv => List.length wv = V | None => True end.
  Hypothesis Hok : forall a b c, (a < A)%nat -> (b < B)%nat -> (c < C)%nat -> class_ok ign V (tf a b c) = true.
  Hypothesis HA : (0 < A)%nat.
  Hypothesis HB : (0 < B)%nat.

  Lemma core_run : forall (bf : bool) (red : C03.Model.reduction) st,
    known3 st (ce_stage0 A B C V (lfn lgv) tf w ign (VBool bf) (VStr (red_str red))) ->
    returns3 (enc_x (loss_tensor [A; B] (loss_of ign w red bf (if bf then A else B)
                                           (nest2 A B (fun a b => lsm (lgv a b))) (nest2 A B (orow C tf)))))
             (exec (ext03B lsm) (SSeq loss_ce loss_red) st).
  Proof.
    intros bf red st K0.
    eapply xreturns_seq; [exact (ce_run lsm A B C V (lfn lgv) tf w ign (VBool bf) (VStr (red_str red)) Hw Hok st K0)|].
    intros st1 K1. unfold ce_stage1 in K1.
    destruct red; cbn [red_str] in *.
    - rewrite <- (result_none lsm A B C V lgv tf w ign Hlg Hw Hok). apply (red_none lsm A B C _ (pmf tf ign) bf). exact K1.
    - rewrite <- (result_sum lsm A B C V lgv tf w ign Hlg Hw Hok). apply (red_sum lsm A B C _ (pmf tf ign) bf). exact K1.
    - destruct bf.
      + rewrite <- (result_mean_bf lsm A B C V lgv tf w ign Hlg Hw Hok A HA). apply (red_mean_bf lsm A B C _ (pmf tf ign)). exact K1.
      + rewrite <- (result_mean_tf lsm A B C V lgv tf w ign Hlg Hw Hok HB). apply (red_mean_tf lsm A B C _ (pmf tf ign)). exact K1.
  Qed.
End Core.

(* ---- the arguments ------------------------------------------------------------------------------------------------------------- *)
(* logits as handed over: nested lists in hyp's layout plus the class axis *)
Definition wf_logits (bf : bool) (N H V : nat) (lg : list (list (list fx))) : Prop :=
  List.length lg = (if bf then N else H) /\
  forall row, List.In row lg -> List.length row = (if bf then H else N) /\ forall v, List.In v row -> List.length v = V.

Definition lgv_of (lg : list (list (list fx))) (a b : nat) : list fx := nth b (nth a lg []) [].

Lemma concat_concat_rect : forall (lg : list (list (list fx))) A B V,
  List.length lg = A -> (forall row, List.In row lg -> List.length row = B /\ forall v, List.In v row -> List.length v = V) ->
  List.concat (List.concat lg) = tab3 A B V (lfn (lgv_of lg)).
Proof.
  intros lg A B V HA HB. unfold tab3.
  rewrite (list_as_map_nth lg A [] HA) at 1. rewrite <- flat_map_concat_map, concat_flat_map.
  apply flat_map_ext_seq. intros a Ha.
  assert (Hin : List.In (nth a lg []) lg) by (apply nth_In; lia).
  destruct (HB _ Hin) as [HBr HV].
  rewrite (list_as_map_nth (nth a lg []) B [] HBr) at 1. rewrite <- flat_map_concat_map.
  apply flat_map_ext_seq. intros b Hb. unfold lfn, lgv_of.
  apply list_as_map_nth. apply HV. apply nth_In. lia.
Qed.

Lemma lgv_length : forall lg A B V,
  List.length lg = A -> (forall row, List.In row lg -> List.length row = B /\ forall v, List.In v row -> List.length v = V) ->
  forall a b, (a < A)%nat -> (b < B)%nat -> List.length (lgv_of lg a b) = V.
Proof.
  intros lg A B V HA HB a b Ha Hb. unfold lgv_of.
  assert (Hin : List.In (nth a lg []) lg) by (apply nth_In; lia).
  destruct (HB _ Hin) as [HBr HV]. apply HV. apply nth_In. lia.
Qed.

Lemma logp_nest2 : forall (lsm : list fx -> list Q) lg A B V,
  List.length lg = A -> (forall row, List.In row lg -> List.length row = B /\ forall v, List.In v row -> List.length v = V) ->
  map (map lsm) lg = nest2 A B (fun a b => lsm (lgv_of lg a b)).
Proof.
  intros lsm lg A B V HA HB. unfold nest2, lgv_of.
  rewrite (list_as_map_nth lg A [] HA) at 1. rewrite map_map. apply map_ext_seq. intros a Ha.
  assert (Hin : List.In (nth a lg []) lg) by (apply nth_In; lia).
  destruct (HB _ Hin) as [HBr _].
  rewrite (list_as_map_nth (nth a lg []) B [] HBr) at 1. now rewrite map_map.
Qed.

Lemma logits_tensor_tab : forall bf N H V lg, (0 < N)%nat -> wf_logits bf N H V lg ->
  logits_tensor bf N V lg =
  mkTn [if bf then N else H; if bf then H else N; V] (tab3 (if bf then N else H) (if bf then H else N) V (lfn (lgv_of lg))).
Proof.
  intros bf N H V lg HN [HL HR]. unfold logits_tensor. rewrite (concat_concat_rect lg _ _ V HL HR).
  destruct bf; [|now rewrite HL].
  assert (Hhd : List.length (hd [] lg) = H).
  { destruct lg as [|row lg]; [cbn [List.length] in HL; lia|]. apply (HR row). now left. }
  now rewrite Hhd.
Qed.

(* hard_optimal_completion_distillation_loss(logits, ref, hyp, eos, include_eos, batch_first, ins_cost, del_cost, sub_cost, weight,
   reduction, ignore_index, warn); exclude_last of [c] is not an argument (the function forces it) *)
Definition loss_params (s : positive) (c : C01.Model.cfg) (w : option (list Q)) (red : string) (N V : nat)
  (ref hyp : list (list Z)) (lg : list (list (list fx))) (warn : bool) : list (string * val) :=
  loss_vars_gen (enc_x (logits_tensor (C01.Model.c_bf c) N V lg))
    (enc_i (mat_tensor (C01.Model.c_bf c) N ref)) (enc_i (mat_tensor (C01.Model.c_bf c) N hyp))
    (opt_int (C01.Model.c_eos c)) (VBool (C01.Model.c_incl c)) (VBool (C01.Model.c_bf c))
    (VQ (qz s (C01.Model.c_ins c))) (VQ (qz s (C01.Model.c_del c))) (VQ (qz s (C01.Model.c_sub c)))
    (weight_val w) (VStr red) (VInt (C01.Model.c_pad c)) (VBool warn).

Definition run_loss (lsm : list fx -> list Q) (prog : stmt) (s : positive) (c : C01.Model.cfg) (w : option (list Q)) (red : string)
  (N V : nat) (ref hyp : list (list Z)) (lg : list (list (list fx))) (warn : bool) : outcome val :=
  Interp.run (ext03B lsm) prog (loss_params s c w red N V ref hyp lg warn).

(* the guards of the function: a counted eos is a class index other than ignore_index *)
Definition eos_ok (c : C01.Model.cfg) (V : nat) : Prop :=
  C01.Model.c_incl c = true -> forall e, C01.Model.c_eos c = Some e -> (0 <= e < Z.of_nat V)%Z /\ e <> C01.Model.c_pad c.

Definition weight_ok (w : option (list Q)) (V : nat) : Prop :=
  match w with Some wv => List.length wv = V | None => True end.

(* every target the model lists is ignore_index or a class index (torch's cross_entropy raises IndexError otherwise) *)
Definition targets_ok (c : C01.Model.cfg) (N V : nat) (ref hyp : list (list Z)) : Prop :=
  forall t, List.In t (dat (model_oc_tensor (C03.ProofsLoss.with_excl c) N ref hyp)) -> class_ok (C01.Model.c_pad c) V t = true.

Definition grid_shape (bf : bool) (N H : nat) : list nat := if bf then [N; H] else [H; N].


Lemma idx2_lt : forall a b A B, (a < A)%nat -> (b < B)%nat -> (a * B + b < A * B)%nat.
Proof. intros a b A B Ha Hb. assert (H1 : (S a * B <= A * B)%nat) by (apply Nat.mul_le_mono_r; lia). cbn [Nat.mul] in H1. lia. Qed.

Lemma idx3_lt : forall A B C a b c, (a < A)%nat -> (b < B)%nat -> (c < C)%nat -> ((a * B + b) * C + c < A * (B * C))%nat.
Proof. intros A B C a b c Ha Hb Hc. rewrite Nat.mul_assoc. apply idx2_lt; [now apply idx2_lt|exact Hc]. Qed.

Lemma orows_nest3 : forall A B C f, nest3 A B C f = nest2 A B (orow C f).
Proof. reflexivity. Qed.

Lemma oc_rows_excl : forall c N H (ref hyp : list (list Z)), (0 < N)%nat -> wf_src (C01.Model.c_bf c) N H hyp -> H <> 0%nat ->
  C03.Model.oc_rows (C03.ProofsLoss.with_excl c) N hyp = H.
Proof.
  intros c N H ref hyp HN Hh HH. rewrite (C03.Tie.oc_rows_src (C03.ProofsLoss.with_excl c) N H ref hyp HN Hh).
  cbn [C01.Model.c_excl C03.ProofsLoss.with_excl]. lia.
Qed.

(* ---- the whole body ---------------------------------------------------------------------------------------------------------- *)
Lemma loss_body_split : forall lsm st, exec (ext03B lsm) loss_body st = exec (ext03B lsm) loss_blocks st.
Proof. intros lsm st. unfold loss_blocks. rewrite !(xexec_flatten (ext03B lsm)). f_equal. Qed.

(* the arguments of the call, as the checks read them *)
Lemma checks_known : forall s c w red N H V ref hyp lg warn st,
  (0 < N)%nat -> wf_src (C01.Model.c_bf c) N H hyp -> wf_logits (C01.Model.c_bf c) N H V lg ->
  known3 st (loss_params s c w red N V ref hyp lg warn) ->
  exists A B dl dh, known3 st (checks_stage A B V dl dh (C01.Model.c_incl c) (C01.Model.c_eos c) (C01.Model.c_pad c)).
Proof.
  intros s c w red N H V ref hyp lg warn st HN Hh Hlg K0. unfold loss_params, loss_vars_gen, globals01 in K0. open_known3 K0.
  match goal with Kl : lookup "logits" (vars _) = Some _, Kh : lookup "hyp" (vars _) = Some _ |- _ =>
    rewrite (logits_tensor_tab _ N H V lg HN Hlg) in Kl; rewrite (C01.Tie.mat_tensor_in _ N H hyp HN Hh) in Kh;
    unfold C01.TiePre.in_tensor in Kh end.
  destruct (C01.Model.c_bf c); do 4 eexists; unfold checks_stage; cbn [known3 app]; repeat split; eassumption.
Qed.

(* the checks and the call leave what loss_ce / loss_red read: the logits and the model's targets as tables, in the layout
   (A, B) = (N, H) when batch_first, else (H, N) *)
Lemma pre_run :
  forall (lsm : list fx -> list Q) (s : positive) (c : C01.Model.cfg) (w : option (list Q)) (red : string)
         (N R' H V : nat) (ref hyp : list (list Z)) (lg : list (list (list fx))) (warn : bool),
  (0 < N)%nat -> wf_src (C01.Model.c_bf c) N (S R') ref -> wf_src (C01.Model.c_bf c) N H hyp -> H <> 0%nat ->
  wf_logits (C01.Model.c_bf c) N H V lg -> eos_ok c V -> targets_ok c N V ref hyp ->
  exists C tf,
    C03.Model.optimal_completion (C03.ProofsLoss.with_excl c) N ref hyp
      = nest2 (if C01.Model.c_bf c then N else H) (if C01.Model.c_bf c then H else N) (orow C tf) /\
    (forall a b k, (a < if C01.Model.c_bf c then N else H)%nat -> (b < if C01.Model.c_bf c then H else N)%nat -> (k < C)%nat ->
                   class_ok (C01.Model.c_pad c) V (tf a b k) = true) /\
    forall st0, known3 st0 (loss_params s c w red N V ref hyp lg warn) ->
      runs_to (fun st => known3 st (ce_stage0 (if C01.Model.c_bf c then N else H) (if C01.Model.c_bf c then H else N) C V
                                      (lfn (lgv_of lg)) tf w (C01.Model.c_pad c) (VBool (C01.Model.c_bf c)) (VStr red)))
              (exec (ext03B lsm) (SSeq loss_checks loss_call) st0).
Proof.
  intros lsm s c w red N R' H V ref hyp lg warn HN Hr Hh HH Hlg Heos Htg.
  destruct c as [eos incl nrm bf ci cd cs pad excl]. unfold eos_ok in Heos.
  cbn [C01.Model.c_eos C01.Model.c_incl C01.Model.c_norm C01.Model.c_bf C01.Model.c_ins C01.Model.c_del C01.Model.c_sub C01.Model.c_pad
       C01.Model.c_excl] in *.
  set (c0 := C01.Model.mkCfg eos incl nrm bf ci cd cs pad excl) in *.
  pose (c' := C01.Model.mkCfg eos incl nrm bf ci cd cs pad true).
  destruct (oc_body_is_model s c' N R' H ref hyp warn HN Hr Hh (fun _ => HH)) as [stm Hm].
  unfold run_oc, oc_params in Hm.
  pose proof (opt_as_nest c' N R' H ref hyp HN Hr Hh) as Hnest.
  pose proof (oc_rows_excl c0 N H ref hyp HN Hh HH) as Hrows. change (C03.ProofsLoss.with_excl c0) with c' in Hrows.
  rewrite Hrows in Hnest.
  unfold targets_ok in Htg. change (C03.ProofsLoss.with_excl c0) with c' in Htg. unfold model_oc_tensor in Htg. cbn [dat] in Htg.
  change (C03.ProofsLoss.with_excl c0) with c'.
  cbn [C01.Model.c_bf C01.Model.c_pad c' c0] in *.
  pose proof (logits_tensor_tab _ N H V lg HN Hlg) as Hlt.
  pose proof (width_model c' N R' ref hyp HN Hr) as Hwd. rewrite Hrows in Hwd. cbn [C01.Model.c_bf c'] in Hwd.
  assert (Hrun : forall A B C tf, (A = if bf then N else H) -> (B = if bf then H else N) ->
            mkTn (if bf then [N; H; C03.Model.oc_width c' N ref hyp] else [H; N; C03.Model.oc_width c' N ref hyp])
                 (List.concat (List.concat (C03.Model.optimal_completion c' N ref hyp))) = mkTn [A; B; C] (tab3 A B C tf) ->
            forall st0, known3 st0 (loss_params s c0 w red N V ref hyp lg warn) ->
            runs_to (fun st => known3 st (ce_stage0 A B C V (lfn (lgv_of lg)) tf w pad (VBool bf) (VStr red)))
                    (exec (ext03B lsm) (SSeq loss_checks loss_call) st0)).
  { intros A B C tf EA EB Eoc st0 K0.
    rewrite (exec_seq_ok (ext03B lsm) loss_checks _ _ st0).
    2:{ destruct (checks_known s c0 w red N H V ref hyp lg warn st0 HN Hh Hlg K0) as [A' [B' [dl [dh K]]]].
        exact (checks_pass lsm A' B' V dl dh incl eos pad st0 K Heos). }
    unfold loss_params, loss_vars_gen, globals01 in K0.
    cbn [C01.Model.c_eos C01.Model.c_incl C01.Model.c_norm C01.Model.c_bf C01.Model.c_ins C01.Model.c_del C01.Model.c_sub C01.Model.c_pad c0] in K0.
    open_known3 K0.
    unfold loss_call.
    assign3x ltac:(ev3; unfold call_body_oc;
                   try match goal with |- match ?r with _ => _ end = _ =>
                     replace r with (Ok (enc_i (model_oc_tensor c' N ref hyp)) stm) by (symmetry; exact Hm)
                   end; reflexivity).
    match goal with Kl : lookup "logits" (vars _) = Some _ |- _ => rewrite Hlt in Kl end.
    match goal with Lo : lookup "optimals" (vars _) = Some _ |- _ =>
      unfold model_oc_tensor in Lo; rewrite Hrows in Lo; cbn [C01.Model.c_bf c'] in Lo; rewrite Eoc in Lo end.
    apply runs_to_ok. unfold ce_stage0. subst A B. close_known3. }
  destruct bf; rewrite Hnest in Htg; rewrite concat_nest3 in Htg;
    match type of Hnest with _ = nest3 _ _ ?C ?f => set (Cw := C) in *; set (tfw := f) in *; exists Cw, tfw end;
    (split; [rewrite Hnest; apply orows_nest3|]; split;
     [ intros a b k Ha Hb Hk; apply Htg; rewrite <- (nth_tab3 _ _ Cw tfw a b k 0%Z Ha Hb Hk);
       apply nth_In; rewrite length_tab3; now apply idx3_lt
     | apply Hrun; try reflexivity; rewrite Hwd, Hnest, concat_nest3; reflexivity ]).
Qed.

Lemma blocks_assoc : forall ext a b c d st, exec ext (SSeq a (SSeq b (SSeq c d))) st = exec ext (SSeq (SSeq a b) (SSeq c d)) st.
Proof. intros. now rewrite <- exec_seq_assoc. Qed.

Section Whole.
  Variables (lsm : list fx -> list Q) (s : positive) (c : C01.Model.cfg) (w : option (list Q)) (red : C03.Model.reduction)
            (N R' H V : nat) (ref hyp : list (list Z)) (lg : list (list (list fx))) (warn : bool).
  Hypothesis HN : (0 < N)%nat.
  Hypothesis Hr : wf_src (C01.Model.c_bf c) N (S R') ref.
  Hypothesis Hh : wf_src (C01.Model.c_bf c) N H hyp.
  Hypothesis HH : H <> 0%nat.
  Hypothesis Hlg : wf_logits (C01.Model.c_bf c) N H V lg.
  Hypothesis HW : weight_ok w V.
  Hypothesis Heos : eos_ok c V.
  Hypothesis Htg : targets_ok c N V ref hyp.

Theorem loss_blocks_is_model :
  exists st', run_loss lsm loss_blocks s c w (red_str red) N V ref hyp lg warn
              = Ok (enc_x (loss_tensor (grid_shape (C01.Model.c_bf c) N H)
                             (C03.Model.hard_ocd_loss c w red N ref hyp (map (map lsm) lg)))) st'.
Proof.
  destruct (pre_run lsm s c w (red_str red) N R' H V ref hyp lg warn HN Hr Hh HH Hlg Heos Htg) as [C [tf [Hoc [Hok Hpre]]]].
  rewrite hard_ocd_loss_of, Hoc. destruct Hlg as [HL HR].
  rewrite (logp_nest2 lsm lg _ _ V HL HR).
  unfold run_loss, Interp.run. match goal with |- context [exec (ext03B lsm) _ ?st0] => set (st0' := st0) end.
  assert (K0 : known3 st0' (loss_params s c w (red_str red) N V ref hyp lg warn)).
  { unfold st0', loss_params, loss_vars_gen, globals01. cbn [known3 app]. repeat split; reflexivity. }
  assert (Hret : returns3 (enc_x (loss_tensor (grid_shape (C01.Model.c_bf c) N H)
                    (loss_of (C01.Model.c_pad c) w red (C01.Model.c_bf c) N
                       (nest2 (if C01.Model.c_bf c then N else H) (if C01.Model.c_bf c then H else N) (fun a b => lsm (lgv_of lg a b)))
                       (nest2 (if C01.Model.c_bf c then N else H) (if C01.Model.c_bf c then H else N) (orow C tf)))))
                          (exec (ext03B lsm) loss_blocks st0')).
  { unfold loss_blocks. rewrite blocks_assoc. eapply xreturns_seq; [exact (Hpre st0' K0)|].
    intros st1 K1. unfold grid_shape.
    pose proof (lgv_length lg _ _ V HL HR) as Hlv.
    destruct (C01.Model.c_bf c).
    - change N with (if true then N else H) at 3.
      apply (core_run lsm N H C V (lgv_of lg) tf w _ Hlv HW Hok); try lia. exact K1.
    - change N with (if false then H else N) at 3.
      apply (core_run lsm H N C V (lgv_of lg) tf w _ Hlv HW Hok); try lia. exact K1. }
  destruct Hret as [st' He]. rewrite He. now exists st'.
Qed.

Theorem loss_body_is_model :
  exists st', run_loss lsm loss_body s c w (red_str red) N V ref hyp lg warn
              = Ok (enc_x (loss_tensor (grid_shape (C01.Model.c_bf c) N H)
                             (C03.Model.hard_ocd_loss c w red N ref hyp (map (map lsm) lg)))) st'.
Proof.
  destruct loss_blocks_is_model as [st' He]. exists st'.
  unfold run_loss, Interp.run in *. now rewrite loss_body_split.
Qed.
End Whole.

(* an unknown reduction string: everything is computed, then RuntimeError *)
Theorem loss_raises_bad_reduction :
  forall (lsm : list fx -> list Q) (s : positive) (c : C01.Model.cfg) (w : option (list Q)) (red : string)
         (N R' H V : nat) (ref hyp : list (list Z)) (lg : list (list (list fx))) (warn : bool),
  (0 < N)%nat -> wf_src (C01.Model.c_bf c) N (S R') ref -> wf_src (C01.Model.c_bf c) N H hyp -> H <> 0%nat ->
  wf_logits (C01.Model.c_bf c) N H V lg -> weight_ok w V -> eos_ok c V -> targets_ok c N V ref hyp ->
  red <> "mean" -> red <> "sum" -> red <> "none" ->
  exists st', run_loss lsm loss_body s c w red N V ref hyp lg warn = Exc "RuntimeError" st'.
Proof.
  intros lsm s c w red N R' H V ref hyp lg warn HN Hr Hh HH Hlg HW Heos Htg N1 N2 N3.
  destruct (pre_run lsm s c w red N R' H V ref hyp lg warn HN Hr Hh HH Hlg Heos Htg) as [C [tf [Hoc [Hok Hpre]]]].
  unfold run_loss, Interp.run. rewrite loss_body_split.
  match goal with |- context [exec (ext03B lsm) _ ?st0] => set (st0' := st0) end.
  assert (K0 : known3 st0' (loss_params s c w red N V ref hyp lg warn)).
  { unfold st0', loss_params, loss_vars_gen, globals01. cbn [known3 app]. repeat split; reflexivity. }
  unfold loss_blocks. rewrite blocks_assoc.
  destruct (Hpre st0' K0) as [st1 [E1 K1]]. rewrite (exec_seq_ok _ _ _ _ _ E1).
  assert (HW' : match w with Some wv => List.length wv = V | None => True end) by exact HW.
  destruct (ce_run lsm _ _ C V (lfn (lgv_of lg)) tf w (C01.Model.c_pad c) (VBool (C01.Model.c_bf c)) (VStr red) HW' Hok st1 K1) as [st2 [E2 K2]].
  rewrite (exec_seq_ok _ _ _ _ _ E2).
  unfold ce_stage1 in K2.
  edestruct (red_bad lsm) as [st3 E3];
    [apply String.eqb_neq; exact N1|apply String.eqb_neq; exact N2|apply String.eqb_neq; exact N3|unfold red_stage; exact K2|].
  rewrite E3. now exists st3.
Qed.


(* the executable of the harness is this run (for the oracle it is given) *)
Corollary src_loss_is_model :
  forall (lsm : list fx -> list Q) (c : C01.Model.cfg) (w : option (list Q)) (red : C03.Model.reduction) (scale : Z)
         (N R' H V : nat) (ref hyp : list (list Z)) (lg : list (list (list fx))),
  (0 < N)%nat -> wf_src (C01.Model.c_bf c) N (S R') ref -> wf_src (C01.Model.c_bf c) N H hyp -> H <> 0%nat ->
  wf_logits (C01.Model.c_bf c) N H V lg -> weight_ok w V -> eos_ok c V -> targets_ok c N V ref hyp ->
  src_loss lsm loss_body c w (red_str red) scale N V ref hyp lg
  = Some (Some (loss_tensor (grid_shape (C01.Model.c_bf c) N H) (C03.Model.hard_ocd_loss c w red N ref hyp (map (map lsm) lg)))).
Proof.
  intros lsm c w red scale N R' H V ref hyp lg HN Hr Hh HH Hlg HW Heos Htg.
  destruct (loss_body_is_model lsm (Z.to_pos scale) c w red N R' H V ref hyp lg false HN Hr Hh HH Hlg HW Heos Htg) as [st' He].
  unfold src_loss, loss_vars, cost_q. unfold run_loss, loss_params, qz in He. rewrite He, dec01_enc_x. reflexivity.
Qed.

(* ---- the raise paths of the function's own guards --------------------------------------------------------------------------- *)
Section Raises.
  Variable lsm : list fx -> list Q.
  Variables (s : positive) (c : C01.Model.cfg) (w : option (list Q)) (red : string) (N H V : nat)
            (ref hyp : list (list Z)) (lg : list (list (list fx))) (warn : bool).
  Hypothesis HN : (0 < N)%nat.
  Hypothesis Hh : wf_src (C01.Model.c_bf c) N H hyp.
  Hypothesis Hlg : wf_logits (C01.Model.c_bf c) N H V lg.

  (* what the guards raise on the stage of the checks, the whole body raises *)
  Lemma checks_raise_body :
    (forall A B dl dh st, known3 st (checks_stage A B V dl dh (C01.Model.c_incl c) (C01.Model.c_eos c) (C01.Model.c_pad c)) ->
                          exec (ext03B lsm) loss_checks st = Exc "RuntimeError" st) ->
    exists st', run_loss lsm loss_body s c w red N V ref hyp lg warn = Exc "RuntimeError" st'.
  Proof.
    intros Hraise. unfold run_loss, Interp.run. rewrite loss_body_split.
    match goal with |- context [exec (ext03B lsm) _ ?st0] => set (st0' := st0) end.
    destruct (checks_known s c w red N H V ref hyp lg warn st0' HN Hh Hlg) as [A [B [dl [dh K]]]].
    { unfold st0', loss_params, loss_vars_gen, globals01. cbn [known3 app]. repeat split; reflexivity. }
    unfold loss_blocks. rewrite (exec_seq_exc _ _ _ _ _ _ (Hraise A B dl dh st0' K)). now exists st0'.
  Qed.

  (* include_eos with an eos that is not a class index: "If include_eos=True, eos must be a class idx" *)
  Theorem loss_raises_eos_not_a_class : forall e, C01.Model.c_incl c = true -> C01.Model.c_eos c = Some e ->
    (e < 0 \/ Z.of_nat V <= e)%Z ->
    exists st', run_loss lsm loss_body s c w red N V ref hyp lg warn = Exc "RuntimeError" st'.
  Proof.
    intros e Hi He Hb. apply checks_raise_body. rewrite Hi, He. intros A B dl dh st K.
    exact (checks_raise_class lsm A B V dl dh _ st e K Hb).
  Qed.

  (* include_eos with eos = ignore_index: "If include_eos=True, eos cannot equal ignore_index" *)
  Theorem loss_raises_eos_is_ignore_index : forall e, C01.Model.c_incl c = true -> C01.Model.c_eos c = Some e ->
    (0 <= e < Z.of_nat V)%Z -> e = C01.Model.c_pad c ->
    exists st', run_loss lsm loss_body s c w red N V ref hyp lg warn = Exc "RuntimeError" st'.
  Proof.
    intros e Hi He Hr Hb. apply checks_raise_body. rewrite Hi, He. intros A B dl dh st K.
    exact (checks_raise_ign lsm A B V dl dh _ st e K Hr Hb).
  Qed.
End Raises.
