(* C03 - the `for hyp_idx` loop of the mask path: iteration of TieLoop.body_run3 over range(1, H + (0 if exclude_last else 1)),
   for any loop body with the property of body_run3 (sm3_loop's, and the one inside sm3_body). *)
From Coq Require Import ZArith QArith List String Bool Arith Lia ZifyBool ZifyNat.
From PV Require Import MiniPy.Syntax MiniPy.Interp MiniPy.Lemmas MiniTorch.Ops MiniTorch.Lemmas MiniTorch.OpsC07 MiniTorch.LemmasC07
  MiniTorch.OpsC01 MiniTorch.LemmasC01 MiniTorch.OpsC03 MiniTorch.LemmasC03.
From PV Require Import Gen.C03Src C01.SrcRun C01.TieLib C01.TieMath C03.SrcRun C03.TieLib C03.TieMath C03.TieLoop.
From PV Require C01.Model C01.Proofs C01.TieLoop C03.Model.
Import ListNotations.
Local Open Scope string_scope.

Notation colf := C01.TieLoop.colf.

Lemma Forall2_map_seq {A} (P : A -> A -> Prop) (f g : nat -> A) a m :
  (forall j, (j < m)%nat -> P (f (a + j)%nat) (g (a + j)%nat)) -> Forall2 P (map f (seq a m)) (map g (seq a m)).
Proof.
  revert a. induction m as [|m IH]; intros a Hfg; [constructor|].
  rewrite <- cons_seq. cbn [map]. constructor.
  - specialize (Hfg 0%nat ltac:(lia)). now rewrite Nat.add_0_r in Hfg.
  - apply IH. intros j Hj. specialize (Hfg (S j) ltac:(lia)). now replace (S a + j)%nat with (a + S j)%nat by lia.
Qed.

Section Iter.
  Variables (s : positive) (ci cd cs : Z) (R N H : nat) (rf hf : nat -> nat -> Z) (rl hl : nat -> nat) (excl : bool).

  Notation pre := (body_pre3 s ci cd cs R N H rf hf rl hl excl).
  Notation mrow_col := (mrow_col ci cd cs R H rf hf rl hl excl).
  Notation mbits_col := (mbits_col ci cd cs R H rf hf rl hl excl).

  (* ---- the loop: range(1, H + (0 if exclude_last else 1)) ------------------------------------------------------ *)
  Definition iter_col3 (m a : nat) (lf : nat -> nat -> option Z) (n : nat) : list (option Z) :=
    iter_mrow ci cd cs (colf R rf n) (colf H hf n) (rl n) (hl n) excl m (S a) (colo (S R) lf n).

  (* the mask rows appended by m iterations starting after hyp_idx = a *)
  Definition loop_masks3 (m a : nat) (lf : nat -> nat -> option Z) : list (nat -> nat -> bool) :=
    map (fun j i n =>
           nth i (nth j (C03.Model.masks_loop ci cd cs (colf R rf n) (colf H hf n) (rl n) (hl n) excl m (S a)
                           (colo (S R) lf n)) []) false) (seq 0 m).

  Lemma mrow_col_length k lf n : List.length (mrow_col k lf n) = S R.
  Proof.
    unfold TieLoop.mrow_col, C01.TieLoop.colf, colo.
    exact (mrow_length ci cd cs R H (fun j => rf j n) (fun t => hf t n) (fun i => lf i n) (rl n) (hl n) k excl).
  Qed.

  Lemma colo_mrow_col k lf n : (1 <= k <= H)%nat -> colo (S R) (fun i n0 => nth i (mrow_col k lf n0) None) n = mrow_col k lf n.
  Proof.
    intros Hk. unfold colo. transitivity (map (fun i => nth i (mrow_col k lf n) None) (seq 0 (List.length (mrow_col k lf n)))).
    - now rewrite mrow_col_length.
    - apply C01.Proofs.map_nth_seq.
  Qed.

  (* any body with the property of [body_run3], iterated *)
  Section AnyBody.
    Variable bd : stmt.
    Hypothesis Hbd : forall st k lf ms, (1 <= k <= H)%nat -> pre lf ms st ->
      runs_to (pre (fun i n => nth i (mrow_col k lf n) None) (ms ++ [fun i n => nth i (mbits_col k lf n) false]))
              (exec ext03 bd (set_var "hyp_idx" (VInt (Z.of_nat k)) st)).

    Lemma loop_run_gen3 : forall m a lf ms st, (a + m <= H)%nat -> pre lf ms st ->
      runs_to (pre (fun i n => nth i (iter_col3 m a lf n) None) (ms ++ loop_masks3 m a lf))
              (for_loop ext03 "hyp_idx" bd (map (fun i => VInt (1 + Z.of_nat i)) (seq a m)) st).
    Proof.
      induction m as [|m IH]; intros a lf ms st Ham P.
      - apply runs_to_ok. eapply body_pre3_ext; [| |exact P].
        + intros i n Hi Hn. cbv beta. unfold iter_col3, iter_mrow, colo. rewrite C01.Proofs.nth_map_seq by exact Hi. reflexivity.
        + unfold loop_masks3. cbn [seq map]. rewrite app_nil_r. apply ms_eq_refl.
      - rewrite <- cons_seq. cbn [map for_loop].
        replace (1 + Z.of_nat a)%Z with (Z.of_nat (S a)) by lia.
        destruct (Hbd st (S a) lf ms ltac:(lia) P) as [st1 [He P1]]. rewrite He. cbn [bind].
        destruct (IH (S a) _ _ st1 ltac:(lia) P1) as [st2 [He2 P2]]. exists st2. split; [exact He2|].
        eapply body_pre3_ext; [| |exact P2].
        + intros i n Hi Hn. cbv beta. f_equal. unfold iter_col3. rewrite colo_mrow_col by lia. reflexivity.
        + rewrite <- app_assoc. apply ms_eq_app; [apply ms_eq_refl|].
          unfold loop_masks3. rewrite <- (cons_seq m 0). cbn [map app]. constructor.
          * intros i n Hi Hn. reflexivity.
          * rewrite <- seq_shift, map_map. apply (Forall2_map_seq _ _ _ 0 m). intros j Hj i n Hi Hn. cbn [Nat.add].
            rewrite colo_mrow_col by lia. reflexivity.
    Qed.

    Definition loop_steps : nat := (H + (if excl then 0 else 1) - 1)%nat.

    Lemma zrange_steps : zrange 1 (Z.of_nat H + (if excl then 0 else 1)) = map (fun i => VInt (1 + Z.of_nat i)) (seq 0 loop_steps).
    Proof.
      unfold zrange, loop_steps.
      replace (Z.to_nat (Z.of_nat H + (if excl then 0 else 1) - 1)) with (H + (if excl then 0 else 1) - 1)%nat
        by (destruct excl; lia).
      reflexivity.
    Qed.

    Theorem loop_tie_gen3 : forall st lf ms, pre lf ms st -> lookup "max_hyp_steps" (vars st) = Some (VInt (Z.of_nat H)) ->
      runs_to (pre (fun i n => nth i (iter_col3 loop_steps 0 lf n) None) (ms ++ loop_masks3 loop_steps 0 lf))
              (exec ext03 (SFor "hyp_idx" loop_iter3 bd) st).
    Proof.
      intros st lf ms P Hmax. rewrite exec_for.
      assert (Hexcl : lookup "exclude_last" (vars st) = Some (VBool excl)) by apply P.
      assert (Hit : eval ext03 loop_iter3 st = Ok (VList (zrange 1 (Z.of_nat H + (if excl then 0 else 1)))) st).
      { unfold loop_iter3, sm3_loop. cbv iota. repeat (progress (ev3; rewrite ?if_ok_int)). reflexivity. }
      rewrite Hit. cbn [bind iter_items container_items]. rewrite zrange_steps.
      apply loop_run_gen3; [unfold loop_steps; destruct excl; lia|exact P].
    Qed.
  End AnyBody.

  Theorem loop_tie3 : forall st lf ms, pre lf ms st -> lookup "max_hyp_steps" (vars st) = Some (VInt (Z.of_nat H)) ->
    runs_to (pre (fun i n => nth i (iter_col3 loop_steps 0 lf n) None) (ms ++ loop_masks3 loop_steps 0 lf))
            (exec ext03 sm3_loop st).
  Proof. rewrite sm3_loop_eq. exact (loop_tie_gen3 loop_body3 (body_run3 s ci cd cs R N H rf hf rl hl excl)). Qed.
End Iter.
