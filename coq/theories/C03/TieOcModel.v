(* C03 - the closed forms TieOc.v reads off the interpreted post-processing of `optimal_completion` ARE the model's
   (PV.C03.Model): the sort of the reference column is sort_idx / sorted_ref, the propagated, gathered and de-duplicated mask
   is final_mask, the selected tokens are the concatenation of the cells' masked_select, the counts and the width are
   oc_counts / oc_width, and the flat masked_scatter_ succeeds and places every cell's tokens at the start of its row of
   padding - the tensor of Model.optimal_completion.  No interpreter here: lists only. *)
From Coq Require Import ZArith List Bool Arith Lia ZifyBool ZifyNat.
From PV Require Import MiniTorch.Ops MiniTorch.Lemmas MiniTorch.OpsC07 MiniTorch.LemmasC07 MiniTorch.OpsC01 MiniTorch.LemmasC01
  MiniTorch.OpsC03 MiniTorch.LemmasC03.
From PV Require Import C03.TieOc.
From PV Require C01.Model C01.Proofs C03.Model C03.ProofsSelect C03.ProofsTop C03.ProofsMask.
Import ListNotations.
Local Open Scope nat_scope.

(* ---- the sort ------------------------------------------------------------------------------------------------------ *)
Lemma insert_by_idx : forall key i l, insert_by key i l = C03.Model.insert_idx key i l.
Proof. intros key i l. induction l as [|j t IH]; [reflexivity|]. cbn [insert_by C03.Model.insert_idx]. now rewrite IH. Qed.

Lemma sort_row_idx_model : forall r, sort_row_idx r = C03.Model.sort_idx r.
Proof.
  intros r. unfold sort_row_idx, C03.Model.sort_idx. induction (seq 0 (length r)) as [|i l IH]; [reflexivity|].
  cbn [fold_right]. now rewrite IH, insert_by_idx.
Qed.

Lemma existsb_id_map : forall {A} (q : A -> bool) l, existsb (fun b => b) (map q l) = existsb q l.
Proof. intros A q l. exact (existsb_map (fun b => b) q l). Qed.

Lemma combine_map_same : forall {A B C} (f : A -> B) (g : A -> C) l, combine (map f l) (map g l) = map (fun a => (f a, g a)) l.
Proof. intros A B C f g l. induction l as [|a l IH]; [reflexivity|]. cbn [map combine]. now rewrite IH. Qed.

Lemma nth_skipn_gen : forall {A} k i (l : list A) d, nth i (skipn k l) d = nth (k + i) l d.
Proof. intros A k. induction k as [|k IH]; intros i [|a l] d; cbn [skipn nth Nat.add]; try reflexivity; [now destruct i|apply IH]. Qed.

Section Cell.
  Variables (R' : nat) (rf : nat -> nat -> Z) (mk : nat -> nat -> nat -> bool).
  Let R := S R'.

  Notation rcol := (rcolz R' rf).
  Definition mrow (k n : nat) : list bool := map (fun i => mk k i n) (seq 0 R).

  Lemma rcol_length n : length (rcol n) = R.
  Proof. unfold rcolz. now rewrite map_length, seq_length. Qed.

  Lemma mrow_length k n : length (mrow k n) = R.
  Proof. unfold mrow. now rewrite map_length, seq_length. Qed.

  Lemma sidx_lt n j : j < R -> sidx R' rf n j < R.
  Proof. intros Hj. unfold sidx. pose proof (sort_row_idx_nth_lt (rcol n) j) as Hs. rewrite rcol_length in Hs. now apply Hs. Qed.

  Lemma srefs_model n : map (sref R' rf n) (seq 0 R) = C03.Model.sorted_ref (rcol n).
  Proof.
    unfold C03.Model.sorted_ref, sref, sidx.
    assert (Ls : length (C03.Model.sort_idx (rcol n)) = R) by (now rewrite <- sort_row_idx_model, sort_row_idx_length, rcol_length).
    rewrite sort_row_idx_model.
    rewrite (list_as_map_nth (map (fun s => nth s (rcol n) 0%Z) (C03.Model.sort_idx (rcol n))) R 0%Z)
      by (now rewrite map_length).
    apply map_ext_seq. intros j Hj.
    rewrite (nth_indep (map (fun s => nth s (rcol n) 0%Z) (C03.Model.sort_idx (rcol n))) 0%Z (nth 0 (rcol n) 0%Z))
      by (now rewrite map_length, Ls).
    now rewrite (map_nth (fun s => nth s (rcol n) 0%Z)).
  Qed.

  Lemma propf_model k n a : a < R -> propf R' rf mk k n a = nth a (C03.Model.propagate (rcol n) (mrow k n)) false.
  Proof.
    intros Ha. unfold C03.Model.propagate.
    rewrite (C01.Proofs.nth_map_lt _ (rcol n) a 0%Z) by (now rewrite rcol_length).
    unfold propf, rcolz, mrow. rewrite existsb_id_map, combine_map_same, existsb_map. cbn [fst snd].
    rewrite C01.Proofs.nth_map_seq by exact Ha. reflexivity.
  Qed.

  Lemma gath_model k n j : j < R ->
    gath R' rf mk k n j = nth j (map (fun s => nth s (C03.Model.propagate (rcol n) (mrow k n)) false) (C03.Model.sort_idx (rcol n))) false.
  Proof.
    intros Hj. unfold gath. rewrite propf_model by (now apply sidx_lt). unfold sidx. rewrite sort_row_idx_model.
    rewrite (nth_indep (map (fun s => nth s (C03.Model.propagate (rcol n) (mrow k n)) false) (C03.Model.sort_idx (rcol n)))
               false (nth 0 (C03.Model.propagate (rcol n) (mrow k n)) false))
      by (now rewrite map_length, <- sort_row_idx_model, sort_row_idx_length, rcol_length).
    now rewrite (map_nth (fun s => nth s (C03.Model.propagate (rcol n) (mrow k n)) false)).
  Qed.

  Lemma fins_model k n : map (finf R' rf mk k n) (seq 0 R) = C03.Model.final_mask (rcol n) (mrow k n).
  Proof.
    unfold C03.Model.final_mask. cbv zeta.
    set (m2 := map (fun s => nth s (C03.Model.propagate (rcol n) (mrow k n)) false) (C03.Model.sort_idx (rcol n))).
    set (sr := C03.Model.sorted_ref (rcol n)).
    assert (Lm2 : length m2 = R) by (unfold m2; now rewrite map_length, <- sort_row_idx_model, sort_row_idx_length, rcol_length).
    assert (Lsr : length sr = R) by (unfold sr; now rewrite <- srefs_model, map_length, seq_length).
    assert (Hsr : forall j, j < R -> nth j sr 0%Z = sref R' rf n j).
    { intros j Hj. unfold sr. rewrite <- srefs_model. now rewrite nth_map_seq. }
    unfold C03.Model.dedup_mask.
    assert (L1 : length (C01.Model.map2 andb (removelast m2)
                           (C01.Model.map2 (fun a b => negb (a =? b)%Z) (removelast sr) (tl sr))) = R').
    { repeat (rewrite C01.Proofs.map2_length || rewrite C01.Proofs.length_removelast || rewrite C01.Proofs.length_tl).
      rewrite Lm2, Lsr. unfold R. lia. }
    apply (nth_ext _ _ false false).
    - rewrite map_length, seq_length, app_length, L1, skipn_length, Lm2. unfold R. lia.
    - intros j Hj. rewrite map_length, seq_length in Hj. rewrite nth_map_seq by exact Hj.
      unfold finf. fold R. destruct (Nat.ltb_spec j R') as [Hlt|Hge].
      + rewrite app_nth1 by (rewrite L1; exact Hlt).
        rewrite (C01.Proofs.nth_map2 andb _ _ j false false false);
          [| rewrite C01.Proofs.length_removelast, Lm2; unfold R; lia
           | repeat (rewrite C01.Proofs.map2_length || rewrite C01.Proofs.length_removelast || rewrite C01.Proofs.length_tl);
             rewrite Lsr; unfold R; lia ].
        rewrite C01.Proofs.nth_removelast by (rewrite Lm2; unfold R; lia).
        rewrite (C01.Proofs.nth_map2 _ _ _ j 0%Z 0%Z false);
          [| rewrite C01.Proofs.length_removelast, Lsr; unfold R; lia | rewrite C01.Proofs.length_tl, Lsr; unfold R; lia ].
        rewrite C01.Proofs.nth_removelast by (rewrite Lsr; unfold R; lia).
        rewrite C01.Proofs.nth_tl, !Hsr by (unfold R; lia).
        unfold m2. now rewrite <- gath_model by (unfold R; lia).
      + assert (j = R') by (unfold R in Hj; lia). subst j.
        rewrite app_nth2 by (rewrite L1; lia). rewrite L1, Nat.sub_diag, Lm2.
        replace (R - 1) with R' by (unfold R; lia).
        rewrite nth_skipn_gen, Nat.add_0_r. unfold m2. now rewrite <- gath_model by (unfold R; lia).
  Qed.
End Cell.

(* ---- masked_select / masked_scatter_ on flat data ------------------------------------------------------------------ *)
Lemma mselect_model : forall (m : list bool) (x : list Z), mselect m x = C03.Model.masked_select x m.
Proof.
  induction m as [|b m IH]; intros [|a x]; try reflexivity.
  cbn [mselect]. rewrite IH. unfold C03.Model.masked_select. cbn [combine filter snd]. destruct b; reflexivity.
Qed.

Lemma mselect_app : forall {X} (m1 m2 : list bool) (x1 x2 : list X), length m1 = length x1 ->
  mselect (m1 ++ m2) (x1 ++ x2) = mselect m1 x1 ++ mselect m2 x2.
Proof.
  intros X m1. induction m1 as [|b m1 IH]; intros m2 [|a x1] x2 HL; cbn [length] in HL; try discriminate; [reflexivity|].
  cbn [app mselect]. rewrite IH by lia. destruct b; reflexivity.
Qed.

Lemma mselect_flat_map : forall {A X} (F : A -> list bool) (G : A -> list X) l,
  (forall a, length (F a) = length (G a)) ->
  mselect (flat_map F l) (flat_map G l) = flat_map (fun a => mselect (F a) (G a)) l.
Proof.
  intros A X F G l H. induction l as [|a l IH]; [reflexivity|]. cbn [flat_map]. now rewrite mselect_app, IH by apply H.
Qed.

Lemma mselect_tab3 : forall {X} K N R (f : nat -> nat -> nat -> bool) (g : nat -> nat -> nat -> X),
  mselect (tab3 K N R f) (tab3 K N R g) =
  flat_map (fun k => flat_map (fun n => mselect (map (f k n) (seq 0 R)) (map (g k n) (seq 0 R))) (seq 0 N)) (seq 0 K).
Proof.
  intros. unfold tab3. rewrite mselect_flat_map by (intros; now rewrite !length_plane).
  apply flat_map_ext_seq. intros k Hk. apply mselect_flat_map. intros. now rewrite !length_row.
Qed.

Lemma mscatter_false : forall {X} (pad : X) n M T S,
  mscatter (repeat false n ++ M) (repeat pad n ++ T) S = option_map (app (repeat pad n)) (mscatter M T S).
Proof.
  intros X pad n M T S. induction n as [|n IH]; cbn [repeat app].
  - destruct (mscatter M T S); reflexivity.
  - cbn [mscatter]. rewrite IH. destruct (mscatter M T S); reflexivity.
Qed.

Lemma mscatter_one : forall {X} (pad : X) L C M T S, length L <= C ->
  mscatter (map (fun k => k <? length L) (seq 0 C) ++ M) (repeat pad C ++ T) (L ++ S) =
  option_map (app (L ++ repeat pad (C - length L))) (mscatter M T S).
Proof.
  intros X pad L. induction L as [|a L IH]; intros C M T S HC.
  - cbn [length app]. rewrite C03.ProofsTop.ltb0_map, Nat.sub_0_r. apply mscatter_false.
  - destruct C as [|C]; [cbn [length] in HC; lia|].
    rewrite <- cons_seq. cbn [map]. rewrite <- seq_shift, map_map.
    rewrite (map_ext _ (fun k => k <? length L)) by (intros k; reflexivity).
    change (0 <? length (a :: L)) with true.
    cbn [repeat app mscatter length Nat.sub]. rewrite IH by (cbn [length] in HC; lia).
    destruct (mscatter M T S); reflexivity.
Qed.

Lemma mscatter_rows : forall {X} (pad : X) C rows, (forall L, In L rows -> length L <= C) ->
  mscatter (concat (map (fun L => map (fun k => k <? length L) (seq 0 C)) rows)) (repeat pad (length rows * C)) (concat rows)
  = Some (concat (map (fun L => L ++ repeat pad (C - length L)) rows)).
Proof.
  intros X pad C rows. induction rows as [|L rows IH]; intros HC; [reflexivity|].
  cbn [length Nat.mul map concat]. rewrite repeat_app, mscatter_one by (apply HC; now left).
  rewrite IH by (intros L' H; apply HC; now right). reflexivity.
Qed.

(* ---- the cells in row-major order ------------------------------------------------------------------------------------- *)
Lemma flat_map_flat_map_map : forall {A B C} (F : B -> list C) (G : A -> list B) l,
  flat_map F (flat_map G l) = flat_map (fun a => flat_map F (G a)) l.
Proof. intros. induction l as [|a l IH]; [reflexivity|]. cbn [flat_map]. now rewrite flat_map_app, IH. Qed.

Lemma concat_flat_map : forall {A B} (G : A -> list (list B)) l, concat (flat_map G l) = flat_map (fun a => concat (G a)) l.
Proof. intros. induction l as [|a l IH]; [reflexivity|]. cbn [flat_map]. now rewrite concat_app, IH. Qed.

Lemma list_max_in : forall l, l <> [] -> In (list_max l) l.
Proof.
  induction l as [|a l IH]; intros H; [contradiction|]. destruct l as [|b l]; [left; cbn; lia|].
  change (list_max (a :: b :: l)) with (Nat.max a (list_max (b :: l))).
  destruct (Nat.max_spec a (list_max (b :: l))) as [[_ E]|[_ E]]; rewrite E; [right; apply IH; discriminate|now left].
Qed.

Lemma zmax_of_nat : forall l, l <> [] -> zmax_list (map Z.of_nat l) = Z.of_nat (list_max l).
Proof.
  intros l Hl. assert (Hm : map Z.of_nat l <> []) by (destruct l; [contradiction|discriminate]).
  apply Z.le_antisymm.
  - pose proof (zmax_list_in _ Hm) as Hin. apply in_map_iff in Hin as [x [Ex Hx]]. rewrite <- Ex.
    pose proof (proj1 (list_max_le l (list_max l)) (Nat.le_refl _)) as Hall. rewrite Forall_forall in Hall.
    specialize (Hall x Hx). lia.
  - apply zmax_list_ge. apply in_map. now apply list_max_in.
Qed.

Section Scatter.
  Variables (R' N K : nat) (rf : nat -> nat -> Z) (mk : nat -> nat -> nat -> bool) (pad : Z).
  Let R := S R'.
  Hypothesis HK : K <> 0.
  Hypothesis HN : N <> 0.

  (* the tokens cell (k, n) lists *)
  Definition selkn (k n : nat) : list Z := C03.ProofsSelect.pair_targets (rcolz R' rf n) (mrow R' mk k n).
  Definition sel_cells : list (list Z) := flat_map (fun k => map (selkn k) (seq 0 N)) (seq 0 K).
  Notation C := (widthf R' N K rf mk).

  Lemma sel_cells_length : length sel_cells = K * N.
  Proof. unfold sel_cells. rewrite (length_flat_map_const _ _ N) by (intros; apply length_row). now rewrite seq_length. Qed.

  Lemma sel_cells_nonempty : sel_cells <> [].
  Proof. intros E. apply (f_equal (@length (list Z))) in E. rewrite sel_cells_length in E. cbn [length] in E. nia. Qed.

  Lemma cell_select k n :
    mselect (map (finf R' rf mk k n) (seq 0 R)) (map (sref R' rf n) (seq 0 R)) = selkn k n.
  Proof. unfold R. rewrite fins_model, srefs_model, mselect_model. reflexivity. Qed.

  Lemma flatf_cells : flatf R' N K rf mk = concat sel_cells.
  Proof.
    unfold flatf, sel_cells. rewrite mselect_tab3, concat_flat_map.
    apply flat_map_ext_seq. intros k Hk. rewrite <- flat_map_concat_map. apply flat_map_ext_seq. intros n Hn.
    apply cell_select.
  Qed.

  Lemma cntf_cell k n : cntf R' rf mk k n = Z.of_nat (length (selkn k n)).
  Proof.
    unfold cntf, count_row, selkn. fold R. unfold R. rewrite fins_model, <- C03.ProofsSelect.pair_targets_count. reflexivity.
  Qed.

  Lemma counts_cells : tab2 K N (cntf R' rf mk) = map (fun L => Z.of_nat (length L)) sel_cells.
  Proof.
    unfold tab2, sel_cells. rewrite map_flat_map. apply flat_map_ext_seq. intros k Hk. rewrite map_map.
    apply map_ext_seq. intros n Hn. apply cntf_cell.
  Qed.

  Lemma width_cells : C = list_max (map (@length Z) sel_cells).
  Proof.
    unfold widthf. rewrite counts_cells, <- (map_map (@length Z) Z.of_nat), zmax_of_nat, Nat2Z.id; [reflexivity|].
    pose proof sel_cells_nonempty. destruct sel_cells; [contradiction|discriminate].
  Qed.

  Lemma cells_le L : In L sel_cells -> length L <= C.
  Proof.
    intros H. rewrite width_cells.
    pose proof (proj1 (list_max_le (map (@length Z) sel_cells) _) (Nat.le_refl _)) as Hall.
    rewrite Forall_forall in Hall. apply Hall. now apply in_map.
  Qed.

  Definition padcell (L : list Z) : list Z := L ++ repeat pad (C - length L).
  Definition outf (k n c : nat) : Z := nth c (padcell (selkn k n)) 0%Z.

  Lemma padcell_length L : In L sel_cells -> length (padcell L) = C.
  Proof. intros H. pose proof (cells_le L H). unfold padcell. rewrite app_length, repeat_length. lia. Qed.

  Lemma selkn_in k n : k < K -> n < N -> In (selkn k n) sel_cells.
  Proof.
    intros Hk Hn. unfold sel_cells. apply in_flat_map. exists k. split; [apply in_seq; lia|].
    apply in_map. apply in_seq. lia.
  Qed.

  Lemma out_cells : concat (map padcell sel_cells) = tab3 K N C outf.
  Proof.
    unfold sel_cells, tab3. rewrite <- flat_map_concat_map, flat_map_flat_map_map.
    apply flat_map_ext_seq. intros k Hk. rewrite flat_map_map. apply flat_map_ext_seq. intros n Hn.
    unfold outf. apply list_as_map_nth. apply padcell_length. apply selkn_in; lia.
  Qed.

  (* the flat masked_scatter_ succeeds and fills each cell's row: its tokens, then padding *)
  Theorem scatter_cells :
    mscatter (tab3 K N C (fun k n c => (cntf R' rf mk k n >? Z.of_nat c)%Z)) (tab3 K N C (fun _ _ _ => pad)) (flatf R' N K rf mk)
    = Some (tab3 K N C outf).
  Proof.
    rewrite flatf_cells, <- out_cells.
    replace (tab3 K N C (fun _ _ _ => pad)) with (repeat pad (length sel_cells * C))
      by (rewrite sel_cells_length, <- Nat.mul_assoc; apply repeat_tab3).
    replace (tab3 K N C (fun k n c => (cntf R' rf mk k n >? Z.of_nat c)%Z))
      with (concat (map (fun L => map (fun c => c <? length L) (seq 0 C)) sel_cells)).
    - apply mscatter_rows. exact cells_le.
    - unfold sel_cells, tab3. rewrite <- flat_map_concat_map, flat_map_flat_map_map.
      apply flat_map_ext_seq. intros k Hk. rewrite flat_map_map. apply flat_map_ext_seq. intros n Hn.
      apply map_ext_seq. intros c Hc. rewrite cntf_cell. lia.
  Qed.
End Scatter.
