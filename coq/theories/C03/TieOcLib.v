(* C03 - infrastructure of the source tie of `optimal_completion`'s body: what reaches SrcRun.ext03_oc call by call (its own
   vocabulary, and the calls it passes on to ext03), and the tactics of the symbolic run for that environment. *)
From Coq Require Import ZArith QArith List String Bool Arith Lia ZifyBool ZifyNat.
From PV Require Import MiniPy.Syntax MiniPy.Interp MiniPy.Lemmas MiniTorch.Ops MiniTorch.Lemmas MiniTorch.OpsC07 MiniTorch.LemmasC07
  MiniTorch.OpsC01 MiniTorch.LemmasC01 MiniTorch.OpsC03 MiniTorch.LemmasC03.
From PV Require Import Gen.C03Src C01.SrcRun C01.TieLib C03.SrcRun C03.TieLib.
Import ListNotations.
Local Open Scope string_scope.

Section ExtLemmas.
  Notation ext := ext03_oc.
  Ltac bridge := unfold ext03_oc, ext03_oc_new; cbn; rewrite ?dec01_enc_i, ?dec01_enc_x, ?dec01_enc_b, ?dec01_int; cbn.

  (* passed on to ext03 *)
  Lemma exto_t_i x st : ext "$method.t" [enc_i x] [] st = ret01 "t" (option_map AI (transpose2 0%Z x)) st.
  Proof. bridge. apply ext3_t_i. Qed.
  Lemma exto_shape_b x st : ext "$attr.shape" [enc_b x] [] st = Ok (VTuple (map (fun n => VInt (Z.of_nat n)) (shp x))) st.
  Proof. bridge. unfold ext03_sm, ext03_new. cbn. unfold ext01, ext01_ops. cbn. now rewrite dec01_enc_b. Qed.
  Lemma exto_device_i x st : ext "$attr.device" [enc_i x] [] st = Ok device_token st.
  Proof. bridge. apply ext3_device_i. Qed.
  Lemma exto_unsqueeze_b x d st : ext "$method.unsqueeze" [enc_b x; VInt d] [] st = ret01 "unsqueeze" (option_map AB (unsqueeze x d)) st.
  Proof. bridge. apply ext3_unsqueeze_b. Qed.
  Lemma exto_unsqueeze_i x d st : ext "$method.unsqueeze" [enc_i x; VInt d] [] st = ret01 "unsqueeze" (option_map AI (unsqueeze x d)) st.
  Proof. bridge. apply ext3_unsqueeze_i. Qed.
  Lemma exto_and x y st : ext "operator" [VStr "and"; enc_b x; enc_b y] [] st = ret01 "and" (option_map AB (and_bb x y)) st.
  Proof. bridge. apply ext3_and. Qed.
  Lemma exto_cmp_ne x y st : ext "compare" [VStr "ne"; enc_i x; enc_i y] [] st =
    ret01 "ne" (option_map AB (cmp_i (fun u v => negb (Z.eqb u v)) x y)) st.
  Proof. bridge. apply ext3_cmp_ne. Qed.
  Lemma exto_arange_i n st : ext "torch.arange" [VInt n] [("device", device_token)] st = ret01 "arange" (option_map AI (arange n)) st.
  Proof. reflexivity. Qed.

  (* its own vocabulary *)
  Lemma exto_transpose_b x a b st : ext "$method.transpose" [enc_b x; VInt a; VInt b] [] st =
    ret01 "transpose" (option_map AB (transpose3 false x a b)) st.
  Proof. bridge. reflexivity. Qed.
  Lemma exto_transpose_i x a b st : ext "$method.transpose" [enc_i x; VInt a; VInt b] [] st =
    ret01 "transpose" (option_map AI (transpose3 0%Z x a b)) st.
  Proof. bridge. reflexivity. Qed.
  Lemma exto_cmp_eq_ii x y st : ext "compare" [VStr "eq"; enc_i x; enc_i y] [] st = ret01 "eq" (option_map AB (cmp_i Z.eqb x y)) st.
  Proof. bridge. reflexivity. Qed.
  Lemma exto_cmp_gt_ii x y st : ext "compare" [VStr "gt"; enc_i x; enc_i y] [] st = ret01 "gt" (option_map AB (cmp_i Z.gtb x y)) st.
  Proof. bridge. reflexivity. Qed.
  Lemma exto_any_dim x d st : ext "$method.any" [enc_b x; VInt d] [] st = ret01 "any(dim)" (option_map AB (any_dim x d)) st.
  Proof. bridge. reflexivity. Qed.
  Lemma exto_sum x d st : ext "$method.sum" [enc_b x; VInt d] [] st = ret01 "sum" (option_map AI (sum_dim_b x d)) st.
  Proof. bridge. reflexivity. Qed.
  Lemma exto_sort x d st : ext "$method.sort" [enc_i x; VInt d] [] st =
    match sort_last2 x d with Some (v, i) => Ok (VTuple [enc_i v; enc_i i]) st | None => oob "sort" end.
  Proof. bridge. reflexivity. Qed.
  Lemma exto_expand_as_i x y st : ext "$method.expand_as" [enc_i x; enc_b y] [] st =
    match shp y with
    | [h; a; b] => ret01 "expand_as" (option_map AI (expand_lead2 0%Z x (Z.of_nat h) (Z.of_nat a) (Z.of_nat b))) st
    | _ => Stuck "expand_as"
    end.
  Proof. bridge. destruct (shp y) as [|h [|a [|b [|? ?]]]]; reflexivity. Qed.
  Lemma exto_expand3_b x h a b st : ext "$method.expand" [enc_b x; VInt h; VInt a; VInt b] [] st =
    ret01 "expand" (option_map AB (expand_lead2 false x h a b)) st.
  Proof. bridge. reflexivity. Qed.
  Lemma exto_gather2 x y st : ext "$method.gather" [enc_b x; VInt 2; enc_i y] [] st =
    ret01 "gather(2)" (option_map AB (gather_last3 false x y)) st.
  Proof. bridge. reflexivity. Qed.
  Lemma exto_getitem_ell_b x a b st :
    ext "$getitem" [enc_b x; VTuple [VTuple [VStr "$ellipsis"]; VTuple [VStr "$slice"; a; b; VNone]]] [] st =
    match dec_bound a, dec_bound b with
    | Some a', Some b' => ret01 "getitem last" (option_map AB (slice_last false x a' b')) st
    | _, _ => Stuck "getitem: tuple key"
    end.
  Proof. bridge. destruct (dec_bound a), (dec_bound b); reflexivity. Qed.
  Lemma exto_getitem_col_i x a b st : List.length (shp x) = 2%nat ->
    ext "$getitem" [enc_i x; VTuple [VTuple [VStr "$slice"; VNone; VNone; VNone]; VTuple [VStr "$slice"; a; b; VNone]]] [] st =
    match dec_bound a, dec_bound b with
    | Some a', Some b' => ret01 "getitem last" (option_map AI (slice_last 0%Z x a' b')) st
    | _, _ => Stuck "getitem: tuple key"
    end.
  Proof. intros Hr. bridge. destruct (dec_bound a), (dec_bound b); try reflexivity. cbn. rewrite Hr. reflexivity. Qed.
  Lemma exto_cat x y st : List.length (shp x) = 3%nat -> List.length (shp y) = 3%nat ->
    ext "torch.cat" [VList [enc_b x; enc_b y]; VInt 2] [] st = ret01 "cat" (option_map AB (cat_last false x y)) st.
  Proof. intros Hx Hy. bridge. rewrite Hx, Hy. reflexivity. Qed.
  Lemma exto_masked_select x m st : ext "$method.masked_select" [enc_i x; enc_b m] [] st =
    ret01 "masked_select" (option_map AI (masked_select x m)) st.
  Proof. bridge. reflexivity. Qed.
  Lemma exto_max_all x st : ext "$method.max" [enc_i x] [] st =
    match max_all x with Some m => Ok (enc_i (mkTn [] [m])) st | None => Exc rt_error st end.
  Proof. bridge. reflexivity. Qed.
  Lemma exto_item m st : ext "$method.item" [enc_i (mkTn [] [m])] [] st = Ok (VInt m) st.
  Proof. bridge. reflexivity. Qed.
  Lemma exto_int z st : ext "int" [VInt z] [] st = Ok (VInt z) st.
  Proof. reflexivity. Qed.
  Lemma exto_full3 a b c v st :
    ext "torch.full" [VTuple [VInt a; VInt b; VInt c]; VInt v] [("dtype", long_token); ("device", device_token)] st =
    if (Z.ltb a 0 || Z.ltb b 0 || Z.ltb c 0)%bool then oob "full" else Ok (enc_i (full [Z.to_nat a; Z.to_nat b; Z.to_nat c] v)) st.
  Proof. reflexivity. Qed.
  Lemma exto_masked_scatter x m y st : ext "$method!.masked_scatter_" [enc_i x; enc_b m; enc_i y] [] st =
    match masked_scatter x m y with
    | Some (Some r) => Ok (enc_i r) st
    | Some None => Exc rt_error st
    | None => oob "masked_scatter_"
    end.
  Proof. bridge. reflexivity. Qed.
  Lemma exto_string_matching ref hyp eos incl bf qi qd qs warn excl st :
    ext "_string_matching" [ref; hyp; eos; incl; bf; qi; qd; qs; warn] [("return_mask", VBool true); ("exclude_last", excl)] st =
    call_body3 sm3_body (sm3_vars ref hyp eos incl bf qi qd qs warn excl) st.
  Proof. reflexivity. Qed.
End ExtLemmas.

Lemma subscript_enc_b_tuple t k st : subscript (enc_b t) (VTuple k) st = Stuck "subscript".
Proof. reflexivity. Qed.
Lemma subscript_enc_i_tuple t k st : subscript (enc_i t) (VTuple k) st = Stuck "subscript".
Proof. reflexivity. Qed.
Lemma attribute_enc_b ext t a st : attribute ext (enc_b t) a st = ext ("$attr." ++ a) [enc_b t] [] st.
Proof. reflexivity. Qed.
Lemma binop_and_b_b t u st : binop_eval BitAnd (enc_b t) (enc_b u) st = Stuck "and".
Proof. reflexivity. Qed.

#[export] Hint Rewrite attribute_enc_b subscript_enc_b_tuple subscript_enc_i_tuple binop_and_b_b
  exto_t_i exto_shape_b exto_device_i exto_unsqueeze_b exto_unsqueeze_i exto_and exto_cmp_ne exto_arange_i
  exto_transpose_b exto_transpose_i exto_cmp_eq_ii exto_cmp_gt_ii exto_any_dim exto_sum exto_sort exto_expand_as_i exto_expand3_b
  exto_gather2 exto_getitem_ell_b exto_masked_select exto_max_all exto_item exto_int exto_full3 exto_masked_scatter
  exto_string_matching : c03.

#[export] Hint Rewrite @broadcast_same3 @broadcast_row_col3 @broadcast_4_3 @broadcast_col3_row
  @transpose3_12 @transpose3_01 @transpose2_mat @unsqueeze_3_2 @unsqueeze_2_1 @unsqueeze_2_2
  any_dim_4 sum_dim_b_3 sort_last2_tab @expand_lead2_as @expand_lead2_keep
  @slice_last3_init @slice_last3_last @slice_last2_init @slice_last2_tail @cat_last3_tab @full_3 : c03tab.

(* x.m(a1, a2) as a statement with a method that is not a container method: the "$method!." protocol of Interp.exec - the
   unit's ext returns the updated receiver, which is written back to x *)
Lemma xexec_seq_mutmeth2 ext x m a1 a2 b st tv v1 v2 nv :
  lookup x (vars st) = Some tv -> lookup a1 (vars st) = Some v1 -> lookup a2 (vars st) = Some v2 ->
  method tv m [v1; v2] = None -> ext ("$method!." ++ m) [tv; v1; v2] [] st = Ok nv st ->
  exec ext (SSeq (SExpr (EMeth (EName x) m [EName a1; EName a2] [])) b) st = exec ext b (set_var x nv st).
Proof.
  intros Hx H1 H2 Hm He. cbn [exec eval]. rewrite Hx. cbn [bind]. rewrite H1. cbn [bind]. rewrite H2. cbn [bind].
  rewrite Hm, He. cbn [bind store]. reflexivity.
Qed.
