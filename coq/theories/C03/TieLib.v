(* C03 - infrastructure of the source tie of `_string_matching(return_mask=True)` / `optimal_completion`: what reaches
   SrcRun.ext03 call by call (the vocabulary of C01.SrcRun.ext01 is reached through the fall-back: one bridging lemma per
   C01.TieLib.ext_* lemma; the new calls by their own lemmas), statement-by-statement execution lemmas for an ARBITRARY
   environment, and the tactics of the symbolic runs.  No statement about the source itself here. *)
From Coq Require Import ZArith QArith List String Bool Arith Lia ZifyBool ZifyNat.
From PV Require Import MiniPy.Syntax MiniPy.Interp MiniPy.Lemmas MiniTorch.Ops MiniTorch.Lemmas MiniTorch.OpsC07 MiniTorch.LemmasC07
  MiniTorch.OpsC01 MiniTorch.LemmasC01 MiniTorch.OpsC03 MiniTorch.LemmasC03.
From PV Require Import Gen.C03Src C01.SrcRun C01.TieLib C03.SrcRun.
From PV Require C01.Model C01.TieMath C07.SrcRun.
Import ListNotations.
Local Open Scope string_scope.

#[global] Arguments dec01 : simpl never.
#[global] Arguments ext01 : simpl never.
#[global] Arguments enc_b : simpl never.
#[global] Arguments enc_i : simpl never.
#[global] Arguments enc_x : simpl never.

Lemma dec01_int c : dec01 (VInt c) = None.  Proof. reflexivity. Qed.

(* ---- what reaches ext03, call by call ---- *)
Section ExtLemmas.
  Notation ext := ext03.
  Ltac bridge := unfold ext03, ext03_sm, ext03_new; cbn; rewrite ?dec01_enc_i, ?dec01_enc_x, ?dec01_enc_b, ?dec01_int; cbn.

  (* the vocabulary of ext01 *)
  Lemma ext3_cmp_lt c y st : ext "compare" [VStr "lt"; VInt c; enc_i y] [] st = Ok (enc_b (map_t (fun v => Z.ltb c v) y)) st.
  Proof. bridge. apply ext_cmp_lt. Qed.
  Lemma ext3_cmp_ge x c st : ext "compare" [VStr "ge"; enc_i x; VInt c] [] st = Ok (enc_b (ge_s x c)) st.
  Proof. bridge. apply ext_cmp_ge. Qed.
  Lemma ext3_cmp_eq x c st : ext "compare" [VStr "eq"; enc_i x; VInt c] [] st = Ok (enc_b (eq_s x c)) st.
  Proof. bridge. apply ext_cmp_eq. Qed.
  Lemma ext3_cmp_ne x y st : ext "compare" [VStr "ne"; enc_i x; enc_i y] [] st =
    ret01 "ne" (option_map AB (cmp_i (fun u v => negb (Z.eqb u v)) x y)) st.
  Proof. bridge. apply ext_cmp_ne. Qed.
  Lemma ext3_float_b x st : ext "$method.float" [enc_b x] [] st = Ok (enc_x (bool_to_float x)) st.
  Proof. bridge. apply ext_float_b. Qed.
  Lemma ext3_getitem_int_i x i st : ext "$getitem" [enc_i x; VInt i] [] st =
    match select0 x i with Some (Some r) => Ok (enc_i r) st | Some None => Exc index_error st | None => oob "getitem" end.
  Proof. bridge. apply ext_getitem_int_i. Qed.
  Lemma ext3_mul_q_x q y st : ext "operator" [VStr "mul"; VQ q; enc_x y] [] st = Ok (enc_x (map_t (fmul (Fq q)) y)) st.
  Proof. bridge. apply ext_mul_q_x. Qed.
  Lemma ext3_mul_x_q x q st : ext "operator" [VStr "mul"; enc_x x; VQ q] [] st = Ok (enc_x (map_t (fun e => fmul e (Fq q)) x)) st.
  Proof. bridge. apply ext_mul_x_q. Qed.
  Lemma ext3_add_x x y st : ext "operator" [VStr "add"; enc_x x; enc_x y] [] st = ret01 "add" (option_map AX (bin_f fadd x y)) st.
  Proof. bridge. apply ext_add_x. Qed.
  Lemma ext3_sub_x x y st : ext "operator" [VStr "sub"; enc_x x; enc_x y] [] st = ret01 "sub" (option_map AX (bin_f fsub x y)) st.
  Proof. bridge. apply ext_sub_x. Qed.
  Lemma ext3_getitem_slice_x x a b st :
    ext "$getitem" [enc_x x; VTuple [VStr "$slice"; a; b; VNone]] [] st =
    match dec_bound a, dec_bound b with
    | Some a', Some b' => ret01 "getitem slice" (option_map AX (slice0 x a' b')) st
    | _, _ => Stuck "getitem"
    end.
  Proof. bridge. apply ext_getitem_slice_x. Qed.
  Lemma ext3_setitem_slice_x x a b y st :
    ext "$setitem" [enc_x x; VTuple [VStr "$slice"; a; b; VNone]; enc_x y] [] st =
    match dec_bound a, dec_bound b with
    | Some a', Some b' => ret01 "setitem slice" (option_map AX (set_slice0 x a' b' y)) st
    | _, _ => Stuck "setitem"
    end.
  Proof. bridge. apply ext_setitem_slice_x. Qed.
  Lemma ext3_torch_min x y st : ext "torch.min" [enc_x x; enc_x y] [] st = ret01 "min" (option_map AX (bin_f fmin x y)) st.
  Proof. bridge. apply ext_torch_min. Qed.
  Lemma ext3_min_dim x d st : ext "$method.min" [enc_x x; VInt d] [] st =
    match min_dim x d with
    | Some (Some (v, i)) => Ok (VTuple [enc_x v; enc_i i]) st
    | Some None => Exc index_error st
    | None => oob "min"
    end.
  Proof. bridge. apply ext_min_dim. Qed.
  Lemma ext3_where c x y st : ext "torch.where" [enc_b c; enc_x x; enc_x y] [] st = ret01 "where" (option_map AX (where_f c x y)) st.
  Proof. bridge. apply ext_where. Qed.
  Lemma ext3_dim_i x st : ext "$method.dim" [enc_i x] [] st = Ok (VInt (Z.of_nat (List.length (shp x)))) st.
  Proof. bridge. apply ext_dim_i. Qed.
  Lemma ext3_t_i x st : ext "$method.t" [enc_i x] [] st = ret01 "t" (option_map AI (transpose2 0%Z x)) st.
  Proof. bridge. apply ext_t_i. Qed.
  Lemma ext3_empty st : ext "torch.empty" [VInt 0] [] st = Ok (enc_x (mkTn [0%nat] [])) st.
  Proof. reflexivity. Qed.
  Lemma ext3_detach_i x st : ext "$method.detach" [enc_i x] [] st = Ok (enc_i x) st.
  Proof. bridge. apply ext_detach_i. Qed.
  Lemma ext3_shape_i x st : ext "$attr.shape" [enc_i x] [] st = Ok (VTuple (map (fun n => VInt (Z.of_nat n)) (shp x))) st.
  Proof. bridge. apply ext_shape_i. Qed.
  Lemma ext3_device_i x st : ext "$attr.device" [enc_i x] [] st = Ok device_token st.
  Proof. bridge. apply ext_device_i. Qed.
  Lemma ext3_add_i_int x c st : ext "operator" [VStr "add"; enc_i x; VInt c] [] st = Ok (enc_i (add_s x c)) st.
  Proof. bridge. apply ext_add_i_int. Qed.
  Lemma ext3_sub_i x y st : ext "operator" [VStr "sub"; enc_i x; enc_i y] [] st = ret01 "sub" (option_map AI (bin_i Z.sub x y)) st.
  Proof. bridge. apply ext_sub_i. Qed.
  Lemma ext3_any x st : ext "$method.any" [enc_b x] [] st = Ok (VBool (any_b x)) st.
  Proof. bridge. apply ext_any. Qed.
  Lemma ext3_to_b_long x st : ext "$method.to" [enc_b x; long_token] [] st = Ok (enc_i (bool_to_long x)) st.
  Proof. bridge. apply ext_to_b_long. Qed.
  Lemma ext3_full n v st : ext "torch.full" [VTuple [VInt n]; VInt v] [("device", device_token); ("dtype", long_token)] st =
    if Z.ltb n 0 then oob "full" else Ok (enc_i (full [Z.to_nat n] v)) st.
  Proof. reflexivity. Qed.
  Lemma ext3_arange_f n st : ext "torch.arange" [VInt n] [("device", device_token); ("dtype", float_token)] st =
    ret01 "arange" (option_map AX (arange_f n)) st.
  Proof. reflexivity. Qed.
  Lemma ext3_float_inf st : ext "float" [VStr "inf"] [] st = Ok (VInf true) st.
  Proof. reflexivity. Qed.
  Lemma ext3_full_like_inf x st : ext "torch.full_like" [enc_x x; VInf true] [] st = Ok (enc_x (full (shp x) FPInf)) st.
  Proof. bridge. apply ext_full_like_inf. Qed.
  Lemma ext3_triu x k st : ext "$method.triu" [enc_x x; VInt k] [] st = ret01 "triu" (option_map AX (triu_f x k)) st.
  Proof. bridge. apply ext_triu. Qed.
  Lemma ext3_unsqueeze_x x d st : ext "$method.unsqueeze" [enc_x x; VInt d] [] st = ret01 "unsqueeze" (option_map AX (unsqueeze x d)) st.
  Proof. bridge. apply ext_unsqueeze_x. Qed.
  Lemma ext3_unsqueeze_i x d st : ext "$method.unsqueeze" [enc_i x; VInt d] [] st = ret01 "unsqueeze" (option_map AI (unsqueeze x d)) st.
  Proof. bridge. apply ext_unsqueeze_i. Qed.
  Lemma ext3_expand_x x a b st : ext "$method.expand" [enc_x x; VInt a; VInt b] [] st = ret01 "expand" (option_map AX (expand2 FNaN x a b)) st.
  Proof. bridge. apply ext_expand_x. Qed.
  Lemma ext3_lens tok e d st : ext "_lens_from_eos" [tok; e; d] [] st =
    C07.SrcRun.call_body (fun x => x) sm3_lens (("tok", tok) :: ("eos", e) :: ("dim", d) :: C07.SrcRun.globals07) st.
  Proof. reflexivity. Qed.

  Lemma ext3_dtype_i x st : ext "$attr.dtype" [enc_i x] [] st = Ok long_token st.
  Proof. bridge. apply ext_dtype_i. Qed.
  Lemma ext3_dtype_x x st : ext "$attr.dtype" [enc_x x] [] st = Ok float_token st.
  Proof. bridge. apply ext_dtype_x. Qed.
  Lemma ext3_to_b_float x st : ext "$method.to" [enc_b x; float_token] [] st = Ok (enc_x (bool_to_float x)) st.
  Proof. bridge. apply ext_to_b_float. Qed.
  Lemma ext3_to_i_float x st : ext "$method.to" [enc_i x; float_token] [] st = Ok (enc_x (long_to_float x)) st.
  Proof. bridge. apply ext_to_i_float. Qed.
  Lemma ext3_eq_m x c st : ext "$method.eq" [enc_i x; VInt c] [] st = Ok (enc_b (eq_s x c)) st.
  Proof. bridge. apply ext_eq_m. Qed.
  Lemma ext3_gt_m x c st : ext "$method.gt" [enc_i x; VInt c] [] st = Ok (enc_b (cmp_scalar Z.gtb x c)) st.
  Proof. bridge. apply ext_gt_m. Qed.

  (* shape-only operations of ext01 on boolean / long tensors (ext01 handles every element type through map01) *)
  Lemma ext3_unsqueeze_b x d st : ext "$method.unsqueeze" [enc_b x; VInt d] [] st = ret01 "unsqueeze" (option_map AB (unsqueeze x d)) st.
  Proof. bridge. unfold ext01, ext01_ops. cbn. now rewrite dec01_enc_b. Qed.
  Lemma ext3_expand_i x a b st : ext "$method.expand" [enc_i x; VInt a; VInt b] [] st = ret01 "expand" (option_map AI (expand2 0%Z x a b)) st.
  Proof. bridge. unfold ext01, ext01_ops. cbn. now rewrite dec01_enc_i. Qed.

  (* the new vocabulary *)
  Lemma ext3_zeros a b st : ext "torch.zeros" [VTuple [VInt a; VInt b]] [("device", device_token); ("dtype", bool_token)] st =
    if (Z.ltb a 0 || Z.ltb b 0)%bool then oob "zeros" else Ok (enc_b (full [Z.to_nat a; Z.to_nat b] false)) st.
  Proof. reflexivity. Qed.
  Lemma ext3_arange_i n st : ext "torch.arange" [VInt n] [("device", device_token)] st = ret01 "arange" (option_map AI (arange n)) st.
  Proof. reflexivity. Qed.
  Lemma ext3_cmp_gt_is x c st : ext "compare" [VStr "gt"; enc_i x; VInt c] [] st = Ok (enc_b (cmp_scalar Z.gtb x c)) st.
  Proof. bridge. reflexivity. Qed.
  Lemma ext3_cmp_gt_xi x y st : ext "compare" [VStr "gt"; enc_x x; enc_i y] [] st = ret01 "gt" (option_map AB (gt_xi x y)) st.
  Proof. bridge. reflexivity. Qed.
  Lemma ext3_cmp_eq_xx x y st : ext "compare" [VStr "eq"; enc_x x; enc_x y] [] st = ret01 "eq" (option_map AB (eq_xx x y)) st.
  Proof. bridge. reflexivity. Qed.
  Lemma ext3_cmp_lt_ii x y st : ext "compare" [VStr "lt"; enc_i x; enc_i y] [] st = ret01 "lt" (option_map AB (cmp_i Z.ltb x y)) st.
  Proof. bridge. reflexivity. Qed.
  Lemma ext3_and x y st : ext "operator" [VStr "and"; enc_b x; enc_b y] [] st = ret01 "and" (option_map AB (and_bb x y)) st.
  Proof. bridge. reflexivity. Qed.
  Lemma ext3_masked_fill_inf x m st : ext "$method.masked_fill" [enc_x x; enc_b m; VInf true] [] st =
    ret01 "masked_fill" (option_map AX (masked_fill x m FPInf)) st.
  Proof. bridge. reflexivity. Qed.
  Lemma ext3_min_keep x d st : ext "$method.min" [enc_x x; VInt d] [("keepdim", VBool true)] st =
    match min_dim_keep x d with
    | Some (Some (v, i)) => Ok (VTuple [enc_x v; enc_i i]) st
    | Some None => Exc index_error st
    | None => oob "min keepdim"
    end.
  Proof. bridge. reflexivity. Qed.
  Lemma ext3_setitem_row_b x i y st : ext "$setitem" [enc_b x; VInt i; enc_b y] [] st =
    match set_row0 x i y with
    | Some (Some r) => Ok (enc_b r) st
    | Some None => Exc index_error st
    | None => oob "setitem row"
    end.
  Proof. bridge. reflexivity. Qed.
  Lemma dec_bools_enc ts : dec_bools (map enc_b ts) = Some ts.
  Proof. induction ts as [|t ts IH]; [reflexivity|]. cbn [map dec_bools]. now rewrite dec01_enc_b, IH. Qed.
  Lemma ext3_stack ts st : ext "torch.stack" [VList (map enc_b ts); VInt 0] [] st = ret01 "stack" (option_map AB (stack0 ts)) st.
  Proof. unfold ext03, ext03_sm, ext03_new. cbn [is String.eqb Ascii.eqb Bool.eqb]. now rewrite dec_bools_enc. Qed.
End ExtLemmas.

#[global] Arguments ext03 : simpl never.

Lemma update_same x v l : lookup x l = Some v -> update x v l = l.
Proof.
  induction l as [|[y w] l IH]; cbn [lookup update]; [discriminate|].
  destruct (String.eqb x y); [intros [= ->]; reflexivity|intros H; now rewrite IH].
Qed.
Lemma set_var_same x v st : lookup x (vars st) = Some v -> set_var x v st = st.
Proof. intros H. unfold set_var. rewrite (update_same _ _ _ H). now destruct st. Qed.

(* ---- execution lemmas, for any environment ------------------------------------------------------------------------ *)
Section Exec.
  Variable ext : string -> list val -> list (string * val) -> state -> outcome val.
  (* x[k] = e on a tensor (a tagged tuple) held by the variable x (the evaluations leave the state as it is) *)
  Definition is_tuple (v : val) : Prop := match v with VTuple _ => True | _ => False end.
  Lemma xexec_seq_setitem x ke e b st v kv tv nv :
    eval ext e st = Ok v st -> lookup x (vars st) = Some tv -> is_tuple tv -> eval ext ke st = Ok kv st ->
    ext "$setitem" [tv; kv; v] [] st = Ok nv st ->
    exec ext (SSeq (SAssign [TSub (EName x) ke] e) b) st = exec ext b (set_var x nv st).
  Proof.
    intros He Hx Ht Hk Hs. cbn [exec]. rewrite He. cbn [bind assign_all place_of store eval]. rewrite Hx. cbn [bind].
    rewrite Hk. cbn [bind]. destruct tv; try contradiction. rewrite Hs. cbn [bind]. reflexivity.
  Qed.
  (* x.append(e) on a Python list held by the variable x *)
  Lemma xexec_append x e st v l : eval ext e st = Ok v st -> lookup x (vars st) = Some (VList l) ->
    exec ext (SExpr (EMeth (EName x) "append" [e] [])) st = Ok CNormal (set_var x (VList (l ++ [v])) st).
  Proof. intros He Hx. cbn [exec eval]. rewrite Hx. cbn [bind]. rewrite He. cbn [bind method is String.eqb Ascii.eqb Bool.eqb store]. reflexivity. Qed.
  Lemma xexec_seq_append x e b st v l : eval ext e st = Ok v st -> lookup x (vars st) = Some (VList l) ->
    exec ext (SSeq (SExpr (EMeth (EName x) "append" [e] [])) b) st = exec ext b (set_var x (VList (l ++ [v])) st).
  Proof. intros He Hx. change (exec ext (SSeq ?a b) st) with (bind (exec ext a st) (fun c st1 => match c with CNormal => exec ext b st1 | CReturn _ => Ok c st1 end)).
    cbn [exec]. fold (exec ext (SExpr (EMeth (EName x) "append" [e] [])) st). rewrite (xexec_append x e st v l He Hx). reflexivity. Qed.

  (* `if b: s` where s assigns x and runs whatever b is: the run does not branch, b chooses the value of x *)
  Lemma xexec_seq_when (b : bool) s r st x v v0 :
    lookup x (vars st) = Some v0 -> exec ext s st = Ok CNormal (set_var x v st) ->
    exec ext (SSeq (if b then s else SPass) r) st = exec ext r (set_var x (if b then v else v0) st).
  Proof.
    intros L E. destruct b; [cbn [exec]; now rewrite E|]. now rewrite exec_seq_pass, (set_var_same _ _ _ L).
  Qed.

  Lemma xexec_take_drop : forall n s st, exec ext (SSeq (seq_take n s) (seq_drop n s)) st = exec ext s st.
  Proof.
    induction n as [|n IH]; intros s st; [reflexivity|].
    destruct s; cbn [seq_take seq_drop]; try apply exec_seq_pass_r.
    rewrite exec_seq_assoc. cbn [exec]. destruct (exec ext s1 st) as [[|v] st1|m st1|w]; cbn [bind]; try reflexivity.
    apply IH.
  Qed.

  Lemma xruns_to_seq : forall (P Q : state -> Prop) a b st,
    runs_to P (exec ext a st) -> (forall st1, P st1 -> runs_to Q (exec ext b st1)) ->
    runs_to Q (exec ext (SSeq a b) st).
  Proof. intros P Q a b st [st1 [He P1]] Hb. cbn [exec]. rewrite He. cbn [bind]. now apply Hb. Qed.

  (* sequences of statements up to re-association: the flattened spine *)
  Fixpoint xexec_list (l : list stmt) (st : state) : outcome ctl :=
    match l with
    | [] => Ok CNormal st
    | x :: r => bind (exec ext x st) (fun c st1 => match c with CNormal => xexec_list r st1 | CReturn _ => Ok c st1 end)
    end.

  Lemma xexec_list_app : forall l1 l2 st,
    xexec_list (l1 ++ l2) st =
    bind (xexec_list l1 st) (fun c st1 => match c with CNormal => xexec_list l2 st1 | CReturn _ => Ok c st1 end).
  Proof.
    induction l1 as [|x l1 IH]; intros l2 st; [reflexivity|].
    cbn [app xexec_list]. destruct (exec ext x st) as [[|v] st1|n st1|w]; cbn [bind]; try reflexivity. apply IH.
  Qed.

  Lemma xexec_flatten : forall s st, exec ext s st = xexec_list (flatten s) st.
  Proof.
    induction s; intros st;
      try (cbn [flatten xexec_list];
           match goal with |- ?e = bind ?e _ => destruct e as [[|v] st1|n st1|w]; reflexivity end).
    - reflexivity.
    - cbn [flatten]. rewrite xexec_list_app. cbn [exec]. rewrite IHs1.
      destruct (xexec_list (flatten s1) st) as [[|v] st1|n st1|w]; cbn [bind]; try reflexivity. apply IHs2.
  Qed.
End Exec.

Definition returns3 (v : val) (o : outcome ctl) : Prop := exists st', o = Ok (CReturn v) st'.

Lemma xreturns_seq : forall ext (P : state -> Prop) v a b st,
  runs_to P (exec ext a st) -> (forall st1, P st1 -> returns3 v (exec ext b st1)) ->
  returns3 v (exec ext (SSeq a b) st).
Proof. intros ext P v a b st [st1 [He P1]] Hb. cbn [exec]. rewrite He. cbn [bind]. now apply Hb. Qed.

Lemma xreturns_name : forall ext x st v, lookup x (vars st) = Some v -> returns3 v (exec ext (SReturn (EName x)) st).
Proof. intros ext x st v H. cbn [exec eval]. rewrite H. now eexists. Qed.

Create HintDb c03 discriminated.
#[export] Hint Rewrite lookup_update foreign_enc_i foreign_enc_b foreign_enc_x method_enc_i method_enc_b method_enc_x
  attribute_enc_i attribute_enc_x
  subscript_enc_i_int subscript_enc_x_tuple binop_mul_q_x binop_mul_x_q binop_add_x_x binop_sub_x_x binop_div_x_x
  binop_add_i_int binop_sub_i_i
  ext3_cmp_lt ext3_cmp_ge ext3_cmp_eq ext3_cmp_ne ext3_float_b ext3_getitem_int_i ext3_mul_q_x ext3_mul_x_q ext3_add_x ext3_sub_x
  ext3_getitem_slice_x ext3_setitem_slice_x ext3_torch_min ext3_min_dim ext3_where
  ext3_dim_i ext3_t_i ext3_empty ext3_detach_i ext3_shape_i ext3_device_i ext3_add_i_int ext3_sub_i
  ext3_dtype_i ext3_dtype_x ext3_to_b_float ext3_to_i_float ext3_eq_m ext3_gt_m
  ext3_any ext3_to_b_long ext3_full ext3_arange_f ext3_float_inf ext3_full_like_inf ext3_triu
  ext3_unsqueeze_x ext3_unsqueeze_i ext3_expand_x
  ext3_unsqueeze_b ext3_expand_i ext3_zeros ext3_arange_i ext3_cmp_gt_is ext3_cmp_gt_xi ext3_cmp_eq_xx ext3_cmp_lt_ii ext3_and
  ext3_masked_fill_inf ext3_min_keep ext3_setitem_row_b : c03.

Lemma bind_ok {A B} (o : outcome A) (f : A -> state -> outcome B) v st1 r : o = Ok v st1 -> f v st1 = r -> bind o f = r.
Proof. intros -> <-. reflexivity. Qed.

Lemma stuck_then {A} (o : outcome A) w (e : outcome A) : o = Stuck w ->
  match o with Ok a st => Ok a st | Exc n st => Exc n st | Stuck _ => e end = e.
Proof. intros ->. reflexivity. Qed.

(* An expression is evaluated call by call: [tac] is handed each operand and each call with its arguments already values,
   never the continuation (whose strings alone make every pass over the whole term slow).  Where the interpreter's own
   operator or subscript is stuck on a library object (by computation), the unit's ext is asked. *)
Ltac by_binds tac :=
  lazymatch goal with
  | |- bind _ _ = _ => eapply bind_ok; [by_binds tac | cbv beta; by_binds tac]
  | |- Ok _ _ = _ => cbn; reflexivity
  | |- match _ with Ok _ _ => _ | Exc _ _ => _ | Stuck _ => _ end = _ =>
      first [ etransitivity; [eapply stuck_then; reflexivity|]; tac | tac ]
  | |- _ => tac
  end.

Ltac eval_by tac := cbn [eval]; by_binds tac.

(* closed forms of the tensor operations on tabulated arguments *)
Create HintDb c03tab discriminated.
#[export] Hint Rewrite nats_eqb_refl @map_map @map_tab2 @zipw_tab2
  @broadcast_mat_row @broadcast_same2 @broadcast_same1 @broadcast_3_mat @broadcast_col_row @broadcast_col_vec
  @broadcast_mat_row1 @broadcast_3_plane
  @where_row_mat @where_same1 @slice0_init @slice0_tail @set_slice0_tail
  @unsqueeze_1_0 @unsqueeze_1_1 @unsqueeze_2_m1 @squeeze_2_0 @unsqueeze_2_0 : c03tab.

(* one rewrite at a time: the strategies of rewrite_strat give up on the beta-redexes that these closed forms leave *)
Ltac tabs := cbv beta; repeat ((rewrite_strat (outermost (hints c03tab))); cbv beta).

(* the hints are found by the syntax of their left-hand sides: C07's device token, which the stages of the preamble hold,
   is put back under the name that the ext3_ lemmas use *)
Ltac ev3 := repeat (progress (cbn; change C07.SrcRun.device_token with device_token;
                              try (rewrite_strat (topdown (hints c03))); look)).
Ltac norm3 :=
  unfold bool_to_float, bool_to_long, long_to_float, ge_s, eq_s, cmp_scalar, add_s, bin_f, bin_i, cmp_i, map_t,
    gt_xi, eq_xx, and_bb, masked_fill, zip_same; cbn [shp dat]; tabs;
  cbn [option_map ret01 enc01].
Ltac evn3 := repeat (progress (ev3; norm3)).

Ltac seqnorm3 := repeat first [rewrite exec_seq_assoc | rewrite exec_seq_pass].

(* a step works with the statements after the next one behind a name: what it does to the goal and what it leaves in the
   proof term then do not grow with the rest of the program.  (The callers pass `idtac; match ..`: a match at the head of a
   tactic argument would be run when the argument is passed, before the name is set.) *)
Ltac hide_then tac :=
  lazymatch goal with
  | |- context [exec _ (SSeq _ ?c) _] => let r := fresh "rest" in set (r := c); tac; subst r
  | |- _ => tac
  end.
Ltac hiding tac :=
  lazymatch goal with
  | |- context [exec _ (SSeq (SAssign _ _) _) _] => hide_then tac
  | |- context [exec _ (SSeq (SIf _ _ _) _) _] => hide_then tac
  | |- context [exec _ (SSeq (SExpr _) _) _] => hide_then tac
  | |- _ => seqnorm3; hide_then tac
  end.

Ltac assign3x tac :=
  hiding ltac:(idtac;
  match goal with
  | |- context [exec ?X (SSeq (SAssign [TName ?x] ?e) ?b) ?st] =>
      let H := fresh "Hev" in
      eassert (H : eval X e st = Ok _ st); [ solve [eval_by tac] | rewrite (exec_seq_assign X x e b st _ _ H); clear H; push_state ]
  | |- context [exec ?X (SAssign [TName ?x] ?e) ?st] =>
      let H := fresh "Hev" in
      eassert (H : eval X e st = Ok _ st); [ solve [eval_by tac] | rewrite (exec_assign_ok X x e st _ _ H); clear H; push_state ]
  end).
Ltac asg3 := assign3x ltac:(evn3; reflexivity).

Ltac ifstep3_t tac :=
  hiding ltac:(idtac;
  match goal with
  | |- context [exec ?X (SSeq (SIf ?c ?t ?f) ?b) ?st] =>
      let H := fresh "Hev" in
      eassert (H : eval X c st = Ok _ st);
      [ solve [eval_by tac] | rewrite (exec_seq_if X c t f b st _ _ H); clear H; cbn [truthy] ]
  | |- context [exec ?X (SIf ?c ?t ?f) ?st] =>
      let H := fresh "Hev" in
      eassert (H : eval X c st = Ok _ st);
      [ solve [eval_by tac] | rewrite (exec_if_ok X c t f st _ _ H); clear H; cbn [truthy] ]
  end).
Ltac ifstep3 := ifstep3_t ltac:(evn3; reflexivity).

(* x[ke] = e on the tensor held by x; [tac] proves the evaluations and the $setitem call *)
Ltac setitem3_t tac :=
  hiding ltac:(idtac;
  match goal with
  | |- context [exec ?X (SSeq (SAssign [TSub (EName ?x) ?ke] ?e) ?b) ?st] =>
      let H1 := fresh "Hv" in let H2 := fresh "Hx" in let H3 := fresh "Hk" in let H4 := fresh "Hs" in
      eassert (H1 : eval X e st = Ok _ st); [ solve [eval_by tac] |];
      eassert (H2 : lookup x (vars st) = Some _); [ solve [look; reflexivity] |];
      eassert (H3 : eval X ke st = Ok _ st); [ solve [ev3; reflexivity] |];
      match type of H1 with _ = Ok ?v _ =>
      match type of H2 with _ = Some ?tv =>
      match type of H3 with _ = Ok ?kv _ =>
        eassert (H4 : X "$setitem" [tv; kv; v] [] st = Ok _ st); [ solve [tac] |];
        rewrite (xexec_seq_setitem X x ke e b st v kv tv _ H1 H2 I H3 H4); clear H1 H2 H3 H4; push_state
      end end end
  end).

Ltac assertstep3 :=
  hiding ltac:(idtac;
  match goal with
  | |- context [exec ?X (SSeq (SAssert ?e) ?b) ?st] =>
      let H := fresh "Hev" in
      eassert (H : eval X e st = Ok _ st); [ solve [evn3; reflexivity] | rewrite (exec_seq_assert X e b st _ H eq_refl); clear H ]
  end).

Ltac assign33 :=
  hiding ltac:(idtac;
  match goal with
  | |- context [exec ?X (SSeq (SAssign [TName ?x; TName ?y; TName ?z] ?e) ?b) ?st] =>
      let H := fresh "Hev" in
      eassert (H : eval X e st = Ok _ st);
      [ solve [evn3; reflexivity]
      | rewrite (exec_seq_assign3 X x y z e b st _ _ H); clear H; push_state; push_state; push_state ]
  end).

(* x.append(e) *)
Ltac append3_t tac :=
  hiding ltac:(idtac;
  match goal with
  | |- context [exec ?X (SSeq (SExpr (EMeth (EName ?x) "append" [?e] [])) ?b) ?st] =>
      let H1 := fresh "Hv" in let H2 := fresh "Hx" in
      eassert (H1 : eval X e st = Ok _ st); [ solve [eval_by tac] |];
      eassert (H2 : lookup x (vars st) = Some (VList _)); [ solve [look; reflexivity] |];
      rewrite (xexec_seq_append X x e b st _ _ H1 H2); clear H1 H2; push_state
  | |- context [exec ?X (SExpr (EMeth (EName ?x) "append" [?e] [])) ?st] =>
      let H1 := fresh "Hv" in let H2 := fresh "Hx" in
      eassert (H1 : eval X e st = Ok _ st); [ solve [eval_by tac] |];
      eassert (H2 : lookup x (vars st) = Some (VList _)); [ solve [look; reflexivity] |];
      rewrite (xexec_append X x e st _ _ H1 H2); clear H1 H2; push_state
  end).
Ltac append3 := append3_t ltac:(evn3; reflexivity).

(* the listed variables hold the listed values (C01.TieBlocks.known, restated so that TieBlocks need not be imported) *)
Fixpoint known3 (st : state) (l : list (string * val)) : Prop :=
  match l with
  | [] => True
  | (x, v) :: r => lookup x (vars st) = Some v /\ known3 st r
  end.

Ltac open_known3 H := cbn [known3 app] in H; repeat match type of H with _ /\ _ => let L := fresh "K" in destruct H as [L H] end; clear H.
Ltac close_known3 := cbn [known3 app]; repeat split; try assumption.

(* The symbolic runs reduce with cbn: the encodings, the environments and the tensor operations stay folded, and are
   handled by the lemmas above and by the closed forms of MiniTorch.LemmasC03. *)
#[global] Arguments tab2 : simpl never.
#[global] Arguments tab3 : simpl never.
#[global] Arguments qz : simpl never.
#[global] Arguments Z.add : simpl never.
#[global] Arguments Z.sub : simpl never.
#[global] Arguments Z.of_nat : simpl never.
#[global] Arguments select0 : simpl never.
#[global] Arguments slice0 : simpl never.
#[global] Arguments set_slice0 : simpl never.
#[global] Arguments broadcast : simpl never.
#[global] Arguments where_f : simpl never.
#[global] Arguments min_dim : simpl never.
#[global] Arguments min_dim_keep : simpl never.
#[global] Arguments set_row0 : simpl never.
#[global] Arguments stack0 : simpl never.
#[global] Arguments gather0 : simpl never.
#[global] Arguments unsqueeze : simpl never.
#[global] Arguments squeeze_dim : simpl never.
#[global] Arguments expand2 : simpl never.
#[global] Arguments triu_f : simpl never.
#[global] Arguments transpose2 : simpl never.
#[global] Arguments arange_f : simpl never.
#[global] Arguments arange : simpl never.
#[global] Arguments full : simpl never.
#[global] Arguments fadd : simpl never.
#[global] Arguments fsub : simpl never.
#[global] Arguments fmul : simpl never.
#[global] Arguments fdiv : simpl never.
#[global] Arguments fmin : simpl never.
#[global] Arguments fx_gtb : simpl never.
#[global] Arguments fx_eqb : simpl never.
#[global] Arguments b2f : simpl never.
#[global] Arguments z2f : simpl never.
#[global] Arguments argmin_3 : simpl never.
#[global] Arguments argmin_2 : simpl never.
#[global] Arguments seq : simpl never.
#[global] Arguments fmin_list : simpl never.
#[global] Arguments zrange : simpl never.
#[global] Arguments tab4 : simpl never.
#[global] Arguments Z.max : simpl never.
#[global] Arguments any_dim : simpl never.
#[global] Arguments sum_dim_b : simpl never.
#[global] Arguments masked_fill : simpl never.
#[global] Arguments eq_s : simpl never.
#[global] Arguments count_row : simpl never.
#[global] Arguments ext03_sm : simpl never.
#[global] Arguments ext03_oc : simpl never.
#[global] Arguments transpose3 : simpl never.
#[global] Arguments sort_last2 : simpl never.
#[global] Arguments expand_lead2 : simpl never.
#[global] Arguments gather_last3 : simpl never.
#[global] Arguments slice_last : simpl never.
#[global] Arguments cat_last : simpl never.
#[global] Arguments masked_select : simpl never.
#[global] Arguments masked_scatter : simpl never.
#[global] Arguments max_all : simpl never.
#[global] Arguments sort_row_idx : simpl never.
#[global] Arguments zmax_list : simpl never.
#[global] Arguments Nat.ltb : simpl never.
#[global] Arguments Nat.leb : simpl never.
#[global] Arguments call_body3 : simpl never.
#[global] Arguments Qeq_bool : simpl never.
#[global] Arguments Qcompare : simpl never.
#[global] Arguments any_b : simpl never.
#[global] Arguments C01.TieMath.zf : simpl never.
#[global] Arguments C01.TieMath.ofx : simpl never.
