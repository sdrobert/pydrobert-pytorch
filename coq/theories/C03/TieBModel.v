(* C03, second tie - the closed forms of TieB.v (what the statements of `hard_optimal_completion_distillation_loss` leave) are
   PV.C03.Model.hard_ocd_loss: per cell Model.step_loss of the oracle's log-probabilities and the targets, then the reductions.
   A float of the interpreted source is the REDUCED rational [Fq (Qred q)] of the model's value q (the model adds and divides
   without reducing; Qred q == q).  No interpreter in this file. *)
From Coq Require Import ZArith QArith List String Bool Arith Lia ZifyBool ZifyNat.
From PV Require Import MiniPy.Syntax MiniTorch.Ops MiniTorch.Lemmas MiniTorch.OpsC07 MiniTorch.LemmasC07
  MiniTorch.OpsC01 MiniTorch.LemmasC01 MiniTorch.OpsC03 MiniTorch.LemmasC03 MiniTorch.OpsC03B MiniTorch.LemmasC03B.
From PV Require Import C03.TieB.
From PV Require C01.Obs C01.Model C01.Proofs C03.Model C03.ProofsLoss.
Import ListNotations.

Notation qsum := C03.Model.qsum.
Notation step_loss := C03.Model.step_loss.

(* ---- lists -------------------------------------------------------------------------------------------------------------- *)
Definition nest2 {X} (A B : nat) (f : nat -> nat -> X) : list (list X) := map (fun a => map (f a) (seq 0 B)) (seq 0 A).

Lemma concat_nest2 : forall {X} A B (f : nat -> nat -> X), List.concat (nest2 A B f) = tab2 A B f.
Proof. intros. unfold nest2, tab2. now rewrite <- flat_map_concat_map. Qed.

Lemma nest2_ext : forall {X} A B (f g : nat -> nat -> X), (forall a b, (a < A)%nat -> (b < B)%nat -> f a b = g a b) -> nest2 A B f = nest2 A B g.
Proof. intros. unfold nest2. apply map_ext_seq. intros a Ha. apply map_ext_seq. intros b Hb. now apply H. Qed.

Lemma map2_nest2 : forall {X Y W} (F : X -> Y -> W) A B (f : nat -> nat -> X) (g : nat -> nat -> Y),
  C01.Model.map2 (fun r1 r2 => C01.Model.map2 F r1 r2) (nest2 A B f) (nest2 A B g) = nest2 A B (fun a b => F (f a b) (g a b)).
Proof.
  intros. unfold nest2. rewrite C01.Proofs.map2_map_seq. apply map_ext. intros a. apply C01.Proofs.map2_map_seq.
Qed.

Lemma transpose_nest2 : forall {X} (d : X) A B (f : nat -> nat -> X),
  C01.Model.transpose d B (nest2 A B f) = nest2 B A (fun b a => f a b).
Proof.
  intros. unfold C01.Model.transpose, C01.Model.col, nest2. apply map_ext_seq. intros b Hb.
  rewrite map_map. apply map_ext. intros a. now apply nth_map_seq.
Qed.

Lemma rect_nest2 : forall {X} (l : list (list X)) A B (d : X), List.length l = A -> (forall r, List.In r l -> List.length r = B) ->
  l = nest2 A B (fun a b => nth b (nth a l []) d).
Proof.
  intros X l A B d HA HB. unfold nest2. rewrite (list_as_map_nth l A [] HA) at 1. apply map_ext_seq. intros a Ha.
  apply list_as_map_nth. apply HB. apply nth_In. lia.
Qed.

Lemma filter_map_length : forall {X} (p : X -> bool) l, List.length (filter (fun b : bool => b) (map p l)) = List.length (filter p l).
Proof. intros. induction l as [|x l IH]; [reflexivity|]. cbn [map filter]. destruct (p x); cbn [List.length]; now rewrite IH. Qed.

Lemma qsum_concat : forall ll, (qsum (List.concat ll) == qsum (map qsum ll))%Q.
Proof.
  induction ll as [|l ll IH]; [reflexivity|]. cbn [List.concat map]. rewrite C03.ProofsLoss.qsum_app, IH. reflexivity.
Qed.

Lemma fsum_red_id : forall l, fsum (map (fun q => Fq (Qred q)) l) = Fq (Qred (qsum l)).
Proof. intros. rewrite (fsum_red (fun q : Q => q) l). now rewrite map_id. Qed.

Lemma mean_vec_model : forall n (f : nat -> fx) (q : nat -> Q), (0 < n)%nat -> (forall i, (i < n)%nat -> f i = Fq (Qred (q i))) ->
  mean_all_f (mkTn [n] (map f (seq 0 n))) = mkTn [] [Fq (Qred (qsum (map q (seq 0 n)) / inject_Z (Z.of_nat (List.length (map q (seq 0 n))))))].
Proof.
  intros n f q Hn Hf. unfold mean_all_f. cbn [dat]. do 2 f_equal.
  rewrite (map_ext_seq f (fun i => Fq (Qred (q i))) n Hf), (fsum_red q), !map_length, seq_length.
  apply fdiv_red_z. lia.
Qed.

(* ---- one cell --------------------------------------------------------------------------------------------------------------- *)
Section Cell.
  Variable lsm : list fx -> list Q.
  Variables (A B C V : nat) (lgv : nat -> nat -> list fx) (tf : nat -> nat -> nat -> Z) (w : option (list Q)) (ign : Z).
  Hypothesis Hlg : forall a b, (a < A)%nat -> (b < B)%nat -> List.length (lgv a b) = V.
  Hypothesis Hw : match w with Some wv => List.length wv = V | None => True end.
  Hypothesis Hok : forall a b c, (a < A)%nat -> (b < B)%nat -> (c < C)%nat -> class_ok ign V (tf a b c) = true.

  Definition lfn (a b v : nat) : fx := nth v (lgv a b) FNaN.
  Definition orow (a b : nat) : list Z := map (tf a b) (seq 0 C).
  Definition sl (a b : nat) : Q := step_loss ign w (lsm (lgv a b)) (orow a b).
  Definition pmf (a b c : nat) : bool := (tf a b c =? ign)%Z.

  Lemma lfn_row a b : (a < A)%nat -> (b < B)%nat -> map (lfn a b) (seq 0 V) = lgv a b.
  Proof. intros Ha Hb. unfold lfn. symmetry. apply list_as_map_nth. now apply Hlg. Qed.

  Lemma cell_entry a b c : (a < A)%nat -> (b < B)%nat -> (c < C)%nat ->
    (if (tf a b c =? ign)%Z then Fq 0 else cef lsm V lfn tf w ign a b c)
    = Fq (Qred (if (tf a b c =? ign)%Z then 0%Q else C03.Model.ce ign w (lsm (lgv a b)) (tf a b c))).
  Proof.
    intros Ha Hb Hc. destruct (tf a b c =? ign)%Z eqn:E; [reflexivity|].
    unfold cef, ce_entry, C03.Model.ce. rewrite E, lfn_row by assumption. cbv zeta.
    destruct w as [wv|]; cbn [option_map].
    - rewrite fneg_q.
      assert (Hr : (Z.to_nat (tf a b c) < List.length wv)%nat).
      { pose proof (Hok a b c Ha Hb Hc) as Hk. unfold class_ok in Hk. rewrite E in Hk. cbn [orb] in Hk. rewrite Hw. lia. }
      rewrite (C01.Proofs.nth_map_lt Fq wv _ 0%Q FNaN Hr). apply fmul_red_l.
    - rewrite fneg_q. f_equal. apply Qred_complete. ring.
  Qed.

  Lemma lossf_model a b : (a < A)%nat -> (b < B)%nat -> lossf lsm C V lfn tf w ign a b = Fq (Qred (sl a b)).
  Proof.
    intros Ha Hb. unfold lossf, sl, step_loss, orow.
    rewrite (map_ext_seq _ (fun c => Fq (Qred (if (tf a b c =? ign)%Z then 0%Q else C03.Model.ce ign w (lsm (lgv a b)) (tf a b c)))) C)
      by (intros c Hc; now apply cell_entry).
    rewrite (fsum_red (fun c => if (tf a b c =? ign)%Z then 0%Q else C03.Model.ce ign w (lsm (lgv a b)) (tf a b c))).
    unfold count_row. rewrite filter_map_length.
    rewrite fdiv_red_z by lia.
    rewrite !map_map. f_equal. f_equal. f_equal. f_equal. f_equal. f_equal.
    clear. induction (seq 0 C) as [|c l IH]; [reflexivity|]. cbn [map filter]. destruct (negb (tf a b c =? ign)%Z); cbn [List.length]; now rewrite IH.
  Qed.

  (* the un-reduced grid of the model *)
  Definition model_grid : list (list Q) := nest2 A B sl.
  Definition model_has : list (list bool) := nest2 A B (fun a b => C03.Model.has_target ign (orow a b)).

  Lemma hasf_model a b : hasf C pmf a b = C03.Model.has_target ign (orow a b).
  Proof. unfold hasf, C03.Model.has_target, orow, pmf. now rewrite !existsb_map. Qed.

  Lemma none_model : mkTn [A; B] (tab2 A B (lossf lsm C V lfn tf w ign)) = mkTn [A; B] (map (fun q => Fq (Qred q)) (List.concat model_grid)).
  Proof.
    f_equal. unfold model_grid. rewrite concat_nest2, map_tab2. apply tab2_ext. intros a b Ha Hb. now apply lossf_model.
  Qed.

  Lemma sum_model : sum_all_f (mkTn [A; B] (tab2 A B (lossf lsm C V lfn tf w ign))) = mkTn [] [Fq (Qred (qsum (map qsum model_grid)))].
  Proof.
    unfold sum_all_f. cbn [dat]. do 2 f_equal.
    rewrite (tab2_ext A B _ (fun a b => Fq (Qred (sl a b)))) by (intros; now apply lossf_model).
    rewrite <- (map_tab2 (fun q => Fq (Qred q))), fsum_red_id. f_equal. apply Qred_complete.
    unfold model_grid. rewrite <- concat_nest2. apply qsum_concat.
  Qed.

  Definition seq_val (gs : list Q) (bs : list bool) : Q :=
    (qsum gs / inject_Z (Z.max (Z.of_nat (C03.Model.count_true bs)) 1))%Q.

  Lemma seq_bf_model a : (a < A)%nat ->
    seq_bf B C (lossf lsm C V lfn tf w ign) pmf a = Fq (Qred (seq_val (map (sl a) (seq 0 B)) (map (fun b => C03.Model.has_target ign (orow a b)) (seq 0 B)))).
  Proof.
    intros Ha. unfold seq_bf, seq_val.
    rewrite (map_ext_seq _ (fun b => Fq (Qred (sl a b))) B) by (intros b Hb; now apply lossf_model).
    rewrite (fsum_red (sl a)). rewrite (map_ext _ _ (hasf_model a)).
    unfold count_row. rewrite fdiv_red_z by lia. reflexivity.
  Qed.

  Lemma seq_tf_model b : (b < B)%nat ->
    seq_tf A C (lossf lsm C V lfn tf w ign) pmf b = Fq (Qred (seq_val (map (fun a => sl a b) (seq 0 A)) (map (fun a => C03.Model.has_target ign (orow a b)) (seq 0 A)))).
  Proof.
    intros Hb. unfold seq_tf, seq_val.
    rewrite (map_ext_seq _ (fun a => Fq (Qred (sl a b))) A) by (intros a Ha; now apply lossf_model).
    rewrite (fsum_red (fun a => sl a b)). rewrite (map_ext _ _ (fun a => hasf_model a b)).
    unfold count_row. rewrite fdiv_red_z by lia. reflexivity.
  Qed.

End Cell.

(* ---- Model.hard_ocd_loss as a function of the targets ------------------------------------------------------------------------ *)
Definition loss_of (ign : Z) (w : option (list Q)) (red : C03.Model.reduction) (bf : bool) (N : nat)
  (logp : list (list (list Q))) (optimals : list (list (list Z))) : C03.Model.loss_out :=
  let grid := C01.Model.map2 (fun lrow orow => C01.Model.map2 (step_loss ign w) lrow orow) logp optimals in
  match red with
  | C03.Model.RNone => C03.Model.LossGrid grid
  | C03.Model.RSum => C03.Model.LossScalar (qsum (map qsum grid))
  | C03.Model.RMean =>
      let has := map (map (C03.Model.has_target ign)) optimals in
      let per_seq (g : list (list Q)) (hs : list (list bool)) :=
        C01.Model.map2 (fun gs bs => (qsum gs / inject_Z (Z.max (Z.of_nat (C03.Model.count_true bs)) 1))%Q) g hs in
      let seqs := if bf then per_seq grid has
                  else per_seq (C01.Model.transpose 0%Q N grid) (C01.Model.transpose false N has) in
      C03.Model.LossScalar (qsum seqs / inject_Z (Z.of_nat (List.length seqs)))%Q
  end.

Lemma hard_ocd_loss_of : forall c w red N ref hyp logp,
  C03.Model.hard_ocd_loss c w red N ref hyp logp =
  loss_of (C01.Model.c_pad c) w red (C01.Model.c_bf c) N logp (C03.Model.optimal_completion (C03.ProofsLoss.with_excl c) N ref hyp).
Proof. reflexivity. Qed.

(* the float tensor of a model result: reduced rationals; [sh] is the shape of the un-reduced grid *)
Definition loss_tensor (sh : list nat) (o : C03.Model.loss_out) : tn fx :=
  match o with
  | C03.Model.LossGrid g => mkTn sh (map (fun q => Fq (Qred q)) (List.concat g))
  | C03.Model.LossScalar q => mkTn [] [Fq (Qred q)]
  end.

Section Whole.
  Variable lsm : list fx -> list Q.
  Variables (A B C V : nat) (lgv : nat -> nat -> list fx) (tf : nat -> nat -> nat -> Z) (w : option (list Q)) (ign : Z).
  Hypothesis Hlg : forall a b, (a < A)%nat -> (b < B)%nat -> List.length (lgv a b) = V.
  Hypothesis Hw : match w with Some wv => List.length wv = V | None => True end.
  Hypothesis Hok : forall a b c, (a < A)%nat -> (b < B)%nat -> (c < C)%nat -> class_ok ign V (tf a b c) = true.

  Notation logp := (nest2 A B (fun a b => lsm (lgv a b))).
  Notation optimals := (nest2 A B (orow C tf)).
  Notation lossF := (lossf lsm C V (lfn lgv) tf w ign).

  Lemma grid_model : C01.Model.map2 (fun lrow orow => C01.Model.map2 (step_loss ign w) lrow orow) logp optimals = model_grid lsm A B C lgv tf w ign.
  Proof. rewrite map2_nest2. reflexivity. Qed.

  Lemma has_model : map (map (C03.Model.has_target ign)) optimals = model_has A B C tf ign.
  Proof. unfold nest2, model_has, nest2. rewrite map_map. apply map_ext. intros a. now rewrite map_map. Qed.

  Lemma result_none : forall bf N,
    mkTn [A; B] (tab2 A B lossF) = loss_tensor [A; B] (loss_of ign w C03.Model.RNone bf N logp optimals).
  Proof. intros. unfold loss_of, loss_tensor. rewrite grid_model. now apply none_model. Qed.

  Lemma result_sum : forall bf N,
    sum_all_f (mkTn [A; B] (tab2 A B lossF)) = loss_tensor [A; B] (loss_of ign w C03.Model.RSum bf N logp optimals).
  Proof. intros. unfold loss_of, loss_tensor. rewrite grid_model. now apply sum_model. Qed.

  (* batch_first: A = N sequences, B time steps *)
  Lemma result_mean_bf : forall N, (0 < A)%nat ->
    mean_all_f (mkTn [A] (map (seq_bf B C lossF (pmf tf ign)) (seq 0 A))) = loss_tensor [A; B] (loss_of ign w C03.Model.RMean true N logp optimals).
  Proof.
    intros N HA. unfold loss_of, loss_tensor. cbv zeta. rewrite grid_model, has_model.
    unfold model_grid, model_has, nest2. rewrite C01.Proofs.map2_map_seq.
    apply mean_vec_model with (q := fun a => seq_val (map (sl lsm C lgv tf w ign a) (seq 0 B)) (map (fun b => C03.Model.has_target ign (orow C tf a b)) (seq 0 B))); [exact HA|].
    intros a Ha. exact (seq_bf_model lsm A B C V lgv tf w ign Hlg Hw Hok a Ha).
  Qed.

  (* time first: A time steps, B = N sequences *)
  Lemma result_mean_tf : (0 < B)%nat ->
    mean_all_f (mkTn [B] (map (seq_tf A C lossF (pmf tf ign)) (seq 0 B))) = loss_tensor [A; B] (loss_of ign w C03.Model.RMean false B logp optimals).
  Proof.
    intros HB. unfold loss_of, loss_tensor. cbv zeta. rewrite grid_model, has_model.
    unfold model_grid, model_has. rewrite !transpose_nest2. unfold nest2. rewrite C01.Proofs.map2_map_seq.
    apply mean_vec_model with (q := fun b => seq_val (map (fun a => sl lsm C lgv tf w ign a b) (seq 0 A)) (map (fun a => C03.Model.has_target ign (orow C tf a b)) (seq 0 A))); [exact HB|].
    intros b Hb. exact (seq_tf_model lsm A B C V lgv tf w ign Hlg Hw Hok b Hb).
  Qed.
End Whole.
