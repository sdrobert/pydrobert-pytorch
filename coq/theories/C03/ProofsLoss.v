(* C03 — hard_optimal_completion_distillation_loss: at each (prefix, pair) the loss is the mean
   over the listed targets of -log p(t) (times the class weight when one is given), zero when
   nothing is listed ([step_loss_formula], [loss_entry_formula]); 'sum' adds all entries and
   'mean' divides each sequence's sum by its number of steps that have a target, then averages
   over the batch ([loss_sum], [loss_mean]).  Exact rationals; log-probabilities are data. *)
From Coq Require Import List ZArith QArith Bool Arith Lia Sorted.
From PV Require Import C01.Obs C01.Spec C01.Model C01.LevFacts C01.Proofs.
From PV Require Import C03.Spec C03.Model C03.ProofsSpec C03.ProofsMask C03.ProofsSelect C03.ProofsTop C03.ProofsMain.
Import ListNotations.
Local Open Scope Z_scope.

(* ---- sums of rationals ------------------------------------------------------------------------ *)
Lemma qsum_cons x l : qsum (x :: l) = (x + qsum l)%Q.
Proof. reflexivity. Qed.

Lemma qsum_app l1 l2 : (qsum (l1 ++ l2) == qsum l1 + qsum l2)%Q.
Proof.
  induction l1 as [|x l1 IH]; cbn [app].
  - change (qsum []) with 0%Q. ring.
  - rewrite !qsum_cons, IH. ring.
Qed.

Lemma qsum_zeros n : (qsum (repeat 0%Q n) == 0)%Q.
Proof.
  induction n as [|n IH]; cbn [repeat]; [reflexivity|].
  rewrite qsum_cons, IH. ring.
Qed.

(* -log p(t) * weight(t): what one listed token contributes *)
Definition nll (w : option (list Q)) (lp : list Q) (t : Z) : Q :=
  (- nth (Z.to_nat t) lp 0%Q * match w with Some wv => nth (Z.to_nat t) wv 0%Q | None => 1%Q end)%Q.

Lemma filter_app_pads ign (L : list Z) n : ~ In ign L ->
  filter (fun t => negb (t =? ign)) (L ++ repeat ign n) = L.
Proof.
  intros Hni. rewrite filter_app.
  assert (E1 : filter (fun t => negb (t =? ign)) L = L).
  { induction L as [|x L IH]; [reflexivity|]. cbn [filter].
    destruct (x =? ign) eqn:E; [apply Z.eqb_eq in E; exfalso; apply Hni; left; exact E|].
    cbn [negb]. f_equal. apply IH. intros H. apply Hni. right. exact H. }
  assert (E2 : filter (fun t => negb (t =? ign)) (repeat ign n) = []).
  { induction n as [|n IH]; [reflexivity|]. cbn [repeat filter]. rewrite Z.eqb_refl. exact IH. }
  rewrite E1, E2. apply app_nil_r.
Qed.

(* mechanism 3: cross entropy with ignore_index, averaged over the non-padding targets *)
Theorem step_loss_formula ign w lp (L : list Z) n : ~ In ign L ->
  (step_loss ign w lp (L ++ repeat ign n) == qmean (nll w lp) L)%Q.
Proof.
  intros Hni. unfold step_loss. rewrite filter_app_pads by exact Hni.
  rewrite map_app.
  assert (E1 : map (fun t => if t =? ign then 0%Q else ce ign w lp t) L = map (nll w lp) L).
  { apply map_ext_in. intros t Ht. unfold ce.
    destruct (t =? ign) eqn:E; [apply Z.eqb_eq in E; subst t; contradiction|reflexivity]. }
  assert (E2 : map (fun t => if t =? ign then 0%Q else ce ign w lp t) (repeat ign n) = repeat 0%Q n).
  { induction n as [|n' IHn]; [reflexivity|]. cbn [repeat map]. rewrite Z.eqb_refl, IHn. reflexivity. }
  rewrite E1, E2. destruct L as [|x L].
  - cbn [map app length qmean]. rewrite qsum_zeros. reflexivity.
  - unfold qmean. fold (qsum (map (nll w lp) (x :: L))).
    replace (Z.max (Z.of_nat (length (x :: L))) 1) with (Z.of_nat (length (x :: L)))
      by (cbn [length]; lia).
    rewrite qsum_app, qsum_zeros. unfold Qdiv. ring.
Qed.

Lemma has_target_pads ign (L : list Z) n : ~ In ign L ->
  has_target ign (L ++ repeat ign n) = negb (Nat.eqb (length L) 0).
Proof.
  intros Hni. unfold has_target. destruct L as [|x L]; cbn [app length Nat.eqb negb].
  - induction n as [|n IH]; [reflexivity|]. cbn [repeat existsb]. rewrite Z.eqb_refl. exact IH.
  - cbn [existsb]. destruct (x =? ign) eqn:E; [apply Z.eqb_eq in E; exfalso; apply Hni; left; exact E|reflexivity].
Qed.

(* ---- shapes ------------------------------------------------------------------------------------- *)
Lemma oc_length c N ref hyp :
  length (optimal_completion c N ref hyp) = if c_bf c then N else oc_rows c N hyp.
Proof.
  unfold optimal_completion, transpose01, unflatten. destruct (c_bf c); rewrite map_length, seq_length; reflexivity.
Qed.

Lemma oc_row_length c N ref hyp i :
  (i < if c_bf c then N else oc_rows c N hyp)%nat ->
  length (nth i (optimal_completion c N ref hyp) []) = if c_bf c then oc_rows c N hyp else N.
Proof.
  unfold optimal_completion, transpose01, unflatten. destruct (c_bf c); intros Hi;
    rewrite nth_map_seq by exact Hi; rewrite map_length, seq_length; reflexivity.
Qed.

(* log-probabilities laid out like hyp, plus the class axis *)
Definition wf_logp (bf : bool) (N T : nat) (logp : list (list (list Q))) : Prop :=
  if bf then length logp = N /\ (forall row, In row logp -> length row = T)
  else length logp = T /\ (forall row, In row logp -> length row = N).

Definition entryQ (bf : bool) (k n : nat) (g : list (list Q)) : Q :=
  if bf then nth k (nth n g []) 0%Q else nth n (nth k g []) 0%Q.

Definition entryL (bf : bool) (k n : nat) (g : list (list (list Q))) : list Q :=
  if bf then nth k (nth n g []) [] else nth n (nth k g []) [].

Definition with_excl (c : cfg) : cfg :=
  mkCfg (c_eos c) (c_incl c) (c_norm c) (c_bf c) (c_ins c) (c_del c) (c_sub c) (c_pad c) true.

(* the grid the loss computes before any reduction *)
Definition loss_grid (c : cfg) (w : option (list Q)) (N : nat) (ref hyp : list (list Z))
  (logp : list (list (list Q))) : list (list Q) :=
  map2 (fun lrow orow => map2 (step_loss (c_pad c) w) lrow orow) logp
       (optimal_completion (with_excl c) N ref hyp).

Lemma hard_ocd_loss_none c w N ref hyp logp :
  hard_ocd_loss c w RNone N ref hyp logp = LossGrid (loss_grid c w N ref hyp logp).
Proof. reflexivity. Qed.

Section Loss.
  Variable c : cfg.
  Variable w : option (list Q).
  Variables (N : nat) (ref hyp : list (list Z)) (logp : list (list (list Q))).
  Let bf := c_bf c.
  Let T := time_len bf hyp.
  Let c' := with_excl c.
  Let ign := c_pad c.
  Hypothesis HT : (1 <= T)%nat.
  Hypothesis HN : (1 <= N)%nat.
  Hypothesis Hwr : wf_tensor bf N ref.
  Hypothesis Hwh : wf_tensor bf N hyp.
  Hypothesis Hlp : wf_logp bf N T logp.

  Lemma rows_T : oc_rows c' N hyp = T.
  Proof.
    rewrite (oc_rows_time c' N ref hyp 0) by (assumption || lia).
    cbn [c_excl c_bf with_excl c']. fold bf. fold T. lia.
  Qed.

  (* entry (k, n) of the un-reduced loss: step_loss of that cell's log-probs and targets *)
  Lemma loss_grid_entry k n : (k < T)%nat -> (n < N)%nat ->
    entryQ bf k n (loss_grid c w N ref hyp logp)
    = step_loss ign w (entryL bf k n logp) (entry3 bf k n (optimal_completion c' N ref hyp)).
  Proof.
    intros Hk Hn. unfold loss_grid, entryQ, entryL, entry3. fold c'. fold ign.
    pose proof (oc_length c' N ref hyp) as HL. pose proof (oc_row_length c' N ref hyp) as HR.
    rewrite rows_T in HL, HR. unfold wf_logp in Hlp. cbn [c_bf with_excl c'] in HL, HR. fold bf in HL, HR, Hlp.
    destruct bf; destruct Hlp as [Hl1 Hl2].
    - rewrite (nth_map2 _ _ _ n [] [] []) by lia.
      rewrite (nth_map2 _ _ _ k [] [] 0%Q); [reflexivity| |].
      + rewrite (Hl2 (nth n logp [])) by (apply nth_In; lia). exact Hk.
      + rewrite HR by exact Hn. exact Hk.
    - rewrite (nth_map2 _ _ _ k [] [] []) by lia.
      rewrite (nth_map2 _ _ _ n [] [] 0%Q); [reflexivity| |].
      + rewrite (Hl2 (nth k logp [])) by (apply nth_In; lia). exact Hn.
      + rewrite HR by exact Hk. exact Hn.
  Qed.

  Lemma loss_grid_length : length (loss_grid c w N ref hyp logp) = if bf then N else T.
  Proof.
    unfold loss_grid. rewrite map2_length, oc_length. fold c'. rewrite rows_T.
    unfold wf_logp in Hlp. cbn [c_bf with_excl c']. fold bf. destruct bf; destruct Hlp as [-> _]; lia.
  Qed.

  Lemma loss_grid_row_length i : (i < if bf then N else T)%nat ->
    length (nth i (loss_grid c w N ref hyp logp) []) = if bf then T else N.
  Proof.
    intros Hi. unfold loss_grid. pose proof (oc_length c' N ref hyp) as HL.
    pose proof (oc_row_length c' N ref hyp i) as HR. rewrite rows_T in HL, HR.
    cbn [c_bf with_excl c'] in HL, HR. fold bf in HL, HR. fold c'.
    unfold wf_logp in Hlp. destruct bf; destruct Hlp as [Hl1 Hl2];
      rewrite (nth_map2 _ _ _ i [] [] []) by lia; rewrite map2_length, HR by exact Hi;
      rewrite (Hl2 (nth i logp [])) by (apply nth_In; lia); lia.
  Qed.

  (* ---- the reductions ----------------------------------------------------------------------- *)
  Notation G := (loss_grid c w N ref hyp logp).
  Notation OC := (optimal_completion c' N ref hyp).

  (* the losses of sequence n over time, and which of its steps have a target at all *)
  Definition seq_losses (n : nat) : list Q := map (fun k => entryQ bf k n G) (seq 0 T).
  Definition seq_has (n : nat) : list bool :=
    map (fun k => has_target ign (entry3 bf k n OC)) (seq 0 T).
  Definition seq_mean (n : nat) : Q :=
    (qsum (seq_losses n) / inject_Z (Z.max (Z.of_nat (count_true (seq_has n))) 1))%Q.

  Theorem loss_sum : hard_ocd_loss c w RSum N ref hyp logp = LossScalar (qsum (map qsum G)).
  Proof. reflexivity. Qed.

  Theorem loss_mean :
    hard_ocd_loss c w RMean N ref hyp logp
    = LossScalar (qsum (map seq_mean (seq 0 N)) / inject_Z (Z.of_nat N))%Q.
  Proof.
    pose proof loss_grid_length as HGL. pose proof loss_grid_row_length as HGR.
    pose proof (oc_length c' N ref hyp) as HOL. pose proof (oc_row_length c' N ref hyp) as HOR.
    rewrite rows_T in HOL, HOR. cbn [c_bf with_excl c'] in HOL, HOR. fold bf in HOL, HOR.
    set (F := fun (gs : list Q) (bs : list bool) =>
                (qsum gs / inject_Z (Z.max (Z.of_nat (count_true bs)) 1))%Q).
    assert (Hseqs : (if c_bf c then map2 F G (map (map (has_target ign)) OC)
                     else map2 F (transpose 0%Q N G) (transpose false N (map (map (has_target ign)) OC)))
                    = map seq_mean (seq 0 N)).
    { fold bf. unfold seq_mean, seq_losses, seq_has, entryQ, entry3. destruct bf.
      - rewrite (map2_seq F _ _ N [] []) by (rewrite ?map_length; assumption).
        apply map_ext_in. intros n Hn. apply in_seq in Hn. unfold F. f_equal; [f_equal|].
        + rewrite <- (HGR n) by lia. symmetry. apply map_nth_seq.
        + do 4 f_equal. rewrite (nth_map_lt _ _ n []) by lia.
          rewrite <- (map_nth_seq (nth n OC []) []) at 1.
          rewrite map_map, (HOR n) by lia. reflexivity.
      - unfold transpose. rewrite map2_map_seq. apply map_ext_in. intros n Hn. apply in_seq in Hn.
        unfold F, col. f_equal; [f_equal|].
        + rewrite <- (map_nth_seq G []) at 1. rewrite map_map, HGL. reflexivity.
        + do 4 f_equal. rewrite map_map. rewrite <- (map_nth_seq OC []) at 1. rewrite map_map, HOL.
          apply map_ext_in. intros k Hk. apply in_seq in Hk.
          apply (nth_map_lt _ _ n []). rewrite HOR by lia. lia. }
    match type of Hseqs with ?X = _ =>
      change (LossScalar (qsum X / inject_Z (Z.of_nat (length X)))%Q
              = LossScalar (qsum (map seq_mean (seq 0 N)) / inject_Z (Z.of_nat N))%Q)
    end.
    rewrite Hseqs, map_length, seq_length. reflexivity.
  Qed.

  Section Pair.
    Variable n : nat.
    Hypothesis Hn : (n < N)%nat.
    Let R := denote (c_eos c) (c_incl c) (seq_of bf n ref).
    Let Hy := denote (c_eos c) (c_incl c) (seq_of bf n hyp).
    (* ignore_index is not a counted reference token *)
    Hypothesis Hign : ~ In ign R.

    (* "the average negative log-probability the model assigns to those tokens ... and zero
       where there are none": for every prefix k that exists (k < |hyp|; the loss excludes
       the full hypothesis) *)
    Theorem loss_entry_formula k :
      0 < c_ins c -> 0 < c_del c -> 0 < c_sub c -> (k < length Hy)%nat ->
      exists L,
        NoDup L /\
        (forall t, In t L <-> preserving (c_ins c) (c_del c) (c_sub c) R (firstn k Hy) t) /\
        (entryQ bf k n (loss_grid c w N ref hyp logp) == qmean (nll w (entryL bf k n logp)) L)%Q.
    Proof.
      intros Hi Hd Hs Hk.
      assert (HkT : (k < T)%nat).
      { pose proof (hl_le_T c' N hyp n Hn Hwh) as H. cbn [c_bf c_eos c_incl with_excl c'] in H.
        fold bf in H. fold T in H. unfold Hy in Hk. rewrite length_denote in Hk. lia. }
      destruct (oc_row_correct c' N ref hyp n Hn Hwr Hwh k Hi Hd Hs) as [L [Hent [Hle [Hsorted Hin]]]].
      { right. cbn [c_excl c_bf c_eos c_incl with_excl c']. fold bf. fold Hy. lia. }
      cbn [c_bf c_eos c_incl c_ins c_del c_sub c_pad with_excl c'] in Hent, Hin. fold bf in Hent, Hin.
      fold R in Hin. fold Hy in Hin. fold ign in Hent.
      exists L. split; [apply strictly_sorted_nodup; exact Hsorted|]. split; [exact Hin|].
      rewrite loss_grid_entry by assumption. rewrite Hent.
      apply step_loss_formula. intros Hc. apply Hign.
      apply (preserving_in_ref _ _ _ Hi Hd Hs R (firstn k Hy)). apply Hin. exact Hc.
    Qed.

    (* past the end of the hypothesis the loss is zero *)
    Theorem loss_entry_past_end k : (1 <= k)%nat -> (k < T)%nat -> (length Hy <= k)%nat ->
      (entryQ bf k n (loss_grid c w N ref hyp logp) == 0)%Q.
    Proof.
      intros H1 HkT Hpast. rewrite loss_grid_entry by assumption.
      assert (Hp : entry3 bf k n (optimal_completion c' N ref hyp) = repeat ign (oc_width c' N ref hyp)).
      { apply (oc_past_end_is_padding c' N ref hyp n Hn Hwr Hwh k H1).
        - rewrite rows_T. exact HkT.
        - cbn [c_excl c_bf c_eos c_incl with_excl c']. fold bf. fold Hy. lia. }
      rewrite Hp. apply (step_loss_formula ign w _ [] _). intros [].
    Qed.
  End Pair.
End Loss.
