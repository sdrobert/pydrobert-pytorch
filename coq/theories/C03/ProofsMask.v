(* C03 — the mask returned by _string_matching(return_mask=True), one column.
   The rows with +inf agree with the Levenshtein table of C01 on positions <= ref_len
   ([row_ok], by the lemmas of C01.Proofs: cand_row_0/S, tri_prefix, sweep_cand_lrow), the
   +inf fill makes the row minimum the minimum over positions <= ref_len, and so
   [pair_masks_spec]: mask[k][i] holds iff i < ref_len, the prefix k is live, and position i
   is a minimum of the table row of prefix k restricted to 0..ref_len. *)
From Coq Require Import List ZArith Bool Arith Lia.
From PV Require Import C01.Obs C01.Spec C01.Model C01.LevFacts C01.Proofs C03.Model.
Import ListNotations.
Local Open Scope Z_scope.

(* ---- minima of lists with +inf --------------------------------------------------------- *)
Lemma omin_list_cons a l : omin_list (a :: l) = omin a (omin_list l).
Proof. reflexivity. Qed.

Lemma omin_list_has l v : In (Some v) l -> exists m, omin_list l = Some m.
Proof.
  induction l as [|a l IH]; intros Hin; [destruct Hin|].
  rewrite omin_list_cons. destruct Hin as [->|Hin].
  - destruct (omin_list l); cbn [omin]; eexists; reflexivity.
  - destruct (IH Hin) as [m ->]. destruct a; cbn [omin]; eexists; reflexivity.
Qed.

Lemma omin_list_le l m : omin_list l = Some m -> forall v, In (Some v) l -> m <= v.
Proof.
  revert m. induction l as [|a l IH]; intros m E v Hin; [destruct Hin|].
  rewrite omin_list_cons in E. destruct Hin as [->|Hin].
  - destruct (omin_list l) as [y|]; cbn [omin] in E; inversion E; lia.
  - destruct (omin_list_has l v Hin) as [y El]. rewrite El in E. specialize (IH y El v Hin).
    destruct a as [x|]; cbn [omin] in E; inversion E; lia.
Qed.

Lemma omin_list_in l m : omin_list l = Some m -> In (Some m) l.
Proof.
  revert m. induction l as [|a l IH]; intros m E; [discriminate E|].
  rewrite omin_list_cons in E. destruct a as [x|], (omin_list l) as [y|]; cbn [omin] in E.
  - inversion E. destruct (Z.min_spec x y) as [[_ Em]|[_ Em]]; rewrite Em.
    + left. reflexivity.
    + right. apply IH. reflexivity.
  - inversion E. left. reflexivity.
  - right. apply IH. exact E.
  - discriminate E.
Qed.

(* ---- the deletion fold on rows with +inf ------------------------------------------------- *)
Lemma odel_fold_length cd v : length (odel_fold cd v) = length v.
Proof. unfold odel_fold. rewrite map_length, seq_length. reflexivity. Qed.

(* entry i only looks at entries <= i; where those are finite it is the sequential sweep *)
Lemma odel_fold_nth cd v z i : (i < length v)%nat ->
  (forall j, (j <= i)%nat -> nth j v None = Some (nth j z 0)) ->
  nth i (odel_fold cd v) None = Some (sweep_at cd z i).
Proof.
  intros Hi Hag. unfold odel_fold. rewrite nth_map_seq by exact Hi. cbn [Nat.add].
  replace (length v) with (S i + (length v - S i))%nat at 1 by lia.
  rewrite seq_app, map_app, omin_list_app.
  rewrite (map_ext_in _ (fun _ => None) (seq (0 + S i) (length v - S i))).
  2:{ intros j Hj. apply in_seq in Hj. unfold del_entry.
      destruct (j <=? i)%nat eqn:E; [apply Nat.leb_le in E; lia|reflexivity]. }
  rewrite omin_list_none.
  rewrite (map_ext_in _ (fun j => Some (Z.of_nat i * cd - Z.of_nat j * cd + nth j z 0)) (seq 0 (S i))).
  2:{ intros j Hj. apply in_seq in Hj. unfold del_entry.
      destruct (j <=? i)%nat eqn:E; [|apply Nat.leb_gt in E; lia].
      rewrite Hag by lia. reflexivity. }
  rewrite tri_prefix by lia. cbn [omin]. f_equal. lia.
Qed.

Section Mask.
  Variables ci cd cs : Z.
  Variables r h : list Z.
  Variables rlen hlen : nat.
  Variable excl : bool.

  (* ---- the candidate row (insertions, substitutions) and the +inf fill, entry by entry: for any lengths --------- *)
  Definition ocand (tok m : Z) (last : list (option Z)) : list (option Z) :=
    let neq_mask := map (fun a => if a =? tok then 0 else 1) r in
    let row := map (fun x => oadd x (ci * m)) last in
    let sub_row := map2 (fun x m => oadd x (cs * m)) (removelast last) neq_mask in
    hd None row :: map2 omin (tl row) sub_row.

  Lemma ocand_length tok m last : length last = S (length r) ->
    length (ocand tok m last) = S (length r).
  Proof.
    intros HL. unfold ocand. cbn [length].
    rewrite !map2_length, length_tl, length_removelast, !map_length, HL. lia.
  Qed.

  Lemma ocand_0 tok m last : length last = S (length r) ->
    nth 0 (ocand tok m last) None = oadd (nth 0 last None) (ci * m).
  Proof.
    intros HL. unfold ocand. cbn [nth]. rewrite hd_nth0.
    rewrite (nth_map_lt _ last 0%nat None) by lia. reflexivity.
  Qed.

  Lemma ocand_S tok m last i : length last = S (length r) -> (i < length r)%nat ->
    nth (S i) (ocand tok m last) None =
    omin (oadd (nth (S i) last None) (ci * m))
         (oadd (nth i last None) (cs * (if nth i r 0 =? tok then 0 else 1))).
  Proof.
    intros HL Hi. unfold ocand. cbn [nth].
    rewrite (nth_map2 omin _ _ i None None None).
    2:{ rewrite length_tl, map_length, HL. lia. }
    2:{ rewrite map2_length, length_removelast, map_length, HL. lia. }
    rewrite nth_tl, (nth_map_lt _ last (S i) None) by lia.
    rewrite (nth_map2 _ _ _ i None 0 None).
    2:{ rewrite length_removelast, HL. lia. }
    2:{ rewrite map_length. exact Hi. }
    rewrite nth_removelast by lia.
    rewrite (nth_map_lt _ r i 0) by exact Hi. reflexivity.
  Qed.

  Lemma inf_past_length row : length (inf_past rlen row) = length row.
  Proof. unfold inf_past. rewrite map2_length, seq_length. lia. Qed.

  Lemma inf_past_nth row i : (i < length row)%nat ->
    nth i (inf_past rlen row) None = if (rlen <? i)%nat then None else nth i row None.
  Proof.
    intros Hi. unfold inf_past.
    rewrite (nth_map2 _ _ _ i 0%nat None None) by (rewrite ?seq_length; exact Hi).
    rewrite seq_nth by exact Hi. reflexivity.
  Qed.

  Hypothesis Hr : (rlen <= length r)%nat.
  Hypothesis Hh : (hlen <= length h)%nat.
  Notation lev := (lev ci cd cs).
  Notation fz := (frozen hlen excl).
  Notation nd := (not_done_at hlen excl).

  (* entry i of the table row of hypothesis prefix k *)
  Definition tab (k i : nat) : Z := lev (firstn i r) (firstn k h).

  (* position i is a minimum of row k among positions 0..ref_len *)
  Definition row_argmin (k i : nat) : Prop := forall i', (i' <= rlen)%nat -> tab k i <= tab k i'.

  Definition row_ok (k : nat) (row : list (option Z)) : Prop :=
    length row = S (length r) /\
    forall i, (i <= rlen)%nat -> nth i row None = Some (tab (Nat.min k fz) i).

  Lemma orow0_ok : row_ok 0 (orow0 cd r).
  Proof.
    split; [unfold orow0; rewrite map_length, seq_length; reflexivity|].
    intros i Hi. unfold orow0. rewrite nth_map_seq by lia. cbn [Nat.add Nat.min]. unfold tab.
    cbn [firstn]. rewrite lev_nil_r, firstn_length, Nat.min_l by lia. reflexivity.
  Qed.

  Lemma ostep_row_unfold idx last :
    ostep_row ci cd cs r h hlen excl idx last =
    if nd idx
    then odel_fold cd (ocand (nth (idx - 1) h 0) (if (idx <=? hlen)%nat then 1 else 0) last)
    else last.
  Proof. reflexivity. Qed.

  (* where the previous row is finite and equals z, the candidates are C01's candidates *)
  Lemma ocand_agree tok m last z :
    length last = S (length r) -> length z = S (length r) ->
    (forall i, (i <= rlen)%nat -> nth i last None = Some (nth i z 0)) ->
    forall i, (i <= rlen)%nat ->
      nth i (ocand tok m last) None = Some (nth i (cand_row ci cs r tok m z) 0).
  Proof.
    intros HL Hz Hag i Hi. destruct i as [|i].
    - rewrite ocand_0, cand_row_0, Hag by (assumption || lia). reflexivity.
    - rewrite ocand_S, cand_row_S by (assumption || lia).
      rewrite !Hag by lia. reflexivity.
  Qed.

  (* ---- one step keeps the invariant ------------------------------------------------------- *)
  Lemma nd_live k : (1 <= k)%nat -> nd k = true -> (k <= fz)%nat /\ (k <= hlen)%nat.
  Proof.
    intros H1 E. unfold not_done_at in E. apply Nat.ltb_lt in E. unfold frozen.
    destruct excl; lia.
  Qed.

  Lemma nd_dead k : (1 <= k)%nat -> nd k = false -> (fz < k)%nat.
  Proof.
    intros H1 E. unfold not_done_at in E. apply Nat.ltb_ge in E. unfold frozen.
    destruct excl; lia.
  Qed.

  Lemma ostep_row_ok k last : (1 <= k)%nat -> row_ok (k - 1) last ->
    row_ok k (ostep_row ci cd cs r h hlen excl k last).
  Proof.
    intros H1 [HL Hag]. rewrite ostep_row_unfold. destruct (nd k) eqn:End.
    - destruct (nd_live k H1 End) as [Hfz Hk].
      replace (k <=? hlen)%nat with true by (symmetry; apply Nat.leb_le; exact Hk).
      split; [rewrite odel_fold_length; apply ocand_length; exact HL|].
      intros i Hi. rewrite Nat.min_l by exact Hfz.
      rewrite (odel_fold_nth cd _ (cand_row ci cs r (nth (k - 1) h 0) 1 (lrow ci cd cs r h (k - 1)))).
      + rewrite sweep_cand_lrow by lia. unfold tab. replace (S (k - 1)) with k by lia. reflexivity.
      + rewrite ocand_length by exact HL. lia.
      + intros j Hj. apply ocand_agree; [exact HL|apply lrow_length| |lia].
        intros i' Hi'. rewrite Hag by exact Hi'. rewrite Nat.min_l by lia.
        rewrite lrow_nth by lia. reflexivity.
    - pose proof (nd_dead k H1 End) as Hfz. split; [exact HL|].
      intros i Hi. rewrite Hag by exact Hi. rewrite !Nat.min_r by lia. reflexivity.
  Qed.

  (* ---- the +inf fill --------------------------------------------------------------------- *)
  Lemma inf_past_ok k row : row_ok k row -> row_ok k (inf_past rlen row).
  Proof.
    intros [HL Hag]. split; [rewrite inf_past_length; exact HL|].
    intros i Hi. rewrite inf_past_nth by lia.
    replace (rlen <? i)%nat with false by (symmetry; apply Nat.ltb_ge; exact Hi). apply Hag. exact Hi.
  Qed.

  (* the minimum of the filled row is the minimum of the table row over 0..ref_len *)
  Lemma mins_spec k row : row_ok k row ->
    exists m, omin_list (inf_past rlen row) = Some m /\
              (forall i, (i <= rlen)%nat -> m <= tab (Nat.min k fz) i) /\
              (exists i, (i <= rlen)%nat /\ m = tab (Nat.min k fz) i).
  Proof.
    intros Hok. pose proof (inf_past_ok k row Hok) as [HL Hag]. destruct Hok as [HL0 Hag0].
    assert (Hin : forall i, (i <= rlen)%nat -> In (Some (tab (Nat.min k fz) i)) (inf_past rlen row)).
    { intros i Hi. rewrite <- Hag by exact Hi. apply nth_In. lia. }
    destruct (omin_list_has _ _ (Hin 0%nat ltac:(lia))) as [m Em]. exists m.
    split; [exact Em|]. split.
    - intros i Hi. apply (omin_list_le _ _ Em). apply Hin. exact Hi.
    - apply omin_list_in in Em. apply (In_nth _ _ None) in Em as [i [Hi Ei]].
      rewrite inf_past_length in Hi. rewrite inf_past_nth in Ei by exact Hi.
      destruct (rlen <? i)%nat eqn:E; [discriminate Ei|]. apply Nat.ltb_ge in E.
      exists i. split; [exact E|]. rewrite Hag0 in Ei by exact E. inversion Ei. reflexivity.
  Qed.

  (* ---- the mask bits of one step ---------------------------------------------------------- *)
  Notation mstep := (mask_step ci cd cs r h rlen hlen excl).

  Lemma mask_step_fst_ok k last : (1 <= k)%nat -> row_ok (k - 1) last -> row_ok k (fst (mstep k last)).
  Proof. intros H1 Hok. unfold mask_step. cbn [fst]. apply inf_past_ok, ostep_row_ok; assumption. Qed.

  Lemma mask_step_snd_length k last : (1 <= k)%nat -> row_ok (k - 1) last ->
    length (snd (mstep k last)) = length r.
  Proof.
    intros H1 Hok. unfold mask_step. cbn [snd].
    rewrite map_length, length_removelast, inf_past_length.
    destruct (ostep_row_ok k last H1 Hok) as [HL _]. rewrite HL. lia.
  Qed.

  Lemma mask_step_bit k last i : (1 <= k)%nat -> row_ok (k - 1) last -> (i < length r)%nat ->
    nth i (snd (mstep k last)) false = true <->
    nd k = true /\ (i <= rlen)%nat /\ row_argmin k i.
  Proof.
    intros H1 Hok0 Hi. pose proof (ostep_row_ok k last H1 Hok0) as Hok.
    unfold mask_step. cbn [snd]. set (row := ostep_row ci cd cs r h hlen excl k last) in *.
    destruct (mins_spec k row Hok) as [m [Em [Hle [i0 [Hi0 Ei0]]]]]. destruct Hok as [HL Hag].
    rewrite (nth_map_lt _ _ i None) by (rewrite length_removelast, inf_past_length, HL; lia).
    rewrite nth_removelast by (rewrite inf_past_length, HL; lia).
    rewrite inf_past_nth by lia. rewrite Em.
    destruct (nd k) eqn:End.
    2:{ rewrite andb_false_r. split; [discriminate|]. intros [H _]. discriminate H. }
    destruct (nd_live k H1 End) as [Hfz _]. rewrite Nat.min_l in * by exact Hfz.
    rewrite andb_true_r.
    destruct (rlen <? i)%nat eqn:E.
    - apply Nat.ltb_lt in E. cbn [oeqb]. split; [discriminate|]. intros [_ [H _]]. lia.
    - apply Nat.ltb_ge in E. rewrite Hag by exact E. cbn [oeqb]. rewrite Z.eqb_eq. split.
      + intros Et. split; [reflexivity|]. split; [exact E|]. intros i' Hi'. rewrite Et. apply Hle. exact Hi'.
      + intros [_ [_ Harg]]. specialize (Harg i0 Hi0). specialize (Hle i E). lia.
  Qed.

  (* ---- the loop --------------------------------------------------------------------------- *)
  Notation mloop := (masks_loop ci cd cs r h rlen hlen excl).

  Lemma masks_loop_length fuel : forall idx last, length (mloop fuel idx last) = fuel.
  Proof. induction fuel as [|f IH]; intros; cbn [masks_loop length]; [reflexivity|]. rewrite IH. reflexivity. Qed.

  Lemma masks_loop_nth fuel : forall idx last j,
    (1 <= idx)%nat -> row_ok (idx - 1) last -> (j < fuel)%nat ->
    exists row, row_ok (idx + j - 1) row /\ nth j (mloop fuel idx last) [] = snd (mstep (idx + j) row).
  Proof.
    induction fuel as [|f IH]; intros idx last j H1 Hok Hj; [lia|].
    cbn [masks_loop]. destruct j as [|j]; cbn [nth].
    - exists last. rewrite Nat.add_0_r. split; [exact Hok|reflexivity].
    - destruct (IH (S idx) (fst (mstep idx last)) j) as [row [Hrow En]]; [lia| |lia|].
      + replace (S idx - 1)%nat with idx by lia. apply mask_step_fst_ok; assumption.
      + exists row. replace (idx + S j)%nat with (S idx + j)%nat by lia. split; assumption.
  Qed.

  Notation pmasks := (pair_masks ci cd cs r h rlen hlen excl).

  Lemma pair_masks_length steps : length (pmasks steps) = S steps.
  Proof. unfold pair_masks. rewrite map_length. cbn [length]. rewrite masks_loop_length. reflexivity. Qed.

  (* the raw mask rows before the "< ref_len" restriction *)
  Lemma raw_mask_length steps k : (k <= steps)%nat ->
    length (nth k (first_mask r rlen :: mloop steps 1%nat (orow0 cd r)) []) = length r.
  Proof.
    intros Hk. destruct k as [|j]; cbn [nth].
    - unfold first_mask. rewrite map_length, seq_length. reflexivity.
    - destruct (masks_loop_nth steps 1 (orow0 cd r) j) as [row [Hrow En]]; [lia|apply orow0_ok|lia|].
      rewrite En. apply mask_step_snd_length; [lia|exact Hrow].
  Qed.

  Lemma pair_masks_nth steps k : (k <= steps)%nat ->
    nth k (pmasks steps) [] =
    map2 andb (nth k (first_mask r rlen :: mloop steps 1%nat (orow0 cd r)) [])
         (map (fun i => (i <? rlen)%nat) (seq 0 (length r))).
  Proof.
    intros Hk. unfold pair_masks.
    rewrite (nth_map_lt _ _ k []) by (cbn [length]; rewrite masks_loop_length; lia). reflexivity.
  Qed.

  Lemma pair_masks_row_length steps k : (k <= steps)%nat -> length (nth k (pmasks steps) []) = length r.
  Proof.
    intros Hk. rewrite pair_masks_nth by exact Hk.
    rewrite map2_length, raw_mask_length, map_length, seq_length by exact Hk. lia.
  Qed.

  Lemma tab_0 i : (i <= length r)%nat -> tab 0 i = Z.of_nat i * cd.
  Proof. intros Hi. unfold tab. cbn [firstn]. rewrite lev_nil_r, firstn_length, Nat.min_l by lia. reflexivity. Qed.

  Lemma pair_masks_bit steps k i : (k <= steps)%nat -> (i < length r)%nat ->
    nth i (nth k (pmasks steps) []) false =
    (nth i (nth k (first_mask r rlen :: mloop steps 1%nat (orow0 cd r)) []) false && (i <? rlen)%nat)%bool.
  Proof.
    intros Hk Hi. rewrite pair_masks_nth by exact Hk.
    rewrite (nth_map2 andb _ _ i false false false)
      by (rewrite ?raw_mask_length, ?map_length, ?seq_length; assumption).
    now rewrite nth_map_seq by exact Hi.
  Qed.

  (* mechanism 1 of the property: the mask of row minima restricted to the reference length *)
  Theorem pair_masks_spec steps k i : 0 < cd -> (k <= steps)%nat -> (i < length r)%nat ->
    nth i (nth k (pmasks steps) []) false = true <->
    (i < rlen)%nat /\ (k = 0%nat \/ nd k = true) /\ row_argmin k i.
  Proof.
    intros Hcd Hk Hi. rewrite pair_masks_bit, andb_true_iff, Nat.ltb_lt by assumption. destruct k as [|j]; cbn [nth].
    - unfold first_mask. rewrite nth_map_seq by exact Hi. cbn [Nat.add].
      rewrite andb_true_iff, Nat.eqb_eq, Nat.ltb_lt. split.
      + intros [[E0 Hpos] Hlt]. split; [exact Hlt|]. split; [left; reflexivity|].
        intros i' Hi'. subst i. rewrite !tab_0 by lia. nia.
      + intros [Hlt [_ Harg]]. split; [|exact Hlt]. split; [|lia].
        specialize (Harg 0%nat ltac:(lia)). rewrite !tab_0 in Harg by lia. nia.
    - destruct (masks_loop_nth steps 1 (orow0 cd r) j) as [row [Hrow En]]; [lia|apply orow0_ok|lia|].
      rewrite En. rewrite mask_step_bit by (assumption || lia).
      replace (1 + j)%nat with (S j) by lia. split.
      + intros [[End [_ Harg]] Hlt]. split; [exact Hlt|]. split; [right; exact End|exact Harg].
      + intros [Hlt [[E|End] Harg]]; [discriminate E|]. split; [|exact Hlt].
        split; [exact End|]. split; [lia|exact Harg].
  Qed.

  (* no cost hypothesis: a marked position is always a counted reference position *)
  Lemma pair_masks_lt steps k i : (k <= steps)%nat -> (i < length r)%nat ->
    nth i (nth k (pmasks steps) []) false = true -> (i < rlen)%nat.
  Proof.
    intros Hk Hi. rewrite pair_masks_bit, andb_true_iff, Nat.ltb_lt by assumption. intros [_ H]. exact H.
  Qed.

  (* ... and a finished pair marks nothing ("& not_done") *)
  Lemma pair_masks_dead steps k i : (1 <= k)%nat -> (k <= steps)%nat -> (i < length r)%nat ->
    nd k = false -> nth i (nth k (pmasks steps) []) false = false.
  Proof.
    intros H1 Hk Hi End. rewrite pair_masks_bit by assumption.
    destruct k as [|j]; [lia|]. cbn [nth].
    destruct (masks_loop_nth steps 1 (orow0 cd r) j) as [row [Hrow En]]; [lia|apply orow0_ok|lia|].
    rewrite En. replace (1 + j)%nat with (S j) in * by lia.
    destruct (nth i (snd (mstep (S j) row)) false) eqn:Eb; [|reflexivity].
    apply mask_step_bit in Eb as [End' _]; [congruence|lia|exact Hrow|exact Hi].
  Qed.
End Mask.
