(* C03 - the post-processing of `optimal_completion` (PV.Gen.C03Src.oc_post / oc_fin), interpreted with SrcRun.ext03_oc on
   tabulated tensors: from the reference (N x R after `ref.t()`) and ANY (K x R x N) boolean mask the statements leave the
   duplicate propagation, the sort of the reference, the gathered and de-duplicated mask, the selected tokens, the counts, the
   width C and the scattered (K x N x C) targets described by the closed forms below (no interpreter in them); TieOcModel.v
   shows that these are PV.C03.Model's sorted_ref / final_mask / optimal_completion. *)
From Coq Require Import ZArith QArith List String Bool Arith Lia ZifyBool ZifyNat.
From PV Require Import MiniPy.Syntax MiniPy.Interp MiniPy.Lemmas MiniTorch.Ops MiniTorch.Lemmas MiniTorch.OpsC07 MiniTorch.LemmasC07
  MiniTorch.OpsC01 MiniTorch.LemmasC01 MiniTorch.OpsC03 MiniTorch.LemmasC03.
From PV Require Import Gen.C03Src C01.SrcRun C01.TieLib C01.TiePre C03.SrcRun C03.TieLib C03.TieOcLib.
From PV Require C01.TieBlocks.
Import ListNotations.
Local Open Scope string_scope.

#[local] Arguments mselect : simpl never.
#[local] Arguments mscatter : simpl never.

Notation torch_module := C01.TieBlocks.torch_module.

(* ---- the closed forms -------------------------------------------------------------------------------------------- *)
Section Forms.
  Variables (R' N K : nat) (rf : nat -> nat -> Z) (mk : nat -> nat -> nat -> bool).
  Let R := S R'.

  Definition rcolz (n : nat) : list Z := map (fun i => rf i n) (seq 0 R).
  (* (mask.transpose(1, 2).unsqueeze(2) & (ref.unsqueeze(1) == ref.unsqueeze(2))).any(3) *)
  Definition propf (k n a : nat) : bool := existsb (fun b => b) (map (fun b => (mk k b n && (rf b n =? rf a n)%Z)%bool) (seq 0 R)).
  (* ref.sort(1) *)
  Definition sidx (n j : nat) : nat := nth j (sort_row_idx (rcolz n)) 0%nat.
  Definition sref (n j : nat) : Z := nth (sidx n j) (rcolz n) 0%Z.
  (* mask.gather(2, src.expand_as(mask)) *)
  Definition gath (k n j : nat) : bool := propf k n (sidx n j).
  (* cat([mask[..., :-1] & (ref[:, :-1] != ref[:, 1:]), mask[..., -1:]], 2) *)
  Definition finf (k n j : nat) : bool :=
    if (j <? R')%nat then (gath k n j && negb (sref n j =? sref n (S j))%Z)%bool else gath k n R'.
  Definition flatf : list Z := mselect (tab3 K N R finf) (tab3 K N R (fun _ n j => sref n j)).
  Definition cntf (k n : nat) : Z := count_row (map (finf k n) (seq 0 R)).
  Definition widthf : nat := Z.to_nat (zmax_list (tab2 K N cntf)).
End Forms.

Definition oc_stage0 (bf : bool) (R N K : nat) (rf : nat -> nat -> Z) (mk : nat -> nat -> nat -> bool) (pad : Z) : list (string * val) :=
  [("ref", enc_i (in_tensor bf R N rf)); ("mask", enc_b (mkTn [K; R; N] (tab3 K R N mk))); ("batch_first", VBool bf);
   ("padding", VInt pad); ("torch", torch_module)].

Definition oc_stage1 (bf : bool) (R' N K : nat) (rf : nat -> nat -> Z) (mk : nat -> nat -> nat -> bool) (pad : Z) : list (string * val) :=
  let C := widthf R' N K rf mk in
  [("targets", enc_i (mkTn [K; N; C] (tab3 K N C (fun _ _ _ => pad))));
   ("target_mask", enc_b (mkTn [K; N; C] (tab3 K N C (fun k n c => (cntf R' rf mk k n >? Z.of_nat c)%Z))));
   ("targets_flat", enc_i (mkTn [List.length (flatf R' N K rf mk)] (flatf R' N K rf mk)));
   ("batch_first", VBool bf)].

Lemma full_guard : forall K N z, (0 <= z)%Z -> ((Z.of_nat K <? 0) || (Z.of_nat N <? 0) || (z <? 0))%Z%bool = false.
Proof. intros. lia. Qed.

Section Post.
  Variables (bf : bool) (R' N K : nat) (rf : nat -> nat -> Z) (mk : nat -> nat -> nat -> bool) (pad : Z).
  Let R := S R'.

  (* after `if not batch_first: ref = ref.t()` the reference is (N x R) whatever the layout *)
  Definition oc_stage0t : list (string * val) :=
    [("ref", enc_i (mkTn [N; R] (tab2 N R (fun n t => rf t n)))); ("mask", enc_b (mkTn [K; R; N] (tab3 K R N mk)));
     ("batch_first", VBool bf); ("padding", VInt pad); ("torch", torch_module)].

  Lemma post_head : forall st, known3 st (oc_stage0 bf R N K rf mk pad) ->
    runs_to (fun st' => known3 st' oc_stage0t)
      (exec ext03_oc (SIf (ENot (EName "batch_first")) (SAssign [TName "ref"] (EMeth (EName "ref") "t" [] [])) SPass) st).
  Proof.
    intros st K0. unfold oc_stage0 in K0. open_known3 K0. unfold oc_stage0t.
    destruct bf; unfold in_tensor in *; ifstep3; [|asg3]; apply runs_to_ok; close_known3.
  Qed.

  Lemma post_run : forall st, K <> 0%nat -> N <> 0%nat -> known3 st (oc_stage0 bf R N K rf mk pad) ->
    runs_to (fun st' => known3 st' (oc_stage1 bf R' N K rf mk pad)) (exec ext03_oc oc_post st).
  Proof.
    intros st HK HN K0. apply (xruns_to_seq _ _ _ _ _ _ (post_head st K0)). clear st K0. intros st K0.
    unfold oc_stage0t in K0. open_known3 K0. subst R.
    asg3. asg3. asg3. asg3. asg3.
    asg3.
    asg3. asg3. asg3.
    assign3x ltac:(evn3; rewrite ?gather_last3_tab
                     by (intros ? j0 ? ? ? ?; rewrite <- (length_row (fun t : nat => rf t j0) (S R')) at 2;
                         apply sort_row_idx_nth_lt; now rewrite length_row); evn3; reflexivity).
    assign3x ltac:(repeat (progress (evn3; rewrite ?exto_getitem_col_i by reflexivity)); reflexivity).
    assign3x ltac:(repeat (progress (evn3; rewrite ?exto_cat by reflexivity)); reflexivity).
    assign3x ltac:(evn3; unfold masked_select; cbn [shp dat]; rewrite ?nats_eqb_refl; cbv zeta; cbn [option_map ret01 enc01]; reflexivity).
    asg3.
    assign3x ltac:(evn3; rewrite ?max_all_some by (now apply tab2_nonempty); evn3; reflexivity).
    assign3x ltac:(evn3; rewrite ?full_guard by (apply zmax_tab2_nonneg; [exact HK|exact HN|intros; apply count_row_nonneg]);
                   rewrite ?Nat2Z.id, ?full_3; reflexivity).
    assign3x ltac:(evn3;
                   try match goal with |- context [arange ?z] =>
                     rewrite <- (Z2Nat.id z) at 1 by (apply zmax_tab2_nonneg; [exact HK|exact HN|intros; apply count_row_nonneg])
                   end;
                   rewrite ?arange_nat; evn3; reflexivity).
    apply runs_to_ok. unfold oc_stage1, widthf, cntf, flatf, finf, gath, sref, sidx, propf, rcolz. cbv zeta. close_known3.
  Qed.
End Post.

(* ---- oc_fin: the scatter, the transposition of batch-first output, return ------------------------------------------- *)
Section Fin.
  Variables (bf : bool) (R' N K : nat) (rf : nat -> nat -> Z) (mk : nat -> nat -> nat -> bool) (pad : Z).
  Notation C := (widthf R' N K rf mk).

  Definition oc_result (outf : nat -> nat -> nat -> Z) : val :=
    enc_i (if bf then mkTn [N; K; C] (tab3 N K C (fun n k c => outf k n c)) else mkTn [K; N; C] (tab3 K N C outf)).

  Lemma fin_run : forall st outf,
    mscatter (tab3 K N C (fun k n c => (cntf R' rf mk k n >? Z.of_nat c)%Z)) (tab3 K N C (fun _ _ _ => pad)) (flatf R' N K rf mk)
      = Some (tab3 K N C outf) ->
    known3 st (oc_stage1 bf R' N K rf mk pad) ->
    returns3 (oc_result outf) (exec ext03_oc oc_fin st).
  Proof.
    intros st outf Hsc K1. unfold oc_stage1 in K1. cbv zeta in K1. open_known3 K1. unfold oc_fin, oc_result.
    match goal with
    | Hx : lookup "targets" (vars ?s0) = Some ?tv, H1 : lookup "target_mask" (vars ?s0) = Some ?v1,
      H2 : lookup "targets_flat" (vars ?s0) = Some ?v2 |- context [exec ext03_oc (SSeq (SExpr (EMeth _ ?m _ _)) ?b) ?s0] =>
        erewrite (xexec_seq_mutmeth2 ext03_oc "targets" m "target_mask" "targets_flat" b s0 tv v1 v2 _ Hx H1 H2 eq_refl);
        [| rewrite exto_masked_scatter; unfold masked_scatter; cbn [shp dat]; rewrite nats_eqb_refl, Hsc; reflexivity ]
    end.
    push_state.
    destruct bf.
    - ifstep3. asg3. now apply xreturns_name.
    - ifstep3. seqnorm3. now apply xreturns_name.
  Qed.
End Fin.
