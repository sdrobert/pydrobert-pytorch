(* C03 - the source tie of `_string_matching` (src/pydrobert/torch/_string.py) for the call `optimal_completion` makes
   (return_mask = True, exclude_last arbitrary, norm / return_prf_dsts / return_mistakes at their default False), checked by the
   kernel.  PV.Gen.C03Src.{sm3_pre, sm3_row0, sm3_main, sm3_loop, sm3_body, sm3_lens} are the MiniPy terms
   harness/py2coq/translate.py regenerates from /repo on every C03 run; PV.MiniPy.Interp is their semantics; the torch calls
   mean what PV.MiniTorch.OpsC03 / OpsC01 / OpsC07 say (through SrcRun.ext03).  Statements, for EVERY batch size, tensor widths,
   token values, lengths, eos / include_eos / batch_first / exclude_last setting and costs (integers ci cd cs over any common
   denominator s, i.e. the floats c / s):

     loop_body_is_mask_step   one execution of the loop body = Model.mask_step in every column: the carried row (with +inf)
                              and the appended mask row (TieLoop.body_run3)
     loop_is_masks_loop       the whole `for hyp_idx` loop = the iteration of mask_step (TieIter.loop_tie3)
     mask_is_model            the blocks sm3_pre; sm3_row0; sm3_main run in sequence on the arguments of the call RETURN the
                              (H', R, N) boolean tensor of Model.oc_masks; the same for the whole body sm3_body as one term
     mask_marks_preserving    composed with C03.ProofsMask.pair_masks_spec, ProofsMain.argmin_transfer and
                              ProofsSpec.preserving_iff_argmin: for positive costs, the tokens found at the marked positions of
                              row k, column n are exactly the tokens that keep the best reachable distance

   Files: TieLib (tactics, what reaches ext03), TieMath (arithmetic with +inf), TieLoop (loop body), TieIter (loop), TiePre
   (preamble, `_lens_from_eos`), TieBlocks (row 0 / del_mat, first mask row, loop, stack + restriction to ref_lens). *)
From Coq Require Import ZArith QArith List String Bool Arith Lia ZifyBool ZifyNat.
From PV Require Import MiniPy.Syntax MiniPy.Interp MiniPy.Lemmas MiniTorch.Ops MiniTorch.Lemmas MiniTorch.OpsC07 MiniTorch.LemmasC07
  MiniTorch.OpsC01 MiniTorch.LemmasC01 MiniTorch.OpsC03 MiniTorch.LemmasC03.
From PV Require Import Gen.C03Src C01.SrcRun C01.TieLib C01.TieMath C01.TieWhole C01.TiePre
  C03.SrcRun C03.TieLib C03.TieMath C03.TieLoop C03.TieIter C03.TiePre C03.TieBlocks.
From PV Require C01.Obs C01.Spec C01.Model C01.LevFacts C01.Proofs C01.TieLoop C01.Tie
  C03.Spec C03.Model C03.ProofsSpec C03.ProofsMask C03.ProofsSelect C03.ProofsTop C03.ProofsMain.
Import ListNotations.
Local Open Scope string_scope.

Notation colf := C01.TieLoop.colf.
Notation wf_src := C01.Tie.wf_src.
Notation at_src := C01.Tie.at_src.

(* ---- names used by the statements of Properties.v (which holds no string literal) ----------------------------- *)
Definition hyp_idx_name : string := "hyp_idx".
Definition max_hyp_steps_name : string := "max_hyp_steps".

(* one execution of the loop body with hyp_idx = k *)
Definition run_loop_body (k : nat) (st : state) : outcome ctl :=
  exec ext03 loop_body3 (set_var hyp_idx_name (VInt (Z.of_nat k)) st).

Definition run_loop (st : state) : outcome ctl := exec ext03 sm3_loop st.

Definition max_hyp_steps_is (H : nat) (st : state) : Prop :=
  lookup max_hyp_steps_name (vars st) = Some (VInt (Z.of_nat H)).

(* ---- (1) the loop body --------------------------------------------------------------------------------------- *)
Theorem loop_body_is_mask_step :
  forall (s : positive) (ci cd cs : Z) (R N H : nat) (rf hf : nat -> nat -> Z) (rl hl : nat -> nat) (excl : bool)
         (st : state) (k : nat) (lf : nat -> nat -> option Z) (ms : list (nat -> nat -> bool)),
  (1 <= k <= H)%nat ->
  body_pre3 s ci cd cs R N H rf hf rl hl excl lf ms st ->
  runs_to (body_pre3 s ci cd cs R N H rf hf rl hl excl
             (fun i n => nth i (fst (C03.Model.mask_step ci cd cs (colf R rf n) (colf H hf n) (rl n) (hl n) excl k (colo (S R) lf n))) None)
             (ms ++ [fun i n => nth i (snd (C03.Model.mask_step ci cd cs (colf R rf n) (colf H hf n) (rl n) (hl n) excl k
                                              (colo (S R) lf n))) false]))
          (run_loop_body k st).
Proof. intros. now apply body_run3. Qed.

(* ---- (2) the loop ---------------------------------------------------------------------------------------------- *)
Theorem loop_is_masks_loop :
  forall (s : positive) (ci cd cs : Z) (R N H : nat) (rf hf : nat -> nat -> Z) (rl hl : nat -> nat) (excl : bool)
         (st : state) (lf : nat -> nat -> option Z) (ms : list (nat -> nat -> bool)),
  body_pre3 s ci cd cs R N H rf hf rl hl excl lf ms st -> max_hyp_steps_is H st ->
  let steps := (H + (if excl then 0 else 1) - 1)%nat in
  runs_to (body_pre3 s ci cd cs R N H rf hf rl hl excl
             (fun i n => nth i (iter_mrow ci cd cs (colf R rf n) (colf H hf n) (rl n) (hl n) excl steps 1 (colo (S R) lf n)) None)
             (ms ++ map (fun j i n =>
                           nth i (nth j (C03.Model.masks_loop ci cd cs (colf R rf n) (colf H hf n) (rl n) (hl n) excl steps 1
                                           (colo (S R) lf n)) []) false) (seq 0 steps)))
          (run_loop st).
Proof. intros. now apply loop_tie3. Qed.

(* ---- the whole body as one term: its loop differs from sm3_loop in the name of a temporary only ----------------- *)
Definition loop3b : stmt := match seq_drop 19 sm3_body with SSeq a _ => a | _ => SPass end.
Definition body3b : stmt := match loop3b with SFor _ _ b => b | _ => SPass end.
Definition rest3b : stmt := seq_drop 21 sm3_body.      (* the statements after the exit of the mask path: never reached *)
Lemma loop3b_eq : loop3b = SFor "hyp_idx" loop_iter3 body3b.
Proof. reflexivity. Qed.

Lemma sm3_body_split : forall st,
  exec ext03 sm3_body st =
  exec ext03 (SSeq sm3_pre (SSeq sm3_row0 (SSeq (SSeq main_flags3 (SSeq loop3b main_exit3)) rest3b))) st.
Proof. intros st. rewrite !(xexec_flatten ext03). f_equal. Qed.

Section Body3b.
  Variables (s : positive) (ci cd cs : Z) (R N H : nat) (rf hf : nat -> nat -> Z) (rl hl : nat -> nat) (excl : bool).
  Notation pre := (body_pre3 s ci cd cs R N H rf hf rl hl excl).

  Theorem body_run3b : forall st k lf ms, (1 <= k <= H)%nat -> pre lf ms st ->
    runs_to (pre (fun i n => nth i (mrow_col ci cd cs R H rf hf rl hl excl k lf n) None)
                 (ms ++ [fun i n => nth i (mbits_col ci cd cs R H rf hf rl hl excl k lf n) false]))
            (exec ext03 body3b (set_var "hyp_idx" (VInt (Z.of_nat k)) st)).
  Proof. exact (body_run_of s ci cd cs R N H rf hf rl hl excl "t3"). Qed.

  Theorem loop_tie3b : forall st lf ms, pre lf ms st -> lookup "max_hyp_steps" (vars st) = Some (VInt (Z.of_nat H)) ->
    runs_to (pre (fun i n => nth i (iter_col3 ci cd cs R H rf hf rl hl excl (loop_steps H excl) 0 lf n) None)
                 (ms ++ loop_masks3 ci cd cs R H rf hf rl hl excl (loop_steps H excl) 0 lf))
            (exec ext03 loop3b st).
  Proof. rewrite loop3b_eq. exact (loop_tie_gen3 s ci cd cs R N H rf hf rl hl excl body3b body_run3b). Qed.
End Body3b.

(* ---- the call ---------------------------------------------------------------------------------------------------- *)
(* _string_matching(ref, hyp, eos, include_eos, batch_first, ins, del, sub, warn, return_mask=True, exclude_last=c_excl c) *)
Definition run_prog3 (prog : stmt) (s : positive) (c : C01.Model.cfg) (N : nat) (ref hyp : list (list Z)) (w : bool) : outcome val :=
  Interp.run ext03 prog
    (sm3_vars (enc_i (mat_tensor (C01.Model.c_bf c) N ref)) (enc_i (mat_tensor (C01.Model.c_bf c) N hyp))
       (opt_int (C01.Model.c_eos c)) (VBool (C01.Model.c_incl c)) (VBool (C01.Model.c_bf c))
       (VQ (qz s (C01.Model.c_ins c))) (VQ (qz s (C01.Model.c_del c))) (VQ (qz s (C01.Model.c_sub c)))
       (VBool w) (VBool (C01.Model.c_excl c))).

Definition run_mask_blocks := run_prog3 sm3_blocks.
Definition run_mask_body := run_prog3 sm3_body.

(* the (H', R, N) tensor of the model's masks: entry (k, i, n) = bit i of mask row k of pair n *)
Definition model_mask_tensor (c : C01.Model.cfg) (N R : nat) (ref hyp : list (list Z)) : tn bool :=
  mkTn [C03.Model.oc_rows c N hyp; R; N]
    (tab3 (C03.Model.oc_rows c N hyp) R N
       (fun k i n => nth i (nth k (nth n (C03.Model.oc_masks c N ref hyp) []) []) false)).

Lemma returns3_skip : forall v a b st, returns3 v (exec ext03 a st) -> returns3 v (exec ext03 (SSeq a b) st).
Proof. intros v a b st [st' He]. cbn [exec]. rewrite He. cbn [bind]. now exists st'. Qed.

Lemma eff_costs_eq : forall c,
  C01.Model.eff_costs (C01.Model.c_ins c) (C01.Model.c_del c) (C01.Model.c_sub c) =
  ((if uniformb (C01.Model.c_ins c) (C01.Model.c_del c) (C01.Model.c_sub c) then C01.Model.c_ins c else 1%Z),
   (eff_ci c, eff_cd c, eff_cs c)).
Proof.
  intros c. unfold C01.Model.eff_costs, eff_ci, eff_cd, eff_cs, uniformb.
  destruct ((C01.Model.c_ins c =? C01.Model.c_del c) && (C01.Model.c_del c =? C01.Model.c_sub c) && (0 <? C01.Model.c_sub c))%Z;
    reflexivity.
Qed.

Lemma time_len_src : forall bf N H hyp, (0 < N)%nat -> wf_src bf N H hyp -> C01.Proofs.time_len bf hyp = H.
Proof.
  intros bf N H hyp HN Hh. pose proof (C01.Tie.wf_src_model _ _ _ _ Hh) as Hwh.
  rewrite <- (C01.Proofs.seq_of_length _ N hyp 0 HN Hwh), <- (C01.Tie.colf_seq_of _ N H hyp 0 HN Hh).
  apply C01.TiePre.colf_length.
Qed.

Lemma oc_rows_src : forall c N H (ref hyp : list (list Z)), (0 < N)%nat -> wf_src (C01.Model.c_bf c) N H hyp ->
  C03.Model.oc_rows c N hyp = S (H + (if C01.Model.c_excl c then 0 else 1) - 1).
Proof.
  intros c N H ref hyp HN Hh.
  rewrite (C03.ProofsMain.oc_rows_time c N ref hyp 0 HN (C01.Tie.wf_src_model _ _ _ _ Hh)), (time_len_src _ N H hyp HN Hh).
  reflexivity.
Qed.

(* the value the blocks return is the model's tensor *)
Lemma mask_value_model : forall (c : C01.Model.cfg) (N R H : nat) (ref hyp : list (list Z)),
  (0 < N)%nat -> wf_src (C01.Model.c_bf c) N R ref -> wf_src (C01.Model.c_bf c) N H hyp ->
  mask_value (eff_ci c) (eff_cd c) (eff_cs c) R N H (at_src (C01.Model.c_bf c) ref) (at_src (C01.Model.c_bf c) hyp)
    (ref_len c R (at_src (C01.Model.c_bf c) ref)) (hyp_len c H (at_src (C01.Model.c_bf c) hyp)) (C01.Model.c_excl c)
  = enc_b (model_mask_tensor c N R ref hyp).
Proof.
  intros c N R H ref hyp HN Hr Hh. unfold mask_value, model_mask_tensor.
  pose proof (C01.Tie.wf_src_model _ _ _ _ Hr) as Hwr. pose proof (C01.Tie.wf_src_model _ _ _ _ Hh) as Hwh.
  pose proof (oc_rows_src c N H ref hyp HN Hh) as Hrows. fold (loop_steps H (C01.Model.c_excl c)) in Hrows.
  rewrite Hrows. do 2 f_equal. apply tab3_ext. intros k i n Hk Hi Hn.
  rewrite (C03.ProofsTop.oc_masks_nth c N ref hyp _ _ _ _ n (eff_costs_eq c) Hn).
  rewrite !C01.Proofs.sequences_nth by assumption.
  rewrite <- (C01.Tie.colf_seq_of _ N R ref n Hn Hr), <- (C01.Tie.colf_seq_of _ N H hyp n Hn Hh).
  rewrite Hrows. replace (S (loop_steps H (C01.Model.c_excl c)) - 1)%nat with (loop_steps H (C01.Model.c_excl c)) by lia.
  set (rcol := colf R (at_src (C01.Model.c_bf c) ref) n). set (hcol := colf H (at_src (C01.Model.c_bf c) hyp) n).
  assert (Lr : List.length rcol = R) by apply C01.TiePre.colf_length.
  rewrite C03.ProofsMask.pair_masks_nth by (try apply C01.Proofs.eff_len_le; lia).
  rewrite (C01.Proofs.nth_map2 andb _ _ i false false false).
  - rewrite Lr, C01.Proofs.nth_map_seq by exact Hi. cbn [Nat.add]. unfold raw_mask, ref_len, hyp_len. fold rcol. fold hcol.
    f_equal. lia.
  - rewrite C03.ProofsMask.raw_mask_length by (try apply C01.Proofs.eff_len_le; lia). now rewrite Lr.
  - now rewrite map_length, seq_length, Lr.
Qed.

(* a loop statement with the property of TieIter.loop_tie3 *)
Definition loop_ok3 (lp : stmt) : Prop :=
  forall s ci cd cs R N H rf hf rl hl excl st lf ms,
    body_pre3 s ci cd cs R N H rf hf rl hl excl lf ms st ->
    lookup "max_hyp_steps" (vars st) = Some (VInt (Z.of_nat H)) ->
    runs_to (body_pre3 s ci cd cs R N H rf hf rl hl excl
               (fun i n => nth i (iter_col3 ci cd cs R H rf hf rl hl excl (loop_steps H excl) 0 lf n) None)
               (ms ++ loop_masks3 ci cd cs R H rf hf rl hl excl (loop_steps H excl) 0 lf)) (exec ext03 lp st).

(* the input space of the property: matrices are matrices, N > 0, R > 0, H > 0 when there is an eos *)
Section Whole.
  Variables (s : positive) (c : C01.Model.cfg) (N R H : nat) (ref hyp : list (list Z)) (w : bool).
  Hypothesis HN : (0 < N)%nat.
  Hypothesis HR : R <> 0%nat.
  Hypothesis Hr : wf_src (C01.Model.c_bf c) N R ref.
  Hypothesis Hh : wf_src (C01.Model.c_bf c) N H hyp.
  Hypothesis Hnz : C01.Model.c_eos c <> None -> H <> 0%nat.

(* any program that runs like sm3_pre; sm3_row0; first mask row; <a loop with the property of sm3_loop>; exit; <anything> *)
Lemma prog_is_model3 :
  forall (prog lp rest : stmt), loop_ok3 lp ->
  (forall st, exec ext03 prog st
              = exec ext03 (SSeq sm3_pre (SSeq sm3_row0 (SSeq (SSeq main_flags3 (SSeq lp main_exit3)) rest))) st) ->
  exists st', run_prog3 prog s c N ref hyp w = Ok (enc_b (model_mask_tensor c N R ref hyp)) st'.
Proof.
  intros prog lp rest Hlp Hprog.
  unfold run_prog3, Interp.run. rewrite Hprog.
  rewrite (C01.Tie.mat_tensor_in _ N R ref HN Hr), (C01.Tie.mat_tensor_in _ N H hyp HN Hh).
  set (rf := at_src (C01.Model.c_bf c) ref). set (hf := at_src (C01.Model.c_bf c) hyp).
  match goal with |- context [exec ext03 _ ?st0] => set (st0' := st0) end.
  assert (K : known3 st0' (params3 s c R N H rf hf w (C01.Model.c_excl c))).
  { unfold st0', params3, sm3_vars, globals01, torch_module. cbn [known3 app]. repeat split; reflexivity. }
  assert (Hret : returns3 (mask_value (eff_ci c) (eff_cd c) (eff_cs c) R N H rf hf (ref_len c R rf) (hyp_len c H hf) (C01.Model.c_excl c))
                   (exec ext03 (SSeq sm3_pre (SSeq sm3_row0 (SSeq (SSeq main_flags3 (SSeq lp main_exit3)) rest))) st0')).
  { eapply xreturns_seq; [apply pre_run; [intros He; split; [exact HR|exact (Hnz He)]|exact K]|]. intros st1 K1.
    eapply xreturns_seq; [apply row0_run3; exact K1|]. intros st2 K2.
    apply returns3_skip.
    eapply main_run_gen3; [intros; now apply Hlp|exact HR|exact K2]. }
  destruct Hret as [st' He]. rewrite He. exists st'. f_equal. unfold rf, hf. now apply mask_value_model.
Qed.

(* ---- (3) the whole call ------------------------------------------------------------------------------------------- *)
Lemma sm3_loop_ok : loop_ok3 sm3_loop.
Proof. unfold loop_ok3. intros. now apply loop_tie3. Qed.

Theorem mask_is_model :
  exists st', run_mask_blocks s c N ref hyp w = Ok (enc_b (model_mask_tensor c N R ref hyp)) st'.
Proof.
  apply (prog_is_model3 sm3_blocks sm3_loop SPass sm3_loop_ok).
  intros st. unfold sm3_blocks. rewrite !(xexec_flatten ext03). f_equal.
Qed.

Theorem mask_body_is_model :
  exists st', run_mask_body s c N ref hyp w = Ok (enc_b (model_mask_tensor c N R ref hyp)) st'.
Proof.
  apply (prog_is_model3 sm3_body loop3b rest3b).
  - unfold loop_ok3. intros. now apply loop_tie3b.
  - exact sm3_body_split.
Qed.

(* ---- (4) composed with the model's theorems: the marked positions hold exactly the distance-preserving tokens -------- *)
Theorem mask_marks_preserving :
  (0 < C01.Model.c_ins c)%Z -> (0 < C01.Model.c_del c)%Z -> (0 < C01.Model.c_sub c)%Z ->
  exists K (bits : list bool) st',
    run_mask_body s c N ref hyp w = Ok (enc_b (mkTn [K; R; N] bits)) st' /\
    K = S (H + (if C01.Model.c_excl c then 0 else 1) - 1) /\
    forall n k, (n < N)%nat ->
      let rseq := C01.Spec.denote (C01.Model.c_eos c) (C01.Model.c_incl c) (C01.Proofs.seq_of (C01.Model.c_bf c) n ref) in
      let hseq := C01.Spec.denote (C01.Model.c_eos c) (C01.Model.c_incl c) (C01.Proofs.seq_of (C01.Model.c_bf c) n hyp) in
      (k = 0 \/ k < List.length hseq + (if C01.Model.c_excl c then 0 else 1))%nat ->
      forall t,
        (exists i, (i < R)%nat /\ nth ((k * R + i) * N + n) bits false = true /\
                   nth i (C01.Proofs.seq_of (C01.Model.c_bf c) n ref) 0%Z = t)
        <-> C03.Spec.preserving (C01.Model.c_ins c) (C01.Model.c_del c) (C01.Model.c_sub c) rseq (firstn k hseq) t.
Proof.
  intros Hi Hd Hs. destruct mask_body_is_model as [st' He].
  pose proof (C01.Tie.wf_src_model _ _ _ _ Hr) as Hwr. pose proof (C01.Tie.wf_src_model _ _ _ _ Hh) as Hwh.
  pose proof (time_len_src _ N H hyp HN Hh) as HT. pose proof (oc_rows_src c N H ref hyp HN Hh) as Hrows.
  unfold model_mask_tensor in He. rewrite Hrows in He.
  eexists. eexists. exists st'. split; [exact He|]. split; [reflexivity|].
  intros n k Hn rseq hseq Hk t.
  set (K := S (H + (if C01.Model.c_excl c then 0 else 1) - 1)) in *.
  set (rcol := C01.Proofs.seq_of (C01.Model.c_bf c) n ref) in *. set (hcol := C01.Proofs.seq_of (C01.Model.c_bf c) n hyp) in *.
  assert (Lr : List.length rcol = R).
  { unfold rcol. rewrite <- (C01.Tie.colf_seq_of _ N R ref n Hn Hr). apply C01.TiePre.colf_length. }
  assert (Hlen : List.length hseq = C01.Model.eff_len (C01.Model.c_eos c) (C01.Model.c_incl c) hcol) by apply C01.Proofs.length_denote.
  rewrite Hlen in Hk.
  destruct (C01.Model.eff_costs (C01.Model.c_ins c) (C01.Model.c_del c) (C01.Model.c_sub c)) as [mult [[ci cd] cs]] eqn:E.
  assert (HkK : (k < K)%nat).
  { pose proof (C03.ProofsMain.hl_le_T c N hyp n Hn Hwh) as HlT. rewrite HT in HlT. fold hcol in HlT. unfold K. destruct Hk; lia. }
  apply (iff_trans (B := _) (C := _)) with (2 := C03.ProofsMain.marked_iff_preserving c N ref hyp n Hn Hwh mult ci cd cs k t Hi Hd Hs E Hk).
  fold rcol hcol. rewrite HT, Lr.
  assert (Hbit : forall i, (i < R)%nat ->
            nth ((k * R + i) * N + n)
              (tab3 K R N (fun k0 i0 n0 => nth i0 (nth k0 (nth n0 (C03.Model.oc_masks c N ref hyp) []) []) false)) false
            = nth i (nth k (C03.Model.pair_masks ci cd cs rcol hcol (C01.Model.eff_len (C01.Model.c_eos c) (C01.Model.c_incl c) rcol)
                              (C01.Model.eff_len (C01.Model.c_eos c) (C01.Model.c_incl c) hcol) (C01.Model.c_excl c) (K - 1)) []) false).
  { intros i Hi0. rewrite nth_tab3 by assumption.
    rewrite (C03.ProofsTop.oc_masks_nth c N ref hyp mult ci cd cs n E Hn), !C01.Proofs.sequences_nth by assumption.
    now rewrite Hrows. }
  replace (K - 1)%nat with (H + (if C01.Model.c_excl c then 0 else 1) - 1)%nat in Hbit by (unfold K; lia).
  split; intros [i [HiR [Em Et]]]; exists i; (split; [exact HiR|]; split; [|exact Et]).
  - rewrite Hbit in Em by exact HiR. exact Em.
  - rewrite Hbit by exact HiR. exact Em.
Qed.
End Whole.

(* the executable of the harness is this run *)
Corollary src_mask_is_model :
  forall (c : C01.Model.cfg) (scale : Z) (N R H : nat) (ref hyp : list (list Z)),
  (0 < N)%nat -> R <> 0%nat -> wf_src (C01.Model.c_bf c) N R ref -> wf_src (C01.Model.c_bf c) N H hyp ->
  (C01.Model.c_eos c <> None -> H <> 0%nat) ->
  src_mask sm3_blocks c scale N ref hyp = Some (Some (model_mask_tensor c N R ref hyp)) /\
  src_mask sm3_body c scale N ref hyp = Some (Some (model_mask_tensor c N R ref hyp)).
Proof.
  intros c scale N R H ref hyp HN HR Hr Hh Hnz.
  destruct (mask_is_model (Z.to_pos scale) c N R H ref hyp false HN HR Hr Hh Hnz) as [st1 He1].
  destruct (mask_body_is_model (Z.to_pos scale) c N R H ref hyp false HN HR Hr Hh Hnz) as [st2 He2].
  unfold src_mask, cfg3_vars, cost_q. unfold run_mask_blocks, run_mask_body, run_prog3, qz in He1, He2.
  rewrite He1, He2, dec01_enc_b. split; reflexivity.
Qed.

