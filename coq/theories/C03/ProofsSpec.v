(* C03 — facts about the specification alone (no model): the smallest distance a completion
   of a prefix can reach is the minimum of the prefix's table row ([best_reachable_row_min],
   costs >= 0), the distance-preserving tokens are the reference tokens that sit right after a
   row minimum ([preserving_iff_argmin], costs > 0 - the diagonal argument of the OCD paper),
   and the boolean row checker of Spec.v decides [target_row]. *)
From Coq Require Import List ZArith Bool Arith Lia.
From PV Require Import C01.Obs C01.Spec C01.LevFacts C01.Model C01.Proofs C03.Spec.
Import ListNotations.
Local Open Scope Z_scope.

(* ---- minima of non-empty folds ------------------------------------------------------- *)
Lemma fold_min_le_init a l : fold_right Z.min a l <= a.
Proof. induction l as [|x l IH]; cbn [fold_right]; lia. Qed.

Lemma fold_min_le_in a l x : In x l -> fold_right Z.min a l <= x.
Proof.
  induction l as [|y l IH]; intros H; [destruct H|].
  cbn [fold_right]. destruct H as [->|H]; [lia|]. specialize (IH H). lia.
Qed.

Lemma fold_min_attained a l : fold_right Z.min a l = a \/ In (fold_right Z.min a l) l.
Proof.
  induction l as [|y l IH]; [left; reflexivity|]. cbn [fold_right].
  destruct (Z.min_spec y (fold_right Z.min a l)) as [[_ E]|[_ E]]; rewrite E.
  - right. left. reflexivity.
  - destruct IH as [IH|IH]; [left; exact IH|right; right; exact IH].
Qed.

Lemma firstn_length_app {A} (l1 l2 : list A) : firstn (length l1) (l1 ++ l2) = l1.
Proof.
  rewrite firstn_app, firstn_all, Nat.sub_diag. cbn [firstn]. apply app_nil_r.
Qed.

Section SpecFacts.
  Variables ci cd cs : Z.
  Notation lev := (lev ci cd cs).
  Notation cost := (cost ci cd cs).
  Notation min_edit_cost := (min_edit_cost ci cd cs).
  Notation row_min := (row_min ci cd cs).
  Notation reachable := (reachable ci cd cs).
  Notation best_reachable := (best_reachable ci cd cs).
  Notation preserving := (preserving ci cd cs).

  (* ---- scripts ------------------------------------------------------------------------ *)
  Lemma cost_nonneg s : 0 <= ci -> 0 <= cd -> 0 <= cs -> 0 <= cost s.
  Proof.
    intros Hi Hd Hs. induction s as [|o s IH]; cbn [Spec.cost]; [lia|].
    destruct o; cbn [op_cost]; lia.
  Qed.

  (* a script producing p ++ s splits into one producing p and one producing s *)
  Lemma transforms_split sc r hh : transforms sc r hh -> forall p s, hh = p ++ s ->
    exists r1 r2 sc1 sc2, r = r1 ++ r2 /\ transforms sc1 r1 p /\ transforms sc2 r2 s /\
                          cost sc = cost sc1 + cost sc2.
  Proof.
    (* an empty prefix takes nothing of the script *)
    induction 1 as [|sc r hh b H IH|sc r hh a H IH|sc r hh a b Hab H IH|sc r hh a H IH];
      intros p s E;
      (destruct p as [|x p]; cbn [app] in E;
       [ subst s; eexists [], _, [], _; split; [reflexivity|]; split; [constructor|]; split; [econstructor; eassumption|];
         cbn [Spec.cost]; lia | ]).
    - discriminate E.
    - inversion E; subst x hh. destruct (IH p s eq_refl) as (r1 & r2 & sc1 & sc2 & Er & T1 & T2 & Ec).
      exists r1, r2, (Ins b :: sc1), sc2. split; [exact Er|].
      split; [constructor; exact T1|]. split; [exact T2|]. cbn [Spec.cost]. lia.
    - destruct (IH (x :: p) s E) as (r1 & r2 & sc1 & sc2 & Er & T1 & T2 & Ec).
      exists (a :: r1), r2, (Del a :: sc1), sc2. split; [cbn [app]; f_equal; exact Er|].
      split; [constructor; exact T1|]. split; [exact T2|]. cbn [Spec.cost]. lia.
    - inversion E; subst x hh. destruct (IH p s eq_refl) as (r1 & r2 & sc1 & sc2 & Er & T1 & T2 & Ec).
      exists (a :: r1), r2, (Sub a b :: sc1), sc2. split; [cbn [app]; f_equal; exact Er|].
      split; [constructor; assumption|]. split; [exact T2|]. cbn [Spec.cost]. lia.
    - inversion E; subst x hh. destruct (IH p s eq_refl) as (r1 & r2 & sc1 & sc2 & Er & T1 & T2 & Ec).
      exists (a :: r1), r2, (Keep a :: sc1), sc2. split; [cbn [app]; f_equal; exact Er|].
      split; [constructor; assumption|]. split; [exact T2|]. cbn [Spec.cost]. lia.
  Qed.

  Lemma lev_app_le r1 r2 h1 h2 : lev (r1 ++ r2) (h1 ++ h2) <= lev r1 h1 + lev r2 h2.
  Proof.
    destruct (lev_attained ci cd cs r1 h1) as [s1 [T1 C1]].
    destruct (lev_attained ci cd cs r2 h2) as [s2 [T2 C2]].
    rewrite <- C1, <- C2, <- cost_app. apply lev_lower_bound. apply transforms_app; assumption.
  Qed.

  Lemma lev_same_le x : lev x x <= 0.
  Proof.
    assert (C : cost (map Keep x) = 0) by (induction x as [|a x IH]; cbn [map Spec.cost op_cost]; lia).
    assert (T : transforms (map Keep x) x x) by (clear C; induction x; cbn [map]; constructor; assumption).
    rewrite <- C. apply lev_lower_bound. exact T.
  Qed.

  (* ---- the row minimum ------------------------------------------------------------------ *)
  Lemma row_min_le r p i : (i <= length r)%nat -> row_min r p <= lev (firstn i r) p.
  Proof.
    intros Hi. unfold Spec.row_min. destruct (Nat.eq_dec i (length r)) as [->|Hne].
    - rewrite firstn_all. apply fold_min_le_init.
    - apply fold_min_le_in. apply in_map_iff. exists i. split; [reflexivity|]. apply in_seq. lia.
  Qed.

  Lemma row_min_attained r p : exists i, (i <= length r)%nat /\ row_min r p = lev (firstn i r) p.
  Proof.
    unfold Spec.row_min.
    destruct (fold_min_attained (lev r p) (map (fun i => lev (firstn i r) p) (seq 0 (length r)))) as [E|E].
    - exists (length r). split; [lia|]. rewrite firstn_all. exact E.
    - apply in_map_iff in E as [i [E Hi]]. apply in_seq in Hi. exists i. split; [lia|]. symmetry. exact E.
  Qed.

  Section NonNeg.
    Hypothesis Hi : 0 <= ci.
    Hypothesis Hd : 0 <= cd.
    Hypothesis Hs : 0 <= cs.

    (* no completion of p gets below the minimum of p's row *)
    Lemma lev_completion_ge r p s : row_min r p <= lev r (p ++ s).
    Proof.
      destruct (lev_attained ci cd cs r (p ++ s)) as [sc [T C]].
      destruct (transforms_split sc r (p ++ s) T p s eq_refl) as (r1 & r2 & sc1 & sc2 & Er & T1 & T2 & Ec).
      pose proof (cost_nonneg sc2 Hi Hd Hs) as Hnn.
      pose proof (lev_lower_bound ci cd cs sc1 r1 p T1) as Hlb.
      assert (Hle : row_min r p <= lev r1 p).
      { replace r1 with (firstn (length r1) r) by (subst r; apply firstn_length_app).
        apply row_min_le. subst r. rewrite app_length. lia. }
      lia.
    Qed.

    (* ... and the completion "rest of the reference after a row minimum" reaches it *)
    Lemma lev_completion_at r p i : (i <= length r)%nat ->
      lev r (p ++ skipn i r) <= lev (firstn i r) p.
    Proof.
      intros Hle. rewrite <- (firstn_skipn i r) at 1.
      pose proof (lev_app_le (firstn i r) (skipn i r) p (skipn i r)).
      pose proof (lev_same_le (skipn i r)). lia.
    Qed.

    Theorem best_reachable_row_min r p : best_reachable r p (row_min r p).
    Proof.
      split.
      - destruct (row_min_attained r p) as [i [Hle E]]. exists (skipn i r).
        assert (E' : lev r (p ++ skipn i r) = row_min r p).
        { pose proof (lev_completion_at r p i Hle). pose proof (lev_completion_ge r p (skipn i r)). lia. }
        rewrite <- E'. apply lev_is_min_edit_cost.
      - intros v [s Hv].
        rewrite (min_edit_cost_unique ci cd cs r (p ++ s) v (lev r (p ++ s)) Hv
                   (lev_is_min_edit_cost ci cd cs r (p ++ s))).
        apply lev_completion_ge.
    Qed.

    Lemma best_reachable_unique r p m m' : best_reachable r p m -> best_reachable r p m' -> m = m'.
    Proof. intros [R1 L1] [R2 L2]. specialize (L1 m' R2). specialize (L2 m R1). lia. Qed.

    Lemma preserving_iff_row_min r p t : preserving r p t <-> row_min r (p ++ [t]) = row_min r p.
    Proof.
      split.
      - intros [m [B1 B2]].
        rewrite <- (best_reachable_unique r p m _ B1 (best_reachable_row_min r p)).
        rewrite <- (best_reachable_unique r (p ++ [t]) m _ B2 (best_reachable_row_min r (p ++ [t]))).
        reflexivity.
      - intros E. exists (row_min r p). split; [apply best_reachable_row_min|].
        rewrite <- E. apply best_reachable_row_min.
    Qed.

    (* appending a token never lowers what can still be reached *)
    Lemma row_min_snoc_ge r p t : row_min r p <= row_min r (p ++ [t]).
    Proof.
      destruct (row_min_attained r (p ++ [t])) as [i [Hle E]].
      pose proof (lev_completion_at r (p ++ [t]) i Hle) as H1.
      pose proof (lev_completion_ge r p (t :: skipn i r)) as H2.
      rewrite <- app_assoc in H1. cbn [app] in H1. lia.
    Qed.

    Lemma preservingb_iff r p t : preservingb ci cd cs r p t = true <-> preserving r p t.
    Proof. unfold preservingb. rewrite Z.eqb_eq. symmetry. apply preserving_iff_row_min. Qed.
  End NonNeg.

  Section Positive.
    Hypothesis Hi : 0 < ci.
    Hypothesis Hd : 0 < cd.
    Hypothesis Hs : 0 < cs.

    (* the diagonal argument: t preserves the best reachable distance iff it is the reference
       token right after a minimum of the prefix's row *)
    Theorem preserving_iff_argmin r p t :
      preserving r p t <->
      exists i, (i < length r)%nat /\ nth i r 0 = t /\ lev (firstn i r) p = row_min r p.
    Proof.
      rewrite preserving_iff_row_min by lia. split.
      - intros E. destruct (row_min_attained r (p ++ [t])) as [i [Hle Ei]].
        destruct i as [|k].
        + exfalso. cbn [firstn] in Ei. rewrite lev_nil_l, app_length in Ei. cbn [length] in Ei.
          pose proof (row_min_le r p 0 ltac:(lia)) as H0. cbn [firstn] in H0. rewrite lev_nil_l in H0.
          rewrite Nat2Z.inj_add in Ei. cbn in Ei. lia.
        + rewrite (firstn_snoc_nth r k 0) in Ei by lia. rewrite lev_snoc in Ei.
          pose proof (row_min_le r (p ++ [t]) k ltac:(lia)) as HA.
          pose proof (row_min_le r p (S k) ltac:(lia)) as HB.
          rewrite (firstn_snoc_nth r k 0) in HB by lia.
          pose proof (row_min_le r p k ltac:(lia)) as HC.
          unfold sub_cost in Ei. destruct (nth k r 0 =? t) eqn:Et.
          * apply Z.eqb_eq in Et. exists k. split; [lia|]. split; [exact Et|]. lia.
          * exfalso. lia.
      - intros [i [Hlt [Et Ei]]]. apply Z.le_antisymm; [|apply row_min_snoc_ge; lia].
        pose proof (row_min_le r (p ++ [t]) (S i) ltac:(lia)) as H1.
        rewrite (firstn_snoc_nth r i 0) in H1 by lia. rewrite lev_snoc in H1.
        unfold sub_cost in H1. rewrite Et, Z.eqb_refl in H1. lia.
    Qed.

    Corollary preserving_in_ref r p t : preserving r p t -> In t r.
    Proof.
      intros H. apply preserving_iff_argmin in H as [i [Hlt [Et _]]]. subst t. apply nth_In. exact Hlt.
    Qed.

    (* for the empty prefix only the first reference token qualifies *)
    Lemma argmin_nil r i : (i <= length r)%nat -> lev (firstn i r) [] = row_min r [] -> i = 0%nat.
    Proof.
      intros Hle E. pose proof (row_min_le r [] 0 ltac:(lia)) as H0.
      cbn [firstn] in H0. rewrite lev_nil_l in H0. cbn [length] in H0.
      rewrite lev_nil_r, firstn_length, Nat.min_l in E by lia. nia.
    Qed.

    Lemma argmin_nil_0 r : lev (firstn 0 r) [] = row_min r [].
    Proof.
      destruct (row_min_attained r []) as [i [Hle E]].
      rewrite (argmin_nil r i Hle (eq_sym E)) in E. symmetry. exact E.
    Qed.

    (* ---- the boolean row checker decides [target_row] -------------------------------- *)
    Lemma memz_In t l : memz t l = true <-> In t l.
    Proof.
      unfold memz. rewrite existsb_exists. split.
      - intros [x [Hin E]]. apply Z.eqb_eq in E. subst x. exact Hin.
      - intros Hin. exists t. split; [exact Hin|apply Z.eqb_refl].
    Qed.

    Lemma nodupb_NoDup l : nodupb l = true <-> NoDup l.
    Proof.
      induction l as [|x l IH]; cbn [nodupb].
      - split; [constructor|reflexivity].
      - rewrite andb_true_iff, negb_true_iff, IH. split.
        + intros [Hm Hn]. constructor; [|exact Hn]. intros Hin. apply memz_In in Hin. congruence.
        + intros Hn. inversion Hn as [|? ? Hni Hn']; subst. split; [|exact Hn'].
          destruct (memz x l) eqn:E; [|reflexivity]. apply memz_In in E. contradiction.
    Qed.

    Lemma wanted_spec r p t : In t (wanted ci cd cs r p) <-> preserving r p t.
    Proof.
      unfold wanted. rewrite nodup_In, filter_In, preservingb_iff by lia. split.
      - intros [_ H]. exact H.
      - intros H. split; [apply preserving_in_ref with p; exact H|exact H].
    Qed.

    Lemma forallb_eq_repeat pad l : forallb (Z.eqb pad) l = true <-> l = repeat pad (length l).
    Proof.
      induction l as [|x l IH]; cbn [forallb length repeat]; [split; reflexivity|].
      rewrite andb_true_iff, Z.eqb_eq, IH. split.
      - intros [-> E]. f_equal. exact E.
      - intros E. inversion E as [[E1 E2]]. split; [reflexivity|]. rewrite <- E2. exact E2.
    Qed.

    Theorem target_row_okb_iff r p pad row :
      target_row_okb ci cd cs r p pad row = true <-> target_row ci cd cs r p pad row.
    Proof.
      unfold target_row_okb, target_row.
      set (want := wanted ci cd cs r p). set (k := length want).
      assert (Hwn : NoDup want) by apply NoDup_nodup.
      rewrite !andb_true_iff, Nat.leb_le, nodupb_NoDup, forallb_forall, forallb_eq_repeat. split.
      - intros [[[Hk Hnd] Hin] Hpad]. exists (firstn k row).
        assert (HL : length (firstn k row) = k) by (rewrite firstn_length; lia).
        split; [|split; [exact Hnd|]].
        + rewrite HL. rewrite <- (firstn_skipn k row) at 1. f_equal.
          rewrite Hpad at 1. rewrite skipn_length. reflexivity.
        + intros t. rewrite <- wanted_spec. fold want. split.
          * intros H. apply memz_In. apply Hin. exact H.
          * revert t. apply NoDup_length_incl; [exact Hnd|rewrite HL; unfold k; lia|].
            intros t H. apply memz_In. apply Hin. exact H.
      - intros [L [Erow [Hnd HL]]].
        assert (Hlen : length L = k).
        { apply Nat.le_antisymm.
          - apply NoDup_incl_length; [exact Hnd|]. intros t H. apply wanted_spec, HL. exact H.
          - apply NoDup_incl_length; [exact Hwn|]. intros t H. apply HL, wanted_spec. exact H. }
        assert (Hk : (k <= length row)%nat).
        { rewrite Erow, app_length. lia. }
        assert (EL : firstn k row = L).
        { rewrite Erow, <- Hlen. apply firstn_length_app. }
        assert (ES : skipn k row = repeat pad (length row - length L)).
        { rewrite Erow at 1. rewrite <- Hlen. rewrite skipn_app, skipn_all, Nat.sub_diag. reflexivity. }
        rewrite EL. repeat split; try assumption.
        + intros t H. apply memz_In. apply wanted_spec, HL. exact H.
        + rewrite ES, repeat_length. reflexivity.
    Qed.

    Lemma padding_row_okb_iff pad row : padding_row_okb pad row = true <-> padding_row pad row.
    Proof. apply forallb_eq_repeat. Qed.
  End Positive.
End SpecFacts.
