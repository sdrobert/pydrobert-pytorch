(* C03, second tie - the argument checks of `hard_optimal_completion_distillation_loss` (PV.Gen.C03BSrc.loss_checks), interpreted
   with SrcRunB.ext03B: they pass (leaving the state as it is) on a 3-D logits tensor whose leading sizes are hyp's, when a counted
   eos is a class index other than ignore_index; they raise RuntimeError when it is not. *)
From Coq Require Import ZArith QArith List String Bool Arith Lia ZifyBool ZifyNat.
From PV Require Import MiniPy.Syntax MiniPy.Interp MiniPy.Lemmas MiniTorch.Ops MiniTorch.Lemmas MiniTorch.OpsC07 MiniTorch.LemmasC07
  MiniTorch.OpsC01 MiniTorch.LemmasC01 MiniTorch.OpsC03 MiniTorch.LemmasC03 MiniTorch.OpsC03B MiniTorch.LemmasC03B.
From PV Require Import Gen.C03Src Gen.C03BSrc C01.SrcRun C01.TieLib C03.SrcRun C03.TieLib C03.TieOcLib C03.SrcRunB C03.TieBLib.
Import ListNotations.
Local Open Scope string_scope.

#[local] Arguments cmp_eval : simpl never.
#[local] Arguments Z.eqb : simpl never.
#[local] Arguments Z.ltb : simpl never.
#[local] Arguments Z.leb : simpl never.

Lemma cmp_isnot_none_none : cmp_eval IsNot VNone VNone = Some false.  Proof. reflexivity. Qed.
Lemma cmp_isnot_int_none e : cmp_eval IsNot (VInt e) VNone = Some true.  Proof. reflexivity. Qed.
Lemma cmp_eq_int a b : cmp_eval Eq (VInt a) (VInt b) = Some (a =? b)%Z.  Proof. reflexivity. Qed.
Lemma cmp_ne_int a b : cmp_eval NotEq (VInt a) (VInt b) = Some (negb (a =? b)%Z).  Proof. reflexivity. Qed.
Lemma cmp_ne_pair a b a' b' :
  cmp_eval NotEq (VTuple [VInt a; VInt b]) (VTuple [VInt a'; VInt b']) = Some (negb ((a =? a') && ((b =? b') && true))%Z%bool).
Proof. reflexivity. Qed.

Create HintDb c03cmp discriminated.
#[export] Hint Rewrite cmp_isnot_none_none cmp_isnot_int_none cmp_eq_int cmp_ne_int cmp_ne_pair cmp_eval_lt_int cmp_eval_ge_int : c03cmp.

Ltac evc := repeat (progress (cbn; try (rewrite_strat (topdown (choice (hints c03) (hints c03cmp)))); look; normb)).

Section Checks.
  Variable lsm : list fx -> list Q.
  Definition checks_stage (A B V : nat) (dl : list fx) (dh : list Z) (incl : bool) (eos : option Z) (ign : Z) : list (string * val) :=
    [("logits", enc_x (mkTn [A; B; V] dl)); ("hyp", enc_i (mkTn [A; B] dh)); ("include_eos", VBool incl);
     ("eos", opt_int eos); ("ignore_index", VInt ign)].

  Lemma three : Z.of_nat 3 = 3%Z.  Proof. reflexivity. Qed.

  (* the checks of the shape of logits pass; what is left tests eos *)
  Definition eos_checks : stmt := match loss_checks with SSeq _ (SSeq _ r) => r | _ => SPass end.

  Lemma head_checks : forall A B V dl dh incl eos ign st, known3 st (checks_stage A B V dl dh incl eos ign) ->
    exec (ext03B lsm) loss_checks st = exec (ext03B lsm) eos_checks st.
  Proof.
    intros A B V dl dh incl eos ign st K0. unfold checks_stage in K0. open_known3 K0. unfold loss_checks.
    ifstep3_t ltac:(evc; rewrite ?three; reflexivity). change (3 =? 3)%Z with true. cbn [negb truthy].
    ifstep3_t ltac:(evc; rewrite ?Z.eqb_refl; reflexivity). cbn [negb andb truthy]. reflexivity.
  Qed.

  Lemma checks_pass : forall A B V dl dh incl eos ign st, known3 st (checks_stage A B V dl dh incl eos ign) ->
    (incl = true -> forall e, eos = Some e -> (0 <= e < Z.of_nat V)%Z /\ e <> ign) ->
    exec (ext03B lsm) loss_checks st = Ok CNormal st.
  Proof.
    intros A B V dl dh incl eos ign st K0 Hg. rewrite (head_checks _ _ _ _ _ _ _ _ _ K0).
    unfold checks_stage in K0. open_known3 K0. unfold eos_checks, loss_checks.
    destruct incl.
    - ifstep3_t ltac:(evc; reflexivity). cbn [truthy].
      destruct eos as [e|]; cbn [opt_int] in *.
      + destruct (Hg eq_refl e eq_refl) as [[H0 H1] H2].
        assert (E1 : (e <? 0)%Z = false) by lia. assert (E2 : (Z.of_nat V <=? e)%Z = false) by lia.
        assert (E3 : (e =? ign)%Z = false) by lia.
        ifstep3_t ltac:(repeat (progress (evc; rewrite ?E1, ?E2, ?E3)); reflexivity). cbn [truthy].
        ifstep3_t ltac:(repeat (progress (evc; rewrite ?E1, ?E2, ?E3)); reflexivity). cbn [truthy]. reflexivity.
      + ifstep3_t ltac:(evc; reflexivity). cbn [truthy].
        ifstep3_t ltac:(evc; reflexivity). cbn [truthy]. reflexivity.
    - ifstep3_t ltac:(evc; reflexivity). cbn [truthy]. reflexivity.
  Qed.

  (* "If include_eos=True, eos must be a class idx" *)
  Lemma checks_raise_class : forall A B V dl dh ign st e, known3 st (checks_stage A B V dl dh true (Some e) ign) ->
    (e < 0 \/ Z.of_nat V <= e)%Z -> exec (ext03B lsm) loss_checks st = Exc "RuntimeError" st.
  Proof.
    intros A B V dl dh ign st e K0 Hb. rewrite (head_checks _ _ _ _ _ _ _ _ _ K0).
    unfold checks_stage in K0. open_known3 K0. unfold eos_checks, loss_checks. cbn [opt_int] in *.
    ifstep3_t ltac:(evc; reflexivity). cbn [truthy].
    destruct (e <? 0)%Z eqn:E1.
    - ifstep3_t ltac:(repeat (progress (evc; rewrite ?E1)); reflexivity). cbn [truthy]. reflexivity.
    - assert (E2 : (Z.of_nat V <=? e)%Z = true) by lia.
      ifstep3_t ltac:(repeat (progress (evc; rewrite ?E1, ?E2)); reflexivity). cbn [truthy]. reflexivity.
  Qed.

  (* "If include_eos=True, eos cannot equal ignore_index" *)
  Lemma checks_raise_ign : forall A B V dl dh ign st e, known3 st (checks_stage A B V dl dh true (Some e) ign) ->
    (0 <= e < Z.of_nat V)%Z -> e = ign -> exec (ext03B lsm) loss_checks st = Exc "RuntimeError" st.
  Proof.
    intros A B V dl dh ign st e K0 [H0 H1] Hb. rewrite (head_checks _ _ _ _ _ _ _ _ _ K0).
    unfold checks_stage in K0. open_known3 K0. unfold eos_checks, loss_checks. cbn [opt_int] in *.
    assert (E1 : (e <? 0)%Z = false) by lia. assert (E2 : (Z.of_nat V <=? e)%Z = false) by lia.
    assert (E3 : (e =? ign)%Z = true) by lia.
    ifstep3_t ltac:(evc; reflexivity). cbn [truthy].
    ifstep3_t ltac:(repeat (progress (evc; rewrite ?E1, ?E2, ?E3)); reflexivity). cbn [truthy].
    ifstep3_t ltac:(repeat (progress (evc; rewrite ?E1, ?E2, ?E3)); reflexivity). cbn [truthy]. reflexivity.
  Qed.
End Checks.
