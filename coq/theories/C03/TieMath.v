(* C03 - the arithmetic behind the source tie of the mask path, free of the interpreter: the float expressions the
   interpreted `_string_matching(return_mask=True)` builds per entry (MiniTorch arithmetic on [ofx s o] = the float o / s,
   +inf for None) are the values of PV.C03.Model ([ostep_row], [inf_past], [mask_step], [oeqb]) scaled by the common
   denominator s.  Reuses C01.TieMath (zf, ofx, fadd_ofx_zf, fmin_ofx, fmin_list_ofx, del_entry_src) read-only. *)
From Coq Require Import ZArith QArith List Bool Arith Lia ZifyBool ZifyNat.
From PV Require Import MiniTorch.Ops MiniTorch.Lemmas MiniTorch.OpsC07 MiniTorch.LemmasC07 MiniTorch.OpsC01 MiniTorch.LemmasC01
  MiniTorch.OpsC03 MiniTorch.LemmasC03.
From PV Require Import C01.TieMath.
From PV Require C01.Model C01.Proofs C03.Model C03.ProofsMask.
Import ListNotations.
Local Open Scope Z_scope.

Lemma fadd_ofx_ofx : forall s a b, fadd (ofx s a) (ofx s b) = ofx s (C03.Model.oadd2 a b).
Proof. intros s [a|] [b|]; cbn [ofx C03.Model.oadd2]; try reflexivity. apply fadd_zf. Qed.

Lemma fx_eqb_ofx : forall s a b, fx_eqb (ofx s a) (ofx s b) = C03.Model.oeqb a b.
Proof. intros s [a|] [b|]; cbn [ofx C03.Model.oeqb]; try reflexivity. unfold zf, fx_eqb. apply qz_eqb. Qed.

Lemma ofx_if : forall s (b : bool) x, (if b then FPInf else ofx s x) = ofx s (if b then None else x).
Proof. intros s [|] x; reflexivity. Qed.

(* ---- one step of one column, by index ------------------------------------------------------------------------ *)
Section Step.
  Variables (ci cd cs : Z) (R H : nat).
  Variables (rcol hcol : nat -> Z) (lcol : nat -> option Z) (rlen hlen k : nat) (excl : bool).

  Let r := map rcol (seq 0 R).
  Let h := map hcol (seq 0 H).
  Let last := map lcol (seq 0 (S R)).

  (* insertion / substitution candidates of entry j (before the deletion fold), with +inf *)
  Definition ocandf (j : nat) : option Z :=
    let im := if (k <=? hlen)%nat then 1 else 0 in
    match j with
    | O => C01.Model.oadd (lcol 0%nat) (ci * im)
    | S j' => C01.Model.omin (C01.Model.oadd (lcol (S j')) (ci * im))
                             (C01.Model.oadd (lcol j') (cs * (if rcol j' =? hcol (k - 1)%nat then 0 else 1)))
    end.

  Hypothesis Hk : (1 <= k <= H)%nat.

  Let Lr : length r = R.  Proof. unfold r. now rewrite map_length, seq_length. Qed.
  Let Ll : length last = S (length r).  Proof. unfold last. now rewrite map_length, seq_length, Lr. Qed.

  Lemma ocand_list :
    C03.ProofsMask.ocand ci cs r (nth (k - 1) h 0) (if (k <=? hlen)%nat then 1 else 0) last = map ocandf (seq 0 (S R)).
  Proof.
    apply (nth_ext _ _ None None).
    - now rewrite C03.ProofsMask.ocand_length, map_length, seq_length, Lr by exact Ll.
    - intros i Hi. rewrite C03.ProofsMask.ocand_length, Lr in Hi by exact Ll.
      rewrite (C01.Proofs.nth_map_seq ocandf 0 (S R) i None Hi). cbn [Nat.add].
      destruct i as [|i'].
      + rewrite C03.ProofsMask.ocand_0 by exact Ll. unfold last. rewrite C01.Proofs.nth_map_seq by lia. reflexivity.
      + rewrite C03.ProofsMask.ocand_S by (exact Ll || (rewrite Lr; lia)).
        unfold last, r, h. rewrite !C01.Proofs.nth_map_seq by lia. reflexivity.
  Qed.

  Definition ostep_at (i : nat) : option Z :=
    if C03.Model.not_done_at hlen excl k
    then C01.Model.omin_list (map (fun j => C03.Model.oadd2 (C01.Model.del_entry cd i j) (ocandf j)) (seq 0 (S R)))
    else lcol i.

  Lemma ostep_entry : forall i, (i < S R)%nat ->
    nth i (C03.Model.ostep_row ci cd cs r h hlen excl k last) None = ostep_at i.
  Proof.
    intros i Hi. rewrite C03.ProofsMask.ostep_row_unfold. unfold ostep_at.
    destruct (C03.Model.not_done_at hlen excl k).
    - rewrite ocand_list. unfold C03.Model.odel_fold. rewrite map_length, seq_length.
      rewrite C01.Proofs.nth_map_seq by exact Hi. cbn [Nat.add]. f_equal.
      apply map_ext_in. intros j Hj. apply in_seq in Hj. rewrite C01.Proofs.nth_map_seq by lia. reflexivity.
    - unfold last. rewrite C01.Proofs.nth_map_seq by exact Hi. reflexivity.
  Qed.

  Lemma ostep_length : length (C03.Model.ostep_row ci cd cs r h hlen excl k last) = S R.
  Proof.
    rewrite C03.ProofsMask.ostep_row_unfold. destruct (C03.Model.not_done_at hlen excl k).
    - now rewrite C03.ProofsMask.odel_fold_length, C03.ProofsMask.ocand_length, Lr by exact Ll.
    - now rewrite Ll, Lr.
  Qed.

  (* the row carried to the next step: +inf past the reference length *)
  Definition mrow_at (i : nat) : option Z := if (rlen <? i)%nat then None else ostep_at i.

  Definition mrow : list (option Z) := fst (C03.Model.mask_step ci cd cs r h rlen hlen excl k last).
  Definition mbits : list bool := snd (C03.Model.mask_step ci cd cs r h rlen hlen excl k last).

  Lemma mrow_length : length mrow = S R.
  Proof. unfold mrow, C03.Model.mask_step. cbn [fst]. now rewrite C03.ProofsMask.inf_past_length, ostep_length. Qed.

  Lemma mrow_entry : forall i, (i < S R)%nat -> nth i mrow None = mrow_at i.
  Proof.
    intros i Hi. unfold mrow, C03.Model.mask_step. cbn [fst].
    rewrite C03.ProofsMask.inf_past_nth by (now rewrite ostep_length). unfold mrow_at. now rewrite ostep_entry.
  Qed.

  Lemma mrow_as_map : mrow = map mrow_at (seq 0 (S R)).
  Proof.
    apply (nth_ext _ _ None None).
    - now rewrite mrow_length, map_length, seq_length.
    - intros i Hi. rewrite mrow_length in Hi. rewrite C01.Proofs.nth_map_seq by exact Hi. now apply mrow_entry.
  Qed.

  Lemma mbits_length : length mbits = R.
  Proof.
    unfold mbits, C03.Model.mask_step. cbn [snd].
    change (C03.Model.inf_past rlen (C03.Model.ostep_row ci cd cs r h hlen excl k last)) with mrow.
    rewrite map_length, C01.Proofs.length_removelast, mrow_length. lia.
  Qed.

  Lemma mbits_entry : forall i, (i < R)%nat ->
    nth i mbits false =
    (C03.Model.oeqb (mrow_at i) (C01.Model.omin_list (map mrow_at (seq 0 (S R)))) && C03.Model.not_done_at hlen excl k)%bool.
  Proof.
    intros i Hi. unfold mbits, C03.Model.mask_step. cbn [snd].
    change (C03.Model.inf_past rlen (C03.Model.ostep_row ci cd cs r h hlen excl k last)) with mrow.
    rewrite (C01.Proofs.nth_map_lt _ _ i None) by (rewrite C01.Proofs.length_removelast, mrow_length; lia).
    rewrite C01.Proofs.nth_removelast by (rewrite mrow_length; lia).
    rewrite mrow_entry by lia. now rewrite mrow_as_map.
  Qed.

  (* ---- the float expressions the interpreted loop body leaves ------------------------------------------------------ *)
  Definition candx (s : positive) (j : nat) : fx :=
    match j with
    | O => fadd (ofx s (lcol 0%nat)) (fmul (Fq (qz s ci)) (b2f (Z.of_nat hlen >=? Z.of_nat k)%Z))
    | S j' => fmin (fadd (ofx s (lcol (S j'))) (fmul (Fq (qz s ci)) (b2f (Z.of_nat hlen >=? Z.of_nat k)%Z)))
                   (fadd (ofx s (lcol j')) (fmul (Fq (qz s cs)) (b2f (negb (rcol j' =? hcol (k - 1)%nat)%Z))))
    end.

  Lemma candx_ocandf : forall s j, candx s j = ofx s (ocandf j).
  Proof.
    intros s j. unfold candx, ocandf.
    replace (Z.of_nat hlen >=? Z.of_nat k)%Z with (k <=? hlen)%nat by lia.
    destruct j as [|j'].
    - rewrite fmul_zf_b2f, fadd_ofx_zf. reflexivity.
    - rewrite !fmul_zf_b2f, !fadd_ofx_zf, fmin_ofx. do 3 f_equal.
      destruct (rcol j' =? hcol (k - 1)%nat)%Z; reflexivity.
  Qed.

  (* entry i after the step and the +inf fill; [nd] is the test the source computes for not_done *)
  Definition stepx (s : positive) (nd : bool) (i : nat) : fx :=
    if fx_gtb (z2f (Z.of_nat i)) (z2f (Z.of_nat rlen)) then FPInf
    else if nd
         then fmin_list (map (fun j => fadd (ofx s (C01.Model.del_entry cd i j)) (candx s j)) (seq 0 (S R)))
         else ofx s (lcol i).

  Lemma stepx_mrow : forall s nd i, nd = C03.Model.not_done_at hlen excl k -> stepx s nd i = ofx s (mrow_at i).
  Proof.
    intros s nd i ->. unfold stepx, mrow_at, ostep_at. rewrite fx_gtb_z2f.
    replace (Z.of_nat i >? Z.of_nat rlen)%Z with (rlen <? i)%nat by lia.
    destruct (rlen <? i)%nat; [reflexivity|].
    destruct (C03.Model.not_done_at hlen excl k); [|reflexivity].
    rewrite (map_ext _ (fun j => ofx s (C03.Model.oadd2 (C01.Model.del_entry cd i j) (ocandf j)))).
    - rewrite <- (map_map (fun j => C03.Model.oadd2 (C01.Model.del_entry cd i j) (ocandf j)) (ofx s)).
      apply fmin_list_ofx.
    - intros j. now rewrite candx_ocandf, fadd_ofx_ofx.
  Qed.

  Lemma stepx_entry : forall s nd i, (i < S R)%nat -> nd = C03.Model.not_done_at hlen excl k ->
    stepx s nd i = ofx s (nth i mrow None).
  Proof. intros s nd i Hi E. rewrite mrow_entry by exact Hi. now apply stepx_mrow. Qed.

  (* the mask bit the source computes at position i *)
  Lemma bitx_entry : forall s nd i, (i < R)%nat -> nd = C03.Model.not_done_at hlen excl k ->
    (fx_eqb (stepx s nd i) (fmin_list (map (stepx s nd) (seq 0 (S R)))) && nd)%bool = nth i mbits false.
  Proof.
    intros s nd i Hi E. rewrite mbits_entry by exact Hi.
    rewrite (map_ext _ (fun i' => ofx s (mrow_at i'))) by (intros; now apply stepx_mrow).
    rewrite <- (map_map mrow_at (ofx s)), fmin_list_ofx, (stepx_mrow s nd i E), fx_eqb_ofx. now rewrite E.
  Qed.
End Step.

(* ---- the rows / masks of the model as an iteration ------------------------------------------------------------------- *)
Fixpoint iter_mrow (ci cd cs : Z) (r h : list Z) (rlen hlen : nat) (excl : bool) (fuel k : nat) (last : list (option Z))
  : list (option Z) :=
  match fuel with
  | O => last
  | S f => iter_mrow ci cd cs r h rlen hlen excl f (S k) (fst (C03.Model.mask_step ci cd cs r h rlen hlen excl k last))
  end.

Lemma masks_loop_snoc : forall ci cd cs r h rlen hlen excl fuel k last,
  C03.Model.masks_loop ci cd cs r h rlen hlen excl (S fuel) k last =
  C03.Model.masks_loop ci cd cs r h rlen hlen excl fuel k last ++
  [snd (C03.Model.mask_step ci cd cs r h rlen hlen excl (k + fuel)
         (iter_mrow ci cd cs r h rlen hlen excl fuel k last))].
Proof.
  intros ci cd cs r h rlen hlen excl fuel. induction fuel as [|f IH]; intros k last.
  - cbn [C03.Model.masks_loop iter_mrow app]. now rewrite Nat.add_0_r.
  - change (C03.Model.masks_loop ci cd cs r h rlen hlen excl (S (S f)) k last)
      with (snd (C03.Model.mask_step ci cd cs r h rlen hlen excl k last)
            :: C03.Model.masks_loop ci cd cs r h rlen hlen excl (S f) (S k)
                 (fst (C03.Model.mask_step ci cd cs r h rlen hlen excl k last))).
    rewrite IH. replace (k + S f)%nat with (S k + f)%nat by lia. reflexivity.
Qed.
