(* C03 — the property of optimal_completion: every row of the returned tensor that belongs to
   a prefix of the hypothesis lists, strictly increasing and followed only by padding, exactly
   the tokens that preserve the best reachable distance ([oc_row_correct]); rows past the
   hypothesis's end are all padding ([oc_past_end_is_padding]). *)
From Coq Require Import List ZArith Bool Arith Lia Sorted.
From PV Require Import C01.Obs C01.Spec C01.Model C01.LevFacts C01.Proofs.
From PV Require Import C03.Spec C03.Model C03.ProofsSpec C03.ProofsMask C03.ProofsSelect C03.ProofsTop.
Import ListNotations.
Local Open Scope Z_scope.

Lemma eff_costs_pos i d s m a b c : 0 < i -> 0 < d -> 0 < s ->
  eff_costs i d s = (m, (a, b, c)) -> 0 < m /\ 0 < a /\ 0 < b /\ 0 < c.
Proof.
  intros Hi Hd Hs. unfold eff_costs.
  destruct ((i =? d) && (d =? s) && (0 <? s)); intros E; inversion E; subst; lia.
Qed.

Lemma in_nil_all {A} (l : list A) : (forall t, ~ In t l) -> l = [].
Proof. destruct l as [|x l]; [reflexivity|]. intros H. exfalso. apply (H x). left. reflexivity. Qed.

Lemma S_sub1 x : (S x - 1 = x)%nat.
Proof. lia. Qed.

Section Main.
  Variable c : cfg.
  Variables (N : nat) (ref hyp : list (list Z)).
  Variable n : nat.
  Hypothesis Hn : (n < N)%nat.
  Hypothesis Hwr : wf_tensor (c_bf c) N ref.
  Hypothesis Hwh : wf_tensor (c_bf c) N hyp.

  Let bf := c_bf c.
  Let excl := c_excl c.
  Let e1 := if excl then 0%nat else 1%nat.
  Let rcol := seq_of bf n ref.                       (* the raw columns of pair n *)
  Let hcol := seq_of bf n hyp.
  Let R := denote (c_eos c) (c_incl c) rcol.          (* the sequences they denote *)
  Let Hy := denote (c_eos c) (c_incl c) hcol.
  Let rl := eff_len (c_eos c) (c_incl c) rcol.
  Let hl := eff_len (c_eos c) (c_incl c) hcol.
  Let W := oc_width c N ref hyp.
  Let T := time_len bf hyp.

  Lemma oc_rows_time : oc_rows c N hyp = S (T + e1 - 1).
  Proof.
    unfold oc_rows. f_equal. f_equal. f_equal.
    rewrite hd_nth0, sequences_nth by (assumption || lia).
    apply (seq_of_length _ N); [lia|assumption].
  Qed.

  Lemma hcol_length : length hcol = T.
  Proof. apply (seq_of_length _ N); assumption. Qed.

  Lemma hl_le_T : (hl <= T)%nat.
  Proof. rewrite <- hcol_length. apply eff_len_le. Qed.

  Lemma R_firstn : R = firstn rl rcol.
  Proof. symmetry. apply firstn_eff_len. Qed.

  Lemma Hy_firstn : Hy = firstn hl hcol.
  Proof. symmetry. apply firstn_eff_len. Qed.

  Lemma R_length : length R = rl.
  Proof. apply length_denote. Qed.

  Lemma Hy_length : length Hy = hl.
  Proof. apply length_denote. Qed.

  Lemma rl_le : (rl <= length rcol)%nat.
  Proof. apply eff_len_le. Qed.

  Lemma hl_le : (hl <= length hcol)%nat.
  Proof. apply eff_len_le. Qed.

  (* what oc_entry gives for pair n, with the columns named as above *)
  Lemma entry_cell mult ci cd cs k :
    eff_costs (c_ins c) (c_del c) (c_sub c) = (mult, (ci, cd, cs)) -> (k < S (T + e1 - 1))%nat ->
    let m := nth k (pair_masks ci cd cs rcol hcol rl hl excl (T + e1 - 1)) [] in
    entry3 bf k n (optimal_completion c N ref hyp)
    = pair_targets rcol m ++ repeat (c_pad c) (W - length (pair_targets rcol m))
    /\ (length (pair_targets rcol m) <= W)%nat /\ length m = length rcol.
  Proof.
    intros E Hk m.
    pose proof (oc_entry c N ref hyp mult ci cd cs n k E Hn) as Hent.
    rewrite oc_rows_time in Hent. specialize (Hent Hk). cbn zeta in Hent.
    rewrite !sequences_nth in Hent by assumption.
    rewrite S_sub1 in Hent.
    destruct Hent as [Hent Hle]. split; [exact Hent|]. split; [exact Hle|].
    apply pair_masks_row_length; [apply rl_le|apply hl_le|lia].
  Qed.

  (* ---- a row minimum in the code's (possibly rescaled) costs is one in the user's costs ---- *)
  Lemma argmin_transfer mult ci cd cs k i :
    eff_costs (c_ins c) (c_del c) (c_sub c) = (mult, (ci, cd, cs)) -> 0 < mult ->
    (k <= hl)%nat -> (i <= rl)%nat ->
    row_argmin ci cd cs rcol hcol rl k i <->
    lev (c_ins c) (c_del c) (c_sub c) (firstn i R) (firstn k Hy)
    = row_min (c_ins c) (c_del c) (c_sub c) R (firstn k Hy).
  Proof.
    intros E Hm Hk Hi.
    assert (Htab : forall i', (i' <= rl)%nat ->
              tab ci cd cs rcol hcol k i' * mult
              = lev (c_ins c) (c_del c) (c_sub c) (firstn i' R) (firstn k Hy)).
    { intros i' Hi'. unfold tab. rewrite (eff_costs_lev _ _ _ _ _ _ _ _ _ E).
      rewrite R_firstn, Hy_firstn, !firstn_firstn_le by assumption. reflexivity. }
    unfold row_argmin. split.
    - intros Harg. apply Z.le_antisymm.
      + destruct (row_min_attained (c_ins c) (c_del c) (c_sub c) R (firstn k Hy)) as [i' [Hi' Ei']].
        rewrite R_length in Hi'. rewrite Ei', <- !Htab by assumption.
        specialize (Harg i' Hi'). nia.
      + apply row_min_le. rewrite R_length. exact Hi.
    - intros Emin i' Hi'.
      pose proof (row_min_le (c_ins c) (c_del c) (c_sub c) R (firstn k Hy) i') as Hle.
      rewrite R_length in Hle. specialize (Hle Hi').
      rewrite <- Emin, <- !Htab in Hle by assumption. nia.
  Qed.

  Lemma live_of_valid k : (k = 0%nat \/ k < hl + e1)%nat ->
    (k = 0%nat \/ not_done_at hl excl k = true) /\ (k <= hl)%nat.
  Proof.
    intros [->|Hk]; [split; [left; reflexivity|lia]|].
    unfold not_done_at. subst e1. destruct excl; (split; [|lia]).
    - destruct k; [left; reflexivity|right; apply Nat.ltb_lt; lia].
    - destruct k; [left; reflexivity|right; apply Nat.ltb_lt; lia].
  Qed.

  (* ---- a marked position of row k holds a preserving token, and every preserving token is at one ---- *)
  Lemma marked_iff_preserving mult ci cd cs k t :
    0 < c_ins c -> 0 < c_del c -> 0 < c_sub c ->
    eff_costs (c_ins c) (c_del c) (c_sub c) = (mult, (ci, cd, cs)) -> (k = 0%nat \/ k < hl + e1)%nat ->
    (exists i, (i < length rcol)%nat /\ nth i (nth k (pair_masks ci cd cs rcol hcol rl hl excl (T + e1 - 1)) []) false = true
               /\ nth i rcol 0 = t)
    <-> preserving (c_ins c) (c_del c) (c_sub c) R (firstn k Hy) t.
  Proof.
    intros Hi Hd Hs E Hk.
    destruct (eff_costs_pos _ _ _ _ _ _ _ Hi Hd Hs E) as [Hm [Hci [Hcd Hcs]]].
    destruct (live_of_valid k Hk) as [Hlive Hkh]. pose proof hl_le_T as HlT. pose proof rl_le as Hrl.
    rewrite (preserving_iff_argmin _ _ _ Hi Hd Hs), R_length. split.
    - intros [i [Hil [Em Et]]].
      apply (pair_masks_spec ci cd cs rcol hcol rl hl excl rl_le hl_le) in Em as [Hirl [_ Harg]];
        [|exact Hcd|lia|exact Hil].
      exists i. split; [exact Hirl|]. split.
      + rewrite R_firstn, nth_firstn_lt by exact Hirl. exact Et.
      + apply (argmin_transfer mult ci cd cs k i E Hm Hkh); [lia|exact Harg].
    - intros [i [Hirl [Et Emin]]]. exists i. split; [lia|]. split.
      + apply (pair_masks_spec ci cd cs rcol hcol rl hl excl rl_le hl_le); [exact Hcd|lia|lia|].
        split; [exact Hirl|]. split; [exact Hlive|].
        apply (argmin_transfer mult ci cd cs k i E Hm Hkh); [lia|exact Emin].
      + rewrite R_firstn, nth_firstn_lt in Et by exact Hirl. exact Et.
  Qed.

  (* ---- the property, one row ------------------------------------------------------------------ *)
  Theorem oc_row_correct k :
    0 < c_ins c -> 0 < c_del c -> 0 < c_sub c ->
    (k = 0%nat \/ k < length Hy + e1)%nat ->
    exists L,
      entry3 bf k n (optimal_completion c N ref hyp) = L ++ repeat (c_pad c) (W - length L)
      /\ (length L <= W)%nat
      /\ StronglySorted Z.lt L
      /\ forall t, In t L <-> preserving (c_ins c) (c_del c) (c_sub c) R (firstn k Hy) t.
  Proof.
    intros Hi Hd Hs Hk. rewrite Hy_length in Hk.
    destruct (eff_costs (c_ins c) (c_del c) (c_sub c)) as [mult [[ci cd] cs]] eqn:E.
    pose proof hl_le_T as HlT.
    assert (Hkr : (k < S (T + e1 - 1))%nat) by (destruct Hk; lia).
    destruct (entry_cell mult ci cd cs k E Hkr) as [Hent [Hle HmL]].
    set (m := nth k (pair_masks ci cd cs rcol hcol rl hl excl (T + e1 - 1)) []) in *.
    destruct (pair_targets_spec rcol m HmL) as [Hsorted Hin].
    exists (pair_targets rcol m). split; [exact Hent|]. split; [exact Hle|]. split; [exact Hsorted|].
    intros t. rewrite Hin. exact (marked_iff_preserving mult ci cd cs k t Hi Hd Hs E Hk).
  Qed.

  (* "Prefixes past the hypothesis's end yield only padding".  Row 0 is not covered: it is past
     the end only for an empty hypothesis with exclude_last - the excluded case, where the code
     still lists the first reference token (oc_row_correct with k = 0 says what row 0 holds) *)
  Theorem oc_past_end_is_padding k :
    (1 <= k)%nat -> (k < oc_rows c N hyp)%nat -> (length Hy + e1 <= k)%nat ->
    entry3 bf k n (optimal_completion c N ref hyp) = repeat (c_pad c) W.
  Proof.
    intros H1 Hk Hpast. rewrite Hy_length in Hpast. rewrite oc_rows_time in Hk.
    destruct (eff_costs (c_ins c) (c_del c) (c_sub c)) as [mult [[ci cd] cs]] eqn:E.
    destruct (entry_cell mult ci cd cs k E Hk) as [Hent [_ HmL]].
    set (m := nth k (pair_masks ci cd cs rcol hcol rl hl excl (T + e1 - 1)) []) in *.
    destruct (pair_targets_spec rcol m HmL) as [_ Hin].
    assert (Enil : pair_targets rcol m = []).
    { apply in_nil_all. intros t Ht. apply Hin in Ht as [i [Hil [Em _]]].
      unfold m in Em. rewrite (pair_masks_dead ci cd cs rcol hcol rl hl excl rl_le hl_le) in Em;
        [discriminate Em|exact H1|lia|exact Hil|].
      unfold not_done_at. apply Nat.ltb_ge. subst e1. destruct excl; lia. }
    rewrite Hent, Enil. cbn [app length]. rewrite Nat.sub_0_r. reflexivity.
  Qed.

  (* the shape of every row whatever the costs: strictly increasing counted reference tokens,
     then padding up to the common width *)
  Theorem oc_sorted_nodup_then_padding k : (k < oc_rows c N hyp)%nat ->
    exists L,
      entry3 bf k n (optimal_completion c N ref hyp) = L ++ repeat (c_pad c) (W - length L)
      /\ (length L <= W)%nat /\ StronglySorted Z.lt L /\ NoDup L /\ (forall t, In t L -> In t R).
  Proof.
    intros Hk. rewrite oc_rows_time in Hk.
    destruct (eff_costs (c_ins c) (c_del c) (c_sub c)) as [mult [[ci cd] cs]] eqn:E.
    destruct (entry_cell mult ci cd cs k E Hk) as [Hent [Hle HmL]].
    set (m := nth k (pair_masks ci cd cs rcol hcol rl hl excl (T + e1 - 1)) []) in *.
    destruct (pair_targets_spec rcol m HmL) as [Hsorted Hin].
    exists (pair_targets rcol m). split; [exact Hent|]. split; [exact Hle|]. split; [exact Hsorted|].
    split; [apply strictly_sorted_nodup; exact Hsorted|].
    intros t Ht. apply Hin in Ht as [i [Hil [Em Et]]].
    apply (pair_masks_lt ci cd cs rcol hcol rl hl excl rl_le hl_le) in Em; [|lia|exact Hil].
    subst t. rewrite <- (nth_firstn_lt rcol i rl 0 Em), <- R_firstn. apply nth_In. rewrite R_length. exact Em.
  Qed.

  (* the rows satisfy the boolean judgement the harness applies to the implementation *)
  Corollary oc_row_meets_spec k :
    0 < c_ins c -> 0 < c_del c -> 0 < c_sub c -> (k < oc_rows c N hyp)%nat ->
    spec_row_okb (c_eos c) (c_incl c) excl (c_ins c) (c_del c) (c_sub c) (c_pad c) rcol hcol k
      (entry3 bf k n (optimal_completion c N ref hyp)) = true.
  Proof.
    intros Hi Hd Hs Hk. unfold spec_row_okb. fold R Hy. fold e1.
    destruct (k <? length Hy + e1)%nat eqn:Ek.
    - apply Nat.ltb_lt in Ek.
      destruct (oc_row_correct k Hi Hd Hs (or_intror Ek)) as [L [Hent [Hle [Hsorted Hin]]]].
      apply (target_row_okb_iff _ _ _ Hi Hd Hs). exists L.
      assert (Hlen : length (entry3 bf k n (optimal_completion c N ref hyp)) = W)
        by (rewrite Hent, app_length, repeat_length; lia).
      rewrite Hlen. split; [exact Hent|]. split; [apply strictly_sorted_nodup; exact Hsorted|exact Hin].
    - apply Nat.ltb_ge in Ek. destruct (excl && Nat.eqb (length Hy) 0) eqn:Ex; [reflexivity|].
      assert (H1 : (1 <= k)%nat).
      { destruct k; [|lia]. exfalso. subst e1. destruct excl; [|lia].
        cbn [andb] in Ex. apply Nat.eqb_neq in Ex. lia. }
      rewrite (oc_past_end_is_padding k H1 Hk Ek).
      apply padding_row_okb_iff.
      unfold padding_row. rewrite repeat_length. reflexivity.
  Qed.
End Main.

(* ---- a row is a function of the two denoted sequences alone ---------------------------------- *)
Lemma strictly_sorted_ext (L1 : list Z) : forall L2,
  StronglySorted Z.lt L1 -> StronglySorted Z.lt L2 -> (forall t, In t L1 <-> In t L2) -> L1 = L2.
Proof.
  induction L1 as [|a L1 IH]; intros L2 H1 H2 Hiff.
  - destruct L2 as [|b L2]; [reflexivity|]. exfalso. apply (proj2 (Hiff b)). left. reflexivity.
  - destruct L2 as [|b L2]; [exfalso; apply (proj1 (Hiff a)); left; reflexivity|].
    inversion H1 as [|? ? Hs1 Ha]; inversion H2 as [|? ? Hs2 Hb]; subst.
    rewrite Forall_forall in Ha, Hb.
    assert (Eab : a = b).
    { destruct (proj1 (Hiff a) (or_introl eq_refl)) as [E|Hin]; [symmetry; exact E|].
      destruct (proj2 (Hiff b) (or_introl eq_refl)) as [E|Hin']; [exact E|].
      specialize (Ha b Hin'). specialize (Hb a Hin). lia. }
    subst b. f_equal. apply IH; [exact Hs1|exact Hs2|]. intros t. split; intros Ht.
    + destruct (proj1 (Hiff t) (or_intror Ht)) as [E|Hin]; [|exact Hin].
      specialize (Ha t Ht). lia.
    + destruct (proj2 (Hiff t) (or_intror Ht)) as [E|Hin]; [|exact Hin].
      specialize (Hb t Ht). lia.
Qed.

(* same reference and hypothesis once cut at eos => same listed tokens, whatever the batch
   around them, the position in it and the garbage after eos; only the amount of padding (the
   batch-wide width) may differ *)
Theorem oc_row_pointwise c N ref hyp n N' ref' hyp' n' k :
  0 < c_ins c -> 0 < c_del c -> 0 < c_sub c ->
  (n < N)%nat -> wf_tensor (c_bf c) N ref -> wf_tensor (c_bf c) N hyp ->
  (n' < N')%nat -> wf_tensor (c_bf c) N' ref' -> wf_tensor (c_bf c) N' hyp' ->
  denote (c_eos c) (c_incl c) (seq_of (c_bf c) n ref)
    = denote (c_eos c) (c_incl c) (seq_of (c_bf c) n' ref') ->
  denote (c_eos c) (c_incl c) (seq_of (c_bf c) n hyp)
    = denote (c_eos c) (c_incl c) (seq_of (c_bf c) n' hyp') ->
  (k = 0 \/ k < length (denote (c_eos c) (c_incl c) (seq_of (c_bf c) n hyp))
                 + (if c_excl c then 0 else 1))%nat ->
  exists L,
    entry3 (c_bf c) k n (optimal_completion c N ref hyp)
      = L ++ repeat (c_pad c) (oc_width c N ref hyp - length L) /\
    entry3 (c_bf c) k n' (optimal_completion c N' ref' hyp')
      = L ++ repeat (c_pad c) (oc_width c N' ref' hyp' - length L).
Proof.
  intros Hi Hd Hs Hn Hr Hh Hn' Hr' Hh' ER EH Hk.
  destruct (oc_row_correct c N ref hyp n Hn Hr Hh k Hi Hd Hs Hk) as [L [E1 [_ [S1 I1]]]].
  rewrite EH in Hk.
  destruct (oc_row_correct c N' ref' hyp' n' Hn' Hr' Hh' k Hi Hd Hs Hk) as [L' [E2 [_ [S2 I2]]]].
  assert (EL : L = L').
  { apply strictly_sorted_ext; [exact S1|exact S2|]. intros t. rewrite I1, I2, ER, EH. reflexivity. }
  subst L'. exists L. split; assumption.
Qed.
