(* C03 - the blocks after the preamble on the mask path: sm3_row0 (row 0, del_mat, rrange) and sm3_main = first mask row
   (`row_mask = torch.zeros(..); row_mask[0] = ref_lens > 0; masks.append(row_mask)`), the `for hyp_idx` loop (TieIter), the
   exit (`mask = torch.stack(masks, 0); mask = mask & (arange(R).unsqueeze(1).expand(R, N) < ref_lens).unsqueeze(0);
   return mask`): from the state the preamble leaves ([TiePre.stageA3]) the interpreted blocks RETURN the (H', R, N) boolean
   tensor whose entry (k, i, n) is bit i of row k of the raw masks of column n (first_mask :: masks_loop) restricted to
   i < ref_len - PV.C03.Model.pair_masks. *)
From Coq Require Import ZArith QArith List String Bool Arith Lia ZifyBool ZifyNat.
From PV Require Import MiniPy.Syntax MiniPy.Interp MiniPy.Lemmas MiniTorch.Ops MiniTorch.Lemmas MiniTorch.OpsC07 MiniTorch.LemmasC07
  MiniTorch.OpsC01 MiniTorch.LemmasC01 MiniTorch.OpsC03 MiniTorch.LemmasC03.
From PV Require Import Gen.C03Src C01.SrcRun C01.TieLib C01.TieMath C03.SrcRun C03.TieLib C03.TieMath C03.TieLoop C03.TieIter C03.TiePre.
From PV Require C01.Model C01.Proofs C01.TieLoop C01.TieBlocks C01.TiePre C03.Model C03.ProofsMask.
Import ListNotations.
Local Open Scope string_scope.

Notation colf := C01.TieLoop.colf.
Notation lens_tensor := C01.TieBlocks.lens_tensor.

Definition stageB3 (s : positive) (cd : Z) (R N : nat) : list (string * val) :=
  [("rrange", enc_x (mkTn [S R] (map (fun i => z2f (Z.of_nat i)) (seq 0 (S R)))));
   ("del_mat", enc_x (mkTn [S R; S R; 1%nat] (tab2 (S R) (S R) (fun i j => ofx s (C01.Model.del_entry cd i j)))));
   ("row", enc_x (mkTn [S R; N] (tab2 (S R) N (fun i _ => zf s (Z.of_nat i * cd)))))].

Section Blocks.
  Variables (s : positive) (ci cd cs : Z) (mult : Q) (R N H : nat) (rf hf : nat -> nat -> Z) (rl hl : nat -> nat) (nm w excl : bool).
  Notation A := (stageA3 s ci cd cs mult R N H rf hf rl hl nm w excl).

  Lemma row0_run3 : forall st, known3 st A -> runs_to (fun st' => known3 st' (A ++ stageB3 s cd R N)) (exec ext03 sm3_row0 st).
  Proof.
    intros st K. unfold stageA3 in K. open_known3 K. unfold sm3_row0.
    assign3x ltac:(evn3; try replace (Z.of_nat R + 1)%Z with (Z.of_nat (S R)) by lia; rewrite ?arange_f_nat; evn3; reflexivity).
    ifstep3. rewrite ?exec_seq_assoc.
    asg3. asg3.
    assign3x ltac:(evn3; try (progress change (triu_f ?t 1%Z) with (triu_f t (Z.of_nat 1)); rewrite full_mat, triu_mat); evn3; reflexivity).
    asg3.
    assign3x ltac:(evn3; try replace (Z.of_nat R + 1)%Z with (Z.of_nat (S R)) by lia; rewrite ?expand2_col; evn3; reflexivity).
    apply runs_to_ok. unfold stageA3, stageB3. close_known3.
    - match goal with L : lookup "del_mat" _ = _ |- _ => rewrite L end. do 3 f_equal. apply tab2_ext. intros i j Hi Hj.
      apply del_entry_src.
    - match goal with L : lookup "row" _ = _ |- _ => rewrite L end. do 3 f_equal. apply tab2_ext. intros i j Hi Hj.
      apply fmul_z2f_zf.
  Qed.

  (* ---- sm3_main: the first mask row, the loop, the exit ------------------------------------------------------------ *)
  Definition main_flags3 : stmt := match sm3_main with SSeq a _ => a | _ => SPass end.
  Definition main_exit3 : stmt := match sm3_main with SSeq _ (SSeq _ r) => r | _ => SPass end.
  Lemma sm3_main_eq : sm3_main = SSeq main_flags3 (SSeq sm3_loop main_exit3).
  Proof. reflexivity. Qed.

  (* row 0 of the table and the first mask row, as the source builds them *)
  Definition lf0 (i _ : nat) : option Z := Some (Z.of_nat i * cd)%Z.
  Definition first_fn (i n : nat) : bool := match i with O => (Z.of_nat (rl n) >? 0)%Z | S _ => false end.

  Lemma flags_run3 : forall st, R <> 0%nat -> known3 st (A ++ stageB3 s cd R N) ->
    runs_to (fun st' => body_pre3 s ci cd cs R N H rf hf rl hl excl lf0 [first_fn] st' /\
                        lookup "max_hyp_steps" (vars st') = Some (VInt (Z.of_nat H)))
            (exec ext03 main_flags3 st).
  Proof.
    intros st HR K. unfold stageA3, stageB3, C01.TieBlocks.lens_tensor in K. open_known3 K.
    unfold main_flags3, sm3_main. cbv iota.
    ifstep3.
    assign3x ltac:(evn3; try replace ((Z.of_nat R <? 0) || (Z.of_nat N <? 0))%Z with false by lia; rewrite ?Nat2Z.id, ?full_mat; reflexivity).
    setitem3_t ltac:(evn3; rewrite ?set_row0_first by exact HR; reflexivity).
    append3.
    apply runs_to_ok. split; [|assumption].
    unfold body_pre3, lens_val, masks_val, lf0. repeat (split; [assumption|]). cbn [app map]. assumption.
  Qed.

  (* the raw masks of column n: first_mask :: masks_loop, by (prefix, position) *)
  Definition raw_mask (k i n : nat) : bool :=
    nth i (nth k (C03.Model.first_mask (colf R rf n) (rl n)
                  :: C03.Model.masks_loop ci cd cs (colf R rf n) (colf H hf n) (rl n) (hl n) excl
                       (loop_steps H excl) 1 (C03.Model.orow0 cd (colf R rf n))) []) false.

  Lemma colo_lf0 n : colo (S R) lf0 n = C03.Model.orow0 cd (colf R rf n).
  Proof. unfold colo, lf0, C03.Model.orow0. now rewrite C01.TiePre.colf_length. Qed.

  Lemma masks_as_raw :
    ms_eq R N ([first_fn] ++ loop_masks3 ci cd cs R H rf hf rl hl excl (loop_steps H excl) 0 lf0)
              (map raw_mask (seq 0 (S (loop_steps H excl)))).
  Proof.
    rewrite <- (cons_seq (loop_steps H excl) 0). cbn [app map]. constructor.
    - intros i n Hi Hn. unfold raw_mask, first_fn. cbn [nth]. unfold C03.Model.first_mask.
      rewrite C01.TiePre.colf_length, C01.Proofs.nth_map_seq by exact Hi. cbn [Nat.add].
      destruct i as [|i]; cbn [Nat.eqb andb]; [lia|reflexivity].
    - unfold loop_masks3. rewrite <- seq_shift, map_map.
      apply Forall2_map_seq. intros j Hj i n Hi Hn. cbn [Nat.add].
      unfold raw_mask. cbn [nth]. now rewrite colo_lf0.
  Qed.

  Definition mask_value : val :=
    enc_b (mkTn [S (loop_steps H excl); R; N]
             (tab3 (S (loop_steps H excl)) R N (fun k i n => (raw_mask k i n && (Z.of_nat i <? Z.of_nat (rl n))%Z)%bool))).

  (* with any loop statement that has the property of [loop_tie3] (sm3_loop, or the loop inside sm3_body) *)
  Section AnyLoop.
    Variable lp : stmt.
    Hypothesis Hlp : forall st lf ms,
      body_pre3 s ci cd cs R N H rf hf rl hl excl lf ms st ->
      lookup "max_hyp_steps" (vars st) = Some (VInt (Z.of_nat H)) ->
      runs_to (body_pre3 s ci cd cs R N H rf hf rl hl excl
                 (fun i n => nth i (iter_col3 ci cd cs R H rf hf rl hl excl (loop_steps H excl) 0 lf n) None)
                 (ms ++ loop_masks3 ci cd cs R H rf hf rl hl excl (loop_steps H excl) 0 lf)) (exec ext03 lp st).

    Lemma main_run_gen3 : forall st, R <> 0%nat -> known3 st (A ++ stageB3 s cd R N) ->
      returns3 mask_value (exec ext03 (SSeq main_flags3 (SSeq lp main_exit3)) st).
    Proof.
      intros st HR K.
      eapply xreturns_seq; [apply flags_run3; assumption|]. intros st1 [P1 Hmax].
      eapply xreturns_seq; [apply (Hlp st1 _ _ P1 Hmax)|]. intros st2 P2.
      apply (body_pre3_ext _ _ _ _ _ _ _ _ _ _ _ _ _ _ _ _ st2 (fun _ _ _ _ => eq_refl) masks_as_raw) in P2.
      destruct P2 as (Hexcl & Hmist & Hmask & Hhl & Hrl & Href & Hhyp & Hci & Hcs & Hdm & Hrr & Hmr & Hbs & Hdev & Hrow & Hms).
      unfold main_exit3, sm3_main. cbv iota. unfold lens_val, masks_val in *.
      ifstep3.
      assign3x ltac:(evn3; try (rewrite <- (map_map _ enc_b), ext3_stack, stack0_tabs by lia); evn3; reflexivity).
      assign3x ltac:(evn3; rewrite ?arange_nat; evn3; rewrite ?expand2_col; evn3; reflexivity).
      now apply xreturns_name.
    Qed.
  End AnyLoop.

  Lemma main_run3 : forall st, R <> 0%nat -> known3 st (A ++ stageB3 s cd R N) ->
    returns3 mask_value (exec ext03 sm3_main st).
  Proof.
    rewrite sm3_main_eq. apply main_run_gen3. intros st lf ms P Hm.
    exact (loop_tie3 s ci cd cs R N H rf hf rl hl excl st lf ms P Hm).
  Qed.
End Blocks.
