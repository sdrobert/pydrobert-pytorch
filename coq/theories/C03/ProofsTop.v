(* C03 — optimal_completion on the batch: the flat masked_scatter places each cell's tokens
   at the start of its row of padding ([scatter_rows]), so entry (k, n) of the returned tensor
   is [pair_targets] of pair n's mask row k followed by padding ([oc_entry]); with the mask
   characterisation (ProofsMask), the selection (ProofsSelect) and the diagonal argument
   (ProofsSpec) that is the property ([oc_row_correct], [oc_past_end_is_padding]). *)
From Coq Require Import List ZArith Bool Arith Lia Sorted.
From PV Require Import C01.Obs C01.Spec C01.Model C01.LevFacts C01.Proofs.
From PV Require Import C03.Spec C03.Model C03.ProofsSpec C03.ProofsMask C03.ProofsSelect.
Import ListNotations.
Local Open Scope Z_scope.

(* ---- masked_scatter_ on the flattened tensor ------------------------------------------------ *)
Lemma ltb0_map s n : map (fun k => (k <? 0)%nat) (seq s n) = repeat false n.
Proof. revert s. induction n as [|n IH]; intros s; [reflexivity|]. cbn [seq map repeat]. rewrite IH. reflexivity. Qed.

Lemma scatter_false pad n T M S :
  masked_scatter (repeat pad n ++ T) (repeat false n ++ M) S = repeat pad n ++ masked_scatter T M S.
Proof. induction n as [|n IH]; [reflexivity|]. cbn [repeat app masked_scatter]. rewrite IH. reflexivity. Qed.

Lemma scatter_one pad L : forall C T M S, (length L <= C)%nat ->
  masked_scatter (repeat pad C ++ T) (map (fun k => (k <? length L)%nat) (seq 0 C) ++ M) (L ++ S)
  = (L ++ repeat pad (C - length L)) ++ masked_scatter T M S.
Proof.
  induction L as [|a L IH]; intros C T M S HC.
  - cbn [length app]. rewrite ltb0_map, Nat.sub_0_r. apply scatter_false.
  - destruct C as [|C]; [cbn [length] in HC; lia|].
    cbn [seq map]. rewrite <- seq_shift, map_map.
    rewrite (map_ext _ (fun k => (k <? length L)%nat)) by (intros k; reflexivity).
    change (0 <? length (a :: L))%nat with true.
    cbn [repeat app masked_scatter length Nat.sub]. f_equal. apply IH. cbn [length] in HC. lia.
Qed.

(* if every cell selects at most C tokens, the flat scatter is the row-wise placement *)
Lemma scatter_rows pad C rows : (forall L, In L rows -> (length L <= C)%nat) ->
  masked_scatter (repeat pad (length rows * C))
    (concat (map (fun L => map (fun k => (k <? length L)%nat) (seq 0 C)) rows)) (concat rows)
  = concat (map (fun L => L ++ repeat pad (C - length L)) rows).
Proof.
  induction rows as [|L rows IH]; intros HC; [reflexivity|].
  cbn [length Nat.mul map concat]. rewrite repeat_app, scatter_one by (apply HC; left; reflexivity).
  f_equal. apply IH. intros L' H. apply HC. right. exact H.
Qed.

(* ---- views of flat buffers -------------------------------------------------------------------- *)
Lemma concat_chunk {A} (C : nat) (ll : list (list A)) : (forall x, In x ll -> length x = C) ->
  forall i, (i < length ll)%nat -> firstn C (skipn (i * C) (concat ll)) = nth i ll [].
Proof.
  induction ll as [|x ll IH]; intros HC i Hi; [cbn [length] in Hi; lia|].
  assert (Hx : length x = C) by (apply HC; left; reflexivity).
  destruct i as [|i]; cbn [Nat.mul concat nth].
  - cbn [skipn]. rewrite <- Hx. apply firstn_length_app.
  - rewrite skipn_app, skipn_all2 by lia. cbn [app].
    replace (C + i * C - length x)%nat with (i * C)%nat by lia.
    apply IH; [intros y Hy; apply HC; right; exact Hy|cbn [length] in Hi; lia].
Qed.

Lemma nth_concat_uniform {A} (N : nat) (ll : list (list A)) d : (forall x, In x ll -> length x = N) ->
  forall k n, (k < length ll)%nat -> (n < N)%nat ->
  nth (k * N + n) (concat ll) d = nth n (nth k ll []) d.
Proof.
  induction ll as [|x ll IH]; intros HN k n Hk Hn; [cbn [length] in Hk; lia|].
  assert (Hx : length x = N) by (apply HN; left; reflexivity).
  destruct k as [|k]; cbn [Nat.mul concat nth Nat.add].
  - apply app_nth1. lia.
  - rewrite app_nth2 by lia. replace (N + k * N + n - length x)%nat with (k * N + n)%nat by lia.
    apply IH; [intros y Hy; apply HN; right; exact Hy|cbn [length] in Hk; lia|exact Hn].
Qed.

Lemma length_concat_uniform {A} (N : nat) (ll : list (list A)) :
  (forall x, In x ll -> length x = N) -> length (concat ll) = (length ll * N)%nat.
Proof.
  induction ll as [|x ll IH]; intros HN; [reflexivity|].
  cbn [concat length Nat.mul]. rewrite app_length, IH by (intros y Hy; apply HN; right; exact Hy).
  rewrite (HN x) by (left; reflexivity). reflexivity.
Qed.

Lemma in_map2 {A B C} (f : A -> B -> C) l1 l2 x : In x (map2 f l1 l2) -> exists a b, x = f a b.
Proof.
  revert l2. induction l1 as [|a l1 IH]; intros l2 H; [destruct H|].
  destruct l2 as [|b l2]; [destruct H|]. cbn [map2] in H. destruct H as [H|H].
  - exists a, b. symmetry. exact H.
  - apply (IH l2). exact H.
Qed.

Lemma map2_seq {A B D} (f : A -> B -> D) l1 l2 m d1 d2 : length l1 = m -> length l2 = m ->
  map2 f l1 l2 = map (fun i => f (nth i l1 d1) (nth i l2 d2)) (seq 0 m).
Proof.
  intros H1 H2. rewrite <- (map_nth_seq l1 d1) at 1. rewrite <- (map_nth_seq l2 d2) at 1.
  rewrite H1, H2. apply map2_map_seq.
Qed.

Lemma nth_firstn_lt {A} (l : list A) i n d : (i < n)%nat -> nth i (firstn n l) d = nth i l d.
Proof.
  revert i n. induction l as [|x l IH]; intros i n Hi; [rewrite firstn_nil; reflexivity|].
  destruct n as [|n]; [lia|]. destruct i as [|i]; [reflexivity|]. cbn [firstn nth]. apply IH. lia.
Qed.

(* ---- the grid of cells ---------------------------------------------------------------------- *)
(* entry (k, n) of the returned (H', N, C) tensor - (n, k) when batch_first *)
Definition entry3 (bf : bool) (k n : nat) (out : list (list (list Z))) : list Z :=
  if bf then nth k (nth n out []) [] else nth n (nth k out []) [].

Section Batch.
  Variable c : cfg.
  Variables (N : nat) (ref hyp : list (list Z)).
  Let bf := c_bf c.
  Let refs := sequences bf N ref.
  Let hyps := sequences bf N hyp.
  Let Hn := oc_rows c N hyp.
  Let steps := (Hn - 1)%nat.
  Let C := oc_width c N ref hyp.

  Lemma oc_masks_length : length (oc_masks c N ref hyp) = N.
  Proof.
    unfold oc_masks. destruct (eff_costs (c_ins c) (c_del c) (c_sub c)) as [mult [[ci cd] cs]].
    rewrite map2_length, !sequences_length. lia.
  Qed.

  Lemma oc_masks_nth mult ci cd cs n :
    eff_costs (c_ins c) (c_del c) (c_sub c) = (mult, (ci, cd, cs)) -> (n < N)%nat ->
    nth n (oc_masks c N ref hyp) [] =
    pair_masks ci cd cs (nth n refs []) (nth n hyps [])
      (eff_len (c_eos c) (c_incl c) (nth n refs [])) (eff_len (c_eos c) (c_incl c) (nth n hyps []))
      (c_excl c) steps.
  Proof.
    intros E Hlt. unfold oc_masks. rewrite E.
    rewrite (nth_map2 _ _ _ n [] [] []) by (rewrite sequences_length; exact Hlt).
    subst steps Hn. unfold oc_rows. f_equal. lia.
  Qed.

  Lemma oc_grid_length : length (oc_grid c N ref hyp) = Hn.
  Proof. unfold oc_grid. rewrite map_length, seq_length. reflexivity. Qed.

  Lemma oc_grid_row_length row : In row (oc_grid c N ref hyp) -> length row = N.
  Proof.
    unfold oc_grid. intros H. apply in_map_iff in H as [k [<- _]].
    rewrite map2_length, sequences_length, oc_masks_length. lia.
  Qed.

  Lemma oc_grid_nth k n : (k < Hn)%nat -> (n < N)%nat ->
    nth n (nth k (oc_grid c N ref hyp) []) ([], []) =
    (sorted_ref (nth n refs []),
     final_mask (nth n refs []) (nth k (nth n (oc_masks c N ref hyp) []) [])).
  Proof.
    intros Hk Hlt. unfold oc_grid. rewrite nth_map_seq by exact Hk. cbn [Nat.add].
    rewrite (nth_map2 _ _ _ n [] [] ([], [])) by (rewrite ?sequences_length, ?oc_masks_length; exact Hlt).
    reflexivity.
  Qed.

  Lemma oc_cells_length : length (oc_cells c N ref hyp) = (Hn * N)%nat.
  Proof. unfold oc_cells. rewrite (length_concat_uniform N), oc_grid_length by apply oc_grid_row_length. reflexivity. Qed.

  Lemma oc_cells_nth k n : (k < Hn)%nat -> (n < N)%nat ->
    nth (k * N + n) (oc_cells c N ref hyp) ([], []) = nth n (nth k (oc_grid c N ref hyp) []) ([], []).
  Proof.
    intros Hk Hlt. unfold oc_cells.
    apply nth_concat_uniform; [apply oc_grid_row_length|rewrite oc_grid_length; exact Hk|exact Hlt].
  Qed.

  Lemma oc_cell_wf sm : In sm (oc_cells c N ref hyp) -> exists r m, sm = (sorted_ref r, final_mask r m).
  Proof.
    unfold oc_cells, oc_grid. intros H. apply in_concat in H as [row [Hrow Hin]].
    apply in_map_iff in Hrow as [k [<- _]]. apply in_map2 in Hin as [r [ms E]].
    exists r, (nth k ms []). exact E.
  Qed.

  (* the tokens each cell selects *)
  Definition sel_rows : list (list Z) :=
    map (fun sm => masked_select (fst sm) (snd sm)) (oc_cells c N ref hyp).

  Lemma oc_counts_sel : oc_counts c N ref hyp = map (@length Z) sel_rows.
  Proof.
    unfold oc_counts, sel_rows. rewrite map_map. apply map_ext_in. intros sm Hsm.
    destruct (oc_cell_wf sm Hsm) as [r [m ->]]. cbn [fst snd]. symmetry.
    apply masked_select_length. rewrite sorted_ref_length, final_mask_length. reflexivity.
  Qed.

  Lemma sel_rows_le L : In L sel_rows -> (length L <= C)%nat.
  Proof.
    intros H. subst C. unfold oc_width. rewrite oc_counts_sel.
    pose proof (proj1 (list_max_le (map (@length Z) sel_rows) _) (Nat.le_refl _)) as Hall.
    rewrite Forall_forall in Hall. apply Hall. apply in_map. exact H.
  Qed.

  Definition padrow (L : list Z) : list Z := L ++ repeat (c_pad c) (C - length L).

  Lemma padrow_length L : In L sel_rows -> length (padrow L) = C.
  Proof. intros H. pose proof (sel_rows_le L H). unfold padrow. rewrite app_length, repeat_length. lia. Qed.

  Lemma oc_flat :
    masked_scatter (repeat (c_pad c) (Hn * N * C))
      (concat (map (fun cnt => map (fun k => (k <? cnt)%nat) (seq 0 C)) (oc_counts c N ref hyp)))
      (concat sel_rows)
    = concat (map padrow sel_rows).
  Proof.
    rewrite oc_counts_sel, map_map.
    replace (Hn * N)%nat with (length sel_rows)
      by (unfold sel_rows; rewrite map_length; apply oc_cells_length).
    apply scatter_rows. apply sel_rows_le.
  Qed.

  (* entry (k, n): the tokens selected from pair n's mask row k, then padding up to the width *)
  Theorem oc_entry mult ci cd cs n k :
    eff_costs (c_ins c) (c_del c) (c_sub c) = (mult, (ci, cd, cs)) -> (n < N)%nat -> (k < Hn)%nat ->
    let r := nth n refs [] in
    let h := nth n hyps [] in
    let m := nth k (pair_masks ci cd cs r h (eff_len (c_eos c) (c_incl c) r)
                      (eff_len (c_eos c) (c_incl c) h) (c_excl c) steps) [] in
    entry3 bf k n (optimal_completion c N ref hyp) = padrow (pair_targets r m)
    /\ (length (pair_targets r m) <= C)%nat.
  Proof.
    intros E Hlt Hk r h m.
    assert (Hidx : (k * N + n < length sel_rows)%nat).
    { unfold sel_rows. rewrite map_length, oc_cells_length. nia. }
    assert (Hcell : nth (k * N + n) sel_rows [] = pair_targets r m).
    { unfold sel_rows.
      rewrite (nth_map_lt _ _ _ ([], [])) by (rewrite oc_cells_length; nia).
      rewrite oc_cells_nth, oc_grid_nth by assumption. cbn [fst snd].
      rewrite (oc_masks_nth mult ci cd cs n E Hlt). reflexivity. }
    split.
    2:{ rewrite <- Hcell. apply sel_rows_le. apply nth_In. exact Hidx. }
    assert (Hun : nth n (nth k (unflatten Hn N C (concat (map padrow sel_rows))) []) []
                  = padrow (pair_targets r m)).
    { unfold unflatten. rewrite nth_map_seq by exact Hk. cbn [Nat.add].
      rewrite nth_map_seq by exact Hlt. cbn [Nat.add].
      rewrite (concat_chunk C).
      - rewrite (nth_map_lt _ _ _ []) by exact Hidx. rewrite Hcell. reflexivity.
      - intros x Hx. apply in_map_iff in Hx as [L [<- HL]]. apply padrow_length. exact HL.
      - rewrite map_length. exact Hidx. }
    unfold optimal_completion. fold Hn. fold C. fold sel_rows. rewrite oc_flat.
    unfold entry3. subst bf. destruct (c_bf c).
    - unfold transpose01. rewrite nth_map_seq by exact Hlt. cbn [Nat.add].
      rewrite nth_map_seq by exact Hk. cbn [Nat.add]. exact Hun.
    - exact Hun.
  Qed.
End Batch.
