(* C03, second tie - infrastructure of the source tie of `hard_optimal_completion_distillation_loss`: what reaches
   SrcRunB.ext03B call by call (its own vocabulary, and the calls it passes on to C03.SrcRun.ext03_oc), and the tactics of the
   symbolic run for that environment.  No statement about the source itself here. *)
From Coq Require Import ZArith QArith List String Bool Arith Lia ZifyBool ZifyNat.
From PV Require Import MiniPy.Syntax MiniPy.Interp MiniPy.Lemmas MiniTorch.Ops MiniTorch.Lemmas MiniTorch.OpsC07 MiniTorch.LemmasC07
  MiniTorch.OpsC01 MiniTorch.LemmasC01 MiniTorch.OpsC03 MiniTorch.LemmasC03 MiniTorch.OpsC03B MiniTorch.LemmasC03B.
From PV Require Import Gen.C03Src Gen.C03BSrc C01.SrcRun C01.TieLib C03.SrcRun C03.TieLib C03.TieOcLib C03.SrcRunB.
Import ListNotations.
Local Open Scope string_scope.

Lemma dec01_none : dec01 VNone = None.  Proof. reflexivity. Qed.
Lemma dec01_q q : dec01 (VQ q) = None.  Proof. reflexivity. Qed.

Section ExtLemmas.
  Variable lsm : list fx -> list Q.
  Notation ext := (ext03B lsm).
  Ltac bridge := unfold ext03B, ext03B_new; cbn; rewrite ?dec01_enc_i, ?dec01_enc_x, ?dec01_enc_b, ?dec01_int, ?dec01_none, ?dec01_q; cbn.
  Ltac bridge_oc := unfold ext03_oc, ext03_oc_new; cbn; rewrite ?dec01_enc_i, ?dec01_enc_x, ?dec01_enc_b, ?dec01_int, ?dec01_none, ?dec01_q; cbn.
  Ltac bridge_sm := unfold ext03_sm, ext03_new; cbn; rewrite ?dec01_enc_i, ?dec01_enc_x, ?dec01_enc_b, ?dec01_int, ?dec01_none, ?dec01_q; cbn.
  Ltac bridge_01 := unfold ext01, ext01_ops; cbn; rewrite ?dec01_enc_i, ?dec01_enc_x, ?dec01_enc_b, ?dec01_int, ?dec01_none, ?dec01_q; cbn.

  (* ---- its own vocabulary ---- *)
  Lemma extb_oc ref hyp eos incl bf qi qd qs pad excl warn st :
    ext "optimal_completion" [ref; hyp]
      [("eos", eos); ("include_eos", incl); ("batch_first", bf); ("ins_cost", qi); ("del_cost", qd); ("sub_cost", qs);
       ("padding", pad); ("exclude_last", excl); ("warn", warn)] st =
    call_body_oc ([("ref", ref); ("hyp", hyp); ("eos", eos); ("include_eos", incl); ("batch_first", bf); ("ins_cost", qi);
                   ("del_cost", qd); ("sub_cost", qs); ("padding", pad); ("exclude_last", excl); ("warn", warn)] ++ globals01) st.
  Proof. reflexivity. Qed.

  Lemma extb_size_i x d st : ext "$method.size" [enc_i x; VInt d] [] st =
    match size_dim x d with Some n => Ok (VInt (Z.of_nat n)) st | None => oob "size" end.
  Proof. bridge. reflexivity. Qed.
  Lemma extb_size_x x d st : ext "$method.size" [enc_x x; VInt d] [] st =
    match size_dim x d with Some n => Ok (VInt (Z.of_nat n)) st | None => oob "size" end.
  Proof. bridge. reflexivity. Qed.
  Lemma extb_shape3_init a b c st :
    ext "$getitem" [VTuple [VInt a; VInt b; VInt c]; VTuple [VStr "$slice"; VNone; VInt (-1); VNone]] [] st = Ok (VTuple [VInt a; VInt b]) st.
  Proof. reflexivity. Qed.
  Lemma extb_expand4_x x a b c d st : ext "$method.expand" [enc_x x; VInt a; VInt b; VInt c; VInt d] [] st =
    ret01 "expand4" (option_map AX (expand4 FNaN x a b c d)) st.
  Proof. bridge. reflexivity. Qed.
  Lemma extb_contiguous_x x st : ext "$method.contiguous" [enc_x x] [] st = Ok (enc_x x) st.
  Proof. bridge. reflexivity. Qed.
  Lemma extb_flatten2_x x s e st : ext "$method.flatten" [enc_x x; VInt s; VInt e] [] st =
    ret01 "flatten" (option_map AX (flatten_range x s e)) st.
  Proof. bridge. reflexivity. Qed.
  Lemma extb_flatten0_i x st : ext "$method.flatten" [enc_i x] [] st = ret01 "flatten" (option_map AI (flatten_range x 0 (-1))) st.
  Proof. bridge. reflexivity. Qed.
  Lemma extb_ce x t w ign st :
    ext "torch.nn.functional.cross_entropy" [enc_x x; enc_i t] [("weight", weight_val w); ("ignore_index", VInt ign); ("reduction", VStr "none")] st =
    match cross_entropy_none lsm x t (option_map (fun wv => mkTn [List.length wv] wv) (option_map (map Fq) w)) ign with
    | Some (Some r) => Ok (enc_x r) st
    | Some None => Exc index_error st
    | None => oob "cross_entropy"
    end.
  Proof.
    destruct w as [wv|]; unfold weight_val.
    - unfold ext03B, ext03B_new. cbn. rewrite !dec01_enc_i, !dec01_enc_x. unfold dec_weight.
      change (enc_x {| shp := [Datatypes.length wv]; dat := map Fq wv |}) with (enc_x (mkTn [List.length wv] (map Fq wv))).
      rewrite dec01_enc_x. cbn [option_map]. rewrite map_length.
      assert (E : match enc_x (mkTn [List.length wv] (map Fq wv)) with VNone => Some None | _ => Some (Some (mkTn [List.length wv] (map Fq wv))) end
                  = Some (Some (mkTn [List.length wv] (map Fq wv)))) by reflexivity.
      reflexivity.
    - bridge. reflexivity.
  Qed.
  Lemma extb_view_as_x x y st : ext "$method.view_as" [enc_x x; enc_i y] [] st = ret01 "view_as" (option_map AX (view_as x (shp y))) st.
  Proof. bridge. reflexivity. Qed.
  Lemma extb_sum_dim_x x d st : ext "$method.sum" [enc_x x; VInt d] [] st = ret01 "sum(dim)" (option_map AX (sum_dim_f x d)) st.
  Proof. bridge. reflexivity. Qed.
  Lemma extb_sum_all_x x st : ext "$method.sum" [enc_x x] [] st = Ok (enc_x (sum_all_f x)) st.
  Proof. bridge. reflexivity. Qed.
  Lemma extb_mean_x x st : ext "$method.mean" [enc_x x] [] st = Ok (enc_x (mean_all_f x)) st.
  Proof. bridge. reflexivity. Qed.
  Lemma extb_invert x st : ext "$invert" [enc_b x] [] st = Ok (enc_b (not_b x)) st.
  Proof. bridge. reflexivity. Qed.
  Lemma extb_clamp_min x c st : ext "$method.clamp_min" [enc_i x; VInt c] [] st = Ok (enc_i (clamp_min_i x c)) st.
  Proof. bridge. reflexivity. Qed.
  Lemma extb_div_xi x y st : ext "operator" [VStr "truediv"; enc_x x; enc_i y] [] st = ret01 "truediv" (option_map AX (div_xi x y)) st.
  Proof. bridge. reflexivity. Qed.

  (* ---- passed on ---- *)
  Lemma extb_dim_x x st : ext "$method.dim" [enc_x x] [] st = Ok (VInt (Z.of_nat (List.length (shp x)))) st.
  Proof. bridge. bridge_oc. bridge_sm. bridge_01. reflexivity. Qed.
  Lemma extb_shape_x x st : ext "$attr.shape" [enc_x x] [] st = Ok (VTuple (map (fun n => VInt (Z.of_nat n)) (shp x))) st.
  Proof. bridge. bridge_oc. bridge_sm. bridge_01. reflexivity. Qed.
  Lemma extb_shape_i x st : ext "$attr.shape" [enc_i x] [] st = Ok (VTuple (map (fun n => VInt (Z.of_nat n)) (shp x))) st.
  Proof. bridge. bridge_oc. bridge_sm. bridge_01. reflexivity. Qed.
  Lemma extb_unsqueeze_x x d st : ext "$method.unsqueeze" [enc_x x; VInt d] [] st = ret01 "unsqueeze" (option_map AX (unsqueeze x d)) st.
  Proof. bridge. bridge_oc. bridge_sm. bridge_01. reflexivity. Qed.
  Lemma extb_cmp_eq x c st : ext "compare" [VStr "eq"; enc_i x; VInt c] [] st = Ok (enc_b (eq_s x c)) st.
  Proof. bridge. bridge_oc. bridge_sm. bridge_01. reflexivity. Qed.
  Lemma extb_masked_fill_0 x m st : ext "$method.masked_fill" [enc_x x; enc_b m; VQ 0] [] st =
    ret01 "masked_fill" (option_map AX (masked_fill x m (Fq 0))) st.
  Proof. bridge. bridge_oc. bridge_sm. reflexivity. Qed.
  Lemma extb_sum_b x d st : ext "$method.sum" [enc_b x; VInt d] [] st = ret01 "sum" (option_map AI (sum_dim_b x d)) st.
  Proof. bridge. apply exto_sum. Qed.
  Lemma extb_any_dim x d st : ext "$method.any" [enc_b x; VInt d] [] st = ret01 "any(dim)" (option_map AB (any_dim x d)) st.
  Proof. bridge. apply exto_any_dim. Qed.
End ExtLemmas.

Lemma subscript_tuple_slice l a b c st : subscript (VTuple l) (VTuple [VStr "$slice"; a; b; c]) st = Stuck "subscript".
Proof. reflexivity. Qed.
Lemma binop_div_x_i t u st : binop_eval Div (enc_x t) (enc_i u) st = Stuck "truediv".
Proof. reflexivity. Qed.

(* comparisons of Python ints *)
Lemma cmp_eval_lt_int a b : cmp_eval Lt (VInt a) (VInt b) = Some (a <? b)%Z.
Proof.
  cbn. unfold Qcompare. cbn. rewrite !Z.mul_1_r. unfold Z.ltb. destruct (a ?= b)%Z; reflexivity.
Qed.
Lemma cmp_eval_ge_int a b : cmp_eval GtE (VInt a) (VInt b) = Some (b <=? a)%Z.
Proof.
  cbn. unfold Qcompare. cbn. rewrite !Z.mul_1_r. unfold Z.leb. rewrite (Z.compare_antisym a b). destruct (a ?= b)%Z; reflexivity.
Qed.

#[export] Hint Rewrite subscript_tuple_slice binop_div_x_i
  extb_oc extb_size_i extb_size_x extb_shape3_init extb_expand4_x extb_contiguous_x extb_flatten2_x extb_flatten0_i extb_ce
  extb_view_as_x extb_sum_dim_x extb_sum_all_x extb_mean_x extb_invert extb_clamp_min extb_div_xi
  extb_dim_x extb_shape_x extb_shape_i extb_unsqueeze_x extb_cmp_eq extb_masked_fill_0 extb_sum_b extb_any_dim : c03.

#[export] Hint Rewrite Nat2Z.id @size_dim_3_last @expand4_rows @flatten_4_lead @flatten_3_all @view_as_3 eq_s_tab3 @masked_fill_tab3
  sum_dim_f_3 not_b_tab3 clamp_min_tab2 clamp_min_vec div_xi_2 div_xi_1 any_dim_3
  sum_dim_f_2_1 sum_dim_f_2_0 sum_dim_b_2_1 sum_dim_b_2_0 : c03tab.

Ltac normb :=
  cbn [shp dat]; tabs;
  cbn [option_map ret01 enc01].
Ltac evnb := repeat (progress (ev3; normb)).
Ltac asgb := assign3x ltac:(evnb; reflexivity).
Ltac ifstepb := ifstep3_t ltac:(evnb; reflexivity).

#[global] Arguments sum_dim_f : simpl never.
#[global] Arguments expand4 : simpl never.
#[global] Arguments flatten_range : simpl never.
#[global] Arguments size_dim : simpl never.
#[global] Arguments cross_entropy_none : simpl never.
#[global] Arguments div_xi : simpl never.
#[global] Arguments not_b : simpl never.
#[global] Arguments clamp_min_i : simpl never.
#[global] Arguments sum_all_f : simpl never.
#[global] Arguments mean_all_f : simpl never.
#[global] Arguments fsum : simpl never.
#[global] Arguments ce_entry : simpl never.
#[global] Arguments weight_val : simpl never.
#[global] Arguments ext03B : simpl never.
#[global] Arguments call_body_oc : simpl never.
