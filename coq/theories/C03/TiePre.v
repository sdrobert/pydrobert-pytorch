(* C03 - the preamble of `_string_matching` (PV.Gen.C03Src.sm3_pre) for the call optimal_completion makes (return_mask = True,
   exclude_last arbitrary): argument checks, the uniform-cost shortcut, transposition of batch-first input, sizes, and the
   lengths - torch.full without eos, `_lens_from_eos` (this unit's sm3_lens) and the include_eos fix-up with eos - leave the
   state [stageA3], with the effective costs of Model.eff_costs and the lengths Model.eff_len.  The scripts are C01.TiePre's
   (which are tied to ext01 and to the plain flags), replayed for ext03 and these flags; the definitions that do not mention
   the environment (in_tensor, the eff_ costs, ref_len, the fixup lemmas) are C01's, imported read-only. *)
From Coq Require Import ZArith QArith List String Bool Arith Lia ZifyBool ZifyNat.
From PV Require Import MiniPy.Syntax MiniPy.Interp MiniPy.Lemmas MiniTorch.Ops MiniTorch.Lemmas MiniTorch.OpsC07 MiniTorch.LemmasC07
  MiniTorch.OpsC01 MiniTorch.LemmasC01 MiniTorch.OpsC03 MiniTorch.LemmasC03.
From PV Require Import Gen.C03Src C01.SrcRun C01.TieLib C01.TieMath C01.TieLoop C01.TieWhole C01.TiePre C03.SrcRun C03.TieLib.
From PV Require Import C07.SrcRun C07.Tie.
From PV Require C07.Model C07.Spec C07.ProofsSlp C01.TieLens C01.TieBlocks C01.Obs C01.Model C01.Proofs.
Import ListNotations.
Local Open Scope string_scope.

(* `_lens_from_eos(tok, eos, 0)` on a (T x B) tensor: this unit's sm3_lens is, term for term, C01's sm_lens *)
Lemma lens_run_3 : forall lsm T B h e, T <> 0%nat ->
  exists st, Interp.run (ext07_ops lsm) sm3_lens
               (("tok", enc_i (mkTn [T; B] (tab2 T B h))) :: ("eos", VInt e) :: ("dim", VInt 0) :: globals07) =
    Ok (enc_i (mkTn [B] (map (fun b => Z.of_nat (C01.Model.first_eos e (map (fun t => h t b) (seq 0 T)))) (seq 0 B)))) st.
Proof. exact C01.TieLens.lens_run_2. Qed.

Notation torch_module := C01.TieBlocks.torch_module.
Notation lens_tensor := C01.TieBlocks.lens_tensor.

(* the arguments of the call made by optimal_completion (norm = its default False; padding is not read on this path) *)
Definition params3 (s : positive) (c : C01.Model.cfg) (R N H : nat) (rf hf : nat -> nat -> Z) (w excl : bool) : list (string * val) :=
  [("ref", enc_i (in_tensor (C01.Model.c_bf c) R N rf)); ("hyp", enc_i (in_tensor (C01.Model.c_bf c) H N hf));
   ("eos", opt_int (C01.Model.c_eos c)); ("include_eos", VBool (C01.Model.c_incl c));
   ("batch_first", VBool (C01.Model.c_bf c));
   ("ins_cost", VQ (qz s (C01.Model.c_ins c))); ("del_cost", VQ (qz s (C01.Model.c_del c)));
   ("sub_cost", VQ (qz s (C01.Model.c_sub c)));
   ("warn", VBool w); ("norm", VBool false); ("return_mask", VBool true);
   ("return_prf_dsts", VBool false); ("exclude_last", VBool excl); ("return_mistakes", VBool false);
   ("torch", torch_module)].

(* after the preamble: the flags of the mask path, time-major tensors, sizes, effective costs over the denominator s,
   the lengths *)
Definition stageA3 (s : positive) (ci cd cs : Z) (mult : Q) (R N H : nat) (rf hf : nat -> nat -> Z) (rl hl : nat -> nat)
  (nm w excl : bool) : list (string * val) :=
  [("exclude_last", VBool excl); ("return_mistakes", VBool false); ("return_mask", VBool true);
   ("return_prf_dsts", VBool false); ("norm", VBool nm); ("warn", VBool w);
   ("ref", enc_i (mkTn [R; N] (tab2 R N rf))); ("hyp", enc_i (mkTn [H; N] (tab2 H N hf)));
   ("max_ref_steps", VInt (Z.of_nat R)); ("batch_size", VInt (Z.of_nat N)); ("max_hyp_steps", VInt (Z.of_nat H));
   ("device", device_token); ("torch", torch_module);
   ("ins_cost", VQ (qz s ci)); ("del_cost", VQ (qz s cd)); ("sub_cost", VQ (qz s cs)); ("mult", VQ mult);
   ("ref_lens", lens_tensor N rl); ("hyp_lens", lens_tensor N hl); ("masks", VList [])].

(* `assert not exclude_last or (return_mask or return_prf_dsts)` holds on the mask path, whatever exclude_last is *)
Lemma assert2_ok : forall (b : bool) st,
  lookup "exclude_last" (vars st) = Some (VBool b) -> lookup "return_mask" (vars st) = Some (VBool true) ->
  exists v, eval ext03 (EOr (ENot (EName "exclude_last")) (EOr (EName "return_mask") (EName "return_prf_dsts"))) st = Ok v st /\
            truthy v = true.
Proof.
  intros [|] st He Hm; eexists; (split; [cbn; rewrite ?He; cbn; rewrite ?Hm; cbn; reflexivity|reflexivity]).
Qed.

(* `if warn: pass else: pass` (the warnings are not modelled) *)
Lemma if_pass (b : bool) : (if b then SPass else SPass) = SPass.
Proof. now destruct b. Qed.

Definition pre_a : stmt := seq_take 5 sm3_pre.
Definition pre_b : stmt := seq_take 9 (seq_drop 5 sm3_pre).
Definition pre_c : stmt := seq_drop 14 sm3_pre.

Lemma sm3_pre_split : forall st, exec ext03 sm3_pre st = exec ext03 (SSeq pre_a (SSeq pre_b pre_c)) st.
Proof.
  intros st. unfold pre_a, pre_b, pre_c. rewrite <- (xexec_take_drop ext03 5 sm3_pre st).
  cbn [exec]. destruct (exec ext03 (seq_take 5 sm3_pre) st) as [[|v] st1|n st1|q]; cbn [bind]; try reflexivity.
  change (seq_drop 14 sm3_pre) with (seq_drop 9 (seq_drop 5 sm3_pre)).
  symmetry. apply (xexec_take_drop ext03 9 (seq_drop 5 sm3_pre) st1).
Qed.

Section Pre.
  Variables (s : positive) (c : C01.Model.cfg) (R N H : nat) (rf hf : nat -> nat -> Z) (w excl : bool).

  (* after the argument checks and the uniform-cost shortcut *)
  Definition stageP1 : list (string * val) :=
    [("ref", enc_i (in_tensor (C01.Model.c_bf c) R N rf)); ("hyp", enc_i (in_tensor (C01.Model.c_bf c) H N hf));
     ("eos", opt_int (C01.Model.c_eos c)); ("include_eos", VBool (C01.Model.c_incl c));
     ("batch_first", VBool (C01.Model.c_bf c));
     ("ins_cost", VQ (qz (eff_scale s c) (eff_ci c))); ("del_cost", VQ (qz (eff_scale s c) (eff_cd c)));
     ("sub_cost", VQ (qz (eff_scale s c) (eff_cs c))); ("mult", VQ (eff_mult s c));
     ("warn", VBool w); ("norm", VBool false); ("return_mask", VBool true);
     ("return_prf_dsts", VBool false); ("exclude_last", VBool excl); ("return_mistakes", VBool false);
     ("torch", torch_module)].

  Lemma cost_cond : forall st,
    lookup "ins_cost" (vars st) = Some (VQ (qz s (C01.Model.c_ins c))) ->
    lookup "del_cost" (vars st) = Some (VQ (qz s (C01.Model.c_del c))) ->
    lookup "sub_cost" (vars st) = Some (VQ (qz s (C01.Model.c_sub c))) ->
    exists v, eval ext03 (EAnd (ECmp Eq (EName "ins_cost") (EName "del_cost"))
                           (EAnd (ECmp Eq (EName "del_cost") (EName "sub_cost"))
                                 (ECmp Gt (EName "sub_cost") (EConst (VQ (0 # 1)%Q))))) st = Ok v st /\
              truthy v = uniformb (C01.Model.c_ins c) (C01.Model.c_del c) (C01.Model.c_sub c).
  Proof.
    intros st Hi Hd Hs. unfold uniformb.
    (* `and` stops at the first comparison that fails *)
    destruct (C01.Model.c_ins c =? C01.Model.c_del c)%Z eqn:E1;
      [destruct (C01.Model.c_del c =? C01.Model.c_sub c)%Z eqn:E2; [destruct (0 <? C01.Model.c_sub c)%Z eqn:E3|]|];
    (eexists; split;
     [ repeat (progress (cbn; look; rewrite ?qz_eqb, ?qz_gt0;
                         repeat match goal with E : _ = _ :> bool |- _ => rewrite E end)); reflexivity
     | reflexivity ]).
  Qed.

  Lemma pre_a_run : forall st, known3 st (params3 s c R N H rf hf w excl) ->
    runs_to (fun st' => known3 st' stageP1) (exec ext03 pre_a st).
  Proof.
    intros st K. unfold params3 in K. open_known3 K. unfold pre_a, sm3_pre. cbn [seq_take].
    assertstep3. seqnorm3.
    match goal with
    | He : lookup "exclude_last" (vars ?st0) = _, Hm : lookup "return_mask" (vars ?st0) = _
      |- context [exec ext03 (SSeq (SAssert ?e) ?b) ?st0] =>
        destruct (assert2_ok _ st0 He Hm) as [v [Hv Ht]]; rewrite (exec_seq_assert ext03 e b st0 v Hv Ht); clear Hv Ht v
    end.
    ifstep3_t ltac:(repeat (progress (evn3; rewrite ?in_tensor_rank)); reflexivity).
    asg3. seqnorm3.
    match goal with
    | Hi : lookup "ins_cost" (vars ?st0) = _, Hd : lookup "del_cost" (vars ?st0) = _, Hs : lookup "sub_cost" (vars ?st0) = _
      |- context [exec ext03 (SSeq (SIf ?cc ?t ?f) ?b) ?st0] =>
        destruct (cost_cond st0 Hi Hd Hs) as [v [Hv Ht]]; rewrite (exec_seq_if ext03 cc t f b st0 v st0 Hv), Ht; clear Hv Ht v
    end.
    unfold stageP1, eff_scale, eff_ci, eff_cd, eff_cs, eff_mult.
    destruct (uniformb (C01.Model.c_ins c) (C01.Model.c_del c) (C01.Model.c_sub c)).
    - ifstep3. asg3. assign33. asg3. seqnorm3. apply runs_to_ok. close_known3.
    - ifstep3. seqnorm3. apply runs_to_ok. close_known3.
  Qed.

  (* after the transposition and the size queries: time-major tensors *)
  Definition stageP2 : list (string * val) :=
    [("ref", enc_i (mkTn [R; N] (tab2 R N rf))); ("hyp", enc_i (mkTn [H; N] (tab2 H N hf)));
     ("eos", opt_int (C01.Model.c_eos c)); ("include_eos", VBool (C01.Model.c_incl c));
     ("ins_cost", VQ (qz (eff_scale s c) (eff_ci c))); ("del_cost", VQ (qz (eff_scale s c) (eff_cd c)));
     ("sub_cost", VQ (qz (eff_scale s c) (eff_cs c))); ("mult", VQ (eff_mult s c));
     ("warn", VBool w); ("norm", VBool false); ("return_mask", VBool true);
     ("return_prf_dsts", VBool false); ("exclude_last", VBool excl); ("return_mistakes", VBool false);
     ("torch", torch_module);
     ("max_ref_steps", VInt (Z.of_nat R)); ("batch_size", VInt (Z.of_nat N)); ("max_hyp_steps", VInt (Z.of_nat H));
     ("device", device_token); ("masks", VList [])].

  Ltac asg_t tac := assign3x ltac:(repeat (progress (evn3; tac)); reflexivity).

  (* after `if batch_first: ref = ref.t(); hyp = hyp.t()` *)
  Definition stageP1t : list (string * val) :=
    [("ref", enc_i (mkTn [R; N] (tab2 R N rf))); ("hyp", enc_i (mkTn [H; N] (tab2 H N hf)))] ++ skipn 2 stageP1.

  Lemma pre_b_run : forall st, known3 st stageP1 -> runs_to (fun st' => known3 st' stageP2) (exec ext03 pre_b st).
  Proof.
    intros st K. unfold pre_b, sm3_pre. cbn [seq_take seq_drop].
    apply (xruns_to_seq ext03 (fun st' => known3 st' stageP1t)).
    - unfold stageP1 in K. open_known3 K. unfold stageP1t, stageP1. cbn [skipn app].
      destruct (C01.Model.c_bf c); unfold in_tensor in *; ifstep3.
      + asg_t ltac:(rewrite ?transpose2_mat). asg_t ltac:(rewrite ?transpose2_mat). apply runs_to_ok. close_known3.
      + apply runs_to_ok. close_known3.
    - clear st K. intros st K. unfold stageP1t, stageP1 in K. cbn [skipn app] in K. open_known3 K.
      assign33. asg3. asg3. asg3. asg3. asg3. asg3. asg3. asg3. asg3. asg3.
      ifstep3_t ltac:(repeat (progress (evn3; rewrite ?Z.eqb_refl)); reflexivity).
      seqnorm3. apply runs_to_ok. unfold stageP2. close_known3.
  Qed.

  Notation A := (stageA3 (eff_scale s c) (eff_ci c) (eff_cd c) (eff_cs c) (eff_mult s c) R N H rf hf (ref_len c R rf) (hyp_len c H hf)
                   false w excl).

  (* `if x_eq_mask.any(): (warn); x_lens = x_lens - x_eq_mask.to(x_lens.dtype)`, the test already evaluated *)
  Ltac fixup_step :=
    match goal with
    | |- context [exec ?X (SSeq (if ?b then SSeq (SIf ?c SPass SPass) (SAssign [TName ?x] ?e) else SPass) ?r) ?st] =>
        let L := fresh "L" in let E := fresh "E" in
        eassert (L : lookup x (vars st) = Some _) by eassumption;
        eassert (E : exec X (SSeq (SIf c SPass SPass) (SAssign [TName x] e)) st = Ok CNormal (set_var x _ st));
        [ ifstep3; rewrite if_pass, exec_seq_pass; apply exec_assign_ok; eval_by ltac:(evn3; reflexivity)
        | rewrite (xexec_seq_when X b _ r st x _ _ L E); clear L E; push_state ]
    end.

  (* close a goal about one of the two length tensors *)
  Ltac close_lens :=
    match goal with
    | L : lookup ?x (vars ?st) = Some _ |- lookup ?x (vars ?st) = Some _ =>
        rewrite L; try match goal with |- context [if any_b ?m then _ else _] => destruct (any_b m) eqn:? end;
        unfold lens_tensor, ref_len, hyp_len; do 3 f_equal; apply map_ext_seq; intros n Hn;
        first [ apply (fixup_any rf hf)
              | apply (fixup_none rf hf);
                match goal with Hany : any_b _ = false |- _ => exact (any_false_at rf hf _ _ n Hn Hany) end
              | reflexivity ]
    end.

  Lemma pre_c_run : forall st, (C01.Model.c_eos c <> None -> R <> 0%nat /\ H <> 0%nat) ->
    known3 st stageP2 -> runs_to (fun st' => known3 st' A) (exec ext03 pre_c st).
  Proof.
    intros st Hnz K. unfold stageP2 in K. open_known3 K. unfold pre_c, sm3_pre. cbn [seq_drop].
    unfold ref_len, hyp_len in *. destruct (C01.Model.c_eos c) as [e|]; cbn [opt_int] in *.
    - destruct (Hnz ltac:(discriminate)) as [HR HH].
      destruct (lens_run_3 (fun x => x) R N rf e HR) as [sr Hr].
      destruct (lens_run_3 (fun x => x) H N hf e HH) as [sh Hh].
      ifstep3.
      assign3x ltac:(ev3; rewrite ?ext3_lens; unfold C07.SrcRun.call_body; rewrite ?Hr; reflexivity).
      assign3x ltac:(ev3; rewrite ?ext3_lens; unfold C07.SrcRun.call_body; rewrite ?Hh; reflexivity).
      clear Hr Hh sr sh.
      destruct (C01.Model.c_incl c).
      + ifstep3. asg3. asg3. ifstep3. fixup_step.
        asg3. asg3. ifstep3. rewrite <- exec_seq_pass_r. fixup_step.
        apply runs_to_ok. unfold stageA3. close_known3; close_lens.
      + ifstep3. seqnorm3. apply runs_to_ok. unfold stageA3. close_known3; close_lens.
    - ifstep3.
      asg_t ltac:(replace (Z.of_nat N <? 0)%Z with false by lia; rewrite ?Nat2Z.id, ?full_vec).
      asg_t ltac:(replace (Z.of_nat N <? 0)%Z with false by lia; rewrite ?Nat2Z.id, ?full_vec).
      apply runs_to_ok. unfold stageA3. close_known3;
      match goal with
      | L : lookup ?x (vars ?st) = Some _ |- lookup ?x (vars ?st) = Some _ =>
          rewrite L; unfold lens_tensor; do 3 f_equal; apply map_ext_seq; intros n Hn;
          cbn [C01.Model.eff_len]; now rewrite colf_length
      end.
  Qed.

  Theorem pre_run : forall st, (C01.Model.c_eos c <> None -> R <> 0%nat /\ H <> 0%nat) ->
    known3 st (params3 s c R N H rf hf w excl) -> runs_to (fun st' => known3 st' A) (exec ext03 sm3_pre st).
  Proof.
    intros st Hnz K. rewrite sm3_pre_split.
    eapply (xruns_to_seq ext03); [apply pre_a_run; exact K|]. intros st1 K1.
    eapply (xruns_to_seq ext03); [apply pre_b_run; exact K1|]. intros st2 K2.
    apply pre_c_run; assumption.
  Qed.
End Pre.
