(* C03, second tie - the tie of `hard_optimal_completion_distillation_loss` composed with the property theorems of the model
   (ProofsLoss, ProofsMain): statements purely about the interpreted source.  The un-reduced loss the source returns holds, at
   every prefix k of pair n, the mean of -log p (x weight) over the distance-preserving tokens, 0 past the end of the hypothesis;
   'sum' / 'mean' return the model's reductions of that grid.  Also: the hypothesis "every target is a class index" of the tie
   follows from "every counted reference token is a class index". *)
From Coq Require Import ZArith QArith List String Bool Arith Lia ZifyBool ZifyNat Sorted.
From PV Require Import MiniPy.Syntax MiniPy.Interp MiniTorch.Ops MiniTorch.Lemmas MiniTorch.OpsC07 MiniTorch.LemmasC07
  MiniTorch.OpsC01 MiniTorch.LemmasC01 MiniTorch.OpsC03 MiniTorch.LemmasC03 MiniTorch.OpsC03B MiniTorch.LemmasC03B.
From PV Require Import Gen.C03BSrc C01.SrcRun C03.SrcRun C03.TieOcWhole C03.SrcRunB C03.TieB C03.TieBModel C03.TieBWhole.
From PV Require C01.Obs C01.Spec C01.Model C01.Proofs C01.Tie C03.Spec C03.Model C03.ProofsTop C03.ProofsMain C03.ProofsLoss.
Import ListNotations.
Local Open Scope string_scope.

Notation wf_src := C01.Tie.wf_src.
Notation denote := C01.Spec.denote.
Notation seq_of := C01.Proofs.seq_of.

(* every counted reference token is a class index (or ignore_index, which the loss skips) *)
Definition ref_classes (c : C01.Model.cfg) (N V : nat) (ref : list (list Z)) : Prop :=
  forall n, (n < N)%nat -> forall t,
    List.In t (denote (C01.Model.c_eos c) (C01.Model.c_incl c) (seq_of (C01.Model.c_bf c) n ref)) ->
    (0 <= t < Z.of_nat V)%Z \/ t = C01.Model.c_pad c.

Lemma class_ok_in : forall ign V t, (0 <= t < Z.of_nat V)%Z \/ t = ign -> class_ok ign V t = true.
Proof. intros ign V t H. unfold class_ok. lia. Qed.

Lemma targets_ok_of_ref : forall c N R' H V ref hyp, (0 < N)%nat ->
  wf_src (C01.Model.c_bf c) N (S R') ref -> wf_src (C01.Model.c_bf c) N H hyp ->
  ref_classes c N V ref -> targets_ok c N V ref hyp.
Proof.
  intros c N R' H V ref hyp HN Hr Hh Hcl. unfold targets_ok, model_oc_tensor. cbn [dat]. intros t Ht.
  pose proof (C01.Tie.wf_src_model _ _ _ _ Hr) as Hwr. pose proof (C01.Tie.wf_src_model _ _ _ _ Hh) as Hwh.
  set (c' := C03.ProofsLoss.with_excl c) in *.
  assert (Ebf : C01.Model.c_bf c' = C01.Model.c_bf c) by reflexivity.
  apply in_concat in Ht. destruct Ht as [row [Hrow Ht]]. apply in_concat in Hrow. destruct Hrow as [plane [Hplane Hrow]].
  apply (In_nth _ _ []) in Hplane. destruct Hplane as [i [Hi Ei]]. subst plane.
  apply (In_nth _ _ []) in Hrow. destruct Hrow as [j [Hj Ej]]. subst row.
  rewrite C03.ProofsLoss.oc_length in Hi. rewrite C03.ProofsLoss.oc_row_length in Hj by exact Hi.
  assert (Hgen : forall n k, (n < N)%nat -> (k < C03.Model.oc_rows c' N hyp)%nat ->
            List.In t (C03.ProofsTop.entry3 (C01.Model.c_bf c') k n (C03.Model.optimal_completion c' N ref hyp)) ->
            class_ok (C01.Model.c_pad c) V t = true).
  { intros n k Hn Hk Hin.
    destruct (C03.ProofsMain.oc_sorted_nodup_then_padding c' N ref hyp n Hn Hwr Hwh k Hk) as [L [Hent [_ [_ [_ HinL]]]]].
    rewrite Hent in Hin. apply in_app_or in Hin. destruct Hin as [Hin|Hin].
    - apply class_ok_in. apply (Hcl n Hn). apply (HinL t Hin).
    - apply repeat_spec in Hin. apply class_ok_in. right. exact Hin. }
  unfold C03.ProofsTop.entry3 in Hgen. destruct (C01.Model.c_bf c').
  - apply (Hgen i j Hi Hj Ht).
  - apply (Hgen j i Hj Hi Ht).
Qed.

(* ---- reading a rectangular grid off its flat data -------------------------------------------------------------------------- *)
Lemma nth_concat_rect : forall (G : list (list Q)) A B d, List.length G = A ->
  (forall i, (i < A)%nat -> List.length (nth i G []) = B) ->
  List.length (List.concat G) = (A * B)%nat /\
  forall a b, (a < A)%nat -> (b < B)%nat -> nth (a * B + b) (List.concat G) d = nth b (nth a G []) d.
Proof.
  intros G A B d HA HB.
  assert (HR : forall r, List.In r G -> List.length r = B).
  { intros r Hr. apply (In_nth _ _ []) in Hr. destruct Hr as [i [Hi <-]]. apply HB. lia. }
  rewrite (rect_nest2 G A B d HA HR). rewrite concat_nest2. split; [apply tab2_length|].
  intros a b Ha Hb. rewrite nth_tab2 by assumption. unfold nest2.
  rewrite (nth_map_seq _ A a []) by exact Ha. now rewrite (nth_map_seq _ B b d) by exact Hb.
Qed.

(* a reduction string the function rejects (for the non-vacuity example of Properties.v) *)
Definition ex_bad_reduction : string := "max".

Definition src_idx (bf : bool) (N H k n : nat) : nat := if bf then (n * H + k)%nat else (k * N + n)%nat.

Lemma wf_logp_of_logits : forall (lsm : list fx -> list Q) bf N H V lg, wf_logits bf N H V lg ->
  C03.ProofsLoss.wf_logp bf N H (map (map lsm) lg).
Proof.
  intros lsm bf N H V lg [HL HR]. unfold C03.ProofsLoss.wf_logp.
  assert (Hrows : forall row, List.In row (map (map lsm) lg) -> List.length row = if bf then H else N).
  { intros row Hin. apply in_map_iff in Hin. destruct Hin as [r [<- Hr]]. rewrite map_length. apply (HR r Hr). }
  destruct bf; (split; [now rewrite map_length|exact Hrows]).
Qed.

Lemma grid_entry_gen : forall (b : bool) (G : list (list Q)) N H k n, (k < H)%nat -> (n < N)%nat ->
  List.length G = (if b then N else H) ->
  (forall i, (i < if b then N else H)%nat -> List.length (nth i G []) = if b then H else N) ->
  List.length (List.concat G) = (N * H)%nat /\
  nth (src_idx b N H k n) (map (fun q => Fq (Qred q)) (List.concat G)) FNaN = Fq (Qred (C03.ProofsLoss.entryQ b k n G)).
Proof.
  intros b G N H k n Hk Hn HGL HGR. unfold src_idx, C03.ProofsLoss.entryQ. destruct b.
  - destruct (nth_concat_rect G N H 0%Q HGL HGR) as [HLn Hnth]. split; [exact HLn|].
    rewrite (C01.Proofs.nth_map_lt _ _ _ 0%Q) by (rewrite HLn; now apply idx2_lt). now rewrite Hnth.
  - destruct (nth_concat_rect G H N 0%Q HGL HGR) as [HLn Hnth]. split; [rewrite HLn; lia|].
    rewrite (C01.Proofs.nth_map_lt _ _ _ 0%Q) by (rewrite HLn; now apply idx2_lt). now rewrite Hnth.
Qed.

Lemma logp_cell : forall (lsm : list fx -> list Q) lg i j, (i < List.length lg)%nat -> (j < List.length (nth i lg []))%nat ->
  nth j (nth i (map (map lsm) lg) []) [] = lsm (lgv_of lg i j).
Proof.
  intros lsm lg i j Hi Hj. rewrite (C01.Proofs.nth_map_lt _ _ _ []) by exact Hi. now apply C01.Proofs.nth_map_lt.
Qed.

Lemma entryL_gen : forall (lsm : list fx -> list Q) (b : bool) N H V lg k n, wf_logits b N H V lg -> (k < H)%nat -> (n < N)%nat ->
  C03.ProofsLoss.entryL b k n (map (map lsm) lg) = lsm (if b then lgv_of lg n k else lgv_of lg k n).
Proof.
  intros lsm b N H V lg k n [HL HR] Hk Hn. unfold C03.ProofsLoss.entryL.
  destruct b; apply logp_cell; try lia.
  - rewrite (proj1 (HR (nth n lg []) ltac:(apply nth_In; lia))). exact Hk.
  - rewrite (proj1 (HR (nth k lg []) ltac:(apply nth_In; lia))). exact Hn.
Qed.

Section Composed.
  Variable lsm : list fx -> list Q.
  Variables (s : positive) (c : C01.Model.cfg) (w : option (list Q)) (N R' H V : nat)
            (ref hyp : list (list Z)) (lg : list (list (list fx))) (warn : bool).
  Notation bf := (C01.Model.c_bf c).
  Hypothesis HN : (0 < N)%nat.
  Hypothesis Hr : wf_src bf N (S R') ref.
  Hypothesis Hh : wf_src bf N H hyp.
  Hypothesis HH : H <> 0%nat.
  Hypothesis Hlg : wf_logits bf N H V lg.
  Hypothesis HW : weight_ok w V.
  Hypothesis Heos : eos_ok c V.
  Hypothesis Hcl : ref_classes c N V ref.

  Let logp := map (map lsm) lg.
  Let G := C03.ProofsLoss.loss_grid c w N ref hyp logp.
  Let Hwr := C01.Tie.wf_src_model _ _ _ _ Hr.
  Let Hwh := C01.Tie.wf_src_model _ _ _ _ Hh.
  Let Htg := targets_ok_of_ref c N R' H V ref hyp HN Hr Hh Hcl.

  Lemma HT : C01.Proofs.time_len bf hyp = H.
  Proof. exact (C03.Tie.time_len_src _ N H hyp HN Hh). Qed.

  Lemma Hlp : C03.ProofsLoss.wf_logp bf N (C01.Proofs.time_len bf hyp) logp.
  Proof. rewrite HT. exact (wf_logp_of_logits lsm _ N H V lg Hlg). Qed.

  Lemma HT1 : (1 <= C01.Proofs.time_len bf hyp)%nat.
  Proof. rewrite HT. lia. Qed.

  (* the flat data of the un-reduced result, entry (k, n) *)
  Lemma grid_entry : forall k n, (k < H)%nat -> (n < N)%nat ->
    List.length (List.concat G) = (N * H)%nat /\
    nth (src_idx bf N H k n) (map (fun q => Fq (Qred q)) (List.concat G)) FNaN = Fq (Qred (C03.ProofsLoss.entryQ bf k n G)).
  Proof.
    intros k n Hk Hn.
    pose proof (C03.ProofsLoss.loss_grid_length c w N ref hyp logp HT1 HN Hwr Hwh Hlp) as HGL.
    pose proof (C03.ProofsLoss.loss_grid_row_length c w N ref hyp logp HT1 HN Hwr Hwh Hlp) as HGR.
    fold G in HGL, HGR. rewrite HT in HGL, HGR. exact (grid_entry_gen bf G N H k n Hk Hn HGL HGR).
  Qed.

  (* THE PROPERTY, last sentence, about the interpreted source alone (reduction 'none') *)
  Theorem loss_source_none_formula :
    (0 < C01.Model.c_ins c)%Z -> (0 < C01.Model.c_del c)%Z -> (0 < C01.Model.c_sub c)%Z ->
    exists (data : list fx) st',
      run_loss lsm loss_body s c w "none" N V ref hyp lg warn = Ok (enc_x (mkTn (grid_shape bf N H) data)) st' /\
      List.length data = (N * H)%nat /\
      forall n k, (n < N)%nat -> (k < H)%nat ->
        let rseq := denote (C01.Model.c_eos c) (C01.Model.c_incl c) (seq_of bf n ref) in
        let hseq := denote (C01.Model.c_eos c) (C01.Model.c_incl c) (seq_of bf n hyp) in
        let lp := lsm (if bf then lgv_of lg n k else lgv_of lg k n) in
        ((k < List.length hseq)%nat -> ~ List.In (C01.Model.c_pad c) rseq ->
           exists (L : list Z) (q : Q),
             NoDup L /\
             (forall t, List.In t L <-> C03.Spec.preserving (C01.Model.c_ins c) (C01.Model.c_del c) (C01.Model.c_sub c) rseq (firstn k hseq) t) /\
             nth (src_idx bf N H k n) data FNaN = Fq q /\ (q == C03.Spec.qmean (C03.ProofsLoss.nll w lp) L)%Q) /\
        ((1 <= k)%nat -> (List.length hseq <= k)%nat -> nth (src_idx bf N H k n) data FNaN = Fq 0).
  Proof.
    intros Hi Hd Hs.
    destruct (loss_body_is_model lsm s c w C03.Model.RNone N R' H V ref hyp lg warn HN Hr Hh HH Hlg HW Heos Htg) as [st' He].
    change (red_str C03.Model.RNone) with "none" in He.
    rewrite C03.ProofsLoss.hard_ocd_loss_none in He. fold logp in He. fold G in He.
    exists (map (fun q => Fq (Qred q)) (List.concat G)), st'. split; [exact He|].
    split; [rewrite map_length; destruct (grid_entry 0 0 ltac:(lia) HN) as [HLn _]; exact HLn|].
    intros n k Hn Hk rseq hseq lp. destruct (grid_entry k n Hk Hn) as [_ Hent]. rewrite Hent. split.
    - intros Hkl Hign.
      destruct (C03.ProofsLoss.loss_entry_formula c w N ref hyp logp HT1 HN Hwr Hwh Hlp n Hn Hign k Hi Hd Hs Hkl) as [L [HND [HinL HQ]]].
      exists L, (Qred (C03.ProofsLoss.entryQ bf k n G)). split; [exact HND|]. split; [exact HinL|]. split; [reflexivity|].
      rewrite Qred_correct. fold G in HQ. rewrite HQ. unfold logp. rewrite (entryL_gen lsm bf N H V lg k n Hlg Hk Hn). reflexivity.
    - intros H1 Hpast.
      pose proof (C03.ProofsLoss.loss_entry_past_end c w N ref hyp logp HT1 HN Hwr Hwh Hlp n Hn k H1 ltac:(rewrite HT; exact Hk) Hpast) as HQ.
      fold G in HQ. f_equal. rewrite (Qred_complete _ _ HQ). reflexivity.
  Qed.

  (* 'sum' and 'mean': the model's reductions of that grid *)
  Theorem loss_source_sum_mean :
    (exists (q : Q) st', run_loss lsm loss_body s c w "sum" N V ref hyp lg warn = Ok (enc_x (mkTn [] [Fq q])) st' /\
                         (q == C03.Model.qsum (map C03.Model.qsum G))%Q) /\
    (exists (q : Q) st', run_loss lsm loss_body s c w "mean" N V ref hyp lg warn = Ok (enc_x (mkTn [] [Fq q])) st' /\
                         (q == C03.Model.qsum (map (C03.ProofsLoss.seq_mean c w N ref hyp logp) (seq 0 N)) / inject_Z (Z.of_nat N))%Q).
  Proof.
    split.
    - destruct (loss_body_is_model lsm s c w C03.Model.RSum N R' H V ref hyp lg warn HN Hr Hh HH Hlg HW Heos Htg) as [st' He].
      change (red_str C03.Model.RSum) with "sum" in He. rewrite C03.ProofsLoss.loss_sum in He. fold logp in He. fold G in He.
      eexists _, st'. split; [exact He|]. apply Qred_correct.
    - destruct (loss_body_is_model lsm s c w C03.Model.RMean N R' H V ref hyp lg warn HN Hr Hh HH Hlg HW Heos Htg) as [st' He].
      change (red_str C03.Model.RMean) with "mean" in He. fold logp in He.
      rewrite (C03.ProofsLoss.loss_mean c w N ref hyp logp HT1 HN Hwr Hwh Hlp) in He.
      eexists _, st'. split; [exact He|]. apply Qred_correct.
  Qed.
End Composed.
