(* C09, second tie — the list functions of TieBSrc.v (what the interpreted source computes on tabulated tensors, element by
   element) are PV.C09.Model's functions (which work on whole CELLS: a cell = the F flattened trailing features).
   Pure list reasoning; no interpreter here.  The lifting lemmas are TieModel.v's (any row type). *)
From Coq Require Import List ZArith Bool Arith Lia ZifyBool ZifyNat.
From PV Require Import MiniPy.Syntax MiniTorch.OpsC09 MiniTorch.LemmasC09 MiniTorch.OpsC09B MiniTorch.LemmasC09B.
From PV Require Import C09.Model C09.Proofs C09.TieSrc C09.TieModel C09.TieBSrc.
Import ListNotations.
Local Open Scope nat_scope.

Section Gen.
  Context {R : Type}.
  Variables (N F : nat) (mk : nat -> R).

  Definition rowsG : list R := map mk (seq 0 N).

  Lemma len_rowsG : length rowsG = N.
  Proof. unfold rowsG. now rewrite map_length, seq_length. Qed.

  Lemma match_rowsG {W} (a b : W) : match rowsG with [] => a | _ :: _ => b end = match N with 0 => a | S _ => b end.
  Proof. unfold rowsG. destruct N; reflexivity. Qed.

  Lemma map_rowsG {Y} (g : R -> Y) : map g rowsG = tab1 N (fun i => g (mk i)).
  Proof. unfold rowsG, tab1. now rewrite map_map. Qed.

  Lemma list_max_rowsG (g : R -> nat) : list_max (map g rowsG) = list_max (map (fun i => g (mk i)) (seq 0 N)).
  Proof. unfold rowsG. now rewrite map_map. Qed.

  Lemma existsb_rowsG (p : R -> bool) : existsb p rowsG = existsb (fun i => p (mk i)) (seq 0 N).
  Proof. unfold rowsG. apply existsb_map. Qed.

End Gen.

(* the flat (N, W, F) block of a fill value = the concatenated cells of N rows of W fill cells *)
Lemma fill_block N W F (value : val) :
  tab3 N W F (fun _ _ _ => value) = concat (concat (repeat (repeat (repeat value F) W) N)).
Proof. rewrite padded_rows, tab3_cells. f_equal. apply tab2_ext. intros. symmetry. apply repeat_tab1. Qed.

Lemma fill_block_cells N W F (value : val) : cellsF F (concat (repeat (repeat (repeat value F) W) N)).
Proof. rewrite padded_rows. apply cellsF_tab2. intros. apply repeat_length. Qed.

Lemma fill_block_length N W F (value : val) : length (concat (repeat (repeat (repeat value F) W) N)) = N * W.
Proof. rewrite padded_rows. apply tab2_length. Qed.

(* what a successful model-side scatter of whole cells gives: N rows of W cells of F values, and their flat content *)
Definition rows_wf (N W F : nat) (out : list (list (list val))) : Prop :=
  length out = N /\ Forall (fun row => length row = W /\ cellsF F row) out.

Lemma unflatten_rows N W F (l : list (list val)) :
  length l = N * W -> cellsF F l ->
  concat (map (@concat val) (unflatten N W l)) = concat l /\ rows_wf N W F (unflatten N W l).
Proof.
  intros HL HC. split; [now rewrite <- concat_concat_map, concat_unflatten by assumption|].
  split; [apply unflatten_length|now apply unflatten_wf].
Qed.

Lemma countZ_count_true m f : countZ m f = Z.of_nat (count_true (tab1 m f)).
Proof.
  unfold countZ, count_true, tab1. induction (seq 0 m) as [|a l IH]; [reflexivity|]. cbn [map fold_right filter].
  rewrite IH. destruct (f a); cbn [length]; lia.
Qed.

Section ModMasked.
  Variables (N T F : nat) (xf : nat -> nat -> nat -> val) (mf : nat -> nat -> bool).

  Definition mcell (i j : nat) : list val := tab1 F (xf i j).
  Definition mkM (i : nat) : list (list val) * list bool := (tab1 T (mcell i), tab1 T (mf i)).
  Definition rowsMk : list (list (list val) * list bool) := rowsG N mkM.

  Definition masked_rel (m : res (list (list (list val)) * list nat)) (s : option (list val)) : Prop :=
    match m with
    | Ok (out, lens) => s = Some (concat (map (@concat val) out)) /\ rows_wf N T F out
                        /\ map Z.of_nat lens = tab1 N (mlensZ T mf)
    | ErrRuntime => s = None
    | _ => False
    end.

  Theorem src_masked_model value :
    0 < F -> masked_rel (pad_masked_rows T (repeat value F) rowsMk) (src_masked_flat N T F xf mf value).
  Proof.
    intros HF. unfold pad_masked_rows, src_masked_flat, rowsMk. rewrite len_rowsG. unfold rowsG.
    assert (Exs : OpsC09.mselect (tab3 N T F (fun i j _ => mf i j)) (tab3 N T F xf)
                  = concat (select2 (map snd (map mkM (seq 0 N))) (map fst (map mkM (seq 0 N))))).
    { apply (select_lift_eq N F mkM T _ _ _ _ mf mcell (fun i _ => eq_refl) (fun i _ => eq_refl)); reflexivity. }
    assert (Cxs : cellsF F (select2 (map snd (map mkM (seq 0 N))) (map fst (map mkM (seq 0 N))))).
    { apply (select_lift_cells N F mkM T _ _ mcell (fun i _ => eq_refl)). intros. apply tab1_length. }
    rewrite Exs. set (xs := select2 _ _) in *.
    assert (ED : map (fun r : list (list val) * list bool => map (fun _ => repeat value F) (fst r)) (map mkM (seq 0 N))
                 = repeat (repeat (repeat value F) T) N).
    { fold (rowsG N mkM). rewrite map_rowsG, (repeat_tab1 _ N). apply tab1_ext. intros i Hi. cbn [mkM fst].
      rewrite map_tab1. symmetry. apply repeat_tab1. }
    rewrite ED, fill_block. unfold scatter2, lt_mask.
    match goal with |- context [Model.mscatter (concat (map ?g (map mkM (seq 0 N)))) ?D xs] =>
      rewrite (scatter_lift N F mkM T _ (fun i j => j <? count_true (tab1 T (mf i))) g D xs HF (fun i _ => eq_refl))
        by (try apply fill_block_cells; try assumption;
            intros i j Hi Hj; unfold mlensZ; rewrite countZ_count_true; lia);
      pose proof (mask_rows_length N mkM g T _ (fun i _ => eq_refl)) as LM;
      destruct (Model.mscatter (concat (map g (map mkM (seq 0 N)))) D xs) as [l1|] eqn:E1
    end; cbn [option_map Model.bind masked_rel]; [|reflexivity].
    pose proof (cellsF_mscatter F _ _ _ _ E1 (fill_block_cells N T F value) Cxs) as C1.
    assert (L1 : length l1 = N * T) by (rewrite (mscatter_length _ _ _ _ E1), LM, fill_block_length; lia).
    destruct (unflatten_rows N T F l1 L1 C1) as [EU WU].
    split; [now rewrite EU|]. split; [exact WU|].
    rewrite map_map. fold (rowsG N mkM). rewrite map_rowsG. apply tab1_ext. intros i Hi. cbn [mkM snd]. unfold mlensZ. now rewrite countZ_count_true.
  Qed.
End ModMasked.
