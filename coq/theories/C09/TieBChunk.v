(* C09, second tie — `chunk_by_slices` (PV.Gen.C09BSrc.chunk_body) under SrcRunB.ext09b: the two EARLY EXITS of the
   function, for all inputs - the empty batch (N = 0: returns x.new_empty(x.shape), slices.new_zeros((0,))) and a `lens`
   of the wrong length (RuntimeError) - as the model has them.  The main path (padding buffers, masks, scatters) is
   executed against torch on every run (SrcRunB.src_chunk_check) but NOT proved: see TieBChunkRun.v.wip and
   notes/C09_tie_report.md, "Second tie". *)
From Coq Require Import ZArith List String Bool Arith Lia ZifyBool ZifyNat.
From PV Require Import MiniPy.Syntax MiniPy.Interp MiniPy.Lemmas MiniTorch.Ops MiniTorch.OpsC09 MiniTorch.LemmasC09 MiniTorch.OpsC09B
  MiniTorch.LemmasC09B Gen.C09Src Gen.C09BSrc.
From PV Require Import C09.SrcRun C09.SrcRunB C09.TieSrc C09.TieBSrc C09.TieTac C09.TieBTac C09.TieGpb.
From PV Require C09.Model.
Import ListNotations.
Local Open Scope string_scope.

(* N = 0: whatever slices (an integer tensor), lens, mode and value are *)
Lemma chunk_run_empty T F (sl : tn Z) lensV md value :
  exists st,
    Interp.run ext09b chunk_body (chunk_vars (enc_p (mkTn [0%nat; T; F] [])) (enc_i sl) lensV (mode_val md) value)
    = Ok (VTuple [enc_p (mkTn [0%nat; T; F] []); enc_i (mkTn [0%nat] [])]) st.
Proof.
  unfold Interp.run, chunk_body, chunk_vars, globalsB. cbn [app].
  hide_tail 3%nat.
  do 2 (erewrite exec_seq_ok by run_stmt).
  rewrite exec_seq. erewrite ex_if by ev_top. decide_test.
  erewrite ex_return by ev_top. eexists. reflexivity.
Qed.

(* N > 0 and a lens vector whose length is not N: RuntimeError (slices is not looked at before) *)
Lemma chunk_run_bad_lens N Nl T F xf lf (sl : tn Z) md value :
  N <> 0%nat -> Nl <> N ->
  exists st,
    Interp.run ext09b chunk_body
      (chunk_vars (enc_p (xT N T F xf)) (enc_i sl) (enc_i (lensT Nl lf)) (mode_val md) value)
    = Exc runtime_error st.
Proof.
  intros HN HNl.
  assert (HN0 : (Z.of_nat N =? 0)%Z = false) by lia.
  assert (Hne : (Z.of_nat Nl =? Z.of_nat N)%Z = false) by lia.
  unfold Interp.run, chunk_body, chunk_vars, globalsB, xT, lensT. cbn [app].
  hide_tail 7%nat.
  do 6 (erewrite exec_seq_ok by run_stmt).
  erewrite exec_seq_exc by run_stmt. eexists. reflexivity.
Qed.
