(* C09, second tie — tie between the Python text of `pad_masked_sequence` / `chunk_by_slices` (src/pydrobert/torch/_pad.py)
   and PV.C09.Model, checked by the kernel.  PV.Gen.C09BSrc.masked_body / chunk_body are the MiniPy terms that
   harness/py2coq/translate.py regenerates from /repo on every run; PV.MiniPy.Interp is their semantics; the torch calls
   mean what PV.MiniTorch.OpsC09 / OpsC09B say (through SrcRunB.ext09b).  The theorems are stated on the model's own
   inputs: x = rows of cells of F payload values (F >= 1, ANY values), masks / slices / lens as lists.
   TieBMasked.v / TieBChunk.v: symbolic runs on tabulated tensors;  TieBModel.v: the resulting list
   functions are the model's.  If the source is edited so that this stops being true, these files stop compiling and the
   C09 check reports the broken obligation. *)
From Coq Require Import ZArith List Bool Arith Lia ZifyBool ZifyNat.
From Coq Require String.
From PV Require Import MiniPy.Syntax MiniPy.Interp MiniTorch.Ops MiniTorch.OpsC09 MiniTorch.LemmasC09 MiniTorch.OpsC09B
  MiniTorch.LemmasC09B Gen.C09BSrc.
From PV Require Import C09.SrcRun C09.SrcRunB C09.TieSrc C09.TieGpb C09.TieModel C09.Tie C09.TieBSrc C09.TieBMasked C09.TieBModel
  C09.TieBChunk.
From PV Require Import C09.Model C09.Spec C09.Proofs C09.ProofsTop.
Import ListNotations.
Local Open Scope nat_scope.

Definition wf_mask (C : nat) (m : list (list bool)) : Prop := Forall (fun r => List.length r = C) m.
Definition mfun (m : list (list bool)) (i j : nat) : bool := nth j (nth i m []) false.

Lemma wf_mask_row C m i : wf_mask C m -> i < List.length m -> nth i m [] = tab1 C (mfun m i).
Proof.
  intros H Hi. unfold wf_mask in H. rewrite Forall_forall in H.
  assert (HC : List.length (nth i m []) = C) by (apply H; now apply nth_In).
  rewrite (tab1_of_list (nth i m []) false) at 1. now rewrite HC.
Qed.

Lemma mask_tensor_tab C m : wf_mask C m -> mask_tensor C m = mkTn [List.length m; C] (tab2 (List.length m) C (mfun m)).
Proof.
  intros H. unfold mask_tensor. f_equal. rewrite (tab1_of_list m []) at 1. unfold tab2. rewrite flat_map_concat_map.
  unfold tab1 at 1. f_equal. apply map_ext_in. intros i Hi. apply in_seq in Hi. apply wf_mask_row; [assumption|lia].
Qed.

Lemma wf_x_rows W F out : wf_x W F out <-> Forall (fun row => List.length row = W /\ cellsF F row) out.
Proof. reflexivity. Qed.

Lemma rows_tensor_tab W F out : wf_x W F out -> rows_tensor W F out = mkTn [List.length out; W; F] (tab3 (List.length out) W F (xfun out)).
Proof. intros H. exact (x_tensor_tab W F out H). Qed.

Lemma vec_of_tab (lens : list nat) n (f : nat -> Z) : map Z.of_nat lens = tab1 n f -> vec_tensor lens = mkTn [n] (tab1 n f).
Proof.
  intros H. unfold vec_tensor. rewrite H. f_equal. f_equal. rewrite <- (map_length Z.of_nat), H. apply tab1_length.
Qed.

Lemma combine_tab T F x mask :
  wf_x T F x -> wf_mask T mask -> List.length mask = List.length x ->
  combine x mask = rowsMk (List.length x) T F (xfun x) (mfun mask).
Proof.
  intros Hx Hm Hl. unfold rowsMk, rowsG.
  apply (nth_ext _ _ ([], []) ([], [])).
  - rewrite combine_length, map_length, seq_length. lia.
  - intros i Hi. rewrite combine_length in Hi. rewrite combine_nth by lia.
    rewrite (nth_indep _ _ (mkM T F (xfun x) (mfun mask) 0)) by (rewrite map_length, seq_length; lia).
    rewrite map_nth, seq_nth by lia. cbn [Nat.add]. unfold mkM, mcell. f_equal.
    + apply (wf_row T F x i Hx). lia.
    + apply wf_mask_row; [assumption|lia].
Qed.

Definition masked_out (C F : nat) (r : res (list (list (list val)) * list nat)) (st : state) : outcome val :=
  match r with
  | Ok (out, lens) => Interp.Ok (VTuple [enc_p (rows_tensor C F out); enc_i (vec_tensor lens)]) st
  | e => Interp.Exc (exc_of e) st
  end.

Theorem masked_tie_bf N T F value x mask d :
  0 < F -> wf_x T F x -> wf_mask T mask -> List.length mask = List.length x ->
  exists st,
    run_masked (x_tensor T F x) (mask_tensor T mask) true value
    = masked_out T F (pad_masked_sequence N T d (repeat value F) true x mask) st.
Proof.
  intros HF Hx Hm Hl. unfold run_masked, pad_masked_sequence.
  rewrite (x_tensor_tab T F x Hx), (mask_tensor_tab T mask Hm), Hl, (combine_tab T F x mask Hx Hm Hl).
  set (n := List.length x) in *. unfold xT.
  destruct (masked_run_bf n T F (xfun x) (mfun mask) value) as [st E]. exists st. rewrite E.
  pose proof (src_masked_model n T F (xfun x) (mfun mask) value HF) as G.
  destruct (pad_masked_rows T (repeat value F) (rowsMk n T F (xfun x) (mfun mask))) as [[out lens]| | |];
    cbn [masked_rel] in G; [|contradiction|rewrite G; reflexivity|contradiction].
  destruct G as (-> & (Hlen & Hwf) & Hlens). cbn [masked_out]. unfold rows_tensor. rewrite Hlen.
  now rewrite (vec_of_tab lens n _ Hlens).
Qed.

(* ---- batch_first = False: x is T rows of N cells, the model transposes in and out -------------------------------- *)
Lemma transpose_tab {B} N T (d : B) (x : list (list B)) (f : nat -> nat -> B) :
  List.length x = T -> (forall i j, i < N -> j < T -> nth i (nth j x []) d = f i j) ->
  transpose N d x = tab1 N (fun i => tab1 T (f i)).
Proof.
  intros HL H. unfold transpose, tab1 at 1. apply map_ext_in. intros i Hi. apply in_seq in Hi.
  rewrite (tab1_of_list x []) at 1. rewrite map_tab1, HL. apply tab1_ext. intros j Hj. apply H; lia.
Qed.

Lemma xfun_cell T F x i j : wf_x T F x -> i < List.length x -> j < T -> nth j (nth i x []) [] = tab1 F (xfun x i j).
Proof. intros Hx Hi Hj. rewrite (wf_row T F x i Hx Hi). now rewrite nth_tab1. Qed.

Lemma transpose_cells W F n (d : list val) x :
  wf_x W F x -> List.length x = n -> transpose W d x = tab1 W (fun i => tab1 n (fun j => tab1 F (xfun x j i))).
Proof.
  intros Hx HL. apply (transpose_tab W n d x (fun i j => tab1 F (xfun x j i)) HL). intros i j Hi Hj.
  rewrite (nth_indep _ d []).
  - apply (xfun_cell W F x j i Hx); lia.
  - rewrite (wf_row W F x j Hx) by lia. now rewrite tab1_length.
Qed.

Lemma combine_tab1 {A B} n (f : nat -> A) (g : nat -> B) : combine (tab1 n f) (tab1 n g) = tab1 n (fun i => (f i, g i)).
Proof. unfold tab1. induction (seq 0 n) as [|a l IH]; [reflexivity|]. cbn [map combine]. now rewrite IH. Qed.

Lemma combine_transpose_tab N T F x mask d :
  wf_x N F x -> wf_mask N mask -> List.length x = T -> List.length mask = T ->
  combine (transpose N d x) (transpose N false mask)
  = rowsMk N T F (fun i j l => xfun x j i l) (fun i j => mfun mask j i).
Proof.
  intros Hx Hm HLx HLm.
  rewrite (transpose_cells N F T d x Hx HLx).
  rewrite (transpose_tab N T false mask (fun i j => mfun mask j i) HLm) by reflexivity.
  rewrite combine_tab1. reflexivity.
Qed.

Lemma wf_x_length_cell W F out i j : wf_x W F out -> i < List.length out -> j < W -> List.length (nth j (nth i out []) []) = F.
Proof. intros H Hi Hj. rewrite (xfun_cell W F out i j H Hi Hj). apply tab1_length. Qed.

(* the model's output, transposed back, as the source lays it out *)
Lemma transpose_out_tensor N T F (d : list val) out :
  wf_x T F out -> List.length out = N ->
  rows_tensor N F (transpose T d out) = mkTn [T; N; F] (tab3 T N F (fun j i k => xfun out i j k)).
Proof.
  intros Hw HL. unfold rows_tensor. rewrite (transpose_cells T F N d out Hw HL), tab1_length. f_equal.
  unfold tab3, tab2. rewrite map_tab1, flat_map_concat_map. unfold tab1. f_equal. apply map_ext. intros j.
  now rewrite flat_map_concat_map.
Qed.

Theorem masked_tie_nbf N T F value x mask d :
  0 < F -> wf_x N F x -> wf_mask N mask -> List.length x = T -> List.length mask = T ->
  exists st,
    run_masked (x_tensor N F x) (mask_tensor N mask) false value
    = masked_out N F (pad_masked_sequence N T d (repeat value F) false x mask) st.
Proof.
  intros HF Hx Hm HLx HLm. unfold run_masked, pad_masked_sequence.
  rewrite (x_tensor_tab N F x Hx), (mask_tensor_tab N mask Hm), HLx, HLm, (combine_transpose_tab N T F x mask d Hx Hm HLx HLm).
  unfold xT.
  destruct (masked_run_nbf N T F (xfun x) (mfun mask) value) as [st E]. exists st. rewrite E.
  pose proof (src_masked_model N T F (fun i j l => xfun x j i l) (fun i j => mfun mask j i) value HF) as G.
  destruct (pad_masked_rows T (repeat value F) (rowsMk N T F (fun i j l => xfun x j i l) (fun i j => mfun mask j i)))
    as [[out lens]| | |]; cbn [masked_rel] in G; [|contradiction|rewrite G; reflexivity|contradiction].
  destruct G as (-> & (Hlen & Hwf) & Hlens). cbn [masked_out].
  rewrite (transpose_out_tensor N T F d out Hwf Hlen), (vec_of_tab lens N _ Hlens).
  pose proof (rows_tensor_tab T F out Hwf) as ER. unfold rows_tensor in ER. injection ER as ER. rewrite ER, Hlen.
  do 5 f_equal. apply tab3_ext. intros j i k Hj Hi Hk. now rewrite at3_tab3.
Qed.

(* ---- composed with the model theorem (ProofsTop.pad_masked_sequence_correct): statements purely about the
   interpreted source.  For every batch, the interpreted `pad_masked_sequence` returns the tensor whose row n is the
   cells of x[n] selected by mask[n], in order, followed by the fill cell up to T, and the vector of the counts. ---- *)
Theorem source_masked_rows_bf T F value x mask :
  0 < F -> wf_x T F x -> wf_mask T mask -> List.length mask = List.length x ->
  exists out lens st,
    run_masked (x_tensor T F x) (mask_tensor T mask) true value
    = Interp.Ok (VTuple [enc_p (rows_tensor T F out); enc_i (vec_tensor lens)]) st
    /\ List.length out = List.length x /\ List.length lens = List.length x
    /\ forall n, n < List.length x ->
         (nth n out [], nth n lens 0) = compact1 (repeat value F) (nth n x []) (nth n mask []).
Proof.
  intros HF Hx Hm Hl. set (N := List.length x).
  destruct (pad_masked_sequence_correct N T [] (repeat value F) true x mask) as (o & lens & E & Ho & Hlens & Hrows).
  - reflexivity.
  - exact Hl.
  - intros n Hn. cbn [bf_view]. unfold wf_x in Hx. unfold wf_mask in Hm. rewrite Forall_forall in Hx, Hm. split.
    + apply Hx. apply nth_In. exact Hn.
    + apply Hm. apply nth_In. fold N in Hl. lia.
  - destruct (masked_tie_bf N T F value x mask [] HF Hx Hm Hl) as [st Er]. rewrite E in Er. cbn [masked_out] in Er.
    exists o, lens, st. split; [exact Er|]. split; [exact Ho|]. split; [exact Hlens|]. exact Hrows.
Qed.

(* batch_first = False: x is (T, N, F), mask (T, N); row n of the (N, T) VIEW o is the compaction of column n, and the
   returned tensor is o transposed back *)
Theorem source_masked_rows_nbf N T F value x mask :
  0 < F -> wf_x N F x -> wf_mask N mask -> List.length x = T -> List.length mask = T ->
  exists o lens st,
    run_masked (x_tensor N F x) (mask_tensor N mask) false value
    = Interp.Ok (VTuple [enc_p (rows_tensor N F (transpose T [] o)); enc_i (vec_tensor lens)]) st
    /\ List.length o = N /\ List.length lens = N
    /\ forall n, n < N ->
         (nth n o [], nth n lens 0)
         = compact1 (repeat value F) (nth n (transpose N [] x) []) (nth n (transpose N false mask) []).
Proof.
  intros HF Hx Hm HLx HLm.
  destruct (pad_masked_sequence_correct N T [] (repeat value F) false x mask) as (o & lens & E & Ho & Hlens & Hrows).
  - cbn [bf_view]. unfold transpose. now rewrite map_length, seq_length.
  - cbn [bf_view]. unfold transpose. now rewrite map_length, seq_length.
  - intros n Hn. cbn [bf_view]. unfold transpose.
    rewrite (nth_indep _ [] (map (fun row => nth 0 row []) x)) by (rewrite map_length, seq_length; exact Hn).
    rewrite (nth_indep (map _ (seq 0 N)) [] (map (fun row => nth 0 row false) mask)) by (rewrite map_length, seq_length; exact Hn).
    rewrite (map_nth (fun i => map (fun row => nth i row []) x)), (map_nth (fun i => map (fun row => nth i row false) mask)).
    now rewrite !map_length.
  - destruct (masked_tie_nbf N T F value x mask [] HF Hx Hm HLx HLm) as [st Er]. rewrite E in Er. cbn [masked_out] in Er.
    exists o, lens, st. split; [exact Er|]. split; [exact Ho|]. split; [exact Hlens|]. exact Hrows.
Qed.

(* ---- the executable form the harness evaluates (SrcRunB.src_masked) ------------------------------------------------ *)
Lemma masked_out_wf N T F value x mask d out lens :
  0 < F -> wf_x T F x -> wf_mask T mask -> List.length mask = List.length x ->
  pad_masked_sequence N T d (repeat value F) true x mask = Ok (out, lens) ->
  wf_x T F out /\ List.length lens = List.length x.
Proof.
  intros HF Hx Hm Hl. unfold pad_masked_sequence. rewrite (combine_tab T F x mask Hx Hm Hl). intros E.
  pose proof (src_masked_model (List.length x) T F (xfun x) (mfun mask) value HF) as G. rewrite E in G.
  destruct G as (_ & (Hlen & Hwf) & Hlens). split; [exact Hwf|].
  rewrite <- (map_length Z.of_nat), Hlens. apply tab1_length.
Qed.

Theorem src_masked_tie_bf N T F value x mask d :
  0 < F -> wf_x T F x -> wf_mask T mask -> List.length mask = List.length x ->
  src_masked T F value true x mask
  = Some (match pad_masked_sequence N T d (repeat value F) true x mask with
          | Ok (out, lens) => Ok (out, map Z.of_nat lens)
          | ErrValue => ErrValue | ErrRuntime => ErrRuntime | ErrNotImpl => ErrNotImpl
          end).
Proof.
  intros HF Hx Hm Hl. unfold src_masked.
  destruct (masked_tie_bf N T F value x mask d HF Hx Hm Hl) as [st ->].
  destruct (pad_masked_sequence N T d (repeat value F) true x mask) as [[out lens]| | |] eqn:E; try reflexivity.
  destruct (masked_out_wf N T F value x mask d out lens HF Hx Hm Hl E) as [Hw _].
  cbn [masked_out read_pair]. rewrite dec_any_enc_p, dec_any_enc_i. rewrite (cells_of_rows T F out Hw). reflexivity.
Qed.

(* ---- the two tie theorems with everything spelled out (the statements Properties.v quotes) ----------------------- *)
Theorem masked_tie_bf_explicit N T F value x mask d :
  0 < F -> wf_x T F x -> wf_mask T mask -> List.length mask = List.length x ->
  exists st,
    Interp.run ext09b masked_body
      (masked_vars (enc_p (x_tensor T F x)) (enc_b (mask_tensor T mask)) true value)
    = match pad_masked_sequence N T d (repeat value F) true x mask with
      | Ok (out, lens) => Interp.Ok (VTuple [enc_p (rows_tensor T F out); enc_i (vec_tensor lens)]) st
      | e => Interp.Exc (exc_of e) st
      end.
Proof.
  intros HF Hx Hm Hl. destruct (masked_tie_bf N T F value x mask d HF Hx Hm Hl) as [st E]. exists st.
  unfold run_masked in E. rewrite E. destruct (pad_masked_sequence N T d (repeat value F) true x mask) as [[? ?]| | |]; reflexivity.
Qed.

Theorem masked_tie_nbf_explicit N T F value x mask d :
  0 < F -> wf_x N F x -> wf_mask N mask -> List.length x = T -> List.length mask = T ->
  exists st,
    Interp.run ext09b masked_body
      (masked_vars (enc_p (x_tensor N F x)) (enc_b (mask_tensor N mask)) false value)
    = match pad_masked_sequence N T d (repeat value F) false x mask with
      | Ok (out, lens) => Interp.Ok (VTuple [enc_p (rows_tensor N F out); enc_i (vec_tensor lens)]) st
      | e => Interp.Exc (exc_of e) st
      end.
Proof.
  intros HF Hx Hm HLx HLm. destruct (masked_tie_nbf N T F value x mask d HF Hx Hm HLx HLm) as [st E]. exists st.
  unfold run_masked in E. rewrite E. destruct (pad_masked_sequence N T d (repeat value F) false x mask) as [[? ?]| | |]; reflexivity.
Qed.

(* ---- chunk_by_slices: the two early exits, on the model's own inputs (the main path is NOT proved) ------------------ *)
(* empty batch: the interpreted source returns the (0, T, F) tensor and the empty length vector, whatever slices, lens,
   mode and value are - and so does the model *)
Theorem chunk_tie_empty T F value md slices lens (d fill : list val) :
  exists st,
    Interp.run ext09b chunk_body
      (chunk_vars (enc_p (x_tensor T F [])) (enc_i (slices_tensor slices)) (lens_val lens) (mode_val md) value)
    = Interp.Ok (VTuple [enc_p (rows_tensor T F []); enc_i (vec_tensor [])]) st
    /\ chunk_by_slices T d fill md [] slices lens = Ok ([], []).
Proof.
  destruct (chunk_run_empty T F (slices_tensor slices) (lens_val lens) md value) as [st E]. exists st. split; [exact E|].
  destruct lens; reflexivity.
Qed.

(* a non-empty batch with a lens vector of the wrong length: RuntimeError, as in the model *)
Theorem chunk_tie_bad_lens T F value md x slices l (d fill : list val) :
  wf_x T F x -> x <> [] -> List.length l <> List.length x ->
  exists st,
    Interp.run ext09b chunk_body
      (chunk_vars (enc_p (x_tensor T F x)) (enc_i (slices_tensor slices)) (lens_val (Some l)) (mode_val md) value)
    = Interp.Exc runtime_error st
    /\ chunk_by_slices T d fill md x slices (Some l) = ErrRuntime.
Proof.
  intros Hx Hne Hl.
  assert (HN : List.length x <> 0) by (destruct x; [congruence|discriminate]).
  cbn [lens_val]. rewrite (x_tensor_tab T F x Hx), vec_tensor_tab.
  destruct (chunk_run_bad_lens (List.length x) (List.length l) T F (xfun x) (nfun l) (slices_tensor slices) md value HN Hl)
    as [st E]. exists st. split; [exact E|].
  unfold chunk_by_slices. destruct (Nat.eqb_spec (List.length x) 0) as [H0|_]; [congruence|].
  destruct (Nat.eqb_spec (List.length l) (List.length x)) as [H1|_]; [congruence|reflexivity].
Qed.
