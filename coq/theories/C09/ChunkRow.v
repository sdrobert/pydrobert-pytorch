(* C09 — chunk_by_slices, one row: the cells the code leaves in a row, cut at the chunk length,
   are the slice of the padded sequence.  Pure list facts, no batches here. *)
From Coq Require Import List Arith Bool Lia ZArith ZifyBool ZifyNat.
From PV Require Import C09.Model C09.Spec C09.Proofs C09.Buffers.
Import ListNotations.
Local Open Scope nat_scope.

Section RowFacts.
  Context {A : Type}.

  Lemma firstn_app_le (l1 l2 : list A) n : n <= length l1 -> firstn n (l1 ++ l2) = firstn n l1.
  Proof.
    intros H. rewrite firstn_app. replace (n - length l1) with 0 by lia. cbn. apply app_nil_r.
  Qed.

  Lemma firstn_app_ge (l1 l2 : list A) n :
    length l1 <= n -> firstn n (l1 ++ l2) = l1 ++ firstn (n - length l1) l2.
  Proof. intros H. rewrite firstn_app, firstn_all2 by lia. reflexivity. Qed.

  Lemma skipn_app_le (l1 l2 : list A) n : n <= length l1 -> skipn n (l1 ++ l2) = skipn n l1 ++ l2.
  Proof. intros H. rewrite skipn_app. replace (n - length l1) with 0 by lia. reflexivity. Qed.

  Lemma skipn_app_ge (l1 l2 : list A) n :
    length l1 <= n -> skipn n (l1 ++ l2) = skipn (n - length l1) l2.
  Proof. intros H. rewrite skipn_app, skipn_all2 by lia. reflexivity. Qed.

  (* the cells the slice mask selects, read in the sequence rather than in the padded row of x *)
  Lemma selected_in_seq (cells : list A) len a n :
    a + n <= len \/ n = 0 ->
    firstn n (skipn a cells) = firstn n (skipn a (firstn len cells)).
  Proof.
    intros [H | ->]; [|reflexivity].
    rewrite skipn_firstn_comm, firstn_firstn. f_equal. lia.
  Qed.

  (* rows that did not go through the reflect move: LB ++ X ++ RB ++ Z *)
  Lemma row_plain md (fill : A) (s LB RB X Zs : list A) (st en : Z) :
    (st < en)%Z -> md <> OtherMode ->
    LB = lpart md fill (Z.to_nat (- st)) s ->
    RB = rpart md fill (Z.to_nat (en - Z.of_nat (length s))) s ->
    length LB = Z.to_nat (- st) ->
    length RB = Z.to_nat (en - Z.of_nat (length s)) ->
    X = firstn (Z.to_nat (Z.min en (Z.of_nat (length s)) - Z.max st 0))
               (skipn (Z.to_nat (Z.max st 0)) s) ->
    ((st <= Z.of_nat (length s))%Z \/ exists v, RB = repeat v (Z.to_nat (en - Z.of_nat (length s)))) ->
    firstn (Z.to_nat (en - st)) (LB ++ X ++ RB ++ Zs) = chunk1 md fill s st en.
  Proof.
    intros Hne Hmd HLB HRB HlL HlR HX Hcase.
    unfold chunk1. destruct (Z.leb_spec en st) as [Hle|_]; [lia|].
    rewrite (pad1_parts md) by assumption. rewrite <- HLB, <- HRB. clear HLB.
    set (len := length s) in *.
    destruct (Z_lt_le_dec st 0) as [Hneg | Hpos].
    - (* the slice starts in the left padding *)
      replace (Z.to_nat (st + Z.of_nat (Z.to_nat (- st)))) with 0 by lia. cbn [skipn].
      replace (Z.to_nat (Z.max st 0)) with 0 in HX by lia. cbn [skipn] in HX.
      destruct (Z_le_gt_dec (Z.of_nat len) en) as [Hend | Hend].
      + (* ... and ends at or after the end of the sequence *)
        assert (X = s) as -> by (subst X; apply firstn_all2; fold len; lia).
        replace (LB ++ s ++ RB ++ Zs) with ((LB ++ s ++ RB) ++ Zs) by (now rewrite <- !app_assoc).
        rewrite firstn_app_exact by (rewrite !app_length; fold len; lia).
        rewrite firstn_all2 by (rewrite !app_length; fold len; lia). reflexivity.
      + assert (RB = []) as -> by (apply length_zero_iff_nil; lia). clear HRB Hcase.
        destruct (Z_lt_le_dec en 0) as [Hen | Hen].
        * (* wholly inside the left padding *)
          assert (X = []) as -> by (subst X; replace (Z.to_nat _) with 0 by lia; reflexivity).
          cbn [app]. rewrite !firstn_app_le by lia. reflexivity.
        * assert (HlX : length X = Z.to_nat en) by (subst X; rewrite firstn_length; fold len; lia).
          replace (LB ++ X ++ [] ++ Zs) with ((LB ++ X) ++ Zs) by (now rewrite <- app_assoc).
          rewrite firstn_app_exact by (rewrite app_length; lia).
          rewrite app_nil_r, firstn_app_ge by lia. f_equal.
          subst X. f_equal. lia.
    - (* the slice starts at or after the beginning of the sequence: no left padding *)
      assert (LB = []) as -> by (apply length_zero_iff_nil; lia). cbn [app].
      replace (Z.to_nat (st + Z.of_nat (Z.to_nat (- st)))) with (Z.to_nat st) by lia.
      replace (Z.to_nat (Z.max st 0)) with (Z.to_nat st) in HX by lia.
      destruct (Z_le_gt_dec st (Z.of_nat len)) as [Hin | Hout].
      + rewrite skipn_app_le by (fold len; lia).
        destruct (Z_le_gt_dec (Z.of_nat len) en) as [Hend | Hend].
        * assert (X = skipn (Z.to_nat st) s) as ->
            by (subst X; apply firstn_all2; rewrite skipn_length; fold len; lia).
          replace (skipn (Z.to_nat st) s ++ RB ++ Zs) with ((skipn (Z.to_nat st) s ++ RB) ++ Zs)
            by (now rewrite <- app_assoc).
          rewrite firstn_app_exact by (rewrite app_length, skipn_length; fold len; lia).
          rewrite firstn_all2 by (rewrite app_length, skipn_length; fold len; lia). reflexivity.
        * assert (RB = []) as -> by (apply length_zero_iff_nil; lia). rewrite app_nil_r. cbn [app].
          assert (HlX : length X = Z.to_nat (en - st))
            by (subst X; rewrite firstn_length, skipn_length; fold len; lia).
          rewrite firstn_app_exact by lia. subst X. f_equal. lia.
      + (* wholly inside the right padding; the right part is constant *)
        destruct Hcase as [? | (v & Hv)]; [lia|].
        assert (X = []) as -> by (subst X; replace (Z.to_nat (Z.min _ _ - _)) with 0 by lia; reflexivity).
        cbn [app]. rewrite skipn_app_ge by (fold len; lia). fold len. rewrite Hv.
        rewrite skipn_repeat, firstn_repeat, firstn_app_le by (rewrite repeat_length; lia).
        rewrite firstn_repeat. f_equal. lia.
  Qed.

  (* reflect rows whose slice lies wholly in the right padding: the code moved the last
     [k] cells of the right buffer to the front of the row *)
  Lemma row_moved (fill : A) (s RB Zs : list A) (st en : Z) :
    (st < en)%Z -> (Z.of_nat (length s) < st)%Z ->
    RB = rpart Reflect fill (Z.to_nat (en - Z.of_nat (length s))) s ->
    length RB = Z.to_nat (en - Z.of_nat (length s)) ->
    let off := Z.to_nat (st - Z.of_nat (length s)) in
    let k := Z.to_nat (en - st) in
    firstn k (skipn off RB ++ skipn k (RB ++ Zs)) = chunk1 Reflect fill s st en.
  Proof.
    intros Hne Hout HRB HlR off k.
    unfold chunk1. destruct (Z.leb_spec en st) as [Hle|_]; [lia|].
    rewrite (pad1_parts Reflect) by discriminate. rewrite <- HRB.
    replace (Z.to_nat (- st)) with 0 by lia. cbn [lpart firstn rev app].
    replace (Z.to_nat (st + Z.of_nat 0)) with (Z.to_nat st) by lia.
    rewrite (skipn_app_ge s RB) by lia.
    replace (Z.to_nat st - length s) with off by lia.
    rewrite firstn_app_exact by (rewrite skipn_length; lia).
    rewrite firstn_all2 by (rewrite skipn_length; lia). reflexivity.
  Qed.
End RowFacts.
