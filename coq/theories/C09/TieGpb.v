(* C09 — run of `_get_padding_buffers` (PV.Gen.C09Src.gpb_body): on tabulated tensors of any sizes the interpreter returns
   exactly TieSrc.src_gpb.  The part all modes share is run once; each mode continues from its test. *)
From Coq Require Import ZArith List String Bool Arith Lia ZifyBool ZifyNat.
From PV Require Import MiniPy.Syntax MiniPy.Interp MiniPy.Lemmas MiniTorch.Ops MiniTorch.OpsC09 MiniTorch.LemmasC09 Gen.C09Src.
From PV Require Import C09.SrcRun C09.TieSrc C09.Buffers C09.TieModel C09.TieTac.
From PV Require C09.Model.
Import ListNotations.
Local Open Scope string_scope.

Definition lensT N lf : tn Z := mkTn [N] (tab1 N (ZI lf)).

Definition gvars N T F xf lf pf qf (md : Model.mode) :=
  gpb_vars (enc_p (xT N T F xf)) (enc_i (lensT N lf)) (enc_i (lensT N pf)) (enc_i (lensT N qf)) (mode_val md).

(* `(left_pad.max(), right_pad.max())` of an empty batch: the first max() raises *)
Ltac max_of_empty :=
  eapply exec_seq_exc; etransitivity;
  [eapply ex_assign, ev_tuple_exc;
   [etransitivity; [eapply ev_meth_ext; [ev | ev | reflexivity] | extcall_open; rewrite max_all_ZI; reflexivity]
   | exact I]
  | reflexivity].

Lemma gpb_any N T F xf lf pf qf md :
  (forall i, (i < N)%nat -> (lf i <= T)%nat) ->
  exists st, Interp.run ext09g gpb_body (gvars N T F xf lf pf qf md) = out_gpb (src_gpb N T F xf lf pf qf md) st.
Proof.
  intros HT.
  unfold Interp.run, gpb_body, gvars, gpb_vars, xT, lensT.
  erewrite exec_seq_ok by run_stmt.
  erewrite exec_seq_ok by run_stmt.
  erewrite exec_seq_ok by run_stmt.
  rewrite exec_seq.
  destruct md.
  - erewrite ex_then by run_stmt. cbn [bind]. erewrite ex_return by ev_top. eexists. reflexivity.
  - do 2 (erewrite ex_if by ev_top; decide_test).
    unfold src_gpb, refl_bad.
    destruct (existsb _ _ || _) eqn:E.
    { erewrite exec_seq_exc by run_stmt. eexists. reflexivity. }
    erewrite exec_seq_ok by run_stmt.
    erewrite exec_seq_ok by run_stmt.
    destruct (Nat.eq_dec N 0) as [->|HN].
    { erewrite exec_seq_exc by max_of_empty. eexists. reflexivity. }
    apply orb_false_elim in E as [E1 E2].
    assert (Hok : forall i, (i < N)%nat -> (pf i < lf i /\ qf i < lf i /\ lf i <= T)%nat).
    { intros i Hi. assert (Hin : List.In i (seq 0 N)) by (apply in_seq; lia).
      pose proof (existsb_false_in _ _ E1 i Hin) as A1. pose proof (existsb_false_in _ _ E2 i Hin) as A2.
      cbv beta in A1, A2. unfold ZI in A1, A2. specialize (HT i Hi). lia. }
    (* the slices [:left_max], [:right_max] of arange are whole: no pad exceeds T *)
    assert (Hl : Nat.min (list_max (map pf (seq 0 N))) T = list_max (map pf (seq 0 N))).
    { apply Nat.min_l, list_max_map_le. intros i Hi. apply in_seq in Hi. destruct (Hok i) as (? & ? & ?); lia. }
    assert (Hr : Nat.min (list_max (map qf (seq 0 N))) T = list_max (map qf (seq 0 N))).
    { apply Nat.min_l, list_max_map_le. intros i Hi. apply in_seq in Hi. destruct (Hok i) as (? & ? & ?); lia. }
    clear HT E1 E2.
    erewrite ex_then by run_stmt. cbn [bind]. erewrite ex_return by ev_top.
    destruct N; [congruence|]. eexists. reflexivity.
  - do 3 (erewrite ex_if by ev_top; decide_test).
    unfold src_gpb, repl_bad.
    destruct (existsb _ _) eqn:E.
    { erewrite exec_seq_exc by run_stmt. eexists. reflexivity. }
    erewrite exec_seq_ok by run_stmt.
    destruct (Nat.eq_dec N 0) as [->|HN].
    { erewrite exec_seq_exc by max_of_empty. eexists. reflexivity. }
    assert (Hok : forall i, (i < N)%nat -> (1 <= lf i /\ lf i <= T)%nat).
    { intros i Hi. assert (Hin : List.In i (seq 0 N)) by (apply in_seq; lia).
      pose proof (existsb_false_in _ _ E i Hin) as A1. cbv beta in A1. unfold ZI in A1. specialize (HT i Hi). lia. }
    assert (HT1 : Nat.min 1 T = 1%nat).
    { destruct N; [congruence|]. destruct (Hok 0%nat) as [? ?]; lia. }
    clear HT E.
    erewrite ex_then by run_stmt. cbn [bind]. erewrite ex_return by ev_top.
    destruct N; [congruence|]. eexists. reflexivity.
  - erewrite ex_then_exc by run_stmt. eexists. reflexivity.
Qed.
