(* C09 — central lemmas: flat masked_select / masked_scatter over a batch are row-wise
   operations as soon as the per-row counts agree; interval masks; the padding buffers. *)
From Coq Require Import List Arith Bool Lia ZArith ZifyBool ZifyNat.
From PV Require Import C09.Model C09.Spec.
Import ListNotations.
Local Open Scope nat_scope.

Section Lists.
  Context {A : Type}.

  Lemma firstn_app_exact (l1 l2 : list A) n : n = length l1 -> firstn n (l1 ++ l2) = l1.
  Proof.
    intros ->. rewrite firstn_app, Nat.sub_diag, firstn_all. cbn. apply app_nil_r.
  Qed.

  Lemma skipn_app_exact (l1 l2 : list A) n : n = length l1 -> skipn n (l1 ++ l2) = l2.
  Proof.
    intros ->. rewrite skipn_app, Nat.sub_diag, skipn_all. reflexivity.
  Qed.

  Lemma repeat_add (v : A) a b : repeat v (a + b) = repeat v a ++ repeat v b.
  Proof. apply repeat_app. Qed.

  Lemma firstn_repeat (v : A) n k : firstn n (repeat v k) = repeat v (Nat.min n k).
  Proof.
    revert k; induction n as [|n IH]; intros [|k]; cbn; try reflexivity. now rewrite IH.
  Qed.

  Lemma skipn_repeat (v : A) n k : skipn n (repeat v k) = repeat v (k - n).
  Proof.
    revert k; induction n as [|n IH]; intros [|k]; cbn; try reflexivity. apply IH.
  Qed.

  Lemma map_const_in {B} (f : B -> A) (c : A) (l : list B) :
    (forall x, In x l -> f x = c) -> map f l = repeat c (length l).
  Proof.
    induction l as [|x l IH]; intros H; cbn; [reflexivity|].
    rewrite H by (left; reflexivity). rewrite IH; [reflexivity|]. intros; apply H; now right.
  Qed.

  Lemma repeat_map_const {B} (c : A) (l : list B) : repeat c (length l) = map (fun _ => c) l.
  Proof. induction l; cbn; congruence. Qed.

  Lemma concat_map_nil {B} (l : list B) : concat (map (fun _ => @nil A) l) = [].
  Proof. induction l; cbn; auto. Qed.
End Lists.

Section FlatLemmas.
  Context {A : Type}.

  (* what masked_scatter writes when the source is long enough (total version) *)
  Fixpoint place (m : list bool) (dst src : list A) : list A :=
    match m, dst with
    | b :: m', d :: dst' =>
        if b then match src with
                  | s :: src' => s :: place m' dst' src'
                  | [] => d :: place m' dst' []
                  end
        else d :: place m' dst' src
    | _, _ => []
    end.

  Lemma count_true_cons b m : count_true (b :: m) = (if b then 1 else 0) + count_true m.
  Proof. unfold count_true; destruct b; reflexivity. Qed.

  Lemma count_true_app m1 m2 : count_true (m1 ++ m2) = count_true m1 + count_true m2.
  Proof. unfold count_true. now rewrite filter_app, app_length. Qed.

  Lemma count_true_repeat b n : count_true (repeat b n) = if b then n else 0.
  Proof.
    induction n as [|n IH]; [destruct b; reflexivity|].
    cbn [repeat]. rewrite count_true_cons, IH. destruct b; lia.
  Qed.

  Lemma mselect_app m1 m2 (x1 x2 : list A) :
    length m1 = length x1 -> mselect (m1 ++ m2) (x1 ++ x2) = mselect m1 x1 ++ mselect m2 x2.
  Proof.
    revert x1; induction m1 as [|b m1 IH]; intros [|a x1] H; try discriminate; [reflexivity|].
    cbn in H |- *. destruct b; cbn; rewrite IH by lia; reflexivity.
  Qed.

  Lemma mselect_length m (x : list A) : length m = length x -> length (mselect m x) = count_true m.
  Proof.
    revert x; induction m as [|b m IH]; intros [|a x] H; try discriminate; [reflexivity|].
    rewrite count_true_cons. cbn in H |- *. destruct b; cbn; rewrite IH by lia; reflexivity.
  Qed.

  Lemma mselect_false n (x : list A) : mselect (repeat false n) x = [].
  Proof. revert x; induction n; intros [|a x]; cbn; auto. Qed.

  Lemma mselect_true n (x : list A) : length x = n -> mselect (repeat true n) x = x.
  Proof.
    revert x; induction n as [|n IH]; intros [|a x] H; try discriminate; [reflexivity|].
    cbn. rewrite IH by (cbn in H; lia). reflexivity.
  Qed.

  Lemma mscatter_app_exact m1 m2 (d1 d2 s1 s2 : list A) :
    length m1 = length d1 -> count_true m1 = length s1 ->
    mscatter (m1 ++ m2) (d1 ++ d2) (s1 ++ s2)
    = option_map (app (place m1 d1 s1)) (mscatter m2 d2 s2).
  Proof.
    revert d1 s1; induction m1 as [|b m1 IH]; intros [|d d1] s1 Hl Hc; try discriminate.
    - destruct s1; [|discriminate]. cbn. destruct (mscatter m2 d2 s2); reflexivity.
    - rewrite count_true_cons in Hc. cbn in Hl. destruct b.
      + destruct s1 as [|s s1]; [discriminate|]. cbn in Hc |- *.
        rewrite IH by lia. destruct (mscatter m2 d2 s2); reflexivity.
      + cbn in Hc |- *. rewrite IH by lia. destruct (mscatter m2 d2 s2); reflexivity.
  Qed.

  Lemma place_app m1 m2 (d1 d2 s1 s2 : list A) :
    length m1 = length d1 -> count_true m1 = length s1 ->
    place (m1 ++ m2) (d1 ++ d2) (s1 ++ s2) = place m1 d1 s1 ++ place m2 d2 s2.
  Proof.
    revert d1 s1; induction m1 as [|b m1 IH]; intros [|d d1] s1 Hl Hc; try discriminate.
    - destruct s1; [|discriminate]. reflexivity.
    - rewrite count_true_cons in Hc. cbn in Hl. destruct b.
      + destruct s1 as [|s s1]; [discriminate|]. cbn in Hc |- *. rewrite IH by lia. reflexivity.
      + cbn in Hc |- *. rewrite IH by lia. reflexivity.
  Qed.

  Lemma place_false n (d s : list A) : length d = n -> place (repeat false n) d s = d.
  Proof.
    revert d; induction n as [|n IH]; intros [|a d] H; try discriminate; [reflexivity|].
    cbn. rewrite IH by (cbn in H; lia). reflexivity.
  Qed.

  Lemma place_true n (d s : list A) : length d = n -> length s = n -> place (repeat true n) d s = s.
  Proof.
    revert d s; induction n as [|n IH]; intros [|a d] [|b s] H1 H2; try discriminate; [reflexivity|].
    cbn. rewrite IH by (cbn in H1, H2; lia). reflexivity.
  Qed.

  Lemma place_length m (d s : list A) : length m = length d -> length (place m d s) = length d.
  Proof.
    revert d s; induction m as [|b m IH]; intros [|a d] s H; try discriminate; [reflexivity|].
    cbn in H |- *. destruct b; [destruct s|]; cbn; rewrite IH by lia; reflexivity.
  Qed.

  (* ----- the central lemma: a flat select / scatter over the whole batch is row-wise
           whenever, in every row, the source holds as many cells as the mask selects ----- *)
  Lemma mselect_rows {R} (rows : list R) (mk : R -> list bool) (c : R -> list A) :
    (forall r, In r rows -> length (mk r) = length (c r)) ->
    select2 (map mk rows) (map c rows) = concat (map (fun r => mselect (mk r) (c r)) rows).
  Proof.
    unfold select2. induction rows as [|r rows IH]; intros H; [reflexivity|].
    cbn [map concat]. rewrite mselect_app by (apply H; now left).
    rewrite IH by (intros; apply H; now right). reflexivity.
  Qed.

  Lemma mscatter_rows {R} (rows : list R) (mk : R -> list bool) (dst buf : R -> list A) :
    (forall r, In r rows -> length (mk r) = length (dst r) /\ count_true (mk r) = length (buf r)) ->
    mscatter (concat (map mk rows)) (concat (map dst rows)) (concat (map buf rows))
    = Some (concat (map (fun r => place (mk r) (dst r) (buf r)) rows)).
  Proof.
    induction rows as [|r rows IH]; intros H; [reflexivity|].
    cbn [map concat]. destruct (H r (or_introl eq_refl)) as [H1 H2].
    rewrite mscatter_app_exact by assumption.
    rewrite IH by (intros; apply H; now right). reflexivity.
  Qed.

  Lemma unflatten_rows {R} (rows : list R) (g : R -> list A) W :
    (forall r, In r rows -> length (g r) = W) ->
    unflatten (length rows) W (concat (map g rows)) = map g rows.
  Proof.
    induction rows as [|r rows IH]; intros H; [reflexivity|].
    cbn [map concat length unflatten].
    rewrite firstn_app_exact, skipn_app_exact by (symmetry; apply H; now left).
    rewrite IH by (intros; apply H; now right). reflexivity.
  Qed.

  Lemma scatter2_rows {R} (rows : list R) W (mk : R -> list bool) (dst buf : R -> list A) :
    (forall r, In r rows -> length (mk r) = W /\ length (dst r) = W
                            /\ count_true (mk r) = length (buf r)) ->
    scatter2 (length rows) W (map mk rows) (map dst rows) (concat (map buf rows))
    = Ok (map (fun r => place (mk r) (dst r) (buf r)) rows).
  Proof.
    intros H. unfold scatter2. rewrite mscatter_rows.
    - rewrite unflatten_rows; [reflexivity|].
      intros r Hr. destruct (H r Hr) as (H1 & H2 & _). rewrite place_length; lia.
    - intros r Hr. destruct (H r Hr) as (H1 & H2 & H3). split; lia.
  Qed.

  (* ----- interval masks ----- *)
  Lemma interval_mask (phi : nat -> bool) a n W :
    a + n <= W ->
    (forall t, t < W -> phi t = (a <=? t) && (t <? a + n)) ->
    map phi (seq 0 W) = repeat false a ++ repeat true n ++ repeat false (W - (a + n)).
  Proof.
    intros Hle H.
    replace W with (a + (n + (W - (a + n)))) at 1 by lia.
    rewrite !seq_app, !map_app. cbn [plus].
    f_equal; [|f_equal].
    - rewrite (map_const_in phi false); [now rewrite seq_length|].
      intros t Ht. apply in_seq in Ht. rewrite H by lia. lia.
    - rewrite (map_const_in phi true); [now rewrite seq_length|].
      intros t Ht. apply in_seq in Ht. rewrite H by lia. lia.
    - rewrite (map_const_in phi false); [now rewrite seq_length|].
      intros t Ht. apply in_seq in Ht. rewrite H by lia. lia.
  Qed.

  (* the row is P ++ M ++ Q and the mask is true exactly on M's positions *)
  Definition seg_mask (phi : nat -> bool) (P M : list A) (W : nat) : Prop :=
    forall t, t < W -> phi t = (length P <=? t) && (t <? length P + length M).

  Lemma place_seg phi (P M Q buf : list A) W :
    length P + length M + length Q = W -> length buf = length M -> seg_mask phi P M W ->
    place (map phi (seq 0 W)) (P ++ M ++ Q) buf = P ++ buf ++ Q
    /\ count_true (map phi (seq 0 W)) = length buf
    /\ mselect (map phi (seq 0 W)) (P ++ M ++ Q) = M.
  Proof.
    intros HW Hb Hm.
    rewrite (interval_mask phi (length P) (length M) W) by (try lia; exact Hm).
    replace (W - (length P + length M)) with (length Q) by lia.
    repeat split.
    - replace buf with ([] ++ buf ++ []) at 1 by (cbn; apply app_nil_r).
      rewrite place_app by (rewrite ?repeat_length, ?count_true_repeat; reflexivity).
      rewrite place_app by (rewrite ?repeat_length, ?count_true_repeat; lia).
      rewrite !place_false, place_true by lia. reflexivity.
    - rewrite !count_true_app, !count_true_repeat. lia.
    - rewrite !mselect_app by (rewrite repeat_length; reflexivity).
      rewrite !mselect_false, mselect_true by reflexivity. cbn. apply app_nil_r.
  Qed.

  Lemma scatter2_seg {R} (rows : list R) (phi : R -> nat -> bool) W (dst P M Q buf : R -> list A) :
    (forall r, In r rows -> dst r = P r ++ M r ++ Q r /\ length (P r) + length (M r) + length (Q r) = W
                            /\ length (buf r) = length (M r) /\ seg_mask (phi r) (P r) (M r) W) ->
    scatter2 (length rows) W (map (fun r => map (phi r) (seq 0 W)) rows) (map dst rows) (concat (map buf rows))
    = Ok (map (fun r => P r ++ buf r ++ Q r) rows).
  Proof.
    intros H. rewrite (map_ext_in dst (fun r => P r ++ M r ++ Q r)) by (intros r Hr; exact (proj1 (H r Hr))).
    rewrite (scatter2_rows rows W (fun r => map (phi r) (seq 0 W)) (fun r => P r ++ M r ++ Q r) buf).
    - f_equal. apply map_ext_in. intros r Hr. destruct (H r Hr) as (_ & H1 & H2 & H3).
      apply (place_seg (phi r) (P r) (M r) (Q r) (buf r) W H1 H2 H3).
    - intros r Hr. destruct (H r Hr) as (_ & H1 & H2 & H3).
      rewrite map_length, seq_length, !app_length. split; [reflexivity|]. split; [lia|].
      apply (place_seg (phi r) (P r) (M r) (Q r) (buf r) W H1 H2 H3).
  Qed.

  (* the same on the two masks the code builds: "lo r <= position < hi r" and "position < n r" *)
  Lemma scatter2_between {R} (rows : list R) (lo hi : R -> nat) W (dst P M Q buf : R -> list A) :
    (forall r, In r rows -> dst r = P r ++ M r ++ Q r /\ length (P r) = lo r /\ lo r + length (M r) = hi r
                            /\ hi r + length (Q r) = W /\ length (buf r) = length (M r)) ->
    scatter2 (length rows) W (between_mask lo hi W rows) (map dst rows) (concat (map buf rows))
    = Ok (map (fun r => P r ++ buf r ++ Q r) rows).
  Proof.
    intros H. unfold between_mask. apply (scatter2_seg rows _ W dst P M Q buf). intros r Hr.
    destruct (H r Hr) as (H0 & H1 & H2 & H3 & H4).
    split; [exact H0|]. split; [lia|]. split; [exact H4|]. unfold seg_mask. intros t Ht. lia.
  Qed.

  Lemma scatter2_lt {R} (rows : list R) (n : R -> nat) W (dst M Q buf : R -> list A) :
    (forall r, In r rows -> dst r = M r ++ Q r /\ length (M r) = n r /\ n r + length (Q r) = W
                            /\ length (buf r) = n r) ->
    scatter2 (length rows) W (lt_mask n W rows) (map dst rows) (concat (map buf rows))
    = Ok (map (fun r => buf r ++ Q r) rows).
  Proof.
    intros H. unfold lt_mask. apply (scatter2_seg rows _ W dst (fun _ => []) M Q buf). intros r Hr.
    destruct (H r Hr) as (H0 & H1 & H2 & H3). cbn [length].
    split; [exact H0|]. split; [lia|]. split; [lia|]. unfold seg_mask. intros t Ht. cbn [length]. lia.
  Qed.

  Lemma select2_seg {R} (rows : list R) (phi : R -> nat -> bool) W (src P M Q : R -> list A) :
    (forall r, In r rows -> src r = P r ++ M r ++ Q r /\ length (P r) + length (M r) + length (Q r) = W
                            /\ seg_mask (phi r) (P r) (M r) W) ->
    select2 (map (fun r => map (phi r) (seq 0 W)) rows) (map src rows) = concat (map M rows).
  Proof.
    intros H. rewrite (map_ext_in src (fun r => P r ++ M r ++ Q r)) by (intros r Hr; exact (proj1 (H r Hr))).
    rewrite mselect_rows.
    - f_equal. apply map_ext_in. intros r Hr. destruct (H r Hr) as (_ & H1 & H3).
      apply (place_seg (phi r) (P r) (M r) (Q r) (M r) W H1 eq_refl H3).
    - intros r Hr. destruct (H r Hr) as (_ & H1 & _).
      rewrite map_length, seq_length, !app_length. lia.
  Qed.
End FlatLemmas.
