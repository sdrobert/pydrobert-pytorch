(* C09 — statements about the functions as the caller sees them (tensors, not rows):
   chunk_by_slices, pad_masked_sequence, random_shift. *)
From Coq Require Import List Arith Bool Lia ZArith QArith Qround Lqa ZifyBool ZifyNat.
From PV Require Import C09.Model C09.Spec C09.Proofs C09.Buffers C09.ProofsPad C09.ChunkRow C09.ProofsChunk.
Import ListNotations.
Local Close Scope Q_scope.
Local Open Scope nat_scope.

(* ====================== chunk_by_slices ====================== *)
Section ChunkTop.
  Context {A : Type}.

  Definition crow_at (T : nat) (x : list (list A)) (slices : list (Z * Z)) (lens : option (list nat))
             (n : nat) : crow A :=
    mkCrow (nth n x []) (match lens with Some l => nth n l 0 | None => T end)
           (fst (nth n slices (0, 0)%Z)) (snd (nth n slices (0, 0)%Z)).

  Lemma zip_crows_length T (x : list (list A)) slices lens : length (zip_crows T x slices lens) = length x.
  Proof. unfold zip_crows. now rewrite map_length, seq_length. Qed.

  Lemma zip_crows_nth T (x : list (list A)) slices lens n r0 :
    n < length x -> nth n (zip_crows T x slices lens) r0 = crow_at T x slices lens n.
  Proof. apply (tabulate_nth (crow_at T x slices lens)). Qed.

  Lemma zip_crows_in T (x : list (list A)) slices lens r :
    In r (zip_crows T x slices lens) -> exists n, n < length x /\ r = crow_at T x slices lens n.
  Proof. apply (tabulate_in (crow_at T x slices lens)). Qed.

  Lemma zip_crows_row_in T (x : list (list A)) slices lens n :
    n < length x -> In (crow_at T x slices lens n) (zip_crows T x slices lens).
  Proof. intros Hn. apply (tabulate_in (crow_at T x slices lens)). now exists n. Qed.

  (* the model's pad amounts are the spec's *)
  Lemma c_lp_chunk_l (r : crow A) : c_lp r = chunk_l (c_start r) (c_end r).
  Proof.
    unfold c_lp, chunk_l, c_empty, c_chunk.
    destruct (Nat.eqb_spec (Z.to_nat (c_end r - c_start r)) 0), (Z.leb_spec (c_end r) (c_start r)); lia.
  Qed.

  Lemma c_rp_chunk_r (r : crow A) : c_rp r = chunk_r (c_len r) (c_start r) (c_end r).
  Proof.
    unfold c_rp, chunk_r, c_empty, c_chunk.
    destruct (Nat.eqb_spec (Z.to_nat (c_end r - c_start r)) 0), (Z.leb_spec (c_end r) (c_start r)); lia.
  Qed.

  Definition chunk_inputs_ok (T : nat) (md : mode) (x : list (list A)) (slices : list (Z * Z))
             (lens : option (list nat)) : Prop :=
    x <> [] /\
    match lens with Some l => length l = length x | None => True end /\
    forall n, n < length x ->
      let r := crow_at T x slices lens n in
      length (c_cells r) = T /\ c_len r <= T /\
      legalb md (chunk_l (c_start r) (c_end r)) (chunk_r (c_len r) (c_start r) (c_end r)) (c_len r) = true.

  Theorem chunk_by_slices_correct T d fill md (x : list (list A)) slices lens :
    chunk_inputs_ok T md x slices lens ->
    exists Tp out olens,
      chunk_by_slices T d fill md x slices lens = Ok (out, olens) /\
      length out = length x /\ length olens = length x /\
      forall n, n < length x ->
        let r := crow_at T x slices lens n in
        nth n olens 0 = chunk_len1 (c_start r) (c_end r) /\
        firstn (nth n olens 0) (nth n out [])
        = chunk1 md fill (firstn (c_len r) (c_cells r)) (c_start r) (c_end r) /\
        length (nth n out []) = Tp /\ nth n olens 0 <= Tp.
  Proof.
    intros (Hne & Hlens & Hrows).
    set (rows := zip_crows T x slices lens).
    assert (Hrne : rows <> []).
    { intros E. apply (f_equal (@length _)) in E. unfold rows in E. rewrite zip_crows_length in E.
      destruct x; [congruence|discriminate]. }
    assert (Hok : c_ok md T rows).
    { intros r Hr. apply zip_crows_in in Hr as (n & Hn & ->).
      rewrite c_lp_chunk_l, c_rp_chunk_r. apply (Hrows n Hn). }
    exists (c_Tp rows), (map (c_out fill md rows) rows), (map c_chunk rows).
    split; [|split; [|split]].
    - unfold chunk_by_slices.
      destruct (Nat.eqb_spec (length x) 0) as [E|_].
      { apply length_zero_iff_nil in E. contradiction. }
      assert (E : chunk_rows T d fill md rows = Ok (map (c_out fill md rows) rows, map c_chunk rows))
        by (apply chunk_rows_eq; assumption).
      destruct lens as [l|]; [|exact E]. rewrite Hlens, Nat.eqb_refl. exact E.
    - rewrite map_length. apply zip_crows_length.
    - rewrite map_length. apply zip_crows_length.
    - intros n Hn. cbv zeta.
      pose proof (zip_crows_row_in T x slices lens n Hn) as Hin. fold rows in Hin.
      assert (Hlen : n < length rows) by (unfold rows; now rewrite zip_crows_length).
      rewrite (nth_map_lt c_chunk rows n (crow_at T x slices lens 0)) by assumption.
      rewrite (nth_map_lt (c_out fill md rows) rows n (crow_at T x slices lens 0)) by assumption.
      replace (nth n rows (crow_at T x slices lens 0)) with (crow_at T x slices lens n)
        by (symmetry; apply zip_crows_nth; assumption).
      destruct (c_out_correct fill md rows T Hrne Hok _ Hin) as (H1 & H2 & H3).
      split; [reflexivity|]. split; [exact H1|]. split; assumption.
  Qed.

  (* "the reported output lengths are exactly the requested ones (empty slices giving zero)" *)
  Theorem chunk_lens_exact T d fill md (x : list (list A)) slices lens out olens :
    chunk_inputs_ok T md x slices lens ->
    chunk_by_slices T d fill md x slices lens = Ok (out, olens) ->
    forall n, n < length x ->
      let st := fst (nth n slices (0, 0)%Z) in
      let en := snd (nth n slices (0, 0)%Z) in
      Z.of_nat (nth n olens 0) = Z.max (en - st) 0 /\
      ((en <= st)%Z -> nth n olens 0 = 0).
  Proof.
    intros Hin Heq n Hn. destruct (chunk_by_slices_correct T d fill md x slices lens Hin)
      as (Tp & out' & olens' & Heq' & _ & _ & H).
    rewrite Heq in Heq'. injection Heq' as -> ->.
    destruct (H n Hn) as (H1 & _). cbv zeta in *. rewrite H1. unfold chunk_len1. cbn [crow_at c_start c_end].
    split; lia.
  Qed.

  (* an illegal row makes the call raise (the batch being non-degenerate) *)
  Theorem chunk_by_slices_illegal T d fill md (x : list (list A)) slices lens n :
    match lens with Some l => length l = length x | None => True end ->
    n < length x ->
    (let r := crow_at T x slices lens n in
     legalb md (chunk_l (c_start r) (c_end r)) (chunk_r (c_len r) (c_start r) (c_end r)) (c_len r) = false) ->
    (md = Reflect -> chunk_by_slices T d fill md x slices lens = ErrNotImpl) /\
    (md = Replicate -> chunk_by_slices T d fill md x slices lens = ErrRuntime) /\
    md <> Constant.
  Proof.
    intros Hlens Hn Hleg. cbv zeta in Hleg.
    pose proof (zip_crows_row_in T x slices lens n Hn) as Hin.
    rewrite <- c_lp_chunk_l, <- c_rp_chunk_r in Hleg.
    pose proof (padding_buffers_illegal c_cells c_len c_lp c_rp T d md _ _ Hin Hleg) as H.
    assert (Hnz : (length x =? 0) = false) by (apply Nat.eqb_neq; lia).
    unfold chunk_by_slices, chunk_rows. rewrite zip_crows_length, Hnz.
    assert (Hl : match lens with Some l => (length l =? length x) = true | None => True end).
    { destruct lens; [now rewrite Hlens, Nat.eqb_refl|exact I]. }
    split; [|split].
    - intros ->. destruct lens; [rewrite Hl|]; rewrite H; reflexivity.
    - intros ->. destruct lens; [rewrite Hl|]; rewrite H; reflexivity.
    - intros ->. exact H.
  Qed.
End ChunkTop.

(* ====================== pad_masked_sequence ====================== *)
Section MaskedTop.
  Context {A : Type}.

  Lemma select1_mselect (s : list A) m : select1 s m = mselect m s.
  Proof.
    revert m; induction s as [|a s IH]; intros [|b m]; try reflexivity.
    cbn. rewrite IH. reflexivity.
  Qed.

  Theorem pad_masked_rows_correct T (fill : A) (rows : list (list A * list bool)) :
    (forall r, In r rows -> length (fst r) = T /\ length (snd r) = T) ->
    pad_masked_rows T fill rows
    = Ok (map (fun r => fst (compact1 fill (fst r) (snd r))) rows,
          map (fun r => snd (compact1 fill (fst r) (snd r))) rows).
  Proof.
    intros H. unfold pad_masked_rows.
    rewrite mselect_rows by (intros r Hr; destruct (H r Hr); lia).
    assert (Hc : forall r, In r rows -> length (mselect (snd r) (fst r)) = count_true (snd r)
                                          /\ count_true (snd r) <= T).
    { intros r Hr. destruct (H r Hr) as (H1 & H2).
      rewrite <- (mselect_length (snd r) (fst r)) by lia. split; [reflexivity|].
      clear - H1 H2. revert H1 H2. generalize (fst r) (snd r) T. clear.
      intros l m. revert l. induction m as [|b m IH]; intros [|a l] T H1 H2; cbn in *; try lia.
      destruct T; [discriminate|]. destruct b; cbn; specialize (IH l T); lia. }
    rewrite (scatter2_lt rows _ T _ (fun r => repeat fill (count_true (snd r)))
               (fun r => repeat fill (T - count_true (snd r))) (fun r => mselect (snd r) (fst r))).
    2:{ intros r Hr. destruct (H r Hr) as (H1 & _). destruct (Hc r Hr) as (H2 & H3). rewrite !repeat_length.
        split; [|lia]. rewrite (map_const_in (fun _ => fill) fill) by reflexivity. rewrite <- repeat_app. f_equal. lia. }
    cbn [bind]. f_equal. f_equal.
    - apply map_ext_in. intros r Hr. destruct (H r Hr) as (H1 & _). destruct (Hc r Hr) as (H2 & _).
      unfold compact1. cbn [fst app]. rewrite select1_mselect, H2, H1. reflexivity.
    - apply map_ext_in. intros r Hr. destruct (Hc r Hr) as (H2 & _).
      unfold compact1. cbn [snd]. rewrite select1_mselect, H2. reflexivity.
  Qed.

  Lemma transpose_length {B} n (d : B) x : length (transpose n d x) = n.
  Proof. unfold transpose. now rewrite map_length, seq_length. Qed.

  Lemma transpose_nth {B} n (d : B) x i :
    i < n -> nth i (transpose n d x) [] = map (fun row => nth i row d) x.
  Proof.
    intros H. unfold transpose. rewrite (nth_map_lt _ _ i 0) by (now rewrite seq_length).
    now rewrite seq_nth.
  Qed.

  (* the batch-first view of an input / output *)
  Definition bf_view {B} (n : nat) (d : B) (bf : bool) (x : list (list B)) : list (list B) :=
    if bf then x else transpose n d x.

  Theorem pad_masked_sequence_correct N T (d fill : A) bf x mask :
    let xv := bf_view N d bf x in
    let mv := bf_view N false bf mask in
    length xv = N -> length mv = N ->
    (forall n, n < N -> length (nth n xv []) = T /\ length (nth n mv []) = T) ->
    exists o lens,
      pad_masked_sequence N T d fill bf x mask = Ok (if bf then o else transpose T d o, lens) /\
      length o = N /\ length lens = N /\
      forall n, n < N -> (nth n o [], nth n lens 0) = compact1 fill (nth n xv []) (nth n mv []).
  Proof.
    intros xv mv Hx Hm Hrows.
    set (rows := combine xv mv).
    assert (Hlen : length rows = N) by (unfold rows; rewrite combine_length; lia).
    assert (Hnth : forall n, n < N -> nth n rows ([], []) = (nth n xv [], nth n mv [])).
    { intros n Hn. unfold rows. apply combine_nth. lia. }
    assert (Hok : forall r, In r rows -> length (fst r) = T /\ length (snd r) = T).
    { intros r Hr. apply (In_nth _ _ ([], [])) in Hr as (n & Hn & <-). rewrite Hnth by lia.
      apply Hrows. lia. }
    exists (map (fun r => fst (compact1 fill (fst r) (snd r))) rows),
           (map (fun r => snd (compact1 fill (fst r) (snd r))) rows).
    split; [|split; [|split]].
    - unfold pad_masked_sequence. subst xv mv. unfold bf_view in *. destruct bf.
      + fold rows. now apply pad_masked_rows_correct.
      + fold rows. rewrite (pad_masked_rows_correct T fill rows Hok). reflexivity.
    - now rewrite map_length.
    - now rewrite map_length.
    - intros n Hn.
      rewrite (nth_map_lt _ rows n ([], [])), (nth_map_lt _ rows n ([], [])) by lia.
      rewrite Hnth by assumption. cbn [fst snd]. now destruct (compact1 _ _ _).
  Qed.

  (* cell [t][n] of the time-major output is cell [n][t] of the batch-first one *)
  Lemma transpose_cell T (d : A) (o : list (list A)) t n :
    t < T -> n < length o -> nth n (nth t (transpose T d o) []) d = nth t (nth n o []) d.
  Proof.
    intros Ht Hn. rewrite transpose_nth by assumption.
    rewrite (nth_map_lt _ o n []) by assumption. reflexivity.
  Qed.
End MaskedTop.

(* ====================== random_shift ====================== *)
Section ShiftTop.
  Context {A : Type}.
  Local Open Scope Q_scope.

  Lemma Qmul_le_self a u : 0 <= a -> u <= 1 -> a * u <= a.
  Proof.
    intros Ha Hu. rewrite <- (Qmult_1_r a) at 2. rewrite !(Qmult_comm a).
    apply Qmult_le_compat_r; assumption.
  Qed.

  Lemma trunc_nonneg q : 0 <= q -> trunc q = Qfloor q /\ (0 <= Qfloor q)%Z.
  Proof.
    intros H. unfold trunc. rewrite (proj2 (Qle_bool_iff 0 q) H). split; [reflexivity|].
    change 0%Z with (Qfloor 0). now apply Qfloor_resp_le.
  Qed.

  Definition qlen (len : nat) : Q := inject_Z (Z.of_nat len).

  Lemma qlen_nonneg len : 0 <= qlen len.
  Proof. unfold qlen. change 0 with (inject_Z 0). rewrite <- Zle_Qle. lia. Qed.

  (* "a non-negative whole number of elements not exceeding the configured proportion" *)
  Lemma shift_amount_le p len u :
    0 <= p -> 0 <= u -> u < 1 -> qlen (shift_amount p len u) <= p * qlen len.
  Proof.
    intros Hp Hu0 Hu1. unfold shift_amount. fold (qlen len).
    assert (Ha : 0 <= p * qlen len) by (apply Qmult_le_0_compat; [assumption|apply qlen_nonneg]).
    assert (Hq : 0 <= p * qlen len * u) by (apply Qmult_le_0_compat; assumption).
    destruct (trunc_nonneg _ Hq) as (-> & Hf).
    unfold qlen. rewrite Z2Nat.id by assumption.
    apply Qle_trans with (p * inject_Z (Z.of_nat len) * u); [apply Qfloor_le|].
    apply Qmul_le_self; [exact Ha|]. now apply Qlt_le_weak.
  Qed.

  (* with a proportion <= 1 the amount stays below the length (what reflect needs) *)
  Lemma shift_amount_lt p len u :
    0 <= p -> p <= 1 -> 0 <= u -> u < 1 -> (1 <= len)%nat -> (shift_amount p len u < len)%nat.
  Proof.
    intros Hp Hp1 Hu0 Hu1 Hlen. unfold shift_amount. fold (qlen len).
    assert (Hl : 0 <= qlen len) by apply qlen_nonneg.
    assert (Ha : 0 <= p * qlen len) by (apply Qmult_le_0_compat; assumption).
    assert (Hq : 0 <= p * qlen len * u) by (apply Qmult_le_0_compat; assumption).
    destruct (trunc_nonneg _ Hq) as (-> & Hf).
    assert (Hlt : p * qlen len * u < qlen len).
    { assert (Hal : p * qlen len <= qlen len).
      { rewrite <- (Qmult_1_l (qlen len)) at 2. apply Qmult_le_compat_r; assumption. }
      destruct (Qlt_le_dec 0 (p * qlen len)) as [Hpos | Hzero].
      - apply Qlt_le_trans with (p * qlen len); [|assumption].
        rewrite <- (Qmult_1_r (p * qlen len)) at 2. apply Qmult_lt_l; assumption.
      - assert (E : p * qlen len == 0) by (apply Qle_antisym; assumption).
        rewrite E, Qmult_0_l. unfold qlen. change 0 with (inject_Z 0). rewrite <- Zlt_Qlt. lia. }
    assert (Hz : (Qfloor (p * qlen len * u) < Z.of_nat len)%Z).
    { rewrite Zlt_Qlt. apply Qle_lt_trans with (p * qlen len * u); [apply Qfloor_le|exact Hlt]. }
    lia.
  Qed.
End ShiftTop.

Section ShiftThm.
  Context {A : Type}.

  Lemma map2_length {X Y W} (f : X -> Y -> W) a b :
    length a = length b -> length (map2 f a b) = length a.
  Proof.
    revert b; induction a as [|x a IH]; intros [|y b] H; try discriminate; [reflexivity|].
    cbn in *. now rewrite IH by lia.
  Qed.

  Lemma map2_nth {X Y W} (f : X -> Y -> W) a b n dx dy dw :
    length a = length b -> n < length a -> nth n (map2 f a b) dw = f (nth n a dx) (nth n b dy).
  Proof.
    revert b n; induction a as [|x a IH]; intros [|y b] n H Hn; try discriminate; cbn in *; [lia|].
    destruct n; [reflexivity|]. apply IH; lia.
  Qed.

  (* "is the identity in evaluation mode" *)
  Theorem random_shift_eval_identity T (d fill : A) md p0 p1 (x : list (list A)) lens u0 u1 :
    length lens = length x ->
    random_shift T d fill md p0 p1 false x lens u0 u1 = Ok (x, lens).
  Proof. intros H. unfold random_shift. rewrite H, Nat.eqb_refl. reflexivity. Qed.

  Definition unit_interval (u : list Q) : Prop :=
    forall n, n < length u -> (0 <= nth n u 0)%Q /\ (nth n u 0 < 1)%Q.

  (* what the mode requires of the lengths / proportions for the training branch not to raise *)
  Definition shift_mode_ok (md : mode) (p0 p1 : Q) (lens : list nat) : Prop :=
    match md with
    | Constant => True
    | Replicate => forall n, n < length lens -> 1 <= nth n lens 0
    | Reflect => (forall n, n < length lens -> 1 <= nth n lens 0) /\ (p0 <= 1)%Q /\ (p1 <= 1)%Q
    | OtherMode => False
    end.

  Theorem random_shift_bounds_and_embedding T (d fill : A) md p0 p1 (x : list (list A)) lens u0 u1 :
    x <> [] -> length lens = length x -> length u0 = length x -> length u1 = length x ->
    (forall n, n < length x -> length (nth n x []) = T /\ nth n lens 0 <= T) ->
    (0 <= p0)%Q -> (0 <= p1)%Q -> unit_interval u0 -> unit_interval u1 ->
    shift_mode_ok md p0 p1 lens ->
    exists pl pr Tp out olens,
      random_shift T d fill md p0 p1 true x lens u0 u1 = Ok (out, olens) /\
      length out = length x /\ length olens = length x /\
      forall n, n < length x ->
        let len := nth n lens 0 in
        let l := nth n pl 0 in
        let r := nth n pr 0 in
        (* whole, non-negative (they are naturals) and bounded by the proportion *)
        (qlen l <= p0 * qlen len)%Q /\ (qlen r <= p1 * qlen len)%Q /\
        nth n olens 0 = len + (l + r) /\
        (* the original sequence sits unchanged between the two paddings *)
        firstn len (skipn l (nth n out [])) = firstn len (nth n x []) /\
        nth n out [] = pad1 md fill l r (firstn len (nth n x [])) ++ repeat fill (Tp - (len + (l + r))).
  Proof.
    intros Hne Hl Hu0 Hu1 Hrows Hp0 Hp1 HU0 HU1 Hmode.
    set (pl := map2 (shift_amount p0) lens u0). set (pr := map2 (shift_amount p1) lens u1).
    assert (Hpl : length pl = length x) by (unfold pl; rewrite map2_length; lia).
    assert (Hpr : length pr = length x) by (unfold pr; rewrite map2_length; lia).
    assert (Hpln : forall n, n < length x -> nth n pl 0 = shift_amount p0 (nth n lens 0) (nth n u0 0%Q)).
    { intros n Hn. unfold pl. apply map2_nth; lia. }
    assert (Hprn : forall n, n < length x -> nth n pr 0 = shift_amount p1 (nth n lens 0) (nth n u1 0%Q)).
    { intros n Hn. unfold pr. apply map2_nth; lia. }
    assert (Hin : inputs_ok T md x lens pl pr).
    { split; [assumption|]. repeat split; try assumption; try (apply Hrows; assumption).
      rewrite Hpln, Hprn by assumption.
      destruct (HU0 n ltac:(lia)) as (Ha & Hb). destruct (HU1 n ltac:(lia)) as (Hc & Hd).
      destruct md; cbn [legalb shift_mode_ok] in *; try reflexivity; try contradiction.
      - destruct Hmode as (Hlen & Hq0 & Hq1). specialize (Hlen n ltac:(lia)).
        pose proof (shift_amount_lt p0 (nth n lens 0) _ Hp0 Hq0 Ha Hb Hlen).
        pose proof (shift_amount_lt p1 (nth n lens 0) _ Hp1 Hq1 Hc Hd Hlen). lia.
      - specialize (Hmode n ltac:(lia)). lia. }
    destruct (pad_variable_correct T d fill md x lens pl pr Hin) as (Tp & out & Hout & Hlo & Hn & _).
    exists pl, pr, Tp, out, (map2 Nat.add lens (map2 Nat.add pl pr)).
    split; [|split; [|split]].
    - unfold random_shift. rewrite Hl, Nat.eqb_refl. cbn [negb]. fold pl pr. rewrite Hout. reflexivity.
    - assumption.
    - rewrite map2_length; [lia|]. rewrite map2_length; lia.
    - intros n Hlt. cbv zeta. destruct (Hn n Hlt) as (Hle & Hrow). cbv zeta in Hle, Hrow.
      destruct (HU0 n ltac:(lia)) as (Ha & Hb). destruct (HU1 n ltac:(lia)) as (Hc & Hd).
      destruct Hin as (_ & _ & _ & _ & Hleg). destruct (Hleg n Hlt) as (HcT & HlT & Hlegal).
      split; [rewrite Hpln by assumption; now apply shift_amount_le|].
      split; [rewrite Hprn by assumption; now apply shift_amount_le|].
      split.
      { rewrite (map2_nth Nat.add lens _ n 0 0 0); [|rewrite map2_length; lia|lia].
        rewrite (map2_nth Nat.add pl pr n 0 0 0); [reflexivity|lia|lia]. }
      split; [|exact Hrow].
      rewrite Hrow. set (s := firstn (nth n lens 0) (nth n x [])).
      assert (Hs : length s = nth n lens 0) by (unfold s; rewrite firstn_length; lia).
      assert (Hmd : md <> OtherMode) by (intros ->; discriminate).
      rewrite (pad1_parts md) by assumption.
      rewrite <- app_assoc, skipn_app_exact
        by (symmetry; apply (lpart_length md fill _ (nth n pr 0)); now rewrite Hs).
      rewrite <- app_assoc, firstn_app_exact by (now rewrite Hs).
      reflexivity.
  Qed.
End ShiftThm.
