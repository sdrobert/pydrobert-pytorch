(* C09 — pad_variable: every output row is the per-sequence padding followed by fill. *)
From Coq Require Import List Arith Bool Lia ZArith ZifyBool ZifyNat.
From PV Require Import C09.Model C09.Spec C09.Proofs C09.Buffers.
Import ListNotations.
Local Open Scope nat_scope.

Lemma mode_eq_constant (md : mode) : {md = Constant} + {md <> Constant}.
Proof. destruct md; [left; reflexivity| right; discriminate ..]. Qed.

Lemma match_not_constant {X} (md : mode) (a b : X) :
  md <> Constant -> match md with Constant => a | _ => b end = b.
Proof. destruct md; congruence. Qed.

Lemma nth_map_lt {X Y} (f : X -> Y) (l : list X) n dx dy :
  n < length l -> nth n (map f l) dy = f (nth n l dx).
Proof.
  intros H. rewrite (nth_indep _ dy (f dx)) by (now rewrite map_length). apply map_nth.
Qed.

Lemma tabulate_nth {X} (f : nat -> X) n i d : i < n -> nth i (map f (seq 0 n)) d = f i.
Proof. intros H. rewrite (nth_map_lt f _ i 0) by (now rewrite seq_length). now rewrite seq_nth. Qed.

Lemma tabulate_in {X} (f : nat -> X) n r : In r (map f (seq 0 n)) <-> exists i, i < n /\ r = f i.
Proof.
  rewrite in_map_iff. split; intros (i & H1 & H2).
  - apply in_seq in H2. exists i. split; [lia|now symmetry].
  - exists i. split; [now symmetry|apply in_seq; lia].
Qed.

Section PadProofs.
  Context {A : Type}.
  Notation prow := (prow A).

  Definition p_seq (r : prow) : list A := firstn (p_len r) (p_cells r).
  Definition p_ok (T : nat) (md : mode) (rows : list prow) : Prop :=
    rows_ok p_cells p_len p_l p_r T md rows.
  Definition p_Tp (rows : list prow) : nat := list_max (map p_new rows).

  Lemma buffers_ok T d fill md (rows : list prow) :
    rows <> [] -> p_ok T md rows ->
    exists bufs, get_padding_buffers p_cells p_len p_l p_r T d md rows = Ok bufs /\
                 (md <> Constant ->
                  bufs = (concat (map (fun r => lpart md fill (p_l r) (p_seq r)) rows),
                          concat (map (fun r => rpart md fill (p_r r) (p_seq r)) rows))).
  Proof. apply padding_buffers_ok.
  Qed.

  Theorem pad_variable_rows_correct T d fill md (rows : list prow) :
    rows <> [] -> p_ok T md rows ->
    pad_variable_rows T d fill md rows
    = Ok (map (fun r => pad1 md fill (p_l r) (p_r r) (p_seq r) ++ repeat fill (p_Tp rows - p_new r)) rows).
  Proof.
    intros Hne Hok.
    destruct (buffers_ok T d fill md rows Hne Hok) as (bufs & Hb & Hbufs).
    unfold pad_variable_rows. rewrite Hb. cbn [bind]. rewrite match_nonempty by assumption.
    cbv zeta. fold (p_Tp rows). set (Tp := p_Tp rows).
    assert (Hnew : forall r, In r rows -> p_new r <= Tp) by (intros; now apply list_max_map_in).
    assert (Hs : forall r, In r rows -> length (p_seq r) = p_len r).
    { intros r Hr. apply (seqf_length p_cells p_len p_l p_r T md rows r Hok Hr). }
    (* the selected cells *)
    unfold lt_mask at 1. rewrite (select2_prefix rows p_len T p_cells).
    2:{ intros r Hr. destruct (Hok r Hr) as (Hc & HT & _). split; assumption. }
    change (fun r => firstn (p_len r) (p_cells r)) with p_seq.
    (* scatter the sequences *)
    rewrite repeat_map_const.
    rewrite (scatter2_between rows p_l p_mid Tp _ (fun r => repeat fill (p_l r)) (fun r => repeat fill (p_len r))
               (fun r => repeat fill (Tp - p_mid r)) p_seq).
    2:{ intros r Hr. specialize (Hnew r Hr). specialize (Hs r Hr). unfold p_new, p_mid in *.
        rewrite !repeat_length. split; [|lia]. rewrite <- !repeat_app. f_equal. lia. }
    cbn [bind].
    destruct (mode_eq_constant md) as [-> | Hnc].
    - (* constant *)
      f_equal. apply map_ext_in. intros r Hr. specialize (Hnew r Hr). unfold p_new, p_mid in *.
      cbn [pad1]. rewrite <- !app_assoc. do 2 f_equal. rewrite <- repeat_app. f_equal. lia.
    - pose proof (rows_ok_mode _ _ _ _ T md rows Hne Hok) as Hmd.
      rewrite (Hbufs Hnc). cbn [fst snd].
      assert (Hlp : forall r, In r rows -> length (lpart md fill (p_l r) (p_seq r)) = p_l r).
      { intros r Hr. destruct (Hok r Hr) as (_ & _ & Hl). apply (lpart_length md fill (p_l r) (p_r r)).
        now rewrite (Hs r Hr). }
      assert (Hrp : forall r, In r rows -> length (rpart md fill (p_r r) (p_seq r)) = p_r r).
      { intros r Hr. destruct (Hok r Hr) as (_ & _ & Hl). apply (rpart_length md fill (p_l r) (p_r r)).
        now rewrite (Hs r Hr). }
      rewrite match_not_constant by assumption.
      (* left buffer *)
      rewrite (scatter2_lt rows p_l Tp _ (fun r => repeat fill (p_l r)) (fun r => p_seq r ++ repeat fill (Tp - p_mid r))
                 (fun r => lpart md fill (p_l r) (p_seq r))).
      2:{ intros r Hr. specialize (Hnew r Hr). specialize (Hs r Hr). specialize (Hlp r Hr).
          unfold p_new, p_mid in *. rewrite !app_length, !repeat_length. split; [reflexivity|lia]. }
      cbn [bind].
      (* right buffer *)
      rewrite (scatter2_between rows p_mid p_new Tp _ (fun r => lpart md fill (p_l r) (p_seq r) ++ p_seq r)
                 (fun r => repeat fill (p_r r)) (fun r => repeat fill (Tp - p_new r))
                 (fun r => rpart md fill (p_r r) (p_seq r))).
      2:{ intros r Hr. specialize (Hnew r Hr). specialize (Hs r Hr). specialize (Hlp r Hr). specialize (Hrp r Hr).
          unfold p_new, p_mid in *. rewrite !app_length, !repeat_length. split; [|lia].
          rewrite <- !app_assoc. do 2 f_equal. rewrite <- repeat_app. f_equal. lia. }
      f_equal. apply map_ext_in. intros r Hr. rewrite (pad1_parts md) by assumption.
      rewrite <- !app_assoc. reflexivity.
  Qed.

  (* ----- from rows back to the tensors the caller passed ----- *)
  Definition row_at (x : list (list A)) (lens pl pr : list nat) (n : nat) : prow :=
    mkProw (nth n x []) (nth n lens 0) (nth n pl 0) (nth n pr 0).

  Lemma zip_prows_length (x : list (list A)) lens pl pr : length (zip_prows x lens pl pr) = length x.
  Proof. unfold zip_prows. now rewrite map_length, seq_length. Qed.

  Lemma zip_prows_nth (x : list (list A)) lens pl pr n r0 :
    n < length x -> nth n (zip_prows x lens pl pr) r0 = row_at x lens pl pr n.
  Proof. apply (tabulate_nth (row_at x lens pl pr)). Qed.

  Lemma zip_prows_in (x : list (list A)) lens pl pr r :
    In r (zip_prows x lens pl pr) -> exists n, n < length x /\ r = row_at x lens pl pr n.
  Proof. apply (tabulate_in (row_at x lens pl pr)). Qed.

  Lemma zip_prows_row_in (x : list (list A)) lens pl pr n :
    n < length x -> In (row_at x lens pl pr n) (zip_prows x lens pl pr).
  Proof. intros Hn. apply (tabulate_in (row_at x lens pl pr)). now exists n. Qed.

  Definition inputs_ok (T : nat) (md : mode) (x : list (list A)) (lens pl pr : list nat) : Prop :=
    x <> [] /\ length lens = length x /\ length pl = length x /\ length pr = length x /\
    forall n, n < length x ->
      length (nth n x []) = T /\ nth n lens 0 <= T /\
      legalb md (nth n pl 0) (nth n pr 0) (nth n lens 0) = true.

  Lemma list_max_attained (l : list nat) : l <> [] -> In (list_max l) l.
  Proof.
    induction l as [|a l IH]; [congruence|]. intros _. cbn [list_max fold_right].
    fold (list_max l). destruct l as [|b l].
    - left. cbn. lia.
    - destruct (Nat.max_spec a (list_max (b :: l))) as [[_ ->] | [_ ->]].
      + right. apply IH. discriminate.
      + now left.
  Qed.

  Theorem pad_variable_correct T d fill md (x : list (list A)) lens pl pr :
    inputs_ok T md x lens pl pr ->
    exists Tp out,
      pad_variable T d fill md x lens pl pr = Ok out /\ length out = length x /\
      (forall n, n < length x ->
         let new := nth n lens 0 + (nth n pl 0 + nth n pr 0) in
         new <= Tp /\
         nth n out [] = pad1 md fill (nth n pl 0) (nth n pr 0) (firstn (nth n lens 0) (nth n x []))
                          ++ repeat fill (Tp - new)) /\
      (exists n, n < length x /\ nth n lens 0 + (nth n pl 0 + nth n pr 0) = Tp).
  Proof.
    intros (Hne & Hl1 & Hl2 & Hl3 & Hrows).
    set (rows := zip_prows x lens pl pr).
    assert (Hrne : rows <> []).
    { intros E. apply (f_equal (@length _)) in E. unfold rows in E. rewrite zip_prows_length in E.
      destruct x; [congruence|discriminate]. }
    assert (Hok : p_ok T md rows).
    { intros r Hr. apply zip_prows_in in Hr as (n & Hn & ->). apply (Hrows n Hn). }
    exists (p_Tp rows), (map (fun r => pad1 md fill (p_l r) (p_r r) (p_seq r) ++ repeat fill (p_Tp rows - p_new r)) rows).
    split; [|split; [|split]].
    - unfold pad_variable. rewrite Hl1, Hl2, Hl3, Nat.eqb_refl. cbn [andb].
      apply pad_variable_rows_correct; assumption.
    - rewrite map_length. apply zip_prows_length.
    - intros n Hn. cbv zeta. split.
      + change (p_new (row_at x lens pl pr n) <= p_Tp rows). apply list_max_map_in.
        now apply zip_prows_row_in.
      + rewrite (nth_map_lt _ rows n (row_at x lens pl pr 0)) by (unfold rows; now rewrite zip_prows_length).
        replace (nth n rows (row_at x lens pl pr 0)) with (row_at x lens pl pr n)
          by (symmetry; apply zip_prows_nth; assumption).
        reflexivity.
    - assert (Hin : In (p_Tp rows) (map p_new rows)).
      { apply list_max_attained. intros E. apply map_eq_nil in E. contradiction. }
      apply in_map_iff in Hin as (r & Hr & Hin). apply zip_prows_in in Hin as (n & Hn & ->).
      exists n. split; [assumption|exact Hr].
  Qed.

  (* an illegal pad amount (reflect: pad >= len; replicate: len = 0) makes the call raise *)
  Theorem pad_variable_illegal T d fill md (x : list (list A)) lens pl pr n :
    length lens = length x -> length pl = length x -> length pr = length x ->
    n < length x -> legalb md (nth n pl 0) (nth n pr 0) (nth n lens 0) = false ->
    (md = Reflect -> pad_variable T d fill md x lens pl pr = ErrNotImpl) /\
    (md = Replicate -> pad_variable T d fill md x lens pl pr = ErrRuntime) /\
    md <> Constant.
  Proof.
    intros Hl1 Hl2 Hl3 Hn Hleg.
    pose proof (zip_prows_row_in x lens pl pr n Hn) as Hin.
    pose proof (padding_buffers_illegal p_cells p_len p_l p_r T d md _ _ Hin Hleg) as H.
    unfold pad_variable, pad_variable_rows. rewrite Hl1, Hl2, Hl3, Nat.eqb_refl. cbn [andb].
    split; [|split].
    - intros ->. rewrite H. reflexivity.
    - intros ->. rewrite H. reflexivity.
    - intros ->. exact H.
  Qed.

  (* lens / pad of the wrong shape: ValueError *)
  Theorem pad_variable_bad_shape T (d fill : A) md (x : list (list A)) lens pl pr :
    length lens <> length x \/ length pl <> length x \/ length pr <> length x ->
    pad_variable T d fill md x lens pl pr = ErrValue.
  Proof.
    intros H. unfold pad_variable.
    destruct (Nat.eqb_spec (length lens) (length x)); [|reflexivity].
    destruct (Nat.eqb_spec (length pl) (length x)); [|reflexivity].
    destruct (Nat.eqb_spec (length pr) (length x)); [|reflexivity]. lia.
  Qed.
End PadProofs.
