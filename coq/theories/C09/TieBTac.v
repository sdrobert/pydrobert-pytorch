(* C09, second tie — what the runs of TieBMasked.v / TieBChunk.v add to TieTac.v: the environment SrcRunB.ext09b and the
   operations of PV.MiniTorch.OpsC09B (rewriting lemmas of LemmasC09B.v).  The [Arguments] settings are GLOBAL in this
   file, like TieTac.v's: import it only from the C09 tie files. *)
From Coq Require Import ZArith List String Bool Arith Lia ZifyBool ZifyNat.
From PV Require Import MiniPy.Syntax MiniPy.Interp MiniTorch.Ops MiniTorch.OpsC09 MiniTorch.LemmasC09 MiniTorch.OpsC09B
  MiniTorch.LemmasC09B Gen.C09Src Gen.C09BSrc.
From PV Require Import C09.SrcRun C09.SrcRunB C09.TieSrc C09.TieBSrc C09.TieTac.
From PV Require C09.Model.
Import ListNotations.
Local Open Scope string_scope.

#[global] Arguments OpsC09B.new_empty : simpl never.
#[global] Arguments OpsC09B.sum1_bool : simpl never.
#[global] Arguments OpsC09B.transpose01 : simpl never.
#[global] Arguments OpsC09B.full_like : simpl never.
#[global] Arguments OpsC09B.tuple_repeat : simpl never.
#[global] Arguments countZ : simpl never.
#[global] Arguments ZI : simpl never.
#[global] Arguments Z.eqb : simpl nomatch.
#[global] Arguments Z.leb : simpl nomatch.

Lemma foreign_item_pair a b k : foreign_item (VTuple [a; b]) k = false.
Proof. destruct k; reflexivity. Qed.

Lemma binop_and_bb' t u st : binop_eval BitAnd (enc_b t) (enc_b u) st = Stuck "and". Proof. reflexivity. Qed.

Lemma val_eqb_enc_i_none t : val_eqb (enc_i t) VNone = false. Proof. reflexivity. Qed.

Lemma tuple_repeat_1 {X} (l : list X) : tuple_repeat l 1 = l.
Proof. unfold tuple_repeat. cbn. apply app_nil_r. Qed.

(* the environment of the second tie: ext09b first, what it does not know goes on to ext09 / ext09g *)
Ltac extsel ::=
  lazy [ext09b ext09 builtin is String.append String.eqb Ascii.eqb Bool.eqb orb];
  lazymatch goal with
  | |- context [Interp.run] => idtac
  | _ => lazy [ext09g getitem is String.eqb Ascii.eqb Bool.eqb]
  end.
Ltac ostep_unit ::=
  match goal with
  | |- context [val_eqb (enc_i _) VNone] => rewrite val_eqb_enc_i_none
  | |- context [sum1_bool (mkTn [?n; ?m] (tab2 ?n ?m _))] => rewrite sum1_bool_tab2
  | |- context [transpose01 _ (mkTn [?a; ?b] (tab2 ?a ?b _))] => rewrite transpose01_tab2
  | |- context [transpose01 _ (mkTn [?a; ?b; ?c] (tab3 ?a ?b ?c _))] => rewrite transpose01_tab3
  | |- context [full_like (mkTn [_; _; _] _) _] => rewrite full_like_3
  | |- context [view (mkTn [?n; ?m] _) [?n; ?m; 1%nat]] => rewrite view_nm1
  | |- context [tuple_repeat _ 1] => rewrite tuple_repeat_1
  end.

