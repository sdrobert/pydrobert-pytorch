(* C09 — the list functions of TieSrc.v (what the interpreted source computes on tabulated tensors, element by element)
   are PV.C09.Model's functions (which work on whole CELLS: a cell = the F flattened trailing features): the flat buffers
   and the padded tensor of the source are the concatenation of the model's cells, errors coincide.  Pure list reasoning;
   no interpreter here. *)
From Coq Require Import List ZArith Bool Arith Lia ZifyBool ZifyNat.
From PV Require Import MiniPy.Syntax MiniTorch.OpsC09 MiniTorch.LemmasC09.
From PV Require Import C09.Model C09.Proofs C09.Buffers C09.TieSrc.
Import ListNotations.
Local Open Scope nat_scope.

(* the two copies of masked_select / masked_scatter on flat lists are the same functions *)
Lemma mselect_eq {X} (m : list bool) (x : list X) : OpsC09.mselect m x = Model.mselect m x.
Proof. revert x. induction m as [|b m IH]; intros [|a x]; cbn; try reflexivity. now rewrite IH. Qed.

Lemma mscatter_eq {X} (m : list bool) (d s : list X) : OpsC09.mscatter m d s = Model.mscatter m d s.
Proof.
  revert d s. induction m as [|b m IH]; intros [|a d] s; cbn; try reflexivity.
  destruct b; [destruct s as [|s0 s]; [reflexivity|]|]; now rewrite IH.
Qed.

Section Cells.
  Context {X : Type}.
  Variable F : nat.
  Definition cellsF (l : list (list X)) : Prop := Forall (fun c => length c = F) l.

  (* a mask over cells, repeated over the F elements of each cell *)
  Definition xpand (m : list bool) : list bool := flat_map (fun b => repeat b F) m.

  Lemma mselect_repeat_app b (c : list X) m x :
    length c = F -> Model.mselect (repeat b F ++ m) (c ++ x) = (if b then c else []) ++ Model.mselect m x.
  Proof.
    intros H. rewrite mselect_app by now rewrite repeat_length.
    destruct b; [rewrite mselect_true by assumption|rewrite mselect_false]; reflexivity.
  Qed.

  Lemma mselect_nil_r (m : list bool) : Model.mselect m (@nil X) = [].
  Proof. destruct m; reflexivity. Qed.

  Lemma mselect_cells m (cells : list (list X)) :
    cellsF cells -> Model.mselect (xpand m) (concat cells) = concat (Model.mselect m cells).
  Proof.
    revert cells. induction m as [|b m IH]; intros cells H; [reflexivity|].
    destruct cells as [|c cells]; [cbn; apply mselect_nil_r|].
    inversion H as [|? ? Hc Hr]; subst. cbn [xpand flat_map concat]. fold (xpand m).
    rewrite mselect_repeat_app by assumption. rewrite IH by assumption. destruct b; reflexivity.
  Qed.

  Lemma cellsF_mselect m (cells : list (list X)) : cellsF cells -> cellsF (Model.mselect m cells).
  Proof.
    revert cells. induction m as [|b m IH]; intros [|c cells] H; cbn; try constructor.
    inversion H; subst. destruct b; [constructor; [assumption|]|]; now apply IH.
  Qed.

  Lemma mscatter_true_app (c s : list X) m d src :
    length c = F -> length s = F ->
    Model.mscatter (repeat true F ++ m) (c ++ d) (s ++ src) = option_map (app s) (Model.mscatter m d src).
  Proof.
    intros Hc Hs. rewrite mscatter_app_exact by (rewrite ?repeat_length, ?count_true_repeat; lia).
    rewrite place_true by assumption. reflexivity.
  Qed.

  Lemma mscatter_false_app (c : list X) m d src :
    length c = F -> Model.mscatter (repeat false F ++ m) (c ++ d) src = option_map (app c) (Model.mscatter m d src).
  Proof.
    intros Hc. change src with ([] ++ src) at 1.
    rewrite mscatter_app_exact by (rewrite ?repeat_length, ?count_true_repeat; cbn; lia).
    rewrite place_false by assumption. reflexivity.
  Qed.

  Lemma mscatter_cells m (dst src : list (list X)) :
    0 < F -> cellsF dst -> cellsF src ->
    Model.mscatter (xpand m) (concat dst) (concat src) = option_map (@concat X) (Model.mscatter m dst src).
  Proof.
    intros HF. revert dst src. induction m as [|b m IH]; intros dst src Hd Hs; [reflexivity|].
    destruct dst as [|c dst]; [cbn [concat Model.mscatter option_map]; now destruct (xpand (b :: m))|].
    inversion Hd as [|? ? Hc Hr]; subst. cbn [xpand flat_map concat]. fold (xpand m).
    destruct b.
    - destruct src as [|s src].
      + cbn [concat Model.mscatter]. destruct F as [|F']; [lia|]. destruct c; [discriminate|]. reflexivity.
      + inversion Hs as [|? ? Hs1 Hs2]; subst. cbn [concat]. rewrite mscatter_true_app by assumption.
        rewrite IH by assumption. cbn [Model.mscatter]. destruct (Model.mscatter m dst src); reflexivity.
    - rewrite mscatter_false_app by assumption. rewrite IH by assumption. cbn [Model.mscatter].
      destruct (Model.mscatter m dst src); reflexivity.
  Qed.

  Lemma cellsF_mscatter m (dst src l : list (list X)) :
    Model.mscatter m dst src = Some l -> cellsF dst -> cellsF src -> cellsF l.
  Proof.
    revert dst src l. induction m as [|b m IH]; intros dst src l E Hd Hs.
    - cbn in E. injection E as <-. constructor.
    - destruct dst as [|c dst]; [cbn in E; injection E as <-; constructor|].
      inversion Hd; subst. cbn in E. destruct b.
      + destruct src as [|s src]; [discriminate|]. inversion Hs; subst.
        destruct (Model.mscatter m dst src) as [l'|] eqn:E'; [|discriminate]. injection E as <-.
        constructor; [assumption|]. eapply IH; eassumption.
      + destruct (Model.mscatter m dst src) as [l'|] eqn:E'; [|discriminate]. injection E as <-.
        constructor; [assumption|]. eapply IH; eassumption.
  Qed.

  Lemma mscatter_length {Y} m (dst src l : list Y) :
    Model.mscatter m dst src = Some l -> length l = Nat.min (length m) (length dst).
  Proof.
    revert dst src l. induction m as [|b m IH]; intros dst src l E; [cbn in E; injection E as <-; reflexivity|].
    destruct dst as [|c dst]; [cbn in E; injection E as <-; reflexivity|]. cbn in E. destruct b.
    - destruct src as [|s src]; [discriminate|].
      destruct (Model.mscatter m dst src) as [l'|] eqn:E'; [|discriminate]. injection E as <-. cbn. now rewrite (IH _ _ _ E').
    - destruct (Model.mscatter m dst src) as [l'|] eqn:E'; [|discriminate]. injection E as <-. cbn. now rewrite (IH _ _ _ E').
  Qed.
End Cells.

Lemma concat_unflatten {Y} n t (l : list Y) : length l = n * t -> concat (unflatten n t l) = l.
Proof.
  revert l. induction n as [|n IH]; intros l H; cbn [unflatten concat].
  - destruct l; [reflexivity|discriminate].
  - rewrite IH by (rewrite skipn_length; lia). apply firstn_skipn.
Qed.

Lemma unflatten_length {Y} n t (l : list Y) : length (unflatten n t l) = n.
Proof. revert l. induction n as [|n IH]; intros l; cbn; [reflexivity|]. now rewrite IH. Qed.

Lemma cellsF_firstn {Y} F k (l : list (list Y)) : cellsF F l -> cellsF F (firstn k l).
Proof.
  revert k. induction l as [|a l IH]; intros k H; [now rewrite firstn_nil|]. destruct k; [constructor|].
  inversion H as [|? ? Ha Hl]. cbn. constructor; [assumption|]. now apply IH.
Qed.

Lemma cellsF_skipn {Y} F k (l : list (list Y)) : cellsF F l -> cellsF F (skipn k l).
Proof.
  revert k. induction l as [|a l IH]; intros k H; [now rewrite skipn_nil|]. destruct k; [assumption|].
  inversion H as [|? ? Ha Hl]. cbn. now apply IH.
Qed.

(* the rows of a reshaped flat list of cells: t cells each, every cell whole *)
Lemma unflatten_wf {Y} F n t (l : list (list Y)) :
  length l = n * t -> cellsF F l -> Forall (fun row => length row = t /\ cellsF F row) (unflatten n t l).
Proof.
  revert l. induction n as [|n IH]; intros l HL HC; cbn [unflatten]; constructor.
  - split; [rewrite firstn_length; lia|now apply cellsF_firstn].
  - apply IH; [rewrite skipn_length; lia|now apply cellsF_skipn].
Qed.

Lemma concat_concat_map {Y} (l : list (list (list Y))) : concat (concat l) = concat (map (@concat Y) l).
Proof. induction l as [|a l IH]; [reflexivity|]. cbn. now rewrite concat_app, IH. Qed.

Lemma tab2_concat {Y} n m (f : nat -> nat -> Y) : tab2 n m f = concat (map (fun i => tab1 m (f i)) (seq 0 n)).
Proof. unfold tab2. apply flat_map_concat_map. Qed.

Lemma concat_flat_map {Y Z0} (g : Z0 -> list (list Y)) l : concat (flat_map g l) = flat_map (fun i => concat (g i)) l.
Proof. induction l as [|a l IH]; [reflexivity|]. cbn. now rewrite concat_app, IH. Qed.

(* the (n, m, k) block = the concatenation of its n*m cells *)
Lemma tab3_cells {Y} n m k (f : nat -> nat -> nat -> Y) :
  tab3 n m k f = concat (tab2 n m (fun i j => tab1 k (f i j))).
Proof.
  unfold tab3, tab2 at 2. rewrite concat_flat_map. apply flat_map_ext. intros i.
  unfold tab2, tab1 at 2. now rewrite <- flat_map_concat_map.
Qed.

Lemma xpand_flat_map F (g : nat -> list bool) l : xpand F (flat_map g l) = flat_map (fun i => xpand F (g i)) l.
Proof. unfold xpand. induction l as [|a l IH]; [reflexivity|]. cbn. now rewrite flat_map_app, IH. Qed.

(* a cell mask expanded over the F features *)
Lemma tab3_xpand n m F (g : nat -> nat -> bool) : tab3 n m F (fun i j _ => g i j) = xpand F (tab2 n m g).
Proof.
  unfold tab3, tab2 at 2. rewrite xpand_flat_map. apply flat_map_ext. intros i.
  unfold tab2, tab1 at 2, xpand. rewrite flat_map_concat_map, flat_map_concat_map, map_map. f_equal.
  apply map_ext. intros j. symmetry. apply repeat_tab1.
Qed.

Lemma cellsF_tab2 {Y} F n m (f : nat -> nat -> list Y) :
  (forall i j, i < n -> j < m -> length (f i j) = F) -> cellsF F (tab2 n m f).
Proof.
  intros H. apply Forall_forall. intros c Hc. unfold tab2 in Hc. apply in_flat_map in Hc as (i & Hi & Hc).
  unfold tab1 in Hc. apply in_map_iff in Hc as (j & <- & Hj). apply in_seq in Hi, Hj. apply H; lia.
Qed.

Lemma existsb_orb {Y} (f g : Y -> bool) l : existsb (fun x => f x || g x) l = existsb f l || existsb g l.
Proof.
  induction l as [|a l IH]; [reflexivity|]. cbn. rewrite IH.
  destruct (f a), (g a), (existsb f l), (existsb g l); reflexivity.
Qed.

Lemma existsb_map {Y Z0} (f : Z0 -> bool) (g : Y -> Z0) l : existsb f (map g l) = existsb (fun x => f (g x)) l.
Proof. induction l as [|a l IH]; [reflexivity|]. cbn. now rewrite IH. Qed.

Lemma existsb_ext_in {Y} (f g : Y -> bool) l : (forall x, List.In x l -> f x = g x) -> existsb f l = existsb g l.
Proof.
  induction l as [|a l IH]; intros H; [reflexivity|]. cbn. rewrite H by now left. rewrite IH; [reflexivity|].
  intros x Hx. apply H. now right.
Qed.

Lemma existsb_false_in {A} (f : A -> bool) l : existsb f l = false -> forall x, List.In x l -> f x = false.
Proof.
  intros H x Hx. destruct (f x) eqn:E; [|reflexivity].
  assert (existsb f l = true) by (apply existsb_exists; eauto). congruence.
Qed.

Lemma match_map_seq {Y W} (g : nat -> Y) n (a b : W) :
  match map g (seq 0 n) with [] => a | _ :: _ => b end = match n with 0 => a | S _ => b end.
Proof. destruct n; reflexivity. Qed.

(* a batch of rows of any type, tabulated: row i is [mk i] *)
Section Rows.
  Context {R : Type}.
  Variables (N F : nat) (mk : nat -> R).
  Notation rows := (map mk (seq 0 N)).

  Lemma concat_rows {Y} (g : R -> list Y) W (h : nat -> nat -> Y) :
    (forall i, i < N -> g (mk i) = tab1 W (h i)) -> concat (map g rows) = tab2 N W h.
  Proof.
    intros H. rewrite map_map, tab2_concat. f_equal. apply map_ext_in. intros i Hi. apply in_seq in Hi.
    apply H. lia.
  Qed.

  (* one flat selection of the source = the concatenated cells of the model's selection *)
  Lemma select_lift_eq W (mb : nat -> nat -> bool) (ef : nat -> nat -> nat -> val)
        (gM : R -> list bool) (gG : R -> list (list val)) (mb' : nat -> nat -> bool) (cf : nat -> nat -> list val) :
    (forall i, i < N -> gM (mk i) = tab1 W (mb' i)) -> (forall i, i < N -> gG (mk i) = tab1 W (cf i)) ->
    (forall i j, i < N -> j < W -> mb i j = mb' i j) ->
    (forall i j, i < N -> j < W -> tab1 F (ef i j) = cf i j) ->
    OpsC09.mselect (tab3 N W F (fun i j _ => mb i j)) (tab3 N W F ef) = concat (select2 (map gM rows) (map gG rows)).
  Proof.
    intros HM HG Hm He. unfold select2. rewrite (concat_rows gM W mb' HM), (concat_rows gG W cf HG).
    assert (HC : cellsF F (tab2 N W cf)).
    { apply cellsF_tab2. intros i j Hi Hj. rewrite <- He by assumption. apply tab1_length. }
    rewrite tab3_xpand, tab3_cells, mselect_eq. rewrite (tab2_ext N W mb mb' Hm).
    rewrite (tab2_ext N W (fun i j => tab1 F (ef i j)) cf He). now apply mselect_cells.
  Qed.

  Lemma select_lift_cells W (gM : R -> list bool) (gG : R -> list (list val)) (cf : nat -> nat -> list val) :
    (forall i, i < N -> gG (mk i) = tab1 W (cf i)) -> (forall i j, i < N -> j < W -> length (cf i j) = F) ->
    cellsF F (select2 (map gM rows) (map gG rows)).
  Proof.
    intros HG Hc. unfold select2. rewrite (concat_rows gG W cf HG). apply cellsF_mselect. now apply cellsF_tab2.
  Qed.

  (* a padding buffer: the mask is "position < n i", as the source writes it on integer tensors *)
  Lemma buffer_lift W (n : nat -> nat) (ef : nat -> nat -> nat -> val)
        (gM : R -> list bool) (gG : R -> list (list val)) (cf : nat -> nat -> list val) :
    (forall i, i < N -> gM (mk i) = tab1 W (fun j => j <? n i)) -> (forall i, i < N -> gG (mk i) = tab1 W (cf i)) ->
    (forall i j, i < N -> j < W -> tab1 F (ef i j) = cf i j) ->
    OpsC09.mselect (tab3 N W F (fun i j _ => (ZI n i >? Z.of_nat j)%Z)) (tab3 N W F ef)
    = concat (select2 (map gM rows) (map gG rows)) /\ cellsF F (select2 (map gM rows) (map gG rows)).
  Proof.
    intros HM HG He. split.
    - apply (select_lift_eq W _ _ _ _ (fun i j => j <? n i) cf HM HG); [intros; unfold ZI; lia|exact He].
    - apply (select_lift_cells W _ _ cf HG). intros i j Hi Hj. rewrite <- He by assumption. apply tab1_length.
  Qed.

  (* one flat scatter of the source = the concatenated cells of the model's scatter, failing together *)
  Lemma scatter_lift W (mb mb' : nat -> nat -> bool) (gM : R -> list bool) (D S : list (list val)) :
    0 < F -> (forall i, i < N -> gM (mk i) = tab1 W (mb' i)) ->
    (forall i j, i < N -> j < W -> mb i j = mb' i j) -> cellsF F D -> cellsF F S ->
    OpsC09.mscatter (tab3 N W F (fun i j _ => mb i j)) (concat D) (concat S)
    = option_map (@concat val) (Model.mscatter (concat (map gM rows)) D S).
  Proof.
    intros HF HM Hm HD HS. rewrite (concat_rows gM W mb' HM), tab3_xpand, mscatter_eq, (tab2_ext N W mb mb' Hm).
    now apply mscatter_cells.
  Qed.

  Lemma mask_rows_length (gM : R -> list bool) W (mb' : nat -> nat -> bool) :
    (forall i, i < N -> gM (mk i) = tab1 W (mb' i)) -> length (concat (map gM rows)) = N * W.
  Proof. intros HM. rewrite (concat_rows gM W mb' HM). apply tab2_length. Qed.

  Lemma padded_rows {Y} (fill : Y) W : concat (repeat (repeat fill W) N) = tab2 N W (fun _ _ => fill).
  Proof.
    rewrite tab2_concat, (repeat_tab1 (repeat fill W) N). unfold tab1 at 1. f_equal. apply map_ext. intros _. apply repeat_tab1.
  Qed.
End Rows.

Section Mod.
  Variables (N T F : nat) (xf : nat -> nat -> nat -> val) (lf pf qf : nat -> nat).

  Definition cell (i j : nat) : list val := tab1 F (xf i j).
  Definition cellsR (i : nat) : list (list val) := tab1 T (cell i).
  Definition mk (i : nat) : prow (list val) := mkProw (cellsR i) (lf i) (pf i) (qf i).
  Definition rowsM : list (prow (list val)) := map mk (seq 0 N).

  Hypothesis HT : forall i, i < N -> lf i <= T.

  Lemma cell_length i j : length (cell i j) = F. Proof. apply tab1_length. Qed.

  Lemma nth_cellsR i k d : k < T -> nth k (cellsR i) d = cell i k.
  Proof. intros H. unfold cellsR. now rewrite nth_tab1. Qed.

  Lemma cells_rows : concat (map p_cells rowsM) = tab2 N T cell.
  Proof. apply concat_rows. reflexivity. Qed.

  Lemma lt_mask_rows (f : prow (list val) -> nat) W :
    concat (lt_mask f W rowsM) = tab2 N W (fun i j => j <? f (mk i)).
  Proof using N T F xf lf pf qf HT. unfold lt_mask. apply concat_rows. reflexivity. Qed.

  Lemma between_mask_rows (lo hi : prow (list val) -> nat) W :
    concat (between_mask lo hi W rowsM) = tab2 N W (fun i j => (j <? hi (mk i)) && negb (j <? lo (mk i))).
  Proof using N T F xf lf pf qf HT. unfold between_mask. apply concat_rows. reflexivity. Qed.

  Lemma lmax_rows : list_max (map p_l rowsM) = lmaxS N pf.
  Proof. unfold rowsM, lmaxS. now rewrite map_map. Qed.
  Lemma rmax_rows : list_max (map p_r rowsM) = rmaxS N qf.
  Proof. unfold rowsM, rmaxS. now rewrite map_map. Qed.

  Lemma le_list_max_map (f : nat -> nat) l i : List.In i l -> f i <= list_max (map f l).
  Proof using N T xf lf pf qf HT. apply list_max_map_in. Qed.

  Lemma refl_bad_model :
    existsb (fun r : prow (list val) => (p_len r <=? p_l r) || (p_len r <=? p_r r)) rowsM = refl_bad N lf pf qf.
  Proof.
    unfold rowsM, refl_bad. rewrite existsb_map. cbn [mk p_len p_l p_r]. rewrite existsb_orb. f_equal;
      apply existsb_ext_in; intros i _; unfold ZI; lia.
  Qed.

  Lemma repl_bad_model : existsb (fun r : prow (list val) => p_len r <? 1) rowsM = repl_bad N lf.
  Proof.
    unfold rowsM, repl_bad. rewrite existsb_map. cbn [mk p_len]. apply existsb_ext_in; intros i _; unfold ZI; lia.
  Qed.

  Lemma refl_ok_of : refl_bad N lf pf qf = false -> forall i, i < N -> pf i < lf i /\ qf i < lf i.
  Proof.
    unfold refl_bad. intros H i Hi. apply orb_false_iff in H as [H1 H2].
    assert (Hin : List.In i (seq 0 N)) by (apply in_seq; lia).
    pose proof (existsb_false_in _ _ H1 i Hin) as A1. pose proof (existsb_false_in _ _ H2 i Hin) as A2.
    cbv beta in A1, A2. unfold ZI in A1, A2. lia.
  Qed.

  Lemma repl_ok_of : repl_bad N lf = false -> forall i, i < N -> 1 <= lf i.
  Proof.
    unfold repl_bad. intros H i Hi. assert (Hin : List.In i (seq 0 N)) by (apply in_seq; lia).
    pose proof (existsb_false_in _ _ H i Hin) as A1. cbv beta in A1. unfold ZI in A1. lia.
  Qed.

  (* the tensor a buffer stands for: x itself in constant mode (never looked at), else the 1-dimensional tensor that
     masked_select returns *)
  Definition bufT (md : mode) (d : list val) : tn val :=
    match md with Constant => mkTn [N; T; F] d | _ => buf d end.

  Lemma dat_bufT md d : dat (bufT md d) = d.
  Proof. destruct md; reflexivity. Qed.

  Definition gpb_rel (md : mode) (m : res (list (list val) * list (list val))) (s : res (tn val * tn val)) : Prop :=
    match m with
    | Ok (l, r) => s = Ok (bufT md (concat l), bufT md (concat r)) /\ cellsF F l /\ cellsF F r
    | ErrValue => s = ErrValue
    | ErrRuntime => s = ErrRuntime
    | ErrNotImpl => s = ErrNotImpl
    end.

  Lemma gpb_rel_ok md sl sr l r :
    md <> Constant -> sl = concat l /\ cellsF F l -> sr = concat r /\ cellsF F r ->
    gpb_rel md (Ok (l, r)) (Ok (buf sl, buf sr)).
  Proof. intros Hm [-> Cl] [-> Cr]. destruct md; try congruence; cbn; auto. Qed.

  Theorem src_gpb_model d md :
    gpb_rel md (get_padding_buffers p_cells p_len p_l p_r T d md rowsM) (src_gpb N T F xf lf pf qf md).
  Proof.
    destruct md; cbn [get_padding_buffers src_gpb].
    - (* constant *)
      assert (cellsF F (concat (map p_cells rowsM))) by (rewrite cells_rows; apply cellsF_tab2; intros; apply cell_length).
      split; [|split; assumption]. unfold xT, bufT. now rewrite cells_rows, tab3_cells.
    - (* reflect *)
      rewrite refl_bad_model. destruct (refl_bad N lf pf qf) eqn:E; [reflexivity|].
      unfold rowsM at 1. rewrite match_map_seq. destruct N as [|N'] eqn:EN; [reflexivity|]. rewrite <- EN in *.
      pose proof (refl_ok_of E) as Hok. rewrite lmax_rows, rmax_rows.
      assert (Hl : lmaxS N pf <= T).
      { apply list_max_map_le. intros i Hi. apply in_seq in Hi. destruct (Hok i); [lia|]. specialize (HT i). lia. }
      assert (Hr : rmaxS N qf <= T).
      { apply list_max_map_le. intros i Hi. apply in_seq in Hi. destruct (Hok i); [lia|]. specialize (HT i). lia. }
      rewrite !firstn_seq, !Nat.min_l by assumption.
      unfold refl_left, refl_right, gt_mask. apply gpb_rel_ok; [discriminate| |].
      + apply (buffer_lift N F mk _ _ _ _ _ (fun i j => cell i (pf i - j))).
        * intros i Hi. cbn [mk p_l]. change (map (fun t => t <? pf i) (seq 0 T)) with (tab1 T (fun t => t <? pf i)).
          now rewrite firstn_tab1, Nat.min_l by assumption.
        * intros i Hi. cbn [mk p_l p_cells]. apply map_ext_in. intros j Hj. apply in_seq in Hj. apply nth_cellsR.
          destruct (Hok i Hi). specialize (HT i Hi). lia.
        * intros i j Hi Hj. unfold cell. apply tab1_ext. intros l Hl0. f_equal. unfold ZI. lia.
      + apply (buffer_lift N F mk _ _ _ _ _ (fun i j => cell i (lf i - j - 2))); [reflexivity| |].
        * intros i Hi. cbn [mk p_len p_cells]. apply map_ext_in. intros j Hj. apply in_seq in Hj. apply nth_cellsR.
          destruct (Hok i Hi). specialize (HT i Hi). lia.
        * intros i j Hi Hj. unfold cell. apply tab1_ext. intros l Hl0. f_equal. unfold ZI. lia.
    - (* replicate *)
      rewrite repl_bad_model. destruct (repl_bad N lf) eqn:E; [reflexivity|].
      unfold rowsM at 1. rewrite match_map_seq. destruct N as [|N'] eqn:EN; [reflexivity|]. rewrite <- EN in *.
      pose proof (repl_ok_of E) as Hok. rewrite lmax_rows, rmax_rows.
      assert (HT1 : 1 <= T) by (specialize (Hok 0); specialize (HT 0); lia).
      rewrite !firstn_seq. rewrite !Nat.min_l by lia.
      unfold repl_left, repl_right, gt_mask. apply gpb_rel_ok; [discriminate| |].
      + apply (buffer_lift N F mk _ _ _ _ _ (fun i _ => cell i 0)); [reflexivity| |reflexivity].
        intros i Hi. cbn [mk p_cells]. rewrite nth_cellsR by lia. apply repeat_tab1.
      + apply (buffer_lift N F mk _ _ _ _ _ (fun i _ => cell i (lf i - 1))); [reflexivity| |].
        * intros i Hi. cbn [mk p_len p_cells]. rewrite nth_cellsR by (specialize (Hok i Hi); specialize (HT i Hi); lia).
          apply repeat_tab1.
        * intros i j Hi Hj. unfold cell. apply tab1_ext. intros l Hl0. f_equal. unfold ZI. specialize (Hok i Hi). lia.
    - reflexivity.
  Qed.

  (* ---- pad_variable after the shape checks ---- *)
  Lemma len_rows : length rowsM = N.
  Proof. unfold rowsM. now rewrite map_length, seq_length. Qed.

  Lemma tp_rows : list_max (map p_new rowsM) = TpS N lf pf qf.
  Proof. unfold rowsM, TpS. now rewrite map_map. Qed.

  Definition pad_rel (m : res (list (list (list val)))) (s : res (list val)) : Prop :=
    match m with
    | Ok out => s = Ok (concat (map (@concat val) out)) /\ length out = N
                /\ Forall (fun row => length row = TpS N lf pf qf /\ cellsF F row) out
    | ErrValue => s = ErrValue
    | ErrRuntime => s = ErrRuntime
    | ErrNotImpl => s = ErrNotImpl
    end.

  Theorem src_pad_model d value md :
    0 < F -> pad_rel (pad_variable_rows T d (repeat value F) md rowsM) (src_pad N T F xf lf pf qf value md).
  Proof.
    intros HF. unfold pad_variable_rows, src_pad.
    pose proof (src_gpb_model d md) as G.
    destruct (get_padding_buffers p_cells p_len p_l p_r T d md rowsM) as [[l r]| | |] eqn:EG; cbn [gpb_rel] in G;
      [|rewrite G; reflexivity ..].
    destruct G as (-> & Cl & Cr). cbn [Model.bind fst snd]. rewrite !dat_bufT.
    unfold rowsM at 1. rewrite match_map_seq.
    destruct N as [|N'] eqn:EN; [reflexivity|]. rewrite <- EN in *.
    rewrite len_rows, tp_rows. set (Tp := TpS N lf pf qf).
    assert (Exs : OpsC09.mselect (tab3 N T F (fun i j _ => zmask (ZI lf) T i j)) (tab3 N T F xf)
                  = concat (select2 (lt_mask p_len T rowsM) (map p_cells rowsM))).
    { unfold lt_mask. apply (select_lift_eq N F mk T _ _ _ _ (fun i j => j <? lf i) cell (fun i _ => eq_refl) (fun i _ => eq_refl)).
      - intros i j Hi Hj. unfold zmask, ZI. lia.
      - intros i j Hi Hj. reflexivity. }
    assert (Cxs : cellsF F (select2 (lt_mask p_len T rowsM) (map p_cells rowsM))).
    { unfold lt_mask. apply (select_lift_cells N F mk T _ _ cell (fun i _ => eq_refl)). intros. apply cell_length. }
    rewrite Exs. set (xs := select2 _ _) in *.
    unfold scatter2.
    assert (ED0 : tab3 N Tp F (fun _ _ _ => value) = concat (concat (repeat (repeat (repeat value F) Tp) N))).
    { rewrite padded_rows, tab3_cells. f_equal. apply tab2_ext. intros. symmetry. apply repeat_tab1. }
    assert (CD0 : cellsF F (concat (repeat (repeat (repeat value F) Tp) N))).
    { rewrite padded_rows. apply cellsF_tab2. intros. apply repeat_length. }
    assert (LD0 : length (concat (repeat (repeat (repeat value F) Tp) N)) = N * Tp).
    { rewrite padded_rows. apply tab2_length. }
    rewrite ED0. set (D0 := concat (repeat _ N)) in *.
    unfold between_mask, lt_mask.
    (* first scatter: the valid part *)
    match goal with |- context [Model.mscatter (concat (map ?g rowsM)) D0 xs] =>
      rewrite (scatter_lift N F mk Tp _ (fun i j => (j <? pf i + lf i) && negb (j <? pf i)) g D0 xs HF (fun i _ => eq_refl))
        by (assumption || (intros i j Hi Hj; unfold zmask, midZ, ZI; lia));
      fold rowsM;
      pose proof (mask_rows_length N mk g Tp _ (fun i _ => eq_refl)) as LM1; fold rowsM in LM1;
      destruct (Model.mscatter (concat (map g rowsM)) D0 xs) as [l1|] eqn:E1
    end; cbn [option_map Model.bind]; [|destruct md; reflexivity].
    pose proof (cellsF_mscatter F _ _ _ _ E1 CD0 Cxs) as C1.
    assert (L1 : length l1 = N * Tp) by (rewrite (mscatter_length _ _ _ _ E1), LM1, LD0; lia).
    destruct md; [| | |discriminate EG].
    1: { (* constant *)
      split; [now rewrite <- concat_concat_map, concat_unflatten by assumption|split; [apply unflatten_length|now apply unflatten_wf]]. }
    (* reflect and replicate: the two buffers are scattered in the same way *)
    all: rewrite concat_unflatten by assumption.
    all: match goal with |- context [Model.mscatter (concat (map ?g rowsM)) ?a ?b] =>
      rewrite (scatter_lift N F mk Tp _ (fun i j => j <? pf i) g a b HF (fun i _ => eq_refl))
        by (assumption || (intros i j Hi Hj; unfold zmask, ZI; lia));
      fold rowsM;
      pose proof (mask_rows_length N mk g Tp _ (fun i _ => eq_refl)) as LM2; fold rowsM in LM2;
      destruct (Model.mscatter (concat (map g rowsM)) a b) as [l2|] eqn:E2
    end; cbn [option_map Model.bind]; [|reflexivity].
    all: pose proof (cellsF_mscatter F _ _ _ _ E2 C1 Cl) as C2.
    all: assert (L2 : length l2 = N * Tp) by (rewrite (mscatter_length _ _ _ _ E2), LM2, L1; lia).
    all: rewrite concat_unflatten by assumption.
    all: match goal with |- context [Model.mscatter (concat (map ?g rowsM)) ?a ?b] =>
      rewrite (scatter_lift N F mk Tp _ (fun i j => (j <? lf i + (pf i + qf i)) && negb (j <? pf i + lf i)) g a b HF (fun i _ => eq_refl))
        by (assumption || (intros i j Hi Hj; unfold zmask, midZ, newZ, ZI; lia));
      fold rowsM;
      pose proof (mask_rows_length N mk g Tp _ (fun i _ => eq_refl)) as LM3; fold rowsM in LM3;
      destruct (Model.mscatter (concat (map g rowsM)) a b) as [l3|] eqn:E3
    end; cbn [option_map Model.bind]; [|reflexivity].
    all: assert (L3 : length l3 = N * Tp) by (rewrite (mscatter_length _ _ _ _ E3), LM3, L2; lia).
    all: pose proof (cellsF_mscatter F _ _ _ _ E3 C2 Cr) as C3.
    all: split; [now rewrite <- concat_concat_map, concat_unflatten by assumption|split; [apply unflatten_length|now apply unflatten_wf]].
  Qed.
End Mod.
