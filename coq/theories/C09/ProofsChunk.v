(* C09 — chunk_by_slices over a batch. *)
From Coq Require Import List Arith Bool Lia ZArith ZifyBool ZifyNat.
From PV Require Import C09.Model C09.Spec C09.Proofs C09.Buffers C09.ProofsPad C09.ChunkRow.
Import ListNotations.
Local Open Scope nat_scope.

Section ScatterAt.
  Context {A R : Type}.

  (* scatter into an arbitrary row of width W at positions [a, a+n) *)
  Lemma scatter2_at (rows : list R) (phi : R -> nat -> bool) W (a n : R -> nat) (dst buf : R -> list A) :
    (forall r, In r rows -> length (dst r) = W /\ a r + n r <= W /\ length (buf r) = n r /\
                            forall t, t < W -> phi r t = (a r <=? t) && (t <? a r + n r)) ->
    scatter2 (length rows) W (map (fun r => map (phi r) (seq 0 W)) rows) (map dst rows)
             (concat (map buf rows))
    = Ok (map (fun r => firstn (a r) (dst r) ++ buf r ++ skipn (n r) (skipn (a r) (dst r))) rows).
  Proof.
    intros H.
    apply (scatter2_seg rows phi W dst _ (fun r => firstn (n r) (skipn (a r) (dst r)))).
    intros r Hr. destruct (H r Hr) as (H1 & H2 & H3 & H4). split; [now rewrite !firstn_skipn|].
    rewrite !firstn_length, !skipn_length. split; [lia|]. split; [lia|].
    unfold seg_mask. intros t Ht. rewrite !firstn_length, skipn_length, H4 by assumption. lia.
  Qed.
End ScatterAt.

Section ChunkProofs.
  Context {A : Type}.
  Notation crow := (crow A).
  Variable fill : A.
  Variable md : mode.

  Definition c_seq (r : crow) : list A := firstn (c_len r) (c_cells r).
  Definition c_ok (T : nat) (rows : list crow) : Prop :=
    rows_ok c_cells c_len c_lp c_rp T md rows.
  Definition c_Tp (rows : list crow) : nat :=
    Nat.max (Nat.max (list_max (map c_lp rows)) (list_max (map c_chunk rows)))
            (list_max (map c_rp rows)).
  Definition c_X (r : crow) : list A :=
    firstn (c_slice r) (skipn (Z.to_nat (c_start_ r)) (c_cells r)).
  (* the number of cells the reflect special case moves *)
  Definition c_k (r : crow) : nat :=
    if c_keep r && (c_offset r <=? c_rp r) then c_rp r - c_offset r else 0.
  Definition c_LB (r : crow) : list A := lpart md fill (c_lp r) (c_seq r).
  Definition c_RB (r : crow) : list A := rpart md fill (c_rp r) (c_seq r).

  Section WithRows.
    Variable rows : list crow.
    Variable T : nat.
    Notation Tp := (c_Tp rows).

    Definition c_Z (r : crow) : list A := repeat fill (Tp - c_right r).
    Definition c_row2 (r : crow) : list A := (c_LB r ++ repeat fill (c_slice r)) ++ c_RB r ++ c_Z r.
    Definition c_row3 (r : crow) : list A :=
      [] ++ skipn (c_rp r - c_k r) (c_RB r) ++ skipn (c_k r) (c_row2 r).
    Definition c_out (r : crow) : list A :=
      match md with
      | Reflect => firstn (c_lp r) (c_row3 r) ++ c_X r ++ skipn (c_slice r) (skipn (c_lp r) (c_row3 r))
      | _ => c_LB r ++ c_X r ++ (c_RB r ++ c_Z r)
      end.

    Lemma c_spec (r : crow) :
      ((c_end r <= c_start r)%Z /\ c_lp r = 0 /\ c_rp r = 0 /\ c_chunk r = 0) \/
      ((c_start r < c_end r)%Z /\ c_lp r = Z.to_nat (- c_start r)
       /\ c_rp r = Z.to_nat (c_end r - Z.of_nat (c_len r))
       /\ c_chunk r = Z.to_nat (c_end r - c_start r)).
    Proof.
      unfold c_lp, c_rp, c_empty. destruct (Nat.eqb_spec (c_chunk r) 0) as [E|E]; unfold c_chunk in *.
      - left. lia.
      - right. lia.
    Qed.

    Ltac crow r :=
      let H := fresh "Hspec" in
      pose proof (c_spec r) as H;
      unfold c_k, c_keep, c_rp', c_right, c_mid, c_slice, c_offset, c_start_, c_end_ in *;
      destruct H as [(? & ? & ? & ?) | (? & ? & ? & ?)].

    (* a row whose start lies behind its length has nothing to select and no left pad *)
    Lemma c_keep_mid (r : crow) : c_keep r = true -> c_mid r = 0.
    Proof. intros Hk. crow r; lia. Qed.

    Hypothesis Hne : rows <> [].
    Hypothesis Hok : c_ok T rows.

    Lemma c_in_bounds r : In r rows -> c_lp r <= Tp /\ c_chunk r <= Tp /\ c_rp r <= Tp /\ c_right r <= Tp.
    Proof.
      intros Hr.
      pose proof (list_max_map_in c_lp rows r Hr). pose proof (list_max_map_in c_chunk rows r Hr).
      pose proof (list_max_map_in c_rp rows r Hr). unfold c_Tp.
      repeat split; try lia. destruct (Hok r Hr) as (_ & HlenT & _).
      crow r; lia.
    Qed.

    Lemma c_seq_length r : In r rows -> length (c_seq r) = c_len r.
    Proof. intros Hr. apply (seqf_length c_cells c_len c_lp c_rp T md rows r Hok Hr). Qed.

    Lemma c_X_length r : In r rows -> length (c_X r) = c_slice r.
    Proof.
      intros Hr. destruct (Hok r Hr) as (Hc & HlenT & _). unfold c_X.
      rewrite firstn_length, skipn_length, Hc. unfold c_slice, c_start_, c_end_; lia.
    Qed.

    Lemma c_X_in_seq r :
      In r rows -> c_X r = firstn (c_slice r) (skipn (Z.to_nat (c_start_ r)) (c_seq r)).
    Proof.
      intros Hr. destruct (Hok r Hr) as (Hc & HlenT & _). unfold c_X, c_seq.
      apply selected_in_seq. unfold c_slice, c_start_, c_end_; lia.
    Qed.

    Lemma c_md : md <> OtherMode.
    Proof. exact (rows_ok_mode _ _ _ _ T md rows Hne Hok).
    Qed.

    Lemma c_LB_length r : In r rows -> length (c_LB r) = c_lp r.
    Proof.
      intros Hr. destruct (Hok r Hr) as (_ & _ & Hl).
      apply (lpart_length md fill (c_lp r) (c_rp r)). now rewrite c_seq_length.
    Qed.

    Lemma c_RB_length r : In r rows -> length (c_RB r) = c_rp r.
    Proof.
      intros Hr. destruct (Hok r Hr) as (_ & _ & Hl).
      apply (rpart_length md fill (c_lp r) (c_rp r)). now rewrite c_seq_length.
    Qed.

    Lemma c_buffers_ok d :
      exists bufs, get_padding_buffers c_cells c_len c_lp c_rp T d md rows = Ok bufs /\
                   (md <> Constant -> bufs = (concat (map c_LB rows), concat (map c_RB rows))).
    Proof. apply padding_buffers_ok; assumption.
    Qed.

    Lemma c_row2_length r : In r rows -> length (c_row2 r) = Tp.
    Proof.
      intros Hr. destruct (c_in_bounds r Hr) as (? & ? & ? & ?).
      unfold c_row2, c_Z. rewrite !app_length, !repeat_length, c_LB_length, c_RB_length by assumption.
      unfold c_right in *. lia.
    Qed.

    Lemma c_k_le r : c_k r <= c_rp r.
    Proof. unfold c_k. destruct (c_keep r && (c_offset r <=? c_rp r)); lia. Qed.

    Lemma c_row3_length r : In r rows -> length (c_row3 r) = Tp.
    Proof.
      intros Hr. destruct (c_in_bounds r Hr) as (? & ? & ? & ?). pose proof (c_k_le r).
      unfold c_row3. cbn [app]. rewrite app_length, !skipn_length, c_row2_length, c_RB_length by assumption.
      lia.
    Qed.

    (* what chunk_rows computes, row by row *)
    Theorem chunk_rows_eq d :
      chunk_rows T d fill md rows = Ok (map c_out rows, map c_chunk rows).
    Proof.
      destruct (c_buffers_ok d) as (bufs & Hb & Hbufs).
      unfold chunk_rows, c_out.
      destruct (Nat.eqb_spec (length rows) 0) as [E|_].
      { apply length_zero_iff_nil in E. contradiction. }
      rewrite Hb. cbn [bind]. cbv zeta. fold Tp.
      (* the selected cells *)
      rewrite (select2_seg rows (fun r t => (c_start r <=? Z.of_nat t)%Z && (Z.of_nat t <? c_end_ r)%Z) T c_cells
                 (fun r => firstn (Z.to_nat (c_start_ r)) (c_cells r)) c_X
                 (fun r => skipn (c_slice r) (skipn (Z.to_nat (c_start_ r)) (c_cells r)))).
      2:{ intros r Hr. destruct (Hok r Hr) as (Hc & HlenT & _). pose proof (c_X_length r Hr) as HX.
          split; [unfold c_X; now rewrite !firstn_skipn|].
          rewrite HX, firstn_length, !skipn_length, Hc. split.
          - unfold c_slice, c_start_, c_end_; lia.
          - unfold seg_mask. intros t Ht. rewrite HX, firstn_length, Hc. unfold c_slice, c_start_, c_end_; lia. }
      pose proof c_md as Hmd.
      rewrite repeat_map_const.
      destruct (mode_eq_constant md) as [Ec | Hnc].
      - (* constant *)
        rewrite Ec. cbn [bind].
        rewrite (scatter2_between rows c_lp c_mid Tp _ (fun r => repeat fill (c_lp r)) (fun r => repeat fill (c_slice r))
                   (fun r => repeat fill (Tp - c_mid r)) c_X).
        2:{ intros r Hr. destruct (c_in_bounds r Hr) as (? & ? & ? & ?). pose proof (c_X_length r Hr).
            rewrite !repeat_length. unfold c_right, c_mid in *. split; [|lia]. rewrite <- !repeat_app. f_equal. lia. }
        cbn [bind]. f_equal. f_equal. apply map_ext_in. intros r Hr.
        destruct (c_in_bounds r Hr) as (? & ? & ? & ?).
        unfold c_LB, c_RB, c_Z. rewrite Ec. cbn [lpart rpart]. do 2 f_equal.
        rewrite <- repeat_app. f_equal. unfold c_right, c_mid in *. lia.
      - rewrite (Hbufs Hnc). cbn [fst snd]. rewrite match_not_constant by assumption.
        (* left buffer *)
        rewrite (scatter2_lt rows c_lp Tp _ (fun r => repeat fill (c_lp r)) (fun r => repeat fill (Tp - c_lp r)) c_LB).
        2:{ intros r Hr. destruct (c_in_bounds r Hr) as (? & ? & ? & ?). pose proof (c_LB_length r Hr).
            rewrite !repeat_length. split; [|lia]. rewrite <- repeat_app. f_equal. lia. }
        cbn [bind].
        (* right buffer *)
        rewrite (scatter2_between rows c_mid c_right Tp _ (fun r => c_LB r ++ repeat fill (c_slice r))
                   (fun r => repeat fill (c_rp r)) c_Z c_RB).
        2:{ intros r Hr. destruct (c_in_bounds r Hr) as (? & ? & ? & ?).
            pose proof (c_LB_length r Hr). pose proof (c_RB_length r Hr).
            unfold c_Z. rewrite !app_length, !repeat_length. unfold c_right, c_mid in *. split; [|lia].
            rewrite <- !app_assoc. f_equal. rewrite <- !repeat_app. f_equal. lia. }
        cbn [bind]. fold c_row2.
        destruct md eqn:Emd; try congruence.
        + (* reflect: the special case *)
          cbn [bind].
          rewrite (select2_seg rows
                     (fun r t => ((t <? c_right r) && negb (t <? c_mid r)) && (c_mid r + c_offset r <=? t)
                                 && c_keep r) Tp c_row2
                     (fun r => (c_LB r ++ repeat fill (c_slice r)) ++ firstn (c_rp r - c_k r) (c_RB r))
                     (fun r => skipn (c_rp r - c_k r) (c_RB r)) c_Z).
          2:{ intros r Hr. destruct (c_in_bounds r Hr) as (? & ? & ? & ?).
              pose proof (c_LB_length r Hr). pose proof (c_RB_length r Hr). pose proof (c_k_le r).
              split; [unfold c_row2; rewrite <- !app_assoc; do 2 f_equal; now rewrite app_assoc, firstn_skipn|].
              unfold c_Z. rewrite !app_length, firstn_length, skipn_length, !repeat_length.
              unfold c_right, c_mid in *. split; [lia|].
              unfold seg_mask. intros t Ht. cbn beta.
              rewrite !app_length, firstn_length, skipn_length, !repeat_length.
              unfold c_k in *. destruct (c_keep r && (c_offset r <=? c_rp r)) eqn:Ek; lia. }
          rewrite (scatter2_seg rows
                     (fun r t => ((Z.of_nat t <? c_rp' r)%Z && c_keep r) && negb (t <? c_mid r)) Tp c_row2
                     (fun _ => []) (fun r => firstn (c_k r) (c_row2 r)) (fun r => skipn (c_k r) (c_row2 r))
                     (fun r => skipn (c_rp r - c_k r) (c_RB r))).
          2:{ intros r Hr. destruct (c_in_bounds r Hr) as (? & ? & ? & ?).
              pose proof (c_RB_length r Hr). pose proof (c_k_le r). pose proof (c_row2_length r Hr).
              destruct (Hok r Hr) as (_ & HlenT & _). split; [cbn [app]; now rewrite firstn_skipn|].
              rewrite firstn_length, !skipn_length. cbn [length]. split; [lia|]. split; [lia|].
              unfold seg_mask. intros t Ht. cbn beta. rewrite firstn_length. cbn [length].
              pose proof (c_keep_mid r). unfold c_k, c_rp', c_keep in *.
              destruct ((0 <? c_offset r) && (c_offset r <=? c_rp r)) eqn:Ek; lia. }
          cbn [bind]. fold c_row3.
          unfold between_mask.
          rewrite (scatter2_at rows (fun r t => (t <? c_mid r) && negb (t <? c_lp r)) Tp c_lp c_slice c_row3 c_X).
          2:{ intros r Hr. destruct (c_in_bounds r Hr) as (? & ? & ? & ?).
              rewrite c_row3_length, c_X_length by assumption. unfold c_right, c_mid in *.
              repeat split; try lia. }
          cbn [bind]. reflexivity.
        + (* replicate *)
          cbn [bind].
          rewrite (scatter2_between rows c_lp c_mid Tp c_row2 c_LB (fun r => repeat fill (c_slice r))
                     (fun r => c_RB r ++ c_Z r) c_X).
          2:{ intros r Hr. destruct (c_in_bounds r Hr) as (? & ? & ? & ?).
              pose proof (c_LB_length r Hr). pose proof (c_RB_length r Hr). pose proof (c_X_length r Hr).
              unfold c_Z. rewrite !app_length, !repeat_length. unfold c_right, c_mid in *. split; [|lia].
              unfold c_row2. now rewrite <- !app_assoc. }
          cbn [bind]. reflexivity.
    Qed.

    (* every row, cut at the reported length, is the slice of the padded sequence *)
    Theorem c_out_correct r :
      In r rows ->
      firstn (c_chunk r) (c_out r) = chunk1 md fill (c_seq r) (c_start r) (c_end r)
      /\ length (c_out r) = Tp /\ c_chunk r <= Tp.
    Proof.
      intros Hr. pose proof c_md as Hmd.
      destruct (c_in_bounds r Hr) as (HlpT & HchT & HrpT & HrT).
      pose proof (c_LB_length r Hr) as HLB. pose proof (c_RB_length r Hr) as HRB.
      pose proof (c_X_length r Hr) as HX. pose proof (c_seq_length r Hr) as Hs.
      pose proof (c_row3_length r Hr) as H3. pose proof (c_row2_length r Hr) as H2.
      destruct (Hok r Hr) as (Hc & HlenT & Hleg).
      split; [|split; [|assumption]].
      2:{ unfold c_out. destruct md; try congruence.
          - unfold c_Z. rewrite !app_length, repeat_length, HLB, HRB, HX. unfold c_right in *. lia.
          - rewrite !app_length, firstn_length, !skipn_length, H3, HX. unfold c_right in *. lia.
          - unfold c_Z. rewrite !app_length, repeat_length, HLB, HRB, HX. unfold c_right in *. lia. }
      destruct (c_spec r) as [(Hemp & E1 & E2 & E3) | (Hnon & E1 & E2 & E3)].
      { (* empty or inverted slice *)
        rewrite E3. unfold chunk1. destruct (Z.leb_spec (c_end r) (c_start r)); [reflexivity|lia]. }
      assert (Hplain : (c_start r <= Z.of_nat (c_len r))%Z \/ md <> Reflect ->
                       firstn (c_chunk r) (c_LB r ++ c_X r ++ c_RB r ++ c_Z r)
                       = chunk1 md fill (c_seq r) (c_start r) (c_end r)).
      { intros Hcase. rewrite E3.
        apply (row_plain md fill (c_seq r) (c_LB r) (c_RB r) (c_X r) (c_Z r)); try assumption.
        - unfold c_LB. now rewrite E1.
        - unfold c_RB. now rewrite E2, Hs.
        - now rewrite HLB, E1.
        - now rewrite HRB, E2, Hs.
        - rewrite Hs. apply (c_X_in_seq r Hr).
        - rewrite Hs. destruct Hcase as [Hin | Hnr]; [now left|right].
          unfold c_RB. rewrite <- E2. destruct md; try congruence; eexists; reflexivity. }
      unfold c_out. destruct md eqn:Emd; try congruence.
      - apply Hplain. right. discriminate.
      - (* reflect *)
        destruct (Z_le_gt_dec (c_start r) (Z.of_nat (c_len r))) as [Hin | Hout].
        + (* not moved: k = 0 and the row is the plain one *)
          assert (Hk : c_k r = 0).
          { unfold c_k, c_keep. replace (c_offset r) with 0 by (unfold c_offset, c_start_; lia). reflexivity. }
          unfold c_row3. rewrite Hk, Nat.sub_0_r. cbn [skipn app].
          rewrite skipn_all2 by lia. cbn [app].
          unfold c_row2. rewrite <- !app_assoc.
          rewrite (firstn_app_exact (c_LB r)) by lia. rewrite (skipn_app_exact (c_LB r)) by lia.
          rewrite (skipn_app_exact (repeat fill (c_slice r))) by (now rewrite repeat_length).
          apply Hplain. now left.
        + (* moved *)
          assert (Hlp0 : c_lp r = 0) by lia.
          assert (Hsl0 : c_slice r = 0) by (unfold c_slice, c_start_, c_end_; lia).
          assert (Hk : c_k r = c_chunk r /\ c_rp r - c_k r = c_offset r).
          { assert (Ho : c_offset r = Z.to_nat (c_start r - Z.of_nat (c_len r))) by (unfold c_offset, c_start_; lia).
            unfold c_k, c_keep. replace ((0 <? c_offset r) && (c_offset r <=? c_rp r)) with true by lia. lia. }
          destruct Hk as (Hk1 & Hk2).
          assert (c_LB r = []) as HLnil by (apply length_zero_iff_nil; lia).
          assert (c_X r = []) as HXnil by (apply length_zero_iff_nil; lia).
          rewrite Hlp0, Hsl0, HXnil. cbn [firstn skipn app].
          unfold c_row3, c_row2. rewrite HLnil, Hsl0, Hk2, Hk1. cbn [repeat app].
          rewrite E3. unfold c_offset, c_start_.
          replace (Z.to_nat (Z.max (c_start r) 0 - Z.of_nat (c_len r)))
            with (Z.to_nat (c_start r - Z.of_nat (length (c_seq r)))) by lia.
          apply (row_moved fill (c_seq r) (c_RB r) (c_Z r)); try lia.
          unfold c_RB. now rewrite Emd, E2, Hs.
      - apply Hplain. right. discriminate.
    Qed.
  End WithRows.
End ChunkProofs.
