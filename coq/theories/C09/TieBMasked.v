(* C09, second tie — symbolic run of `pad_masked_sequence` (PV.Gen.C09BSrc.masked_body) under SrcRunB.ext09b: on tabulated
   tensors of ANY sizes the interpreter returns exactly TieBSrc.src_masked_flat (the one masked_scatter of the selected
   elements), for both settings of batch_first. *)
From Coq Require Import ZArith List String Bool Arith Lia ZifyBool ZifyNat.
From PV Require Import MiniPy.Syntax MiniPy.Interp MiniPy.Lemmas MiniTorch.Ops MiniTorch.OpsC09 MiniTorch.LemmasC09 MiniTorch.OpsC09B
  MiniTorch.LemmasC09B Gen.C09Src Gen.C09BSrc.
From PV Require Import C09.SrcRun C09.SrcRunB C09.TieSrc C09.TieBSrc C09.TieTac C09.TieBTac.
From PV Require C09.Model.
Import ListNotations.
Local Open Scope string_scope.

Lemma masked_run_bf N T F xf mf value :
  exists st,
    Interp.run ext09b masked_body
      (masked_vars (enc_p (mkTn [N; T; F] (tab3 N T F xf))) (enc_b (mkTn [N; T] (tab2 N T mf))) true value)
    = match src_masked_flat N T F xf mf value with
      | Some l => Ok (VTuple [enc_p (mkTn [N; T; F] l); enc_i (mkTn [N] (tab1 N (mlensZ T mf)))]) st
      | None => Exc runtime_error st
      end.
Proof.
  unfold Interp.run, masked_body, masked_vars.
  do 8 (erewrite exec_seq_ok by run_stmt).
  rewrite exec_seq. erewrite ex_assign by ev_top.
  unfold src_masked_flat, mlensZ.
  scatter_cases p1; [|eexists; reflexivity].
  norm_st.
  erewrite exec_seq_ok by run_stmt. erewrite ex_return by ev_top. eexists. reflexivity.
Qed.

(* batch_first = False: x is (T, N, F), mask (T, N); both are transposed first and the result is transposed back *)
Lemma masked_run_nbf N T F xf mf value :
  exists st,
    Interp.run ext09b masked_body
      (masked_vars (enc_p (mkTn [T; N; F] (tab3 T N F xf))) (enc_b (mkTn [T; N] (tab2 T N mf))) false value)
    = match src_masked_flat N T F (fun i j l => xf j i l) (fun i j => mf j i) value with
      | Some l => Ok (VTuple [enc_p (mkTn [T; N; F] (tab3 T N F (fun j i k => at3 VNone T F l i j k)));
                              enc_i (mkTn [N] (tab1 N (mlensZ T (fun i j => mf j i))))]) st
      | None => Exc runtime_error st
      end.
Proof.
  unfold Interp.run, masked_body, masked_vars.
  do 8 (erewrite exec_seq_ok by run_stmt).
  rewrite exec_seq. erewrite ex_assign by ev_top.
  unfold src_masked_flat, mlensZ.
  scatter_cases p1; [|eexists; reflexivity].
  norm_st.
  (* the scattered buffer, read back as a table, so that the final transpose is one of a tabulated tensor *)
  assert (L1 : List.length p1 = (N * (T * F))%nat).
  { match goal with E : mscatter _ _ _ = Some p1 |- _ => rewrite (mscatter_length_le _ _ _ _ E), !tab3_length end. lia. }
  pose proof (tab3_of_list VNone N T F p1 L1) as EP.
  set (g := fun i j c => at3 VNone T F p1 i j c) in EP. clearbody g. subst p1.
  replace (tab3 T N F (fun j i k => at3 VNone T F (tab3 N T F g) i j k)) with (tab3 T N F (fun j i k => g i j k))
    by (apply tab3_ext; intros; now rewrite at3_tab3).
  erewrite exec_seq_ok by run_stmt. erewrite ex_return by ev_top. eexists. reflexivity.
Qed.
