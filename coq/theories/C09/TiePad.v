(* C09 — run of `pad_variable` (PV.Gen.C09Src.pad_variable_body) under SrcRun.ext09, whose call of
   `_get_padding_buffers` interprets the other translated body (TieGpb.gpb_any): on tabulated tensors of any sizes the
   interpreter returns exactly TieSrc.src_pad, raising ValueError on the two shape checks. *)
From Coq Require Import ZArith List String Bool Arith Lia ZifyBool ZifyNat.
From PV Require Import MiniPy.Syntax MiniPy.Interp MiniPy.Lemmas MiniTorch.Ops MiniTorch.OpsC09 MiniTorch.LemmasC09 Gen.C09Src.
From PV Require Import C09.SrcRun C09.TieSrc C09.TieTac C09.TieGpb.
From PV Require C09.Model.
Import ListNotations.
Local Open Scope string_scope.

Definition padT Np (pf qf : nat -> nat) : tn Z :=
  mkTn [2%nat; Np] (tab2 2 Np (fun r i => if (r =? 0)%nat then ZI pf i else ZI qf i)).

Definition out_pad (N Tp F : nat) (r : Model.res (list val)) (st : state) : outcome val :=
  match r with
  | Model.Ok l => Ok (enc_p (mkTn [N; Tp; F] l)) st
  | Model.ErrValue => Exc value_error st
  | Model.ErrRuntime => Exc runtime_error st
  | Model.ErrNotImpl => Exc not_implemented_error st
  end.

Lemma max_all_nat_pos n a g :
  n <> 0%nat -> (forall i, (i < n)%nat -> a i = Z.of_nat (g i)) ->
  max_all (mkTn [n] (tab1 n a)) = Some (mkTn [] [Z.of_nat (list_max (map g (seq 0 n)))]).
Proof. intros Hn H. rewrite (max_all_nat n a g H). now destruct n. Qed.

(* the environment of this unit: its own call interprets the other body (left folded), the rest is ext09g *)
Ltac extsel ::=
  lazy [ext09 builtin is String.append String.eqb Ascii.eqb Bool.eqb];
  lazymatch goal with
  | |- context [Interp.run] => idtac
  | _ => lazy [ext09g getitem is String.eqb Ascii.eqb Bool.eqb]
  end.
Ltac ostep_unit ::=
  match goal with
  | H : Interp.run ext09g gpb_body ?a = _ |- context [Interp.run ext09g gpb_body ?b] => change b with a; rewrite H
  | |- context [max_all (mkTn [?n] (tab1 ?n (fun i => (ZI ?l i + (ZI ?p i + (ZI ?q i + 0)))%Z)))] =>
      rewrite (max_all_nat_pos n _ (newf l p q)) by (assumption || (intros; unfold ZI, newf; lia))
  end.

Lemma pad_run N Nl Np T F xf lf pf qf value md :
  (forall i, (i < N)%nat -> (lf i <= T)%nat) ->
  exists st,
    Interp.run ext09 pad_variable_body
      (pv_vars (enc_p (xT N T F xf)) (enc_i (lensT Nl lf)) (enc_i (padT Np pf qf)) (mode_val md) value)
    = if (Nl =? N)%nat && (Np =? N)%nat
      then out_pad N (TpS N lf pf qf) F (src_pad N T F xf lf pf qf value md) st
      else Exc value_error st.
Proof.
  intros HT.
  destruct (gpb_any N T F xf lf pf qf md HT) as [stg Eg].
  unfold gvars, gpb_vars, xT, lensT in Eg.
  unfold Interp.run at 1. unfold pad_variable_body, pv_vars, xT, lensT, padT. hide_tail 18%nat.
  erewrite exec_seq_ok by run_stmt.
  erewrite exec_seq_ok by run_stmt.
  erewrite exec_seq_ok by run_stmt.
  destruct (Nat.eqb_spec Nl N) as [->|HNl].
  2:{ assert (Hne : (Z.of_nat Nl =? Z.of_nat N)%Z = false) by lia.
      erewrite exec_seq_exc by run_stmt. eexists. reflexivity. }
  erewrite exec_seq_ok by run_stmt.
  destruct (Nat.eqb_spec Np N) as [->|HNp].
  2:{ assert (Hne : (Z.of_nat Np =? Z.of_nat N)%Z = false) by lia.
      erewrite exec_seq_exc by run_stmt. eexists. reflexivity. }
  erewrite exec_seq_ok by run_stmt.
  cbn [andb].
  erewrite exec_seq_ok by run_stmt.
  erewrite exec_seq_ok by run_stmt.
  unfold src_pad.
  destruct (src_gpb N T F xf lf pf qf md) as [[lb rb]| | |] eqn:Eb; cbn [out_gpb Model.bind fst snd] in *.
  2-4: (erewrite exec_seq_exc by (eapply exec_seq_exc; run_stmt); eexists; reflexivity).
  erewrite exec_seq_ok by run_stmt.
  erewrite exec_seq_ok by run_stmt.
  destruct (Nat.eq_dec N 0) as [->|HN].
  { erewrite exec_seq_exc by
      (etransitivity;
       [eapply ex_assign, ev_call_exc, ev_tuple_exc;
        [eapply ev_meth_exc; etransitivity; [eapply ev_meth_ext; [ev | ev | reflexivity] | extcall] | exact I]
       | reflexivity]).
    eexists. reflexivity. }
  erewrite exec_seq_ok by run_stmt.
  do 7 (erewrite exec_seq_ok by run_stmt).
  subst rest. unfold zmask, midZ, newZ, TpS.
  rewrite exec_seq. erewrite ex_assign by ev_top.
  scatter_cases p1.
  2:{ destruct N; [congruence|]. eexists. reflexivity. }
  norm_st.
  destruct md; [| | |discriminate Eb].
  - erewrite exec_seq_ok by run_stmt. erewrite ex_return by ev_top.
    destruct N; [congruence|]. eexists. reflexivity.
  - rewrite exec_seq. (erewrite ex_if by ev_top; decide_test).
    rewrite exec_seq. erewrite ex_assign by ev_top.
    scatter_cases p2.
    2:{ destruct N; [congruence|]. eexists. reflexivity. }
    norm_st. erewrite ex_assign by ev_top.
    scatter_cases p3.
    2:{ destruct N; [congruence|]. eexists. reflexivity. }
    norm_st. erewrite ex_return by ev_top.
    destruct N; [congruence|]. eexists. reflexivity.
  - rewrite exec_seq. (erewrite ex_if by ev_top; decide_test).
    rewrite exec_seq. erewrite ex_assign by ev_top.
    scatter_cases p2.
    2:{ destruct N; [congruence|]. eexists. reflexivity. }
    norm_st. erewrite ex_assign by ev_top.
    scatter_cases p3.
    2:{ destruct N; [congruence|]. eexists. reflexivity. }
    norm_st. erewrite ex_return by ev_top.
    destruct N; [congruence|]. eexists. reflexivity.
Qed.
