(* C09 — tie between the Python text of `_get_padding_buffers` / `pad_variable` (src/pydrobert/torch/_pad.py) and
   PV.C09.Model, checked by the kernel.  PV.Gen.C09Src.gpb_body / pad_variable_body are the MiniPy terms that
   harness/py2coq/translate.py regenerates from /repo on every run; PV.MiniPy.Interp is their semantics; the torch calls
   mean what PV.MiniTorch.OpsC09 says (through SrcRun.ext09g / ext09).  The theorems: for EVERY batch x of N rows of T
   cells of F payload values (F >= 1, any values), every lens <= T, every pad amounts, every mode and fill value,
   interpreting the source returns exactly the model's result - the (N, T', F) tensor of the model's rows, the two flat
   buffers - and raises ValueError / RuntimeError / NotImplementedError exactly where the model reports them.
   TieGpb.v / TiePad.v: symbolic run on tabulated tensors;  TieModel.v: the resulting list functions are the model's.
   If the source is edited so that this stops being true, these files stop compiling and the C09 check reports the
   broken obligation. *)
From Coq Require Import ZArith List Bool Arith Lia ZifyBool ZifyNat.
From Coq Require String.
From PV Require Import MiniPy.Syntax MiniPy.Interp MiniTorch.Ops MiniTorch.OpsC09 MiniTorch.LemmasC09 Gen.C09Src.
From PV Require Import C09.SrcRun C09.TieSrc C09.TieGpb C09.TiePad C09.TieModel.
From PV Require Import C09.Model C09.Spec C09.Proofs C09.Buffers C09.ProofsPad.
Import ListNotations.
Local Open Scope nat_scope.

(* x has rows of T cells of F values *)
Definition wf_x (T F : nat) (x : list (list (list val))) : Prop :=
  Forall (fun row => List.length row = T /\ Forall (fun c => List.length c = F) row) x.

Definition xfun (x : list (list (list val))) (i j l : nat) : val := nth l (nth j (nth i x []) []) VNone.
Definition nfun (l : list nat) (i : nat) : nat := nth i l 0.

Lemma tab1_of_list {Y} (l : list Y) d : l = tab1 (List.length l) (fun i => nth i l d).
Proof.
  apply (nth_ext _ _ d d); [now rewrite tab1_length|]. intros i Hi. now rewrite nth_tab1.
Qed.

Lemma wf_row T F x i : wf_x T F x -> i < List.length x -> nth i x [] = tab1 T (fun j => tab1 F (xfun x i j)).
Proof.
  intros H Hi. unfold wf_x in H. rewrite Forall_forall in H. destruct (H (nth i x [])) as [HT HF]; [now apply nth_In|].
  rewrite (tab1_of_list (nth i x []) []) at 1. rewrite HT. apply tab1_ext. intros j Hj.
  rewrite Forall_forall in HF. assert (HC : List.length (nth j (nth i x []) []) = F) by (apply HF; apply nth_In; lia).
  rewrite (tab1_of_list (nth j (nth i x []) []) VNone) at 1. now rewrite HC.
Qed.

Lemma x_tensor_tab T F x : wf_x T F x -> x_tensor T F x = xT (List.length x) T F (xfun x).
Proof.
  intros H. unfold x_tensor, xT. f_equal. rewrite (tab1_of_list x []) at 1. rewrite map_tab1. unfold tab3.
  rewrite flat_map_concat_map. unfold tab1 at 1. f_equal. apply map_ext_in. intros i Hi. apply in_seq in Hi.
  rewrite (wf_row T F x i H) by lia. unfold tab2. rewrite flat_map_concat_map. reflexivity.
Qed.

Lemma vec_tensor_tab l : vec_tensor l = lensT (List.length l) (nfun l).
Proof. unfold vec_tensor, lensT. f_equal. rewrite (tab1_of_list l 0) at 1. now rewrite map_tab1. Qed.

Lemma pad_tensor_tab pl pr :
  List.length pr = List.length pl -> pad_tensor pl pr = padT (List.length pl) (nfun pl) (nfun pr).
Proof.
  intros H. unfold pad_tensor, padT. f_equal. rewrite tab2_2. cbn [Nat.eqb]. f_equal.
  - rewrite (tab1_of_list pl 0) at 1. now rewrite map_tab1.
  - rewrite (tab1_of_list pr 0) at 1. now rewrite map_tab1, H.
Qed.

Lemma zip_prows_tab T F x lens pl pr :
  wf_x T F x -> zip_prows x lens pl pr = rowsM (List.length x) T F (xfun x) (nfun lens) (nfun pl) (nfun pr).
Proof.
  intros H. unfold zip_prows, rowsM. apply map_ext_in. intros i Hi. apply in_seq in Hi. unfold mk, cellsR, cell, nfun.
  now rewrite (wf_row T F x i H) by lia.
Qed.

Definition exc_of {X} (r : res X) : String.string :=
  match r with ErrValue => value_error | ErrNotImpl => not_implemented_error | _ => runtime_error end.

(* the value the model's pair of flat buffers stands for: two payload tensors whose data are the concatenated cells -
   1-dimensional, as masked_select returns them; in constant mode x itself, twice (the code never looks at them) *)
Definition gpb_value (md : mode) (N T F : nat) (bufs : list (list val) * list (list val)) : val :=
  VTuple [enc_p (bufT N T F md (concat (fst bufs))); enc_p (bufT N T F md (concat (snd bufs)))].

Theorem padding_buffers_tie T F md x lens pl pr d :
  wf_x T F x -> (forall n, n < List.length x -> nth n lens 0 <= T) ->
  List.length lens = List.length x -> List.length pl = List.length x -> List.length pr = List.length x ->
  exists st,
    run_gpb (x_tensor T F x) (vec_tensor lens) (vec_tensor pl) (vec_tensor pr) md
    = match get_padding_buffers p_cells p_len p_l p_r T d md (zip_prows x lens pl pr) with
      | Ok bufs => Interp.Ok (gpb_value md (List.length x) T F bufs) st
      | e => Interp.Exc (exc_of e) st
      end.
Proof.
  intros Hx HT Hl Hp Hq. unfold run_gpb.
  rewrite (x_tensor_tab T F x Hx), !vec_tensor_tab, Hl, Hp, Hq, (zip_prows_tab T F x lens pl pr Hx).
  set (N := List.length x) in *.
  destruct (gpb_any N T F (xfun x) (nfun lens) (nfun pl) (nfun pr) md HT) as [st E]. exists st.
  unfold gvars in E. rewrite E.
  pose proof (src_gpb_model N T F (xfun x) (nfun lens) (nfun pl) (nfun pr) HT d md) as G.
  destruct (get_padding_buffers p_cells p_len p_l p_r T d md (rowsM N T F (xfun x) (nfun lens) (nfun pl) (nfun pr)))
    as [[l r]| | |]; cbn [gpb_rel] in G; [|rewrite G; reflexivity ..].
  destruct G as (-> & _ & _). reflexivity.
Qed.

(* T' = the longest padded length *)
Definition pad_width (x : list (list (list val))) (lens pl pr : list nat) : nat :=
  list_max (map p_new (zip_prows x lens pl pr)).

Theorem pad_variable_tie T F value md x lens pl pr d :
  0 < F -> wf_x T F x -> (forall n, n < List.length x -> nth n lens 0 <= T) -> List.length pr = List.length pl ->
  exists st,
    run_pad (x_tensor T F x) (vec_tensor lens) (pad_tensor pl pr) md value
    = match pad_variable T d (repeat value F) md x lens pl pr with
      | Ok out => Interp.Ok (enc_p (rows_tensor (pad_width x lens pl pr) F out)) st
      | e => Interp.Exc (exc_of e) st
      end.
Proof.
  intros HF Hx HT Hpq. unfold run_pad, pad_width.
  rewrite (x_tensor_tab T F x Hx), vec_tensor_tab, (pad_tensor_tab pl pr Hpq), (zip_prows_tab T F x lens pl pr Hx).
  set (N := List.length x) in *.
  destruct (pad_run N (List.length lens) (List.length pl) T F (xfun x) (nfun lens) (nfun pl) (nfun pr) value md HT) as [st E].
  exists st. rewrite E. unfold pad_variable. fold N. rewrite Hpq.
  replace ((List.length lens =? N) && (List.length pl =? N) && (List.length pl =? N))
    with ((List.length lens =? N) && (List.length pl =? N)) by (destruct (List.length lens =? N), (List.length pl =? N); reflexivity).
  destruct ((List.length lens =? N) && (List.length pl =? N)); [|reflexivity].
  rewrite (zip_prows_tab T F x lens pl pr Hx). fold N.
  pose proof (src_pad_model N T F (xfun x) (nfun lens) (nfun pl) (nfun pr) HT d value md HF) as G.
  destruct (pad_variable_rows T d (repeat value F) md (rowsM N T F (xfun x) (nfun lens) (nfun pl) (nfun pr)))
    as [out| | |]; cbn [pad_rel] in G; [|rewrite G; reflexivity ..].
  destruct G as (-> & Hlen & _). cbn [out_pad]. unfold rows_tensor. rewrite Hlen, tp_rows. reflexivity.
Qed.

(* the model's rows are whole: T' cells of F values each *)
Lemma pad_variable_out_wf T F value md x lens pl pr d out :
  0 < F -> wf_x T F x -> (forall n, n < List.length x -> nth n lens 0 <= T) ->
  pad_variable T d (repeat value F) md x lens pl pr = Ok out -> wf_x (pad_width x lens pl pr) F out.
Proof.
  intros HF Hx HT. unfold pad_variable, pad_width.
  destruct ((List.length lens =? List.length x) && (List.length pl =? List.length x) && (List.length pr =? List.length x));
    [|discriminate].
  rewrite (zip_prows_tab T F x lens pl pr Hx). intros E.
  pose proof (src_pad_model (List.length x) T F (xfun x) (nfun lens) (nfun pl) (nfun pr) HT d value md HF) as G.
  rewrite E in G. destruct G as (_ & _ & Hwf). rewrite tp_rows. exact Hwf.
Qed.

(* ---- the executable form the harness evaluates (SrcRun.src_pad_variable / src_pad_variable_check) ------------- *)
Lemma concat_length_const {Y} k (l : list (list Y)) :
  Forall (fun c => List.length c = k) l -> List.length (concat l) = List.length l * k.
Proof. induction l as [|a l IH]; intros H; [reflexivity|]. inversion H; subst. cbn. rewrite app_length, IH by assumption. lia. Qed.

Lemma chunks_concat {Y} k (l : list (list Y)) :
  Forall (fun c => List.length c = k) l -> chunks (List.length l) k (concat l) = l.
Proof.
  induction l as [|a l IH]; intros H; [reflexivity|]. inversion H; subst. cbn [List.length chunks concat].
  rewrite firstn_app_exact, skipn_app_exact by reflexivity. now rewrite IH.
Qed.

Lemma cells_of_rows W F out : wf_x W F out -> cells_of (rows_tensor W F out) = Some out.
Proof.
  intros H. unfold cells_of, rows_tensor. cbn [shp dat]. f_equal. unfold wf_x in H. rewrite Forall_forall in H.
  rewrite <- (map_length (@concat val) out).
  rewrite chunks_concat.
  - rewrite map_map. rewrite <- (map_id out) at 2. apply map_ext_in. intros row Hr. destruct (H row Hr) as [HW HF].
    rewrite <- HW. now apply chunks_concat.
  - apply Forall_forall. intros c Hc. apply in_map_iff in Hc as (row & <- & Hr). destruct (H row Hr) as [HW HF].
    rewrite (concat_length_const F row HF). now rewrite HW.
Qed.

Theorem src_pad_variable_tie T F value md x lens pl pr d :
  0 < F -> wf_x T F x -> (forall n, n < List.length x -> nth n lens 0 <= T) -> List.length pr = List.length pl ->
  src_pad_variable T F value md x lens pl pr = Some (pad_variable T d (repeat value F) md x lens pl pr).
Proof.
  intros HF Hx HT Hpq. unfold src_pad_variable.
  destruct (pad_variable_tie T F value md x lens pl pr d HF Hx HT Hpq) as [st ->].
  destruct (pad_variable T d (repeat value F) md x lens pl pr) as [out| | |] eqn:E; try reflexivity.
  rewrite dec_any_enc_p. rewrite (cells_of_rows _ F out (pad_variable_out_wf T F value md x lens pl pr d out HF Hx HT E)).
  reflexivity.
Qed.

(* integer payload, as the harness passes it: the check on the interpreted source IS the model-side check, the model
   taken on the payload values (each integer z as the MiniPy value VInt z) *)
Theorem src_pad_variable_check_is_check T F v md x lens pl pr code impl :
  0 < F -> wf_x T F (zcells x) -> (forall n, n < List.length x -> nth n lens 0 <= T) -> List.length pr = List.length pl ->
  src_pad_variable_check T F v md x lens pl pr code impl
  = res_eqb vtensor_eqb (pad_variable T [] (repeat (VInt v) F) md (zcells x) lens pl pr) code (option_map zcells impl).
Proof.
  intros HF Hx HT Hpq. unfold src_pad_variable_check.
  rewrite (src_pad_variable_tie T F (VInt v) md (zcells x) lens pl pr [] HF Hx); [reflexivity| |assumption].
  intros n Hn. apply HT. unfold zcells in Hn. now rewrite map_length in Hn.
Qed.

(* ---- composed with the model theorem: a statement purely about the interpreted source ------------------------
   For a legal non-empty batch, the source returns an (N, T', F) tensor whose row n is
       left padding ++ x[n, :lens[n]] ++ right padding ++ fill ...
   with the paddings of the standard constant / reflect / replicate rule applied to that sequence alone. *)
Theorem source_pad_variable_rows T F value md x lens pl pr :
  0 < F -> wf_x T F x -> inputs_ok T md x lens pl pr ->
  exists Tp out st,
    run_pad (x_tensor T F x) (vec_tensor lens) (pad_tensor pl pr) md value
    = Interp.Ok (enc_p (rows_tensor Tp F out)) st
    /\ List.length out = List.length x
    /\ forall n, n < List.length x ->
         let s := firstn (nth n lens 0) (nth n x []) in
         let fill := repeat value F in
         let new := nth n lens 0 + (nth n pl 0 + nth n pr 0) in
         new <= Tp /\
         nth n out [] = lpart md fill (nth n pl 0) s ++ s ++ rpart md fill (nth n pr 0) s ++ repeat fill (Tp - new).
Proof.
  intros HF Hx Hok.
  destruct (pad_variable_correct T [] (repeat value F) md x lens pl pr Hok) as (Tp & out & E & Hlen & Hrows & Hmax).
  assert (HT : forall n, n < List.length x -> nth n lens 0 <= T).
  { intros n Hn. destruct Hok as (_ & _ & _ & _ & H). now destruct (H n Hn) as (_ & ? & _). }
  assert (Hpq : List.length pr = List.length pl) by (destruct Hok as (_ & _ & -> & -> & _); reflexivity).
  destruct (pad_variable_tie T F value md x lens pl pr [] HF Hx HT Hpq) as [st Erun]. rewrite E in Erun.
  assert (Hmd : md <> OtherMode).
  { intros ->. destruct Hok as (Hne & _ & _ & _ & H). destruct x as [|r0 x]; [congruence|].
    destruct (H 0) as (_ & _ & Hl); [cbn; lia|]. discriminate. }
  assert (ETp : pad_width x lens pl pr = Tp).
  { unfold pad_width. destruct Hmax as (n & Hn & Hn').
    apply Nat.le_antisymm.
    - apply list_max_map_le. intros r Hr. apply zip_prows_in in Hr as (k & Hk & ->). apply (Hrows k Hk).
    - rewrite <- Hn'. apply (list_max_map_in p_new _ (row_at x lens pl pr n)), zip_prows_row_in, Hn. }
  exists Tp, out, st. rewrite ETp in Erun. split; [exact Erun|]. split; [exact Hlen|].
  intros n Hn. destruct (Hrows n Hn) as [Hle Hrow]. split; [exact Hle|]. cbv zeta. rewrite Hrow.
  rewrite (pad1_parts md _ _ _ _ Hmd). now rewrite <- !app_assoc.
Qed.
