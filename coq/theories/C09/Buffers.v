(* C09 — _get_padding_buffers: the flat left / right buffers are the concatenation, row by row,
   of the left / right parts of the standard padding rule. *)
From Coq Require Import List Arith Bool Lia ZArith ZifyBool ZifyNat.
From PV Require Import C09.Model C09.Spec C09.Proofs.
Import ListNotations.
Local Open Scope nat_scope.

Section Parts.
  Context {A : Type}.

  Definition lpart (md : mode) (v : A) (l : nat) (s : list A) : list A :=
    match md with
    | Constant => repeat v l
    | Reflect => rev (firstn l (skipn 1 s))
    | Replicate => repeat (hd v s) l
    | OtherMode => []
    end.

  Definition rpart (md : mode) (v : A) (r : nat) (s : list A) : list A :=
    match md with
    | Constant => repeat v r
    | Reflect => firstn r (skipn 1 (rev s))
    | Replicate => repeat (last s v) r
    | OtherMode => []
    end.

  Lemma pad1_parts md v l r (s : list A) :
    md <> OtherMode -> pad1 md v l r s = lpart md v l s ++ s ++ rpart md v r s.
  Proof. destruct md; intros H; try reflexivity. congruence. Qed.

  Lemma lpart_length md v l r (s : list A) :
    legalb md l r (length s) = true -> length (lpart md v l s) = l.
  Proof.
    destruct md; cbn [legalb lpart]; intros H; try discriminate; rewrite ?repeat_length; try reflexivity.
    rewrite rev_length, firstn_length, skipn_length. lia.
  Qed.

  Lemma rpart_length md v l r (s : list A) :
    legalb md l r (length s) = true -> length (rpart md v r s) = r.
  Proof.
    destruct md; cbn [legalb rpart]; intros H; try discriminate; rewrite ?repeat_length; try reflexivity.
    rewrite firstn_length, skipn_length, rev_length. lia.
  Qed.

  (* ----- nth helpers (not in the 8.16 library) ----- *)
  Lemma nth_skipn (l : list A) k i d : nth i (skipn k l) d = nth (k + i) l d.
  Proof.
    revert l; induction k as [|k IH]; intros l; [reflexivity|].
    destruct l as [|a l]; [destruct i; reflexivity|]. cbn. apply IH.
  Qed.

  Lemma nth_firstn_lt (l : list A) n i d : i < n -> nth i (firstn n l) d = nth i l d.
  Proof.
    revert l i; induction n as [|n IH]; intros l i H; [lia|].
    destruct l as [|a l]; [reflexivity|]. destruct i as [|i]; [reflexivity|].
    cbn. apply IH. lia.
  Qed.

  Lemma firstn_snoc (l : list A) n d : n < length l -> firstn (S n) l = firstn n l ++ [nth n l d].
  Proof.
    revert l; induction n as [|n IH]; intros [|a l] H; cbn in H; try lia; [reflexivity|].
    cbn [firstn nth app]. f_equal. apply IH. lia.
  Qed.

  Lemma last_nth (l : list A) v : last l v = nth (length l - 1) l v.
  Proof.
    induction l as [|a l IH]; [reflexivity|].
    destruct l as [|b l]; [reflexivity|].
    change (last (a :: b :: l) v) with (last (b :: l) v). rewrite IH.
    cbn [length]. replace (S (S (length l)) - 1) with (S (S (length l) - 1)) by lia. reflexivity.
  Qed.

  Lemma firstn_seq n a m : firstn n (seq a m) = seq a (Nat.min n m).
  Proof.
    revert a m; induction n as [|n IH]; intros a [|m]; try reflexivity.
    cbn. now rewrite IH.
  Qed.

  (* ----- reflect: the gathered indices are the mirrored cells ----- *)
  Lemma reflect_left (s : list A) l d :
    l < length s -> map (fun j => nth (l - j) s d) (seq 0 l) = rev (firstn l (skipn 1 s)).
  Proof.
    induction l as [|l IH]; intros H; [reflexivity|].
    rewrite <- cons_seq, <- seq_shift, map_cons, map_map.
    rewrite (firstn_snoc (skipn 1 s) l d) by (rewrite skipn_length; lia).
    rewrite rev_app_distr. cbn [rev app]. rewrite nth_skipn. f_equal.
    rewrite <- IH by lia. apply map_ext. intros j. reflexivity.
  Qed.

  Lemma reflect_right (s : list A) r d :
    r < length s ->
    map (fun j => nth (length s - j - 2) s d) (seq 0 r) = firstn r (skipn 1 (rev s)).
  Proof.
    induction r as [|r IH]; intros H; [reflexivity|].
    rewrite seq_S, map_app, IH by lia. cbn [map plus].
    rewrite (firstn_snoc (skipn 1 (rev s)) r d) by (rewrite skipn_length, rev_length; lia).
    f_equal. rewrite nth_skipn, rev_nth by lia. f_equal. f_equal. lia.
  Qed.

  Lemma hd_firstn (cells : list A) len v d :
    1 <= len -> 1 <= length cells -> nth 0 cells d = hd v (firstn len cells).
  Proof. destruct cells, len; cbn; intros; try lia. reflexivity. Qed.

  Lemma last_firstn (cells : list A) len v d :
    1 <= len -> len <= length cells -> nth (len - 1) cells d = last (firstn len cells) v.
  Proof.
    intros H1 H2. rewrite last_nth, firstn_length, Nat.min_l by lia.
    rewrite nth_firstn_lt by lia. apply nth_indep. lia.
  Qed.
End Parts.

Lemma list_max_in (l : list nat) x : In x l -> x <= list_max l.
Proof.
  intros H. pose proof (proj1 (list_max_le l (list_max l)) (le_n _)) as F.
  rewrite Forall_forall in F. now apply F.
Qed.

Lemma list_max_map_in {R} (f : R -> nat) (rows : list R) r : In r rows -> f r <= list_max (map f rows).
Proof. intros H. apply list_max_in, in_map, H. Qed.

Lemma list_max_map_le {R} (f : R -> nat) (rows : list R) n :
  (forall r, In r rows -> f r <= n) -> list_max (map f rows) <= n.
Proof.
  intros H. apply list_max_le, Forall_forall. intros x Hx.
  apply in_map_iff in Hx as (r & <- & Hr). now apply H.
Qed.

Lemma match_nonempty {X Y} (l : list X) (a b : Y) :
  l <> [] -> match l with [] => a | _ :: _ => b end = b.
Proof. destruct l; [contradiction|reflexivity]. Qed.

Lemma existsb_false {X} (f : X -> bool) (l : list X) :
  (forall x, In x l -> f x = false) -> existsb f l = false.
Proof.
  intros H. destruct (existsb f l) eqn:E; [|reflexivity].
  apply existsb_exists in E as (x & Hx & Hf). rewrite H in Hf by assumption. discriminate.
Qed.

(* rows of width W under the mask "position < n r": what is selected is the first n r entries of each row *)
Lemma select2_prefix {A R} (rows : list R) (n : R -> nat) W (src : R -> list A) :
  (forall r, In r rows -> n r <= W /\ length (src r) = W) ->
  select2 (map (fun r => map (fun t => t <? n r) (seq 0 W)) rows) (map src rows)
  = concat (map (fun r => firstn (n r) (src r)) rows).
Proof.
  intros H.
  apply (select2_seg rows (fun r t => t <? n r) W src (fun _ => []) _ (fun r => skipn (n r) (src r))).
  intros r Hr. destruct (H r Hr) as [Hn HW]. split; [cbn [app]; now rewrite firstn_skipn|].
  rewrite firstn_length, skipn_length, HW. cbn [length]. split; [lia|].
  unfold seg_mask. intros t Ht. rewrite firstn_length, HW. cbn [length]. lia.
Qed.

Section Buffers.
  Context {A R : Type}.
  Variable cellsf : R -> list A.
  Variable lenf plf prf : R -> nat.

  Definition seqf (r : R) : list A := firstn (lenf r) (cellsf r).

  Definition rows_ok (T : nat) (md : mode) (rows : list R) : Prop :=
    forall r, In r rows ->
      length (cellsf r) = T /\ lenf r <= T /\ legalb md (plf r) (prf r) (lenf r) = true.

  Lemma seqf_length T md rows r : rows_ok T md rows -> In r rows -> length (seqf r) = lenf r.
  Proof.
    intros H Hr. destruct (H r Hr) as (H1 & H2 & _). unfold seqf. rewrite firstn_length. lia.
  Qed.

  Theorem padding_buffers_correct T d v md rows :
    rows <> [] -> rows_ok T md rows -> md = Reflect \/ md = Replicate ->
    get_padding_buffers cellsf lenf plf prf T d md rows
    = Ok (concat (map (fun r => lpart md v (plf r) (seqf r)) rows),
          concat (map (fun r => rpart md v (prf r) (seqf r)) rows)).
  Proof.
    intros Hne Hok Hmd.
    assert (Hl : forall r, In r rows -> plf r <= list_max (map plf rows)) by (intros; now apply list_max_map_in).
    assert (Hr : forall r, In r rows -> prf r <= list_max (map prf rows)) by (intros; now apply list_max_map_in).
    destruct Hmd as [-> | ->]; unfold get_padding_buffers; cbv zeta.
    - (* reflect: no pad reaches the length, so the slices [:left_max], [:right_max] of arange are whole *)
      rewrite existsb_false, match_nonempty by
        (assumption || (intros r Hin; destruct (Hok r Hin) as (_ & _ & H); cbn [legalb] in H; lia)).
      rewrite (map_ext _ _ (fun r => firstn_map _ _ _)).
      rewrite !firstn_seq, !Nat.min_l by
        (apply list_max_map_le; intros r Hin; destruct (Hok r Hin) as (_ & ? & H); cbn [legalb] in H; lia).
      rewrite !select2_prefix by (intros; rewrite map_length, seq_length; auto).
      f_equal. f_equal; f_equal; apply map_ext_in; intros r Hin; destruct (Hok r Hin) as (Hc & HT & H); cbn [legalb] in H;
        pose proof (seqf_length T Reflect rows r Hok Hin) as Hs;
        rewrite firstn_map, firstn_seq, Nat.min_l by auto.
      + cbn [lpart]. rewrite <- (reflect_left (seqf r) (plf r) d) by lia.
        apply map_ext_in. intros j Hj. apply in_seq in Hj. unfold seqf. now rewrite nth_firstn_lt by lia.
      + cbn [rpart]. rewrite <- (reflect_right (seqf r) (prf r) d) by lia.
        apply map_ext_in. intros j Hj. apply in_seq in Hj. rewrite Hs. unfold seqf. now rewrite nth_firstn_lt by lia.
    - (* replicate *)
      rewrite existsb_false, match_nonempty by
        (assumption || (intros r Hin; destruct (Hok r Hin) as (_ & _ & H); cbn [legalb] in H; lia)).
      rewrite !firstn_seq, !Nat.min_l by lia.
      rewrite !select2_prefix by (intros; rewrite repeat_length; auto).
      f_equal. f_equal; f_equal; apply map_ext_in; intros r Hin; destruct (Hok r Hin) as (Hc & HT & H); cbn [legalb] in H;
        rewrite firstn_repeat, Nat.min_l by auto.
      + cbn [lpart]. f_equal. unfold seqf. apply hd_firstn; lia.
      + cbn [rpart]. f_equal. unfold seqf. apply last_firstn; lia.
  Qed.

  Lemma rows_ok_mode T md rows : rows <> [] -> rows_ok T md rows -> md <> OtherMode.
  Proof.
    intros Hne Hok ->. destruct rows as [|r rows]; [congruence|].
    destruct (Hok r (or_introl eq_refl)) as (_ & _ & H). discriminate.
  Qed.

  Lemma padding_buffers_ok T d v md rows :
    rows <> [] -> rows_ok T md rows ->
    exists bufs, get_padding_buffers cellsf lenf plf prf T d md rows = Ok bufs /\
                 (md <> Constant ->
                  bufs = (concat (map (fun r => lpart md v (plf r) (seqf r)) rows),
                          concat (map (fun r => rpart md v (prf r) (seqf r)) rows))).
  Proof.
    intros Hne Hok. pose proof (rows_ok_mode T md rows Hne Hok). destruct md; try congruence.
    - eexists; split; [reflexivity|congruence].
    - eexists; split; [apply (padding_buffers_correct T d v); auto|reflexivity].
    - eexists; split; [apply (padding_buffers_correct T d v); auto|reflexivity].
  Qed.

  (* the error branches: an illegal row makes the whole call raise *)
  Theorem padding_buffers_illegal T d md rows r :
    In r rows -> legalb md (plf r) (prf r) (lenf r) = false ->
    match md with
    | Constant => False
    | Reflect => get_padding_buffers cellsf lenf plf prf T d md rows = ErrNotImpl
    | Replicate => get_padding_buffers cellsf lenf plf prf T d md rows = ErrRuntime
    | OtherMode => get_padding_buffers cellsf lenf plf prf T d md rows = ErrValue
    end.
  Proof.
    intros Hr Hl. destruct md; cbn [legalb] in Hl; try discriminate; unfold get_padding_buffers.
    - replace (existsb _ rows) with true; [reflexivity|].
      symmetry. apply existsb_exists. exists r. split; [assumption|]. lia.
    - replace (existsb _ rows) with true; [reflexivity|].
      symmetry. apply existsb_exists. exists r. split; [assumption|]. lia.
    - reflexivity.
  Qed.
End Buffers.
