(* C09 — how the tie files run the translated source under PV.MiniPy.Interp.  The bodies are straight-line code over pure
   expressions: one equation per form of expression gives the value of a node from the values of its parts (state
   unchanged), one per form of statement its effect.  Where the interpreter has no answer of its own on an encoded tensor
   the premise saying so is decided by computation, and what is left is one call of the unit's environment on known
   values (branch selected by the name tests, arguments decoded, operation rewritten by its lemma on tabulated tensors).
   If the source is edited so that a run stops giving the list functions of TieSrc.v / TieBSrc.v, the tie files stop
   compiling and the C09 check reports the broken obligation.
   The [Arguments] settings are GLOBAL: import this file only from the C09 tie files. *)
From Coq Require Import ZArith List String Bool Arith Lia ZifyBool ZifyNat.
From PV Require Export MiniPy.Lemmas.
From PV Require Import MiniPy.Syntax MiniPy.Interp MiniTorch.Ops MiniTorch.OpsC09 MiniTorch.LemmasC09 Gen.C09Src.
From PV Require Import C09.SrcRun C09.TieSrc.
From PV Require C09.Model.
Import ListNotations.
Local Open Scope string_scope.

Section Ev.
  Variable ext : string -> list val -> list (string * val) -> state -> outcome val.

  Definition plain (e : expr) : Prop := match e with EStar _ => False | _ => True end.

  (* leaves; stated as lemmas because unifying through [eval]'s body at every leaf is dear *)

  Lemma ev_tuple_nil st : eval ext (ETupleLit []) st = Ok (VTuple []) st.
  Proof. reflexivity. Qed.

  (* the two nestings of [bind] that meet at the head of a tuple literal, about any outcomes: the case analysis of
     [ev_tuple_head] then never opens a result of [eval] *)
  Lemma bind_tuple_head (o : outcome val) (f : state -> outcome (list val)) :
    bind (bind o (fun v st1 => bind (f st1) (fun vs st2 => Ok (v :: vs) st2))) (fun vs st1 => Ok (VTuple vs) st1) =
    bind o (fun v st1 => bind (bind (f st1) (fun vs st2 => Ok (VTuple vs) st2)) (fun t st2 =>
      Ok (match t with VTuple vs => VTuple (v :: vs) | _ => t end) st2)).
  Proof. destruct o as [v s1| |]; cbn [bind]; try reflexivity. destruct (f s1); reflexivity. Qed.

  (* an argument list is evaluated as the tuple literal of its items: head first *)
  Lemma ev_tuple_head e es st :
    plain e ->
    eval ext (ETupleLit (e :: es)) st =
    bind (eval ext e st) (fun v st1 => bind (eval ext (ETupleLit es) st1) (fun t st2 =>
      Ok (match t with VTuple vs => VTuple (v :: vs) | _ => t end) st2)).
  Proof.
    intros Hp. cbn [eval]. destruct e; try contradiction; apply bind_tuple_head.
  Qed.

  Lemma ev_tuple_cons e es v vs st :
    eval ext e st = Ok v st -> plain e -> eval ext (ETupleLit es) st = Ok (VTuple vs) st ->
    eval ext (ETupleLit (e :: es)) st = Ok (VTuple (v :: vs)) st.
  Proof. intros He Hp Hes. rewrite (ev_tuple_head e es st Hp), He. cbn [bind]. now rewrite Hes. Qed.

  Lemma ev_tuple_exc e es n st st' : eval ext e st = Exc n st' -> plain e -> eval ext (ETupleLit (e :: es)) st = Exc n st'.
  Proof. intros He Hp. now rewrite (ev_tuple_head e es st Hp), He. Qed.

  Lemma ev_sub o k ov kv st :
    eval ext o st = Ok ov st -> eval ext k st = Ok kv st ->
    eval ext (ESub o k) st = match subscript ov kv st with Stuck _ => ext "$getitem" [ov; kv] [] st | r => r end.
  Proof. intros Ho Hk. cbn [eval]. rewrite Ho. cbn [bind]. now rewrite Hk. Qed.

  Lemma ev_bin op a b av bv st :
    eval ext a st = Ok av st -> eval ext b st = Ok bv st ->
    eval ext (EBin op a b) st =
    match binop_eval op av bv st with Stuck _ => ext "operator" [VStr (binop_name op); av; bv] [] st | r => r end.
  Proof. intros Ha Hb. cbn [eval]. rewrite Ha. cbn [bind]. now rewrite Hb. Qed.

  Lemma ev_cmp op a b av bv st :
    eval ext a st = Ok av st -> eval ext b st = Ok bv st ->
    eval ext (ECmp op a b) st =
    if (rich op && (foreign av || foreign bv))%bool then ext "compare" [VStr (cmpop_name op); av; bv] [] st
    else match cmp_eval op av bv with
         | Some r => Ok (VBool r) st
         | None => ext "compare" [VStr (cmpop_name op); av; bv] [] st
         end.
  Proof. intros Ha Hb. cbn [eval]. rewrite Ha. cbn [bind]. now rewrite Hb. Qed.

  Lemma ev_not a av st : eval ext a st = Ok av st -> eval ext (ENot a) st = Ok (VBool (negb (truthy av))) st.
  Proof. intros Ha. cbn [eval]. now rewrite Ha. Qed.

  Lemma ev_or a b x y st :
    eval ext a st = Ok (VBool x) st -> eval ext b st = Ok (VBool y) st -> eval ext (EOr a b) st = Ok (VBool (x || y)) st.
  Proof. intros Ha Hb. cbn [eval]. rewrite Ha. cbn [bind truthy]. now destruct x. Qed.

  Lemma ev_meth_kw o m k e ov v st :
    eval ext o st = Ok ov st -> method ov m [] = None -> eval ext e st = Ok v st ->
    eval ext (EMeth o m [] [(k, e)]) st = ext ("$method." ++ m) [ov] [(k, v)] st.
  Proof. intros Ho Hm He. cbn [eval]. rewrite Ho. cbn [bind]. rewrite Hm, He. reflexivity. Qed.

  Lemma ev_meth_exc o m args kw n st st' : eval ext o st = Exc n st' -> eval ext (EMeth o m args kw) st = Exc n st'.
  Proof. intros Ho. cbn [eval]. now rewrite Ho. Qed.

  Lemma ev_call f args vs st :
    eval ext (ETupleLit args) st = Ok (VTuple vs) st ->
    eval ext (ECall f args []) st = match builtin f vs st with Some r => r | None => ext f vs [] st end.
  Proof.
    intros Ha. cbn [eval] in Ha |- *.
    match type of Ha with bind (?ev args st) _ = _ => destruct (ev args st) as [ws st'| |] eqn:E; cbn [bind] in Ha; try discriminate end.
    injection Ha as -> ->. reflexivity.
  Qed.

  Lemma ev_call_kw f args k e vs v st :
    eval ext (ETupleLit args) st = Ok (VTuple vs) st -> eval ext e st = Ok v st ->
    eval ext (ECall f args [(k, e)]) st = ext f vs [(k, v)] st.
  Proof.
    intros Ha He. cbn [eval] in Ha |- *.
    match type of Ha with bind (?ev args st) _ = _ => destruct (ev args st) as [ws st'| |] eqn:E; cbn [bind] in Ha; try discriminate end.
    injection Ha as -> ->. cbn [bind]. rewrite He. reflexivity.
  Qed.

  Lemma ev_call_exc f args kw n st st' :
    eval ext (ETupleLit args) st = Exc n st' -> eval ext (ECall f args kw) st = Exc n st'.
  Proof.
    intros Ha. cbn [eval] in Ha |- *.
    match type of Ha with bind ?o _ = _ => destruct o; cbn [bind] in Ha |- *; congruence end.
  Qed.


  Lemma ev_attr_ext o a ov st :
    eval ext o st = Ok ov st -> match ov with VDict _ => false | _ => true end = true ->
    eval ext (EAttr o a) st = ext ("$attr." ++ a) [ov] [] st.
  Proof. intros Ho Hd. cbn [eval]. rewrite Ho. destruct ov; (discriminate || reflexivity). Qed.

  Lemma ev_sub_ext o k ov kv w st :
    eval ext o st = Ok ov st -> eval ext k st = Ok kv st -> subscript ov kv st = Stuck w ->
    eval ext (ESub o k) st = ext "$getitem" [ov; kv] [] st.
  Proof. intros Ho Hk Hs. rewrite (ev_sub o k ov kv st Ho Hk), Hs. reflexivity. Qed.

  Lemma ev_sub_ok o k ov kv v st :
    eval ext o st = Ok ov st -> eval ext k st = Ok kv st -> subscript ov kv st = Ok v st ->
    eval ext (ESub o k) st = Ok v st.
  Proof. intros Ho Hk Hs. rewrite (ev_sub o k ov kv st Ho Hk), Hs. reflexivity. Qed.

  Lemma ev_bin_ext op a b av bv w st :
    eval ext a st = Ok av st -> eval ext b st = Ok bv st -> binop_eval op av bv st = Stuck w ->
    eval ext (EBin op a b) st = ext "operator" [VStr (binop_name op); av; bv] [] st.
  Proof. intros Ha Hb Hs. rewrite (ev_bin op a b av bv st Ha Hb), Hs. reflexivity. Qed.

  Lemma ev_bin_ok op a b av bv v st :
    eval ext a st = Ok av st -> eval ext b st = Ok bv st -> binop_eval op av bv st = Ok v st ->
    eval ext (EBin op a b) st = Ok v st.
  Proof. intros Ha Hb Hs. rewrite (ev_bin op a b av bv st Ha Hb), Hs. reflexivity. Qed.

  Lemma ev_cmp_ext op a b av bv st :
    eval ext a st = Ok av st -> eval ext b st = Ok bv st -> (rich op && (foreign av || foreign bv))%bool = true ->
    eval ext (ECmp op a b) st = ext "compare" [VStr (cmpop_name op); av; bv] [] st.
  Proof. intros Ha Hb Hs. rewrite (ev_cmp op a b av bv st Ha Hb), Hs. reflexivity. Qed.

  Lemma ev_cmp_ok op a b av bv r st :
    eval ext a st = Ok av st -> eval ext b st = Ok bv st -> (rich op && (foreign av || foreign bv))%bool = false ->
    cmp_eval op av bv = Some r -> eval ext (ECmp op a b) st = Ok (VBool r) st.
  Proof. intros Ha Hb Hs Hc. rewrite (ev_cmp op a b av bv st Ha Hb), Hs, Hc. reflexivity. Qed.

  Lemma ev_meth_ext o m args ov vs st :
    eval ext o st = Ok ov st -> eval ext (ETupleLit args) st = Ok (VTuple vs) st -> method ov m vs = None ->
    eval ext (EMeth o m args []) st = ext ("$method." ++ m) (ov :: vs) [] st.
  Proof.
    intros Ho Ha Hm. cbn [eval] in Ha |- *. rewrite Ho. cbn [bind].
    match type of Ha with bind ?o _ = _ => destruct o; cbn [bind] in Ha; try discriminate end.
    injection Ha as -> ->. cbn [bind]. now rewrite Hm.
  Qed.

  Lemma ex_then s (K : ctl -> state -> outcome ctl) st st' : exec ext s st = Ok CNormal st' -> bind (exec ext s st) K = K CNormal st'.
  Proof. now intros ->. Qed.

  Lemma ex_then_exc s (K : ctl -> state -> outcome ctl) n st st' : exec ext s st = Exc n st' -> bind (exec ext s st) K = Exc n st'.
  Proof. now intros ->. Qed.

  Lemma ex_assign ts e r st :
    eval ext e st = r ->
    exec ext (SAssign ts e) st = bind r (fun v st1 => bind (assign_all ext ts v st1) (fun _ st2 => Ok CNormal st2)).
  Proof. now intros <-. Qed.

  Lemma ex_if c t f cv st :
    eval ext c st = Ok cv st -> exec ext (SIf c t f) st = if truthy cv then exec ext t st else exec ext f st.
  Proof. intros Hc. cbn [exec]. now rewrite Hc. Qed.

  Lemma ex_assert e v st :
    eval ext e st = Ok v st -> exec ext (SAssert e) st = if truthy v then Ok CNormal st else Exc "AssertionError" st.
  Proof. intros He. cbn [exec]. now rewrite He. Qed.

  Lemma ex_return e r st : eval ext e st = r -> exec ext (SReturn e) st = bind r (fun v st1 => Ok (CReturn v) st1).
  Proof. now intros <-. Qed.
End Ev.

Lemma operand_enc_i t : operand (enc_i t) = Some (OT (TI t)).
Proof. unfold operand. rewrite dec_any_enc_i. reflexivity. Qed.
Lemma operand_int z : operand (VInt z) = Some (OZ z). Proof. reflexivity. Qed.
Lemma operand_ints z l : operand (VTuple (VInt z :: l)) = None. Proof. reflexivity. Qed.
Lemma as_index_int z : as_index (VInt z) = Some z. Proof. reflexivity. Qed.
Lemma as_index_scalar z : as_index (enc_i (mkTn [] [z])) = Some z.
Proof. unfold as_index. now rewrite operand_enc_i. Qed.
Lemma as_size_nat n : as_size (VInt (Z.of_nat n)) = Some n.
Proof. unfold as_size. rewrite as_index_int. replace (0 <=? Z.of_nat n)%Z with true by lia. now rewrite Nat2Z.id. Qed.
Lemma as_size_scalar n : as_size (enc_i (mkTn [] [Z.of_nat n])) = Some n.
Proof. unfold as_size. rewrite as_index_scalar. replace (0 <=? Z.of_nat n)%Z with true by lia. now rewrite Nat2Z.id. Qed.
Lemma as_size_1 : as_size (VInt 1) = Some 1%nat. Proof. reflexivity. Qed.

Lemma extreme_max2 a b st : extreme_of true [VInt a; VInt b] st = Ok (VInt (Z.max a b)) st.
Proof.
  unfold extreme_of, q_extreme, cmp_eval, as_q, q_cmp, QArith_base.Qcompare. cbn [QArith_base.Qnum QArith_base.Qden QArith_base.inject_Z].
  rewrite !Z.mul_1_r. destruct (Z.compare_spec b a); f_equal; f_equal; lia.
Qed.

Lemma extreme_max3 a b c st : extreme_of true [VInt a; VInt b; VInt c] st = Ok (VInt (Z.max (Z.max a b) c)) st.
Proof.
  unfold extreme_of, q_extreme, cmp_eval, as_q, q_cmp, QArith_base.Qcompare. cbn [QArith_base.Qnum QArith_base.Qden QArith_base.inject_Z].
  rewrite !Z.mul_1_r. destruct (Z.compare_spec b a); cbn [QArith_base.Qnum QArith_base.Qden QArith_base.inject_Z]; rewrite ?Z.mul_1_r;
    match goal with |- context [(c ?= ?x)%Z] => destruct (Z.compare_spec c x) end; f_equal; f_equal; lia.
Qed.

#[global] Arguments enc_b : simpl never.
#[global] Arguments enc_i : simpl never.
#[global] Arguments enc_p : simpl never.
#[global] Arguments dec_any : simpl never.
#[global] Arguments operand : simpl never.
#[global] Arguments as_size : simpl never.
#[global] Arguments as_index : simpl never.
#[global] Arguments extreme_of : simpl never.
#[global] Arguments tab1 : simpl never.
#[global] Arguments tab2 : simpl never.
#[global] Arguments tab3 : simpl never.
#[global] Arguments Z.of_nat : simpl nomatch.
#[global] Arguments Z.to_nat : simpl nomatch.
#[global] Arguments Z.max : simpl nomatch.
#[global] Arguments Z.sub : simpl nomatch.
#[global] Arguments Z.add : simpl nomatch.
#[global] Arguments Z.gtb : simpl nomatch.
#[global] Arguments Z.geb : simpl nomatch.
#[global] Arguments Z.ltb : simpl nomatch.
#[global] Arguments Nat.min : simpl nomatch.
#[global] Arguments Nat.max : simpl nomatch.
#[global] Arguments list_max : simpl never.
#[global] Arguments OpsC09.arange : simpl never.
#[global] Arguments OpsC09.unsqueeze : simpl never.
#[global] Arguments OpsC09.flatten_from : simpl never.
#[global] Arguments OpsC09.view : simpl never.
#[global] Arguments OpsC09.expand3 : simpl never.
#[global] Arguments OpsC09.slice1 : simpl never.
#[global] Arguments OpsC09.slice3_1 : simpl never.
#[global] Arguments OpsC09.select0 : simpl never.
#[global] Arguments OpsC09.full : simpl never.
#[global] Arguments OpsC09.ew2 : simpl never.
#[global] Arguments OpsC09.ew_s : simpl never.
#[global] Arguments OpsC09.clamp_min : simpl never.
#[global] Arguments OpsC09.max_all : simpl never.
#[global] Arguments OpsC09.sum0 : simpl never.
#[global] Arguments OpsC09.any_true : simpl never.
#[global] Arguments OpsC09.bnot : simpl never.
#[global] Arguments OpsC09.band : simpl never.
#[global] Arguments OpsC09.gather1 : simpl never.
#[global] Arguments OpsC09.masked_select : simpl never.
#[global] Arguments OpsC09.masked_scatter : simpl never.
#[global] Arguments OpsC09.mselect : simpl never.
#[global] Arguments OpsC09.mscatter : simpl never.


Lemma max_all_ZI N f :
  max_all (mkTn [N] (tab1 N (ZI f))) = match N with 0%nat => None | _ => Some (mkTn [] [Z.of_nat (list_max (map f (seq 0 N)))]) end.
Proof. apply max_all_nat. reflexivity. Qed.

Lemma max_all_ZI_pos N f :
  N <> 0%nat -> max_all (mkTn [N] (tab1 N (ZI f))) = Some (mkTn [] [Z.of_nat (list_max (map f (seq 0 N)))]).
Proof. intros H. rewrite max_all_ZI. now destruct N. Qed.

Lemma zmax_nat_1 a : Z.max (Z.of_nat a) 1 = Z.of_nat (Nat.max a 1). Proof. lia. Qed.
Lemma min_l_max3 a b : Nat.min a (Nat.max (Nat.max a b) 1) = a. Proof. lia. Qed.
Lemma min_r_max3 a b : Nat.min b (Nat.max (Nat.max a b) 1) = b. Proof. lia. Qed.
Lemma min_r_max a b : Nat.min b (Nat.max a b) = b. Proof. lia. Qed.

(* the indices of a gather are in range by the per-row bounds of the context *)
Ltac gather_ok :=
  intros ? ? ? Hi ? ?; repeat match goal with H : forall i, (i < _)%nat -> _ |- _ => specialize (H _ Hi) end; unfold ZI; lia.

(* slice sizes are those the context gives ([Nat.min a b = c]); maxima of non-empty tensors need [N <> 0] there *)
Ltac ostep :=
  match goal with
  | |- context [operand (enc_i _)] => rewrite operand_enc_i
  | |- context [operand (VInt _)] => rewrite operand_int
  | |- context [operand (VTuple (VInt _ :: _))] => rewrite operand_ints
  | |- context [as_index (VInt _)] => rewrite as_index_int
  | |- context [as_index (enc_i (mkTn [] [_]))] => rewrite as_index_scalar
  | |- context [as_size (VInt (Z.of_nat _))] => rewrite as_size_nat
  | |- context [as_size (enc_i (mkTn [] [Z.of_nat _]))] => rewrite as_size_scalar
  | |- context [as_size (VInt 1)] => rewrite as_size_1
  | |- context [extreme_of true [VInt _; VInt _] _] => rewrite extreme_max2
  | |- context [extreme_of true [VInt _; VInt _; VInt _] _] => rewrite extreme_max3
  | |- context [dec_any (enc_b _)] => rewrite dec_any_enc_b
  | |- context [dec_any (enc_i _)] => rewrite dec_any_enc_i
  | |- context [dec_any (enc_p _)] => rewrite dec_any_enc_p
  | |- context [dec_any (VTuple (VInt _ :: _))] => rewrite dec_any_ints
  | |- context [Z.max (Z.of_nat _) (Z.of_nat _)] => rewrite <- Nat2Z.inj_max
  | |- context [Nat.eqb ?a ?a] => rewrite Nat.eqb_refl
  | |- context [Z.eqb ?a ?a] => rewrite Z.eqb_refl
  | |- context [unsqueeze (mkTn [_] _) 1] => rewrite unsqueeze_1_1
  | |- context [unsqueeze (mkTn [_; _] _) 2] => rewrite unsqueeze_2_2
  | |- context [unsqueeze (mkTn [_; _; _] _) (-1)] => rewrite unsqueeze_3_m1
  | |- context [flatten_from (mkTn [_; _; _; 1%nat] _) 2] => rewrite flatten_4_2
  | |- context [view (mkTn [?n] _) [?n; 1%nat; 1%nat]] => rewrite view_n11
  | |- context [view (mkTn ?s _) ?s] => rewrite view_same
  | |- context [arange (Z.of_nat _)] => rewrite arange_nat
  | |- context [expand3 _ (mkTn [?n; ?m; 1%nat] (tab2 ?n ?m _)) [?n; ?m; _]] => rewrite expand3_last
  | |- context [expand3 _ (mkTn [?n; 1%nat; ?k] (tab3 ?n 1%nat ?k _)) [?n; _; ?k]] => rewrite expand3_mid
  | |- context [expand3 _ (mkTn [?n; 1%nat; 1%nat] (tab1 ?n _)) [?n; _; _]] => rewrite expand3_n11
  | |- context [expand3 _ (mkTn [?n; ?m; ?k] (tab3 ?n ?m ?k _)) [?n; ?m; ?k]] => rewrite expand3_id
  | |- context [slice1 (mkTn [?n] (tab1 ?n _)) _] => rewrite slice1_tab1
  | |- context [slice3_1 _ (mkTn [?n; ?m; ?c] (tab3 ?n ?m ?c _)) _] => rewrite slice3_1_tab3
  | |- context [select0 (mkTn [2%nat; ?m] (tab2 2%nat ?m _)) 0%nat] => rewrite select0_tab2_0
  | |- context [select0 (mkTn [2%nat; ?m] (tab2 2%nat ?m _)) 1%nat] => rewrite select0_tab2_1
  | |- context [ew2 _ _ _ (mkTn [?n] (tab1 ?n _)) (mkTn [?n] (tab1 ?n _))] => rewrite ew2_same1
  | |- context [ew2 _ _ _ (mkTn [?n; 1%nat] (tab1 ?n _)) (mkTn [?w] (tab1 ?w _))] => rewrite ew2_outer
  | |- context [ew_s _ (mkTn _ (tab1 _ _)) _] => rewrite ew_s_tab1
  | |- context [ew_s _ (mkTn _ (tab2 _ _ _)) _] => rewrite ew_s_tab2
  | |- context [clamp_min (mkTn _ (tab2 _ _ _)) _] => rewrite clamp_min_tab2
  | |- context [sum0 (mkTn [2%nat; ?m] (tab2 2%nat ?m _))] => rewrite sum0_tab2_2
  | |- context [bnot (mkTn _ (tab3 _ _ _ _))] => rewrite bnot_tab3
  | |- context [band (mkTn ?s (tab3 ?n ?m ?k _)) (mkTn ?s (tab3 ?n ?m ?k _))] => rewrite band_tab3
  | |- context [any_true (mkTn _ (tab1 _ _))] => rewrite any_true_tab1
  | |- context [masked_select (mkTn ?s _) (mkTn ?s _)] => rewrite masked_select_same
  | |- context [masked_scatter (mkTn ?s _) (mkTn ?s _) _] => rewrite masked_scatter_same
  | |- context [full [_; _; _] _] => rewrite full_3
  | |- context [max_all (mkTn [_] (tab1 _ (ZI _)))] => rewrite max_all_ZI_pos by assumption
  | |- context [gather1 _ _ _] => rewrite gather1_tab by gather_ok
  | |- context [Z.max (Z.of_nat _) 1] => rewrite zmax_nat_1
  | |- context [Nat.min ?a (Nat.max (Nat.max ?a _) 1)] => rewrite min_l_max3
  | |- context [Nat.min ?b (Nat.max (Nat.max _ ?b) 1)] => rewrite min_r_max3
  | |- context [Nat.min ?a ?a] => rewrite Nat.min_id
  | |- context [Nat.min ?a (Nat.max ?a _)] => rewrite Nat.max_min_absorption
  | |- context [Nat.min ?b (Nat.max _ ?b)] => rewrite min_r_max
  | H : Nat.min ?a ?b = _ |- context [Nat.min ?a ?b] => rewrite H
  end.


Ltac ocbn := cbn; change (Pos.to_nat 1) with 1%nat; change (Pos.to_nat 2) with 2%nat.

(* one call of the environment on known values; [extsel] and [ostep_unit] are what a unit with a larger environment
   redefines.  String.append is in the list because the name is handed over as "$method." ++ m. *)
Ltac extsel := lazy [ext09g builtin getitem is String.append String.eqb Ascii.eqb Bool.eqb].
Ltac ostep_unit := fail.
Ltac compute_open := repeat (progress (ocbn; repeat first [ostep | ostep_unit])).
Ltac extcall_open := extsel; compute_open.
Ltac extcall := extcall_open; reflexivity.

Ltac ev :=
  lazymatch goal with
  | |- eval _ (EConst _) _ = _ => apply eval_const
  | |- eval _ (EName _) _ = _ => apply eval_name; reflexivity
  | |- eval _ (ETupleLit []) _ = _ => apply ev_tuple_nil
  | |- eval _ (ETupleLit (_ :: _)) _ = _ => eapply ev_tuple_cons; [ev | exact I | ev]
  | |- eval _ (EAttr _ _) _ = _ => etransitivity; [eapply ev_attr_ext; [ev | reflexivity] | extcall]
  | |- eval _ (ESub _ (EConst _)) _ = _ =>
      first [eapply ev_sub_ok; [ev | ev | repeat (progress ocbn); reflexivity]
            | etransitivity; [eapply ev_sub_ext; [ev | ev | reflexivity] | extcall]]
  | |- eval _ (ESub _ _) _ = _ => etransitivity; [eapply ev_sub_ext; [ev | ev | reflexivity] | extcall]
  | |- eval _ (EBin _ _ _) _ = _ =>
      first [etransitivity; [eapply ev_bin_ext; [ev | ev | reflexivity] | extcall]
            | eapply ev_bin_ok; [ev | ev | compute_open; reflexivity]]
  | |- eval _ (ENeg (EConst _)) _ = _ => reflexivity
  | |- eval _ (ECmp _ _ _) _ = _ =>
      first [etransitivity; [eapply ev_cmp_ext; [ev | ev | reflexivity] | extcall]
            | eapply ev_cmp_ok; [ev | ev | reflexivity | compute_open; reflexivity]]
  | |- eval _ (EOr _ _) _ = _ => eapply ev_or; ev
  | |- eval _ (ENot _) _ = _ => eapply ev_not; ev
  | |- eval _ (EMeth _ _ _ []) _ = _ => etransitivity; [eapply ev_meth_ext; [ev | ev | reflexivity] | extcall]
  | |- eval _ (EMeth _ _ [] [_]) _ = _ => etransitivity; [eapply ev_meth_kw; [ev | reflexivity | ev] | extcall]
  | |- eval _ (ECall _ _ []) _ = _ => etransitivity; [eapply ev_call; ev | extcall]
  | |- eval _ (ECall _ _ [_]) _ = _ => etransitivity; [eapply ev_call_kw; ev | extcall]
  end.

Ltac norm_st := lazy [bind assign_all store place_of set_var update vars events String.eqb Ascii.eqb Bool.eqb].
Ltac decide_test :=
  cbn [truthy]; rewrite ?Z.eqb_refl;
  repeat match goal with H : ?b = _ |- context [if ?c then _ else _] => match c with context [b] => rewrite H end end;
  cbn [negb andb orb].

(* [lem] reduces a statement to the value of its expression; the state is behind a name while that is computed *)
Ltac ev_in lem :=
  lazymatch goal with
  | |- _ _ _ (mkState ?v ?e) = _ =>
      let s := fresh "s" in set (s := mkState v e); etransitivity; [lem; ev | subst s]
  end.
Ltac ev_top := ev_in ltac:(idtac); reflexivity.

Ltac run_stmt :=
  lazymatch goal with
  | |- exec _ (SSeq _ _) _ = _ => eapply exec_seq_to; [run_stmt | run_stmt]
  | |- exec _ (SAssign _ _) _ = _ => ev_in ltac:(eapply ex_assign); norm_st; reflexivity
  | |- exec _ (SAssert _) _ = _ => ev_in ltac:(eapply ex_assert); reflexivity
  | |- exec _ (SIf _ _ _) _ = _ => ev_in ltac:(eapply ex_if); decide_test; run_stmt
  | |- exec _ (SReturn _) _ = _ => ev_in ltac:(eapply ex_return); reflexivity
  | |- exec _ _ _ = _ => reflexivity
  end.


(* the part of the body after its first [n] statements, kept behind a name while those are run *)
Ltac tail_at n p := lazymatch n with O => p | S ?k => lazymatch p with SSeq _ ?b => tail_at k b end end.
Ltac hide_tail n := match goal with |- context [exec _ ?p _] => let t := tail_at n p in set (rest := t) end.

(* masked_scatter raises when the source is too short: both sides of a run's statement branch on the same [mscatter] *)
Ltac scatter_cases p :=
  match goal with |- context [option_map _ (mscatter ?m ?d ?x)] => destruct (mscatter m d x) as [p|] eqn:? end; cbn [option_map].

Definition out_gpb (r : Model.res (tn val * tn val)) (st : state) : outcome val :=
  match r with
  | Model.Ok ab => Ok (VTuple [enc_p (fst ab); enc_p (snd ab)]) st
  | Model.ErrValue => Exc value_error st
  | Model.ErrRuntime => Exc runtime_error st
  | Model.ErrNotImpl => Exc not_implemented_error st
  end.

