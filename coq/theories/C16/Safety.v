(* C16 — the checkpoints under crashes, file-name formats WITH the epoch field. *)
From Coq Require Import List Arith Bool ZArith Lia.
From PV Require Import C16.Model C16.Spec C16.Proofs C16.Hist.
Import ListNotations.

(* both format strings contain {epoch} *)
Definition epf (P : params) : Prop := ep_m P = true /\ ep_o P = true.

Lemma pth_ep P k e : epf P -> pth P k e = Ckpt k (Some e).
Proof. intros [Hm Ho]. unfold pth, has_ep. destruct k; rewrite ?Hm, ?Ho; reflexivity. Qed.

Lemma pth_inj P k k' e e' : epf P -> pth P k e = pth P k' e' -> k = k' /\ e = e'.
Proof. intros H. rewrite !(pth_ep P _ _ H). intros E; injection E; auto. Qed.

Lemma pth_not_tmp P k e c k' : pth P k e <> Tmp c k'.
Proof. unfold pth. discriminate. Qed.

(* epoch e is recorded, and both its files hold the parameters of the call that recorded it *)
Definition stored (P : params) (d : disk) (e : nat) : Prop :=
  exists r, In r (csv d) /\ r_epoch r = e /\
            forall k, fs_get (pth P k e) (files d) = Some (r_tag r).

Lemma stored_mono P d d' e :
  incl (csv d) (csv d') -> (forall k, fs_get (pth P k e) (files d') = fs_get (pth P k e) (files d)) ->
  stored P d e -> stored P d' e.
Proof. intros Hc Hf (r & Hin & He & Hg). exists r. split; [apply Hc, Hin|]. split; [exact He|]. intros k. rewrite Hf. apply Hg. Qed.

Lemma stored_appended P d d' r e :
  csv d' = csv d ++ [r] ->
  (forall k, fs_get (pth P k e) (files d') = if Nat.eqb (r_epoch r) e then Some (r_tag r) else fs_get (pth P k e) (files d)) ->
  e = r_epoch r \/ stored P d e -> stored P d' e.
Proof.
  intros Hc. destruct (Nat.eqb_spec (r_epoch r) e) as [<-|Hne]; intros Hg H.
  - exists r. rewrite Hc. split; [apply in_or_app; right; left; reflexivity|]. split; [reflexivity|exact Hg].
  - destruct H as [->|H]; [contradiction|].
    apply (stored_mono P d); [rewrite Hc; apply incl_appl, incl_refl|exact Hg|exact H].
Qed.

(* ---------- shape of one update: keep last and best, epoch formats ---------- *)

Lemma best_snoc_cases b c r :
  best_epoch b (c ++ [r]) = r_epoch r \/ best_epoch b (c ++ [r]) = best_epoch b c.
Proof. rewrite best_epoch_snoc. destruct (lt_inf _ _); auto. Qed.

Lemma save_get_pth P cn e v k e' fs : epf P ->
  fs_get (pth P k e') (fold_left fapply (save_ops P cn e v) fs) = if Nat.eqb e e' then Some v else fs_get (pth P k e') fs.
Proof.
  intros H. rewrite save_ops_get, !(pth_ep P _ _ H). cbn [path_eqb].
  destruct k; cbn [kind_eqb andb oe_eqb]; destruct (Nat.eqb e e'); reflexivity.
Qed.

(* One update with history 1..n on the disk: epoch n+1 is saved, its row appended, then some files are removed: never
   one of the new last or best epoch, and (unless the best epoch is the previous one: nothing is removed then) every
   existing file of the previous last and best epochs that is not of the new best. *)
Lemma klb_update P E d n cn ops r :
  epf P -> klb P = true -> wfh E d n -> attempt P E d cn = Some (Some (ops, r)) ->
  let cb := best_epoch (bt P) (csv d ++ [r]) in
  let lb := best_epoch (bt P) (csv d) in
  r_epoch r = S n /\ r_tag r = pv E cn /\ lb <= n /\ (cb = S n \/ cb = lb) /\
  exists rl,
    ops = save_ops P cn (S n) (pv E cn) ++ Append r :: map Remove rl /\
    (forall k e', In (pth P k e') rl -> e' <> S n /\ e' <> cb) /\
    (forall k e', cb <> n -> e' <> cb -> e' = n \/ e' = lb ->
                  fs_get (pth P k e') (files d) <> None -> In (pth P k e') rl).
Proof.
  intros Hep Hk Hw Ha cb lb.
  destruct (wfh_attempt P E d n cn ops r Hw Ha) as (tr & va & rest & _ & Hu).
  pose proof (wfh_epochs E d n Hw) as Hc. destruct (wfh_cache E d n Hw) as [_ Hl].
  pose proof (update_ops_appends _ _ _ _ _ _ _ _ _ _ Hu) as [Hr _]. rewrite Hl in Hr.
  assert (Hlb : lb <= n) by (apply best_epoch_le; exact Hc).
  assert (Hcb : cb = S n \/ cb = lb).
  { destruct (best_snoc_cases (bt P) (csv d) r) as [H|H]; [left; unfold cb; rewrite H, Hr; reflexivity|right; exact H]. }
  repeat (split; [first [rewrite Hr; reflexivity|assumption]|]).
  unfold update_ops in Hu. cbv zeta in Hu.
  rewrite Hl, Hk, <- Hr, (wfh_fresh E d n r Hw) in Hu by (rewrite Hr; reflexivity). fold cb lb in Hu.
  destruct (negb (Nat.eqb cb (S n)) && _); [discriminate|].
  replace (S n - 1) with n in Hu by lia.
  destruct (Nat.eqb cb n) eqn:Ecb.
  - apply Nat.eqb_eq in Ecb. apply some_pair_inv in Hu as [<- _].
    exists []. split; [reflexivity|]. split; [intros k e' []|]. intros k e' Hne. contradiction.
  - apply Nat.eqb_neq in Ecb.
    (* the new files collide with nothing: the checkpoint is saved before the history *)
    assert (Hif : mem (pth P KM (S n)) [pth P KM n; pth P KM lb; pth P KO n; pth P KO lb]
                  || mem (pth P KO (S n)) [pth P KM n; pth P KM lb; pth P KO n; pth P KO lb] = false).
    { apply orb_false_iff; split; apply mem_false; cbn [In]; intros H;
        repeat (destruct H as [H|H]; [apply (pth_inj P _ _ _ _ Hep) in H; lia|]); exact H. }
    rewrite Hif in Hu. cbn [app] in Hu. apply some_pair_inv in Hu as [<- _].
    eexists. split; [reflexivity|]. split.
    + intros k e' Hq. apply order_by_In in Hq. apply filter_In in Hq as [Hq _]. apply filter_In in Hq as [Hq _].
      apply (proj1 (dedup_In _ _)) in Hq. cbn [In app] in Hq.
      destruct Hq as [Hq|[Hq|Hq]]; [apply (pth_inj P _ _ _ _ Hep) in Hq; lia..|].
      destruct (Nat.eqb lb cb) eqn:El; [destruct Hq|]. apply Nat.eqb_neq in El.
      destruct Hq as [Hq|[Hq|[]]]; apply (pth_inj P _ _ _ _ Hep) in Hq; lia.
    + intros k e' _ Hne He' Hex. apply order_by_In. apply filter_In. split; [apply filter_In; split|].
      * apply dedup_In. destruct He' as [-> | ->].
        -- destruct k; cbn; auto.
        -- right; right. destruct (Nat.eqb lb cb) eqn:El; [apply Nat.eqb_eq in El; contradiction|].
           destruct k; cbn; auto.
      * apply negb_true_iff, orb_false_iff.
        split; apply path_eqb_neq; intros H; apply (pth_inj P _ _ _ _ Hep) in H; lia.
      * unfold exists_b. rewrite apply_ops_files, fold_left_app. cbn [fold_left fapply].
        rewrite save_get_pth by exact Hep. replace (Nat.eqb (S n) e') with false by (symmetry; apply Nat.eqb_neq; lia).
        destruct (fs_get _ (files d)); [reflexivity|contradiction].
Qed.

(* ---------- files after a prefix of such an update ---------------------------- *)

Lemma flat_map_appended_nil l : (forall o, In o l -> appended o = []) -> flat_map appended l = [].
Proof.
  induction l as [|o t IH]; intros H; [reflexivity|]. cbn [flat_map].
  rewrite (H o (or_introl eq_refl)), IH; [reflexivity|]. intros; apply H; right; assumption.
Qed.

Lemma save_prefix_csv P cn e v k d : csv (apply_ops d (firstn k (save_ops P cn e v))) = csv d.
Proof.
  rewrite apply_ops_csv, flat_map_appended_nil, app_nil_r; [reflexivity|].
  intros o Ho. apply In_firstn in Ho. unfold save_ops in Ho. cbn [In] in Ho.
  repeat (destruct Ho as [<-|Ho]; [reflexivity|]). destruct Ho.
Qed.

(* a prefix of the save touches no checkpoint of another epoch *)
Lemma save_prefix_get P cn e v k d kk e' :
  epf P -> e' <> e ->
  fs_get (pth P kk e') (files (apply_ops d (firstn k (save_ops P cn e v)))) = fs_get (pth P kk e') (files d).
Proof.
  intros Hep Hne. rewrite apply_ops_files. apply fold_untouched.
  intros o Ho Hq. apply In_firstn in Ho.
  destruct (save_ops_touches P cn e v o _ Ho Hq) as [H|[H|[H|H]]];
    try (exact (pth_not_tmp _ _ _ _ _ H)); apply (pth_inj P _ _ _ _ Hep) in H; lia.
Qed.

Lemma save_prefix_stored P cn e v k d e' :
  epf P -> e' <> e -> stored P d e' -> stored P (apply_ops d (firstn k (save_ops P cn e v))) e'.
Proof.
  intros Hep Hne. apply stored_mono; [rewrite save_prefix_csv; apply incl_refl|].
  intros kk. apply save_prefix_get; assumption.
Qed.

Lemma save_append_removes_get P cn e v r l d q :
  fs_get q (files (apply_ops d (save_ops P cn e v ++ Append r :: map Remove l))) =
  if mem q l then None
  else if path_eqb (pth P KO e) q then Some v
  else if path_eqb (pth P KM e) q then Some v
  else if path_eqb (Tmp cn KO) q then None
  else if path_eqb (Tmp cn KM) q then None
  else fs_get q (files d).
Proof.
  rewrite apply_ops_files, fold_left_app. cbn [fold_left fapply].
  rewrite fold_removes, save_ops_get. reflexivity.
Qed.

Lemma update_get_pth P cn e v r l d k e' : epf P ->
  fs_get (pth P k e') (files (apply_ops d (save_ops P cn e v ++ Append r :: map Remove l))) =
  if mem (pth P k e') l then None else if Nat.eqb e e' then Some v else fs_get (pth P k e') (files d).
Proof.
  intros H. rewrite apply_ops_files, fold_left_app. cbn [fold_left fapply].
  rewrite fold_removes, save_get_pth by exact H. reflexivity.
Qed.

Lemma save_append_removes_csv P cn e v r l d :
  csv (apply_ops d (save_ops P cn e v ++ Append r :: map Remove l)) = csv d ++ [r].
Proof.
  rewrite apply_ops_csv, flat_map_app, flat_map_appended_save. cbn [flat_map appended app].
  rewrite flat_map_appended_removes. reflexivity.
Qed.

Lemma firstn_save_more P cn e v k (tl : list fsop) :
  firstn k (save_ops P cn e v ++ tl) =
  if Nat.leb k 6 then firstn k (save_ops P cn e v) else save_ops P cn e v ++ firstn (k - 6) tl.
Proof.
  rewrite firstn_app. change (length (save_ops P cn e v)) with 6.
  destruct (Nat.leb k 6) eqn:E.
  - apply Nat.leb_le in E. replace (k - 6) with 0 by lia. cbn [firstn]. apply app_nil_r.
  - apply Nat.leb_gt in E. rewrite firstn_all2 by (cbn; lia). reflexivity.
Qed.

(* ---------- keep last and best: the invariant --------------------------------- *)

Definition inv_lb (P : params) (E : env) (d : disk) (n : nat) : Prop :=
  wfh E d n /\
  forall e, 1 <= e -> (e = n \/ e = best_epoch (bt P) (csv d)) -> stored P d e.

Lemma klb_step_inv P E d n cn ops r k :
  epf P -> klb P = true -> inv_lb P E d n ->
  attempt P E d cn = Some (Some (ops, r)) ->
  exists n', inv_lb P E (apply_ops d (firstn k ops)) n'.
Proof.
  intros Hep Hk [Hw Hst] Ha.
  destruct (klb_update P E d n cn ops r Hep Hk Hw Ha) as (Hre & Htag & Hlb & Hcb & rl & Hops & Hrl & _).
  rewrite Hops, firstn_save_more. destruct (Nat.leb k 6) eqn:Ek.
  - (* died inside the save: nothing recorded, older checkpoints untouched *)
    exists n. split; [apply (wfh_csv E d), Hw; apply save_prefix_csv|].
    intros e0 H1 He0. rewrite save_prefix_csv in He0.
    apply save_prefix_stored; [exact Hep|destruct He0; lia|apply Hst; assumption].
  - (* the save completed and the row was appended; some clean-up may have happened *)
    apply Nat.leb_gt in Ek. destruct (k - 6) as [|j] eqn:Ej; [lia|]. cbn [firstn]. rewrite firstn_map.
    set (d' := apply_ops d _).
    assert (Hcsv : csv d' = csv d ++ [r]) by apply save_append_removes_csv.
    exists (S n). split; [apply (wfh_appended P E d d' n cn ops r Hw Ha Hcsv)|].
    intros e0 H1 He0. rewrite Hcsv in He0.
    assert (Hm : forall kk, mem (pth P kk e0) (firstn j rl) = false).
    { intros kk. apply mem_false. intros Hin. apply In_firstn, Hrl in Hin. destruct He0; lia. }
    apply (stored_appended P d d' r); [exact Hcsv| |].
    + intros kk. unfold d'. rewrite update_get_pth, Hm, Hre, Htag by exact Hep. reflexivity.
    + rewrite Hre. destruct (Nat.eq_dec e0 (S n)); [left; assumption|right; apply Hst; [exact H1|right; lia]].
Qed.

Lemma inv_lb_init P E : inv_lb P E empty_disk 0.
Proof.
  split; [split; [lia|reflexivity]|]. intros e H1 [-> | ->]; [lia|]. cbn in H1. lia.
Qed.

Lemma reach_inv_lb P E d cn :
  epf P -> klb P = true -> reach P E d cn -> exists n, inv_lb P E d n.
Proof.
  intros Hep Hk. induction 1 as [|d cn ops r k _ [n Hi] Ha].
  - exists 0. apply inv_lb_init.
  - apply (klb_step_inv P E d n cn ops r k Hep Hk Hi Ha).
Qed.

(* what a controller started on the files computes as last and best epoch *)
Definition seen_last (d : disk) : nat := last_epoch (read_cache (csv d)).
Definition seen_best (P : params) (d : disk) : nat := best_epoch (bt P) (read_cache (csv d)).

Lemma crash_last_and_best_loadable P E d cn :
  epf P -> klb P = true -> reach P E d cn ->
  forall e, 1 <= e -> (e = seen_last d \/ e = seen_best P d) -> stored P d e.
Proof.
  intros Hep Hk Hre e H1 He.
  destruct (reach_inv_lb P E d cn Hep Hk Hre) as [n [Hw Hst]].
  destruct (wfh_cache E d n Hw) as [Hc Hl].
  unfold seen_last, seen_best in He. rewrite Hc, Hl in He. apply Hst; assumption.
Qed.

(* ---------- keep last and best, no crash: the directory is exactly last + best -- *)

Definition exact_lb (P : params) (d : disk) (n : nat) : Prop :=
  forall q, fs_get q (files d) <> None <->
            exists k e, q = pth P k e /\ 1 <= e /\ (e = n \/ e = best_epoch (bt P) (csv d)).

Lemma klb_full_exact P E d n cn ops r :
  epf P -> klb P = true -> wfh E d n -> exact_lb P d n ->
  attempt P E d cn = Some (Some (ops, r)) ->
  wfh E (apply_ops d ops) (S n) /\ exact_lb P (apply_ops d ops) (S n).
Proof.
  intros Hep Hk Hw Hex Ha.
  destruct (klb_update P E d n cn ops r Hep Hk Hw Ha) as (Hre & Htag & Hlb & Hcb & rl & Hops & Hrl & Hrl2).
  set (cb := best_epoch (bt P) (csv d ++ [r])) in *.
  set (lb := best_epoch (bt P) (csv d)) in *.
  assert (Hcsv : csv (apply_ops d ops) = csv d ++ [r]) by (rewrite Hops; apply save_append_removes_csv).
  split; [apply (wfh_appended P E d _ n cn ops r Hw Ha Hcsv)|].
  intros q. rewrite Hcsv. fold cb. rewrite Hops. split.
  - rewrite save_append_removes_get. intros Hq. destruct (mem q rl) eqn:Em; [contradiction|].
    destruct (path_eqb (pth P KO (S n)) q) eqn:E1; [apply path_eqb_eq in E1; exists KO, (S n); split; [auto|lia]|].
    destruct (path_eqb (pth P KM (S n)) q) eqn:E2; [apply path_eqb_eq in E2; exists KM, (S n); split; [auto|lia]|].
    destruct (path_eqb (Tmp cn KO) q); [contradiction|].
    destruct (path_eqb (Tmp cn KM) q); [contradiction|].
    pose proof Hq as Hq0.
    apply Hex in Hq as (k0 & e0 & -> & H1 & He0). fold lb in He0.
    exists k0, e0. split; [reflexivity|]. split; [exact H1|]. right.
    (* a file of the old last or best epoch that is still there is of the new best epoch *)
    destruct (Nat.eq_dec e0 cb) as [|Hne0]; [assumption|exfalso].
    destruct (Nat.eq_dec cb n) as [Hcn|Hcn]; [destruct He0; lia|].
    apply mem_false in Em. apply Em, Hrl2; assumption.
  - intros (k0 & e0 & -> & H1 & He0). rewrite update_get_pth by exact Hep.
    replace (mem (pth P k0 e0) rl) with false
      by (symmetry; apply mem_false; intros Hin; apply Hrl in Hin; destruct He0; lia).
    destruct (Nat.eqb_spec (S n) e0); [discriminate|].
    apply Hex. exists k0, e0. split; [reflexivity|]. split; [exact H1|]. right. fold lb. lia.
Qed.

Lemma completed_update_dir_exact P E d cn :
  epf P -> klb P = true -> reach_full P E d cn ->
  exists n, wfh E d n /\ exact_lb P d n.
Proof.
  intros Hep Hk. induction 1 as [|d cn ops r _ [n [Hw Hex]] Ha].
  - exists 0. split; [split; [lia|reflexivity]|].
    intros q. cbn. split; [intros H; contradiction|]. intros (k & e & _ & H1 & [->| ->]); lia.
  - exists (S n). apply (klb_full_exact P E d n cn ops r Hep Hk Hw Hex Ha).
Qed.

(* ---------- keep everything ----------------------------------------------------- *)

Lemma all_ops P d c tr va cn v ro ops r :
  klb P = false -> update_ops P d c tr va cn v ro = Some (ops, r) ->
  let e := S (last_epoch c) in
  ops = (if exists_b (files d) (pth P KM e) || exists_b (files d) (pth P KO e)
         then Append r :: save_ops P cn e v else save_ops P cn e v ++ [Append r]).
Proof.
  intros Hk Hu e. pose proof (update_ops_appends _ _ _ _ _ _ _ _ _ _ Hu) as [Hr _].
  unfold update_ops in Hu. cbv zeta in Hu. rewrite Hk in Hu. rewrite <- Hr in Hu.
  apply some_pair_inv in Hu as [<- _]. fold e.
  destruct (exists_b _ _ || exists_b _ _); [|reflexivity]. cbn [app]. rewrite app_nil_r. reflexivity.
Qed.

Definition inv_all (P : params) (E : env) (d : disk) (n : nat) : Prop :=
  wfh E d n /\ forall e, 1 <= e <= n -> stored P d e.

(* no checkpoint file of an epoch later than n *)
Definition none_after (P : params) (d : disk) (n : nat) : Prop :=
  forall k e, n < e -> fs_get (pth P k e) (files d) = None.

Lemma all_full P E d n cn ops r :
  epf P -> klb P = false -> inv_all P E d n -> none_after P d (S n) ->
  attempt P E d cn = Some (Some (ops, r)) ->
  inv_all P E (apply_ops d ops) (S n) /\ none_after P (apply_ops d ops) (S n).
Proof.
  intros Hep Hk [Hw Hst] Hna Ha.
  destruct (wfh_attempt P E d n cn ops r Hw Ha) as (tr & va & rest & Es & Hu).
  pose proof (update_ops_appends _ _ _ _ _ _ _ _ _ _ Hu) as [Hr Happ].
  pose proof (all_ops _ _ _ _ _ _ _ _ _ _ Hk Hu) as Hops. cbv zeta in Hops.
  destruct (wfh_cache E d n Hw) as [_ Hl]. rewrite Hl in Hr, Hops.
  assert (Hcsv : csv (apply_ops d ops) = csv d ++ [r]) by (rewrite apply_ops_csv, Happ; reflexivity).
  assert (Hget : forall k e, fs_get (pth P k e) (files (apply_ops d ops)) =
                   if Nat.eqb (S n) e then Some (pv E cn) else fs_get (pth P k e) (files d)).
  { intros k e. rewrite Hops, apply_ops_files. destruct (exists_b _ _ || exists_b _ _).
    - cbn [fold_left fapply]. apply save_get_pth, Hep.
    - rewrite fold_left_app. cbn [fold_left fapply]. apply save_get_pth, Hep. }
  split; [split; [apply (wfh_appended P E d _ n cn ops r Hw Ha Hcsv)|]|].
  - intros e He. apply (stored_appended P d _ r); [exact Hcsv|rewrite Hr; intros kk; apply Hget|].
    rewrite Hr. destruct (Nat.eq_dec e (S n)); [left; assumption|right; apply Hst; lia].
  - intros kk e He. rewrite Hget. destruct (Nat.eqb_spec (S n) e); [lia|]. apply Hna; lia.
Qed.

Lemma all_prefix P E d n cn ops r k :
  epf P -> klb P = false -> inv_all P E d n -> none_after P d n ->
  attempt P E d cn = Some (Some (ops, r)) ->
  let d' := apply_ops d (firstn k ops) in
  (inv_all P E d' n /\ none_after P d' (S n)) \/ (inv_all P E d' (S n) /\ none_after P d' (S n)).
Proof.
  intros Hep Hk Hi Hna Ha d'. pose proof Hi as [Hw Hst].
  destruct (wfh_attempt P E d n cn ops r Hw Ha) as (tr & va & rest & Es & Hu).
  pose proof (all_ops _ _ _ _ _ _ _ _ _ _ Hk Hu) as Hops. cbv zeta in Hops.
  destruct (wfh_cache E d n Hw) as [_ Hl]. rewrite Hl in Hops.
  unfold exists_b in Hops. rewrite !Hna in Hops by lia. cbn [orb] in Hops.
  destruct (Nat.leb k 6) eqn:Ek.
  - left. unfold d'. rewrite Hops, firstn_save_more, Ek. split; [split|].
    + apply (wfh_csv E d), Hw. apply save_prefix_csv.
    + intros e He. apply save_prefix_stored; [exact Hep|lia|apply Hst, He].
    + intros kk e He. rewrite save_prefix_get; [apply Hna; lia|exact Hep|lia].
  - right. apply Nat.leb_gt in Ek.
    assert (Hall : firstn k ops = ops).
    { apply firstn_all2. rewrite Hops, app_length. cbn. lia. }
    unfold d'. rewrite Hall. apply (all_full P E d n cn ops r Hep Hk Hi); [|exact Ha].
    intros kk e He. apply Hna. lia.
Qed.

Lemma reach_c1_inv P E d cn :
  epf P -> klb P = false -> reach_c1 P E d cn ->
  exists n, inv_all P E d n /\ none_after P d n.
Proof.
  intros Hep Hk. induction 1 as [|d cn ops r _ [n [Hi Hna]] Ha|d cn ops r k ops' r' _ [n [Hi Hna]] Ha Ha'].
  - exists 0. split; [split; [split; [lia|reflexivity]|intros e He; lia]|intros k e _; reflexivity].
  - exists (S n). apply (all_full P E d n cn ops r Hep Hk Hi); [|exact Ha].
    intros kk e He. apply Hna. lia.
  - destruct (all_prefix P E d n cn ops r k Hep Hk Hi Hna Ha) as [[Hi' Hna']|[Hi' Hna']].
    + exists (S n). apply (all_full P E _ n (S cn) ops' r' Hep Hk Hi' Hna' Ha').
    + exists (S (S n)). apply (all_full P E _ (S n) (S cn) ops' r' Hep Hk Hi'); [|exact Ha'].
      intros kk e He. apply Hna'. lia.
Qed.

Lemma keep_all_every_epoch_loadable P E d cn :
  epf P -> klb P = false -> reach1 P E d cn ->
  forall e, 1 <= e <= seen_last d -> stored P d e.
Proof.
  intros Hep Hk Hre.
  assert (Hinv : exists n, inv_all P E d n).
  { destruct Hre as [d cn Hc|d cn ops r k Hc Ha].
    - destruct (reach_c1_inv P E d cn Hep Hk Hc) as [n [Hi _]]. exists n; exact Hi.
    - destruct (reach_c1_inv P E d cn Hep Hk Hc) as [n [Hi Hna]].
      destruct (all_prefix P E d n cn ops r k Hep Hk Hi Hna Ha) as [[Hi' _]|[Hi' _]]; eauto. }
  destruct Hinv as [n [Hw Hst]]. destruct (wfh_cache E d n Hw) as [Hc Hl].
  intros e He. unfold seen_last in He. rewrite Hc, Hl in He. apply Hst; exact He.
Qed.
