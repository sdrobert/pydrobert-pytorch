(* C16 — the executable run of the correspondence ([seg], [start], [run_schedule]) only visits
   disks of the relation [reach]; hence the boolean spec accepts the model's observations. *)
From Coq Require Import List Arith Bool ZArith Lia.
From PV Require Import C16.Model C16.Spec C16.Proofs C16.Hist C16.Safety.
Import ListNotations.

Definition cn_of (x : disk * nat * outcome * list logent) : nat := snd (fst (fst x)).
Definition oc_of (x : disk * nat * outcome * list logent) : outcome := snd (fst x).
Definition lg_of (x : disk * nat * outcome * list logent) : list logent := snd x.

Lemma wfh_attempt_eq P E d n cn tr va rest :
  wfh E d n -> skipn n (ms E) = (tr, va) :: rest ->
  attempt P E d cn = Some (update_ops P d (csv d) tr va cn (pv E cn) (ro E cn)).
Proof.
  intros Hw Es. destruct (wfh_cache E d n Hw) as [Hc Hl].
  unfold attempt. rewrite Hc, Hl, Es. reflexivity.
Qed.

Lemma seg_reach P E rest : forall d cn b n,
  reach P E d cn -> wfh E d n -> skipn n (ms E) = rest ->
  reach P E (disk_of (seg P E rest d (csv d) cn b)) (cn_of (seg P E rest d (csv d) cn b)).
Proof.
  induction rest as [|[tr va] rest IH]; intros d cn b n Hre Hw Es; [exact Hre|].
  pose proof (wfh_attempt_eq P E d n cn tr va rest Hw Es) as Ha.
  cbn [seg].
  destruct (update_ops P d (csv d) tr va cn (pv E cn) (ro E cn)) as [[ops r]|] eqn:U; [|exact Hre].
  destruct (match b with Some b0 => Nat.ltb b0 (length ops) | None => false end).
  - cbn. apply (reach_step P E d cn ops r _ Hre Ha).
  - pose proof (reach_step P E d cn ops r (length ops) Hre Ha) as Hre'. rewrite firstn_all in Hre'.
    pose proof (update_ops_appends _ _ _ _ _ _ _ _ _ _ U) as [Hr Happ].
    assert (Hcsv : csv (apply_ops d ops) = csv d ++ [r]) by (rewrite apply_ops_csv, Happ; reflexivity).
    pose proof (wfh_appended P E d _ n cn ops r Hw Ha Hcsv) as Hw'.
    assert (Hcache : cache_set r (csv d) = csv (apply_ops d ops)).
    { rewrite Hcsv. apply (wfh_fresh E d n r Hw). rewrite Hr, (proj2 (wfh_cache E d n Hw)). reflexivity. }
    rewrite Hcache.
    specialize (IH (apply_ops d ops) (S cn)
                   (match b with Some b0 => Some (b0 - length ops) | None => None end) (S n)
                   Hre' Hw' (skipn_cons_S n (ms E) (tr, va) rest Es)).
    destruct (seg P E rest (apply_ops d ops) (csv (apply_ops d ops)) (S cn) _) as [[[d'' cn''] oc] lg].
    exact IH.
Qed.

Lemma start_reach P E d cn b :
  reach P E d cn -> reach P E (disk_of (start P E d cn b)) (cn_of (start P E d cn b)).
Proof.
  intros Hre. destruct (reach_wfh P E d cn Hre) as [n Hw].
  destruct (wfh_cache E d n Hw) as [Hc Hl].
  unfold start. rewrite Hc, Hl. apply (seg_reach P E _ d cn b n Hre Hw eq_refl).
Qed.

Lemma run_schedule_reach P E crashes : forall d cn,
  reach P E d cn -> forall o, In o (run_schedule P E d cn crashes) ->
  exists d' cn', reach P E d' cn' /\ o = observe P d' (o_outcome o) (o_log o).
Proof.
  induction crashes as [|b more IH]; intros d cn Hre o Hin; cbn [run_schedule] in Hin.
  - pose proof (start_reach P E d cn None Hre) as H.
    destruct (start P E d cn None) as [[[d' cn'] oc] lg]. cbn in H.
    destruct Hin as [<-|[]]. exists d', cn'. split; [exact H|reflexivity].
  - pose proof (start_reach P E d cn (Some b) Hre) as H.
    destruct (start P E d cn (Some b)) as [[[d' cn'] oc] lg]. cbn in H.
    destruct Hin as [<-|Hin]; [exists d', cn'; split; [exact H|reflexivity]|].
    destruct oc; try (destruct Hin). apply (IH d' cn' H o Hin).
Qed.

Lemma run_observes_reachable P E crashes o :
  In o (run_schedule P E empty_disk 0 crashes) ->
  exists d cn, reach P E d cn /\ o = observe P d (o_outcome o) (o_log o).
Proof. apply run_schedule_reach. apply reach_init. Qed.

(* ---------- the boolean spec on such observations ---------------------------- *)

Lemma hrow_eqb_refl x : hrow_eqb x x = true.
Proof. unfold hrow_eqb. rewrite Nat.eqb_refl, !Z.eqb_refl. reflexivity. Qed.

Lemma list_eqb_refl {A} (eqb : A -> A -> bool) (l : list A) :
  (forall x, eqb x x = true) -> list_eqb eqb l l = true.
Proof. intros H. induction l as [|x t IH]; cbn; [reflexivity|]. rewrite H, IH. reflexivity. Qed.

Lemma fold_max_seq n : forall a, fold_right Nat.max 0 (seq a n) = match n with 0 => 0 | _ => a + n - 1 end.
Proof.
  induction n as [|n IH]; intros a; [reflexivity|]. cbn [seq fold_right]. rewrite IH.
  destruct n; lia.
Qed.

Lemma find_row_nodup (l : list row) r e :
  NoDup (map r_epoch l) -> In r l -> r_epoch r = e ->
  find (fun x => Nat.eqb (r_epoch x) e) l = Some r.
Proof.
  induction l as [|x t IH]; intros Hnd Hin He; [destruct Hin|]. cbn [find map] in *.
  apply NoDup_cons_iff in Hnd as [Hx Hnd].
  destruct Hin as [->|Hin].
  - rewrite He, Nat.eqb_refl. reflexivity.
  - destruct (Nat.eqb (r_epoch x) e) eqn:E.
    + apply Nat.eqb_eq in E. exfalso. apply Hx. rewrite E, <- He. apply in_map; exact Hin.
    + apply IH; assumption.
Qed.

Lemma find_loads {B} (g : nat -> B) e : forall a len, a <= e < a + len ->
  find (fun x : nat * B => Nat.eqb (fst x) e) (map (fun i => (i, g i)) (seq a len)) = Some (e, g e).
Proof.
  intros a len; revert a; induction len as [|len IH]; intros a H; [lia|].
  cbn [seq map find fst]. destruct (Nat.eqb a e) eqn:E.
  - apply Nat.eqb_eq in E; subst; reflexivity.
  - apply Nat.eqb_neq in E. apply IH. lia.
Qed.

Lemma loads_ok_observe P E d n oc lg e :
  wfh E d n -> 1 <= e <= n -> stored P d e -> loads_ok (observe P d oc lg) e = true.
Proof.
  intros Hw He (r & Hin & Hre & Hf).
  destruct (wfh_cache E d n Hw) as [Hc Hl].
  unfold loads_ok, observe. cbn [o_hist o_loads]. rewrite Hc, Hl.
  rewrite (find_row_nodup (csv d) r e); [|rewrite (wfh_epochs E d n Hw); apply seq_NoDup|exact Hin|exact Hre].
  rewrite (find_loads (load P d) e 1 n) by lia.
  unfold load. rewrite !Hf, Z.eqb_refl. reflexivity.
Qed.

(* get_best_epoch's fold computes the declarative best epoch: the earliest recorded epoch
   whose metric no recorded epoch beats *)
Definition Best (b : bool) (c : cache) (be : nat) (bm : option Z) : Prop :=
  (c = [] /\ be = 0 /\ bm = None) \/
  (exists r, In r c /\ r_epoch r = be /\ bm = Some (met b r) /\
             (forall r', In r' c -> (met b r <= met b r')%Z) /\
             (forall r', In r' c -> r_epoch r' < be -> (met b r < met b r')%Z)).

Lemma best_state_snoc b c x : best_state b (c ++ [x]) = best_step b (best_state b c) x.
Proof. unfold best_state. rewrite fold_left_app. reflexivity. Qed.

Lemma best_state_spec b : forall n a c, map r_epoch c = seq a n ->
  Best b c (fst (best_state b c)) (snd (best_state b c)).
Proof.
  induction n as [|n IH]; intros a c Hc.
  - destruct c; [|discriminate]. left. repeat split.
  - rewrite seq_S in Hc.
    destruct (exists_last (l := c)) as [c' [x ->]].
    { intros ->. cbn in Hc. destruct (seq a n); discriminate. }
    rewrite map_app in Hc. cbn [map] in Hc. apply app_inj_tail in Hc as [Hc' Hx].
    assert (Hlt : forall r', In r' c' -> r_epoch r' < r_epoch x).
    { intros r' Hin. apply (in_map r_epoch) in Hin. rewrite Hc' in Hin. apply in_seq in Hin. lia. }
    specialize (IH a c' Hc'). rewrite best_state_snoc.
    destruct (best_state b c') as [be bm]. cbn [fst snd] in IH. unfold best_step. cbn [snd].
    right. destruct IH as [(-> & -> & ->)|(r & Hin & Hre & -> & Hle & Hlt')].
    + cbn [lt_inf fst snd]. exists x. repeat split; try (apply in_or_app; right; left; reflexivity).
      * intros r' [[]|[<-|[]]]%in_app_or. lia.
      * intros r' [[]|[<-|[]]]%in_app_or. lia.
    + cbn [lt_inf]. destruct (Z.ltb (met b x) (met b r)) eqn:E; cbn [fst snd].
      * apply Z.ltb_lt in E. exists x. repeat split; try (apply in_or_app; right; left; reflexivity).
        -- intros r' [Hr'|[<-|[]]]%in_app_or; [specialize (Hle r' Hr')|]; lia.
        -- intros r' [Hr'|[<-|[]]]%in_app_or Hlt2; [specialize (Hle r' Hr')|]; lia.
      * apply Z.ltb_ge in E. exists r. repeat split; try assumption; try (apply in_or_app; left; exact Hin).
        -- intros r' [Hr'|[<-|[]]]%in_app_or; [apply Hle; exact Hr'|lia].
        -- intros r' [Hr'|[<-|[]]]%in_app_or Hlt2; [apply Hlt'; assumption|].
           specialize (Hlt r Hin). lia.
Qed.

Lemma best_epoch_is_best b c n : map r_epoch c = seq 1 n -> is_best_b b c (best_epoch b c) = true.
Proof.
  intros Hc. pose proof (best_state_spec b n 1 c Hc) as H. unfold best_epoch. fold (best_state b c).
  destruct H as [(-> & _ & _)|(r & Hin & Hre & _ & Hle & Hlt)]; [reflexivity|].
  unfold is_best_b. destruct c as [|y t]; [destruct Hin|].
  apply existsb_exists. exists r. split; [exact Hin|].
  rewrite Hre, Nat.eqb_refl. cbn [andb]. apply andb_true_iff; split; apply forallb_forall; intros r' Hr'.
  - apply Z.leb_le, Hle, Hr'.
  - destruct (Nat.ltb (r_epoch r') (fst (best_state b (y :: t)))) eqn:E; [|reflexivity].
    apply Nat.ltb_lt in E. cbn [negb orb]. apply Z.ltb_lt, Hlt; assumption.
Qed.

Lemma spec_accepts_model_klb P E crashes o :
  epf P -> klb P = true ->
  In o (run_schedule P E empty_disk 0 crashes) ->
  p_last o = true /\ p_best P o = true /\ p_prefix (csv (final P E empty_disk 0)) o = true.
Proof.
  intros Hep Hk Hin.
  destruct (run_observes_reachable P E crashes o Hin) as (d & cn & Hre & ->).
  destruct (reach_inv_lb P E d cn Hep Hk Hre) as [n [Hw Hst]].
  destruct (wfh_cache E d n Hw) as [Hc Hl].
  split; [|split].
  - unfold p_last. cbn [observe o_last o_hist]. rewrite Hc, Hl.
    unfold spec_last. rewrite (wfh_epochs E d n Hw), fold_max_seq.
    destruct n as [|n']; [reflexivity|].
    replace (1 + S n' - 1) with (S n') by lia. rewrite Nat.eqb_refl. cbn [andb orb Nat.eqb].
    apply (loads_ok_observe P E d (S n')); [exact Hw|lia|]. apply Hst; [lia|left; reflexivity].
  - unfold p_best. cbn [observe o_best o_hist]. rewrite Hc.
    rewrite (best_epoch_is_best (bt P) (csv d) n (wfh_epochs E d n Hw)). cbn [andb].
    destruct (Nat.eqb (best_epoch (bt P) (csv d)) 0) eqn:E0; [reflexivity|]. cbn [orb].
    apply Nat.eqb_neq in E0.
    pose proof (best_epoch_le (bt P) (csv d) n (wfh_epochs E d n Hw)) as Hle.
    apply (loads_ok_observe P E d n); [exact Hw|lia|]. apply Hst; [lia|right; reflexivity].
  - unfold p_prefix, prefix_b. cbn [observe o_hist].
    rewrite map_length. rewrite <- (crash_history_is_prefix P E d cn Hre).
    apply list_eqb_refl, hrow_eqb_refl.
Qed.
