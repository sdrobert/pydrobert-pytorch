(* C16 — the history file under crashes: it is always a prefix of the uninterrupted one, and
   continuing ends with the uninterrupted one.  Every retention mode, every format. *)
From Coq Require Import List Arith Bool ZArith Lia.
From PV Require Import C16.Model C16.Spec C16.Proofs.
Import ListNotations.

(* ---------- one update appends exactly one row ---------------------------- *)

Lemma flat_map_appended_removes l : flat_map appended (map Remove l) = [].
Proof. induction l; cbn; auto. Qed.

Lemma flat_map_appended_save P cn e v : flat_map appended (save_ops P cn e v) = [].
Proof. reflexivity. Qed.

Lemma some_pair_inv {A B} (a x : A) (b y : B) : Some (a, b) = Some (x, y) -> a = x /\ b = y.
Proof. intros H; injection H; auto. Qed.

Lemma update_ops_appends P d c tr va cn v ro ops r :
  update_ops P d c tr va cn v ro = Some (ops, r) ->
  r = mkRow (S (last_epoch c)) tr va v /\ flat_map appended ops = [r].
Proof.
  unfold update_ops. cbv zeta. intros H.
  destruct (klb P).
  - destruct (negb _ && _); [discriminate|].
    destruct (Nat.eqb _ (S (last_epoch c) - 1)).
    + apply some_pair_inv in H as [<- <-]. split; [reflexivity|].
      rewrite flat_map_app, flat_map_appended_save. reflexivity.
    + apply some_pair_inv in H as [<- <-]. split; [reflexivity|].
      rewrite !flat_map_app, flat_map_appended_save, flat_map_appended_removes.
      destruct (mem _ _ || mem _ _); reflexivity.
  - apply some_pair_inv in H as [<- <-]. split; [reflexivity|].
    rewrite !flat_map_app, flat_map_appended_save.
    destruct (exists_b _ _ || exists_b _ _); reflexivity.
Qed.

Lemma prefix_appends ops (r : row) k :
  flat_map appended ops = [r] ->
  flat_map appended (firstn k ops) = [] \/ flat_map appended (firstn k ops) = [r].
Proof.
  intros H. rewrite <- (firstn_skipn k ops), flat_map_app in H.
  destruct (flat_map appended (firstn k ops)) as [|x [|y t]]; [left; reflexivity| |].
  - right. cbn in H. injection H as -> _. reflexivity.
  - cbn in H. injection H as _ H. discriminate.
Qed.

(* ---------- the history table ---------------------------------------------- *)

Lemma hist_from_fst e l n : n <= length l -> map fst (firstn n (hist_from e l)) = seq e n.
Proof.
  revert e l; induction n as [|n IH]; intros e [|m t] H; cbn in *; try reflexivity; try lia.
  f_equal. apply IH. lia.
Qed.

Lemma hist_from_step e l n x rest :
  skipn n l = x :: rest ->
  firstn (S n) (hist_from e l) = firstn n (hist_from e l) ++ [(e + n, x)].
Proof.
  revert e l; induction n as [|n IH]; intros e [|m t] H; cbn [skipn] in H; try discriminate.
  - injection H as -> ->. cbn. rewrite Nat.add_0_r. reflexivity.
  - cbn [hist_from]. rewrite !firstn_cons, (IH (S e) t H). cbn [app].
    replace (S e + n) with (e + S n) by lia. reflexivity.
Qed.

Lemma skipn_cons_length {A} n (l : list A) x rest : skipn n l = x :: rest -> n < length l.
Proof.
  revert l; induction n as [|n IH]; intros [|y t] H; cbn in *; try discriminate; try lia.
  apply IH in H. lia.
Qed.

Lemma skipn_cons_S {A} n (l : list A) x rest : skipn n l = x :: rest -> skipn (S n) l = rest.
Proof.
  revert l; induction n as [|n IH]; intros [|y t] H; cbn [skipn] in *; try discriminate.
  - injection H as _ ->. reflexivity.
  - apply IH in H. exact H.
Qed.

(* the recorded history is the first n rows of the table *)
Definition wfh (E : env) (d : disk) (n : nat) : Prop :=
  n <= length (ms E) /\ map hrow (csv d) = firstn n (hist_from 1 (ms E)).

Lemma wfh_epochs E d n : wfh E d n -> map r_epoch (csv d) = seq 1 n.
Proof.
  intros [Hn H]. rewrite <- (hist_from_fst 1 (ms E) n Hn), <- H, map_map. reflexivity.
Qed.

Lemma wfh_cache E d n : wfh E d n -> read_cache (csv d) = csv d /\ last_epoch (csv d) = n.
Proof.
  intros H. pose proof (wfh_epochs E d n H) as He. split.
  - apply read_cache_nodup. rewrite He. apply seq_NoDup.
  - apply last_epoch_seq; exact He.
Qed.

Lemma wfh_fresh E d n r : wfh E d n -> r_epoch r = S n -> cache_set r (csv d) = csv d ++ [r].
Proof.
  intros Hw He. apply cache_set_fresh. rewrite (wfh_epochs E d n Hw), He. intros Hin. apply in_seq in Hin. lia.
Qed.

Lemma wfh_attempt P E d n cn ops r :
  wfh E d n -> attempt P E d cn = Some (Some (ops, r)) ->
  exists tr va rest, skipn n (ms E) = (tr, va) :: rest /\
    update_ops P d (csv d) tr va cn (pv E cn) (ro E cn) = Some (ops, r).
Proof.
  intros Hw H. unfold attempt in H. destruct (wfh_cache E d n Hw) as [Hc Hl].
  rewrite Hc, Hl in H. destruct (skipn n (ms E)) as [|[tr va] rest] eqn:Es; [discriminate|].
  injection H as H. exists tr, va, rest. split; [reflexivity|exact H].
Qed.

Lemma wfh_step P E d n cn ops r k :
  wfh E d n -> attempt P E d cn = Some (Some (ops, r)) ->
  let d' := apply_ops d (firstn k ops) in
  (csv d' = csv d /\ wfh E d' n) \/ (csv d' = csv d ++ [r] /\ wfh E d' (S n) /\ r_epoch r = S n).
Proof.
  intros Hw Ha d'. destruct (wfh_attempt P E d n cn ops r Hw Ha) as (tr & va & rest & Es & Hu).
  destruct (wfh_cache E d n Hw) as [Hc Hl].
  apply update_ops_appends in Hu as [Hr Happ]. rewrite Hl in Hr.
  unfold d'. destruct (prefix_appends ops r k Happ) as [H0|H1].
  - left. rewrite apply_ops_csv, H0, app_nil_r. split; [reflexivity|].
    destruct Hw as [Hn Hh]. split; [exact Hn|]. rewrite apply_ops_csv, H0, app_nil_r. exact Hh.
  - right. rewrite apply_ops_csv, H1. split; [reflexivity|]. split; [|subst r; reflexivity].
    destruct Hw as [Hn Hh]. split.
    + apply skipn_cons_length in Es. lia.
    + rewrite apply_ops_csv, H1, map_app, Hh, (hist_from_step 1 (ms E) n (tr, va) rest Es).
      subst r. reflexivity.
Qed.

Lemma wfh_csv E d d' n : csv d' = csv d -> wfh E d n -> wfh E d' n.
Proof. unfold wfh. intros ->. auto. Qed.

Lemma wfh_appended P E d d' n cn ops r :
  wfh E d n -> attempt P E d cn = Some (Some (ops, r)) -> csv d' = csv d ++ [r] -> wfh E d' (S n).
Proof.
  intros Hw Ha Hc. destruct (wfh_attempt P E d n cn ops r Hw Ha) as (tr & va & rest & _ & Hu).
  apply update_ops_appends in Hu as [_ Happ].
  destruct (wfh_step P E d n cn ops r (length ops) Hw Ha) as [[H _]|[_ [H _]]]; rewrite firstn_all in H.
  - rewrite apply_ops_csv, Happ in H. apply (f_equal (@length _)) in H. rewrite app_length in H. cbn in H. lia.
  - unfold wfh in *. rewrite Hc. rewrite apply_ops_csv, Happ in H. exact H.
Qed.

Lemma reach_wfh P E d cn : reach P E d cn -> exists n, wfh E d n.
Proof.
  induction 1 as [|d cn ops r k _ [n Hw] Ha].
  - exists 0. split; [lia|reflexivity].
  - destruct (wfh_step P E d n cn ops r k Hw Ha) as [[_ H]|[_ [H _]]]; eauto.
Qed.

(* ---------- decisions depend on epochs and metrics only --------------------- *)

Lemma last_epoch_hrow c1 c2 : map hrow c1 = map hrow c2 -> last_epoch c1 = last_epoch c2.
Proof. apply fold_hrow. intros m x y E. unfold hrow in E. injection E as -> _ _. reflexivity. Qed.

Lemma cache_set_hrow r1 r2 c1 c2 :
  hrow r1 = hrow r2 -> map hrow c1 = map hrow c2 ->
  map hrow (cache_set r1 c1) = map hrow (cache_set r2 c2).
Proof.
  intros Hr. assert (Er : r_epoch r1 = r_epoch r2) by (unfold hrow in Hr; injection Hr; auto).
  revert c2; induction c1 as [|x t IH]; intros [|y u] H; try discriminate; cbn [cache_set map].
  - rewrite Hr; reflexivity.
  - cbn [map] in H.
    pose proof (f_equal (@hd _ (hrow x)) H) as Hxy. pose proof (f_equal (@tl _) H) as Ht.
    cbn [hd tl] in Hxy, Ht.
    assert (Ex : r_epoch x = r_epoch y) by (unfold hrow in Hxy; injection Hxy; auto).
    rewrite Ex, Er. destruct (Nat.eqb (r_epoch y) (r_epoch r2)); cbn [map].
    + rewrite Hr, Ht; reflexivity.
    + rewrite Hxy, (IH u Ht); reflexivity.
Qed.

Lemma update_ops_none_hrow P d1 d2 c1 c2 tr va cn1 cn2 v1 v2 ro1 ro2 :
  map hrow c1 = map hrow c2 ->
  (update_ops P d1 c1 tr va cn1 v1 ro1 = None <-> update_ops P d2 c2 tr va cn2 v2 ro2 = None).
Proof.
  intros H. unfold update_ops. cbv zeta.
  rewrite (last_epoch_hrow c1 c2 H).
  set (e := S (last_epoch c2)).
  assert (Hb : best_epoch (bt P) (cache_set (mkRow e tr va v1) c1) =
               best_epoch (bt P) (cache_set (mkRow e tr va v2) c2)).
  { apply best_epoch_hrow, cache_set_hrow; [reflexivity|exact H]. }
  rewrite Hb.
  destruct (klb P); [|split; discriminate].
  destruct (negb _ && _); [tauto|].
  destruct (Nat.eqb _ (e - 1)); split; discriminate.
Qed.

(* ---------- continuing gives the uninterrupted history ---------------------- *)

Definition disk_of (x : disk * nat * outcome * list logent) : disk := fst (fst (fst x)).

Lemma seg_cons_none P E tr va rest d c cn :
  update_ops P d c tr va cn (pv E cn) (ro E cn) = None ->
  disk_of (seg P E ((tr, va) :: rest) d c cn None) = d.
Proof. intros H. cbn [seg]. rewrite H. reflexivity. Qed.

Lemma seg_cons_some P E tr va rest d c cn ops r :
  update_ops P d c tr va cn (pv E cn) (ro E cn) = Some (ops, r) ->
  disk_of (seg P E ((tr, va) :: rest) d c cn None) =
  disk_of (seg P E rest (apply_ops d ops) (cache_set r c) (S cn) None).
Proof.
  intros H. cbn [seg]. rewrite H.
  destruct (seg P E rest (apply_ops d ops) (cache_set r c) (S cn) None) as [[[d'' cn'] oc] lg].
  reflexivity.
Qed.

Lemma seg_congr P E rest : forall d1 d2 c1 c2 cn1 cn2,
  map hrow c1 = map hrow c2 -> map hrow (csv d1) = map hrow (csv d2) ->
  map hrow (csv (disk_of (seg P E rest d1 c1 cn1 None))) =
  map hrow (csv (disk_of (seg P E rest d2 c2 cn2 None))).
Proof.
  induction rest as [|[tr va] rest IH]; intros d1 d2 c1 c2 cn1 cn2 Hc Hd; [exact Hd|].
  pose proof (update_ops_none_hrow P d1 d2 c1 c2 tr va cn1 cn2 (pv E cn1) (pv E cn2) (ro E cn1) (ro E cn2) Hc) as [Hn1 Hn2].
  destruct (update_ops P d1 c1 tr va cn1 (pv E cn1) (ro E cn1)) as [[ops1 r1]|] eqn:U1,
           (update_ops P d2 c2 tr va cn2 (pv E cn2) (ro E cn2)) as [[ops2 r2]|] eqn:U2;
    try (exfalso; first [discriminate (Hn1 eq_refl)|discriminate (Hn2 eq_refl)]).
  - rewrite (seg_cons_some P E tr va rest d1 c1 cn1 ops1 r1 U1),
            (seg_cons_some P E tr va rest d2 c2 cn2 ops2 r2 U2).
    apply update_ops_appends in U1 as [R1 A1]. apply update_ops_appends in U2 as [R2 A2].
    assert (Hr : hrow r1 = hrow r2).
    { subst r1 r2. unfold hrow; cbn. rewrite (last_epoch_hrow c1 c2 Hc). reflexivity. }
    apply IH.
    + apply cache_set_hrow; assumption.
    + rewrite !apply_ops_csv, A1, A2, !map_app, Hd. cbn [map]. rewrite Hr. reflexivity.
  - rewrite (seg_cons_none P E tr va rest d1 c1 cn1 U1), (seg_cons_none P E tr va rest d2 c2 cn2 U2).
    exact Hd.
Qed.

Lemma final_unfold P E d cn :
  final P E d cn = disk_of (seg P E (skipn (last_epoch (read_cache (csv d))) (ms E)) d (read_cache (csv d)) cn None).
Proof. reflexivity. Qed.

Lemma continue_same_history P E d cn :
  reach P E d cn ->
  map hrow (csv (final P E d cn)) = map hrow (csv (final P E empty_disk 0)).
Proof.
  induction 1 as [|d cn ops r k Hre IH Ha]; [reflexivity|].
  destruct (reach_wfh P E d cn Hre) as [n Hw].
  destruct (wfh_attempt P E d n cn ops r Hw Ha) as (tr & va & rest & Es & Hu).
  destruct (wfh_cache E d n Hw) as [Hc Hl].
  rewrite <- IH. rewrite (final_unfold P E d cn), Hc, Hl, Es.
  destruct (wfh_step P E d n cn ops r k Hw Ha) as [[Hcsv Hw']|[Hcsv [Hw' He]]].
  - (* the row was not yet appended: the retry meets the same cache and the same history file *)
    destruct (wfh_cache E _ n Hw') as [Hc' Hl'].
    rewrite final_unfold, Hc', Hl', Es, Hcsv.
    apply seg_congr; [reflexivity|rewrite Hcsv; reflexivity].
  - (* the row is there: the new process starts at the next epoch *)
    rewrite (seg_cons_some P E tr va rest d (csv d) cn ops r Hu).
    apply update_ops_appends in Hu as [_ Happ].
    destruct (wfh_cache E _ (S n) Hw') as [Hc' Hl'].
    rewrite final_unfold, Hc', Hl', (skipn_cons_S n (ms E) (tr, va) rest Es).
    apply seg_congr.
    + rewrite Hcsv, (wfh_fresh E d n r Hw He). reflexivity.
    + rewrite Hcsv, apply_ops_csv, Happ. reflexivity.
Qed.

(* the history only grows *)
Lemma seg_grows P E rest : forall d c cn, exists l, csv (disk_of (seg P E rest d c cn None)) = csv d ++ l.
Proof.
  induction rest as [|[tr va] rest IH]; intros d c cn.
  - exists []. cbn. rewrite app_nil_r. reflexivity.
  - destruct (update_ops P d c tr va cn (pv E cn) (ro E cn)) as [[ops r]|] eqn:U.
    + rewrite (seg_cons_some P E tr va rest d c cn ops r U).
      destruct (IH (apply_ops d ops) (cache_set r c) (S cn)) as [l Hl].
      rewrite Hl, apply_ops_csv, <- app_assoc. eexists; reflexivity.
    + rewrite (seg_cons_none P E tr va rest d c cn U). exists []. rewrite app_nil_r. reflexivity.
Qed.

Lemma crash_history_is_prefix P E d cn :
  reach P E d cn ->
  map hrow (csv d) = firstn (length (csv d)) (map hrow (csv (final P E empty_disk 0))).
Proof.
  intros H. rewrite <- (continue_same_history P E d cn H).
  destruct (seg_grows P E (skipn (last_epoch (read_cache (csv d))) (ms E)) d (read_cache (csv d)) cn) as [l Hl].
  rewrite final_unfold, Hl, map_app.
  rewrite <- (map_length hrow (csv d)), firstn_app, Nat.sub_diag, firstn_all. cbn. rewrite app_nil_r. reflexivity.
Qed.
