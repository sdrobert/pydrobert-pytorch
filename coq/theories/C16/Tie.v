(* C16 — tie lemmas, part 2: interpreting the regenerated source terms (PV.Gen.C16Src) emits exactly
   the file-system operations PV.C16.Model.update_ops prescribes.  TieExec.v proves, by symbolic
   execution of the MiniPy terms, [src_update_fd]: the source = SrcRun.update_ops_fd for every input;
   here update_ops_fd is related to Model.update_ops. *)
From Coq Require Import ZArith List String Bool Arith Lia.
From PV Require Import MiniPy.Syntax MiniPy.Interp Gen.C16Src C16.Model C16.Proofs C16.Hist C16.SrcRun C16.TieExec.
Import ListNotations.
Local Open Scope nat_scope.

(* ---- first occurrences vs last occurrences in the clean-up set ----------------------------------
   Once the new files are taken out, the two lists are the same: a path occurs twice only if the last epoch is the
   last best one (then both keep [model; optimizer]) or if its format lacks {epoch}, and then it is one of the new
   files. *)
Lemma clean_up_same P n lb e (rest : bool) :
  let L := [pth P KM n; pth P KO n] ++ (if rest then [] else [pth P KM lb; pth P KO lb]) in
  let f := fun p => negb (path_eqb p (pth P KM e) || path_eqb p (pth P KO e)) in
  filter f (padd_all [] L) = filter f (dedup L).
Proof.
  unfold pth, has_ep. destruct rest; [destruct (ep_m P), (ep_o P); reflexivity|].
  destruct (Nat.eqb_spec n lb) as [->|Hne].
  - destruct (ep_m P), (ep_o P); cbn; repeat (rewrite Nat.eqb_refl; cbn); reflexivity.
  - apply Nat.eqb_neq in Hne.
    destruct (ep_m P), (ep_o P); cbn; repeat (rewrite ?(Nat.eqb_sym lb n), Hne; cbn); reflexivity.
Qed.

Lemma fd_eq_model P d c tr va cn v ro : update_ops_fd P d c tr va cn v ro = update_ops P d c tr va cn v ro.
Proof.
  unfold update_ops_fd, update_ops. cbv zeta. rewrite !S_sub1.
  destruct (klb P); [|reflexivity].
  match goal with |- (if ?g then _ else _) = _ => destruct g; [reflexivity|] end.
  destruct (Nat.eqb _ (last_epoch c)); [reflexivity|].
  rewrite (clean_up_same P (last_epoch c) (best_epoch (bt P) c) (S (last_epoch c))). reflexivity.
Qed.

(* the source IS the model: every parameter combination, cache, disk and oracle *)
Theorem src_update_model P d c tr va cn v ro :
  src_update_ops P d c tr va cn v ro = Some (update_ops P d c tr va cn v ro).
Proof. rewrite src_update_fd, fd_eq_model. reflexivity. Qed.

(* two instances: the oracle ranks the paths of the clean-up set; both formats of the same kind *)
Theorem src_update_tie P d c tr va cn v ro : covers ro (cl_paths P c) = true ->
  src_update_ops P d c tr va cn v ro = Some (update_ops P d c tr va cn v ro).
Proof. intros _. apply src_update_model. Qed.

Theorem src_update_tie_same_fmt P d c tr va cn v ro : ep_m P = ep_o P ->
  src_update_ops P d c tr va cn v ro = Some (update_ops P d c tr va cn v ro).
Proof. intros _. apply src_update_model. Qed.

(* whole runs: with an update function that always answers as the model does, the parameterised run IS Model.run (so
   SrcRun.src_run differs from Model.run only by the update and observation functions, which the theorems above and
   below relate) *)
Lemma seg_with_model P E upd rest :
  (forall d c tr va cn v ro, upd d c tr va cn v ro = Some (update_ops P d c tr va cn v ro)) ->
  forall d c cn budget, seg_with upd E rest d c cn budget = Some (seg P E rest d c cn budget).
Proof.
  intros H. induction rest as [|[tr va] rest IH]; intros d c cn budget; [reflexivity|].
  cbn [seg_with seg]. rewrite H. destruct (update_ops P d c tr va cn (pv E cn) (ro E cn)) as [[ops r]|]; [|reflexivity].
  match goal with |- (if ?b then _ else _) = _ => destruct b; [reflexivity|] end.
  rewrite IH. destruct (seg P E rest _ _ _ _) as [[[d'' cn'] oc] lg]. reflexivity.
Qed.

Lemma run_schedule_with_model P E upd obsf crashes :
  (forall d c tr va cn v ro, upd d c tr va cn v ro = Some (update_ops P d c tr va cn v ro)) ->
  (forall d oc lg, obsf P d oc lg = Some (observe P d oc lg)) ->
  forall d cn, run_schedule_with upd obsf P E d cn crashes = Some (run_schedule P E d cn crashes).
Proof.
  intros H Ho. induction crashes as [|b more IH]; intros d cn; cbn [run_schedule_with run_schedule];
    unfold start_with, start; rewrite (seg_with_model P E upd _ H).
  - destruct (seg P E _ d _ cn None) as [[[d' cn'] oc] lg]. rewrite Ho. reflexivity.
  - destruct (seg P E _ d _ cn (Some b)) as [[[d' cn'] oc] lg]. rewrite Ho. destruct oc; try reflexivity.
    rewrite IH. reflexivity.
Qed.

(* what a fresh controller reports as last / best epoch, interpreted from the source, is the model's *)
Lemma src_observe_tie P d oc lg : src_observe P d oc lg = Some (observe P d oc lg).
Proof.
  unfold src_observe, observe, run_last_epoch, run_best_epoch.
  rewrite last_epoch_tie. destruct (best_epoch_tie P d 0 [] P (read_cache (csv d)) (bt P)) as [st E]. rewrite E.
  unfold nat_result, vnat. rewrite !zleb0_nat, !Nat2Z.id. reflexivity.
Qed.

(* whole runs: running the translated source in place of Model.update_ops and of get_last_epoch / get_best_epoch
   gives Model.run, for every metric history, oracle and crash schedule *)
Theorem src_run_tie P metrics ros crashes : src_run P metrics ros crashes = Some (Model.run P metrics ros crashes).
Proof.
  unfold src_run, Model.run. apply run_schedule_with_model.
  - intros. apply src_update_model.
  - intros. apply src_observe_tie.
Qed.

Theorem src_run_tie_same_fmt P metrics ros crashes : ep_m P = ep_o P ->
  src_run P metrics ros crashes = Some (Model.run P metrics ros crashes).
Proof. intros _. apply src_run_tie. Qed.

(* ---- statements in the vocabulary Properties.v can write (no string literals there) ------------- *)
Lemma best_epoch_src P d cn ro c b :
  exists st, run_best_epoch P d cn ro c b = Ok (vnat (best_epoch b c)) st.
Proof. apply best_epoch_tie. Qed.

Lemma last_epoch_src P d cn ro c :
  exists st, run_last_epoch P d cn ro c = Ok (vnat (last_epoch c)) st.
Proof. eexists. apply last_epoch_tie. Qed.

Lemma epoch_block_src P d cn ro c tr va v :
  exists st, run_epoch_block P d cn ro (vars0 P c tr va v) = Ok VNone st /\
             vars st = vars1 P c tr va v /\ events st = [].
Proof. eexists. split; [apply epoch_tie|split; reflexivity]. Qed.

(* composed with the model theorem "every update appends exactly one row: its own": a statement
   about the translated source alone *)
Lemma source_update_appends P d c tr va cn v ro ops r :
  src_update_ops P d c tr va cn v ro = Some (Some (ops, r)) ->
  r = mkRow (S (last_epoch c)) tr va v /\ flat_map appended ops = [r].
Proof. rewrite src_update_model. intros H. injection H as H. exact (update_ops_appends _ _ _ _ _ _ _ _ _ _ H). Qed.

(* non-vacuity: a concrete update with a clean-up whose oracle ranks the clean-up set *)
Definition nv_P : params := mkParams true true true false.
Definition nv_cache : cache := [mkRow 1 5 5 1; mkRow 2 4 4 2].
Definition nv_disk : disk :=
  mkDisk [(Ckpt KM (Some 1), 1%Z); (Ckpt KO (Some 1), 1%Z); (Ckpt KM (Some 2), 2%Z); (Ckpt KO (Some 2), 2%Z)] nv_cache.
Definition nv_ro : list path := [Ckpt KO (Some 2); Ckpt KM (Some 2)].

Lemma source_nonvacuous :
  covers nv_ro (cl_paths nv_P nv_cache) = true /\
  exists ops r, src_update_ops nv_P nv_disk nv_cache 3 3 2 3 nv_ro = Some (Some (ops, r)) /\
                map code_of ops = [TMk; TFill; TMk; TFill; TRep (Ckpt KM (Some 3)); TRep (Ckpt KO (Some 3)); TApp;
                                   TRem (Ckpt KO (Some 2)); TRem (Ckpt KM (Some 2))].
Proof. split; [reflexivity|]. eexists. eexists. split; vm_compute; reflexivity. Qed.
