(* C16 — tie lemmas, part 1 (symbolic execution): interpreting the regenerated source terms
   (PV.Gen.C16Src) emits exactly the file-system operations of SrcRun.update_ops_fd, for every
   parameter combination, cache, disk and oracle.  Part 2 (Tie.v) relates update_ops_fd to
   PV.C16.Model.update_ops.  See SrcRun.v for the environment [ext16] and the encodings. *)
From Coq Require Import ZArith QArith List String Bool Arith Ascii Lia DecimalString DecimalNat.
From PV Require Import MiniPy.Syntax MiniPy.Interp MiniPy.Lemmas Gen.C16Src C16.Model C16.Proofs C16.SrcRun.
Import ListNotations.
Local Open Scope string_scope.
Local Open Scope nat_scope.
Local Open Scope list_scope.

#[local] Arguments set_var _ _ _ /.

(* ---- paths as strings --------------------------------------------------------------------- *)
Lemma undec_dec n : undec (dec n) = Some n.
Proof. unfold undec, dec. rewrite NilEmpty.usu. cbn. rewrite Unsigned.of_to. reflexivity. Qed.

Lemma path_of_pstr p : path_of_str (pstr p) = Some p.
Proof. destruct p as [[|] [e|]|c [|]]; cbn; rewrite ?undec_dec; reflexivity. Qed.

Lemma pstr_inj p q : pstr p = pstr q -> p = q.
Proof.
  intros H. assert (E : path_of_str (pstr p) = path_of_str (pstr q)) by (rewrite H; reflexivity).
  rewrite !path_of_pstr in E. inversion E. reflexivity.
Qed.

Lemma pstr_eqb p q : String.eqb (pstr p) (pstr q) = path_eqb p q.
Proof.
  destruct (path_eqb p q) eqn:E.
  - apply path_eqb_eq in E. subst. apply String.eqb_refl.
  - apply String.eqb_neq. intros H. apply pstr_inj in H. subst. rewrite path_eqb_refl in E. discriminate.
Qed.

#[local] Arguments pstr : simpl never.

Lemma vp_eqb p q : val_eqb (vp p) (vp q) = path_eqb p q.
Proof. cbn. apply pstr_eqb. Qed.

(* a path string is not a tagged library object: its rich comparisons are MiniPy's own (Interp's ECmp clause) *)
Lemma foreign_vp p : foreign (vp p) = false.
Proof. reflexivity. Qed.

Lemma path_eqb_sym p q : path_eqb p q = path_eqb q p.
Proof.
  destruct (path_eqb q p) eqn:E.
  - apply path_eqb_eq in E. subst. apply path_eqb_refl.
  - destruct (path_eqb p q) eqn:E2; [|reflexivity]. apply path_eqb_eq in E2. subst.
    rewrite path_eqb_refl in E. discriminate.
Qed.

Lemma mem_vps p l : Interp.mem (vp p) (vps l) = mem p l.
Proof.
  induction l as [|x l IH]; [reflexivity|].
  cbn [vps map Interp.mem mem existsb]. fold (vps l). rewrite vp_eqb, IH. reflexivity.
Qed.

Lemma vps_app a b : vps (a ++ b) = (vps a ++ vps b)%list.
Proof. apply map_app. Qed.

Lemma set_add_all_vps l : forall acc, set_add_all (vps acc) (vps l) = vps (padd_all acc l).
Proof.
  induction l as [|x l IH]; intros acc; [reflexivity|].
  cbn [vps map set_add_all padd_all]. fold (vps l). fold (vps acc). rewrite mem_vps.
  destruct (mem x acc).
  - apply IH.
  - change [vp x] with (vps [x]). rewrite <- vps_app. apply IH.
Qed.

Lemma filter_mem_vps (g : bool -> bool) x y :
  filter (fun v => g (Interp.mem v (vps y))) (vps x) = vps (filter (fun p => g (mem p y)) x).
Proof.
  induction x as [|a x IH]; [reflexivity|].
  cbn [vps map filter]. fold (vps x). rewrite mem_vps. destruct (g (mem a y)); cbn [vps map]; rewrite IH; reflexivity.
Qed.

Lemma set_inter_vps x y : set_inter (vps x) (vps y) = vps (filter (fun p => mem p y) x).
Proof. exact (filter_mem_vps (fun b => b) x y). Qed.

Lemma set_diff_vps x y : set_diff (vps x) (vps y) = vps (filter (fun p => negb (mem p y)) x).
Proof. exact (filter_mem_vps negb x y). Qed.

Lemma vpaths_vps l : vpaths (vps l) = Some l.
Proof.
  induction l as [|x l IH]; [reflexivity|].
  cbn [vps map vpaths]. fold (vps l). rewrite IH. unfold vp, vpath. rewrite path_of_pstr. reflexivity.
Qed.

(* ---- numbers ---------------------------------------------------------------------------- *)
Lemma zeqb_nat a b : (Z.of_nat a =? Z.of_nat b)%Z = Nat.eqb a b.
Proof.
  destruct (Nat.eqb a b) eqn:E.
  - apply Nat.eqb_eq in E. subst. apply Z.eqb_refl.
  - apply Nat.eqb_neq in E. apply Z.eqb_neq. lia.
Qed.

Lemma vnat_eqb a b : val_eqb (vnat a) (vnat b) = Nat.eqb a b.
Proof. apply zeqb_nat. Qed.

Lemma zleb0_nat a : (0 <=? Z.of_nat a)%Z = true.
Proof. apply Z.leb_le. lia. Qed.

Lemma qcompare_inject x y : Qcompare (inject_Z x) (inject_Z y) = Z.compare x y.
Proof. unfold Qcompare, inject_Z. cbn [Qnum Qden]. rewrite !Z.mul_1_r. reflexivity. Qed.

Lemma q_int_inject z : q_int (inject_Z z) = Some z.
Proof. reflexivity. Qed.

(* ---- rows and the cache ------------------------------------------------------------------- *)
Lemma row_of_info_enc r : row_of_info (enc_row r) = Some r.
Proof.
  unfold enc_row, info_of, vnat, vmet. cbn. rewrite zleb0_nat, Nat2Z.id. destruct r; reflexivity.
Qed.

Lemma info_epoch_enc r : info_epoch (enc_row r) = Some (r_epoch r).
Proof. unfold enc_row, info_of, vnat. cbn. rewrite zleb0_nat, Nat2Z.id. reflexivity. Qed.

Lemma info_epoch_dummy : info_epoch dummy_info = Some 0.
Proof. reflexivity. Qed.

Lemma op_of_event_enc o : op_of_event (ev_of_op o) = Some o.
Proof.
  destruct o; cbn -[enc_row]; unfold vp, vpath; rewrite ?path_of_pstr; cbn -[enc_row];
    rewrite ?path_of_pstr, ?row_of_info_enc; reflexivity.
Qed.

Lemma ops_of_events_enc ops : ops_of_events (map ev_of_op ops) = Some ops.
Proof.
  induction ops as [|o ops IH]; [reflexivity|].
  cbn [map ops_of_events]. rewrite op_of_event_enc, IH. reflexivity.
Qed.

(* what get_info finds: an info whose "epoch" is the key *)
Definition info_for (c : cache) (e : nat) (i : val) : Prop :=
  dict_get ((VInt 0, dummy_info) :: enc_entries c) (vnat e) = Some i /\ info_epoch i = Some e.

Lemma entries_get c e : List.In e (map r_epoch c) ->
  exists r, dict_get (enc_entries c) (vnat e) = Some (enc_row r) /\ r_epoch r = e.
Proof.
  induction c as [|x c IH]; [intros []|]. intros [H|H].
  - subst e. exists x. cbn [enc_entries map dict_get]. rewrite vnat_eqb, Nat.eqb_refl. split; reflexivity.
  - cbn [enc_entries map dict_get]. rewrite vnat_eqb. destruct (Nat.eqb e (r_epoch x)) eqn:E.
    + exists x. split; [reflexivity|]. apply Nat.eqb_eq in E. auto.
    + apply IH, H.
Qed.

Lemma info_for_present c e : e = 0 \/ List.In e (map r_epoch c) -> exists i, info_for c e i.
Proof.
  intros H. unfold info_for. cbn [dict_get]. change (VInt 0) with (vnat 0). rewrite vnat_eqb.
  destruct (Nat.eqb e 0) eqn:E.
  - apply Nat.eqb_eq in E. subst. exists dummy_info. split; reflexivity.
  - destruct H as [H|H]; [subst; discriminate|].
    destruct (entries_get c e H) as [r [Hg He]]. exists (enc_row r). split; [exact Hg|].
    rewrite info_epoch_enc, He. reflexivity.
Qed.

Lemma entries_set r c :
  dict_set (enc_entries c) (vnat (r_epoch r)) (enc_row r) = enc_entries (cache_set r c).
Proof.
  induction c as [|x c IH]; [reflexivity|].
  cbn [enc_entries map dict_set cache_set]. rewrite vnat_eqb, Nat.eqb_sym. destruct (Nat.eqb (r_epoch x) (r_epoch r)) eqn:E.
  - cbn [map]. apply Nat.eqb_eq in E. rewrite E. reflexivity.
  - cbn [map]. f_equal. apply IH.
Qed.

Lemma cache_set_epochs r c e : List.In e (map r_epoch c) -> List.In e (map r_epoch (cache_set r c)).
Proof.
  induction c as [|x c IH]; [intros []|]. cbn [cache_set].
  destruct (Nat.eqb (r_epoch x) (r_epoch r)) eqn:E; cbn [map List.In]; intros [H|H]; auto.
  apply Nat.eqb_eq in E. left. congruence.
Qed.

Lemma info_for_old c r e : e = 0 \/ List.In e (map r_epoch c) -> exists i, info_for (cache_set r c) e i.
Proof. intros [H|H]; apply info_for_present; [left; exact H|right; apply cache_set_epochs, H]. Qed.

Lemma cache_set_has r c : List.In (r_epoch r) (map r_epoch (cache_set r c)).
Proof.
  induction c as [|x c IH]; [left; reflexivity|]. cbn [cache_set].
  destruct (Nat.eqb (r_epoch x) (r_epoch r)) eqn:E; cbn [map List.In]; auto.
Qed.

Lemma last_epoch_acc c : forall m, fold_left (fun m r => Nat.max m (r_epoch r)) c m = m \/
  List.In (fold_left (fun m r => Nat.max m (r_epoch r)) c m) (map r_epoch c).
Proof.
  induction c as [|x c IH]; intros m; [left; reflexivity|]. cbn [fold_left map List.In].
  destruct (IH (Nat.max m (r_epoch x))) as [H|H].
  - rewrite H. destruct (Nat.max_spec m (r_epoch x)) as [[_ E]|[_ E]]; rewrite E; auto.
  - auto.
Qed.

Lemma last_epoch_In c : last_epoch c = 0 \/ List.In (last_epoch c) (map r_epoch c).
Proof. apply last_epoch_acc. Qed.

(* ---- loops ---------------------------------------------------------------------------------- *)
Section Loops.
  Variable ext : string -> list val -> list (string * val) -> state -> Interp.outcome val.

  Lemma for_nil x body st : exec ext (SFor x (EConst (VList [])) body) st = Ok CNormal st.
  Proof. reflexivity. Qed.
End Loops.

(* ---- get_last_epoch ---------------------------------------------------------------------- *)
Lemma q_extreme_keys c : forall m,
  q_extreme true (vnat m) (map fst (enc_entries c)) =
  Some (vnat (fold_left (fun m r => Nat.max m (r_epoch r)) c m)).
Proof.
  induction c as [|x c IH]; intros m; [reflexivity|].
  cbn [enc_entries map fst q_extreme fold_left]. fold (enc_entries c).
  unfold vnat at 1 2. cbn [cmp_eval as_q q_cmp]. rewrite qcompare_inject.
  destruct (Z.compare_spec (Z.of_nat (r_epoch x)) (Z.of_nat m)) as [E|E|E].
  - replace (Nat.max m (r_epoch x)) with m by lia. apply IH.
  - replace (Nat.max m (r_epoch x)) with m by lia. apply IH.
  - replace (Nat.max m (r_epoch x)) with (r_epoch x) by lia. apply IH.
Qed.

Lemma last_epoch_tie P d cn ro P' c :
  Interp.run (ext_base P d cn ro) tsc_get_last_epoch [("self", self_of P' c)]
  = Ok (vnat (last_epoch c)) (mkState [("self", self_of P' c)] []).
Proof.
  unfold Interp.run, tsc_get_last_epoch, self_of, enc_cache. cbn.
  change (VInt 0) with (vnat 0). rewrite q_extreme_keys. reflexivity.
Qed.

Lemma entries_get_set r c : dict_get (enc_entries (cache_set r c)) (vnat (r_epoch r)) = Some (enc_row r).
Proof.
  induction c as [|x c IH].
  - cbn [cache_set enc_entries map dict_get]. rewrite vnat_eqb, Nat.eqb_refl. reflexivity.
  - cbn [cache_set]. destruct (Nat.eqb (r_epoch x) (r_epoch r)) eqn:E; cbn [enc_entries map dict_get]; rewrite vnat_eqb.
    + rewrite Nat.eqb_refl. reflexivity.
    + rewrite Nat.eqb_sym, E. apply IH.
Qed.

(* cache_hist[epoch] = info, epoch > 0: the dummy entry of epoch 0 stays in front *)
Lemma enc_cache_set c n tr va v :
  dict_set ((VInt 0, dummy_info) :: enc_entries c) (vnat (S n)) (info_of (vnat (S n)) tr va v)
  = (VInt 0, dummy_info) :: enc_entries (cache_set (mkRow (S n) tr va v) c).
Proof.
  cbn [dict_set]. change (VInt 0) with (vnat 0). rewrite vnat_eqb. cbn [Nat.eqb]. f_equal. exact (entries_set (mkRow (S n) tr va v) c).
Qed.

Lemma info_epoch_of e tr va v : info_epoch (info_of (vnat e) tr va v) = Some e.
Proof. exact (info_epoch_enc (mkRow e tr va v)). Qed.

(* what src_update_ops reads off the outcome of ufe_files *)
Definition collect (o : Interp.outcome ctl) (ep : val) : option (option (list fsop * row)) :=
  match o with
  | Ok _ st =>
      match ops_of_events (events st), row_after st ep with
      | Some ops, Some r => Some (Some (ops, r))
      | _, _ => None
      end
  | Exc n st => match events st with [] => if String.eqb n "ValueError" then Some None else None | _ => None end
  | Stuck _ => None
  end.

Lemma collect_ok P w n tr va v c vs ops :
  collect (Ok w (mkState (("self", self_of P (cache_set (mkRow (S n) tr va v) c)) :: vs) (map ev_of_op ops))) (vnat (S n))
  = Some (Some (ops, mkRow (S n) tr va v)).
Proof.
  unfold collect, row_after.
  cbn [events vars lookup String.eqb Ascii.eqb Bool.eqb self_of cache_of_self dict_get val_eqb enc_cache].
  rewrite ops_of_events_enc. change (VInt 0) with (vnat 0). rewrite vnat_eqb. cbn [Nat.eqb].
  rewrite (entries_get_set (mkRow (S n) tr va v) c : dict_get _ (vnat (S n)) = _), row_of_info_enc. reflexivity.
Qed.


(* variables assigned after an unknown part X of the variable list: the bindings made so far, latest first *)
Fixpoint upds (l X : list (string * val)) : list (string * val) :=
  match l with [] => X | (x, v) :: l' => update x v (upds l' X) end.

Lemma lookup_upds y l X : lookup y (upds l X) = match lookup y l with Some v => Some v | None => lookup y X end.
Proof. induction l as [|[x v] l IH]; [reflexivity|]. cbn [upds lookup]. rewrite lookup_update, IH. destruct (String.eqb y x); reflexivity. Qed.

Lemma update_upds x v l X : update x v (upds l X) = upds ((x, v) :: l) X.
Proof. reflexivity. Qed.

Lemma emit_ops_enc l vs ops : emit_ops l (mkState vs (map ev_of_op ops)) = mkState vs (map ev_of_op (ops ++ l)).
Proof. unfold emit_ops. cbn [vars events]. rewrite map_app. reflexivity. Qed.

Lemma znat_succ n : (Z.of_nat n + 1)%Z = Z.of_nat (S n).
Proof. lia. Qed.

Lemma znat_S_sub1 n : (Z.of_nat (S n) - 1)%Z = Z.of_nat n.
Proof. lia. Qed.

Lemma S_sub1 n : S n - 1 = n.
Proof. lia. Qed.

Definition nonempty (l : list path) : bool := match l with [] => false | _ => true end.

Lemma truthy_vps l : truthy (VSet (vps l)) = nonempty l.
Proof. destruct l; reflexivity. Qed.

Lemma mem_app p a b : mem p (a ++ b) = mem p a || mem p b.
Proof. apply existsb_app. Qed.

Lemma mem_padd_all p l : forall acc, mem p (padd_all acc l) = mem p acc || mem p l.
Proof.
  induction l as [|x l IH]; intros acc; cbn [padd_all]; [cbn; rewrite orb_false_r; reflexivity|].
  rewrite IH. cbn [mem existsb]. fold (mem p l). destruct (mem x acc) eqn:E.
  - destruct (path_eqb p x) eqn:E2; [|reflexivity].
    apply path_eqb_eq in E2. subst. rewrite E. reflexivity.
  - rewrite mem_app. cbn [mem existsb]. rewrite orb_false_r, orb_assoc. reflexivity.
Qed.

Lemma set2_vps a b : set_add_all [] [vp a; vp b] = vps (padd_all [] [a; b]).
Proof. exact (set_add_all_vps [a; b] []). Qed.

Lemma set4_vps a b c d : set_add_all [] [vp a; vp b; vp c; vp d] = vps (padd_all [] [a; b; c; d]).
Proof. exact (set_add_all_vps [a; b; c; d] []). Qed.

(* a model and an optimizer path never collide *)
Lemma padd_pair P a b : padd_all [] [pth P KM a; pth P KO b] = [pth P KM a; pth P KO b].
Proof. reflexivity. Qed.

(* save_info_first, as the source computes it (set intersection), is the model's test *)
Lemma info_first_eq P e l :
  nonempty (filter (fun p => mem p (padd_all [] l)) (padd_all [] [pth P KM e; pth P KO e]))
  = mem (pth P KM e) l || mem (pth P KO e) l.
Proof.
  assert (H : forall p, mem p (padd_all [] l) = mem p l) by (intros p; rewrite mem_padd_all; reflexivity).
  unfold pth. cbn [padd_all mem existsb path_eqb kind_eqb andb orb app filter]. rewrite !H.
  destruct (mem (Ckpt KM _) l), (mem (Ckpt KO _) l); reflexivity.
Qed.

(* clean_up -= {model_pth, optim_pth} *)
Lemma cl_eq P e X :
  filter (fun p => negb (mem p (padd_all [] [pth P KM e; pth P KO e]))) X
  = filter (fun p => negb (path_eqb p (pth P KM e) || path_eqb p (pth P KO e))) X.
Proof.
  apply filter_ext. intros p. unfold pth. cbn [padd_all mem existsb path_eqb kind_eqb andb orb app].
  rewrite orb_false_r. reflexivity.
Qed.

(* A block stays folded (a constant, or a projection of one by the functions below) while its first statement runs:
   [seq_cut] / [if_cut] take the outcome of the first statement / of the test as a premise, so that the rest of the
   program is not part of the term being reduced, nor of the equation being rewritten. *)
Definition seq_hd (s : stmt) : stmt := match s with SSeq a _ => a | _ => s end.
Definition seq_tl (s : stmt) : stmt := match s with SSeq _ b => b | _ => SPass end.
Definition if_then (s : stmt) : stmt := match s with SIf _ t _ => t | _ => SPass end.
Definition if_else (s : stmt) : stmt := match s with SIf _ _ f => f | _ => SPass end.

Section Steps.
  Variable ext : string -> list val -> list (string * val) -> state -> Interp.outcome val.

  Lemma exec_cut s st :
    exec ext s st = bind (exec ext (seq_hd s) st) (fun c st1 =>
                      match c with CNormal => exec ext (seq_tl s) st1 | CReturn _ => Ok c st1 end).
  Proof.
    destruct s; try apply exec_seq; cbn [seq_hd seq_tl];
      match goal with |- ?o = _ => destruct o as [[|w] st1|n st1|w]; reflexivity end.
  Qed.

  Lemma seq_cut s st st1 : exec ext (seq_hd s) st = Ok CNormal st1 -> exec ext s st = exec ext (seq_tl s) st1.
  Proof. intros H. rewrite exec_cut, H. reflexivity. Qed.

  Lemma if_cut s c st cv st1 : s = SIf c (if_then s) (if_else s) ->
    eval ext c st = Ok cv st1 -> exec ext s st = exec ext (if truthy cv then if_then s else if_else s) st1.
  Proof. intros -> H. apply exec_if_ok, H. Qed.

  Lemma try_ok b h st st1 : exec ext b st = Ok CNormal st1 -> exec ext (STry b h) st = Ok CNormal st1.
  Proof. intros H. cbn [exec]. rewrite H. reflexivity. Qed.

  Lemma eval_or_bool a b st x y :
    eval ext a st = Ok (VBool x) st -> eval ext b st = Ok (VBool y) st -> eval ext (EOr a b) st = Ok (VBool (x || y)) st.
  Proof. intros H1 H2. cbn [eval]. rewrite H1. destruct x; [reflexivity|exact H2]. Qed.
End Steps.

(* update_for_epoch, block 2 (ufe_files): its two branches on keep_last_and_best_only; in the first, the guard against
   overwriting the best epoch's files and the branch that cleans up *)
Definition ufe_klb : stmt := if_then (seq_tl (seq_tl (seq_tl (if_then ufe_files)))).
Definition ufe_keep : stmt := if_else (seq_tl (seq_tl (seq_tl (if_then ufe_files)))).
Definition klb_check : stmt := seq_hd (seq_tl (seq_tl ufe_klb)).
Definition klb_rest : stmt := if_else (seq_tl (seq_tl (seq_tl ufe_klb))).

(* The interpreter on one statement and a state with known variable names; the calls of [ext], the encodings and the
   model's functions stay folded.  ([lazy] first: [cbn] is slow at unfolding the nested fixpoints of [eval].)
   [runx]: the same when variables assigned after an unknown part X of the variable list (kept as [upds l X]) are read. *)
Ltac run :=
  lazy [exec eval bind seq_hd seq_tl if_then if_else ufe_files ufe_klb ufe_keep klb_check klb_rest tsc_get_best_epoch];
  cbn [exec eval bind lookup update set_var vars events assign_all store place_of builtin is
       String.eqb Ascii.eqb Bool.eqb truthy cmp_eval val_eqb negb andb orb rich foreign attribute subscript
       dict_get binop_eval is_inf num_bin as_z as_q container_items app self_of enc_cache vnat].
Ltac runx := run; rewrite ?update_upds; repeat (rewrite !lookup_upds; run); rewrite ?update_upds.

(* [step t]: the first statement of a sequence ends normally, [t] answering its calls of [ext]; [test t]: the same
   for the test of an `if` (decide the branch before the next [run]: on `exec (if b then s else s') st` with b open,
   [lazy] exposes the fixpoint of [exec]) *)
Local Tactic Notation "step" tactic3(t) := erewrite seq_cut by (runx; t; runx; reflexivity); cbn [seq_tl].
Local Tactic Notation "test" tactic3(t) :=
  erewrite if_cut by (lazymatch goal with |- _ = SIf _ _ _ => reflexivity | _ => runx; t; reflexivity end);
  cbn [truthy negb seq_hd seq_tl if_then if_else].

(* ---- get_best_epoch ------------------------------------------------------------------------ *)
Definition best_body : stmt :=
  match tsc_get_best_epoch with
  | SSeq _ (SSeq _ (SSeq _ (SSeq _ (SSeq _ (SSeq (SFor _ _ body) _))))) => body
  | _ => SPass
  end.

Definition enc_min (m : option Z) : val := match m with None => VInf true | Some z => vmet z end.

Definition bst (self : val) (b : bool) (acc : nat * option Z) (info cur : val) : state :=
  mkState [("self", self); ("train_met", VBool b); ("ent", VStr (if b then "train_met" else "val_met"));
           ("fmt", VStr "{:.4e}"); ("min_epoch", vnat (fst acc)); ("min_met", enc_min (snd acc));
           ("info", info); ("cur", cur)] [].

Lemma best_body_step P d cn ro self b acc info cur r :
  exec (ext_base P d cn ro) best_body (set_var "info" (enc_row r) (bst self b acc info cur))
  = Ok CNormal (bst self b (best_step b acc r) (enc_row r) (vmet (met b r))).
Proof.
  unfold best_body, tsc_get_best_epoch, bst, best_step, enc_row, info_of, set_var.
  destruct acc as [me [mm|]], b; lazy [exec eval bind]; cbn; rewrite ?qcompare_inject; unfold Z.ltb;
    try destruct (_ ?= _)%Z; reflexivity.
Qed.

Lemma best_loop P d cn ro self b c : forall acc info cur,
  exists info' cur',
    for_loop (ext_base P d cn ro) "info" best_body (map enc_row c) (bst self b acc info cur)
    = Ok CNormal (bst self b (fold_left (best_step b) c acc) info' cur').
Proof.
  induction c as [|r c IH]; intros acc info cur; [exists info, cur; reflexivity|].
  cbn [map fold_left for_loop]. rewrite best_body_step. cbn [bind]. apply IH.
Qed.

Lemma map_snd_entries c : map snd (enc_entries c) = map enc_row c.
Proof. unfold enc_entries. rewrite map_map. reflexivity. Qed.

(* the calls of get_best_epoch that leave the subset: float(fmt.format(x)), self.cache_hist.values() *)
Ltac base := cbn [ext_base is String.eqb Ascii.eqb Bool.eqb String.append self_attr lookup vars dict_get val_eqb map snd].

Lemma best_epoch_tie P d cn ro P' c b :
  exists st,
    Interp.run (ext_base P d cn ro) tsc_get_best_epoch [("self", self_of P' c); ("train_met", VBool b)]
    = Ok (vnat (best_epoch b c)) st.
Proof.
  destruct (best_loop P d cn ro (self_of P' c) b c (0, None) dummy_info (VInf true)) as [info' [cur' HL]].
  unfold Interp.run. destruct b.
  all: do 4 step idtac.            (* ent = ..; fmt = ..; min_epoch = 0; min_met = self.cache_hist[0][ent] *)
  all: step (base; run; base).     (* min_met = float(fmt.format(min_met)) *)
  (* the loop: its first item is the dummy entry of epoch 0, which leaves (0, infinity) as it is *)
  all: erewrite seq_cut by
         (lazy [seq_hd seq_tl tsc_get_best_epoch]; rewrite exec_for; run; base; run;
          cbn [iter_items container_items map snd]; rewrite map_snd_entries; cbn [for_loop];
          erewrite seq_cut by (run; base; run; base; run; reflexivity); test idtac; cbn [exec bind];
          exact HL).
  all: run; unfold best_epoch; eexists; reflexivity.
Qed.

(* ---- update_for_epoch ------------------------------------------------------------------------------- *)
(* the variables after block 1 (epoch and last_best) *)
Definition vars1 (P : params) (c : cache) (tr va v : Z) : list (string * val) :=
  [("self", self_of P c); ("model", VInt v); ("optimizer", VInt v); ("train_met", vmet tr); ("val_met", vmet va);
   ("epoch", vnat (S (last_epoch c))); ("best_is_train", VBool (bt P));
   ("last_best", vnat (best_epoch (bt P) c))].

Section Files.
  Variables (P : params) (d : disk) (cn : nat) (ro : list path).
  Notation ext := (ext16 P d cn ro).

  (* what [ext] answers (one lemma per kind of call); the events of a state are always [map ev_of_op ops], [self] is
     its first variable *)
  Lemma ext_last c rest evs :
    ext "self.get_last_epoch" [] [] (mkState (("self", self_of P c) :: rest) evs)
    = Ok (vnat (last_epoch c)) (mkState (("self", self_of P c) :: rest) evs).
  Proof. unfold ext16, call_method. cbn -[tsc_get_last_epoch Interp.run self_of]. rewrite last_epoch_tie. reflexivity. Qed.

  Lemma ext_best b c rest evs :
    ext "self.get_best_epoch" [VBool b] [] (mkState (("self", self_of P c) :: rest) evs)
    = Ok (vnat (best_epoch b c)) (mkState (("self", self_of P c) :: rest) evs).
  Proof.
    unfold ext16, call_method. cbn -[tsc_get_best_epoch Interp.run self_of].
    destruct (best_epoch_tie P d cn ro P c b) as [st' E]. rewrite E. reflexivity.
  Qed.

  Lemma ext_mpath i e st : info_epoch i = Some e ->
    ext "self.get_model_path_with_info" [i] [] st = Ok (vp (pth P KM e)) st.
  Proof. intros H. unfold ext16, ext_base, path_call. cbn. destruct i; try discriminate H. rewrite H. reflexivity. Qed.

  Lemma ext_opath i e st : info_epoch i = Some e ->
    ext "self.get_optimizer_path_with_info" [i] [] st = Ok (vp (pth P KO e)) st.
  Proof. intros H. unfold ext16, ext_base, path_call. cbn. destruct i; try discriminate H. rewrite H. reflexivity. Qed.

  Lemma ext_get_info c e i rest evs : info_for c e i ->
    ext "self.get_info" [vnat e] [] (mkState (("self", self_of P c) :: rest) evs)
    = Ok i (mkState (("self", self_of P c) :: rest) evs).
  Proof.
    intros [H _]. unfold ext16, ext_base. cbn -[self_attr dict_get vnat].
    change (self_attr _ "cache_hist") with (Some (VDict ((VInt 0, dummy_info) :: enc_entries c))). cbv iota beta.
    rewrite H. reflexivity.
  Qed.

  Lemma ext_exists p vs ops :
    ext "os.path.exists" [vp p] [] (mkState vs (map ev_of_op ops))
    = Ok (VBool (exists_b (files (apply_ops d ops)) p)) (mkState vs (map ev_of_op ops)).
  Proof. unfold ext16, ext_base, cur_disk. cbn -[ops_of_events]. rewrite ops_of_events_enc, path_of_pstr. reflexivity. Qed.

  Lemma ext_save_info c n tr va v rest ops :
    ext "self.save_info_to_hist" [info_of (vnat (S n)) tr va v] [] (mkState (("self", self_of P c) :: rest) (map ev_of_op ops))
    = Ok VNone (mkState (("self", self_of P (cache_set (mkRow (S n) tr va v) c)) :: rest)
                        (map ev_of_op (ops ++ [Append (mkRow (S n) tr va v)]))).
  Proof.
    unfold ext16, ext_base.
    pose proof (row_of_info_enc (mkRow (S n) tr va v)) as HR. unfold enc_row in HR. cbn [r_epoch r_train r_val r_tag] in HR.
    unfold info_of in *. cbn -[row_of_info emit_ops dict_set enc_entries]. rewrite HR. fold (info_of (vnat (S n)) tr va v).
    rewrite enc_cache_set. cbn [vars events update String.eqb Ascii.eqb Bool.eqb]. rewrite emit_ops_enc. reflexivity.
  Qed.

  Lemma ext_save_model v i e vs ops : info_epoch i = Some e ->
    ext "self.save_model_and_optimizer_with_info" [VInt v; VInt v; i] [] (mkState vs (map ev_of_op ops))
    = Ok VNone (mkState vs (map ev_of_op (ops ++ save_ops P cn e v))).
  Proof. intros H. unfold ext16, ext_base. cbn -[emit_ops]. rewrite H, emit_ops_enc. reflexivity. Qed.

  Lemma ext_clean_up l vs ops :
    ext "self._clean_up_files" (vps l) [] (mkState vs (map ev_of_op ops))
    = Ok VNone (mkState vs (map ev_of_op (ops ++ map Remove (order_by ro (filter (exists_b (files (apply_ops d ops))) l))))).
  Proof.
    unfold ext16, ext_base, cur_disk. cbn -[ops_of_events emit_ops vpaths].
    rewrite vpaths_vps, ops_of_events_enc. cbn [option_map]. rewrite emit_ops_enc. reflexivity.
  Qed.

  Lemma epoch_tie c tr va v :
    Interp.run ext ufe_epoch (vars0 P c tr va v) = Ok VNone (mkState (vars1 P c tr va v) []).
  Proof.
    unfold Interp.run, ufe_epoch, vars0, vars1.
    cbn -[ext16 self_of]. rewrite ext_last.
    cbn -[ext16 self_of]. rewrite znat_succ, ext_best.
    reflexivity.
  Qed.

  (* `y = self.get_model_path_with_info(x); z = self.get_optimizer_path_with_info(x)` *)
  Lemma paths_run s x y z i e vs evs :
    seq_hd s = SAssign [TName y] (ECall "self.get_model_path_with_info" [EName x] []) ->
    seq_hd (seq_tl s) = SAssign [TName z] (ECall "self.get_optimizer_path_with_info" [EName x] []) ->
    lookup x vs = Some i -> String.eqb x y = false -> info_epoch i = Some e ->
    exec ext s (mkState vs evs)
    = exec ext (seq_tl (seq_tl s)) (mkState (update z (vp (pth P KO e)) (update y (vp (pth P KM e)) vs)) evs).
  Proof.
    intros H1 H2 Hx Hxy Hi.
    erewrite seq_cut by (rewrite H1; apply exec_assign_ok; run; rewrite Hx; run; apply ext_mpath, Hi).
    erewrite seq_cut by (rewrite H2; apply exec_assign_ok; run; rewrite lookup_update, Hxy, Hx; run; apply ext_opath, Hi).
    reflexivity.
  Qed.

  (* `if cond: self.save_info_to_hist(info)` *)
  Lemma save_info_if cond cv c n tr va v rest ops :
    eval ext cond (mkState (("self", self_of P c) :: rest) (map ev_of_op ops))
      = Ok cv (mkState (("self", self_of P c) :: rest) (map ev_of_op ops)) ->
    lookup "info" rest = Some (info_of (vnat (S n)) tr va v) ->
    exec ext (SIf cond (SExpr (ECall "self.save_info_to_hist" [EName "info"] [])) SPass)
      (mkState (("self", self_of P c) :: rest) (map ev_of_op ops))
    = Ok CNormal (mkState (("self", self_of P (if truthy cv then cache_set (mkRow (S n) tr va v) c else c)) :: rest)
                          (map ev_of_op (ops ++ if truthy cv then [Append (mkRow (S n) tr va v)] else []))).
  Proof.
    intros Hc Hi. rewrite (exec_if_ok _ _ _ _ _ _ _ Hc). destruct (truthy cv).
    - run. rewrite Hi. run. rewrite ext_save_info. reflexivity.
    - rewrite app_nil_r. reflexivity.
  Qed.

  (* a block that starts `if save_info_first: save_info(); try: save_model() ...; if not save_info_first: save_info()`:
     the row is appended before or after the checkpoint files are written, once; save_model never raises *)
  Lemma saves_run s h c n tr va v sif rest ops :
    seq_hd s = SIf (EName "save_info_first") (SExpr (ECall "self.save_info_to_hist" [EName "info"] [])) SPass ->
    seq_hd (seq_tl s)
      = STry (SExpr (ECall "self.save_model_and_optimizer_with_info" [EName "model"; EName "optimizer"; EName "info"] [])) h ->
    seq_hd (seq_tl (seq_tl s))
      = SIf (ENot (EName "save_info_first")) (SExpr (ECall "self.save_info_to_hist" [EName "info"] [])) SPass ->
    lookup "save_info_first" rest = Some sif -> lookup "info" rest = Some (info_of (vnat (S n)) tr va v) ->
    lookup "model" rest = Some (VInt v) -> lookup "optimizer" rest = Some (VInt v) ->
    exec ext s (mkState (("self", self_of P c) :: rest) (map ev_of_op ops))
    = exec ext (seq_tl (seq_tl (seq_tl s))) (mkState (("self", self_of P (cache_set (mkRow (S n) tr va v) c)) :: rest)
        (map ev_of_op (ops ++ (if truthy sif then [Append (mkRow (S n) tr va v)] else []) ++ save_ops P cn (S n) v
                           ++ if truthy sif then [] else [Append (mkRow (S n) tr va v)]))).
  Proof.
    intros H1 H2 H3 Hs Hi Hm Ho.
    erewrite seq_cut by (rewrite H1; apply (save_info_if _ sif); [run; rewrite Hs; reflexivity|exact Hi]).
    erewrite seq_cut by (rewrite H2; apply try_ok; run; rewrite Hm; run; rewrite Ho; run; rewrite Hi; run;
                         erewrite ext_save_model by apply info_epoch_of; reflexivity).
    erewrite seq_cut by (rewrite H3; apply (save_info_if _ (VBool (negb (truthy sif))));
                         [run; rewrite Hs; reflexivity|exact Hi]).
    cbn [truthy]. destruct (truthy sif); cbn [negb]; rewrite <- !app_assoc; reflexivity.
  Qed.

  Variables (c : cache) (tr va v : Z).
  Notation ep := (S (last_epoch c)).
  Notation r := (mkRow (S (last_epoch c)) tr va v).
  Notation info := (info_of (vnat (S (last_epoch c))) tr va v).
  Notation m := (pth P KM (S (last_epoch c))).
  Notation o := (pth P KO (S (last_epoch c))).

  (* the variables when the test of keep_last_and_best_only is reached *)
  Definition vars2 : list (string * val) :=
    vars1 P c tr va v ++ [("info", info); ("model_pth", vp m); ("optim_pth", vp o); ("wrote_info_warn", VStr "")].

  Lemma files_head :
    exec ext ufe_files (mkState (vars1 P c tr va v ++ [("info", info)]) [])
    = exec ext (if klb P then ufe_klb else ufe_keep) (mkState vars2 (map ev_of_op [])).
  Proof.
    unfold vars1, vars2.
    test idtac.
    erewrite paths_run by first [apply info_epoch_of | reflexivity].
    step idtac.
    test idtac. reflexivity.
  Qed.

  (* keep_last_and_best_only = False *)
  Lemma files_tie_keep_all :
    let first := exists_b (files d) m || exists_b (files d) o in
    collect (exec ext ufe_keep (mkState vars2 (map ev_of_op []))) (vnat ep)
    = Some (Some ((if first then [Append r] else []) ++ save_ops P cn ep v ++ (if first then [] else [Append r]), r)).
  Proof.
    lazy [ufe_keep if_then if_else seq_tl ufe_files vars1 vars2 app].
    erewrite seq_cut by (apply exec_assign_ok, eval_or_bool; run; rewrite ext_exists; reflexivity).
    cbn [seq_tl set_var vars events update String.eqb Ascii.eqb Bool.eqb app].
    erewrite saves_run by reflexivity. apply collect_ok.
  Qed.

  (* keep_last_and_best_only = True *)
  Notation c' := (cache_set r c).
  Notation cb := (best_epoch (bt P) c').
  Notation lb := (best_epoch (bt P) c).
  Notation lm := (pth P KM (last_epoch c)).
  Notation lo := (pth P KO (last_epoch c)).
  Notation lbm := (pth P KM lb).
  Notation lbo := (pth P KO lb).

  (* the variables once cur_best is assigned; X: what the guard against overwriting the best epoch's files has added *)
  Definition vars3 (X : list (string * val)) : list (string * val) :=
    ("self", self_of P c') :: ("model", VInt v) :: ("optimizer", VInt v) :: ("train_met", vmet tr) :: ("val_met", vmet va)
    :: ("epoch", vnat ep) :: ("best_is_train", VBool (bt P)) :: ("last_best", vnat lb) :: ("info", info)
    :: ("model_pth", vp m) :: ("optim_pth", vp o) :: ("wrote_info_warn", VStr "") :: ("cur_best", vnat cb) :: X.

  Definition overwrites_best : bool :=
    negb (Nat.eqb cb ep) && (path_eqb m (pth P KM cb) || path_eqb o (pth P KO cb)).

  (* `if cur_best != epoch: ... raise ValueError` *)
  Lemma check_run : exists X,
    exec ext klb_check (mkState (vars3 []) (map ev_of_op []))
    = if overwrites_best then Exc "ValueError" (mkState (vars3 X) (map ev_of_op []))
      else Ok CNormal (mkState (vars3 X) (map ev_of_op [])).
  Proof.
    destruct (info_for_present c' cb (best_epoch_In _ _)) as [ib Hib].
    exists (if Nat.eqb cb ep then []
            else [("best_info", ib); ("best_model_pth", vp (pth P KM cb)); ("best_optim_pth", vp (pth P KO cb))]).
    unfold vars3, overwrites_best.
    test (rewrite zeqb_nat).
    destruct (Nat.eqb cb ep); cbn [negb andb]; [reflexivity|].
    step (rewrite (ext_get_info _ _ _ _ _ Hib)).
    erewrite paths_run by first [exact (proj2 Hib) | reflexivity].
    test (rewrite !foreign_vp; run; rewrite vp_eqb).
    destruct (path_eqb m _); [reflexivity|].
    test (rewrite !foreign_vp; run; rewrite vp_eqb).
    destruct (path_eqb o _); reflexivity.
  Qed.

  (* `clean_up -= {model_pth, optim_pth}; self._clean_up_files( *tuple(clean_up))` *)
  Lemma cleanup_run c0 cl rest ops :
    lookup "clean_up" rest = Some (VSet (vps cl)) ->
    lookup "model_pth" rest = Some (vp m) -> lookup "optim_pth" rest = Some (vp o) ->
    collect (exec ext
      (SSeq (SAug (TName "clean_up") Sub (ESetLit [EName "model_pth"; EName "optim_pth"]))
            (SExpr (ECall "self._clean_up_files" [EStar (ECall "tuple" [EName "clean_up"] [])] [])))
      (mkState (("self", self_of P (cache_set r c0)) :: rest) (map ev_of_op ops))) (vnat ep)
    = Some (Some (ops ++ map Remove (order_by ro (filter (exists_b (files (apply_ops d ops)))
                      (filter (fun p => negb (path_eqb p m || path_eqb p o)) cl))), r)).
  Proof.
    intros Hc Hm Ho.
    step (rewrite Hc; run; rewrite Hm; run; rewrite Ho; run; rewrite set2_vps, set_diff_vps, cl_eq).
    run. rewrite lookup_update. run. rewrite app_nil_r, ext_clean_up. apply collect_ok.
  Qed.

  Definition info_first : bool := mem m [lm; lbm; lo; lbo] || mem o [lm; lbm; lo; lbo].
  Definition saved : list fsop :=
    (if info_first then [Append r] else []) ++ save_ops P cn ep v ++ if info_first then [] else [Append r].
  Definition cleaned : list fsop :=
    saved ++ map Remove (order_by ro (filter (exists_b (files (apply_ops d saved)))
               (filter (fun p => negb (path_eqb p m || path_eqb p o))
                  (padd_all [] ([lm; lo] ++ if Nat.eqb lb cb then [] else [lbm; lbo]))))).

  (* the branch that cleans up: `last_info = ...` to the end *)
  Lemma rest_run X :
    collect (exec ext klb_rest (mkState (vars3 X) (map ev_of_op []))) (vnat ep) = Some (Some (cleaned, r)).
  Proof.
    destruct (info_for_old c r _ (last_epoch_In c)) as [il Hil], (info_for_old c r _ (best_epoch_In (bt P) c)) as [ilb Hilb].
    unfold vars3. change X with (upds [] X).
    step (rewrite znat_S_sub1, (ext_get_info _ _ _ _ _ Hil)).
    erewrite paths_run by first [exact (proj2 Hil) | runx; reflexivity].
    step (rewrite (ext_get_info _ _ _ _ _ Hilb)).
    erewrite paths_run by first [exact (proj2 Hilb) | runx; reflexivity].
    step (rewrite set2_vps, set4_vps, set_inter_vps).            (* save_info_first = {..} & {..} *)
    erewrite saves_run by first [reflexivity | runx; reflexivity].
    rewrite truthy_vps, info_first_eq. fold info_first. cbn [app]. fold saved.
    step (rewrite set2_vps, padd_pair).                          (* clean_up = {last_model_pth, last_optim_pth} *)
    unfold cleaned.
    destruct (Nat.eqb lb cb) eqn:E.                              (* if last_best != cur_best: clean_up |= {..} *)
    - erewrite seq_cut by (test (rewrite zeqb_nat, E); reflexivity).
      apply cleanup_run; runx; reflexivity.
    - erewrite seq_cut by (test (rewrite zeqb_nat, E); runx; rewrite set2_vps, padd_pair, set_add_all_vps; reflexivity).
      apply cleanup_run; runx; reflexivity.
  Qed.

  Lemma files_tie_klb :
    collect (exec ext ufe_klb (mkState vars2 (map ev_of_op []))) (vnat ep)
    = Some (if overwrites_best then None
            else if Nat.eqb cb (last_epoch c) then Some (save_ops P cn ep v ++ [Append r], r)
            else Some (cleaned, r)).
  Proof.
    destruct check_run as [X HX].
    unfold vars2, vars1.
    step (rewrite enc_cache_set; cbn [dict_set val_eqb String.eqb Ascii.eqb Bool.eqb]).   (* self.cache_hist[epoch] = info *)
    step (rewrite (ext_best (bt P) c')).
    rewrite exec_cut. fold klb_check. fold (vars3 []). rewrite HX.
    destruct overwrites_best; [reflexivity|]. cbn [bind]. unfold vars3.
    test (rewrite znat_S_sub1, zeqb_nat).                        (* if cur_best == epoch - 1 *)
    destruct (Nat.eqb cb (last_epoch c)).
    - step (erewrite ext_save_model by apply info_epoch_of).
      runx. rewrite ext_save_info. apply collect_ok.
    - apply rest_run.
  Qed.

  Lemma files_run :
    collect (exec ext ufe_files (mkState (vars1 P c tr va v ++ [("info", info)]) [])) (vnat ep)
    = Some (update_ops_fd P d c tr va cn v ro).
  Proof.
    rewrite files_head. unfold update_ops_fd. cbv zeta. rewrite !S_sub1.
    destruct (klb P); [|apply files_tie_keep_all].
    rewrite files_tie_klb. unfold cleaned, saved. rewrite <- !app_assoc. reflexivity.
  Qed.
End Files.

(* ---- the tie, every parameter combination, every oracle ----------------------------------------- *)
Theorem src_update_fd P d c tr va cn v ro :
  src_update_ops P d c tr va cn v ro = Some (update_ops_fd P d c tr va cn v ro).
Proof.
  rewrite <- files_run. unfold src_update_ops. rewrite epoch_tie. unfold vars1, Interp.run.
  cbn [vars lookup update String.eqb Ascii.eqb Bool.eqb app].
  destruct (exec _ ufe_files _) as [[|w] st|n st|w]; reflexivity.
Qed.
