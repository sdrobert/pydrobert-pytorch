(* C14 — tie lemmas for BucketBatchSampler.__iter__: interpreting the regenerated source term
   (PV.Gen.C14Src.bbs_iter) yields exactly the batches of Model.bucket_iter, in the same order,
   and raises RuntimeError exactly when the model returns None - for every sampler order, every
   bucket map and size map, both drop settings.  The loop is handled by an invariant over
   MiniPy.Lemmas.for_loop. *)
From Coq Require Import ZArith QArith List String Bool Arith Lia.
From PV Require Import C14.Model MiniPy.Syntax MiniPy.Interp MiniPy.Lemmas MiniTorch.LemmasC14B Gen.C14Src C14.SrcRun.
From PV Require C14.Proofs C14.ProofsSampler.
Import ListNotations.
Local Open Scope string_scope.


Lemma zeqb_nat a b : (Z.of_nat a =? Z.of_nat b)%Z = Nat.eqb a b.
Proof. destruct (Nat.eqb_spec a b); lia. Qed.

Lemma val_eqb_zn a b : val_eqb (zn a) (zn b) = Nat.eqb a b.
Proof. apply zeqb_nat. Qed.

Fixpoint dmem (h : nat) (d : dict) : bool :=
  match d with [] => false | (k, _) :: t => Nat.eqb k h || dmem h t end.

Lemma enc_get (d : dict) h :
  dict_get (map (fun kv => (zn (fst kv), vnats (snd kv))) d) (zn h)
  = if dmem h d then Some (vnats (dget h d)) else None.
Proof.
  induction d as [|[k v] t IH]; [reflexivity|]. cbn [map dict_get fst snd dmem dget].
  rewrite val_eqb_zn, Nat.eqb_sym. destruct (Nat.eqb k h); [reflexivity|exact IH].
Qed.

Lemma dget_absent h d : dmem h d = false -> dget h d = [].
Proof.
  induction d as [|[k v] t IH]; cbn [dmem dget]; [reflexivity|].
  destruct (Nat.eqb k h); cbn [orb]; [discriminate|exact IH].
Qed.

Lemma enc_set d h v :
  dict_set (map (fun kv => (zn (fst kv), vnats (snd kv))) d) (zn h) (vnats v) =
  map (fun kv => (zn (fst kv), vnats (snd kv))) (dset h v d).
Proof.
  induction d as [|[k w] t IH]; [reflexivity|]. cbn [map dict_set dset fst snd].
  rewrite val_eqb_zn, Nat.eqb_sym. destruct (Nat.eqb k h); cbn [map fst snd]; [reflexivity|].
  rewrite IH. reflexivity.
Qed.

Lemma enc_del d h :
  dict_del (map (fun kv => (zn (fst kv), vnats (snd kv))) d) (zn h) =
  map (fun kv => (zn (fst kv), vnats (snd kv))) (ddel h d).
Proof.
  induction d as [|[k w] t IH]; [reflexivity|]. cbn [map dict_del ddel fst snd].
  rewrite val_eqb_zn, Nat.eqb_sym. destruct (Nat.eqb k h); cbn [map fst snd]; [reflexivity|].
  rewrite IH. reflexivity.
Qed.

Lemma dset_mem h v d : dmem h (dset h v d) = true.
Proof.
  induction d as [|[k w] t IH]; cbn [dset dmem]; [rewrite Nat.eqb_refl; reflexivity|].
  destruct (Nat.eqb k h) eqn:E; cbn [dmem]; rewrite E; cbn [orb]; [reflexivity|exact IH].
Qed.

Lemma dset_dset h v w d : dset h v (dset h w d) = dset h v d.
Proof.
  induction d as [|[k u] t IH]; cbn [dset]; [rewrite Nat.eqb_refl; reflexivity|].
  destruct (Nat.eqb k h) eqn:E; cbn [dset]; rewrite E; [reflexivity|rewrite IH; reflexivity].
Qed.

Lemma ddel_dset h v d : ddel h (dset h v d) = ddel h d.
Proof.
  induction d as [|[k u] t IH]; cbn [dset ddel]; [rewrite Nat.eqb_refl; reflexivity|].
  destruct (Nat.eqb k h) eqn:E; cbn [ddel]; rewrite E; [reflexivity|rewrite IH; reflexivity].
Qed.

Lemma dset_absent_app h v d : dmem h d = false -> dset h v d = (d ++ [(h, v)])%list.
Proof.
  induction d as [|[k u] t IH]; cbn [dset dmem app]; [reflexivity|].
  destruct (Nat.eqb k h); cbn [orb]; [discriminate|]. intros H. rewrite (IH H). reflexivity.
Qed.

Lemma length_map_zn (l : list nat) : List.length (map zn l) = List.length l.
Proof. apply map_length. Qed.

Lemma vnats_snoc l i : VList (map zn l ++ [zn i])%list = vnats (l ++ [i])%list.
Proof. unfold vnats. rewrite map_app. reflexivity. Qed.

Lemma zltb_nat a b : (Z.of_nat a <? Z.of_nat b)%Z = Nat.ltb a b.
Proof. destruct (Z.ltb_spec (Z.of_nat a) (Z.of_nat b)), (Nat.ltb_spec a b); try reflexivity; lia. Qed.

Lemma cmp_lt_zn a b : cmp_eval Lt (zn a) (zn b) = Some (Nat.ltb a b).
Proof. unfold zn. rewrite cmp_lt_int, zltb_nat. reflexivity. Qed.

Lemma qlt_nat a b :
  match (inject_Z (Z.of_nat a) ?= inject_Z (Z.of_nat b))%Q with Datatypes.Lt => true | _ => false end
  = Nat.ltb a b.
Proof. rewrite qcmp_int. apply zltb_nat. Qed.

Lemma enc_get_dset h v d :
  dict_get (map (fun kv => (zn (fst kv), vnats (snd kv))) (dset h v d)) (zn h) = Some (vnats v).
Proof. rewrite enc_get, dset_mem, C14.ProofsSampler.dget_dset_same. reflexivity. Qed.

Definition loop_body : stmt :=
  match bbs_iter with SSeq _ (SSeq (SFor _ _ b) _) => b | _ => SPass end.

Definition tail_stmt : stmt :=
  match bbs_iter with SSeq _ (SSeq _ t) => t | _ => SPass end.

Definition mk_vars (self : val) (open : dict) (rest : list (string * val)) : list (string * val) :=
  ("self", self) :: ("batches", enc_open open) :: rest.

Ltac ev := repeat (cbn; first [rewrite lookup_update_eq | rewrite lookup_update_neq by reflexivity]); cbn.

Section Step.
  Variables (bk sz : nat -> nat) (s : list nat) (d1 d2 : list (val * val)) (drop : bool).
  Let self := self_of s (VDict d1) (VDict d2) drop.

  Lemma step_tie idx open rest evs :
    dict_get d1 (zn idx) = Some (zn (bk idx)) ->
    dict_get d2 (zn (bk idx)) = Some (zn (sz (bk idx))) ->
    let h := bk idx in
    let batch := (dget h open ++ [idx])%list in
    let rest' := update "batch_size" (zn (sz h)) (update "hash_" (zn h) (update "idx" (zn idx) rest)) in
    exec ext_none loop_body (set_var "idx" (zn idx) (mkState (mk_vars self open rest) evs)) =
      if Nat.eqb (sz h) (List.length batch)
      then Ok CNormal (mkState (mk_vars self (ddel h open) rest') (evs ++ [yield_ev batch])%list)
      else if Nat.ltb (sz h) (List.length batch)
      then Exc "RuntimeError" (mkState (mk_vars self (dset h batch open) rest') evs)
      else Ok CNormal (mkState (mk_vars self (dset h batch open) rest') evs).
  Proof.
    intros H1 H2 h batch rest'. fold h in H1, H2. clearbody h. cbv [loop_body bbs_iter]. unfold mk_vars, self, self_of. hide_names.
    (* hash_ = self.idx2bucket[idx]; batch_size = self.bucket2size[hash_] *)
    step ltac:(ev; rewrite H1; cbn).
    step ltac:(ev; rewrite H2; cbn).
    (* batches.setdefault(hash_, []): afterwards the bucket exists, with what it held *)
    set (open1 := if dmem h open then open else dset h [] open).
    assert (Hm1 : dmem h open1 = true)
      by (unfold open1; destruct (dmem h open) eqn:E; [exact E|apply dset_mem]).
    assert (Hg1 : dget h open1 = dget h open).
    { unfold open1. destruct (dmem h open) eqn:E; [reflexivity|].
      rewrite C14.ProofsSampler.dget_dset_same. symmetry. exact (dget_absent h open E). }
    assert (Hs1 : forall v, dset h v open1 = dset h v open)
      by (intros v; unfold open1; destruct (dmem h open); [reflexivity|apply dset_dset]).
    match goal with |- exec _ _ ?st = _ => rewrite (exec_seq_ok _ _ _ st (set_var "batches" (enc_open open1) st)) end.
    2: { ev. rewrite enc_get. unfold open1. destruct (dmem h open); [reflexivity|].
         cbn. change (VList []) with (vnats []). rewrite enc_set. reflexivity. }
    (* batches[hash_].append(idx) *)
    step ltac:(ev; rewrite enc_get, Hm1; ev; rewrite vnats_snoc, enc_set, Hg1, Hs1;
               fold batch; fold (enc_open (dset h batch open))).
    (* if batch_size == len(batches[hash_]): yield batches[hash_]; del batches[hash_]
       elif batch_size < len(batches[hash_]): raise RuntimeError *)
    erewrite exec_if_ok by (ev; unfold enc_open at 1; rewrite enc_get_dset; cbn; rewrite map_length, zeqb_nat; reflexivity).
    cbn [truthy]. destruct (Nat.eqb (sz h) (List.length batch)).
    - step ltac:(ev; unfold enc_open at 1; rewrite enc_get_dset; cbn).
      ev. unfold enc_open at 1. rewrite enc_get_dset. cbn. rewrite enc_del, ddel_dset. reflexivity.
    - erewrite exec_if_ok
        by (ev; unfold enc_open at 1; rewrite enc_get_dset; cbn; rewrite map_length, qlt_nat; reflexivity).
      cbn [truthy]. destruct (Nat.ltb (sz h) (List.length batch)); reflexivity.
  Qed.
End Step.

Section Loop.
  Variables (bk sz : nat -> nat) (s : list nat) (d1 d2 : list (val * val)) (drop : bool).
  Let self := self_of s (VDict d1) (VDict d2) drop.

  Definition tables_ok (l : list nat) : Prop :=
    forall idx, List.In idx l ->
      dict_get d1 (zn idx) = Some (zn (bk idx)) /\ dict_get d2 (zn (bk idx)) = Some (zn (sz (bk idx))).

  Lemma loop_tie l : forall open rest evs,
    tables_ok l ->
    match iter_loop bk sz open l with
    | Some (ys, open') =>
        exists rest',
          for_loop ext_none "idx" loop_body (map zn l) (mkState (mk_vars self open rest) evs)
          = Ok CNormal (mkState (mk_vars self open' rest') (evs ++ map yield_ev ys)%list)
    | None =>
        exists st', for_loop ext_none "idx" loop_body (map zn l) (mkState (mk_vars self open rest) evs)
                    = Exc "RuntimeError" st'
    end.
  Proof.
    unfold self. induction l as [|idx l IH]; intros open rest evs Ht.
    - exists rest. cbn. rewrite app_nil_r. reflexivity.
    - assert (Ht' : tables_ok l) by (intros i Hi; apply Ht; right; exact Hi).
      destruct (Ht idx (or_introl eq_refl)) as [H1 H2].
      cbn [map iter_loop for_loop]. rewrite (step_tie bk sz s d1 d2 drop idx open rest evs H1 H2).
      set (h := bk idx). set (batch := (dget h open ++ [idx])%list).
      destruct (Nat.eqb (sz h) (List.length batch)); [|destruct (Nat.ltb (sz h) (List.length batch))]; cbn [bind];
        try match goal with |- context [for_loop _ _ _ _ (mkState (mk_vars _ ?o ?r) ?e)] => specialize (IH o r e Ht') end.
      + destruct (iter_loop bk sz (ddel h open) l) as [[ys o]|]; destruct IH as [r Hf]; exists r; rewrite Hf;
          [|reflexivity].
        cbn [map]. rewrite <- app_assoc. reflexivity.
      + eexists. reflexivity.
      + destruct (iter_loop bk sz (dset h batch open) l) as [[ys o]|]; destruct IH as [r Hf]; exists r; exact Hf.
  Qed.
End Loop.

Definition item_of (kv : nat * list nat) : val := VTuple [zn (fst kv); vnats (snd kv)].

Lemma keys_tie (d : dict) : forall st,
  exists st', sorted_keys ext_none "x" (ESub (EName "x") (EConst (VInt 0))) (map item_of d) st
              = Ok (map (fun kv => (zn (fst kv), item_of kv)) d) st' /\ events st' = events st.
Proof.
  induction d as [|kv d IH]; intros st.
  - exists st. cbn. auto.
  - cbn [map sorted_keys]. cbn [eval].
    unfold set_var at 1. cbn [vars]. rewrite lookup_update_eq. cbn [bind].
    change (subscript (item_of kv) (VInt 0) (set_var "x" (item_of kv) st))
      with (Ok (zn (fst kv)) (set_var "x" (item_of kv) st)).
    cbn [bind].
    destruct (IH (set_var "x" (item_of kv) st)) as [st' [Hk He]].
    exists st'. rewrite Hk. cbn [bind]. split; [reflexivity|exact He].
Qed.

(* MiniPy's sorted is stable (Interp.insert_keyed puts an item in front of the first one whose key is not smaller);
   Model.insert_item puts it in front of the first one whose key is greater.  The two agree when the key is new -
   the keys of a dict are distinct. *)
Lemma insert_tie e (l : dict) : ~ List.In (fst e) (map fst l) ->
  insert_keyed (zn (fst e), item_of e) (map (fun kv => (zn (fst kv), item_of kv)) l)
  = Some (map (fun kv => (zn (fst kv), item_of kv)) (insert_item e l)).
Proof.
  induction l as [|y t IH]; intros Hn; [reflexivity|].
  cbn [map insert_keyed insert_item fst]. rewrite cmp_lt_zn.
  assert (Hne : fst e <> fst y) by (intros E; apply Hn; left; symmetry; exact E).
  destruct (Nat.ltb_spec (fst y) (fst e)), (Nat.ltb_spec (fst e) (fst y)); try lia; [|reflexivity].
  rewrite IH by (intros H'; apply Hn; right; exact H'). reflexivity.
Qed.

Lemma sort_tie (d : dict) : NoDup (map fst d) ->
  sort_keyed (map (fun kv => (zn (fst kv), item_of kv)) d) = Some (map item_of (sort_items d)).
Proof.
  intros Hnd. unfold sort_keyed.
  assert (H : sort_keyed_aux (map (fun kv => (zn (fst kv), item_of kv)) d)
              = Some (map (fun kv => (zn (fst kv), item_of kv)) (sort_items d))).
  { induction d as [|e d IH]; [reflexivity|].
    cbn [map] in Hnd. inversion Hnd as [|? ? Hnot Hnd']; subst.
    cbn [map sort_keyed_aux]. rewrite (IH Hnd'). unfold sort_items. cbn [fold_right]. apply insert_tie.
    fold (sort_items d). intros Hin. apply Hnot.
    apply in_map_iff in Hin. destruct Hin as [x [Hx Hin]].
    apply (proj1 (C14.ProofsSampler.in_sort_items d x)) in Hin.
    apply in_map_iff. exists x. split; [exact Hx|exact Hin]. }
  rewrite H. cbn [option_map]. rewrite map_map. reflexivity.
Qed.

Definition flush_body : stmt :=
  match tail_stmt with SIf _ (SFor _ _ b) _ => b | _ => SPass end.

Lemma sub_item kv st :
  subscript (item_of kv) (VInt 0) st = Ok (zn (fst kv)) st /\ subscript (item_of kv) (VInt 1) st = Ok (vnats (snd kv)) st.
Proof. split; reflexivity. Qed.

#[local] Arguments subscript : simpl never.

Lemma flush_step kv st :
  exec ext_none flush_body (set_var "$t1" (item_of kv) st) =
  Ok CNormal (emit (yield_ev (snd kv))
               (set_var "batch" (vnats (snd kv)) (set_var "_" (zn (fst kv)) (set_var "$t1" (item_of kv) st)))).
Proof.
  unfold flush_body, tail_stmt, bbs_iter. hide_names. cbn.
  rewrite lookup_update_eq. cbn. rewrite (proj1 (sub_item kv _)). cbn.
  rewrite lookup_update_neq by reflexivity. rewrite lookup_update_eq. cbn. rewrite (proj2 (sub_item kv _)). cbn.
  rewrite lookup_update_eq. cbn. reflexivity.
Qed.

Lemma flush_loop_tie (l : dict) : forall st,
  exists st', for_loop ext_none "$t1" flush_body (map item_of l) st = Ok CNormal st' /\
              events st' = (events st ++ map yield_ev (map snd l))%list.
Proof.
  induction l as [|kv l IH]; intros st.
  - exists st. cbn. rewrite app_nil_r. auto.
  - cbn [map for_loop]. rewrite flush_step. cbn [bind].
    destruct (IH (emit (yield_ev (snd kv))
               (set_var "batch" (vnats (snd kv)) (set_var "_" (zn (fst kv)) (set_var "$t1" (item_of kv) st)))))
      as [st' [Hf He]].
    exists st'. split; [exact Hf|]. rewrite He. cbn. rewrite <- app_assoc. reflexivity.
Qed.

Lemma items_enc (d : dict) :
  map (fun kv : val * val => VTuple [fst kv; snd kv]) (map (fun kv : nat * list nat => (zn (fst kv), vnats (snd kv))) d)
  = map item_of d.
Proof. rewrite map_map. reflexivity. Qed.

Theorem bbs_iter_tie bk sz s d1 d2 drop :
  tables_ok bk sz d1 d2 s ->
  match bucket_iter bk sz drop s with
  | Some ys =>
      exists st', Interp.run ext_none bbs_iter [("self", self_of s (VDict d1) (VDict d2) drop)] = Ok VNone st' /\
                  events st' = map yield_ev ys
  | None =>
      exists st', Interp.run ext_none bbs_iter [("self", self_of s (VDict d1) (VDict d2) drop)]
                  = Exc "RuntimeError" st'
  end.
Proof.
  intros Ht. unfold bucket_iter, Interp.run.
  pose proof (loop_tie bk sz s d1 d2 drop s [] [] [] Ht) as Hl.
  change bbs_iter with (SSeq (SAssign [TName "batches"] (ECall "dict" [] []))
                         (SSeq (SFor "idx" (EAttr (EName "self") "sampler") loop_body) tail_stmt)).
  rewrite exec_seq.
  change (exec ext_none (SAssign [TName "batches"] (ECall "dict" [] []))
            (mkState [("self", self_of s (VDict d1) (VDict d2) drop)] []))
    with (Ok CNormal (mkState [("self", self_of s (VDict d1) (VDict d2) drop); ("batches", VDict [])] [])).
  cbn [bind].
  rewrite exec_seq, exec_for. cbn -[loop_body tail_stmt exec for_loop].
  change (VDict []) with (enc_open []).
  change (mkState [("self", self_of s (VDict d1) (VDict d2) drop); ("batches", enc_open [])] [])
    with (mkState (mk_vars (self_of s (VDict d1) (VDict d2) drop) [] []) []).
  destruct (iter_loop bk sz [] s) as [[ys open']|] eqn:Eit.
  - assert (Hnd : NoDup (map fst open'))
      by exact (proj1 (proj1 (C14.ProofsSampler.iter_loop_spec bk sz s [] ys open' Eit (C14.ProofsSampler.good_nil bk sz)))).
    destruct Hl as [rest' Hf]. rewrite Hf. cbn [bind app].
    unfold tail_stmt, bbs_iter. rewrite exec_if.
    cbn -[exec for_loop]. 
    destruct drop; cbn -[exec for_loop].
    + eexists. split; [reflexivity|]. cbn. rewrite app_nil_r. reflexivity.
    + rewrite exec_for, eval_sorted. cbn -[for_loop sorted_keys sort_keyed].
      rewrite items_enc.
      destruct (keys_tie open' (mkState (mk_vars (self_of s (VDict d1) (VDict d2) false) open' rest') (map yield_ev ys)))
        as [stk [Hk Hek]].
      rewrite Hk. cbn [bind]. rewrite (sort_tie open' Hnd). cbn [bind iter_items container_items].
      destruct (flush_loop_tie (sort_items open') stk) as [stf [Hfl Hef]].
      change (SSeq (SAssign [TName "_"] (ESub (EName "$t1") (EConst (VInt 0))))
                (SSeq (SAssign [TName "batch"] (ESub (EName "$t1") (EConst (VInt 1)))) (SYield (EName "batch"))))
        with flush_body.
      rewrite Hfl. eexists. split; [reflexivity|]. rewrite Hef, Hek. rewrite map_app. reflexivity.
  - destruct Hl as [st' Hf]. rewrite Hf. cbn [bind]. eexists. reflexivity.
Qed.

(* composed with the model theorem: a statement purely about the translated source - without
   dropping, the batches the source's generator yields contain every sampled index exactly as
   often as the sampler produced it *)
Theorem source_every_index_once bk sz s d1 d2 out :
  tables_ok bk sz d1 d2 s -> bucket_iter bk sz false s = Some out ->
  exists st', Interp.run ext_none bbs_iter [("self", self_of s (VDict d1) (VDict d2) false)] = Ok VNone st' /\
              events st' = map yield_ev out /\
              forall x, count_occ Nat.eq_dec (List.concat out) x = count_occ Nat.eq_dec s x.
Proof.
  intros Ht Hb. pose proof (bbs_iter_tie bk sz s d1 d2 false Ht) as H. rewrite Hb in H.
  destruct H as [st' [Hr He]]. exists st'. repeat split; try assumption.
  apply (C14.Proofs.every_index_once bk sz s out Hb).
Qed.
