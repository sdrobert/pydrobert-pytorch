(* C14, second tie - the two semantic cores of spect_seq_to_batch (PV.Gen.C14BSrc.spect_seq_to_batch; the function
   itself is tied in TieBSpectF):
     sorted_desc_is_model   ext "$sorted" [keys; items] reverse=True (SrcRunB.sort_keyed_desc) on the encoded items
                            is the encoding of Model.sort_desc (stable, descending by feature length)
     pad_sequence_is_model  OpsC14B.pad_sequence on encoded sequences is the encoding of Model.pad_sequence, both
                            layouts (the transposition included), for any element encoding e with padding cell e pad *)
From Coq Require Import ZArith List String Bool Arith Lia.
From PV Require Import C14.Model MiniPy.Syntax MiniPy.Interp MiniTorch.OpsC14B MiniTorch.LemmasC14B C14.SrcRunB.
Import ListNotations.
Local Open Scope list_scope.

Section Sorted.
  Context {X : Type} (key : X -> nat) (enc : X -> val).

  Definition keyed (x : X) : Z * val := (Z.of_nat (key x), enc x).

  Lemma insert_desc_tie x (l : list X) :
    insert_keyed_desc (keyed x) (map keyed l) = map keyed (insert_desc key x l).
  Proof.
    induction l as [|y t IH]; [reflexivity|]. cbn [map insert_keyed_desc insert_desc]. unfold keyed at 1 2. cbn [fst].
    destruct (Z.leb_spec (Z.of_nat (key y)) (Z.of_nat (key x))), (Nat.leb_spec (key y) (key x)); try lia.
    - reflexivity.
    - rewrite IH. reflexivity.
  Qed.

  Lemma sorted_desc_is_model (l : list X) :
    sort_keyed_desc (combine (map (fun x => Z.of_nat (key x)) l) (map enc l)) = map enc (sort_desc key l).
  Proof.
    unfold sort_keyed_desc, sort_desc.
    assert (H : fold_right insert_keyed_desc [] (combine (map (fun x => Z.of_nat (key x)) l) (map enc l))
                = map keyed (fold_right (insert_desc key) [] l)).
    { induction l as [|x t IH]; [reflexivity|]. cbn [map combine fold_right]. rewrite IH. apply insert_desc_tie. }
    rewrite H, map_map. reflexivity.
  Qed.
End Sorted.

Section Pad.
  Context {X : Type} (e : X -> val) (pad : X).
  (* [pk] packs one sequence: VList for matrices (e = enc_row), VTuple for 1-D sequences (e gives cells) *)
  Variable cells : bool.
  Let pk (l : list X) : val := pack cells (map e l).

  Lemma max_len_map (ls : list (list X)) : max_len (map (map e) ls) = maxlen ls.
  Proof.
    induction ls as [|l r IH]; [reflexivity|]. cbn [map max_len maxlen fold_right] in *. rewrite map_length.
    unfold max_len in IH. rewrite IH. reflexivity.
  Qed.

  Lemma padded_map pc T (ls : list (list X)) : (pc = e pad \/ T = 0%nat) ->
    map (fun l => l ++ repeat pc (T - List.length l)) (map (map e) ls) = map (map e) (map (pad_to T pad) ls).
  Proof.
    intros H. rewrite !map_map. apply map_ext. intros l. unfold pad_to. rewrite map_app, map_repeat, map_length.
    destruct H as [Hp|Hp]; rewrite Hp; reflexivity.
  Qed.

  (* the padding cell pc is the encoded pad - or nothing is padded at all *)
  Lemma pad_sequence_is_model' (ts : list val) (ls : list (list X)) pv pc bf t0 rest :
    ts = t0 :: rest -> (match t0 with VTuple _ => true | _ => false end) = cells ->
    all_items ts = Some (map (map e) ls) -> pad_cell pv (map (map e) ls) = Some pc ->
    (pc = e pad \/ maxlen ls = 0%nat) ->
    OpsC14B.pad_sequence ts pv bf = Some (VList (map pk (Model.pad_sequence bf pad ls))).
  Proof.
    intros Hts Hc Hall Hpc Hor. subst ts. unfold OpsC14B.pad_sequence. rewrite Hall, Hpc, Hc.
    rewrite max_len_map, (padded_map pc) by exact Hor. unfold Model.pad_sequence. f_equal. f_equal.
    destruct bf.
    - rewrite !map_map. reflexivity.
    - unfold transpose_cells. rewrite !map_map. apply map_ext_in. intros t Ht. unfold pk. f_equal.
      rewrite !map_map. apply map_ext. intros l.
      destruct Hor as [Hp|H0]; [rewrite Hp; apply map_nth|]. rewrite H0 in Ht. destruct Ht.
  Qed.

  Lemma pad_sequence_is_model (ts : list val) (ls : list (list X)) pv bf t0 rest :
    ts = t0 :: rest -> (match t0 with VTuple _ => true | _ => false end) = cells ->
    all_items ts = Some (map (map e) ls) -> pad_cell pv (map (map e) ls) = Some (e pad) ->
    OpsC14B.pad_sequence ts pv bf = Some (VList (map pk (Model.pad_sequence bf pad ls))).
  Proof. intros Hts Hc Hall Hpc. exact (pad_sequence_is_model' ts ls pv (e pad) bf t0 rest Hts Hc Hall Hpc (or_introl eq_refl)). Qed.

  Lemma pad_packed (ls : list (list X)) pv pc bf :
    ls <> [] -> (cells = true -> forall l, forallb is_cell (map e l) = true) ->
    pad_cell pv (map (map e) ls) = Some pc -> (pc = e pad \/ maxlen ls = 0%nat) ->
    OpsC14B.pad_sequence (map pk ls) pv bf = Some (VList (map pk (Model.pad_sequence bf pad ls))).
  Proof.
    intros Hne Hcells Hpc Hor. destruct ls as [|l0 t]; [contradiction|].
    apply (pad_sequence_is_model' _ (l0 :: t) pv pc bf (pk l0) (map pk t) eq_refl); try assumption.
    - unfold pk, pack. destruct cells; reflexivity.
    - change (pk l0 :: map pk t) with (map pk (l0 :: t)). generalize (l0 :: t). intros ls. induction ls as [|l r IH]; [reflexivity|]. cbn [map all_items]. rewrite IH.
      unfold pk, pack, seq_items. destruct cells eqn:E; [rewrite (Hcells eq_refl)|]; reflexivity.
  Qed.
End Pad.
