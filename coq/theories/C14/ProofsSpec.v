(* C14 - consequences of the sampler specification [bbs_spec] (coverage as counts, each batch a
   contiguous block of its bucket's sub-sequence, number of batches = _get_batch_sampler_len),
   and soundness of the boolean checker [bbs_okb]. *)
From Coq Require Import List Arith Bool Lia Sorting.Sorted Sorting.Permutation.
From PV Require Import C14.Model C14.Spec C14.ProofsParams C14.ProofsSampler.
Import ListNotations.

Lemma count_occ_filter : forall (f : nat -> bool) l x,
  count_occ Nat.eq_dec (filter f l) x = if f x then count_occ Nat.eq_dec l x else 0.
Proof.
  induction l as [|y t IH]; intros x; cbn [filter].
  - cbn. now destruct (f x).
  - destruct (f y) eqn:Ey; cbn [count_occ]; destruct (Nat.eq_dec y x) as [->|Hne]; rewrite IH.
    + now rewrite Ey.
    + reflexivity.
    + now rewrite Ey.
    + reflexivity.
Qed.

Lemma length_concat_const : forall (n : nat) (l : list (list nat)),
  Forall (fun b => length b = n) l -> length (concat l) = n * length l.
Proof.
  induction l as [|b t IH]; intros Hall; cbn; [lia|].
  inversion Hall; subst. rewrite app_length, IH by assumption. lia.
Qed.

Lemma list_sum_cons : forall x l, list_sum (x :: l) = x + list_sum l.
Proof. reflexivity. Qed.

Lemma list_sum_map_add : forall {A} (f g : A -> nat) l,
  list_sum (map (fun x => f x + g x) l) = list_sum (map f l) + list_sum (map g l).
Proof.
  induction l as [|x t IH]; [reflexivity|]. cbn [map]. rewrite !list_sum_cons, IH. lia.
Qed.

Lemma list_sum_indicator : forall (x : nat) K,
  list_sum (map (fun k => if Nat.eqb x k then 1 else 0) K) = count_occ Nat.eq_dec K x.
Proof.
  induction K as [|k t IH]; [reflexivity|]. cbn [map count_occ]. rewrite list_sum_cons, IH.
  destruct (Nat.eq_dec k x) as [->|E]; [now rewrite Nat.eqb_refl|].
  now rewrite (proj2 (Nat.eqb_neq x k)) by congruence.
Qed.

Lemma list_sum_zero : forall {A} (l : list A), list_sum (map (fun _ => 0) l) = 0.
Proof. induction l as [|x t IH]; [reflexivity|]. cbn [map]. now rewrite list_sum_cons, IH. Qed.

(* a list splits by the value of a key into its classes *)
Lemma length_by_key : forall {B} (g : B -> nat) (l : list B) K,
  NoDup K -> (forall b, In b l -> In (g b) K) ->
  length l = list_sum (map (fun k => length (filter (fun b => Nat.eqb (g b) k) l)) K).
Proof.
  induction l as [|b t IH]; intros K Hnd Hin.
  - cbn. now rewrite list_sum_zero.
  - cbn [length].
    rewrite (map_ext (fun k => length (filter (fun b0 => Nat.eqb (g b0) k) (b :: t)))
                     (fun k => length (filter (fun b0 => Nat.eqb (g b0) k) t)
                               + (if Nat.eqb (g b) k then 1 else 0))).
    + rewrite list_sum_map_add, <- IH; [|exact Hnd|intros; apply Hin; now right].
      rewrite list_sum_indicator, (proj1 (NoDup_count_occ' Nat.eq_dec K) Hnd) by (apply Hin; now left). lia.
    + intros k. cbn [filter]. destruct (Nat.eqb (g b) k); cbn; lia.
Qed.

Lemma length_filter_key : forall {B} (g : B -> nat) (l : list B) k,
  length (filter (fun b => Nat.eqb (g b) k) l) = count_occ Nat.eq_dec (map g l) k.
Proof.
  induction l as [|b t IH]; intros k; [reflexivity|]. cbn [filter map count_occ].
  destruct (Nat.eq_dec (g b) k) as [E|E].
  - rewrite (proj2 (Nat.eqb_eq _ _) E). cbn [length]. now rewrite IH.
  - rewrite (proj2 (Nat.eqb_neq _ _) E). apply IH.
Qed.

(* collections.Counter *)
Definition cinv (l : list nat) (c : list (nat * nat)) : Prop :=
  NoDup (map fst c) /\
  (forall k n, In (k, n) c -> n = count_occ Nat.eq_dec l k) /\
  (forall k, In k (map fst c) <-> In k l).

Lemma count_occ_snoc : forall l k k',
  count_occ Nat.eq_dec (l ++ [k]) k' = count_occ Nat.eq_dec l k' + (if Nat.eqb k k' then 1 else 0).
Proof.
  intros. rewrite count_occ_app. cbn. destruct (Nat.eq_dec k k') as [->|Hne].
  - now rewrite Nat.eqb_refl.
  - destruct (Nat.eqb k k') eqn:E; [apply Nat.eqb_eq in E; congruence|reflexivity].
Qed.

Lemma keys_counter_add : forall k c x,
  In x (map fst (counter_add k c)) <-> x = k \/ In x (map fst c).
Proof.
  induction c as [|[k' n] t IH]; intros x; cbn [counter_add map fst In].
  - intuition.
  - destruct (Nat.eqb k' k) eqn:E; cbn [map fst In].
    + apply Nat.eqb_eq in E. subst. intuition.
    + rewrite IH. intuition.
Qed.

Lemma nodup_counter_add : forall k c, NoDup (map fst c) -> NoDup (map fst (counter_add k c)).
Proof.
  induction c as [|[k' n] t IH]; intros Hnd; cbn [counter_add map fst].
  - constructor; [intros []|constructor].
  - inversion Hnd as [|? ? Hk Ht]; subst.
    destruct (Nat.eqb k' k) eqn:E; cbn [map fst].
    + constructor; assumption.
    + constructor; [|now apply IH]. rewrite keys_counter_add.
      apply Nat.eqb_neq in E. intros [->|H]; [congruence|contradiction].
Qed.

Lemma in_counter_add : forall k c k' n, NoDup (map fst c) -> In (k', n) (counter_add k c) ->
  (k' <> k /\ In (k', n) c) \/
  (k' = k /\ ((exists m, In (k, m) c /\ n = S m) \/ (~ In k (map fst c) /\ n = 1))).
Proof.
  induction c as [|[k0 n0] t IH]; intros k' n Hnd Hin; cbn [counter_add] in Hin.
  - destruct Hin as [Heq|[]]. inversion Heq; subst. right. split; [reflexivity|]. right. split; [intros []|reflexivity].
  - inversion Hnd as [|? ? Hk Ht]; subst.
    destruct (Nat.eqb k0 k) eqn:E.
    + apply Nat.eqb_eq in E. subst k0. destruct Hin as [Heq|Hin].
      * inversion Heq; subst. right. split; [reflexivity|]. left. exists n0. split; [now left|reflexivity].
      * left. split; [|now right]. intros ->. apply Hk.
        change k with (fst (k, n)). now apply in_map.
    + apply Nat.eqb_neq in E. destruct Hin as [Heq|Hin].
      * inversion Heq; subst. left. split; [exact E|now left].
      * destruct (IH _ _ Ht Hin) as [[Hne Hi]|[-> [[m [Hm ->]]|[Hn ->]]]].
        -- left. split; [exact Hne|now right].
        -- right. split; [reflexivity|]. left. exists m. split; [now right|reflexivity].
        -- right. split; [reflexivity|]. right. split; [|reflexivity].
           cbn [map fst In]. intros [H|H]; [congruence|contradiction].
Qed.

Lemma cinv_step : forall l c k, cinv l c -> cinv (l ++ [k]) (counter_add k c).
Proof.
  intros l c k (Hnd & Hcnt & Hkeys). split; [now apply nodup_counter_add|]. split.
  - intros k' n Hin. rewrite count_occ_snoc.
    destruct (in_counter_add _ _ _ _ Hnd Hin) as [[Hne Hi]|[-> [[m [Hm ->]]|[Hn ->]]]].
    + destruct (Nat.eqb k k') eqn:E; [apply Nat.eqb_eq in E; congruence|].
      rewrite (Hcnt _ _ Hi). lia.
    + rewrite Nat.eqb_refl. rewrite (Hcnt _ _ Hm). lia.
    + rewrite Nat.eqb_refl.
      assert (count_occ Nat.eq_dec l k = 0).
      { apply count_occ_not_In. intros Hi. apply Hn. now apply Hkeys. }
      lia.
  - intros k'. rewrite keys_counter_add, in_app_iff, Hkeys. cbn [In]. intuition.
Qed.

Lemma cinv_fold : forall l pre c, cinv pre c ->
  cinv (pre ++ l) (fold_left (fun c k => counter_add k c) l c).
Proof.
  induction l as [|k t IH]; intros pre c Hc; cbn [fold_left].
  - now rewrite app_nil_r.
  - replace (pre ++ k :: t) with ((pre ++ [k]) ++ t) by (now rewrite <- app_assoc).
    apply IH. now apply cinv_step.
Qed.

Lemma cinv_counter : forall l, cinv l (counter l).
Proof.
  intros l. unfold counter. apply (cinv_fold l [] []).
  split; [constructor|]. split; [intros ? ? []|reflexivity].
Qed.

Lemma fold_left_sum : forall (G : nat -> nat -> nat) (l : list (nat * nat)) a,
  fold_left (fun acc (e : nat * nat) => let '(b, c) := e in acc + G b c) l a
  = a + list_sum (map (fun e => G (fst e) (snd e)) l).
Proof.
  induction l as [|[b c] t IH]; intros a; cbn [fold_left map fst snd]; [cbn; lia|].
  rewrite list_sum_cons, IH. lia.
Qed.

Lemma batch_sampler_len_count : forall n drop q r, r < n ->
  batch_sampler_len n drop (n * q + r) = q + (if drop || Nat.eqb r 0 then 0 else 1).
Proof.
  intros n drop q r Hr. unfold batch_sampler_len. symmetry. destruct drop; cbn [orb].
  - apply Nat.div_unique with (r := r); lia.
  - destruct r as [|r']; cbn [Nat.eqb].
    + apply Nat.div_unique with (r := n - 1); lia.
    + apply Nat.div_unique with (r := r'); lia.
Qed.

Section Consequences.
  Variables bk sz : nat -> nat.

  (* an index only occurs in batches of its own bucket *)
  Lemma count_concat_bucket : forall out x, single_bucket bk out ->
    count_occ Nat.eq_dec (concat out) x = count_occ Nat.eq_dec (concat (batches_of bk (bk x) out)) x.
  Proof.
    induction out as [|b t IH]; intros x Hsb; [reflexivity|].
    assert (Hsbt : single_bucket bk t) by (intros b' Hb'; apply Hsb; now right).
    cbn [concat]. rewrite count_occ_app, IH by exact Hsbt.
    destruct (Nat.eq_dec (bucket_of bk b) (bk x)) as [E|E].
    - rewrite batches_of_cons_same by exact E. cbn [concat]. now rewrite count_occ_app.
    - rewrite batches_of_cons_other by exact E.
      rewrite (proj1 (count_occ_not_In Nat.eq_dec b x)); [reflexivity|].
      intros Hin. destruct (Hsb b (or_introl eq_refl)) as [_ Hall]. apply E. symmetry. now apply Hall.
  Qed.

  (* "every index the underlying sampler produced appears in exactly one batch": as counts, so
     that it also covers samplers that repeat indices *)
  Theorem spec_every_index_once : forall s out,
    bbs_spec bk sz false s out ->
    forall x, count_occ Nat.eq_dec (concat out) x = count_occ Nat.eq_dec s x.
  Proof.
    intros s out (Hsb & Hcov & _) x.
    rewrite count_concat_bucket by exact Hsb.
    destruct (Hcov (bk x)) as (rest & Heq & [->|[Hd _]]); [|discriminate].
    rewrite app_nil_r in Heq. rewrite Heq. unfold in_bucket.
    rewrite count_occ_filter. now rewrite Nat.eqb_refl.
  Qed.

  (* "... or in none only when its incomplete batch was dropped": whatever is missing sits in
     the tail of its bucket's sub-sequence, a tail shorter than the bucket's batch size *)
  Theorem spec_every_index_once_or_dropped : forall drop s out,
    bbs_spec bk sz drop s out ->
    forall x, exists rest,
      count_occ Nat.eq_dec (concat out) x + count_occ Nat.eq_dec rest x = count_occ Nat.eq_dec s x
      /\ (exists pre, in_bucket bk (bk x) s = pre ++ rest)
      /\ (rest = [] \/ (drop = true /\ length rest < sz (bk x))).
  Proof.
    intros drop s out (Hsb & Hcov & _) x.
    destruct (Hcov (bk x)) as (rest & Heq & Hrest). exists rest.
    split; [|split; [eexists; symmetry; exact Heq|exact Hrest]].
    rewrite count_concat_bucket by exact Hsb.
    rewrite <- count_occ_app, Heq. unfold in_bucket.
    rewrite count_occ_filter. now rewrite Nat.eqb_refl.
  Qed.

  (* "in sampler order": every batch is a contiguous block of its bucket's sub-sequence *)
  Theorem spec_batch_is_block : forall drop s out b,
    bbs_spec bk sz drop s out -> In b out ->
    exists pre post, in_bucket bk (bucket_of bk b) s = pre ++ b ++ post.
  Proof.
    intros drop s out b (Hsb & Hcov & _) Hin.
    destruct (Hcov (bucket_of bk b)) as (rest & Heq & _).
    assert (Hb : In b (batches_of bk (bucket_of bk b) out)) by (apply in_batches_of; now split).
    apply in_split in Hb. destruct Hb as (l1 & l2 & Hl).
    rewrite Hl, concat_app in Heq. cbn [concat] in Heq.
    exists (concat l1), (concat l2 ++ rest). rewrite <- Heq. now rewrite <- !app_assoc.
  Qed.

  Lemma spec_members : forall drop s out b x,
    bbs_spec bk sz drop s out -> In b out -> In x b -> In x s.
  Proof.
    intros drop s out b x Hspec Hb Hx.
    destruct (spec_batch_is_block _ _ _ _ Hspec Hb) as (pre & post & Heq).
    assert (Hin : In x (in_bucket bk (bucket_of bk b) s)).
    { rewrite Heq. apply in_or_app. right. apply in_or_app. now left. }
    unfold in_bucket in Hin. now apply filter_In in Hin.
  Qed.

  Lemma spec_batches_per_bucket : forall drop s out h,
    bbs_spec bk sz drop s out ->
    length (batches_of bk h out) = batch_sampler_len (sz h) drop (length (in_bucket bk h s)).
  Proof.
    intros drop s out h (Hsb & Hcov & Hsz).
    destruct Hsz as (full & tr & Hout & Hfull & Hshort & Hdrop & Hsorted).
    destruct (Hcov h) as (rest & Heq & Hrest).
    subst out. rewrite batches_of_app, concat_app in Heq. rewrite batches_of_app, app_length.
    set (F := batches_of bk h full) in *. set (T := batches_of bk h tr) in *.
    assert (Hne : forall b, In b (full ++ tr) -> 0 < length b)
      by (intros b Hb; destruct (Hsb b Hb) as [Hb0 _]; destruct b; [congruence|cbn; lia]).
    assert (HF : Forall (fun b => length b = sz h) F).
    { rewrite Forall_forall in *. intros b Hb. apply in_batches_of in Hb as [Hb <-]. now apply Hfull. }
    assert (HT : Forall (fun b => 0 < length b < sz h) T).
    { rewrite Forall_forall in *. intros b Hb. apply in_batches_of in Hb as [Hb <-].
      split; [apply Hne, in_or_app; now right|now apply Hshort]. }
    assert (HT1 : length T <= 1).
    { unfold T, batches_of. rewrite length_filter_key. apply NoDup_count_occ, sorted_lt_nodup, Hsorted. }
    assert (HFne : sz h = 0 -> F = []).
    { intros Hz. destruct F as [|b F'] eqn:EF; [reflexivity|]. exfalso.
      assert (Hb : In b (batches_of bk h full)) by (fold F; rewrite EF; now left).
      apply in_batches_of in Hb as [Hb _]. inversion HF; subst.
      specialize (Hne b (in_or_app _ _ _ (or_introl Hb))). lia. }
    pose proof (length_concat_const (sz h) F HF) as HlenF.
    assert (Hlen : length (in_bucket bk h s) = sz h * length F + (length (concat T) + length rest)).
    { rewrite <- Heq, !app_length. lia. }
    rewrite Hlen. clear Hlen Heq.
    destruct (Nat.eq_dec (sz h) 0) as [Hz|Hnz].
    { (* a bucket of size 0 has no batches: they would be empty, or shorter than that *)
      rewrite (HFne Hz). destruct T as [|b T']; [|inversion HT; subst; lia].
      destruct Hrest as [->|[_ Hr]]; [|lia]. rewrite Hz. now destruct drop. }
    destruct drop.
    - assert (HTnil : T = []) by (unfold T; rewrite (Hdrop eq_refl); reflexivity).
      rewrite HTnil, batch_sampler_len_count; [reflexivity|].
      destruct Hrest as [->|[_ H]]; cbn [concat length]; lia.
    - assert (Hr : rest = []) by (destruct Hrest as [H|[H _]]; [exact H|discriminate]). subst rest.
      destruct T as [|b [|b' T']]; cbn [concat length] in *; [| |lia].
      + rewrite batch_sampler_len_count by lia. reflexivity.
      + inversion HT as [|? ? Hb _]; subst. rewrite app_nil_r, batch_sampler_len_count by lia.
        destruct (Nat.eqb_spec (length b + 0) 0); [lia|reflexivity].
  Qed.

  Lemma sampler_len_sum : forall drop s,
    sampler_len bk sz drop s
    = list_sum (map (fun k => batch_sampler_len (sz k) drop (count_occ Nat.eq_dec (map bk s) k))
                    (map fst (counter (map bk s)))).
  Proof.
    intros drop s. unfold sampler_len.
    destruct (cinv_counter (map bk s)) as (_ & Hcnt & _).
    rewrite (fold_left_sum (fun b n => if drop then n / sz b else (n + sz b - 1) / sz b)). cbn [Nat.add].
    rewrite map_map. f_equal. apply map_ext_in. intros [k n] Hin. cbn [fst snd].
    rewrite <- (Hcnt _ _ Hin). reflexivity.
  Qed.

  (* "report as their length the number of batches they actually yield" *)
  Theorem spec_len_eq_number_of_batches : forall drop s out,
    bbs_spec bk sz drop s out -> sampler_len bk sz drop s = length out.
  Proof.
    intros drop s out Hspec. rewrite sampler_len_sum.
    destruct (cinv_counter (map bk s)) as (Hnd & _ & Hkeys).
    rewrite (length_by_key (bucket_of bk) out _ Hnd).
    - f_equal. apply map_ext. intros k. fold (batches_of bk k out).
      rewrite (spec_batches_per_bucket _ _ _ _ Hspec). unfold in_bucket. now rewrite length_filter_key.
    - intros b Hb. apply Hkeys. destruct Hspec as (Hsb & Hrest).
      destruct (Hsb b Hb) as [Hne Hall]. destruct b as [|x l]; [congruence|].
      unfold bucket_of. cbn [hd]. apply in_map.
      eapply (spec_members drop s out (x :: l) x); [split; eassumption|exact Hb|now left].
  Qed.

  (* len() does not depend on the order of the epoch: caching it is sound when every epoch presents the same
     indices *)
  Theorem sampler_len_perm : forall drop s s', Permutation s s' ->
    sampler_len bk sz drop s = sampler_len bk sz drop s'.
  Proof.
    intros drop s s' Hp. rewrite !sampler_len_sum.
    assert (Hm : Permutation (map bk s) (map bk s')) by now apply Permutation_map.
    assert (Hk : Permutation (map fst (counter (map bk s))) (map fst (counter (map bk s')))).
    { apply NoDup_Permutation; [apply cinv_counter|apply cinv_counter|].
      intros k. rewrite !(proj2 (proj2 (cinv_counter _))). split; apply Permutation_in; [exact Hm|now symmetry]. }
    rewrite (Permutation_list_sum (Permutation_map _ Hk)).
    f_equal. apply map_ext. intros k.
    now rewrite (proj1 (Permutation_count_occ Nat.eq_dec _ _) Hm k).
  Qed.
End Consequences.
