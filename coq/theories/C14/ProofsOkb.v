(* C14 - the boolean checker [bbs_okb] used by the harness to judge implementation outputs is
   sound for the declarative reading [bbs_spec]. *)
From Coq Require Import List Arith Bool Lia Sorting.Sorted Relations.
From PV Require Import C14.Model C14.Spec C14.ProofsSampler.
Import ListNotations.

Lemma ln_eqb_eq : forall a b, ln_eqb a b = true -> a = b.
Proof.
  unfold ln_eqb. induction a as [|x a IH]; destruct b as [|y b]; cbn; intros H; try discriminate; [reflexivity|].
  apply andb_true_iff in H. destruct H as [H1 H2]. apply Nat.eqb_eq in H1. subst. f_equal. now apply IH.
Qed.

Lemma prefixb_split : forall a b, prefixb a b = true -> exists r, a ++ r = b /\ length r = length b - length a.
Proof.
  induction a as [|x a IH]; intros b H; cbn in *.
  - exists b. split; [reflexivity|lia].
  - destruct b as [|y b]; [discriminate|]. apply andb_true_iff in H. destruct H as [H1 H2].
    apply Nat.eqb_eq in H1. subst. destruct (IH _ H2) as (r & Hr & Hl). exists r. cbn. split; [now rewrite Hr|exact Hl].
Qed.

Lemma drop_while_split : forall {A} (f : A -> bool) l,
  exists pre, l = pre ++ drop_while f l /\ Forall (fun x => f x = true) pre.
Proof.
  induction l as [|x t IH]; cbn.
  - exists []. split; [reflexivity|constructor].
  - destruct (f x) eqn:E.
    + destruct IH as (pre & Hp & Hall). exists (x :: pre). split; [cbn; now rewrite <- Hp|now constructor].
    + exists []. split; [reflexivity|constructor].
Qed.

Lemma strictly_incb_sorted : forall l, strictly_incb l = true -> StronglySorted lt l.
Proof.
  intros l H. apply Sorted_StronglySorted; [intros x y z; lia|].
  induction l as [|x t IH]; [constructor|].
  cbn in H. destruct t as [|y t'].
  - constructor; constructor.
  - apply andb_true_iff in H. destruct H as [H1 H2]. apply Nat.ltb_lt in H1.
    constructor; [now apply IH|constructor; exact H1].
Qed.

Lemma cover_okb_sound : forall (drop : bool) got want n,
  (if drop then prefixb got want && Nat.ltb (length want - length got) n else ln_eqb got want) = true ->
  exists rest, got ++ rest = want /\ (rest = [] \/ (drop = true /\ length rest < n)).
Proof.
  intros drop got want n H. destruct drop.
  - apply andb_true_iff in H as [Hp Hl]. apply Nat.ltb_lt in Hl.
    destruct (prefixb_split _ _ Hp) as (r & Hr & Hlen). exists r. split; [exact Hr|]. right. split; [reflexivity|lia].
  - apply ln_eqb_eq in H. exists []. rewrite app_nil_r. split; [exact H|now left].
Qed.

Section Okb.
  Variables bk sz : nat -> nat.

  Theorem bbs_okb_sound : forall drop s out,
    bbs_okb bk sz drop s out = true -> bbs_spec bk sz drop s out.
  Proof.
    intros drop s out H. unfold bbs_okb in H.
    set (keys := nodup Nat.eq_dec (map bk s)) in *.
    apply andb_true_iff in H as [H H3]. apply andb_true_iff in H as [H1 H2].
    rewrite forallb_forall in H1, H2.
    assert (Hsb : single_bucket bk out).
    { intros b Hb. specialize (H1 b Hb).
      apply andb_true_iff in H1 as [H1 _]. apply andb_true_iff in H1 as [Hne Hall].
      split; [now destruct b|].
      rewrite forallb_forall in Hall. intros x Hx. now apply Nat.eqb_eq, Hall. }
    split; [exact Hsb|]. split.
    - intros h. destruct (in_dec Nat.eq_dec h keys) as [Hk|Hk]; [exact (cover_okb_sound _ _ _ _ (H2 h Hk))|].
      (* a bucket that is not among the keys has neither batches nor indices *)
      exists []. rewrite app_nil_r. split; [|now left].
      assert (Hb : batches_of bk h out = []).
      { apply incl_l_nil. intros b Hin. apply in_batches_of in Hin as [Hin Eb].
        specialize (H1 b Hin). apply andb_true_iff in H1 as [_ Hex].
        apply existsb_exists in Hex as (k & Hkin & Ek). apply Nat.eqb_eq in Ek. apply Hk. congruence. }
      assert (Hi : in_bucket bk h s = []).
      { apply incl_l_nil. intros i Hin. apply filter_In in Hin as [Hin Ei]. apply Nat.eqb_eq in Ei.
        apply Hk. unfold keys. apply nodup_In. rewrite <- Ei. now apply in_map. }
      now rewrite Hb, Hi.
    - cbv zeta in H3. set (tr := drop_while (fun b => Nat.eqb (length b) (sz (bucket_of bk b))) out) in *.
      destruct (drop_while_split (fun b => Nat.eqb (length b) (sz (bucket_of bk b))) out) as (pre & Hp & Hall).
      fold tr in Hp. apply andb_true_iff in H3 as [H3 Hinc]. apply andb_true_iff in H3 as [Hshort Hd].
      exists pre, tr. split; [exact Hp|]. split; [|split; [|split]].
      + eapply Forall_impl; [|exact Hall]. intros b Hb. now apply Nat.eqb_eq.
      + rewrite forallb_forall in Hshort. apply Forall_forall. intros b Hb. now apply Nat.ltb_lt, Hshort.
      + intros ->. cbn in Hd. destruct tr; [reflexivity|discriminate].
      + now apply strictly_incb_sorted.
  Qed.
End Okb.

(* the loader-level checker: len() = number of batches, the sampler specification w.r.t. the tables
   the loader exposes, and those tables monotone in the utterance length (so equal lengths share a
   bucket and every bucket is an interval of lengths) *)
Theorem loader_okb_sound : forall lens p i2b b2s order ln out,
  loader_okb lens p (Some (i2b, b2s)) order ln out = true ->
  ln = length out /\
  bbs_spec (tbl i2b) (tbl b2s) (p_drop p) order out /\
  (forall i j, i < length lens -> j < length lens -> nth i lens 0 <= nth j lens 0 -> tbl i2b i <= tbl i2b j) /\
  (forall b x y, In b out -> In x b -> In y b -> tbl i2b x = tbl i2b y).
Proof.
  intros lens p i2b b2s order ln out H. unfold loader_okb in H.
  apply andb_true_iff in H as [H Hb]. apply andb_true_iff in H as [Hln _]. apply Nat.eqb_eq in Hln.
  apply andb_true_iff in Hb as [Hb Hspec]. apply andb_true_iff in Hb as [_ Hpar].
  apply bbs_okb_sound in Hspec.
  split; [exact Hln|]. split; [exact Hspec|]. split.
  - unfold params_okb in Hpar.
    apply andb_true_iff in Hpar as [Hpar _]. apply andb_true_iff in Hpar as [_ Hmono].
    rewrite forallb_forall in Hmono. intros i j Hi Hj Hle.
    specialize (Hmono i ltac:(apply in_seq; lia)). rewrite forallb_forall in Hmono.
    specialize (Hmono j ltac:(apply in_seq; lia)).
    apply orb_true_iff in Hmono. destruct Hmono as [Hm|Hm].
    + apply negb_true_iff, Nat.leb_gt in Hm. lia.
    + now apply Nat.leb_le in Hm.
  - intros b x y Hin Hx Hy. destruct Hspec as (Hsb & _). destruct (Hsb b Hin) as [_ Hall].
    now rewrite (Hall x Hx), (Hall y Hy).
Qed.

(* plain batching: the epoch order cut into consecutive batches of batch_size, the remainder kept
   (not drop_last) or dropped *)
Theorem plain_okb_sound : forall bs drop order out, plain_okb bs drop order out = true ->
  exists rest, concat out ++ rest = order /\ (rest = [] \/ (drop = true /\ length rest < bs)).
Proof.
  intros bs drop order out H. unfold plain_okb in H. apply andb_true_iff in H as [H _].
  exact (cover_okb_sound _ _ _ _ H).
Qed.
