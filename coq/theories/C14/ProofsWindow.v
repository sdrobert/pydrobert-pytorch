(* C14 - extract_window replicates the edge frames *)
From Coq Require Import List Arith Bool Lia.
From PV Require Import C14.Model C14.Spec.
Import ListNotations.

Section Window.
  Context {A : Type}.

  Lemma nth_firstn_lt : forall (l : list A) n k d, k < n -> nth k (firstn n l) d = nth k l d.
  Proof.
    induction l as [|x t IH]; intros n k d Hk; [now rewrite firstn_nil|].
    destruct n; [lia|]. destruct k; [reflexivity|]. cbn. apply IH. lia.
  Qed.

  Lemma nth_skipn_add : forall (l : list A) a k d, nth k (skipn a l) d = nth (a + k) l d.
  Proof.
    induction l as [|x t IH]; intros a k d.
    - rewrite skipn_nil. destruct k, a; reflexivity.
    - destruct a; [reflexivity|]. cbn. apply IH.
  Qed.

  Lemma last_nth : forall (l : list A) d, last l d = nth (length l - 1) l d.
  Proof.
    induction l as [|x t IH]; intros d; [reflexivity|].
    destruct t as [|y t']; [reflexivity|].
    change (last (x :: y :: t') d) with (last (y :: t') d). rewrite IH. cbn [length Nat.sub nth].
    now rewrite Nat.sub_0_r.
  Qed.

  Lemma hd_nth : forall (l : list A) d, hd d l = nth 0 l d.
  Proof. destruct l; reflexivity. Qed.

  Lemma slice_length : forall (l : list A) a b, length (slice l a b) = Nat.min (b - a) (length l - a).
  Proof. intros. unfold slice. now rewrite firstn_length, skipn_length. Qed.

  Lemma slice_nth : forall (l : list A) a b k d, k < b - a -> nth k (slice l a b) d = nth (a + k) l d.
  Proof. intros. unfold slice. rewrite nth_firstn_lt by assumption. apply nth_skipn_add. Qed.

  Lemma nth_repeat_lt : forall (x : A) n k d, k < n -> nth k (repeat x n) d = x.
  Proof.
    induction n as [|n IH]; intros k d Hk; [lia|]. destruct k; [reflexivity|]. cbn. apply IH. lia.
  Qed.

  (* both branches of extract_window have the padded form: where nothing is padded the two pads are empty *)
  Lemma window_padded : forall d (feat : list A) idx left right,
    extract_window d feat idx left right false
    = repeat (hd d feat) (left - idx) ++ slice feat (idx - left) (idx + right + 1)
        ++ repeat (last feat d) (idx + right + 1 - length feat).
  Proof.
    intros. unfold extract_window.
    destruct (Nat.ltb_spec idx left) as [|H1]; [reflexivity|].
    destruct (Nat.ltb_spec (length feat) (idx + right + 1)) as [|H2]; [reflexivity|].
    apply Nat.sub_0_le in H1, H2. rewrite H1, H2. symmetry. apply app_nil_r.
  Qed.

  Lemma slice_clamp_nth : forall d (l : list A) a b i, a < length l -> i < b - a ->
    nth i (slice l a b ++ repeat (last l d) (b - length l)) d = nth (Nat.min (length l - 1) (a + i)) l d.
  Proof.
    intros d l a b i Ha Hi. pose proof (slice_length l a b) as Hlen.
    destruct (Nat.lt_ge_cases (a + i) (length l)) as [H|H].
    - rewrite app_nth1, slice_nth by lia. f_equal. lia.
    - rewrite app_nth2, nth_repeat_lt, last_nth by lia. f_equal. lia.
  Qed.

  Lemma nth_map_seq0 : forall (f : nat -> A) n k d, k < n -> nth k (map f (seq 0 n)) d = f k.
  Proof.
    intros f n k d Hk. rewrite (nth_indep _ d (f 0)) by (now rewrite map_length, seq_length).
    now rewrite map_nth, seq_nth.
  Qed.

  (* "edge-replicated context windows": entry k of the window around frame idx is frame
     clamp(idx - left + k) of the utterance *)
  Theorem window_clamped : forall d (feat : list A) idx left right, idx < length feat ->
    extract_window d feat idx left right false
    = map (fun k => nth (clamp_frame (length feat) idx left k) feat d) (seq 0 (1 + left + right)).
  Proof.
    intros d feat idx left right Hidx. rewrite window_padded.
    assert (Hlen : length (repeat (hd d feat) (left - idx) ++ slice feat (idx - left) (idx + right + 1)
                             ++ repeat (last feat d) (idx + right + 1 - length feat)) = 1 + left + right)
      by (rewrite !app_length, !repeat_length, slice_length; lia).
    apply (nth_ext _ _ d d); rewrite Hlen; [now rewrite map_length, seq_length|].
    intros k Hk. rewrite nth_map_seq0 by exact Hk. unfold clamp_frame.
    destruct (Nat.lt_ge_cases k (left - idx)) as [H|H].
    - rewrite app_nth1, nth_repeat_lt, hd_nth by (rewrite ?repeat_length; exact H). f_equal. lia.
    - rewrite app_nth2, repeat_length, slice_clamp_nth by (rewrite ?repeat_length; lia). do 2 f_equal. lia.
  Qed.

  Lemma window_length : forall d (feat : list A) idx left right, idx < length feat ->
    length (extract_window d feat idx left right false) = 1 + left + right.
  Proof. intros. now rewrite window_clamped, map_length, seq_length. Qed.

  Theorem window_nth : forall d (feat : list A) idx left right k, idx < length feat ->
    k < 1 + left + right ->
    nth k (extract_window d feat idx left right false) d
    = nth (clamp_frame (length feat) idx left k) feat d.
  Proof. intros. now rewrite window_clamped, nth_map_seq0. Qed.

  Theorem window_reverse : forall d (feat : list A) idx left right,
    extract_window d feat idx left right true = rev (extract_window d feat idx left right false).
  Proof. reflexivity. Qed.

  Theorem window_nth_reverse : forall d (feat : list A) idx left right k, idx < length feat ->
    k < 1 + left + right ->
    nth k (extract_window d feat idx left right true) d
    = nth (clamp_frame (length feat) idx left (left + right - k)) feat d.
  Proof.
    intros d feat idx left right k Hidx Hk. rewrite window_reverse.
    pose proof (window_length d feat idx left right Hidx) as Hlen.
    rewrite rev_nth by lia. rewrite Hlen.
    replace (1 + left + right - S k) with (left + right - k) by lia.
    apply window_nth; [exact Hidx|lia].
  Qed.

  (* one window per frame *)
  Theorem windowed_length : forall d (feat : list A) left right reverse,
    length (windowed d feat left right reverse) = length feat.
  Proof. intros. unfold windowed. now rewrite map_length, seq_length. Qed.
End Window.
