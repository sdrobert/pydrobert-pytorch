(* C14, second tie - ContextWindowDataSet.get_windowed_utterance (PV.Gen.C14BWinSrc.get_windowed_utterance): the
   interpreted method - super().get_utterance_tuple(idx)[:2], torch.empty, the loop over the frames that CALLS the
   interpreted extract_window, both suppress_uttids branches - returns the item Model.cw_loader collates:
   (Model.windowed of the features, the alignment, the id), for every utterance with at least one frame. *)
From Coq Require Import ZArith QArith List String Bool Arith Lia.
From PV Require Import C14.Model MiniPy.Syntax MiniPy.Interp MiniPy.Lemmas MiniTorch.OpsC14B MiniTorch.LemmasC14B
  Gen.C14BWinSrc C14.SrcRunB C14.TieBWin.
From PV Require C14.ProofsCollate.
Import ListNotations.
Local Open Scope string_scope.
Local Open Scope list_scope.

#[local] Arguments Z.of_nat : simpl never.
#[local] Arguments Z.add : simpl never.
#[local] Arguments Interp.run : simpl never.
#[local] Arguments shape2 : simpl never.
#[local] Arguments getitem_slice : simpl never.
#[local] Arguments nat_arg : simpl never.
#[local] Arguments subscript : simpl never.

Lemma zrange0 n : zrange 0 (Z.of_nat n) = map zn (seq 0 n).
Proof.
  unfold zrange. rewrite Z.sub_0_r, Nat2Z.id. apply map_ext. intros i. reflexivity.
Qed.

Lemma list_set_app_mid (a : list val) x (b : list val) v :
  list_set (a ++ x :: b) (List.length a) v = a ++ v :: b.
Proof. induction a as [|y a IH]; [reflexivity|]. cbn [app]. change (List.length (y :: a)) with (S (List.length a)).
  cbn [list_set]. unfold list_set in *. fold list_set in *. rewrite IH. reflexivity. Qed.

(* the loop body: window[center_frame] = extract_window(feat, center_frame, self.left, self.right, reverse=self.reverse) *)
Definition gw_body : stmt :=
  match get_windowed_utterance with SSeq _ (SSeq _ (SSeq _ (SSeq (SFor _ _ b) _))) => b | _ => SPass end.

Section Loop.
  Variable junk : nat -> nat -> val.
  Variables (W : nat) (ds : list utt) (left right : nat) (reverse suppress : bool).
  Variables (idxv t1 ali t2 nf nfl : val) (F : list val).
  Hypothesis Hok : rows_ok F.
  Let self := cw_self W ds left right reverse suppress.

  Definition gw_vars (L : list val) (rest : list (string * val)) : list (string * val) :=
    [("self", self); ("idx", idxv); ("$t1", t1); ("feat", VList F); ("ali", ali); ("$t2", t2);
     ("num_frames", nf); ("num_filts", nfl); ("window", VList L)] ++ rest.

  Lemma body_exec L rest k : (k < List.length F)%nat -> (k < List.length L)%nat ->
    exec (extB junk) gw_body (set_var "center_frame" (zn k) (mkState (gw_vars L rest) []))
    = Ok CNormal (mkState (gw_vars (list_set L k (VList (Model.extract_window VNone F k left right reverse)))
                                   (update "center_frame" (zn k) rest)) []).
  Proof.
    intros Hk HL. destruct (window_run junk F k left right reverse Hok Hk) as [stw Hw].
    unfold gw_body, get_windowed_utterance, gw_vars, self, cw_self. hide_names.
    cbn. rewrite !lookup_update_eq. cbn. rewrite Hw. cbn. rewrite lookup_update_eq. cbn.
    destruct (Z.ltb_spec (Z.of_nat k) 0); [lia|].
    destruct (Z.leb_spec 0 (Z.of_nat k)); [|lia].
    destruct (Z.ltb_spec (Z.of_nat k) (Z.of_nat (List.length L))); [|lia].
    cbn. rewrite Nat2Z.id. reflexivity.
  Qed.

  (* the loop: after the frames k .. k+n-1 the first k+n slots hold the model's windows, the rest is untouched *)
  Lemma loop_exec n : forall k (done todo : list val) rest,
    List.length done = k -> List.length todo = n -> (k + n <= List.length F)%nat ->
    exists rest',
      for_loop (extB junk) "center_frame" gw_body (map zn (seq k n)) (mkState (gw_vars (done ++ todo) rest) [])
      = Ok CNormal (mkState (gw_vars (done ++ map (fun c => VList (Model.extract_window VNone F c left right reverse))
                                                   (seq k n)) rest') []).
  Proof.
    induction n as [|n IH]; intros k done todo rest Hd Hr Hle.
    - destruct todo; [|discriminate]. exists rest. reflexivity.
    - destruct todo as [|x todo]; [discriminate|]. cbn [seq map for_loop].
      rewrite body_exec by (try rewrite app_length; unfold List.length in *; fold (@List.length val) in *; lia).
      cbn [bind]. rewrite <- Hd, list_set_app_mid.
      replace (done ++ VList (Model.extract_window VNone F (List.length done) left right reverse) :: todo)
        with ((done ++ [VList (Model.extract_window VNone F (List.length done) left right reverse)]) ++ todo)
        by (rewrite <- app_assoc; reflexivity).
      destruct (IH (S (List.length done)) (done ++ [VList (Model.extract_window VNone F (List.length done) left right reverse)])
                   todo (update "center_frame" (zn (List.length done)) rest)) as [rest' H].
      + rewrite app_length. unfold List.length at 2. lia.
      + injection Hr as Hr. exact Hr.
      + lia.
      + exists rest'. rewrite H. rewrite <- app_assoc. reflexivity.
  Qed.
End Loop.

Lemma getitem_to2 a b c d :
  getitem_slice (VTuple [a; b; c; d]) (VTuple [VStr "$slice"; VNone; VInt 2; VNone]) = Some (VTuple [a; b]).
Proof. reflexivity. Qed.

Lemma sub_tuple_key l k st : subscript (VTuple l) (VTuple k) st = Stuck "subscript".
Proof. reflexivity. Qed.

Lemma sub_list_nat l i st : (i < List.length l)%nat ->
  subscript (VList l) (VInt (Z.of_nat i)) st = Ok (nth i l VNone) st.
Proof.
  intros H. apply sub_list_at; [apply Z.leb_le; lia|]. rewrite Nat2Z.id. apply nth_error_nth'. exact H.
Qed.

Theorem windowed_tie junk W (ds : list utt) left right reverse suppress i :
  (i < List.length ds)%nat -> u_feat (nth i ds dflt_utt) <> [] ->
  let u := nth i ds dflt_utt in
  exists st', src_windowed junk W ds left right reverse suppress i
              = Ok (enc_cw_item suppress (Model.windowed [] (u_feat u) left right reverse, u_ali u, u_id u)) st'.
Proof.
  intros Hi Hne u. unfold src_windowed, Interp.run. cbv [get_windowed_utterance].
  change (SAssign [TSub (EName "window") (EName "center_frame")] _) with gw_body. hide_names.
  set (self := cw_self W ds left right reverse suppress).
  set (aliv := enc_opt enc_row (u_ali u)).
  (* feat, ali = super().get_utterance_tuple(idx)[:2] *)
  rewrite ?exec_seq_assoc. erewrite exec_seq_ok.
  2: { unfold self, cw_self, zn. cbn.
       destruct (Z.leb_spec 0 (Z.of_nat i)); [|lia].
       destruct (Z.ltb_spec (Z.of_nat i) (Z.of_nat (List.length (map (enc_utt W) ds)))); [|rewrite map_length in *; lia].
       cbn. rewrite Nat2Z.id, (C14.ProofsCollate.nth_map_default (enc_utt W) ds i dflt_utt VNone Hi).
       fold u. unfold enc_utt. rewrite sub_tuple_key. cbn. rewrite getitem_to2. cbn. fold aliv. reflexivity. }
  step ltac:(cbn; rewrite sub2_0; cbn). step ltac:(cbn; rewrite sub2_1; cbn).
  destruct (u_feat u) as [|r fr] eqn:Ef; [contradiction|].
  (* num_frames, num_filts = feat.shape *)
  step ltac:(cbn; unfold enc_mat at 1; cbn [map]; rewrite (shape2_rows _ _ (cells_ints r)); cbn).
  step ltac:(cbn; rewrite sub2_0; cbn). step ltac:(cbn; rewrite sub2_1; cbn).
  (* window = torch.empty(num_frames, 1 + self.left + self.right, num_filts) *)
  step ltac:(cbn; rewrite !nat_arg_pos by lia; cbn;
             replace (Z.to_nat (1 + Z.of_nat left + Z.of_nat right)) with (1 + left + right)%nat by lia;
             rewrite !Nat2Z.id).
  (* for center_frame in range(num_frames): window[center_frame] = extract_window(...) *)
  rewrite exec_seq, exec_for. erewrite (bind_ok (eval _ _ _)) by (cbn; rewrite zrange0; reflexivity).
  cbn [iter_items container_items]. unfold new_cube.
  set (featv := map enc_row (r :: fr)). set (T := S (List.length (map enc_row fr))). set (Fw := List.length (map VInt r)).
  set (J := map (fun a => VList _) (seq 0 T)).
  assert (Hok : rows_ok featv) by apply rows_ok_enc.
  destruct (loop_exec junk W ds left right reverse suppress (zn i) (VTuple [VList featv; aliv]) aliv
              (VTuple [VInt (Z.of_nat T); VInt (Z.of_nat Fw)]) (VInt (Z.of_nat T)) (VInt (Z.of_nat Fw)) featv Hok
              T 0%nat [] J [] eq_refl) as [rest' H5].
  { unfold J. rewrite map_length, seq_length. reflexivity. }
  { unfold featv, T. rewrite !map_length. reflexivity. }
  match goal with |- context [for_loop _ _ _ _ ?st] =>
    change st with (mkState (gw_vars W ds left right reverse suppress (zn i) (VTuple [VList featv; aliv]) aliv
      (VTuple [VInt (Z.of_nat T); VInt (Z.of_nat Fw)]) (VInt (Z.of_nat T)) (VInt (Z.of_nat Fw)) featv ([] ++ J) []) [])
  end.
  erewrite (bind_ok (for_loop _ _ _ _ _)) by exact H5. cbn [app].
  assert (Hw : map (fun c => VList (Model.extract_window VNone featv c left right reverse)) (seq 0 T)
               = map enc_mat (Model.windowed [] (r :: fr) left right reverse)).
  { unfold Model.windowed. rewrite map_map. unfold T, featv. rewrite map_length. apply map_ext. intros c.
    unfold enc_mat. f_equal. rewrite (extract_window_map enc_row).
    apply extract_window_default. discriminate. }
  rewrite Hw.
  assert (Hid : nth i (map (fun u0 : utt => zn (u_id u0)) ds) VNone = zn (u_id u))
    by (apply (C14.ProofsCollate.nth_map_default (fun u0 => zn (u_id u0)) ds i dflt_utt VNone Hi)).
  unfold gw_vars, cw_self, enc_cw_item, enc_cube, zn.
  destruct suppress; cbn.
  2: rewrite sub_list_nat by (rewrite map_length; exact Hi); cbn; unfold zn in Hid; rewrite Hid.
  all: eexists; reflexivity.
Qed.

(* composed with the model's window theorems: purely about the interpreted method - it returns ONE window per frame
   of the utterance, the c-th being the edge-replicated window around frame c, together with the utterance's own
   alignment and id: no frame is lost, none duplicated *)
Theorem source_windowed_every_frame_once junk W (ds : list utt) left right reverse suppress i :
  (i < List.length ds)%nat -> u_feat (nth i ds dflt_utt) <> [] ->
  let u := nth i ds dflt_utt in
  exists st' ws,
    src_windowed junk W ds left right reverse suppress i = Ok (enc_cw_item suppress (ws, u_ali u, u_id u)) st' /\
    List.length ws = List.length (u_feat u) /\
    forall c k, (c < List.length (u_feat u))%nat -> (k < 1 + left + right)%nat ->
      nth k (nth c ws []) []
      = nth (C14.Spec.clamp_frame (List.length (u_feat u)) c left (if reverse then left + right - k else k)) (u_feat u) [].
Proof.
  intros Hi Hne u. destruct (windowed_tie junk W ds left right reverse suppress i Hi Hne) as [st' H].
  exists st', (Model.windowed [] (u_feat u) left right reverse). split; [exact H|]. split.
  - apply C14.ProofsWindow.windowed_length.
  - intros c k Hc Hk. unfold Model.windowed.
    rewrite C14.ProofsWindow.nth_map_seq0 by exact Hc.
    destruct reverse.
    + apply C14.ProofsWindow.window_nth_reverse; assumption.
    + apply C14.ProofsWindow.window_nth; assumption.
Qed.
