(* C14 - the full loaders: index batches -> items -> collated batches; the LangDataLoader defect *)
From Coq Require Import List Arith Bool ZArith Lia Sorting.Sorted Sorting.Permutation.
From PV Require Import C14.Model C14.Spec C14.ProofsSampler C14.ProofsSpec C14.ProofsParams
  C14.ProofsLoader C14.ProofsCollate.
Import ListNotations.

(* without drop_last the batches of an epoch are a rearrangement of the epoch's indices *)
Theorem loader_batches_perm : forall lens p order out, 1 <= p_bs p -> p_drop p = false ->
  loader_batches lens p order = Ok out -> Permutation (concat out) order.
Proof.
  intros lens p order out Hbs Hdrop H.
  destruct (loader_batches_cases _ _ _ _ H) as [(i2b & b2s & _ & Hspec)|[_ ->]]; rewrite Hdrop in *.
  - apply (Permutation_count_occ Nat.eq_dec). intros x. now apply (spec_every_index_once (tbl i2b) (tbl b2s)).
  - rewrite batch_sampler_lossless by lia. reflexivity.
Qed.

(* with drop_last nothing is invented or duplicated *)
Theorem loader_batches_sub : forall lens p order out x, 1 <= p_bs p ->
  loader_batches lens p order = Ok out ->
  count_occ Nat.eq_dec (concat out) x <= count_occ Nat.eq_dec order x.
Proof.
  intros lens p order out x Hbs H.
  destruct (loader_batches_cases _ _ _ _ H) as [(i2b & b2s & _ & Hspec)|[_ ->]].
  - destruct (spec_every_index_once_or_dropped (tbl i2b) (tbl b2s) _ _ _ Hspec x) as (rest & Hc & _). lia.
  - destruct (batch_sampler_spec (p_bs p) (p_drop p) order ltac:(lia)) as (f & r & Hl & _ & _ & ->).
    rewrite Hl at 1. rewrite concat_app, !count_occ_app.
    destruct (p_drop p); cbn [concat]; [cbn; lia|]. destruct r; cbn [concat]; [cbn; lia|]. rewrite app_nil_r. lia.
Qed.

Lemma b_ids_collate : forall bf sort F W sq,
  Permutation (b_ids (spect_collate bf sort F W sq)) (map u_id sq).
Proof.
  intros. unfold spect_collate. cbn [b_ids]. apply Permutation_map.
  destruct sort; [apply sort_desc_perm|reflexivity].
Qed.

Lemma concat_map_perm : forall {A B} (f : A -> list B) (g : A -> list B) l,
  (forall x, In x l -> Permutation (f x) (g x)) -> Permutation (concat (map f l)) (concat (map g l)).
Proof.
  induction l as [|x t IH]; intros H; [reflexivity|]. cbn [map concat].
  apply Permutation_app; [apply H; now left|apply IH; intros y Hy; apply H; now right].
Qed.

(* "Batching loses nothing": over an epoch of a SpectDataLoader without drop_last, the utterance
   ids delivered in the collated batches are exactly those of the utterances the epoch sampler
   produced, each once *)
Theorem spect_loader_delivers_all : forall ds p bf sort F W order out, 1 <= p_bs p -> p_drop p = false ->
  spect_loader ds p bf sort F W order = Ok out ->
  Permutation (concat (map b_ids out)) (map (fun i => u_id (nth i ds dflt_utt)) order).
Proof.
  intros ds p bf sort F W order out Hbs Hdrop H. unfold spect_loader in H.
  destruct (loader_batches _ p order) as [bs|e] eqn:E; [|discriminate]. inversion H; subst. clear H.
  rewrite map_map.
  transitivity (concat (map (fun b => map (fun i => u_id (nth i ds dflt_utt)) b) bs)).
  - apply concat_map_perm. intros b _. rewrite b_ids_collate. now rewrite map_map.
  - rewrite <- concat_map. apply Permutation_map. eapply loader_batches_perm; eauto.
Qed.

(* every delivered batch is the lossless collation of the items of one index batch *)
Theorem spect_loader_batches : forall ds p bf sort F W order out,
  spect_loader ds p bf sort F W order = Ok out ->
  exists bs, loader_batches (map (fun u => length (u_feat u)) ds) p order = Ok bs /\
             out = map (fun b => spect_collate bf sort F W (map (fun i => nth i ds dflt_utt) b)) bs.
Proof.
  intros ds p bf sort F W order out H. unfold spect_loader in H.
  destruct (loader_batches _ p order) as [bs|e]; [|discriminate]. inversion H. eexists; split; reflexivity.
Qed.

(* the LangDataLoader buckets by reference length, with or without utterance ids: every loader
   theorem applies to it with lens = the reference lengths *)
Theorem lang_loader_by_ref_length : forall ds p order,
  lang_loader_batches ds p order = loader_batches (map (fun x => length (fst x)) ds) p order.
Proof. reflexivity. Qed.

Theorem lang_loader_no_mixing : forall (ds : list (list row * nat)) p order out lb b x y,
  1 < p_nb p -> length_bounds (map (fun r => length (fst r)) ds) (p_nb p) = Ok lb ->
  lang_loader_batches ds p order = Ok out -> In b out -> In x b -> In y b ->
  same_class lb (length (fst (nth x ds ([], 0)))) (length (fst (nth y ds ([], 0)))).
Proof.
  intros ds p order out lb b x y Hnb Hlb H Hb Hx Hy.
  pose proof (loader_no_mixing _ _ _ _ _ _ _ _ Hnb Hlb H Hb Hx Hy) as Hs.
  pose proof (map_nth (fun r : list row * nat => length (fst r)) ds ([], 0) x) as Ex.
  pose proof (map_nth (fun r : list row * nat => length (fst r)) ds ([], 0) y) as Ey.
  cbn [fst length] in Ex, Ey. now rewrite Ex, Ey in Hs.
Qed.
