(* C14 - the loaders' batch samplers: plain BatchSampler, the bucketed one, len(), epochs *)
From Coq Require Import List Arith Bool ZArith Lia Sorting.Sorted Sorting.Permutation.
From PV Require Import C14.Model C14.Spec C14.ProofsSampler C14.ProofsSpec C14.ProofsParams.
Import ListNotations.

(* torch BatchSampler *)
Lemma chunks_aux_spec : forall {A} (n : nat) (l cur : list A), length cur < n ->
  let '(f, r) := chunks_aux n cur l in
  cur ++ l = concat f ++ r /\ Forall (fun b => length b = n) f /\ length r < n.
Proof.
  intros A n. induction l as [|x t IH]; intros cur Hc; cbn [chunks_aux].
  - cbn. split; [apply app_nil_r|]. split; [constructor|exact Hc].
  - destruct (Nat.eqb (length (cur ++ [x])) n) eqn:E.
    + apply Nat.eqb_eq in E. specialize (IH [] ltac:(cbn; lia)).
      destruct (chunks_aux n [] t) as [f r]. destruct IH as (H1 & H2 & H3).
      split; [|split; [constructor; assumption|exact H3]].
      cbn [concat]. cbn [app] in H1. rewrite <- app_assoc, <- H1, <- app_assoc. reflexivity.
    + apply Nat.eqb_neq in E. rewrite app_length in E. cbn [length] in E.
      specialize (IH (cur ++ [x]) ltac:(rewrite app_length; cbn; lia)).
      destruct (chunks_aux n (cur ++ [x]) t) as [f r]. destruct IH as (H1 & H2 & H3).
      split; [|split; assumption]. rewrite <- H1, <- app_assoc. reflexivity.
Qed.

(* consecutive chunks of the order: all of size n, then at most one shorter non-empty one, which
   is dropped under drop_last *)
Theorem batch_sampler_spec : forall (n : nat) (drop : bool) (l : list nat), 0 < n ->
  exists full rest,
    l = concat full ++ rest /\ Forall (fun b => length b = n) full /\ length rest < n /\
    batch_sampler n drop l = full ++ (if drop then [] else match rest with [] => [] | _ => [rest] end).
Proof.
  intros n drop l Hn. unfold batch_sampler.
  pose proof (chunks_aux_spec n l [] ltac:(cbn; lia)) as H.
  destruct (chunks_aux n [] l) as [f r]. destruct H as (H1 & H2 & H3).
  exists f, r. cbn [app] in H1. repeat split; assumption.
Qed.

Theorem batch_sampler_len_eq : forall (n : nat) (drop : bool) (l : list nat), 0 < n ->
  length (batch_sampler n drop l) = batch_sampler_len n drop (length l).
Proof.
  intros n drop l Hn. destruct (batch_sampler_spec n drop l Hn) as (f & r & Hl & Hf & Hr & ->).
  rewrite Hl, !app_length, (length_concat_const n f Hf), batch_sampler_len_count by exact Hr.
  f_equal. destruct drop; [reflexivity|]. now destruct r.
Qed.

(* without drop_last nothing is lost and the order is kept *)
Theorem batch_sampler_lossless : forall (n : nat) (l : list nat), 0 < n ->
  concat (batch_sampler n false l) = l.
Proof.
  intros n l Hn. destruct (batch_sampler_spec n false l Hn) as (f & r & Hl & _ & _ & ->).
  rewrite concat_app, Hl at 1. f_equal. destruct r; cbn; [reflexivity|now rewrite app_nil_r].
Qed.

Lemma loader_init_bucketed : forall lens p i2b b2s,
  loader_init lens p = Ok (Some (i2b, b2s)) ->
  1 < p_nb p /\ bucket_params lens (p_nb p) (p_bs p) (p_dyn p) = Ok (i2b, b2s).
Proof.
  intros lens p i2b b2s H. unfold loader_init in H.
  destruct (Nat.ltb 1 (p_nb p)) eqn:E; [|discriminate]. apply Nat.ltb_lt in E. split; [exact E|].
  destruct (bucket_params _ _ _ _) as [x|e]; [|discriminate]. inversion H. reflexivity.
Qed.

(* a length-bucketed loader's epoch meets the sampler specification for its own tables *)
Theorem loader_bucketed_spec : forall lens p order out i2b b2s,
  loader_init lens p = Ok (Some (i2b, b2s)) -> loader_batches lens p order = Ok out ->
  bbs_spec (tbl i2b) (tbl b2s) (p_drop p) order out.
Proof.
  intros lens p order out i2b b2s Hinit H. unfold loader_batches in H. rewrite Hinit in H.
  destruct (bucket_iter _ _ _ _) as [o|] eqn:E; [|discriminate]. inversion H; subst.
  now apply bucket_iter_spec.
Qed.

Lemma loader_batches_cases : forall lens p order out, loader_batches lens p order = Ok out ->
  (exists i2b b2s, loader_init lens p = Ok (Some (i2b, b2s)) /\
                   bbs_spec (tbl i2b) (tbl b2s) (p_drop p) order out) \/
  (loader_init lens p = Ok None /\ out = batch_sampler (p_bs p) (p_drop p) order).
Proof.
  intros lens p order out H. unfold loader_batches in H.
  destruct (loader_init lens p) as [[[i2b b2s]|]|e]; [| |discriminate].
  - destruct (bucket_iter _ _ _ _) as [o|] eqn:E; [|discriminate]. inversion H; subst.
    left. exists i2b, b2s. split; [reflexivity|]. now apply bucket_iter_spec.
  - right. inversion H. split; reflexivity.
Qed.

(* "length-bucketed loaders never mix utterances from different length classes": within a batch no
   bound separates two utterances' lengths *)
Theorem loader_no_mixing : forall lens p order out lb b x y,
  1 < p_nb p -> length_bounds lens (p_nb p) = Ok lb -> loader_batches lens p order = Ok out ->
  In b out -> In x b -> In y b -> same_class lb (nth x lens 0) (nth y lens 0).
Proof.
  intros lens p order out lb b x y Hnb Hlb H Hb Hx Hy.
  destruct (loader_batches_cases _ _ _ _ H) as [(i2b & b2s & Hinit & Hsb & _)|[Hinit _]].
  - destruct (loader_init_bucketed _ _ _ _ Hinit) as [_ Hpar].
    destruct (bucket_params_ok _ _ _ _ _ _ Hpar) as [(-> & _ & _)|(lb' & Hlb' & -> & _)].
    { rewrite length_bounds_empty in Hlb. discriminate. }
    assert (lb' = lb) by congruence. subst lb'.
    destruct (Hsb b Hb) as [_ Hall].
    apply class_of_eq_iff. rewrite <- !tbl_map_class. rewrite (Hall x Hx), (Hall y Hy). reflexivity.
  - unfold loader_init in Hinit. apply Nat.ltb_lt in Hnb. rewrite Hnb in Hinit.
    destruct (bucket_params _ _ _ _); discriminate.
Qed.

(* "report as their length the number of batches they actually yield" *)
Theorem loader_len_eq : forall lens p order out, 1 <= p_bs p ->
  loader_batches lens p order = Ok out -> loader_len lens p order = Ok (length out).
Proof.
  intros lens p order out Hbs H. unfold loader_len.
  destruct (loader_batches_cases _ _ _ _ H) as [(i2b & b2s & -> & Hspec)|[-> ->]]; f_equal.
  - now apply spec_len_eq_number_of_batches.
  - symmetry. apply batch_sampler_len_eq. lia.
Qed.

(* __len__ caches the value it computes at its first call.  That is sound because the value does
   not depend on the order: any two epochs that present the same indices have the same number of
   batches (single process: every epoch is a permutation of all indices) *)
Theorem loader_len_perm : forall lens p order order', Permutation order order' ->
  loader_len lens p order = loader_len lens p order'.
Proof.
  intros lens p order order' Hp. unfold loader_len.
  destruct (loader_init lens p) as [[[i2b b2s]|]|e]; [| |reflexivity].
  - f_equal. now apply sampler_len_perm.
  - now rewrite (Permutation_length Hp).
Qed.

Theorem loader_cached_len_eq : forall lens p order order' out, 1 <= p_bs p ->
  Permutation order order' -> loader_batches lens p order' = Ok out ->
  loader_len lens p order = Ok (length out).
Proof.
  intros lens p order order' out Hbs Hp H.
  rewrite (loader_len_perm lens p order order' Hp). now apply loader_len_eq.
Qed.

(* the constructor never raises ... *)
Theorem loader_init_total : forall lens p, 1 <= p_nb p -> exists t, loader_init lens p = Ok t.
Proof.
  intros lens p Hnb. unfold loader_init. destruct (Nat.ltb 1 (p_nb p)); [|eexists; reflexivity].
  destruct (bucket_params_total lens (p_nb p) (p_bs p) (p_dyn p) Hnb) as (t & ->). eexists; reflexivity.
Qed.

(* ... and every epoch yields batches (no RuntimeError): for every data set - empty ones and
   zero-length utterances included -, every bucket count, batch size, sizing flag, drop_last *)
Theorem loader_total : forall lens p order, 1 <= p_bs p -> 1 <= p_nb p ->
  (forall i, In i order -> i < length lens) ->
  exists out, loader_batches lens p order = Ok out.
Proof.
  intros lens p order Hbs Hnb Hord. unfold loader_batches.
  destruct (loader_init_total lens p Hnb) as (t & Hinit). rewrite Hinit.
  destruct t as [[i2b b2s]|]; [|eexists; reflexivity].
  destruct (loader_init_bucketed _ _ _ _ Hinit) as [_ Hpar].
  destruct (bucket_iter_some (tbl i2b) (tbl b2s) (p_drop p) order) as (out & Hout).
  - intros i Hi. specialize (Hord i Hi).
    destruct (bucket_params_ok _ _ _ _ _ _ Hpar) as [(-> & _ & _)|(lb & Hlb & Hi2b & _)]; [cbn in Hord; lia|].
    destruct (length_bounds_ok _ _ _ Hlb) as (_ & _ & Hne & _ & _ & Hmax & _).
    subst i2b. rewrite tbl_map_class.
    assert (Hj : class_of lb (nth i lens 0) < length lb).
    { apply class_of_lt_length; [|exact Hne]. apply Hmax. now apply nth_In. }
    destruct (bucket_sizes _ _ _ _ _ _ lb _ Hpar Hlb Hj) as (_ & Hge & _). lia.
  - rewrite Hout. eexists; reflexivity.
Qed.

(* "deliver identical batches for identical (seed, epoch)": the batches of an epoch are a function
   of that epoch's order alone - reached by iterating or by starting there *)
Theorem loader_epochs_nth : forall lens p order e0 k j, j < k ->
  nth j (loader_epochs lens p order e0 k) (Err RuntimeError) = loader_batches lens p (order (e0 + j)).
Proof.
  intros lens p order e0 k j Hj. unfold loader_epochs.
  rewrite (nth_indep _ _ (loader_batches lens p (order 0))) by (now rewrite map_length, seq_length).
  rewrite (map_nth (fun e => loader_batches lens p (order e))). now rewrite seq_nth.
Qed.

Theorem loader_same_seed_epoch : forall lens p order k,
  nth k (loader_epochs lens p order 0 (S k)) (Err RuntimeError)
  = nth 0 (loader_epochs lens p order k 1) (Err RuntimeError).
Proof.
  intros. rewrite !loader_epochs_nth by lia. now rewrite Nat.add_0_r.
Qed.
