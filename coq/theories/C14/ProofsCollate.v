(* C14 - collation is lossless: pad_sequence, the three collate functions *)
From Coq Require Import List Arith Bool ZArith Lia Sorting.Sorted Sorting.Permutation.
From PV Require Import C14.Model C14.Spec C14.ProofsParams.
Import ListNotations.

Lemma map_seq_ext : forall {A B} (f : nat -> B) (g : A -> B) (l : list A) d,
  (forall n, n < length l -> f n = g (nth n l d)) -> map f (seq 0 (length l)) = map g l.
Proof.
  intros A B f g l d. revert f. induction l as [|x t IH]; intros f H; [reflexivity|].
  cbn [length seq map]. f_equal; [apply (H 0); cbn; lia|].
  rewrite <- seq_shift, map_map. apply IH. intros n Hn. apply (H (S n)). cbn. lia.
Qed.

Lemma map_nth_seq : forall {A} (l : list A) d, map (fun t => nth t l d) (seq 0 (length l)) = l.
Proof. intros A l d. rewrite (map_seq_ext _ (fun x => x) l d) by reflexivity. apply map_id. Qed.

Lemma nth_map_default : forall {A B} (f : A -> B) l n dA dB, n < length l ->
  nth n (map f l) dB = f (nth n l dA).
Proof.
  induction l as [|x t IH]; intros n dA dB Hn; [cbn in Hn; lia|].
  destruct n; [reflexivity|]. cbn. apply IH. cbn in Hn. lia.
Qed.

Lemma combine_seq_nth : forall {A} (l : list A) d s,
  combine (seq s (length l)) l = map (fun n => (n, nth (n - s) l d)) (seq s (length l)).
Proof.
  induction l as [|x t IH]; intros d s; [reflexivity|].
  cbn [length seq combine map]. rewrite Nat.sub_diag. cbn [nth]. f_equal.
  rewrite (IH d (S s)). apply map_ext_in. intros n Hn. apply in_seq in Hn.
  replace (n - s) with (S (n - S s)) by lia. reflexivity.
Qed.

Lemma nth_app_repeat_pad : forall {A} (l : list A) pad k t, length l <= t ->
  nth t (l ++ repeat pad k) pad = pad.
Proof.
  intros A l pad k t Hle. rewrite app_nth2 by lia.
  destruct (Nat.lt_ge_cases (t - length l) k) as [H|H].
  - now apply nth_repeat.
  - apply nth_overflow. rewrite repeat_length. lia.
Qed.

Section PadSequence.
  Context {A : Type}.

  Lemma length_le_maxlen : forall (ls : list (list A)) n, length (nth n ls []) <= maxlen ls.
  Proof.
    induction ls as [|l t IH]; intros n; [destruct n; cbn; lia|].
    cbn [maxlen fold_right]. fold (maxlen t). destruct n; cbn [nth]; [lia|].
    specialize (IH n). lia.
  Qed.

  Lemma pad_to_length : forall T (pad : A) l, length l <= T -> length (pad_to T pad l) = T.
  Proof. intros. unfold pad_to. rewrite app_length, repeat_length. lia. Qed.

  Lemma cell_pad_sequence : forall bf (pad d : A) ls n t, n < length ls -> t < maxlen ls ->
    cell bf d (pad_sequence bf pad ls) n t = nth t (pad_to (maxlen ls) pad (nth n ls [])) d.
  Proof.
    intros bf pad d ls n t Hn Ht. unfold cell, pad_sequence. destruct bf.
    - now rewrite (nth_map_default (pad_to (maxlen ls) pad) ls n [] []).
    - unfold transpose_cells.
      rewrite (nth_map_default _ (seq 0 (maxlen ls)) t 0 []) by (now rewrite seq_length).
      rewrite seq_nth by exact Ht. cbn [Nat.add].
      rewrite (nth_map_default _ _ n [] d) by (now rewrite map_length).
      rewrite (nth_map_default (pad_to (maxlen ls) pad) ls n [] []) by exact Hn.
      apply nth_indep. rewrite pad_to_length by apply length_le_maxlen. exact Ht.
  Qed.

  Lemma cell_in_range : forall bf (pad d : A) ls n t, n < length ls -> t < length (nth n ls []) ->
    cell bf d (pad_sequence bf pad ls) n t = nth t (nth n ls []) d.
  Proof.
    intros bf pad d ls n t Hn Ht. pose proof (length_le_maxlen ls n) as Hmax.
    rewrite cell_pad_sequence by (try assumption; lia). now apply app_nth1.
  Qed.

  Lemma cell_padding : forall bf (pad : A) ls n t, n < length ls -> length (nth n ls []) <= t ->
    t < maxlen ls -> cell bf pad (pad_sequence bf pad ls) n t = pad.
  Proof. intros bf pad ls n t Hn Ht HT. rewrite cell_pad_sequence by assumption. now apply nth_app_repeat_pad. Qed.

  Lemma time_len_pad_sequence : forall bf (pad : A) ls, ls <> [] ->
    time_len bf (pad_sequence bf pad ls) = maxlen ls.
  Proof.
    intros bf pad ls Hne. unfold time_len, pad_sequence. destruct bf.
    - destruct ls as [|l t]; [congruence|]. cbn [map hd]. apply pad_to_length.
      apply (length_le_maxlen (l :: t) 0).
    - unfold transpose_cells. now rewrite map_length, seq_length.
  Qed.

  (* "cutting each padded batch entry back to its reported size returns the original tensors" *)
  Theorem cut_back_pad_sequence : forall bf (pad d : A) ls n, n < length ls ->
    cut_back bf d (pad_sequence bf pad ls) n (length (nth n ls [])) = nth n ls [].
  Proof.
    intros bf pad d ls n Hn. unfold cut_back.
    rewrite <- (map_nth_seq (nth n ls []) d) at 2.
    apply map_ext_in. intros t Ht. apply in_seq in Ht. apply cell_in_range; [exact Hn|lia].
  Qed.

  Theorem uncollate_pad_sequence : forall bf (pad d : A) ls,
    uncollate_field bf d (pad_sequence bf pad ls) (map (@length A) ls) = ls.
  Proof.
    intros bf pad d ls. unfold uncollate_field.
    rewrite (combine_seq_nth (map (@length A) ls) 0 0), map_map, map_length.
    rewrite <- (map_id ls) at 2. apply (map_seq_ext _ (fun l => l) ls []).
    intros n Hn. cbn [fst snd]. rewrite Nat.sub_0_r.
    rewrite (nth_map_default (@length A) ls n [] 0) by exact Hn.
    now apply cut_back_pad_sequence.
  Qed.

  (* "all padding cells hold the pad value" *)
  Theorem padding_pad_sequence : forall bf (pad : A) ls, ls <> [] ->
    padding_is bf pad (pad_sequence bf pad ls) (map (@length A) ls).
  Proof.
    intros bf pad ls Hne n t Hn Ht HT. rewrite map_length in Hn.
    rewrite (nth_map_default (@length A) ls n [] 0) in Ht by exact Hn.
    rewrite time_len_pad_sequence in HT by exact Hne. now apply cell_padding.
  Qed.
End PadSequence.

(* sorted(seq, key=..., reverse=True) *)
Lemma sort_desc_perm : forall {X} (key : X -> nat) l, Permutation (sort_desc key l) l.
Proof.
  intros X key. exact (isort_perm (fun x y => Nat.leb (key y) (key x)) (insert_desc key) (fun _ => eq_refl) (fun _ _ _ => eq_refl)).
Qed.

Lemma sort_desc_sorted : forall {X} (key : X -> nat) l,
  StronglySorted (fun a b => key b <= key a) (sort_desc key l).
Proof.
  intros X key.
  apply (isort_sorted (fun x y => Nat.leb (key y) (key x)) (insert_desc key) (fun _ => eq_refl) (fun _ _ _ => eq_refl)).
  - intros x y z. lia.
  - intros x y. destruct (Nat.leb_spec (key y) (key x)); lia.
Qed.

Definition presented (sort : bool) (sq : list utt) : list utt :=
  if sort then sort_desc (fun u => length (u_feat u)) sq else sq.

Lemma forallb_map_is_some : forall {A B} (f : A -> option B) l,
  forallb is_some (map f l) = forallb (fun x => is_some (f x)) l.
Proof. induction l as [|x t IH]; cbn; [reflexivity|]. now rewrite IH. Qed.

Lemma forallb_nth : forall {A} (f : A -> bool) l n d, forallb f l = true -> n < length l -> f (nth n l d) = true.
Proof.
  intros A f l n d H Hn. rewrite forallb_forall in H. apply H. now apply nth_In.
Qed.

Lemma present_field : forall {A} (g : utt -> option (list A)) sq n,
  forallb (fun u => is_some (g u)) sq = true -> n < length sq ->
  Some (nth n (map (oget []) (map g sq)) []) = g (nth n sq dflt_utt).
Proof.
  intros A g sq n H Hn. rewrite map_map, (nth_map_default (fun u => oget [] (g u)) sq n dflt_utt []) by exact Hn.
  pose proof (forallb_nth _ sq n dflt_utt H Hn) as Hs. cbv beta in Hs. now destruct (g (nth n sq dflt_utt)).
Qed.

(* "Collation is lossless: cutting each padded batch entry back to its reported size returns the
   original tensors ... and utterance ids stay attached to their rows": un-collating the batch gives
   back the presented items - features, alignment, reference and id together *)
Theorem spect_collate_lossless : forall bf sort F W sq,
  Forall wf_utt sq ->
  uncollate_spect bf (spect_collate bf sort F W sq) = mask_missing (presented sort sq).
Proof.
  intros bf sort F W sq Hwf. unfold spect_collate. fold (presented sort sq).
  assert (Hwf' : Forall wf_utt (presented sort sq)).
  { unfold presented. destruct sort; [|exact Hwf].
    rewrite Forall_forall in *. intros u Hu. apply Hwf.
    eapply Permutation_in; [apply sort_desc_perm|exact Hu]. }
  set (sq' := presented sort sq) in *. clearbody sq'. clear Hwf sq.
  unfold uncollate_spect, mask_missing. cbn [b_feats b_alis b_refs b_fsz b_rsz b_ids].
  rewrite !forallb_map_is_some. rewrite !map_length.
  set (ann := forallb (fun u => is_some (u_ali u)) sq').
  set (rnn := forallb (fun u => is_some (u_ref u)) sq').
  rewrite uncollate_pad_sequence.
  apply (map_seq_ext _ _ sq' dflt_utt). intros n Hn.
  assert (Hfs : nth n (map (@length row) (map u_feat sq')) 0 = length (u_feat (nth n sq' dflt_utt))).
  { rewrite map_map. now rewrite (nth_map_default (fun u => length (u_feat u)) sq' n dflt_utt 0). }
  f_equal.
  - now apply nth_map_default.
  - destruct ann eqn:Ea; [|reflexivity].
    pose proof (present_field u_ali sq' n Ea Hn) as Hal. rewrite <- Hal. f_equal.
    rewrite Forall_forall in Hwf'. rewrite Hfs, <- (Hwf' _ (nth_In sq' dflt_utt Hn) _ (eq_sym Hal)).
    apply cut_back_pad_sequence. now rewrite !map_length.
  - destruct rnn eqn:Er; [|reflexivity].
    rewrite <- (present_field u_ref sq' n Er Hn). f_equal.
    rewrite (nth_map_default (@length row) _ n [] 0) by (now rewrite !map_length).
    apply cut_back_pad_sequence. now rewrite !map_length.
  - now apply nth_map_default.
Qed.

(* the presented items are the given ones: all of them, in the given order, or (sort_batch) a
   rearrangement by non-increasing feature length *)
Theorem presented_perm : forall sort sq,
  Permutation (presented sort sq) sq /\
  (sort = false -> presented sort sq = sq) /\
  (sort = true -> StronglySorted (fun a b => length (u_feat b) <= length (u_feat a)) (presented sort sq)).
Proof.
  intros sort sq. unfold presented. destruct sort.
  - split; [apply sort_desc_perm|]. split; [discriminate|]. intros _. apply sort_desc_sorted.
  - split; [reflexivity|]. split; [reflexivity|discriminate].
Qed.

(* "all padding cells hold the pad value" *)
Theorem spect_collate_padding : forall bf sort F W sq, sq <> [] ->
  let b := spect_collate bf sort F W sq in
  padding_is bf (repeat 0%Z F) (b_feats b) (b_fsz b) /\
  (forall a, b_alis b = Some a ->
     padding_is bf PADV a (map (fun u => length (oget [] (u_ali u))) (presented sort sq))) /\
  (forall r rs, b_refs b = Some r -> b_rsz b = Some rs -> padding_is bf (repeat PADV W) r rs).
Proof.
  intros bf sort F W sq Hne. cbv zeta. unfold spect_collate. fold (presented sort sq).
  assert (Hne' : presented sort sq <> []).
  { intros Hn. apply Hne. apply Permutation_nil. rewrite <- Hn. apply (proj1 (presented_perm sort sq)). }
  set (sq' := presented sort sq) in *. cbn [b_feats b_alis b_refs b_fsz b_rsz].
  assert (Hm : forall {B} (f : utt -> B), map f sq' <> []) by (intros B f; destruct sq'; [congruence|discriminate]).
  split; [apply padding_pad_sequence, Hm|]. split.
  - intros a Ha. destruct (forallb is_some (map u_ali sq')); [|discriminate]. inversion Ha; subst.
    replace (map (fun u => length (oget [] (u_ali u))) sq')
      with (map (@length Z) (map (oget []) (map u_ali sq'))) by (now rewrite !map_map).
    apply padding_pad_sequence. rewrite map_map. apply Hm.
  - intros r rs Hr Hrs. destruct (forallb is_some (map u_ref sq')); [|discriminate].
    inversion Hr; inversion Hrs; subst. apply padding_pad_sequence. rewrite map_map. apply Hm.
Qed.

Theorem lang_collate_lossless : forall bf sort W (sq : list (list row * nat)),
  let '(refs, sizes, ids) := lang_collate bf sort W sq in
  let sq' := if sort then sort_desc (fun x => length (fst x)) sq else sq in
  combine (uncollate_field bf [] refs sizes) ids = sq' /\ Permutation sq' sq /\
  (sq <> [] -> padding_is bf (repeat PADV W) refs sizes).
Proof.
  intros bf sort W sq. unfold lang_collate.
  set (sq' := if sort then sort_desc (fun x => length (fst x)) sq else sq).
  assert (Hp : Permutation sq' sq) by (unfold sq'; destruct sort; [apply sort_desc_perm|reflexivity]).
  split; [|split; [exact Hp|]].
  - rewrite uncollate_pad_sequence. clear. induction sq' as [|[r i] t IH]; [reflexivity|]. cbn. now rewrite IH.
  - intros Hne. apply padding_pad_sequence. intros Hn. apply map_eq_nil in Hn.
    apply Hne, Permutation_nil. now rewrite <- Hn.
Qed.

Lemma split_by_concat : forall {A} (ws : list (list A)), split_by (map (@length A) ws) (concat ws) = ws.
Proof.
  induction ws as [|w t IH]; [reflexivity|]. cbn [map concat split_by].
  rewrite firstn_app, Nat.sub_diag, firstn_all, firstn_O, app_nil_r.
  rewrite skipn_app, Nat.sub_diag, skipn_all, skipn_O. cbn [app]. now rewrite IH.
Qed.

(* windows, alignments, window counts and ids of a context-window batch give the items back *)
Theorem cw_collate_lossless : forall (sq : list cw_item),
  let '(windows, alis, sizes, ids) := cw_collate sq in
  split_by sizes windows = map (fun x => fst (fst x)) sq /\ ids = map snd sq /\
  (forall a, alis = Some a ->
     Forall (fun x => exists al, snd (fst x) = Some al) sq /\
     split_by (map (fun x => length (oget [] (snd (fst x)))) sq) a = map (fun x => oget [] (snd (fst x))) sq).
Proof.
  intros sq. unfold cw_collate. split; [apply split_by_concat|]. split; [reflexivity|].
  intros a Ha. destruct (forallb is_some (map (fun x => snd (fst x)) sq)) eqn:E; [|discriminate].
  inversion Ha; subst. split.
  - rewrite forallb_forall in E. apply Forall_forall. intros x Hx.
    specialize (E (snd (fst x)) (in_map (fun x => snd (fst x)) sq x Hx)).
    destruct (snd (fst x)); [eexists; reflexivity|discriminate].
  - rewrite map_map.
    replace (map (fun x => length (oget [] (snd (fst x)))) sq)
      with (map (@length Z) (map (fun x => oget [] (snd (fst x))) sq)) by (now rewrite map_map).
    apply split_by_concat.
Qed.
