(* C14 - lemmas about _get_bucket_batch_sampler_params ([length_bounds], [class_of], [bucket_params]); the insertion
   sorts of the model (section InsertionSort) *)
From Coq Require Import List Arith Bool ZArith Lia Sorting.Sorted Sorting.Permutation.
From PV Require Import C14.Model C14.Spec.
From PV Require C14.ProofsWindow.
Import ListNotations.

(* length classes: for ANY list of bounds *)
Lemma class_of_monotone : forall bounds l1 l2, l1 <= l2 -> class_of bounds l1 <= class_of bounds l2.
Proof.
  unfold class_of. induction bounds as [|b t IH]; intros l1 l2 Hle; cbn [filter]; [lia|].
  specialize (IH l1 l2 Hle). destruct (Nat.ltb_spec b l1), (Nat.ltb_spec b l2); cbn [length]; lia.
Qed.

Lemma class_of_eq_le : forall bounds l1 l2, l1 <= l2 -> class_of bounds l1 = class_of bounds l2 ->
  forall b, In b bounds -> Nat.ltb b l1 = Nat.ltb b l2.
Proof.
  unfold class_of. induction bounds as [|b t IH]; intros l1 l2 Hle Heq x Hin; [destruct Hin|].
  cbn [filter] in Heq. pose proof (class_of_monotone t l1 l2 Hle) as Hm. unfold class_of in Hm.
  destruct Hin as [<-|Hin].
  - destruct (Nat.ltb_spec b l1), (Nat.ltb_spec b l2); cbn [length] in Heq; (reflexivity || lia).
  - apply IH; [exact Hle| |exact Hin].
    destruct (Nat.ltb_spec b l1), (Nat.ltb_spec b l2); cbn [length] in Heq; lia.
Qed.

Lemma same_class_ltb : forall bounds l1 l2,
  same_class bounds l1 l2 <-> (forall b, In b bounds -> Nat.ltb b l1 = Nat.ltb b l2).
Proof.
  intros. unfold same_class. split; intros H b Hb; specialize (H b Hb);
    destruct (Nat.ltb_spec b l1), (Nat.ltb_spec b l2); (reflexivity || discriminate || lia).
Qed.

(* two lengths get the same bucket exactly when no bound separates them: in particular equal
   lengths (ties at a boundary) are never split *)
Theorem class_of_eq_iff : forall bounds l1 l2,
  class_of bounds l1 = class_of bounds l2 <-> same_class bounds l1 l2.
Proof.
  intros. rewrite same_class_ltb. split.
  - intros Heq. destruct (Nat.le_ge_cases l1 l2) as [Hle|Hle].
    + now apply class_of_eq_le.
    + intros b Hb. symmetry. apply (class_of_eq_le bounds l2 l1); [exact Hle|now symmetry|exact Hb].
  - intros H. unfold class_of. f_equal. apply filter_ext_in. exact H.
Qed.

(* the class index counts the bounds strictly below the length *)
Lemma class_of_lt_length : forall bounds l, l <= last bounds 0 -> bounds <> [] ->
  class_of bounds l < length bounds.
Proof.
  unfold class_of. induction bounds as [|b t IH]; intros l Hle Hne; [congruence|].
  destruct t as [|b' t'].
  - cbn [last filter length] in *. destruct (Nat.ltb b l) eqn:E; [apply Nat.ltb_lt in E; lia|cbn [length]; lia].
  - assert (Hrec : length (filter (fun b0 => Nat.ltb b0 l) (b' :: t')) < length (b' :: t')).
    { apply IH; [exact Hle|discriminate]. }
    remember (b' :: t') as t2. cbn [filter]. destruct (Nat.ltb b l); cbn [length]; lia.
Qed.

(* for strictly increasing bounds the class is the interval the length falls in *)
Lemma class_of_sorted_spec : forall bounds l j,
  StronglySorted lt bounds -> class_of bounds l = j ->
  (forall i, i < j -> nth i bounds 0 < l) /\ (forall i, j <= i -> i < length bounds -> l <= nth i bounds 0).
Proof.
  unfold class_of. induction bounds as [|b t IH]; intros l j Hs Hj.
  - cbn in Hj. subst. split; intros; cbn in *; lia.
  - inversion Hs as [|? ? Ht Hall]; subst. cbn [filter].
    destruct (Nat.ltb b l) eqn:E.
    + apply Nat.ltb_lt in E. cbn [length]. destruct (IH l _ Ht eq_refl) as [H1 H2].
      split; intros i Hi.
      * destruct i; cbn; [exact E|]. apply H1. lia.
      * intros Hl. destruct i; [lia|]. cbn in *. apply H2; lia.
    + apply Nat.ltb_ge in E.
      assert (Hz : filter (fun b0 => Nat.ltb b0 l) t = []).
      { clear IH Ht Hs. induction t as [|y t IH]; [reflexivity|]. inversion Hall; subst. cbn [filter].
        destruct (Nat.ltb y l) eqn:Ey; [apply Nat.ltb_lt in Ey; lia|]. now apply IH. }
      rewrite Hz. cbn [length]. split; intros i Hi; [lia|].
      intros Hl. destruct i; cbn; [exact E|].
      rewrite Forall_forall in Hall. assert (b < nth i t 0); [|lia].
      apply Hall. apply nth_In. cbn in Hl. lia.
Qed.

(* sorted() *)
(* an insertion sort: [ins] puts x in front of the first y with [before x y].  Model.ins_nat, Model.insert_desc and
   Model.insert_item are instances. *)
Section InsertionSort.
  Context {X : Type} (before : X -> X -> bool) (ins : X -> list X -> list X).
  Hypothesis ins_nil : forall x, ins x [] = [x].
  Hypothesis ins_cons : forall x y t, ins x (y :: t) = if before x y then x :: y :: t else y :: ins x t.

  Lemma ins_perm : forall x l, Permutation (ins x l) (x :: l).
  Proof.
    induction l as [|y t IH]; [now rewrite ins_nil|]. rewrite ins_cons.
    destruct (before x y); [reflexivity|]. rewrite IH. apply perm_swap.
  Qed.

  Lemma isort_perm : forall l, Permutation (fold_right ins [] l) l.
  Proof. induction l as [|x t IH]; cbn [fold_right]; [reflexivity|]. rewrite ins_perm. now constructor. Qed.

  Variable R : X -> X -> Prop.
  Hypothesis R_trans : forall x y z, R x y -> R y z -> R x z.
  Hypothesis before_R : forall x y, if before x y then R x y else R y x.

  Lemma ins_sorted : forall x l, StronglySorted R l -> StronglySorted R (ins x l).
  Proof.
    induction l as [|y t IH]; intros Hs; [rewrite ins_nil; repeat constructor|].
    inversion Hs as [|? ? Ht Hall]; subst. rewrite ins_cons. pose proof (before_R x y) as Hb.
    destruct (before x y).
    - constructor; [exact Hs|]. constructor; [exact Hb|]. eapply Forall_impl; [|exact Hall]. intros z. now apply R_trans.
    - constructor; [now apply IH|]. rewrite Forall_forall in *. intros z Hz.
      apply (Permutation_in _ (ins_perm x t)) in Hz. destruct Hz as [<-|Hz]; [exact Hb|now apply Hall].
  Qed.

  Lemma isort_sorted : forall l, StronglySorted R (fold_right ins [] l).
  Proof. induction l as [|x t IH]; cbn [fold_right]; [constructor|]. now apply ins_sorted. Qed.
End InsertionSort.

Lemma sort_nat_perm : forall l, Permutation (sort_nat l) l.
Proof. exact (isort_perm Nat.leb ins_nat (fun _ => eq_refl) (fun _ _ _ => eq_refl)). Qed.

Lemma sort_nat_in : forall l x, In x (sort_nat l) <-> In x l.
Proof.
  intros. split; apply Permutation_in; [apply sort_nat_perm|symmetry; apply sort_nat_perm].
Qed.

Lemma sort_nat_length : forall l, length (sort_nat l) = length l.
Proof. intros. apply Permutation_length, sort_nat_perm. Qed.

Lemma sort_nat_sorted : forall l, StronglySorted le (sort_nat l).
Proof.
  apply (isort_sorted Nat.leb ins_nat (fun _ => eq_refl) (fun _ _ _ => eq_refl) le Nat.le_trans).
  intros x y. destruct (Nat.leb_spec x y); lia.
Qed.

Lemma sorted_le_nodup_lt : forall l, StronglySorted le l -> NoDup l -> StronglySorted lt l.
Proof.
  induction l as [|x t IH]; intros Hs Hnd; [constructor|].
  inversion Hs as [|? ? Ht Hall]; subst. inversion Hnd as [|? ? Hx Hn]; subst.
  constructor; [now apply IH|]. rewrite Forall_forall in *. intros z Hz.
  specialize (Hall z Hz). assert (x <> z) by (intros ->; contradiction). lia.
Qed.

Lemma sorted_map_le : forall {X} (f : X -> nat) l,
  StronglySorted (fun a b => f a <= f b) l -> StronglySorted le (map f l).
Proof. induction 1; cbn [map]; constructor; [assumption|]. now apply Forall_map. Qed.

Lemma sort_nodup_sorted : forall l, StronglySorted lt (sort_nat (nodup Nat.eq_dec l)).
Proof.
  intros. apply sorted_le_nodup_lt; [apply sort_nat_sorted|].
  eapply Permutation_NoDup; [symmetry; apply sort_nat_perm|apply NoDup_nodup].
Qed.

Lemma sorted_le_last_max : forall l x, StronglySorted le l -> In x l -> x <= last l 0.
Proof.
  induction l as [|y t IH]; intros x Hs Hin; [destruct Hin|].
  inversion Hs as [|? ? Ht Hall]; subst. destruct t as [|z t'].
  - destruct Hin as [->|[]]. cbn. lia.
  - change (last (y :: z :: t') 0) with (last (z :: t') 0).
    destruct Hin as [->|Hin]; [|now apply IH].
    rewrite Forall_forall in Hall.
    assert (z <= last (z :: t') 0) by (apply IH; [exact Ht|now left]).
    specialize (Hall z (or_introl eq_refl)). lia.
Qed.

Lemma sorted_lt_le : forall l, StronglySorted lt l -> StronglySorted le l.
Proof.
  induction 1; constructor; [assumption|]. eapply Forall_impl; [|eassumption]. intros; cbn in *; lia.
Qed.

Lemma sorted_lt_nodup : forall l, StronglySorted lt l -> NoDup l.
Proof.
  induction 1 as [|x t _ IH Hall]; constructor; [|exact IH].
  intros Hin. rewrite Forall_forall in Hall. specialize (Hall x Hin). lia.
Qed.

Lemma last_in : forall (l : list nat) d, l <> [] -> In (last l d) l.
Proof.
  induction l as [|x t IH]; intros d Hne; [congruence|].
  destruct t as [|y t']; [now left|]. right. apply IH. discriminate.
Qed.

(* the last element of a sorted list is its maximum *)
Lemma sorted_last_is : forall l m, StronglySorted le l -> In m l -> (forall x, In x l -> x <= m) ->
  last l 0 = m.
Proof.
  intros l m Hs Hin Hmax.
  assert (Hne : l <> []) by (intros ->; destruct Hin).
  pose proof (sorted_le_last_max l m Hs Hin). pose proof (Hmax _ (last_in l 0 Hne)). lia.
Qed.

(* Python indexing *)
Lemma py_index_in : forall l k v, py_index l k = Some v -> In v l.
Proof.
  unfold py_index. intros l k v H.
  destruct ((k <? - Z.of_nat (length l))%Z || (Z.of_nat (length l) <=? k)%Z); [discriminate|].
  eapply nth_error_In; eauto.
Qed.

Lemma py_index_some : forall l k, (- Z.of_nat (length l) <= k < Z.of_nat (length l))%Z ->
  exists v, py_index l k = Some v.
Proof.
  unfold py_index. intros l k Hk.
  destruct (k <? - Z.of_nat (length l))%Z eqn:E1; [apply Z.ltb_lt in E1; lia|].
  destruct (Z.of_nat (length l) <=? k)%Z eqn:E2; [apply Z.leb_le in E2; lia|]. cbn [orb].
  destruct (nth_error l _) eqn:E; [eexists; reflexivity|].
  apply nth_error_None in E. destruct (k <? 0)%Z eqn:E3; [apply Z.ltb_lt in E3|apply Z.ltb_ge in E3]; lia.
Qed.

Lemma py_index_none_nil : forall k, py_index [] k = None.
Proof.
  unfold py_index. intros k. cbn [length Z.of_nat Z.opp].
  destruct (k <? 0)%Z eqn:E1; cbn [orb]; [reflexivity|].
  destruct (0 <=? k)%Z eqn:E2; [reflexivity|]. apply Z.ltb_ge in E1. apply Z.leb_gt in E2. lia.
Qed.

Lemma py_index_last : forall l, l <> [] -> py_index l (-1)%Z = Some (last l 0).
Proof.
  intros l Hne. unfold py_index.
  assert (Hlen : 0 < length l) by (destruct l; [congruence|cbn; lia]).
  destruct (-1 <? - Z.of_nat (length l))%Z eqn:E1; [apply Z.ltb_lt in E1; lia|].
  destruct (Z.of_nat (length l) <=? -1)%Z eqn:E2; [apply Z.leb_le in E2; lia|]. cbn [orb].
  change (-1 <? 0)%Z with true. cbv iota.
  replace (Z.to_nat (-1 + Z.of_nat (length l))) with (length l - 1) by lia.
  rewrite (nth_error_nth' l 0) by lia. now rewrite ProofsWindow.last_nth.
Qed.

Lemma all_some_spec : forall {A B} (f : A -> option B) l r, all_some (map f l) = Some r ->
  length r = length l /\ forall v, In v r -> exists x, In x l /\ f x = Some v.
Proof.
  induction l as [|x t IH]; intros r Hr; cbn [map all_some] in Hr.
  - inversion Hr. split; [reflexivity|intros v []].
  - destruct (f x) as [v|] eqn:Ev; [|discriminate]. destruct (all_some _) as [r'|]; [|discriminate].
    inversion Hr; subst. destruct (IH _ eq_refl) as [Hlen Hin]. split; [cbn; now rewrite Hlen|].
    intros w [<-|Hw]; [exists x; split; [now left|exact Ev]|].
    destruct (Hin w Hw) as (y & Hy & Hfy). exists y. split; [now right|exact Hfy].
Qed.

Lemma all_some_map_some : forall {A B} (f : A -> option B) l,
  (forall x, In x l -> exists v, f x = Some v) -> exists r, all_some (map f l) = Some r.
Proof.
  induction l as [|x t IH]; intros H; [now exists []|].
  destruct (H x (or_introl eq_refl)) as (v & Hv). destruct IH as (r & Hr); [intros y Hy; apply H; now right|].
  exists (v :: r). cbn [map all_some]. now rewrite Hv, Hr.
Qed.

Lemma all_some_none : forall {A} (l : list (option A)), In None l -> all_some l = None.
Proof.
  induction l as [|[a|] t IH]; intros Hin; [destruct Hin| |reflexivity].
  destruct Hin as [H|Hin]; [discriminate|]. cbn. now rewrite IH.
Qed.

Lemma list_nat_eqb_eq : forall a b, list_nat_eqb a b = true -> a = b.
Proof.
  induction a as [|x a IH]; destruct b as [|y b]; cbn; intros H; try discriminate; [reflexivity|].
  apply andb_true_iff in H. destruct H as [H1 H2]. apply Nat.eqb_eq in H1. subst. f_equal. now apply IH.
Qed.

Lemma in_removelast : forall (l : list nat) x, In x (removelast l) -> In x l.
Proof.
  induction l as [|y t IH]; intros x Hin; [destruct Hin|].
  cbn [removelast] in Hin. destruct t as [|z t']; [destruct Hin|].
  destruct Hin as [->|Hin]; [now left|right; now apply IH].
Qed.

Lemma length_removelast_snoc : forall (l : list nat) v, l <> [] -> length (removelast l ++ [v]) = length l.
Proof.
  intros l v Hne. rewrite app_length, removelast_firstn_len, firstn_length. destruct l; [congruence|cbn; lia].
Qed.

Lemma length_nodup_le : forall l : list nat, length (nodup Nat.eq_dec l) <= length l.
Proof.
  intros l. apply NoDup_incl_length; [apply NoDup_nodup|]. intros x Hx. now apply nodup_In in Hx.
Qed.

(* what the bounds are when the function returns: strictly increasing, at most nb of them, all of
   them lengths that occur in the data set, the last one the longest length *)
Theorem length_bounds_ok : forall lens nb lb, length_bounds lens nb = Ok lb ->
  lens <> [] /\ StronglySorted lt lb /\ lb <> [] /\ length lb <= nb /\
  (forall b, In b lb -> In b lens) /\ (forall l, In l lens -> l <= last lb 0) /\ In (last lb 0) lens.
Proof.
  intros lens nb lb H. unfold length_bounds in H.
  set (sl := sort_nat lens) in *.
  destruct (all_some _) as [lb0|] eqn:E0; [|discriminate].
  destruct (py_index sl (-1)%Z) as [mx|] eqn:Emx; [|discriminate].
  destruct lb0 as [|b0 lb0']; [discriminate|].
  set (lb0 := b0 :: lb0') in *. set (lb' := removelast lb0 ++ [mx]) in *.
  set (lb_ := sort_nat (nodup Nat.eq_dec lb')) in *.
  assert (Hres : lb = lb_).
  { destruct (list_nat_eqb lb_ lb') eqn:Eq; inversion H; subst; [|reflexivity].
    symmetry. now apply list_nat_eqb_eq. }
  clear H. subst lb.
  assert (Hslne : sl <> []) by (intros Hn; rewrite Hn, py_index_none_nil in Emx; discriminate).
  assert (Hlne : lens <> []).
  { intros ->. apply Hslne. reflexivity. }
  assert (Hmx : mx = last sl 0) by (rewrite (py_index_last sl Hslne) in Emx; congruence).
  assert (Hmxin : In mx lens).
  { apply (proj1 (sort_nat_in lens mx)). eapply py_index_in; eauto. }
  assert (Hmax : forall l, In l lens -> l <= mx).
  { intros l Hl. rewrite Hmx. apply sorted_le_last_max; [apply sort_nat_sorted|now apply sort_nat_in]. }
  destruct (all_some_spec _ _ _ E0) as [Hlb0len Hlb0].
  assert (Hlb0sl : forall b, In b lb0 -> In b sl).
  { intros b Hb. destruct (Hlb0 b Hb) as (n & _ & Hn). exact (py_index_in _ _ _ Hn). }
  assert (Hin' : forall b, In b lb' -> In b lens).
  { intros b Hb. unfold lb' in Hb. apply in_app_or in Hb. destruct Hb as [Hb|[<-|[]]]; [|exact Hmxin].
    apply (proj1 (sort_nat_in lens b)), Hlb0sl, in_removelast, Hb. }
  assert (Hin_ : forall b, In b lb_ <-> In b lb').
  { intros b. unfold lb_. rewrite sort_nat_in. apply nodup_In. }
  assert (Hmx_ : In mx lb_) by (apply Hin_; unfold lb'; apply in_or_app; right; now left).
  assert (Hlast : last lb_ 0 = mx).
  { apply sorted_last_is; [apply sorted_lt_le, sort_nodup_sorted|exact Hmx_|].
    intros x Hx. apply Hmax, Hin', Hin_, Hx. }
  split; [exact Hlne|]. split; [apply sort_nodup_sorted|].
  split; [intros Hn; rewrite Hn in Hmx_; destruct Hmx_|].
  split.
  - unfold lb_. rewrite sort_nat_length. etransitivity; [apply length_nodup_le|].
    unfold lb'. rewrite length_removelast_snoc by discriminate.
    fold lb0 in Hlb0len. rewrite Hlb0len, seq_length. lia.
  - split; [intros b Hb; apply Hin', Hin_, Hb|]. rewrite Hlast. split; [exact Hmax|exact Hmxin].
Qed.

(* the function raises exactly on an empty data set (F8, first half) *)
Theorem length_bounds_total : forall lens nb, lens <> [] -> 1 <= nb ->
  exists lb, length_bounds lens nb = Ok lb.
Proof.
  intros lens nb Hne Hnb. unfold length_bounds.
  set (sl := sort_nat lens). set (N := length lens).
  assert (HN : 0 < N) by (unfold N; destruct lens; [congruence|cbn; lia]).
  assert (Hsl : length sl = N) by apply sort_nat_length.
  destruct (all_some_map_some (fun n => py_index sl (Z.of_nat ((n + 1) * (N / nb)) - 1)%Z) (seq 0 nb))
    as (r & Hr).
  { intros n Hn. apply in_seq in Hn. apply py_index_some. rewrite Hsl.
    assert ((n + 1) * (N / nb) <= N).
    { etransitivity; [apply Nat.mul_le_mono_r with (m := nb); lia|]. apply Nat.mul_div_le. lia. }
    lia. }
  fold N. rewrite Hr. destruct (all_some_spec _ _ _ Hr) as [Hlen _].
  assert (Hslne : sl <> []) by (intros Hn; rewrite Hn in Hsl; cbn in Hsl; lia).
  rewrite (py_index_last sl Hslne).
  rewrite seq_length in Hlen. destruct r as [|b0 r']; [cbn in Hlen; lia|].
  eexists. reflexivity.
Qed.

Theorem length_bounds_empty : forall nb, length_bounds [] nb = Err IndexError.
Proof.
  intros nb. unfold length_bounds. cbn [sort_nat fold_right length].
  destruct nb as [|nb].
  - cbn [seq map all_some]. now rewrite py_index_none_nil.
  - rewrite all_some_none; [reflexivity|]. cbn [seq map]. left. apply py_index_none_nil.
Qed.

Lemma class_of_zero : forall bounds, class_of bounds 0 = 0.
Proof. unfold class_of. induction bounds as [|b t IH]; [reflexivity|]. cbn [filter]. exact IH. Qed.

Lemma tbl_map_class : forall lb lens i, tbl (map (class_of lb) lens) i = class_of lb (nth i lens 0).
Proof.
  intros. unfold tbl. rewrite <- (class_of_zero lb) at 1. apply map_nth.
Qed.

Theorem bucket_params_ok : forall lens nb bs dyn i2b b2s,
  bucket_params lens nb bs dyn = Ok (i2b, b2s) ->
  (lens = [] /\ i2b = [] /\ b2s = []) \/
  exists lb, length_bounds lens nb = Ok lb /\ i2b = map (class_of lb) lens /\
             b2s = map (fun b => if dyn then Nat.max (last lb 0 * bs / Nat.max b 1) bs else bs) lb.
Proof.
  intros lens nb bs dyn i2b b2s H. unfold bucket_params in H.
  destruct lens as [|l0 lens']; [inversion H; now left|]. right.
  destruct (length_bounds (l0 :: lens') nb) as [lb|e] eqn:E; [|discriminate]. exists lb.
  split; [reflexivity|]. destruct dyn; inversion H; subst; split; reflexivity.
Qed.

(* the function never raises (for num_buckets >= 1): empty data sets and zero-length utterances
   included *)
Theorem bucket_params_total : forall lens nb bs dyn, 1 <= nb ->
  exists t, bucket_params lens nb bs dyn = Ok t.
Proof.
  intros lens nb bs dyn Hnb. unfold bucket_params.
  destruct lens as [|l0 lens']; [eexists; reflexivity|].
  destruct (length_bounds_total (l0 :: lens') nb) as (lb & Hlb); [discriminate|exact Hnb|].
  rewrite Hlb. destruct dyn; eexists; reflexivity.
Qed.

(* bucket sizes: batch_size when fixed; when dynamic the greatest x with x * y <= Y * batch_size
   (y the bucket's bound, Y the longest length), never below batch_size; for a bucket of
   zero-length utterances any size would do and the code takes max(Y * batch_size, batch_size) *)
Theorem bucket_sizes : forall lens nb bs dyn i2b b2s lb j,
  bucket_params lens nb bs dyn = Ok (i2b, b2s) -> length_bounds lens nb = Ok lb -> j < length lb ->
  length b2s = length lb /\ bs <= tbl b2s j /\
  (dyn = false -> tbl b2s j = bs) /\
  (dyn = true -> let y := nth j lb 0 in let Y := last lb 0 in
                 0 < y -> tbl b2s j * y <= Y * bs /\ Y * bs < (tbl b2s j + 1) * y).
Proof.
  intros lens nb bs dyn i2b b2s lb j H Hlb Hj.
  destruct (bucket_params_ok _ _ _ _ _ _ H) as [(-> & _ & _)|(lb' & Hlb' & _ & ->)].
  { rewrite length_bounds_empty in Hlb. discriminate. }
  assert (lb' = lb) by congruence. subst lb'.
  destruct (length_bounds_ok _ _ _ Hlb) as (_ & Hsorted & _ & _ & _ & _ & _).
  split; [apply map_length|].
  assert (Hnth : tbl (map (fun b => if dyn then Nat.max (last lb 0 * bs / Nat.max b 1) bs else bs) lb) j
                 = if dyn then Nat.max (last lb 0 * bs / Nat.max (nth j lb 0) 1) bs else bs).
  { unfold tbl. set (g := fun b => if dyn then Nat.max (last lb 0 * bs / Nat.max b 1) bs else bs).
    rewrite (nth_indep _ 0 (g 0)) by (now rewrite map_length). exact (map_nth g lb 0 j). }
  rewrite Hnth. destruct dyn.
  - split; [lia|]. split; [discriminate|]. intros _. cbv zeta. intros Hpos.
    assert (Hin : In (nth j lb 0) lb) by now apply nth_In.
    assert (Hle : nth j lb 0 <= last lb 0) by (apply sorted_le_last_max; [now apply sorted_lt_le|exact Hin]).
    set (y := nth j lb 0) in *. set (Y := last lb 0) in *.
    replace (Nat.max y 1) with y by lia.
    assert (Hge : bs <= Y * bs / y) by (apply Nat.div_le_lower_bound; nia).
    replace (Nat.max (Y * bs / y) bs) with (Y * bs / y) by lia.
    pose proof (Nat.mul_div_le (Y * bs) y ltac:(lia)) as H1.
    pose proof (Nat.mul_succ_div_gt (Y * bs) y ltac:(lia)) as H2.
    set (q := Y * bs / y) in *. split; lia.
  - split; [lia|]. split; [reflexivity|discriminate].
Qed.
