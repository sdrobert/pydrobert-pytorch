(* C14 - lemmas about BucketBatchSampler.__iter__ ([iter_loop], [bucket_iter]) *)
From Coq Require Import List Arith Bool Lia Sorting.Sorted Sorting.Permutation.
From PV Require Import C14.Model C14.Spec C14.ProofsParams.
Import ListNotations.

Section Sampler.
  Variables bk sz : nat -> nat.

  (* an entry is a non-empty, not yet full list of indices of its bucket *)
  Definition entry_ok (e : nat * list nat) : Prop :=
    snd e <> [] /\ Forall (fun x => bk x = fst e) (snd e) /\ length (snd e) < sz (fst e).

  Definition good (d : dict) : Prop := NoDup (map fst d) /\ Forall entry_ok d.

  Lemma dget_not_key : forall h d, ~ In h (map fst d) -> dget h d = [].
  Proof.
    induction d as [|[k v] t IH]; cbn; intros Hn; [reflexivity|].
    destruct (Nat.eqb_spec k h); [tauto|apply IH; tauto].
  Qed.

  Lemma dget_in : forall h d, dget h d <> [] -> In (h, dget h d) d.
  Proof.
    induction d as [|[k v] t IH]; cbn; intros Hn; [congruence|].
    destruct (Nat.eqb_spec k h) as [->|_]; [now left|right; now apply IH].
  Qed.

  Lemma in_dget : forall h v d, NoDup (map fst d) -> In (h, v) d -> dget h d = v.
  Proof.
    induction d as [|[k w] t IH]; cbn; intros Hnd Hin; [tauto|].
    inversion Hnd as [|? ? Hk Ht]; subst.
    destruct Hin as [Heq|Hin].
    - inversion Heq; subst. now rewrite Nat.eqb_refl.
    - destruct (Nat.eqb_spec k h) as [->|_]; [|now apply IH].
      exfalso. apply Hk. change h with (fst (h, v)). now apply in_map.
  Qed.

  Lemma good_dget : forall h d, good d ->
    Forall (fun x => bk x = h) (dget h d) /\ (dget h d <> [] -> length (dget h d) < sz h).
  Proof.
    intros h d [Hnd Hall].
    destruct (dget h d) eqn:E.
    - split; [constructor|congruence].
    - assert (Hin : In (h, dget h d) d) by (apply dget_in; rewrite E; discriminate).
      rewrite Forall_forall in Hall. destruct (Hall _ Hin) as (_ & H2 & H3).
      cbn in H2, H3. rewrite E in H2, H3. split; [exact H2|intros _; exact H3].
  Qed.

  Lemma in_ddel : forall h d e, In e (ddel h d) -> In e d.
  Proof.
    induction d as [|[k v] t IH]; cbn; intros e Hin; [tauto|].
    destruct (Nat.eqb k h); cbn in *; [now right|].
    destruct Hin; [now left|right; now apply IH].
  Qed.

  Lemma keys_ddel : forall h d x, In x (map fst (ddel h d)) -> In x (map fst d).
  Proof.
    intros h d x Hin. apply in_map_iff in Hin. destruct Hin as (e & <- & He). apply in_map. eapply in_ddel; eauto.
  Qed.

  Lemma nodup_ddel : forall h d, NoDup (map fst d) -> NoDup (map fst (ddel h d)).
  Proof.
    induction d as [|[k v] t IH]; cbn; intros Hnd; [constructor|].
    inversion Hnd as [|? ? Hk Ht]; subst.
    destruct (Nat.eqb k h); cbn; [exact Ht|].
    constructor; [|now apply IH].
    intros Hin. apply Hk. eapply keys_ddel; eauto.
  Qed.

  Lemma good_ddel : forall h d, good d -> good (ddel h d).
  Proof.
    intros h d [Hnd Hall]. split; [now apply nodup_ddel|].
    rewrite Forall_forall in *. intros e He. apply Hall. eapply in_ddel; eauto.
  Qed.

  Lemma dget_ddel_same : forall h d, NoDup (map fst d) -> dget h (ddel h d) = [].
  Proof.
    induction d as [|[k v] t IH]; cbn; intros Hnd; [reflexivity|].
    inversion Hnd as [|? ? Hk Ht]; subst.
    destruct (Nat.eqb k h) eqn:E.
    - apply Nat.eqb_eq in E. subst. now apply dget_not_key.
    - cbn. rewrite E. now apply IH.
  Qed.

  Lemma dget_ddel_other : forall h h' d, h' <> h -> dget h' (ddel h d) = dget h' d.
  Proof.
    induction d as [|[k v] t IH]; cbn; intros Hne; [reflexivity|].
    destruct (Nat.eqb_spec k h) as [->|_]; cbn.
    - destruct (Nat.eqb_spec h h'); [congruence|reflexivity].
    - destruct (Nat.eqb k h'); [reflexivity|now apply IH].
  Qed.

  Lemma dget_dset_same : forall h v d, dget h (dset h v d) = v.
  Proof.
    induction d as [|[k w] t IH]; cbn.
    - now rewrite Nat.eqb_refl.
    - destruct (Nat.eqb k h) eqn:E; cbn; rewrite E; [reflexivity|exact IH].
  Qed.

  Lemma dget_dset_other : forall h h' v d, h' <> h -> dget h' (dset h v d) = dget h' d.
  Proof.
    induction d as [|[k w] t IH]; cbn; intros Hne.
    - destruct (Nat.eqb_spec h h'); [congruence|reflexivity].
    - destruct (Nat.eqb_spec k h) as [->|_]; cbn.
      + destruct (Nat.eqb_spec h h'); [congruence|reflexivity].
      + destruct (Nat.eqb k h'); [reflexivity|now apply IH].
  Qed.

  Lemma in_dset : forall h v d e, In e (dset h v d) -> e = (h, v) \/ In e d.
  Proof.
    induction d as [|[k w] t IH]; cbn; intros e Hin.
    - destruct Hin; [now left|tauto].
    - destruct (Nat.eqb_spec k h) as [->|_]; cbn in *.
      + destruct Hin; [now left|right; now right].
      + destruct Hin as [Hx|Hin]; [right; now left|].
        destruct (IH _ Hin); [now left|right; now right].
  Qed.

  Lemma keys_dset : forall h v d x, In x (map fst (dset h v d)) -> x = h \/ In x (map fst d).
  Proof.
    intros h v d x Hin. apply in_map_iff in Hin. destruct Hin as (e & <- & He).
    destruct (in_dset _ _ _ _ He) as [->|Hin]; [now left|right; now apply in_map].
  Qed.

  Lemma nodup_dset : forall h v d, NoDup (map fst d) -> NoDup (map fst (dset h v d)).
  Proof.
    induction d as [|[k w] t IH]; cbn; intros Hnd.
    - constructor; [tauto|constructor].
    - inversion Hnd as [|? ? Hk Ht]; subst.
      destruct (Nat.eqb k h) eqn:E; cbn.
      + constructor; assumption.
      + constructor; [|now apply IH].
        intros Hin. destruct (keys_dset _ _ _ _ Hin) as [Hx|Hx].
        * apply Nat.eqb_neq in E. congruence.
        * tauto.
  Qed.

  Lemma good_dset : forall h v d, good d -> entry_ok (h, v) -> good (dset h v d).
  Proof.
    intros h v d [Hnd Hall] Hok. split; [now apply nodup_dset|].
    rewrite Forall_forall in *. intros e He.
    destruct (in_dset _ _ _ _ He) as [->|Hin]; [exact Hok|now apply Hall].
  Qed.

  Definition full_batch (b : list nat) : Prop :=
    b <> [] /\ Forall (fun x => bk x = bucket_of bk b) b /\ length b = sz (bucket_of bk b).

  Lemma batches_of_cons_same : forall h b out, bucket_of bk b = h ->
    batches_of bk h (b :: out) = b :: batches_of bk h out.
  Proof. intros h b out E. unfold batches_of. cbn. rewrite E, Nat.eqb_refl. reflexivity. Qed.

  Lemma batches_of_cons_other : forall h b out, bucket_of bk b <> h ->
    batches_of bk h (b :: out) = batches_of bk h out.
  Proof.
    intros h b out E. unfold batches_of. cbn. destruct (Nat.eqb_spec (bucket_of bk b) h); [congruence|reflexivity].
  Qed.

  Lemma batches_of_app : forall h a b,
    batches_of bk h (a ++ b) = batches_of bk h a ++ batches_of bk h b.
  Proof. intros. unfold batches_of. apply filter_app. Qed.

  Lemma in_batches_of : forall h out b, In b (batches_of bk h out) <-> In b out /\ bucket_of bk b = h.
  Proof. intros. unfold batches_of. rewrite filter_In, Nat.eqb_eq. reflexivity. Qed.

  Lemma in_bucket_cons_same : forall h i s, bk i = h -> in_bucket bk h (i :: s) = i :: in_bucket bk h s.
  Proof. intros h i s E. unfold in_bucket. cbn. rewrite E, Nat.eqb_refl. reflexivity. Qed.

  Lemma in_bucket_cons_other : forall h i s, bk i <> h -> in_bucket bk h (i :: s) = in_bucket bk h s.
  Proof.
    intros h i s E. unfold in_bucket. cbn. destruct (Nat.eqb_spec (bk i) h); [congruence|reflexivity].
  Qed.

  (* the batch formed by appending idx to the open batch of its bucket *)
  Lemma new_batch_bucket : forall d idx, good d ->
    let b := dget (bk idx) d ++ [idx] in
    b <> [] /\ Forall (fun x => bk x = bk idx) b /\ bucket_of bk b = bk idx.
  Proof.
    intros d idx Hg b.
    destruct (good_dget (bk idx) d Hg) as [Hall _].
    assert (Hb : Forall (fun x => bk x = bk idx) b).
    { unfold b. apply Forall_app. split; [exact Hall|]. constructor; [reflexivity|constructor]. }
    split; [unfold b; destruct (dget (bk idx) d); discriminate|].
    split; [exact Hb|].
    unfold bucket_of, b. destruct (dget (bk idx) d) as [|x l] eqn:E; cbn; [reflexivity|].
    inversion Hall; assumption.
  Qed.

  Lemma iter_loop_spec : forall s d ys d',
    iter_loop bk sz d s = Some (ys, d') -> good d ->
    good d' /\ Forall full_batch ys /\
    forall h, dget h d ++ in_bucket bk h s = concat (batches_of bk h ys) ++ dget h d'.
  Proof.
    induction s as [|idx t IH]; intros d ys d' Hrun Hg.
    - cbn in Hrun. inversion Hrun; subst. split; [exact Hg|]. split; [constructor|].
      intros h. cbn. now rewrite app_nil_r.
    - cbn [iter_loop] in Hrun.
      pose proof (new_batch_bucket d idx Hg) as Hnb. cbv zeta in Hnb.
      set (h0 := bk idx) in *. set (b := dget h0 d ++ [idx]) in *.
      destruct Hnb as (Hne & Hall & Hbk).
      destruct (Nat.eqb (sz h0) (length b)) eqn:Efull.
      + (* the batch is full: yield, delete *)
        apply Nat.eqb_eq in Efull.
        destruct (iter_loop bk sz (ddel h0 d) t) as [[ys' o]|] eqn:Erec; [|discriminate].
        inversion Hrun; subst ys d'. clear Hrun.
        destruct (IH _ _ _ Erec (good_ddel h0 d Hg)) as (Hg' & Hfull & Hcov).
        split; [exact Hg'|]. split.
        * constructor; [|exact Hfull]. unfold full_batch. rewrite Hbk.
          split; [exact Hne|]. split; [exact Hall|now symmetry].
        * intros h. destruct (Nat.eq_dec h h0) as [->|Hneq].
          -- rewrite in_bucket_cons_same by reflexivity.
             rewrite batches_of_cons_same by exact Hbk. cbn [concat].
             specialize (Hcov h0). rewrite dget_ddel_same in Hcov by apply Hg. cbn in Hcov.
             rewrite <- app_assoc, <- Hcov. unfold b. now rewrite <- app_assoc.
          -- rewrite in_bucket_cons_other by (fold h0; congruence).
             rewrite batches_of_cons_other by congruence.
             specialize (Hcov h). rewrite dget_ddel_other in Hcov by exact Hneq. exact Hcov.
      + destruct (Nat.ltb (sz h0) (length b)) eqn:Eover; [discriminate|].
        apply Nat.eqb_neq in Efull. apply Nat.ltb_ge in Eover.
        assert (Hok : entry_ok (h0, b)).
        { unfold entry_ok. cbn. split; [exact Hne|]. split; [exact Hall|lia]. }
        destruct (IH _ _ _ Hrun (good_dset h0 b d Hg Hok)) as (Hg' & Hfull & Hcov).
        split; [exact Hg'|]. split; [exact Hfull|].
        intros h. destruct (Nat.eq_dec h h0) as [->|Hneq].
        * rewrite in_bucket_cons_same by reflexivity.
          specialize (Hcov h0). rewrite dget_dset_same in Hcov.
          rewrite <- Hcov. unfold b. now rewrite <- app_assoc.
        * rewrite in_bucket_cons_other by (fold h0; congruence).
          specialize (Hcov h). rewrite dget_dset_other in Hcov by exact Hneq. exact Hcov.
  Qed.

  (* sizes are positive for every bucket that occurs: otherwise RuntimeError *)
  Lemma iter_loop_some : forall s d, good d ->
    (forall i, In i s -> 0 < sz (bk i)) -> iter_loop bk sz d s <> None.
  Proof.
    induction s as [|idx t IH]; intros d Hg Hpos; [discriminate|].
    cbn [iter_loop].
    pose proof (new_batch_bucket d idx Hg) as Hnb. cbv zeta in Hnb.
    set (h0 := bk idx) in *. set (b := dget h0 d ++ [idx]) in *.
    destruct Hnb as (Hne & Hall & Hbk).
    destruct (Nat.eqb (sz h0) (length b)) eqn:Efull.
    - specialize (IH (ddel h0 d) (good_ddel h0 d Hg) (fun i Hi => Hpos i (or_intror Hi))).
      destruct (iter_loop bk sz (ddel h0 d) t) as [[? ?]|]; [discriminate|congruence].
    - apply Nat.eqb_neq in Efull.
      assert (Hlen : length b <= sz h0).
      { unfold b. rewrite app_length. cbn.
        destruct (good_dget h0 d Hg) as [_ Hlt].
        destruct (dget h0 d) eqn:E; cbn.
        - specialize (Hpos idx (or_introl eq_refl)). fold h0 in Hpos. lia.
        - specialize (Hlt ltac:(discriminate)). cbn in Hlt. lia. }
      destruct (Nat.ltb (sz h0) (length b)) eqn:Eover; [apply Nat.ltb_lt in Eover; lia|].
      apply IH.
      + apply good_dset; [exact Hg|]. unfold entry_ok. cbn. split; [exact Hne|]. split; [exact Hall|lia].
      + intros i Hi. apply Hpos. now right.
  Qed.

  Lemma sort_items_perm : forall d, Permutation (sort_items d) d.
  Proof.
    exact (isort_perm (fun e x => Nat.ltb (fst e) (fst x)) insert_item (fun _ => eq_refl) (fun _ _ _ => eq_refl)).
  Qed.

  Lemma in_sort_items : forall d x, In x (sort_items d) <-> In x d.
  Proof.
    intros. split; apply Permutation_in; [apply sort_items_perm|symmetry; apply sort_items_perm].
  Qed.

  Lemma nodup_sort_items : forall d, NoDup (map fst d) -> NoDup (map fst (sort_items d)).
  Proof. intros d. apply Permutation_NoDup, Permutation_map. symmetry. apply sort_items_perm. Qed.

  Lemma sorted_sort_items : forall d, NoDup (map fst d) -> StronglySorted lt (map fst (sort_items d)).
  Proof.
    intros d Hnd. apply sorted_le_nodup_lt.
    - apply sorted_map_le.
      apply (isort_sorted (fun e x => Nat.ltb (fst e) (fst x)) insert_item (fun _ => eq_refl) (fun _ _ _ => eq_refl)).
      + intros x y z. lia.
      + intros e x. destruct (Nat.ltb_spec (fst e) (fst x)); lia.
    - now apply nodup_sort_items.
  Qed.

  Lemma good_sort_items : forall d, good d -> good (sort_items d).
  Proof.
    intros d [Hnd Hall]. split; [now apply nodup_sort_items|].
    rewrite Forall_forall in *. intros e He. apply Hall. now apply (proj1 (in_sort_items _ _)).
  Qed.

  Lemma dget_sort_items : forall h d, good d -> dget h (sort_items d) = dget h d.
  Proof.
    intros h d Hg. pose proof (good_sort_items d Hg) as Hg'.
    destruct (dget h d) eqn:E.
    - destruct (dget h (sort_items d)) eqn:E'; [reflexivity|].
      assert (Hin : In (h, dget h (sort_items d)) (sort_items d))
        by (apply dget_in; rewrite E'; discriminate).
      apply (proj1 (in_sort_items _ _)) in Hin. apply in_dget in Hin; [|apply Hg]. congruence.
    - assert (Hin : In (h, dget h d) d) by (apply dget_in; rewrite E; discriminate).
      apply (proj2 (in_sort_items _ _)) in Hin. apply in_dget in Hin; [|apply Hg']. congruence.
  Qed.

  Lemma entry_bucket : forall e, entry_ok e -> bucket_of bk (snd e) = fst e.
  Proof.
    intros [k v] (Hne & Hall & _). cbn in *. unfold bucket_of.
    destruct v as [|x l]; [congruence|]. cbn. now inversion Hall.
  Qed.

  Lemma flush_buckets : forall d, Forall entry_ok d -> map (bucket_of bk) (map snd d) = map fst d.
  Proof.
    induction d as [|e t IH]; cbn; intros Hall; [reflexivity|].
    inversion Hall; subst. rewrite entry_bucket by assumption. f_equal. now apply IH.
  Qed.

  Lemma flush_concat : forall h d, good d -> concat (batches_of bk h (map snd d)) = dget h d.
  Proof.
    induction d as [|[k v] t IH]; intros [Hnd Hall]; [reflexivity|].
    cbn [map snd fst] in *. inversion Hnd as [|? ? Hk Ht]; subst. inversion Hall as [|? ? He Hr]; subst.
    assert (Hgt : good t) by (split; assumption).
    pose proof (entry_bucket _ He) as Hb. cbn in Hb.
    cbn [dget]. destruct (Nat.eqb k h) eqn:E.
    - apply Nat.eqb_eq in E. subst h. rewrite batches_of_cons_same by exact Hb.
      cbn [concat]. rewrite IH by exact Hgt. rewrite dget_not_key by exact Hk. apply app_nil_r.
    - apply Nat.eqb_neq in E. rewrite batches_of_cons_other by congruence. now apply IH.
  Qed.

  Definition short_batch (b : list nat) : Prop :=
    b <> [] /\ Forall (fun x => bk x = bucket_of bk b) b /\ length b < sz (bucket_of bk b).

  Lemma flush_short : forall d, Forall entry_ok d -> Forall short_batch (map snd d).
  Proof.
    induction d as [|e t IH]; cbn; intros Hall; [constructor|].
    inversion Hall as [|? ? He Hr]; subst. constructor; [|now apply IH].
    unfold short_batch. rewrite (entry_bucket _ He). exact He.
  Qed.

  Lemma good_nil : good [].
  Proof. split; constructor. Qed.

  Theorem bucket_iter_spec : forall drop s out,
    bucket_iter bk sz drop s = Some out -> bbs_spec bk sz drop s out.
  Proof.
    intros drop s out Hrun. unfold bucket_iter in Hrun.
    destruct (iter_loop bk sz [] s) as [[ys d']|] eqn:Eloop; [|discriminate].
    inversion Hrun; subst out. clear Hrun.
    destruct (iter_loop_spec _ _ _ _ Eloop good_nil) as (Hg & Hfull & Hcov).
    pose proof (good_sort_items d' Hg) as Hgs.
    set (tr := if drop then [] else map snd (sort_items d')).
    assert (Hshort : Forall short_batch tr).
    { unfold tr. destruct drop; [constructor|]. apply flush_short. apply Hgs. }
    split; [|split].
    - (* single bucket *)
      intros b Hb. apply in_app_or in Hb. destruct Hb as [Hb|Hb].
      + rewrite Forall_forall in Hfull. destruct (Hfull b Hb) as (Hne & Hall & _).
        split; [exact Hne|]. now rewrite Forall_forall in Hall.
      + rewrite Forall_forall in Hshort. destruct (Hshort b Hb) as (Hne & Hall & _).
        split; [exact Hne|]. now rewrite Forall_forall in Hall.
    - (* coverage in order *)
      intros h. specialize (Hcov h). cbn in Hcov.
      rewrite batches_of_app, concat_app. fold tr.
      destruct drop.
      + exists (dget h d'). unfold tr. cbn. rewrite app_nil_r. split; [now symmetry|].
        destruct (dget h d') eqn:E; [now left|right]. split; [reflexivity|].
        destruct (good_dget h d' Hg) as [_ Hlt]. rewrite E in Hlt. apply Hlt. discriminate.
      + exists []. unfold tr. rewrite app_nil_r, flush_concat by exact Hgs.
        rewrite dget_sort_items by exact Hg. split; [now symmetry|now left].
    - (* sizes *)
      exists ys, tr. split; [reflexivity|]. split; [|split; [|split]].
      + eapply Forall_impl; [|exact Hfull]. intros b (_ & _ & H). exact H.
      + eapply Forall_impl; [|exact Hshort]. intros b (_ & _ & H). exact H.
      + intros ->. reflexivity.
      + unfold tr. destruct drop; [constructor|].
        rewrite flush_buckets by apply Hgs. apply sorted_sort_items. apply Hg.
  Qed.

  (* never a RuntimeError when every occurring bucket has a positive size *)
  Theorem bucket_iter_some : forall drop s,
    (forall i, In i s -> 0 < sz (bk i)) -> exists out, bucket_iter bk sz drop s = Some out.
  Proof.
    intros drop s Hpos. unfold bucket_iter.
    pose proof (iter_loop_some s [] good_nil Hpos) as Hn.
    destruct (iter_loop bk sz [] s) as [[ys d']|]; [eexists; reflexivity|congruence].
  Qed.
End Sampler.
