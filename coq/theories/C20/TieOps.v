(* C20 - the tensor operations of MiniTorch.OpsC20, composed the way the source composes them, compute
   what C20.Model.attend computes (pure algebra about the operations; the interpreter is in Tie.v).

   Everything is stated for ARBITRARY model tensors q k v m (shape + index function, any number of
   dimensions, any broadcasting the model accepts); the source sees their materialisations [mat q] ...
   The hypothesis [attend_facts] is what [Proofs.attend_inv] extracts from [attend ... = Some out]. *)
From Coq Require Import List ZArith QArith Bool Arith Lia.
From PV Require Import MiniPy.Syntax MiniTorch.Ops MiniTorch.OpsC07 MiniTorch.OpsC20.
From PV Require Import MiniTorch.LemmasC20 MiniTorch.LemmasC20B.
From PV Require Import C20.Model C20.Spec C20.Index C20.Proofs C20.Broadcast C20.SrcRun.
Import ListNotations.
Local Open Scope nat_scope.

(* option Q (the model's masked scores) as float entries *)
Definition xo (o : option Q) : xq := match o with Some s => Fin s | None => NInf end.

Lemma valid_cons_tl s c i : valid s (c :: i) -> valid (tl s) i.
Proof. intros H. inversion H; subst. assumption. Qed.

Lemma intob_cons_tl x a s : intob (x :: a) s = true -> intob a (tl s) = true.
Proof. destruct s as [|y b]; [discriminate|]. cbn. intros H. apply andb_true_iff in H. apply H. Qed.

Section Ops.
  Variable expf : Q -> Q.
  Variables q k v : tensor Q.
  Variable m : option (tensor bool).
  Variable p : nat.
  Variables es ps : shape.
  Hypothesis F : attend_facts q k v m p es ps.

  Let pe := p - 1.
  Let Hp : p = S pe := f_p F.

  (* query and key have a feature axis *)
  Lemma shapes_qk : exists sq' sk', tshape q = hd 0 (tshape q) :: sq' /\ tshape k = hd 0 (tshape k) :: sk' /\
                                    pe <= length sq' /\ tl (tshape (unsq p q)) = ins pe 1 sq'.
  Proof.
    pose proof (af_qrank F) as Hq. pose proof (af_pk F) as Hpk.
    destruct (tshape q) as [|fq sq'] eqn:Eq; [cbn in Hq; lia|].
    destruct (tshape k) as [|fk sk'] eqn:Ek; [cbn in Hpk; lia|].
    exists sq', sk'. cbn [hd]. repeat split.
    - cbn in Hq, Hpk. lia.
    - rewrite unsq_shape, Eq, Hp, ins_S. reflexivity.
  Qed.

  (* (query.unsqueeze(dim) * T).sum(-1), for any T of the key's batch shape *)
  Lemma dot_ops (T : tensor Q) qs :
    hd 0 (tshape q) = qs -> tshape T = qs :: tl (tshape k) ->
    exists P, mul (runsq p (mat q)) (mat T) = Some P /\
              sum_dim P (-1) = Some (mat (mkT es (fun j => dotq (brow (unsq p q) j) (brow T j)))).
  Proof.
    intros Hq ET.
    destruct shapes_qk as [sq' [sk' [Eq [Ek [Hpe Htl]]]]]. rewrite Hq in Eq.
    pose proof (af_es F) as Hes. rewrite Htl, Ek in Hes. rewrite Ek in ET. cbn [tl] in Hes, ET.
    assert (Hb : bshape (rev (shp (runsq p (mat q)))) (rev (shp (mat T))) = Some (qs :: es)).
    { rewrite rshp_runsq, !rshp_mat, Eq, ET, Hp, ins_S. apply bshape_same_head, Hes. }
    pose (P := mat (mkT (qs :: es) (fun i => (bget (rd 0%Q (runsq p (mat q))) i * bget (rd 0%Q (mat T)) i)%Q))).
    assert (Hr : rpos (rank P) (-1) = Some 0) by (apply rpos_last; unfold P; rewrite rank_mat; cbn; lia).
    assert (HrP : rev (shp P) = qs :: es) by (unfold P; apply rshp_mat).
    exists P. split; [apply (mul_r _ _ _ Hb)|].
    rewrite (sum_dim_r _ _ _ Hr), HrP, del_0. cbn [nth]. f_equal.
    apply mat_ext. intros j Hj.
    unfold dotq, brow. rewrite unsq_shape, Eq, ET, Hp, ins_S. cbn [hd]. rewrite <- Hp.
    rewrite vmul_map. f_equal. apply map_ext_in. intros t Ht. apply in_seq in Ht.
    assert (Hv : valid (qs :: es) (t :: j)) by (apply valid_cons; [lia|exact Hj]).
    rewrite ins_0. unfold P. rewrite tat_rd_mat by exact Hv. cbn [tat].
    destruct (bshape_into _ _ _ Hb) as [Hi1 Hi2]. rewrite rshp_runsq, rshp_mat in Hi1. rewrite rshp_mat in Hi2.
    rewrite (bget_rd_runsq 0%Q p q (qs :: es)); [|rewrite Eq; cbn [length]; lia|exact Hi1|exact Hv].
    rewrite (bget_rd_mat 0%Q T (qs :: es)) by assumption.
    reflexivity.
  Qed.

  (* ---- score: (query.unsqueeze(dim) * key).sum(-1) * scale_factor -------------------------------- *)
  Lemma dot_score_ops tanhf sc qs :
    hd 0 (tshape q) = qs -> hd 0 (tshape k) = qs ->
    exists P E,
      mul (runsq p (mat q)) (mat k) = Some P /\ sum_dim P (-1) = Some E /\
      mul_s E sc = mat (mkT es (e_at (score tanhf (Dot sc)) q k p)).
  Proof.
    intros Hq Hk. destruct shapes_qk as [_ [sk' [_ [Ek _]]]].
    destruct (dot_ops k qs Hq) as [P [HP HS]]; [rewrite Ek, Hk; reflexivity|].
    exists P. eexists. split; [exact HP|]. split; [exact HS|]. rewrite mul_s_mat. reflexivity.
  Qed.

  (* ---- mask: e.masked_fill(~mask, -inf) -------------------------------------------------------------- *)
  Variable sc : list Q -> list Q -> Q.
  Let E1 := mat (mkT es (e_at sc q k p)).
  Let E2 := mat (mkT es (fun i => xo (em_at sc q k m p i))).
  Let et := memo None (mkT es (em_at sc q k m p)).
  Let Ta := mkT es (a_at expf p et es).

  Lemma no_mask_ops : m = None -> mkTn (shp E1) (map Fin (dat E1)) = E2.
  Proof.
    intros ->. unfold E1, E2. rewrite (map_mat Fin). cbn [tshape tat]. reflexivity.
  Qed.

  Lemma mask_ops mt : m = Some mt -> masked_fill_ninf E1 (invert (mat mt)) = Some E2.
  Proof.
    intros Hm. pose proof (af_mask F) as Hi. rewrite Hm in Hi.
    unfold masked_fill_ninf. unfold invert at 1. cbn [shp]. unfold E1 at 1 2. rewrite !rshp_mat. cbn [tshape].
    rewrite Hi. f_equal. unfold E2. apply mat_ext. intros i Hv.
    rewrite (bget_rd_invert mt es) by assumption.
    unfold E1. rewrite tat_rd_mat by exact Hv. cbn [tat].
    unfold em_at, kept_at. rewrite Hm. destruct (bget mt i); reflexivity.
  Qed.

  (* ---- softmax over the sequence axis of e ------------------------------------------------------------- *)
  Lemma softmax_ops d : rpos (length es) d = Some pe -> softmax expf E2 d = Some (mat Ta).
  Proof.
    intros Hr.
    assert (Hr' : rpos (rank E2) d = Some pe) by (unfold E2; rewrite rank_mat; exact Hr).
    rewrite (softmax_r _ _ _ _ Hr'). cbv zeta. f_equal.
    assert (HrE : rev (shp E2) = es) by (unfold E2; apply rshp_mat). rewrite !HrE.
    unfold Ta. apply mat_ext. intros i Hv.
    assert (Hw : forall i', valid es i' ->
                   match tat (rd NInf E2) i' with Fin e => expf e | NInf => 0%Q end = w_at expf et i').
    { intros i' Hv'. unfold E2. rewrite tat_rd_mat by exact Hv'. cbn [tat].
      unfold w_at, et. rewrite memo_at by exact Hv'. cbn [tat].
      destruct (em_at sc q k m p i'); reflexivity. }
    unfold a_at, den_at. fold pe. rewrite (Hw i Hv). f_equal. f_equal.
    apply map_ext_in. intros t Ht. apply in_seq in Ht. apply Hw. apply valid_setp; [exact Hv|lia].
  Qed.

  (* ---- weighted sum: (a.unsqueeze(-1) * value).sum(dim) ------------------------------------------------ *)
  Lemma weighted_sum_ops d :
    rpos (length ps) d = Some p ->
    exists P, mul (runsq 0 (mat Ta)) (mat v) = Some P /\
              sum_dim P d = Some (mat (mkT (del p ps) (out_at v p (memo 0%Q Ta) ps))).
  Proof.
    intros Hr.
    pose proof (af_ps F) as Hps.
    assert (Hb : bshape (rev (shp (runsq 0 (mat Ta)))) (rev (shp (mat v))) = Some ps).
    { rewrite rshp_runsq, !rshp_mat. unfold Ta. cbn [tshape]. rewrite ins_0. exact Hps. }
    pose (P := mat (mkT ps (fun i => (bget (rd 0%Q (runsq 0 (mat Ta))) i * bget (rd 0%Q (mat v)) i)%Q))).
    exists P. split; [apply (mul_r _ _ _ Hb)|].
    assert (Hr' : rpos (rank P) d = Some p) by (unfold P; rewrite rank_mat; exact Hr).
    rewrite (sum_dim_r _ _ _ Hr'). f_equal.
    assert (HrP : rev (shp P) = ps) by (unfold P; apply rshp_mat). rewrite HrP.
    apply mat_ext. intros cj Hv. unfold out_at. f_equal.
    apply map_ext_in. intros t Ht. apply in_seq in Ht.
    assert (Hpl : p < length ps) by (rewrite (f_ps_len F); apply (af_pk F)).
    assert (HI : valid ps (ins p t cj)) by (apply valid_ins; [exact Hpl|exact Hv|lia]).
    unfold P. rewrite tat_rd_mat by exact HI. cbn [tat].
    destruct cj as [|c j].
    { apply valid_length in Hv. rewrite del_length in Hv by exact Hpl. cbn in Hv. lia. }
    rewrite (ins_pred p t c j (af_p F)) in *. fold pe in HI |- *.
    cbn [prod_at].
    destruct (bshape_into _ _ _ Hps) as [Hi1 Hi2].
    rewrite (bget_rd_runsq 0%Q 0 Ta ps); [|lia|unfold Ta; cbn [tshape]; rewrite ins_0; exact Hi1|exact HI].
    rewrite (bget_unsq 0 Ta) by lia. rewrite del_0.
    rewrite (bget_rd_mat 0%Q v ps) by assumption.
    f_equal. symmetry. apply (bget_memo 0%Q Ta (tl ps)).
    - unfold Ta. cbn [tshape]. apply (intob_cons_tl 1), Hi1.
    - apply (valid_cons_tl _ c), HI.
  Qed.
End Ops.

(* the r-positions the source's dimension arguments denote, from the model's axis_pos *)
Lemma attend_dims q k v m p es ps dim :
  attend_facts q k v m p es ps -> axis_pos dim (length (tshape k)) = Some p ->
  rpos (length ps) dim = Some p /\
  rpos (length es) (if (0 <=? dim)%Z then dim else (dim + 1)%Z) = Some (p - 1) /\
  wrap_dim (length (tshape k)) dim = Some (length (tshape k) - 1 - p).
Proof.
  intros F A. destruct (axis_pos_inv _ _ _ A) as [_ [H1 [H2 H3]]].
  rewrite (f_ps_len F), (f_es_len F). repeat split; assumption.
Qed.

(* ---- GeneralizedDotProductSoftAttention.score: (query.unsqueeze(dim) * linear(key, W, b)).sum(-1) ------- *)
Lemma map_as_seq {A B} (d : A) (f : A -> B) (l : list A) : map f l = map (fun c => f (nth c l d)) (seq 0 (length l)).
Proof. rewrite <- (map_nth_seq d l) at 1. rewrite map_map. reflexivity. Qed.

Lemma vadd_as_seq (y bl : list Q) n : length y = n -> length bl = n ->
  vadd y bl = map (fun c => (nth c y 0 + nth c bl 0)%Q) (seq 0 n).
Proof.
  revert bl n. induction y as [|a y IH]; intros bl n Hy Hb.
  - cbn in Hy. subst n. reflexivity.
  - destruct bl as [|b bl]; [cbn in Hy, Hb; lia|]. destruct n as [|n]; [discriminate|].
    cbn in Hy, Hb. unfold vadd in *. cbn [combine map seq nth]. f_equal.
    rewrite <- seq_shift, map_map. apply (IH bl n); lia.
Qed.

Lemma linear_row_table W b x :
  match b with None => True | Some bl => length bl = length W end ->
  linear_row W b x
  = map (fun c => match b with
                  | None => dotq x (nth c W [])
                  | Some bl => (dotq x (nth c W []) + nth c bl 0)%Q
                  end) (seq 0 (length W)).
Proof.
  intros Hb. unfold linear_row. destruct b as [bl|].
  - rewrite (vadd_as_seq _ bl (length W)) by (rewrite ?map_length; congruence).
    apply map_ext_in. intros c Hc. apply in_seq in Hc. f_equal.
    rewrite (map_as_seq [] (fun w => dotq x w) W).
    rewrite (nth_indep _ 0%Q (dotq x (nth 0 W []))) by (rewrite map_length, seq_length; lia).
    rewrite (map_nth (fun c0 => dotq x (nth c0 W []))), seq_nth by lia. reflexivity.
  - apply (map_as_seq [] (fun w => dotq x w) W).
Qed.

Lemma rows_sized n (W : list (list Q)) :
  forallb (fun w => Nat.eqb (length w) n) W = true -> Forall (fun w => length w = n) W.
Proof. intros H. apply Forall_forall. intros w Hw. rewrite forallb_forall in H. apply Nat.eqb_eq, H, Hw. Qed.

Lemma clamp_head_lt n s c i : c < n -> clamp (n :: s) (c :: i) = c :: clamp s i.
Proof.
  intros H. cbn [clamp]. destruct (Nat.eqb_spec n 1); [|reflexivity]. f_equal. lia.
Qed.

Lemma brow_linear W b (T : tensor Q) n s j :
  tshape T = n :: s -> match b with None => True | Some bl => length bl = length W end ->
  brow (linear W b T) j = linear_row W b (brow T j).
Proof.
  intros E Hb. rewrite (linear_row_table W b _ Hb). unfold brow. cbn [linear tshape hd]. rewrite E. cbn [hd tl].
  apply map_ext_in. intros c Hc. apply in_seq in Hc.
  unfold bget at 1. cbn [linear tshape]. rewrite E. cbn [tl]. rewrite clamp_head_lt by lia.
  cbn [linear tat]. rewrite E. cbn [hd].
  replace (map (fun j0 => tat T (j0 :: clamp s j)) (seq 0 n)) with (map (fun c0 => bget T (c0 :: j)) (seq 0 n)).
  - destruct b; reflexivity.
  - apply map_ext_in. intros c0 H0. apply in_seq in H0. unfold bget. rewrite E, clamp_head_lt by lia. reflexivity.
Qed.

Lemma brow_valid (T : tensor Q) n s j :
  tshape T = n :: s -> valid s j -> brow T j = map (fun c => tat T (c :: j)) (seq 0 n).
Proof.
  intros E Hv. unfold brow, bget. rewrite E. cbn [hd]. apply map_ext_in. intros c Hc. apply in_seq in Hc.
  rewrite clamp_head_lt by lia. rewrite (clamp_valid_id s j Hv). reflexivity.
Qed.

Section General.
  Variables q k v : tensor Q.
  Variable m : option (tensor bool).
  Variable p : nat.
  Variables es ps : shape.
  Hypothesis F : attend_facts q k v m p es ps.

  Lemma general_score_ops tanhf W b qs ks :
    hd 0 (tshape q) = qs -> hd 0 (tshape k) = ks -> fl_sizes (General W b) qs ks = true ->
    exists WK P,
      OpsC20.linear (mat k) (rows_tensor ks W) (option_map vec_tensor b) = Some WK /\
      mul (runsq p (mat q)) WK = Some P /\
      sum_dim P (-1) = Some (mat (mkT es (e_at (score tanhf (General W b)) q k p))).
  Proof.
    intros Hq Hk Hfl.
    destruct (shapes_qk q k v m p es ps F) as [_ [sk' [_ [Ek _]]]]. rewrite Hk in Ek.
    cbn [fl_sizes] in Hfl. apply andb_true_iff in Hfl. destruct Hfl as [Hfl Hbl].
    apply andb_true_iff in Hfl. destruct Hfl as [HlW Hrows]. apply Nat.eqb_eq in HlW.
    pose proof (rows_sized ks W Hrows) as Hall.
    assert (Hb : match b with None => True | Some bl => length bl = length W end).
    { destruct b as [bl|]; [apply Nat.eqb_eq in Hbl; congruence|exact I]. }
    destruct (dot_ops q k v m p es ps F (linear W b k) qs Hq) as [P [HP HS]];
      [cbn [linear tshape]; rewrite HlW; reflexivity|].
    exists (mat (linear W b k)), P. split; [exact (linear_mat k W b ks sk' Ek Hall Hb)|]. split; [exact HP|].
    rewrite HS. f_equal. apply mat_ext. intros j _. unfold e_at, score, qu.
    rewrite (brow_linear W b k ks sk' j Ek Hb). reflexivity.
  Qed.
End General.
