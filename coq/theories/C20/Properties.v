(* C20 — Attention is a masked convex combination of values, blind to masked positions.
   Property theorems only: each is closed by [exact <lemma>] and followed by
   [Print Assumptions].  Conventions (r-coordinates, oracle functions) are in Model.v.

   Reading guide.  [attend expf sc q k v m p qs ks = Some out] says: the module with score
   function [sc] (any of the three flavours: [score tanhf fl]; in fact ANY function of the
   query row and the key row), sizes qs/ks and sequence axis at r-position p accepts the
   inputs and returns [out].  [expf] is the exponential inside softmax: the theorems need only
   that it is positive.  [ins (p-1) t j] is the index j of an output row extended by sequence
   position t; [kept_at m i] is the mask read under broadcasting (true without a mask);
   [bget]/[brow] read an element / a feature row under broadcasting. *)
From Coq Require Import List Arith Bool ZArith QArith Permutation Lia Lqa.
From PV Require Import C20.Model C20.Spec C20.Sums C20.Index C20.Proofs C20.Broadcast C20.MHA C20.MHARel.
Import ListNotations.
Local Open Scope nat_scope.

(* normal form: "attention is a masked convex combination of values" - every output
   coordinate equals sum_{kept t} exp(score_t) value_t / sum_{kept t} exp(score_t) *)
Theorem c20_attention_is_masked_convex_combination :
  forall expf sc q k v m p qs ks out,
  attend expf sc q k v m p qs ks = Some out -> seq_agree k v p ->
  forall c j, valid (tshape out) (c :: j) ->
  (tat out (c :: j) ==
   masked_convex_combination (nth p (tshape k) 0%nat)
     (fun t => kept_at m (ins (p - 1) t j))
     (fun t => expf (e_at sc q k p (ins (p - 1) t j)))
     (fun t => bget v (c :: ins (p - 1) t j)))%Q.
Proof. exact attend_is_mcc. Qed.
Print Assumptions c20_attention_is_masked_convex_combination.

(* "each output coordinate lies between the smallest and largest kept value at that
   coordinate" (at least one position kept): any bounds lo, hi on the kept values bound the
   output *)
Theorem c20_attention_in_kept_range :
  forall expf sc q k v m p qs ks out,
  (forall x, (0 < expf x)%Q) ->
  attend expf sc q k v m p qs ks = Some out -> seq_agree k v p ->
  forall c j lo hi, valid (tshape out) (c :: j) ->
  (exists t, t < nth p (tshape k) 0 /\ kept_at m (ins (p - 1) t j) = true) ->
  (forall t, t < nth p (tshape k) 0 -> kept_at m (ins (p - 1) t j) = true ->
             (lo <= bget v (c :: ins (p - 1) t j) <= hi)%Q) ->
  (lo <= tat out (c :: j) <= hi)%Q.
Proof. exact attention_in_kept_range. Qed.
Print Assumptions c20_attention_in_kept_range.

(* "the output does not change when keys and values at masked positions are replaced by
   anything": k', v' agree with k, v wherever the (broadcast) mask keeps the position *)
Theorem c20_attention_blind_to_masked :
  forall expf sc q k v k' v' m p qs ks out out',
  attend expf sc q k v m p qs ks = Some out ->
  attend expf sc q k' v' m p qs ks = Some out' ->
  tshape k' = tshape k -> tshape v' = tshape v -> seq_agree k v p ->
  forall c j, valid (tshape out) (c :: j) ->
  (forall t, t < nth p (tshape k) 0 -> kept_at m (ins (p - 1) t j) = true ->
             brow k' (ins (p - 1) t j) = brow k (ins (p - 1) t j)
             /\ bget v' (c :: ins (p - 1) t j) = bget v (c :: ins (p - 1) t j)) ->
  (tat out' (c :: j) == tat out (c :: j))%Q.
Proof. exact attention_blind_to_masked. Qed.
Print Assumptions c20_attention_blind_to_masked.

(* "it does not change when the sequence positions are permuted consistently": key, value and
   mask of the second call are those of the first read through a permutation sigma of 0..T-1 *)
Theorem c20_attention_permutation_invariant :
  forall expf sc q k v m k' v' m' p qs ks out out' (sigma : nat -> nat),
  attend expf sc q k v m p qs ks = Some out ->
  attend expf sc q k' v' m' p qs ks = Some out' ->
  tshape k' = tshape k -> tshape v' = tshape v -> mask_shape m' = mask_shape m -> seq_agree k v p ->
  Permutation (map sigma (seq 0 (nth p (tshape k) 0))) (seq 0 (nth p (tshape k) 0)) ->
  forall c j, valid (tshape out) (c :: j) ->
  (forall t, t < nth p (tshape k) 0 ->
             brow k' (ins (p - 1) t j) = brow k (ins (p - 1) (sigma t) j)
             /\ bget v' (c :: ins (p - 1) t j) = bget v (c :: ins (p - 1) (sigma t) j)
             /\ kept_at m' (ins (p - 1) t j) = kept_at m (ins (p - 1) (sigma t) j)) ->
  (tat out' (c :: j) == tat out (c :: j))%Q.
Proof. exact attention_permutation_invariant. Qed.
Print Assumptions c20_attention_permutation_invariant.

(* "every attention flavour": the four theorems above hold for an arbitrary score function, in
   particular for dot-product (any scale), generalised (any W, bias or not) and concat (any W,
   bias, v, any tanh) - spelled out for the range clause *)
Theorem c20_range_every_flavour :
  forall expf tanhf fl q k v m p qs ks out,
  (forall x, (0 < expf x)%Q) ->
  attend expf (score tanhf fl) q k v m p qs ks = Some out -> seq_agree k v p ->
  forall c j lo hi, valid (tshape out) (c :: j) ->
  (exists t, t < nth p (tshape k) 0 /\ kept_at m (ins (p - 1) t j) = true) ->
  (forall t, t < nth p (tshape k) 0 -> kept_at m (ins (p - 1) t j) = true ->
             (lo <= bget v (c :: ins (p - 1) t j) <= hi)%Q) ->
  (lo <= tat out (c :: j) <= hi)%Q.
Proof. exact (fun expf tanhf fl => attention_in_kept_range expf (score tanhf fl)). Qed.
Print Assumptions c20_range_every_flavour.

(* "Broadcasting a query against batched keys gives the same result as explicitly expanding
   it, for every legal sequence dimension": the whole output tensor is the same (p arbitrary) *)
Theorem c20_broadcast_query_eq_expanded :
  forall expf sc q k v m p qs ks out es,
  attend expf sc q k v m p qs ks = Some out ->
  bshape (tl (tshape (unsq p q))) (tl (tshape k)) = Some es ->
  attend expf sc (q_expanded q p es) k v m p qs ks = Some out.
Proof. exact broadcast_query_eq_expanded. Qed.
Print Assumptions c20_broadcast_query_eq_expanded.

(* "for every legal sequence dimension": a legal dim resolves to an r-position in range, and
   its negative spelling (dim - rank, legal for dim >= 1) resolves to the same axis *)
Theorem c20_sequence_dimension_resolution :
  forall (dim : Z) (kr : nat),
  (0 <= dim < Z.of_nat kr - 1)%Z ->
  axis_pos dim kr = Some (kr - 1 - Z.to_nat dim)
  /\ 1 <= kr - 1 - Z.to_nat dim < kr
  /\ ((1 <= dim)%Z -> axis_pos (dim - Z.of_nat kr) kr = axis_pos dim kr).
Proof. exact axis_pos_legal. Qed.
Print Assumptions c20_sequence_dimension_resolution.

(* "Multi-headed attention equals projecting ..., running the wrapped single-head attention
   per head, concatenating and projecting again": the model of MultiHeadedAttention.forward
   (projections, unflatten, mask.unsqueeze(-1), ONE call of the wrapped attention on tensors
   with a head axis, flatten, projection) agrees everywhere with [mha_spec] (Spec.v), in which
   the wrapped attention is called once per head on that head's block of features with the
   caller's mask; and each of those per-head calls is accepted *)
Theorem c20_multihead_is_composition :
  forall expf sc P q k v m p qs ks vs out,
  mha expf sc P q k v m p 0 qs ks vs = Some out ->
  length (WQ P) = num_heads P * d_q P ->
  length (WK P) = num_heads P * d_k P ->
  length (WV P) = num_heads P * d_v P ->
  seq_agree k v p ->
  (forall h, h < num_heads P -> exists o, head expf sc P q k v m p h = Some o) /\
  (forall i, valid (tshape out) i ->
             (tat out i == tat (mha_spec expf sc P q k v m p (tl (tshape out))) i)%Q).
Proof. exact multihead_is_composition. Qed.
Print Assumptions c20_multihead_is_composition.

(* "every attention flavour ... multi-headed": the multi-headed output does not change when
   keys and values at masked positions are replaced by anything (whole feature rows, since the
   projections mix features), for arbitrary projection parameters *)
Theorem c20_multihead_blind_to_masked :
  forall expf sc P q k v k' v' m p qs ks vs out out',
  mha expf sc P q k v m p 0 qs ks vs = Some out ->
  mha expf sc P q k' v' m p 0 qs ks vs = Some out' ->
  tshape k' = tshape k -> tshape v' = tshape v ->
  length (WQ P) = num_heads P * d_q P ->
  length (WK P) = num_heads P * d_k P ->
  length (WV P) = num_heads P * d_v P ->
  seq_agree k v p ->
  forall c j, valid (tshape out) (c :: j) ->
  (forall t, t < nth p (tshape k) 0 -> kept_at m (ins (p - 1) t j) = true ->
             brow k' (ins (p - 1) t j) = brow k (ins (p - 1) t j)
             /\ brow v' (ins (p - 1) t j) = brow v (ins (p - 1) t j)) ->
  (tat out' (c :: j) == tat out (c :: j))%Q.
Proof. exact multihead_blind_to_masked. Qed.
Print Assumptions c20_multihead_blind_to_masked.

(* ... and it does not change when the sequence positions are permuted consistently *)
Theorem c20_multihead_permutation_invariant :
  forall expf sc P q k v m k' v' m' p qs ks vs out out' (sigma : nat -> nat),
  mha expf sc P q k v m p 0 qs ks vs = Some out ->
  mha expf sc P q k' v' m' p 0 qs ks vs = Some out' ->
  tshape k' = tshape k -> tshape v' = tshape v -> mask_shape m' = mask_shape m ->
  length (WQ P) = num_heads P * d_q P ->
  length (WK P) = num_heads P * d_k P ->
  length (WV P) = num_heads P * d_v P ->
  seq_agree k v p ->
  Permutation (map sigma (seq 0 (nth p (tshape k) 0))) (seq 0 (nth p (tshape k) 0)) ->
  forall c j, valid (tshape out) (c :: j) ->
  (forall t, t < nth p (tshape k) 0 ->
             brow k' (ins (p - 1) t j) = brow k (ins (p - 1) (sigma t) j)
             /\ brow v' (ins (p - 1) t j) = brow v (ins (p - 1) (sigma t) j)
             /\ kept_at m' (ins (p - 1) t j) = kept_at m (ins (p - 1) (sigma t) j)) ->
  (tat out' (c :: j) == tat out (c :: j))%Q.
Proof. exact multihead_permutation_invariant. Qed.
Print Assumptions c20_multihead_permutation_invariant.

(* "(with a bias exactly on the projections for which one was requested)": a projection
   built without a bias is the bare matrix product, one built with bias b adds b and nothing
   else; [mha] and [mha_spec] use [linear (W? P) (b? P)] for the four projections *)
Theorem c20_projection_bias_exactly_where_requested :
  forall W t c i,
  (forall b, tat (linear W (Some b) t) (c :: i) = (tat (linear W None t) (c :: i) + nth c b 0%Q)%Q)
  /\ tat (linear W None t) (c :: i)
     = dotq (map (fun j => tat t (j :: i)) (seq 0 (hd 0 (tshape t)))) (nth c W []).
Proof. exact linear_bias_exact. Qed.
Print Assumptions c20_projection_bias_exactly_where_requested.

(* the exp-oracle the correspondence check hands to the model (a table of torch's float64
   results, 1 where the table has no entry) is positive, i.e. it is one of the functions the
   theorems above quantify over *)
Theorem c20_oracle_exp_positive :
  forall tbl, (forall kv, In kv tbl -> (0 < snd kv)%Q) -> forall x, (0 < lookup tbl x)%Q.
Proof. exact lookup_positive. Qed.
Print Assumptions c20_oracle_exp_positive.

(* non-vacuity: a concrete masked, batched input is accepted and meets every hypothesis of the
   theorems above (key (T=3, N=2, K=1), query (N=2, Q=1), value (3, 2, D=2), mask (3, 2)) *)
Example c20_nonvacuous :
  let expf := fun x : Q => (x * x + 1)%Q in
  let q0 := qt [1; 2] [1; -2]%Q in
  let k0 := qt [1; 2; 3] [1; 0; 2; 1; -1; 3]%Q in
  let v0 := qt [2; 2; 3] [1; 2; 3; 4; 5; 6; 7; 8; 9; 10; 11; 12]%Q in
  let m0 := Some (bt [2; 3] [true; false; true; true; false; true]) in
  exists out,
    attend expf (score (fun x => x) (Dot 1)) q0 k0 v0 m0 2 1 1 = Some out
    /\ seq_agree k0 v0 2 /\ valid (tshape out) [1; 0]
    /\ (exists t, t < nth 2 (tshape k0) 0 /\ kept_at m0 (ins 1 t [0]) = true)
    /\ kept_at m0 (ins 1 2 [0]) = false
    /\ (forall x, (0 < expf x)%Q)
    /\ (tat out [1%nat; 0%nat] == 34 # 7)%Q.
Proof.
  cbv zeta. eexists. split; [vm_compute; reflexivity|].
  split; [reflexivity|]. split; [repeat constructor|].
  split; [exists 0; split; [cbn; lia|reflexivity]|].
  split; [reflexivity|]. split; [intros x; nra|]. vm_compute. reflexivity.
Qed.

Example c20_mha_nonvacuous :
  let expf := fun x : Q => (x * x + 1)%Q in
  let P := mkMHA 2 1 1 1 [[1; 0]; [0; 1]]%Q (Some [1; 0]%Q) [[1; 0]; [0; 1]]%Q None
                 [[1; 0]; [0; 1]]%Q None [[1; 0]; [0; 1]]%Q None in
  let q0 := qt [2; 2] [1; -2; 0; 1]%Q in
  let k0 := qt [2; 2; 3] [1; 0; 2; 1; -1; 3; 0; 0; 1; 1; 2; 2]%Q in
  let v0 := qt [2; 2; 3] [1; 2; 3; 4; 5; 6; 7; 8; 9; 10; 11; 12]%Q in
  let m0 := Some (bt [2; 3] [true; false; true; true; false; true]) in
  exists out,
    mha expf (score (fun x => x) (Dot 1)) P q0 k0 v0 m0 2 0 2 2 2 = Some out
    /\ seq_agree k0 v0 2 /\ valid (tshape out) [1; 0]
    /\ length (WQ P) = num_heads P * d_q P.
Proof.
  cbv zeta. eexists. split; [vm_compute; reflexivity|].
  split; [reflexivity|]. split; [repeat constructor|]. reflexivity.
Qed.

(* ---- the tie to the source text (GlobalSoftAttention.forward / check_input, DotProductSoftAttention.score) ----
   PV.Gen.C20Src.{gsa_forward, gsa_check_input, dot_score, general_score} are regenerated on every run from
   /repo/src/pydrobert/torch/_attn.py (whole method bodies) by harness/py2coq/translate.py, node for node;
   PV.MiniPy.Interp is the semantics of the translated subset; SrcRun.ext20 interprets `self.check_input(..)` and
   `self.score(..)` by running the other translated bodies, gives the torch calls (dim, shape, unsqueeze,
   broadcasting *, sum, ~, masked_fill(-inf), softmax, ones, broadcast_shapes, tuple slicing/concatenation) the
   meaning defined in PV.MiniTorch.OpsC20 (N-d tensors over bool / rationals / rationals-or-minus-infinity, read
   through the same row-major / broadcasting index vocabulary as Model.v) and treats the exponential inside
   softmax as the ORACLE [expf] (any function), exactly as the model does.  `self` is the dictionary of its
   attributes.  The theorems below are about those regenerated terms and hold for EVERY input the model accepts:
   tensors of any rank with any legal broadcasting (query (A.., Q), key (B.., T, C.., Q), value (B.., T, C.., D),
   optional mask expanding to the score shape), every legal sequence dimension, positive or negative.
   The source sees the materialised tensors [SrcRun.flat t] (shape in torch's order + row-major data) of the
   model's index-function tensors t; for [t = qt s data] that is the tensor with those data. *)
From PV Require MiniPy.Syntax MiniPy.Interp MiniTorch.OpsC07 MiniTorch.OpsC20 Gen.C20Src C20.SrcRun C20.TieOps C20.Tie.

(* interpreting the source of forward (of a DotProductSoftAttention: dim, size qs, scale_factor sc) returns
   exactly the tensor Model.attend computes with the dot-product score: same shape, every entry the same
   rational - for every legal dim (axis_pos resolves it to the r-position p the model works with) *)
Theorem c20_source_forward_is_model :
  forall expf tanhf sc dim qs q k v m p out,
  axis_pos dim (length (tshape k)) = Some p ->
  attend expf (score tanhf (Dot sc)) q k v m p qs qs = Some out ->
  exists st,
    SrcRun.run_forward expf SrcRun.DotCls (SrcRun.self_dot dim qs qs sc)
                       (SrcRun.flat q) (SrcRun.flat k) (SrcRun.flat v) (option_map SrcRun.flat m)
    = Interp.Ok (OpsC20.enc_q (SrcRun.flat out)) st.
Proof. exact Tie.forward_dot_tie. Qed.
Print Assumptions c20_source_forward_is_model.

(* the same for ANY score method whose interpreted body returns the model's score tensor e_at sc (the forward
   pass itself: check_input, mask fill with -inf, softmax over the sequence axis with the negative-dim
   adjustment, weighted sum of the values) *)
Theorem c20_source_forward_any_score :
  forall expf cls d sc q k v m dim p qs ks out,
  axis_pos dim (length (tshape k)) = Some p ->
  attend expf sc q k v m p qs ks = Some out ->
  Interp.dict_get d (Syntax.VStr Tie.attr_dim) = Some (Syntax.VInt dim) ->
  Interp.dict_get d (Syntax.VStr Tie.attr_query_size) = Some (Syntax.VInt (Z.of_nat qs)) ->
  Interp.dict_get d (Syntax.VStr Tie.attr_key_size) = Some (Syntax.VInt (Z.of_nat ks)) ->
  (forall es ps, attend_facts q k v m p es ps ->
     forall st, SrcRun.call_body expf (SrcRun.score_body cls) (Tie.score_vars (Syntax.VDict d) (SrcRun.flat q) (SrcRun.flat k)) st
                = Interp.Ok (OpsC20.enc_q (OpsC20.mat (mkT es (e_at sc q k p)))) st) ->
  exists st,
    SrcRun.run_forward expf cls (Syntax.VDict d) (SrcRun.flat q) (SrcRun.flat k) (SrcRun.flat v) (option_map SrcRun.flat m)
    = Interp.Ok (OpsC20.enc_q (SrcRun.flat out)) st.
Proof. exact Tie.forward_tie_score. Qed.
Print Assumptions c20_source_forward_any_score.

(* composed with c20_attention_in_kept_range: a statement purely about the interpreted source - on inputs of
   legal shapes (Tie.legal_input: ranks, feature sizes and the three broadcasts of check_input; no reference to
   the model's values) the source returns a tensor every cell of which lies within any bounds on the kept
   values at that coordinate *)
Theorem c20_source_attention_in_kept_range :
  forall expf sc dim qs q k v m p,
  (forall x, (0 < expf x)%Q) ->
  axis_pos dim (length (tshape k)) = Some p -> Tie.legal_input q k v m p qs qs -> seq_agree k v p ->
  exists r st,
    SrcRun.run_forward expf SrcRun.DotCls (SrcRun.self_dot dim qs qs sc)
                       (SrcRun.flat q) (SrcRun.flat k) (SrcRun.flat v) (option_map SrcRun.flat m)
    = Interp.Ok (OpsC20.enc_q r) st /\
    forall c j lo hi, valid (rev (OpsC07.shp r)) (c :: j) ->
      (exists t, t < nth p (tshape k) 0 /\ kept_at m (ins (p - 1) t j) = true) ->
      (forall t, t < nth p (tshape k) 0 -> kept_at m (ins (p - 1) t j) = true ->
                 (lo <= bget v (c :: ins (p - 1) t j) <= hi)%Q) ->
      (lo <= tat (OpsC20.rd 0%Q r) (c :: j) <= hi)%Q.
Proof.
  intros expf sc dim qs q k v m p Hpos Hax.
  apply (Tie.run_in_kept_range expf (score (fun x => x) (Dot sc))); [|exact Hpos].
  intros out. apply Tie.forward_dot_tie, Hax.
Qed.
Print Assumptions c20_source_attention_in_kept_range.

(* composed with c20_attention_blind_to_masked: the tensor the interpreted source returns does not change when
   keys and values at masked positions are replaced by anything *)
Theorem c20_source_attention_blind_to_masked :
  forall expf sc dim qs q k v k' v' m p,
  axis_pos dim (length (tshape k)) = Some p ->
  Tie.legal_input q k v m p qs qs -> tshape k' = tshape k -> tshape v' = tshape v ->
  hd 0 (tshape k') = qs -> seq_agree k v p ->
  exists r r' st st',
    SrcRun.run_forward expf SrcRun.DotCls (SrcRun.self_dot dim qs qs sc)
                       (SrcRun.flat q) (SrcRun.flat k) (SrcRun.flat v) (option_map SrcRun.flat m)
    = Interp.Ok (OpsC20.enc_q r) st /\
    SrcRun.run_forward expf SrcRun.DotCls (SrcRun.self_dot dim qs qs sc)
                       (SrcRun.flat q) (SrcRun.flat k') (SrcRun.flat v') (option_map SrcRun.flat m)
    = Interp.Ok (OpsC20.enc_q r') st' /\
    OpsC07.shp r' = OpsC07.shp r /\
    forall c j, valid (rev (OpsC07.shp r)) (c :: j) ->
      (forall t, t < nth p (tshape k) 0 -> kept_at m (ins (p - 1) t j) = true ->
                 brow k' (ins (p - 1) t j) = brow k (ins (p - 1) t j)
                 /\ bget v' (c :: ins (p - 1) t j) = bget v (c :: ins (p - 1) t j)) ->
      (tat (OpsC20.rd 0%Q r') (c :: j) == tat (OpsC20.rd 0%Q r) (c :: j))%Q.
Proof.
  intros expf sc dim qs q k v k' v' m p Hax Hleg Hk' Hv' _.
  apply (Tie.run_blind_to_masked expf (score (fun x => x) (Dot sc)) q k v k' v' m p qs qs); try assumption;
    intros out; apply Tie.forward_dot_tie; [|rewrite Hk']; exact Hax.
Qed.
Print Assumptions c20_source_attention_blind_to_masked.

(* GeneralizedDotProductSoftAttention (weight rows W of length key_size, one per query feature; optional bias):
   `torch.nn.functional.linear(key, self.weight, self.bias)`, the unsqueezed query, the product and the sum over the
   feature axis, then the same forward pass - again exactly Model.attend, now with the "general" score *)
Theorem c20_source_general_forward_is_model :
  forall expf tanhf W b dim qs ks q k v m p out,
  axis_pos dim (length (tshape k)) = Some p ->
  fl_sizes (General W b) qs ks = true ->
  attend expf (score tanhf (General W b)) q k v m p qs ks = Some out ->
  exists st,
    SrcRun.run_forward expf SrcRun.GeneralCls (SrcRun.self_general dim qs ks W b)
                       (SrcRun.flat q) (SrcRun.flat k) (SrcRun.flat v) (option_map SrcRun.flat m)
    = Interp.Ok (OpsC20.enc_q (SrcRun.flat out)) st.
Proof. exact Tie.forward_general_tie. Qed.
Print Assumptions c20_source_general_forward_is_model.

Theorem c20_source_general_in_kept_range :
  forall expf W b dim qs ks q k v m p,
  (forall x, (0 < expf x)%Q) ->
  axis_pos dim (length (tshape k)) = Some p -> fl_sizes (General W b) qs ks = true ->
  Tie.legal_input q k v m p qs ks -> seq_agree k v p ->
  exists r st,
    SrcRun.run_forward expf SrcRun.GeneralCls (SrcRun.self_general dim qs ks W b)
                       (SrcRun.flat q) (SrcRun.flat k) (SrcRun.flat v) (option_map SrcRun.flat m)
    = Interp.Ok (OpsC20.enc_q r) st /\
    forall c j lo hi, valid (rev (OpsC07.shp r)) (c :: j) ->
      (exists t, t < nth p (tshape k) 0 /\ kept_at m (ins (p - 1) t j) = true) ->
      (forall t, t < nth p (tshape k) 0 -> kept_at m (ins (p - 1) t j) = true ->
                 (lo <= bget v (c :: ins (p - 1) t j) <= hi)%Q) ->
      (lo <= tat (OpsC20.rd 0%Q r) (c :: j) <= hi)%Q.
Proof.
  intros expf W b dim qs ks q k v m p Hpos Hax Hfl.
  apply (Tie.run_in_kept_range expf (score (fun x => x) (General W b))); [|exact Hpos].
  intros out. apply Tie.forward_general_tie; assumption.
Qed.
Print Assumptions c20_source_general_in_kept_range.

(* where the model rejects, the interpreted source raises (any score class, any mask; the exception comes out of
   the translated check_input, before the score method is reached).  NOT covered: dim = -1 (check_input's test
   reads `key_dim == -1`, so -1 itself is not rejected there; the model, like the documentation, rejects it - no
   generated case uses it), and the failures of the mask / value broadcasts. *)
Theorem c20_source_forward_rejects_rank :
  forall expf cls d (q k v : tensor Q) (m : option (tensor bool)),
  S (length (tshape q)) <> length (tshape k) ->
  exists st,
    SrcRun.run_forward expf cls (Syntax.VDict d) (SrcRun.flat q) (SrcRun.flat k) (SrcRun.flat v) (option_map SrcRun.flat m)
    = Interp.Exc SrcRun.value_error st.
Proof. exact Tie.forward_rejects_rank. Qed.
Print Assumptions c20_source_forward_rejects_rank.

Theorem c20_source_forward_rejects_dim :
  forall expf cls d dim qs ks (q k v : tensor Q) (m : option (tensor bool)),
  Interp.dict_get d (Syntax.VStr Tie.attr_dim) = Some (Syntax.VInt dim) ->
  Interp.dict_get d (Syntax.VStr Tie.attr_query_size) = Some (Syntax.VInt (Z.of_nat qs)) ->
  Interp.dict_get d (Syntax.VStr Tie.attr_key_size) = Some (Syntax.VInt (Z.of_nat ks)) ->
  forall sq' sk',
  S (length (tshape q)) = length (tshape k) -> length (tshape v) = length (tshape k) ->
  tshape q = qs :: sq' -> tshape k = ks :: sk' ->
  axis_pos dim (length (tshape k)) = None -> dim <> (-1)%Z ->
  exists st,
    SrcRun.run_forward expf cls (Syntax.VDict d) (SrcRun.flat q) (SrcRun.flat k) (SrcRun.flat v) (option_map SrcRun.flat m)
    = Interp.Exc SrcRun.value_error st.
Proof. exact Tie.forward_rejects_dim. Qed.
Print Assumptions c20_source_forward_rejects_dim.

Theorem c20_source_forward_rejects_bcast :
  forall expf cls d dim qs ks (q k v : tensor Q) (m : option (tensor bool)),
  Interp.dict_get d (Syntax.VStr Tie.attr_dim) = Some (Syntax.VInt dim) ->
  Interp.dict_get d (Syntax.VStr Tie.attr_query_size) = Some (Syntax.VInt (Z.of_nat qs)) ->
  Interp.dict_get d (Syntax.VStr Tie.attr_key_size) = Some (Syntax.VInt (Z.of_nat ks)) ->
  forall p sq' sk',
  S (length (tshape q)) = length (tshape k) -> length (tshape v) = length (tshape k) ->
  tshape q = qs :: sq' -> tshape k = ks :: sk' ->
  axis_pos dim (length (tshape k)) = Some p ->
  bshape (tl (tshape (unsq p q))) (tl (tshape k)) = None ->
  exists st,
    SrcRun.run_forward expf cls (Syntax.VDict d) (SrcRun.flat q) (SrcRun.flat k) (SrcRun.flat v) (option_map SrcRun.flat m)
    = Interp.Exc SrcRun.runtime_error st.
Proof. exact Tie.forward_rejects_bcast. Qed.
Print Assumptions c20_source_forward_rejects_bcast.

(* non-vacuity: the interpreted source on the concrete masked, batched input of c20_nonvacuous (dim 0; dim -3 is out
   of the documented range for a rank-3 key: ValueError; a generalised score 2 k + 1) returns the model's tensor *)
Example c20_source_nonvacuous :
  let expf := fun x : Q => (x * x + 1)%Q in
  let q0 := qt [1; 2] [1; -2]%Q in
  let k0 := qt [1; 2; 3] [1; 0; 2; 1; -1; 3]%Q in
  let v0 := qt [2; 2; 3] [1; 2; 3; 4; 5; 6; 7; 8; 9; 10; 11; 12]%Q in
  let m0 := Some (bt [2; 3] [true; false; true; true; false; true]) in
  SrcRun.src_attend expf (Dot 1) 1 1 0%Z q0 k0 v0 m0
  = option_map (fun o => Some (SrcRun.flat o)) (attend expf (score (fun x => x) (Dot 1)) q0 k0 v0 m0 2 1 1)
  /\ SrcRun.src_attend expf (Dot 1) 1 1 0%Z q0 k0 v0 m0
     = Some (Some (OpsC07.mkTn [2; 2] [189 # 49; 238 # 49; 97461 # 9261; 106722 # 9261]%Q))
  /\ SrcRun.src_attend expf (Dot 1) 1 1 (-3)%Z q0 k0 v0 m0 = Some None
  /\ SrcRun.src_attend expf (General [[2]]%Q (Some [1]%Q)) 1 1 0%Z q0 k0 v0 m0
     = option_map (fun o => Some (SrcRun.flat o))
                  (attend expf (score (fun x => x) (General [[2]]%Q (Some [1]%Q))) q0 k0 v0 m0 2 1 1)
  /\ Tie.legal_input q0 k0 v0 m0 2 1 1.
Proof.
  cbv zeta. split; [vm_compute; reflexivity|]. split; [vm_compute; reflexivity|]. split; [vm_compute; reflexivity|].
  split; [vm_compute; reflexivity|].
  refine (Tie.attend_legal (fun x : Q => (x * x + 1)%Q) (score (fun x => x) (Dot 1)) _ _ _ _ _ _ _ _ _).
  vm_compute. reflexivity.
Qed.

(* ---- SECOND tie to the source text: MultiHeadedAttention.forward / check_input, ConcatSoftAttention.score,
   _concat_soft_attention ------------------------------------------------------------------------------------------------
   PV.Gen.C20BSrc.{mha_forward, mha_check_input, concat_score, csa} are regenerated on every run from
   /repo/src/pydrobert/torch/_attn.py (whole bodies).  SrcRunB.ext_mha interprets `self.check_input(..)` by running the
   translated MultiHeadedAttention.check_input, `self.WQ(x)` .. `self.WC(x)` as F.linear with the layer's weight and
   optional bias (data), `self.single_head_attention(..)` by running the translated GlobalSoftAttention.forward of the first
   tie on the wrapped module (whose score method is the translated dot / general / concat body), and gives unflatten,
   flatten(-2), mask.unsqueeze(-1), size, expand, cat, squeeze, tanh the meaning of PV.MiniTorch.OpsC20B / OpsC07; exp and
   tanh are ORACLES.  `torch.jit.is_scripting()` is False (eager text).  A module object is the dictionary of its
   attributes (SrcRunB.self_mha, self_single); parameters are data.  Hypotheses: the parameter SIZES are those the
   constructors build (ModelB.mha_sizes, fl_sizes) and dim >= 0 (MultiHeadedAttention.__init__ raises ValueError for a
   wrapped module with a negative dim). *)
From PV Require MiniTorch.OpsC20B C20.ModelB Gen.C20BSrc C20.SrcRunB C20.TieB C20.TieBOps C20.TieBMha C20.TieBConcat.

(* interpreting the source of MultiHeadedAttention.forward (wrapping a dot-product, generalised or concat attention with
   parameters fl) returns exactly the tensor Model.mha computes: projections with the requested biases, head split,
   mask.unsqueeze(-1), ONE call of the wrapped forward on tensors with a head axis, flatten, W^C *)
Theorem c20_source_mha_forward_is_model :
  forall expf tanhf fl P dim qs ks vs q k v m p out,
  (0 <= dim)%Z ->
  axis_pos dim (length (tshape k)) = Some p ->
  ModelB.mha_sizes P qs ks vs = true -> fl_sizes fl (d_q P) (d_k P) = true ->
  mha expf (score tanhf fl) P q k v m p 0 qs ks vs = Some out ->
  exists st,
    SrcRunB.run_mha expf tanhf (SrcRunB.cls_of fl)
                    (SrcRunB.self_mha dim qs ks vs P (SrcRunB.self_single dim (d_q P) (d_k P) fl))
                    (SrcRun.flat q) (SrcRun.flat k) (SrcRun.flat v) (option_map SrcRun.flat m)
    = Interp.Ok (OpsC20.enc_q (SrcRun.flat out)) st.
Proof.
  intros expf tanhf fl P dim qs ks vs q k v m p out H0 Hax Hsz Hfl Hm.
  exact (TieBMha.mha_forward_tie expf tanhf (SrcRunB.cls_of fl) _ (score tanhf fl) P dim qs ks vs q k v m p out
           (TieBConcat.single_tie_fl expf tanhf fl dim (d_q P) (d_k P) Hfl) H0 Hax Hsz Hm).
Qed.
Print Assumptions c20_source_mha_forward_is_model.

(* the same for ANY wrapped module object [sha] of class [cls] whose interpreted forward is Model.attend with score sc
   (TieBMha.single_tie): the multi-headed part alone *)
Theorem c20_source_mha_forward_any_score :
  forall expf tanhf cls sha sc P dim qs ks vs q k v m p out,
  TieBMha.single_tie expf tanhf cls sha sc dim (d_q P) (d_k P) ->
  (0 <= dim)%Z ->
  axis_pos dim (length (tshape k)) = Some p ->
  ModelB.mha_sizes P qs ks vs = true ->
  mha expf sc P q k v m p 0 qs ks vs = Some out ->
  exists st,
    SrcRunB.run_mha expf tanhf cls (SrcRunB.self_mha dim qs ks vs P sha)
                    (SrcRun.flat q) (SrcRun.flat k) (SrcRun.flat v) (option_map SrcRun.flat m)
    = Interp.Ok (OpsC20.enc_q (SrcRun.flat out)) st.
Proof. exact TieBMha.mha_forward_tie. Qed.
Print Assumptions c20_source_mha_forward_any_score.

(* ... and every one of the three single-head classes has that property (dot / general: the first tie; concat: below) *)
Theorem c20_source_single_head_every_flavour :
  forall expf tanhf fl dim dq dk,
  fl_sizes fl dq dk = true ->
  TieBMha.single_tie expf tanhf (SrcRunB.cls_of fl) (SrcRunB.self_single dim dq dk fl) (score tanhf fl) dim dq dk.
Proof. exact TieBConcat.single_tie_fl. Qed.
Print Assumptions c20_source_single_head_every_flavour.

(* COMPOSED with c20_multihead_is_composition, purely about the interpreted source: on inputs of legal SHAPES
   (TieBConcat.legal_mha_input: Model.mha_legalb - ranks, feature sizes, the broadcasts of check_input - and a mask that
   expands to the score shape; no reference to the model's values) the interpreted MultiHeadedAttention.forward returns a
   tensor r, every per-head call of the wrapped attention (on that head's block of projected features, with the caller's
   mask) is accepted, and r = W^C [head_1; ...; head_H] (+ b^C) (Spec.mha_spec) at every index *)
Theorem c20_source_mha_is_composition :
  forall expf tanhf fl P dim qs ks vs q k v m p,
  (0 <= dim)%Z -> axis_pos dim (length (tshape k)) = Some p ->
  ModelB.mha_sizes P qs ks vs = true -> fl_sizes fl (d_q P) (d_k P) = true ->
  TieBConcat.legal_mha_input q k v m p qs ks vs -> seq_agree k v p ->
  exists r st,
    SrcRunB.run_mha expf tanhf (SrcRunB.cls_of fl)
                    (SrcRunB.self_mha dim qs ks vs P (SrcRunB.self_single dim (d_q P) (d_k P) fl))
                    (SrcRun.flat q) (SrcRun.flat k) (SrcRun.flat v) (option_map SrcRun.flat m)
    = Interp.Ok (OpsC20.enc_q r) st /\
    (forall h, h < num_heads P -> exists o, head expf (score tanhf fl) P q k v m p h = Some o) /\
    forall i, valid (rev (OpsC07.shp r)) i ->
      (tat (OpsC20.rd 0%Q r) i == tat (mha_spec expf (score tanhf fl) P q k v m p (tl (rev (OpsC07.shp r)))) i)%Q.
Proof.
  intros expf tanhf fl P dim qs ks vs q k v m p H0 Hax Hsz Hfl Hleg Hagree.
  destruct (TieBConcat.legal_mha expf (score tanhf fl) P _ _ _ _ _ _ _ _ Hleg) as [out Hm].
  destruct (TieBMha.mha_forward_tie expf tanhf (SrcRunB.cls_of fl) _ (score tanhf fl) P dim qs ks vs q k v m p out
              (TieBConcat.single_tie_fl expf tanhf fl dim (d_q P) (d_k P) Hfl) H0 Hax Hsz Hm) as [st Hrun].
  destruct (TieBConcat.mha_sizes_lengths _ _ _ _ Hsz) as [LQ [LK LV]].
  destruct (multihead_is_composition expf _ P q k v m p qs ks vs out Hm LQ LK LV Hagree) as [Hheads Hval].
  exists (SrcRun.flat out), st. split; [exact Hrun|]. split; [exact Hheads|].
  intros i Hv. rewrite Tie.read_flat by exact Hv. unfold SrcRun.flat in *. rewrite LemmasC20.rshp_mat in *.
  apply Hval, Hv.
Qed.
Print Assumptions c20_source_mha_is_composition.

(* composed with c20_multihead_blind_to_masked: two runs of the interpreted MultiHeadedAttention.forward on keys / values
   that differ only at masked positions return the same tensor *)
Theorem c20_source_mha_blind_to_masked :
  forall expf tanhf cls sha sc P dim qs ks vs q k v k' v' m p out out',
  TieBMha.single_tie expf tanhf cls sha sc dim (d_q P) (d_k P) ->
  (0 <= dim)%Z -> axis_pos dim (length (tshape k)) = Some p ->
  ModelB.mha_sizes P qs ks vs = true ->
  mha expf sc P q k v m p 0 qs ks vs = Some out ->
  mha expf sc P q k' v' m p 0 qs ks vs = Some out' ->
  tshape k' = tshape k -> tshape v' = tshape v -> seq_agree k v p ->
  exists r r' st st',
    SrcRunB.run_mha expf tanhf cls (SrcRunB.self_mha dim qs ks vs P sha)
                    (SrcRun.flat q) (SrcRun.flat k) (SrcRun.flat v) (option_map SrcRun.flat m) = Interp.Ok (OpsC20.enc_q r) st /\
    SrcRunB.run_mha expf tanhf cls (SrcRunB.self_mha dim qs ks vs P sha)
                    (SrcRun.flat q) (SrcRun.flat k') (SrcRun.flat v') (option_map SrcRun.flat m) = Interp.Ok (OpsC20.enc_q r') st' /\
    forall c j, valid (rev (OpsC07.shp r)) (c :: j) ->
      (forall t, t < nth p (tshape k) 0 -> kept_at m (ins (p - 1) t j) = true ->
                 brow k' (ins (p - 1) t j) = brow k (ins (p - 1) t j)
                 /\ brow v' (ins (p - 1) t j) = brow v (ins (p - 1) t j)) ->
      (tat (OpsC20.rd 0%Q r') (c :: j) == tat (OpsC20.rd 0%Q r) (c :: j))%Q.
Proof.
  intros expf tanhf cls sha sc P dim qs ks vs q k v k' v' m p out out' Hs H0 Hax Hsz Hm Hm' Ek Ev Hagree.
  assert (Hax' : axis_pos dim (length (tshape k')) = Some p) by (rewrite Ek; exact Hax).
  destruct (TieBMha.mha_forward_tie expf tanhf cls sha sc P dim qs ks vs q k v m p out Hs H0 Hax Hsz Hm) as [st Hrun].
  destruct (TieBMha.mha_forward_tie expf tanhf cls sha sc P dim qs ks vs q k' v' m p out' Hs H0 Hax' Hsz Hm')
    as [st' Hrun'].
  destruct (TieBConcat.mha_sizes_lengths _ _ _ _ Hsz) as [LQ [LK LV]].
  exists (SrcRun.flat out), (SrcRun.flat out'), st, st'. split; [exact Hrun|]. split; [exact Hrun'|].
  intros c j Hv Hsame. unfold SrcRun.flat in Hv. rewrite LemmasC20.rshp_mat in Hv.
  destruct (two_setup Hm Hm' Ek Ev LQ LK LV Hagree) as [bs [So [So' _]]].
  rewrite !Tie.read_flat by (unfold SrcRun.flat; rewrite LemmasC20.rshp_mat, ?So', <- ?So; exact Hv).
  exact (multihead_blind_to_masked expf sc P q k v k' v' m p qs ks vs out out' Hm Hm' Ek Ev LQ LK LV Hagree c j Hv Hsame).
Qed.
Print Assumptions c20_source_mha_blind_to_masked.

(* a query of the wrong rank: the translated MultiHeadedAttention.check_input raises RuntimeError out of forward *)
Theorem c20_source_mha_rejects_rank :
  forall expf tanhf cls dim qs ks vs P sha (q k v : tensor Q) (m : option (tensor bool)),
  S (length (tshape q)) <> length (tshape k) ->
  exists st,
    SrcRunB.run_mha expf tanhf cls (SrcRunB.self_mha dim qs ks vs P sha)
                    (SrcRun.flat q) (SrcRun.flat k) (SrcRun.flat v) (option_map SrcRun.flat m)
    = Interp.Exc SrcRun.runtime_error st.
Proof.
  intros expf tanhf cls dim qs ks vs P sha q k v m H. apply TieBMha.mha_run_exc. intros mt st.
  apply Tie.call_with_exc, TieB.mha_check_input_rejects_rank.
  unfold SrcRun.flat. rewrite !LemmasC20.shp_mat, !rev_length. exact H.
Qed.
Print Assumptions c20_source_mha_rejects_rank.

(* ConcatSoftAttention.score -> _concat_soft_attention (unsqueeze, broadcast_shapes, two expands, cat, linear, tanh,
   linear with v.unsqueeze(0), squeeze(-1)), interpreted, returns the model's score tensor
   e[i] = sum_c v_c tanh(W_c . [query_i ; key_i] + b_c) - weight rows of length query_size + key_size, tanh an oracle *)
Theorem c20_source_concat_score_is_model :
  forall expf tanhf W b vv dim qs ks q k v m p es ps,
  axis_pos dim (length (tshape k)) = Some p -> attend_facts q k v m p es ps ->
  hd 0 (tshape q) = qs -> hd 0 (tshape k) = ks -> fl_sizes (Concat W b vv) qs ks = true ->
  exists st,
    Interp.run (SrcRunB.ext_fn expf tanhf) C20BSrc.concat_score
               (Tie.score_vars (SrcRunB.self_concat dim qs ks W b vv) (SrcRun.flat q) (SrcRun.flat k))
    = Interp.Ok (OpsC20.enc_q (OpsC20.mat (mkT es (e_at (score tanhf (Concat W b vv)) q k p)))) st.
Proof. exact TieBConcat.concat_score_tie. Qed.
Print Assumptions c20_source_concat_score_is_model.

(* the forward pass of a ConcatSoftAttention (GlobalSoftAttention.forward with that score method) = Model.attend *)
Theorem c20_source_concat_forward_is_model :
  forall expf tanhf W b vv dim qs ks q k v m p out,
  axis_pos dim (length (tshape k)) = Some p ->
  fl_sizes (Concat W b vv) qs ks = true ->
  attend expf (score tanhf (Concat W b vv)) q k v m p qs ks = Some out ->
  exists st,
    SrcRunB.run_single expf tanhf SrcRunB.ConcatB (SrcRunB.self_concat dim qs ks W b vv)
                       (SrcRun.flat q) (SrcRun.flat k) (SrcRun.flat v) (option_map SrcRun.flat m)
    = Interp.Ok (OpsC20.enc_q (SrcRun.flat out)) st.
Proof. exact TieBConcat.forward_concat_tie. Qed.
Print Assumptions c20_source_concat_forward_is_model.

(* composed with c20_attention_in_kept_range, purely about the interpreted source (legal shapes, positive exp, ANY tanh) *)
Theorem c20_source_concat_in_kept_range :
  forall expf tanhf W b vv dim qs ks q k v m p,
  (forall x, (0 < expf x)%Q) ->
  axis_pos dim (length (tshape k)) = Some p -> fl_sizes (Concat W b vv) qs ks = true ->
  Tie.legal_input q k v m p qs ks -> seq_agree k v p ->
  exists r st,
    SrcRunB.run_single expf tanhf SrcRunB.ConcatB (SrcRunB.self_concat dim qs ks W b vv)
                       (SrcRun.flat q) (SrcRun.flat k) (SrcRun.flat v) (option_map SrcRun.flat m)
    = Interp.Ok (OpsC20.enc_q r) st /\
    forall c j lo hi, valid (rev (OpsC07.shp r)) (c :: j) ->
      (exists t, t < nth p (tshape k) 0 /\ kept_at m (ins (p - 1) t j) = true) ->
      (forall t, t < nth p (tshape k) 0 -> kept_at m (ins (p - 1) t j) = true ->
                 (lo <= bget v (c :: ins (p - 1) t j) <= hi)%Q) ->
      (lo <= tat (OpsC20.rd 0%Q r) (c :: j) <= hi)%Q.
Proof.
  intros expf tanhf W b vv dim qs ks q k v m p Hpos Hax Hfl.
  apply (Tie.run_in_kept_range expf (score tanhf (Concat W b vv))); [|exact Hpos].
  intros out. apply TieBConcat.forward_concat_tie; assumption.
Qed.
Print Assumptions c20_source_concat_in_kept_range.

(* non-vacuity: the interpreted sources on the concrete input of c20_mha_nonvacuous (2 heads, bias on W^Q only, masked) with
   a dot-product and with a concat wrapped attention, a single-head concat attention on the same data, a query of the wrong
   rank (RuntimeError), and the shape legality of the input *)
Example c20_sourceB_nonvacuous :
  let expf := fun x : Q => (x * x + 1)%Q in
  let tanhf := fun x : Q => (x / (1 + x * x))%Q in
  let P := mkMHA 2 1 1 1 [[1; 0]; [0; 1]]%Q (Some [1; 0]%Q) [[1; 0]; [0; 1]]%Q None
                 [[1; 0]; [0; 1]]%Q None [[1; 0]; [0; 1]]%Q None in
  let cfl := Concat [[1; 0]; [0; 1]; [1; 1]]%Q (Some [1; 0; 1]%Q) [1; 2; 3]%Q in
  let cfl2 := Concat [[1; 0; 1; 1]; [0; 1; 0; 1]; [1; 1; 2; 0]]%Q None [1; 2; 3]%Q in
  let q0 := qt [2; 2] [1; -2; 0; 1]%Q in
  let k0 := qt [2; 2; 3] [1; 0; 2; 1; -1; 3; 0; 0; 1; 1; 2; 2]%Q in
  let v0 := qt [2; 2; 3] [1; 2; 3; 4; 5; 6; 7; 8; 9; 10; 11; 12]%Q in
  let m0 := Some (bt [2; 3] [true; false; true; true; false; true]) in
  SrcRunB.src_mha expf tanhf (Dot 1) P 2 2 2 0%Z q0 k0 v0 m0
  = option_map (fun o => Some (SrcRun.flat o)) (mha expf (score tanhf (Dot 1)) P q0 k0 v0 m0 2 0 2 2 2)
  /\ SrcRunB.src_mha expf tanhf (Dot 1) P 2 2 2 0%Z q0 k0 v0 m0
     = Some (Some (OpsC07.mkTn [2; 2] [75 # 25; 53200 # 9025; 279 # 27; 8262 # 729]%Q))
  /\ SrcRunB.src_mha expf tanhf cfl P 2 2 2 0%Z q0 k0 v0 m0
     = option_map (fun o => Some (SrcRun.flat o)) (mha expf (score tanhf cfl) P q0 k0 v0 m0 2 0 2 2 2)
  /\ SrcRunB.src_single expf tanhf cfl2 2 2 0%Z q0 k0 v0 m0
     = option_map (fun o => Some (SrcRun.flat o)) (attend expf (score tanhf cfl2) q0 k0 v0 m0 2 2 2)
  /\ SrcRunB.src_mha expf tanhf (Dot 1) P 2 2 2 0%Z k0 k0 v0 m0 = Some None
  /\ ModelB.mha_sizes P 2 2 2 = true
  /\ TieBConcat.legal_mha_input q0 k0 v0 m0 2 2 2 2.
Proof.
  cbv zeta. split; [vm_compute; reflexivity|]. split; [vm_compute; reflexivity|]. split; [vm_compute; reflexivity|].
  split; [vm_compute; reflexivity|]. split; [vm_compute; reflexivity|]. split; [reflexivity|].
  split; [vm_compute; reflexivity|].
  intros es H. vm_compute in H. injection H as <-. reflexivity.
Qed.
