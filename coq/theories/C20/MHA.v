(* C20 — multi-headed attention = project, wrapped attention per head, concatenate, project. *)
From Coq Require Import List Arith Bool ZArith QArith Lia Lqa Setoid Morphisms.
From PV Require Import C20.Model C20.Spec C20.Sums C20.Index C20.Proofs C20.Broadcast.
Import ListNotations.
Local Open Scope nat_scope.

(* ---------- small facts ------------------------------------------------------------------ *)
Lemma clamp1_lt n c : c < n -> (if Nat.eqb n 1 then 0 else c) = c.
Proof. intros H. destruct (Nat.eqb n 1) eqn:E; [apply Nat.eqb_eq in E; lia|reflexivity]. Qed.

Lemma intob_trans a : forall b c, intob a b = true -> intob b c = true -> intob a c = true.
Proof.
  induction a as [|x a IH]; intros b c H1 H2; [apply intob_nil|].
  destruct b as [|y b]; [discriminate|]. destruct c as [|z c]; [discriminate|].
  cbn in *. apply andb_true_iff in H1. destruct H1 as [X1 Y1].
  apply andb_true_iff in H2. destruct H2 as [X2 Y2].
  rewrite (IH b c Y1 Y2), andb_true_r.
  apply orb_true_iff in X1. apply orb_true_iff in X2. apply orb_true_iff.
  destruct X1 as [X1|X1]; apply Nat.eqb_eq in X1; [|right; apply Nat.eqb_eq; exact X1].
  subst y. destruct X2 as [X2|X2]; [left|right]; exact X2.
Qed.

Lemma linear_shape W b t : tshape (linear W b t) = length W :: tl (tshape t).
Proof. reflexivity. Qed.
Lemma unflatten_shape H d t : tshape (unflatten_last H d t) = d :: H :: tl (tshape t).
Proof. reflexivity. Qed.
Lemma head_slice_shape h d t : tshape (head_slice h d t) = d :: tl (tshape t).
Proof. reflexivity. Qed.

(* reading one feature of one head: the un-flattened projection vs the head's slice *)
Lemma heads_read W b t H d h c I :
  length W = H * d -> h < H -> c < d ->
  valid (tl (tshape t)) (clamp (tl (tshape t)) I) ->
  bget (unflatten_last H d (memo 0%Q (linear W b t))) (c :: h :: I)
  = bget (head_slice h d (linear W b t)) (c :: I).
Proof.
  intros HW Hh Hc Hv. unfold bget.
  rewrite unflatten_shape, head_slice_shape, memo_shape, linear_shape. cbn [tl clamp].
  rewrite (clamp1_lt d c Hc), (clamp1_lt H h Hh).
  cbn [unflatten_last head_slice tat].
  rewrite memo_at; [reflexivity|].
  rewrite linear_shape. apply valid_cons; [nia|exact Hv].
Qed.

Lemma heads_row W b t H d h I :
  length W = H * d -> h < H ->
  valid (tl (tshape t)) (clamp (tl (tshape t)) I) ->
  brow (unflatten_last H d (memo 0%Q (linear W b t))) (h :: I)
  = brow (head_slice h d (linear W b t)) I.
Proof.
  intros HW Hh Hv. unfold brow. rewrite unflatten_shape, head_slice_shape. cbn [hd].
  apply map_ext_in. intros c Hc. apply in_seq in Hc. apply heads_read; try assumption. lia.
Qed.

Lemma del_clamp pe : forall s I, del pe (clamp s I) = clamp (del pe s) (del pe I).
Proof.
  induction pe as [|pe IH]; intros s I.
  - destruct s as [|n s]; [destruct I; reflexivity|].
    destruct I as [|x I]; [cbn [clamp]; destruct s; reflexivity|]. cbn [clamp]. rewrite !del_0. reflexivity.
  - destruct s as [|n s]; [destruct I; reflexivity|].
    destruct I as [|x I]; [reflexivity|]. cbn [clamp]. rewrite !del_S. cbn [clamp]. rewrite IH. reflexivity.
Qed.

Lemma dotq_ext a a' b : Forall2 Qeq a a' -> (dotq a b == dotq a' b)%Q.
Proof.
  intros H. unfold dotq. rewrite !qsum_psum. revert b.
  induction H as [|x x' a a' Hx _ IH]; intros b; [reflexivity|].
  destruct b as [|y b]; [reflexivity|]. cbn [vmul combine map psum fst snd].
  fold (vmul a b). fold (vmul a' b). rewrite Hx, IH. reflexivity.
Qed.

Lemma Forall2_map_ext {A} (f g : A -> Q) l :
  (forall j, In j l -> (f j == g j)%Q) -> Forall2 Qeq (map f l) (map g l).
Proof.
  induction l as [|a l IH]; intros H; cbn; constructor.
  - apply H. left. reflexivity.
  - apply IH. intros j Hj. apply H. right. exact Hj.
Qed.

Lemma linear_congr W b (T T' : tensor Q) c i :
  hd 0 (tshape T') = hd 0 (tshape T) ->
  (forall j, j < hd 0 (tshape T) -> (tat T' (j :: i) == tat T (j :: i))%Q) ->
  (tat (linear W b T') (c :: i) == tat (linear W b T) (c :: i))%Q.
Proof.
  intros Hs H. cbn [linear tat]. rewrite Hs.
  assert (Hrow : Forall2 Qeq (map (fun j => tat T' (j :: i)) (seq 0 (hd 0 (tshape T))))
                             (map (fun j => tat T (j :: i)) (seq 0 (hd 0 (tshape T))))).
  { apply Forall2_map_ext. intros j Hj. apply in_seq in Hj. apply H. lia. }
  destruct b as [bl|]; [rewrite (dotq_ext _ _ _ Hrow); reflexivity|apply dotq_ext, Hrow].
Qed.

Lemma bshape_cons_same n a b r' :
  bshape (n :: a) (n :: b) = Some r' -> exists r, bshape a b = Some r /\ r' = n :: r.
Proof.
  rewrite bshape_cons. destruct (bshape a b) as [r|]; [|discriminate].
  unfold bdim. rewrite Nat.eqb_refl. intros H. injection H as <-. exists r. split; reflexivity.
Qed.

Lemma mha_inv expf sc P q k v m p mpos qs ks vs out :
  mha expf sc P q k v m p mpos qs ks vs = Some out ->
  mha_legalb q k v m p qs ks vs = true /\
  exists cat,
    attend expf sc (q_heads P q) (k_heads P k) (v_heads P v) (mask_heads m mpos) (S p) (d_q P) (d_k P) = Some cat
    /\ out = linear (WC P) (bC P) (flatten_last2 cat).
Proof.
  unfold mha. destruct (mha_legalb q k v m p qs ks vs); [|discriminate].
  destruct (attend _ _ _ _ _ _ _ _ _) as [cat|]; [|discriminate].
  intros H. injection H as <-. split; [reflexivity|]. exists cat. split; reflexivity.
Qed.
Arguments mha_inv {expf sc P q k v m p mpos qs ks vs out} _.

Lemma mha_legal_inv P q k v m p qs ks vs : mha_legalb q k v m p qs ks vs = true ->
  exists sq' sk' sv' es ps,
    tshape q = qs :: sq' /\ tshape k = ks :: sk' /\ tshape v = vs :: sv' /\
    tshape (q_heads P q) = d_q P :: num_heads P :: sq' /\
    tshape (k_heads P k) = d_k P :: num_heads P :: sk' /\
    tshape (v_heads P v) = d_v P :: num_heads P :: sv' /\
    S (length sq') = length sk' /\ length sv' = length sk' /\ 1 <= p /\ p <= length sk' /\
    bshape (ins (p - 1) 1 sq') sk' = Some es /\
    match m with None => True | Some mt => exists ms, bshape es (tshape mt) = Some ms end /\
    bshape (1 :: es) (tshape v) = Some ps.
Proof.
  unfold mha_legalb, q_heads, k_heads, v_heads. rewrite !unflatten_shape, !memo_shape, !linear_shape.
  rewrite !andb_true_iff. intros [[[[[[[Hqr Hvr] Hq] Hk] Hv] Hp1] Hpk] Hb].
  apply Nat.eqb_eq in Hqr, Hvr, Hq, Hk, Hv. apply Nat.leb_le in Hp1. apply Nat.ltb_lt in Hpk.
  destruct (tshape q) as [|fq sq'] eqn:Eq; [cbn in Hqr; lia|].
  destruct (tshape k) as [|fk sk'] eqn:Ek; [cbn in Hpk; lia|].
  destruct (tshape v) as [|fv sv'] eqn:Ev; [cbn in Hvr; lia|].
  cbn [hd] in Hq, Hk, Hv. subst fq fk fv. cbn [length] in Hqr, Hvr, Hpk.
  rewrite unsq_shape, Eq in Hb. replace p with (S (p - 1)) in Hb at 1 by lia. rewrite ins_S in Hb. cbn [tl] in Hb.
  destruct (bshape (ins (p - 1) 1 sq') sk') as [es|] eqn:Ees; [|discriminate].
  apply andb_true_iff in Hb. destruct Hb as [Hm Hps].
  destruct (bshape (1 :: es) (vs :: sv')) as [ps|] eqn:Eps; [|discriminate].
  exists sq', sk', sv', es, ps. repeat split; try reflexivity; try lia; try assumption.
  destruct m as [mt|]; [|exact I]. destruct (bshape es (tshape mt)) as [ms|]; [|discriminate]. eexists; reflexivity.
Qed.

(* The wrapped attention called on tensors with a head axis H (one place right of the sequence axis): the broadcasts
   it performs are those of the batch shapes without H, and H stays in the result. *)
Lemma heads_attend_inv expf sc qh kh vh m pe dq dk cat H dv sq sk sv :
  attend expf sc qh kh vh (mask_heads m 0) (S (S pe)) dq dk = Some cat ->
  tshape qh = dq :: H :: sq -> tshape kh = dk :: H :: sk -> tshape vh = dv :: H :: sv ->
  exists es0 r,
    bshape (ins pe 1 sq) sk = Some es0 /\ bshape es0 sv = Some r /\
    (match m with None => true | Some mt => intob (tshape mt) es0 end) = true /\
    tshape cat = dv :: H :: del pe r.
Proof.
  intros Hcat Eq Ek Ev. destruct (attend_inv Hcat) as [es [ps [F ->]]].
  pose proof (af_es F) as Ees. rewrite unsq_shape, Eq, Ek, !ins_S in Ees. cbn [tl] in Ees.
  destruct (bshape_cons_same _ _ _ _ Ees) as [es0 [Ees0 ->]].
  pose proof (af_ps F) as Eps. rewrite Ev, bshape_cons in Eps.
  destruct (bshape (H :: es0) (H :: sv)) as [r'|] eqn:Er'; [|discriminate].
  destruct (bshape_cons_same _ _ _ _ Er') as [r [Er ->]].
  rewrite bdim_one_l in Eps. injection Eps as <-.
  exists es0, r. split; [exact Ees0|]. split; [exact Er|]. split.
  - pose proof (af_mask F) as Em. destruct m as [mt|]; [|reflexivity]. cbn [mask_heads] in Em.
    rewrite unsq_shape, ins_0 in Em. cbn [intob] in Em. apply andb_true_iff in Em. apply Em.
  - rewrite memo_shape. cbn [tshape]. rewrite !del_S. reflexivity.
Qed.
Arguments heads_attend_inv {expf sc qh kh vh m pe dq dk cat H dv sq sk sv} _ _ _ _.

(* One coordinate of one head: the wrapped attention called once on the tensors with a head axis computes, at head h,
   what it computes on the h-th slices alone (both are the same weighted average, read through the same rows). *)
Lemma head_cell expf sc P q k v m pe fq fk fv qs' ks' vs' es0 r cat o h c' i :
  tshape q = fq :: qs' -> tshape k = fk :: ks' -> tshape v = fv :: vs' ->
  length (WQ P) = num_heads P * d_q P -> length (WK P) = num_heads P * d_k P -> length (WV P) = num_heads P * d_v P ->
  S (length qs') = length ks' -> length vs' = length ks' -> pe < length ks' -> nth pe vs' 0 = nth pe ks' 0 ->
  bshape (ins pe 1 qs') ks' = Some es0 -> bshape es0 vs' = Some r ->
  attend expf sc (q_heads P q) (k_heads P k) (v_heads P v) (mask_heads m 0) (S (S pe)) (d_q P) (d_k P) = Some cat ->
  tshape cat = d_v P :: num_heads P :: del pe r ->
  attend expf sc (head_slice h (d_q P) (linear (WQ P) (bQ P) q)) (head_slice h (d_k P) (linear (WK P) (bK P) k))
         (head_slice h (d_v P) (linear (WV P) (bV P) v)) m (S pe) (d_q P) (d_k P) = Some o ->
  tshape o = d_v P :: del pe r ->
  h < num_heads P -> c' < d_v P -> valid (del pe r) i ->
  (tat cat (c' :: h :: i) == tat o (c' :: i))%Q.
Proof.
  intros Eq Ek Ev HWQ HWK HWV Hqr Hvr Hpks Hag0 Ees0 Er Hcat Scat Ho So Hh Hc' Hi.
  assert (Hpq : pe <= length qs') by lia.
  set (H := num_heads P) in *. set (dq := d_q P) in *. set (dk := d_k P) in *. set (dv := d_v P) in *.
  set (qsl := head_slice h dq (linear (WQ P) (bQ P) q)) in *.
  set (ksl := head_slice h dk (linear (WK P) (bK P) k)) in *.
  set (vsl := head_slice h dv (linear (WV P) (bV P) v)) in *.
  assert (Sqh : tshape (q_heads P q) = dq :: H :: qs').
  { unfold q_heads. rewrite unflatten_shape, memo_shape, linear_shape, Eq. reflexivity. }
  assert (Skh : tshape (k_heads P k) = dk :: H :: ks').
  { unfold k_heads. rewrite unflatten_shape, memo_shape, linear_shape, Ek. reflexivity. }
  assert (Svh : tshape (v_heads P v) = dv :: H :: vs').
  { unfold v_heads. rewrite unflatten_shape, memo_shape, linear_shape, Ev. reflexivity. }
  assert (Sqs : tshape qsl = dq :: qs') by (unfold qsl; rewrite head_slice_shape, linear_shape, Eq; reflexivity).
  assert (Sks : tshape ksl = dk :: ks') by (unfold ksl; rewrite head_slice_shape, linear_shape, Ek; reflexivity).
  assert (Svs : tshape vsl = dv :: vs') by (unfold vsl; rewrite head_slice_shape, linear_shape, Ev; reflexivity).
  assert (Hag' : seq_agree (k_heads P k) (v_heads P v) (S (S pe))) by (unfold seq_agree; rewrite Skh, Svh; exact Hag0).
  assert (Hagh : seq_agree ksl vsl (S pe)) by (unfold seq_agree; rewrite Sks, Svs; exact Hag0).
  assert (Ik : intob ks' es0 = true) by apply (bshape_into _ _ _ Ees0).
  assert (Iq : intob (ins pe 1 qs') es0 = true) by apply (bshape_into _ _ _ Ees0).
  assert (Ie : intob es0 r = true) by apply (bshape_into _ _ _ Er).
  assert (Iv : intob vs' r = true) by apply (bshape_into _ _ _ Er).
  assert (Vcat : valid (tshape cat) (c' :: h :: i)) by (rewrite Scat; repeat apply valid_cons; assumption).
  assert (Vo : valid (tshape o) (c' :: i)) by (rewrite So; apply valid_cons; assumption).
  rewrite (attend_cell Hcat Hag' _ _ Vcat).
  rewrite (attend_cell Ho Hagh _ _ Vo).
  rewrite Skh, Sks. cbn [nth].
  replace (S (S pe) - 1) with (S pe) by lia. replace (S pe - 1) with pe by lia.
  set (T := nth pe ks' 0).
  assert (Les0 : length es0 = length ks').
  { pose proof (bshape_length _ _ _ Ees0) as L0. rewrite ins_shape_length in L0. lia. }
  assert (Lr : length r = length ks') by (rewrite (bshape_length _ _ _ Er); lia).
  assert (Hes0T : nth pe es0 0 = T).
  { apply (bshape_nth_one _ _ _ pe Ees0); [apply nth_ins, Hpq|exact Hpks]. }
  assert (HrT : nth pe r 0 = T).
  { rewrite (bshape_nth_same _ _ _ pe Er); [exact Hag0|rewrite Hag0; exact Hes0T|lia|lia]. }
  assert (Vr : forall t, t < T -> valid r (ins pe t i)).
  { intros t Ht. apply valid_ins; [lia|exact Hi|rewrite HrT; exact Ht]. }
  assert (Vk : forall t, t < T -> valid ks' (clamp ks' (ins pe t i))).
  { intros t Ht. apply (clamp_valid _ r); [apply (intob_trans _ es0); assumption|apply Vr, Ht]. }
  assert (Vv : forall t, t < T -> valid vs' (clamp vs' (ins pe t i))).
  { intros t Ht. apply (clamp_valid _ r); [exact Iv|apply Vr, Ht]. }
  assert (Vq : forall t, t < T -> valid qs' (clamp qs' (del pe (ins pe t i)))).
  { intros t Ht. apply (clamp_valid _ (del pe r)).
    - apply (intob_trans _ (del pe es0)); [|apply intob_del, Ie].
      pose proof (intob_del pe _ _ Iq) as X. rewrite del_ins in X by exact Hpq. exact X.
    - apply valid_del, Vr, Ht. }
  assert (Rk : forall t, t < T -> brow (k_heads P k) (h :: ins pe t i) = brow ksl (ins pe t i)).
  { intros t Ht. unfold k_heads, ksl. apply heads_row; [exact HWK|exact Hh|].
    rewrite Ek. cbn [tl]. apply Vk, Ht. }
  assert (Rq : forall t, t < T ->
             brow (unsq (S (S pe)) (q_heads P q)) (h :: ins pe t i) = brow (unsq (S pe) qsl) (ins pe t i)).
  { intros t Ht. unfold brow. rewrite !unsq_shape, Sqh, Sqs, !ins_S. cbn [hd].
    apply map_ext_in. intros c Hc. apply in_seq in Hc.
    rewrite !bget_unsq by (rewrite ?Sqh, ?Sqs; cbn [length]; lia).
    rewrite !del_S. unfold q_heads, qsl. apply heads_read; [exact HWQ|exact Hh|lia|].
    rewrite Eq. cbn [tl]. apply Vq, Ht. }
  assert (Rv : forall t, t < T ->
             bget (v_heads P v) (c' :: h :: ins pe t i) = bget vsl (c' :: ins pe t i)).
  { intros t Ht. unfold v_heads, vsl. apply heads_read; [exact HWV|exact Hh|exact Hc'|].
    rewrite Ev. cbn [tl]. apply Vv, Ht. }
  assert (Rm : forall I, kept_at (mask_heads m 0) (h :: I) = kept_at m I).
  { intros I. destruct m as [mt|]; [|reflexivity]. cbn [mask_heads kept_at].
    rewrite bget_unsq by lia. rewrite del_0. reflexivity. }
  assert (Hw : forall t, In t (seq 0 T) ->
             wfun expf sc (q_heads P q) (k_heads P k) (mask_heads m 0) (S (S pe)) (h :: i) t
             = wfun expf sc qsl ksl m (S pe) i t).
  { intros t Ht. apply in_seq in Ht. unfold wfun.
    replace (S (S pe) - 1) with (S pe) by lia. replace (S pe - 1) with pe by lia.
    rewrite ins_S, Rm. destruct (kept_at m (ins pe t i)); [|reflexivity].
    unfold e_at, qu. rewrite Rq, Rk by lia. reflexivity. }
  apply wavg_ext.
  - intros t Ht. rewrite (Hw t Ht). reflexivity.
  - intros t Ht. rewrite (Hw t Ht). apply in_seq in Ht. rewrite ins_S, Rv by lia. reflexivity.
Qed.

(* ---------- the theorem -------------------------------------------------------------------- *)
Lemma multihead_is_composition_strong expf sc P q k v m p qs ks vs out :
  mha expf sc P q k v m p 0 qs ks vs = Some out ->
  length (WQ P) = num_heads P * d_q P ->
  length (WK P) = num_heads P * d_k P ->
  length (WV P) = num_heads P * d_v P ->
  seq_agree k v p ->
  exists bs,
    tshape out = length (WC P) :: bs /\
    (forall h, exists o, head expf sc P q k v m p h = Some o /\ tshape o = d_v P :: bs) /\
    (forall i, valid (tshape out) i ->
               (tat out i == tat (mha_spec expf sc P q k v m p bs) i)%Q).
Proof.
  intros Hm HWQ HWK HWV Hagree.
  destruct (mha_inv Hm) as [Hleg [cat [Hcat ->]]].
  destruct (mha_legal_inv P _ _ _ _ _ _ _ _ Hleg)
    as [qs' [ks' [vs' [_ [_ [Eq [Ek [Ev [Sqh [Skh [Svh [Hqr [Hvr [Hp1 [Hpk _]]]]]]]]]]]]]]].
  set (H := num_heads P) in *. set (dq := d_q P) in *. set (dk := d_k P) in *. set (dv := d_v P) in *.
  destruct p as [|pe]; [lia|]. clear Hp1 Hleg.
  assert (Hpks : pe < length ks') by lia.
  destruct (heads_attend_inv Hcat Sqh Skh Svh) as [es0 [r [Ees0 [Er [Emask Scat]]]]].
  (* every head's own call succeeds *)
  set (qsl := fun h => head_slice h dq (linear (WQ P) (bQ P) q)).
  set (ksl := fun h => head_slice h dk (linear (WK P) (bK P) k)).
  set (vsl := fun h => head_slice h dv (linear (WV P) (bV P) v)).
  assert (Sqs : forall h, tshape (qsl h) = dq :: qs') by (intros; unfold qsl; rewrite head_slice_shape, linear_shape, Eq; reflexivity).
  assert (Sks : forall h, tshape (ksl h) = dk :: ks') by (intros; unfold ksl; rewrite head_slice_shape, linear_shape, Ek; reflexivity).
  assert (Svs : forall h, tshape (vsl h) = dv :: vs') by (intros; unfold vsl; rewrite head_slice_shape, linear_shape, Ev; reflexivity).
  assert (Hhead : forall h, exists o,
             attend expf sc (qsl h) (ksl h) (vsl h) m (S pe) dq dk = Some o /\ tshape o = dv :: del pe r).
  { intros h. unfold attend, legalb. rewrite Sqs, Sks, Svs. cbn [length hd].
    rewrite !Nat.eqb_refl.
    replace (Nat.eqb (S (S (length qs'))) (S (length ks'))) with true by (symmetry; apply Nat.eqb_eq; lia).
    replace (Nat.eqb (S (length vs')) (S (length ks'))) with true by (symmetry; apply Nat.eqb_eq; lia).
    replace (Nat.ltb (S pe) (S (length ks'))) with true by (symmetry; apply Nat.ltb_lt; lia).
    cbn [andb Nat.leb]. unfold qu. rewrite unsq_shape, Sqs, ins_S. cbn [tl].
    rewrite Ees0, Emask. rewrite bshape_cons, Er, bdim_one_l.
    eexists. split; [reflexivity|]. rewrite memo_shape. cbn [tshape]. rewrite del_S. reflexivity. }
  assert (Sout : tshape (linear (WC P) (bC P) (flatten_last2 cat)) = length (WC P) :: del pe r).
  { rewrite linear_shape. unfold flatten_last2. cbn [tshape]. rewrite Scat. reflexivity. }
  exists (del pe r). split; [exact Sout|]. split; [exact Hhead|]. rewrite Sout.
  assert (Hag0 : nth pe vs' 0 = nth pe ks' 0).
  { unfold seq_agree in Hagree. rewrite Ev, Ek in Hagree. exact Hagree. }
  (* the final projection reads the concatenation feature j at head j / dv, coordinate j mod dv *)
  intros idx Hidx. destruct idx as [|c i]; [inversion Hidx|].
  apply valid_cons_inv in Hidx. destruct Hidx as [Hc Hi].
  unfold mha_spec. apply linear_congr.
  - cbn [flatten_last2 heads_cat tshape hd]. rewrite Scat. reflexivity.
  - cbn [heads_cat tshape hd]. fold H. fold dv. intros j Hj.
    assert (Hdv : dv <> 0) by (intros Z; rewrite Z in Hj; lia).
    assert (Hh : j / dv < H) by (apply Nat.div_lt_upper_bound; [exact Hdv|lia]).
    assert (Hc' : j mod dv < dv) by (apply Nat.mod_upper_bound; exact Hdv).
    unfold flatten_last2, heads_cat. cbn [tat]. rewrite Scat. cbn [hd]. fold dv.
    unfold head. fold dq. fold dk. fold dv. fold (qsl (j / dv)). fold (ksl (j / dv)). fold (vsl (j / dv)).
    destruct (Hhead (j / dv)) as [o [Ho So]]. rewrite Ho.
    exact (head_cell expf sc P q k v m pe _ _ _ qs' ks' vs' es0 r cat o _ _ i Eq Ek Ev HWQ HWK HWV Hqr Hvr Hpks Hag0
             Ees0 Er Hcat Scat Ho So Hh Hc' Hi).
Qed.
Arguments multihead_is_composition_strong {expf sc P q k v m p qs ks vs out} _ _ _ _ _.

Lemma multihead_is_composition expf sc P q k v m p qs ks vs out :
  mha expf sc P q k v m p 0 qs ks vs = Some out ->
  length (WQ P) = num_heads P * d_q P ->
  length (WK P) = num_heads P * d_k P ->
  length (WV P) = num_heads P * d_v P ->
  seq_agree k v p ->
  (forall h, h < num_heads P -> exists o, head expf sc P q k v m p h = Some o) /\
  (forall i, valid (tshape out) i ->
             (tat out i == tat (mha_spec expf sc P q k v m p (tl (tshape out))) i)%Q).
Proof.
  intros Hm HQ HK HV Ha.
  destruct (multihead_is_composition_strong Hm HQ HK HV Ha) as [bs [So [Hh Heq]]].
  split.
  - intros h _. destruct (Hh h) as [o [Ho _]]. exists o. exact Ho.
  - intros i Hi. replace (tl (tshape out)) with bs by (rewrite So; reflexivity). apply Heq, Hi.
Qed.
