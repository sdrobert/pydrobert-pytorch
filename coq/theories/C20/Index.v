(* C20 — lemmas about shapes, indices, broadcasting and materialised tensors. *)
From Coq Require Import List Arith Bool ZArith QArith Lia.
From PV Require Import C20.Model C20.Spec.
Import ListNotations.
Local Open Scope nat_scope.

(* ---------- valid ------------------------------------------------------------------- *)
Lemma valid_length s i : valid s i -> length i = length s.
Proof. induction 1; cbn; congruence. Qed.

Lemma valid_cons_inv n s x i : valid (n :: s) (x :: i) -> x < n /\ valid s i.
Proof. intros H; inversion H; subst; split; assumption. Qed.

Lemma valid_cons n s x i : x < n -> valid s i -> valid (n :: s) (x :: i).
Proof. intros; constructor; assumption. Qed.

(* ---------- ins / setp / del --------------------------------------------------------- *)
Lemma ins_0 t i : ins 0 t i = t :: i.
Proof. reflexivity. Qed.
Lemma ins_S p t x i : ins (S p) t (x :: i) = x :: ins p t i.
Proof. reflexivity. Qed.
Lemma setp_0 t x i : setp 0 t (x :: i) = t :: i.
Proof. reflexivity. Qed.
Lemma setp_S p t x i : setp (S p) t (x :: i) = x :: setp p t i.
Proof. reflexivity. Qed.
Lemma del_0 x s : del 0 (x :: s) = s.
Proof. reflexivity. Qed.
Lemma del_S p x s : del (S p) (x :: s) = x :: del p s.
Proof. reflexivity. Qed.

Lemma del_length p (s : list nat) : p < length s -> length (del p s) = length s - 1.
Proof.
  intros H. unfold del. rewrite app_length, firstn_length, skipn_length. lia.
Qed.

Lemma del_ins p t i : p <= length i -> del p (ins p t i) = i.
Proof.
  revert i; induction p as [|p IH]; intros i H; [reflexivity|].
  destruct i as [|x i]; [cbn in H; lia|].
  rewrite ins_S, del_S, IH by (cbn in H; lia). reflexivity.
Qed.

Lemma nth_ins p t i : p <= length i -> nth p (ins p t i) 0 = t.
Proof.
  revert i; induction p as [|p IH]; intros i H; [reflexivity|].
  destruct i as [|x i]; [cbn in H; lia|]. rewrite ins_S. cbn [nth]. apply IH. cbn in H; lia.
Qed.

Lemma valid_ins p : forall s i t,
  p < length s -> valid (del p s) i -> t < nth p s 0 -> valid s (ins p t i).
Proof.
  induction p as [|p IH]; intros s i t Hp Hv Ht.
  - destruct s as [|n s]; [cbn in Hp; lia|]. rewrite del_0 in Hv. rewrite ins_0.
    apply valid_cons; assumption.
  - destruct s as [|n s]; [cbn in Hp; lia|]. rewrite del_S in Hv.
    destruct i as [|x i]; [inversion Hv|].
    apply valid_cons_inv in Hv. destruct Hv as [Hx Hv].
    rewrite ins_S. apply valid_cons; [exact Hx|].
    apply IH; [cbn in Hp; lia|exact Hv|exact Ht].
Qed.

Lemma valid_setp p : forall s i t,
  valid s i -> t < nth p s 0 -> valid s (setp p t i).
Proof.
  induction p as [|p IH]; intros s i t Hv Ht.
  - destruct Hv as [|x n i s Hx Hv]; [cbn in Ht; lia|]. rewrite setp_0. apply valid_cons; assumption.
  - destruct Hv as [|x n i s Hx Hv]; [cbn in Ht; lia|]. rewrite setp_S.
    apply valid_cons; [exact Hx|]. apply IH; assumption.
Qed.

Lemma valid_del p : forall s i, valid s i -> valid (del p s) (del p i).
Proof.
  induction p as [|p IH]; intros s i Hv.
  - destruct Hv; [constructor|]. rewrite !del_0. assumption.
  - destruct Hv as [|x n i s Hx Hv]; [constructor|]. rewrite !del_S.
    apply valid_cons; [exact Hx|apply IH; exact Hv].
Qed.

Lemma ins_del p : forall i, p < length i -> ins p (nth p i 0) (del p i) = i.
Proof.
  induction p as [|p IH]; intros i H.
  - destruct i; [cbn in H; lia|]. reflexivity.
  - destruct i as [|x i]; [cbn in H; lia|]. rewrite del_S, ins_S. cbn [nth].
    rewrite IH by (cbn in H; lia). reflexivity.
Qed.

(* ---------- clamp / into ------------------------------------------------------------- *)
Lemma intob_refl s : intob s s = true.
Proof. induction s as [|x s IH]; cbn; [reflexivity|]. rewrite Nat.eqb_refl, IH. reflexivity. Qed.

Lemma intob_nil s : intob [] s = true.
Proof. destruct s; reflexivity. Qed.

Lemma intob_length s' s : intob s' s = true -> length s' <= length s.
Proof.
  revert s; induction s' as [|x a IH]; intros s H; cbn; [lia|].
  destruct s as [|y b]; [discriminate|]. cbn in H.
  apply andb_true_iff in H. destruct H as [_ H]. apply IH in H. cbn. lia.
Qed.

Lemma clamp_into s' : forall s i, intob s' s = true -> clamp s' (clamp s i) = clamp s' i.
Proof.
  induction s' as [|x a IH]; intros s i H; [reflexivity|].
  destruct s as [|y b]; [discriminate|].
  destruct i as [|z i]; [reflexivity|].
  cbn in H. apply andb_true_iff in H. destruct H as [Hxy Hab].
  cbn [clamp]. rewrite (IH b i Hab). f_equal.
  destruct (Nat.eqb x 1) eqn:E1; [reflexivity|].
  rewrite orb_false_r in Hxy. apply Nat.eqb_eq in Hxy. subst y. rewrite E1. reflexivity.
Qed.

Lemma clamp_valid s' : forall s i, intob s' s = true -> valid s i -> valid s' (clamp s' i).
Proof.
  induction s' as [|x a IH]; intros s i H Hv; [constructor|].
  destruct s as [|y b]; [discriminate|].
  destruct i as [|z i]; [inversion Hv|].
  apply valid_cons_inv in Hv. destruct Hv as [Hz Hv].
  cbn in H. apply andb_true_iff in H. destruct H as [Hxy Hab].
  cbn [clamp]. apply valid_cons; [|apply (IH b); assumption].
  destruct (Nat.eqb x 1) eqn:E1.
  - apply Nat.eqb_eq in E1. lia.
  - rewrite orb_false_r in Hxy. apply Nat.eqb_eq in Hxy. lia.
Qed.

Lemma clamp_self_valid s i : valid s i -> valid s (clamp s i).
Proof. apply clamp_valid, intob_refl. Qed.

Lemma clamp_valid_id s : forall i, valid s i -> clamp s i = i.
Proof.
  induction s as [|n s IH]; intros i Hv; destruct i as [|x i]; try reflexivity; try (inversion Hv; fail).
  apply valid_cons_inv in Hv. destruct Hv as [Hx Hv]. cbn [clamp]. rewrite (IH i Hv).
  destruct (Nat.eqb_spec n 1); [f_equal; lia|reflexivity].
Qed.

Lemma clamp_id s : forall i, valid s i -> (forall n, In n s -> n <> 1) -> clamp s i = i.
Proof. intros i Hv _. apply clamp_valid_id, Hv. Qed.

(* setting the sequence position after clamping = clamping after inserting it *)
Lemma setp_clamp_ins pe : forall es j t t',
  pe < length es -> pe <= length j -> t' < nth pe es 0 ->
  setp pe t' (clamp es (ins pe t j)) = clamp es (ins pe t' j).
Proof.
  induction pe as [|pe IH]; intros es j t t' He Hj Ht.
  - destruct es as [|n es]; [cbn in He; lia|]. rewrite !ins_0. cbn [clamp]. rewrite setp_0.
    cbn [nth] in Ht. destruct (Nat.eqb n 1) eqn:E; [|reflexivity].
    apply Nat.eqb_eq in E. f_equal. lia.
  - destruct es as [|n es]; [cbn in He; lia|].
    destruct j as [|x j]; [cbn in Hj; lia|].
    rewrite !ins_S. cbn [clamp]. rewrite setp_S. f_equal.
    apply IH; cbn in He, Hj, Ht; lia || assumption.
Qed.

(* the inserted position does not matter where the shape has size 1 *)
Lemma clamp_ins_one pe : forall s j t t',
  nth pe s 0 = 1 -> pe <= length j -> clamp s (ins pe t j) = clamp s (ins pe t' j).
Proof.
  induction pe as [|pe IH]; intros s j t t' H1 Hj.
  - destruct s as [|n s]; [reflexivity|]. rewrite !ins_0. cbn [clamp]. cbn in H1. subst n. reflexivity.
  - destruct s as [|n s]; [reflexivity|].
    destruct j as [|x j]; [cbn in Hj; lia|].
    rewrite !ins_S. cbn [clamp]. f_equal. apply IH; [exact H1|cbn in Hj; lia].
Qed.

(* ---------- bshape ------------------------------------------------------------------- *)
(* one axis of broadcast_shapes *)
Definition bdim (x y : nat) : option nat :=
  if Nat.eqb x y then Some x else if Nat.eqb x 1 then Some y else if Nat.eqb y 1 then Some x else None.

Lemma bshape_cons x a y b :
  bshape (x :: a) (y :: b) =
  match bshape a b with
  | None => None
  | Some r => match bdim x y with Some z => Some (z :: r) | None => None end
  end.
Proof.
  cbn [bshape]. unfold bdim. destruct (bshape a b); [|reflexivity].
  destruct (Nat.eqb x y); [reflexivity|]. destruct (Nat.eqb x 1); [reflexivity|].
  destruct (Nat.eqb y 1); reflexivity.
Qed.

Lemma bshape_cons_inv x a y b r : bshape (x :: a) (y :: b) = Some r ->
  exists z r', bshape a b = Some r' /\ bdim x y = Some z /\ r = z :: r'.
Proof.
  rewrite bshape_cons. destruct (bshape a b) as [r'|]; [|discriminate].
  destruct (bdim x y) as [z|]; [|discriminate]. intros H. injection H as <-.
  exists z, r'. repeat split.
Qed.

Lemma bdim_one_l y : bdim 1 y = Some y.
Proof.
  unfold bdim. destruct (Nat.eqb 1 y) eqn:E; [apply Nat.eqb_eq in E; subst; reflexivity|reflexivity].
Qed.

(* the result is one of the two sizes, and the other one is equal to it or 1 *)
Lemma bdim_cases x y z : bdim x y = Some z -> z = y /\ (x = y \/ x = 1) \/ z = x /\ y = 1.
Proof.
  unfold bdim. destruct (Nat.eqb_spec x y) as [Exy|_].
  - intros H. injection H as <-. left. split; [exact Exy|left; exact Exy].
  - destruct (Nat.eqb_spec x 1) as [Ex|_].
    + intros H. injection H as <-. left. split; [reflexivity|right; exact Ex].
    + destruct (Nat.eqb_spec y 1) as [Ey|_]; [|discriminate].
      intros H. injection H as <-. right. split; [reflexivity|exact Ey].
Qed.

Lemma bshape_into a : forall b r, bshape a b = Some r -> intob a r = true /\ intob b r = true.
Proof.
  induction a as [|x a IH]; intros b r H.
  - cbn in H. injection H as <-. split; [apply intob_nil|apply intob_refl].
  - destruct b as [|y b].
    + cbn in H. injection H as <-. split; [apply intob_refl|reflexivity].
    + destruct (bshape_cons_inv _ _ _ _ _ H) as [z [r' [E [D ->]]]].
      destruct (IH b r' E) as [Ha Hb]. cbn [intob]. rewrite Ha, Hb, !andb_true_r.
      destruct (bdim_cases _ _ _ D) as [[-> [->| ->]]|[-> ->]];
        rewrite ?Nat.eqb_refl, ?orb_true_r; split; reflexivity.
Qed.

Lemma bshape_length a : forall b r, bshape a b = Some r -> length r = Nat.max (length a) (length b).
Proof.
  induction a as [|x a IH]; intros b r H.
  - cbn in H. injection H as <-. reflexivity.
  - destruct b as [|y b].
    + cbn in H. injection H as <-. cbn. reflexivity.
    + destruct (bshape_cons_inv _ _ _ _ _ H) as [z [r' [E [_ ->]]]].
      cbn [length]. rewrite (IH b r' E). lia.
Qed.

Lemma bshape_nth_one a : forall b r i,
  bshape a b = Some r -> nth i a 0 = 1 -> i < length b -> nth i r 0 = nth i b 0.
Proof.
  induction a as [|x a IH]; intros b r i H H1 Hi.
  - destruct i; discriminate.
  - destruct b as [|y b]; [cbn in Hi; lia|].
    destruct (bshape_cons_inv _ _ _ _ _ H) as [z [r' [E [D ->]]]].
    destruct i as [|i]; cbn [nth] in *.
    + subst x. rewrite bdim_one_l in D. injection D as <-. reflexivity.
    + apply (IH b r' i E H1). cbn in Hi. lia.
Qed.

Lemma bshape_nth_same a : forall b r i,
  bshape a b = Some r -> nth i a 0 = nth i b 0 -> i < length a -> i < length b -> nth i r 0 = nth i b 0.
Proof.
  induction a as [|x a IH]; intros b r i H H1 Ha Hb.
  - cbn in Ha; lia.
  - destruct b as [|y b]; [cbn in Hb; lia|].
    destruct (bshape_cons_inv _ _ _ _ _ H) as [z [r' [E [D ->]]]].
    destruct i as [|i]; cbn [nth] in *.
    + subst y. unfold bdim in D. rewrite Nat.eqb_refl in D. injection D as <-. reflexivity.
    + apply (IH b r' i E H1); cbn in Ha, Hb; lia.
Qed.

(* ---------- unsq ---------------------------------------------------------------------- *)
Lemma ins_length {A} p (x : A) (l : list A) : length (firstn p l ++ x :: skipn p l) = S (length l).
Proof. rewrite app_length, firstn_length. cbn. rewrite skipn_length. lia. Qed.

Lemma unsq_shape {A} p (t : tensor A) : tshape (unsq p t) = ins p 1 (tshape t).
Proof. reflexivity. Qed.

Lemma ins_shape_length p t (s : list nat) : length (ins p t s) = S (length s).
Proof. apply ins_length. Qed.

(* ---------- renum / rfi / memo -------------------------------------------------------- *)
Lemma flat_map_const_length {B C} (g : B -> list C) n l :
  (forall b, length (g b) = n) -> length (flat_map g l) = length l * n.
Proof.
  intros Hg. induction l as [|b l IH]; [reflexivity|].
  cbn. rewrite app_length, Hg, IH. lia.
Qed.

Lemma nth_flat_map_const {B C} (g : B -> list C) n (b0 : B) (d : C) :
  (forall b, length (g b) = n) ->
  forall l a x, x < n -> a < length l ->
  nth (a * n + x) (flat_map g l) d = nth x (g (nth a l b0)) d.
Proof.
  intros Hg. induction l as [|b l IH]; intros a x Hx Ha; [cbn in Ha; lia|].
  cbn [flat_map]. destruct a as [|a].
  - cbn [nth Nat.mul Nat.add]. apply app_nth1. rewrite Hg. exact Hx.
  - rewrite app_nth2 by (rewrite Hg; lia). rewrite Hg.
    replace (S a * n + x - n) with (a * n + x) by lia.
    cbn [nth]. apply IH; [exact Hx|cbn in Ha; lia].
Qed.

Lemma renum_length s : length (renum s) = fold_right Nat.mul 1 s.
Proof.
  induction s as [|n s IH]; [reflexivity|].
  cbn [renum fold_right].
  assert (Hg : forall b : index, length (map (fun x => x :: b) (seq 0 n)) = n)
    by (intros; rewrite map_length, seq_length; reflexivity).
  rewrite (flat_map_const_length _ n _ Hg), IH. lia.
Qed.

Lemma renum_nth s : forall i, valid s i ->
  rfi s i < length (renum s) /\ nth (rfi s i) (renum s) [] = i.
Proof.
  induction s as [|n s IH]; intros i Hv.
  - inversion Hv; subst. cbn. split; [lia|reflexivity].
  - destruct i as [|x i]; [inversion Hv|].
    apply valid_cons_inv in Hv. destruct Hv as [Hx Hv].
    destruct (IH i Hv) as [Hlt Hnth].
    cbn [rfi renum].
    assert (Hg : forall b : index, length (map (fun x => x :: b) (seq 0 n)) = n)
      by (intros; rewrite map_length, seq_length; reflexivity).
    split.
    + rewrite (flat_map_const_length _ n _ Hg). nia.
    + etransitivity; [exact (nth_flat_map_const _ n [] [] Hg _ _ _ Hx Hlt)|]. cbn beta.
      unfold index in *.
      set (R := nth (rfi s i) (renum s) []) in *.
      rewrite (nth_indep _ [] ((fun x0 => x0 :: R) 0)) by (rewrite map_length, seq_length; exact Hx).
      rewrite (map_nth (fun x0 => x0 :: R)). rewrite seq_nth by exact Hx. cbn [Nat.add]. f_equal. exact Hnth.
Qed.

Lemma renum_valid s : forall i, In i (renum s) -> valid s i.
Proof.
  induction s as [|n s IH]; intros i Hin.
  - cbn in Hin. destruct Hin as [<-|[]]. constructor.
  - cbn [renum] in Hin. apply in_flat_map in Hin. destruct Hin as [r [Hr Hin]].
    apply in_map_iff in Hin. destruct Hin as [x [<- Hx]].
    apply in_seq in Hx. apply valid_cons; [lia|apply IH; exact Hr].
Qed.

Lemma memo_shape {A} (d : A) t : tshape (memo d t) = tshape t.
Proof. reflexivity. Qed.

Lemma memo_at {A} (d : A) t i : valid (tshape t) i -> tat (memo d t) i = tat t i.
Proof.
  intros Hv. unfold memo, of_flat, to_flat. cbn [tat].
  destruct (renum_nth _ _ Hv) as [Hlt Hnth].
  rewrite (nth_indep _ d (tat t [])) by (rewrite map_length; exact Hlt).
  rewrite map_nth, Hnth. reflexivity.
Qed.

(* two materialised tensors with the same elements in range are the same tensor *)
Lemma memo_ext {A} (d : A) s f g :
  (forall i, valid s i -> f i = g i) -> memo d (mkT s f) = memo d (mkT s g).
Proof.
  intros H. unfold memo, to_flat. cbn [tshape tat]. f_equal.
  apply map_ext_in. intros i Hi. apply H, renum_valid, Hi.
Qed.

(* ---------- broadcast reads ------------------------------------------------------------ *)
Lemma bget_clamp {A} (t : tensor A) es i :
  intob (tshape t) es = true -> bget t (clamp es i) = bget t i.
Proof. intros H. unfold bget. rewrite clamp_into by exact H. reflexivity. Qed.

Lemma brow_clamp (t : tensor Q) es i :
  intob (tl (tshape t)) es = true -> brow t (clamp es i) = brow t i.
Proof.
  intros H. unfold brow. apply map_ext. intros c. unfold bget.
  destruct (tshape t) as [|f s]; [reflexivity|]. cbn [tl] in H. cbn [clamp].
  rewrite clamp_into by exact H. reflexivity.
Qed.

Lemma kept_at_clamp m es i :
  match m with None => true | Some mt => intob (tshape mt) es end = true ->
  kept_at m (clamp es i) = kept_at m i.
Proof.
  intros H. destruct m as [mt|]; [|reflexivity]. cbn [kept_at]. apply bget_clamp, H.
Qed.
