(* C20 — broadcasting a query against batched keys = explicitly expanding it. *)
From Coq Require Import List Arith Bool ZArith QArith Lia.
From PV Require Import C20.Model C20.Spec C20.Index C20.Proofs.
Import ListNotations.
Local Open Scope nat_scope.

Lemma bdim_idem x y z : bdim x y = Some z -> bdim z y = Some z.
Proof.
  unfold bdim. destruct (Nat.eqb x y) eqn:E1.
  - intros H; injection H as <-. rewrite E1. reflexivity.
  - destruct (Nat.eqb x 1) eqn:E2.
    + intros H; injection H as <-. rewrite Nat.eqb_refl. reflexivity.
    + destruct (Nat.eqb y 1) eqn:E3; [|discriminate].
      intros H; injection H as <-. rewrite E1, E2. reflexivity.
Qed.

Lemma bdim_one_res x y z : bdim x y = Some z -> x = 1 -> z = y.
Proof.
  intros H ->. rewrite bdim_one_l in H. injection H as <-. reflexivity.
Qed.

Lemma bshape_idem a : forall b r, length a = length b -> bshape a b = Some r -> bshape r b = Some r.
Proof.
  induction a as [|x a IH]; intros b r Hl H.
  - destruct b; [|discriminate]. cbn in H. injection H as <-. reflexivity.
  - destruct b as [|y b]; [discriminate|].
    destruct (bshape_cons_inv _ _ _ _ _ H) as [z [r' [E [D ->]]]].
    rewrite bshape_cons, (IH b r') by (cbn in Hl; congruence).
    rewrite (bdim_idem _ _ _ D). reflexivity.
Qed.

(* replacing, in the broadcast result, the axis on which the first operand had size 1 by 1
   again and broadcasting once more gives the same result *)
Lemma bshape_absorb pe : forall a b r,
  length a = length b -> bshape a b = Some r -> nth pe a 0 = 1 -> pe < length a ->
  bshape (setp pe 1 r) b = Some r.
Proof.
  induction pe as [|pe IH]; intros a b r Hl H H1 Hp.
  - destruct a as [|x a]; [cbn in Hp; lia|]. destruct b as [|y b]; [discriminate|].
    destruct (bshape_cons_inv _ _ _ _ _ H) as [z [r' [E [D ->]]]].
    cbn in H1. pose proof (bdim_one_res _ _ _ D H1) as ->.
    rewrite setp_0, bshape_cons.
    rewrite (bshape_idem a b r') by (cbn in Hl; congruence).
    rewrite bdim_one_l. reflexivity.
  - destruct a as [|x a]; [cbn in Hp; lia|]. destruct b as [|y b]; [discriminate|].
    destruct (bshape_cons_inv _ _ _ _ _ H) as [z [r' [E [D ->]]]].
    rewrite setp_S, bshape_cons.
    rewrite (IH a b r') by (cbn in Hl, H1, Hp; try congruence; try lia; assumption).
    rewrite (bdim_idem _ _ _ D). reflexivity.
Qed.

Lemma ins_del_setp pe x : forall s : list nat, pe < length s -> ins pe x (del pe s) = setp pe x s.
Proof.
  induction pe as [|pe IH]; intros s H.
  - destruct s; [cbn in H; lia|]. reflexivity.
  - destruct s as [|n s]; [cbn in H; lia|]. rewrite del_S, ins_S, setp_S, IH by (cbn in H; lia).
    reflexivity.
Qed.

Lemma intob_del pe : forall a b, intob a b = true -> intob (del pe a) (del pe b) = true.
Proof.
  induction pe as [|pe IH]; intros a b H.
  - destruct a as [|x a]; [apply intob_nil|]. destruct b as [|y b]; [discriminate|].
    rewrite !del_0. cbn in H. apply andb_true_iff in H. apply H.
  - destruct a as [|x a]; [apply intob_nil|]. destruct b as [|y b]; [discriminate|].
    rewrite !del_S. cbn in H. apply andb_true_iff in H. destruct H as [H1 H2].
    cbn. rewrite H1. apply IH, H2.
Qed.

(* reading an unsqueezed tensor: drop the new axis, clamp by the original shape *)
Lemma del_clamp_ins p : forall s I, p <= length s -> del p (clamp (ins p 1 s) I) = clamp s (del p I).
Proof.
  induction p as [|p IH]; intros s I H.
  - rewrite ins_0. destruct I as [|x I]; [destruct s; reflexivity|]. cbn [clamp]. rewrite !del_0. reflexivity.
  - destruct s as [|n s]; [cbn in H; lia|]. rewrite ins_S.
    destruct I as [|x I]; [reflexivity|]. cbn [clamp]. rewrite !del_S. cbn [clamp].
    rewrite IH by (cbn in H; lia). reflexivity.
Qed.

Lemma bget_unsq {A} p (t : tensor A) I :
  p <= length (tshape t) -> bget (unsq p t) I = bget t (del p I).
Proof.
  intros H. unfold bget. rewrite unsq_shape. cbn [unsq tat].
  fold (del p (clamp (ins p 1 (tshape t)) I)). rewrite del_clamp_ins by exact H. reflexivity.
Qed.

(* the query expanded to every batch axis of the scores (all but the sequence axis) *)
Definition q_expanded (q : tensor Q) (p : nat) (es : shape) : tensor Q :=
  expand q (hd 0 (tshape q) :: del (p - 1) es).

Lemma broadcast_query_eq_expanded expf sc q k v m p qs ks out es :
  attend expf sc q k v m p qs ks = Some out ->
  bshape (tl (tshape (unsq p q))) (tl (tshape k)) = Some es ->
  attend expf sc (q_expanded q p es) k v m p qs ks = Some out.
Proof.
    intros Hatt Hes.
    destruct (attend_inv Hatt) as [es0 [ps [F Eo]]].
    assert (es0 = es) as -> by (pose proof (af_es F) as E; rewrite Hes in E; congruence).
    pose proof (af_p F) as Hp1. pose proof (af_pk F) as Hpk.
    pose proof (af_qrank F) as Hqr.
    pose proof (f_es_len F) as Hesl. pose proof (f_pe_es F) as Hpe.
    destruct p as [|pe]; [lia|]. replace (S pe - 1) with pe in * by lia.
    destruct (tshape q) as [|f qs'] eqn:Eq; [cbn in Hqr; lia|]. cbn in Hqr.
    assert (Hpq : pe <= length qs') by lia.
    (* shapes *)
    assert (Hsq : tshape (q_expanded q (S pe) es) = f :: del pe es).
    { unfold q_expanded. rewrite Eq. replace (S pe - 1) with pe by lia. reflexivity. }
    assert (Htl : tl (tshape (unsq (S pe) (q_expanded q (S pe) es))) = setp pe 1 es).
    { rewrite unsq_shape, Hsq, ins_S. cbn [tl]. apply ins_del_setp, Hpe. }
    assert (Htl0 : tl (tshape (unsq (S pe) q)) = ins pe 1 qs').
    { rewrite unsq_shape, Eq, ins_S. reflexivity. }
    assert (Hes' : bshape (tl (tshape (unsq (S pe) (q_expanded q (S pe) es)))) (tl (tshape k)) = Some es).
    { rewrite Htl. rewrite Htl0 in Hes. apply (bshape_absorb pe (ins pe 1 qs')).
      - rewrite ins_shape_length. destruct (tshape k); cbn in *; lia.
      - exact Hes.
      - apply nth_ins, Hpq.
      - rewrite ins_shape_length. lia. }
    (* reads of the query rows agree *)
    assert (Hinto : intob (f :: qs') (f :: del pe es) = true).
    { cbn. rewrite Nat.eqb_refl. cbn.
      pose proof (f_into_q F) as Hi. rewrite Htl0 in Hi.
      apply (intob_del pe) in Hi. rewrite del_ins in Hi by exact Hpq. exact Hi. }
    assert (Hrow : forall i, brow (unsq (S pe) (q_expanded q (S pe) es)) i = brow (unsq (S pe) q) i).
    { intros i. unfold brow. rewrite !unsq_shape, Hsq, Eq, !ins_S. cbn [hd].
      apply map_ext. intros c.
      rewrite !bget_unsq by (rewrite ?Hsq, ?Eq; cbn [length]; rewrite ?del_length by exact Hpe; lia).
      unfold q_expanded, expand. unfold bget at 1. cbn [tat tshape].
      rewrite Eq. replace (S pe - 1) with pe by lia. cbn [hd].
      unfold bget. rewrite Eq. rewrite clamp_into by exact Hinto. reflexivity. }
    assert (Hem : forall i, em_at sc (q_expanded q (S pe) es) k m (S pe) i = em_at sc q k m (S pe) i).
    { intros i. unfold em_at, e_at, qu. rewrite Hrow. reflexivity. }
    (* unfold the call *)
    rewrite Eo. unfold attend.
    assert (Hleg : legalb (q_expanded q (S pe) es) k v (S pe) qs ks = legalb q k v (S pe) qs ks).
    { unfold legalb. rewrite Hsq, Eq. cbn [length hd].
      rewrite del_length by exact Hpe. rewrite Hesl.
      replace (S (S (length (tshape k) - 1 - 1))) with (length (tshape k)) by lia.
      replace (S (S (length qs'))) with (length (tshape k)) by lia. reflexivity. }
    assert (Hl : legalb q k v (S pe) qs ks = true).
    { unfold attend in Hatt. destruct (legalb q k v (S pe) qs ks); [reflexivity|discriminate]. }
    rewrite Hleg, Hl. unfold qu. rewrite Hes', (af_mask F), (af_ps F).
    cbv zeta.
    assert (Het : memo None (mkT es (em_at sc (q_expanded q (S pe) es) k m (S pe)))
                  = memo None (mkT es (em_at sc q k m (S pe))))
      by (apply memo_ext; intros i _; apply Hem).
    rewrite Het. reflexivity.
Qed.
