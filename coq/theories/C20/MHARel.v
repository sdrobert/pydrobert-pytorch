(* C20 — the multi-headed flavour inherits masked-content blindness and permutation
   invariance from the wrapped attention (through the composition theorem). *)
From Coq Require Import List Arith Bool ZArith QArith Lia Lqa Permutation Setoid Morphisms.
From PV Require Import C20.Model C20.Spec C20.Sums C20.Index C20.Proofs C20.Broadcast C20.MHA.
Import ListNotations.
Local Open Scope nat_scope.

Lemma brow_raw (t : tensor Q) f s I :
  tshape t = f :: s -> brow t I = map (fun c => tat t (c :: clamp s I)) (seq 0 f).
Proof.
  intros E. unfold brow, bget. rewrite E. cbn [hd]. apply map_ext_in. intros c Hc.
  apply in_seq in Hc. cbn [clamp]. rewrite clamp1_lt by lia. reflexivity.
Qed.

(* a projected head feature depends on the input only through the row it is computed from *)
Lemma slice_read_congr W b (t t' : tensor Q) h d c I I' :
  tshape t' = tshape t -> brow t' I' = brow t I ->
  bget (head_slice h d (linear W b t')) (c :: I') = bget (head_slice h d (linear W b t)) (c :: I).
Proof.
  intros Es Er. unfold bget. rewrite !head_slice_shape, !linear_shape, Es.
  destruct (tshape t) as [|f s] eqn:E.
  - cbn [tl clamp]. cbn [head_slice tat linear]. rewrite Es, E. reflexivity.
  - cbn [tl clamp]. cbn [head_slice tat linear]. rewrite Es, E. cbn [hd].
    rewrite (brow_raw t f s I E) in Er. rewrite (brow_raw t' f s I' Es) in Er.
    rewrite Er. reflexivity.
Qed.

Lemma slice_row_congr W b (t t' : tensor Q) h d I I' :
  tshape t' = tshape t -> brow t' I' = brow t I ->
  brow (head_slice h d (linear W b t')) I' = brow (head_slice h d (linear W b t)) I.
Proof.
  intros Es Er. unfold brow. rewrite !head_slice_shape. cbn [hd]. apply map_ext. intros c.
  apply slice_read_congr; assumption.
Qed.

Lemma nth_S_tl (n : nat) (l : list nat) : nth (S n) l 0 = nth n (tl l) 0.
Proof. destruct l; destruct n; reflexivity. Qed.

Lemma mha_p_pos expf sc P q k v m p mpos qs ks vs out :
  mha expf sc P q k v m p mpos qs ks vs = Some out -> 1 <= p.
Proof.
  intros H. destruct (mha_inv H) as [L _].
  destruct (mha_legal_inv P _ _ _ _ _ _ _ _ L) as [? [? [? [? [? [_ [_ [_ [_ [_ [_ [_ [_ [Hp _]]]]]]]]]]]]]]. exact Hp.
Qed.

(* shared skeleton: if every head's output coordinate is unchanged, so is the projected result *)
Lemma mha_spec_congr expf sc P q k v m p q' k' v' m' p' bs c j :
  (forall h c', h < num_heads P -> c' < d_v P ->
     match head expf sc P q' k' v' m' p' h, head expf sc P q k v m p h with
     | Some o', Some o => (tat o' (c' :: j) == tat o (c' :: j))%Q
     | _, _ => False
     end) ->
  (tat (mha_spec expf sc P q' k' v' m' p' bs) (c :: j) == tat (mha_spec expf sc P q k v m p bs) (c :: j))%Q.
Proof.
  intros Hh. unfold mha_spec. apply linear_congr; [reflexivity|].
  cbn [heads_cat tshape hd]. intros jj Hj.
  assert (Hdv : d_v P <> 0) by (intros Z; rewrite Z in Hj; lia).
  assert (H1 : jj / d_v P < num_heads P) by (apply Nat.div_lt_upper_bound; [exact Hdv|lia]).
  assert (H2 : jj mod d_v P < d_v P) by (apply Nat.mod_upper_bound; exact Hdv).
  unfold heads_cat. cbn [tat]. specialize (Hh _ _ H1 H2).
  destruct (head expf sc P q' k' v' m' p' (jj / d_v P)); [|destruct Hh].
  destruct (head expf sc P q k v m p (jj / d_v P)); [exact Hh|destruct Hh].
Qed.

Section Two.
  Variables (expf : Q -> Q) (sc : list Q -> list Q -> Q) (P : mha_params).
  Variables (q k v k' v' : tensor Q) (m m' : option (tensor bool)) (p qs ks vs : nat) (out out' : tensor Q).
  Hypothesis Hm : mha expf sc P q k v m p 0 qs ks vs = Some out.
  Hypothesis Hm' : mha expf sc P q k' v' m' p 0 qs ks vs = Some out'.
  Hypothesis Ek : tshape k' = tshape k.
  Hypothesis Ev : tshape v' = tshape v.
  Hypothesis HWQ : length (WQ P) = num_heads P * d_q P.
  Hypothesis HWK : length (WK P) = num_heads P * d_k P.
  Hypothesis HWV : length (WV P) = num_heads P * d_v P.
  Hypothesis Hagree : seq_agree k v p.

  Lemma two_agree' : seq_agree k' v' p.
  Proof. unfold seq_agree in *. rewrite Ek, Ev. exact Hagree. Qed.

  (* both results are the composition over the same batch shape *)
  Lemma two_setup :
    exists bs,
      tshape out = length (WC P) :: bs /\ tshape out' = length (WC P) :: bs /\
      (forall h, exists o, head expf sc P q k v m p h = Some o /\ tshape o = d_v P :: bs) /\
      (forall h, exists o, head expf sc P q k' v' m' p h = Some o /\ tshape o = d_v P :: bs) /\
      (forall i, valid (tshape out) i -> (tat out i == tat (mha_spec expf sc P q k v m p bs) i)%Q) /\
      (forall i, valid (tshape out') i -> (tat out' i == tat (mha_spec expf sc P q k' v' m' p bs) i)%Q).
  Proof.
    destruct (multihead_is_composition_strong Hm HWQ HWK HWV Hagree) as [bs [So [Hh Heq]]].
    destruct (multihead_is_composition_strong Hm' HWQ HWK HWV two_agree') as [bs' [So' [Hh' Heq']]].
    assert (bs' = bs) as ->.
    { destruct (Hh 0) as [o [Ho S1]]. destruct (Hh' 0) as [o' [Ho' S2]].
      unfold head in Ho, Ho'.
      pose proof (attend_shape_det Ho Ho') as X.
      rewrite S1, S2 in X.
      assert (Y : d_v P :: bs' = d_v P :: bs).
      { apply X; rewrite !head_slice_shape, !linear_shape, ?Ek, ?Ev; reflexivity. }
      injection Y as ->. reflexivity. }
    exists bs. repeat split; assumption.
  Qed.
End Two.
Arguments two_setup {expf sc P q k v k' v' m m' p qs ks vs out out'} _ _ _ _ _ _ _ _.

Lemma multihead_invariant expf sc P q k v m k' v' m' p qs ks vs out out' (sigma : nat -> nat) :
  mha expf sc P q k v m p 0 qs ks vs = Some out ->
  mha expf sc P q k' v' m' p 0 qs ks vs = Some out' ->
  tshape k' = tshape k -> tshape v' = tshape v ->
  length (WQ P) = num_heads P * d_q P ->
  length (WK P) = num_heads P * d_k P ->
  length (WV P) = num_heads P * d_v P ->
  seq_agree k v p ->
  Permutation (map sigma (seq 0 (nth p (tshape k) 0))) (seq 0 (nth p (tshape k) 0)) ->
  forall c j, valid (tshape out) (c :: j) ->
  (forall t, t < nth p (tshape k) 0 ->
             kept_at m' (ins (p - 1) t j) = kept_at m (ins (p - 1) (sigma t) j)
             /\ (kept_at m (ins (p - 1) (sigma t) j) = true ->
                 brow k' (ins (p - 1) t j) = brow k (ins (p - 1) (sigma t) j)
                 /\ brow v' (ins (p - 1) t j) = brow v (ins (p - 1) (sigma t) j))) ->
  (tat out' (c :: j) == tat out (c :: j))%Q.
Proof.
  intros Hm Hm' Ek Ev HWQ HWK HWV Ha Hperm c j Hv Hsame.
  destruct (two_setup Hm Hm' Ek Ev HWQ HWK HWV Ha)
    as [bs [So [So' [Hh [Hh' [Heq Heq']]]]]].
  pose proof (mha_p_pos _ _ _ _ _ _ _ _ _ _ _ _ _ Hm) as Hp.
  assert (Hv' : valid (tshape out') (c :: j)) by (rewrite So'; rewrite So in Hv; exact Hv).
  rewrite (Heq' _ Hv'), (Heq _ Hv).
  rewrite So in Hv. apply valid_cons_inv in Hv. destruct Hv as [_ Hj].
  apply mha_spec_congr. intros h c' Hh1 Hc'.
  destruct (Hh' h) as [o' [Ho' S']]. destruct (Hh h) as [o [Ho S]]. rewrite Ho', Ho.
  unfold head in Ho, Ho'.
  assert (HT : nth p (tshape (head_slice h (d_k P) (linear (WK P) (bK P) k))) 0 = nth p (tshape k) 0).
  { rewrite head_slice_shape, linear_shape. destruct p as [|pe]; [lia|]. cbn [nth]. rewrite nth_S_tl. reflexivity. }
  apply (attention_invariant _ _ _ _ _ _ _ _ _ _ _ _ _ _ sigma Ho Ho').
  - rewrite !head_slice_shape, !linear_shape, Ek. reflexivity.
  - rewrite !head_slice_shape, !linear_shape, Ev. reflexivity.
  - unfold seq_agree. rewrite !head_slice_shape, !linear_shape.
    destruct p as [|pe]; [lia|]. cbn [nth]. unfold seq_agree in Ha. rewrite !nth_S_tl in Ha. exact Ha.
  - rewrite HT. exact Hperm.
  - rewrite S. apply valid_cons; assumption.
  - intros t Ht. rewrite HT in Ht. destruct (Hsame t Ht) as [Rm R]. split; [exact Rm|].
    intros K. destruct (R K) as [Rk Rv]. split.
    + apply slice_row_congr; assumption.
    + apply slice_read_congr; assumption.
Qed.

Lemma multihead_blind_to_masked expf sc P q k v k' v' m p qs ks vs out out' :
  mha expf sc P q k v m p 0 qs ks vs = Some out ->
  mha expf sc P q k' v' m p 0 qs ks vs = Some out' ->
  tshape k' = tshape k -> tshape v' = tshape v ->
  length (WQ P) = num_heads P * d_q P ->
  length (WK P) = num_heads P * d_k P ->
  length (WV P) = num_heads P * d_v P ->
  seq_agree k v p ->
  forall c j, valid (tshape out) (c :: j) ->
  (forall t, t < nth p (tshape k) 0 -> kept_at m (ins (p - 1) t j) = true ->
             brow k' (ins (p - 1) t j) = brow k (ins (p - 1) t j)
             /\ brow v' (ins (p - 1) t j) = brow v (ins (p - 1) t j)) ->
  (tat out' (c :: j) == tat out (c :: j))%Q.
Proof.
  intros Hm Hm' Ek Ev HWQ HWK HWV Ha c j Hv Hsame.
  apply (multihead_invariant expf sc P q k v m k' v' m p qs ks vs out out' (fun t => t) Hm Hm' Ek Ev HWQ HWK HWV Ha);
    [rewrite map_id; reflexivity|exact Hv|].
  intros t Ht. split; [reflexivity|]. apply Hsame, Ht.
Qed.

Lemma multihead_permutation_invariant expf sc P q k v m k' v' m' p qs ks vs out out' (sigma : nat -> nat) :
  mha expf sc P q k v m p 0 qs ks vs = Some out ->
  mha expf sc P q k' v' m' p 0 qs ks vs = Some out' ->
  tshape k' = tshape k -> tshape v' = tshape v -> mask_shape m' = mask_shape m ->
  length (WQ P) = num_heads P * d_q P ->
  length (WK P) = num_heads P * d_k P ->
  length (WV P) = num_heads P * d_v P ->
  seq_agree k v p ->
  Permutation (map sigma (seq 0 (nth p (tshape k) 0))) (seq 0 (nth p (tshape k) 0)) ->
  forall c j, valid (tshape out) (c :: j) ->
  (forall t, t < nth p (tshape k) 0 ->
             brow k' (ins (p - 1) t j) = brow k (ins (p - 1) (sigma t) j)
             /\ brow v' (ins (p - 1) t j) = brow v (ins (p - 1) (sigma t) j)
             /\ kept_at m' (ins (p - 1) t j) = kept_at m (ins (p - 1) (sigma t) j)) ->
  (tat out' (c :: j) == tat out (c :: j))%Q.
Proof.
  intros Hm Hm' Ek Ev _ HWQ HWK HWV Ha Hperm c j Hv Hsame.
  apply (multihead_invariant expf sc P q k v m k' v' m' p qs ks vs out out' sigma Hm Hm' Ek Ev HWQ HWK HWV Ha Hperm
           c j Hv).
  intros t Ht. destruct (Hsame t Ht) as [Rk [Rv Rm]]. split; [exact Rm|]. intros _. split; assumption.
Qed.
