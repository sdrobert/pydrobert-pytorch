(* C20 — single-head attention: every output coordinate is a masked convex combination;
   range, masked-content blindness, permutation invariance. *)
From Coq Require Import List Arith Bool ZArith QArith Qabs Lia Lqa Permutation Setoid Morphisms.
From PV Require Import C20.Model C20.Spec C20.Sums C20.Index.
Import ListNotations.
Local Open Scope nat_scope.

(* the weight the softmax numerator gives position t of the row of output index j *)
Definition wfun (expf : Q -> Q) (sc : list Q -> list Q -> Q) (q k : tensor Q)
           (m : option (tensor bool)) (p : nat) (j : index) (t : nat) : Q :=
  if kept_at m (ins (p - 1) t j) then expf (e_at sc q k p (ins (p - 1) t j)) else 0%Q.

Lemma ins_pred p t c j : 1 <= p -> ins p t (c :: j) = c :: ins (p - 1) t j.
Proof. intros H. destruct p; [lia|]. replace (S p - 1) with p by lia. reflexivity. Qed.

(* key and value have the same sequence length (documented shapes (B*,T,C*,K), (B*,T,C*,D)) *)
Definition seq_agree (k v : tensor Q) (p : nat) : Prop := nth p (tshape v) 0 = nth p (tshape k) 0.

Record attend_facts (q k v : tensor Q) (m : option (tensor bool)) (p : nat) (es ps : shape) : Prop :=
  { af_p : 1 <= p;
    af_pk : p < length (tshape k);
    af_qrank : S (length (tshape q)) = length (tshape k);
    af_vrank : length (tshape v) = length (tshape k);
    af_es : bshape (tl (tshape (unsq p q))) (tl (tshape k)) = Some es;
    af_mask : match m with None => true | Some mt => intob (tshape mt) es end = true;
    af_ps : bshape (1 :: es) (tshape v) = Some ps }.
Arguments af_p {q k v m p es ps} _.
Arguments af_pk {q k v m p es ps} _.
Arguments af_qrank {q k v m p es ps} _.
Arguments af_vrank {q k v m p es ps} _.
Arguments af_es {q k v m p es ps} _.
Arguments af_mask {q k v m p es ps} _.
Arguments af_ps {q k v m p es ps} _.

Lemma attend_inv expf sc q k v m p qs ks out :
  attend expf sc q k v m p qs ks = Some out ->
  exists es ps,
    attend_facts q k v m p es ps /\
    out = memo 0%Q (mkT (del p ps)
                        (out_at v p (memo 0%Q (mkT es (a_at expf p (memo None (mkT es (em_at sc q k m p))) es))) ps)).
Proof.
  unfold attend. destruct (legalb q k v p qs ks) eqn:L; [|discriminate].
  destruct (bshape (tl (tshape (qu q p))) (tl (tshape k))) as [es|] eqn:Ees; [|discriminate].
  destruct (match m with None => true | Some mt => intob (tshape mt) es end) eqn:Em; [|discriminate].
  destruct (bshape (1 :: es) (tshape v)) as [ps|] eqn:Eps; [|discriminate].
  intros H. injection H as <-. exists es, ps. split; [|reflexivity].
  unfold legalb in L. repeat (apply andb_true_iff in L; destruct L as [L ?]).
  constructor; try assumption.
  - apply Nat.leb_le; assumption.
  - apply Nat.ltb_lt; assumption.
  - apply Nat.eqb_eq; assumption.
  - apply Nat.eqb_eq; assumption.
Qed.
Arguments attend_inv {expf sc q k v m p qs ks out} _.

Section Facts.
  Variables (q k v : tensor Q) (m : option (tensor bool)) (p : nat) (es ps : shape).
  Hypothesis F : attend_facts q k v m p es ps.

  Let pe := p - 1.

  Lemma f_p : p = S pe.
  Proof. subst pe. pose proof (af_p F). lia. Qed.

  Lemma f_qs_len : length (tl (tshape (unsq p q))) = length (tshape k) - 1.
  Proof.
    rewrite unsq_shape. pose proof (ins_shape_length p 1 (tshape q)) as H.
    pose proof (af_qrank F).
    destruct (ins p 1 (tshape q)); cbn in *; lia.
  Qed.

  Lemma f_es_len : length es = length (tshape k) - 1.
  Proof.
    rewrite (bshape_length _ _ _ (af_es F)), f_qs_len.
    destruct (tshape k); cbn; lia.
  Qed.

  Lemma f_ps_len : length ps = length (tshape k).
  Proof.
    rewrite (bshape_length _ _ _ (af_ps F)). cbn [length]. rewrite f_es_len.
    pose proof (af_vrank F). pose proof (af_pk F). lia.
  Qed.

  Lemma f_pe_es : pe < length es.
  Proof. rewrite f_es_len. pose proof (af_pk F). pose proof f_p. lia. Qed.

  (* the unsqueezed query has size 1 on the sequence axis *)
  Lemma f_qu_one : nth pe (tl (tshape (unsq p q))) 0 = 1.
  Proof.
    rewrite unsq_shape, f_p.
    pose proof (af_qrank F) as Hq. pose proof (af_pk F) as Hp.
    rewrite f_p in Hp.
    destruct (tshape q) as [|f s]; [cbn in Hq; lia|].
    cbn in Hq. rewrite ins_S. cbn [tl]. apply nth_ins. lia.
  Qed.

  Lemma f_Te : nth pe es 0 = nth p (tshape k) 0.
  Proof.
    rewrite (bshape_nth_one _ _ _ pe (af_es F) f_qu_one).
    - rewrite f_p. destruct (tshape k); [destruct pe; reflexivity|reflexivity].
    - pose proof (af_pk F). pose proof f_p. destruct (tshape k); cbn in *; lia.
  Qed.

  Lemma f_Tp : seq_agree k v p -> nth p ps 0 = nth p (tshape k) 0.
  Proof.
    intros A. unfold seq_agree in A.
    rewrite (bshape_nth_same _ _ _ p (af_ps F)).
    - exact A.
    - rewrite A, f_p. cbn [nth]. rewrite <- f_p. apply f_Te.
    - cbn [length]. pose proof f_pe_es. pose proof f_p. lia.
    - rewrite (af_vrank F). apply (af_pk F).
  Qed.

  Lemma f_into_q : intob (tl (tshape (unsq p q))) es = true.
  Proof. apply (bshape_into _ _ _ (af_es F)). Qed.
  Lemma f_into_k : intob (tl (tshape k)) es = true.
  Proof. apply (bshape_into _ _ _ (af_es F)). Qed.
  Lemma f_into_a : intob (1 :: es) ps = true.
  Proof. apply (bshape_into _ _ _ (af_ps F)). Qed.

  (* an in-range output index, extended by a sequence position, is in range for e *)
  Lemma f_valid_row c j t :
    valid (del p ps) (c :: j) -> t < nth p ps 0 ->
    valid es (clamp es (ins pe t j)) /\ pe <= length j.
  Proof.
    intros Hv Ht.
    assert (Hp : p < length ps) by (rewrite f_ps_len; apply (af_pk F)).
    pose proof (valid_ins p ps (c :: j) t Hp Hv Ht) as H.
    rewrite (ins_pred p t c j (af_p F)) in H. fold pe in H.
    pose proof (clamp_valid _ _ _ f_into_a H) as H1. cbn [clamp] in H1.
    apply valid_cons_inv in H1. split; [apply H1|].
    apply valid_length in Hv. rewrite del_length in Hv by exact Hp. cbn in Hv.
    rewrite f_ps_len in Hv. pose proof (af_pk F). pose proof f_p. lia.
  Qed.
End Facts.
Arguments f_p {q k v m p es ps} F.
Arguments f_es_len {q k v m p es ps} F.
Arguments f_ps_len {q k v m p es ps} F.
Arguments f_pe_es {q k v m p es ps} F.
Arguments f_Te {q k v m p es ps} F.
Arguments f_Tp {q k v m p es ps} F _.
Arguments f_into_q {q k v m p es ps} F.
Arguments f_into_k {q k v m p es ps} F.
Arguments f_valid_row {q k v m p es ps} F c j t _ _.

(* ---------- the cell lemma -------------------------------------------------------------- *)
Section Cell.
  Variables (expf : Q -> Q) (sc : list Q -> list Q -> Q).
  Variables (q k v : tensor Q) (m : option (tensor bool)) (p qs ks : nat) (out : tensor Q).
  Hypothesis Hatt : attend expf sc q k v m p qs ks = Some out.
  Hypothesis Hagree : seq_agree k v p.

  Let T := nth p (tshape k) 0.

  Lemma attend_cell_eq c j :
    valid (tshape out) (c :: j) ->
    tat out (c :: j) =
    qsum (map (fun t => (wfun expf sc q k m p j t / qsum (map (wfun expf sc q k m p j) (seq 0 T))
                         * bget v (c :: ins (p - 1) t j))%Q) (seq 0 T)).
  Proof.
    destruct (attend_inv Hatt) as [es [ps [F ->]]].
    rewrite memo_shape. cbn [tshape]. intros Hv.
    rewrite memo_at by exact Hv. cbn [tat].
    set (et := memo None (mkT es (em_at sc q k m p))).
    set (a := memo 0%Q (mkT es (a_at expf p et es))).
    unfold out_at.
    rewrite (f_Tp F Hagree). fold T.
    assert (HTe : nth (p - 1) es 0 = T) by apply (f_Te F).
    assert (HTp : nth p ps 0 = T) by apply (f_Tp F Hagree).
    pose proof (f_p F) as Hp.
    (* the weight read through the materialised tensors *)
    assert (Hw : forall t, t < T ->
               w_at expf et (clamp es (ins (p - 1) t j)) = wfun expf sc q k m p j t).
    { intros t Ht. rewrite <- HTp in Ht.
      destruct (f_valid_row F c j t Hv Ht) as [Hve _].
      unfold w_at, et. rewrite memo_at by exact Hve. cbn [tat].
      unfold em_at, wfun.
      rewrite (kept_at_clamp _ _ _ (af_mask F)).
      unfold e_at, qu.
      rewrite (brow_clamp _ _ _ (f_into_q F)), (brow_clamp _ _ _ (f_into_k F)).
      destruct (kept_at m (ins (p - 1) t j)); reflexivity. }
    f_equal. apply map_ext_in. intros t Ht. apply in_seq in Ht.
    assert (Ht' : t < T) by lia.
    assert (Htp : t < nth p ps 0) by (rewrite HTp; exact Ht').
    destruct (f_valid_row F c j t Hv Htp) as [Hve Hj].
    rewrite (ins_pred p t c j (af_p F)). cbn [prod_at].
    f_equal.
    assert (Hsa : tshape a = es) by reflexivity.
    unfold bget at 1. rewrite Hsa. unfold a. rewrite memo_at by exact Hve. cbn [tat].
    unfold a_at. rewrite (Hw t Ht'). f_equal.
    unfold den_at. rewrite HTe. f_equal. apply map_ext_in. intros t' Ht2. apply in_seq in Ht2.
    rewrite setp_clamp_ins.
    - apply Hw. lia.
    - apply (f_pe_es F).
    - exact Hj.
    - rewrite HTe. lia.
  Qed.

  (* normal form: each output coordinate is the masked convex combination of the values *)
  Lemma attend_cell c j :
    valid (tshape out) (c :: j) ->
    (tat out (c :: j) ==
     wavg (wfun expf sc q k m p j) (fun t => bget v (c :: ins (p - 1) t j)) (seq 0 T))%Q.
  Proof.
    intros Hv. rewrite (attend_cell_eq c j Hv). apply qsum_wavg.
  Qed.
End Cell.
Arguments attend_cell {expf sc q k v m p qs ks out} Hatt Hagree c j _.

(* wavg with 0/positive weights is the declarative masked convex combination *)
Lemma wavg_is_mcc (T : nat) (kept : nat -> bool) (wt x : nat -> Q) :
  (wavg (fun t => if kept t then wt t else 0%Q) x (seq 0 T)
   == masked_convex_combination T kept wt x)%Q.
Proof.
  rewrite wavg_quot. unfold masked_convex_combination.
  rewrite (psum_map_ext (fun t => ((if kept t then wt t else 0) * x t)%Q)
                        (fun t => if kept t then (wt t * x t)%Q else 0%Q)).
  - reflexivity.
  - intros t _. destruct (kept t); ring.
Qed.

Lemma attend_is_mcc expf sc q k v m p qs ks out :
  attend expf sc q k v m p qs ks = Some out -> seq_agree k v p ->
  forall c j, valid (tshape out) (c :: j) ->
  (tat out (c :: j) ==
   masked_convex_combination (nth p (tshape k) 0%nat)
     (fun t => kept_at m (ins (p - 1) t j))
     (fun t => expf (e_at sc q k p (ins (p - 1) t j)))
     (fun t => bget v (c :: ins (p - 1) t j)))%Q.
Proof.
  intros Hatt Ha c j Hv. rewrite (attend_cell Hatt Ha c j Hv).
  unfold wfun. apply wavg_is_mcc.
Qed.

(* ---------- range ------------------------------------------------------------------------ *)
Lemma attention_in_kept_range expf sc q k v m p qs ks out :
  (forall x, (0 < expf x)%Q) ->
  attend expf sc q k v m p qs ks = Some out -> seq_agree k v p ->
  forall c j lo hi, valid (tshape out) (c :: j) ->
  (exists t, t < nth p (tshape k) 0 /\ kept_at m (ins (p - 1) t j) = true) ->
  (forall t, t < nth p (tshape k) 0 -> kept_at m (ins (p - 1) t j) = true ->
             (lo <= bget v (c :: ins (p - 1) t j) <= hi)%Q) ->
  (lo <= tat out (c :: j) <= hi)%Q.
Proof.
  intros Hexp Hatt Ha c j lo hi Hv [t0 [Ht0 Hk0]] Hr.
  rewrite (attend_cell Hatt Ha c j Hv).
  apply (wavg_range _ _ _ lo hi t0).
  - intros t _. unfold wfun. destruct (kept_at m (ins (p - 1) t j)); [apply Qlt_le_weak, Hexp|apply Qle_refl].
  - apply in_seq. lia.
  - unfold wfun. rewrite Hk0. apply Hexp.
  - intros t Ht Hpos. apply in_seq in Ht. apply Hr; [lia|].
    unfold wfun in Hpos. destruct (kept_at m (ins (p - 1) t j)); [reflexivity|]. exfalso. revert Hpos. apply Qlt_irrefl.
Qed.

Lemma attend_shape_det expf sc q k v m p qs ks out expf' sc' q' k' v' m' qs' ks' out' :
  attend expf sc q k v m p qs ks = Some out ->
  attend expf' sc' q' k' v' m' p qs' ks' = Some out' ->
  tshape q' = tshape q -> tshape k' = tshape k -> tshape v' = tshape v ->
  tshape out' = tshape out.
Proof.
  intros Ha Ha' Eq Ek Ev.
  destruct (attend_inv Ha) as [es [ps [F ->]]].
  destruct (attend_inv Ha') as [es' [ps' [F' ->]]].
  rewrite !memo_shape. cbn [tshape].
  pose proof (af_es F) as E1. pose proof (af_es F') as E2.
  rewrite unsq_shape in E1, E2. rewrite Eq, Ek in E2. rewrite E1 in E2. injection E2 as <-.
  pose proof (af_ps F) as P1. pose proof (af_ps F') as P2.
  rewrite Ev in P2. rewrite P1 in P2. injection P2 as <-. reflexivity.
Qed.
Arguments attend_shape_det {expf sc q k v m p qs ks out expf' sc' q' k' v' m' qs' ks' out'} _ _ _ _ _.

Lemma brow_unsq_ins q p j t t' :
  1 <= p -> p <= length (tshape q) -> p - 1 <= length j ->
  brow (unsq p q) (ins (p - 1) t j) = brow (unsq p q) (ins (p - 1) t' j).
Proof.
  intros Hp Hq Hj. unfold brow. apply map_ext. intros c. unfold bget. f_equal.
  rewrite unsq_shape.
  destruct p as [|pe]; [lia|]. replace (S pe - 1) with pe in * by lia.
  destruct (tshape q) as [|f s]; [cbn in Hq; lia|].
  rewrite ins_S. cbn [clamp]. f_equal.
  apply clamp_ins_one; [|exact Hj]. apply nth_ins. cbn in Hq. lia.
Qed.

(* The output at (c, j) is a function of the kept positions of row j, up to their order: keys, values and mask may
   be rearranged along the sequence axis by [sigma], and changed at will where the mask drops them. *)
Lemma attention_invariant expf sc q k v m k' v' m' p qs ks out out' (sigma : nat -> nat) :
  attend expf sc q k v m p qs ks = Some out ->
  attend expf sc q k' v' m' p qs ks = Some out' ->
  tshape k' = tshape k -> tshape v' = tshape v -> seq_agree k v p ->
  Permutation (map sigma (seq 0 (nth p (tshape k) 0))) (seq 0 (nth p (tshape k) 0)) ->
  forall c j, valid (tshape out) (c :: j) ->
  (forall t, t < nth p (tshape k) 0 ->
             kept_at m' (ins (p - 1) t j) = kept_at m (ins (p - 1) (sigma t) j)
             /\ (kept_at m (ins (p - 1) (sigma t) j) = true ->
                 brow k' (ins (p - 1) t j) = brow k (ins (p - 1) (sigma t) j)
                 /\ bget v' (c :: ins (p - 1) t j) = bget v (c :: ins (p - 1) (sigma t) j))) ->
  (tat out' (c :: j) == tat out (c :: j))%Q.
Proof.
  intros Hatt Hatt' Hks Hvs Ha Hperm c j Hv Hsame.
  assert (Ha' : seq_agree k' v' p) by (unfold seq_agree in *; rewrite Hks, Hvs; exact Ha).
  assert (Hv' : valid (tshape out') (c :: j)).
  { rewrite (attend_shape_det Hatt Hatt' eq_refl Hks Hvs). exact Hv. }
  rewrite (attend_cell Hatt' Ha' c j Hv').
  rewrite (attend_cell Hatt Ha c j Hv).
  rewrite Hks. set (T := nth p (tshape k) 0) in *.
  destruct (attend_inv Hatt) as [es [ps [F Eo]]].
  (* the length of j *)
  assert (Hj : p - 1 <= length j).
  { rewrite Eo, memo_shape in Hv. cbn [tshape] in Hv.
    assert (0 < nth p ps 0 \/ nth p ps 0 = 0) as [Hpos|Hz] by lia.
    - apply (f_valid_row F c j 0 Hv Hpos).
    - apply valid_length in Hv. rewrite del_length in Hv
        by (rewrite (f_ps_len F); apply (af_pk F)).
      rewrite (f_ps_len F) in Hv. pose proof (af_pk F). cbn in Hv. lia. }
  assert (Hq : forall t, brow (unsq p q) (ins (p - 1) t j) = brow (unsq p q) (ins (p - 1) (sigma t) j)).
  { intros t. apply brow_unsq_ins; [apply (af_p F)| |exact Hj].
    pose proof (af_qrank F). pose proof (af_pk F). lia. }
  transitivity (wavg (wfun expf sc q k m p j) (fun t => bget v (c :: ins (p - 1) t j)) (map sigma (seq 0 T)));
    [|apply wavg_perm; exact Hperm].
  transitivity (wavg (fun t => wfun expf sc q k m p j (sigma t))
                     (fun t => bget v (c :: ins (p - 1) (sigma t) j)) (seq 0 T));
    [|apply (wavg_map sigma (wfun expf sc q k m p j) (fun t => bget v (c :: ins (p - 1) t j)))].
  assert (Hw : forall t, In t (seq 0 T) -> wfun expf sc q k' m' p j t = wfun expf sc q k m p j (sigma t)).
  { intros t Ht. apply in_seq in Ht. destruct (Hsame t ltac:(lia)) as [Hm Hk].
    unfold wfun. rewrite Hm. destruct (kept_at m (ins (p - 1) (sigma t) j)); [|reflexivity].
    destruct (Hk eq_refl) as [Hk' _]. unfold e_at, qu. rewrite Hk', (Hq t). reflexivity. }
  apply wavg_ext.
  - intros t Ht. rewrite (Hw t Ht). reflexivity.
  - intros t Ht. rewrite (Hw t Ht). apply in_seq in Ht. destruct (Hsame t ltac:(lia)) as [_ Hk].
    unfold wfun. destruct (kept_at m (ins (p - 1) (sigma t) j)); [|ring].
    destruct (Hk eq_refl) as [_ Hx]. rewrite Hx. reflexivity.
Qed.

Lemma attention_blind_to_masked expf sc q k v k' v' m p qs ks out out' :
  attend expf sc q k v m p qs ks = Some out ->
  attend expf sc q k' v' m p qs ks = Some out' ->
  tshape k' = tshape k -> tshape v' = tshape v -> seq_agree k v p ->
  forall c j, valid (tshape out) (c :: j) ->
  (forall t, t < nth p (tshape k) 0 -> kept_at m (ins (p - 1) t j) = true ->
             brow k' (ins (p - 1) t j) = brow k (ins (p - 1) t j)
             /\ bget v' (c :: ins (p - 1) t j) = bget v (c :: ins (p - 1) t j)) ->
  (tat out' (c :: j) == tat out (c :: j))%Q.
Proof.
  intros Hatt Hatt' Hks Hvs Ha c j Hv Hsame.
  apply (attention_invariant expf sc q k v m k' v' m p qs ks out out' (fun t => t) Hatt Hatt' Hks Hvs Ha);
    [rewrite map_id; reflexivity|exact Hv|].
  intros t Ht. split; [reflexivity|]. apply Hsame, Ht.
Qed.

Definition mask_shape (m : option (tensor bool)) : option shape :=
  match m with None => None | Some mt => Some (tshape mt) end.

Lemma attention_permutation_invariant expf sc q k v m k' v' m' p qs ks out out' (sigma : nat -> nat) :
  attend expf sc q k v m p qs ks = Some out ->
  attend expf sc q k' v' m' p qs ks = Some out' ->
  tshape k' = tshape k -> tshape v' = tshape v -> mask_shape m' = mask_shape m -> seq_agree k v p ->
  Permutation (map sigma (seq 0 (nth p (tshape k) 0))) (seq 0 (nth p (tshape k) 0)) ->
  forall c j, valid (tshape out) (c :: j) ->
  (forall t, t < nth p (tshape k) 0 ->
             brow k' (ins (p - 1) t j) = brow k (ins (p - 1) (sigma t) j)
             /\ bget v' (c :: ins (p - 1) t j) = bget v (c :: ins (p - 1) (sigma t) j)
             /\ kept_at m' (ins (p - 1) t j) = kept_at m (ins (p - 1) (sigma t) j)) ->
  (tat out' (c :: j) == tat out (c :: j))%Q.
Proof.
  intros Hatt Hatt' Hks Hvs _ Ha Hperm c j Hv Hsame.
  apply (attention_invariant expf sc q k v m k' v' m' p qs ks out out' sigma Hatt Hatt' Hks Hvs Ha Hperm c j Hv).
  intros t Ht. destruct (Hsame t Ht) as [Hk [Hx Hm]]. split; [exact Hm|]. intros _. split; assumption.
Qed.

(* ---------- the sequence dimension ----------------------------------------------------------- *)
(* a non-negative dim and its negative spelling address the same axis; every legal dim gives
   an r-position in [1, rank-1] *)
Lemma axis_pos_legal (dim : Z) (kr : nat) :
  (0 <= dim < Z.of_nat kr - 1)%Z ->
  axis_pos dim kr = Some (kr - 1 - Z.to_nat dim)
  /\ 1 <= kr - 1 - Z.to_nat dim < kr
  /\ ((1 <= dim)%Z -> axis_pos (dim - Z.of_nat kr) kr = axis_pos dim kr).
Proof.
  intros H. unfold axis_pos.
  assert (E1 : (dim <? 0)%Z = false) by (apply Z.ltb_ge; lia). rewrite E1.
  assert (E2 : ((1 - Z.of_nat kr <=? dim) && (0 <=? dim) && (dim <? Z.of_nat kr - 1))%Z = true).
  { rewrite !andb_true_iff. repeat split; [apply Z.leb_le|apply Z.leb_le|apply Z.ltb_lt]; lia. }
  rewrite E2. split; [reflexivity|]. split; [lia|].
  intros H1.
  assert (E3 : (dim - Z.of_nat kr <? 0)%Z = true) by (apply Z.ltb_lt; lia). rewrite E3.
  replace (dim - Z.of_nat kr + Z.of_nat kr)%Z with dim by lia.
  assert (E4 : ((1 - Z.of_nat kr <=? dim - Z.of_nat kr) && (0 <=? dim) && (dim <? Z.of_nat kr - 1))%Z = true).
  { rewrite !andb_true_iff. repeat split; [apply Z.leb_le|apply Z.leb_le|apply Z.ltb_lt]; lia. }
  rewrite E4. reflexivity.
Qed.

(* ---------- projections carry a bias exactly when one is given --------------------------------- *)
Lemma linear_bias_exact W t c i :
  (forall b, tat (linear W (Some b) t) (c :: i) = (tat (linear W None t) (c :: i) + nth c b 0%Q)%Q)
  /\ tat (linear W None t) (c :: i)
     = dotq (map (fun j => tat t (j :: i)) (seq 0 (hd 0 (tshape t)))) (nth c W []).
Proof. split; [intros b|]; reflexivity. Qed.

(* ---------- the oracle used by the correspondence meets the theorems' hypothesis -------------- *)
Lemma lookup_positive tbl :
  (forall kv, In kv tbl -> (0 < snd kv)%Q) -> forall x, (0 < lookup tbl x)%Q.
Proof.
  intros H x. unfold lookup.
  destruct (find (fun kv => near (Qred x) (fst kv)) tbl) as [kv|] eqn:E.
  - apply find_some in E. apply H, E.
  - reflexivity.
Qed.
