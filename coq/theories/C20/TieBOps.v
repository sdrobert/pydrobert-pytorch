(* C20, second tie - the tensor operations of `_concat_soft_attention`, composed the way the source composes them,
   compute the model's score tensor [e_at (score tanhf (Concat W b v))] (pure algebra; the interpreter is in
   TieBConcat.v).  Stated, like TieOps.v, for arbitrary model tensors under [attend_facts]. *)
From Coq Require Import List ZArith QArith Bool Arith Lia.
From PV Require Import MiniPy.Syntax MiniTorch.Ops MiniTorch.OpsC07 MiniTorch.OpsC20 MiniTorch.LemmasC20.
From PV Require Import MiniTorch.LemmasC07 MiniTorch.OpsC20B MiniTorch.LemmasC20B.
From PV Require Import C20.Model C20.Spec C20.Index C20.Proofs C20.Broadcast.
From PV Require Import C20.SrcRun.
From PV Require C20.TieOps.
Import ListNotations.
Local Open Scope nat_scope.

Section Concat.
  Variables q k v : tensor Q.
  Variable m : option (tensor bool).
  Variable p : nat.
  Variables es ps : shape.
  Hypothesis F : attend_facts q k v m p es ps.

  Lemma concat_score_ops tanhf W b vv qs ks :
    hd 0 (tshape q) = qs -> hd 0 (tshape k) = ks -> fl_sizes (Concat W b vv) qs ks = true ->
    exists QE KE CAT WC L2,
      expand_to (runsq p (mat q)) (rev es ++ [qs]) = Some QE /\
      expand_to (mat k) (rev es ++ [ks]) = Some KE /\
      cat_last QE KE = Some CAT /\
      OpsC20.linear CAT (rows_tensor (qs + ks) W) (option_map vec_tensor b) = Some WC /\
      OpsC20.linear (tanh_t tanhf WC) (rows_tensor (length vv) [vv]) None = Some L2 /\
      squeeze_dim L2 (-1) = Some (mat (mkT es (e_at (score tanhf (Concat W b vv)) q k p))).
  Proof.
    intros Hq Hk Hfl.
    pose proof (f_p F) as Hp.
    destruct (TieOps.shapes_qk q k v m p es ps F) as [sq' [sk' [Eq [Ek [Hpe Htl]]]]]. rewrite Hq in Eq. rewrite Hk in Ek.
    pose proof (af_es F) as Hes. rewrite Htl, Ek in Hes. cbn [tl] in Hes.
    destruct (bshape_into _ _ _ Hes) as [Hiq Hik].
    cbn [fl_sizes] in Hfl. apply andb_true_iff in Hfl. destruct Hfl as [Hfl Hbl].
    apply andb_true_iff in Hfl. destruct Hfl as [Hrows Hlv]. apply Nat.eqb_eq in Hlv.
    pose proof (TieOps.rows_sized (qs + ks) W Hrows) as Hall.
    assert (Hb : match b with None => True | Some bl => length bl = length W end).
    { destruct b as [bl|]; [apply Nat.eqb_eq; exact Hbl|exact I]. }
    set (QEm := mkT (qs :: es) (fun i => bget (unsq p q) i)).
    set (KEm := mkT (ks :: es) (fun i => bget k i)).
    set (CATm := mkT ((qs + ks) :: es)
                     (fun ci => match ci with
                                | c :: i => if c <? qs then tat QEm (c :: i) else tat KEm ((c - qs) :: i)
                                | [] => 0%Q
                                end)).
    set (TWm := mkT (tshape (linear W b CATm)) (fun i => tanhf (tat (linear W b CATm) i))).
    exists (mat QEm), (mat KEm), (mat CATm), (mat (linear W b CATm)), (mat (linear [vv] None TWm)).
    split.
    { change (rev es ++ [qs]) with (rev (qs :: es)). apply expand_unsq_mat.
      - rewrite Eq. cbn [length]. lia.
      - rewrite Eq, Hp, ins_S. cbn [intob]. rewrite Nat.eqb_refl. cbn [orb andb]. exact Hiq. }
    split.
    { change (rev es ++ [ks]) with (rev (ks :: es)). apply expand_mat.
      rewrite Ek. cbn [intob]. rewrite Nat.eqb_refl. cbn [orb andb]. exact Hik. }
    split; [apply (cat_last_mat QEm KEm qs ks es); reflexivity|].
    split; [apply (linear_mat CATm W b (qs + ks) es); [reflexivity|exact Hall|exact Hb]|].
    split.
    { rewrite tanh_mat. fold TWm.
      exact (linear_mat TWm [vv] None (length vv) es
               (f_equal (fun n => n :: es) (eq_sym Hlv)) (Forall_cons _ eq_refl (Forall_nil _)) I). }
    rewrite (squeeze_last_mat (linear [vv] None TWm) es) by reflexivity. f_equal.
    apply mat_ext. intros i Hi.
    unfold e_at, score, qu. cbn [linear tat tshape hd nth TWm].
    rewrite <- (map_map (fun j => tat (linear W b CATm) (j :: i)) tanhf). f_equal. f_equal.
    rewrite <- (TieOps.brow_valid (linear W b CATm) (length W) es i eq_refl Hi).
    rewrite (TieOps.brow_linear W b CATm (qs + ks) es i eq_refl Hb). f_equal.
    rewrite (TieOps.brow_valid CATm (qs + ks) es i eq_refl Hi), seq_app, map_app. f_equal.
    - unfold brow. rewrite unsq_shape, Eq, Hp, ins_S. cbn [hd].
      apply map_ext_in. intros j Hj. apply in_seq in Hj. cbn [CATm tat QEm].
      replace (j <? qs) with true by (symmetry; apply Nat.ltb_lt; lia). rewrite <- Hp. reflexivity.
    - unfold brow. rewrite Ek. cbn [hd Nat.add]. rewrite (seq_plus ks qs), map_map.
      apply map_ext_in. intros j Hj. apply in_seq in Hj. cbn [CATm tat KEm].
      replace (qs + j <? qs) with false by (symmetry; apply Nat.ltb_ge; lia).
      replace (qs + j - qs) with j by lia. reflexivity.
  Qed.
End Concat.
