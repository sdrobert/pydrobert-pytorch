(* C20 — lemmas about finite sums of rationals and masked convex combinations. *)
From Coq Require Import List Arith Bool ZArith QArith Qabs Lia Lqa Permutation Setoid Morphisms.
From PV Require Import C20.Model C20.Spec.
Import ListNotations.
Local Open Scope Q_scope.

Lemma strip2_eq n : forall d,
  (Zpos (fst (strip2 n d)) * Zpos d = Zpos n * Zpos (snd (strip2 n d)))%Z.
Proof.
  induction n as [n IH|n IH|]; intros d; try (cbn; lia).
  destruct d as [d|d|]; try (cbn; lia).
  cbn [strip2]. specialize (IH d).
  rewrite (Pos2Z.inj_xO d), (Pos2Z.inj_xO n). lia.
Qed.

Lemma qnorm_eq x : qnorm x == x.
Proof.
  destruct x as [[|n|n] d]; unfold qnorm, Qeq; cbn [Qnum Qden]; [reflexivity| |].
  - apply strip2_eq.
  - pose proof (strip2_eq n d) as H.
    rewrite <- !Pos2Z.opp_pos. lia.
Qed.

Lemma qsum_psum l : qsum l == psum l.
Proof.
  induction l as [|x l IH]; [reflexivity|].
  cbn [qsum psum fold_right]. rewrite qnorm_eq.
  fold (qsum l). rewrite IH. reflexivity.
Qed.

Lemma psum_map_ext {A} (f g : A -> Q) l :
  (forall t, In t l -> f t == g t) -> psum (map f l) == psum (map g l).
Proof.
  induction l as [|a l IH]; intros H; cbn [map psum]; [reflexivity|].
  rewrite (H a) by (left; reflexivity). rewrite IH; [reflexivity|].
  intros t Ht. apply H. right. exact Ht.
Qed.

Lemma psum_scale {A} (c : Q) (f : A -> Q) l :
  psum (map (fun t => c * f t) l) == c * psum (map f l).
Proof.
  induction l as [|a l IH]; cbn [map psum]; [ring|]. rewrite IH. ring.
Qed.

Lemma psum_perm l l' : Permutation l l' -> psum l == psum l'.
Proof.
  induction 1 as [|x l l' _ IH|x y l|l l' l'' _ IH1 _ IH2]; cbn [map psum].
  - reflexivity.
  - rewrite IH. reflexivity.
  - ring.
  - rewrite IH1. exact IH2.
Qed.

Lemma psum_nonneg {A} (f : A -> Q) l :
  (forall t, In t l -> 0 <= f t) -> 0 <= psum (map f l).
Proof.
  induction l as [|a l IH]; intros H; cbn [map psum]; [lra|].
  assert (0 <= f a) by (apply H; left; reflexivity).
  assert (0 <= psum (map f l)) by (apply IH; intros; apply H; right; assumption).
  lra.
Qed.

Lemma psum_pos {A} (f : A -> Q) l t0 :
  (forall t, In t l -> 0 <= f t) -> In t0 l -> 0 < f t0 -> 0 < psum (map f l).
Proof.
  induction l as [|a l IH]; intros H Hin Hpos; [destruct Hin|].
  cbn [map psum]. assert (0 <= f a) by (apply H; left; reflexivity).
  assert (0 <= psum (map f l)) by (apply psum_nonneg; intros; apply H; right; assumption).
  destruct Hin as [->|Hin]; [lra|].
  assert (0 < psum (map f l)) by (apply IH; auto; intros; apply H; right; assumption).
  lra.
Qed.

(* weighted sums of values that lie in [lo, hi] wherever the weight is positive *)
Lemma psum_weighted_lo {A} (w x : A -> Q) lo l :
  (forall t, In t l -> 0 <= w t) ->
  (forall t, In t l -> 0 < w t -> lo <= x t) ->
  lo * psum (map w l) <= psum (map (fun t => w t * x t) l).
Proof.
  induction l as [|a l IH]; intros Hw Hx; cbn [map psum]; [lra|].
  assert (H0 : 0 <= w a) by (apply Hw; left; reflexivity).
  assert (IH' : lo * psum (map w l) <= psum (map (fun t => w t * x t) l)).
  { apply IH; intros; [apply Hw|apply Hx]; try right; assumption. }
  assert (Ha : lo * w a <= w a * x a).
  { destruct (Qlt_le_dec 0 (w a)) as [Hp|Hn].
    - assert (lo <= x a) by (apply Hx; [left; reflexivity|exact Hp]).
      setoid_replace (lo * w a) with (w a * lo) by ring.
      apply Qmult_le_l; assumption.
    - assert (w a == 0) by lra.
      rewrite H. lra. }
  lra.
Qed.

Lemma psum_weighted_hi {A} (w x : A -> Q) hi l :
  (forall t, In t l -> 0 <= w t) ->
  (forall t, In t l -> 0 < w t -> x t <= hi) ->
  psum (map (fun t => w t * x t) l) <= hi * psum (map w l).
Proof.
  intros Hw Hx.
  pose proof (psum_weighted_lo w (fun t => - x t) (- hi) l Hw) as H.
  assert (H1 : - hi * psum (map w l) <= psum (map (fun t => w t * - x t) l)).
  { apply H. intros t Ht Hp. specialize (Hx t Ht Hp). lra. }
  assert (H2 : psum (map (fun t => w t * - x t) l) == - psum (map (fun t => w t * x t) l)).
  { clear. induction l as [|a l IH]; cbn [map psum]; [ring|]. rewrite IH. ring. }
  rewrite H2 in H1. lra.
Qed.

(* ---- the masked convex combination (declarative form lives in Spec.v) -------------- *)
(* sum_t (w t / W) * x t  with  W = sum_t w t *)
Definition wavg {A} (w x : A -> Q) (l : list A) : Q :=
  psum (map (fun t => w t / psum (map w l) * x t) l).

Lemma wavg_quot {A} (w x : A -> Q) l :
  wavg w x l == psum (map (fun t => w t * x t) l) / psum (map w l).
Proof.
  unfold wavg. set (W := psum (map w l)).
  rewrite (psum_map_ext _ (fun t => / W * (w t * x t))).
  - rewrite psum_scale. unfold Qdiv. ring.
  - intros t _. unfold Qdiv. ring.
Qed.

Lemma wavg_range {A} (w x : A -> Q) l lo hi t0 :
  (forall t, In t l -> 0 <= w t) -> In t0 l -> 0 < w t0 ->
  (forall t, In t l -> 0 < w t -> lo <= x t <= hi) ->
  lo <= wavg w x l <= hi.
Proof.
  intros Hw Hin Hpos Hx. rewrite wavg_quot.
  assert (HW : 0 < psum (map w l)) by (eapply psum_pos; eauto).
  split.
  - apply Qle_shift_div_l; [exact HW|].
    apply psum_weighted_lo; [exact Hw|]. intros t Ht Hp. apply (Hx t Ht Hp).
  - apply Qle_shift_div_r; [exact HW|].
    apply psum_weighted_hi; [exact Hw|]. intros t Ht Hp. apply (Hx t Ht Hp).
Qed.

Lemma wavg_ext {A} (w w' x x' : A -> Q) l :
  (forall t, In t l -> w' t == w t) ->
  (forall t, In t l -> w' t * x' t == w t * x t) ->
  wavg w' x' l == wavg w x l.
Proof.
  intros Hw Hx. rewrite !wavg_quot.
  rewrite (psum_map_ext _ _ l Hx), (psum_map_ext _ _ l Hw). reflexivity.
Qed.

Lemma wavg_map {A B} (s : A -> B) (w x : B -> Q) (l : list A) :
  wavg (fun t => w (s t)) (fun t => x (s t)) l == wavg w x (map s l).
Proof.
  rewrite !wavg_quot. rewrite !map_map. reflexivity.
Qed.

Lemma wavg_perm {A} (w x : A -> Q) l l' : Permutation l l' -> wavg w x l == wavg w x l'.
Proof.
  intros H. rewrite !wavg_quot.
  rewrite (psum_perm _ _ (Permutation_map (fun t => w t * x t) H)).
  rewrite (psum_perm _ _ (Permutation_map w H)). reflexivity.
Qed.

(* the model's sums are the plain ones *)
Lemma qsum_wavg {A} (w x : A -> Q) l :
  qsum (map (fun t => w t / qsum (map w l) * x t) l) == wavg w x l.
Proof.
  rewrite qsum_psum. unfold wavg. apply psum_map_ext. intros t _.
  rewrite qsum_psum. reflexivity.
Qed.
