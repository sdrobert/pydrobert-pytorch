(* C20 - tie between the Python text of `GlobalSoftAttention.forward` / `check_input`,
   `DotProductSoftAttention.score`, `GeneralizedDotProductSoftAttention.score` (_attn.py) and
   PV.C20.Model, checked by the kernel.  PV.Gen.C20Src.* are the MiniPy terms harness/py2coq/translate.py
   regenerates from /repo on every run; PV.MiniPy.Interp is their semantics; the torch calls mean what
   PV.MiniTorch.OpsC20 says (through SrcRun.ext20); the exponential inside softmax is an oracle. *)
From Coq Require Import ZArith QArith List String Bool Arith Lia ZifyBool ZifyNat.
From PV Require Import MiniPy.Syntax MiniPy.Interp MiniTorch.Ops MiniTorch.OpsC07 MiniTorch.OpsC20 MiniTorch.LemmasC20.
From PV Require Import Gen.C20Src C20.SrcRun C20.SrcRunB C20.TieOps.
From PV Require C20.Model C20.Spec C20.Index C20.Proofs C20.Broadcast MiniTorch.LemmasC07.
Import ListNotations.
Local Open Scope string_scope.

(* A tensor or a shape is written [VTuple (its components)], the components folded: the interpreter only inspects
   the outermost constructor of such a value, so [step] decides every case analysis on it. *)
Definition items (v : val) : list val := match v with VTuple l => l | _ => [] end.
Definition qitems (t : tn Q) : list val := items (enc_q t).
Definition fitems (t : tn xq) : list val := items (enc_f t).
Definition bitems (t : tn bool) : list val := items (enc_b t).
Definition sitems (s : list nat) : list val := items (shape_val s).
Notation Tq t := (VTuple (qitems t)).
Notation Tf t := (VTuple (fitems t)).
Notation Tb t := (VTuple (bitems t)).
Notation Ts s := (VTuple (sitems s)).

Lemma Tq_enc t : enc_q t = Tq t.  Proof. reflexivity. Qed.
Lemma Tf_enc t : enc_f t = Tf t.  Proof. reflexivity. Qed.
Lemma Tb_enc t : enc_b t = Tb t.  Proof. reflexivity. Qed.
Lemma Ts_enc s : shape_val s = Ts s.  Proof. reflexivity. Qed.

Definition ret_t (why : string) (o : option (tn Q)) (st : state) : outcome val :=
  match o with Some t => Ok (Tq t) st | None => oob why end.
Definition bias_val (bo : option (tn Q)) : val := match bo with None => VNone | Some t => Tq t end.

(* While a statement runs the rest of the program waits behind [then_ ext r], [r] a local definition: reduction
   and rewriting through the program text are what makes a run slow.  [next] starts the next statement
   ([exec ext (SSeq a b) st] is [bind (exec ext a st) (then_ ext b)] by definition); [step] runs the interpreter
   up to the next call of the environment or the next undecided test ([lazy] for [eval]: [cbn] is slow on it; the
   reduced goal is installed by one [change], one conversion for the kernel to check). *)
Definition then_ ext (b : stmt) (c : ctl) (st : state) : outcome ctl :=
  match c with CNormal => exec ext b st | CReturn v => Ok c st end.

Ltac step :=
  lazymatch goal with
  | |- ?G =>
      let G := eval cbn [exec] in G in
      let G := eval lazy [eval bind] in G in
      let G := eval cbn [exec eval bind assign_all store place_of set_var update lookup vars events String.eqb
                         Ascii.eqb Bool.eqb truthy builtin is rich foreign andb orb negb binop_name cmpop_name
                         String.append method attribute dict_get container_items binop_eval is_inf num_bin as_z as_q
                         cmp_eval val_eqb Z.opp option_map ret_t bias_val] in G in
      change G
  end.

Ltac split_seq e s st old :=
  lazymatch s with
  | SSeq ?a ?b => let r := fresh "rest" in pose (r := b); change old with (bind (exec e a st) (then_ e r))
  | _ => change old with (exec e s st)
  end.

Ltac next :=
  lazymatch goal with
  | |- context [then_ ?e ?r CNormal ?st] =>
      let s := eval unfold r in r in split_seq e s st (then_ e r CNormal st); clear r
  | |- context [exec ?e (SSeq ?a ?b) ?st] => split_seq e (SSeq a b) st (exec e (SSeq a b) st)
  end; step.

Lemma q_cmp_int op a b :
  q_cmp op (inject_Z a) (inject_Z b) =
  match op with Lt => (a <? b)%Z | LtE => (a <=? b)%Z | Gt => (b <? a)%Z | GtE => (b <=? a)%Z | _ => false end.
Proof.
  unfold q_cmp, Qcompare. cbn [Qnum Qden inject_Z]. rewrite !Z.mul_1_r.
  destruct op; try reflexivity; destruct (Z.compare_spec a b); lia.
Qed.

Lemma removelast_map {A B} (f : A -> B) l : removelast (map f l) = map f (removelast l).
Proof.
  induction l as [|x l IH]; [reflexivity|]. cbn [map removelast].
  destruct l as [|y l]; [reflexivity|]. cbn [map] in *. rewrite IH. reflexivity.
Qed.

Lemma rev_removelast {A} (l : list A) : rev (removelast l) = tl (rev l).
Proof.
  rewrite <- (rev_involutive l) at 1. destruct (rev l) as [|x r]; [reflexivity|].
  cbn [rev tl]. rewrite removelast_last. apply rev_involutive.
Qed.

Lemma foreign_item_shape s i : foreign_item (shape_val s) (VInt i) = false.
Proof. destruct s as [|a [|b [|c s]]]; reflexivity. Qed.

Lemma subscript_last s x r st : rev s = x :: r ->
  subscript (Ts s) (VInt (-1)) st = Ok (VInt (Z.of_nat x)) st.
Proof.
  intros H. rewrite <- Ts_enc.
  unfold subscript. pose proof (foreign_item_shape s (-1)) as Hf. unfold shape_val in *. rewrite Hf. clear Hf.
  apply (f_equal (@rev nat)) in H. rewrite rev_involutive in H. subst s. cbn [rev].
  rewrite map_length, app_length. cbn [List.length].
  replace ((-1 <? 0)%Z) with true by reflexivity.
  set (n := (List.length (rev r) + 1)%nat).
  assert (B : ((0 <=? -1 + Z.of_nat n)%Z && (-1 + Z.of_nat n <? Z.of_nat n)%Z)%bool = true) by lia.
  rewrite B. f_equal.
  replace (Z.to_nat (-1 + Z.of_nat n)) with (List.length (rev r)) by lia.
  rewrite map_app, app_nth2 by (rewrite map_length; lia). rewrite map_length, Nat.sub_diag. reflexivity.
Qed.

(* shape[:-1] is no item of the subset: the environment is asked *)
Lemma subscript_slice s k st : subscript (Ts s) (VTuple k) st = Stuck "subscript".
Proof. reflexivity. Qed.

Lemma broadcast_shapes_r a b : broadcast_shapes a b = option_map (@rev nat) (Model.bshape (rev a) (rev b)).
Proof. reflexivity. Qed.

Lemma bshapes_init a b x ra y rb : rev a = x :: ra -> rev b = y :: rb ->
  broadcast_shapes (removelast a) (removelast b) = option_map (@rev nat) (Model.bshape ra rb).
Proof. intros Ha Hb. rewrite broadcast_shapes_r, !rev_removelast, Ha, Hb. reflexivity. Qed.

Lemma bshapes_rev es b r : Model.bshape es (rev b) = Some r -> broadcast_shapes (rev es) b = Some (rev r).
Proof. intros H. rewrite broadcast_shapes_r, rev_involutive, H. reflexivity. Qed.

Lemma bshapes_snoc es b r : Model.bshape (1%nat :: es) (rev b) = Some r ->
  broadcast_shapes (rev es ++ [1%nat]) b = Some (rev r).
Proof. intros H. rewrite broadcast_shapes_r, rev_app_distr, rev_involutive. cbn [rev app]. rewrite H. reflexivity. Qed.

(* What [ext20_ops] answers, call by call; the environments that fall back to it ([extB_ops], and [ext20],
   [ext_concat], which add the methods of self) answer alike, and the runs below are stated for any such one. *)
Definition env : Type := string -> list val -> list (string * val) -> state -> outcome val.

Record torch_env {expf : Q -> Q} {ext : env} : Prop := {
  e_dim x st : ext "$method.dim" [Tq x] [] st = Ok (VInt (Z.of_nat (List.length (shp x)))) st;
  e_shape_q x st : ext "$attr.shape" [Tq x] [] st = Ok (Ts (shp x)) st;
  e_shape_b x st : ext "$attr.shape" [Tb x] [] st = Ok (Ts (shp x)) st;
  e_device x st : ext "$attr.device" [Tq x] [] st = Ok device_token st;
  e_ones st :
    ext "torch.ones" [VTuple [VInt 1]] [("device", device_token); ("dtype", bool_token)] st
    = Ok (Tb (ones_bool [1%nat])) st;
  e_inf st : ext "float" [VStr "inf"] [] st = Ok (VInf true) st;
  e_invert m st : ext "$invert" [Tb m] [] st = Ok (Tb (invert m)) st;
  e_unsqueeze x d st : ext "$method.unsqueeze" [Tq x; VInt d] [] st = ret_t "unsqueeze" (unsqueeze x d) st;
  e_sum x d st : ext "$method.sum" [Tq x; VInt d] [] st = ret_t "sum" (sum_dim x d) st;
  e_masked_fill x m st :
    ext "$method.masked_fill" [Tq x; Tb m; VInf false] [] st =
    match masked_fill_ninf x m with Some r => Ok (Tf r) st | None => oob "masked_fill" end;
  e_mul x y st : ext "operator" [VStr "mul"; Tq x; Tq y] [] st = ret_t "mul" (mul x y) st;
  e_mul_s x c st : ext "operator" [VStr "mul"; Tq x; VQ c] [] st = Ok (Tq (mul_s x c)) st;
  e_softmax_q x d st :
    ext "torch.nn.functional.softmax" [Tq x; VInt d] [] st =
    ret_t "softmax" (softmax expf (mkTn (shp x) (map Fin (dat x))) d) st;
  e_softmax_f x d st : ext "torch.nn.functional.softmax" [Tf x; VInt d] [] st = ret_t "softmax" (softmax expf x d) st;
  e_linear x w bo st :
    ext "torch.nn.functional.linear" [Tq x; Tq w; bias_val bo] [] st = ret_t "linear" (linear x w bo) st;
  e_bshapes a b st :
    ext "broadcast_shapes" [Ts a; Ts b] [] st =
    match broadcast_shapes a b with Some s => Ok (Ts s) st | None => Exc runtime_error st end;
  e_init s st :
    ext "$getitem" [Ts s; VTuple [VStr "$slice"; VNone; VInt (-1); VNone]] [] st = Ok (Ts (removelast s)) st;
  e_snoc s st : ext "operator" [VStr "add"; Ts s; VTuple [VInt 1]] [] st = Ok (Ts (s ++ [1%nat])) st
}.

Arguments torch_env : clear implicits.

Lemma any_shape_q x : any_shape20 (enc_q x) = Some (shp x).
Proof. unfold any_shape20. rewrite dec_x_enc_q. reflexivity. Qed.

Lemma any_shape_b x : any_shape20 (enc_b x) = Some (shp x).
Proof. unfold any_shape20. rewrite dec_x_enc_b, dec_b_enc_b. reflexivity. Qed.

Lemma env20 expf : torch_env expf (ext20_ops expf).
Proof.
  split; intros; rewrite <- ?Tq_enc, <- ?Tf_enc, <- ?Tb_enc, <- ?Ts_enc; unfold ext20_ops, ret_t, bias_val;
    cbn [is String.eqb Ascii.eqb Bool.eqb negb no_kw];
    rewrite ?any_shape_q, ?any_shape_b, ?dec_q_enc_q, ?dec_b_enc_b, ?dec_x_enc_q, ?dec_x_enc_f, ?dec_q_VQ;
    try reflexivity.
  - destruct bo as [t|]; [rewrite <- Tq_enc, dec_q_enc_q|]; reflexivity.
  - unfold shape_val. rewrite !LemmasC07.dec_nats_enc. reflexivity.
  - unfold shape_val. rewrite removelast_map. reflexivity.
  - unfold shape_val. rewrite map_app. reflexivity.
Qed.

Fixpoint drop_seq (n : nat) (s : stmt) : stmt :=
  match n, s with S n', SSeq _ b => drop_seq n' b | _, _ => s end.

Definition score_vars (self : val) (q k : tn Q) : list (string * val) :=
  ("self", self) :: ("query", enc_q q) :: ("key", enc_q k) :: globals20.

#[global] Arguments exec ext s !st.
#[global] Arguments eval ext e !st.
#[global] Arguments store ext place v !st.
#[global] Arguments assign_all ext ts v !st.
#[global] Arguments attribute ext o a !st.
#[global] Arguments binop_eval op a b !st.
#[global] Arguments builtin f args !st.
#[global] Arguments method !o m !args.
#[global] Arguments cmp_eval op !a !b.
#[global] Arguments truthy !v.

Section Runs.
  Variables (expf : Q -> Q) (ext : env).
  Hypothesis E : torch_env expf ext.

  Lemma dot_score_run d (q k : tn Q) dim sc qu P S :
    dict_get d (VStr "dim") = Some (VInt dim) -> dict_get d (VStr "scale_factor") = Some (VQ sc) ->
    unsqueeze q dim = Some qu -> mul qu k = Some P -> sum_dim P (-1) = Some S ->
    exists st, Interp.run ext dot_score (score_vars (VDict d) q k) = Ok (enc_q (mul_s S sc)) st.
  Proof.
    intros Hd Hs Hu Hm Hsum. unfold Interp.run, score_vars, globals20. rewrite !Tq_enc. unfold dot_score.
    next. rewrite Hd. step. rewrite (e_unsqueeze E), Hu. step.
    next. rewrite (e_mul E), Hm. step. rewrite (e_sum E), Hsum. step. rewrite Hs. step.
    rewrite (e_mul_s E). step. eexists. reflexivity.
  Qed.

  Lemma general_score_run d (q k w : tn Q) bo dim qu WK P S :
    dict_get d (VStr "dim") = Some (VInt dim) -> dict_get d (VStr "weight") = Some (enc_q w) ->
    dict_get d (VStr "bias") = Some (bias_val bo) ->
    linear k w bo = Some WK -> unsqueeze q dim = Some qu -> mul qu WK = Some P -> sum_dim P (-1) = Some S ->
    exists st, Interp.run ext general_score (score_vars (VDict d) q k) = Ok (enc_q S) st.
  Proof.
    intros Hd Hw Hb Hl Hu Hm Hsum. unfold Interp.run, score_vars, globals20. rewrite !Tq_enc in *. unfold general_score.
    next. rewrite Hw. step. rewrite Hb. step. rewrite (e_linear E), Hl. step.
    next. rewrite Hd. step. rewrite (e_unsqueeze E), Hu. step.
    next. rewrite (e_mul E), Hm. step. rewrite (e_sum E), Hsum. step. eexists. reflexivity.
  Qed.

  Section CheckInput.
    Variables (d : list (val * val)) (q k v : tn Q) (mt : tn bool) (dim : Z) (qs ks : nat).
    Notation vars0 := (forward_vars_v (VDict d) (Tq q) (Tq k) (Tq v) (Tb mt)).
    Notation run_check := (Interp.run ext gsa_check_input vars0).
    Notation kr := (List.length (shp k)).

    Lemma check_input_rejects_rank : S (List.length (shp q)) <> kr -> exists st, run_check = Exc value_error st.
    Proof.
      intros Hrq. unfold Interp.run, gsa_check_input, forward_vars_v, globals20.
      assert (B1 : (Z.of_nat (List.length (shp q)) =? Z.of_nat kr - 1)%Z = false) by lia.
      next. rewrite (e_dim E). step.
      next. rewrite (e_dim E). step. rewrite B1. step. eexists. reflexivity.
    Qed.

    Hypothesis Hd : dict_get d (VStr "dim") = Some (VInt dim).
    Hypothesis Hq : dict_get d (VStr "query_size") = Some (VInt (Z.of_nat qs)).
    Hypothesis Hk : dict_get d (VStr "key_size") = Some (VInt (Z.of_nat ks)).
    Hypothesis Hrq : S (List.length (shp q)) = kr.
    Hypothesis Hrv : List.length (shp v) = kr.
    Variables sq' sk' : list nat.
    Hypothesis Hsq : rev (shp q) = qs :: sq'.
    Hypothesis Hsk : rev (shp k) = ks :: sk'.

    (* the tests of ranks and feature sizes pass *)
    Lemma check_input_sizes_ok :
      exec ext gsa_check_input (mkState vars0 [])
      = exec ext (drop_seq 5 gsa_check_input) (mkState (vars0 ++ [("key_dim", VInt (Z.of_nat kr))]) []).
    Proof.
      set (rest := exec ext (drop_seq 5 _) _). unfold gsa_check_input, forward_vars_v, globals20.
      assert (B1 : (Z.of_nat (List.length (shp q)) =? Z.of_nat kr - 1)%Z = true) by lia.
      assert (B2 : (Z.of_nat kr =? Z.of_nat (List.length (shp v)))%Z = true) by lia.
      next. rewrite (e_dim E). step.
      next. rewrite (e_dim E). step. rewrite B1. step.
      next. rewrite (e_dim E). step. rewrite B2. step.
      next. rewrite (e_shape_q E). step. rewrite (subscript_last _ _ _ _ Hsq). step. rewrite Hq. step.
      rewrite Z.eqb_refl. step.
      next. rewrite (e_shape_q E). step. rewrite (subscript_last _ _ _ _ Hsk). step. rewrite Hk. step.
      rewrite Z.eqb_refl. step.
      next. reflexivity.
    Qed.
    Ltac unfold_rest := cbn [drop_seq gsa_check_input forward_vars_v globals20 app].

    Lemma check_input_rejects_dim :
      (dim > Z.of_nat kr - 2 \/ dim < 1 - Z.of_nat kr)%Z -> exists st, run_check = Exc value_error st.
    Proof.
      intros Hdim. unfold Interp.run. rewrite check_input_sizes_ok. unfold_rest.
      assert (B4 : (Z.of_nat kr =? -1)%Z = false) by lia.
      next. rewrite Hd. step. rewrite q_cmp_int.
      destruct (Z.of_nat kr - 2 <? dim)%Z eqn:B3; step.
      - eexists. reflexivity.
      - assert (B5 : (dim <? - Z.of_nat kr + 1)%Z = true) by lia.
        rewrite B4. step. rewrite Hd. step. rewrite q_cmp_int, B5. step. eexists. reflexivity.
    Qed.

    Hypothesis Hdim : (1 - Z.of_nat kr <= dim <= Z.of_nat kr - 2)%Z.
    Variables (qu : tn Q) (uq' : list nat).
    Hypothesis Hu : unsqueeze q dim = Some qu.
    Hypothesis Hsu : rev (shp qu) = qs :: uq'.

    (* dim is in range; then e_shape = broadcast_shapes(query.unsqueeze(dim).shape[:-1], key.shape[:-1]) *)
    Lemma check_input_e_shape :
      exec ext (drop_seq 5 gsa_check_input) (mkState (vars0 ++ [("key_dim", VInt (Z.of_nat kr))]) [])
      = match Model.bshape uq' sk' with
        | Some es =>
            exec ext (drop_seq 7 gsa_check_input)
                 (mkState (vars0 ++ [("key_dim", VInt (Z.of_nat kr)); ("e_shape", Ts (rev es))]) [])
        | None => Exc runtime_error (mkState (vars0 ++ [("key_dim", VInt (Z.of_nat kr))]) [])
        end.
    Proof.
      set (rest := match Model.bshape _ _ with Some _ => _ | None => _ end). unfold_rest.
      assert (B3 : (Z.of_nat kr - 2 <? dim)%Z = false) by lia.
      assert (B4 : (Z.of_nat kr =? -1)%Z = false) by lia.
      assert (B5 : (dim <? - Z.of_nat kr + 1)%Z = false) by lia.
      next. rewrite Hd. step. rewrite q_cmp_int, B3. step. rewrite B4. step. rewrite Hd. step.
      rewrite q_cmp_int, B5. step.
      next. rewrite Hd. step. rewrite (e_unsqueeze E), Hu. step.
      rewrite (e_shape_q E). step. rewrite subscript_slice, (e_init E). step.
      rewrite (e_shape_q E). step. rewrite subscript_slice, (e_init E). step.
      rewrite (e_bshapes E), (bshapes_init _ _ _ _ _ _ Hsu Hsk). subst rest.
      destruct (Model.bshape uq' sk') as [es|]; step; [next|]; reflexivity.
    Qed.

    Lemma check_input_rejects_bcast : Model.bshape uq' sk' = None -> exists st, run_check = Exc runtime_error st.
    Proof. intros Hes. unfold Interp.run. rewrite check_input_sizes_ok, check_input_e_shape, Hes. eexists. reflexivity. Qed.

    Lemma check_input_accepts es ms ps :
      Model.bshape uq' sk' = Some es ->
      Model.bshape es (rev (shp mt)) = Some ms ->
      Model.bshape (1%nat :: es) (rev (shp v)) = Some ps ->
      exists st, run_check = Ok VNone st.
    Proof.
      intros Hes Hms Hps. unfold Interp.run. rewrite check_input_sizes_ok, check_input_e_shape, Hes. unfold_rest.
      next. rewrite (e_shape_b E). step. rewrite (e_bshapes E), (bshapes_rev _ _ _ Hms). step.
      next. rewrite (e_snoc E). step. rewrite (e_shape_q E). step.
      rewrite (e_bshapes E), (bshapes_snoc _ _ _ Hps). step. eexists. reflexivity.
    Qed.
  End CheckInput.

  Lemma if_Ok (b : bool) x y st : (if b then Ok (VInt x) st else Ok (VInt y) st) = Ok (VInt (if b then x else y)) st.
  Proof. destruct b; reflexivity. Qed.

  (* GlobalSoftAttention.forward: what [ext] answers for the two methods of self is a hypothesis. *)
  Section Forward.
    Variables (d : list (val * val)) (dim : Z) (q k v : tn Q).
    Hypothesis Hd : dict_get d (VStr "dim") = Some (VInt dim).
    Notation self_is st := (lookup "self" (vars st) = Some (VDict d)).
    Notation check_input_ok mt :=
      (forall st, self_is st -> ext "self.check_input" [Tq q; Tq k; Tq v; Tb mt] [] st = Ok VNone st).
    Variables (E1 A AU P2 OUT : tn Q).
    Hypothesis Hscore : forall st, self_is st -> ext "self.score" [Tq q; Tq k] [] st = Ok (Tq E1) st.
    Hypothesis Hau : unsqueeze A (-1) = Some AU.
    Hypothesis Hp2 : mul AU v = Some P2.
    Hypothesis Hout : sum_dim P2 dim = Some OUT.

    Lemma forward_run_nomask :
      check_input_ok (ones_bool [1%nat]) ->
      softmax expf (mkTn (shp E1) (map Fin (dat E1))) (if (0 <=? dim)%Z then dim else (dim + 1)%Z) = Some A ->
      exists st, Interp.run ext gsa_forward (forward_vars (VDict d) q k v None) = Ok (enc_q OUT) st.
    Proof.
      intros Hci Hsm. unfold Interp.run, forward_vars, mask_val, globals20. rewrite !Tq_enc. unfold gsa_forward.
      next. rewrite (e_device E). step. rewrite (e_ones E). step. rewrite Hci by reflexivity. step.
      next. rewrite Hscore by reflexivity. step.
      next.
      next. rewrite Hd. step. rewrite q_cmp_int, !Hd. step. rewrite if_Ok. step.
      rewrite (e_softmax_q E), Hsm. step.
      next. rewrite (e_unsqueeze E), Hau. step. rewrite (e_mul E), Hp2. step. rewrite Hd. step.
      rewrite (e_sum E), Hout. step. eexists. reflexivity.
    Qed.

    Lemma forward_run_mask mt E2 :
      check_input_ok mt ->
      masked_fill_ninf E1 (invert mt) = Some E2 ->
      softmax expf E2 (if (0 <=? dim)%Z then dim else (dim + 1)%Z) = Some A ->
      exists st, Interp.run ext gsa_forward (forward_vars (VDict d) q k v (Some mt)) = Ok (enc_q OUT) st.
    Proof.
      intros Hci Hmf Hsm. unfold Interp.run, forward_vars, mask_val, globals20. rewrite !Tq_enc, Tb_enc.
      unfold gsa_forward.
      next. rewrite Hci by reflexivity. step.
      next. rewrite Hscore by reflexivity. step.
      next. rewrite (e_invert E). step. rewrite (e_inf E). step. rewrite (e_masked_fill E), Hmf. step.
      next. rewrite Hd. step. rewrite q_cmp_int, !Hd. step. rewrite if_Ok. step.
      rewrite (e_softmax_f E), Hsm. step.
      next. rewrite (e_unsqueeze E), Hau. step. rewrite (e_mul E), Hp2. step. rewrite Hd. step.
      rewrite (e_sum E), Hout. step. eexists. reflexivity.
    Qed.
  End Forward.

  (* an exception of check_input propagates out of forward (the score method is not reached) *)
  Lemma forward_run_exc d q k v m n :
    (forall mt st, lookup "self" (vars st) = Some (VDict d) ->
                   ext "self.check_input" [Tq q; Tq k; Tq v; Tb mt] [] st = Exc n st) ->
    exists st, Interp.run ext gsa_forward (forward_vars (VDict d) q k v m) = Exc n st.
  Proof.
    intros Hci. unfold Interp.run, forward_vars, mask_val, globals20. rewrite !Tq_enc.
    destruct m as [mt|]; [rewrite Tb_enc|]; unfold gsa_forward; next.
    - rewrite Hci by reflexivity. step. eexists. reflexivity.
    - rewrite (e_device E). step. rewrite (e_ones E). step. rewrite Hci by reflexivity. step.
      eexists. reflexivity.
  Qed.
End Runs.

Lemma env_ext20 expf cls : torch_env expf (ext20 expf cls).
Proof. destruct (env20 expf). split; assumption. Qed.

Lemma call_with_ok ext body vars0 v :
  (exists st', Interp.run ext body vars0 = Ok v st') -> forall st, call_with ext body vars0 st = Ok v st.
Proof. intros [st' H] st. unfold call_with. rewrite H. reflexivity. Qed.

Lemma call_with_exc ext body vars0 n :
  (exists st', Interp.run ext body vars0 = Exc n st') -> forall st, call_with ext body vars0 st = Exc n st.
Proof. intros [st' H] st. unfold call_with. rewrite H. reflexivity. Qed.

Lemma ext20_check_input expf cls self a b c mk st : lookup "self" (vars st) = Some self ->
  ext20 expf cls "self.check_input" [a; b; c; mk] [] st
  = call_with (ext20_ops expf) gsa_check_input (forward_vars_v self a b c mk) st.
Proof. intros H. unfold ext20. cbn [is String.eqb Ascii.eqb Bool.eqb]. rewrite H. reflexivity. Qed.

Lemma ext20_score expf cls self a b st : lookup "self" (vars st) = Some self ->
  ext20 expf cls "self.score" [a; b] [] st
  = call_body expf (score_body cls) (("self", self) :: ("query", a) :: ("key", b) :: globals20) st.
Proof. intros H. unfold ext20. cbn [is String.eqb Ascii.eqb Bool.eqb]. rewrite H. reflexivity. Qed.

Import C20.Model C20.Spec C20.Index C20.Proofs.
Local Open Scope nat_scope.

Lemma attend_heads expf sc q k v m p qs ks out :
  attend expf sc q k v m p qs ks = Some out -> hd 0 (tshape q) = qs /\ hd 0 (tshape k) = ks.
Proof.
  unfold attend. destruct (legalb q k v p qs ks) eqn:L; [|discriminate]. intros _.
  unfold legalb in L. repeat (apply andb_true_iff in L; destruct L as [L ?]).
  split; apply Nat.eqb_eq; assumption.
Qed.

Arguments attend_heads {expf sc q k v m p qs ks out} _.

Lemma axis_pos_range dim kr p : axis_pos dim kr = Some p -> (1 - Z.of_nat kr <= dim <= Z.of_nat kr - 2)%Z.
Proof.
  unfold axis_pos. destruct (dim <? 0)%Z eqn:N; destruct (_ && _)%bool eqn:B; try discriminate; intros _; lia.
Qed.

Lemma intob_bshape a : forall b, intob a b = true -> bshape b a = Some b.
Proof.
  induction a as [|x a IH]; intros b H.
  - destruct b; reflexivity.
  - destruct b as [|y b]; [discriminate|]. cbn in H. apply andb_true_iff in H. destruct H as [H1 H2].
    rewrite bshape_cons, (IH b H2). unfold bdim.
    apply orb_true_iff in H1. destruct H1 as [E|E]; apply Nat.eqb_eq in E; subst x.
    + rewrite Nat.eqb_refl. reflexivity.
    + destruct (Nat.eqb y 1); reflexivity.
Qed.

Lemma unsqueeze_last {X} (x : tn X) : unsqueeze x (-1) = Some (runsq 0 x).
Proof.
  rewrite (unsqueeze_runsq x (-1) (rank x)); [rewrite Nat.sub_diag; reflexivity|apply wrap_dim_last|lia].
Qed.

Lemma unsqueeze_query_raw (q k : tensor Q) dim p :
  axis_pos dim (List.length (tshape k)) = Some p -> S (List.length (tshape q)) = List.length (tshape k) ->
  unsqueeze (flat q) dim = Some (runsq p (mat q)).
Proof.
  intros Hax Hq. destruct (axis_pos_inv _ _ _ Hax) as [Hp [_ [Hw _]]]. unfold flat.
  rewrite (unsqueeze_runsq (mat q) dim (List.length (tshape k) - 1 - p)).
  - rewrite rank_mat. f_equal. f_equal. lia.
  - rewrite rank_mat, Hq. exact Hw.
  - rewrite rank_mat. lia.
Qed.

Lemma unsqueeze_query (q k v : tensor Q) m dim p es ps :
  axis_pos dim (List.length (tshape k)) = Some p -> attend_facts q k v m p es ps ->
  unsqueeze (flat q) dim = Some (runsq p (mat q)).
Proof. intros Hax F. exact (unsqueeze_query_raw q k dim p Hax (af_qrank F)). Qed.

Lemma es_nonempty q k v m p es ps : attend_facts q k v m p es ps -> intob [1] es = true.
Proof.
  intros F. pose proof (f_pe_es F) as H. destruct es as [|x r]; [cbn in H; lia|].
  cbn. rewrite orb_true_r. reflexivity.
Qed.

(* check_input accepts what the model accepts; [mt] = the mask tensor handed over (ones((1,)) without a mask) *)
Lemma check_input_run expf ext (E : torch_env expf ext) q k v m dim p es ps d qs ks (mt : tn bool) :
  axis_pos dim (List.length (tshape k)) = Some p -> attend_facts q k v m p es ps ->
  dict_get d (VStr "dim") = Some (VInt dim) ->
  dict_get d (VStr "query_size") = Some (VInt (Z.of_nat qs)) ->
  dict_get d (VStr "key_size") = Some (VInt (Z.of_nat ks)) ->
  hd 0 (tshape q) = qs -> hd 0 (tshape k) = ks ->
  intob (rev (shp mt)) es = true ->
  forall st, call_with ext gsa_check_input
               (forward_vars_v (VDict d) (Tq (flat q)) (Tq (flat k)) (Tq (flat v)) (Tb mt)) st = Ok VNone st.
Proof.
  intros Hax F Hd Hqs Hks Hq Hk Hm. apply call_with_ok.
  destruct (shapes_qk _ _ _ _ _ _ _ F) as [sq' [sk' [Eq [Ek [Hpe Htl]]]]]. rewrite Hq in Eq. rewrite Hk in Ek.
  pose proof (af_es F) as Hes. rewrite Htl, Ek in Hes. cbn [tl] in Hes.
  pose proof (f_p F) as Hp.
  apply (check_input_accepts expf ext E d (flat q) (flat k) (flat v) mt dim qs ks Hd Hqs Hks) with
    (sq' := sq') (sk' := sk') (qu := runsq p (mat q)) (uq' := ins (p - 1) 1 sq') (es := es) (ms := es) (ps := ps);
    try assumption; unfold flat; rewrite ?rshp_mat, ?shp_mat, ?rev_length; try assumption.
  - apply (af_qrank F).
  - apply (af_vrank F).
  - apply (axis_pos_range _ _ _ Hax).
  - apply (unsqueeze_query q k v m dim p es ps Hax F).
  - rewrite rshp_runsq, rshp_mat, Eq. rewrite Hp at 1. rewrite ins_S. reflexivity.
  - apply intob_bshape, Hm.
  - apply (af_ps F).
Qed.

(* GlobalSoftAttention.forward = Model.attend, for every environment [ext] that answers the torch calls as
   [ext20_ops] does, hands self.check_input to the translated check_input (run under such an environment [ops]),
   and whose self.score returns the model's scores.  The three classes of _attn.py are instances. *)
Theorem forward_tie_env expf (ext ops : env) d sc q k v m dim p qs ks out :
  torch_env expf ext -> torch_env expf ops ->
  (forall self a b c mk st, Interp.lookup "self" (vars st) = Some self ->
     ext "self.check_input" [a; b; c; mk] [] st = call_with ops gsa_check_input (forward_vars_v self a b c mk) st) ->
  axis_pos dim (List.length (tshape k)) = Some p ->
  attend expf sc q k v m p qs ks = Some out ->
  dict_get d (VStr "dim") = Some (VInt dim) ->
  dict_get d (VStr "query_size") = Some (VInt (Z.of_nat qs)) ->
  dict_get d (VStr "key_size") = Some (VInt (Z.of_nat ks)) ->
  (forall es ps, attend_facts q k v m p es ps ->
     forall st, Interp.lookup "self" (vars st) = Some (VDict d) ->
       ext "self.score" [Tq (flat q); Tq (flat k)] [] st = Ok (Tq (mat (mkT es (e_at sc q k p)))) st) ->
  exists st, Interp.run ext gsa_forward (forward_vars (VDict d) (flat q) (flat k) (flat v) (option_map flat m))
             = Ok (enc_q (flat out)) st.
Proof.
  intros E Eo Hcall Hax Hatt Hd Hqs Hks Hscore.
  destruct (attend_heads Hatt) as [Hq Hk].
  destruct (attend_inv Hatt) as [es [ps [F ->]]].
  destruct (attend_dims _ _ _ _ _ _ _ _ F Hax) as [Hr1 [Hr2 _]].
  destruct (weighted_sum_ops expf q k v m p es ps F sc dim Hr1) as [P2 [Hp2 Hout]].
  unfold flat at 4. rewrite mat_memo. cbn [tshape tat].
  pose proof (softmax_ops expf q k v m p es ps F sc _ Hr2) as Hsm.
  assert (Hci : forall mt, intob (rev (shp mt)) es = true -> forall st, Interp.lookup "self" (vars st) = Some (VDict d) ->
                  ext "self.check_input" [Tq (flat q); Tq (flat k); Tq (flat v); Tb mt] [] st = Ok VNone st).
  { intros mt Hm st Hs. rewrite (Hcall _ _ _ _ _ _ Hs).
    exact (check_input_run expf ops Eo q k v m dim p es ps d qs ks mt Hax F Hd Hqs Hks Hq Hk Hm st). }
  destruct m as [mt|]; cbn [option_map].
  - eapply (forward_run_mask expf ext E d dim (flat q) (flat k) (flat v) Hd _ _ _ P2 _
              (Hscore es ps F) (unsqueeze_last _) Hp2 Hout (flat mt)).
    + apply Hci. unfold flat. rewrite rshp_mat. apply (af_mask F).
    + apply (mask_ops q k v (Some mt) p es ps F sc mt eq_refl).
    + exact Hsm.
  - apply (forward_run_nomask expf ext E d dim (flat q) (flat k) (flat v) Hd _ _ _ P2 _
             (Hscore es ps F) (unsqueeze_last _) Hp2 Hout).
    + apply Hci, (es_nonempty _ _ _ _ _ _ _ F).
    + rewrite (no_mask_ops expf q k v None p es ps F sc eq_refl). exact Hsm.
Qed.

(* what the forward pass computes once the score method has returned the model's scores *)
Lemma forward_tie_score expf cls d sc q k v m dim p qs ks out :
  axis_pos dim (List.length (tshape k)) = Some p ->
  attend expf sc q k v m p qs ks = Some out ->
  dict_get d (VStr "dim") = Some (VInt dim) ->
  dict_get d (VStr "query_size") = Some (VInt (Z.of_nat qs)) ->
  dict_get d (VStr "key_size") = Some (VInt (Z.of_nat ks)) ->
  (forall es ps, attend_facts q k v m p es ps ->
     forall st, call_body expf (score_body cls) (score_vars (VDict d) (flat q) (flat k)) st
                = Ok (enc_q (mat (mkT es (e_at sc q k p)))) st) ->
  exists st, run_forward expf cls (VDict d) (flat q) (flat k) (flat v) (option_map flat m) = Ok (enc_q (flat out)) st.
Proof.
  intros Hax Hatt Hd Hqs Hks Hscore.
  apply (forward_tie_env expf (ext20 expf cls) (ext20_ops expf) d sc q k v m dim p qs ks out
           (env_ext20 expf cls) (env20 expf) (ext20_check_input expf cls) Hax Hatt Hd Hqs Hks).
  intros es ps F st Hs. rewrite (ext20_score _ _ _ _ _ _ Hs). apply (Hscore es ps F).
Qed.

(* DotProductSoftAttention: forward = attend with the dot-product score *)
Theorem forward_dot_tie expf tanhf sc dim qs q k v m p out :
  axis_pos dim (List.length (tshape k)) = Some p ->
  attend expf (score tanhf (Dot sc)) q k v m p qs qs = Some out ->
  exists st, run_forward expf DotCls (self_dot dim qs qs sc) (flat q) (flat k) (flat v) (option_map flat m)
             = Ok (enc_q (flat out)) st.
Proof.
  intros Hax Hatt. unfold self_dot.
  apply (forward_tie_score expf DotCls _ (score tanhf (Dot sc)) q k v m dim p qs qs out Hax Hatt);
    try reflexivity.
  intros es ps F. apply call_with_ok.
  destruct (attend_heads Hatt) as [Hq Hk].
  destruct (dot_score_ops q k v m p es ps F tanhf sc qs Hq Hk) as [P [S [Hm [Hs He]]]].
  rewrite <- He. cbn [score_body].
  apply (dot_score_run expf _ (env20 expf) _ (flat q) (flat k) dim sc (runsq p (mat q)) P S);
    try reflexivity; try assumption.
  apply (unsqueeze_query q k v m dim p es ps Hax F).
Qed.

(* ---- composed with the model theorems: statements purely about the interpreted source ------------------ *)
(* the inputs are legal for a module of size qs: ranks, feature sizes, and the three broadcasts of check_input
   (a statement about SHAPES only) *)
Definition legal_input (q k v : tensor Q) (m : option (tensor bool)) (p qs ks : nat) : Prop :=
  exists es ps, attend_facts q k v m p es ps /\ hd 0 (tshape q) = qs /\ hd 0 (tshape k) = ks.

Lemma legal_attend expf sc q k v m p qs ks :
  legal_input q k v m p qs ks -> exists out, attend expf sc q k v m p qs ks = Some out.
Proof.
  intros [es [ps [F [Hq Hk]]]]. unfold attend.
  assert (L : legalb q k v p qs ks = true).
  { unfold legalb. pose proof (af_p F). pose proof (af_pk F).
    pose proof (af_qrank F). pose proof (af_vrank F).
    repeat (apply andb_true_iff; split); lia. }
  rewrite L. unfold qu. rewrite (af_es F), (af_mask F), (af_ps F).
  eexists. reflexivity.
Qed.

Lemma attend_legal expf sc q k v m p qs ks out :
  attend expf sc q k v m p qs ks = Some out -> legal_input q k v m p qs ks.
Proof.
  intros H. destruct (attend_inv H) as [es [ps [F _]]].
  destruct (attend_heads H) as [Hq Hk]. exists es, ps. split; [exact F|split; assumption].
Qed.

Lemma read_flat (out : tensor Q) i : valid (rev (shp (flat out))) i -> tat (rd 0%Q (flat out)) i = tat out i.
Proof. unfold flat. rewrite rshp_mat. apply tat_rd_mat. Qed.

(* a run that returns the model's [attend], whatever the score class, inherits the model theorems *)
Lemma run_in_kept_range expf sc q k v m p qs ks (run : outcome val) :
  (forall out, attend expf sc q k v m p qs ks = Some out -> exists st, run = Ok (enc_q (flat out)) st) ->
  (forall x, (0 < expf x)%Q) -> legal_input q k v m p qs ks -> seq_agree k v p ->
  exists r st,
    run = Ok (enc_q r) st /\
    forall c j lo hi, valid (rev (shp r)) (c :: j) ->
      (exists t, t < nth p (tshape k) 0 /\ kept_at m (ins (p - 1) t j) = true) ->
      (forall t, t < nth p (tshape k) 0 -> kept_at m (ins (p - 1) t j) = true ->
                 (lo <= bget v (c :: ins (p - 1) t j) <= hi)%Q) ->
      (lo <= tat (rd 0%Q r) (c :: j) <= hi)%Q.
Proof.
  intros Htie Hpos Hleg Hagree.
  destruct (legal_attend expf sc _ _ _ _ _ _ _ Hleg) as [out Hatt]. destruct (Htie out Hatt) as [st Hrun].
  exists (flat out), st. split; [exact Hrun|].
  intros c j lo hi Hv Hex Hb. rewrite read_flat by exact Hv.
  unfold flat in Hv. rewrite rshp_mat in Hv.
  exact (attention_in_kept_range expf _ q k v m p qs ks out Hpos Hatt Hagree c j lo hi Hv Hex Hb).
Qed.

Lemma run_blind_to_masked expf sc q k v k' v' m p qs ks (run run' : outcome val) :
  (forall out, attend expf sc q k v m p qs ks = Some out -> exists st, run = Ok (enc_q (flat out)) st) ->
  (forall out, attend expf sc q k' v' m p qs ks = Some out -> exists st, run' = Ok (enc_q (flat out)) st) ->
  legal_input q k v m p qs ks -> tshape k' = tshape k -> tshape v' = tshape v -> seq_agree k v p ->
  exists r r' st st',
    run = Ok (enc_q r) st /\ run' = Ok (enc_q r') st' /\ shp r' = shp r /\
    forall c j, valid (rev (shp r)) (c :: j) ->
      (forall t, t < nth p (tshape k) 0 -> kept_at m (ins (p - 1) t j) = true ->
                 brow k' (ins (p - 1) t j) = brow k (ins (p - 1) t j)
                 /\ bget v' (c :: ins (p - 1) t j) = bget v (c :: ins (p - 1) t j)) ->
      (tat (rd 0%Q r') (c :: j) == tat (rd 0%Q r) (c :: j))%Q.
Proof.
  intros Htie Htie' Hleg Hk' Hv' Hagree.
  assert (Hleg' : legal_input q k' v' m p qs ks).
  { destruct Hleg as [es [ps [F [Hq Hk]]]]. exists es, ps. rewrite Hk'. split; [|split; assumption].
    destruct F. constructor; rewrite ?Hk', ?Hv'; assumption. }
  destruct (legal_attend expf sc _ _ _ _ _ _ _ Hleg) as [out Hatt].
  destruct (legal_attend expf sc _ _ _ _ _ _ _ Hleg') as [out' Hatt'].
  destruct (Htie out Hatt) as [st Hrun]. destruct (Htie' out' Hatt') as [st' Hrun'].
  pose proof (attend_shape_det Hatt Hatt' eq_refl Hk' Hv') as Hsh.
  exists (flat out), (flat out'), st, st'. split; [exact Hrun|]. split; [exact Hrun'|].
  split; [unfold flat; rewrite !shp_mat, Hsh; reflexivity|].
  intros c j Hv Hsame.
  assert (Hv2 : valid (tshape out) (c :: j)) by (unfold flat in Hv; rewrite rshp_mat in Hv; exact Hv).
  rewrite !read_flat by (unfold flat; rewrite rshp_mat, ?Hsh; exact Hv2).
  exact (attention_blind_to_masked expf _ q k v k' v' m p qs ks out out' Hatt Hatt' Hk' Hv' Hagree c j Hv2 Hsame).
Qed.

(* attribute names, for statements in files that avoid string literals *)
Definition attr_dim : string := "dim".
Definition attr_query_size : string := "query_size".
Definition attr_key_size : string := "key_size".

(* GeneralizedDotProductSoftAttention: forward = attend with the "general" score (weight rows W, optional bias) *)
Theorem forward_general_tie expf tanhf W b dim qs ks q k v m p out :
  axis_pos dim (List.length (tshape k)) = Some p ->
  fl_sizes (General W b) qs ks = true ->
  attend expf (score tanhf (General W b)) q k v m p qs ks = Some out ->
  exists st, run_forward expf GeneralCls (self_general dim qs ks W b) (flat q) (flat k) (flat v) (option_map flat m)
             = Ok (enc_q (flat out)) st.
Proof.
  intros Hax Hfl Hatt. unfold self_general.
  apply (forward_tie_score expf GeneralCls _ (score tanhf (General W b)) q k v m dim p qs ks out Hax Hatt);
    try reflexivity.
  intros es ps F. apply call_with_ok.
  destruct (attend_heads Hatt) as [Hq Hk].
  destruct (general_score_ops q k v m p es ps F tanhf W b qs ks Hq Hk Hfl) as [WK [P [Hl [Hm Hs]]]].
  cbn [score_body].
  apply (general_score_run expf _ (env20 expf) _ (flat q) (flat k) (rows_tensor ks W) (option_map vec_tensor b) dim
           (runsq p (mat q)) WK P); try reflexivity; try assumption.
  - destruct b; reflexivity.
  - apply (unsqueeze_query q k v m dim p es ps Hax F).
Qed.

Section Rejects.
  Variables (expf : Q -> Q) (cls : score_class) (d : list (val * val)) (dim : Z) (qs ks : nat).
  Variables (q k v : tensor Q) (m : option (tensor bool)).
  Hypothesis Hd : dict_get d (VStr "dim") = Some (VInt dim).
  Hypothesis Hqs : dict_get d (VStr "query_size") = Some (VInt (Z.of_nat qs)).
  Hypothesis Hks : dict_get d (VStr "key_size") = Some (VInt (Z.of_nat ks)).

  Notation fwd := (run_forward expf cls (VDict d) (flat q) (flat k) (flat v) (option_map flat m)).

  Lemma forward_exc n :
    (forall mt, exists st, Interp.run (ext20_ops expf) gsa_check_input
                             (forward_vars_v (VDict d) (Tq (flat q)) (Tq (flat k)) (Tq (flat v)) (Tb mt)) = Exc n st) ->
    exists st, fwd = Exc n st.
  Proof.
    intros H. apply (forward_run_exc expf _ (env_ext20 expf cls)). intros mt st Hs.
    rewrite (ext20_check_input _ _ _ _ _ _ _ _ Hs). apply call_with_exc, H.
  Qed.

  (* query must have one fewer dimension than key *)
  Theorem forward_rejects_rank :
    S (List.length (tshape q)) <> List.length (tshape k) -> exists st, fwd = Exc value_error st.
  Proof.
    intros H. apply forward_exc. intros mt.
    apply (check_input_rejects_rank expf _ (env20 expf)). unfold flat. rewrite !shp_mat, !rev_length. exact H.
  Qed.

  (* dim outside [-rank + 1, rank - 2] (the model: axis_pos = None; -1 apart, which check_input does not test) *)
  Theorem forward_rejects_dim sq' sk' :
    S (List.length (tshape q)) = List.length (tshape k) -> List.length (tshape v) = List.length (tshape k) ->
    tshape q = qs :: sq' -> tshape k = ks :: sk' ->
    axis_pos dim (List.length (tshape k)) = None -> dim <> (-1)%Z ->
    exists st, fwd = Exc value_error st.
  Proof.
    intros Hrq Hrv Eq Ek Hax Hm1. apply forward_exc. intros mt.
    apply (check_input_rejects_dim expf _ (env20 expf) d (flat q) (flat k) (flat v) mt dim qs ks Hd Hqs Hks) with
      (sq' := sq') (sk' := sk');
      unfold flat; rewrite ?rshp_mat, ?shp_mat, ?rev_length; try assumption.
    revert Hax. unfold axis_pos.
    destruct (dim <? 0)%Z eqn:N; destruct (_ && _)%bool eqn:B; try discriminate; intros _; lia.
  Qed.

  (* the batch shapes of query.unsqueeze(dim) and key do not broadcast *)
  Theorem forward_rejects_bcast p sq' sk' :
    S (List.length (tshape q)) = List.length (tshape k) -> List.length (tshape v) = List.length (tshape k) ->
    tshape q = qs :: sq' -> tshape k = ks :: sk' ->
    axis_pos dim (List.length (tshape k)) = Some p ->
    bshape (tl (tshape (unsq p q))) (tl (tshape k)) = None ->
    exists st, fwd = Exc runtime_error st.
  Proof.
    intros Hrq Hrv Eq Ek Hax Hb. apply forward_exc. intros mt.
    destruct (axis_pos_inv _ _ _ Hax) as [Hp _].
    rewrite unsq_shape, Eq, Ek in Hb. replace p with (S (p - 1)) in Hb by lia. rewrite ins_S in Hb. cbn [tl] in Hb.
    apply (check_input_rejects_bcast expf _ (env20 expf) d (flat q) (flat k) (flat v) mt dim qs ks Hd Hqs Hks) with
      (sq' := sq') (sk' := sk') (qu := runsq p (mat q)) (uq' := ins (p - 1) 1 sq'); try assumption;
      unfold flat; rewrite ?rshp_mat, ?shp_mat, ?rev_length; try assumption.
    - apply (axis_pos_range _ _ _ Hax).
    - apply (unsqueeze_query_raw q k dim p Hax Hrq).
    - rewrite rshp_runsq, rshp_mat, Eq. replace p with (S (p - 1)) at 1 by lia. rewrite ins_S. reflexivity.
  Qed.
End Rejects.
