(* C20, second tie - `ConcatSoftAttention.score` / `_concat_soft_attention` (_attn.py) and the forward pass of a
   ConcatSoftAttention against PV.C20.Model.attend with the concat score; then the multi-headed theorems for every
   wrapped flavour and their composition with the model theorems.  See TieB.v (environment lemmas), TieBOps.v (algebra),
   TieBMha.v (MultiHeadedAttention.forward). *)
From Coq Require Import ZArith QArith List String Bool Arith Lia ZifyBool ZifyNat.
From PV Require Import MiniPy.Syntax MiniPy.Interp MiniTorch.Ops MiniTorch.OpsC07 MiniTorch.OpsC20 MiniTorch.LemmasC20.
From PV Require Import MiniTorch.OpsC20B MiniTorch.LemmasC20B.
From PV Require Import Gen.C20Src Gen.C20BSrc C20.SrcRun C20.SrcRunB C20.TieOps C20.Tie C20.TieB C20.TieBMha.
From PV Require C20.Model C20.ModelB C20.Spec C20.Index C20.Proofs C20.Broadcast C20.MHA MiniTorch.LemmasC07.
From PV Require C20.TieBOps C20.MHARel.
Import ListNotations.
Local Open Scope string_scope.

(* ---- _concat_soft_attention ------------------------------------------------------------------------------------- *)
Lemma sitems_snoc s n : (sitems s ++ [VInt (Z.of_nat n)])%list = map (fun n => VInt (Z.of_nat n)) (s ++ [n]).
Proof. rewrite map_app. reflexivity. Qed.

Definition csa_vars (q k w : tn Q) (bo : option (tn Q)) (vv : tn Q) (dim : Z) : list (string * val) :=
  ("query", Tq q) :: ("key", Tq k) :: ("weight", Tq w) :: ("bias", bias_val bo) :: ("v", Tq vv)
  :: ("dim", VInt dim) :: globals20.

Lemma csa_run expf tanhf (q k w : tn Q) bo (vv : tn Q) dim qs ks uq' sk' qu es QE KE CAT WC VU L2 S :
  unsqueeze q dim = Some qu ->
  rev (shp qu) = qs :: uq' -> rev (shp k) = ks :: sk' -> Model.bshape uq' sk' = Some es ->
  expand_to qu (rev es ++ [qs]) = Some QE -> expand_to k (rev es ++ [ks]) = Some KE ->
  cat_last QE KE = Some CAT -> linear CAT w bo = Some WC ->
  unsqueeze vv 0 = Some VU -> linear (tanh_t tanhf WC) VU None = Some L2 -> squeeze_dim L2 (-1) = Some S ->
  exists st, Interp.run (extB_ops expf tanhf) csa (csa_vars q k w bo vv dim) = Ok (enc_q S) st.
Proof.
  intros Hu Hsu Hsk Hes HQE HKE HCAT HWC HVU HL2 HS. pose (E := envB expf tanhf).
  unfold Interp.run, csa, csa_vars, globals20.
  next. rewrite (e_unsqueeze E), Hu. step.
  next. rewrite (e_shape_q E). step. rewrite subscript_slice, (e_init E). step.
  rewrite (e_shape_q E). step. rewrite subscript_slice, (e_init E). step.
  rewrite (e_bshapes E), (bshapes_init _ _ _ _ _ _ Hsu Hsk), Hes. step.
  next. rewrite extB_size_q, (size_dim_last _ _ _ Hsu). step. rewrite sitems_snoc, extB_expand, HQE. step.
  next. rewrite extB_size_q, (size_dim_last _ _ _ Hsk). step. rewrite sitems_snoc, extB_expand, HKE. step.
  next. rewrite extB_cat, HCAT. step.
  next. rewrite (e_linear E), HWC. step.
  next. rewrite extB_tanh. step.
  next. rewrite (e_unsqueeze E), HVU. step. rewrite (e_linear E _ _ None), HL2. step.
  rewrite extB_squeeze, HS. step. eexists. reflexivity.
Qed.

(* ---- ConcatSoftAttention.score ------------------------------------------------------------------------------------- *)
Lemma concat_score_run expf tanhf d (q k w : tn Q) bo vv dim S :
  dict_get d (VStr "dim") = Some (VInt dim) -> dict_get d (VStr "weight") = Some (Tq w) ->
  dict_get d (VStr "bias") = Some (bias_val bo) -> dict_get d (VStr "v") = Some (Tq vv) ->
  (forall st, call_with (extB_ops expf tanhf) csa (csa_vars q k w bo vv dim) st = Ok (Tq S) st) ->
  exists st, Interp.run (ext_fn expf tanhf) concat_score (score_vars (VDict d) q k) = Ok (enc_q S) st.
Proof.
  intros Hd Hw Hb Hv Hcsa. unfold Interp.run, score_vars, globals20. rewrite !Tq_enc. unfold concat_score.
  step. rewrite Hw. step. rewrite Hb. step. rewrite Hv. step. rewrite Hd. step.
  unfold ext_fn. cbn [is String.eqb Ascii.eqb Bool.eqb].
  unfold csa_vars, globals20 in Hcsa. rewrite Hcsa. step. eexists. reflexivity.
Qed.

(* ---- the tie: forward of a ConcatSoftAttention = Model.attend with the concat score ----------------------------------- *)
Import C20.Model C20.Spec C20.Index C20.Proofs.
Local Open Scope nat_scope.

Lemma env_concat expf tanhf : torch_env expf (ext_concat expf tanhf).
Proof. destruct (env20 expf). split; assumption. Qed.

Lemma ext_concat_check_input expf tanhf self a b c mk st : Interp.lookup "self" (vars st) = Some self ->
  ext_concat expf tanhf "self.check_input" [a; b; c; mk] [] st
  = call_with (extB_ops expf tanhf) gsa_check_input (forward_vars_v self a b c mk) st.
Proof. intros H. unfold ext_concat. cbn [is String.eqb Ascii.eqb Bool.eqb]. rewrite H. reflexivity. Qed.

Lemma ext_concat_score expf tanhf self a b st : Interp.lookup "self" (vars st) = Some self ->
  ext_concat expf tanhf "self.score" [a; b] [] st
  = call_with (ext_fn expf tanhf) concat_score (("self", self) :: ("query", a) :: ("key", b) :: globals20) st.
Proof. intros H. unfold ext_concat. cbn [is String.eqb Ascii.eqb Bool.eqb]. rewrite H. reflexivity. Qed.

(* ConcatSoftAttention.score (through _concat_soft_attention) returns the model's score tensor *)
Lemma concat_score_tie expf tanhf W b vv dim qs ks q k v m p es ps :
  axis_pos dim (List.length (tshape k)) = Some p -> attend_facts q k v m p es ps ->
  hd 0 (tshape q) = qs -> hd 0 (tshape k) = ks -> fl_sizes (Concat W b vv) qs ks = true ->
  exists st, Interp.run (ext_fn expf tanhf) concat_score
               (score_vars (self_concat dim qs ks W b vv) (flat q) (flat k))
             = Ok (enc_q (mat (mkT es (e_at (score tanhf (Concat W b vv)) q k p)))) st.
Proof.
  intros Hax F Hq Hk Hfl.
  destruct (shapes_qk _ _ _ _ _ _ _ F) as [sq' [sk' [Eq [Ek [Hpe Htl]]]]]. rewrite Hq in Eq. rewrite Hk in Ek.
  pose proof (af_es F) as Hes. rewrite Htl, Ek in Hes. cbn [tl] in Hes.
  pose proof (f_p F) as Hp.
  destruct (TieBOps.concat_score_ops q k v m p es ps F tanhf W b vv qs ks Hq Hk Hfl)
    as [QE [KE [CAT [WC [L2 [HQE [HKE [HCAT [HWC [HL2 HE]]]]]]]]]].
  unfold self_concat.
  apply (concat_score_run expf tanhf _ (flat q) (flat k) (rows_tensor (qs + ks) W) (option_map vec_tensor b)
           (vec_tensor vv) dim); try reflexivity.
  - destruct b; reflexivity.
  - apply call_with_ok.
    apply (csa_run expf tanhf (flat q) (flat k) _ _ _ dim qs ks (ins (p - 1) 1 sq') sk' (runsq p (mat q)) es
             QE KE CAT WC (rows_tensor (List.length vv) [vv]) L2); try assumption.
    + apply (unsqueeze_query q k v m dim p es ps Hax F).
    + rewrite rshp_runsq, rshp_mat, Eq. rewrite Hp at 1. rewrite ins_S. reflexivity.
    + unfold flat. rewrite rshp_mat. exact Ek.
    + apply unsqueeze_vec.
Qed.

Theorem forward_concat_tie expf tanhf W b vv dim qs ks q k v m p out :
  axis_pos dim (List.length (tshape k)) = Some p ->
  fl_sizes (Concat W b vv) qs ks = true ->
  attend expf (score tanhf (Concat W b vv)) q k v m p qs ks = Some out ->
  exists st, run_single expf tanhf ConcatB (self_concat dim qs ks W b vv) (flat q) (flat k) (flat v) (option_map flat m)
             = Ok (enc_q (flat out)) st.
Proof.
  intros Hax Hfl Hatt. destruct (attend_heads Hatt) as [Hq Hk]. unfold self_concat.
  apply (forward_tie_env expf (ext_concat expf tanhf) (extB_ops expf tanhf) _ (score tanhf (Concat W b vv))
           q k v m dim p qs ks out (env_concat expf tanhf) (envB expf tanhf) (ext_concat_check_input expf tanhf)
           Hax Hatt); try reflexivity.
  intros es ps F st Hs. rewrite (ext_concat_score _ _ _ _ _ _ Hs). apply call_with_ok.
  exact (concat_score_tie expf tanhf W b vv dim qs ks q k v m p es ps Hax F Hq Hk Hfl).
Qed.

Lemma single_tie_fl expf tanhf fl dim dq dk :
  fl_sizes fl dq dk = true ->
  single_tie expf tanhf (cls_of fl) (self_single dim dq dk fl) (score tanhf fl) dim dq dk.
Proof.
  destruct fl as [sc|W b|W b vv]; cbn [cls_of self_single]; intros Hfl q k v m p out Hax Hatt.
  - cbn [fl_sizes] in Hfl. apply Nat.eqb_eq in Hfl. subst dk.
    exact (forward_dot_tie expf tanhf sc dim dq q k v m p out Hax Hatt).
  - exact (forward_general_tie expf tanhf W b dim dq dk q k v m p out Hax Hfl Hatt).
  - exact (forward_concat_tie expf tanhf W b vv dim dq dk q k v m p out Hax Hfl Hatt).
Qed.

(* GlobalSoftAttention.forward on a module of any of the three single-head classes = Model.attend *)
Theorem forward_fl_tie expf tanhf fl dim qs ks q k v m p out :
  axis_pos dim (List.length (tshape k)) = Some p ->
  fl_sizes fl qs ks = true ->
  attend expf (score tanhf fl) q k v m p qs ks = Some out ->
  exists st, run_single expf tanhf (cls_of fl) (self_single dim qs ks fl) (flat q) (flat k) (flat v) (option_map flat m)
             = Ok (enc_q (flat out)) st.
Proof. intros Hax Hfl Hatt. exact (single_tie_fl expf tanhf fl dim qs ks Hfl q k v m p out Hax Hatt). Qed.

(* ---- composed with the model theorems ------------------------------------------------------------------------------------ *)
Lemma mha_sizes_lengths P qs ks vs : ModelB.mha_sizes P qs ks vs = true ->
  List.length (WQ P) = num_heads P * d_q P /\ List.length (WK P) = num_heads P * d_k P
  /\ List.length (WV P) = num_heads P * d_v P.
Proof.
  intros Hsz. destruct (mha_sizes_inv _ _ _ _ Hsz) as [SQ [SK [SV _]]].
  repeat split; [apply (mat_sizes_inv _ _ _ _ SQ)|apply (mat_sizes_inv _ _ _ _ SK)|apply (mat_sizes_inv _ _ _ _ SV)].
Qed.

Import C20.Broadcast.

(* ---- statements purely about the source: legal SHAPES instead of "the model accepts" ------------------------------------ *)
(* the inputs are legal for a MultiHeadedAttention of sizes qs ks vs: ranks, feature sizes, position of the sequence axis
   and the three broadcasts of check_input (Model.mha_legalb, a function of the shapes), and the mask expands to the score
   shape (what masked_fill needs; check_input only asks for broadcastability) *)
Definition legal_mha_input (q k v : tensor Q) (m : option (tensor bool)) (p qs ks vs : nat) : Prop :=
  mha_legalb q k v m p qs ks vs = true /\
  match m with
  | None => True
  | Some mt => forall es, bshape (tl (tshape (unsq p q))) (tl (tshape k)) = Some es -> intob (tshape mt) es = true
  end.

Lemma legal_mha expf sc P q k v m p qs ks vs :
  legal_mha_input q k v m p qs ks vs -> exists out, mha expf sc P q k v m p 0 qs ks vs = Some out.
Proof.
  intros [Hleg Hmask]. unfold mha. rewrite Hleg.
  destruct (MHA.mha_legal_inv P _ _ _ _ _ _ _ _ Hleg)
    as [sq' [sk' [sv' [es [ps [Eq [Ek [Ev [Sqh [Skh [Svh [Hqr [Hvr [Hp1 [Hpk [Hes [_ Hps]]]]]]]]]]]]]]]]].
  rewrite Ev, bshape_cons in Hps. destruct (bshape es sv') as [r|] eqn:Er; [|discriminate].
  rewrite bdim_one_l in Hps. injection Hps as <-.
  assert (L : legal_input (q_heads P q) (k_heads P k) (v_heads P v) (mask_heads m 0) (S p) (d_q P) (d_k P)).
  { exists (num_heads P :: es), (d_v P :: num_heads P :: r). split; [|rewrite Sqh, Skh; split; reflexivity].
    constructor.
    - lia.
    - rewrite Skh. cbn [List.length]. lia.
    - rewrite Sqh, Skh. cbn [List.length]. lia.
    - rewrite Svh, Skh. cbn [List.length]. lia.
    - rewrite unsq_shape, Sqh, Skh. replace (S p) with (S (S (p - 1))) by lia. rewrite !ins_S. cbn [tl].
      apply bshape_same_head, Hes.
    - destruct m as [mt|]; [|reflexivity]. cbn [mask_heads]. rewrite unsq_shape, ins_0. cbn [intob].
      rewrite orb_true_r. cbn [andb]. apply Hmask.
      rewrite unsq_shape, Eq, Ek. replace p with (S (p - 1)) at 1 by lia. rewrite ins_S. cbn [tl]. exact Hes.
    - rewrite Svh, bshape_cons, (bshape_same_head _ _ _ _ Er), bdim_one_l. reflexivity. }
  destruct (legal_attend expf sc _ _ _ _ _ _ _ L) as [cat Hcat].
  rewrite Hcat. eexists. reflexivity.
Qed.

