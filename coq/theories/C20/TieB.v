(* C20, second tie - `MultiHeadedAttention.forward` / `check_input` (_attn.py) against PV.C20.Model.mha, checked by
   the kernel.  PV.Gen.C20BSrc.* are the MiniPy terms harness/py2coq/translate.py regenerates from /repo on every run;
   PV.MiniPy.Interp is their semantics; the calls mean what SrcRunB.ext_mha says (torch operations: MiniTorch.OpsC20 /
   OpsC20B / OpsC07); the wrapped single-head attention is the translated GlobalSoftAttention.forward of the first tie. *)
From Coq Require Import ZArith QArith List String Bool Arith Lia ZifyBool ZifyNat.
From PV Require Import MiniPy.Syntax MiniPy.Interp MiniTorch.Ops MiniTorch.OpsC07 MiniTorch.OpsC20 MiniTorch.LemmasC20.
From PV Require Import MiniTorch.OpsC20B MiniTorch.LemmasC20B.
From PV Require Import Gen.C20Src Gen.C20BSrc C20.SrcRun C20.SrcRunB C20.TieOps C20.Tie.
From PV Require C20.Model MiniTorch.LemmasC07.
Import ListNotations.
Local Open Scope string_scope.

(* [extB_ops] answers the calls of the first tie as [ext20_ops] does (it falls back to it) *)
Lemma envB expf tanhf : torch_env expf (extB_ops expf tanhf).
Proof. destruct (env20 expf). split; assumption. Qed.

Section ExtBLemmas.
  Variables expf tanhf : Q -> Q.
  Notation ext := (extB_ops expf tanhf).

  Ltac by_decoding :=
    rewrite <- ?Tq_enc, <- ?Tb_enc; unfold extB_ops;
    cbn [is String.eqb Ascii.eqb Bool.eqb negb no_kw Z.eqb Pos.eqb];
    rewrite ?dec_q_enc_q, ?dec_b_enc_b, ?any_shape_q, ?LemmasC07.dec_nats_enc; reflexivity.

  Lemma extB_scripting st : ext "torch.jit.is_scripting" [] [] st = Ok (VBool false) st.
  Proof. reflexivity. Qed.

  Lemma extB_unflatten x H d st :
    ext "unflatten" [Tq x; VInt (-1); VList [VInt (Z.of_nat H); VInt (Z.of_nat d)]] [] st
    = ret_t "unflatten" (unflatten_last x [H; d]) st.
  Proof. change [VInt (Z.of_nat H); VInt (Z.of_nat d)] with (map (fun n => VInt (Z.of_nat n)) [H; d]). by_decoding. Qed.

  Lemma extB_flatten x d st : ext "$method.flatten" [Tq x; VInt d] [] st = ret_t "flatten" (flatten_from x d) st.
  Proof. by_decoding. Qed.

  Lemma extB_squeeze x d st : ext "$method.squeeze" [Tq x; VInt d] [] st = ret_t "squeeze" (squeeze_dim x d) st.
  Proof. by_decoding. Qed.

  Lemma extB_size_q x d st :
    ext "$method.size" [Tq x; VInt d] [] st
    = match size_dim (shp x) d with Some n => Ok (VInt (Z.of_nat n)) st | None => oob "size" end.
  Proof. by_decoding. Qed.

  Lemma extB_unsqueeze_b x d st :
    ext "$method.unsqueeze" [Tb x; VInt d] [] st
    = match unsqueeze x d with Some r => Ok (Tb r) st | None => oob "unsqueeze" end.
  Proof. by_decoding. Qed.

  Lemma extB_expand x sizes st :
    ext "$method.expand" [Tq x; VList (map (fun n => VInt (Z.of_nat n)) sizes)] [] st
    = ret_t "expand" (expand_to x sizes) st.
  Proof. by_decoding. Qed.

  Lemma extB_cat x y st : ext "torch.cat" [VList [Tq x; Tq y]; VInt (-1)] [] st = ret_t "cat" (cat_last x y) st.
  Proof. by_decoding. Qed.

  Lemma extB_tanh x st : ext "torch.tanh" [Tq x] [] st = Ok (Tq (tanh_t tanhf x)) st.
  Proof. by_decoding. Qed.
End ExtBLemmas.

(* ---- x.size(-1) ---------------------------------------------------------------------------------------------- *)
Lemma size_dim_last s x r : rev s = x :: r -> size_dim s (-1) = Some x.
Proof.
  intros H. apply (f_equal (@rev nat)) in H. rewrite rev_involutive in H. subst s. cbn [rev].
  unfold size_dim. rewrite app_length. cbn [List.length]. rewrite Nat.add_1_r, wrap_dim_last. cbn [option_map].
  rewrite app_nth2 by lia. rewrite Nat.sub_diag. reflexivity.
Qed.

(* ---- MultiHeadedAttention.check_input ------------------------------------------------------------------------- *)
Section MhaCheckInput.
  Variables (expf tanhf : Q -> Q) (d : list (val * val)) (q k v : tn Q) (mt : tn bool).
  Notation E := (envB expf tanhf).
  Notation run_check :=
    (Interp.run (extB_ops expf tanhf) mha_check_input (forward_vars_v (VDict d) (Tq q) (Tq k) (Tq v) (Tb mt))).
  Notation kr := (List.length (shp k)).

  (* check_input raises RuntimeError: a query of the wrong rank *)
  Lemma mha_check_input_rejects_rank : S (List.length (shp q)) <> kr -> exists st, run_check = Exc runtime_error st.
  Proof.
    intros Hrq. unfold Interp.run, mha_check_input, forward_vars_v, globals20.
    assert (B1 : (Z.of_nat (List.length (shp q)) =? Z.of_nat kr - 1)%Z = false) by lia.
    next. rewrite (e_dim E). step.
    next. rewrite (e_dim E). step. rewrite B1. step. eexists. reflexivity.
  Qed.

  Lemma mha_check_input_accepts dim qs ks vs sq' sk' sv' qu uq' es ms ps :
    dict_get d (VStr "dim") = Some (VInt dim) ->
    dict_get d (VStr "query_size") = Some (VInt (Z.of_nat qs)) ->
    dict_get d (VStr "key_size") = Some (VInt (Z.of_nat ks)) ->
    dict_get d (VStr "value_size") = Some (VInt (Z.of_nat vs)) ->
    S (List.length (shp q)) = kr -> List.length (shp v) = kr ->
    rev (shp q) = qs :: sq' -> rev (shp k) = ks :: sk' -> rev (shp v) = vs :: sv' ->
    (1 - Z.of_nat kr <= dim <= Z.of_nat kr - 2)%Z ->
    unsqueeze q dim = Some qu -> rev (shp qu) = qs :: uq' ->
    Model.bshape uq' sk' = Some es ->
    Model.bshape es (rev (shp mt)) = Some ms ->
    Model.bshape (1%nat :: es) (rev (shp v)) = Some ps ->
    exists st, run_check = Ok VNone st.
  Proof.
    intros Hd Hq Hk Hvs Hrq Hrv Hsq Hsk Hsv Hdim Hu Hsu Hes Hms Hps.
    unfold Interp.run, mha_check_input, forward_vars_v, globals20.
    assert (B1 : (Z.of_nat (List.length (shp q)) =? Z.of_nat kr - 1)%Z = true) by lia.
    assert (B2 : (Z.of_nat kr =? Z.of_nat (List.length (shp v)))%Z = true) by lia.
    assert (B3 : (Z.of_nat kr - 2 <? dim)%Z = false) by lia.
    assert (B4 : (Z.of_nat kr =? -1)%Z = false) by lia.
    assert (B5 : (dim <? - Z.of_nat kr + 1)%Z = false) by lia.
    next. rewrite (e_dim E). step.
    next. rewrite (e_dim E). step. rewrite B1. step.
    next. rewrite (e_dim E). step. rewrite B2. step.
    next. rewrite (e_shape_q E). step. rewrite (subscript_last _ _ _ _ Hsq). step. rewrite Hq. step.
    rewrite Z.eqb_refl. step.
    next. rewrite (e_shape_q E). step. rewrite (subscript_last _ _ _ _ Hsk). step. rewrite Hk. step.
    rewrite Z.eqb_refl. step.
    next. rewrite Hd. step. rewrite q_cmp_int, B3. step. rewrite B4. step. rewrite Hd. step.
    rewrite q_cmp_int, B5. step.
    next. rewrite Hd. step. rewrite (e_unsqueeze E), Hu. step.
    rewrite (e_shape_q E). step. rewrite subscript_slice, (e_init E). step.
    rewrite (e_shape_q E). step. rewrite subscript_slice, (e_init E). step.
    rewrite (e_bshapes E), (bshapes_init _ _ _ _ _ _ Hsu Hsk), Hes. step.
    next. rewrite (e_shape_b E). step. rewrite (e_bshapes E), (bshapes_rev _ _ _ Hms). step.
    next. rewrite (e_snoc E). step. rewrite (e_shape_q E). step.
    rewrite (e_bshapes E), (bshapes_snoc _ _ _ Hps). step.
    next. rewrite extB_size_q, (size_dim_last _ _ _ Hsv). step. rewrite Hvs. step. rewrite Z.eqb_refl. step.
    eexists. reflexivity.
  Qed.
End MhaCheckInput.
