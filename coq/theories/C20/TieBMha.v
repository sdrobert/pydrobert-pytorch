(* C20, second tie - `MultiHeadedAttention.forward` (_attn.py) = PV.C20.Model.mha: the symbolic run of the translated
   body (PV.Gen.C20BSrc.mha_forward under SrcRunB.ext_mha) and the tie theorem.  See TieB.v. *)
From Coq Require Import ZArith QArith List String Bool Arith Lia ZifyBool ZifyNat.
From PV Require Import MiniPy.Syntax MiniPy.Interp MiniTorch.Ops MiniTorch.OpsC07 MiniTorch.OpsC20 MiniTorch.LemmasC20.
From PV Require Import MiniTorch.OpsC20B MiniTorch.LemmasC20B.
From PV Require Import Gen.C20Src Gen.C20BSrc C20.SrcRun C20.SrcRunB C20.TieOps C20.Tie C20.TieB.
From PV Require C20.Model C20.ModelB C20.Spec C20.Index C20.Proofs C20.Broadcast C20.MHA MiniTorch.LemmasC07.
Import ListNotations.
Local Open Scope string_scope.

Lemma linear_layer_run expf cols W b x st :
  linear_layer expf (linear_val cols W b) (Tq x) st
  = ret_t "linear" (linear x (rows_tensor cols W) (option_map vec_tensor b)) st.
Proof.
  unfold linear_layer, linear_val. cbn [dict_get val_eqb String.eqb Ascii.eqb Bool.eqb].
  destruct b as [bl|];
    [exact (e_linear (env20 expf) x (rows_tensor cols W) (Some (vec_tensor bl)) st)
    |exact (e_linear (env20 expf) x (rows_tensor cols W) None st)].
Qed.

#[local] Arguments ext_mha expf tanhf cls f args kw !st.
Ltac mstep :=
  step; cbn [ext_mha self_attr substring is String.eqb Ascii.eqb Bool.eqb orb lookup vars dict_get val_eqb].
Ltac mnext := next; mstep.

Section MhaRun.
  Variables (expf tanhf : Q -> Q) (cls : score_classB) (P : Model.mha_params) (qs ks vs : nat) (sha : val).
  Variable d : list (val * val).
  Hypothesis Hnh : dict_get d (VStr "num_heads") = Some (VInt (Z.of_nat (Model.num_heads P))).
  Hypothesis Hdq : dict_get d (VStr "d_q") = Some (VInt (Z.of_nat (Model.d_q P))).
  Hypothesis Hdk : dict_get d (VStr "d_k") = Some (VInt (Z.of_nat (Model.d_k P))).
  Hypothesis Hdv : dict_get d (VStr "d_v") = Some (VInt (Z.of_nat (Model.d_v P))).
  Hypothesis HWQ : dict_get d (VStr "WQ") = Some (linear_val qs (Model.WQ P) (Model.bQ P)).
  Hypothesis HWK : dict_get d (VStr "WK") = Some (linear_val ks (Model.WK P) (Model.bK P)).
  Hypothesis HWV : dict_get d (VStr "WV") = Some (linear_val vs (Model.WV P) (Model.bV P)).
  Hypothesis HWC :
    dict_get d (VStr "WC") = Some (linear_val (Model.num_heads P * Model.d_v P) (Model.WC P) (Model.bC P)).
  Hypothesis Hsha : dict_get d (VStr "single_head_attention") = Some sha.
  Variables (q k v : tn Q).
  Notation E := (envB expf tanhf).
  Variables QL QH KL KH VL VH CAT CF OUT : tn Q.
  Hypothesis HQL : linear q (rows_tensor qs (Model.WQ P)) (option_map vec_tensor (Model.bQ P)) = Some QL.
  Hypothesis HQH : unflatten_last QL [Model.num_heads P; Model.d_q P] = Some QH.
  Hypothesis HKL : linear k (rows_tensor ks (Model.WK P)) (option_map vec_tensor (Model.bK P)) = Some KL.
  Hypothesis HKH : unflatten_last KL [Model.num_heads P; Model.d_k P] = Some KH.
  Hypothesis HVL : linear v (rows_tensor vs (Model.WV P)) (option_map vec_tensor (Model.bV P)) = Some VL.
  Hypothesis HVH : unflatten_last VL [Model.num_heads P; Model.d_v P] = Some VH.
  Hypothesis HCF : flatten_from CAT (-2) = Some CF.
  Hypothesis HOUT : linear CF (rows_tensor (Model.num_heads P * Model.d_v P) (Model.WC P)) (option_map vec_tensor (Model.bC P)) = Some OUT.

  Ltac heads :=
    mnext; rewrite HWQ, linear_layer_run, HQL; mstep;
    mnext; rewrite Hnh; mstep; rewrite Hdq; mstep; rewrite extB_unflatten, HQH; mstep;
    mnext; rewrite HWK, linear_layer_run, HKL; mstep;
    mnext; rewrite Hnh; mstep; rewrite Hdk; mstep; rewrite extB_unflatten, HKH; mstep;
    mnext; rewrite HWV, linear_layer_run, HVL; mstep;
    mnext; rewrite Hnh; mstep; rewrite Hdv; mstep; rewrite extB_unflatten, HVH; mstep.

  Lemma mha_run_nomask :
    (forall st, call_with (extB_ops expf tanhf) mha_check_input
                          (forward_vars_v (VDict d) (Tq q) (Tq k) (Tq v) (Tb (ones_bool [1%nat]))) st = Ok VNone st) ->
    (exists st', single_forward expf tanhf cls sha (Tq QH) (Tq KH) (Tq VH) VNone = Ok (Tq CAT) st') ->
    exists st, run_mha expf tanhf cls (VDict d) q k v None = Ok (enc_q OUT) st.
  Proof.
    intros Hci [st' Hsh]. unfold run_mha, Interp.run, forward_vars, mask_val, globals20.
    rewrite !Tq_enc. unfold mha_forward.
    mnext. rewrite (e_device E). mstep. rewrite (e_ones E). mstep. rewrite extB_scripting. mstep.
    rewrite Hci. mstep.
    heads.
    mnext.
    mnext. rewrite Hsha, Hsh. mstep.
    mnext. rewrite extB_flatten, HCF. mstep.
    mnext. rewrite HWC, linear_layer_run, HOUT. mstep. eexists. reflexivity.
  Qed.

  Lemma mha_run_mask mt MU :
    (forall st, call_with (extB_ops expf tanhf) mha_check_input
                          (forward_vars_v (VDict d) (Tq q) (Tq k) (Tq v) (Tb mt)) st = Ok VNone st) ->
    unsqueeze mt (-1) = Some MU ->
    (exists st', single_forward expf tanhf cls sha (Tq QH) (Tq KH) (Tq VH) (Tb MU) = Ok (Tq CAT) st') ->
    exists st, run_mha expf tanhf cls (VDict d) q k v (Some mt) = Ok (enc_q OUT) st.
  Proof.
    intros Hci HMU [st' Hsh]. unfold run_mha, Interp.run, forward_vars, mask_val, globals20.
    rewrite !Tq_enc, Tb_enc. unfold mha_forward.
    mnext. rewrite extB_scripting. mstep. rewrite Hci. mstep.
    heads.
    mnext. rewrite extB_unsqueeze_b, HMU. mstep.
    mnext. rewrite Hsha, Hsh. mstep.
    mnext. rewrite extB_flatten, HCF. mstep.
    mnext. rewrite HWC, linear_layer_run, HOUT. mstep. eexists. reflexivity.
  Qed.
End MhaRun.

(* an exception of check_input propagates out of forward *)
Lemma mha_run_exc expf tanhf cls self q k v m n :
  (forall mt st, call_with (extB_ops expf tanhf) mha_check_input
                           (forward_vars_v self (Tq q) (Tq k) (Tq v) (Tb mt)) st = Exc n st) ->
  exists st, run_mha expf tanhf cls self q k v m = Exc n st.
Proof.
  intros Hci. unfold run_mha, Interp.run, forward_vars, mask_val, globals20. rewrite !Tq_enc.
  destruct m as [mt|]; [rewrite Tb_enc|]; unfold mha_forward; mnext.
  - rewrite extB_scripting. mstep. rewrite Hci. mstep. eexists. reflexivity.
  - rewrite (e_device (envB expf tanhf)). mstep. rewrite (e_ones (envB expf tanhf)). mstep.
    rewrite extB_scripting. mstep. rewrite Hci. mstep. eexists. reflexivity.
Qed.

(* ---- the tie: MultiHeadedAttention.forward = Model.mha ----------------------------------------------------- *)
Import C20.Model C20.Spec C20.Index C20.Proofs C20.ModelB C20.Broadcast.
Local Open Scope nat_scope.

(* what the wrapped single-head module has to satisfy: its interpreted forward is the model's [attend] with score
   [sc] (proved for the dot-product and generalised classes in Tie.v, for the concat class in TieBConcat.v) *)
Definition single_tie (expf tanhf : Q -> Q) (cls : score_classB) (sha : val) (sc : list Q -> list Q -> Q)
           (dim : Z) (dq dk : nat) : Prop :=
  forall q k v m p out,
    axis_pos dim (List.length (tshape k)) = Some p ->
    attend expf sc q k v m p dq dk = Some out ->
    exists st, run_single expf tanhf cls sha (flat q) (flat k) (flat v) (option_map flat m) = Ok (enc_q (flat out)) st.

(* the head axis is one more axis to the right of the sequence axis; dim >= 0 (MultiHeadedAttention.__init__ raises
   ValueError for a wrapped attention with a negative dim) counts from the left and is unaffected *)
Lemma axis_pos_succ dim kr p : (0 <= dim)%Z -> axis_pos dim kr = Some p -> axis_pos dim (S kr) = Some (S p).
Proof.
  unfold axis_pos. intros H0. assert (N : (dim <? 0)%Z = false) by lia. rewrite N.
  destruct ((1 - Z.of_nat kr <=? dim)%Z && (0 <=? dim)%Z && (dim <? Z.of_nat kr - 1)%Z) eqn:B; [|discriminate].
  intros E. injection E as <-.
  assert (B' : ((1 - Z.of_nat (S kr) <=? dim)%Z && (0 <=? dim)%Z && (dim <? Z.of_nat (S kr) - 1)%Z) = true) by lia.
  rewrite B'. f_equal. lia.
Qed.

Lemma bshape_nil_r a : bshape a [] = Some a.
Proof. destruct a; reflexivity. Qed.

Lemma bshape_one es : exists ms, bshape es [1] = Some ms.
Proof.
  destruct es as [|x r]; [eexists; reflexivity|]. cbn [bshape]. rewrite bshape_nil_r.
  destruct (Nat.eqb x 1); [eexists; reflexivity|]. cbn. eexists; reflexivity.
Qed.

Lemma mat_sizes_inv W b rows cols : mat_sizes W b rows cols = true ->
  List.length W = rows /\ Forall (fun w => List.length w = cols) W /\ match b with None => True | Some bl => List.length bl = List.length W end.
Proof.
  unfold mat_sizes. intros H. apply andb_true_iff in H. destruct H as [H Hb]. apply andb_true_iff in H. destruct H as [Hl Hr].
  apply Nat.eqb_eq in Hl. split; [exact Hl|]. split.
  - apply rows_sized, Hr.
  - destruct b as [bl|]; [apply Nat.eqb_eq; exact Hb|exact I].
Qed.

Lemma mha_sizes_inv P qs ks vs : mha_sizes P qs ks vs = true ->
  mat_sizes (WQ P) (bQ P) (num_heads P * d_q P) qs = true /\ mat_sizes (WK P) (bK P) (num_heads P * d_k P) ks = true /\
  mat_sizes (WV P) (bV P) (num_heads P * d_v P) vs = true /\
  mat_sizes (WC P) (bC P) (List.length (WC P)) (num_heads P * d_v P) = true.
Proof. unfold mha_sizes. rewrite !andb_true_iff. tauto. Qed.

(* the materialised projection, un-flattened = the model's head tensor, materialised *)
Lemma heads_mat W b H d (T : tensor Q) n s :
  tshape T = n :: s -> List.length W = H * d ->
  OpsC20B.unflatten_last (mat (linear W b T)) [H; d] = Some (flat (Model.unflatten_last H d (memo 0%Q (linear W b T)))).
Proof.
  intros E HW. unfold flat.
  rewrite <- (mat_eta (linear W b T)), <- (mat_memo 0%Q (linear W b T)).
  apply unflatten_last_mat.
  - rewrite memo_shape. cbn [linear tshape hd]. exact HW.
  - rewrite memo_shape. cbn [linear tshape]. discriminate.
Qed.

Definition module_dict dim qs ks vs P sha : list (val * val) :=
  match self_mha dim qs ks vs P sha with VDict d => d | _ => [] end.

Theorem mha_forward_tie expf tanhf cls sha sc P dim qs ks vs q k v m p out :
  single_tie expf tanhf cls sha sc dim (d_q P) (d_k P) ->
  (0 <= dim)%Z ->
  axis_pos dim (List.length (tshape k)) = Some p ->
  mha_sizes P qs ks vs = true ->
  mha expf sc P q k v m p 0 qs ks vs = Some out ->
  exists st, run_mha expf tanhf cls (self_mha dim qs ks vs P sha) (flat q) (flat k) (flat v) (option_map flat m)
             = Ok (enc_q (flat out)) st.
Proof.
  intros Hsingle H0 Hax Hsz Hm.
  destruct (MHA.mha_inv Hm) as [Hleg [cat [Hcat ->]]].
  destruct (MHA.mha_legal_inv P _ _ _ _ _ _ _ _ Hleg)
    as [sq' [sk' [sv' [es [ps [Eq [Ek [Ev [Sqh [Skh [Svh [Hqr [Hvr [Hp1 [Hpk [Hes [Hmask Hps]]]]]]]]]]]]]]]]].
  destruct (mha_sizes_inv _ _ _ _ Hsz) as [SQ [SK [SV SC]]].
  destruct (mat_sizes_inv _ _ _ _ SQ) as [LQ [AQ BQ]]. destruct (mat_sizes_inv _ _ _ _ SK) as [LK [AK BK]].
  destruct (mat_sizes_inv _ _ _ _ SV) as [LV [AV BV]]. destruct (mat_sizes_inv _ _ _ _ SC) as [_ [AC BC]].
  set (H := num_heads P) in *. set (dq := d_q P) in *. set (dk := d_k P) in *. set (dv := d_v P) in *.
  assert (Ecat : exists s, tshape cat = dv :: H :: s).
  { destruct p as [|pe]; [lia|]. destruct (MHA.heads_attend_inv Hcat Sqh Skh Svh) as [_ [r [_ [_ [_ Ec]]]]].
    exists (del pe r). exact Ec. }
  destruct Ecat as [s Ecat].
  (* the wrapped single-head attention on the head tensors *)
  assert (Hax' : axis_pos dim (List.length (tshape (k_heads P k))) = Some (S p)).
  { rewrite Skh. rewrite Ek in Hax. cbn [List.length] in *. apply axis_pos_succ; assumption. }
  destruct (Hsingle _ _ _ _ _ _ Hax' Hcat) as [st1 Hrun1].
  (* the operations, step by step *)
  pose proof (linear_mat q (WQ P) (bQ P) qs sq' Eq AQ BQ) as HQL.
  pose proof (linear_mat k (WK P) (bK P) ks sk' Ek AK BK) as HKL.
  pose proof (linear_mat v (WV P) (bV P) vs sv' Ev AV BV) as HVL.
  pose proof (heads_mat (WQ P) (bQ P) H dq q qs sq' Eq LQ) as HQH.
  pose proof (heads_mat (WK P) (bK P) H dk k ks sk' Ek LK) as HKH.
  pose proof (heads_mat (WV P) (bV P) H dv v vs sv' Ev LV) as HVH.
  pose proof (flatten_from_mat dv H s cat Ecat) as HCF.
  assert (Efl : tshape (flatten_last2 cat) = (H * dv) :: s).
  { cbn [flatten_last2 tshape]. rewrite Ecat. reflexivity. }
  pose proof (linear_mat (flatten_last2 cat) (WC P) (bC P) (H * dv) s Efl AC BC) as HOUT.
  (* check_input *)
  assert (Hu : unsqueeze (flat q) dim = Some (runsq p (mat q))).
  { apply (unsqueeze_query_raw q k dim p Hax). rewrite Eq, Ek. cbn [List.length]. f_equal. exact Hqr. }
  assert (Hci : forall mt ms, bshape es (rev (shp mt)) = Some ms ->
            forall st, call_with (extB_ops expf tanhf) mha_check_input
                         (forward_vars_v (self_mha dim qs ks vs P sha) (enc_q (flat q)) (enc_q (flat k)) (enc_q (flat v)) (enc_b mt)) st
                       = Ok VNone st).
  { intros mt ms Hms. apply call_with_ok. unfold self_mha.
    apply (mha_check_input_accepts expf tanhf _ (flat q) (flat k) (flat v) mt dim qs ks vs sq' sk' sv'
             (runsq p (mat q)) (ins (p - 1) 1 sq') es ms ps); try assumption; try reflexivity;
      unfold flat; rewrite ?rshp_mat, ?shp_mat, ?rev_length, ?Eq, ?Ek, ?Ev; cbn [List.length]; try reflexivity.
    - f_equal. exact Hqr.
    - f_equal. exact Hvr.
    - pose proof (axis_pos_range _ _ _ Hax) as R. rewrite Ek in R. cbn [List.length] in R. exact R.
    - rewrite rshp_runsq, rshp_mat, Eq. replace p with (S (p - 1)) at 1 by (clear - Hp1; lia). rewrite ins_S. reflexivity.
    - rewrite <- Ev. exact Hps. }
  destruct m as [mt|].
  - destruct Hmask as [ms Hms]. cbn [option_map].
    apply (mha_run_mask expf tanhf cls P qs ks vs sha (module_dict dim qs ks vs P sha)
             eq_refl eq_refl eq_refl eq_refl eq_refl eq_refl eq_refl eq_refl
             eq_refl (flat q) (flat k) (flat v) _ _ _ _ _ _ _ _ _ HQL HQH HKL HKH HVL HVH HCF HOUT (flat mt)
             (flat (unsq 0 mt))).
    + apply (Hci (flat mt) ms). unfold flat. rewrite rshp_mat. exact Hms.
    + unfold flat. rewrite unsqueeze_last, runsq0_mat. reflexivity.
    + exists st1. exact Hrun1.
  - destruct (bshape_one es) as [ms Hms]. cbn [option_map].
    apply (mha_run_nomask expf tanhf cls P qs ks vs sha (module_dict dim qs ks vs P sha)
             eq_refl eq_refl eq_refl eq_refl eq_refl eq_refl eq_refl
             eq_refl eq_refl (flat q) (flat k) (flat v) _ _ _ _ _ _ _ _ _ HQL HQH HKL HKH HVL HVH HCF HOUT).
    + apply (Hci (ones_bool [1]) ms). exact Hms.
    + exists st1. exact Hrun1.
Qed.
