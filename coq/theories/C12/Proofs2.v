(* C12 — lemmas, part 2: the boolean judge, exact tolerance, data-set options, sos/eos. *)
From Coq Require Import List ZArith Bool Lia.
From Coq Require Import ZifyBool ZifyNat.
From PV Require Import C12.Model C12.Spec C12.Proofs.
Import ListNotations.
Local Open Scope Z_scope.

Lemma feat_okb_iff F dt f : feat_okb F dt f = true <-> feat_ok F dt f.
Proof.
  destruct f as [cu d sh]. unfold feat_okb, feat_ok. cbn. split.
  - intro H. apply andb_true_iff in H. destruct H as [H H3]. apply andb_true_iff in H. destruct H as [H1 H2].
    apply dtype_beq_eq in H2. destruct cu; [discriminate|].
    destruct sh as [|T [|F' [|? ?]]]; try discriminate. apply Nat.eqb_eq in H3. subst.
    repeat split. eexists; reflexivity.
  - intros (-> & -> & T & ->). rewrite dtype_beq_refl, Nat.eqb_refl. reflexivity.
Qed.

Lemma ali_okb_iff T a : ali_okb T a = true <-> ali_ok T a.
Proof.
  destruct a as [cu d da]. unfold ali_okb, ali_ok. cbn. split.
  - intro H. apply andb_true_iff in H. destruct H as [H H3]. apply andb_true_iff in H. destruct H as [H1 H2].
    apply dtype_beq_eq in H2. destruct cu; [discriminate|]. destruct da as [v|? ?]; [|discriminate].
    apply Nat.eqb_eq in H3. repeat split; try assumption. exists v. split; [reflexivity|assumption].
  - intros (-> & -> & v & -> & <-). cbn. rewrite Nat.eqb_refl. reflexivity.
Qed.

Lemma ref_okb_iff d2 T r : ref_okb d2 T r = true <-> ref_ok d2 T r.
Proof.
  destruct r as [cu d da]. unfold ref_okb, ref_ok. cbn. split.
  - intro H. apply andb_true_iff in H. destruct H as [H H3]. apply andb_true_iff in H. destruct H as [H1 H2].
    apply dtype_beq_eq in H2. destruct cu; [discriminate|]. repeat split; try assumption.
    destruct da as [t|rows|? ?|?]; try discriminate.
    + left. destruct d2; [discriminate|]. split; [reflexivity|]. eexists; reflexivity.
    + right. apply andb_true_iff in H3. destruct H3 as [-> H3]. split; [reflexivity|].
      exists rows. split; [reflexivity|]. exact (proj2 (reflect_iff _ _ (forallb_spec _ _ _ (bounds_okb_iff _))) H3).
  - intros (-> & -> & [(-> & t & ->)|(-> & rows & -> & HF)]); cbn; [reflexivity|].
    exact (proj1 (reflect_iff _ _ (forallb_spec _ _ _ (bounds_okb_iff _))) HF).
Qed.

Lemma utt_okb_iff F dt d2 u : utt_okb F dt d2 u = true <-> utt_ok F dt d2 u.
Proof.
  unfold utt_okb, utt_ok. rewrite !andb_true_iff, feat_okb_iff. split.
  - intros [[Hf Ha] Hr]. split; [assumption|]. split.
    + intros a Ea. rewrite Ea in Ha. apply ali_okb_iff. assumption.
    + intros r Er. rewrite Er in Hr. apply ref_okb_iff. assumption.
  - intros (Hf & Ha & Hr). split; [split; [assumption|]|].
    + destruct (u_ali u) as [a|]; [|reflexivity]. apply ali_okb_iff. apply Ha. reflexivity.
    + destruct (u_ref u) as [r|]; [|reflexivity]. apply ref_okb_iff. apply Hr. reflexivity.
Qed.

Lemma utt_ok_noref F dt d2 d2' u : u_ref u = None -> utt_ok F dt d2 u -> utt_ok F dt d2' u.
Proof. intros Hn (Hf & Ha & Hr). split; [assumption|split; [assumption|]]. intros r Er. congruence. Qed.

Lemma forall_first_2d F dt d2 d : Forall (utt_ok F dt d2) d -> Forall (utt_ok F dt (first_ref_2d d)) d.
Proof.
  induction 1 as [|u t Hu Ht IH]; [constructor|]. cbn [first_ref_2d].
  destruct (u_ref u) as [r|] eqn:Er.
  - assert (d2 = match r_data r with R2 _ => true | _ => false end) as <-; [|constructor; assumption].
    destruct Hu as (_ & _ & Hr). symmetry. apply (ref_ok_dim _ _ _ (Hr _ Er)).
  - constructor; [eapply utt_ok_noref; eassumption|].
    clear -Ht IH. revert IH. generalize (first_ref_2d t). intros b IH. assumption.
Qed.

Lemma wellformedb_iff d : wellformedb d = true <-> WellFormed d.
Proof.
  unfold wellformedb, WellFormed. destruct d as [|u t].
  - split; [intros _; exists 0%nat, DF32, false; constructor|reflexivity].
  - rewrite <- (reflect_iff _ _ (forallb_spec _ _ _ (utt_okb_iff _ _ _))). split; [eauto|].
    intros (F & dt & d2 & H). apply forall_first_2d in H.
    assert (HF : F = nth 1 (f_shape (u_feat u)) 0%nat /\ dt = f_dtype (u_feat u)).
    { inversion H as [|? ? Hu _]; subst. destruct Hu as ((_ & Hd & T & Hs) & _). rewrite Hs. cbn. split; congruence. }
    destruct HF as [<- <-]. exact H.
Qed.

Lemma no_syms_nonneg c : no_syms c -> syms_nonneg c.
Proof. intros [H1 H2]. split; intros s Hs; congruence. Qed.

Lemma tolerance_exact c k d (P : Prop) d1 :
  plain_yield c -> no_syms c -> tokens_nonneg d ->
  (WellFormed (repair (Some k) d) <-> P) -> (P -> repair (Some k) d = d1) ->
  ((exists d', validate c (FInt k) d = (d', None)) <-> P)
  /\ (forall d', validate c (FInt k) d = (d', None) -> d' = d1).
Proof.
  intros Hp Hn Ht Hw Hd.
  assert (Hc : clean_writes c (tolerance (FInt k))) by (right; assumption).
  split.
  - rewrite (validate_accepts_iff c (FInt k) d Hp Hc (no_syms_nonneg c Hn) Ht). exact Hw.
  - intros d' H. destruct (validate_result c (FInt k) d d' Hp Hc H) as [-> Hwf]. exact (Hd (proj1 Hw Hwf)).
Qed.

(* one alignment of T' entries against T frames: accepted iff T' = T or T < T' <= T + k, and then cropped *)
Lemma tolerance_exact_ali c k T F dt v :
  plain_yield c -> no_syms c ->
  let d := [mkUtt (mkFeat false dt [T; F]) (Some (mkAli false DI64 (A1 v))) None] in
  ((exists d', validate c (FInt k) d = (d', None))
   <-> (length v = T \/ (Z.of_nat T < Z.of_nat (length v) <= Z.of_nat T + k)))
  /\ (forall d', validate c (FInt k) d = (d', None) ->
      d' = [mkUtt (mkFeat false dt [T; F]) (Some (mkAli false DI64 (A1 (firstn T v)))) None]).
Proof.
  intros Hp Hn d. apply tolerance_exact; [assumption|assumption| | |].
  - constructor; [intros r Hr; discriminate|constructor].
  - rewrite <- wellformedb_iff. unfold wellformedb, d, repair, utt_okb, repair_utt, feat_okb, ali_okb, repair_ali, frames. cbn. rewrite dtype_beq_refl.
    zcmp; rewrite ?firstn_length; lia.
  - unfold d, repair, repair_utt, repair_ali, frames. cbn. intro Hw. repeat f_equal. revert Hw.
    zcmp; intros _; [reflexivity|rewrite firstn_all2 by lia; reflexivity].
Qed.

(* one segment [s, e) of a valid shape against T frames: accepted iff e <= T, or s <= T < e <= T + k
   (then the end becomes T) *)
Lemma tolerance_exact_ref c k T F dt tok s e :
  plain_yield c -> no_syms c -> 0 <= tok -> 0 <= s <= e ->
  let d := [mkUtt (mkFeat false dt [T; F]) None (Some (mkRef false DI64 (R2 [(tok, s, e)])))] in
  ((exists d', validate c (FInt k) d = (d', None))
   <-> (e <= Z.of_nat T \/ (s <= Z.of_nat T /\ e <= Z.of_nat T + k)))
  /\ (forall d', validate c (FInt k) d = (d', None) ->
      d' = [mkUtt (mkFeat false dt [T; F]) None (Some (mkRef false DI64 (R2 [(tok, s, Z.min e (Z.of_nat T))])))]).
Proof.
  intros Hp Hn Htok Hse d. apply tolerance_exact; [assumption|assumption| | |].
  - constructor; [|constructor]. intros r Hr. injection Hr as <-. cbn. constructor; [assumption|constructor].
  - rewrite <- wellformedb_iff.
    unfold wellformedb, d, repair, utt_okb, repair_utt, feat_okb, ref_okb, repair_ref, repair_row, bounds_okb, frames.
    cbn. rewrite dtype_beq_refl. zcmp; lia.
  - unfold d, repair, repair_utt, repair_ref, repair_row, frames. cbn. intro Hw. repeat f_equal. revert Hw.
    zcmp; intros _; repeat f_equal; lia.
Qed.

Lemma run_valid_unchanged c fx d :
  plain_yield c -> syms_nonneg c -> tokens_nonneg d -> WellFormed d ->
  run_pass false true c fx st0 acc0 d = (d, inr acc0).
Proof.
  intros Hp Hs Ht (F & dt & d2 & HF).
  assert (E : map (repair_utt' fx) d = d) by (rewrite <- repair_map; apply repair_wf_id; exists F, dt, d2; exact HF).
  pose proof (run_complete c fx Hp Hs d st0 acc0 F dt d2) as H. rewrite E in H.
  apply H; [|exact Ht|apply compat_st0|exact HF].
  eapply Forall_impl; [|exact HF]. intros u Hu. right.
  destruct fx; [exact (repair_utt_ok _ _ _ _ _ Hu)|reflexivity].
Qed.

Lemma valid_never_touched c fa d :
  plain_yield c -> syms_nonneg c -> tokens_nonneg d -> WellFormed d -> validate c fa d = (d, None).
Proof. intros Hp Hs Ht Hw. unfold validate. rewrite (run_valid_unchanged c _ d Hp Hs Ht Hw). reflexivity. Qed.

(* suppress_alis=True: the validator cannot even unpack the utterance tuple (F10) *)
Lemma suppress_alis_rejects c fa u d :
  c_suppress_alis c = true -> exists e, validate c fa (u :: d) = (u :: d, Some e).
Proof.
  intro Hs. unfold validate. cbn [run_pass]. unfold step_utt. rewrite Hs.
  destruct (u_ref u) as [r|]; [destruct (load_ref c r)|]; eexists; reflexivity.
Qed.

Lemma load_ref_1d c cu dt t : c_tokens_only c = false ->
  load_ref c (mkRef cu dt (R1 t)) = inr (mkRef cu dt (R1 (wrap (c_sos c) (c_eos c) t))).
Proof. intro H. unfold load_ref. cbn. rewrite load_rdata_R1 by assumption. reflexivity. Qed.

Lemma load_ref_2d c cu dt rows : c_tokens_only c = false -> dt <> DU8 ->
  load_ref c (mkRef cu dt (R2 rows))
  = inr (mkRef cu dt (R2 (wrap (option_map sym_of (c_sos c)) (option_map sym_of (c_eos c)) rows))).
Proof. intros H Hd. unfold load_ref. cbn. rewrite load_rdata_R2 by assumption. reflexivity. Qed.

(* tokens_only=True: segment columns dropped first, then the symbols *)
Lemma load_ref_tokens_only c cu dt rows : c_tokens_only c = true ->
  load_ref c (mkRef cu dt (R2 rows))
  = inr (mkRef cu dt (R1 (wrap (c_sos c) (c_eos c) (map tok_of rows)))).
Proof.
  destruct c as [sos eos to sa]. cbn. intros ->. unfold load_ref, load_rdata, wrap. cbn.
  destruct sos, eos; cbn; rewrite ?app_nil_r; reflexivity.
Qed.

Section Strip.
  Context {A : Type} (key : A -> Z).

  Lemma after_last_none s l : Forall (fun x => key x <> s) l -> after_last key s l = None.
  Proof.
    induction 1 as [|x t Hx _ IH]; cbn; [reflexivity|]. rewrite IH.
    destruct (Z.eqb_spec (key x) s); [contradiction|reflexivity].
  Qed.

  Lemma before_first_none s l : Forall (fun x => key x <> s) l -> before_first key s l = l.
  Proof.
    induction 1 as [|x t Hx _ IH]; cbn; [reflexivity|]. rewrite IH.
    destruct (Z.eqb_spec (key x) s); [contradiction|reflexivity].
  Qed.

  Lemma before_first_app s l x r : Forall (fun y => key y <> s) l -> key x = s ->
    before_first key s (l ++ x :: r) = l.
  Proof.
    intros H Hx. induction H as [|y t Hy _ IH]; cbn.
    - rewrite Hx, Z.eqb_refl. reflexivity.
    - rewrite IH. destruct (Z.eqb_spec (key y) s); [contradiction|reflexivity].
  Qed.

  (* what is stored contains neither symbol *)
  Lemma before_first_free s l : Forall (fun x => key x <> s) (before_first key s l).
  Proof.
    induction l as [|x t IH]; cbn; [constructor|].
    destruct (Z.eqb_spec (key x) s); constructor; assumption.
  Qed.

  Lemma before_first_incl (P : A -> Prop) s l : Forall P l -> Forall P (before_first key s l).
  Proof.
    induction 1 as [|x t Hx _ IH]; cbn; [constructor|].
    destruct (key x =? s); constructor; assumption.
  Qed.

  Lemma after_last_none_free s l : after_last key s l = None -> Forall (fun x => key x <> s) l.
  Proof.
    induction l as [|y r IH]; [constructor|]. cbn.
    destruct (after_last key s r) eqn:E'; [discriminate|].
    destruct (Z.eqb_spec (key y) s); [discriminate|]. intros _. constructor; [assumption|]. apply IH. reflexivity.
  Qed.

  (* the stored hypothesis is a contiguous piece of what was passed *)
  Lemma after_last_some s l r : after_last key s l = Some r ->
    (exists pre x, key x = s /\ l = pre ++ x :: r) /\ Forall (fun x => key x <> s) r.
  Proof.
    revert r. induction l as [|y t IH]; cbn; intros r; [easy|].
    destruct (after_last key s t) as [r'|] eqn:E.
    - intros [= <-]. destruct (IH _ eq_refl) as [(pre & x & Hx & ->) Hf]. split; [|assumption].
      exists (y :: pre), x. split; [assumption|reflexivity].
    - destruct (Z.eqb_spec (key y) s); [|easy]. intros [= <-]. split; [|apply after_last_none_free; assumption].
      exists [], y. split; [assumption|reflexivity].
  Qed.

  Lemma before_first_prefix s l : exists post, l = before_first key s l ++ post.
  Proof.
    induction l as [|y t [post IH]]; cbn; [exists []; reflexivity|].
    destruct (key y =? s); [exists (y :: t); reflexivity|]. exists post. cbn. f_equal. assumption.
  Qed.

  Variable mk : Z -> A.
  Hypothesis key_mk : forall s, key (mk s) = s.

  Lemma strip_wrap sos eos l :
    (forall s, sos = Some s -> Forall (fun x => key x <> s) l) ->
    (forall e, eos = Some e -> Forall (fun x => key x <> e) l) ->
    (forall s e, sos = Some s -> eos = Some e -> s <> e) ->
    strip_hyp key sos eos (wrap (option_map mk sos) (option_map mk eos) l) = l.
  Proof.
    intros Hs He Hne. unfold strip_hyp, wrap.
    destruct sos as [s|], eos as [e|]; cbn [option_map app].
    - assert (after_last key s (mk s :: l ++ [mk e]) = Some (l ++ [mk e])) as ->.
      { cbn [after_last]. rewrite after_last_none.
        - rewrite key_mk, Z.eqb_refl. reflexivity.
        - apply Forall_app. split; [apply Hs; reflexivity|]. constructor; [|constructor].
          rewrite key_mk. intro E. apply (Hne s e); congruence. }
      apply before_first_app; [apply He; reflexivity|apply key_mk].
    - cbn [after_last]. rewrite app_nil_r. rewrite after_last_none by (apply Hs; reflexivity).
      rewrite key_mk, Z.eqb_refl. reflexivity.
    - apply before_first_app; [apply He; reflexivity|apply key_mk].
    - rewrite app_nil_r. reflexivity.
  Qed.

  Lemma strip_free sos eos l :
    (forall s, sos = Some s -> Forall (fun x => key x <> s) (strip_hyp key sos eos l)) /\
    (forall e, eos = Some e -> Forall (fun x => key x <> e) (strip_hyp key sos eos l)).
  Proof.
    unfold strip_hyp. split.
    - intros s ->. set (l1 := match after_last key s l with Some r => r | None => l end).
      assert (H1 : Forall (fun x => key x <> s) l1).
      { subst l1. destruct (after_last key s l) eqn:E; [apply (after_last_some _ _ _ E)|apply after_last_none_free; assumption]. }
      destruct eos; [apply before_first_incl|]; assumption.
    - intros e ->. apply before_first_free.
  Qed.

  Lemma strip_infix sos eos l : exists pre post, l = pre ++ strip_hyp key sos eos l ++ post.
  Proof.
    unfold strip_hyp.
    set (l1 := match sos with Some s => match after_last key s l with Some r => r | None => l end | None => l end).
    assert (exists pre, l = pre ++ l1) as (pre & Hpre).
    { subst l1. destruct sos as [s|]; [|exists []; reflexivity].
      destruct (after_last key s l) eqn:E; [|exists []; reflexivity].
      destruct (after_last_some _ _ _ E) as [(pre & x & _ & ->) _]. exists (pre ++ [x]). rewrite <- app_assoc. reflexivity. }
    destruct eos as [e|].
    - destruct (before_first_prefix e l1) as (post & H1). exists pre, post. rewrite <- H1. assumption.
    - exists pre, []. rewrite app_nil_r. assumption.
  Qed.
End Strip.

Definition free_of (s : option Z) (l : list Z) : Prop := forall x, s = Some x -> Forall (fun t => t <> x) l.

Lemma roundtrip_1d sos eos t :
  free_of sos t -> free_of eos t -> (forall s e, sos = Some s -> eos = Some e -> s <> e) ->
  write_hyp sos eos (R1 (wrap sos eos t)) = R1 t.
Proof.
  intros Hs He Hne. cbn [write_hyp]. f_equal.
  pose proof (strip_wrap (fun x : Z => x) (fun x => x) (fun s => eq_refl) sos eos t Hs He Hne) as H.
  assert (E : forall o : option Z, option_map (fun x => x) o = o) by (intros [x|]; reflexivity).
  rewrite !E in H. assumption.
Qed.

Lemma roundtrip_2d sos eos rows :
  free_of sos (map tok_of rows) -> free_of eos (map tok_of rows) ->
  (forall s e, sos = Some s -> eos = Some e -> s <> e) ->
  write_hyp sos eos (R2 (wrap (option_map sym_of sos) (option_map sym_of eos) rows)) = R2 rows.
Proof.
  intros Hs He Hne. cbn [write_hyp]. f_equal.
  apply (strip_wrap tok_of sym_of (fun s => eq_refl)); try assumption.
  - intros s E. specialize (Hs s E). rewrite Forall_map in Hs. assumption.
  - intros e E. specialize (He e E). rewrite Forall_map in He. assumption.
Qed.

(* the same symbol for both ends: what is stored is empty, not the bare tokens *)
Lemma roundtrip_same_symbol_fails : write_hyp (Some 5) (Some 5) (R1 (wrap (Some 5) (Some 5) [1; 2])) = R1 [].
Proof. reflexivity. Qed.
