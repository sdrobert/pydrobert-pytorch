(* C12 — tie (part 2: `_write_hyp`, PV.Gen.C12Src.write_hyp_body) with PV.C12.Model.write_hyp; what is tied and what is
   trusted is said at the head of TieLoad.v. *)
From Coq Require Import ZArith List String Bool Arith Lia ZifyBool.
From PV Require Import MiniPy.Syntax MiniPy.Interp MiniPy.Lemmas MiniTorch.OpsC12 MiniTorch.LemmasC12 Gen.C12Src.
From PV Require Import C12.SrcRun C12.TieLib C12.TieModel.
From PV Require C12.Model C12.TieLoad.
Import ListNotations.
Local Open Scope string_scope.

#[local] Arguments hits : simpl never.
#[local] Arguments last : simpl never.

Lemma slice0_T1_from_z : forall cu dt l z, (0 <= z)%Z ->
  slice0 (T1 cu dt l) (Some z) None = Some (T1 cu dt (skipn (Z.to_nat z) l)).
Proof. intros cu dt l z Hz. rewrite <- (Z2Nat.id z Hz) at 1. apply slice0_T1_from. Qed.
Lemma slice0_T1_to_z : forall cu dt l z, (0 <= z)%Z ->
  slice0 (T1 cu dt l) None (Some z) = Some (T1 cu dt (firstn (Z.to_nat z) l)).
Proof. intros cu dt l z Hz. rewrite <- (Z2Nat.id z Hz) at 1. apply slice0_T1_to. Qed.
Lemma slice0_T2_from_z : forall cu dt w rows z, Forall (fun r => List.length r = w) rows -> (0 <= z)%Z ->
  slice0 (T2 cu dt w rows) (Some z) None = Some (T2 cu dt w (skipn (Z.to_nat z) rows)).
Proof. intros cu dt w rows z HF Hz. rewrite <- (Z2Nat.id z Hz) at 1. now apply slice0_T2_from. Qed.
Lemma slice0_T2_to_z : forall cu dt w rows z, Forall (fun r => List.length r = w) rows -> (0 <= z)%Z ->
  slice0 (T2 cu dt w rows) None (Some z) = Some (T2 cu dt w (firstn (Z.to_nat z) rows)).
Proof. intros cu dt w rows z HF Hz. rewrite <- (Z2Nat.id z Hz) at 1. now apply slice0_T2_to. Qed.

Lemma Forall_skipn_len : forall (w : nat) (rows : list (list Z)) k,
  Forall (fun r => List.length r = w) rows -> Forall (fun r => List.length r = w) (List.skipn k rows).
Proof.
  intros w rows k H. revert k. induction H as [|r rows Hr H IH]; intros [|k]; try constructor; try assumption.
  apply IH.
Qed.
Lemma Forall_firstn_len : forall (w : nat) (rows : list (list Z)) k,
  Forall (fun r => List.length r = w) rows -> Forall (fun r => List.length r = w) (List.firstn k rows).
Proof.
  intros w rows k H. revert k. induction H as [|r rows Hr H IH]; intros [|k]; constructor; try assumption.
  apply IH.
Qed.

(* `hyp = hyp.cpu().long()`, `if sos is not None: ...`, `if eos is not None: ...`, `torch.save(hyp, pth)`; inside each `if`,
   the statement that finds the indices of the symbol and the one that cuts *)
Definition hyp_to_long : stmt := Eval cbv in seq_nth 0 write_hyp_body.
Definition hyp_sos : stmt := Eval cbv in seq_nth 1 write_hyp_body.
Definition hyp_eos : stmt := Eval cbv in seq_nth 2 write_hyp_body.
Definition hyp_save : stmt := Eval cbv in seq_drop 3 write_hyp_body.
Definition hyp_sos_idxs : stmt := Eval cbv in seq_nth 0 (if_then hyp_sos).
Definition hyp_sos_cut : stmt := Eval cbv in seq_drop 1 (if_then hyp_sos).
Definition hyp_eos_idxs : stmt := Eval cbv in seq_nth 0 (if_then hyp_eos).
Definition hyp_eos_cut : stmt := Eval cbv in seq_drop 1 (if_then hyp_eos).

Lemma write_hyp_body_eq : write_hyp_body = SSeq hyp_to_long (SSeq hyp_sos (SSeq hyp_eos hyp_save)).
Proof. reflexivity. Qed.
Lemma hyp_sos_eq : hyp_sos = SIf (ECmp IsNot (EName "sos") (EConst VNone)) (SSeq hyp_sos_idxs hyp_sos_cut) SPass.
Proof. reflexivity. Qed.
Lemma hyp_eos_eq : hyp_eos = SIf (ECmp IsNot (EName "eos") (EConst VNone)) (SSeq hyp_eos_idxs hyp_eos_cut) SPass.
Proof. reflexivity. Qed.

Definition saved (t : tens) : list event := [("torch.save", [enc12 t; hyp_path])].

(* The run, once for both ranks.  The hypothesis is [mk l] for a list [l] of items (elements / rows) with keys [keys l]
   (the elements / the first column): `hyp.dim() == 1` is [one]; the tensor whose equality mask is taken is the 1-D
   tensor of the keys; slicing the tensor is slicing the list.  The variables the body adds (`sos_idxs`, `sos_idx`,
   ...) depend on the branches taken: they live in the tail [rest] of the state, which the statements leave abstract. *)
Section Hyp.
  Variables (A : Type) (keys : list A -> list Z) (mk : list A -> tens) (P : list A -> Prop) (one : bool).
  Hypothesis P_skipn : forall l k, P l -> P (skipn k l).
  Hypothesis mk_dim : forall l, ndim (mk l) = if one then 1%nat else 2%nat.
  Hypothesis mk_keys : forall l, P l ->
    (if one then Val (mk l) else select_col (mk l) 0) = Val (T1 false Model.DI64 (keys l)).
  Hypothesis mk_from : forall l z, P l -> (0 <= z)%Z -> slice0 (mk l) (Some z) None = Some (mk (skipn (Z.to_nat z) l)).
  Hypothesis mk_to : forall l z, P l -> (0 <= z)%Z -> slice0 (mk l) None (Some z) = Some (mk (firstn (Z.to_nat z) l)).
  Local Notation ext := (ext12 env_none).

  Definition hst (l : list A) (vs ve : val) (rest : list (string * val)) (evs : list event) : state :=
    mkState (("hyp", enc12 (mk l)) :: ("pth", hyp_path) :: ("sos", vs) :: ("eos", ve) :: rest) evs.

  Lemma to_long_run : forall t vs ve rest evs,
    exec ext hyp_to_long (mkState (("hyp", enc12 t) :: ("pth", hyp_path) :: ("sos", vs) :: ("eos", ve) :: rest) evs)
    = Ok CNormal (mkState (("hyp", enc12 (long (cpu t))) :: ("pth", hyp_path) :: ("sos", vs) :: ("eos", ve) :: rest) evs).
  Proof. intros. unfold hyp_to_long. trun. reflexivity. Qed.

  (* the two statements differ in the names of their variables only *)
  Lemma idxs_run : forall l s v rest evs, P l ->
    exec ext hyp_sos_idxs (hst l (VInt s) v rest evs)
    = Ok CNormal (hst l (VInt s) v (update "sos_idxs" (enc12 (NZ false (hits s (keys l)))) rest) evs) /\
    exec ext hyp_eos_idxs (hst l v (VInt s) rest evs)
    = Ok CNormal (hst l v (VInt s) (update "eos_idxs" (enc12 (NZ false (hits s (keys l)))) rest) evs).
  Proof.
    intros l s v rest evs Hl. specialize (mk_keys l Hl). unfold hyp_sos_idxs, hyp_eos_idxs, hst.
    split; trun; rewrite mk_dim; (destruct one; trun);
      [injection mk_keys as ->|rewrite mk_keys; trun|injection mk_keys as ->|rewrite mk_keys; trun];
      rewrite eq_scalar_T1; trun; reflexivity.
  Qed.

  Lemma sos_cut_run : forall l s ve rest evs, P l ->
    exists rest',
    exec ext hyp_sos_cut (hst l (VInt s) ve (update "sos_idxs" (enc12 (NZ false (hits s (keys l)))) rest) evs)
    = Ok CNormal (hst (cut_sos (Some s) (keys l) l) (VInt s) ve rest' evs).
  Proof.
    intros l s ve rest evs Hl. unfold hyp_sos_cut, hst, cut_sos. trun. rewrite numel_NZ.
    destruct (hits s (keys l)) as [|i idx] eqn:E; eexists; trun.
    - reflexivity.
    - rewrite get_item_NZ_last. trun. rewrite item_T1_1. trun.
      rewrite mk_from by (assumption || (pose proof (hits_nonneg_last _ _ _ _ E); lia)). cbn. reflexivity.
  Qed.

  Lemma eos_cut_run : forall l vs e rest evs, P l ->
    exists rest',
    exec ext hyp_eos_cut (hst l vs (VInt e) (update "eos_idxs" (enc12 (NZ false (hits e (keys l)))) rest) evs)
    = Ok CNormal (hst (cut_eos (Some e) (keys l) l) vs (VInt e) rest' evs).
  Proof.
    intros l vs e rest evs Hl. unfold hyp_eos_cut, hst, cut_eos. trun. rewrite numel_NZ.
    destruct (hits e (keys l)) as [|i idx] eqn:E; eexists; trun.
    - reflexivity.
    - rewrite get_item_NZ_first. trun. rewrite item_T1_1. trun.
      rewrite mk_to by (assumption || exact (hits_nonneg_first _ _ _ _ E)). cbn. reflexivity.
  Qed.

  Lemma save_run : forall l vs ve rest evs,
    exec ext hyp_save (hst l vs ve rest evs) = Ok CNormal (hst l vs ve rest (evs ++ saved (mk l))).
  Proof. intros. unfold hyp_save, hst. trun. reflexivity. Qed.

  #[local] Arguments exec : simpl never.

  Lemma sos_run : forall l sos ve rest evs, P l ->
    exists rest', exec ext hyp_sos (hst l (oz sos) ve rest evs)
                  = Ok CNormal (hst (cut_sos sos (keys l) l) (oz sos) ve rest' evs).
  Proof.
    intros l [s|] ve rest evs Hl; rewrite hyp_sos_eq, exec_if; unfold hst; cbn.
    - rewrite exec_seq'. fold (hst l (VInt s) ve rest evs). rewrite (proj1 (idxs_run l s ve rest evs Hl)). cbn [bind].
      rewrite then_normal. now apply sos_cut_run.
    - now exists rest.
  Qed.

  Lemma eos_run : forall l vs eos rest evs, P l ->
    exists rest', exec ext hyp_eos (hst l vs (oz eos) rest evs)
                  = Ok CNormal (hst (cut_eos eos (keys l) l) vs (oz eos) rest' evs).
  Proof.
    intros l vs [e|] rest evs Hl; rewrite hyp_eos_eq, exec_if; unfold hst; cbn.
    - rewrite exec_seq'. fold (hst l vs (VInt e) rest evs). rewrite (proj2 (idxs_run l e vs rest evs Hl)). cbn [bind].
      rewrite then_normal. now apply eos_cut_run.
    - now exists rest.
  Qed.

  Lemma P_cut_sos : forall sos ks l, P l -> P (cut_sos sos ks l).
  Proof. intros [s|] ks l Hl; unfold cut_sos; [destruct (hits s ks)|]; auto. Qed.

  Theorem write_hyp_cuts : forall sos eos t l, P l -> long (cpu t) = mk l ->
    let l1 := cut_sos sos (keys l) l in
    exists st, run_write_hyp sos eos t = Ok VNone st /\ events st = saved (mk (cut_eos eos (keys l1) l1)).
  Proof.
    intros sos eos t l Hl Ht l1. unfold run_write_hyp, hyp_vars.
    destruct (sos_run l sos (oz eos) [("torch", torch_module)] [] Hl) as [r1 E1]. fold l1 in E1.
    destruct (eos_run l1 (oz sos) eos r1 [] (P_cut_sos sos _ l Hl)) as [r2 E2].
    eexists. split.
    - apply run_of_exec_normal. rewrite write_hyp_body_eq, exec_seq', to_long_run, Ht. cbn [bind].
      rewrite then_normal, exec_seq'. fold (hst l (oz sos) (oz eos) [("torch", torch_module)] []). rewrite E1. cbn [bind].
      rewrite then_normal, exec_seq', E2. cbn [bind]. rewrite then_normal. apply save_run.
    - reflexivity.
  Qed.
End Hyp.

Lemma hyp_T1 : forall cu dt l sos eos,
  let l1 := cut_sos sos l l in
  exists st, run_write_hyp sos eos (T1 cu dt l) = Ok VNone st
             /\ events st = saved (T1 false Model.DI64 (cut_eos eos l1 l1)).
Proof.
  intros cu dt l sos eos.
  apply (write_hyp_cuts Z (fun l => l) (T1 false Model.DI64) (fun _ => True) true);
    try reflexivity; auto using slice0_T1_from_z, slice0_T1_to_z.
Qed.

Lemma hyp_T2 : forall cu dt w rows sos eos, Forall (fun r => List.length r = S w) rows ->
  let key := fun r : list Z => hd 0%Z r in
  let l1 := cut_sos sos (map key rows) rows in
  exists st, run_write_hyp sos eos (T2 cu dt (S w) rows) = Ok VNone st
             /\ events st = saved (T2 false Model.DI64 (S w) (cut_eos eos (map key l1) l1)).
Proof.
  intros cu dt w rows sos eos HF.
  apply (write_hyp_cuts (list Z) (map (fun r => hd 0%Z r)) (T2 false Model.DI64 (S w)) (fun l => Forall (fun r => List.length r = S w) l) false);
    try reflexivity; auto using Forall_skipn_len, select_col_T2_0, slice0_T2_from_z, slice0_T2_to_z.
Qed.

Lemma cut_sos_map : forall {A B} (f : A -> B) sos keys (l : list A), cut_sos sos keys (map f l) = map f (cut_sos sos keys l).
Proof. intros. unfold cut_sos. destruct sos as [s|]; [|reflexivity]. destruct (hits s keys); [reflexivity|]. apply skipn_map. Qed.
Lemma cut_eos_map : forall {A B} (f : A -> B) eos keys (l : list A), cut_eos eos keys (map f l) = map f (cut_eos eos keys l).
Proof. intros. unfold cut_eos. destruct eos as [e|]; [|reflexivity]. destruct (hits e keys); [reflexivity|]. apply firstn_map. Qed.

(* for every 1-D hypothesis and every (R, 3) hypothesis, on any device, of any dtype: the run's one effect is
   torch.save(<the model's stripped hypothesis as a CPU long tensor>, pth), and it returns None *)
Theorem write_hyp_run : forall sos eos cu dt h,
  (match h with Model.R1 _ | Model.R2 _ => True | _ => False end) ->
  exists st, run_write_hyp sos eos (tens_of_rdata cu dt h) = Ok VNone st
             /\ events st = saved (tens_of_rdata false Model.DI64 (Model.write_hyp sos eos h)).
Proof.
  intros sos eos cu dt h Hh. destruct h as [t|rows| |]; try contradiction; cbn [tens_of_rdata Model.write_hyp].
  - destruct (hyp_T1 cu dt t sos eos) as [st [E1 E2]]. exists st. split; [exact E1|]. rewrite E2. do 3 f_equal.
    pose proof (cuts_are_strip (fun x : Z => x) sos eos t) as C. rewrite !map_id in C. now rewrite C.
  - destruct (hyp_T2 cu dt 2 (map row3 rows) sos eos (Forall_row3 rows)) as [st [E1 E2]]. exists st. split; [exact E1|].
    rewrite E2. do 3 f_equal. cbv zeta.
    rewrite TieLoad.hd_row3, cut_sos_map, TieLoad.hd_row3, cut_eos_map. f_equal. apply (cuts_are_strip Model.tok_of).
Qed.

Theorem src_write_hyp_tie : forall sos eos cu dt h,
  (match h with Model.R1 _ | Model.R2 _ => True | _ => False end) ->
  src_write_hyp sos eos (tens_of_rdata cu dt h) = Some (tens_of_rdata false Model.DI64 (Model.write_hyp sos eos h)).
Proof.
  intros sos eos cu dt h Hh. destruct (write_hyp_run sos eos cu dt h Hh) as [st [E1 E2]].
  unfold src_write_hyp. rewrite E1, E2. unfold saved. cbn [andb]. 
  replace (String.eqb "torch.save" "torch.save" && val_eqb hyp_path hyp_path)%bool with true by reflexivity.
  apply dec12_enc12.
Qed.
