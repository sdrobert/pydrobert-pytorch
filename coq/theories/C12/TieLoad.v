(* C12 — tie (part 1: `_load_ref`) between the Python text of `_load_ref` / `_write_hyp` (src/pydrobert/torch/_datasets.py) and
   PV.C12.Model.load_ref / write_hyp, checked by the kernel.  PV.Gen.C12Src.load_ref_body / write_hyp_body are the
   MiniPy terms harness/py2coq/translate.py regenerates from /repo on every run; PV.MiniPy.Interp is their
   semantics; the torch calls mean what PV.MiniTorch.OpsC12 says (through SrcRun.ext12).  If the source is edited
   so that the statements below stop being true, this file stops compiling and the C12 check reports the broken
   obligation. *)
From Coq Require Import ZArith List String Bool Arith Lia ZifyBool.
From PV Require Import MiniPy.Syntax MiniPy.Interp MiniPy.Lemmas MiniTorch.OpsC12 MiniTorch.LemmasC12 Gen.C12Src.
From PV Require Import C12.SrcRun C12.TieLib.
From PV Require C12.Model.
Import ListNotations.
Local Open Scope string_scope.

Definition sym_ok (dt : Model.dtype) (o : option Z) : Prop :=
  match o with Some s => in_range dt s = true | None => True end.

(* `ref = torch.load(pth)`, `D = ref.ndim`, `if tokens_only and D == 2: ...`, `if sos is not
   None: ...`, `if eos is not None: ...`, `return ref` *)
Definition ld_load : stmt := Eval cbv in seq_nth 0 load_ref_body.
Definition ld_dim : stmt := Eval cbv in seq_nth 1 load_ref_body.
Definition ld_tok : stmt := Eval cbv in seq_nth 2 load_ref_body.
Definition ld_sos : stmt := Eval cbv in seq_nth 3 load_ref_body.
Definition ld_eos : stmt := Eval cbv in seq_nth 4 load_ref_body.
Definition ld_ret : stmt := Eval cbv in seq_drop 5 load_ref_body.

Lemma load_ref_body_eq : load_ref_body = SSeq ld_load (SSeq ld_dim (SSeq ld_tok (SSeq ld_sos (SSeq ld_eos ld_ret)))).
Proof. reflexivity. Qed.

Definition rbind {A B} (r : res A) (f : A -> res B) : res B :=
  match r with Val a => f a | Raise e => Raise e | Undef => Undef end.
Definition of_opt {A} (o : option A) : res A := match o with Some a => Val a | None => Undef end.

(* the tensor holding the symbol s that is put next to t: one row (s, -1, ..., -1) if D == 2, else one element *)
Definition sym_tens (t : tens) (D s : Z) : res tens :=
  if (D =? 2)%Z then
    rbind (of_opt (size t 1)) (fun w =>
    rbind (of_opt (new_full t [w] (-1))) (fun x =>
    rbind (set_item x 0 s) (fun y => of_opt (unsqueeze y 0))))
  else of_opt (new_full t [1%nat] s).

(* `ref = torch.cat([sos_sym, ref], 0)` (front) and `ref = torch.cat([ref, eos_sym], 0)` *)
Definition add_sym (front : bool) (D : Z) (o : option Z) (t : tens) : res tens :=
  match o with
  | None => Val t
  | Some s => rbind (sym_tens t D s) (fun y => if front then cat y t 0 else cat t y 0)
  end.
Definition drop_cols (tk : bool) (t : tens) : res (tens * Z) :=
  if (tk && (Z.of_nat (ndim t) =? 2)%Z)%bool then rbind (select_col t 0) (fun c => Val (c, 1%Z))
  else Val (t, Z.of_nat (ndim t)).
Definition load_ops (c : Model.cfg) (t : tens) : res tens :=
  rbind (drop_cols (Model.c_tokens_only c) t) (fun tD =>
  rbind (add_sym true (snd tD) (Model.c_sos c) (fst tD)) (add_sym false (snd tD) (Model.c_eos c))).

(* how a run ends, given the result r of the operations it performs: normally, in a state Q accepts; with the
   exception the operations raise; nothing is said where an operation is undefined *)
Definition ends {A} (r : res A) (o : outcome ctl) (Q : A -> outcome ctl -> Prop) : Prop :=
  match r with
  | Val a => Q a o
  | Raise e => exists st, o = Exc e st
  | Undef => True
  end.

(* ... normally, in a state [K a rest] for some tail [rest] of variables *)
Definition at_ {A} (K : A -> list (string * val) -> state) (a : A) (o : outcome ctl) : Prop :=
  exists rest, o = Ok CNormal (K a rest).

Lemma ends_seq : forall {A B} ext (r : res A) (f : A -> res B) a b st K Q,
  ends r (exec ext a st) (at_ K) -> (forall x rest, ends (f x) (exec ext b (K x rest)) Q) ->
  ends (rbind r f) (exec ext (SSeq a b) st) Q.
Proof.
  intros A B ext r f a b st K Q Ha Hb. rewrite exec_seq'. destruct r as [x|e|]; cbn [ends rbind] in *; [| |exact I].
  - destruct Ha as [rest ->]. apply Hb.
  - destruct Ha as [st' ->]. now exists st'.
Qed.

Lemma rbind_val : forall {A} (r : res A), rbind r Val = r.
Proof. now destruct r. Qed.

Section Load.
  Variables (t0 : tens) (tk : bool) (sv ev : val).
  Local Notation ext := (ext12 (env_file t0)).
  Definition lst (D : Z) (t : tens) (rest : list (string * val)) : state :=
    mkState (("pth", VStr "ref") :: ("tokens_only", VBool tk) :: ("sos", sv) :: ("eos", ev) :: ("torch", torch_module)
             :: ("ref", enc12 t) :: ("D", VInt D) :: rest) [].

  Lemma ld_load_dim_run :
    exec ext (SSeq ld_load ld_dim)
      (mkState [("pth", VStr "ref"); ("tokens_only", VBool tk); ("sos", sv); ("eos", ev); ("torch", torch_module)] [])
    = Ok CNormal (lst (Z.of_nat (ndim t0)) t0 []).
  Proof. unfold ld_load, ld_dim. trun. reflexivity. Qed.

  Lemma ld_tok_run : forall t,
    ends (drop_cols tk t) (exec ext ld_tok (lst (Z.of_nat (ndim t)) t [])) (at_ (fun tD => lst (snd tD) (fst tD))).
  Proof.
    intros t. unfold drop_cols, ld_tok, lst, at_. destruct tk; trun.
    2: { now exists []. }
    destruct (Z.of_nat (ndim t) =? 2)%Z; trun.
    2: { now exists []. }
    destruct (select_col t 0) as [c|e|]; cbn; [|eexists; reflexivity|exact I].
    trun. eexists. reflexivity.
  Qed.

  (* the two blocks differ in the names of their variables and in the order of the arguments of `torch.cat` *)
  Lemma ld_sym_run : forall (front : bool) o D t rest, (if front then sv else ev) = oz o ->
    ends (add_sym front D o t) (exec ext (if front then ld_sos else ld_eos) (lst D t rest)) (at_ (lst D)).
  Proof.
    intros front o D t rest Hs. unfold add_sym, lst, at_.
    destruct front; unfold ld_sos, ld_eos; rewrite Hs; (destruct o as [s|]; trun; [|now exists rest]);
      unfold sym_tens; (destruct (D =? 2)%Z; trun).
    1, 3: destruct (size t 1) as [w|]; [|exact I]; trun; rewrite leb_0_of_nat, Nat2Z.id;
      destruct (new_full t [w] (-1)) as [x|]; [|exact I]; trun;
      erewrite store_sub_enc12 by (cbn; rewrite ?lookup_update_eq; reflexivity); trun;
      destruct (set_item x 0 s) as [y|e|]; [|eexists; reflexivity|exact I]; trun;
      destruct (unsqueeze y 0) as [z|]; [|exact I]; trun;
      destruct (cat _ _ 0) as [r|e|]; [|eexists; reflexivity|exact I]; trun; eexists; reflexivity.
    all: change (Pos.to_nat 1) with 1%nat; destruct (new_full t [1%nat] s) as [x|]; [|exact I]; trun;
      destruct (cat _ _ 0) as [r|e|]; [|eexists; reflexivity|exact I]; trun; eexists; reflexivity.
  Qed.

  Lemma ld_ret_run : forall D t rest, exec ext ld_ret (lst D t rest) = Ok (CReturn (enc12 t)) (lst D t rest).
  Proof. reflexivity. Qed.
End Load.

(* the interpreted body computes [load_ops] of the stored tensor, wherever the operations are defined *)
Theorem load_ops_run : forall c t,
  match load_ops c t with
  | Val r => exists st, run_load_ref c t = Ok (enc12 r) st
  | Raise e => exists st, run_load_ref c t = Exc e st
  | Undef => True
  end.
Proof.
  intros [sos eos tk sa] t.
  assert (H : ends (load_ops (Model.mkCfg sos eos tk sa) t)
                (exec (ext12 (env_file t)) load_ref_body (mkState (load_vars (Model.mkCfg sos eos tk sa)) []))
                (fun r o => exists st, o = Ok (CReturn (enc12 r)) st)).
  { unfold load_ops, load_vars. cbn [Model.c_tokens_only Model.c_sos Model.c_eos].
    rewrite load_ref_body_eq, <- exec_seq_assoc, exec_seq', ld_load_dim_run. cbn [bind]. rewrite then_normal.
    apply ends_seq with (K := fun tD => lst tk (oz sos) (oz eos) (snd tD) (fst tD)); [apply ld_tok_run|].
    intros [t1 D] r1. apply ends_seq with (K := lst tk (oz sos) (oz eos) D); [now apply (ld_sym_run _ _ _ _ true)|].
    intros t2 r2. cbn [fst snd]. rewrite <- (rbind_val (add_sym false D eos t2)).
    apply ends_seq with (K := lst tk (oz sos) (oz eos) D); [now apply (ld_sym_run _ _ _ _ false)|].
    intros t3 r3. eexists. apply ld_ret_run. }
  unfold run_load_ref. destruct (load_ops _ t) as [r|e|]; cbn [ends] in H; [| |exact I]; destruct H as [st H]; exists st.
  - now apply run_of_exec_return.
  - now apply run_of_exec_exc.
Qed.

Lemma sym_tens_other : forall t D s, (D =? 2)%Z = false -> in_range (t_dtype t) s = true ->
  sym_tens t D s = Val (T1 (t_cuda t) (t_dtype t) [s]).
Proof. intros t D s HD Hs. unfold sym_tens. rewrite HD, (new_full_T1 t 1 s s) by now apply cast_fill_in_range. reflexivity. Qed.

Lemma sym_tens_T2 : forall cu dt w rows s, in_range dt s = true ->
  sym_tens (T2 cu dt (S w) rows) 2 s = Val (T2 cu dt (S w) [Model.sym_row dt (S w) s]).
Proof.
  intros cu dt w rows s Hs. unfold sym_tens. cbn [Z.eqb Pos.eqb]. rewrite size_T2_1. cbn [of_opt rbind].
  rewrite (new_full_T1 _ (S w) (-1) (Model.minus1 dt)) by (eapply in_range_numeric; exact Hs). cbn [of_opt rbind repeat].
  rewrite (set_item_T1_0 _ _ _ _ s s) by now apply cast_fill_in_range. cbn [rbind].
  rewrite (unsqueeze_T1_0 _ _ _ (S w)) by (cbn [List.length]; now rewrite repeat_length). reflexivity.
Qed.

Lemma sym_tens_T2_w0 : forall cu dt rows s, in_range dt s = true -> sym_tens (T2 cu dt 0 rows) 2 s = Raise "IndexError".
Proof.
  intros cu dt rows s Hs. unfold sym_tens. cbn [Z.eqb Pos.eqb]. rewrite size_T2_1. cbn [of_opt rbind].
  rewrite (new_full_T1 _ 0 (-1) (Model.minus1 dt)) by (eapply in_range_numeric; exact Hs). reflexivity.
Qed.

Lemma ndim_mk : forall t, Z.of_nat (ndim t) = Z.of_nat (List.length (t_shape t)).
Proof. reflexivity. Qed.

Lemma cat0_T1_other : forall cu dt x l t, ndim t <> 1%nat -> t_dtype t = dt -> t_cuda t = cu ->
  cat (T1 cu dt (x :: l)) t 0 = Raise "RuntimeError" /\ cat t (T1 cu dt (x :: l)) 0 = Raise "RuntimeError".
Proof.
  intros cu dt x l [cu' dt' sh d] Hn Hd Hc. cbn in Hd, Hc. subst. unfold cat, T1, ndim in *.
  cbn [t_cuda t_dtype t_shape t_data] in *. rewrite dtype_beq_refl, eqb_reflx. cbn [andb negb].
  destruct sh as [|n [|m sh]]; [split; reflexivity|now contradiction Hn|]. cbn. now destruct n.
Qed.

Lemma hd_row3 : forall rows, map (fun r => hd 0%Z r) (map row3 rows) = map Model.tok_of rows.
Proof. intros. rewrite map_map. apply map_ext. now intros [[a b] c]. Qed.

(* what a stored reference must be to be a tensor at all: rows of a 2-D reference have its width; the model's
   "any other number of dimensions" is not 1 or 2 *)
Definition ref_shape_ok (r : Model.ref) : Prop :=
  match Model.r_data r with
  | Model.R2w w rows => Forall (fun x => List.length x = w) rows
  | Model.RN nd => nd <> 1%nat /\ nd <> 2%nat
  | _ => True
  end.

Definition res_of (cu : bool) (dt : Model.dtype) (o : Model.exn + Model.rdata) : res tens :=
  match o with inl e => Raise (name_of_exn e) | inr d => Val (tens_of_rdata cu dt d) end.

Section Stages.
  Variables (cu : bool) (dt : Model.dtype).
  Local Notation T := (tens_of_rdata cu dt).
  Local Notation rdata_ok d := (ref_shape_ok (Model.mkRef cu dt d)).

  Lemma ndim_RN : forall nd, ndim (T (Model.RN nd)) = nd.
  Proof. intros. apply repeat_length. Qed.

  Lemma drop_cols_model : forall tk d, rdata_ok d ->
    drop_cols tk (T d)
    = match (if tk then Model.drop_segments d else inr d) with
      | inl e => Raise (name_of_exn e)
      | inr d1 => Val (T d1, Z.of_nat (ndim (T d1)))
      end.
  Proof.
    intros [|] d Hd; [|reflexivity]. unfold drop_cols. cbn [andb].
    destruct d as [t|rows|[|w] rows|nd]; cbn [tens_of_rdata Model.drop_segments]; try reflexivity.
    - change (Z.of_nat (ndim _) =? 2)%Z with true. cbv iota. now rewrite (select_col_T2_0 _ _ 2 _ (Forall_row3 rows)), hd_row3.
    - change (Z.of_nat (ndim _) =? 2)%Z with true. cbv iota. now rewrite (select_col_T2_0 _ _ w _ Hd).
    - fold (T (Model.RN nd)). rewrite ndim_RN. destruct Hd as [_ H2]. now replace (Z.of_nat nd =? 2)%Z with false by lia.
  Qed.

  Lemma sym_tens_model : forall s d, rdata_ok d -> in_range dt s = true ->
    sym_tens (T d) (Z.of_nat (ndim (T d))) s
    = match d with
      | Model.R2 _ => Val (T2 cu dt 3 [Model.sym_row dt 3 s])
      | Model.R2w O _ => Raise "IndexError"
      | Model.R2w w _ => Val (T2 cu dt w [Model.sym_row dt w s])
      | _ => Val (T1 cu dt [s])
      end.
  Proof.
    intros s d Hd Hs. destruct d as [t|rows|[|w] rows|nd]; cbn [tens_of_rdata].
    - now apply sym_tens_other.
    - now apply sym_tens_T2.
    - now apply sym_tens_T2_w0.
    - now apply sym_tens_T2.
    - fold (T (Model.RN nd)). rewrite ndim_RN. destruct Hd as [_ H2]. apply sym_tens_other; [lia|exact Hs].
  Qed.

  Lemma add_sym_model : forall (front : bool) o d, rdata_ok d -> sym_ok dt o ->
    add_sym front (Z.of_nat (ndim (T d))) o (T d)
    = res_of cu dt (match o with
                    | Some s => (if front then Model.add_sos else Model.add_eos) dt s d
                    | None => inr d end).
  Proof.
    intros front [s|] d Hd Hs; [|reflexivity]. unfold add_sym. rewrite sym_tens_model by assumption.
    destruct front, d as [t|rows|[|w] rows|nd];
      cbn [rbind tens_of_rdata Model.add_sos Model.add_eos res_of]; try reflexivity; rewrite ?map_app;
      first [apply cat0_T1|apply cat0_T2
            |apply cat0_T1_other; [fold (T (Model.RN nd)); rewrite ndim_RN; apply Hd|reflexivity|reflexivity]].
  Qed.

  Lemma add_sos_ok : forall sos d d', rdata_ok d ->
    (match sos with Some s => Model.add_sos dt s d | None => inr d end) = inr d' ->
    rdata_ok d' /\ ndim (T d') = ndim (T d).
  Proof.
    intros [s|] d d' Hd H; [|inversion H; now subst].
    destruct d as [t|rows|[|w] rows|nd]; inversion H; subst; split; try reflexivity; try exact I.
    constructor; [cbn; now rewrite repeat_length|exact Hd].
  Qed.

  Lemma drop_segments_ok : forall d d', rdata_ok d -> Model.drop_segments d = inr d' -> rdata_ok d'.
  Proof. intros d d' Hd H. destruct d as [t|rows|[|w] rows|nd]; inversion H; subst; try exact I; exact Hd. Qed.
End Stages.

Theorem load_ops_model : forall c r, ref_shape_ok r ->
  sym_ok (Model.r_dtype r) (Model.c_sos c) -> sym_ok (Model.r_dtype r) (Model.c_eos c) ->
  load_ops c (tens_of_ref r)
  = match Model.load_ref c r with inl e => Raise (name_of_exn e) | inr r' => Val (tens_of_ref r') end.
Proof.
  intros [sos eos tk sa] [cu dt d] Hok Hs He. unfold load_ops, Model.load_ref, Model.load_rdata, tens_of_ref.
  cbn [Model.r_data Model.r_dtype Model.r_cuda Model.c_sos Model.c_eos Model.c_tokens_only] in *.
  rewrite drop_cols_model by exact Hok.
  destruct (if tk then Model.drop_segments d else inr d) as [e|d1] eqn:E1; cbn [rbind fst snd]; [reflexivity|].
  assert (H1 : ref_shape_ok (Model.mkRef cu dt d1)) by (destruct tk; [now apply (drop_segments_ok cu dt d)|now inversion E1; subst]).
  rewrite (add_sym_model cu dt true) by assumption.
  destruct (match sos with Some s => Model.add_sos dt s d1 | None => inr d1 end) as [e|d2] eqn:E2; cbn [res_of rbind]; [reflexivity|].
  destruct (add_sos_ok cu dt sos d1 d2 H1 E2) as [H2 <-]. rewrite (add_sym_model cu dt false) by assumption.
  now destruct (match eos with Some s => Model.add_eos dt s d2 | None => inr d2 end).
Qed.

Definition load_outcome (o : Model.exn + Model.ref) (out : outcome val) : Prop :=
  match o with
  | inl e => exists st, out = Exc (name_of_exn e) st
  | inr r' => exists st, out = Ok (enc12 (tens_of_ref r')) st
  end.

Theorem load_ref_run : forall c r, ref_shape_ok r ->
  sym_ok (Model.r_dtype r) (Model.c_sos c) -> sym_ok (Model.r_dtype r) (Model.c_eos c) ->
  load_outcome (Model.load_ref c r) (run_load_ref c (tens_of_ref r)).
Proof.
  intros c r Hok Hs He. pose proof (load_ops_run c (tens_of_ref r)) as H. rewrite (load_ops_model c r Hok Hs He) in H.
  now destruct (Model.load_ref c r).
Qed.

Lemma exn_name_roundtrip : forall e, exn_of_name (name_of_exn e) = e.
Proof. now destruct e. Qed.

Theorem src_load_ref_tie : forall c r, ref_shape_ok r ->
  sym_ok (Model.r_dtype r) (Model.c_sos c) -> sym_ok (Model.r_dtype r) (Model.c_eos c) ->
  src_load_ref c (tens_of_ref r)
  = Some (match Model.load_ref c r with inl e => inl e | inr r' => inr (tens_of_ref r') end).
Proof.
  intros c r Hok Hs He. pose proof (load_ref_run c r Hok Hs He) as H. unfold src_load_ref, load_outcome in *.
  destruct (Model.load_ref c r) as [e|r']; destruct H as [st ->].
  - now rewrite exn_name_roundtrip.
  - now rewrite dec12_enc12.
Qed.
