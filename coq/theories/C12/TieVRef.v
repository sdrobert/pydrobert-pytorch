(* C12 — tie (part 3c) of the blocks of `_info_and_validate`: the reference block.  See TieVTac.v for the method. *)
From Coq Require Import ZArith QArith List String Bool Arith Lia ZifyBool.
From PV Require Import MiniPy.Syntax MiniPy.Interp MiniPy.Lemmas MiniTorch.OpsC12 MiniTorch.LemmasC12 MiniTorch.LemmasC12V Gen.C12ValSrc.
From PV Require Import C12.SrcRun C12.SrcRunV C12.TieLib C12.TieLibV C12.TieVTac.
From PV Require C12.Model.
Import ListNotations.
Local Open Scope string_scope.

(* ================================================ the reference block ================================================ *)
Definition ref_vbody : stmt := Eval cbv in if_then (seq_nth 3 iv_ref).
Definition ref_cuda : stmt := Eval cbv in seq_nth 0 ref_vbody.
Definition ref_long : stmt := Eval cbv in seq_nth 1 ref_vbody.
Definition ref_dispatch : stmt := Eval cbv in seq_nth 2 ref_vbody.
Definition ref_save : stmt := Eval cbv in seq_drop 3 ref_vbody.
Definition ref_2d_body : stmt := Eval cbv in if_then ref_dispatch.
Definition ref_for : stmt := Eval cbv in seq_drop 3 ref_2d_body.
Definition row_body : stmt := Eval cbv in for_body ref_for.
Definition ref_expand : stmt := Eval cbv in seq_nth 4 iv_ref.
Definition ref_tokloop : stmt := Eval cbv in seq_drop 5 iv_ref.
Definition tok_body : stmt := Eval cbv in for_body ref_tokloop.
(* the statements of the row loop's body: `idx2, r = $t1`, the checks of the row, the write-back `ref[idx2] = r` *)
Definition row_idx2 : stmt := Eval cbv in seq_nth 0 row_body.
Definition row_r : stmt := Eval cbv in seq_nth 1 row_body.
Definition row_check : stmt := Eval cbv in seq_nth 2 row_body.
Definition row_back : stmt := Eval cbv in seq_drop 3 row_body.
Lemma row_body_split : row_body = SSeq row_idx2 (SSeq row_r (SSeq row_check row_back)).
Proof. reflexivity. Qed.

Section Ref.
  Variables (c : Model.cfg) (d : Model.dir) (ids : list string) (fx : option Z).
  Variables (idx nf fdt feat ali prefix F Tp : val) (fnv : string) (T : nat).
  Local Notation ext := (ext12 (env_ds c d)).
  Definition stR (r2d dir_ prefix_ msg ref wb t1 idx2 r t2 tok start end_ : val) (evs : list event) : state :=
    mkState (mkvars ids fx idx nf r2d fdt (VStr fnv) t1 feat ali ref wb prefix dir_ prefix_ msg t2 (VInt (Z.of_nat T)) F Tp
                    idx2 r tok start end_) evs.

  (* the two checks before the dispatch touch msg, ref and write_back only *)
  Section Checks.
  Variables (r2d dir_ prefix_ t1 idx2 r t2 tok start end_ : val) (evs : list event).
  Local Notation stC msg ref wb := (stR r2d dir_ prefix_ msg ref wb t1 idx2 r t2 tok start end_ evs).

  Lemma ref_cuda_run : forall msg t (wb : bool),
    exists msg',
    exec ext ref_cuda (stC msg (enc12 t) (VBool wb))
    = if (t_cuda t && negb (Model.is_some fx))%bool
      then Exc "ValueError" (stC msg' (enc12 t) (VBool wb))
      else Ok CNormal (stC msg' (enc12 (cpu t)) (VBool (wb || t_cuda t))).
  Proof.
    intros. unfold ref_cuda, stR.
    destruct t as [cu dt sh da]; cbn [t_cuda]. destruct cu; cbn [andb orb negb]; eexists.
    - vrun. destruct fx as [k|]; vrun.
      + rewrite orb_true_r. reflexivity.
      + reflexivity.
    - vrun. rewrite orb_false_r. reflexivity.
  Qed.

  Lemma ref_long_run : forall msg t (wb : bool),
    exists msg',
    exec ext ref_long (stC msg (enc12 t) (VBool wb))
    = if (negb (is_long t) && negb (Model.is_some fx && is_small t))%bool
      then Exc "ValueError" (stC msg' (enc12 t) (VBool wb))
      else Ok CNormal (stC msg' (enc12 (long t)) (VBool (wb || negb (is_long t)))).
  Proof.
    intros. unfold ref_long, stR.
    destruct (is_long t) eqn:EL; cbn [negb andb orb]; eexists.
    - unfold is_long in EL. vrun. rewrite orb_false_r, (long_id t (EL : is_long t = true)). reflexivity.
    - unfold is_long in EL. vrun. unfold is_small. destruct fx as [k|]; vrun.
      + destruct (negb (t_cuda t) && Model.upcastable (t_dtype t))%bool eqn:ES; cbn [negb andb Model.is_some]; vrun.
        * rewrite orb_true_r. reflexivity.
        * reflexivity.
      + reflexivity.
  Qed.
  End Checks.

  (* -- one iteration of `for idx2, r in enumerate(ref):` (with the write-back `ref[idx2] = r` the translator adds) -- *)
  Section Row.
  Variables (r2d dir_ prefix_ t2 tok start end_ : val) (evs : list event).
  Local Notation stW msg ref wb t1 idx2 r := (stR r2d dir_ prefix_ msg ref wb t1 idx2 r t2 tok start end_ evs).

  (* the checks of one row `r = [a; b; cc]`: the decision tree of Model.row_part *)
  Lemma row_check_run : forall msg ref (wb : bool) t1 idx2 a b cc,
    let st := fun m w r => stW m ref (VBool w) t1 idx2 (enc12 (T1 false Model.DI64 r)) in
    exec ext row_check (st msg wb [a; b; cc])
    = match Model.row_part fx (Z.of_nat T) (a, b, cc) with
      | inl _ => Exc "ValueError" (st (VStr "") wb [a; b; cc])
      | inr (r', w1) => Ok CNormal (st (if (b <? 0)%Z && (cc <? 0)%Z then msg else VStr "") (wb || w1)%bool (row3 r'))
      end.
  Proof.
    intros. subst st. cbv beta. unfold Model.row_part, row_check, stR.
    vrun. destruct (b <? 0)%Z eqn:E1; vrun; (destruct (cc <? 0)%Z eqn:E2; vrun); cbn [andb orb].
    - rewrite orb_false_r. reflexivity.
    - destruct fx as [k|]; cbn [oz Model.is_some]; vrun; [rewrite orb_true_r|]; reflexivity.
    - destruct fx as [k|]; cbn [oz Model.is_some]; vrun; [rewrite orb_true_r|]; reflexivity.
    - destruct (cc <? b)%Z eqn:E3; vrun; [reflexivity|].
      destruct (cc >? Z.of_nat T)%Z eqn:E4; vrun.
      2: { rewrite orb_false_r. reflexivity. }
      destruct fx as [k|]; cbn [oz]; vrun; [|reflexivity].
      destruct (b <=? Z.of_nat T)%Z eqn:E5; vrun; [|reflexivity].
      destruct (Z.of_nat T >=? cc - k)%Z eqn:E6; vrun; [rewrite orb_true_r|]; reflexivity.
  Qed.

  (* `idx2, r = $t1` *)
  Lemma row_unpack_run : forall msg ref wb iv rv idx2 r,
    exec ext row_body (stW msg ref wb (VTuple [iv; rv]) idx2 r)
    = bind (exec ext row_check (stW msg ref wb (VTuple [iv; rv]) iv rv)) (then_ ext row_back).
  Proof. intros. rewrite row_body_split. unfold stR. exec1. unfold row_idx2. vrun. unfold row_r. vrun. subst. reflexivity. Qed.

  Lemma row_body_run : forall msg rows (wb : bool) i idx2 r a b cc,
    Forall (fun x => List.length x = 3%nat) rows -> (i < List.length rows)%nat ->
    let st := stW msg (enc12 (T2 false Model.DI64 3 rows)) (VBool wb)
                  (VTuple [VInt (Z.of_nat i); enc12 (T1 false Model.DI64 [a; b; cc])]) idx2 r in
    match Model.row_part fx (Z.of_nat T) (a, b, cc) with
    | inl _ => exists st', exec ext row_body st = Exc "ValueError" st' /\ events st' = evs
    | inr (r', w1) =>
        exists msg', exec ext row_body st
        = Ok CNormal (stW msg' (enc12 (T2 false Model.DI64 3 (set_nth rows i (row3 r')))) (VBool (wb || w1))
                          (VTuple [VInt (Z.of_nat i); enc12 (T1 false Model.DI64 [a; b; cc])]) (VInt (Z.of_nat i))
                          (enc12 (T1 false Model.DI64 (row3 r'))))
    end.
  Proof.
    intros msg rows wb i idx2 r a b cc HF Hi. cbv zeta.
    rewrite row_unpack_run, row_check_run. cbv zeta beta.
    destruct (Model.row_part fx (Z.of_nat T) (a, b, cc)) as [e|[r' w1]]; cbn [bind then_]; eexists.
    - split; reflexivity.
    - unfold row_back, stR. vrun. rewrite set_row_T2 by (assumption || now destruct r' as [[x y] z]). vrun. reflexivity.
  Qed.
  End Row.
End Ref.
