(* C12 — tie library, part 2: the equations that drive [exec] one construct at a time (the tie files of the
   `_info_and_validate` blocks keep [exec] folded: an `if` with a long body is not unfolded before its test is
   decided), and facts about strings / numbers used there.  No definitions of semantics; no axioms. *)
From Coq Require Import ZArith QArith List String Ascii Bool Arith Lia ZifyBool.
From PV Require Import MiniPy.Syntax MiniPy.Interp MiniPy.Lemmas MiniTorch.OpsC12 MiniTorch.LemmasC12.
From PV Require Import C12.SrcRun C12.SrcRunV C12.TieLib.
From PV Require C12.Model.
Import ListNotations.
Local Open Scope string_scope.

Section Exec.
  Variable ext : string -> list val -> list (string * val) -> state -> outcome val.

  Lemma exec_assign : forall ts e st,
    exec ext (SAssign ts e) st = bind (eval ext e st) (fun v st1 => bind (assign_all ext ts v st1) (fun _ st2 => Ok CNormal st2)).
  Proof. reflexivity. Qed.
  Lemma exec_expr_call : forall f a k st,
    exec ext (SExpr (ECall f a k)) st = bind (eval ext (ECall f a k) st) (fun _ st1 => Ok CNormal st1).
  Proof. reflexivity. Qed.
  Lemma exec_if' : forall c t f st,
    exec ext (SIf c t f) st = bind (eval ext c st) (fun cv st1 => if truthy cv then exec ext t st1 else exec ext f st1).
  Proof. reflexivity. Qed.
End Exec.

(* ---- strings ---- *)
Lemma dtype_name_eqb : forall a b, String.eqb (dtype_name a) (dtype_name b) = Model.dtype_beq a b.
Proof. destruct a, b; reflexivity. Qed.

Lemma of_nat_eqb : forall a b, (Z.of_nat a =? Z.of_nat b)%Z = (a =? b)%nat.
Proof. intros. destruct (Nat.eqb_spec a b); lia. Qed.

Lemma of_nat_SS_eqb_1 : forall n, (Z.of_nat (S (S n)) =? 1)%Z = false.
Proof. intros. lia. Qed.

(* ---- comparisons of Python ints (cmp_eval goes through the rationals) ---- *)
Lemma qcompare_inject : forall a b, Qcompare (inject_Z a) (inject_Z b) = Z.compare a b.
Proof. intros. unfold Qcompare. cbn. now rewrite !Z.mul_1_r. Qed.

Lemma q_cmp_inject : forall op a b,
  q_cmp op (inject_Z a) (inject_Z b)
  = match op with Lt => (a <? b)%Z | LtE => (a <=? b)%Z | Gt => (a >? b)%Z | GtE => (a >=? b)%Z | _ => false end.
Proof.
  intros. unfold q_cmp. rewrite qcompare_inject. unfold Z.ltb, Z.leb, Z.gtb, Z.geb. destruct op, (a ?= b)%Z; reflexivity.
Qed.

Lemma cpu_id : forall t, t_cuda t = false -> cpu t = t.
Proof. intros [cu dt sh d] H. cbn in H. now subst. Qed.

(* the same equations with the continuation statements NAMED (an opaque variable and its defining equation): only the
   statement in evaluation position is touched, the goal stays small *)
Section ExecNamed.
  Variable ext : string -> list val -> list (string * val) -> state -> outcome val.
  Lemma exec_seq_named : forall a b st r, r = b -> exec ext (SSeq a b) st = bind (exec ext a st) (then_ ext r).
  Proof. intros. subst. reflexivity. Qed.
  Lemma exec_if_named : forall c t f st bt bf, bt = t -> bf = f ->
    exec ext (SIf c t f) st = bind (eval ext c st) (fun cv st1 => if truthy cv then exec ext bt st1 else exec ext bf st1).
  Proof. intros. subst. reflexivity. Qed.
End ExecNamed.
