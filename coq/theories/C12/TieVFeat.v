(* C12 — tie (part 3e) of the blocks of `_info_and_validate`: the feature block (the loop body up to the `if info:` after the feature checks).  See TieVTac.v for the method. *)
From Coq Require Import ZArith QArith List String Bool Arith Lia ZifyBool.
From PV Require Import MiniPy.Syntax MiniPy.Interp MiniPy.Lemmas MiniTorch.OpsC12 MiniTorch.LemmasC12 MiniTorch.LemmasC12V Gen.C12ValSrc.
From PV Require Import C12.SrcRun C12.SrcRunV C12.TieLib C12.TieLibV C12.TieVTac.
From PV Require C12.Model.
Import ListNotations.
Local Open Scope string_scope.

(* `fn = ...`, `feat, ali, ref = ...`, `write_back = False`, `prefix = ...`,
   `dir_ = ...`, `prefix_ = ...`, then `if validate:` (dtype check, cuda check, `feat_dtype = ...`), the dim check,
   `T, F = feat.shape`, the num_filts check, the write-back, `if info:` *)
Definition feat_fn : stmt := Eval cbv in seq_nth 0 iv_feat.
Definition feat_get : stmt := Eval cbv in seq_nth 1 iv_feat.
Definition feat_wb0 : stmt := Eval cbv in seq_nth 2 iv_feat.
Definition feat_prefix : stmt := Eval cbv in seq_nth 3 iv_feat.
Definition feat_dir : stmt := Eval cbv in seq_nth 4 iv_feat.
Definition feat_prefix_ : stmt := Eval cbv in seq_nth 5 iv_feat.
Definition feat_vbody : stmt := Eval cbv in if_then (seq_nth 6 iv_feat).
Definition feat_dtype_chk : stmt := Eval cbv in seq_nth 0 feat_vbody.
Definition feat_cuda : stmt := Eval cbv in seq_nth 1 feat_vbody.
Definition feat_dtype_set : stmt := Eval cbv in seq_drop 2 feat_vbody.
Definition feat_dim : stmt := Eval cbv in seq_nth 7 iv_feat.
Definition feat_shape : stmt := Eval cbv in seq_nth 8 iv_feat.
Definition feat_nf : stmt := Eval cbv in seq_nth 9 iv_feat.
Definition feat_save : stmt := Eval cbv in seq_nth 10 iv_feat.
Definition feat_info : stmt := Eval cbv in seq_drop 11 iv_feat.

Lemma feat_head_split : iv_feat
  = SSeq feat_fn (SSeq feat_get (SSeq feat_wb0 (SSeq feat_prefix (SSeq feat_dir (SSeq feat_prefix_ (seq_drop 6 iv_feat)))))).
Proof. reflexivity. Qed.
Lemma feat_tail_split : seq_drop 6 iv_feat
  = SSeq (SIf (EName "validate") feat_vbody SPass) (SSeq feat_dim (SSeq feat_shape (SSeq feat_nf (SSeq feat_save feat_info)))).
Proof. reflexivity. Qed.
Lemma feat_vbody_split : feat_vbody = SSeq feat_dtype_chk (SSeq feat_cuda feat_dtype_set).
Proof. reflexivity. Qed.

(* what get_utterance_tuple loads of the reference *)
Definition loaded_ref (c : Model.cfg) (u : Model.utt) : Model.exn + option tens :=
  match Model.u_ref u with
  | None => inr None
  | Some r => match Model.load_ref c r with inl e => inl e | inr lr => inr (Some (tens_of_ref lr)) end
  end.

Lemma utt_tuple_ok : forall c u st lref, Model.c_suppress_alis c = false -> loaded_ref c u = inr lref ->
  utt_tuple c u st = Ok (VTuple [enc12 (feat_tens (Model.u_feat u)); opt_tens (option_map ali_tens (Model.u_ali u)); opt_tens lref]) st.
Proof. intros c u st lref Hs Hl. unfold utt_tuple. fold (loaded_ref c u). rewrite Hl, Hs. reflexivity. Qed.

Lemma utt_tuple_exc : forall c u st e, loaded_ref c u = inl e -> utt_tuple c u st = Exc (name_of_exn e) st.
Proof. intros c u st e Hl. unfold utt_tuple. fold (loaded_ref c u). rewrite Hl. reflexivity. Qed.

(* the triple get_utterance_tuple returns is a plain tuple: its items are read off, [ext] is not asked *)
Lemma foreign_item_enc12 : forall t a b k, foreign_item (VTuple [enc12 t; a; b]) (VInt k) = false.
Proof. reflexivity. Qed.

(* features are never canonical 1-D / 2-D tensors here: let [cpu] compute *)
#[local] Arguments cpu t /.

Definition nf_val (o : option nat) : val := match o with None => VNone | Some n => VInt (Z.of_nat n) end.
Definition dt_val (o : option Model.dtype) : val := match o with None => VNone | Some d => VStr (dtype_name d) end.

Section Feat.
  Variables (c : Model.cfg) (d : Model.dir) (ids : list string) (fx : option Z).
  Variables (r2d Tp idx2 r tok start end_ : val) (i : nat).
  Local Notation ext := (ext12 (env_ds c d)).
  Definition stF (nf fdt fn t1 feat ali ref wb prefix dir_ prefix_ msg t2 T F : val) (evs : list event) : state :=
    mkState (mkvars ids fx (VInt (Z.of_nat i)) nf r2d fdt fn t1 feat ali ref wb prefix dir_ prefix_ msg t2 T F Tp
                    idx2 r tok start end_) evs.

  Section Head.
  #[local] Arguments foreign_item : simpl never.
  Lemma feat_head_run : forall u id nf fdt fn t1 feat ali ref wb prefix dir_ prefix_ msg t2 T F evs,
    nth_error d i = Some u -> nth_error ids i = Some id -> Model.c_suppress_alis c = false ->
    let st := stF nf fdt fn t1 feat ali ref wb prefix dir_ prefix_ msg t2 T F evs in
    match loaded_ref c u with
    | inl e => exists st', exec ext iv_feat st = Exc (name_of_exn e) st' /\ events st' = evs
    | inr lref =>
        exists t1',
        exec ext iv_feat st
        = exec ext (seq_drop 6 iv_feat)
            (stF nf fdt (VStr (id ++ ".pt")) t1' (enc12 (feat_tens (Model.u_feat u))) (opt_tens (option_map ali_tens (Model.u_ali u)))
                 (opt_tens lref) (VBool false) (VStr "") (VStr "d/feat") (VStr "") msg t2 T F evs)
    end.
  Proof.
    intros u id nf fdt fn t1 feat ali ref wb prefix dir_ prefix_ msg t2 T F evs Hu Hid Hs st. subst st.
    (* straight-line code; get_utterance_tuple raises if loading the reference does *)
    destruct (loaded_ref c u) as [e|lref] eqn:EL; eexists.
    - split.
      + rewrite feat_head_split. unfold feat_fn, feat_get, stF. vrun. vrun. rewrite (utt_tuple_exc c u _ e EL). reflexivity.
      + reflexivity.
    - rewrite feat_head_split at 1. generalize (seq_drop 6 iv_feat). intros rest.
      unfold feat_fn, feat_get, feat_wb0, feat_prefix, feat_dir, feat_prefix_, stF. vrun. vrun.
      rewrite (utt_tuple_ok c u _ lref Hs EL).
      vrun. rewrite foreign_item_enc12.
      vrun. rewrite foreign_item_enc12.
      vrun. rewrite foreign_item_enc12.
      vrun. reflexivity.
  Qed.
  End Head.


  (* the statements from `if validate:` on leave fn, feat's companions and the prefixes alone; dir_ is "d/feat" *)
  Section Tail.
    Variables (fnv : string) (t1 ali ref prefix prefix_ : val).
    Local Notation stT nf fdt feat wb msg t2 T F evs :=
      (stF nf fdt (VStr fnv) t1 feat ali ref wb prefix (VStr "d/feat") prefix_ msg t2 T F evs).

    Lemma feat_validate_run : forall body nf fdt feat wb msg t2 T F evs,
      exec ext (SIf (EName "validate") body SPass) (stT nf fdt feat wb msg t2 T F evs) = exec ext body (stT nf fdt feat wb msg t2 T F evs).
    Proof. reflexivity. Qed.

    (* -- `if not isinstance(feat, torch.Tensor) or feat_dtype not in {None, feat.dtype}: raise ValueError` -- *)
    Lemma feat_dtype_chk_run : forall nf sdt t wb msg t2 T F evs,
      exec ext feat_dtype_chk (stT nf (dt_val sdt) (enc12 t) wb msg t2 T F evs)
      = if match sdt with None => true | Some d0 => Model.dtype_beq d0 (t_dtype t) end
        then Ok CNormal (stT nf (dt_val sdt) (enc12 t) wb msg t2 T F evs)
        else Exc "ValueError" (stT nf (dt_val sdt) (enc12 t) wb msg t2 T F evs).
    Proof.
      intros. unfold feat_dtype_chk, stF.
      destruct sdt as [d0|]; cbn [dt_val].
      - vrun. rewrite orb_false_r. destruct (Model.dtype_beq d0 (t_dtype t)); vrun; reflexivity.
      - vrun. reflexivity.
    Qed.

    Lemma feat_cuda_run : forall nf fdt t (wb : bool) msg t2 T F evs,
      exists msg',
      exec ext feat_cuda (stT nf fdt (enc12 t) (VBool wb) msg t2 T F evs)
      = if (t_cuda t && negb (Model.is_some fx))%bool
        then Exc "ValueError" (stT nf fdt (enc12 t) (VBool wb) msg' t2 T F evs)
        else Ok CNormal (stT nf fdt (enc12 (cpu t)) (VBool (wb || t_cuda t)) msg' t2 T F evs).
    Proof.
      intros. unfold feat_cuda, stF.
      destruct t as [cu dt sh da]; cbn [t_cuda]. destruct cu; cbn [andb orb negb]; eexists.
      - vrun. destruct fx as [k|]; vrun.
        + rewrite orb_true_r. reflexivity.
        + reflexivity.
      - vrun. rewrite orb_false_r. reflexivity.
    Qed.

    Lemma feat_dtype_set_run : forall nf fdt t wb msg t2 T F evs,
      exec ext feat_dtype_set (stT nf fdt (enc12 t) wb msg t2 T F evs)
      = Ok CNormal (stT nf (dt_val (Some (t_dtype t))) (enc12 t) wb msg t2 T F evs).
    Proof. intros. unfold feat_dtype_set, stF. vrun. reflexivity. Qed.

    Lemma feat_dim_run : forall nf fdt t wb msg t2 T F evs,
      exec ext feat_dim (stT nf fdt (enc12 t) wb msg t2 T F evs)
      = if (ndim t =? 2)%nat
        then Ok CNormal (stT nf fdt (enc12 t) wb msg t2 T F evs)
        else Exc "ValueError" (stT nf fdt (enc12 t) wb msg t2 T F evs).
    Proof.
      intros. unfold feat_dim, stF.
      vrun. change 2%Z with (Z.of_nat 2). rewrite of_nat_eqb. destruct (ndim t =? 2)%nat; vrun; reflexivity.
    Qed.

    Lemma feat_shape_run : forall nf fdt cu dt a b da wb msg t2 T F evs,
      exists t2',
      exec ext feat_shape (stT nf fdt (enc12 (mkT cu dt [a; b] da)) wb msg t2 T F evs)
      = Ok CNormal (stT nf fdt (enc12 (mkT cu dt [a; b] da)) wb msg t2' (VInt (Z.of_nat a)) (VInt (Z.of_nat b)) evs).
    Proof. intros. unfold feat_shape, stF. eexists. vrun. reflexivity. Qed.

    (* -- `if num_filts is None: num_filts = F` / `elif validate and F != num_filts: raise ValueError` -- *)
    Lemma feat_nf_run : forall snf fdt feat wb msg t2 T b evs,
      exec ext feat_nf (stT (nf_val snf) fdt feat wb msg t2 T (VInt (Z.of_nat b)) evs)
      = match snf with
        | None => Ok CNormal (stT (nf_val (Some b)) fdt feat wb msg t2 T (VInt (Z.of_nat b)) evs)
        | Some n =>
            if (b =? n)%nat
            then Ok CNormal (stT (nf_val snf) fdt feat wb msg t2 T (VInt (Z.of_nat b)) evs)
            else Exc "ValueError" (stT (nf_val snf) fdt feat wb msg t2 T (VInt (Z.of_nat b)) evs)
        end.
    Proof.
      intros. unfold feat_nf, stF.
      destruct snf as [n|]; cbn [nf_val].
      - vrun. destruct (b =? n)%nat; vrun; reflexivity.
      - vrun. reflexivity.
    Qed.

    Lemma feat_save_run : forall nf fdt t (wb : bool) msg t2 T F evs,
      exec ext feat_save (stT nf fdt (enc12 t) (VBool wb) msg t2 T F evs)
      = Ok CNormal (stT nf fdt (enc12 t) (VBool false) msg t2 T F (if wb then evs ++ [save_ev fnv t "d/feat"] else evs)%list).
    Proof. intros. unfold feat_save, stF, save_ev. destruct wb; vrun; reflexivity. Qed.

    Lemma feat_info_run : forall nf fdt feat wb msg t2 T F evs,
      exec ext feat_info (stT nf fdt feat wb msg t2 T F evs) = Ok CNormal (stT nf fdt feat wb msg t2 T F evs).
    Proof. intros. unfold feat_info, stF. vrun. reflexivity. Qed.
  End Tail.

  Lemma feat_tail_run : forall f vst fnv t1 ali ref prefix prefix_ msg t2 T F evs,
    let st := stF (nf_val (Model.s_nf vst)) (dt_val (Model.s_dt vst)) (VStr fnv) t1 (enc12 (feat_tens f)) ali ref (VBool false)
                  prefix (VStr "d/feat") prefix_ msg t2 T F evs in
    match Model.feat_part true fx vst f with
    | inl _ => exists st', exec ext (seq_drop 6 iv_feat) st = Exc "ValueError" st' /\ events st' = evs
    | inr (f', Tn, Fn, vst1) =>
        exists msg' t2',
        exec ext (seq_drop 6 iv_feat) st
        = Ok CNormal (stF (nf_val (Model.s_nf vst1)) (dt_val (Model.s_dt vst1)) (VStr fnv) t1 (enc12 (feat_tens f')) ali ref (VBool false)
                          prefix (VStr "d/feat") prefix_ msg' t2' (VInt (Z.of_nat Tn)) (VInt (Z.of_nat Fn))
                          (if Model.f_cuda f then (evs ++ [save_ev fnv (feat_tens f') "d/feat"])%list else evs))
    end.
  Proof.
    intros [cu dt sh] [snf s2d sdt] fnv t1 ali ref prefix prefix_ msg t2 T F evs st. subst st.
    unfold Model.feat_part. cbn [Model.f_cuda Model.f_dtype Model.f_shape Model.s_nf Model.s_2d Model.s_dt andb].
    unfold feat_tens. cbn [Model.f_cuda Model.f_dtype Model.f_shape].
    rewrite feat_tail_split.
    rewrite exec_seq', feat_validate_run, feat_vbody_split.
    rewrite exec_seq', feat_dtype_chk_run. cbn [t_dtype].
    destruct (match sdt with Some d0 => Model.dtype_beq d0 dt | None => true end); cbn [negb]; [|done_exc]. cbn [bind then_].
    rewrite exec_seq'. usex feat_cuda_run. cbn [t_cuda cpu t_dtype t_shape t_data orb].
    destruct (cu && negb (Model.is_some fx))%bool; [done_exc|]. cbn [bind then_].
    rewrite feat_dtype_set_run. cbn [t_dtype bind then_].
    rewrite exec_seq', feat_dim_run. unfold ndim. cbn [t_shape].
    destruct sh as [|a [|b [|c0 sh']]]; cbn [List.length Nat.eqb]; try done_exc. cbn [bind then_].
    rewrite exec_seq'. usex feat_shape_run. cbn [bind then_].
    rewrite exec_seq', feat_nf_run.
    destruct snf as [nf|]; [destruct (b =? nf)%nat; cbn [negb]; [|done_exc]|].
    all: cbn [bind then_]; rewrite exec_seq', feat_save_run; cbn [bind then_]; rewrite feat_info_run.
    all: cbn [Model.s_nf Model.s_dt]; destruct cu; do 2 eexists; reflexivity.
  Qed.
End Feat.
