(* C12 — tie library: facts about the encoding of tensors as MiniPy values and the tactics that run a translated body
   one statement at a time (no definitions of semantics; no axioms). *)
From Coq Require Import ZArith List String Bool Arith Lia ZifyBool.
From PV Require Export MiniPy.Lemmas.
From PV Require Import MiniPy.Syntax MiniPy.Interp MiniTorch.OpsC12 MiniTorch.LemmasC12.
From PV Require Import C12.SrcRun.
Import ListNotations.
Local Open Scope string_scope.

Lemma dec_nats_enc : forall s, dec_nats (enc_nats s) = Some s.
Proof.
  induction s as [|n s IH]; [reflexivity|]. unfold enc_nats in *. cbn [map dec_nats]. rewrite IH.
  replace (0 <=? Z.of_nat n)%Z with true by lia. cbn [option_map]. now rewrite Nat2Z.id.
Qed.

Lemma dec_ints_enc : forall d, dec_ints (map VInt d) = Some d.
Proof. induction d as [|z d IH]; [reflexivity|]. cbn. now rewrite IH. Qed.

Lemma dec12_enc12 : forall t, dec12 (enc12 t) = Some t.
Proof.
  intros [cu dt sh d]. unfold dec12, enc12. cbn [t_cuda t_dtype t_shape t_data].
  rewrite String.eqb_refl, dtype_of_name_name, dec_nats_enc, dec_ints_enc. reflexivity.
Qed.

Lemma on1_enc : forall why t k st, on1 why (enc12 t) k st = ret12 why (k t) st.
Proof. intros. unfold on1. now rewrite dec12_enc12. Qed.

Lemma method_enc12 : forall t m args, method (enc12 t) m args = None.
Proof. reflexivity. Qed.
Lemma attribute_enc12 : forall ext t a st, attribute ext (enc12 t) a st = ext ("$attr." ++ a) [enc12 t] [] st.
Proof. reflexivity. Qed.
Lemma foreign_enc12 : forall t, foreign (enc12 t) = true.
Proof. reflexivity. Qed.
Lemma subscript_enc12_int : forall t i st, subscript (enc12 t) (VInt i) st = Stuck "item of a library object".
Proof. reflexivity. Qed.
Lemma subscript_enc12_tuple : forall t k st, subscript (enc12 t) (VTuple k) st = Stuck "subscript".
Proof. reflexivity. Qed.
Lemma isnot_none_enc12 : forall t, cmp_eval IsNot (enc12 t) VNone = Some true.
Proof. reflexivity. Qed.
Lemma is_none_enc12 : forall t, cmp_eval Is (enc12 t) VNone = Some false.
Proof. reflexivity. Qed.
Lemma dec_key_enc12 : forall t, dec_key (enc12 t) = None.
Proof. reflexivity. Qed.

(* sub-statements of the generated terms, by position *)
Fixpoint seq_nth (k : nat) (s : stmt) : stmt :=
  match k, s with
  | O, SSeq a _ => a
  | O, _ => s
  | S k', SSeq _ b => seq_nth k' b
  | S _, _ => SPass
  end.
Fixpoint seq_drop (k : nat) (s : stmt) : stmt :=
  match k, s with S k', SSeq _ b => seq_drop k' b | _, _ => s end.
Definition if_then (s : stmt) : stmt := match s with SIf _ t _ => t | _ => SPass end.
Definition for_body (s : stmt) : stmt := match s with SFor _ _ b => b | _ => SPass end.

Definition then_ (ext : string -> list val -> list (string * val) -> state -> outcome val) (b : stmt)
  : ctl -> state -> outcome ctl :=
  fun c st1 => match c with CNormal => exec ext b st1 | CReturn v => Ok c st1 end.

Lemma exec_seq' : forall ext a b st, exec ext (SSeq a b) st = bind (exec ext a st) (then_ ext b).
Proof. reflexivity. Qed.
Lemma then_normal : forall ext b st, then_ ext b CNormal st = exec ext b st.
Proof. reflexivity. Qed.
Lemma then_return : forall ext b v st, then_ ext b (CReturn v) st = Ok (CReturn v) st.
Proof. reflexivity. Qed.

Lemma run_of_exec_return : forall ext body vars v st,
  exec ext body (mkState vars []) = Ok (CReturn v) st -> Interp.run ext body vars = Ok v st.
Proof. intros ext body vars v st H. unfold Interp.run. now rewrite H. Qed.
Lemma run_of_exec_normal : forall ext body vars st,
  exec ext body (mkState vars []) = Ok CNormal st -> Interp.run ext body vars = Ok VNone st.
Proof. intros ext body vars st H. unfold Interp.run. now rewrite H. Qed.
Lemma run_of_exec_exc : forall ext body vars n st,
  exec ext body (mkState vars []) = Exc n st -> Interp.run ext body vars = Exc n st.
Proof. intros ext body vars n st H. unfold Interp.run. now rewrite H. Qed.

Lemma Forall_row3 : forall rows, Forall (fun r => List.length r = 3%nat) (map row3 rows).
Proof. induction rows as [|[[a b] c] rows IH]; constructor; [reflexivity|exact IH]. Qed.

Lemma leb_0_of_nat : forall n, (0 <=? Z.of_nat n)%Z = true.
Proof. intros. lia. Qed.

Lemma store_name : forall ext x v st, store ext (EName x) v st = Ok tt (set_var x v st).
Proof. reflexivity. Qed.

(* x[k] = v where x holds a tensor: the unit's [ext] computes the updated tensor, which is stored back in x *)
Lemma store_sub_enc12 : forall ext x k v st t kv st2,
  lookup x (vars st) = Some (enc12 t) ->
  eval ext k st = Ok kv st2 ->
  store ext (ESub (EName x) k) v st
  = bind (ext "$setitem" [enc12 t; kv; v] [] st2) (fun nv st3 => Ok tt (set_var x nv st3)).
Proof.
  intros ext x k v st t kv st2 Hx Hk. cbn [store eval]. rewrite Hx. cbn [bind]. rewrite Hk. cbn [bind]. reflexivity.
Qed.

(* how the tie files compute: the encoding and the tensor operations stay folded (they are talked about through their
   lemmas), [bind] and the unit's [ext] unfold when their argument is known *)
Arguments enc12 : simpl never.
Arguments dec12 !v /.
Arguments T1 : simpl never.
Arguments T2 : simpl never.
Arguments NZ : simpl never.
Arguments new_full : simpl never.
Arguments cat : simpl never.
Arguments ndim : simpl never.
Arguments size : simpl never.
Arguments numel : simpl never.
Arguments select_col : simpl never.
Arguments set_item : simpl never.
Arguments get_item : simpl never.
Arguments item : simpl never.
Arguments unsqueeze : simpl never.
Arguments slice0 : simpl never.
Arguments nonzero : simpl never.
Arguments eq_scalar : simpl never.
Arguments cpu : simpl never.
Arguments long : simpl never.
Arguments torch_module : simpl never.
Arguments store : simpl never.
Arguments bind {A B} !o f /.
Arguments Z.add : simpl never.
Arguments skipn : simpl never.
Arguments firstn : simpl never.
Arguments then_ : simpl never.

(* the interpreter's functions unfold on an explicit state only: not inside a continuation, where the state is a bound
   variable *)
Arguments exec ext s !st.
Arguments eval ext e !st.
Arguments assign_all ext ts v !st.
Arguments subscript !o !k !st /.
Arguments attribute ext o a !st.
Arguments binop_eval op a b !st.
Arguments builtin f args !st.
Arguments ext12 env f !args kw !st /.
Arguments method !o m !args.
Arguments truthy !v.
Arguments cmp_eval op !a !b /.

(* compute; where the computation stops at an encoded tensor ([enc12] is kept folded by the tie files) or at a variable
   in the part of the state that is left abstract, the fact that lets it go on.  The goal carries the rest of the
   block, so each fact is tried only where its left-hand side occurs: a failing [rewrite] costs a pass over the goal. *)
Ltac trun :=
  cbn;
  repeat (progress (match goal with
                    | |- context [method (enc12 _) _ _] => rewrite method_enc12
                    | |- context [on1 _ (enc12 _) _ _] => rewrite on1_enc
                    | |- context [dec12 (enc12 _)] => rewrite dec12_enc12
                    | |- context [foreign (enc12 _)] => rewrite foreign_enc12
                    | |- context [subscript (enc12 _) (VInt _) _] => rewrite subscript_enc12_int
                    | |- context [subscript (enc12 _) (VTuple _) _] => rewrite subscript_enc12_tuple
                    | |- context [cmp_eval IsNot (enc12 _) VNone] => rewrite isnot_none_enc12
                    | |- context [cmp_eval Is (enc12 _) VNone] => rewrite is_none_enc12
                    | |- context [attribute _ (enc12 _) _ _] => rewrite attribute_enc12
                    | |- context [store _ (EName _) _ _] => rewrite store_name
                    | |- context [lookup ?x (update ?x _ _)] => rewrite lookup_update_eq
                    end); cbn).
