(* C12 — lemmas, part 4: the report of get-torch-spect-data-dir-info is the recount. *)
From Coq Require Import List ZArith Bool Lia.
From Coq Require Import ZifyBool ZifyNat.
From PV Require Import C12.Model C12.Spec C12.Proofs C12.Proofs2 C12.Proofs3.
Import ListNotations.
Local Open Scope Z_scope.

Lemma aget_aset d k v k' dflt :
  aget (aset d k v) k' dflt = if k =? k' then v else aget d k' dflt.
Proof.
  induction d as [|[k0 v0] t IH]; cbn [aset aget].
  - reflexivity.
  - destruct (Z.eqb_spec k0 k) as [->|Hne]; cbn [aget].
    + destruct (Z.eqb_spec k k'); reflexivity.
    + rewrite IH. destruct (Z.eqb_spec k0 k'), (Z.eqb_spec k k'); try reflexivity. lia.
Qed.

Lemma zsum_app a b : zsum (a ++ b) = zsum a + zsum b.
Proof. induction a; cbn; lia. Qed.

Lemma zcount_app i a b : zcount i (a ++ b) = zcount i a + zcount i b.
Proof. unfold zcount. rewrite map_app, zsum_app. reflexivity. Qed.

Lemma zmax_list_max a m l : zmax_list (Z.max a m) l = Z.max a (zmax_list m l).
Proof. unfold zmax_list. induction l; cbn; lia. Qed.

Lemma zmax_list_app m a b : zmax_list m (a ++ b) = zmax_list (zmax_list m b) a.
Proof. unfold zmax_list. apply fold_right_app. Qed.

Lemma zmax_list_swap m a b : zmax_list (zmax_list m a) b = zmax_list (zmax_list m b) a.
Proof.
  induction a as [|x a IH]; [reflexivity|].
  change (zmax_list m (x :: a)) with (Z.max x (zmax_list m a)).
  rewrite zmax_list_max, IH. reflexivity.
Qed.

Lemma rle_head x t : exists n r, rle (x :: t) = (x, n) :: r.
Proof.
  revert x. induction t as [|y t IH]; intro x; cbn [rle]; [eauto|].
  destruct (IH y) as (n & r & E). cbn [rle] in E. rewrite E.
  destruct (Z.eqb_spec x y) as [->|]; eauto.
Qed.

Lemma rle_cons2 x y t : exists n r, rle (y :: t) = (y, n) :: r /\
  rle (x :: y :: t) = if x =? y then (y, n + 1) :: r else (x, 1) :: (y, n) :: r.
Proof.
  destruct (rle_head y t) as (n & r & E). exists n, r. split; [assumption|].
  change (rle (x :: y :: t)) with
    (match rle (y :: t) with (y0, n0) :: r0 => if x =? y0 then (y0, n0 + 1) :: r0 else (x, 1) :: (y0, n0) :: r0
                        | [] => [(x, 1)] end).
  rewrite E. reflexivity.
Qed.

Lemma zmax_rle m l : zmax_list m (map fst (rle l)) = zmax_list m l.
Proof.
  induction l as [|x [|y t] IH]; [reflexivity|reflexivity|].
  destruct (rle_cons2 x y t) as (n & r & E1 & E2). rewrite E2. rewrite E1 in IH.
  unfold zmax_list in *. cbn [map fst fold_right] in *.
  destruct (Z.eqb_spec x y); cbn [map fst fold_right]; lia.
Qed.

Lemma count_rle i l :
  zsum (map (fun r : Z * Z => if fst r =? i then snd r else 0) (rle l)) = zcount i l.
Proof.
  unfold zcount. induction l as [|x [|y t] IH]; [reflexivity|cbn; lia|].
  destruct (rle_cons2 x y t) as (n & r & E1 & E2). rewrite E2. rewrite E1 in IH.
  cbn [map zsum fst snd] in *.
  destruct (Z.eqb_spec x y); cbn [map zsum fst snd]; destruct (Z.eqb_spec x i), (Z.eqb_spec y i); lia.
Qed.

Definition nruns (i : Z) (l : list Z) : Z :=
  zsum (map (fun r : Z * Z => if fst r =? i then 1 else 0) (rle l)).

Lemma starts_rle i l : forall p,
  nstarts i p l
  = nruns i l - match l, p with
                | y :: _, Some q => if (q =? i) && (y =? i) then 1 else 0
                | _, _ => 0 end.
Proof.
  unfold nruns. induction l as [|x [|y t] IH]; intro p.
  - cbn. lia.
  - cbn. destruct p as [q|]; destruct (Z.eqb_spec x i); try destruct (Z.eqb_spec q i); cbn; lia.
  - change (nstarts i p (x :: y :: t))
      with ((if (x =? i) && negb (match p with Some q => q =? i | None => false end) then 1 else 0)
            + nstarts i (Some x) (y :: t)).
    rewrite IH. destruct (rle_cons2 x y t) as (n & r & E1 & E2). rewrite E2, E1.
    cbn [map zsum fst].
    destruct (Z.eqb_spec x y); cbn [map zsum fst];
      destruct (Z.eqb_spec x i), (Z.eqb_spec y i); destruct p as [q|]; try destruct (Z.eqb_spec q i);
      cbn [andb negb]; lia.
Qed.

Lemma nruns_starts i l : nruns i l = nstarts i None l.
Proof. rewrite starts_rle. destruct l; lia. Qed.

Definition aview (a : iacc) := (i_maxali a, i_counts a, i_segs a).
Definition rview (a : iacc) := (i_maxref a, i_rcounts a, i_rsegs a).
Definition fview (a : iacc) := (i_frames a, i_nf a).

Section FoldView.
  Context {A B X : Type} (p : A -> X) (f : A -> B -> A).

  Lemma fold_view_congr : (forall a b r, p a = p b -> p (f a r) = p (f b r)) ->
    forall l a b, p a = p b -> p (fold_left f l a) = p (fold_left f l b).
  Proof. intros H l. induction l; intros; cbn; auto. Qed.

  Lemma fold_view_id : (forall a r, p (f a r) = p a) -> forall l a, p (fold_left f l a) = p a.
  Proof. intros H l. induction l as [|r l IH]; intro a; cbn; [reflexivity|]. rewrite IH. apply H. Qed.
End FoldView.

Lemma aview_ali_upd a b r : aview a = aview b -> aview (ali_upd a r) = aview (ali_upd b r).
Proof. destruct r. unfold aview, ali_upd. cbn. intros [= -> -> ->]. reflexivity. Qed.
Lemma rview_ref_upd a b r : rview a = rview b -> rview (ref_upd a r) = rview (ref_upd b r).
Proof. destruct r as [[tok s] e]. unfold rview, ref_upd. cbn. intros [= -> -> ->]. reflexivity. Qed.
Lemma ali_upd_other a r :
  rview (ali_upd a r) = rview a /\ fview (ali_upd a r) = fview a /\ i_ntok (ali_upd a r) = i_ntok a.
Proof. destruct r. repeat split. Qed.
Lemma ref_upd_other a r : aview (ref_upd a r) = aview a /\ fview (ref_upd a r) = fview a.
Proof. destruct r as [[tok s] e]. repeat split. Qed.

Definition vals_of (u : utt) : list Z := match u_ali u with Some a => ali_values a | None => [] end.
Definition rows_of (u : utt) : list row := match u_ref u with Some r => ref_rows_of r | None => [] end.

Definition feat_acc (acc : iacc) (u : utt) : iacc :=
  mkAcc (i_frames acc + Z.of_nat (frames (u_feat u))) (Some (nth 1 (f_shape (u_feat u)) 0%nat))
        (i_maxali acc) (i_maxref acc)
        (if is_some (u_ref u) then Z.max 0 (i_ntok acc) else i_ntok acc)
        (i_counts acc) (i_segs acc) (i_rcounts acc) (i_rsegs acc).

Lemma info_upd_form acc u :
  info_upd acc u = fold_left ref_upd (rows_of u) (fold_left ali_upd (rle (vals_of u)) (feat_acc acc u)).
Proof.
  unfold info_upd, vals_of, rows_of, ref_rows_of, feat_acc.
  destruct (u_ali u) as [a|]; destruct (u_ref u) as [r|]; cbn [rle fold_left]; try reflexivity;
    destruct (r_data r) as [t|rows|w [|x rows]|nd]; reflexivity.
Qed.

Lemma ali_lists_cons u t : ali_lists (u :: t) = match u_ali u with Some a => [ali_values a] | None => [] end ++ ali_lists t.
Proof. reflexivity. Qed.
Lemma ref_lists_cons u t : ref_lists (u :: t) = match u_ref u with Some r => [ref_rows_of r] | None => [] end ++ ref_lists t.
Proof. reflexivity. Qed.

Lemma fold_info_aview d : forall acc,
  aview (fold_left info_upd d acc) = aview (fold_left ali_upd (flat_map rle (ali_lists d)) acc).
Proof.
  induction d as [|u t IH]; intro acc; [reflexivity|].
  cbn [fold_left]. rewrite IH, ali_lists_cons, flat_map_app, fold_left_app.
  apply fold_view_congr; [apply aview_ali_upd|].
  rewrite info_upd_form, (fold_view_id aview ref_upd (fun a r => proj1 (ref_upd_other a r))).
  unfold vals_of. destruct (u_ali u); cbn [flat_map]; rewrite ?app_nil_r;
    (apply fold_view_congr; [apply aview_ali_upd|reflexivity]).
Qed.

Lemma fold_info_rview d : forall acc,
  rview (fold_left info_upd d acc) = rview (fold_left ref_upd (concat (ref_lists d)) acc).
Proof.
  induction d as [|u t IH]; intro acc; [reflexivity|].
  cbn [fold_left]. rewrite IH, ref_lists_cons, concat_app, fold_left_app.
  apply fold_view_congr; [apply rview_ref_upd|].
  rewrite info_upd_form. unfold rows_of. destruct (u_ref u); cbn [concat]; rewrite ?app_nil_r;
    (apply fold_view_congr; [apply rview_ref_upd|]);
    rewrite (fold_view_id rview ali_upd (fun a r => proj1 (ali_upd_other a r))); reflexivity.
Qed.

Lemma info_upd_frames acc u :
  i_frames (info_upd acc u) = i_frames acc + Z.of_nat (frames (u_feat u)) /\
  i_nf (info_upd acc u) = Some (nth 1 (f_shape (u_feat u)) 0%nat).
Proof.
  assert (E : fview (info_upd acc u) = fview (feat_acc acc u)).
  { rewrite info_upd_form, (fold_view_id fview ref_upd (fun a r => proj2 (ref_upd_other a r))).
    rewrite (fold_view_id fview ali_upd (fun a r => proj1 (proj2 (ali_upd_other a r)))). reflexivity. }
  injection E as -> ->. split; reflexivity.
Qed.

Lemma fold_info_frames d : forall acc,
  i_frames (fold_left info_upd d acc) = i_frames acc + zsum (map (fun u => Z.of_nat (frames (u_feat u))) d).
Proof.
  induction d as [|u t IH]; intro acc; cbn [fold_left map zsum]; [lia|].
  rewrite IH, (proj1 (info_upd_frames acc u)). lia.
Qed.

Lemma fold_info_nf F d : Forall (fun u => nth 1 (f_shape (u_feat u)) 0%nat = F) d -> forall acc,
  i_nf (fold_left info_upd d acc) = match d with [] => i_nf acc | _ => Some F end.
Proof.
  induction 1 as [|u t Hu Ht IH]; intro acc; [reflexivity|].
  cbn [fold_left]. rewrite IH. destruct t; [|reflexivity]. rewrite (proj2 (info_upd_frames acc u)), Hu. reflexivity.
Qed.

Lemma fold_ali_max runs : forall a,
  i_maxali (fold_left ali_upd runs a) = zmax_list (i_maxali a) (map fst runs).
Proof.
  induction runs as [|[c n] t IH]; intro a; cbn [fold_left map fst]; [reflexivity|].
  rewrite IH. cbn [ali_upd i_maxali]. rewrite zmax_list_max. reflexivity.
Qed.

Lemma fold_ali_counts i runs : forall a,
  aget (i_counts (fold_left ali_upd runs a)) i 0
  = aget (i_counts a) i 0 + zsum (map (fun r : Z * Z => if fst r =? i then snd r else 0) runs) /\
  aget (i_segs (fold_left ali_upd runs a)) i 0
  = aget (i_segs a) i 0 + zsum (map (fun r : Z * Z => if fst r =? i then 1 else 0) runs).
Proof.
  induction runs as [|[c n] t IH]; intro a; cbn [fold_left map zsum fst snd]; [lia|].
  destruct (IH (ali_upd a (c, n))) as [-> ->]. cbn [ali_upd i_counts i_segs]. rewrite !aget_aset.
  destruct (Z.eqb_spec c i) as [->|]; lia.
Qed.

Lemma zmax_flat_rle m ls : zmax_list m (map fst (flat_map rle ls)) = zmax_list m (concat ls).
Proof.
  revert m. induction ls as [|l t IH]; intro m; [reflexivity|].
  cbn [flat_map concat]. rewrite map_app, !zmax_list_app, IH, zmax_rle. reflexivity.
Qed.

Lemma count_flat_rle i ls :
  zsum (map (fun r : Z * Z => if fst r =? i then snd r else 0) (flat_map rle ls)) = zcount i (concat ls).
Proof.
  induction ls as [|l t IH]; [reflexivity|].
  cbn [flat_map concat]. rewrite map_app, zsum_app, zcount_app, IH, count_rle. reflexivity.
Qed.

Lemma starts_flat_rle i ls :
  zsum (map (fun r : Z * Z => if fst r =? i then 1 else 0) (flat_map rle ls)) = zsum (map (nstarts i None) ls).
Proof.
  induction ls as [|l t IH]; [reflexivity|].
  cbn [flat_map map zsum]. rewrite map_app, zsum_app, IH. fold (nruns i l). rewrite nruns_starts. reflexivity.
Qed.

Lemma fold_ref_max rows : forall a,
  i_maxref (fold_left ref_upd rows a) = zmax_list (i_maxref a) (map tok_of rows) /\
  (0 <= i_ntok a -> i_ntok (fold_left ref_upd rows a) = i_ntok a + Z.of_nat (length rows)).
Proof.
  induction rows as [|[[tok s] e] t IH]; intro a; cbn [fold_left map tok_of fst length]; [split; [reflexivity|lia]|].
  destruct (IH (ref_upd a (tok, s, e))) as [-> Hn]. cbn [ref_upd i_maxref i_ntok] in *.
  split; [rewrite Z.max_comm, zmax_list_max; reflexivity|]. intro H0. rewrite Hn; lia.
Qed.

Lemma fold_ali_ntok runs a : i_ntok (fold_left ali_upd runs a) = i_ntok a.
Proof. apply (fold_view_id i_ntok ali_upd (fun a r => proj2 (proj2 (ali_upd_other a r)))). Qed.

Lemma info_upd_ntok acc u :
  i_ntok (info_upd acc u)
  = match u_ref u with
    | Some r => Z.max 0 (i_ntok acc) + Z.of_nat (length (ref_rows_of r))
    | None => i_ntok acc end.
Proof.
  rewrite info_upd_form. unfold rows_of. destruct (u_ref u) as [r|] eqn:Er.
  - rewrite (proj2 (fold_ref_max _ _)); rewrite fold_ali_ntok; unfold feat_acc; rewrite Er; cbn [is_some i_ntok]; lia.
  - cbn [fold_left]. rewrite fold_ali_ntok. unfold feat_acc. rewrite Er. reflexivity.
Qed.

Lemma fold_info_ntok d : forall acc,
  i_ntok (fold_left info_upd d acc)
  = match ref_lists d with
    | [] => i_ntok acc
    | _ => Z.max 0 (i_ntok acc) + Z.of_nat (length (concat (ref_lists d))) end.
Proof.
  induction d as [|u t IH]; intro acc; [reflexivity|].
  cbn [fold_left]. rewrite IH, info_upd_ntok, ref_lists_cons.
  destruct (u_ref u) as [r|]; cbn [app concat].
  - rewrite app_length. destruct (ref_lists t); cbn [concat length]; lia.
  - reflexivity.
Qed.

Lemma fold_ref_segs i rows : forall a,
  aget (i_rsegs (fold_left ref_upd rows a)) i 0 = aget (i_rsegs a) i 0 + zcount i (map tok_of rows).
Proof.
  unfold zcount. induction rows as [|[[tok s] e] t IH]; intro a; cbn [fold_left map zsum tok_of fst]; [lia|].
  rewrite IH. cbn [ref_upd i_rsegs]. rewrite aget_aset. destruct (Z.eqb_spec tok i) as [->|]; lia.
Qed.

Definition rc_step (rc : Z) (r : row) : Z :=
  let '(_, s, e) := r in if (rc >=? 0) && (e >=? s) && (s >=? 0) then rc + e - s else -1.

Lemma fold_ref_rcounts i rows : forall a dflt,
  aget (i_rcounts (fold_left ref_upd rows a)) i dflt
  = match filter (fun r => tok_of r =? i) rows with
    | [] => aget (i_rcounts a) i dflt
    | mine => fold_left rc_step mine (aget (i_rcounts a) i 0)
    end.
Proof.
  induction rows as [|[[tok s] e] t IH]; intros a dflt; cbn [fold_left filter tok_of fst]; [reflexivity|].
  rewrite IH. cbn [ref_upd i_rcounts]. rewrite !aget_aset.
  destruct (Z.eqb_spec tok i) as [->|Hne].
  - destruct (filter (fun r => tok_of r =? i) t); reflexivity.
  - reflexivity.
Qed.

(* a row of a valid directory: no boundaries, or a (possibly empty) segment *)
Definition row_counted (r : row) : Prop := let '(_, s, e) := r in (s < 0 /\ e < 0) \/ (0 <= s /\ s <= e).

Lemma rc_fold_poison l : fold_left rc_step l (-1) = -1.
Proof. induction l as [|[[tok s] e] t IH]; cbn [fold_left rc_step]; [reflexivity|]. cbn. apply IH. Qed.

Lemma rc_fold l : Forall row_counted l -> forall rc, 0 <= rc ->
  fold_left rc_step l rc
  = if existsb (fun r : row => let '(_, s, e) := r in (s <? 0) || (e <? 0)) l then -1
    else rc + zsum (map (fun r : row => let '(_, s, e) := r in e - s) l).
Proof.
  induction 1 as [|[[tok s] e] t Hr Ht IH]; intros rc Hrc; cbn [fold_left existsb map zsum]; [lia|].
  unfold rc_step at 2. unfold row_counted in Hr.
  destruct (Z.ltb_spec s 0), (Z.ltb_spec e 0); cbn [orb]; try lia.
  - destruct (Z.geb_spec s 0); [lia|]. rewrite andb_false_r. apply rc_fold_poison.
  - destruct (Z.geb_spec rc 0); [|lia]. destruct (Z.geb_spec e s); [|lia]. destruct (Z.geb_spec s 0); [|lia].
    cbn [andb]. rewrite IH by lia. destruct (existsb _ t); lia.
Qed.

Lemma rcount_final i rows : Forall row_counted rows ->
  aget (i_rcounts (fold_left ref_upd rows acc0)) i (-1) = rcount_of i rows.
Proof.
  intro H. rewrite fold_ref_rcounts. unfold rcount_of. cbn [acc0 i_rcounts aget].
  assert (Hm : Forall row_counted (filter (fun r => tok_of r =? i) rows)).
  { apply Forall_forall. intros x Hx. apply filter_In in Hx. rewrite Forall_forall in H. apply H, Hx. }
  destruct (filter (fun r => tok_of r =? i) rows) as [|r0 mine] eqn:E; [reflexivity|].
  rewrite (rc_fold _ Hm 0) by lia. cbn [orb]. reflexivity.
Qed.

Lemma wf_widths F dt d2 d : Forall (utt_ok F dt d2) d -> Forall (fun u => nth 1 (f_shape (u_feat u)) 0%nat = F) d.
Proof.
  intro H. eapply Forall_impl; [|exact H]. intros u ((_ & _ & T & Hs) & _). rewrite Hs. reflexivity.
Qed.

Lemma wf_rows_counted d : WellFormed d -> Forall row_counted (concat (ref_lists d)).
Proof.
  intros (F & dt & d2 & H).
  induction H as [|u t Hu Ht IH]; [constructor|].
  rewrite ref_lists_cons in *. destruct (u_ref u) as [r|] eqn:Er; cbn [app concat] in *; [|apply IH; assumption].
  apply Forall_app. split; [|apply IH; assumption].
  destruct Hu as (_ & _ & Hr). specialize (Hr _ Er).
  destruct Hr as (_ & _ & [(_ & tks & E)|(_ & rows & E & HB)]); unfold ref_rows_of in *; rewrite E in *.
  - apply Forall_forall. intros x Hx. apply in_map_iff in Hx. destruct Hx as (tok & <- & _). left. lia.
  - apply Forall_forall. intros [[tok s] e] Hx. rewrite Forall_forall in HB.
    specialize (HB _ Hx). cbn in *. lia.
Qed.

Lemma report_is_recount d : WellFormed d -> finish (length d) (fold_left info_upd d acc0) = recount d.
Proof.
  intros Hw.
  pose proof (wf_rows_counted d Hw) as Hrc.
  destruct Hw as (F & dt & d2 & HF).
  pose proof (fold_info_aview d acc0) as HA. injection HA as A1 A2 A3.
  pose proof (fold_info_rview d acc0) as HR. injection HR as R1 R3 R4.
  unfold finish, recount.
  rewrite A1, A2, A3, R1, R3, R4.
  rewrite fold_ali_max, (proj1 (fold_ref_max _ _)), fold_info_ntok.
  rewrite zmax_flat_rle. cbn [acc0 i_maxali i_maxref i_ntok].
  rewrite fold_info_frames, (fold_info_nf F d (wf_widths _ _ _ _ HF)). cbn [acc0 i_frames i_nf].
  f_equal.
  - destruct d as [|u t]; [reflexivity|]. inversion HF as [|? ? ((_ & _ & T & Hs) & _) _]; subst.
    rewrite Hs. reflexivity.
  - apply map_ext. intro i.
    rewrite (proj1 (fold_ali_counts i _ _)), (proj2 (fold_ali_counts i _ _)).
    cbn [acc0 i_counts i_segs aget]. rewrite count_flat_rle, starts_flat_rle. reflexivity.
  - apply map_ext. intro i.
    rewrite rcount_final by assumption. rewrite fold_ref_segs. cbn [acc0 i_rsegs aget]. reflexivity.
Qed.

Lemma step_unvalidated_valid fx st acc u F dt d2 :
  utt_ok F dt d2 u -> utt_tokens_nonneg u ->
  exists st', step_utt false false cfg_plain fx st acc u = (u, inr (st', acc)).
Proof.
  intros ((Hc & Hd & T & Hs) & Ha & Hr) Ht.
  unfold step_utt. cbn [c_suppress_alis cfg_plain]. rewrite load_plain_utt.
  unfold feat_part. cbn [andb]. rewrite Hs.
  assert (Htl : forall r, u_ref u = Some r ->
            exists rows, ref_rows (r_data r) = Some rows /\ ref_info_rows false acc rows = inr acc).
  { intros r Er. apply (token_loop_pass st0 (frames (u_feat u))); [|exact (Ht _ Er)].
    apply ref_pass_ok. specialize (Hr _ Er). split; [rewrite (ref_ok_dim _ _ _ Hr); assumption|].
    intros x Hx. discriminate. }
  destruct (s_nf st), (u_ali u) as [a|] eqn:Ea, (u_ref u) as [r|] eqn:Er; cbn [ali_part negb];
    try (destruct (Htl _ eq_refl) as (rows & -> & ->)); rewrite <- ?Ea, <- ?Er, utt_eta; eauto.
Qed.

Lemma run_unvalidated_valid fx F dt d2 d : Forall (utt_ok F dt d2) d -> tokens_nonneg d ->
  forall st acc, run_pass false false cfg_plain fx st acc d = (d, inr acc).
Proof.
  unfold tokens_nonneg. induction 1 as [|u t Hu Ht IH]; intros Htok st acc; cbn [run_pass]; [reflexivity|].
  inversion Htok as [|? ? H1 H2]; subst.
  destruct (step_unvalidated_valid fx st acc u F dt d2 Hu H1) as (st' & ->).
  rewrite (IH H2 st' acc). reflexivity.
Qed.

(* get-torch-spect-data-dir-info on a valid directory: any flags, nothing changes, the report is the recount *)
Lemma cli_report_on_valid strict fx d :
  WellFormed d -> tokens_nonneg d -> classes_nonneg d ->
  cli_info strict fx d = (d, inr (recount d)).
Proof.
  intros Hw Ht Hc. unfold cli_info.
  assert (E : run_pass false (cli_validates strict fx) cfg_plain fx st0 acc0 d = (d, inr acc0)).
  { destruct (cli_validates strict fx).
    - apply run_valid_unchanged; try assumption; [split; reflexivity|split; intros s H; discriminate].
    - destruct Hw as (F & dt & d2 & HF). exact (run_unvalidated_valid fx F dt d2 d HF Ht st0 acc0). }
  rewrite (run_info _ fx d st0 acc0 acc0 d (inr acc0) E (proj1 (classes_nonneg_utts d) Hc)).
  rewrite report_is_recount by assumption. reflexivity.
Qed.

(* --strict / --fix N (any N) on any directory that the tolerance can repair: the files afterwards are the
   repaired ones and the report is their recount *)
Lemma cli_report_after_fix strict fx d :
  cli_validates strict fx = true -> tokens_nonneg d -> classes_nonneg d ->
  WellFormed (repair fx d) ->
  cli_info strict fx d = (repair fx d, inr (recount (repair fx d))).
Proof.
  intros Ev Ht Hc Hw.
  rewrite (cli_like_validate strict fx d Ev Hc).
  assert (Hp : plain_yield cfg_plain) by (split; reflexivity).
  assert (Hs : syms_nonneg cfg_plain) by (split; intros s H; discriminate).
  assert (Hcw : clean_writes cfg_plain (tolerance (fixarg_of fx))) by (right; split; reflexivity).
  assert (Etol : tolerance (fixarg_of fx) = fx) by (destruct fx; reflexivity).
  pose proof (validate_accepts cfg_plain (fixarg_of fx) d Hp Hcw Hs Ht) as Hv. rewrite Etol in Hv.
  rewrite (Hv Hw). cbn [fst snd].
  assert (length d = length (repair fx d)) as -> by (rewrite repair_map, map_length; reflexivity).
  rewrite report_is_recount by assumption. reflexivity.
Qed.
