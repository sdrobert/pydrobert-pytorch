(* C12 — lemmas, part 3: concrete witnesses for the deviations the faithful model contains,
   and the command-line entry point. *)
From Coq Require Import List ZArith Bool Lia.
From Coq Require Import ZifyBool ZifyNat.
From PV Require Import C12.Model C12.Spec C12.Proofs C12.Proofs2.
Import ListNotations.
Local Open Scope Z_scope.

(* F9: fix + configured symbols *)

Definition w_feat := mkFeat false DF32 [3%nat; 2%nat].
Definition w_f9_dir : dir := [mkUtt w_feat None (Some (mkRef false DI64 (R2 [(1, 0, 4)])))].
Definition w_f9_cfg := mkCfg (Some 7) None false false.
Definition w_f9_after : dir := [mkUtt w_feat None (Some (mkRef false DI64 (R2 [(7, -1, -1); (1, 0, 3)])))].

Lemma fix_with_symbols_refuted :
  exists c d d', plain_yield c /\ syms_nonneg c /\ tokens_nonneg d /\
    validate c (FInt 1) d = (d', None) /\ d' <> repair (Some 1) d /\
    (* the symbol is now on disk, and the next read doubles it *)
    (exists r lr, nth_error d' 0 = Some (mkUtt w_feat None (Some r)) /\ load_ref c r = inr lr /\
                  r_data lr = R2 [(7, -1, -1); (7, -1, -1); (1, 0, 3)]).
Proof.
  exists w_f9_cfg, w_f9_dir, w_f9_after.
  split; [split; reflexivity|]. split; [split; intros s H; inversion H; lia|].
  split; [constructor; [|constructor]; intros r H; inversion H; subst; cbn; constructor; [lia|constructor]|].
  split; [reflexivity|]. split; [discriminate|].
  eexists _, _. split; [reflexivity|]. split; reflexivity.
Qed.

(* F11: tokens_only hides the boundaries *)

Definition w_f11_dir : dir := [mkUtt w_feat None (Some (mkRef false DI32 (R2 [(1, 3, 1)])))].
Definition w_f11_cfg := mkCfg None None true false.

Lemma tokens_only_refuted :
  exists c d d', c_tokens_only c = true /\ tokens_nonneg d /\
    ~ WellFormed (repair (Some 0) d) /\
    validate c (FInt 0) d = (d', None) /\
    d' = [mkUtt w_feat None (Some (mkRef false DI64 (R1 [1])))].
Proof.
  exists w_f11_cfg, w_f11_dir, [mkUtt w_feat None (Some (mkRef false DI64 (R1 [1])))].
  split; [reflexivity|].
  split; [constructor; [|constructor]; intros r H; inversion H; subst; cbn; constructor; [lia|constructor]|].
  split; [|split; reflexivity].
  intro H. apply wellformedb_iff in H. discriminate.
Qed.

(* F12 (repaired in /repo 0bbdd7f): every --fix N validates, N = 0 included *)

Definition w_f12_dir : dir :=
  [mkUtt w_feat (Some (mkAli false DI32 (A1 [0; 0; 1]))) None].

Lemma cli_fix_validates strict k : cli_validates strict (Some k) = true.
Proof. unfold cli_validates. cbn. apply orb_true_r. Qed.

Lemma cli_fix0_repairs :
  exists p, ~ WellFormed w_f12_dir /\ WellFormed (repair (Some 0) w_f12_dir) /\
    cli_info false (Some 0) w_f12_dir = (repair (Some 0) w_f12_dir, inr p) /\
    validate cfg_plain (FInt 0) w_f12_dir = (repair (Some 0) w_f12_dir, None).
Proof.
  eexists.
  split; [intro H; apply wellformedb_iff in H; discriminate|].
  split; [apply wellformedb_iff; reflexivity|].
  split; reflexivity.
Qed.

Definition ali_upd (acc : iacc) (run : Z * Z) : iacc :=
  let '(cls, cnt) := run in
  mkAcc (i_frames acc) (i_nf acc) (Z.max cls (i_maxali acc)) (i_maxref acc) (i_ntok acc)
        (aset (i_counts acc) cls (aget (i_counts acc) cls 0 + cnt))
        (aset (i_segs acc) cls (aget (i_segs acc) cls 0 + 1))
        (i_rcounts acc) (i_rsegs acc).

Definition ref_upd (acc : iacc) (r : row) : iacc :=
  let '(tok, s, e) := r in
  let rc := aget (i_rcounts acc) tok 0 in
  let rc' := if (rc >=? 0) && (e >=? s) && (s >=? 0) then rc + e - s else -1 in
  mkAcc (i_frames acc) (i_nf acc) (i_maxali acc) (Z.max (i_maxref acc) tok) (Z.max 0 (i_ntok acc) + 1)
        (i_counts acc) (i_segs acc)
        (aset (i_rcounts acc) tok rc')
        (aset (i_rsegs acc) tok (aget (i_rsegs acc) tok 0 + 1)).

Lemma ali_info_fold runs : forall acc,
  ali_info_runs acc runs
  = if forallb (fun r => 0 <=? fst r) runs then inr (fold_left ali_upd runs acc) else inl ValueErr.
Proof.
  induction runs as [|[cls cnt] t IH]; intro acc; cbn [ali_info_runs forallb fold_left fst]; [reflexivity|].
  destruct (Z.ltb_spec cls 0), (Z.leb_spec 0 cls); try lia; cbn [andb]; [reflexivity|]. apply IH.
Qed.

Lemma ref_info_fold rows : forall acc,
  ref_info_rows true acc rows
  = if forallb (fun r => 0 <=? tok_of r) rows then inr (fold_left ref_upd rows acc) else inl ValueErr.
Proof.
  induction rows as [|[[tok s] e] t IH]; intro acc; cbn [ref_info_rows forallb fold_left tok_of fst]; [reflexivity|].
  destruct (Z.ltb_spec tok 0), (Z.leb_spec 0 tok); try lia; cbn [andb]; [reflexivity|]. apply IH.
Qed.

Lemma rle_fst (P : Z -> Prop) l : Forall P l -> Forall (fun r => P (fst r)) (rle l).
Proof.
  induction 1 as [|x t Hx _ IH]; cbn [rle]; [constructor|].
  destruct (rle t) as [|[y n] r]; [constructor; [assumption|constructor]|].
  inversion IH as [|? ? Hy Hr]; subst. destruct (x =? y).
  - constructor; assumption.
  - constructor; [assumption|]. constructor; assumption.
Qed.

Definition utt_classes_nonneg (u : utt) : Prop :=
  forall a, u_ali u = Some a -> Forall (fun x => 0 <= x) (ali_values a).

Lemma classes_nonneg_utts d : classes_nonneg d <-> Forall utt_classes_nonneg d.
Proof.
  unfold classes_nonneg, ali_lists, utt_classes_nonneg. rewrite Forall_flat_map.
  split; apply Forall_impl; intros u H.
  - intros a E. rewrite E in H. inversion H; assumption.
  - destruct (u_ali u); constructor; [apply H; reflexivity|constructor].
Qed.

Lemma ali_part_values v fx T a a' : ali_part v fx T a = inr a' ->
  Forall (fun x => 0 <= x) (ali_values a) -> Forall (fun x => 0 <= x) (ali_values a').
Proof.
  intro H. apply ali_part_out in H as ->.
  destruct (tol v fx) as [k|]; [|trivial]. destruct a as [cu dt da]. unfold repair_ali', repair_ali, ali_values. cbn.
  destruct da as [l|? ?]; [|trivial]. destruct (_ && _); [|trivial]. cbn. intro H.
  rewrite <- (firstn_skipn T l) in H. apply Forall_app in H. apply H.
Qed.

Definition info_upd (acc : iacc) (u : utt) : iacc :=
  let acc1 := mkAcc (i_frames acc + Z.of_nat (frames (u_feat u))) (Some (nth 1 (f_shape (u_feat u)) 0%nat))
                    (i_maxali acc) (i_maxref acc)
                    (if is_some (u_ref u) then Z.max 0 (i_ntok acc) else i_ntok acc)
                    (i_counts acc) (i_segs acc) (i_rcounts acc) (i_rsegs acc) in
  let acc2 := match u_ali u with
              | Some a => fold_left ali_upd (rle (ali_values a)) acc1
              | None => acc1 end in
  match u_ref u with
  | Some r => match ref_rows (r_data r) with Some rows => fold_left ref_upd rows acc2 | None => acc2 end
  | None => acc2
  end.

Lemma load_plain r : load_ref cfg_plain r = inr r.
Proof. apply load_ref_nosyms; [reflexivity|split; reflexivity]. Qed.

Lemma load_plain_utt u :
  match u_ref u with
  | Some r => match load_ref cfg_plain r with inl e => inl e | inr lr => inr (Some lr) end
  | None => inr None
  end = @inr exn _ (u_ref u).
Proof. destruct (u_ref u); [rewrite load_plain|]; reflexivity. Qed.

Lemma ref_block_written (v : bool) fx T st1 (r r' : ref) (wb : bool) (st2 : vstate) :
  (if v then ref_part fx T st1 r else inr (r, false, st1)) = inr (r', wb, st2) ->
  (if wb then Some r' else Some r) = Some r'.
Proof.
  intro H. apply ref_block_out in H as [_ Hwb]. destruct wb; [reflexivity|]. rewrite (proj1 Hwb eq_refl). reflexivity.
Qed.

Lemma ali_runs_nonneg v fx T a a' acc :
  ali_part v fx T a = inr a' -> Forall (fun x => 0 <= x) (ali_values a) ->
  ali_info_runs acc (rle (ali_values a')) = inr (fold_left ali_upd (rle (ali_values a')) acc).
Proof.
  intros E Hv. rewrite ali_info_fold.
  destruct (forallb_spec (fun r : Z * Z => 0 <=? fst r) _ (rle (ali_values a')) (fun r => Z.leb_le 0 (fst r)))
    as [_|Hn]; [reflexivity|].
  destruct Hn. apply rle_fst. exact (ali_part_values _ _ _ _ _ E Hv).
Qed.

Lemma step_info v fx st acc accx u u' res :
  step_utt false v cfg_plain fx st accx u = (u', res) -> utt_classes_nonneg u ->
  step_utt true v cfg_plain fx st acc u
  = (u', match res with inl e => inl e | inr (st', _) => inr (st', info_upd acc u') end).
Proof.
  intros H Hcl. unfold step_utt in *. cbn [c_suppress_alis cfg_plain] in *.
  rewrite load_plain_utt in *.
  destruct (feat_part v fx st (u_feat u)) as [e|[[[f' T] F] st1]] eqn:Ef; [inversion H; subst; reflexivity|].
  assert (Hf : frames f' = T /\ nth 1 (f_shape f') 0%nat = F).
  { apply feat_part_out in Ef as [-> Hsh]. unfold frames. rewrite (proj1 (repair_feat'_shape _ _)), Hsh.
    split; reflexivity. }
  destruct Hf as [HfT HfF]. clear Ef.
  destruct (u_ali u) as [a|] eqn:Ea;
    [destruct (ali_part v fx T a) as [e|a'] eqn:Ea1;
       [inversion H; subst; reflexivity|rewrite (ali_runs_nonneg _ _ _ _ _ _ Ea1 (Hcl _ Ea))]|].
  all: destruct (u_ref u) as [r|] eqn:Er;
    [destruct (if v then ref_part fx T st1 r else inr (r, false, st1)) as [e|[[r' wb] st2]] eqn:Erp;
       [|rewrite (ref_block_written _ _ _ _ _ _ _ _ Erp) in *;
         destruct (ref_rows (r_data r')) as [rows|] eqn:Err;
           [rewrite ref_info_noinfo in H; rewrite ref_info_fold; destruct (forallb _ rows)|]]|].
  all: inversion H; subst; unfold info_upd; cbn [u_feat u_ali u_ref]; rewrite ?HfT, ?HfF, ?Err; reflexivity.
Qed.

Lemma run_info v fx : forall d st acc accx d' res,
  run_pass false v cfg_plain fx st accx d = (d', res) -> Forall utt_classes_nonneg d ->
  run_pass true v cfg_plain fx st acc d
  = (d', match res with inl e => inl e | inr _ => inr (fold_left info_upd d' acc) end).
Proof.
  induction d as [|u t IH]; intros st acc accx d' res; cbn [run_pass].
  - intros H _. inversion H; subst. reflexivity.
  - intros H Hcl. inversion Hcl; subst.
    destruct (step_utt false v cfg_plain fx st accx u) as [u' r0] eqn:Es.
    rewrite (step_info v fx st acc accx u u' r0 Es H2).
    destruct r0 as [e|[st1 acc1]].
    + inversion H; subst. reflexivity.
    + destruct (run_pass false v cfg_plain fx st1 acc1 t) as [t' r1] eqn:Er.
      inversion H; subst. rewrite (IH st1 (info_upd acc u') acc1 t' res Er H3). reflexivity.
Qed.

Definition fixarg_of (fx : option Z) : fixarg := match fx with Some k => FInt k | None => FNone end.

(* --strict / --fix N (any N): same files afterwards and same raise/return as
   validate_spect_data_set on a plain data set; the report is the fold of [info_upd] over the result *)
Lemma cli_like_validate strict fx d :
  cli_validates strict fx = true -> classes_nonneg d ->
  cli_info strict fx d
  = (fst (validate cfg_plain (fixarg_of fx) d),
     match snd (validate cfg_plain (fixarg_of fx) d) with
     | Some e => inl e
     | None => inr (finish (length d) (fold_left info_upd (fst (validate cfg_plain (fixarg_of fx) d)) acc0))
     end).
Proof.
  intros Hv Hcl. unfold cli_info, validate. rewrite Hv.
  assert (norm_fix (fixarg_of fx) = fx) as -> by (destruct fx; reflexivity).
  destruct (run_pass false true cfg_plain fx st0 acc0 d) as [d' res] eqn:E.
  rewrite (run_info true fx d st0 acc0 acc0 d' res E (proj1 (classes_nonneg_utts d) Hcl)).
  destruct res; reflexivity.
Qed.

Lemma cli_unvalidated_never_writes strict fx d :
  cli_validates strict fx = false -> fst (cli_info strict fx d) = d.
Proof.
  intro Hv. unfold cli_info. rewrite Hv.
  pose proof (run_unchanged true false cfg_plain fx eq_refl d st0 acc0) as H.
  destruct (run_pass true false cfg_plain fx st0 acc0 d). cbn in *. assumption.
Qed.
