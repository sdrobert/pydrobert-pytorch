(* C12 — one iteration of the glue loop of `_info_and_validate` (feature, alignment, reference block) = Model.step_utt.  Method: TieVTac.v. *)
From Coq Require Import ZArith QArith List String Bool Arith Lia ZifyBool.
From PV Require Import MiniPy.Syntax MiniPy.Interp MiniPy.Lemmas MiniTorch.OpsC12 MiniTorch.LemmasC12 MiniTorch.LemmasC12V Gen.C12ValSrc.
From PV Require Import C12.SrcRun C12.SrcRunV C12.TieLib C12.TieLibV C12.TieVTac C12.TieVAli C12.TieVRef C12.TieVRef2 C12.TieVFeat.
From PV Require C12.Model C12.Proofs.
Import ListNotations.
Local Open Scope string_scope.



(* between iterations the three state variables hold the model's vstate, every other slot anything *)
Definition good_state (ids : list string) (fx : option Z) (vst : Model.vstate) (evs : list event) (st : state) : Prop :=
  exists idx fn t1 feat ali ref wb prefix dir_ prefix_ msg t2 T F Tp idx2 r tok start end_,
    st = mkState (mkvars ids fx idx (nf_val (Model.s_nf vst)) (r2d_val (Model.s_2d vst)) (dt_val (Model.s_dt vst))
                         fn t1 feat ali ref wb prefix dir_ prefix_ msg t2 T F Tp idx2 r tok start end_) evs.

Ltac good := unfold good_state; do 20 eexists; reflexivity.

Definition sv (t : tens) (sub : string) (i : nat) : event := ("torch.save", [enc12 t; VStr (path_of sub (uid i))]).

Definition local_to (i : nat) (E : list event) : Prop :=
  Forall (fun ev => exists t sub, ev = sv t sub i /\ (sub = "feat" \/ sub = "ali" \/ sub = "ref")) E.

Definition utt_shape_ok (c : Model.cfg) (u : Model.utt) : Prop :=
  (forall a, Model.u_ali u = Some a -> ali_shape_ok a)
  /\ (forall r lr, Model.u_ref u = Some r -> Model.load_ref c r = inr lr -> ref_shape_ok2 lr).

Definition oe (b : bool) (e : event) : list event := if b then [e] else [].

Lemma add_if_oe : forall (b : bool) (e : event) (l : list event), (if b then l ++ [e] else l)%list = (l ++ oe b e)%list.
Proof. intros [|] e l; cbn; [reflexivity|now rewrite app_nil_r]. Qed.

Lemma last_save_nil : forall p, last_save [] p = None. Proof. reflexivity. Qed.
Lemma last_save_cons1 : forall t sub i p,
  last_save [sv t sub i] p = if String.eqb (path_of sub (uid i)) p then Some t else None.
Proof. intros. unfold last_save, sv. cbn [fold_left]. rewrite dec12_enc12. reflexivity. Qed.

Lemma feat_roundtrip : forall f, feat_of_tens (feat_tens f) = f. Proof. now intros []. Qed.

Lemma post_three : forall (b1 b2 b3 : bool) tf ta tr i u,
  post_utt (oe b1 (sv tf "feat" i) ++ oe b2 (sv ta "ali" i) ++ oe b3 (sv tr "ref" i)) i u
  = Model.mkUtt (if b1 then feat_of_tens tf else Model.u_feat u)
      (match Model.u_ali u with None => None | Some a => Some (if b2 then ali_of_tens ta else a) end)
      (match Model.u_ref u with None => None | Some r => Some (if b3 then ref_of_tens tr else r) end).
Proof.
  intros. unfold post_utt, last_save, oe, sv, path_of.
  destruct b1, b2, b3; cbn [app fold_left String.append String.eqb Ascii.eqb Bool.eqb andb];
  rewrite ?dec12_enc12, ?String.eqb_refl; reflexivity.
Qed.

Lemma post_nil : forall i u, post_utt [] i u = u.
Proof. intros i [f [a|] [r|]]; reflexivity. Qed.

Lemma local_oe : forall i (b : bool) t sub, (sub = "feat" \/ sub = "ali" \/ sub = "ref") -> local_to i (oe b (sv t sub i)).
Proof. intros i [|] t sub H; constructor; [|constructor]. exists t, sub. now split. Qed.

Lemma local_app : forall i E1 E2, local_to i E1 -> local_to i E2 -> local_to i (E1 ++ E2).
Proof. intros. apply Forall_app. now split. Qed.

Lemma save_ev_sv : forall i t sub, save_ev (uid i ++ ".pt") t ("d/" ++ sub) = sv t sub i. Proof. reflexivity. Qed.

Lemma feat_part_post : forall fx vst f f' T F vst1,
  Model.feat_part true fx vst f = inr (f', T, F, vst1) ->
  Model.s_2d vst1 = Model.s_2d vst /\ (if Model.f_cuda f then feat_of_tens (feat_tens f') else f) = f'.
Proof.
  intros fx vst f f' T F vst1 E. apply Proofs.feat_part_sound in E as (-> & _ & _ & _ & _ & ->).
  split; [reflexivity|]. rewrite feat_roundtrip. now destruct fx, f as [[|] dt sh].
Qed.

Lemma ali_part_post : forall fx T a a',
  Model.ali_part true fx T a = inr a' -> (if ali_wb T a then ali_of_tens (ali_tens a') else a) = a'.
Proof.
  intros fx T a a' E. pose proof (Proofs.ali_part_spec fx T a) as H. rewrite E in H. destruct H as [-> Hok].
  destruct (ali_wb T a) eqn:W.
  - destruct (Proofs.repair_ali' fx T a) as [cu dt da], Hok as (Hc & Hd & v & Hv & _). cbn in Hc, Hd, Hv. now subst.
  - (* nothing to write: the stored one was valid already, and repair leaves it *)
    destruct fx as [k|]; [|reflexivity]. symmetry. apply Proofs.repair_ali_ok.
    destruct a as [cu dt [v|dims flat]]; unfold ali_wb in W; cbn in W.
    + destruct cu, (Model.dtype_beq dt Model.DI64) eqn:Ed, (Nat.eqb_spec (List.length v) T); try discriminate W.
      apply Proofs.dtype_beq_eq in Ed as ->. repeat split. now exists v.
    + destruct Hok as (_ & _ & v & Hv & _). discriminate Hv.
Qed.

Lemma ref_roundtrip_R2 : forall rows, ref_of_tens (tens_of_ref (Model.mkRef false Model.DI64 (Model.R2 rows)))
                                   = Model.mkRef false Model.DI64 (Model.R2 rows).
Proof.
  intros. unfold ref_of_tens, tens_of_ref, rdata_of_tens. cbn [Model.r_cuda Model.r_dtype Model.r_data tens_of_rdata].
  unfold T2. cbn [t_cuda t_dtype t_shape t_data]. rewrite (chunks_concat 3 _ (Forall_row3 rows)), map_map. do 2 f_equal.
  rewrite <- (map_id rows) at 2. apply map_ext. now intros [[a b] cc].
Qed.

Lemma ref_part_post : forall fx T vst lr r' wb vst',
  Model.ref_part fx T vst lr = inr (r', wb, vst') ->
  Model.s_nf vst' = Model.s_nf vst /\ Model.s_dt vst' = Model.s_dt vst
  /\ ref_of_tens (tens_of_ref r') = r' /\ exists rows, Model.ref_rows (Model.r_data r') = Some rows.
Proof.
  intros fx T vst lr r' wb vst' E. pose proof (Proofs.ref_part_spec fx T vst lr) as H. rewrite E in H.
  destruct H as (_ & (Hc & Hd & Hp) & -> & _). destruct r' as [cu dt [l|rows|w rows|nd]]; cbn in Hc, Hd, Hp; subst; try contradiction;
    (do 3 (split; [reflexivity || apply ref_roundtrip_R2|]); eexists; reflexivity).
Qed.

Lemma enc12_not_none : forall t (A : Type) (x y : A), match enc12 t with VNone => x | _ => y end = y.
Proof. reflexivity. Qed.

(* get_utterance_tuple's reference, as Model.step_utt has it inline *)
Definition loaded (c : Model.cfg) (u : Model.utt) : Model.exn + option Model.ref :=
  match Model.u_ref u with
  | None => inr None
  | Some r => match Model.load_ref c r with inl e => inl e | inr lr => inr (Some lr) end
  end.

Lemma loaded_ref_map : forall c u,
  loaded_ref c u = match loaded c u with inl e => inl e | inr lref => inr (option_map tens_of_ref lref) end.
Proof. intros. unfold loaded_ref, loaded. destruct (Model.u_ref u) as [r|]; [destruct (Model.load_ref c r)|]; reflexivity. Qed.

Lemma loaded_some : forall c u lr, loaded c u = inr (Some lr) -> exists r, Model.u_ref u = Some r /\ Model.load_ref c r = inr lr.
Proof.
  intros c u lr. unfold loaded. destruct (Model.u_ref u) as [r|]; [|discriminate].
  destruct (Model.load_ref c r) eqn:El; intros [= <-]. now exists r.
Qed.

Section Step.
  Variables (c : Model.cfg) (d : Model.dir) (ids : list string) (fx : option Z).
  Local Notation ext := (ext12 (env_ds c d)).

  Definition outcome_ok (i : nat) (u : Model.utt) (evs : list event) (go : outcome ctl)
             (res : Model.utt * (Model.exn + (Model.vstate * Model.iacc))) : Prop :=
    match res with
    | (u', inl e) => exists st' E, go = Exc (name_of_exn e) st' /\ events st' = (evs ++ E)%list /\ local_to i E /\ post_utt E i u = u'
    | (u', inr (vst', acc')) => exists st' E, go = Ok CNormal st' /\ good_state ids fx vst' (evs ++ E)%list st' /\ local_to i E /\ post_utt E i u = u'
    end.

  (* the store within iteration i after the feature block *)
  Definition in_utt (i : nat) (vst : Model.vstate) (Tn : nat) (feat ali ref : val) (evs : list event) (st : state) : Prop :=
    exists t1 prefix dir_ prefix_ msg t2 F Tp idx2 r tok start end_,
      st = mkState (mkvars ids fx (VInt (Z.of_nat i)) (nf_val (Model.s_nf vst)) (r2d_val (Model.s_2d vst)) (dt_val (Model.s_dt vst))
                           (VStr (uid i ++ ".pt")) t1 feat ali ref (VBool false) prefix dir_ prefix_ msg t2 (VInt (Z.of_nat Tn))
                           F Tp idx2 r tok start end_) evs.

  (* `if ref is not None:` (glue) and the reference block; E12 = the files saved so far in this iteration *)
  Lemma step_fin : forall i u vst1 acc (lref : option Model.ref) f' a'o (b1 b2 : bool) tf ta Tn evs st2,
    loaded c u = inr lref ->
    (forall r lr, Model.u_ref u = Some r -> Model.load_ref c r = inr lr -> ref_shape_ok2 lr) ->
    (if b1 then feat_of_tens tf else Model.u_feat u) = f' ->
    match Model.u_ali u with None => None | Some a => Some (if b2 then ali_of_tens ta else a) end = a'o ->
    let E12 := (oe b1 (sv tf "feat" i) ++ oe b2 (sv ta "ali" i))%list in
    in_utt i vst1 Tn (enc12 (feat_tens f')) (opt_tens (option_map ali_tens a'o)) (opt_tens (option_map tens_of_ref lref))
           (evs ++ E12)%list st2 ->
    let go := match lookup "ref" (vars st2) with
              | Some VNone => Ok CNormal st2
              | Some _ => exec ext iv_ref st2
              | None => Stuck "ref"
              end in
    let u2 := Model.mkUtt f' a'o (Model.u_ref u) in
    outcome_ok i u evs go
      (match lref with
       | Some lr =>
           match Model.ref_part fx Tn vst1 lr with
           | inl e => (u2, inl e)
           | inr (r', wb0, st2') =>
               match Model.ref_rows (Model.r_data r') with
               | Some rows =>
                   match Model.ref_info_rows false acc rows with
                   | inl e => (Model.mkUtt f' a'o (if wb0 then Some r' else Model.u_ref u), inl e)
                   | inr acc3 => (Model.mkUtt f' a'o (if wb0 then Some r' else Model.u_ref u), inr (st2', acc3))
                   end
               | None => (Model.mkUtt f' a'o (if wb0 then Some r' else Model.u_ref u), inl Model.ValueErr)
               end
           end
       | None => (u2, inr (vst1, acc))
       end).
  Proof.
    intros i u vst1 acc lref f' a'o b1 b2 tf ta Tn evs st2 Hload Href Hf Ha E12
           (t1 & prefix & dir_ & prefix_ & msg & t2 & F & Tp & idx2 & r & tok & start & end_ & ->) go u2.
    assert (P12 : forall b3 tr, local_to i (E12 ++ oe b3 (sv tr "ref" i))
                  /\ post_utt (E12 ++ oe b3 (sv tr "ref" i)) i u
                     = Model.mkUtt f' a'o (match Model.u_ref u with None => None | Some r0 => Some (if b3 then ref_of_tens tr else r0) end)).
    { intros. unfold E12. split; [repeat apply local_app; apply local_oe; auto|]. rewrite <- app_assoc, post_three, Hf, Ha. reflexivity. }
    assert (P0 : local_to i E12 /\ post_utt E12 i u = u2).
    { specialize (P12 false tf). cbn [oe] in P12. rewrite app_nil_r in P12. destruct P12 as [L ->]. split; [exact L|].
      unfold u2. f_equal. now destruct (Model.u_ref u). }
    subst go. unfold mkvars at 1. cbn [lookup vars String.eqb Ascii.eqb Bool.eqb].
    destruct lref as [lr|]; cbn [option_map opt_tens].
    - rewrite enc12_not_none. destruct (loaded_some _ _ _ Hload) as (r0 & Er & El).
      pose proof (ref_block c d ids fx (VInt (Z.of_nat i)) (nf_val (Model.s_nf vst1)) (dt_val (Model.s_dt vst1)) (enc12 (feat_tens f'))
                    (opt_tens (option_map ali_tens a'o)) prefix F Tp (uid i ++ ".pt") Tn lr vst1 acc dir_ prefix_ msg t1 idx2 r t2
                    tok start end_ (evs ++ E12)%list (Href r0 lr Er El)) as RB.
      cbv zeta in RB. unfold TieVRef.stR in RB.
      destruct (Model.ref_part fx Tn vst1 lr) as [e|[[r' wb] vst']] eqn:ERP.
      + destruct RB as [st' [S1 S2]]. rewrite (Proofs.ref_part_err _ _ _ _ _ ERP). exists st', E12. repeat split; [exact S1|exact S2|apply P0..].
      + destruct (ref_part_post _ _ _ _ _ _ _ ERP) as (K1 & K2 & RT & rows & ER). rewrite ER in *.
        rewrite add_if_oe, (save_ev_sv _ _ "ref"), <- app_assoc, Proofs.ref_info_noinfo in RB. rewrite Proofs.ref_info_noinfo.
        assert (Hpost : post_utt (E12 ++ oe wb (sv (tens_of_ref r') "ref" i)) i u
                        = Model.mkUtt f' a'o (if wb then Some r' else Model.u_ref u)).
        { rewrite (proj2 (P12 _ _)), Er. destruct wb; [now rewrite RT|reflexivity]. }
        destruct (forallb _ rows).
        * destruct RB as (msg' & ref' & t1' & idx2' & r'' & t2' & tok' & start' & end' & RB).
          eexists _, _. repeat split; [exact RB|rewrite <- K1, <- K2; good|apply P12|exact Hpost].
        * destruct RB as [st' [S1 S2]]. exists st', (E12 ++ oe wb (sv (tens_of_ref r') "ref" i))%list.
          repeat split; [exact S1|exact S2|apply P12|exact Hpost].
    - eexists _, E12. repeat split; [good|apply P0..].
  Qed.

  Theorem step_tie : forall i u vst acc evs st,
    nth_error d i = Some u -> nth_error ids i = Some (uid i) -> Model.c_suppress_alis c = false -> utt_shape_ok c u ->
    good_state ids fx vst evs st ->
    outcome_ok i u evs (step_src ext (set_var "idx" (VInt (Z.of_nat i)) st)) (Model.step_utt false true c fx vst acc u).
  Proof.
    intros i u vst acc evs st Hu Hid Hsup [Hali Href] Hst.
    destruct Hst as (idx & fn & t1 & feat & ali & ref & wb & prefix & dir_ & prefix_ & msg & t2 & T & F & Tp & idx2 & r & tok & start & end_ & ->).
    unfold step_src.
    change (set_var "idx" ?v (mkState (mkvars ?a ?b _ ?n ?r2 ?f ?g ?h ?i0 ?j ?k ?l ?m ?o ?p ?q ?s ?t ?u0 ?v0 ?w ?x ?y ?z ?aa) ?e))
      with (mkState (mkvars a b v n r2 f g h i0 j k l m o p q s t u0 v0 w x y z aa) e).
    unfold Model.step_utt. fold (loaded c u). rewrite Hsup.
    (* `fn = ...` to `prefix_ = ...` *)
    pose proof (feat_head_run c d ids fx (r2d_val (Model.s_2d vst)) Tp idx2 r tok start end_ i u (uid i)
                  (nf_val (Model.s_nf vst)) (dt_val (Model.s_dt vst)) fn t1 feat ali ref wb prefix dir_ prefix_ msg t2 T F evs Hu Hid Hsup) as FH.
    cbv zeta in FH. unfold TieVFeat.stF in FH. rewrite loaded_ref_map in FH.
    destruct (loaded c u) as [e|lref] eqn:Hload.
    { destruct FH as [st' [F1 F2]]. exists st', []. rewrite F1, app_nil_r. repeat split; [exact F2|constructor|apply post_nil]. }
    destruct FH as [t1' ->].
    (* `if validate:` of the feature block *)
    pose proof (feat_tail_run c d ids fx (r2d_val (Model.s_2d vst)) Tp idx2 r tok start end_ i (Model.u_feat u) vst (uid i ++ ".pt") t1'
                  (opt_tens (option_map ali_tens (Model.u_ali u))) (opt_tens (option_map tens_of_ref lref)) (VStr "") (VStr "") msg t2 T F evs) as FT.
    cbv zeta in FT. unfold TieVFeat.stF in FT.
    destruct (Model.feat_part true fx vst (Model.u_feat u)) as [e|[[[f' Tn] Fn] vst1]] eqn:EF.
    { destruct FT as [st' [F1 F2]]. rewrite (Proofs.feat_part_err _ _ _ _ EF). exists st', []. rewrite F1, app_nil_r.
      repeat split; [exact F2|constructor|apply post_nil]. }
    destruct FT as (msg' & t2' & ->). cbn [bind]. rewrite add_if_oe, (save_ev_sv _ _ "feat").
    destruct (feat_part_post _ _ _ _ _ _ _ EF) as [H2d Hf]. rewrite <- H2d.
    set (cu := Model.f_cuda (Model.u_feat u)) in *.
    (* the alignment block *)
    pose proof (ali_block c d ids fx (VInt (Z.of_nat i)) (nf_val (Model.s_nf vst1)) (r2d_val (Model.s_2d vst1)) (dt_val (Model.s_dt vst1))
                  t1' (enc12 (feat_tens f')) (opt_tens (option_map tens_of_ref lref)) (VStr "") t2' (VInt (Z.of_nat Fn)) idx2 r tok start end_
                  (uid i ++ ".pt") Tn (VStr "d/feat") (VStr "") msg' (Model.u_ali u) Tp (evs ++ oe cu (sv (feat_tens f') "feat" i))%list Hali) as AB.
    cbv zeta in AB. unfold TieVAli.stA in AB.
    destruct (Model.u_ali u) as [a|] eqn:Ea; cbn [option_map opt_tens] in AB |- *.
    - destruct (Model.ali_part true fx Tn a) as [e|a'] eqn:EA.
      + destruct AB as [st' [A1 A2]]. rewrite (Proofs.ali_part_err _ _ _ _ EA), A1. exists st', (oe cu (sv (feat_tens f') "feat" i)).
        repeat split; [exact A2|apply local_oe; auto|].
        pose proof (post_three cu false false (feat_tens f') (feat_tens f') (feat_tens f') i u) as P3.
        cbn [oe] in P3. rewrite !app_nil_r in P3. rewrite P3, Hf, Ea. f_equal. now destruct (Model.u_ref u).
      + destruct AB as (msg'' & Tp' & ->). cbn [bind]. rewrite add_if_oe, (save_ev_sv _ _ "ali"), <- app_assoc.
        apply (step_fin i u vst1 acc lref f' (Some a') cu (ali_wb Tn a) (feat_tens f') (ali_tens a') Tn evs _ Hload Href Hf).
        * rewrite Ea. f_equal. apply (ali_part_post _ _ _ _ EA).
        * unfold in_utt. do 13 eexists. reflexivity.
    - rewrite AB. cbn [bind].
      apply (step_fin i u vst1 acc lref f' None cu false (feat_tens f') (feat_tens f') Tn evs _ Hload Href Hf); [now rewrite Ea|].
      cbn [oe]. rewrite app_nil_r. unfold in_utt. do 13 eexists. reflexivity.
  Qed.
End Step.
