(* C12 — the whole pass of the glue over a directory = Model.run_pass / Model.validate, and the files afterwards.  Method: TieVTac.v. *)
From Coq Require Import ZArith QArith List String Bool Arith Lia ZifyBool.
From PV Require Import MiniPy.Syntax MiniPy.Interp MiniPy.Lemmas MiniTorch.OpsC12 MiniTorch.LemmasC12 MiniTorch.LemmasC12V Gen.C12ValSrc.
From PV Require Import C12.SrcRun C12.SrcRunV C12.TieLib C12.TieLibV C12.TieVTac C12.TieVAli C12.TieVRef C12.TieVRef2 C12.TieVFeat C12.TieValidate.
From PV Require C12.Model.
Import ListNotations.
Local Open Scope string_scope.


Lemma uid_pt_eqb : forall i j, String.eqb (uid i ++ ".pt") (uid j ++ ".pt") = Nat.eqb i j.
Proof.
  induction i as [|i IH]; destruct j as [|j]; try reflexivity.
  cbn [uid String.append String.eqb Nat.eqb]. rewrite IH. reflexivity.
Qed.

Definition is_sub (s : string) : Prop := s = "feat" \/ s = "ali" \/ s = "ref".

Lemma path_neq : forall s1 s2 i j, is_sub s1 -> is_sub s2 -> i <> j -> String.eqb (path_of s1 (uid i)) (path_of s2 (uid j)) = false.
Proof.
  intros s1 s2 i j H1 H2 Hij.
  assert (E : String.eqb (uid i ++ ".pt") (uid j ++ ".pt") = false) by (rewrite uid_pt_eqb; now apply Nat.eqb_neq).
  destruct H1 as [H1|[H1|H1]], H2 as [H2|[H2|H2]]; subst s1 s2; unfold path_of; cbn [String.append String.eqb Ascii.eqb Bool.eqb andb]; try reflexivity; exact E.
Qed.

(* the files saved by the utterances whose index satisfies P *)
Definition saves_of (P : nat -> Prop) (E : list event) : Prop :=
  Forall (fun ev => exists j t sub, P j /\ ev = sv t sub j /\ is_sub sub) E.

Lemma saves_impl : forall (P Q : nat -> Prop) E, saves_of P E -> (forall j, P j -> Q j) -> saves_of Q E.
Proof. intros P Q E H HPQ. revert H. apply Forall_impl. intros ev (j & t & sub & Hj & He). exists j, t, sub. auto. Qed.

Lemma local_saves : forall (P : nat -> Prop) i E, local_to i E -> P i -> saves_of P E.
Proof. intros P i E H Hi. revert H. apply Forall_impl. intros ev (t & sub & He & Hs). exists i, t, sub. auto. Qed.

Lemma fold_left_override : forall (A B : Type) (f : option A -> B -> option A),
  (forall acc x, f acc x = match f None x with Some y => Some y | None => acc end) ->
  forall l acc, fold_left f l acc = match fold_left f l None with Some y => Some y | None => acc end.
Proof.
  intros A B f Hf l. induction l as [|x l IH]; intros acc; [reflexivity|]. cbn [fold_left].
  rewrite IH, (IH (f None x)), (Hf acc x). destruct (fold_left f l None); reflexivity.
Qed.

Lemma last_save_app : forall A B p, last_save (A ++ B) p = match last_save B p with Some t => Some t | None => last_save A p end.
Proof.
  intros. unfold last_save. rewrite fold_left_app. apply fold_left_override.
  intros acc [name [|t [|[] [|]]]]; cbv beta iota; try (now destruct acc).
  destruct (_ && _)%bool, (dec12 t), acc; reflexivity.
Qed.

Lemma last_save_foreign : forall i E sub, is_sub sub -> saves_of (fun j => j <> i) E -> last_save E (path_of sub (uid i)) = None.
Proof.
  intros i E sub Hs H. induction H as [|ev E Hev _ IH]; [reflexivity|].
  change (ev :: E) with ([ev] ++ E)%list. rewrite last_save_app, IH.
  destruct Hev as (j & t & sub' & Hj & -> & Hs'). rewrite last_save_cons1, (path_neq sub' sub j i Hs' Hs Hj). reflexivity.
Qed.

Lemma post_utt_ext : forall i u E E',
  (forall sub, is_sub sub -> last_save E (path_of sub (uid i)) = last_save E' (path_of sub (uid i))) -> post_utt E i u = post_utt E' i u.
Proof. intros i u E E' H. unfold post_utt. rewrite !H by (unfold is_sub; auto). reflexivity. Qed.

Lemma post_utt_foreign_r : forall i u A B, saves_of (fun j => j <> i) B -> post_utt (A ++ B) i u = post_utt A i u.
Proof. intros i u A B H. apply post_utt_ext. intros sub Hs. rewrite last_save_app, last_save_foreign by assumption. reflexivity. Qed.

Lemma post_utt_foreign_l : forall i u A B, saves_of (fun j => j <> i) A -> post_utt (A ++ B) i u = post_utt B i u.
Proof.
  intros i u A B H. apply post_utt_ext. intros sub Hs. rewrite last_save_app, (last_save_foreign i A) by assumption.
  now destruct (last_save B _).
Qed.

Lemma post_from_nil : forall rest k, post_from [] k rest = rest.
Proof. induction rest as [|u rest IH]; intros k; cbn [post_from]; [|rewrite post_nil, IH]; reflexivity. Qed.

Lemma post_from_foreign_l : forall rest k A B, saves_of (fun j => j < k)%nat A -> post_from (A ++ B) k rest = post_from B k rest.
Proof.
  induction rest as [|u rest IH]; intros k A B H; [reflexivity|]. cbn [post_from]. f_equal.
  - apply post_utt_foreign_l, (saves_impl _ _ _ H). lia.
  - apply IH, (saves_impl _ _ _ H). lia.
Qed.

(* utterance k saves E1, the later ones E2 *)
Lemma post_from_step : forall k u rest E1 E2, local_to k E1 -> saves_of (lt k) E2 ->
  post_from (E1 ++ E2) k (u :: rest) = post_utt E1 k u :: post_from E2 (S k) rest.
Proof.
  intros k u rest E1 E2 H1 H2. cbn [post_from]. f_equal.
  - apply post_utt_foreign_r, (saves_impl _ _ _ H2). lia.
  - apply post_from_foreign_l, (local_saves _ _ _ H1). lia.
Qed.

Lemma nth_uid : forall n i, (i < n)%nat -> nth_error (map uid (seq 0 n)) i = Some (uid i).
Proof.
  intros n i H. rewrite (nth_error_nth' (map uid (seq 0 n)) (uid 0)) by (rewrite map_length, seq_length; exact H).
  rewrite map_nth, List.seq_nth by exact H. reflexivity.
Qed.

Lemma good_events : forall ids fx vst evs st, good_state ids fx vst evs st -> events st = evs.
Proof. intros ids fx vst evs st H. unfold good_state in H. decompose [ex] H. subst st. reflexivity. Qed.

Section Pass.
  Variables (c : Model.cfg) (d : Model.dir) (fx : option Z).
  Local Notation ext := (ext12 (env_ds c d)).
  Local Notation ids := (map uid (seq 0 (List.length d))).
  Hypothesis Hsup : Model.c_suppress_alis c = false.
  Hypothesis Hshape : Forall (utt_shape_ok c) d.

  Lemma pass_tie : forall rest k vst acc evs st,
    (forall j u, nth_error rest j = Some u -> nth_error d (k + j) = Some u) ->
    good_state ids fx vst evs st ->
    let (rest', r) := Model.run_pass false true c fx vst acc rest in
    exists st' E,
      pass_src ext (seq k (List.length rest)) st = match r with inl e => Exc (name_of_exn e) st' | inr _ => Ok CNormal st' end
      /\ events st' = (evs ++ E)%list /\ saves_of (le k) E /\ post_from E k rest = rest'.
  Proof.
    induction rest as [|u rest IH]; intros k vst acc evs st Hd Hst; cbn [Model.run_pass List.length seq pass_src].
    - exists st, []. rewrite app_nil_r, (good_events _ _ _ _ _ Hst). repeat split. constructor.
    - assert (Hu : nth_error d k = Some u) by (rewrite <- (Nat.add_0_r k); apply Hd; reflexivity).
      assert (Hk : (k < List.length d)%nat) by (apply nth_error_Some; congruence).
      assert (Hus : utt_shape_ok c u) by (eapply Forall_forall; [exact Hshape|eapply nth_error_In; exact Hu]).
      pose proof (step_tie c d ids fx k u vst acc evs st Hu (nth_uid _ _ Hk) Hsup Hus Hst) as ST. unfold outcome_ok in ST.
      destruct (Model.step_utt false true c fx vst acc u) as [u' [e|[vst' acc']]];
        destruct ST as (st' & E1 & S1 & S2 & S3 & <-); rewrite S1; cbn [bind].
      + pose proof (post_from_step k u rest E1 [] S3 (Forall_nil _)) as P. rewrite app_nil_r, post_from_nil in P.
        exists st', E1. repeat split; [exact S2|apply (local_saves _ _ _ S3); lia|exact P].
      + specialize (IH (S k) vst' acc' (evs ++ E1)%list st').
        destruct (Model.run_pass false true c fx vst' acc' rest) as [rest' r].
        destruct IH as (st'' & E2 & I1 & I2 & I3 & <-); [intros j u0; rewrite Nat.add_succ_comm; apply (Hd (S j))|exact S2|].
        exists st'', (E1 ++ E2)%list. rewrite app_assoc, post_from_step by (exact S3 || exact I3).
        repeat split; [exact I1|exact I2|].
        apply Forall_app. split; [apply (local_saves _ _ _ S3)|apply (saves_impl _ _ _ I3)]; lia.
  Qed.
End Pass.

Lemma good_init : forall ids fx, good_state ids fx Model.st0 [] (mkState (init_vars ids fx) []).
Proof. intros. good. Qed.

Lemma exn_roundtrip : forall e, exn_of_name (name_of_exn e) = e.
Proof. now destruct e. Qed.

(* validate_spect_data_set through the glue = Model.validate: same exception / return, same files afterwards *)
Theorem src_validate_tie : forall c fa d,
  Model.c_suppress_alis c = false -> Forall (utt_shape_ok c) d ->
  src_validate c fa d = Some (Model.validate c fa d).
Proof.
  intros c fa d Hsup Hshape. unfold src_validate, run_pass_src, Model.validate.
  pose proof (pass_tie c d (Model.norm_fix fa) Hsup Hshape d 0 Model.st0 Model.acc0 [] _ (fun j u H => H) (good_init _ _)) as P.
  destruct (Model.run_pass false true c (Model.norm_fix fa) Model.st0 Model.acc0 d) as [d' r].
  destruct P as (st' & E & P1 & P2 & _ & <-). destruct r; rewrite P1, P2; [now rewrite exn_roundtrip|reflexivity].
Qed.

Theorem src_check_validate_tie : forall c fa pre post out,
  Model.c_suppress_alis c = false -> Forall (utt_shape_ok c) pre ->
  src_check_validate c fa pre post out
  = [true; (let '(d', r) := Model.validate c fa pre in (Model.dir_beq d' post && Model.opt_beq Model.exn_beq r out)%bool)].
Proof.
  intros c fa pre post out Hsup Hshape. unfold src_check_validate. rewrite (src_validate_tie c fa pre Hsup Hshape).
  now destruct (Model.validate c fa pre).
Qed.

(* the shape conditions, stated on what is STORED *)
Lemma sym_row_length : forall dt w s, List.length (Model.sym_row dt w s) = w.
Proof. intros dt [|w] s; cbn; [reflexivity|now rewrite repeat_length]. Qed.

(* loading keeps them: without the segments the rank is 1; a symbol row is as wide as the others *)
Lemma drop_shape_ok : forall cu dt (b : bool) d d',
  ref_shape_ok2 (Model.mkRef cu dt d) -> (if b then Model.drop_segments d else inr d) = inr d' -> ref_shape_ok2 (Model.mkRef cu dt d').
Proof. intros cu dt [|] [l|rows|[|w] rows|nd] d' H [= <-]; exact H || exact I. Qed.

Lemma sym_shape_ok : forall cu dt (o : option Z) d d',
  ref_shape_ok2 (Model.mkRef cu dt d) ->
  match o with Some s => Model.add_sos dt s d | None => inr d end = inr d'
  \/ match o with Some s => Model.add_eos dt s d | None => inr d end = inr d' ->
  ref_shape_ok2 (Model.mkRef cu dt d').
Proof.
  intros cu dt [s|] [l|rows|[|w] rows|nd] d' H [[= <-]|[= <-]]; try exact I; try exact H; destruct H as [HF Hw]; (split; [|exact Hw]).
  - constructor; [exact (sym_row_length dt (S w) s)|exact HF].
  - apply Forall_app. split; [exact HF|]. constructor; [exact (sym_row_length dt (S w) s)|constructor].
Qed.

Lemma load_shape_ok : forall c r lr, ref_shape_ok2 r -> Model.load_ref c r = inr lr -> ref_shape_ok2 lr.
Proof.
  intros c [cu dt d0] lr H0. unfold Model.load_ref, Model.load_rdata. cbn [Model.r_data Model.r_dtype Model.r_cuda].
  destruct (if Model.c_tokens_only c then _ else _) as [e|d1] eqn:E1; [discriminate|].
  destruct (match Model.c_sos c with Some s => _ | None => _ end) as [e|d2] eqn:E2; [discriminate|].
  destruct (match Model.c_eos c with Some s => _ | None => _ end) as [e|d3] eqn:E3; intros [= <-].
  exact (sym_shape_ok _ _ _ _ _ (sym_shape_ok _ _ _ _ _ (drop_shape_ok _ _ _ _ _ H0 E1) (or_introl E2)) (or_intror E3)).
Qed.

Definition utt_stored_ok (u : Model.utt) : Prop :=
  (forall a, Model.u_ali u = Some a -> ali_shape_ok a) /\ (forall r, Model.u_ref u = Some r -> ref_shape_ok2 r).

Lemma stored_ok_shape : forall c d, Forall utt_stored_ok d -> Forall (utt_shape_ok c) d.
Proof.
  intros c d H. induction H as [|u d [Ha Hr] _ IH]; constructor; [|exact IH].
  split; [exact Ha|]. intros r lr Hu Hl. eapply load_shape_ok; eauto.
Qed.

Theorem src_validate_is_model : forall c fa d,
  Model.c_suppress_alis c = false -> Forall utt_stored_ok d ->
  src_validate c fa d = Some (Model.validate c fa d).
Proof. intros c fa d Hs Hd. apply src_validate_tie; [exact Hs|now apply stored_ok_shape]. Qed.
