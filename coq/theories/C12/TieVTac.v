(* C12 — tie (part 3a): what the files about the blocks of `_info_and_validate` share - the reduction flags, the
   variable store of the glue ([mkvars]), small facts about the data-set object and the tactics that run one statement
   of a translated block.  PV.Gen.C12ValSrc.iv_feat / iv_ali / iv_ref are the MiniPy terms harness/py2coq/translate.py
   regenerates from /repo on every run; PV.MiniPy.Interp is their semantics; the torch calls mean what
   PV.MiniTorch.OpsC12 says (through SrcRun.ext12).  If the source is edited so that the statements of
   TieVFeat / TieVAli / TieVRef* / TieValidate* stop being true, those files stop compiling and the C12 check reports
   the broken obligation.

   The [Arguments] directives below add to those of TieLib.v and, like them, are not local: they hold in every file
   that requires this one. *)
From Coq Require Import ZArith QArith List String Bool Arith Lia ZifyBool.
From PV Require Import MiniPy.Syntax MiniPy.Interp MiniTorch.OpsC12 MiniTorch.LemmasC12 MiniTorch.LemmasC12V Gen.C12ValSrc.
From PV Require Import MiniPy.Lemmas C12.SrcRun C12.SrcRunV C12.TieLib C12.TieLibV.
From PV Require C12.Model.
Import ListNotations.
Local Open Scope string_scope.

Arguments then_ ext b !c st /.
Arguments exec : simpl never.
Arguments for_loop : simpl never.
Arguments q_cmp : simpl never.
Arguments fill_slice : simpl never.
Arguments set_row : simpl never.
Arguments rows_of : simpl never.
Arguments tolist2 : simpl never.
Arguments full_long : simpl never.
Arguments row3 : simpl never.
Arguments inject_Z : simpl never.
Arguments Z.of_nat : simpl never.
Arguments set_var x v !st /.
Arguments Z.sub : simpl never.
Arguments ds_obj : simpl never.
Arguments isinstance12 : simpl never.
Arguments instance_of : simpl never.
Arguments feat_tens : simpl never.

Lemma t_cuda_T1 : forall cu dt l, t_cuda (T1 cu dt l) = cu. Proof. reflexivity. Qed.
Lemma t_dtype_T1 : forall cu dt l, t_dtype (T1 cu dt l) = dt. Proof. reflexivity. Qed.
Lemma t_cuda_T2 : forall cu dt w r, t_cuda (T2 cu dt w r) = cu. Proof. reflexivity. Qed.
Lemma t_dtype_T2 : forall cu dt w r, t_dtype (T2 cu dt w r) = dt. Proof. reflexivity. Qed.
Lemma t_shape_T1 : forall cu dt l, t_shape (T1 cu dt l) = [List.length l]. Proof. reflexivity. Qed.
Lemma t_shape_T2 : forall cu dt w r, t_shape (T2 cu dt w r) = [List.length r; w]. Proof. reflexivity. Qed.

Definition ids_val (ids : list string) : val := VList (map VStr ids).
Arguments ids_val : simpl never.

Lemma subscript_ids : forall ids i id st, nth_error ids i = Some id ->
  subscript (ids_val ids) (VInt (Z.of_nat i)) st = Ok (VStr id) st.
Proof.
  intros ids i id st H. unfold subscript, ids_val.
  assert (Hi : (i < List.length ids)%nat) by (apply nth_error_Some; congruence).
  rewrite map_length. replace (Z.of_nat i <? 0)%Z with false by lia.
  replace ((0 <=? Z.of_nat i)%Z && (Z.of_nat i <? Z.of_nat (List.length ids))%Z)%bool with true by lia.
  rewrite Nat2Z.id. f_equal. rewrite (nth_indep _ VNone (VStr id)) by (rewrite map_length; exact Hi).
  rewrite map_nth. f_equal. now apply nth_error_nth.
Qed.

Lemma env_get : forall c d dsv i u st, nth_error d i = Some u ->
  env_ds c d "$method.get_utterance_tuple" [dsv; VInt (Z.of_nat i)] [] st = utt_tuple c u st.
Proof.
  intros c d dsv i u st H. unfold env_ds. cbn [is String.eqb Ascii.eqb Bool.eqb].
  replace (Z.of_nat i <? 0)%Z with false by lia. now rewrite Nat2Z.id, H.
Qed.
Arguments utt_tuple : simpl never.
Arguments env_ds : simpl never.

Lemma env_join : forall c d a b st, env_ds c d "os.path.join" [VStr a; VStr b] [] st = Ok (VStr (a ++ "/" ++ b)) st.
Proof. reflexivity. Qed.
Lemma method_ds_get : forall ids args, method (ds_obj ids) "get_utterance_tuple" args = None.
Proof. reflexivity. Qed.
Lemma ndim_mkT : forall cu dt sh da, ndim (mkT cu dt sh da) = List.length sh. Proof. reflexivity. Qed.

(* an attribute of the data-set object / of the global `torch` is read off the dictionary that stands for it *)
Lemma attribute_dict : forall ext d a st v, dict_get d (VStr a) = Some v -> attribute ext (VDict d) a st = Ok v st.
Proof. intros ext d a st v H. unfold attribute. now rewrite H. Qed.
Lemma attr_ds_ids : forall ext ids st, attribute ext (ds_obj ids) "utt_ids" st = Ok (ids_val ids) st.
Proof. reflexivity. Qed.
Arguments class_token : simpl never.

Lemma isinstance_Tensor : forall t, isinstance12 t (class_token "Tensor") = Some true.
Proof. reflexivity. Qed.
Lemma isinstance_Long : forall t, isinstance12 t (class_token "LongTensor") = Some (negb (t_cuda t) && Model.dtype_beq (t_dtype t) Model.DI64)%bool.
Proof. reflexivity. Qed.
Lemma isinstance_small : forall t,
  isinstance12 t (VTuple [class_token "ByteTensor"; class_token "CharTensor"; class_token "ShortTensor"; class_token "IntTensor"])
  = Some (negb (t_cuda t) && Model.upcastable (t_dtype t))%bool.
Proof. intros [cu dt sh d]. destruct cu, dt; reflexivity. Qed.

Ltac head_redex t k := lazymatch t with bind ?o _ => head_redex o k | _ => k t end.

Ltac fix_head X :=
  first
  [ lazymatch X with context [dec12 (enc12 _)] => rewrite !dec12_enc12 end
  | lazymatch X with context [method (enc12 _) _ _] => rewrite method_enc12 end
  | lazymatch X with context [on1 _ (enc12 _) _ _] => rewrite on1_enc end
  | lazymatch X with context [attribute _ (enc12 _) _ _] => rewrite attribute_enc12 end
  | lazymatch X with context [attribute _ (ds_obj _) "utt_ids" _] => rewrite attr_ds_ids end
  | lazymatch X with context [attribute ?e (ds_obj ?i) ?a ?s] =>
      let o := eval unfold ds_obj in (ds_obj i) in
      lazymatch o with VDict ?l => rewrite (attribute_dict e l a s _ eq_refl : attribute e (ds_obj i) a s = _) end end
  | lazymatch X with context [attribute ?e torch_module ?a ?s] =>
      let o := eval unfold torch_module in torch_module in
      lazymatch o with VDict ?l => rewrite (attribute_dict e l a s _ eq_refl : attribute e torch_module a s = _) end end
  | lazymatch X with context [subscript (ids_val _) (VInt (Z.of_nat _)) _] => erewrite subscript_ids by eassumption end
  | lazymatch X with context [env_ds _ _ "$method.get_utterance_tuple" [_; VInt (Z.of_nat _)] [] _] => erewrite env_get by eassumption end
  | lazymatch X with context [env_ds _ _ "os.path.join" [VStr _; VStr _] [] _] => rewrite env_join end
  | lazymatch X with context [method (ds_obj _) "get_utterance_tuple" _] => rewrite method_ds_get end
  | lazymatch X with context [String.eqb (dtype_name _) (dtype_name _)] => rewrite !dtype_name_eqb end
  | lazymatch X with context [subscript (enc12 _) (VInt _) _] => rewrite subscript_enc12_int end
  | lazymatch X with context [subscript (enc12 _) (VTuple _) _] => rewrite subscript_enc12_tuple end
  | lazymatch X with context [isinstance12 _ (class_token "Tensor")] => rewrite isinstance_Tensor end
  | lazymatch X with context [isinstance12 _ (class_token "LongTensor")] => rewrite isinstance_Long end
  | lazymatch X with context [isinstance12 _ (VTuple _)] => rewrite isinstance_small end
  | lazymatch X with context [store _ (EName _) _ _] => rewrite store_name end
  | lazymatch X with context [store _ (ESub (EName _) _) _ _] => erewrite store_sub_enc12 by (cbn; reflexivity) end
  | lazymatch X with context [set_row (T2 _ _ _ _) (Z.of_nat _) (T1 _ _ _)] => rewrite set_row_T2 by (assumption || reflexivity) end
  | lazymatch X with context [ndim (T1 _ _ _)] => rewrite !ndim_T1 end
  | lazymatch X with context [ndim (T2 _ _ _ _)] => rewrite !ndim_T2 end
  | lazymatch X with context [size (T2 _ _ _ _) 1] => rewrite size_T2_1 end
  | lazymatch X with context [size (T2 _ _ _ _) 0] => rewrite size_T2_0 end
  | lazymatch X with context [size (T1 _ _ _) 0] => rewrite size_T1_0 end
  | lazymatch X with context [t_shape (T1 _ _ _)] => rewrite !t_shape_T1 end
  | lazymatch X with context [get_item (T1 _ _ [_; _; _]) 1] => rewrite !get_item_row_1 end
  | lazymatch X with context [get_item (T1 _ _ [_; _; _]) 2] => rewrite !get_item_row_2 end
  | lazymatch X with context [fill_slice (T1 _ _ [_; _; _]) (Some 1%Z) None (-1)] => rewrite fill_slice_row end
  | lazymatch X with context [set_item (T1 _ _ [_; _; _]) 2 _] => rewrite set_item_row_2 end
  | lazymatch X with context [q_cmp _ (inject_Z _) (inject_Z _)] => rewrite !q_cmp_inject end
  | lazymatch X with context [(Z.of_nat _ =? Z.of_nat _)%Z] => rewrite !of_nat_eqb end
  | lazymatch X with context [(0 <=? Z.of_nat _)%Z] => rewrite !leb_0_of_nat end
  | lazymatch X with context [Z.to_nat (Z.of_nat _)] => rewrite !Nat2Z.id end
  | lazymatch X with context [Z.of_nat 1] => change (Z.of_nat 1) with 1%Z end
  | lazymatch X with context [Z.of_nat 2] => change (Z.of_nat 2) with 2%Z end
  | lazymatch X with context [Z.of_nat 3] => change (Z.of_nat 3) with 3%Z end
  | lazymatch X with context [Pos.to_nat 1] => change (Pos.to_nat 1) with 1%nat end
  | lazymatch X with context [Pos.to_nat 2] => change (Pos.to_nat 2) with 2%nat end ].

Ltac hstep := progress (cbn; try (match goal with |- ?L = _ => head_redex L ltac:(fun X => fix_head X) end)).

Ltac name_stmt t k :=
  let x := fresh "s" in let H := fresh "Hs" in
  pose (x := t); assert (H : x = t) by reflexivity; clearbody x; k x H.

Ltac exec1 :=
  match goal with |- ?L = _ => head_redex L ltac:(fun X =>
    lazymatch X with
    | exec ?ext (SSeq ?a ?b) ?st => name_stmt b ltac:(fun r Hr => rewrite (exec_seq_named ext a b st r Hr))
    | exec ?ext (SIf ?c ?t ?f) ?st =>
        name_stmt t ltac:(fun bt Ht => name_stmt f ltac:(fun bf Hf => rewrite (exec_if_named ext c t f st bt bf Ht Hf)))
    | exec ?ext (SAssign ?ts ?e) ?st => rewrite (exec_assign ext ts e st)
    | exec ?ext (SRaise ?x) ?st => rewrite (exec_raise ext x st)
    | exec ?ext SPass ?st => rewrite (exec_pass ext st)
    | exec ?ext (SExpr (ECall ?f ?a ?k)) ?st => rewrite (exec_expr_call ext f a k st)
    | exec _ ?r _ => is_var r; subst r
    end) end.
Ltac decide_head :=
  match goal with |- ?L = _ => head_redex L ltac:(fun X =>
    lazymatch X with
    | if ?b then _ else _ =>
        repeat match goal with
               | H : ?x = true |- _ => lazymatch b with context [x] => rewrite H end
               | H : ?x = false |- _ => lazymatch b with context [x] => rewrite H end
               end
    end) end.

(* the variable store of the glue: parameters, torch, idx, the three state variables, the slots - in this order *)
Definition mkvars (ids : list string) (fx : option Z) (idx nf r2d fdt fn t1 feat ali ref wb prefix dir_ prefix_ msg t2 T F Tp
                   idx2 r tok start end_ : val) : list (string * val) :=
  [("data_set", ds_obj ids); ("info", VBool false); ("validate", VBool true); ("fix", oz fx);
   ("torch", torch_module); ("idx", idx);
   ("num_filts", nf); ("ref_is_2d", r2d); ("feat_dtype", fdt);
   ("fn", fn); ("$t1", t1); ("feat", feat); ("ali", ali); ("ref", ref); ("write_back", wb); ("prefix", prefix);
   ("dir_", dir_); ("prefix_", prefix_); ("msg", msg); ("$t2", t2); ("T", T); ("F", F); ("Tp", Tp);
   ("idx2", idx2); ("r", r); ("tok", tok); ("start", start); ("end", end_)].

(* the variable store stays folded ([mkvars]) while a statement runs.  [vstep]: a variable is read, or assigned, by computing
   on the list of that one [lookup] / [update]; the updated list is folded back.  [vrun] runs statements with it: the construct in
   evaluation position is opened ([exec1]), a variable is read or assigned ([vstep]), the goal is computed and the redex in
   evaluation position repaired ([hstep]), a test that an earlier case analysis decided is rewritten ([decide_head]). *)
Lemma mkvars_eq : forall ids fx idx nf r2d fdt fn t1 feat ali ref wb prefix dir_ prefix_ msg t2 T F Tp idx2 r tok start end_,
  [("data_set", ds_obj ids); ("info", VBool false); ("validate", VBool true); ("fix", oz fx);
   ("torch", torch_module); ("idx", idx);
   ("num_filts", nf); ("ref_is_2d", r2d); ("feat_dtype", fdt);
   ("fn", fn); ("$t1", t1); ("feat", feat); ("ali", ali); ("ref", ref); ("write_back", wb); ("prefix", prefix);
   ("dir_", dir_); ("prefix_", prefix_); ("msg", msg); ("$t2", t2); ("T", T); ("F", F); ("Tp", Tp);
   ("idx2", idx2); ("r", r); ("tok", tok); ("start", start); ("end", end_)]
  = mkvars ids fx idx nf r2d fdt fn t1 feat ali ref wb prefix dir_ prefix_ msg t2 T F Tp idx2 r tok start end_.
Proof. reflexivity. Qed.
Arguments mkvars : simpl never.
Ltac vstep :=
  match goal with
  | |- context [lookup ?x ?vs] =>
      let r := eval cbv [mkvars lookup String.eqb Ascii.eqb Bool.eqb] in (lookup x vs) in progress change (lookup x vs) with r
  | |- context [update ?x ?v ?vs] =>
      let r := eval cbv [mkvars update String.eqb Ascii.eqb Bool.eqb] in (update x v vs) in
      progress change (update x v vs) with r; rewrite mkvars_eq
  end.
Ltac vrun := repeat first [exec1 | vstep | hstep | progress decide_head].

Definition save_ev (fnv : string) (t : tens) (dir_ : string) : event := ("torch.save", [enc12 t; VStr (dir_ ++ "/" ++ fnv)]).

Definition if_else (s : stmt) : stmt := match s with SIf _ _ f => f | _ => SPass end.

Ltac usex L :=
  match goal with |- context [exec ?e ?s ?st] =>
    let H := fresh in let m := fresh "m" in
    (eassert (H : exists m, exec e s st = _) by (apply L)); destruct H as [m H]; rewrite H; clear H end.
Ltac done_exc := cbn; eexists; split; reflexivity.

Definition is_long (t : tens) : bool := (negb (t_cuda t) && Model.dtype_beq (t_dtype t) Model.DI64)%bool.
Definition is_small (t : tens) : bool := (negb (t_cuda t) && Model.upcastable (t_dtype t))%bool.

Lemma long_id : forall t, is_long t = true -> long t = t.
Proof. intros [cu dt sh da]. unfold is_long. cbn. destruct cu, dt; cbn; try discriminate; reflexivity. Qed.

