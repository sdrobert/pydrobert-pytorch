(* C12 — the alignment block `if ali is not None: ...` of `_info_and_validate`.  Method: TieVTac.v. *)
From Coq Require Import ZArith QArith List String Bool Arith Lia ZifyBool.
From PV Require Import MiniPy.Syntax MiniPy.Interp MiniPy.Lemmas MiniTorch.OpsC12 MiniTorch.LemmasC12 MiniTorch.LemmasC12V Gen.C12ValSrc.
From PV Require Import C12.SrcRun C12.SrcRunV C12.TieLib C12.TieLibV C12.TieVTac.
From PV Require C12.Model.
Import ListNotations.
Local Open Scope string_scope.

Definition ali_dir : stmt := Eval cbv in seq_nth 0 (if_then iv_ali).
Definition ali_prefix_ : stmt := Eval cbv in seq_nth 1 (if_then iv_ali).
Definition ali_vbody : stmt := Eval cbv in if_then (seq_nth 2 (if_then iv_ali)).
Definition ali_cuda : stmt := Eval cbv in seq_nth 0 ali_vbody.
Definition ali_long : stmt := Eval cbv in seq_nth 1 ali_vbody.
Definition ali_ndim : stmt := Eval cbv in seq_nth 2 ali_vbody.
Definition ali_size : stmt := Eval cbv in seq_nth 3 ali_vbody.
Definition ali_crop : stmt := Eval cbv in seq_nth 4 ali_vbody.
Definition ali_save : stmt := Eval cbv in seq_drop 5 ali_vbody.
Definition ali_info : stmt := Eval cbv in seq_drop 3 (if_then iv_ali).

Lemma ali_split : iv_ali
  = SIf (ECmp IsNot (EName "ali") (EConst VNone))
        (SSeq ali_dir (SSeq ali_prefix_ (SSeq (SIf (EName "validate") ali_vbody SPass) ali_info))) SPass.
Proof. reflexivity. Qed.
Lemma ali_vbody_split : ali_vbody = SSeq ali_cuda (SSeq ali_long (SSeq ali_ndim (SSeq ali_size (SSeq ali_crop ali_save)))).
Proof. reflexivity. Qed.

Section Ali.
  Variables (c : Model.cfg) (d : Model.dir) (ids : list string) (fx : option Z).
  Variables (idx nf r2d fdt t1 feat ref prefix t2 F idx2 r tok start end_ : val) (fnv : string) (T : nat).
  Local Notation ext := (ext12 (env_ds c d)).
  Definition stA (dir_ prefix_ msg ali wb Tp : val) (evs : list event) : state :=
    mkState (mkvars ids fx idx nf r2d fdt (VStr fnv) t1 feat ali ref wb prefix dir_ prefix_ msg t2 (VInt (Z.of_nat T)) F Tp
                    idx2 r tok start end_) evs.

  Lemma ali_present_run : forall body dir_ prefix_ msg t wb Tp evs,
    exec ext (SIf (ECmp IsNot (EName "ali") (EConst VNone)) body SPass) (stA dir_ prefix_ msg (enc12 t) wb Tp evs)
    = exec ext body (stA dir_ prefix_ msg (enc12 t) wb Tp evs).
  Proof. reflexivity. Qed.

  (* `dir_ = os.path.join(...)` *)
  Lemma ali_dir_run : forall dir_ prefix_ msg ali wb Tp evs,
    exec ext ali_dir (stA dir_ prefix_ msg ali wb Tp evs) = Ok CNormal (stA (VStr "d/ali") prefix_ msg ali wb Tp evs).
  Proof. intros. unfold ali_dir, stA. vrun. reflexivity. Qed.

  (* `prefix_ = f"..."` *)
  Lemma ali_prefix__run : forall dir_ prefix_ msg ali wb Tp evs,
    exec ext ali_prefix_ (stA dir_ prefix_ msg ali wb Tp evs) = Ok CNormal (stA dir_ (VStr "") msg ali wb Tp evs).
  Proof. intros. unfold ali_prefix_, stA. vrun. reflexivity. Qed.

  Lemma ali_validate_run : forall body dir_ prefix_ msg ali wb Tp evs,
    exec ext (SIf (EName "validate") body SPass) (stA dir_ prefix_ msg ali wb Tp evs)
    = exec ext body (stA dir_ prefix_ msg ali wb Tp evs).
  Proof. reflexivity. Qed.

  (* `if info:` *)
  Lemma ali_info_run : forall dir_ prefix_ msg ali wb Tp evs,
    exec ext ali_info (stA dir_ prefix_ msg ali wb Tp evs) = Ok CNormal (stA dir_ prefix_ msg ali wb Tp evs).
  Proof. intros. unfold ali_info, stA. vrun. reflexivity. Qed.

  (* `if ... ali.device.type == "cuda":` *)
  Lemma ali_cuda_run : forall dir_ prefix_ msg t (wb : bool) Tp evs,
    exists msg',
    exec ext ali_cuda (stA dir_ prefix_ msg (enc12 t) (VBool wb) Tp evs)
    = if (t_cuda t && negb (Model.is_some fx))%bool
      then Exc "ValueError" (stA dir_ prefix_ msg' (enc12 t) (VBool wb) Tp evs)
      else Ok CNormal (stA dir_ prefix_ msg' (enc12 (cpu t)) (VBool (wb || t_cuda t)) Tp evs).
  Proof.
    intros. unfold ali_cuda, stA.
    destruct t as [cu dt sh da]; cbn [t_cuda]. destruct cu; cbn [andb orb negb]; eexists.
    - vrun. destruct fx as [k|]; vrun.
      + rewrite orb_true_r. reflexivity.
      + reflexivity.
    - vrun. rewrite orb_false_r. reflexivity.
  Qed.

  (* `if not isinstance(ali, torch.LongTensor):` *)
  Lemma ali_long_run : forall dir_ prefix_ msg t (wb : bool) Tp evs,
    exists msg',
    exec ext ali_long (stA dir_ prefix_ msg (enc12 t) (VBool wb) Tp evs)
    = if (negb (is_long t) && negb (Model.is_some fx && is_small t))%bool
      then Exc "ValueError" (stA dir_ prefix_ msg' (enc12 t) (VBool wb) Tp evs)
      else Ok CNormal (stA dir_ prefix_ msg' (enc12 (long t)) (VBool (wb || negb (is_long t))) Tp evs).
  Proof.
    intros. unfold ali_long, stA.
    destruct (is_long t) eqn:EL; cbn [negb andb orb]; eexists.
    - unfold is_long in EL. vrun. rewrite orb_false_r, (long_id t (EL : is_long t = true)). reflexivity.
    - unfold is_long in EL. vrun. unfold is_small. destruct fx as [k|]; vrun.
      + destruct (negb (t_cuda t) && Model.upcastable (t_dtype t))%bool eqn:ES; cbn [negb andb Model.is_some]; vrun.
        * rewrite orb_true_r. reflexivity.
        * reflexivity.
      + reflexivity.
  Qed.

  (* `if ali.ndim != 1:` *)
  Lemma ali_ndim_run : forall dir_ prefix_ msg t wb Tp evs,
    exec ext ali_ndim (stA dir_ prefix_ msg (enc12 t) wb Tp evs)
    = if (ndim t =? 1)%nat then Ok CNormal (stA dir_ prefix_ msg (enc12 t) wb Tp evs)
      else Exc "ValueError" (stA dir_ prefix_ msg (enc12 t) wb Tp evs).
  Proof.
    intros. unfold ali_ndim, stA.
    vrun. change 1%Z with (Z.of_nat 1). rewrite of_nat_eqb. destruct (ndim t =? 1)%nat; vrun; reflexivity.
  Qed.

  (* `Tp = ali.size(0)` *)
  Lemma ali_size_run : forall dir_ prefix_ msg cu dt v wb Tp evs,
    exec ext ali_size (stA dir_ prefix_ msg (enc12 (T1 cu dt v)) wb Tp evs)
    = Ok CNormal (stA dir_ prefix_ msg (enc12 (T1 cu dt v)) wb (VInt (Z.of_nat (List.length v))) evs).
  Proof.
    intros. unfold ali_size, stA. vrun. reflexivity.
  Qed.

  (* `if Tp != T:` *)
  Definition crop_ok (n : nat) : bool :=
    ((n =? T)%nat
     || match fx with
        | Some k => (Z.of_nat T + k >=? Z.of_nat n)%Z && (Z.of_nat n >? Z.of_nat T)%Z
        | None => false
        end)%bool.

  Lemma ali_crop_run : forall dir_ prefix_ msg cu dt v (wb : bool) evs,
    exists msg',
    exec ext ali_crop (stA dir_ prefix_ msg (enc12 (T1 cu dt v)) (VBool wb) (VInt (Z.of_nat (List.length v))) evs)
    = if crop_ok (List.length v)
      then Ok CNormal (stA dir_ prefix_ msg' (enc12 (T1 cu dt (if (List.length v =? T)%nat then v else List.firstn T v)))
                           (VBool (wb || negb (List.length v =? T)%nat)) (VInt (Z.of_nat (List.length v))) evs)
      else Exc "ValueError" (stA dir_ prefix_ msg' (enc12 (T1 cu dt v)) (VBool wb) (VInt (Z.of_nat (List.length v))) evs).
  Proof.
    intros. unfold ali_crop, stA, crop_ok.
    destruct (List.length v =? T)%nat eqn:EL; cbn [orb negb]; eexists.
    - vrun. rewrite orb_false_r. reflexivity.
    - vrun. destruct fx as [k|]; vrun.
      + destruct (Z.of_nat T + k >=? Z.of_nat (List.length v))%Z eqn:EA; vrun; [destruct (Z.of_nat (List.length v) >? Z.of_nat T)%Z eqn:EB; cbn [andb]; vrun|].
        * rewrite slice0_T1_to. vrun. rewrite orb_true_r. reflexivity.
        * reflexivity.
        * reflexivity.
      + reflexivity.
  Qed.

  (* `if write_back: torch.save(...); write_back = False` *)
  Lemma ali_save_run : forall dir_ prefix_ msg t (wb : bool) Tp evs,
    exec ext ali_save (stA (VStr dir_) prefix_ msg (enc12 t) (VBool wb) Tp evs)
    = Ok CNormal (stA (VStr dir_) prefix_ msg (enc12 t) (VBool false) Tp (if wb then evs ++ [save_ev fnv t dir_] else evs)).
  Proof.
    intros. unfold ali_save, stA, save_ev.
    destruct wb; vrun; reflexivity.
  Qed.

  Definition ali_wb (a : Model.ali) : bool :=
    match Model.a_data a with
    | Model.A1 v => (Model.a_cuda a || negb (Model.dtype_beq (Model.a_dtype a) Model.DI64) || negb (List.length v =? T)%nat)%bool
    | _ => false
    end.
  Definition ali_shape_ok (a : Model.ali) : Prop :=
    match Model.a_data a with Model.AN dims _ => List.length dims <> 1%nat | _ => True end.

  Lemma ali_block : forall dir_ prefix_ msg (ao : option Model.ali) Tp evs, (forall a, ao = Some a -> ali_shape_ok a) ->
    let st := stA dir_ prefix_ msg (opt_tens (option_map ali_tens ao)) (VBool false) Tp evs in
    match ao with
    | None => exec ext iv_ali st = Ok CNormal st
    | Some a =>
        match Model.ali_part true fx T a with
        | inl _ => exists st', exec ext iv_ali st = Exc "ValueError" st' /\ events st' = evs
        | inr a' => exists msg' Tp',
            exec ext iv_ali st
            = Ok CNormal (stA (VStr "d/ali") (VStr "") msg' (enc12 (ali_tens a')) (VBool false) Tp'
                              (if ali_wb a then evs ++ [save_ev fnv (ali_tens a') "d/ali"] else evs))
        end
    end.
  Proof.
    intros dir_ prefix_ msg [[cu dt data]|] Tp evs Hok st; subst st; cbn [option_map opt_tens];
      [|unfold iv_ali, stA; vrun; reflexivity].
    specialize (Hok _ eq_refl). unfold ali_shape_ok in Hok. cbn [Model.a_data] in Hok.
    unfold Model.ali_part, ali_wb. cbn [Model.a_cuda Model.a_dtype Model.a_data negb].
    rewrite ali_split, ali_present_run.
    rewrite exec_seq', ali_dir_run. cbn [bind then_].
    rewrite exec_seq', ali_prefix__run. cbn [bind then_].
    rewrite exec_seq', ali_validate_run, ali_vbody_split.
    unfold ali_tens. cbn [Model.a_cuda Model.a_dtype Model.a_data].
    destruct data as [v|dims flat].
    - rewrite exec_seq'. usex ali_cuda_run. rewrite ?t_cuda_T1, ?cpu_T1.
      destruct (cu && negb (Model.is_some fx))%bool eqn:E1; [done_exc|]. cbn [bind then_].
      rewrite exec_seq'. usex ali_long_run. unfold is_long, is_small. rewrite ?t_cuda_T1, ?t_dtype_T1, ?long_T1. cbn [negb andb].
      destruct (negb (Model.dtype_beq dt Model.DI64) && negb (Model.is_some fx && Model.upcastable dt))%bool eqn:E2; [done_exc|].
      cbn [bind then_].
      rewrite exec_seq', ali_ndim_run, ndim_T1. cbn [Nat.eqb bind then_].
      rewrite exec_seq', ali_size_run. cbn [bind then_].
      rewrite exec_seq'. usex ali_crop_run. unfold crop_ok. rewrite of_nat_eqb.
      (* the runs that pass end with the write-back and `if info:` *)
      assert (Fin : forall m' t' (wb : bool) Tp' evs',
                exists msg'' Tp'',
                bind (bind (Ok CNormal (stA (VStr "d/ali") (VStr "") m' (enc12 t') (VBool wb) Tp' evs')) (then_ ext ali_save))
                     (then_ ext ali_info)
                = Ok CNormal (stA (VStr "d/ali") (VStr "") msg'' (enc12 t') (VBool false) Tp''
                                  (if wb then evs' ++ [save_ev fnv t' "d/ali"] else evs'))).
      { intros. cbn [bind then_]. rewrite ali_save_run. cbn [bind then_]. rewrite ali_info_run. do 2 eexists. reflexivity. }
      destruct (List.length v =? T)%nat eqn:EL; cbn [orb negb].
      + rewrite !orb_false_r. cbn [orb]. apply Fin.
      + destruct fx as [k|]; [destruct ((Z.of_nat T + k >=? Z.of_nat (List.length v))%Z && (Z.of_nat (List.length v) >? Z.of_nat T)%Z)%bool|].
        * rewrite !orb_true_r. cbn [orb]. apply Fin.
        * done_exc.
        * done_exc.
    - rewrite exec_seq'. usex ali_cuda_run. cbn [t_cuda].
      destruct (cu && negb (Model.is_some fx))%bool eqn:E1; [done_exc|]. cbn [bind then_].
      rewrite exec_seq'. usex ali_long_run. unfold is_long, is_small, cpu. cbn [t_cuda t_dtype negb andb].
      destruct (negb (Model.dtype_beq dt Model.DI64) && negb (Model.is_some fx && Model.upcastable dt))%bool eqn:E2; [done_exc|].
      cbn [bind then_].
      rewrite exec_seq', ali_ndim_run. unfold ndim, long. cbn [t_shape].
      destruct (Nat.eqb_spec (List.length dims) 1); [contradiction|]. done_exc.
  Qed.

End Ali.

