(* C12 — lemmas, part 1: the validate/repair pass against the declarative spec. *)
From Coq Require Import List ZArith Bool Lia.
From Coq Require Import ZifyBool ZifyNat.
From PV Require Import C12.Model C12.Spec.
Import ListNotations.
Local Open Scope Z_scope.

Lemma dtype_beq_eq a b : dtype_beq a b = true <-> a = b.
Proof. now destruct a, b. Qed.

Lemma dtype_beq_refl a : dtype_beq a a = true.
Proof. now apply dtype_beq_eq. Qed.

Lemma dtype_beq_neq a b : dtype_beq a b = false <-> a <> b.
Proof. rewrite <- not_true_iff_false, dtype_beq_eq. reflexivity. Qed.

Lemma upcast_long d : upcast d = DI64 <-> (d = DI64 \/ upcastable d = true).
Proof. destruct d; cbn; intuition discriminate. Qed.

Lemma upcast_idem d : upcast (upcast d) = upcast d.
Proof. destruct d; reflexivity. Qed.

Lemma forallb_spec {A} (f : A -> bool) (P : A -> Prop) l :
  (forall x, f x = true <-> P x) -> reflect (Forall P l) (forallb f l).
Proof.
  intro H. apply iff_reflect. rewrite forallb_forall, Forall_forall. split; intros G x Hx; apply H, G, Hx.
Qed.

Definition repair_row' (fx : option Z) (T : Z) (r : row) : row :=
  match fx with Some k => repair_row k T r | None => r end.
Definition repair_feat' (fx : option Z) (f : feat) : feat :=
  match fx with Some _ => repair_feat f | None => f end.
Definition repair_ali' (fx : option Z) (T : nat) (a : ali) : ali :=
  match fx with Some k => repair_ali k T a | None => a end.
Definition repair_ref' (fx : option Z) (T : nat) (r : ref) : ref :=
  match fx with Some k => repair_ref k T r | None => r end.
Definition repair_utt' (fx : option Z) (u : utt) : utt :=
  match fx with Some k => repair_utt k u | None => u end.

Lemma repair_map fx d : repair fx d = map (repair_utt' fx) d.
Proof. destruct fx; cbn; [reflexivity|]. symmetry. apply map_id. Qed.

(* case analysis on every integer comparison in the goal; the contradictory cases go by lia *)
Ltac zcmp :=
  repeat (match goal with
          | |- context[Z.ltb ?a ?b] => destruct (Z.ltb_spec a b)
          | |- context[Z.leb ?a ?b] => destruct (Z.leb_spec a b)
          | |- context[Z.gtb ?a ?b] => destruct (Z.gtb_spec a b)
          | |- context[Z.geb ?a ?b] => destruct (Z.geb_spec a b)
          | |- context[Z.eqb ?a ?b] => destruct (Z.eqb_spec a b)
          end; cbn [andb orb xorb negb]; try lia).

Lemma bounds_okb_iff T r : bounds_okb T r = true <-> bounds_ok T r.
Proof. destruct r as [[tok s] e]. unfold bounds_okb, bounds_ok. lia. Qed.

Lemma row_part_eq fx T r :
  exists w, (w = false <-> repair_row' fx T r = r) /\
    row_part fx T r
    = if bounds_okb T (repair_row' fx T r) then inr (repair_row' fx T r, w) else inl ValueErr.
Proof.
  destruct r as [[tok s] e]. unfold row_part, repair_row', repair_row, bounds_okb.
  destruct fx as [k|]; cbn [is_some]; zcmp;
    (eexists; split; [|reflexivity]; split; [easy|intros [=]; first [reflexivity|lia]]).
Qed.

Lemma rows_part_eq fx T rows :
  exists w, (w = false <-> map (repair_row' fx T) rows = rows) /\
    rows_part fx T rows
    = if forallb (bounds_okb T) (map (repair_row' fx T) rows)
      then inr (map (repair_row' fx T) rows, w) else inl ValueErr.
Proof.
  induction rows as [|r rest (w2 & Hw2 & IH)]; cbn [rows_part map forallb].
  - exists false. easy.
  - destruct (row_part_eq fx T r) as (w1 & Hw1 & ->). rewrite IH. exists (w1 || w2). split.
    + rewrite orb_false_iff, Hw1, Hw2. split; [intros [-> ->]; reflexivity|intro H; injection H; auto].
    + destruct (bounds_okb _ _), (forallb _ _); reflexivity.
Qed.

Lemma repair_row_ok k T r : bounds_ok T r -> repair_row k T r = r.
Proof.
  destruct r as [[tok s] e]. unfold bounds_ok, repair_row. intro H. zcmp; reflexivity.
Qed.

Lemma gate_spec (fx : option Z) cu dt :
  cu && negb (is_some fx) = false /\ negb (dtype_beq dt DI64) && negb (is_some fx && upcastable dt) = false
  <-> (if is_some fx then false else cu) = false /\ (if is_some fx then upcast dt else dt) = DI64.
Proof. destruct fx, cu, dt; cbn; intuition congruence. Qed.

Lemma ali_part_spec fx T a :
  match ali_part true fx T a with
  | inr a' => a' = repair_ali' fx T a /\ ali_ok T a'
  | inl _ => ~ ali_ok T (repair_ali' fx T a)
  end.
Proof.
  destruct a as [cu dt da]. unfold ali_part, ali_ok. cbn [negb a_cuda a_dtype a_data].
  pose proof (gate_spec fx cu dt) as G.
  destruct (cu && negb (is_some fx)); [|destruct (negb (dtype_beq dt DI64) && _)].
  1, 2: intros (Hc & Hd & _); destruct fx; destruct (proj2 G (conj Hc Hd)); discriminate.
  destruct (proj1 G (conj eq_refl eq_refl)) as [Hc Hd]. clear G.
  destruct fx as [k|]; cbn in Hc, Hd; unfold repair_ali', repair_ali; cbn [a_cuda a_dtype a_data]; subst;
    rewrite ?Hd; (destruct da as [v|dims flat]; [|intros (_ & _ & ? & [=] & _)]); zcmp;
    first [ intros (_ & _ & ? & [= <-] & ?); lia
          | repeat split; eexists; (split; [reflexivity|]); rewrite ?firstn_length; lia ].
Qed.

Lemma ali_part_err fx T a e : ali_part true fx T a = inl e -> e = ValueErr.
Proof.
  destruct a as [cu dt da]. unfold ali_part. cbn [negb a_cuda a_dtype a_data].
  destruct (cu && _); [congruence|]. destruct (negb _ && _); [congruence|]. destruct da as [v|? ?]; [|congruence].
  destruct (_ =? _); [discriminate|]. destruct fx as [k|]; [destruct (_ && _)|]; congruence.
Qed.

Lemma repair_ali_ok k T a : ali_ok T a -> repair_ali k T a = a.
Proof.
  destruct a as [cu dt da]. unfold ali_ok, repair_ali. cbn.
  intros (-> & -> & v & -> & <-). cbn.
  destruct (Z.ltb_spec (Z.of_nat (length v)) (Z.of_nat (length v))); [lia|]. reflexivity.
Qed.

Definition st_dt_ok (st : vstate) (dt : dtype) : Prop := forall d, s_dt st = Some d -> d = dt.
Definition st_nf_ok (st : vstate) (F : nat) : Prop := forall n, s_nf st = Some n -> n = F.
Definition st_2d_ok (st : vstate) (b : bool) : Prop := forall x, s_2d st = Some x -> x = b.

Lemma feat_part_spec fx st f :
  match feat_part true fx st f with
  | inr (f', T, F, st1) =>
      f' = repair_feat' fx f /\ f_cuda f' = false /\ f_shape f = [T; F] /\
      st_dt_ok st (f_dtype f) /\ st_nf_ok st F /\ st1 = mkSt (Some F) (s_2d st) (Some (f_dtype f))
  | inl _ => forall T F, ~ (f_cuda (repair_feat' fx f) = false /\ f_shape f = [T; F] /\
                            st_dt_ok st (f_dtype f) /\ st_nf_ok st F)
  end.
Proof.
  destruct f as [cu dt sh]. unfold feat_part, st_dt_ok, st_nf_ok. cbn [f_cuda f_dtype f_shape andb].
  assert (Hdt : negb (match s_dt st with None => true | Some d => dtype_beq d dt end) = false
                <-> forall d, s_dt st = Some d -> d = dt).
  { destruct (s_dt st) as [d|]; [|easy]. rewrite negb_false_iff, dtype_beq_eq.
    split; [intros -> ? [= <-]; reflexivity|auto]. }
  destruct (negb _); [intros T F (_ & _ & H & _); apply Hdt in H; discriminate|].
  apply proj1 in Hdt. specialize (Hdt eq_refl).
  assert (Hcu : cu && negb (is_some fx) = false <-> f_cuda (repair_feat' fx (mkFeat cu dt sh)) = false)
    by (destruct cu, fx; easy).
  destruct (cu && negb (is_some fx)); [intros T F (H & _); apply Hcu in H; discriminate|].
  apply proj1 in Hcu. specialize (Hcu eq_refl).
  assert (Hf : (if cu then mkFeat false dt sh else mkFeat cu dt sh) = repair_feat' fx (mkFeat cu dt sh))
    by (destruct cu, fx; cbn in *; easy).
  rewrite Hf. destruct sh as [|T0 [|F0 [|x sh]]]; try (intros T F (_ & [=] & _)).
  destruct (s_nf st) as [nf|] eqn:En; [destruct (Nat.eqb_spec F0 nf) as [->|Hne]; cbn [negb]|].
  - repeat split; try assumption. intros n [= <-]. reflexivity.
  - intros T F (_ & [= _ <-] & _ & H). apply Hne. symmetry. apply H. reflexivity.
  - repeat split; try assumption. intros n [=].
Qed.

Lemma feat_part_sound fx st f f' T F st1 :
  feat_part true fx st f = inr (f', T, F, st1) ->
  f' = repair_feat' fx f /\ f_cuda f' = false /\ f_shape f = [T; F] /\
  st_dt_ok st (f_dtype f) /\ st_nf_ok st F /\
  st1 = mkSt (Some F) (s_2d st) (Some (f_dtype f)).
Proof. intro E. pose proof (feat_part_spec fx st f) as H. rewrite E in H. exact H. Qed.

Lemma feat_part_err fx st f e : feat_part true fx st f = inl e -> e = ValueErr.
Proof.
  unfold feat_part. cbn [andb]. destruct (negb _); [congruence|]. destruct (f_cuda f && _); [congruence|].
  destruct (f_shape f) as [|? [|? [|? ?]]]; try congruence. destruct (s_nf st); [destruct (negb _)|]; congruence.
Qed.

Lemma load_rdata_R1 c dt t : c_tokens_only c = false ->
  load_rdata c dt (R1 t) = inr (R1 (wrap (c_sos c) (c_eos c) t)).
Proof.
  destruct c as [sos eos to sa]. cbn. intros ->. unfold load_rdata, wrap. cbn.
  destruct sos, eos; cbn; rewrite ?app_nil_r; reflexivity.
Qed.

Lemma load_rdata_R2 c dt rows : c_tokens_only c = false -> dt <> DU8 ->
  load_rdata c dt (R2 rows)
  = inr (R2 (wrap (option_map sym_of (c_sos c)) (option_map sym_of (c_eos c)) rows)).
Proof.
  destruct c as [sos eos to sa]. cbn. intros -> Hd. unfold load_rdata, wrap, sym_of. cbn.
  assert (minus1 dt = -1) as E by (destruct dt; try reflexivity; contradiction).
  destruct sos, eos; cbn; rewrite ?E, ?app_nil_r; reflexivity.
Qed.

Lemma wrap_forall {A} (P : A -> Prop) sos eos l :
  (forall s, sos = Some s -> P s) -> (forall s, eos = Some s -> P s) ->
  (Forall P (wrap sos eos l) <-> Forall P l).
Proof.
  intros Hs He. unfold wrap. rewrite !Forall_app.
  split.
  - intros (_ & H & _). assumption.
  - intro H. repeat split; [|assumption|].
    + destruct sos; constructor; [apply Hs; reflexivity|constructor].
    + destruct eos; constructor; [apply He; reflexivity|constructor].
Qed.

Definition plain_yield (c : cfg) : Prop := c_tokens_only c = false /\ c_suppress_alis c = false.
Definition no_syms (c : cfg) : Prop := c_sos c = None /\ c_eos c = None.
(* the reference written back is the reference stored (no symbols were added on loading) *)
Definition clean_writes (c : cfg) (fx : option Z) : Prop := fx = None \/ no_syms c.

Lemma load_ref_nosyms c r : c_tokens_only c = false -> no_syms c -> load_ref c r = inr r.
Proof.
  destruct c as [sos eos to sa], r as [cu dt da]. unfold no_syms. cbn. intros -> [-> ->].
  unfold load_ref, load_rdata. cbn. reflexivity.
Qed.

Definition ref_dim (r : ref) : bool := match r_data r with R2 _ => true | _ => false end.

Definition data_pass (st : vstate) (T : nat) (d : rdata) : Prop :=
  match d with
  | R1 _ => s_2d st <> Some true
  | R2 rows => s_2d st <> Some false /\ Forall (bounds_ok (Z.of_nat T)) rows
  | _ => False
  end.

Definition ref_pass (st : vstate) (T : nat) (r : ref) : Prop :=
  r_cuda r = false /\ r_dtype r = DI64 /\ data_pass st T (r_data r).

Lemma ref_pass_ok st T r :
  ref_pass st T r <-> ref_ok (ref_dim r) T r /\ st_2d_ok st (ref_dim r).
Proof.
  destruct r as [cu dt da]. unfold ref_pass, ref_ok, st_2d_ok, ref_dim. cbn [r_cuda r_dtype r_data]. split.
  - intros (-> & -> & Hp). destruct da; cbn in Hp; try contradiction.
    + repeat split; [left; eauto|intros [|] E; congruence].
    + destruct Hp. repeat split; [right; eauto|intros [|] E; congruence].
  - intros ((-> & -> & [(Hd & t & ->)|(Hd & rows & -> & HF)]) & Hs); cbn in *; repeat split; trivial;
      intro E; discriminate (Hs _ E).
Qed.

Lemma load_rdata_pass c st T d : c_tokens_only c = false ->
  match load_rdata c DI64 d with
  | inr d' => (data_pass st T d' <-> data_pass st T d) /\ ref_dim (mkRef false DI64 d') = ref_dim (mkRef false DI64 d)
  | inl _ => ~ data_pass st T d
  end.
Proof.
  intro Hto. destruct d as [t|rows|w rows|nd].
  - rewrite load_rdata_R1 by assumption. easy.
  - rewrite load_rdata_R2 by easy. split; [|reflexivity]. cbn.
    rewrite wrap_forall; [reflexivity| |]; intros s; [destruct (c_sos c)|destruct (c_eos c)];
      intros [= <-]; unfold sym_of, bounds_ok; lia.
  - destruct c as [[s|] [e|] to sa], w; cbn in Hto; subst; cbn; easy.
  - destruct c as [[s|] [e|] to sa]; cbn in Hto; subst; cbn; easy.
Qed.

Lemma load_ref_pass c st T r : c_tokens_only c = false ->
  match load_ref c r with
  | inr lr => (ref_pass st T lr <-> ref_pass st T r) /\ (r_dtype r = DI64 -> ref_dim lr = ref_dim r)
  | inl _ => ~ ref_pass st T r
  end.
Proof.
  intro Hto. destruct r as [cu dt da]. unfold load_ref, ref_pass. cbn [r_cuda r_dtype r_data].
  destruct (dtype_beq dt DI64) eqn:E.
  - apply dtype_beq_eq in E. subst dt. pose proof (load_rdata_pass c st T da Hto) as H.
    destruct (load_rdata c DI64 da); cbn [r_cuda r_dtype r_data]; tauto.
  - apply dtype_beq_neq in E. destruct (load_rdata c dt da); cbn [r_cuda r_dtype r_data]; tauto.
Qed.

Lemma repair_ref'_eq fx T r :
  repair_ref' fx T r
  = mkRef (if is_some fx then false else r_cuda r) (if is_some fx then upcast (r_dtype r) else r_dtype r)
          (match r_data r with R2 rows => R2 (map (repair_row' fx (Z.of_nat T)) rows) | o => o end).
Proof. destruct fx, r as [cu dt []]; cbn; rewrite ?map_id; reflexivity. Qed.

Lemma ref_part_spec fx T st lr :
  match ref_part fx T st lr with
  | inr (r', wb, st2) =>
      r' = repair_ref' fx T lr /\ ref_pass st T r' /\
      st2 = mkSt (s_nf st) (Some (ref_dim r')) (s_dt st) /\ (wb = false <-> r' = lr)
  | inl _ => ~ ref_pass st T (repair_ref' fx T lr)
  end.
Proof.
  rewrite repair_ref'_eq. destruct lr as [cu dt da]. unfold ref_part, ref_pass. cbn [r_cuda r_dtype r_data].
  pose proof (gate_spec fx cu dt) as G.
  destruct (cu && negb (is_some fx)); [|destruct (negb (dtype_beq dt DI64) && _)].
  1, 2: intros (Hc & Hd & _); destruct (proj2 G (conj Hc Hd)); discriminate.
  destruct (proj1 G (conj eq_refl eq_refl)) as [-> ->]. clear G.
  assert (Hwb0 : cu || negb (dtype_beq dt DI64) = false <-> false = cu /\ DI64 = dt).
  { rewrite orb_false_iff, negb_false_iff, dtype_beq_eq. intuition congruence. }
  destruct da as [t|rows|w rows|nd]; cbn [r_cuda r_dtype r_data data_pass]; try tauto.
  - destruct (s_2d st) as [[|]|] eqn:E2; cbn [r_cuda r_dtype r_data data_pass ref_dim];
      rewrite ?E2, ?Hwb0; intuition congruence.
  - destruct (rows_part_eq fx (Z.of_nat T) rows) as (w & Hw & ->).
    destruct (forallb_spec _ _ (map (repair_row' fx (Z.of_nat T)) rows) (bounds_okb_iff (Z.of_nat T))) as [HF|HF],
      (s_2d st) as [[|]|] eqn:E2; cbn [r_cuda r_dtype r_data data_pass ref_dim];
      rewrite ?E2; try rewrite orb_false_iff, Hwb0, Hw; intuition congruence.
Qed.

Lemma ref_part_err fx T st lr e : ref_part fx T st lr = inl e -> e = ValueErr.
Proof.
  destruct lr as [cu dt da]. unfold ref_part. cbn [r_cuda r_dtype r_data].
  destruct (cu && _); [congruence|]. destruct (negb _ && _); [congruence|].
  destruct da as [t|rows|? ?|?]; try congruence.
  - destruct (s_2d st) as [[|]|]; congruence.
  - destruct (rows_part_eq fx (Z.of_nat T) rows) as (w & _ & ->).
    destruct (forallb (bounds_okb _) _), (s_2d st) as [[|]|]; congruence.
Qed.

Lemma repair_ref_ok k d2 T r : ref_ok d2 T r -> repair_ref k T r = r.
Proof.
  destruct r as [cu dt da]. unfold ref_ok, repair_ref. cbn.
  intros (-> & -> & [(_ & t & ->)|(_ & rows & -> & HF)]); cbn; [reflexivity|].
  f_equal. f_equal. induction HF; cbn; [reflexivity|]. rewrite IHHF, repair_row_ok by assumption. reflexivity.
Qed.

Definition utt_pass (st : vstate) (u : utt) (st' : vstate) : Prop :=
  exists T F,
    f_cuda (u_feat u) = false /\ f_shape (u_feat u) = [T; F] /\
    st_dt_ok st (f_dtype (u_feat u)) /\ st_nf_ok st F /\
    (forall a, u_ali u = Some a -> ali_ok T a) /\
    (forall r, u_ref u = Some r -> ref_pass st T r) /\
    st' = mkSt (Some F) (match u_ref u with Some r => Some (ref_dim r) | None => s_2d st end)
               (Some (f_dtype (u_feat u))).

Definition ref_tokens_nonneg (r : ref) : Prop := Forall (fun t => 0 <= t) (rdata_tokens (r_data r)).
Definition utt_tokens_nonneg (u : utt) : Prop := forall r, u_ref u = Some r -> ref_tokens_nonneg r.

Lemma ref_pass_2d st st' T r : s_2d st = s_2d st' -> ref_pass st T r -> ref_pass st' T r.
Proof. unfold ref_pass, data_pass. intros <-. trivial. Qed.

Lemma repair_feat'_shape fx f : f_shape (repair_feat' fx f) = f_shape f /\ f_dtype (repair_feat' fx f) = f_dtype f.
Proof. destruct fx; split; reflexivity. Qed.

Lemma ref_info_noinfo rows : forall acc,
  ref_info_rows false acc rows
  = if forallb (fun r => 0 <=? tok_of r) rows then inr acc else inl ValueErr.
Proof.
  induction rows as [|[[tok s] e] t IH]; intro acc; cbn [ref_info_rows forallb tok_of fst].
  - reflexivity.
  - destruct (Z.ltb_spec tok 0); destruct (Z.leb_spec 0 tok); try lia; cbn [andb]; [reflexivity|apply IH].
Qed.

Lemma token_loop_ok rows acc : Forall (fun r => 0 <= tok_of r) rows -> ref_info_rows false acc rows = inr acc.
Proof.
  intro H. rewrite ref_info_noinfo.
  destruct (forallb_spec (fun r => 0 <=? tok_of r) _ rows (fun r => Z.leb_le 0 (tok_of r))); [reflexivity|contradiction].
Qed.

(* the token loop on a reference that passed the validate block *)
Lemma token_loop_pass st T r acc :
  ref_pass st T r -> ref_tokens_nonneg r ->
  exists rows, ref_rows (r_data r) = Some rows /\ ref_info_rows false acc rows = inr acc.
Proof.
  unfold ref_tokens_nonneg. intros (_ & _ & Hp) Hn.
  destruct (r_data r) as [t|rows|? ?|?]; cbn in *; try contradiction;
    (eexists; split; [reflexivity|]); apply token_loop_ok.
  - apply Forall_map. exact Hn.
  - rewrite Forall_map in Hn. exact Hn.
Qed.

Lemma token_loop_acc rows acc acc' : ref_info_rows false acc rows = inr acc' -> acc' = acc.
Proof. rewrite ref_info_noinfo. destruct (forallb _ rows); intro H; inversion H; reflexivity. Qed.

Lemma repair_row_tok k T r : tok_of (repair_row k T r) = tok_of r.
Proof.
  destruct r as [[tok s] e]. unfold repair_row.
  destruct (xorb _ _); [reflexivity|]. destruct (_ && _); reflexivity.
Qed.

Lemma repair_ref'_tokens fx T r : rdata_tokens (r_data (repair_ref' fx T r)) = rdata_tokens (r_data r).
Proof.
  destruct fx as [k|]; [|reflexivity]. destruct r as [cu dt da]. cbn. destruct da; cbn; try reflexivity.
  rewrite map_map. apply map_ext. intro. apply repair_row_tok.
Qed.

Lemma load_ref_tokens c st T r lr : c_tokens_only c = false -> syms_nonneg c ->
  load_ref c r = inr lr -> ref_pass st T r -> ref_tokens_nonneg r -> ref_tokens_nonneg lr.
Proof.
  intros Hto [Hs He] Hl (_ & Hd & Hk) Hn. unfold load_ref in Hl. destruct r as [cu dt da]. cbn in *. subst dt.
  unfold ref_tokens_nonneg in *. destruct da as [t|rows|? ?|?]; cbn in *; try contradiction.
  - rewrite load_rdata_R1 in Hl by assumption. inversion Hl; subst; cbn.
    apply wrap_forall; assumption.
  - rewrite load_rdata_R2 in Hl by (assumption || easy). inversion Hl; subst; cbn in *.
    unfold wrap. rewrite !map_app. rewrite !Forall_app. repeat split; try assumption.
    + destruct (c_sos c); cbn; constructor; [apply Hs; reflexivity|constructor].
    + destruct (c_eos c); cbn; constructor; [apply He; reflexivity|constructor].
Qed.

(* all parts of a conjunction, leaving equations alone (which [repeat split] would not) *)
Ltac csplit := repeat match goal with |- _ /\ _ => split end.

Lemma utt_eta u : mkUtt (u_feat u) (u_ali u) (u_ref u) = u.
Proof. destruct u; reflexivity. Qed.

Lemma ref_pass_repair_id fx st T r : ref_pass st T r -> repair_ref' fx T r = r.
Proof.
  intro Hp. destruct fx; [|reflexivity]. apply ref_pass_ok in Hp. exact (repair_ref_ok _ _ _ _ (proj1 Hp)).
Qed.

Lemma repair_utt'_eq fx u :
  repair_utt' fx u
  = mkUtt (repair_feat' fx (u_feat u)) (option_map (repair_ali' fx (frames (u_feat u))) (u_ali u))
          (option_map (repair_ref' fx (frames (u_feat u))) (u_ref u)).
Proof. destruct fx; [reflexivity|]. destruct u as [f [a|] [r|]]; reflexivity. Qed.

Lemma ali_stage_spec fx T (ud : utt) (acc : iacc) ao :
  match (match ao with
         | Some a => match ali_part true fx T a with inl e => inl (ud, e) | inr a1 => inr (Some a1, acc) end
         | None => inr (None, acc)
         end) with
  | inr (a', acc2) =>
      a' = option_map (repair_ali' fx T) ao /\ acc2 = acc /\ (forall a, a' = Some a -> ali_ok T a)
  | inl _ => ~ (forall a, option_map (repair_ali' fx T) ao = Some a -> ali_ok T a)
  end.
Proof.
  destruct ao as [a|]; [|easy]. pose proof (ali_part_spec fx T a) as H.
  destruct (ali_part true fx T a); cbn [option_map]; [intro Hk; exact (H (Hk _ eq_refl))|].
  destruct H as [-> Hk]. split; [reflexivity|]. split; [reflexivity|]. intros ? [= <-]. exact Hk.
Qed.

(* weaker than [clean_writes], per utterance: no symbols are added on loading, or there is nothing to repair *)
Definition writes_back (c : cfg) (fx : option Z) (u : utt) : Prop := no_syms c \/ repair_utt' fx u = u.

Lemma writes_back_ref c fx u r : writes_back c fx u -> u_ref u = Some r ->
  no_syms c \/ repair_ref' fx (frames (u_feat u)) r = r.
Proof.
  intros [?|E] Er; [left; assumption|right].
  apply (f_equal u_ref) in E. rewrite repair_utt'_eq, Er in E. injection E; trivial.
Qed.

(* the symbols put around an unrepaired reference neither need nor get a repair *)
Lemma load_unrepaired c fx st T r lr : c_tokens_only c = false -> load_ref c r = inr lr ->
  repair_ref' fx T r = r -> ref_pass st T (repair_ref' fx T lr) -> ref_pass st T r.
Proof.
  intros Hto El E Hp. rewrite repair_ref'_eq in E, Hp. unfold load_ref in El.
  destruct r as [cu dt da]. cbn [r_cuda r_dtype r_data] in *.
  destruct (load_rdata c dt da) as [e|d'] eqn:Ed; [discriminate|]. injection El as <-.
  cbn [r_cuda r_dtype r_data] in Hp. injection E as Ec Edt Eda. destruct Hp as (Hc & Hd & Hdat).
  cbn [r_cuda r_dtype r_data] in *. rewrite Ec in Hc. rewrite Edt in Hd. subst cu dt.
  split; [reflexivity|]. split; [reflexivity|]. cbn [r_data].
  destruct da as [t|rows|w rows|nd].
  - rewrite load_rdata_R1 in Ed by assumption. injection Ed as <-. exact Hdat.
  - rewrite load_rdata_R2 in Ed by easy. injection Ed as <-. destruct Hdat as [Hs HF]. split; [assumption|].
    injection Eda as Er. rewrite <- Er. unfold wrap in HF. rewrite !map_app, !Forall_app in HF. apply HF.
  - destruct c as [[s|] [e|] to sa], w; cbn in Hto; subst; cbn in Ed; try discriminate; injection Ed as <-; exact Hdat.
  - destruct c as [[s|] [e|] to sa]; cbn in Hto; subst; cbn in Ed; try discriminate; injection Ed as <-; exact Hdat.
Qed.

Lemma load_spec c fx st T r : c_tokens_only c = false -> no_syms c \/ repair_ref' fx T r = r ->
  match load_ref c r with
  | inr lr =>
      (ref_pass st T (repair_ref' fx T lr) <-> ref_pass st T (repair_ref' fx T r)) /\
      (ref_pass st T (repair_ref' fx T r) ->
       ref_dim (repair_ref' fx T lr) = ref_dim (repair_ref' fx T r) /\
       (syms_nonneg c -> ref_tokens_nonneg r -> ref_tokens_nonneg lr) /\
       forall wb : bool, (wb = false <-> repair_ref' fx T lr = lr) ->
         (if wb then Some (repair_ref' fx T lr) else Some r) = Some (repair_ref' fx T r))
  | inl _ => ~ ref_pass st T (repair_ref' fx T r)
  end.
Proof.
  intros Hto [Hns|E].
  - rewrite (load_ref_nosyms c r Hto Hns). split; [reflexivity|]. intros _. split; [reflexivity|].
    split; [auto|]. intros wb Hwb. destruct wb; [reflexivity|]. rewrite (proj1 Hwb eq_refl). reflexivity.
  - pose proof (load_ref_pass c st T r Hto) as H. rewrite E.
    destruct (load_ref c r) as [e|lr] eqn:El; [assumption|]. destruct H as [Hiff Hdim].
    assert (Hid : ref_pass st T r -> repair_ref' fx T lr = lr).
    { intro Hp. apply Hiff in Hp. exact (ref_pass_repair_id fx st T lr Hp). }
    split.
    + split; [exact (load_unrepaired c fx st T r lr Hto El E)|]. intro Hp. rewrite (Hid Hp). apply Hiff, Hp.
    + intro Hp. rewrite (Hid Hp). split; [apply Hdim, Hp|].
      split; [intros Hsy Htk; exact (load_ref_tokens c st T r lr Hto Hsy El Hp Htk)|].
      intros wb Hwb. rewrite (proj2 Hwb eq_refl). reflexivity.
Qed.

Lemma step_sound c fx st acc u u' st' acc' :
  plain_yield c -> writes_back c fx u ->
  step_utt false true c fx st acc u = (u', inr (st', acc')) ->
  u' = repair_utt' fx u /\ utt_pass st u' st' /\ acc' = acc.
Proof.
  intros [Hto Hsa] Hcw. unfold step_utt. rewrite Hsa.
  destruct (match u_ref u with Some r => _ | None => _ end) as [e|lref] eqn:Eload; [easy|].
  destruct (feat_part true fx st (u_feat u)) as [e|[[[f' T] F] st1]] eqn:Ef; [easy|].
  apply feat_part_sound in Ef as (-> & Hfc & Hsh & Hdt & Hnf & ->). cbn [andb].
  pose proof (ali_stage_spec fx T (mkUtt (repair_feat' fx (u_feat u)) (u_ali u) (u_ref u)) acc (u_ali u)) as Ha.
  destruct (match u_ali u with Some a => _ | None => _ end) as [[ud e]|[a' acc2]]; [easy|].
  destruct Ha as (-> & -> & Hali).
  destruct (repair_feat'_shape fx (u_feat u)) as [Hsh' Hdt'].
  pose proof (fun r => writes_back_ref c fx u r Hcw) as Hcr.
  rewrite repair_utt'_eq. unfold frames in *. rewrite Hsh in *. cbn [hd] in *.
  destruct (u_ref u) as [r|] eqn:Er.
  - destruct (load_ref c r) as [e|lr] eqn:El; [easy|]. injection Eload as <-.
    pose proof (ref_part_spec fx T (mkSt (Some F) (s_2d st) (Some (f_dtype (u_feat u)))) lr) as Hr.
    destruct (ref_part fx T _ lr) as [e|[[r' wb] st2]]; [easy|]. destruct Hr as (-> & Hp & -> & Hwb).
    pose proof (load_spec c fx st T r Hto (Hcr r eq_refl)) as Hl. rewrite El in Hl. destruct Hl as [Hiff Hl].
    apply (ref_pass_2d _ st) in Hp; [|reflexivity]. apply Hiff in Hp. destruct (Hl Hp) as (Hdim & _ & Hw).
    rewrite (Hw wb Hwb).
    destruct (ref_rows _) as [rows|]; [|easy].
    destruct (ref_info_rows false acc rows) as [e|acc3] eqn:Ei; [easy|]. apply token_loop_acc in Ei as ->.
    intros [= <- <- <-]. split; [reflexivity|]. split; [|reflexivity].
    exists T, F. cbn [u_feat u_ali u_ref option_map s_nf s_dt]. rewrite Hsh', Hdt', Hdim. csplit; try assumption; try reflexivity.
    intros r0 [= <-]. assumption.
  - injection Eload as <-. intros [= <- <- <-]. split; [reflexivity|]. split; [|reflexivity].
    exists T, F. cbn [u_feat u_ali u_ref option_map]. rewrite Hsh', Hdt'. csplit; try assumption; easy.
Qed.

Lemma step_complete c fx st acc u st' :
  plain_yield c -> writes_back c fx u -> syms_nonneg c -> utt_tokens_nonneg u ->
  utt_pass st (repair_utt' fx u) st' ->
  step_utt false true c fx st acc u = (repair_utt' fx u, inr (st', acc)).
Proof.
  intros [Hto Hsa] Hcw Hsy Htok (T & F & Hfc & Hsh & Hdt & Hnf & Hali & Href & ->).
  pose proof (fun r => writes_back_ref c fx u r Hcw) as Hcr. clear Hcw.
  rewrite repair_utt'_eq in *. cbn [u_feat u_ali u_ref] in *.
  destruct (repair_feat'_shape fx (u_feat u)) as [E1 E2]. rewrite E1 in Hsh. rewrite E2 in *.
  assert (Hfr : frames (u_feat u) = T) by (unfold frames; now rewrite Hsh). rewrite Hfr in *.
  unfold step_utt. rewrite Hsa. pose proof (feat_part_spec fx st (u_feat u)) as Hf.
  destruct (feat_part true fx st (u_feat u)) as [e|[[[f' T'] F'] st1]]; [destruct (Hf T F); auto|].
  destruct Hf as (-> & _ & Hsh2 & _ & _ & ->). rewrite Hsh in Hsh2. injection Hsh2 as <- <-. cbn [andb].
  pose proof (ali_stage_spec fx T (mkUtt (repair_feat' fx (u_feat u)) (u_ali u) (u_ref u)) acc (u_ali u)) as Ha.
  destruct (match u_ali u with Some a => _ | None => _ end) as [[ud e]|[a' acc2]]; [contradiction|].
  destruct Ha as (-> & -> & _).
  destruct (u_ref u) as [r|] eqn:Er; [|reflexivity]. cbn [option_map] in *.
  specialize (Href _ eq_refl). pose proof (load_spec c fx st T r Hto (Hcr _ eq_refl)) as Hl.
  destruct (load_ref c r) as [e|lr]; [contradiction|]. destruct Hl as [Hiff Hl].
  destruct (Hl Href) as (Hdim & Htl & Hw). apply Hiff in Href as Hp.
  apply (ref_pass_2d st (mkSt (Some F) (s_2d st) (Some (f_dtype (u_feat u))))) in Hp; [|reflexivity].
  pose proof (ref_part_spec fx T (mkSt (Some F) (s_2d st) (Some (f_dtype (u_feat u)))) lr) as Hr.
  destruct (ref_part fx T _ lr) as [e|[[r' wb] st2]]; [contradiction|]. destruct Hr as (-> & _ & -> & Hwb).
  rewrite (Hw wb Hwb).
  assert (Htk' : ref_tokens_nonneg (repair_ref' fx T lr)).
  { unfold ref_tokens_nonneg. rewrite repair_ref'_tokens. exact (Htl Hsy (Htok _ Er)). }
  destruct (token_loop_pass _ T _ acc Hp Htk') as (rows & -> & ->). rewrite Hdim. reflexivity.
Qed.

Definition tol (v : bool) (fx : option Z) : option Z := if v then fx else None.

Definition utt_partial' (fx : option Z) (u u' : utt) : Prop :=
  let T := frames (u_feat u) in
  (u_feat u' = u_feat u \/ u_feat u' = repair_feat' fx (u_feat u)) /\
  (u_ali u' = u_ali u \/ u_ali u' = option_map (repair_ali' fx T) (u_ali u)) /\
  (u_ref u' = u_ref u \/ u_ref u' = option_map (repair_ref' fx T) (u_ref u)).

Lemma utt_partial'_spec fx u u' : utt_partial' fx u u' -> utt_partial fx u u'.
Proof.
  destruct fx as [k|]; [trivial|].
  unfold utt_partial'. destruct u as [f a r], u' as [f' a' r']. cbn.
  intros ([->| ->] & [->| ->] & [->| ->]); destruct a, r; reflexivity.
Qed.

Lemma utt_partial'_refl fx u : utt_partial' fx u u.
Proof. repeat split; left; reflexivity. Qed.

Lemma feat_part_out v fx st f f' T F st1 :
  feat_part v fx st f = inr (f', T, F, st1) -> f' = repair_feat' (tol v fx) f /\ f_shape f = [T; F].
Proof.
  destruct v; [intro E; apply feat_part_sound in E; tauto|].
  unfold feat_part. cbn [andb]. destruct (f_shape f) as [|? [|? [|? ?]]]; try easy.
  destruct (s_nf st); intros [= <- <- <- _]; split; reflexivity.
Qed.

Lemma ali_part_out v fx T a a' : ali_part v fx T a = inr a' -> a' = repair_ali' (tol v fx) T a.
Proof.
  destruct v; [|cbn; intros [= <-]; reflexivity].
  intro E. pose proof (ali_part_spec fx T a) as H. rewrite E in H. tauto.
Qed.

Lemma ref_block_out (v : bool) fx T st lr r' (wb : bool) (st2 : vstate) :
  (if v then ref_part fx T st lr else inr (lr, false, st)) = inr (r', wb, st2) ->
  r' = repair_ref' (tol v fx) T lr /\ (wb = false <-> r' = lr).
Proof.
  destruct v; [|intros [= <- <- _]; easy].
  intro E. pose proof (ref_part_spec fx T st lr) as H. rewrite E in H. tauto.
Qed.

Lemma written_ref (v : bool) c fx st T r lr r' (wb : bool) (st2 : vstate) :
  tol v fx = None \/ (c_tokens_only c = false /\ (no_syms c \/ repair_ref' fx T r = r)) ->
  load_ref c r = inr lr ->
  (if v then ref_part fx T st lr else inr (lr, false, st)) = inr (r', wb, st2) ->
  (if wb then Some r' else Some r) = Some (repair_ref' (tol v fx) T r).
Proof.
  intros [Hn|[Hto Hcr]] El E.
  - apply ref_block_out in E as [-> Hwb]. rewrite Hn in *. rewrite (proj2 Hwb eq_refl). reflexivity.
  - destruct v; [|injection E as <- <- _; reflexivity]. cbn [tol].
    pose proof (ref_part_spec fx T st lr) as Hs. rewrite E in Hs. destruct Hs as (-> & Hp & _ & Hwb).
    pose proof (load_spec c fx st T r Hto Hcr) as Hl. rewrite El in Hl. destruct Hl as [Hiff Hl].
    apply Hiff in Hp. exact (proj2 (proj2 (Hl Hp)) wb Hwb).
Qed.

Lemma step_disk info v c fx st acc u :
  tol v fx = None \/ (c_tokens_only c = false /\ writes_back c fx u) ->
  utt_partial' (tol v fx) u (fst (step_utt info v c fx st acc u)).
Proof.
  intro H. unfold step_utt.
  destruct (match u_ref u with Some r => _ | None => _ end) as [e|lref] eqn:Eload; [apply utt_partial'_refl|].
  assert (Hl : match lref with
               | Some lr => exists r, u_ref u = Some r /\ load_ref c r = inr lr
               | None => True end).
  { destruct (u_ref u) as [r|]; [destruct (load_ref c r) eqn:El|]; inversion Eload; eauto. }
  clear Eload. destruct (c_suppress_alis c); [apply utt_partial'_refl|].
  destruct (feat_part v fx st (u_feat u)) as [e|[[[f' T] F] st1]] eqn:Ef; [apply utt_partial'_refl|].
  apply feat_part_out in Ef as [-> Hsh]. unfold utt_partial', frames. rewrite Hsh. cbn [hd].
  destruct lref as [lr|].
  - destruct Hl as (r & Er & El).
    assert (Hr : tol v fx = None \/ (c_tokens_only c = false /\ (no_syms c \/ repair_ref' fx T r = r))).
    { destruct H as [?|[Hto Hw]]; [left; assumption|right; split; [assumption|]].
      pose proof (writes_back_ref c fx u r Hw Er) as Hx. unfold frames in Hx. rewrite Hsh in Hx. exact Hx. }
    rewrite Er. cbn [option_map].
    destruct (if v then ref_part fx T st1 lr else inr (lr, false, st1)) as [e|[[r' wb] st2]] eqn:Erp;
      [|pose proof (written_ref v c fx st1 T r lr r' wb st2 Hr El Erp) as Hd; destruct (ref_rows _)].
    all: destruct (u_ali u) as [a|];
      [destruct (ali_part v fx T a) as [?|a'] eqn:Ea;
         [|apply ali_part_out in Ea as ->; destruct info; [destruct (ali_info_runs _ _)|]]|].
    all: try destruct (ref_info_rows _ _ _); cbn [fst u_feat u_ali u_ref option_map]; auto 6.
  - destruct (u_ali u) as [a|];
      [destruct (ali_part v fx T a) as [?|a'] eqn:Ea;
         [|apply ali_part_out in Ea as ->; destruct info; [destruct (ali_info_runs _ _)|]]|].
    all: cbn [fst u_feat u_ali u_ref option_map]; auto 6.
Qed.

Lemma step_error_partial c fx st acc u u' e :
  plain_yield c -> writes_back c fx u ->
  step_utt false true c fx st acc u = (u', inl e) -> utt_partial fx u u'.
Proof.
  intros [Hto _] Hcw E. apply utt_partial'_spec.
  pose proof (step_disk false true c fx st acc u (or_intror (conj Hto Hcw))) as H. rewrite E in H. exact H.
Qed.

Lemma run_unchanged info v c fx : tol v fx = None ->
  forall d st acc, fst (run_pass info v c fx st acc d) = d.
Proof.
  intro Ht. induction d as [|u t IH]; intros st acc; cbn [run_pass]; [reflexivity|].
  pose proof (step_disk info v c fx st acc u (or_introl Ht)) as Hs. rewrite Ht in Hs.
  apply utt_partial'_spec in Hs. cbn in Hs.
  destruct (step_utt info v c fx st acc u) as [u' [e|[st1 acc1]]]; cbn in Hs; subst u'; [reflexivity|].
  specialize (IH st1 acc1). destruct (run_pass info v c fx st1 acc1 t) as [t' r]. cbn in *. subst. reflexivity.
Qed.

Definition compat (st : vstate) (F : nat) (dt : dtype) (d2 : bool) : Prop :=
  st_nf_ok st F /\ st_dt_ok st dt /\ st_2d_ok st d2.

Lemma compat_st0 F dt d2 : compat st0 F dt d2.
Proof. repeat split; intros x Hx; discriminate. Qed.

Lemma compat_exists st : exists F dt d2, compat st F dt d2.
Proof.
  exists (match s_nf st with Some n => n | None => 0%nat end),
         (match s_dt st with Some x => x | None => DF32 end),
         (match s_2d st with Some b => b | None => false end).
  repeat split; intros x Hx; rewrite Hx; reflexivity.
Qed.

Lemma ref_ok_dim d2 T r : ref_ok d2 T r -> ref_dim r = d2.
Proof.
  unfold ref_ok, ref_dim. intros (_ & _ & [(-> & t & ->)|(-> & rows & -> & _)]); reflexivity.
Qed.

Lemma utt_pass_ok st u st' F dt d2 :
  utt_pass st u st' -> compat st' F dt d2 -> compat st F dt d2 /\ utt_ok F dt d2 u.
Proof.
  intros (T & F0 & Hc & Hsh & Hdt & Hnf & Hali & Href & ->) (Cn & Cd & C2).
  assert (F = F0) by (symmetry; apply Cn; reflexivity).
  assert (dt = f_dtype (u_feat u)) by (symmetry; apply Cd; reflexivity). subst F dt.
  assert (Hfr : frames (u_feat u) = T) by (unfold frames; rewrite Hsh; reflexivity).
  assert (Hr : forall r, u_ref u = Some r -> ref_ok d2 T r /\ st_2d_ok st d2).
  { intros r Er. specialize (Href _ Er). apply ref_pass_ok in Href.
    assert (ref_dim r = d2) as <- by (apply C2; cbn; rewrite Er; reflexivity). assumption. }
  split.
  - repeat split; try assumption. destruct (u_ref u) as [r|]; [apply (Hr r eq_refl)|exact C2].
  - unfold utt_ok, feat_ok. rewrite Hfr. csplit; try assumption; try reflexivity; [eexists; eassumption|].
    intros r Er. apply (Hr r Er).
Qed.

Lemma utt_ok_pass st u F dt d2 :
  compat st F dt d2 -> utt_ok F dt d2 u -> exists st', utt_pass st u st' /\ compat st' F dt d2.
Proof.
  intros (Cn & Cd & C2) ((Hc & Hdt & T & Hsh) & Hali & Href).
  assert (Hfr : frames (u_feat u) = T) by (unfold frames; rewrite Hsh; reflexivity). rewrite Hfr in *. clear Hfr.
  eexists. split.
  - exists T, F. csplit; try eassumption; try reflexivity.
    + subst dt. assumption.
    + intros r Er. apply ref_pass_ok. rewrite (ref_ok_dim _ _ _ (Href _ Er)). split; [apply Href|]; assumption.
  - repeat split; intros x Hx; cbn in Hx; inversion Hx; subst; try reflexivity.
    destruct (u_ref u) as [r|] eqn:Er.
    + inversion H0; subst. apply (ref_ok_dim _ T). apply Href. reflexivity.
    + apply C2. assumption.
Qed.

Lemma run_sound c fx : plain_yield c ->
  forall d st acc d' acc', Forall (writes_back c fx) d ->
  run_pass false true c fx st acc d = (d', inr acc') ->
  d' = map (repair_utt' fx) d /\ (exists F dt d2, compat st F dt d2 /\ Forall (utt_ok F dt d2) d') /\ acc' = acc.
Proof.
  intros Hp. induction d as [|u t IH]; intros st acc d' acc' Hc; cbn [run_pass map].
  - intro H; inversion H; subst. split; [reflexivity|]. split; [|reflexivity].
    destruct (compat_exists st) as (F & dt & d2 & Hk). exists F, dt, d2. split; [assumption|constructor].
  - destruct (step_utt false true c fx st acc u) as [u' [e|[st1 acc1]]] eqn:Es; [easy|].
    destruct (run_pass false true c fx st1 acc1 t) as [t' r] eqn:Er.
    intro H; inversion H; subst; clear H. inversion Hc as [|? ? Hc1 Hc2]; subst.
    destruct (step_sound _ _ _ _ _ _ _ _ Hp Hc1 Es) as (-> & Hpass & ->).
    destruct (IH _ _ _ _ Hc2 Er) as (-> & (F & dt & d2 & Hk & HF) & ->).
    destruct (utt_pass_ok _ _ _ _ _ _ Hpass Hk) as [Hk0 Hu].
    split; [reflexivity|]. split; [|reflexivity]. exists F, dt, d2. split; [assumption|constructor; assumption].
Qed.

Lemma run_complete c fx : plain_yield c -> syms_nonneg c ->
  forall d st acc F dt d2, Forall (writes_back c fx) d -> Forall utt_tokens_nonneg d ->
  compat st F dt d2 -> Forall (utt_ok F dt d2) (map (repair_utt' fx) d) ->
  run_pass false true c fx st acc d = (map (repair_utt' fx) d, inr acc).
Proof.
  intros Hp Hs. induction d as [|u t IH]; intros st acc F dt d2 Hc Htok Hk HF; cbn [run_pass map] in *.
  - reflexivity.
  - inversion HF as [|? ? Hu HF']; subst. inversion Htok; subst. inversion Hc as [|? ? Hc1 Hc2]; subst.
    destruct (utt_ok_pass st _ F dt d2 Hk Hu) as (st' & Hpass & Hk').
    rewrite (step_complete c fx st acc u st' Hp Hc1 Hs H1 Hpass).
    rewrite (IH st' acc F dt d2 Hc2 H2 Hk' HF'). reflexivity.
Qed.

Lemma utt_partial_refl fx u : utt_partial fx u u.
Proof. destruct fx; cbn; [repeat split; left|]; reflexivity. Qed.

Lemma utt_partial_repaired fx u : utt_partial fx u (repair_utt' fx u).
Proof. destruct fx; cbn; [repeat split; right|]; reflexivity. Qed.

Lemma run_error_partial c fx : plain_yield c ->
  forall d st acc d' e, Forall (writes_back c fx) d ->
  run_pass false true c fx st acc d = (d', inl e) -> Forall2 (utt_partial fx) d d'.
Proof.
  intros Hp. induction d as [|u t IH]; intros st acc d' e Hc; cbn [run_pass].
  - easy.
  - inversion Hc as [|? ? Hc1 Hc2]; subst.
    destruct (step_utt false true c fx st acc u) as [u' [e0|[st1 acc1]]] eqn:Es.
    + intro H; inversion H; subst; clear H. constructor.
      * eapply step_error_partial; eassumption.
      * clear. induction t; constructor; [apply utt_partial_refl|assumption].
    + destruct (run_pass false true c fx st1 acc1 t) as [t' r] eqn:Er.
      intro H; inversion H; subst; clear H.
      destruct (step_sound _ _ _ _ _ _ _ _ Hp Hc1 Es) as (-> & _ & _).
      constructor; [apply utt_partial_repaired|]. eapply IH; eassumption.
Qed.

Lemma norm_fix_tolerance fa : norm_fix fa = tolerance fa.
Proof. destruct fa as [|k|[|]]; reflexivity. Qed.

Lemma tokens_nonneg_utts d : tokens_nonneg d <-> Forall utt_tokens_nonneg d.
Proof. reflexivity. Qed.

Lemma validate_result_gen c fa d d' :
  plain_yield c -> Forall (writes_back c (tolerance fa)) d ->
  validate c fa d = (d', None) -> d' = repair (tolerance fa) d /\ WellFormed d'.
Proof.
  intros Hp Hc. unfold validate. rewrite norm_fix_tolerance.
  destruct (run_pass false true c (tolerance fa) st0 acc0 d) as [d1 [e|acc]] eqn:E; [easy|].
  intro H; inversion H; subst; clear H.
  destruct (run_sound c _ Hp _ _ _ _ _ Hc E) as (-> & (F & dt & d2 & _ & HF) & _).
  split; [symmetry; apply repair_map|]. exists F, dt, d2. exact HF.
Qed.

Lemma validate_accepts_gen c fa d :
  plain_yield c -> Forall (writes_back c (tolerance fa)) d -> syms_nonneg c -> tokens_nonneg d ->
  WellFormed (repair (tolerance fa) d) -> validate c fa d = (repair (tolerance fa) d, None).
Proof.
  intros Hp Hc Hs Ht (F & dt & d2 & HF). unfold validate. rewrite norm_fix_tolerance.
  rewrite repair_map in *.
  rewrite (run_complete c _ Hp Hs d st0 acc0 F dt d2 Hc Ht (compat_st0 F dt d2) HF). reflexivity.
Qed.

Lemma validate_accepts_iff_gen c fa d :
  plain_yield c -> Forall (writes_back c (tolerance fa)) d -> syms_nonneg c -> tokens_nonneg d ->
  ((exists d', validate c fa d = (d', None)) <-> WellFormed (repair (tolerance fa) d)).
Proof.
  intros Hp Hc Hs Ht. split.
  - intros (d' & H). destruct (validate_result_gen _ _ _ _ Hp Hc H) as [-> Hw]. assumption.
  - intro Hw. eexists. apply validate_accepts_gen; assumption.
Qed.

Lemma clean_writes_all c fx d : clean_writes c fx -> Forall (writes_back c fx) d.
Proof. intros [->|?]; apply Forall_forall; intros u _; [right; reflexivity|left; assumption]. Qed.

Lemma validate_result c fa d d' :
  plain_yield c -> clean_writes c (tolerance fa) ->
  validate c fa d = (d', None) -> d' = repair (tolerance fa) d /\ WellFormed d'.
Proof. intros Hp Hc. exact (validate_result_gen c fa d d' Hp (clean_writes_all _ _ d Hc)). Qed.

Lemma validate_accepts c fa d :
  plain_yield c -> clean_writes c (tolerance fa) -> syms_nonneg c -> tokens_nonneg d ->
  WellFormed (repair (tolerance fa) d) -> validate c fa d = (repair (tolerance fa) d, None).
Proof. intros Hp Hc. exact (validate_accepts_gen c fa d Hp (clean_writes_all _ _ d Hc)). Qed.

Lemma validate_accepts_iff c fa d :
  plain_yield c -> clean_writes c (tolerance fa) -> syms_nonneg c -> tokens_nonneg d ->
  ((exists d', validate c fa d = (d', None)) <-> WellFormed (repair (tolerance fa) d)).
Proof. intros Hp Hc. exact (validate_accepts_iff_gen c fa d Hp (clean_writes_all _ _ d Hc)). Qed.

Lemma validate_error_partial_gen c fa d d' e :
  plain_yield c -> Forall (writes_back c (tolerance fa)) d ->
  validate c fa d = (d', Some e) -> Forall2 (utt_partial (tolerance fa)) d d'.
Proof.
  intros Hp Hc. unfold validate. rewrite norm_fix_tolerance.
  destruct (run_pass false true c (tolerance fa) st0 acc0 d) as [d1 [e0|acc]] eqn:E; [|easy].
  intro H; inversion H; subst; clear H. eapply run_error_partial; eassumption.
Qed.

Lemma validate_error_partial c fa d d' e :
  plain_yield c -> clean_writes c (tolerance fa) ->
  validate c fa d = (d', Some e) -> Forall2 (utt_partial (tolerance fa)) d d'.
Proof. intros Hp Hc. exact (validate_error_partial_gen c fa d d' e Hp (clean_writes_all _ _ d Hc)). Qed.

(* a valid tensor is left alone by every repair *)
Lemma repair_utt_ok k F dt d2 u : utt_ok F dt d2 u -> repair_utt k u = u.
Proof.
  intros ((Hc & _ & _) & Ha & Hr). unfold repair_utt.
  destruct u as [f a r]. cbn [u_feat u_ali u_ref] in *. f_equal.
  - destruct f as [cu dt0 sh]. cbn in *. subst. reflexivity.
  - destruct a as [a0|]; [|reflexivity]. cbn. rewrite (repair_ali_ok _ _ _ (Ha _ eq_refl)). reflexivity.
  - destruct r as [r0|]; [|reflexivity]. cbn. rewrite (repair_ref_ok _ _ _ _ (Hr _ eq_refl)). reflexivity.
Qed.

Lemma repair_wf_id fx d : WellFormed d -> repair fx d = d.
Proof.
  intros (F & dt & d2 & H). destruct fx as [k|]; [|reflexivity]. cbn.
  induction H; cbn; [reflexivity|]. rewrite IHForall, (repair_utt_ok k F dt d2) by assumption. reflexivity.
Qed.

Lemma repair_tokens fx d : tokens_nonneg d -> tokens_nonneg (repair fx d).
Proof.
  rewrite repair_map. unfold tokens_nonneg. intro H. induction H; cbn; constructor; [|assumption].
  intros r Hr. rewrite repair_utt'_eq in Hr. cbn [u_ref] in Hr.
  destruct (u_ref x) as [r0|]; [|easy]. inversion Hr; subst. rewrite repair_ref'_tokens. apply H. reflexivity.
Qed.

Lemma strict_accepts_iff c d :
  plain_yield c -> syms_nonneg c -> tokens_nonneg d ->
  (validate c FNone d = (d, None) <-> WellFormed d).
Proof.
  intros Hp Hs Ht. split.
  - intro H. apply (validate_result c FNone) in H; [|assumption|left; reflexivity]. apply H.
  - intro Hw. apply (validate_accepts c FNone d Hp); try assumption. left; reflexivity.
Qed.

Lemma fix_then_strict c fa d d' :
  plain_yield c -> clean_writes c (tolerance fa) -> syms_nonneg c -> tokens_nonneg d ->
  validate c fa d = (d', None) -> forall fa', clean_writes c (tolerance fa') -> validate c fa' d' = (d', None).
Proof.
  intros Hp Hc Hs Ht H fa' Hc'. destruct (validate_result _ _ _ _ Hp Hc H) as [-> Hw].
  rewrite <- (repair_wf_id (tolerance fa') _ Hw) at 2.
  apply validate_accepts; try assumption.
  - apply repair_tokens. assumption.
  - rewrite (repair_wf_id _ _ Hw). assumption.
Qed.

Lemma strict_never_writes c d : fst (validate c FNone d) = d.
Proof.
  unfold validate. cbn [norm_fix].
  pose proof (run_unchanged false true c None eq_refl d st0 acc0) as H.
  destruct (run_pass false true c None st0 acc0 d). cbn in *. assumption.
Qed.
