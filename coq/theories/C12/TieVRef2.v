(* C12 — tie (part 3d) of the blocks of `_info_and_validate`: the reference block.  See TieVTac.v for the method. *)
From Coq Require Import ZArith QArith List String Bool Arith Lia ZifyBool.
From PV Require Import MiniPy.Syntax MiniPy.Interp MiniPy.Lemmas MiniTorch.OpsC12 MiniTorch.LemmasC12 MiniTorch.LemmasC12V Gen.C12ValSrc.
From PV Require Import C12.SrcRun C12.SrcRunV C12.TieLib C12.TieLibV C12.TieVTac C12.TieVRef.
From PV Require C12.Model.
Import ListNotations.
Local Open Scope string_scope.

Lemma set_nth_mid : forall {A} (l1 l2 : list A) x v, set_nth (l1 ++ x :: l2) (List.length l1) v = (l1 ++ v :: l2)%list.
Proof. induction l1 as [|y l1 IH]; intros; cbn; [reflexivity|]. now rewrite IH. Qed.

Lemma set_nth_mid_map : forall {A B} (f : A -> B) (l1 : list A) (l2 : list B) x v,
  set_nth (map f l1 ++ x :: l2) (List.length l1) v = (map f l1 ++ v :: l2)%list.
Proof. intros. rewrite <- (map_length f l1). apply set_nth_mid. Qed.

Lemma for_loop_cons : forall ext x body i l st,
  for_loop ext x body (i :: l) st
  = bind (exec ext body (set_var x i st))
         (fun c0 st' => match c0 with CNormal => for_loop ext x body l st' | CReturn _ => Ok c0 st' end).
Proof. reflexivity. Qed.

Section Ref2.
  Variables (c : Model.cfg) (d : Model.dir) (ids : list string) (fx : option Z).
  Variables (idx nf fdt feat ali prefix F Tp : val) (fnv : string) (T : nat).
  Local Notation ext := (ext12 (env_ds c d)).
  Local Notation stR := (stR ids fx idx nf fdt feat ali prefix F Tp fnv T).

  Definition r2d_val (o : option bool) : val := match o with None => VNone | Some b => VBool b end.
  Definition row_val (x : Model.row) : val := VList (map VInt (row3 x)).

  (* the statements of `if validate:` leave dir_, prefix_ and the variables of the token loop alone *)
  Section Rows.
    Variables (dir_ prefix_ t2 tok start end_ : val).
    Local Notation stL r2d msg ref wb t1 idx2 r evs := (stR r2d dir_ prefix_ msg ref wb t1 idx2 r t2 tok start end_ evs).

    Lemma set_t1 : forall v r2d msg ref wb t1 idx2 r evs,
      set_var "$t1" v (stL r2d msg ref wb t1 idx2 r evs) = stL r2d msg ref wb v idx2 r evs.
    Proof. reflexivity. Qed.

    (* -- the loop `for idx2, r in enumerate(ref):` over the remaining rows -- *)
    Lemma rows_loop : forall rest done r2d msg (wb : bool) t1 idx2 r evs,
      let st := stL r2d msg (enc12 (T2 false Model.DI64 3 (map row3 done ++ map row3 rest))) (VBool wb) t1 idx2 r evs in
      let items := enum_from (Z.of_nat (List.length done)) (map (T1 false Model.DI64) (map row3 rest)) in
      match Model.rows_part fx (Z.of_nat T) rest with
      | inl _ => exists st', for_loop ext "$t1" row_body items st = Exc "ValueError" st' /\ events st' = evs
      | inr (rest', wbr) =>
          exists msg' t1' idx2' r',
          for_loop ext "$t1" row_body items st
          = Ok CNormal (stL r2d msg' (enc12 (T2 false Model.DI64 3 (map row3 done ++ map row3 rest'))) (VBool (wb || wbr)) t1' idx2' r' evs)
      end.
    Proof.
      induction rest as [|x rest IH]; intros done r2d msg wb t1 idx2 r evs st items; subst st items.
      - cbn [Model.rows_part map enum_from]. do 4 eexists. cbn [MiniPy.Lemmas.for_loop]. rewrite orb_false_r. reflexivity.
      - cbn [Model.rows_part map enum_from]. destruct x as [[a b] cc].
        rewrite for_loop_cons, set_t1.
        assert (HF : Forall (fun x => List.length x = 3%nat) (map row3 done ++ row3 (a, b, cc) :: map row3 rest)).
        { apply Forall_app. split; [apply Forall_row3|]. constructor; [reflexivity|apply Forall_row3]. }
        assert (Hi : (List.length done < List.length (map row3 done ++ row3 (a, b, cc) :: map row3 rest))%nat).
        { rewrite app_length, map_length. cbn. lia. }
        pose proof (row_body_run c d ids fx idx nf fdt feat ali prefix F Tp fnv T r2d dir_ prefix_ t2 tok start end_ evs msg _ wb (List.length done) idx2 r a b cc HF Hi) as RB.
        cbv zeta in RB. change [a; b; cc] with (row3 (a, b, cc)) in RB.
        destruct (Model.row_part fx (Z.of_nat T) (a, b, cc)) as [e|[r' w1]].
        + destruct RB as [st' [E1 E2]]. exists st'. split; [|exact E2]. rewrite E1. reflexivity.
        + destruct RB as [msg' E1]. rewrite E1. cbn [bind].
          rewrite !set_nth_mid_map.
          specialize (IH (done ++ [r'])%list r2d msg' (wb || w1)%bool).
          cbv zeta in IH. rewrite map_app, <- app_assoc in IH. cbn [map app] in IH.
          replace (Z.of_nat (List.length (done ++ [r']))) with (Z.of_nat (List.length done) + 1)%Z in IH by (rewrite app_length; cbn; lia).
          destruct (Model.rows_part fx (Z.of_nat T) rest) as [e|[rest' w2]].
          * apply IH.
          * edestruct IH as (msg'' & t1' & idx2' & r'' & IH'). exists msg'', t1', idx2', r''. rewrite IH'.
            cbn [map]. rewrite <- app_assoc, orb_assoc. reflexivity.
    Qed.

    Lemma eval_enumerate_ref : forall cu dt w rows r2d msg wb t1 idx2 r evs,
      Forall (fun x => List.length x = w) rows ->
      eval ext (ECall "enumerate" [EName "ref"] []) (stL r2d msg (enc12 (T2 cu dt w rows)) wb t1 idx2 r evs)
      = Ok (VList (enum_from 0 (map (T1 cu dt) rows))) (stL r2d msg (enc12 (T2 cu dt w rows)) wb t1 idx2 r evs).
    Proof.
      intros. unfold TieVRef.stR, mkvars. cbn. rewrite dec12_enc12. cbn. rewrite rows_of_T2 by assumption. reflexivity.
    Qed.

    (* -- `if ref.ndim == 2: ... elif ref.ndim == 1: ... else: raise` -- *)
    (* a 2-D reference: up to the loop over its rows *)
    Lemma dispatch_2d_run : forall cu dt w rows s2d msg wb t1 idx2 r evs,
      let st := fun r2d => stL r2d msg (enc12 (T2 cu dt w rows)) wb t1 idx2 r evs in
      exec ext ref_dispatch (st (r2d_val s2d))
      = match s2d with
        | Some false => Exc "ValueError" (st (VBool false))
        | _ => if (w =? 3)%nat then exec ext ref_for (st (VBool true)) else Exc "ValueError" (st (VBool true))
        end.
    Proof.
      intros. subst st. cbv beta. unfold ref_dispatch, TieVRef.stR. vrun.
      destruct s2d as [[|]|]; cbn [r2d_val]; vrun; try reflexivity;
        change 3%Z with (Z.of_nat 3); rewrite of_nat_eqb; destruct (w =? 3)%nat; vrun; reflexivity.
    Qed.

    Lemma dispatch_2d3 : forall rows s2d msg (wb : bool) t1 idx2 r evs,
      let st := stL (r2d_val s2d) msg (enc12 (T2 false Model.DI64 3 (map row3 rows))) (VBool wb) t1 idx2 r evs in
      match (match s2d with Some false => inl Model.ValueErr | _ => Model.rows_part fx (Z.of_nat T) rows end) with
      | inl _ => exists st', exec ext ref_dispatch st = Exc "ValueError" st' /\ events st' = evs
      | inr (rows', wbr) =>
          exists msg' t1' idx2' r',
          exec ext ref_dispatch st
          = Ok CNormal (stL (VBool true) msg' (enc12 (T2 false Model.DI64 3 (map row3 rows'))) (VBool (wb || wbr)) t1' idx2' r' evs)
      end.
    Proof.
      intros rows s2d msg wb t1 idx2 r evs st. subst st.
      rewrite dispatch_2d_run. cbv zeta beta. cbn [Nat.eqb].
      destruct s2d as [[|]|]; [|eexists; split; reflexivity|];
        unfold ref_for; rewrite exec_for; fold row_body; rewrite eval_enumerate_ref by apply Forall_row3;
        cbn [bind iter_items container_items]; exact (rows_loop rows [] (VBool true) msg wb t1 idx2 r evs).
    Qed.

    Lemma dispatch_1d : forall cu dt l s2d msg wb t1 idx2 r evs,
      let st := stL (r2d_val s2d) msg (enc12 (T1 cu dt l)) wb t1 idx2 r evs in
      match s2d with
      | Some true => exists st', exec ext ref_dispatch st = Exc "ValueError" st' /\ events st' = evs
      | _ => exec ext ref_dispatch st = Ok CNormal (stL (VBool false) msg (enc12 (T1 cu dt l)) wb t1 idx2 r evs)
      end.
    Proof.
      intros cu dt l s2d msg wb t1 idx2 r evs st. subst st.
      destruct s2d as [[|]|]; cbn [r2d_val];
      [eexists; split; [unfold ref_dispatch, TieVRef.stR; vrun; reflexivity|reflexivity]| |];
      unfold ref_dispatch, TieVRef.stR; vrun; reflexivity.
    Qed.

    Lemma dispatch_other : forall t r2d msg wb t1 idx2 r evs,
      ndim t <> 1%nat -> ndim t <> 2%nat ->
      exists st', exec ext ref_dispatch (stL r2d msg (enc12 t) wb t1 idx2 r evs) = Exc "ValueError" st' /\ events st' = evs.
    Proof.
      intros t r2d msg wb t1 idx2 r evs H1 H2.
      assert (E1 : (Z.of_nat (ndim t) =? 1)%Z = false) by lia. assert (E2 : (Z.of_nat (ndim t) =? 2)%Z = false) by lia.
      eexists. split; [unfold ref_dispatch, TieVRef.stR; vrun; reflexivity|reflexivity].
    Qed.

    (* -- `if ref.ndim == 1: ref = ref.unsqueeze(1); ref = torch.cat([ref, torch.full((ref.size(0), 2), -1, dtype=torch.long)], 1)` -- *)
    Lemma expand_1d : forall l r2d msg wb t1 idx2 r evs,
      exec ext ref_expand (stL r2d msg (enc12 (T1 false Model.DI64 l)) wb t1 idx2 r evs)
      = Ok CNormal (stL r2d msg (enc12 (T2 false Model.DI64 3 (map (fun x => [x; (-1)%Z; (-1)%Z]) l))) wb t1 idx2 r evs).
    Proof.
      intros. unfold ref_expand, TieVRef.stR. vrun.
      rewrite unsqueeze_T1_1. vrun. rewrite map_length. vrun. change (full_long ?s ?v) with (Some (mkT false Model.DI64 s (repeat v (numel_of s)))). vrun.
      rewrite cat1_minus_ones. vrun. reflexivity.
    Qed.

    Lemma expand_2d : forall cu dt w rows r2d msg wb t1 idx2 r evs,
      exec ext ref_expand (stL r2d msg (enc12 (T2 cu dt w rows)) wb t1 idx2 r evs)
      = Ok CNormal (stL r2d msg (enc12 (T2 cu dt w rows)) wb t1 idx2 r evs).
    Proof. intros. unfold ref_expand, TieVRef.stR. vrun. reflexivity. Qed.
  End Rows.

  (* -- `if write_back: torch.save(ref, os.path.join(dir_, fn))` -- *)
  Lemma ref_save_run : forall r2d dir_ prefix_ msg t (wb : bool) t1 idx2 r t2 tok start end_ evs,
    exec ext ref_save (stR r2d (VStr dir_) prefix_ msg (enc12 t) (VBool wb) t1 idx2 r t2 tok start end_ evs)
    = Ok CNormal (stR r2d (VStr dir_) prefix_ msg (enc12 t) (VBool wb) t1 idx2 r t2 tok start end_
                      (if wb then evs ++ [save_ev fnv t dir_] else evs)).
  Proof.
    intros. unfold ref_save, TieVRef.stR, save_ev. destruct wb; vrun; reflexivity.
  Qed.

  (* -- `for tok, start, end in ref.tolist(): if tok < 0: raise ...` (info = False): everything but its own variables stays -- *)
  Section Toks.
    Variables (r2d dir_ prefix_ msg wb t1 idx2 r : val).
    Local Notation stK ref t2 tok start end_ evs := (stR r2d dir_ prefix_ msg ref wb t1 idx2 r t2 tok start end_ evs).

    Lemma set_t2 : forall v ref t2 tok start end_ evs,
      set_var "$t2" v (stK ref t2 tok start end_ evs) = stK ref v tok start end_ evs.
    Proof. reflexivity. Qed.

    Lemma tok_body_run : forall a b cc ref tok start end_ evs,
      exec ext tok_body (stK ref (VList [VInt a; VInt b; VInt cc]) tok start end_ evs)
      = if (a <? 0)%Z
        then Exc "ValueError" (stK ref (VList [VInt a; VInt b; VInt cc]) (VInt a) (VInt b) (VInt cc) evs)
        else Ok CNormal (stK ref (VList [VInt a; VInt b; VInt cc]) (VInt a) (VInt b) (VInt cc) evs).
    Proof.
      intros. unfold tok_body, TieVRef.stR. destruct (a <? 0)%Z eqn:E; vrun; reflexivity.
    Qed.

    Lemma tok_loop : forall rows acc ref t2 tok start end_ evs,
      match Model.ref_info_rows false acc rows with
      | inl _ => exists st', for_loop ext "$t2" tok_body (map row_val rows) (stK ref t2 tok start end_ evs) = Exc "ValueError" st'
                             /\ events st' = evs
      | inr _ => exists t2' tok' start' end', for_loop ext "$t2" tok_body (map row_val rows) (stK ref t2 tok start end_ evs)
                             = Ok CNormal (stK ref t2' tok' start' end' evs)
      end.
    Proof.
      induction rows as [|[[a b] cc] rows IH]; intros.
      - cbn [Model.ref_info_rows map]. do 4 eexists. reflexivity.
      - cbn [Model.ref_info_rows map].
        rewrite for_loop_cons, set_t2. change (row_val (a, b, cc)) with (VList [VInt a; VInt b; VInt cc]). rewrite tok_body_run.
        destruct (a <? 0)%Z.
        + eexists. split; reflexivity.
        + cbn [bind]. apply IH.
    Qed.

    Lemma eval_tolist_ref : forall rows t2 tok start end_ evs,
      eval ext (EMeth (EName "ref") "tolist" [] []) (stK (enc12 (T2 false Model.DI64 3 (map row3 rows))) t2 tok start end_ evs)
      = Ok (VList (map row_val rows)) (stK (enc12 (T2 false Model.DI64 3 (map row3 rows))) t2 tok start end_ evs).
    Proof.
      intros. unfold TieVRef.stR, mkvars. cbn. rewrite method_enc12. cbn. rewrite dec12_enc12. cbn.
      rewrite tolist2_T2 by apply Forall_row3. rewrite map_map. reflexivity.
    Qed.
  End Toks.

  (* ---- the whole block ---- *)
  Definition ref_shape_ok2 (r : Model.ref) : Prop :=
    match Model.r_data r with
    | Model.R2w w rows => Forall (fun x => List.length x = w) rows /\ w <> 3%nat
    | Model.RN nd => nd <> 1%nat /\ nd <> 2%nat
    | _ => True
    end.

  (* `dir_ = ...`, `prefix_ = ...`, `if info: ...` (info = False), then `if validate:` *)
  Definition ref_dir : stmt := Eval cbv in seq_nth 0 iv_ref.
  Definition ref_pre : stmt := Eval cbv in seq_nth 1 iv_ref.
  Definition ref_info0 : stmt := Eval cbv in seq_nth 2 iv_ref.
  Lemma iv_ref_split :
    iv_ref = SSeq ref_dir (SSeq ref_pre (SSeq ref_info0 (SSeq (SIf (EName "validate") ref_vbody SPass) (seq_drop 4 iv_ref)))).
  Proof. reflexivity. Qed.

  Lemma ref_prefix : forall t r2d dir_ prefix_ msg t1 idx2 r t2 tok start end_ evs,
    exec ext iv_ref (stR r2d dir_ prefix_ msg (enc12 t) (VBool false) t1 idx2 r t2 tok start end_ evs)
    = bind (exec ext ref_vbody (stR r2d (VStr "d/ref") (VStr "") msg (enc12 t) (VBool false) t1 idx2 r t2 tok start end_ evs))
           (then_ ext (seq_drop 4 iv_ref)).
  Proof. intros. rewrite iv_ref_split. unfold ref_dir, ref_pre, ref_info0, TieVRef.stR. vrun. subst. reflexivity. Qed.

  Lemma ref_vbody_split : ref_vbody = SSeq ref_cuda (SSeq ref_long (SSeq ref_dispatch ref_save)).
  Proof. reflexivity. Qed.
  Lemma ref_rest_split : seq_drop 4 iv_ref = SSeq ref_expand ref_tokloop.
  Proof. reflexivity. Qed.

  (* the write-back, `ref` made (R, 3) and the token loop, for a reference [t] that [ref_expand] turns into the rows [rows] *)
  Lemma ref_tail_run : forall t rows acc r2d msg (wb : bool) t1 idx2 r t2 tok start end_ evs,
    (forall evs', exec ext ref_expand (stR r2d (VStr "d/ref") (VStr "") msg (enc12 t) (VBool wb) t1 idx2 r t2 tok start end_ evs')
                  = Ok CNormal (stR r2d (VStr "d/ref") (VStr "") msg (enc12 (T2 false Model.DI64 3 (map row3 rows))) (VBool wb)
                                    t1 idx2 r t2 tok start end_ evs')) ->
    let o := bind (exec ext ref_save (stR r2d (VStr "d/ref") (VStr "") msg (enc12 t) (VBool wb) t1 idx2 r t2 tok start end_ evs))
                  (then_ ext (seq_drop 4 iv_ref)) in
    let evs' := if wb then (evs ++ [save_ev fnv t "d/ref"])%list else evs in
    match Model.ref_info_rows false acc rows with
    | inl _ => exists st', o = Exc "ValueError" st' /\ events st' = evs'
    | inr _ => exists msg' ref' t1' idx2' r'' t2' tok' start' end',
        o = Ok CNormal (stR r2d (VStr "d/ref") (VStr "") msg' ref' (VBool wb) t1' idx2' r'' t2' tok' start' end' evs')
    end.
  Proof.
    intros t rows acc r2d msg wb t1 idx2 r t2 tok start end_ evs HE o evs'. subst o.
    rewrite ref_save_run. fold evs'. cbn [bind then_]. rewrite ref_rest_split, exec_seq', HE. cbn [bind then_].
    unfold ref_tokloop. rewrite exec_for. fold tok_body. rewrite eval_tolist_ref. cbn [bind iter_items container_items].
    pose proof (tok_loop r2d (VStr "d/ref") (VStr "") msg (VBool wb) t1 idx2 r rows acc
                  (enc12 (T2 false Model.DI64 3 (map row3 rows))) t2 tok start end_ evs') as TL.
    destruct (Model.ref_info_rows false acc rows); [exact TL|].
    destruct TL as (a1 & a2 & a3 & a4 & TL). do 5 eexists. exists a1, a2, a3, a4. exact TL.
  Qed.

  Lemma t_cuda_rdata : forall cu dt x, t_cuda (tens_of_rdata cu dt x) = cu.
  Proof. intros cu dt x. destruct x; reflexivity. Qed.
  Lemma long_cpu_rdata : forall cu dt x, long (cpu (tens_of_rdata cu dt x)) = tens_of_rdata false Model.DI64 x.
  Proof. intros cu dt x. destruct x; reflexivity. Qed.

  Lemma is_long_cpu_rdata : forall cu dt x, is_long (cpu (tens_of_rdata cu dt x)) = Model.dtype_beq dt Model.DI64.
  Proof. intros cu dt x. destruct x; reflexivity. Qed.
  Lemma is_small_cpu_rdata : forall cu dt x, is_small (cpu (tens_of_rdata cu dt x)) = Model.upcastable dt.
  Proof. intros cu dt x. destruct x; reflexivity. Qed.

  (* a dispatch lemma that says "raises ValueError, events unchanged" finishes the goal *)
  Ltac exc_by D :=
    let st' := fresh "st'" in let D1 := fresh in let D2 := fresh in
    destruct D as [st' [D1 D2]]; rewrite D1; exists st'; split; [reflexivity|exact D2].

  Lemma ref_block : forall lr vst acc dir_ prefix_ msg t1 idx2 r t2 tok start end_ evs,
    ref_shape_ok2 lr ->
    let st := stR (r2d_val (Model.s_2d vst)) dir_ prefix_ msg (enc12 (tens_of_ref lr)) (VBool false) t1 idx2 r t2 tok start end_ evs in
    match Model.ref_part fx T vst lr with
    | inl _ => exists st', exec ext iv_ref st = Exc "ValueError" st' /\ events st' = evs
    | inr (r', wb, vst') =>
        let evs' := if wb then (evs ++ [save_ev fnv (tens_of_ref r') "d/ref"])%list else evs in
        match Model.ref_rows (Model.r_data r') with
        | Some rows =>
            match Model.ref_info_rows false acc rows with
            | inl _ => exists st', exec ext iv_ref st = Exc "ValueError" st' /\ events st' = evs'
            | inr _ => exists msg' ref' t1' idx2' r'' t2' tok' start' end',
                exec ext iv_ref st
                = Ok CNormal (stR (r2d_val (Model.s_2d vst')) (VStr "d/ref") (VStr "") msg' ref' (VBool wb) t1' idx2' r'' t2' tok' start' end' evs')
            end
        | None => True
        end
    end.
  Proof.
    intros [cu dt data] vst acc dir_ prefix_ msg t1 idx2 r t2 tok start end_ evs Hok st. subst st.
    unfold ref_shape_ok2 in Hok. cbn [Model.r_data] in Hok.
    unfold Model.ref_part, tens_of_ref. cbn [Model.r_cuda Model.r_dtype Model.r_data].
    rewrite !ref_prefix, ref_vbody_split, exec_seq'.
    (* the cuda check and the LongTensor check, whatever the shape *)
    usex ref_cuda_run. rewrite t_cuda_rdata. destruct (cu && negb (Model.is_some fx))%bool; [done_exc|]. cbn [bind then_]. rewrite exec_seq'.
    usex ref_long_run. rewrite is_long_cpu_rdata, is_small_cpu_rdata, long_cpu_rdata. cbn [orb].
    destruct (negb (Model.dtype_beq dt Model.DI64) && negb (Model.is_some fx && Model.upcastable dt))%bool; [done_exc|].
    cbn [bind then_]. rewrite exec_seq'. set (wb0 := (cu || negb (Model.dtype_beq dt Model.DI64))%bool).
    (* the dispatch on the shape *)
    destruct data as [l|rows|w rows|nd]; cbn [tens_of_rdata].
    - epose proof (dispatch_1d (VStr "d/ref") (VStr "") t2 tok start end_ false Model.DI64 l (Model.s_2d vst) _ (VBool wb0) t1 idx2 r evs) as D.
      cbv zeta in D. destruct (Model.s_2d vst) as [[|]|]; cbn [r2d_val] in *.
      1: exc_by D.
      all: rewrite D; cbn [bind then_ Model.ref_rows Model.r_data Model.r_cuda Model.r_dtype tens_of_rdata Model.s_2d r2d_val];
        apply (ref_tail_run (T1 false Model.DI64 l) (map (fun tok0 : Z => (tok0, -1, -1)%Z) l));
        intros; rewrite map_map; apply expand_1d.
    - epose proof (dispatch_2d3 (VStr "d/ref") (VStr "") t2 tok start end_ rows (Model.s_2d vst) _ wb0 t1 idx2 r evs) as D.
      cbv zeta in D. destruct (Model.s_2d vst) as [[|]|]; cbn [r2d_val] in *.
      2: exc_by D.
      all: destruct (Model.rows_part fx (Z.of_nat T) rows) as [e|[rows' wbr]]; [exc_by D|];
        destruct D as (m' & t1' & i' & r' & D); rewrite D;
        cbn [bind then_ Model.ref_rows Model.r_data Model.r_cuda Model.r_dtype tens_of_rdata Model.s_2d r2d_val];
        apply (ref_tail_run (T2 false Model.DI64 3 (map row3 rows')) rows'); intros; apply expand_2d.
    - destruct Hok as [HF Hw].
      rewrite (dispatch_2d_run (VStr "d/ref") (VStr "") t2 tok start end_). cbv zeta beta. rewrite (proj2 (Nat.eqb_neq _ _) Hw).
      destruct (Model.s_2d vst) as [[|]|]; eexists; split; reflexivity.
    - destruct Hok as [H1 H2].
      epose proof (dispatch_other (VStr "d/ref") (VStr "") t2 tok start end_ (mkT false Model.DI64 (repeat 1%nat nd) [0%Z])
                    (r2d_val (Model.s_2d vst)) _ (VBool wb0) t1 idx2 r evs) as D.
      unfold ndim in D. cbn [t_shape] in D. rewrite repeat_length in D. specialize (D H1 H2). exc_by D.
  Qed.
End Ref2.
