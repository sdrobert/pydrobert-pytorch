(* C08 tie - the per-element formulas [s_*] of TieBlocks.v (what the MiniTorch operations compute) are the
   functions of PV.C08.Model at the arithmetic [pyq a] (float32 rounding [r32 a], Python doubles exact):
     * masks (integers): EQUAL, for every arithmetic [a], no hypothesis;
     * warps (rationals): equal as rationals ([==]) for every [a] satisfying [rounding_laws] (used: [r32 a]
       respects [==] and is exact on 0 and 2 - the source multiplies / divides by the Python int 2, which
       torch converts to float32, where the model writes the literal). *)
From Coq Require Import List ZArith QArith Qround Qabs Bool Lia Lqa Morphisms Setoid.
From PV Require Import C08.Model C08.Spec C08.ProofsDraw C08.ProofsRound.
From PV Require Import MiniPy.Syntax MiniTorch.OpsC08 C08.SrcRun C08.TieBlocks C08.TieBlocks2.
From PV Require MiniTorch.Lemmas.
Import ListNotations.
Local Open Scope Q_scope.

Lemma Qle_bool_z2q x y : Qle_bool (z2q x) (z2q y) = (x <=? y)%Z.
Proof. unfold Qle_bool, z2q, inject_Z. cbn [Qnum Qden]. now rewrite !Z.mul_1_r. Qed.

(* ---- masks: equal ------------------------------------------------------------------------------------- *)
Definition om_of (eps : Q) : Q := Qred (inject_Z 1 - eps).

Lemma time_masks_src a eps c len (rt rt0 : nat -> Q) :
  time_masks (pyq a) eps c len (map rt (seq 0 (c_nt c))) (map rt0 (seq 0 (c_nt c)))
  = map (fun m => let t := s_t a (om_of eps) (s_cap a (c_pt c) (c_Mt c) (lenq a len))
                               (s_cap a (c_npt c) (Z.of_nat (c_nt c)) (lenq a len)) m (rt m) in
                  (s_t0 a (om_of eps) (lenq a len) t (rt0 m), t)) (seq 0 (c_nt c)).
Proof.
  unfold time_masks. apply map_ext_in. intros m Hm. apply in_seq in Hm.
  rewrite !(MiniTorch.Lemmas.nth_map_seq _ (c_nt c) m 0) by lia.
  unfold tm_t, tm_t0, s_t, s_t0, s_cap, cap, lenq, omeps, om_of, sc. cbn [r32 r64 pyq].
  rewrite Qle_bool_z2q. reflexivity.
Qed.

Lemma freq_masks_src a eps c F (rf rf0 : nat -> Q) :
  freq_masks (pyq a) eps c F (map rf (seq 0 (c_nf c))) (map rf0 (seq 0 (c_nf c)))
  = map (fun m => let f := s_f a (Qred (inject_Z (Z.min (c_Mf c) F) + om_of eps)) (rf m) in
                  (s_f0 a (om_of eps) F f (rf0 m), f)) (seq 0 (c_nf c)).
Proof.
  unfold freq_masks. apply map_ext_in. intros m Hm. apply in_seq in Hm.
  rewrite !(MiniTorch.Lemmas.nth_map_seq _ (c_nf c) m 0) by lia.
  reflexivity.
Qed.

(* ---- warps: equal as rationals, under the rounding laws ------------------------------------------------- *)
Lemma qmin_comp x x' y y' : x == x' -> y == y' -> qmin x y == qmin x' y'.
Proof. intros Hx Hy. unfold qmin. rewrite (Qleb_comp x x' Hx y y' Hy). destruct (Qle_bool x' y'); assumption. Qed.

Lemma qmax_comp x x' y y' : x == x' -> y == y' -> qmax x y == qmax x' y'.
Proof. intros Hx Hy. unfold qmax. rewrite (Qleb_comp x x' Hx y y' Hy). destruct (Qle_bool x' y'); assumption. Qed.

Section Warps.
  Variable a : arith.
  Hypothesis laws : rounding_laws a.

  #[local] Instance r32_proper : Proper (Qeq ==> Qeq) (r32 a).
  Proof. intros x y H. apply (r32_comp a laws). exact H. Qed.
  #[local] Instance qmin_proper : Proper (Qeq ==> Qeq ==> Qeq) qmin.
  Proof. intros x x' Hx y y' Hy. now apply qmin_comp. Qed.
  #[local] Instance qmax_proper : Proper (Qeq ==> Qeq ==> Qeq) qmax.
  Proof. intros x x' Hx y y' Hy. now apply qmax_comp. Qed.

  Lemma sc_two : sc a (inject_Z 2) == 2.
  Proof. unfold sc. change (inject_Z 2) with (z2q 2). apply (rl32_int a laws). unfold two24. cbn. lia. Qed.
  Lemma sc_zero : sc a (inject_Z 0) == 0.
  Proof. unfold sc. change (inject_Z 0) with (z2q 0). apply (rl32_int a laws). unfold two24. cbn. lia. Qed.

  Lemma sc_two_nz : Qeq_bool (sc a (inject_Z 2)) 0 = false.
  Proof.
    destruct (Qeq_bool (sc a (inject_Z 2)) 0) eqn:E; [|reflexivity].
    apply Qeq_bool_iff in E. rewrite sc_two in E. discriminate E.
  Qed.

  (* time warp *)
  Lemma s_W_model eps Wt len : s_W a eps Wt (lenq a len) == tw_W (pyq a) eps Wt len.
  Proof.
    unfold s_W, tw_W, lenq. cbn [r32 pyq]. rewrite sc_two, sc_zero. unfold sc. reflexivity.
  Qed.

  Lemma s_w0_model W W' len u : W == W' -> s_w0 a W (lenq a len) u == tw_w0 (pyq a) W' len u.
  Proof.
    intros H. unfold s_w0, tw_w0, lenq. cbn [r32 pyq]. rewrite sc_two, H.
    rewrite (Qmult_comm W' 2). reflexivity.
  Qed.

  Lemma s_w_model W W' u : W == W' -> s_w a W u == tw_w (pyq a) W' u.
  Proof.
    intros H. unfold s_w, tw_w. cbn [r32 pyq]. rewrite sc_two, H. rewrite (Qmult_comm W' 2). reflexivity.
  Qed.

  (* frequency warp: the Python number V and the numbers derived from it *)
  Lemma V_val_model eps Wf F : fw_s2 (V_val eps Wf F) == fw_V (pyq a) eps Wf F.
  Proof.
    unfold fw_V, V_val. cbn [r64 pyq]. change (Qred (Qred (z2q F / 2) - eps)) with (fw_x1 eps F).
    set (x := fw_x1 eps F). change (inject_Z 0) with 0.
    unfold qmin, qmax.
    destruct (Qcompare 0 x) eqn:E1;
      [apply Qeq_alt in E1|apply Qlt_alt in E1|apply Qgt_alt in E1];
      (destruct (Qcompare Wf _) eqn:E2;
        [apply Qeq_alt in E2|apply Qlt_alt in E2|apply Qgt_alt in E2]);
      cbn [fw_s2]; change (inject_Z 0) with 0;
      repeat match goal with
             | |- context [Qle_bool ?p ?q] =>
                 lazymatch p with context [Qle_bool _ _] => fail | _ => idtac end;
                 let E := fresh "B" in
                 destruct (Qle_bool p q) eqn:E;
                 [apply Qle_bool_iff in E | apply Qle_bool_false in E]
             end; lra.
  Qed.

  Lemma inject_Z_sub x y : inject_Z (x - y) == inject_Z x - inject_Z y.
  Proof. apply z2q_minus. Qed.

  Lemma fw_s3_eq Vv : (exists z, Vv = VInt z) \/ (exists q, Vv = VQ q) -> fw_s3 Vv == 2 * fw_s2 Vv.
  Proof.
    intros [[z ->]|[q ->]]; cbn [fw_s3 fw_s2].
    - rewrite inject_Z_mult. reflexivity.
    - rewrite Qred_correct. reflexivity.
  Qed.

  Lemma fw_s1_eq F Vv : (exists z, Vv = VInt z) \/ (exists q, Vv = VQ q) -> fw_s1 F Vv == z2q F - 2 * fw_s2 Vv.
  Proof.
    intros [[z ->]|[q ->]]; cbn [fw_s1 fw_s2].
    - rewrite inject_Z_sub, inject_Z_mult. reflexivity.
    - rewrite !Qred_correct. reflexivity.
  Qed.

  Lemma s_v0_model eps Wf F u :
    let Vv := V_val eps Wf F in
    s_v0 a (fw_s1 F Vv) (fw_s2 Vv) u == fw_v0 (pyq a) (fw_V (pyq a) eps Wf F) F u.
  Proof.
    intros Vv. unfold s_v0, fw_v0, sc. cbn [r32 r64 pyq].
    rewrite (fw_s1_eq F Vv (V_val_shape eps Wf F)). unfold Vv. rewrite (V_val_model eps Wf F).
    rewrite !Qred_correct. reflexivity.
  Qed.

  Lemma s_v_model eps Wf F u :
    let Vv := V_val eps Wf F in
    s_v a (fw_s3 Vv) (fw_s2 Vv) u == fw_v (pyq a) (fw_V (pyq a) eps Wf F) u.
  Proof.
    intros Vv. unfold s_v, fw_v, sc. cbn [r32 r64 pyq].
    rewrite (fw_s3_eq Vv (V_val_shape eps Wf F)). unfold Vv. rewrite (V_val_model eps Wf F).
    rewrite !Qred_correct. reflexivity.
  Qed.
End Warps.

(* ---- transporting the model theorems to the arithmetic [pyq a] --------------------------------------------- *)
Lemma pyq_laws a : rounding_laws a -> rounding_laws (pyq a).
Proof.
  intros L. constructor; cbn [r32 r64 pyq].
  - exact (rl32_mono a L).
  - exact (rl32_int a L).
  - exact (rl32_strict a L).
  - intros x y H. rewrite !Qred_correct. exact H.
  - intros z _. apply Qred_correct.
Qed.

(* over Q ([exact]): Python doubles in lowest terms do not change any mask *)
Lemma time_masks_pyq_exact eps c len us us0 :
  time_masks (pyq exact) eps c len us us0 = time_masks exact eps c len us us0.
Proof.
  unfold time_masks. apply map_ext. intros m.
  assert (E : forall mx nm u, tm_t (pyq exact) eps mx nm m u = tm_t exact eps mx nm m u).
  { intros mx nm u. unfold tm_t, omeps. cbn [r32 r64 pyq exact]. destruct (nm <=? Z.of_nat m)%Z; [reflexivity|].
    apply qtrunc_comp. rewrite Qred_correct. reflexivity. }
  change (cap (pyq exact)) with (cap exact). rewrite E. f_equal.
  unfold tm_t0, omeps, lenq. cbn [r32 r64 pyq exact]. apply qtrunc_comp. rewrite Qred_correct. reflexivity.
Qed.

Lemma freq_masks_pyq_exact eps c F us us0 :
  freq_masks (pyq exact) eps c F us us0 = freq_masks exact eps c F us us0.
Proof.
  unfold freq_masks. apply map_ext. intros m.
  assert (E : forall u, fm_f (pyq exact) eps (Z.min (c_Mf c) F) u = fm_f exact eps (Z.min (c_Mf c) F) u).
  { intros u. unfold fm_f. cbn [r32 r64 pyq exact]. apply qtrunc_comp. rewrite !Qred_correct. reflexivity. }
  rewrite E. f_equal.
  unfold fm_f0, omeps. cbn [r32 r64 pyq exact]. apply qtrunc_comp. rewrite Qred_correct. reflexivity.
Qed.
