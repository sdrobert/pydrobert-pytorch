(* C08 tie - corollaries: the model theorems on mask widths / counts / positions restated about the
   INTERPRETED SOURCE ([run_draw] = Interp.run of the regenerated body), by composing Tie.draw_tie with the
   theorems of ProofsDraw (over Q) and ProofsRound (float32, any arithmetic satisfying the laws). *)
From Coq Require Import ZArith QArith Qround List Bool Arith Lia.
From PV Require Import C08.Model C08.Spec C08.ProofsDraw C08.ProofsRound C08.ProofsIeee C08.Proofs.
From PV Require Import MiniPy.Syntax MiniPy.Interp C08.SrcRun C08.TieBlocks2 C08.TieModel C08.Tie.
Import ListNotations.
Local Open Scope Q_scope.

Definition no_params : params := mkParams None None None None.

Lemma len_of_range N T lens n : lens_ok N T lens -> (n < N)%nat -> (0 <= len_of T lens n <= Z.of_nat T)%Z.
Proof.
  intros H Hn. unfold len_of. destruct lens as [l|]; [|lia].
  destruct H as [HL HR]. subst N. unfold lens_in_range in HR. rewrite forallb_forall in HR.
  specialize (HR (nth n l 0%Z) (nth_In l 0%Z Hn)). lia.
Qed.

Lemma Forall_map_seq {X} (P : X -> Prop) (f : nat -> X) n : (forall i, P (f i)) -> Forall P (map f (seq 0 n)).
Proof. intros H. apply Forall_forall. intros x Hx. apply in_map_iff in Hx. destruct Hx as [i [<- _]]. apply H. Qed.

(* the variates of batch element n inherit what holds of every value of the oracle *)
Lemma uv_of_masks (P : Q -> Prop) rnd c n : (forall k i, P (rnd k i)) ->
  Forall P (u_t (uv_of rnd c n)) /\ Forall P (u_t0 (uv_of rnd c n))
  /\ Forall P (u_f (uv_of rnd c n)) /\ Forall P (u_f0 (uv_of rnd c n)).
Proof. intros H. cbn [u_t u_t0 u_f u_f0 uv_of]. repeat split; apply Forall_map_seq; intros i; apply H. Qed.

Lemma draw_masks_ok rnd eps c N T F lens n :
  0 < eps -> eps <= 1 -> (0 <= c_Mt c)%Z -> (0 <= c_Mf c)%Z -> 0 <= c_pt c /\ c_pt c <= 1 -> 0 <= c_npt c ->
  (forall k i, unit_u (rnd k i)) -> lens_ok N T lens -> (n < N)%nat ->
  let p := draw (pyq exact) eps c (Z.of_nat F) (len_of T lens n) (uv_of rnd c n) in
  opt_ok (tmasks_ok 0 c (len_of T lens n)) (p_tm p) /\ opt_ok (fmasks_ok c (Z.of_nat F)) (p_fm p).
Proof.
  intros E0 E1 HMt HMf Hpt Hnpt Hu Hl Hn. destruct (uv_of_masks unit_u rnd c n Hu) as [U1 [U2 [U3 U4]]].
  unfold draw. cbn [p_tm p_fm]. fold (tmask_enabled c). fold (fmask_enabled c). split.
  - destruct (tmask_enabled c); [|exact I]. cbn [opt_ok]. rewrite time_masks_pyq_exact.
    apply time_masks_ok; try assumption. apply (len_of_range N T lens n Hl Hn).
  - destruct (fmask_enabled c); [|exact I]. cbn [opt_ok]. rewrite freq_masks_pyq_exact.
    apply freq_masks_ok; try assumption; lia.
Qed.

Theorem source_masks_within_limits : forall rnd eps c N T F lens,
  0 < eps -> eps <= 1 -> (0 <= c_Mt c)%Z -> (0 <= c_Mf c)%Z -> 0 <= c_pt c /\ c_pt c <= 1 -> 0 <= c_npt c ->
  (forall k i, unit_u (rnd k i)) -> lens_ok N T lens ->
  exists v st ps,
    run_draw exact rnd eps c N T F lens = Ok v st /\ read_out N v = Some ps /\ length ps = N
    /\ forall n, (n < N)%nat ->
         opt_ok (tmasks_ok 0 c (len_of T lens n)) (p_tm (nth n ps no_params))
         /\ opt_ok (fmasks_ok c (Z.of_nat F)) (p_fm (nth n ps no_params)).
Proof.
  intros rnd eps c N T F lens E0 E1 HMt HMf Hpt Hnpt Hu Hl.
  destruct (draw_tie exact rnd eps c N T F lens exact_laws Hl) as [v [st [ps [H1 [H2 [H3 H4]]]]]].
  exists v, st, ps. repeat split; try assumption; destruct (H4 n H) as [_ [_ [Et Ef]]]; unfold no_params.
  - rewrite Et. now apply (draw_masks_ok rnd eps c N T F lens n).
  - rewrite Ef. now apply (draw_masks_ok rnd eps c N T F lens n).
Qed.

(* the interpreted source at the exact arithmetic draws the masks of [draw exact] *)
Theorem source_masks_exact : forall rnd eps c N T F lens, lens_ok N T lens ->
  exists v st ps,
    run_draw exact rnd eps c N T F lens = Ok v st /\ read_out N v = Some ps /\ length ps = N
    /\ forall n, (n < N)%nat ->
         let m := draw exact eps c (Z.of_nat F) (len_of T lens n) (uv_of rnd c n) in
         p_tm (nth n ps no_params) = p_tm m /\ p_fm (nth n ps no_params) = p_fm m.
Proof.
  intros rnd eps c N T F lens Hl.
  destruct (draw_tie exact rnd eps c N T F lens exact_laws Hl) as [v [st [ps [H1 [H2 [H3 H4]]]]]].
  exists v, st, ps. repeat split; try assumption.
  - destruct (H4 n H) as [_ [_ [Et _]]]. unfold no_params. rewrite Et.
    unfold draw. cbn [p_tm]. destruct (_ && _)%bool; [|reflexivity]. now rewrite time_masks_pyq_exact.
  - destruct (H4 n H) as [_ [_ [_ Ef]]]. unfold no_params. rewrite Ef.
    unfold draw. cbn [p_fm]. destruct (_ && _)%bool; [|reflexivity]. now rewrite freq_masks_pyq_exact.
Qed.

(* float32: the same bounds for the interpreted source run with the IEEE rounding the harness compares bit
   for bit with torch - every dtype's eps, every float32 variate u <= 1 - 2^-24, T, F < 2^24 *)
Theorem source_masks_float32 : forall d rnd c N T F lens,
  (Z.of_nat T < two24)%Z -> (Z.of_nat F < two24)%Z -> (0 <= c_Mt c)%Z -> (0 <= c_Mf c)%Z -> 0 <= c_pt c /\ c_pt c <= 1 ->
  (forall k i, grid_u (rnd k i)) -> lens_ok N T lens ->
  exists v st ps,
    run_draw ieee rnd (eps_of d) c N T F lens = Ok v st /\ read_out N v = Some ps /\ length ps = N
    /\ forall n, (n < N)%nat ->
         let len := len_of T lens n in
         opt_ok (Forall (fun b : Z * Z =>
                   (0 <= snd b <= c_Mt c)%Z /\ z2q (snd b) <= r32 ieee (lenq ieee len * r32 ieee (c_pt c))
                   /\ (0 <= fst b)%Z /\ (fst b + snd b <= len)%Z)) (p_tm (nth n ps no_params))
         /\ opt_ok (fmasks_ok c (Z.of_nat F)) (p_fm (nth n ps no_params)).
Proof.
  intros d rnd c N T F lens HT HF HMt HMf Hpt Hu Hl.
  destruct (draw_tie ieee rnd (eps_of d) c N T F lens ieee_laws Hl) as [v [st [ps [H1 [H2 [H3 H4]]]]]].
  exists v, st, ps. repeat split; try assumption;
    destruct (H4 n H) as [_ [_ [Et Ef]]]; destruct (uv_of_masks grid_u rnd c n Hu) as [U1 [U2 [U3 U4]]]; unfold no_params.
  - rewrite Et. unfold draw. cbn [p_tm]. destruct (_ && _)%bool; [|exact I]. cbn [opt_ok].
    pose proof (len_of_range N T lens n Hl H) as R.
    apply (time_masks_each_r (pyq ieee) (pyq_laws ieee ieee_laws) (eps_of d) (eps_of_range d)); try assumption. lia.
  - rewrite Ef. unfold draw. cbn [p_fm]. destruct (_ && _)%bool; [|exact I]. cbn [opt_ok].
    apply (freq_masks_ok_r (pyq ieee) (pyq_laws ieee ieee_laws) (eps_of d) (eps_of_range d)); try assumption. lia.
Qed.

