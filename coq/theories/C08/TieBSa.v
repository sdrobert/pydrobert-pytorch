(* C08, second tie - the wrapper `spec_augment` (unit C08BSrc, sa_body) in a configuration WITHOUT warp
   (max_time_warp = max_freq_warp = 0), training mode: draw (the translated `spec_augment_draw_parameters` of the first
   tie, a nested run under ext08) then apply (the translated `spec_augment_apply_parameters`, a nested run under extA).
   Composition of Tie.body_run (first tie) with TieBApply.apply_nowarp_run: the returned tensor is, batch element by
   batch element, Model.apply_masks on the masks Model.draw draws from the variates the oracle served. *)
From Coq Require Import ZArith QArith Qround List String Bool Arith Lia.
From PV Require Import MiniPy.Syntax MiniPy.Interp MiniTorch.Ops MiniTorch.OpsC08 MiniTorch.LemmasC08.
From PV Require Import MiniTorch.OpsC08B MiniTorch.LemmasC08B.
From PV Require Import Gen.C08Src Gen.C08BSrc C08.SrcRun C08.TieLib C08.SrcRunB C08.TieBLib C08.TieBMask C08.TieBApply.
From PV Require C08.Model C08.Tie C08.TieBlocks C08.TieBlocks2 C08.TieModel C08.ProofsRound MiniTorch.Lemmas.
Import ListNotations.
Local Open Scope string_scope.
Local Open Scope list_scope.


Lemma run_exec ext body vars0 v st : Interp.run ext body vars0 = Ok v st ->
  exec ext body (mkState vars0 []) = Ok (CReturn v) st \/ (exec ext body (mkState vars0 []) = Ok CNormal st /\ v = VNone).
Proof.
  unfold Interp.run. destruct (exec ext body (mkState vars0 [])) as [[|w] s|n s|w]; intros H; inversion H; subst; auto.
Qed.

(* a mask group as the draw returns it: two (N, M) long tensors when enabled, two empty float tensors otherwise *)
Definition tm_of (en : bool) (N M : nat) (g0 g : nat -> nat -> Z) : mspec :=
  if en then (if Nat.eqb (numel [N; M]) 0 then MOff (PL (T2 N M g0)) (PL (T2 N M g)) else MOn M g0 g)
  else MOff (PF empty0) (PF empty0).

Lemma enc_tm_p0 en N M g0 g : enc_par (mspec_p0 N (tm_of en N M g0 g)) = if en then enc_l (T2 N M g0) else enc_f empty0.
Proof. unfold tm_of. destruct en; [|reflexivity]. destruct (Nat.eqb (numel [N; M]) 0); reflexivity. Qed.
Lemma enc_tm_p en N M g0 g : enc_par (mspec_p N (tm_of en N M g0 g)) = if en then enc_l (T2 N M g) else enc_f empty0.
Proof. unfold tm_of. destruct en; [|reflexivity]. destruct (Nat.eqb (numel [N; M]) 0); reflexivity. Qed.

Lemma tm_of_ok en N M g0 g : mspec_ok N (tm_of en N M g0 g).
Proof.
  unfold tm_of. destruct en; [|reflexivity]. destruct (Nat.eqb (numel [N; M]) 0) eqn:E; cbn [mspec_ok par_on shp T2]; [|exact E].
  now rewrite E.
Qed.

Lemma tm_of_bands en N M g0 g n : (n < N)%nat -> (en = true -> M <> 0%nat) ->
  mspec_bands (tm_of en N M g0 g) n = if en then Some (map (fun m => (g0 n m, g n m)) (seq 0 M)) else None.
Proof.
  intros Hn HM. unfold tm_of. destruct en; [|reflexivity]. specialize (HM eq_refl).
  destruct (Nat.eqb (numel [N; M]) 0) eqn:E; [|reflexivity].
  apply Nat.eqb_eq in E. unfold numel in E. cbn [fold_right] in E. exfalso. nia.
Qed.

Lemma ext_nested_draw a spl gso nested args st :
  ext_core a spl gso nested "spec_augment_draw_parameters" args [] st
  = match nested "spec_augment_draw_parameters" args st with Some o => o | None => Stuck ("extB: " ++ "spec_augment_draw_parameters") end.
Proof. reflexivity. Qed.

Lemma ext_nested_apply a spl gso nested args st :
  ext_core a spl gso nested "spec_augment_apply_parameters" args [] st
  = match nested "spec_augment_apply_parameters" args st with Some o => o | None => Stuck ("extB: " ++ "spec_augment_apply_parameters") end.
Proof. reflexivity. Qed.

Section Sa.
  Variable a : Model.arith.
  Hypothesis laws : ProofsRound.rounding_laws a.
  Variable spl : nat -> list val -> list Q.
  Variable gso : nat -> list val -> list val.
  Variable rnd : nat -> nat -> Q.
  Variables (eps : Q) (c : Model.cfg) (N T F : nat) (cells : nat -> nat -> nat -> val) (order : Z) (lens : option (list Z)).
  Hypothesis Hl : TieBlocks2.lens_ok N T lens.
  Hypothesis HWt : Model.nonzero (Model.c_Wt c) = false.
  Hypothesis HWf : Model.nonzero (Model.c_Wf c) = false.

  Notation E := (PF empty0).

  Lemma out_val_pars : exists g0 g h0 h,
    Tie.out_val a rnd eps c N T F lens
    = enc_pars (pars_nowarp N E E E E (tm_of (tmask_enabled c) N (Model.c_nt c) g0 g) (tm_of (fmask_enabled c) N (Model.c_nf c) h0 h))
    /\ forall n, Model.p_tm (Tie.src_params a rnd eps c T F lens n)
                 = (if tmask_enabled c then Some (map (fun m => (g0 n m, g n m)) (seq 0 (Model.c_nt c))) else None)
              /\ Model.p_fm (Tie.src_params a rnd eps c T F lens n)
                 = (if fmask_enabled c then Some (map (fun m => (h0 n m, h n m)) (seq 0 (Model.c_nf c))) else None).
  Proof.
    do 4 eexists. split.
    - unfold Tie.out_val, Tie.out_w0, Tie.out_w, Tie.out_v0, Tie.out_v, Tie.out_t0, Tie.out_t, Tie.out_f0, Tie.out_f.
      rewrite HWt, HWf. unfold enc_pars, pars_nowarp. cbn [q_w0 q_w q_v0 q_v q_t0 q_t q_f0 q_f enc_par].
      rewrite !enc_tm_p0, !enc_tm_p. reflexivity.
    - intros n. unfold Tie.src_params. cbn [Model.p_tm Model.p_fm]. split; reflexivity.
  Qed.

  Theorem sa_nowarp_run :
    exists st out,
      run_sa a spl gso rnd eps (T3 N T F cells) c order lens true = Ok (enc_c eps (mkTn [N; T; F] out)) st
      /\ forall n, (n < N)%nat ->
           let p := Model.draw (pyq a) eps c (Z.of_nat F) (len_of T lens n) (uv_of rnd c n) in
           img_of VNone T F out n
           = Model.apply_masks (VQ 0) (Model.p_tm p) (Model.p_fm p) (img_of VNone T F (tabl3 N T F cells) n).
  Proof.
    destruct out_val_pars as [g0 [g [h0 [h [EV EP]]]]].
    set (tm := tm_of (tmask_enabled c) N (Model.c_nt c) g0 g) in *.
    set (fm := tm_of (fmask_enabled c) N (Model.c_nf c) h0 h) in *.
    pose proof (Tie.body_run a laws rnd eps c N T F lens Hl) as BR.
    match type of BR with _ = Ok _ ?s => set (sd := s) in * end.
    assert (Hlb : lens_okB N T lens) by exact Hl.
    assert (Eoff : (par_on E && par_on E)%bool = false) by reflexivity.
    (* the apply call, from the state the wrapper is in *)
    destruct (apply_nowarp_run a spl gso (nestedA a spl gso) eps N T F cells E E E E tm fm order lens (events sd)
                Hlb Eoff Eoff (tm_of_ok _ _ _ _ _) (tm_of_ok _ _ _ _ _)) as [vsA EA].
    rewrite <- EV in EA.
    eexists. exists (tabl3 N T F (filled (mspec_t tm) (mspec_f fm) cells)). split.
    - unfold run_sa, Interp.run, sa_body, sa_vars, globalsB.
      (* statement 1: the argument check *)
      erewrite exec_seq_ok.
      2:{ cbn. unfold T3, extS. rewrite (check_ok a spl gso _ N T F eps _ lens _ Hlb). reflexivity. }
      (* statement 2: training *)
      erewrite exec_seq_ok by (cbn; reflexivity).
      (* statement 3: the draw *)
      erewrite exec_seq_ok.
      2:{ cbn. unfold extS. rewrite ext_nested_draw. unfold nestedS. cbn [is String.eqb Ascii.eqb Bool.eqb].
          unfold feats_for_draw. rewrite dec_c_enc. cbn [shp T3 bind_args draw_body_params option_map events vars].
          change (exec (ext08 a rnd) draw_body _) with (exec (ext08 a rnd) draw_body (mkState (draw_vars eps c N T F lens) [])).
          destruct (run_exec _ _ _ _ _ BR) as [ED|[ED EN]]; rewrite ED; cbn; [reflexivity|]. rewrite <- EN. reflexivity. }
      (* statement 4: the apply *)
      cbn. unfold extS. rewrite ext_nested_apply. unfold nestedS. cbn [is String.eqb Ascii.eqb Bool.eqb].
      unfold extA, call_fn. cbn [bind_args apply_body_params option_map events vars].
      change (exec (ext_core a spl gso (nestedA a spl gso)) apply_body _)
        with (exec (ext_core a spl gso (nestedA a spl gso)) apply_body
                (mkState (apply_vars eps (T3 N T F cells) (Tie.out_val a rnd eps c N T F lens) order lens) (events sd))).
      rewrite EA. reflexivity.
    - intros n Hn p. rewrite (filled_is_apply_masks N T F cells tm fm n Hn).
      destruct (EP n) as [Et Ef].
      destruct (Tie.src_params_model a laws rnd eps c N T F lens Hl n) as [_ [_ [Pt Pf]]].
      unfold p. rewrite <- Pt, <- Pf, Et, Ef. unfold tm, fm.
      rewrite !tm_of_bands; try exact Hn; [reflexivity|apply Tie.fmask_enabled_nf|apply Tie.tmask_enabled_nt].
  Qed.
End Sa.
