(* C08 - the integer draws (mask widths and starts) stay within their bounds under ANY
   arithmetic that satisfies three laws of IEEE round-to-nearest: monotone, exact on
   integers up to 2^24, and "a product with a variate u <= 1 - 2^-24 rounds strictly below
   an integer bound R <= 2^24" (the epsilon trick does not even need its epsilon there).
   ProofsIeee.v shows that the [ieee] arithmetic of the correspondence satisfies them. *)
From Coq Require Import List ZArith QArith Qround Qabs Bool Lia Lqa.
From PV Require Import C08.Model C08.Spec C08.ProofsDraw.
Import ListNotations.
Local Open Scope Q_scope.

Definition two24 : Z := 16777216.
Definition u_top : Q := 1 - (1 # 16777216).     (* the largest value torch.rand returns *)

Record rounding_laws (a : arith) : Prop := mkLaws
  { rl32_mono : forall x y, x <= y -> r32 a x <= r32 a y;
    rl32_int : forall z, (Z.abs z <= two24)%Z -> r32 a (z2q z) == z2q z;
    rl32_strict : forall (R : Z) x, (0 < R <= two24)%Z -> x <= u_top * z2q R -> r32 a x < z2q R;
    rl64_mono : forall x y, x <= y -> r64 a x <= r64 a y;
    rl64_int : forall z, (Z.abs z <= two24)%Z -> r64 a (z2q z) == z2q z }.

Definition grid_u (u : Q) : Prop := 0 <= u /\ u <= u_top.

Lemma grid_nth : forall us m, Forall grid_u us -> grid_u (nth m us 0).
Proof. intros us m. apply Forall_nth_default. split; [apply Qle_refl|]. unfold u_top. lra. Qed.

Section Laws.
  Variable a : arith.
  Hypothesis laws : rounding_laws a.

  Lemma r32_comp : forall x y, x == y -> r32 a x == r32 a y.
  Proof.
    intros x y H. apply Qle_antisym; apply (rl32_mono a laws); rewrite H; apply Qle_refl.
  Qed.
  Lemma r64_comp : forall x y, x == y -> r64 a x == r64 a y.
  Proof.
    intros x y H. apply Qle_antisym; apply (rl64_mono a laws); rewrite H; apply Qle_refl.
  Qed.

  Lemma r32_le_int : forall x (hi : Z), (Z.abs hi <= two24)%Z -> x <= z2q hi -> r32 a x <= z2q hi.
  Proof. intros x hi H L. rewrite <- (rl32_int a laws hi H). apply (rl32_mono a laws). exact L. Qed.
  Lemma r64_le_int : forall x (hi : Z), (Z.abs hi <= two24)%Z -> x <= z2q hi -> r64 a x <= z2q hi.
  Proof. intros x hi H L. rewrite <- (rl64_int a laws hi H). apply (rl64_mono a laws). exact L. Qed.

  Lemma r32_between : forall (lo hi : Z) x, (Z.abs lo <= two24)%Z -> (Z.abs hi <= two24)%Z ->
    z2q lo <= x -> x <= z2q hi -> z2q lo <= r32 a x /\ r32 a x <= z2q hi.
  Proof.
    intros lo hi x Hlo Hhi H1 H2. split; [|exact (r32_le_int x hi Hhi H2)].
    rewrite <- (rl32_int a laws lo Hlo). apply (rl32_mono a laws). exact H1.
  Qed.
  Lemma r64_between : forall (lo hi : Z) x, (Z.abs lo <= two24)%Z -> (Z.abs hi <= two24)%Z ->
    z2q lo <= x -> x <= z2q hi -> z2q lo <= r64 a x /\ r64 a x <= z2q hi.
  Proof.
    intros lo hi x Hlo Hhi H1 H2. split; [|exact (r64_le_int x hi Hhi H2)].
    rewrite <- (rl64_int a laws lo Hlo). apply (rl64_mono a laws). exact H1.
  Qed.

  Lemma r32_zero : r32 a 0 == 0.
  Proof. change 0 with (z2q 0). apply (rl32_int a laws). unfold two24. cbn. lia. Qed.
  Lemma r64_zero : r64 a 0 == 0.
  Proof. change 0 with (z2q 0). apply (rl64_int a laws). unfold two24. cbn. lia. Qed.
  Lemma r32_nonneg : forall x, 0 <= x -> 0 <= r32 a x.
  Proof. intros x H. rewrite <- r32_zero. apply (rl32_mono a laws). exact H. Qed.
  Lemma r64_nonneg : forall x, 0 <= x -> 0 <= r64 a x.
  Proof. intros x H. rewrite <- r64_zero. apply (rl64_mono a laws). exact H. Qed.
  Lemma r32_le_one : forall x, x <= 1 -> r32 a x <= 1.
  Proof. intros x H. apply (r32_le_int x 1); [unfold two24; cbn; lia|exact H]. Qed.
  Lemma r64_le_one : forall x, x <= 1 -> r64 a x <= 1.
  Proof. intros x H. apply (r64_le_int x 1); [unfold two24; cbn; lia|exact H]. Qed.

  (* floor (round (u * round A)) is in 0..M whenever 0 <= A <= M + 1 <= 2^24 and u <= 1 - 2^-24 *)
  Lemma trunc_scaled_r : forall u A (M : Z),
    grid_u u -> (0 <= M)%Z -> (M + 1 <= two24)%Z -> 0 <= A -> A <= z2q M + 1 ->
    (0 <= qtrunc (r32 a (u * r32 a A)) <= M)%Z.
  Proof.
    intros u A M [Hu0 Hu1] HM HM2 HA0 HA1.
    assert (HMq : 0 <= z2q M) by (apply z2q_nonneg; exact HM).
    assert (B0 : 0 <= r32 a A) by (apply r32_nonneg; exact HA0).
    assert (B1 : r32 a A <= z2q (M + 1)) by (apply r32_le_int; [lia|rewrite z2q_plus1; exact HA1]).
    rewrite z2q_plus1 in B1.
    assert (X0 : 0 <= r32 a (u * r32 a A)) by (apply r32_nonneg; nra).
    rewrite (qtrunc_nonneg _ X0). split; [apply floor_nonneg; exact X0|].
    apply floor_lt_Z. apply (rl32_strict a laws); [lia|].
    rewrite z2q_plus1. unfold u_top in *. nra.
  Qed.

  Variable eps : Q.
  Hypothesis eps_range : 0 <= eps /\ eps <= 1.

  Lemma om64_range : 0 <= r64 a (1 - eps) /\ r64 a (1 - eps) <= 1.
  Proof. destruct eps_range. split; [apply r64_nonneg|apply r64_le_one]; lra. Qed.

  Lemma omeps_range : 0 <= omeps a eps /\ omeps a eps <= 1.
  Proof.
    unfold omeps. destruct om64_range. split; [apply r32_nonneg|apply r32_le_one]; assumption.
  Qed.

  Section Time.
    Variables (c : cfg) (len : Z) (us us0 : list Q).
    Hypothesis len_range : (0 <= len)%Z /\ (len < two24)%Z.
    Hypothesis Mt_nonneg : (0 <= c_Mt c)%Z.
    Hypothesis pt_range : 0 <= c_pt c /\ c_pt c <= 1.
    Hypothesis us_grid : Forall grid_u us.
    Hypothesis us0_grid : Forall grid_u us0.

    Let max_ := cap a len (c_pt c) (c_Mt c).
    Let nums := cap a len (c_npt c) (Z.of_nat (c_nt c)).

    Lemma lenq_exact : lenq a len == z2q len.
    Proof. unfold lenq. apply (rl32_int a laws). unfold two24 in *. lia. Qed.

    Lemma prop_cap_range : 0 <= r32 a (lenq a len * r32 a (c_pt c))
                           /\ r32 a (lenq a len * r32 a (c_pt c)) <= z2q len.
    Proof.
      destruct pt_range as [P0 P1]. destruct len_range as [L0 L1].
      pose proof (r32_nonneg (c_pt c) P0) as A. pose proof (r32_le_one (c_pt c) P1) as B.
      pose proof lenq_exact as E. pose proof (z2q_nonneg len L0) as Lq.
      split; [apply r32_nonneg|apply r32_le_int; [unfold two24 in *; lia|]]; rewrite E; nra.
    Qed.

    Lemma max_range : (0 <= max_ <= len)%Z /\ (max_ <= c_Mt c)%Z
                      /\ z2q max_ <= r32 a (lenq a len * r32 a (c_pt c)).
    Proof.
      destruct prop_cap_range as [C D]. destruct len_range as [L0 L1].
      unfold max_, cap.
      set (A := r32 a (lenq a len * r32 a (c_pt c))) in *.
      set (B := r32 a (z2q (c_Mt c))).
      assert (B0 : 0 <= B) by (apply r32_nonneg, z2q_nonneg; exact Mt_nonneg).
      assert (F1 : (Qfloor (qmin A B) <= len)%Z).
      { rewrite <- (Qfloor_Z len). apply Qfloor_resp_le. eapply Qle_trans; [apply qmin_l|exact D]. }
      repeat split.
      - apply floor_nonneg, qmin_glb; assumption.
      - exact F1.
      - destruct (Z_le_gt_dec (c_Mt c) two24) as [S|S].
        + assert (EB : B == z2q (c_Mt c)) by (apply (rl32_int a laws); lia).
          rewrite <- (Qfloor_Z (c_Mt c)). apply Qfloor_resp_le. eapply Qle_trans; [apply qmin_r|].
          rewrite EB. apply Qle_refl.
        + lia.
      - eapply Qle_trans; [apply Qfloor_le|apply qmin_l].
    Qed.

    Lemma tm_t_bounds_r : forall m, (0 <= tm_t a eps max_ nums m (nth m us 0%Q) <= max_)%Z.
    Proof.
      intro m. destruct max_range as [[M0 M1] _]. destruct len_range as [L0 L1].
      unfold tm_t. destruct (nums <=? Z.of_nat m)%Z; [lia|].
      destruct omeps_range as [O0 O1]. pose proof (z2q_nonneg max_ M0) as Mq.
      apply trunc_scaled_r; [apply grid_nth; exact us_grid|exact M0|lia|lra|lra].
    Qed.

    Lemma tm_t0_bounds_r : forall t u, (0 <= t <= len)%Z -> grid_u u ->
      (0 <= tm_t0 a eps len t u <= len - t)%Z.
    Proof.
      intros t u Ht Hu. destruct len_range as [L0 L1]. unfold tm_t0.
      destruct omeps_range as [O0 O1].
      assert (E : r32 a (lenq a len - z2q t) == z2q (len - t)).
      { rewrite <- (rl32_int a laws (len - t)) by (unfold two24 in *; lia).
        apply r32_comp. now rewrite lenq_exact, z2q_minus. }
      pose proof (z2q_nonneg (len - t) ltac:(lia)) as Dq.
      apply trunc_scaled_r; [exact Hu|lia|lia|rewrite E; lra|rewrite E; lra].
    Qed.

    (* every time mask drawn with rounding: width in 0..min(Mt, floor of the float32
       proportional cap), start >= 0, start + width <= len *)
    Lemma time_masks_each_r : Forall (fun b : Z * Z =>
        (0 <= snd b <= c_Mt c)%Z /\ z2q (snd b) <= r32 a (lenq a len * r32 a (c_pt c))
        /\ (0 <= fst b)%Z /\ (fst b + snd b <= len)%Z)
      (time_masks a eps c len us us0).
    Proof.
      apply Forall_forall. intros b Hb. unfold time_masks in Hb. apply in_map_iff in Hb.
      destruct Hb as [m [E _]]. subst b. cbn [fst snd]. fold max_ nums.
      pose proof (tm_t_bounds_r m) as [T0 T1]. destruct max_range as [[M0 M1] [M2 M3]].
      set (t := tm_t a eps max_ nums m (nth m us 0)) in *.
      destruct (tm_t0_bounds_r t (nth m us0 0) ltac:(lia) (grid_nth us0 m us0_grid)) as [S0 S1].
      repeat split; try lia.
      eapply Qle_trans; [apply z2q_le; exact T1|exact M3].
    Qed.
  End Time.

  Section Freq.
    Variables (c : cfg) (F : Z) (us us0 : list Q).
    Hypothesis F_range : (0 <= F)%Z /\ (F < two24)%Z.
    Hypothesis Mf_nonneg : (0 <= c_Mf c)%Z.
    Hypothesis us_grid : Forall grid_u us.
    Hypothesis us0_grid : Forall grid_u us0.

    Lemma freq_masks_ok_r : fmasks_ok c F (freq_masks a eps c F us us0).
    Proof.
      destruct F_range as [F0 F1].
      unfold fmasks_ok, freq_masks. split; [now rewrite map_length, seq_length|].
      apply Forall_forall. intros b Hb. apply in_map_iff in Hb. destruct Hb as [m [E _]]. subst b.
      unfold fmask_ok. cbn [fst snd].
      set (fmax := Z.min (c_Mf c) F).
      destruct om64_range as [O0 O1]. destruct omeps_range as [P0 P1].
      pose proof (z2q_nonneg fmax ltac:(unfold fmax; lia)) as Fq.
      assert (Hf : (0 <= fm_f a eps fmax (nth m us 0%Q) <= fmax)%Z).
      { unfold fm_f. apply trunc_scaled_r; [apply grid_nth; exact us_grid|unfold fmax; lia|unfold fmax, two24 in *; lia| |].
        - apply r64_nonneg. lra.
        - rewrite <- z2q_plus1. apply r64_le_int; [unfold fmax, two24 in *; lia|]. rewrite z2q_plus1. lra. }
      set (f := fm_f a eps fmax (nth m us 0)) in *.
      assert (Hf0 : (0 <= fm_f0 a eps F f (nth m us0 0%Q) <= F - f)%Z).
      { unfold fm_f0.
        assert (E : r32 a (z2q (F - f)) == z2q (F - f)) by (apply (rl32_int a laws); unfold fmax, two24 in *; lia).
        pose proof (z2q_nonneg (F - f) ltac:(unfold fmax in *; lia)) as Dq.
        apply trunc_scaled_r;
          [apply grid_nth; exact us0_grid|unfold fmax in *; lia|unfold fmax, two24 in *; lia|rewrite E; lra|rewrite E; lra]. }
      unfold fmax in *. lia.
    Qed.
  End Freq.
End Laws.

(* the exact arithmetic trivially satisfies the laws *)
Lemma exact_laws : rounding_laws exact.
Proof.
  constructor; cbn [r32 r64 exact]; intros; try assumption; try reflexivity.
  assert (0 < z2q R) by (unfold z2q; change 0 with (inject_Z 0); rewrite <- Zlt_Qlt; lia).
  unfold u_top in *. nra.
Qed.
