(* C08 tie - symbolic runs of the blocks, continued: frequency warp, head, return (see TieBlocks.v). *)
From Coq Require Import ZArith QArith Qround List String Bool Arith Lia.
From PV Require Import MiniPy.Syntax MiniPy.Interp MiniTorch.Ops MiniTorch.OpsC08 MiniTorch.LemmasC08.
From PV Require Import Gen.C08Src C08.SrcRun C08.TieLib C08.TieBlocks.
From PV Require C08.Model.
Import ListNotations.
Local Open Scope string_scope.

Section Blocks2.
  Variable a : Model.arith.
  Variable rnd : nat -> nat -> Q.
  Notation ext := (ext08 a rnd).

  (* ---- frequency warp -------------------------------------------------------------------------------- *)
  (* V = min(max(F / 2 - eps, 0), max_freq_warp) is Python-level arithmetic: MiniPy's own (exact, in lowest
     terms; max / min return one of their operands, so V is the int 0 or a float) *)
  Definition fw_x1 (eps : Q) (F : Z) : Q := Qred (Qred (inject_Z F / inject_Z 2) - eps).
  Definition V_val (eps Wf : Q) (F : Z) : val :=
    match Qcompare (inject_Z 0) (fw_x1 eps F) with
    | Datatypes.Gt => match Qcompare Wf (inject_Z 0) with Datatypes.Lt => VQ Wf | _ => VInt 0 end
    | _ => match Qcompare Wf (fw_x1 eps F) with Datatypes.Lt => VQ Wf | _ => VQ (fw_x1 eps F) end
    end.
  (* the Python numbers F - 2 * V, V, 2 * V *)
  Definition fw_s1 (F : Z) (Vv : val) : Q :=
    match Vv with VInt z => inject_Z (F - 2 * z) | VQ q => Qred (inject_Z F - Qred (inject_Z 2 * q)) | _ => 0 end.
  Definition fw_s2 (Vv : val) : Q := match Vv with VInt z => inject_Z z | VQ q => q | _ => 0 end.
  Definition fw_s3 (Vv : val) : Q :=
    match Vv with VInt z => inject_Z (2 * z) | VQ q => Qred (inject_Z 2 * q) | _ => 0 end.

  Definition then_of (s : stmt) : stmt := match s with SIf _ t _ => t | _ => SPass end.
  Definition rest_of (s : stmt) : stmt := match s with SSeq _ r => r | _ => SPass end.

  Definition vars_fwarp_rest (k N : nat) (F : Z) (Vv : val) (vs : list (string * val)) : list (string * val) :=
    update "v" (enc_f (T1 N (fun n => s_v a (fw_s3 Vv) (fw_s2 Vv) (rnd (S k) n))))
      (update "v_0" (enc_f (T1 N (fun n => s_v0 a (fw_s1 F Vv) (fw_s2 Vv) (rnd k n)))) vs).

  Lemma fwarp_rest vs ev N F Vv :
    (exists z, Vv = VInt z) \/ (exists q, Vv = VQ q) ->
    lookup "V" vs = Some Vv -> lookup "F" vs = Some (VInt F) ->
    lookup "N" vs = Some (VInt (Z.of_nat N)) -> lookup "device" vs = Some device_token ->
    exec ext (rest_of (then_of draw_fwarp)) (mkState vs ev)
    = Ok CNormal (mkState (vars_fwarp_rest (List.length ev) N F Vv vs) (ev ++ [ev_list1 N; ev_list1 N])).
  Proof.
    intros HV HVv HF HN Hd. unfold draw_fwarp, then_of, rest_of, vars_fwarp_rest.
    destruct HV as [[z ->]|[q ->]].
    - run. close_state.
    - run. close_state.
  Qed.

  Definition vars_fwarp (k N : nat) (eps Wf : Q) (F : Z) (vs : list (string * val)) : list (string * val) :=
    if Model.nonzero Wf
    then vars_fwarp_rest k N F (V_val eps Wf F) (update "V" (V_val eps Wf F) vs)
    else update "v" (enc_f empty0) (update "v_0" (enc_f empty0) vs).

  Definition events_fwarp (N : nat) (Wf : Q) : list event :=
    if Model.nonzero Wf then [ev_list1 N; ev_list1 N] else [].

  Lemma V_val_shape eps Wf F : (exists z, V_val eps Wf F = VInt z) \/ (exists q, V_val eps Wf F = VQ q).
  Proof. unfold V_val. destruct (Qcompare (inject_Z 0) (fw_x1 eps F)); destruct (Qcompare Wf _); eauto. Qed.

  (* Python arithmetic, the comparison made by `max` being known *)
  Ltac leafV := idtac;
    repeat first [ match goal with E : Qcompare _ _ = _ |- _ => rewrite E end | rewrite q2_nz | progress py_cbn ]; ok_refl.

  Lemma fwarp_run vs ev N eps Wf F :
    lookup "max_freq_warp" vs = Some (VQ Wf) -> lookup "eps" vs = Some (VQ eps) -> lookup "F" vs = Some (VInt F) ->
    lookup "N" vs = Some (VInt (Z.of_nat N)) -> lookup "device" vs = Some device_token ->
    exec ext draw_fwarp (mkState vs ev)
    = Ok CNormal (mkState (vars_fwarp (List.length ev) N eps Wf F vs) (ev ++ events_fwarp N Wf)).
  Proof.
    intros HW He HF HN Hd. unfold vars_fwarp, events_fwarp.
    assert (E : exec ext draw_fwarp (mkState vs ev) =
                if Model.nonzero Wf then exec ext (then_of draw_fwarp) (mkState vs ev)
                else exec ext (SAssign [TName "v_0"; TName "v"] (ECall "torch.empty" [EConst (VInt 0)] [])) (mkState vs ev)).
    { unfold draw_fwarp, then_of. erewrite exec_if_val by (cbn; rewrite HW; reflexivity). reflexivity. }
    rewrite E. clear E. destruct (Model.nonzero Wf).
    - assert (E1 : exec ext (then_of draw_fwarp) (mkState vs ev)
                   = exec ext (rest_of (then_of draw_fwarp)) (mkState (update "V" (V_val eps Wf F) vs) ev)).
      { unfold draw_fwarp, then_of, rest_of. apply exec_seq_ok. unfold V_val, fw_x1.
        destruct (Qcompare (inject_Z 0) _) eqn:E; (etransitivity; [ step leafV | ]); destruct (Qcompare Wf _); reflexivity. }
      rewrite E1. apply fwarp_rest.
      + apply V_val_shape.
      + rewrite lookup_update. reflexivity.
      + rewrite lookup_update. exact HF.
      + rewrite lookup_update. exact HN.
      + rewrite lookup_update. exact Hd.
    - run. close_state.
  Qed.

  (* ---- return ---------------------------------------------------------------------------------------- *)
  Lemma ret_run vs ev w0 w v0 v t0 t f0 f :
    lookup "w_0" vs = Some w0 -> lookup "w" vs = Some w -> lookup "v_0" vs = Some v0 -> lookup "v" vs = Some v ->
    lookup "t_0" vs = Some t0 -> lookup "t" vs = Some t -> lookup "f_0" vs = Some f0 -> lookup "f" vs = Some f ->
    exec ext draw_ret (mkState vs ev) = Ok (CReturn (VTuple [w0; w; v0; v; t0; t; f0; f])) (mkState vs ev).
  Proof. intros. unfold draw_ret. run. reflexivity. Qed.

  (* ---- head ------------------------------------------------------------------------------------------ *)
  (* the float32 lengths: torch.full((N,), T, dtype=torch.float) or lengths.to(device).float() *)
  Definition L_of (T : nat) (lens : option (list Z)) (n : nat) : Q :=
    match lens with
    | None => Model.r32 a (Model.z2q (Z.of_nat T))
    | Some l => Model.r32 a (Model.z2q (nth n l 0%Z))
    end.

  Definition lens_ok (N T : nat) (lens : option (list Z)) : Prop :=
    match lens with None => True | Some l => List.length l = N /\ lens_in_range T l = true end.

  Definition vars_head (eps : Q) (c : Model.cfg) (N T F : nat) (lens : option (list Z)) : list (string * val) :=
    update "lengths" (enc_f (T1 N (L_of T lens)))
      (update "omeps" (VQ (Qred (inject_Z 1 - eps)))
         (update "eps" (VQ eps)
            (update "device" device_token
               (update "F" (VInt (Z.of_nat F))
                  (update "T" (VInt (Z.of_nat T))
                     (update "N" (VInt (Z.of_nat N))
                        (update "$t1" (VTuple [VInt (Z.of_nat N); VInt (Z.of_nat T); VInt (Z.of_nat F)])
                           (draw_vars eps c N T F lens)))))))).


  (* the argument check passes: lengths omitted, or N values in (0, T] *)
  Lemma check_ok N T F eps lens st : lens_ok N T lens ->
    ext "_spec_augment_check_input" [enc_feats [N; T; F] eps; lengths_val lens] [] st = Ok VNone st.
  Proof.
    intros H. destruct lens as [l|]; unfold lengths_val.
    - destruct H as [HN HR]. subst N. now apply ext_check_lens.
    - apply ext_check_none.
  Qed.

  Lemma head_run eps c N T F lens : lens_ok N T lens ->
    exec ext draw_head (mkState (draw_vars eps c N T F lens) [])
    = Ok CNormal (mkState (vars_head eps c N T F lens) []).
  Proof.
    intros Hok. unfold draw_head, vars_head, draw_vars, globals08.
    set (vs0 := (_ ++ _)%list).
    eapply exec_seq_to; [ step ltac:(first [ apply check_ok; exact Hok | leaf08 ]) | ].
    do 4 (eapply exec_seq_to; [ step leaf08 | ]).
    (* `if lengths is None: .. else: ..` *)
    destruct lens as [l|]; [destruct Hok as [HN HR]; subst N|]; cbn [lengths_val] in vs0;
      (etransitivity; [ step leaf08 | ]); rewrite ?(tmap_list _ 0%Z); reflexivity.
  Qed.
End Blocks2.
