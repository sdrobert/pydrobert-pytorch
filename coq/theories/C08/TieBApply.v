(* C08, second tie - `spec_augment_apply_parameters` WITHOUT a warp (w_0 / w and v_0 / v None or without element):
   the whole body, interpreted, returns the feature tensor with exactly the cells of the time / frequency bands
   overwritten by 0.0 - PV.C08.Model.apply_masks, batch element by batch element.

   The body is the sequence of its marked blocks ([body_splitA]): head (argument check, N T F, lengths, the eight
   parameter tensors), time grid, frequency grid, resampling (all three skipped here), mask initialisation, time
   masks, frequency masks, masked_fill + return (TieBMask.v).  Everything holds under [ext_core a spl gso nested]
   for ANY oracles and ANY [nested]: no kernel and no translated function is called on this path. *)
From Coq Require Import ZArith QArith Qround List String Bool Arith Lia.
From PV Require Import MiniPy.Syntax MiniPy.Interp MiniTorch.Ops MiniTorch.OpsC08 MiniTorch.LemmasC08.
From PV Require Import MiniTorch.OpsC08B MiniTorch.LemmasC08B.
From PV Require Import Gen.C08BSrc C08.SrcRun C08.TieLib C08.SrcRunB C08.TieBLib C08.TieBMask.
From PV Require C08.Model C08.ProofsMask C08.TieBlocks2 MiniTorch.Lemmas.
Import ListNotations.
Local Open Scope string_scope.
Local Open Scope list_scope.

(* `params[i]`: the tuple of the eight parameters is not a tagged object *)
Lemma subscript_pars p i st (k r : outcome val) : ((0 <=? i)%Z && (i <? 8)%Z)%bool = true ->
  Ok (nth (Z.to_nat i) [enc_par (q_w0 p); enc_par (q_w p); enc_par (q_v0 p); enc_par (q_v p);
                        enc_par (q_t0 p); enc_par (q_t p); enc_par (q_f0 p); enc_par (q_f p)] VNone) st = r ->
  match subscript (enc_pars p) (VInt i) st with Stuck _ => k | o => o end = r.
Proof.
  intros Hi. unfold enc_pars. apply sub_tuple; [|exact Hi].
  destruct (q_w0 p); reflexivity.
Qed.

(* ---- the body is the sequence of its blocks ------------------------------------------------------------- *)
Definition blocksA : stmt :=
  SSeq apply_head (SSeq apply_tgrid (SSeq apply_fgrid (SSeq apply_warp
    (SSeq apply_minit (SSeq apply_tmask (SSeq apply_fmask apply_fill)))))).

Lemma body_splitA ext st : exec ext apply_body st = exec ext blocksA st.
Proof. apply flat_eq. reflexivity. Qed.

(* ---- shape well-formedness of the mask parameters ------------------------------------------------------------ *)
(* a mask group (start tensor, width tensor): OFF when one of the two is None or has no element; ON: two long
   tensors of one shape (N, M) with at least one element *)
Inductive mspec := MOff (p0 p : par) | MOn (M : nat) (f0 f : nat -> nat -> Z).

Definition mspec_ok (N : nat) (m : mspec) : Prop :=
  match m with
  | MOff p0 p => (par_on p0 && par_on p)%bool = false
  | MOn M _ _ => Nat.eqb (numel [N; M]) 0 = false
  end.
Definition mspec_p0 (N : nat) (m : mspec) : par := match m with MOff p0 _ => p0 | MOn M f0 _ => PL (T2 N M f0) end.
Definition mspec_p (N : nat) (m : mspec) : par := match m with MOff _ p => p | MOn M _ f => PL (T2 N M f) end.

(* the mask a group contributes, as the source computes it *)
Definition mspec_t (m : mspec) : option (nat -> nat -> nat -> bool) :=
  match m with MOff _ _ => None | MOn M f0 f => Some (fun n t _ => s_any M f0 f n t) end.
Definition mspec_f (m : mspec) : option (nat -> nat -> nat -> bool) :=
  match m with MOff _ _ => None | MOn M f0 f => Some (fun n _ x => s_any M f0 f n x) end.

(* ... and as the model takes it: the (start, width) pairs of batch element n *)
Definition mspec_bands (m : mspec) (n : nat) : option (list (Z * Z)) :=
  match m with MOff _ _ => None | MOn M f0 f => Some (map (fun h => (f0 n h, f n h)) (seq 0 M)) end.

Definition lens_okB (N T : nat) (lens : option (list Z)) : Prop :=
  match lens with None => True | Some l => List.length l = N /\ lens_in_range T l = true end.


(* the argument check passes: lengths omitted, or N values in (0, T] *)
Lemma check_ok a spl gso nested N T F eps d lens st : lens_okB N T lens ->
  ext_core a spl gso nested "_spec_augment_check_input" [enc_c eps (mkTn [N; T; F] d); lengths_val lens] [] st = Ok VNone st.
Proof.
  intros H. destruct lens as [l|]; unfold lengths_val.
  - destruct H as [HN HR]. subst N. now apply extB_check_lens.
  - apply extB_check_none.
Qed.

Section Apply.
  Variable a : Model.arith.
  Variable spl : nat -> list val -> list Q.
  Variable gso : nat -> list val -> list val.
  Variable nested : string -> list val -> state -> option (outcome val).
  Notation ext := (ext_core a spl gso nested).

  Ltac leafH := idtac;
    lazymatch goal with
    | |- match subscript (enc_pars _) _ _ with _ => _ end = _ =>
        apply subscript_pars; [reflexivity | lazy [nth Z.to_nat Pos.to_nat Pos.iter_op Nat.add]; reflexivity]
    | |- _ => leaf ext_eqB ltac:(progress (unfold float_of_long, full_l; rewrite ?tmap_T1))
    end.

  (* ---- head ------------------------------------------------------------------------------------------------ *)
  Lemma headA_run eps N T F cells (p : pars) order lens ev : lens_okB N T lens ->
    exists vs1,
      exec ext apply_head (mkState (apply_vars eps (mkTn [N; T; F] cells) (enc_pars p) order lens) ev) = Ok CNormal (mkState vs1 ev)
      /\ lookup "N" vs1 = Some (VInt (Z.of_nat N)) /\ lookup "T" vs1 = Some (VInt (Z.of_nat T))
      /\ lookup "F" vs1 = Some (VInt (Z.of_nat F)) /\ lookup "device" vs1 = Some device_token
      /\ lookup "lengths" vs1 = Some (enc_f (T1 N (TieBlocks2.L_of a T lens)))   (* lengths.to(feats.dtype); not read on this path *)
      /\ lookup "interpolation_order" vs1 = Some (VInt order)
      /\ lookup "w_0" vs1 = Some (enc_par (q_w0 p)) /\ lookup "w" vs1 = Some (enc_par (q_w p))
      /\ lookup "v_0" vs1 = Some (enc_par (q_v0 p)) /\ lookup "v" vs1 = Some (enc_par (q_v p))
      /\ lookup "t_0" vs1 = Some (enc_par (q_t0 p)) /\ lookup "t" vs1 = Some (enc_par (q_t p))
      /\ lookup "f_0" vs1 = Some (enc_par (q_f0 p)) /\ lookup "f" vs1 = Some (enc_par (q_f p))
      /\ lookup "new_feats" vs1 = Some (enc_c eps (mkTn [N; T; F] cells))
      /\ lookup "time_grid" vs1 = Some VNone /\ lookup "freq_grid" vs1 = Some VNone
      /\ lookup "do_warp" vs1 = Some (VBool false).
  Proof.
    intros Hok. unfold apply_head, apply_vars, globalsB. set (vs0 := (_ ++ _)%list). eexists. split.
    - eapply exec_seq_to; [ step ltac:(first [ apply check_ok; exact Hok | leafH ]) | ].
      eapply exec_seq_to; [ step leafH | ]. eapply exec_seq_to; [ step leafH | ].
      (* `if lengths is None: ..` and `lengths = lengths.to(feats.dtype)`: the two cases meet again *)
      lazymatch goal with |- exec _ _ (mkState ?vs _) = _ =>
        eapply (exec_seq2_to _ _ _ _ _ (mkState (update "lengths" (enc_f (T1 N (TieBlocks2.L_of a T lens))) vs) ev)) end.
      { destruct lens as [l|]; [destruct Hok as [HN HR]; subst N|]; cbn [lengths_val] in vs0;
          (etransitivity; [ step leafH | ]); rewrite ?(tmap_list _ 0%Z); reflexivity. }
      step leafH.
    - repeat split; reflexivity.
  Qed.

  (* ---- the three warp blocks when no warp is requested ---------------------------------------------------------- *)
  Lemma warp_off_run vs ev : lookup "do_warp" vs = Some (VBool false) ->
    exec ext apply_warp (mkState vs ev) = Ok CNormal (mkState vs ev).
  Proof. intros H. unfold apply_warp. erewrite exec_if_val by (cbn; rewrite H; reflexivity). reflexivity. Qed.

  (* ---- one mask group, on or off ------------------------------------------------------------------------------------ *)
  Lemma tmask_run vs ev N T m : mspec_ok N m ->
    lookup "t_0" vs = Some (enc_par (mspec_p0 N m)) -> lookup "t" vs = Some (enc_par (mspec_p N m)) ->
    lookup "tmask" vs = Some VNone ->
    lookup "T" vs = Some (VInt (Z.of_nat T)) -> lookup "device" vs = Some device_token ->
    exists vs', exec ext apply_tmask (mkState vs ev) = Ok CNormal (mkState vs' ev)
      /\ lookup "tmask" vs' = Some (opt_mask (option_map (T3 N T 1) (mspec_t m)))
      /\ forall x, String.eqb x "tmask" = false -> String.eqb x "t_1" = false -> lookup x vs' = lookup x vs.
  Proof.
    intros Hok H0 H1 Hm HT Hd. destruct m as [p0 p|M f0 f]; cbn [mspec_ok mspec_p0 mspec_p mspec_t option_map opt_mask] in *.
    - exists vs. split; [now apply (group_off a spl gso nested "t_0" "t" _ vs ev p0 p)|]. split; [exact Hm|reflexivity].
    - apply (tmask_on_run a spl gso nested vs ev N M T f0 f); assumption.
  Qed.

  Lemma fmask_run vs ev N F m : mspec_ok N m ->
    lookup "f_0" vs = Some (enc_par (mspec_p0 N m)) -> lookup "f" vs = Some (enc_par (mspec_p N m)) ->
    lookup "fmask" vs = Some VNone ->
    lookup "F" vs = Some (VInt (Z.of_nat F)) -> lookup "device" vs = Some device_token ->
    exists vs', exec ext apply_fmask (mkState vs ev) = Ok CNormal (mkState vs' ev)
      /\ lookup "fmask" vs' = Some (opt_mask (option_map (T3 N 1 F) (mspec_f m)))
      /\ forall x, String.eqb x "fmask" = false -> String.eqb x "f_1" = false -> lookup x vs' = lookup x vs.
  Proof.
    intros Hok H0 H1 Hm HF Hd. destruct m as [p0 p|M g0 g]; cbn [mspec_ok mspec_p0 mspec_p mspec_f option_map opt_mask] in *.
    - exists vs. split; [now apply (group_off a spl gso nested "f_0" "f" _ vs ev p0 p)|]. split; [exact Hm|reflexivity].
    - apply (fmask_on_run a spl gso nested vs ev N M F g0 g); assumption.
  Qed.

  (* ---- the whole body, no warp ------------------------------------------------------------------------------------------ *)
  Definition pars_nowarp (N : nat) (pw0 pw pv0 pv : par) (tm fm : mspec) : pars :=
    mkPars pw0 pw pv0 pv (mspec_p0 N tm) (mspec_p N tm) (mspec_p0 N fm) (mspec_p N fm).

  Theorem apply_nowarp_run eps N T F cells pw0 pw pv0 pv tm fm order lens ev :
    lens_okB N T lens ->
    (par_on pw0 && par_on pw)%bool = false -> (par_on pv0 && par_on pv)%bool = false ->
    mspec_ok N tm -> mspec_ok N fm ->
    exists vs',
      exec ext apply_body (mkState (apply_vars eps (T3 N T F cells) (enc_pars (pars_nowarp N pw0 pw pv0 pv tm fm)) order lens) ev)
      = Ok (CReturn (enc_c eps (T3 N T F (filled (mspec_t tm) (mspec_f fm) cells)))) (mkState vs' ev).
  Proof.
    intros Hl Hw Hv Htm Hfm. rewrite body_splitA. unfold blocksA.
    destruct (headA_run eps N T F (tabl3 N T F cells) (pars_nowarp N pw0 pw pv0 pv tm fm) order lens ev Hl)
      as [vs1 [E1 [LN [LT [LF [Ld [LL [Lo [Lw0 [Lw [Lv0 [Lv [Lt0 [Lt [Lf0 [Lf [Lnf [Ltg [Lfg Ldw]]]]]]]]]]]]]]]]]]].
    cbn [pars_nowarp q_w0 q_w q_v0 q_v q_t0 q_t q_f0 q_f] in *.
    change (mkTn [N; T; F] (tabl3 N T F cells)) with (T3 N T F cells) in *.
    rewrite (exec_seq_ok _ _ _ _ _ E1).
    rewrite (exec_seq_ok _ apply_tgrid _ _ _ (group_off a spl gso nested "w_0" "w" _ vs1 ev pw0 pw Lw0 Lw Hw)).
    rewrite (exec_seq_ok _ apply_fgrid _ _ _ (group_off a spl gso nested "v_0" "v" _ vs1 ev pv0 pv Lv0 Lv Hv)).
    rewrite (exec_seq_ok _ _ _ _ _ (warp_off_run vs1 ev Ldw)).
    rewrite (exec_seq_ok _ _ _ _ _ (minit_run a spl gso nested vs1 ev)).
    set (vs2 := update "fmask" VNone (update "tmask" VNone vs1)).
    assert (K : forall x, String.eqb x "fmask" = false -> String.eqb x "tmask" = false -> lookup x vs2 = lookup x vs1).
    { intros x Hx1 Hx2. unfold vs2. now rewrite !lookup_update, Hx1, Hx2. }
    destruct (tmask_run vs2 ev N T tm Htm) as [vs3 [E3 [Ltm K3]]];
      try (rewrite K by reflexivity; assumption); [unfold vs2; rewrite !lookup_update; reflexivity|].
    rewrite (exec_seq_ok _ _ _ _ _ E3).
    destruct (fmask_run vs3 ev N F fm Hfm) as [vs4 [E4 [Lfm K4]]];
      try (rewrite K3 by reflexivity; rewrite K by reflexivity; assumption);
      [rewrite K3 by reflexivity; unfold vs2; rewrite !lookup_update; reflexivity|].
    rewrite (exec_seq_ok _ _ _ _ _ E4).
    apply (fill_run a spl gso nested vs4 ev eps N T F cells (mspec_t tm) (mspec_f fm)).
    - rewrite K4 by reflexivity. rewrite K3 by reflexivity. rewrite K by reflexivity. exact Lnf.
    - rewrite K4 by reflexivity. exact Ltm.
    - exact Lfm.
  Qed.
End Apply.

(* ---- the result is the model's apply_masks --------------------------------------------------------------------------------- *)
Lemma mapi_from_map_seq {A B} (f : Z -> A -> B) (g : nat -> A) n : forall s i,
  Model.mapi_from i f (map g (seq s n)) = map (fun k => f (i + Z.of_nat (k - s))%Z (g k)) (seq s n).
Proof.
  induction n as [|n IH]; intros s i; [reflexivity|]. cbn [seq map Model.mapi_from].
  rewrite Nat.sub_diag, Z.add_0_r. f_equal. rewrite IH. apply map_ext_in. intros k Hk. apply in_seq in Hk.
  replace (i + 1 + Z.of_nat (k - S s))%Z with (i + Z.of_nat (k - s))%Z by lia. reflexivity.
Qed.

Lemma fill_table {A} (zero : A) (m : Z -> Z -> bool) (c : nat -> nat -> A) T F :
  Model.fill zero m (map (fun t => map (fun f => c t f) (seq 0 F)) (seq 0 T))
  = map (fun t => map (fun f => if m (Z.of_nat t) (Z.of_nat f) then zero else c t f) (seq 0 F)) (seq 0 T).
Proof.
  unfold Model.fill. rewrite mapi_from_map_seq. apply map_ext_in. intros t _.
  rewrite mapi_from_map_seq. apply map_ext_in. intros f _. now rewrite !Nat.sub_0_r, !Z.add_0_l.
Qed.

Lemma img_of_tabl3 {X} (d : X) N T F (c : nat -> nat -> nat -> X) n : (n < N)%nat ->
  img_of d T F (tabl3 N T F c) n = map (fun t => map (fun f => c n t f) (seq 0 F)) (seq 0 T).
Proof.
  intros Hn. unfold img_of. apply map_ext_in. intros t Ht. apply in_seq in Ht.
  apply map_ext_in. intros f Hf. apply in_seq in Hf. apply get3_tabl3; lia.
Qed.

Lemma s_any_masked M f0 f n x :
  s_any M f0 f n x = Model.masked (map (fun h => (f0 n h, f n h)) (seq 0 M)) (Z.of_nat x).
Proof.
  unfold s_any, Model.masked. induction (seq 0 M) as [|h l IH]; [reflexivity|].
  cbn [existsb map]. rewrite IH. f_equal. unfold s_in, Model.in_band. cbn [fst snd]. now rewrite Z.geb_leb.
Qed.

Theorem filled_is_apply_masks N T F (cells : nat -> nat -> nat -> val) tm fm n : (n < N)%nat ->
  img_of VNone T F (tabl3 N T F (filled (mspec_t tm) (mspec_f fm) cells)) n
  = Model.apply_masks (VQ 0) (mspec_bands tm n) (mspec_bands fm n) (img_of VNone T F (tabl3 N T F cells) n).
Proof.
  intros Hn. rewrite !img_of_tabl3 by exact Hn. unfold Model.apply_masks, filled, mk.
  destruct tm as [p0 p|M f0 f], fm as [q0 q|M' g0 g]; cbn [mspec_t mspec_f mspec_bands].
  - apply map_ext. intros t. apply map_ext. intros f. reflexivity.
  - rewrite fill_table. apply map_ext. intros t. apply map_ext. intros f. now rewrite s_any_masked.
  - rewrite fill_table. apply map_ext. intros t. apply map_ext. intros x. now rewrite s_any_masked, orb_false_r.
  - rewrite fill_table. apply map_ext. intros t. apply map_ext. intros x. now rewrite !s_any_masked.
Qed.
