(* C08 ties - library: what reaches [ext08] call by call, and the equations and tactics by which the Tie*.v files run
   the interpreter on a block of the source.  No new definitions of meaning. *)
From Coq Require Import ZArith QArith Qround List String Bool Arith Lia.
From PV Require Import MiniPy.Syntax MiniPy.Interp MiniTorch.Ops MiniTorch.OpsC08 MiniTorch.LemmasC08 MiniTorch.OpsC08B.
From PV Require Export MiniPy.Lemmas.
From PV Require Import C08.SrcRun C08.SrcRunB.
From PV Require C08.Model.
Import ListNotations.
Local Open Scope string_scope.

#[global] Arguments enc_f : simpl never.
#[global] Arguments enc_l : simpl never.
#[global] Arguments enc_b : simpl never.
#[global] Arguments enc_feats : simpl never.

Lemma lookup_skip x y v l r : String.eqb x y = false -> lookup x l = r -> lookup x (update y v l) = r.
Proof. intros E <-. now rewrite lookup_update, E. Qed.

(* arithmetic / bitwise operators with a tensor operand: MiniPy's own operators are stuck, [ext] is asked *)
Definition tensor_op (op : binop) (a b : val) : bool :=
  match op with
  | Add | Sub | Mul | Div => foreign a || (match a with VInt _ | VQ _ => true | _ => false end && foreign b)
  | BitAnd | BitOr => foreign a
  | _ => false
  end.

Lemma bin_foreign op a b st (k r : outcome val) : tensor_op op a b = true -> k = r ->
  match binop_eval op a b st with Stuck _ => k | o => o end = r.
Proof.
  intros H <-. destruct op; try discriminate H; cbn [tensor_op] in H.
  all: try (apply orb_true_iff in H; destruct H as [H|H]; [|apply andb_true_iff in H; destruct H as [Ha H]]).
  all: try (destruct a; try discriminate H; destruct b; reflexivity).
  all: destruct b; try discriminate H; destruct a; try discriminate Ha; reflexivity.
Qed.

Lemma if_true {A} (c : bool) (x y r : A) : c = true -> x = r -> (if c then x else y) = r.
Proof. now intros -> <-. Qed.

(* `x[i]` on a tuple of the subset *)
Lemma sub_tuple l i st (k r : outcome val) :
  foreign_item (VTuple l) (VInt i) = false -> ((0 <=? i)%Z && (i <? Z.of_nat (List.length l))%Z)%bool = true ->
  Ok (nth (Z.to_nat i) l VNone) st = r ->
  match subscript (VTuple l) (VInt i) st with Stuck _ => k | o => o end = r.
Proof.
  intros Hf Hi <-. unfold subscript. rewrite Hf.
  apply andb_true_iff in Hi. destruct Hi as [H0 H1]. apply Z.leb_le in H0.
  replace (i <? 0)%Z with false by (symmetry; apply Z.ltb_ge; exact H0).
  now rewrite (proj2 (Z.leb_le 0 i) H0), H1.
Qed.

Lemma method_foreign o m args : foreign o = true -> method o m args = None.
Proof. intros H. destruct o; try discriminate H. reflexivity. Qed.

Lemma attribute_foreign ext o at_ st : foreign o = true -> attribute ext o at_ st = ext ("$attr." ++ at_) [o] [] st.
Proof. intros H. destruct o; try discriminate H. reflexivity. Qed.

Lemma foreign_enc_feats s e : foreign (enc_feats s e) = true.  Proof. reflexivity. Qed.

(* `x is None`, `x is not None` *)
Lemma cmp_is_foreign v : foreign v = true -> cmp_eval Is v VNone = Some false.
Proof. destruct v; try discriminate. reflexivity. Qed.
Lemma cmp_isnot_foreign v : foreign v = true -> cmp_eval IsNot v VNone = Some true.
Proof. destruct v; try discriminate. reflexivity. Qed.

Lemma leb_0_of_nat n : (0 <=? Z.of_nat n)%Z = true.
Proof. apply Z.leb_le. lia. Qed.

Lemma of_nat_eqb0 n : (Z.of_nat n =? 0)%Z = Nat.eqb n 0.
Proof. destruct n; [reflexivity|]. cbn [Nat.eqb]. apply Z.eqb_neq. lia. Qed.

Section ExtLemmas.
  Variable a : Model.arith.
  Variable rnd : nat -> nat -> Q.
  Notation ext := (ext08 a rnd).
  Notation zn := (fun n : nat => VInt (Z.of_nat n)).

  (* calls whose arguments are sizes [Z.of_nat n] *)
  Ltac ext_size := unfold ext08; cbn; rewrite ?leb_0_of_nat; cbn; now rewrite ?Nat2Z.id.
  Ltac ext_tac := lazy [ext08 operator is String.eqb Ascii.eqb Bool.eqb no_kw negb];
    rewrite ?dec_any_enc_f, ?dec_any_enc_l, ?dec_any_enc_b, ?dec_feats_enc; cbn;
    rewrite ?dec_any_enc_f, ?dec_any_enc_l, ?dec_any_enc_b; cbn; try reflexivity.

  Lemma ext_check_none N T F eps st :
    ext "_spec_augment_check_input" [enc_feats [N; T; F] eps; VNone] [] st = Ok VNone st.
  Proof. ext_tac. Qed.

  Lemma ext_check_lens N T F eps l st : List.length l = N -> lens_in_range T l = true ->
    ext "_spec_augment_check_input" [enc_feats [N; T; F] eps; enc_l (mkTn [List.length l] l)] [] st = Ok VNone st.
  Proof.
    intros HN HR. unfold ext08. cbn. rewrite dec_feats_enc. cbn.
    change (enc_l (mkTn [List.length l] l)) with (VTuple [VStr tag_long; enc_shape [List.length l]; VList (map VInt l)]) at 1.
    cbv iota. change (VTuple [VStr tag_long; enc_shape [List.length l]; VList (map VInt l)]) with (enc_l (mkTn [List.length l] l)).
    rewrite dec_any_enc_l. cbn [shp dat]. now rewrite HN, Nat.eqb_refl, HR.
  Qed.

  Lemma ext_shape sh eps st : ext "$attr.shape" [enc_feats sh eps] [] st = Ok (VTuple (map zn sh)) st.
  Proof. ext_tac. Qed.

  Lemma ext_device sh eps st : ext "$attr.device" [enc_feats sh eps] [] st = Ok device_token st.
  Proof. ext_tac. Qed.

  Lemma ext_eps sh eps st : ext "_get_tensor_eps" [enc_feats sh eps] [] st = Ok (VQ eps) st.
  Proof. ext_tac. Qed.

  Lemma ext_full n v st :
    ext "torch.full" [VTuple [VInt (Z.of_nat n)]; VInt v] [("dtype", float_token); ("device", device_token)] st
    = Ok (enc_f (full1 a n v)) st.
  Proof. ext_size. Qed.

  Lemma ext_to_l t st : ext "$method.to" [enc_l t; device_token] [] st = Ok (enc_l t) st.
  Proof. ext_tac. Qed.
  Lemma ext_to_f t st : ext "$method.to" [enc_f t; device_token] [] st = Ok (enc_f t) st.
  Proof. ext_tac. Qed.

  Lemma ext_float t st : ext "$method.float" [enc_l t] [] st = Ok (enc_f (float_of_long a t)) st.
  Proof. ext_tac. Qed.
  Lemma ext_long t st : ext "$method.long" [enc_f t] [] st = Ok (enc_l (long_of_float t)) st.
  Proof. ext_tac. Qed.
  Lemma ext_floor t st : ext "$method.floor" [enc_f t] [] st = Ok (enc_f (floor t)) st.
  Proof. ext_tac. Qed.
  Lemma ext_dtype t st : ext "$attr.dtype" [enc_f t] [] st = Ok float_token st.
  Proof. ext_tac. Qed.
  Lemma ext_empty st : ext "torch.empty" [VInt 0] [] st = Ok (enc_f empty0) st.
  Proof. reflexivity. Qed.

  Lemma ext_arange n st :
    ext "torch.arange" [VInt (Z.of_nat n)] [("dtype", float_token); ("device", device_token)] st = Ok (enc_f (arange_f n)) st.
  Proof. ext_size. Qed.

  Lemma ext_clamp_max t (M : Z) st :
    ext "torch.clamp" [enc_f t] [("max", VInt M)] st = Ok (enc_f (clamp a t None (Some (inject_Z M)))) st.
  Proof. ext_tac. Qed.

  Lemma ext_clamp t (lo : Z) (hi : Q) st :
    ext "$method.clamp" [enc_f t; VInt lo; VQ hi] [] st = Ok (enc_f (clamp a t (Some (inject_Z lo)) (Some hi))) st.
  Proof. ext_tac. Qed.

  Lemma ext_unsqueeze t d st : ext "$method.unsqueeze" [enc_f t; VInt d] [] st = ret_f "unsqueeze" (unsqueeze t d) st.
  Proof. ext_tac. Qed.

  Lemma ext_masked_fill t m v st :
    ext "$method.masked_fill" [enc_l t; enc_b m; VInt v] [] st = ret_l "masked_fill" (masked_fill_l t m v) st.
  Proof. ext_tac. Qed.

  Lemma ext_le t u st : ext "compare" [VStr "le"; enc_f t; enc_f u] [] st = ret_b "le" (le_t t u) st.
  Proof. ext_tac. Qed.

  Lemma size_arg_nats l : dec_nats (map zn l) = Some l.
  Proof. apply dec_nats_enc. Qed.

  (* torch.rand draws from the stream indexed by the number of calls made so far, and is recorded *)
  Lemma ext_rand_tuple1 n vs ev :
    ext "torch.rand" [VTuple [VInt (Z.of_nat n)]] [("device", device_token)] (mkState vs ev)
    = Ok (enc_f (rand rnd (List.length ev) [n])) (mkState vs (ev ++ [("torch.rand", [VTuple [VInt (Z.of_nat n)]])])).
  Proof. ext_size. Qed.

  Lemma ext_rand_list1 n vs ev :
    ext "torch.rand" [VList [VInt (Z.of_nat n)]] [("device", device_token)] (mkState vs ev)
    = Ok (enc_f (rand rnd (List.length ev) [n])) (mkState vs (ev ++ [("torch.rand", [VList [VInt (Z.of_nat n)]])])).
  Proof. ext_size. Qed.

  Lemma ext_rand_list2 n m vs ev :
    ext "torch.rand" [VList [VInt (Z.of_nat n); VInt (Z.of_nat m)]] [("device", device_token)] (mkState vs ev)
    = Ok (enc_f (rand rnd (List.length ev) [n; m]))
         (mkState vs (ev ++ [("torch.rand", [VList [VInt (Z.of_nat n); VInt (Z.of_nat m)]])])).
  Proof. ext_size. Qed.

  (* an operator with a tensor operand is handed to [operator] *)
  Lemma ext_operator o x y st r : operator a o x y st = r -> ext "operator" [VStr o; x; y] [] st = r.
  Proof. intros <-. ext_tac. Qed.

  Lemma op_div_i t (k : Z) st : operator a "truediv" (enc_f t) (VInt k) st = ret_f "truediv" (div_s a t (inject_Z k)) st.
  Proof. ext_tac. Qed.

  Lemma op_sub_q t (s : Q) st : operator a "sub" (enc_f t) (VQ s) st = Ok (enc_f (sub_s a t s)) st.
  Proof. ext_tac. Qed.
  Lemma op_sub_i t (k : Z) st : operator a "sub" (enc_f t) (VInt k) st = Ok (enc_f (sub_s a t (inject_Z k))) st.
  Proof. ext_tac. Qed.
  Lemma op_sub_t t u st : operator a "sub" (enc_f t) (enc_f u) st = ret_f "sub" (sub_t a t u) st.
  Proof. ext_tac. Qed.
  Lemma op_sub_fl t u st : operator a "sub" (enc_f t) (enc_l u) st = ret_f "sub" (sub_fl a t u) st.
  Proof. ext_tac. Qed.
  Lemma op_rsub_l (k : Z) u st : operator a "sub" (VInt k) (enc_l u) st = Ok (enc_l (rsub_l k u)) st.
  Proof. ext_tac. Qed.

  Lemma op_mul_iq (k : Z) t st : operator a "mul" (VInt k) (enc_f t) st = Ok (enc_f (mul_s a t (inject_Z k))) st.
  Proof. ext_tac. Qed.
  Lemma op_mul_qf (s : Q) t st : operator a "mul" (VQ s) (enc_f t) st = Ok (enc_f (mul_s a t s)) st.
  Proof. ext_tac. Qed.
  Lemma op_mul_q t (s : Q) st : operator a "mul" (enc_f t) (VQ s) st = Ok (enc_f (mul_s a t s)) st.
  Proof. ext_tac. Qed.
  Lemma op_mul_i t (k : Z) st : operator a "mul" (enc_f t) (VInt k) st = Ok (enc_f (mul_s a t (inject_Z k))) st.
  Proof. ext_tac. Qed.
  Lemma op_mul_t t u st : operator a "mul" (enc_f t) (enc_f u) st = ret_f "mul" (mul_t a t u) st.
  Proof. ext_tac. Qed.

  Lemma op_add_q t (s : Q) st : operator a "add" (enc_f t) (VQ s) st = Ok (enc_f (add_s a t s)) st.
  Proof. ext_tac. Qed.
  Lemma op_add_i t (k : Z) st : operator a "add" (enc_f t) (VInt k) st = Ok (enc_f (add_s a t (inject_Z k))) st.
  Proof. ext_tac. Qed.
  Lemma op_add_t t u st : operator a "add" (enc_f t) (enc_f u) st = ret_f "add" (add_t a t u) st.
  Proof. ext_tac. Qed.
  Lemma op_add_ls t (s : Q) st : operator a "add" (enc_l t) (VQ s) st = Ok (enc_f (add_ls a t s)) st.
  Proof. ext_tac. Qed.
End ExtLemmas.

(* from here on [ext08] is known through the equations above only: no reduction enters it, and an equation that
   does not apply to a call is refused without comparing bodies *)
#[global] Opaque ext08.

Create HintDb operator discriminated.
#[global] Hint Resolve op_div_i op_sub_q op_sub_i op_sub_t op_sub_fl op_rsub_l op_mul_iq op_mul_qf op_mul_q op_mul_i op_mul_t
  op_add_q op_add_i op_add_t op_add_ls : operator.

(* The interpreter is driven one syntax node at a time: each lemma below evaluates one constructor from the values
   of its sub-expressions, so that a reduction only ever sees one operation with its operands, never the program
   or the state as a whole. *)
Section Eval.
  Variable ext : string -> list val -> list (string * val) -> state -> outcome val.

  (* the argument lists of [eval], as top-level functions *)
  Fixpoint evals (l : list expr) (st : state) {struct l} : outcome (list val) :=
    match l with
    | [] => Ok [] st
    | EStar x :: r =>
        bind (eval ext x st) (fun v st1 =>
          match container_items v with
          | Some items => bind (evals r st1) (fun vs st2 => Ok (items ++ vs)%list st2)
          | None => Stuck "star of a non-container"
          end)
    | x :: r => bind (eval ext x st) (fun v st1 => bind (evals r st1) (fun vs st2 => Ok (v :: vs) st2))
    end.

  Fixpoint evalkw (l : list (string * expr)) (st : state) {struct l} : outcome (list (string * val)) :=
    match l with
    | [] => Ok [] st
    | (n, x) :: r => bind (eval ext x st) (fun v st1 => bind (evalkw r st1) (fun vs st2 => Ok ((n, v) :: vs) st2))
    end.

  Lemma evals_cons x r st v st1 vs st2 : match x with EStar _ => False | _ => True end ->
    eval ext x st = Ok v st1 -> evals r st1 = Ok vs st2 -> evals (x :: r) st = Ok (v :: vs) st2.
  Proof. intros Hx Hv Hr. destruct x; try contradiction; cbn [evals]; rewrite Hv; cbn [bind]; now rewrite Hr. Qed.

  Lemma evalkw_cons n x r st v st1 vs st2 :
    eval ext x st = Ok v st1 -> evalkw r st1 = Ok vs st2 -> evalkw ((n, x) :: r) st = Ok ((n, v) :: vs) st2.
  Proof. intros Hv Hr. exact (eq_trans (bind_ok _ _ _ _ Hv) (bind_ok _ _ _ _ Hr)). Qed.

  Lemma eval_attr o a st ov st1 r :
    eval ext o st = Ok ov st1 -> attribute ext ov a st1 = r -> eval ext (EAttr o a) st = r.
  Proof. intros Ho <-. exact (bind_ok _ _ _ _ Ho). Qed.

  Lemma eval_sub o k st ov st1 kv st2 r :
    eval ext o st = Ok ov st1 -> eval ext k st1 = Ok kv st2 ->
    match subscript ov kv st2 with Stuck _ => ext "$getitem" [ov; kv] [] st2 | o => o end = r ->
    eval ext (ESub o k) st = r.
  Proof. intros Ho Hk <-. exact (eq_trans (bind_ok _ _ _ _ Ho) (bind_ok _ _ _ _ Hk)). Qed.

  Lemma eval_bin op a b st av st1 bv st2 r :
    eval ext a st = Ok av st1 -> eval ext b st1 = Ok bv st2 ->
    match binop_eval op av bv st2 with Stuck _ => ext "operator" [VStr (binop_name op); av; bv] [] st2 | o => o end = r ->
    eval ext (EBin op a b) st = r.
  Proof. intros Ha Hb <-. exact (eq_trans (bind_ok _ _ _ _ Ha) (bind_ok _ _ _ _ Hb)). Qed.

  Lemma eval_neg a st av st1 r :
    eval ext a st = Ok av st1 ->
    match av with
    | VInt z => Ok (VInt (- z)) st1
    | VQ q => Ok (VQ (Qopp q)) st1
    | VInf p => Ok (VInf (negb p)) st1
    | _ => ext "$neg" [av] [] st1
    end = r ->
    eval ext (ENeg a) st = r.
  Proof. intros Ha <-. exact (bind_ok _ _ _ _ Ha). Qed.

  Lemma eval_cmp op a b st av st1 bv st2 r :
    eval ext a st = Ok av st1 -> eval ext b st1 = Ok bv st2 ->
    (if (rich op && (foreign av || foreign bv))%bool then ext "compare" [VStr (cmpop_name op); av; bv] [] st2
     else match cmp_eval op av bv with
          | Some c => Ok (VBool c) st2
          | None => ext "compare" [VStr (cmpop_name op); av; bv] [] st2
          end) = r ->
    eval ext (ECmp op a b) st = r.
  Proof. intros Ha Hb <-. exact (eq_trans (bind_ok _ _ _ _ Ha) (bind_ok _ _ _ _ Hb)). Qed.

  Lemma eval_and a b st av st1 :
    eval ext a st = Ok av st1 -> eval ext (EAnd a b) st = if truthy av then eval ext b st1 else Ok av st1.
  Proof. intros Ha. exact (bind_ok _ _ _ _ Ha). Qed.

  Lemma eval_call f args kw st vs st1 kvs st2 r :
    evals args st = Ok vs st1 -> evalkw kw st1 = Ok kvs st2 ->
    match kvs, builtin f vs st2 with [], Some o => o | _, _ => ext f vs kvs st2 end = r ->
    eval ext (ECall f args kw) st = r.
  Proof. intros Ha Hk <-. exact (eq_trans (bind_ok _ _ _ _ Ha) (bind_ok _ _ _ _ Hk)). Qed.

  (* a method of a library object ([method] knows none) *)
  Lemma eval_meth o m args kw st ov st1 vs st2 kvs st3 r :
    eval ext o st = Ok ov st1 -> evals args st1 = Ok vs st2 -> evalkw kw st2 = Ok kvs st3 -> method ov m vs = None ->
    ext ("$method." ++ m) (ov :: vs) kvs st3 = r -> eval ext (EMeth o m args kw) st = r.
  Proof.
    intros Ho Ha Hk Hm <-.
    change (eval ext (EMeth o m args kw) st) with
      (bind (eval ext o st) (fun ov st1 => bind (evals args st1) (fun vs st2 =>
         match kw, method ov m vs with
         | [], Some (w, None) => Ok w st2
         | [], None => ext ("$method." ++ m) (ov :: vs) [] st2
         | _ :: _, None => bind (evalkw kw st2) (fun kvs st3 => ext ("$method." ++ m) (ov :: vs) kvs st3)
         | _, _ => Stuck ("method " ++ m)
         end))).
    rewrite Ho. cbn [bind]. rewrite Ha. cbn [bind]. rewrite Hm.
    destruct kw; [injection Hk as <- <-; reflexivity | now rewrite Hk].
  Qed.

  Lemma eval_list items st vs st1 : evals items st = Ok vs st1 -> eval ext (EListLit items) st = Ok (VList vs) st1.
  Proof. intros H. exact (bind_ok _ _ _ _ H). Qed.

  Lemma eval_tuple items st vs st1 : evals items st = Ok vs st1 -> eval ext (ETupleLit items) st = Ok (VTuple vs) st1.
  Proof. intros H. exact (bind_ok _ _ _ _ H). Qed.

  Lemma exec_assign ts e st v st1 r :
    eval ext e st = Ok v st1 -> bind (assign_all ext ts v st1) (fun _ st2 => Ok CNormal st2) = r ->
    exec ext (SAssign ts e) st = r.
  Proof. intros He <-. exact (bind_ok _ _ _ _ He). Qed.

  Lemma exec_call f args kw st v st1 :
    eval ext (ECall f args kw) st = Ok v st1 -> exec ext (SExpr (ECall f args kw)) st = Ok CNormal st1.
  Proof. intros He. exact (bind_ok _ _ _ _ He). Qed.

  Lemma exec_seq2_to a b r st st' res : exec ext (SSeq a b) st = Ok CNormal st' -> exec ext r st' = res ->
    exec ext (SSeq a (SSeq b r)) st = res.
  Proof.
    intros H <-. revert H. cbn [exec]. destruct (exec ext a st) as [[|v] st1|n st1|w]; cbn [bind]; try discriminate.
    now intros ->.
  Qed.

  Lemma exec_if_to c t f st v st' r : eval ext c st = Ok v st' ->
    (if truthy v then exec ext t st' else exec ext f st') = r -> exec ext (SIf c t f) st = r.
  Proof. intros H <-. exact (bind_ok _ _ _ _ H). Qed.

  Lemma exec_if_val c t f st v st' : eval ext c st = Ok v st' ->
    exec ext (SIf c t f) st = if truthy v then exec ext t st' else exec ext f st'.
  Proof. intros H. exact (bind_ok _ _ _ _ H). Qed.

  (* A body is its marked blocks in sequence: both are the same list of statements, nested differently.
     [flat] nests every sequence to the right; two programs with the same [flat] run alike. *)
  Fixpoint seq_app (s r : stmt) : stmt :=
    match s with SSeq a b => seq_app a (seq_app b r) | _ => SSeq s r end.
  Fixpoint flat (s : stmt) : stmt :=
    match s with SSeq a b => seq_app a (flat b) | _ => s end.

  Lemma exec_seq_cong s x y :
    (forall st, exec ext x st = exec ext y st) -> forall st, exec ext (SSeq s x) st = exec ext (SSeq s y) st.
  Proof.
    intros H st. cbn [exec]. destruct (exec ext s st) as [[|v] st1|n st1|w]; cbn [bind]; auto.
  Qed.

  Lemma exec_seq_app s : forall r st, exec ext (seq_app s r) st = exec ext (SSeq s r) st.
  Proof.
    induction s; intros r st; try reflexivity. cbn [seq_app]. rewrite IHs1.
    rewrite (exec_seq_cong s1 _ _ (IHs2 r)). cbn [exec].
    destruct (exec ext s1 st) as [[|v] st1|n st1|w]; reflexivity.
  Qed.

  Lemma exec_flat s : forall st, exec ext (flat s) st = exec ext s st.
  Proof.
    induction s; intros st; try reflexivity. cbn [flat]. rewrite exec_seq_app. now apply exec_seq_cong.
  Qed.

  Lemma flat_eq s r st : flat s = flat r -> exec ext s st = exec ext r st.
  Proof. intros H. now rewrite <- (exec_flat s), <- (exec_flat r), H. Qed.
End Eval.

(* the value of a variable, through the assignments made so far: computed when the variables are a concrete list, by
   the two lemmas on [update] and the hypotheses when their tail is abstract *)
Ltac look_var :=
  cbn [vars lookup app String.eqb Ascii.eqb Bool.eqb]; repeat (apply lookup_skip; [reflexivity|]);
  first [ apply lookup_update_eq | eassumption | reflexivity ].

(* [ev leaf] proves [eval ext e st = Ok ?v ?st'] and [step leaf] proves [exec ext s st = ?r] for straight-line code, by
   the lemmas above.  What is left at a node is one operation on values; when an operand is a tensor it is the call
   [ext f args kw st] that stands for it.  [leaf] is asked to bring either to the form [Ok _ _].  States are records
   [mkState vs ev] throughout. *)
Ltac ev leaf :=
  lazymatch goal with
  | |- eval _ (EConst _) _ = _ => reflexivity
  | |- eval _ (EName _) _ = _ => apply eval_name; look_var
  | |- eval _ (EAttr _ _) _ = _ =>
      eapply eval_attr; [ev leaf | try (rewrite attribute_foreign by reflexivity; cbn [append]); leaf]
  | |- eval _ (ESub _ _) _ = _ =>
      eapply eval_sub;
      [ev leaf | ev leaf
      | first [ apply sub_tuple;
                [reflexivity | reflexivity | cbn [map shp]; lazy [nth Z.to_nat Pos.to_nat Pos.iter_op Nat.add]; reflexivity]
              | leaf ]]
  | |- eval _ (EBin _ _ _) _ = _ =>
      eapply eval_bin; [ev leaf | ev leaf | first [apply bin_foreign; [reflexivity | cbn [binop_name]] | idtac]; leaf]
  | |- eval _ (ENeg _) _ = _ => eapply eval_neg; [ev leaf | leaf]
  | |- eval _ (ECmp _ _ _) _ = _ =>
      eapply eval_cmp; [ev leaf | ev leaf | first [apply if_true; [reflexivity | cbn [cmpop_name]] | idtac]; leaf]
  | |- eval _ (ECall _ _ _) _ = _ =>
      eapply eval_call; [evs leaf | evkw leaf | cbn [builtin is String.eqb Ascii.eqb Bool.eqb]; leaf]
  | |- eval _ (EMeth _ _ _ _) _ = _ =>
      eapply eval_meth; [ev leaf | evs leaf | evkw leaf | apply method_foreign; reflexivity | cbn [append]; leaf]
  | |- eval _ (EListLit _) _ = _ => eapply eval_list; evs leaf
  | |- eval _ (ETupleLit _) _ = _ => eapply eval_tuple; evs leaf
  end
with evs leaf :=
  lazymatch goal with
  | |- evals _ [] _ = _ => reflexivity
  | |- evals _ (_ :: _) _ = _ => eapply evals_cons; [exact I | ev leaf | evs leaf]
  end
with evkw leaf :=
  lazymatch goal with
  | |- evalkw _ [] _ = _ => reflexivity
  | |- evalkw _ (_ :: _) _ = _ => eapply evalkw_cons; [ev leaf | evkw leaf]
  end.

(* after the equation of a call, what is left is a tensor to be brought to canonical form; the state is set aside *)
Lemma ok_val (v w : val) st : v = w -> Ok v st = Ok w st.
Proof. now intros ->. Qed.
Lemma ret_f_ok why o t st : o = Some t -> ret_f why o st = Ok (enc_f t) st.
Proof. now intros ->. Qed.
Lemma ret_l_ok why o t st : o = Some t -> ret_l why o st = Ok (enc_l t) st.
Proof. now intros ->. Qed.
Lemma ret_b_ok why o t st : o = Some t -> ret_b why o st = Ok (enc_b t) st.
Proof. now intros ->. Qed.
Lemma ret_c_ok e why o t st : o = Some t -> ret_c e why o st = Ok (enc_c e t) st.
Proof. now intros ->. Qed.

Ltac to_tensor :=
  lazymatch goal with
  | |- ret_f _ _ _ = _ => apply ret_f_ok
  | |- ret_l _ _ _ = _ => apply ret_l_ok
  | |- ret_b _ _ _ = _ => apply ret_b_ok
  | |- ret_c _ _ _ _ = _ => apply ret_c_ok
  | |- Ok (enc_f _) _ = _ => apply ok_val, (f_equal enc_f)
  | |- Ok (enc_l _) _ = _ => apply ok_val, (f_equal enc_l)
  | |- Ok (enc_b _) _ = _ => apply ok_val, (f_equal enc_b)
  | |- Ok (enc_c ?e _) _ = _ => apply ok_val, (f_equal (enc_c e))
  end.
Ltac canonical :=
  lazymatch goal with
  | |- Some (T1 _ _) = _ => idtac | |- Some (T2 _ _ _) = _ => idtac | |- Some (T3 _ _ _ _) = _ => idtac
  | |- T1 _ _ = _ => idtac | |- T2 _ _ _ = _ => idtac | |- T3 _ _ _ _ = _ => idtac
  end.

(* closes a leaf once its left-hand side has the form [Ok _ _] (and not before: unification would evaluate it) *)
Ltac ok_refl := lazymatch goal with |- Ok _ _ = _ => reflexivity end.

(* an operation of the subset on Python values: reduced by the interpreter's own definitions only (numbers, strings
   and tensors stay folded), with the facts at hand about divisors and about `is None` *)
Lemma q2_nz : Qeq_bool (inject_Z 2) 0 = false.  Proof. reflexivity. Qed.
Ltac zero_rw := match goal with H : Qeq_bool _ 0 = false |- _ => rewrite H end.
Ltac py_cbn :=
  cbn [binop_eval is_inf inf_bin num_bin as_q as_z builtin is extreme_of q_extreme cmp_eval q_cmp rich container_items
       subscript foreign_item attribute method dict_get val_eqb truthy bind orb andb negb option_map
       String.eqb Ascii.eqb Bool.eqb].
Ltac py_leaf :=
  try lazymatch goal with |- context [cmp_eval] =>
    rewrite ?cmp_is_foreign, ?cmp_isnot_foreign by reflexivity end;
  repeat first [ zero_rw | rewrite q2_nz | progress py_cbn ]; ok_refl.

(* [leaf eq ops]: one operation on values to the form [Ok _ _] - a call of [ext] by its equation (found by [eq]), its
   tensor then brought to canonical form by the rewrites [ops]; otherwise an operation of the subset *)
Ltac tensor_nf ops := first [ canonical | first [ zero_rw | ops ]; tensor_nf ops | idtac ].
Ltac leaf eq ops :=
  idtac; lazymatch goal with
  | |- match _ with _ => _ end = _ => py_leaf
  | |- _ => first [ etransitivity; [ eq | first [ to_tensor; tensor_nf ops; reflexivity | ok_refl ] ] | py_leaf ]
  end.

Ltac step leaf :=
  lazymatch goal with
  | |- exec _ (SSeq _ _) _ = _ => eapply exec_seq_to; [step leaf | step leaf]
  | |- exec _ (SAssign _ _) _ = _ => eapply exec_assign;
      [ ev leaf
      | lazy [assign_all store place_of bind set_var vars events]; cbn [update app String.eqb Ascii.eqb Bool.eqb];
        reflexivity ]
  | |- exec _ (SExpr (ECall _ _ _)) _ = _ => eapply exec_call; ev leaf
  | |- exec _ (SReturn _) _ = _ => eapply exec_return_ok; ev leaf
  | |- exec _ (SIf _ _ _) _ = _ => eapply exec_if_to; [ev leaf | cbn [truthy]; step leaf]
  | |- exec _ SPass _ = _ => reflexivity
  end.
