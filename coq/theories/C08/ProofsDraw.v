(* C08 - lemmas about the draws in exact arithmetic (all variates in [0,1) over Q). *)
From Coq Require Import List ZArith QArith Qround Qabs Bool Lia Lqa.
From PV Require Import C08.Model C08.Spec.
Import ListNotations.
Local Open Scope Q_scope.

(* ---- qmin / qmax ---------------------------------------------------------------- *)
Lemma Qle_bool_false : forall x y, Qle_bool x y = false <-> y < x.
Proof.
  intros x y. split; intro H.
  - apply Qnot_le_lt. intro L. apply Qle_bool_iff in L. congruence.
  - destruct (Qle_bool x y) eqn:E; [|reflexivity]. apply Qle_bool_iff in E. lra.
Qed.

Lemma qmin_l : forall x y, qmin x y <= x.
Proof.
  intros x y; unfold qmin; destruct (Qle_bool x y) eqn:E; [apply Qle_refl|].
  apply Qlt_le_weak, Qle_bool_false, E.
Qed.
Lemma qmin_r : forall x y, qmin x y <= y.
Proof.
  intros x y; unfold qmin; destruct (Qle_bool x y) eqn:E; [now apply Qle_bool_iff|apply Qle_refl].
Qed.
Lemma qmin_glb : forall x y z, z <= x -> z <= y -> z <= qmin x y.
Proof. intros x y z; unfold qmin; destruct (Qle_bool x y); auto. Qed.
Lemma qmax_l : forall x y, x <= qmax x y.
Proof.
  intros x y; unfold qmax; destruct (Qle_bool x y) eqn:E; [now apply Qle_bool_iff|apply Qle_refl].
Qed.
Lemma qmax_r : forall x y, y <= qmax x y.
Proof.
  intros x y; unfold qmax; destruct (Qle_bool x y) eqn:E; [apply Qle_refl|].
  apply Qlt_le_weak, Qle_bool_false, E.
Qed.
Lemma qmax_lub : forall x y z, x <= z -> y <= z -> qmax x y <= z.
Proof. intros x y z; unfold qmax; destruct (Qle_bool x y); auto. Qed.

(* ---- floor / trunc ---------------------------------------------------------------- *)
Lemma z2q_nonneg : forall M, (0 <= M)%Z -> 0 <= z2q M.
Proof. intros M H. unfold z2q. change 0 with (inject_Z 0). rewrite <- Zle_Qle. exact H. Qed.
Lemma z2q_le : forall x y, (x <= y)%Z -> z2q x <= z2q y.
Proof. intros x y H. unfold z2q. rewrite <- Zle_Qle. exact H. Qed.
Lemma z2q_le_inv : forall x y, z2q x <= z2q y -> (x <= y)%Z.
Proof. intros x y H. unfold z2q in H. rewrite <- Zle_Qle in H. exact H. Qed.
Lemma z2q_minus : forall x y, z2q (x - y) == z2q x - z2q y.
Proof. intros x y. unfold z2q, Zminus. rewrite inject_Z_plus, inject_Z_opp. reflexivity. Qed.
Lemma z2q_plus1 : forall M, z2q (M + 1) == z2q M + 1.
Proof. intros; unfold z2q; rewrite inject_Z_plus; reflexivity. Qed.

Lemma floor_lt_Z : forall x M, x < z2q (M + 1) -> (Qfloor x <= M)%Z.
Proof.
  intros x M H. assert (L : inject_Z (Qfloor x) < inject_Z (M + 1)).
  { eapply Qle_lt_trans; [apply Qfloor_le|exact H]. }
  rewrite <- Zlt_Qlt in L. lia.
Qed.

Lemma floor_nonneg : forall x, 0 <= x -> (0 <= Qfloor x)%Z.
Proof. intros x H. change 0%Z with (Qfloor (inject_Z 0)). apply Qfloor_resp_le. exact H. Qed.

Lemma qtrunc_nonneg : forall x, 0 <= x -> qtrunc x = Qfloor x.
Proof. intros x H; unfold qtrunc. apply Qle_bool_iff in H. now rewrite H. Qed.

Lemma qtrunc_comp : forall x y, x == y -> qtrunc x = qtrunc y.
Proof.
  intros x y H. unfold qtrunc.
  assert (B : Qle_bool 0 x = Qle_bool 0 y) by (apply Qleb_comp; [reflexivity|exact H]).
  rewrite B, (Qfloor_comp x y H), (Qfloor_comp (- x) (- y)) by (rewrite H; reflexivity).
  reflexivity.
Qed.

(* the epsilon trick over Q: floor (u * (M + 1 - eps)) is in 0..M *)
Lemma trunc_scaled : forall u eps (M : Z),
  0 <= u -> u < 1 -> 0 < eps -> eps <= 1 -> (0 <= M)%Z ->
  (0 <= qtrunc (u * (z2q M + (1 - eps))) <= M)%Z.
Proof.
  intros u eps M Hu0 Hu1 He0 He1 HM.
  assert (HMq : 0 <= z2q M) by (apply z2q_nonneg; exact HM).
  assert (Hx0 : 0 <= u * (z2q M + (1 - eps))) by nra.
  rewrite (qtrunc_nonneg _ Hx0). split; [apply floor_nonneg; exact Hx0|].
  apply floor_lt_Z. rewrite z2q_plus1. nra.
Qed.

(* ---- unit-interval variates ------------------------------------------------------- *)
Definition unit_u (u : Q) : Prop := 0 <= u /\ u < 1.

Lemma Forall_nth_default : forall {A} (P : A -> Prop) l m d, P d -> Forall P l -> P (nth m l d).
Proof.
  intros A P l m d Hd H. destruct (Nat.lt_ge_cases m (length l)) as [L|L].
  - rewrite Forall_forall in H. apply H, nth_In, L.
  - now rewrite nth_overflow by exact L.
Qed.

Lemma unit_nth : forall us m, Forall unit_u us -> unit_u (nth m us 0%Q).
Proof. intros us m. apply Forall_nth_default. split; [apply Qle_refl|reflexivity]. Qed.

(* ---- the caps ---------------------------------------------------------------------- *)
Lemma cap_exact_bounds : forall len p M,
  (0 <= len)%Z -> 0 <= p -> (0 <= M)%Z ->
  (0 <= cap exact len p M <= M)%Z /\ z2q (cap exact len p M) <= z2q len * p.
Proof.
  intros len p M Hl Hp HM. unfold cap, lenq; cbn [r32 exact].
  assert (Hlq : 0 <= z2q len) by (apply z2q_nonneg; exact Hl).
  assert (HMq : 0 <= z2q M) by (apply z2q_nonneg; exact HM).
  split; [split|].
  - apply floor_nonneg, qmin_glb; [nra|exact HMq].
  - etransitivity; [apply Qfloor_resp_le, qmin_r|]. unfold z2q. rewrite Qfloor_Z. lia.
  - eapply Qle_trans; [apply Qfloor_le|apply qmin_l].
Qed.

(* at most [nums] masks have a non-zero width, whatever the arithmetic: mask m has width 0 when nums <= m *)
Lemma count_nonzero_le_nums : forall a eps c len us us0,
  (count_nonzero (time_masks a eps c len us us0) <= Z.max 0 (cap a len (c_npt c) (Z.of_nat (c_nt c))))%Z.
Proof.
  intros a eps c len us us0. unfold count_nonzero, time_masks.
  set (max_ := cap a len (c_pt c) (c_Mt c)). set (nums := cap a len (c_npt c) (Z.of_nat (c_nt c))).
  set (f := fun m : nat => (tm_t0 a eps len (tm_t a eps max_ nums m (nth m us 0)) (nth m us0 0),
                           tm_t a eps max_ nums m (nth m us 0))).
  assert (G : forall n s, (Z.of_nat (length (filter (fun b : Z * Z => negb (snd b =? 0)%Z) (map f (seq s n))))
                           <= Z.max 0 (nums - Z.of_nat s))%Z).
  { induction n as [|n IH]; intro s; [cbn; lia|].
    cbn [seq map filter]. specialize (IH (S s)).
    destruct (negb (snd (f s) =? 0)%Z) eqn:E.
    - cbn [length]. unfold f in E. cbn [snd] in E. unfold tm_t in E.
      destruct (nums <=? Z.of_nat s)%Z eqn:L; [cbn in E; discriminate|].
      apply Z.leb_gt in L. lia.
    - lia. }
  specialize (G (c_nt c) 0%nat). cbn [Z.of_nat] in G. rewrite Z.sub_0_r in G. exact G.
Qed.

Section TimeMasks.
  Variables (eps : Q) (c : cfg) (len : Z) (us us0 : list Q).
  Hypothesis eps_pos : 0 < eps.
  Hypothesis eps_le1 : eps <= 1.
  Hypothesis len_nonneg : (0 <= len)%Z.
  Hypothesis Mt_nonneg : (0 <= c_Mt c)%Z.
  Hypothesis pt_range : 0 <= c_pt c /\ c_pt c <= 1.
  Hypothesis npt_nonneg : 0 <= c_npt c.
  Hypothesis us_unit : Forall unit_u us.
  Hypothesis us0_unit : Forall unit_u us0.

  Let max_ := cap exact len (c_pt c) (c_Mt c).
  Let nums := cap exact len (c_npt c) (Z.of_nat (c_nt c)).

  Lemma tm_t_bounds : forall m, (0 <= tm_t exact eps max_ nums m (nth m us 0%Q) <= max_)%Z.
  Proof.
    intro m. unfold tm_t. cbn [omeps r32 r64 exact].
    destruct (cap_exact_bounds len (c_pt c) (c_Mt c) len_nonneg (proj1 pt_range) Mt_nonneg) as [[H0 _] _].
    fold max_ in H0.
    destruct (nums <=? Z.of_nat m)%Z; [lia|].
    destruct (unit_nth us m us_unit). apply trunc_scaled; assumption.
  Qed.

  Lemma max_le_len : (max_ <= len)%Z.
  Proof.
    destruct (cap_exact_bounds len (c_pt c) (c_Mt c) len_nonneg (proj1 pt_range) Mt_nonneg) as [_ H].
    fold max_ in H. apply z2q_le_inv.
    eapply Qle_trans; [exact H|].
    pose proof (z2q_nonneg len len_nonneg). destruct pt_range. nra.
  Qed.

  Lemma time_mask_entry : forall b, In b (time_masks exact eps c len us us0) ->
    exists m, (m < c_nt c)%nat /\
      snd b = tm_t exact eps max_ nums m (nth m us 0%Q) /\
      fst b = tm_t0 exact eps len (snd b) (nth m us0 0%Q).
  Proof.
    intros b H. unfold time_masks in H. apply in_map_iff in H. destruct H as [m [E I]].
    apply in_seq in I. exists m. subst b. cbn [fst snd]. split; [lia|split; reflexivity].
  Qed.

  (* every time mask: 0 <= t <= Mt, t <= len * pt, 0 <= t_0, t_0 + t <= len *)
  Lemma time_masks_each : Forall (tmask_ok 0 c len) (time_masks exact eps c len us us0).
  Proof.
    apply Forall_forall. intros b Hb. destruct (time_mask_entry b Hb) as [m [_ [Et Et0]]].
    pose proof (tm_t_bounds m) as [Ht0 Htm]. rewrite <- Et in Ht0, Htm.
    destruct (cap_exact_bounds len (c_pt c) (c_Mt c) len_nonneg (proj1 pt_range) Mt_nonneg) as [[_ HM] Hp].
    fold max_ in HM, Hp. pose proof max_le_len as Hml.
    assert (Ht0b : (0 <= fst b <= len - snd b)%Z).
    { rewrite Et0. unfold tm_t0, lenq. cbn [omeps r32 r64 exact].
      destruct (unit_nth us0 m us0_unit).
      assert (E : z2q len - z2q (snd b) == z2q (len - snd b)) by (now rewrite z2q_minus).
      assert (Q : qtrunc (nth m us0 0%Q * (z2q len - z2q (snd b) + (1 - eps)))
                  = qtrunc (nth m us0 0%Q * (z2q (len - snd b) + (1 - eps)))).
      { apply qtrunc_comp. rewrite E. reflexivity. }
      rewrite Q. apply trunc_scaled; try assumption. lia. }
    unfold tmask_ok. repeat split; try lia.
    pose proof (z2q_le _ _ Htm). lra.
  Qed.

  Lemma time_masks_length : length (time_masks exact eps c len us us0) = c_nt c.
  Proof. unfold time_masks. now rewrite map_length, seq_length. Qed.

  Lemma time_masks_ok : tmasks_ok 0 c len (time_masks exact eps c len us us0).
  Proof.
    unfold tmasks_ok. split; [apply time_masks_length|]. split; [apply time_masks_each|].
    pose proof (count_nonzero_le_nums exact eps c len us us0) as Hc. fold nums in Hc.
    destruct (cap_exact_bounds len (c_npt c) (Z.of_nat (c_nt c)) len_nonneg npt_nonneg (Nat2Z.is_nonneg _))
      as [[Hn0 HnM] Hnp]. fold nums in Hn0, HnM, Hnp.
    split; [lia|].
    assert (X : z2q len * c_npt c * (1 + 0) == z2q len * c_npt c) by ring. rewrite X.
    eapply Qle_trans; [|exact Hnp]. apply z2q_le. lia.
  Qed.
End TimeMasks.

Section FreqMasks.
  Variables (eps : Q) (c : cfg) (F : Z) (us us0 : list Q).
  Hypothesis eps_pos : 0 < eps.
  Hypothesis eps_le1 : eps <= 1.
  Hypothesis F_nonneg : (0 <= F)%Z.
  Hypothesis Mf_nonneg : (0 <= c_Mf c)%Z.
  Hypothesis us_unit : Forall unit_u us.
  Hypothesis us0_unit : Forall unit_u us0.

  Lemma freq_masks_ok : fmasks_ok c F (freq_masks exact eps c F us us0).
  Proof.
    unfold fmasks_ok, freq_masks. split; [now rewrite map_length, seq_length|].
    apply Forall_forall. intros b Hb. apply in_map_iff in Hb. destruct Hb as [m [E _]]. subst b.
    unfold fmask_ok. cbn [fst snd].
    assert (Hf : (0 <= fm_f exact eps (Z.min (c_Mf c) F) (nth m us 0%Q) <= Z.min (c_Mf c) F)%Z).
    { unfold fm_f. cbn [r32 r64 exact]. destruct (unit_nth us m us_unit).
      apply trunc_scaled; try assumption. lia. }
    set (f := fm_f exact eps (Z.min (c_Mf c) F) (nth m us 0%Q)) in *.
    assert (Hf0 : (0 <= fm_f0 exact eps F f (nth m us0 0%Q) <= F - f)%Z).
    { unfold fm_f0. cbn [omeps r32 r64 exact]. destruct (unit_nth us0 m us0_unit).
      apply trunc_scaled; try assumption. lia. }
    lia.
  Qed.
End FreqMasks.

(* ---- warp windows ---------------------------------------------------------------- *)
(* W = clamp(len/2 - eps, 0, Wmax), centre = u (len - 2W) + W, shift = u' 2W - W *)
Lemma warp_window : forall L eps Wmax u u',
  0 < eps -> 0 <= Wmax -> 0 <= L -> unit_u u -> unit_u u' ->
  let W := qmin (qmax (L / 2 - eps) 0) Wmax in
  0 <= W /\ W <= Wmax /\ 2 * W <= L /\ qmin Wmax (L / 2) - eps <= W
  /\ W <= u * (L - 2 * W) + W /\ u * (L - 2 * W) + W <= L - W
  /\ - W <= u' * (2 * W) - W /\ u' * (2 * W) - W <= W.
Proof.
  intros L eps Wmax u u' He HW HL [Hu0 Hu1] [Hv0 Hv1] W.
  assert (W0 : 0 <= W) by (apply qmin_glb; [apply qmax_r|exact HW]).
  assert (W1 : W <= Wmax) by apply qmin_r.
  assert (Hhalf : L / 2 == L * (1 # 2)) by (unfold Qdiv; reflexivity).
  assert (W2 : W <= qmax (L / 2 - eps) 0) by apply qmin_l.
  assert (W3 : qmax (L / 2 - eps) 0 <= L / 2) by (apply qmax_lub; lra).
  assert (W4 : 2 * W <= L) by lra.
  assert (W5 : qmin Wmax (L / 2) - eps <= W).
  { apply qmin_glb.
    - eapply Qle_trans; [|apply qmax_l]. pose proof (qmin_r Wmax (L / 2)). lra.
    - pose proof (qmin_l Wmax (L / 2)). lra. }
  repeat split; try assumption; nra.
Qed.

Lemma time_warp_window : forall eps Wmax len u u',
  0 < eps -> 0 <= Wmax -> (0 <= len)%Z -> unit_u u -> unit_u u' ->
  let W := tw_W exact eps Wmax len in
  0 <= W /\ W <= Wmax /\ 2 * W <= z2q len /\ qmin Wmax (z2q len / 2) - eps <= W
  /\ W <= tw_w0 exact W len u /\ tw_w0 exact W len u <= z2q len - W
  /\ - W <= tw_w exact W u' /\ tw_w exact W u' <= W.
Proof. intros eps Wmax len u u' He HW Hl Hu Hu'. exact (warp_window (z2q len) eps Wmax u u' He HW (z2q_nonneg len Hl) Hu Hu'). Qed.

Lemma freq_warp_window : forall eps Wmax F u u',
  0 < eps -> 0 <= Wmax -> (0 <= F)%Z -> unit_u u -> unit_u u' ->
  let V := fw_V exact eps Wmax F in
  0 <= V /\ V <= Wmax /\ 2 * V <= z2q F /\ qmin Wmax (z2q F / 2) - eps <= V
  /\ V <= fw_v0 exact V F u /\ fw_v0 exact V F u <= z2q F - V
  /\ - V <= fw_v exact V u' /\ fw_v exact V u' <= V.
Proof. intros eps Wmax F u u' He HW HF Hu Hu'. exact (warp_window (z2q F) eps Wmax u u' He HW (z2q_nonneg F HF) Hu Hu'). Qed.

(* ---- all clauses together: the declarative spec holds of every draw -------------- *)
Definition uv_unit (u : uv) : Prop :=
  unit_u (u_w0 u) /\ unit_u (u_w u) /\ unit_u (u_v0 u) /\ unit_u (u_v u)
  /\ Forall unit_u (u_t u) /\ Forall unit_u (u_t0 u) /\ Forall unit_u (u_f u) /\ Forall unit_u (u_f0 u).

Definition cfg_valid (c : cfg) : Prop :=
  0 <= c_Wt c /\ 0 <= c_Wf c /\ (0 <= c_Mt c)%Z /\ (0 <= c_Mf c)%Z
  /\ 0 <= c_pt c /\ c_pt c <= 1 /\ 0 <= c_npt c /\ c_npt c <= 1.

Lemma warp_ok_of_window : forall eps Wmax len W x0 x,
  0 < eps -> W <= Wmax -> 2 * W <= z2q len -> qmin Wmax (z2q len / 2) - eps <= W ->
  W <= x0 -> x0 <= z2q len - W -> - W <= x -> x <= W ->
  warp_ok eps Wmax len (x0, x).
Proof.
  intros eps Wmax len W x0 x He H1 H2 H3 H4 H5 H6 H7. unfold warp_ok. cbn [fst snd].
  assert (E : z2q len / 2 == z2q len * (1 # 2)) by (unfold Qdiv; reflexivity).
  set (W' := qmin Wmax (z2q len / 2)) in *.
  assert (HW : W <= W').
  { apply qmin_glb; [exact H1|]. lra. }
  repeat split; lra.
Qed.

Lemma draw_exact_ok : forall eps c F len u,
  0 < eps -> eps <= 1 -> cfg_valid c -> (0 <= F)%Z -> (0 <= len)%Z -> uv_unit u ->
  draw_ok eps 0 c F len (draw exact eps c F len u).
Proof.
  intros eps c F len u He0 He1 [C1 [C2 [C3 [C4 [C5 [C6 [C7 C8]]]]]]] HF Hl
         [U1 [U2 [U3 [U4 [U5 [U6 [U7 U8]]]]]]].
  unfold draw_ok, draw. cbn [p_tw p_fw p_tm p_fm]. repeat split.
  - destruct (nonzero (c_Wt c)); [|exact I]. cbn [opt_ok].
    destruct (time_warp_window eps (c_Wt c) len (u_w0 u) (u_w u) He0 C1 Hl U1 U2)
      as [W0 [W1 [W2 [W3 [W4 [W5 [W6 W7]]]]]]].
    eapply warp_ok_of_window; eassumption.
  - destruct (nonzero (c_Wf c)); [|exact I]. cbn [opt_ok].
    destruct (freq_warp_window eps (c_Wf c) F (u_v0 u) (u_v u) He0 C2 HF U3 U4)
      as [W0 [W1 [W2 [W3 [W4 [W5 [W6 W7]]]]]]].
    eapply warp_ok_of_window; eassumption.
  - destruct (negb (c_Mt c =? 0)%Z && nonzero (c_pt c) && negb (Nat.eqb (c_nt c) 0) && nonzero (c_npt c));
      [|exact I].
    cbn [opt_ok]. apply time_masks_ok; auto.
  - destruct (negb (c_Mf c =? 0)%Z && negb (Nat.eqb (c_nf c) 0)); [|exact I].
    cbn [opt_ok]. apply freq_masks_ok; auto.
Qed.

(* ---- the boolean checker used by the harness is the declarative spec ------------- *)
Lemma tmask_okb_iff : forall s c len b, tmask_okb s c len b = true <-> tmask_ok s c len b.
Proof.
  intros. unfold tmask_okb, tmask_ok. rewrite !andb_true_iff, !Z.leb_le, Qle_bool_iff. tauto.
Qed.

Lemma fmask_okb_iff : forall c F b, fmask_okb c F b = true <-> fmask_ok c F b.
Proof. intros. unfold fmask_okb, fmask_ok. rewrite !andb_true_iff, !Z.leb_le. tauto. Qed.

Lemma forallb_iff : forall {A} (f : A -> bool) (P : A -> Prop) l,
  (forall x, f x = true <-> P x) -> (forallb f l = true <-> Forall P l).
Proof.
  intros A f P l H. rewrite forallb_forall, Forall_forall. split; intros G x Hx; apply H, G, Hx.
Qed.

Lemma draw_okb_iff : forall ws ps c F len p,
  draw_okb ws ps c F len p = true <-> draw_ok ws ps c F len p.
Proof.
  intros. unfold draw_okb, draw_ok. rewrite !andb_true_iff.
  assert (Hw : forall Wmax l o, opt_okb (warp_okb ws Wmax l) o = true <-> opt_ok (warp_ok ws Wmax l) o).
  { intros Wmax l [q|]; cbn [opt_okb opt_ok]; [|tauto].
    unfold warp_okb, warp_ok. rewrite !andb_true_iff, !Qle_bool_iff. tauto. }
  assert (Ht : opt_okb (tmasks_okb ps c len) (p_tm p) = true <-> opt_ok (tmasks_ok ps c len) (p_tm p)).
  { destruct (p_tm p) as [l|]; cbn [opt_okb opt_ok]; [|tauto].
    unfold tmasks_okb, tmasks_ok. rewrite !andb_true_iff, Nat.eqb_eq, Z.leb_le, Qle_bool_iff.
    rewrite (forallb_iff _ _ l (tmask_okb_iff ps c len)). tauto. }
  assert (Hf : opt_okb (fmasks_okb c F) (p_fm p) = true <-> opt_ok (fmasks_ok c F) (p_fm p)).
  { destruct (p_fm p) as [l|]; cbn [opt_okb opt_ok]; [|tauto].
    unfold fmasks_okb, fmasks_ok. rewrite !andb_true_iff, Nat.eqb_eq.
    rewrite (forallb_iff _ _ l (fmask_okb_iff c F)). tauto. }
  rewrite (Hw (c_Wt c) len), (Hw (c_Wf c) F), Ht, Hf. tauto.
Qed.
