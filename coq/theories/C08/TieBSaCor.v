(* C08, second tie - corollary about the interpreted wrapper `spec_augment` (no warp configured, training mode, exact
   arithmetic): COMPOSITION of TieBSa.sa_nowarp_run (source = draw then apply_masks) with the model theorems on the
   drawn masks (ProofsDraw.time_masks_ok / freq_masks_ok) and on masking (ProofsMask.apply_masks_cell): every cell the
   interpreted source changes is set to 0.0 and lies in a drawn band; every drawn time band lies inside the valid
   length of its batch element and obeys the width / count caps, every frequency band inside [0, F]; every other
   cell is the input's cell. *)
From Coq Require Import ZArith QArith Qround List Bool Arith Lia.
From PV Require Import C08.Model C08.Spec C08.ProofsDraw C08.ProofsRound C08.Proofs.
From PV Require Import MiniPy.Syntax MiniPy.Interp MiniTorch.OpsC08 MiniTorch.OpsC08B MiniTorch.LemmasC08B.
From PV Require Import C08.SrcRun C08.SrcRunB C08.TieBlocks2 C08.TieModel C08.TieCor C08.TieBApply C08.TieB C08.TieBSa.
From PV Require C08.ProofsMask.
Import ListNotations.
Local Open Scope Q_scope.

Theorem sa_masks_inside_valid : forall spl gso rnd eps c N T F cells order lens,
  0 < eps -> eps <= 1 -> (0 <= c_Mt c)%Z -> (0 <= c_Mf c)%Z -> 0 <= c_pt c /\ c_pt c <= 1 -> 0 <= c_npt c ->
  (forall k i, unit_u (rnd k i)) -> lens_ok N T lens ->
  nonzero (c_Wt c) = false -> nonzero (c_Wf c) = false ->
  exists st out,
    run_sa exact spl gso rnd eps (T3 N T F cells) c order lens true = Ok (enc_c eps (mkTn [N; T; F] out)) st
    /\ forall n, (n < N)%nat -> exists tm fm,
         opt_ok (tmasks_ok 0 c (len_of T lens n)) tm /\ opt_ok (fmasks_ok c (Z.of_nat F)) fm
         /\ forall t f, (t < T)%nat -> (f < F)%nat ->
              (masked_cell tm fm (Z.of_nat t) (Z.of_nat f) -> get3 VNone T F out n t f = VQ 0)
              /\ (~ masked_cell tm fm (Z.of_nat t) (Z.of_nat f) -> get3 VNone T F out n t f = cells n t f).
Proof.
  intros spl gso rnd eps c N T F cells order lens E0 E1 HMt HMf Hpt Hnpt Hu Hl HWt HWf.
  destruct (sa_nowarp_run exact exact_laws spl gso rnd eps c N T F cells order lens Hl HWt HWf) as [st [out [E H]]].
  exists st, out. split; [exact E|]. intros n Hn.
  specialize (H n Hn). cbv zeta in H.
  set (p := draw (pyq exact) eps c (Z.of_nat F) (len_of T lens n) (uv_of rnd c n)) in *.
  exists (p_tm p), (p_fm p).
  destruct (draw_masks_ok rnd eps c N T F lens n E0 E1 HMt HMf Hpt Hnpt Hu Hl Hn) as [Mt Mf].
  split; [exact Mt|]. split; [exact Mf|]. exact (apply_masks_cells N T F cells out _ _ n Hn H).
Qed.
