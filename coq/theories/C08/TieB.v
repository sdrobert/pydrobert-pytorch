(* C08, second tie - the theorems about the interpreted `spec_augment_apply_parameters` (unit C08BSrc) that
   Properties.v states.  See TieBApply.v (whole body without a warp) and TieBMask.v (the masking blocks).

   [apply_nowarp_tie]: for EVERY arithmetic, EVERY oracle pair and EVERY [nested] (no kernel and no translated
   function is called on this path), every feature tensor (N, T, F) of arbitrary cells, lengths omitted or N values in
   (0, T], warp parameters None or without element, each mask group OFF (a parameter None or without element) or ON
   (two long tensors of one shape (N, M) with an element): interpreting the source returns a tensor of the input's
   shape whose batch element n is Model.apply_masks (VQ 0) on the (start, width) pairs of row n.
   [apply_nowarp_cells]: composed with ProofsMask.apply_masks_cell - purely about the interpreted source. *)
From Coq Require Import ZArith QArith Qround List String Bool Arith Lia.
From PV Require Import MiniPy.Syntax MiniPy.Interp MiniTorch.Ops MiniTorch.OpsC08 MiniTorch.LemmasC08.
From PV Require Import MiniTorch.OpsC08B MiniTorch.LemmasC08B.
From PV Require Import Gen.C08BSrc C08.SrcRun C08.SrcRunB C08.TieBLib C08.TieBMask C08.TieBApply.
From PV Require C08.Model C08.Spec C08.ProofsMask MiniTorch.Lemmas.
Import ListNotations.
Local Open Scope string_scope.
Local Open Scope list_scope.

Theorem apply_nowarp_tie : forall a spl gso nested eps N T F cells pw0 pw pv0 pv tm fm order lens,
  lens_okB N T lens ->
  (par_on pw0 && par_on pw)%bool = false -> (par_on pv0 && par_on pv)%bool = false ->
  mspec_ok N tm -> mspec_ok N fm ->
  exists st out,
    Interp.run (ext_core a spl gso nested) apply_body
      (apply_vars eps (T3 N T F cells) (enc_pars (pars_nowarp N pw0 pw pv0 pv tm fm)) order lens)
    = Ok (enc_c eps (mkTn [N; T; F] out)) st
    /\ events st = []
    /\ forall n, (n < N)%nat ->
         img_of VNone T F out n
         = Model.apply_masks (VQ 0) (mspec_bands tm n) (mspec_bands fm n) (img_of VNone T F (tabl3 N T F cells) n).
Proof.
  intros a spl gso nested eps N T F cells pw0 pw pv0 pv tm fm order lens Hl Hw Hv Htm Hfm.
  destruct (apply_nowarp_run a spl gso nested eps N T F cells pw0 pw pv0 pv tm fm order lens [] Hl Hw Hv Htm Hfm) as [vs' E].
  exists (mkState vs' []), (tabl3 N T F (filled (mspec_t tm) (mspec_f fm) cells)).
  split; [|split].
  - unfold Interp.run. rewrite E. reflexivity.
  - reflexivity.
  - intros n Hn. now apply filled_is_apply_masks.
Qed.

Lemma img_of_row {X} (d : X) T F l n t : (t < T)%nat ->
  nth t (img_of d T F l n) [] = map (fun f0 => get3 d T F l n t f0) (seq 0 F).
Proof.
  intros Ht. unfold img_of.
  rewrite (nth_indep _ [] (map (fun f0 => get3 d T F l n 0 f0) (seq 0 F))) by now rewrite map_length, seq_length.
  now rewrite (MiniTorch.Lemmas.nth_map_seq (fun t0 => map (fun f0 => get3 d T F l n t0 f0) (seq 0 F))) by exact Ht.
Qed.

Lemma img_of_cell {X} (d : X) T F l n t f : (t < T)%nat -> (f < F)%nat ->
  nth f (nth t (img_of d T F l n) []) d = get3 d T F l n t f.
Proof.
  intros Ht Hf. rewrite img_of_row by exact Ht.
  now rewrite (MiniTorch.Lemmas.nth_map_seq (fun f0 => get3 d T F l n t f0)) by exact Hf.
Qed.

Lemma img_of_shape {X} (d : X) T F l n : List.length (img_of d T F l n) = T
  /\ forall t, (t < T)%nat -> List.length (nth t (img_of d T F l n) []) = F.
Proof.
  split; [unfold img_of; now rewrite map_length, seq_length|]. intros t Ht.
  rewrite img_of_row by exact Ht. now rewrite map_length, seq_length.
Qed.

Lemma apply_masks_cells N T F (cells : nat -> nat -> nat -> val) out tm fm n : (n < N)%nat ->
  img_of VNone T F out n = Model.apply_masks (VQ 0) tm fm (img_of VNone T F (tabl3 N T F cells) n) ->
  forall t f, (t < T)%nat -> (f < F)%nat ->
    (Spec.masked_cell tm fm (Z.of_nat t) (Z.of_nat f) -> get3 VNone T F out n t f = VQ 0)
    /\ (~ Spec.masked_cell tm fm (Z.of_nat t) (Z.of_nat f) -> get3 VNone T F out n t f = cells n t f).
Proof.
  intros Hn Himg t f Ht Hf. rewrite <- (img_of_cell VNone T F out n t f Ht Hf), Himg.
  destruct (img_of_shape VNone T F (tabl3 N T F cells) n) as [HT HF].
  assert (Ht' : (t < List.length (img_of VNone T F (tabl3 N T F cells) n))%nat) by now rewrite HT.
  assert (Hf' : (f < List.length (nth t (img_of VNone T F (tabl3 N T F cells) n) []))%nat) by now rewrite (HF t Ht).
  destruct (ProofsMask.apply_masks_cell (VQ 0) tm fm _ t f VNone Ht' Hf') as [A B].
  split; [exact A|]. intros Hm. rewrite (B Hm), (img_of_cell VNone T F _ n t f Ht Hf). now apply get3_tabl3.
Qed.

(* purely about the interpreted source: every cell inside a time band or a frequency band of its batch element is
   the float 0.0, every other cell is the input's cell *)
Theorem apply_nowarp_cells : forall a spl gso nested eps N T F cells pw0 pw pv0 pv tm fm order lens,
  lens_okB N T lens ->
  (par_on pw0 && par_on pw)%bool = false -> (par_on pv0 && par_on pv)%bool = false ->
  mspec_ok N tm -> mspec_ok N fm ->
  exists st out,
    Interp.run (ext_core a spl gso nested) apply_body
      (apply_vars eps (T3 N T F cells) (enc_pars (pars_nowarp N pw0 pw pv0 pv tm fm)) order lens)
    = Ok (enc_c eps (mkTn [N; T; F] out)) st
    /\ forall n t f, (n < N)%nat -> (t < T)%nat -> (f < F)%nat ->
         (Spec.masked_cell (mspec_bands tm n) (mspec_bands fm n) (Z.of_nat t) (Z.of_nat f) -> get3 VNone T F out n t f = VQ 0)
         /\ (~ Spec.masked_cell (mspec_bands tm n) (mspec_bands fm n) (Z.of_nat t) (Z.of_nat f) -> get3 VNone T F out n t f = cells n t f).
Proof.
  intros a spl gso nested eps N T F cells pw0 pw pv0 pv tm fm order lens Hl Hw Hv Htm Hfm.
  destruct (apply_nowarp_tie a spl gso nested eps N T F cells pw0 pw pv0 pv tm fm order lens Hl Hw Hv Htm Hfm)
    as [st [out [E [_ Himg]]]].
  exists st, out. split; [exact E|]. intros n t f Hn. exact (apply_masks_cells N T F cells out _ _ n Hn (Himg n Hn) t f).
Qed.

(* the time-mask block in the model's vocabulary *)
Theorem tmask_block : forall a spl gso nested vs ev N M T f0 f,
  lookup "t_0" vs = Some (enc_l (T2 N M f0)) -> lookup "t" vs = Some (enc_l (T2 N M f)) ->
  Nat.eqb (numel [N; M]) 0 = false ->
  lookup "T" vs = Some (VInt (Z.of_nat T)) -> lookup "device" vs = Some device_token ->
  exists vs', exec (ext_core a spl gso nested) apply_tmask (mkState vs ev) = Ok CNormal (mkState vs' ev)
    /\ lookup "tmask" vs' = Some (enc_b (T3 N T 1 (fun n t _ => Model.masked (map (fun h => (f0 n h, f n h)) (seq 0 M)) (Z.of_nat t))))
    /\ forall x, String.eqb x "tmask" = false -> String.eqb x "t_1" = false -> lookup x vs' = lookup x vs.
Proof.
  intros a spl gso nested vs ev N M T f0 f H0 H1 Hn HT Hd.
  destruct (tmask_on_run a spl gso nested vs ev N M T f0 f H0 H1 Hn HT Hd) as [vs' [E [L K]]].
  exists vs'. split; [exact E|]. split; [|exact K]. rewrite L. do 2 f_equal.
  apply T3_ext. intros n t h _ _ _. apply s_any_masked.
Qed.
