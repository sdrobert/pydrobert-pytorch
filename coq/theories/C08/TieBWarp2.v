(* C08, second tie - `warp_1d_grid` WHOLE BODY (unit C08BSrc, warp_body) with max_length given, exact arithmetic:
   head (device, N, T, .float() x 3, eps), the knot block (TieBWarp.knots_run), tail (query points, the spline ORACLE,
   squeeze).  The returned (N, T) grid is the oracle's answer, and the oracle is asked exactly once, with the (N, 3, 1)
   knot tensors of Model.warp_knots (float32 eps) and the (N, T, 1) query points coord T i. *)
From Coq Require Import ZArith QArith Qround List String Bool Arith Lia.
From PV Require Import MiniPy.Syntax MiniPy.Interp MiniTorch.Ops MiniTorch.OpsC08 MiniTorch.LemmasC08.
From PV Require Import MiniTorch.OpsC08B MiniTorch.LemmasC08B.
From PV Require Import Gen.C08BSrc C08.SrcRun C08.TieLib C08.SrcRunB C08.TieBLib C08.TieBMask C08.TieBWarp.
From PV Require C08.Model MiniTorch.Lemmas.
Import ListNotations.
Local Open Scope string_scope.


Section ExtW2.
  Variable a : Model.arith.
  Variable spl : nat -> list val -> list Q.
  Variable gso : nat -> list val -> list val.
  Variable nested : string -> list val -> state -> option (outcome val).
  Notation ext := (ext_core a spl gso nested).

  Ltac ext_tac := lazy [ext_core operatorB SrcRun.operator shape_op is String.eqb Ascii.eqb Bool.eqb no_kw negb];
    rewrite ?dec_B_f, ?dec_B_l, ?dec_any_enc_f, ?dec_any_enc_l; cbn; rewrite ?dec_any_enc_f, ?dec_any_enc_l; cbn; try reflexivity.

  Lemma extW_float_f t st : ext "$method.float" [enc_f t] [] st = Ok (enc_f (float_of_float a t)) st.
  Proof. ext_tac. Qed.
  Lemma extW_eps t st : ext "_get_tensor_eps" [enc_f t] [] st = Ok (VQ Model.eps32) st.
  Proof. ext_tac. Qed.
  Lemma extW_mul_ql (s : Q) t st : ext "operator" [VStr "mul"; VQ s; enc_l t] [] st = Ok (enc_f (mul_ls a t s)) st.
  Proof. ext_tac. Qed.
  Lemma extW_expand2 t (n m : nat) st :
    ext "$method.expand" [enc_f t; VInt (Z.of_nat n); VInt (Z.of_nat m)] [] st = ret_f "expand" (expand 0%Q t [n; m]) st.
  Proof. unfold ext_core, shape_op. cbn. rewrite !leb_0_of_nat. cbn. rewrite !Nat2Z.id, dec_B_f. reflexivity. Qed.

  (* the spline oracle answers from the stream indexed by the number of calls made so far, and is recorded *)
  Lemma extW_spline n k T c f x (o : Z) vs ev :
    let args := [enc_f (mkTn [n; k; 1%nat] c); enc_f (mkTn [n; k; 1%nat] f); enc_f (mkTn [n; T; 1%nat] x); VInt o] in
    ext "polyharmonic_spline" args [] (mkState vs ev)
    = Ok (enc_f (mkTn [n; T; 1%nat] (take 0%Q (n * T) (spl (List.length ev) args))))
         (mkState vs (ev ++ [("polyharmonic_spline", args)])).
  Proof. unfold ext_core. cbn. rewrite !dec_any_enc_f. cbn. rewrite !Nat.eqb_refl. reflexivity. Qed.
End ExtW2.

Lemma unsqueeze_T2_m1 {X} n m (f : nat -> nat -> X) : unsqueeze (T2 n m f) (-1) = Some (T3 n m 1 (fun i j _ => f i j)).
Proof.
  unfold unsqueeze, T2, T3. cbn [shp dat length].
  change (wrap_dim 3 (-1)) with (Some 2%nat). cbn [firstn skipn app]. now rewrite tabl_tabl3_col.
Qed.

Lemma expand_row {X} (d : X) n m (q : nat -> X) : expand d (T2 1 m (fun _ j => q j)) [n; m] = Some (T2 n m (fun _ j => q j)).
Proof.
  unfold expand, T2. cbn [shp List.length Nat.eqb as3]. unfold exp_ok. cbn [Nat.eqb orb andb]. rewrite Nat.eqb_refl, orb_true_r. cbn [orb andb].
  f_equal. f_equal. unfold tabl3. cbn [seq flat_map dat]. rewrite app_nil_r. apply tabl_ext. intros j h Hj Hh.
  rewrite !bidx_one, (bidx_self m h Hh). unfold get3.
  change (nth ((0 * 1 + 0) * m + h) (tabl 1 m (fun _ j0 => q j0)) d) with (get2 d m (tabl 1 m (fun _ j0 => q j0)) 0 h).
  now rewrite get2_tabl by lia.
Qed.

Lemma squeeze_last {X} n m (d : list X) : squeeze (mkTn [n; m; 1%nat] d) (-1) = Some (mkTn [n; m] d).
Proof. reflexivity. Qed.

From PV Require Import C08.TieBApply.

Lemma body_splitW ext st : exec ext warp_body st = exec ext (SSeq warp_head (SSeq warp_knots warp_tail)) st.
Proof. apply flat_eq. reflexivity. Qed.

#[local] Opaque ext_core.

#[global] Hint Resolve extW_float_f extW_eps extW_mul_ql extW_expand2 extW_spline : extB.
Ltac opsW2_rw := progress (unfold float_of_float, mul_ls, arange_l;
  rewrite ?tmap_T1, ?unsqueeze_T2_m1, ?unsqueeze_T1_0, ?expand_row, ?squeeze_last).
Ltac leafV := leaf ext_eqB ltac:(first [ opsW_rw | opsW2_rw ]).
Ltac runV := etransitivity; [ step leafV | ].

(* the query points (2.0 * arange(T) + 1.0) / T - 1.0 as coded *)
Definition wq (a : Model.arith) (T i : nat) : Q :=
  Model.r32 a (Model.r32 a (Model.r32 a (Model.r32 a (Model.r32 a (Model.z2q (Z.of_nat i)) * sc a (2 # 1)) + sc a (1 # 1))
                  / sc a (inject_Z (Z.of_nat T))) - sc a (1 # 1)).

Section Whole.
  Variable a : Model.arith.
  Variable spl : nat -> list val -> list Q.
  Variable gso : nat -> list val -> list val.
  Variable nested : string -> list val -> state -> option (outcome val).
  Notation ext := (ext_core a spl gso nested).
  Notation r32 := (Model.r32 a).

  Lemma headW_run N T (s fl L : nat -> Q) order ev :
    exists vs1,
      exec ext warp_head (mkState (warp_vars (enc_f (T1 N s)) (enc_f (T1 N fl)) (enc_f (T1 N L)) (Some (Z.of_nat T)) order) ev)
      = Ok CNormal (mkState vs1 ev)
      /\ lookup "src" vs1 = Some (enc_f (T1 N (fun n => r32 (s n)))) /\ lookup "flow" vs1 = Some (enc_f (T1 N (fun n => r32 (fl n))))
      /\ lookup "lengths" vs1 = Some (enc_f (T1 N (fun n => r32 (L n)))) /\ lookup "T" vs1 = Some (VInt (Z.of_nat T))
      /\ lookup "eps" vs1 = Some (VQ Model.eps32) /\ lookup "N" vs1 = Some (VInt (Z.of_nat N))
      /\ lookup "device" vs1 = Some device_token
      /\ lookup "torch" vs1 = Some (VDict [(VStr "float", float_token); (VStr "long", long_token)])
      /\ lookup "interpolation_order" vs1 = Some (VInt order).
  Proof.
    unfold warp_head, warp_vars, globalsB. set (vs0 := (_ ++ _)%list). eexists. split.
    - runV. reflexivity.
    - repeat split; reflexivity.
  Qed.

  Definition spl_args (N T : nat) (ks kd : nat -> nat -> Q) (order : Z) : list val :=
    [enc_f (T3 N 3 1 (fun n j _ => kd n j)); enc_f (T3 N 3 1 (fun n j _ => ks n j));
     enc_f (T3 N T 1 (fun _ i _ => wq a T i)); VInt order].

  Lemma tailW_run vs ev N T ks kd order :
    lookup "src" vs = Some (enc_f (T2 N 3 ks)) -> lookup "dst" vs = Some (enc_f (T2 N 3 kd)) ->
    lookup "T" vs = Some (VInt (Z.of_nat T)) -> lookup "N" vs = Some (VInt (Z.of_nat N)) ->
    lookup "device" vs = Some device_token -> lookup "interpolation_order" vs = Some (VInt order) ->
    Qeq_bool (sc a (inject_Z (Z.of_nat T))) 0 = false ->
    exists vs', exec ext warp_tail (mkState vs ev)
      = Ok (CReturn (enc_f (mkTn [N; T] (take 0%Q (N * T) (spl (List.length ev) (spl_args N T ks kd order))))))
           (mkState vs' (ev ++ [("polyharmonic_spline", spl_args N T ks kd order)])).
  Proof.
    intros Hs Hd HT HN Hdev Ho Z2. unfold warp_tail, spl_args. eexists. runV. reflexivity.
  Qed.
End Whole.

Section Compose.
  Variable a : Model.arith.
  Variable spl : nat -> list val -> list Q.
  Variable gso : nat -> list val -> list val.
  Variable nested : string -> list val -> state -> option (outcome val).
  Notation r32 := (Model.r32 a).

  (* the knots of batch element n as the body computes them from the arguments (after .float()) *)
  Definition ks_of (T : nat) (s L : nat -> Q) (n j : nat) : Q :=
    nth j [wk_lo a T Model.eps32; wk_src a T (r32 (s n)) (r32 (L n)); wk_up a T Model.eps32 (r32 (L n))] 0%Q.
  Definition kd_of (T : nat) (s fl L : nat -> Q) (n j : nat) : Q :=
    nth j [wk_lo a T Model.eps32; wk_dst a T (r32 (s n)) (r32 (fl n)) (r32 (L n)); wk_up a T Model.eps32 (r32 (L n))] 0%Q.

  Theorem warp_run N T (s fl L : nat -> Q) order :
    Qeq_bool (inject_Z (Z.of_nat T)) 0 = false -> Qeq_bool (sc a (inject_Z (Z.of_nat T))) 0 = false ->
    exists st,
      Interp.run (ext_core a spl gso nested) warp_body
        (warp_vars (enc_f (T1 N s)) (enc_f (T1 N fl)) (enc_f (T1 N L)) (Some (Z.of_nat T)) order)
      = Ok (enc_f (mkTn [N; T] (take 0%Q (N * T) (spl 0%nat (spl_args a N T (ks_of T s L) (kd_of T s fl L) order))))) st
      /\ events st = [("polyharmonic_spline", spl_args a N T (ks_of T s L) (kd_of T s fl L) order)].
  Proof.
    intros Z1 Z2. unfold Interp.run. rewrite body_splitW.
    destruct (headW_run a spl gso nested N T s fl L order []) as [vs1 [E1 [Ls [Lf [LL [LT [Le [LN [Ld [Lt Lo]]]]]]]]]].
    rewrite (exec_seq_ok _ _ _ _ _ E1).
    destruct (knots_run a spl gso nested vs1 [] N T Model.eps32 _ _ _ Ls Lf LL LT Le LN Ld Lt Z1 Z2) as [vs2 [E2 [Ks [Kd K]]]].
    rewrite (exec_seq_ok _ _ _ _ _ E2).
    destruct (tailW_run a spl gso nested vs2 [] N T _ _ order Ks Kd) as [vs3 E3];
      try (rewrite K by reflexivity; assumption); [exact Z2|].
    rewrite E3. eexists. split; reflexivity.
  Qed.
End Compose.

(* exact arithmetic: the oracle is asked with Model.warp_knots and the query points coord T i *)
Lemma wq_model T i : (wq Model.exact T i == Model.coord (Z.of_nat T) (Model.z2q (Z.of_nat i)))%Q.
Proof.
  unfold wq, Model.coord, OpsC08.sc, Model.z2q. cbn [Model.r32 Model.exact].
  change (1 # 1)%Q with 1%Q. change (2 # 1)%Q with 2%Q. unfold Qdiv. ring.
Qed.

Theorem warp_run_exact : forall spl gso nested N T (s fl L : nat -> Q) order, T <> 0%nat ->
  exists st ks kd,
    Interp.run (ext_core Model.exact spl gso nested) warp_body
      (warp_vars (enc_f (T1 N s)) (enc_f (T1 N fl)) (enc_f (T1 N L)) (Some (Z.of_nat T)) order)
    = Ok (enc_f (mkTn [N; T] (take 0%Q (N * T) (spl 0%nat (spl_args Model.exact N T ks kd order))))) st
    /\ events st = [("polyharmonic_spline", spl_args Model.exact N T ks kd order)]
    /\ (forall n, let k := Model.warp_knots Model.eps32 (Z.of_nat T) (s n) (fl n) (L n) in
          (ks n 0%nat == Model.k_lo k /\ ks n 1%nat == Model.k_src k /\ ks n 2%nat == Model.k_up k
           /\ kd n 0%nat == Model.k_lo k /\ kd n 1%nat == Model.k_dst k /\ kd n 2%nat == Model.k_up k)%Q)
    /\ forall i, (wq Model.exact T i == Model.coord (Z.of_nat T) (Model.z2q (Z.of_nat i)))%Q.
Proof.
  intros spl gso nested N T s fl L order HT.
  destruct (warp_run Model.exact spl gso nested N T s fl L order (of_nat_nz T HT) (of_nat_nz T HT)) as [st [E Ev]].
  exists st, (ks_of Model.exact T s L), (kd_of Model.exact T s fl L). split; [exact E|]. split; [exact Ev|]. split.
  - intros n. cbv zeta. unfold ks_of, kd_of. cbn [nth Model.r32 Model.exact].
    destruct (wk_model Model.eps32 T (s n) (fl n) (L n)) as [A [B [C D]]]. repeat split; assumption.
  - intros i. apply wq_model.
Qed.
