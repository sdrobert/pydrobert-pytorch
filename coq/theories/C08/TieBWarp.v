(* C08, second tie - `warp_1d_grid`, the KNOT CONSTRUCTION block (unit C08BSrc, warp_knots: from
   `src = torch.min(src, lengths - 1).clamp_min(0)` to `dst = torch.stack([lowers, dst, uppers], 1)`), run symbolically
   from an arbitrary state under [ext_core a spl gso nested] (any oracles, any nested): the two (N, 3) tensors handed to
   polyharmonic_spline hold, per batch element, the knots (lowers, src | dst, uppers) computed with the float32 rounding
   [r32 a] after every tensor operation ([wk_*], as coded); at the exact arithmetic they are PV.C08.Model.warp_knots
   (pinned boundaries lowers = 1/T - 1 - eps, uppers = (2 len - 1)/T - 1 + eps; clamped source / destination). *)
From Coq Require Import ZArith QArith Qround List String Bool Arith Lia.
From PV Require Import MiniPy.Syntax MiniPy.Interp MiniTorch.Ops MiniTorch.OpsC08 MiniTorch.LemmasC08.
From PV Require Import MiniTorch.OpsC08B MiniTorch.LemmasC08B.
From PV Require Import Gen.C08BSrc C08.SrcRun C08.TieLib C08.SrcRunB C08.TieBLib C08.TieBMask.
From PV Require C08.Model MiniTorch.Lemmas.
Import ListNotations.
Local Open Scope string_scope.


(* ---- what reaches ext_core in this block ------------------------------------------------------------------------ *)
Section ExtW.
  Variable a : Model.arith.
  Variable spl : nat -> list val -> list Q.
  Variable gso : nat -> list val -> list val.
  Variable nested : string -> list val -> state -> option (outcome val).
  Notation ext := (ext_core a spl gso nested).

  Ltac ext_tac := lazy [ext_core operatorB is String.eqb Ascii.eqb Bool.eqb no_kw negb];
    rewrite ?dec_any_enc_f, ?dec_any_enc_l; cbn; rewrite ?dec_any_enc_f, ?dec_any_enc_l; cbn; try reflexivity.

  Lemma extW_min t u st : ext "torch.min" [enc_f t; enc_f u] [] st = ret_f "min" (min_t t u) st.
  Proof. ext_tac. Qed.
  Lemma extW_clamp_min t (k : Z) st : ext "$method.clamp_min" [enc_f t; VInt k] [] st = Ok (enc_f (clamp_min a t (inject_Z k))) st.
  Proof. ext_tac. Qed.
  Lemma extW_stack3 x y z (d : Z) st :
    ext "torch.stack" [VList [enc_f x; enc_f y; enc_f z]; VInt d] [] st = ret_f "stack" (stack_last 0%Q [x; y; z] d) st.
  Proof. unfold ext_core. cbn. unfold dec_fs. cbn. rewrite !dec_any_enc_f. reflexivity. Qed.
End ExtW.

(* stacking three vectors: the (n, 3) matrix of their entries *)
Lemma stack3_T1 n (x y z : nat -> Q) :
  stack_last 0%Q [T1 n x; T1 n y; T1 n z] 1 = Some (T2 n 3 (fun i j => nth j [x i; y i; z i] 0%Q)).
Proof.
  unfold stack_last, T1, T2. cbn [shp].
  match goal with |- (if ?c then _ else _) = _ => replace c with true by (cbn; now rewrite Nat.eqb_refl) end.
  cbn [dat List.length app]. f_equal. f_equal.
  unfold numel. cbn [fold_right app]. rewrite Nat.mul_1_r. unfold tabl.
  apply MiniTorch.Lemmas.flat_map_ext_in. intros i Hi. apply in_seq in Hi. cbn [map seq nth].
  cbn [dat]. rewrite !(MiniTorch.Lemmas.nth_map_seq _ n i) by lia. reflexivity.
Qed.

(* ---- the knots as coded ------------------------------------------------------------------------------------------- *)
Section Knots.
  Variable a : Model.arith.
  Notation r32 := (Model.r32 a).
  Notation sc := (OpsC08.sc a).
  Local Open Scope Q_scope.

  (* torch.min(x, lengths - 1).clamp_min(0) *)
  Definition wk_clamp (x l : Q) : Q := Model.qmax (Model.qmin x (r32 (l - sc (inject_Z 1)))) (sc (inject_Z 0)).
  (* (2.0 * x + 1.0) / T - 1.0 *)
  Definition wk_coord (T : nat) (x : Q) : Q :=
    r32 (r32 (r32 (r32 (x * sc (2 # 1)) + sc (1 # 1)) / sc (inject_Z (Z.of_nat T))) - sc (1 # 1)).
  Definition wk_src (T : nat) (s l : Q) : Q := wk_coord T (wk_clamp s l).
  Definition wk_dst (T : nat) (s fl l : Q) : Q := wk_coord T (wk_clamp (r32 (wk_clamp s l + fl)) l).
  (* torch.full((N,), 1 / T - 1 - eps, dtype=torch.float): Python arithmetic (exact), then float32 *)
  Definition wk_lo (T : nat) (eps : Q) : Q :=
    r32 (Qred (Qred (Qred (inject_Z 1 / inject_Z (Z.of_nat T)) - inject_Z 1) - eps)).
  (* (2 * lengths - 1) / T - 1.0 + eps *)
  Definition wk_up (T : nat) (eps l : Q) : Q :=
    r32 (r32 (r32 (r32 (r32 (l * sc (inject_Z 2)) - sc (inject_Z 1)) / sc (inject_Z (Z.of_nat T))) - sc (1 # 1)) + sc eps).
End Knots.

#[local] Opaque ext_core.

#[global] Hint Resolve extW_min extW_clamp_min extW_stack3 : extB.
Ltac opsW_rw := progress (unfold min_t, clamp_min, sub_s, add_s, mul_s, div_s, add_t, full_q;
  rewrite ?tmap_T1, ?bc2_T1_T1, ?stack3_T1).
Ltac leafW := leaf ext_eqB opsW_rw.
Ltac runW := etransitivity; [ step leafW | ].

Section Block.
  Variable a : Model.arith.
  Variable spl : nat -> list val -> list Q.
  Variable gso : nat -> list val -> list val.
  Variable nested : string -> list val -> state -> option (outcome val).
  Notation ext := (ext_core a spl gso nested).

  Lemma knots_run vs ev N T eps (s fl L : nat -> Q) :
    lookup "src" vs = Some (enc_f (T1 N s)) -> lookup "flow" vs = Some (enc_f (T1 N fl)) ->
    lookup "lengths" vs = Some (enc_f (T1 N L)) -> lookup "T" vs = Some (VInt (Z.of_nat T)) ->
    lookup "eps" vs = Some (VQ eps) -> lookup "N" vs = Some (VInt (Z.of_nat N)) ->
    lookup "device" vs = Some device_token ->
    lookup "torch" vs = Some (VDict [(VStr "float", float_token); (VStr "long", long_token)]) ->
    Qeq_bool (inject_Z (Z.of_nat T)) 0 = false -> Qeq_bool (sc a (inject_Z (Z.of_nat T))) 0 = false ->
    exists vs', exec ext warp_knots (mkState vs ev) = Ok CNormal (mkState vs' ev)
      /\ lookup "src" vs' = Some (enc_f (T2 N 3 (fun n j => nth j [wk_lo a T eps; wk_src a T (s n) (L n); wk_up a T eps (L n)] 0%Q)))
      /\ lookup "dst" vs' = Some (enc_f (T2 N 3 (fun n j => nth j [wk_lo a T eps; wk_dst a T (s n) (fl n) (L n); wk_up a T eps (L n)] 0%Q)))
      /\ forall x, String.eqb x "src" = false -> String.eqb x "dst" = false -> String.eqb x "lowers" = false ->
                   String.eqb x "uppers" = false -> lookup x vs' = lookup x vs.
  Proof.
    intros Hs Hf HL HT He HN Hd Ht Z1 Z2. unfold warp_knots.
    eexists. split; [|split; [|split]].
    - runW. reflexivity.
    - rewrite !lookup_update. reflexivity.
    - rewrite !lookup_update. reflexivity.
    - intros x H1 H2 H3 H4. rewrite !lookup_update, H1, H2, H3, H4. reflexivity.
  Qed.
End Block.

(* ---- at the exact arithmetic the knots are the model's -------------------------------------------------------------- *)
Lemma wk_model eps T s fl l :
  let k := Model.warp_knots eps (Z.of_nat T) s fl l in
  (wk_lo Model.exact T eps == Model.k_lo k)%Q /\ (wk_src Model.exact T s l == Model.k_src k)%Q
  /\ (wk_dst Model.exact T s fl l == Model.k_dst k)%Q /\ (wk_up Model.exact T eps l == Model.k_up k)%Q.
Proof.
  cbv zeta. unfold Model.warp_knots. cbn [Model.k_lo Model.k_src Model.k_dst Model.k_up].
  unfold wk_lo, wk_src, wk_dst, wk_up, wk_coord, wk_clamp, Model.coord, OpsC08.sc, Model.z2q. cbn [Model.r32 Model.exact].
  change (inject_Z 1) with 1%Q. change (inject_Z 0) with 0%Q. change (inject_Z 2) with 2%Q. change (1 # 1)%Q with 1%Q. change (2 # 1)%Q with 2%Q.
  repeat split.
  - rewrite !Qred_correct. reflexivity.
  - unfold Qdiv. ring.
  - unfold Qdiv. ring.
  - unfold Qdiv. ring.
Qed.

Lemma of_nat_nz T : T <> 0%nat -> Qeq_bool (inject_Z (Z.of_nat T)) 0 = false.
Proof.
  intros H. destruct (Qeq_bool (inject_Z (Z.of_nat T)) 0) eqn:E; [|reflexivity].
  apply Qeq_bool_iff in E. unfold Qeq, inject_Z in E. cbn [Qnum Qden] in E. lia.
Qed.

Theorem knots_block_exact : forall spl gso nested vs ev N T eps (s fl L : nat -> Q),
  lookup "src" vs = Some (enc_f (T1 N s)) -> lookup "flow" vs = Some (enc_f (T1 N fl)) ->
  lookup "lengths" vs = Some (enc_f (T1 N L)) -> lookup "T" vs = Some (VInt (Z.of_nat T)) ->
  lookup "eps" vs = Some (VQ eps) -> lookup "N" vs = Some (VInt (Z.of_nat N)) ->
  lookup "device" vs = Some device_token ->
  lookup "torch" vs = Some (VDict [(VStr "float", float_token); (VStr "long", long_token)]) ->
  T <> 0%nat ->
  exists vs' ks kd, exec (ext_core Model.exact spl gso nested) warp_knots (mkState vs ev) = Ok CNormal (mkState vs' ev)
    /\ lookup "src" vs' = Some (enc_f (T2 N 3 ks)) /\ lookup "dst" vs' = Some (enc_f (T2 N 3 kd))
    /\ forall n, let k := Model.warp_knots eps (Z.of_nat T) (s n) (fl n) (L n) in
         (ks n 0%nat == Model.k_lo k /\ ks n 1%nat == Model.k_src k /\ ks n 2%nat == Model.k_up k
          /\ kd n 0%nat == Model.k_lo k /\ kd n 1%nat == Model.k_dst k /\ kd n 2%nat == Model.k_up k)%Q.
Proof.
  intros spl gso nested vs ev N T eps s fl L Hs Hf HL HT He HN Hd Ht HT0.
  destruct (knots_run Model.exact spl gso nested vs ev N T eps s fl L Hs Hf HL HT He HN Hd Ht (of_nat_nz T HT0) (of_nat_nz T HT0))
    as [vs' [E [Ls [Ld _]]]].
  eexists. eexists. eexists. split; [exact E|]. split; [exact Ls|]. split; [exact Ld|].
  intros n. cbv zeta. cbn [nth]. destruct (wk_model eps T (s n) (fl n) (L n)) as [A [B [C D]]]. repeat split; assumption.
Qed.
