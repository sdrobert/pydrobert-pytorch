(* C08 - the [ieee] arithmetic of the correspondence (round to nearest even, 24 / 53
   significant bits, unbounded exponent) satisfies the rounding laws of ProofsRound.v.
   Hence the mask bounds proved there hold of the very function that is compared bit for
   bit with torch: for every float32 variate u <= 1 - 2^-24, floor(RN(u * RN(M + RN(1-eps))))
   <= M, including eps = 2^-52 (float64 features), where RN(1 - eps) = 1. *)
From Coq Require Import List ZArith QArith Qround Qabs Qpower Bool Lia Lqa.
From PV Require Import C08.Model C08.Spec C08.ProofsDraw C08.ProofsRound.
Import ListNotations.
Local Open Scope Q_scope.

(* ---- powers of two -------------------------------------------------------------- *)
Lemma pow2_Qpower : forall e, pow2 e == 2 ^ e.
Proof.
  intros [|p|p]; unfold pow2.
  - reflexivity.
  - change (Z.pow_pos 2 p) with (2 ^ Z.pos p)%Z. rewrite Zpower_Qpower by lia. reflexivity.
  - change (2 ^ Z.neg p) with (/ (2 ^ Z.pos p)).
    assert (E : 2 ^ Z.pos p == inject_Z (Z.pos (2 ^ p))).
    { rewrite Pos2Z.inj_pow. rewrite Zpower_Qpower by lia. reflexivity. }
    rewrite E. reflexivity.
Qed.

Lemma two_nz : ~ 2 == 0.
Proof. intro H. discriminate H. Qed.

Lemma pow2_pos : forall e, 0 < pow2 e.
Proof. intro e. rewrite pow2_Qpower. apply Qpower_0_lt. reflexivity. Qed.

Lemma pow2_add : forall a b, pow2 (a + b) == pow2 a * pow2 b.
Proof. intros. rewrite !pow2_Qpower. apply Qpower_plus, two_nz. Qed.

Lemma pow2_le : forall a b, (a <= b)%Z -> pow2 a <= pow2 b.
Proof. intros. rewrite !pow2_Qpower. apply Qpower_le_compat_l; [assumption|discriminate]. Qed.

Lemma pow2_lt : forall a b, (a < b)%Z -> pow2 a < pow2 b.
Proof. intros. rewrite !pow2_Qpower. apply Qpower_lt_compat_l; [assumption|reflexivity]. Qed.

Lemma pow2_lt_inv : forall a b, pow2 a < pow2 b -> (a < b)%Z.
Proof. intros a b H. rewrite !pow2_Qpower in H. apply (Qpower_lt_compat_l_inv 2); [exact H|reflexivity]. Qed.

Lemma pow2_int : forall e, (0 <= e)%Z -> pow2 e == inject_Z (2 ^ e).
Proof. intros e H. rewrite pow2_Qpower, Zpower_Qpower by exact H. reflexivity. Qed.

Lemma pow2_0 : pow2 0 == 1.
Proof. reflexivity. Qed.

Lemma pow2_succ : forall e, pow2 (e + 1) == 2 * pow2 e.
Proof. intro e. rewrite pow2_add. change (pow2 1) with 2. ring. Qed.

(* ---- floor(log2 x) ------------------------------------------------------------------ *)
Lemma qlog2_spec : forall x, 0 < x -> pow2 (qlog2 x) <= x /\ x < pow2 (qlog2 x + 1).
Proof.
  intros [n d] Hx.
  assert (Hn : (0 < n)%Z) by (unfold Qlt in Hx; cbn in Hx; lia).
  set (x := n # d) in *.
  set (a := Z.log2 n). set (b := Z.log2 (Z.pos d)).
  destruct (Z.log2_spec n Hn) as [A1 A2]. destruct (Z.log2_spec (Z.pos d) (Pos2Z.is_pos d)) as [B1 B2].
  fold a in A1, A2. fold b in B1, B2.
  pose proof (Z.log2_nonneg n) as A0. pose proof (Z.log2_nonneg (Z.pos d)) as B0. fold a in A0. fold b in B0.
  set (N := inject_Z n). set (D := inject_Z (Z.pos d)).
  assert (XD : x * D == N) by (unfold x, D, N, Qeq, Qmult, inject_Z; cbn; lia).
  assert (Dpos : 0 < D) by (unfold D; change 0 with (inject_Z 0); rewrite <- Zlt_Qlt; lia).
  assert (NA1 : pow2 a <= N) by (rewrite pow2_int by lia; unfold N; rewrite <- Zle_Qle; exact A1).
  assert (NA2 : N < pow2 (a + 1)) by (rewrite pow2_int by lia; unfold N; rewrite <- Zlt_Qlt; exact A2).
  assert (DB1 : pow2 b <= D) by (rewrite pow2_int by lia; unfold D; rewrite <- Zle_Qle; exact B1).
  assert (DB2 : D < pow2 (b + 1)) by (rewrite pow2_int by lia; unfold D; rewrite <- Zlt_Qlt; exact B2).
  set (e := (a - b)%Z).
  assert (U : x < pow2 (e + 1)).
  { apply (Qmult_lt_r _ _ D Dpos). rewrite XD.
    assert (E : pow2 (a + 1) == pow2 (e + 1) * pow2 b) by (rewrite <- pow2_add; replace (e + 1 + b)%Z with (a + 1)%Z by (unfold e; lia); reflexivity).
    pose proof (pow2_pos (e + 1)). nra. }
  assert (L : pow2 (e - 1) < x).
  { apply (Qmult_lt_r _ _ D Dpos). rewrite XD.
    assert (E : pow2 a == pow2 (e - 1) * pow2 (b + 1)) by (rewrite <- pow2_add; replace (e - 1 + (b + 1))%Z with a by (unfold e; lia); reflexivity).
    pose proof (pow2_pos (e - 1)). nra. }
  unfold qlog2. change (Qnum x) with n. change (Qden x) with d. fold a b e.
  destruct (Qle_bool (pow2 e) x) eqn:C.
  - apply Qle_bool_iff in C. split; assumption.
  - split; [apply Qlt_le_weak; exact L|]. replace (e - 1 + 1)%Z with e by lia.
    apply Qnot_le_lt. intro H. apply Qle_bool_iff in H. congruence.
Qed.

Lemma qlog2_unique : forall x e, 0 < x -> pow2 e <= x -> x < pow2 (e + 1) -> qlog2 x = e.
Proof.
  intros x e Hx H1 H2. destruct (qlog2_spec x Hx) as [S1 S2].
  assert (A : (e < qlog2 x + 1)%Z) by (apply pow2_lt_inv; lra).
  assert (B : (qlog2 x < e + 1)%Z) by (apply pow2_lt_inv; lra).
  lia.
Qed.

Lemma qlog2_mono : forall x y, 0 < x -> x <= y -> (qlog2 x <= qlog2 y)%Z.
Proof.
  intros x y Hx Hxy. destruct (qlog2_spec x Hx) as [S1 _].
  destruct (qlog2_spec y ltac:(lra)) as [_ T2].
  assert (A : (qlog2 x < qlog2 y + 1)%Z) by (apply pow2_lt_inv; lra). lia.
Qed.

(* ---- nearest integer, ties to even ------------------------------------------------- *)
Lemma rne_bounds : forall x, x - (1 # 2) <= inject_Z (rne x) /\ inject_Z (rne x) <= x + (1 # 2).
Proof.
  intro x. unfold rne. pose proof (Qfloor_le x) as F1. pose proof (Qlt_floor x) as F2.
  rewrite inject_Z_plus in F2. change (inject_Z 1) with 1 in F2.
  set (f := Qfloor x) in *.
  destruct (Qcompare_spec (x - inject_Z f) (1 # 2)) as [E|E|E].
  - destruct (Z.even f); [|rewrite inject_Z_plus; change (inject_Z 1) with 1]; lra.
  - lra.
  - rewrite inject_Z_plus. change (inject_Z 1) with 1. lra.
Qed.

Lemma rne_int : forall n, rne (inject_Z n) = n.
Proof.
  intro n. unfold rne. rewrite Qfloor_Z.
  destruct (Qcompare_spec (inject_Z n - inject_Z n) (1 # 2)) as [E|E|E]; [lra|reflexivity|lra].
Qed.

Lemma rne_comp : forall x y, x == y -> rne x = rne y.
Proof.
  intros x y H. unfold rne. rewrite (Qfloor_comp x y H).
  assert (C : x - inject_Z (Qfloor y) == y - inject_Z (Qfloor y)) by (rewrite H; reflexivity).
  rewrite (Qcompare_comp _ _ C (1 # 2) (1 # 2) (Qeq_refl _)). reflexivity.
Qed.

Lemma rne_mono : forall x y, x <= y -> (rne x <= rne y)%Z.
Proof.
  intros x y H. pose proof (Qfloor_resp_le x y H) as Fm.
  pose proof (Qfloor_le x) as X1. pose proof (Qlt_floor x) as X2.
  pose proof (Qfloor_le y) as Y1. pose proof (Qlt_floor y) as Y2.
  rewrite inject_Z_plus in X2, Y2. change (inject_Z 1) with 1 in X2, Y2.
  unfold rne. set (fx := Qfloor x) in *. set (fy := Qfloor y) in *.
  destruct (Z.eq_dec fx fy) as [E|E].
  - rewrite E in *.
    destruct (Qcompare_spec (x - inject_Z fy) (1 # 2)) as [A|A|A];
    destruct (Qcompare_spec (y - inject_Z fy) (1 # 2)) as [B|B|B];
    try lia; try lra; destruct (Z.even fy); lia.
  - assert (fx + 1 <= fy)%Z by lia.
    destruct (Qcompare (x - inject_Z fx) (1 # 2)); destruct (Qcompare (y - inject_Z fy) (1 # 2));
      destruct (Z.even fx); destruct (Z.even fy); lia.
Qed.

(* ---- rounding a positive rational to p significant bits ---------------------------- *)
Section RnPos.
  Variable p : Z.
  Hypothesis p_pos : (1 <= p)%Z.

  Lemma scaled_range : forall x, 0 < x ->
    let k := (qlog2 x - p + 1)%Z in
    pow2 (p - 1) <= x / pow2 k /\ x / pow2 k < pow2 p /\ x / pow2 k * pow2 k == x
    /\ pow2 (qlog2 x) == pow2 (p - 1) * pow2 k /\ pow2 (qlog2 x + 1) == pow2 p * pow2 k.
  Proof.
    intros x Hx k. destruct (qlog2_spec x Hx) as [S1 S2]. pose proof (pow2_pos k) as Kp.
    assert (E : x / pow2 k * pow2 k == x) by (field; lra).
    assert (E1 : pow2 (qlog2 x) == pow2 (p - 1) * pow2 k)
      by (rewrite <- pow2_add; replace (p - 1 + k)%Z with (qlog2 x) by (unfold k; lia); reflexivity).
    assert (E2 : pow2 (qlog2 x + 1) == pow2 p * pow2 k)
      by (rewrite <- pow2_add; replace (p + k)%Z with (qlog2 x + 1)%Z by (unfold k; lia); reflexivity).
    repeat split; [| |exact E|exact E1|exact E2].
    - apply (Qmult_le_r _ _ (pow2 k) Kp). rewrite E, <- E1. exact S1.
    - apply (Qmult_lt_r _ _ (pow2 k) Kp). rewrite E, <- E2. exact S2.
  Qed.

  Lemma rn_pos_range : forall x, 0 < x ->
    pow2 (qlog2 x) <= rn_pos p x /\ rn_pos p x <= pow2 (qlog2 x + 1).
  Proof.
    intros x Hx. unfold rn_pos. set (k := (qlog2 x - p + 1)%Z).
    destruct (scaled_range x Hx) as [Q1 [Q2 [_ [E1 E2]]]]. fold k in Q1, Q2, E1, E2. pose proof (pow2_pos k) as Kp.
    rewrite (pow2_int (p - 1)) in Q1, E1 by lia. rewrite (pow2_int p) in Q2, E2 by lia.
    pose proof (rne_mono _ _ Q1) as R1. rewrite rne_int in R1.
    pose proof (rne_mono _ _ (Qlt_le_weak _ _ Q2)) as R2. rewrite rne_int in R2.
    rewrite Zle_Qle in R1, R2. rewrite E1, E2. split; apply Qmult_le_compat_r; lra.
  Qed.

  Lemma rn_pos_positive : forall x, 0 < x -> 0 < rn_pos p x.
  Proof. intros x Hx. destruct (rn_pos_range x Hx) as [A _]. pose proof (pow2_pos (qlog2 x)). lra. Qed.

  (* half an ulp of absolute error *)
  Lemma rn_pos_err : forall x, 0 < x ->
    let k := (qlog2 x - p + 1)%Z in
    x - pow2 k * (1 # 2) <= rn_pos p x /\ rn_pos p x <= x + pow2 k * (1 # 2).
  Proof.
    intros x Hx k. unfold rn_pos. fold k. destruct (scaled_range x Hx) as [_ [_ [E _]]]. fold k in E.
    pose proof (pow2_pos k) as Kp. destruct (rne_bounds (x / pow2 k)) as [B1 B2].
    set (q := x / pow2 k) in *. set (r := inject_Z (rne q)) in *.
    split; nra.
  Qed.

  Lemma rn_pos_mono : forall x y, 0 < x -> x <= y -> rn_pos p x <= rn_pos p y.
  Proof.
    intros x y Hx Hxy. assert (Hy : 0 < y) by lra.
    pose proof (qlog2_mono x y Hx Hxy) as Lm.
    destruct (Z.eq_dec (qlog2 x) (qlog2 y)) as [E|E].
    - unfold rn_pos. rewrite E. set (k := (qlog2 y - p + 1)%Z). pose proof (pow2_pos k) as Kp.
      assert (Q : x / pow2 k <= y / pow2 k).
      { unfold Qdiv. apply Qmult_le_compat_r; [exact Hxy|]. apply Qlt_le_weak, Qinv_lt_0_compat, Kp. }
      pose proof (rne_mono _ _ Q) as R. rewrite Zle_Qle in R. apply Qmult_le_compat_r; lra.
    - destruct (rn_pos_range x Hx) as [_ A]. destruct (rn_pos_range y Hy) as [B _].
      pose proof (pow2_le (qlog2 x + 1) (qlog2 y) ltac:(lia)). lra.
  Qed.

  Lemma rne_scaled : forall x (m k : Z), x == inject_Z m * pow2 k -> inject_Z (rne (x / pow2 k)) * pow2 k == x.
  Proof.
    intros x m k E. pose proof (pow2_pos k) as Kp.
    assert (Q : x / pow2 k == inject_Z m) by (rewrite E; field; lra).
    rewrite (rne_comp _ _ Q), rne_int, E. reflexivity.
  Qed.

  (* integers up to 2^p are representable *)
  Lemma rn_pos_int : forall z, (0 < z)%Z -> (z <= 2 ^ p)%Z -> rn_pos p (inject_Z z) == inject_Z z.
  Proof.
    intros z Hz Hzp.
    assert (Hx : 0 < inject_Z z) by (change 0 with (inject_Z 0); rewrite <- Zlt_Qlt; exact Hz).
    destruct (qlog2_spec _ Hx) as [S1 S2].
    set (e := qlog2 (inject_Z z)) in *.
    assert (Ep : (e <= p)%Z).
    { assert (A : (e < p + 1)%Z); [|lia]. apply pow2_lt_inv.
      assert (B : inject_Z z <= pow2 p) by (rewrite pow2_int by lia; rewrite <- Zle_Qle; exact Hzp).
      pose proof (pow2_lt p (p + 1) ltac:(lia)). lra. }
    assert (E0 : (0 <= e)%Z).
    { assert (A : (0 < e + 1)%Z); [|lia]. apply pow2_lt_inv.
      assert (B : 1 <= inject_Z z) by (change 1 with (inject_Z 1); rewrite <- Zle_Qle; lia).
      change (pow2 0) with 1. lra. }
    unfold rn_pos. fold e. set (k := (e - p + 1)%Z).
    destruct (Z_le_gt_dec k 0) as [K|K].
    - (* z = (z 2^-k) 2^k *)
      apply (rne_scaled _ (z * 2 ^ (- k))).
      rewrite inject_Z_mult, <- (pow2_int (- k)), <- Qmult_assoc, <- pow2_add by lia.
      replace (- k + k)%Z with 0%Z by lia. change (pow2 0) with 1. ring.
    - (* k = 1: z = 2^p = 2^(p-1) 2^1 *)
      assert (Ee : e = p) by (unfold k in K; lia).
      assert (Zp : z = (2 ^ p)%Z).
      { rewrite Ee in S1. rewrite pow2_int in S1 by lia. rewrite <- Zle_Qle in S1. lia. }
      apply (rne_scaled _ (2 ^ (p - 1))). replace k with 1%Z by (unfold k; lia).
      rewrite Zp. replace p with (p - 1 + 1)%Z at 1 by lia. rewrite Z.pow_add_r, inject_Z_mult by lia. reflexivity.
  Qed.
End RnPos.

(* ---- the signed rounding function ---------------------------------------------------- *)
Lemma rn_pos_case : forall p x, 0 < x -> rn p x == rn_pos p x.
Proof. intros p x H. unfold rn. destruct (Qcompare_spec x 0) as [E|E|E]; [lra|lra|apply Qred_correct]. Qed.
Lemma rn_neg_case : forall p x, x < 0 -> rn p x == - rn_pos p (- x).
Proof. intros p x H. unfold rn. destruct (Qcompare_spec x 0) as [E|E|E]; [lra|apply Qred_correct|lra]. Qed.
Lemma rn_zero_case : forall p x, x == 0 -> rn p x == 0.
Proof. intros p x H. unfold rn. destruct (Qcompare_spec x 0) as [E|E|E]; [reflexivity|lra|lra]. Qed.

Lemma rn_mono : forall p x y, (1 <= p)%Z -> x <= y -> rn p x <= rn p y.
Proof.
  intros p x y Hp H.
  destruct (Q_dec x 0) as [[X|X]|X]; destruct (Q_dec y 0) as [[Y|Y]|Y]; try lra.
  - rewrite (rn_neg_case p x X), (rn_neg_case p y Y).
    pose proof (rn_pos_mono p Hp (- y) (- x) ltac:(lra) ltac:(lra)). lra.
  - rewrite (rn_neg_case p x X), (rn_pos_case p y Y).
    pose proof (rn_pos_positive p Hp (- x) ltac:(lra)). pose proof (rn_pos_positive p Hp y Y). lra.
  - rewrite (rn_neg_case p x X), (rn_zero_case p y Y).
    pose proof (rn_pos_positive p Hp (- x) ltac:(lra)). lra.
  - rewrite (rn_pos_case p x X), (rn_pos_case p y Y). apply rn_pos_mono; assumption.
  - rewrite (rn_zero_case p x X), (rn_pos_case p y Y).
    pose proof (rn_pos_positive p Hp y Y). lra.
  - rewrite (rn_zero_case p x X), (rn_zero_case p y Y). lra.
Qed.

Lemma rn_int : forall p z, (1 <= p)%Z -> (Z.abs z <= 2 ^ p)%Z -> rn p (z2q z) == z2q z.
Proof.
  intros p z Hp Hz. unfold z2q. destruct (Z.lt_trichotomy z 0) as [N|[N|N]].
  - assert (X : inject_Z z < 0) by (change 0 with (inject_Z 0); rewrite <- Zlt_Qlt; exact N).
    rewrite (rn_neg_case p _ X). change (- inject_Z z) with (inject_Z (- z)).
    rewrite rn_pos_int, inject_Z_opp by lia. ring.
  - subst z. apply rn_zero_case. reflexivity.
  - assert (X : 0 < inject_Z z) by (change 0 with (inject_Z 0); rewrite <- Zlt_Qlt; exact N).
    rewrite (rn_pos_case p _ X). apply rn_pos_int; lia.
Qed.

(* relative error 2^-p: a product with u <= 1 - 2^-24 cannot round up to the bound *)
Lemma rn24_strict : forall (R : Z) x, (0 < R)%Z -> x <= u_top * z2q R -> rn 24 x < z2q R.
Proof.
  intros R x HR Hx.
  assert (Rq : 0 < z2q R) by (unfold z2q; change 0 with (inject_Z 0); rewrite <- Zlt_Qlt; exact HR).
  destruct (Q_dec x 0) as [[X|X]|X].
  - rewrite (rn_neg_case 24 x X). pose proof (rn_pos_positive 24 ltac:(lia) (- x) ltac:(lra)). lra.
  - rewrite (rn_pos_case 24 x X).
    destruct (rn_pos_err 24 x X) as [_ E]. cbv zeta in E.
    destruct (qlog2_spec x X) as [S1 _].
    assert (P : pow2 (qlog2 x - 24 + 1) == pow2 (qlog2 x) * pow2 (-23))
      by (rewrite <- pow2_add; replace (qlog2 x + -23)%Z with (qlog2 x - 24 + 1)%Z by lia; reflexivity).
    rewrite P in E. change (pow2 (-23)) with (1 # 8388608) in E.
    unfold u_top in Hx. nra.
  - rewrite (rn_zero_case 24 x X). exact Rq.
Qed.

Lemma ieee_laws : rounding_laws ieee.
Proof.
  constructor; cbn [r32 r64 ieee].
  - intros; apply rn_mono; [lia|assumption].
  - intros z H. apply rn_int; [lia|]. unfold two24 in H. change (2 ^ 24)%Z with 16777216%Z. exact H.
  - intros R x [H1 _] H. apply rn24_strict; assumption.
  - intros; apply rn_mono; [lia|assumption].
  - intros z H. apply rn_int; [lia|]. unfold two24 in H.
    assert (16777216 <= 2 ^ 53)%Z by (change (2 ^ 53)%Z with 9007199254740992%Z; lia). lia.
Qed.
