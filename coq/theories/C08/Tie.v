(* C08 - tie between the Python text of `spec_augment_draw_parameters` (src/pydrobert/torch/_img.py) and
   PV.C08.Model.draw, checked by the kernel.  PV.Gen.C08Src.draw_body (the WHOLE body) is the MiniPy term
   harness/py2coq/translate.py regenerates from /repo on every run; PV.MiniPy.Interp is its semantics; the
   torch calls mean what PV.MiniTorch.OpsC08 says (through SrcRun.ext08, float32 rounding = [r32 a] of the
   model's arithmetic), torch.rand is an oracle.

   [draw_tie]: for EVERY arithmetic satisfying the model's [rounding_laws] (both [exact] and [ieee] do), every
   oracle, eps, configuration, N, T, F, and lengths (omitted, or N values in (0, T]), interpreting the source
   returns the 8-tuple that reads back, batch element by batch element, as Model.draw at the arithmetic
   [pyq a] on the variates the oracle served: mask groups (t_0, t, f_0, f) EQUAL, warp groups equal as
   rationals.  The mask halves do not use the laws (TieModel.time_masks_src / freq_masks_src).
   Proof: the body is the sequence of its marked blocks ([body_split]); each block is run symbolically from
   an arbitrary state (TieBlocks*.v); the closed forms are chained here; TieModel.v identifies the
   per-element formulas with the model's.  If the source is edited so that this stops being true, this file
   (or TieBlocks*.v) stops compiling and the C08 check reports the broken obligation. *)
From Coq Require Import ZArith QArith Qround List String Bool Arith Lia.
From PV Require Import MiniPy.Syntax MiniPy.Interp MiniTorch.Ops MiniTorch.OpsC08 MiniTorch.LemmasC08.
From PV Require Import Gen.C08Src C08.SrcRun C08.TieLib C08.TieBlocks C08.TieBlocks2 C08.TieModel.
From PV Require C08.Model C08.Spec C08.ProofsDraw C08.ProofsRound C08.ProofsIeee MiniTorch.Lemmas.
Import ListNotations.
Local Open Scope string_scope.
Local Open Scope list_scope.

(* ---- the body is the sequence of its blocks --------------------------------------------------------- *)
Definition blocks : stmt :=
  SSeq draw_head (SSeq draw_twarp (SSeq draw_fwarp (SSeq draw_tmask (SSeq draw_fmask draw_ret)))).

Lemma body_split ext st : exec ext draw_body st = exec ext blocks st.
Proof. apply flat_eq. reflexivity. Qed.

(* ---- frames: the variables a block does not assign ------------------------------------------------- *)
Section Frames.
  Variable a : Model.arith.
  Variable rnd : nat -> nat -> Q.

  Lemma lookup_twarp x k N L eps Wt vs :
    String.eqb x "W" = false -> String.eqb x "w_0" = false -> String.eqb x "w" = false ->
    lookup x (vars_twarp a rnd k N L eps Wt vs) = lookup x vs.
  Proof. intros H1 H2 H3. unfold vars_twarp. destruct (Model.nonzero Wt); rewrite !lookup_update, ?H1, ?H2, ?H3; reflexivity. Qed.

  Lemma lookup_fwarp x k N eps Wf F vs :
    String.eqb x "V" = false -> String.eqb x "v_0" = false -> String.eqb x "v" = false ->
    lookup x (vars_fwarp a rnd k N eps Wf F vs) = lookup x vs.
  Proof.
    intros H1 H2 H3. unfold vars_fwarp, vars_fwarp_rest.
    destruct (Model.nonzero Wf); rewrite !lookup_update, ?H1, ?H2, ?H3; reflexivity.
  Qed.

  Lemma lookup_tmask x k N L om Mt pt nt npt vs :
    String.eqb x "max_" = false -> String.eqb x "nums_" = false -> String.eqb x "t" = false -> String.eqb x "t_0" = false ->
    lookup x (vars_tmask a rnd k N L om Mt pt nt npt vs) = lookup x vs.
  Proof.
    intros H1 H2 H3 H4. unfold vars_tmask.
    destruct (tmask_on Mt pt nt npt); rewrite !lookup_update, ?H1, ?H2, ?H3, ?H4; reflexivity.
  Qed.

  Lemma lookup_fmask x k N om Mf F nf vs :
    String.eqb x "max_" = false -> String.eqb x "f" = false -> String.eqb x "f_0" = false ->
    lookup x (vars_fmask a rnd k N om Mf F nf vs) = lookup x vs.
  Proof.
    intros H1 H2 H3. unfold vars_fmask.
    destruct (fmask_on Mf nf); rewrite !lookup_update, ?H1, ?H2, ?H3; reflexivity.
  Qed.
End Frames.

(* ---- reading the result back ----------------------------------------------------------------------- *)
Lemma repeat_map_seq {X} (x : X) n : repeat x n = map (fun _ => x) (seq 0 n).
Proof.
  assert (G : forall s, repeat x n = map (fun _ => x) (seq s n)).
  { induction n as [|n IH]; intros s; [reflexivity|]. cbn [repeat seq map]. now rewrite (IH (S s)). }
  apply G.
Qed.

Lemma warp_group_if (b : bool) N (f g : nat -> Q) :
  warp_group N (if b then TF (T1 N f) else TF empty0) (if b then TF (T1 N g) else TF empty0)
  = Some (map (fun n => if b then Some (f n, g n) else None) (seq 0 N)).
Proof.
  destruct b.
  - unfold warp_group, any_numel, T1. cbn [shp dat numel fold_right]. rewrite Nat.mul_1_r.
    destruct N as [|N]; [reflexivity|]. cbn [Nat.eqb andb nats_eqb]. rewrite Nat.eqb_refl. cbn [andb].
    f_equal. apply map_ext_in. intros n Hn. apply in_seq in Hn.
    rewrite !(MiniTorch.Lemmas.nth_map_seq _ (S N) n) by lia. reflexivity.
  - unfold warp_group, any_numel, empty0. cbn. now rewrite repeat_map_seq.
Qed.

Lemma mask_group_if (b : bool) N M (f g : nat -> nat -> Z) : (b = true -> M <> 0%nat) ->
  mask_group N (if b then TL (T2 N M f) else TF empty0) (if b then TL (T2 N M g) else TF empty0)
  = Some (map (fun n => if b then Some (map (fun m => (f n m, g n m)) (seq 0 M)) else None) (seq 0 N)).
Proof.
  intros HM. destruct b.
  - specialize (HM eq_refl). unfold mask_group, any_numel, T2. cbn [shp dat numel fold_right]. rewrite Nat.mul_1_r.
    destruct (Nat.eqb (N * M) 0) eqn:E.
    + apply Nat.eqb_eq in E. assert (N = 0%nat) by (destruct N; [reflexivity|destruct M; [congruence|cbn in E; lia]]).
      subst N. reflexivity.
    + cbn [andb nats_eqb]. rewrite !Nat.eqb_refl. cbn [andb].
      f_equal. apply map_ext_in. intros n Hn. apply in_seq in Hn. f_equal.
      apply map_ext_in. intros m Hm. apply in_seq in Hm.
      rewrite !get2_tabl by lia. reflexivity.
  - unfold mask_group, any_numel, empty0. cbn. now rewrite repeat_map_seq.
Qed.

Lemma zip4_map {X} (l : list X) p q r s :
  zip4 (map p l) (map q l) (map r l) (map s l) = map (fun x => Model.mkParams (p x) (q x) (r x) (s x)) l.
Proof. induction l as [|x l IH]; [reflexivity|]. cbn [map zip4]. now rewrite IH. Qed.

Lemma dec_any_if_f (b : bool) x y : dec_any (if b then enc_f x else enc_f y) = Some (if b then TF x else TF y).
Proof. destruct b; apply dec_any_enc_f. Qed.
Lemma dec_any_if_l (b : bool) x y : dec_any (if b then enc_l x else enc_f y) = Some (if b then TL x else TF y).
Proof. destruct b; [apply dec_any_enc_l|apply dec_any_enc_f]. Qed.

Lemma tmask_enabled_nt c : tmask_enabled c = true -> Model.c_nt c <> 0%nat.
Proof.
  unfold tmask_enabled. intros H. destruct (Nat.eqb (Model.c_nt c) 0) eqn:E; [now rewrite andb_false_r, andb_false_l in H|].
  now apply Nat.eqb_neq.
Qed.
Lemma fmask_enabled_nf c : fmask_enabled c = true -> Model.c_nf c <> 0%nat.
Proof.
  unfold fmask_enabled. intros H. destruct (Nat.eqb (Model.c_nf c) 0) eqn:E; [now rewrite andb_false_r in H|].
  now apply Nat.eqb_neq.
Qed.

(* ---- the whole body ---------------------------------------------------------------------------------- *)
Section Whole.
  Variable a : Model.arith.
  Hypothesis laws : ProofsRound.rounding_laws a.
  Variable rnd : nat -> nat -> Q.
  Variables (eps : Q) (c : Model.cfg) (N T F : nat) (lens : option (list Z)).
  Hypothesis Hlens : lens_ok N T lens.

  Notation Wt := (Model.c_Wt c).  Notation Wf := (Model.c_Wf c).
  Notation Mt := (Model.c_Mt c).  Notation Mf := (Model.c_Mf c).
  Notation pt := (Model.c_pt c).  Notation npt := (Model.c_npt c).
  Notation nt := (Model.c_nt c).  Notation nf := (Model.c_nf c).
  Notation L := (L_of a T lens).
  Notation om := (om_of eps).
  Notation Fz := (Z.of_nat F).

  Let vs0 := vars_head a eps c N T F lens.
  Let ev1 := [] ++ events_twarp N Wt.
  Let vs1 := vars_twarp a rnd 0 N L eps Wt vs0.
  Let ev2 := ev1 ++ events_fwarp N Wf.
  Let vs2 := vars_fwarp a rnd (List.length ev1) N eps Wf Fz vs1.
  Let ev3 := ev2 ++ events_tmask N Mt pt nt npt.
  Let vs3 := vars_tmask a rnd (List.length ev2) N L om Mt pt nt npt vs2.
  Let ev4 := ev3 ++ events_fmask N Mf nf.
  Let vs4 := vars_fmask a rnd (List.length ev3) N om Mf Fz nf vs3.

  Lemma len_ev1 : List.length ev1 = k_fwarp c.
  Proof. unfold ev1, events_twarp, k_fwarp. cbn [app]. now destruct (Model.nonzero Wt). Qed.
  Lemma len_ev2 : List.length ev2 = k_tmask c.
  Proof. unfold ev2. rewrite app_length, len_ev1. unfold events_fwarp, k_tmask. now destruct (Model.nonzero Wf). Qed.
  Lemma tmask_on_enabled : tmask_on Mt pt nt npt = tmask_enabled c.
  Proof. reflexivity. Qed.
  Lemma fmask_on_enabled : fmask_on Mf nf = fmask_enabled c.
  Proof. reflexivity. Qed.
  Lemma len_ev3 : List.length ev3 = k_fmask c.
  Proof.
    unfold ev3. rewrite app_length, len_ev2. unfold events_tmask, k_fmask. rewrite tmask_on_enabled.
    now destruct (tmask_enabled c).
  Qed.

  (* what the body returns *)
  Definition Wn (n : nat) : Q := W_of a eps Wt L n.
  Definition Vv : val := V_val eps Wf Fz.
  Definition tn_ (n m : nat) : Z := t_of a rnd om Mt pt nt npt (k_tmask c) L n m.
  Definition fn_ (n m : nat) : Z := f_of a rnd om Mf Fz nf (k_fmask c) n m.

  Definition out_w0 : val := if Model.nonzero Wt then enc_f (T1 N (fun n => s_w0 a (Wn n) (L n) (rnd 0%nat n))) else enc_f empty0.
  Definition out_w : val := if Model.nonzero Wt then enc_f (T1 N (fun n => s_w a (Wn n) (rnd 1%nat n))) else enc_f empty0.
  Definition out_v0 : val :=
    if Model.nonzero Wf then enc_f (T1 N (fun n => s_v0 a (fw_s1 Fz Vv) (fw_s2 Vv) (rnd (k_fwarp c) n))) else enc_f empty0.
  Definition out_v : val :=
    if Model.nonzero Wf then enc_f (T1 N (fun n => s_v a (fw_s3 Vv) (fw_s2 Vv) (rnd (S (k_fwarp c)) n))) else enc_f empty0.
  Definition out_t0 : val :=
    if tmask_enabled c
    then enc_l (T2 N nt (fun n m => s_t0 a om (L n) (tn_ n m) (rnd (S (k_tmask c)) (n * nt + m)%nat))) else enc_f empty0.
  Definition out_t : val := if tmask_enabled c then enc_l (T2 N nt tn_) else enc_f empty0.
  Definition out_f0 : val :=
    if fmask_enabled c
    then enc_l (T2 N nf (fun n m => s_f0 a om Fz (fn_ n m) (rnd (S (k_fmask c)) (n * nf + m)%nat))) else enc_f empty0.
  Definition out_f : val := if fmask_enabled c then enc_l (T2 N nf fn_) else enc_f empty0.

  Definition out_val : val := VTuple [out_w0; out_w; out_v0; out_v; out_t0; out_t; out_f0; out_f].

  Ltac frames := rewrite ?lookup_fmask, ?lookup_tmask, ?lookup_fwarp, ?lookup_twarp by reflexivity.

  Lemma look_w : lookup "w_0" vs4 = Some out_w0 /\ lookup "w" vs4 = Some out_w.
  Proof.
    unfold vs4, vs3, vs2. frames. unfold vs1, vars_twarp, out_w0, out_w, Wn.
    destruct (Model.nonzero Wt); rewrite !lookup_update; split; reflexivity.
  Qed.
  Lemma look_v : lookup "v_0" vs4 = Some out_v0 /\ lookup "v" vs4 = Some out_v.
  Proof.
    unfold vs4, vs3. frames. unfold vs2, vars_fwarp, vars_fwarp_rest, out_v0, out_v, Vv. rewrite len_ev1.
    destruct (Model.nonzero Wf); rewrite !lookup_update; split; reflexivity.
  Qed.
  Lemma look_t : lookup "t_0" vs4 = Some out_t0 /\ lookup "t" vs4 = Some out_t.
  Proof.
    unfold vs4. frames. unfold vs3, vars_tmask, out_t0, out_t, tn_. rewrite len_ev2, tmask_on_enabled.
    destruct (tmask_enabled c); rewrite !lookup_update; split; reflexivity.
  Qed.
  Lemma look_f : lookup "f_0" vs4 = Some out_f0 /\ lookup "f" vs4 = Some out_f.
  Proof.
    unfold vs4, vars_fmask, out_f0, out_f, fn_. rewrite len_ev3, fmask_on_enabled.
    destruct (fmask_enabled c); rewrite !lookup_update; split; reflexivity.
  Qed.

  Lemma body_run :
    Interp.run (ext08 a rnd) draw_body (draw_vars eps c N T F lens) = Ok out_val (mkState vs4 ev4).
  Proof.
    unfold Interp.run. rewrite body_split. unfold blocks.
    rewrite (exec_seq_ok _ _ _ _ _ (head_run a rnd eps c N T F lens Hlens)). fold vs0.
    rewrite (exec_seq_ok _ _ _ _ (mkState vs1 ev1)).
    2:{ apply twarp_run; try reflexivity. apply (sc_two_nz a laws). }
    rewrite (exec_seq_ok _ _ _ _ (mkState vs2 ev2)).
    2:{ apply fwarp_run; unfold vs1; rewrite lookup_twarp by reflexivity; reflexivity. }
    rewrite (exec_seq_ok _ _ _ _ (mkState vs3 ev3)).
    2:{ apply tmask_run; unfold vs2, vs1; rewrite lookup_fwarp, lookup_twarp by reflexivity; reflexivity. }
    rewrite (exec_seq_ok _ _ _ _ (mkState vs4 ev4)).
    2:{ apply fmask_run; unfold vs3, vs2, vs1; rewrite lookup_tmask, lookup_fwarp, lookup_twarp by reflexivity; reflexivity. }
    rewrite (ret_run a rnd vs4 ev4 _ _ _ _ _ _ _ _ (proj1 look_w) (proj2 look_w) (proj1 look_v) (proj2 look_v)
               (proj1 look_t) (proj2 look_t) (proj1 look_f) (proj2 look_f)).
    reflexivity.
  Qed.

  (* the tuple, read back element by element *)
  Definition src_params (n : nat) : Model.params :=
    Model.mkParams
      (if Model.nonzero Wt then Some (s_w0 a (Wn n) (L n) (rnd 0%nat n), s_w a (Wn n) (rnd 1%nat n)) else None)
      (if Model.nonzero Wf
       then Some (s_v0 a (fw_s1 Fz Vv) (fw_s2 Vv) (rnd (k_fwarp c) n), s_v a (fw_s3 Vv) (fw_s2 Vv) (rnd (S (k_fwarp c)) n))
       else None)
      (if tmask_enabled c
       then Some (map (fun m => (s_t0 a om (L n) (tn_ n m) (rnd (S (k_tmask c)) (n * nt + m)%nat), tn_ n m)) (seq 0 nt))
       else None)
      (if fmask_enabled c
       then Some (map (fun m => (s_f0 a om Fz (fn_ n m) (rnd (S (k_fmask c)) (n * nf + m)%nat), fn_ n m)) (seq 0 nf))
       else None).

  Lemma read_out_val : read_out N out_val = Some (map src_params (seq 0 N)).
  Proof.
    unfold read_out, out_val, out_w0, out_w, out_v0, out_v, out_t0, out_t, out_f0, out_f.
    rewrite !dec_any_if_f, !dec_any_if_l.
    rewrite !warp_group_if.
    rewrite !mask_group_if.
    - rewrite zip4_map. reflexivity.
    - apply fmask_enabled_nf.
    - apply tmask_enabled_nt.
  Qed.

  Lemma L_lenq n : L n = Model.lenq a (len_of T lens n).
  Proof. unfold L_of, len_of, Model.lenq. destruct lens; reflexivity. Qed.

  Lemma src_params_model n :
    params_eqv (src_params n) (Model.draw (pyq a) eps c Fz (len_of T lens n) (uv_of rnd c n)).
  Proof.
    unfold params_eqv, src_params, Model.draw.
    cbn [Model.p_tw Model.p_fw Model.p_tm Model.p_fm Model.u_w0 Model.u_w Model.u_v0 Model.u_v Model.u_t Model.u_t0
         Model.u_f Model.u_f0 uv_of].
    fold (tmask_enabled c). fold (fmask_enabled c).
    repeat split.
    - destruct (Model.nonzero Wt); [|exact I]. cbn [warp_eqv fst snd]. unfold Wn, W_of. rewrite !L_lenq. split.
      + apply (s_w0_model a laws). apply (s_W_model a laws).
      + apply (s_w_model a laws). apply (s_W_model a laws).
    - destruct (Model.nonzero Wf); [|exact I]. cbn [warp_eqv fst snd]. split.
      + apply (s_v0_model a laws).
      + apply (s_v_model a laws).
    - destruct (tmask_enabled c); [|reflexivity]. f_equal. rewrite time_masks_src.
      apply map_ext. intros m. unfold tn_, t_of. rewrite !L_lenq. reflexivity.
    - destruct (fmask_enabled c); [|reflexivity]. f_equal. rewrite freq_masks_src.
      apply map_ext. intros m. reflexivity.
  Qed.
End Whole.

(* ---- the theorems ------------------------------------------------------------------------------------ *)
Theorem draw_tie : forall a rnd eps c N T F lens,
  ProofsRound.rounding_laws a -> lens_ok N T lens ->
  exists v st ps,
    run_draw a rnd eps c N T F lens = Ok v st /\ read_out N v = Some ps /\ List.length ps = N
    /\ forall n, (n < N)%nat ->
         params_eqv (nth n ps (Model.mkParams None None None None))
                    (Model.draw (pyq a) eps c (Z.of_nat F) (len_of T lens n) (uv_of rnd c n)).
Proof.
  intros a rnd eps c N T F lens laws Hl.
  eexists. eexists. exists (map (src_params a rnd eps c T F lens) (seq 0 N)).
  split; [unfold run_draw; apply (body_run a laws rnd eps c N T F lens Hl)|].
  split; [apply read_out_val|]. split; [now rewrite map_length, seq_length|].
  intros n Hn.
  rewrite (nth_indep _ _ (src_params a rnd eps c T F lens 0)) by now rewrite map_length, seq_length.
  rewrite (MiniTorch.Lemmas.nth_map_seq (src_params a rnd eps c T F lens) N n) by exact Hn.
  apply (src_params_model a laws rnd eps c N T F lens Hl).
Qed.
