(* C08, second tie - library: what reaches [SrcRunB.ext_core] call by call (for ANY [nested], hence for extW, extA and
   extS alike) and the test of a parameter group.  The runs themselves use the engine of TieLib.
   No new definitions of meaning. *)
From Coq Require Import ZArith QArith Qround List String Bool Arith Lia.
From PV Require Import MiniPy.Syntax MiniPy.Interp MiniPy.Lemmas MiniTorch.Ops MiniTorch.OpsC08 MiniTorch.LemmasC08.
From PV Require Import MiniTorch.OpsC08B MiniTorch.LemmasC08B.
From PV Require Import C08.SrcRun C08.TieLib C08.SrcRunB.
From PV Require C08.Model.
Import ListNotations.
Local Open Scope string_scope.

#[global] Arguments enc_c : simpl never.

Lemma dec_B_f t : dec_B (enc_f t) = Some (BA (TF t)).  Proof. unfold dec_B. now rewrite dec_any_enc_f. Qed.
Lemma dec_B_l t : dec_B (enc_l t) = Some (BA (TL t)).  Proof. unfold dec_B. now rewrite dec_any_enc_l. Qed.
Lemma dec_B_b t : dec_B (enc_b t) = Some (BA (TB t)).  Proof. unfold dec_B. now rewrite dec_any_enc_b. Qed.
Lemma dec_B_c e t : dec_B (enc_c e t) = Some (BC t e).
Proof. unfold dec_B. now rewrite dec_any_enc_c, dec_c_enc. Qed.

Section ExtLemmas.
  Variable a : Model.arith.
  Variable spl : nat -> list val -> list Q.
  Variable gso : nat -> list val -> list val.
  Variable nested : string -> list val -> state -> option (outcome val).
  Notation ext := (ext_core a spl gso nested).
  Notation zn := (fun n : nat => VInt (Z.of_nat n)).

  Ltac ext_tac := lazy [ext_core operatorB shape_op is String.eqb Ascii.eqb Bool.eqb no_kw negb];
    rewrite ?dec_B_f, ?dec_B_l, ?dec_B_b, ?dec_B_c, ?dec_any_enc_f, ?dec_any_enc_l, ?dec_any_enc_b, ?dec_any_enc_c,
            ?dec_c_enc; cbn;
    rewrite ?dec_any_enc_f, ?dec_any_enc_l, ?dec_any_enc_b, ?dec_any_enc_c, ?dec_c_enc; cbn; try reflexivity.

  (* the argument check, by its documented behaviour *)
  Lemma extB_check_none N T F eps cells st :
    ext "_spec_augment_check_input" [enc_c eps (mkTn [N; T; F] cells); VNone] [] st = Ok VNone st.
  Proof. ext_tac. Qed.

  Lemma extB_check_lens N T F eps cells l st : List.length l = N -> lens_in_range T l = true ->
    ext "_spec_augment_check_input" [enc_c eps (mkTn [N; T; F] cells); enc_l (mkTn [List.length l] l)] [] st = Ok VNone st.
  Proof.
    intros HN HR. unfold ext_core. cbn. rewrite dec_c_enc. cbn.
    change (enc_l (mkTn [List.length l] l)) with (VTuple [VStr tag_long; enc_shape [List.length l]; VList (map VInt l)]) at 1.
    cbv iota. change (VTuple [VStr tag_long; enc_shape [List.length l]; VList (map VInt l)]) with (enc_l (mkTn [List.length l] l)).
    rewrite dec_any_enc_l. cbn [shp dat]. now rewrite HN, Nat.eqb_refl, HR.
  Qed.

  Lemma extB_shape_c eps t st : ext "$attr.shape" [enc_c eps t] [] st = Ok (VTuple (map zn (shp t))) st.
  Proof. ext_tac. Qed.
  Lemma extB_shape_f t st : ext "$attr.shape" [enc_f t] [] st = Ok (VTuple (map zn (shp t))) st.
  Proof. ext_tac. Qed.
  Lemma extB_device_c eps t st : ext "$attr.device" [enc_c eps t] [] st = Ok device_token st.
  Proof. ext_tac. Qed.
  Lemma extB_device_f t st : ext "$attr.device" [enc_f t] [] st = Ok device_token st.
  Proof. ext_tac. Qed.
  Lemma extB_dtype_c eps t st : ext "$attr.dtype" [enc_c eps t] [] st = Ok fdtype_token st.
  Proof. ext_tac. Qed.

  Lemma extB_full_l n v st :
    ext "torch.full" [VTuple [VInt (Z.of_nat n)]; VInt v] [("dtype", long_token); ("device", device_token)] st
    = Ok (enc_l (full_l n v)) st.
  Proof. unfold ext_core. cbn. rewrite leb_0_of_nat. now rewrite Nat2Z.id. Qed.

  Lemma extB_full_q n (q : Q) st :
    ext "torch.full" [VTuple [VInt (Z.of_nat n)]; VQ q] [("dtype", float_token); ("device", device_token)] st
    = Ok (enc_f (full_q a n q)) st.
  Proof. unfold ext_core. cbn. rewrite leb_0_of_nat. now rewrite Nat2Z.id. Qed.

  Lemma extB_to_l t st : ext "$method.to" [enc_l t; fdtype_token] [] st = Ok (enc_f (float_of_long a t)) st.
  Proof. ext_tac. Qed.

  Lemma extB_numel_f t st : ext "$method.numel" [enc_f t] [] st = Ok (VInt (Z.of_nat (numel (shp t)))) st.
  Proof. ext_tac. Qed.
  Lemma extB_numel_l t st : ext "$method.numel" [enc_l t] [] st = Ok (VInt (Z.of_nat (numel (shp t)))) st.
  Proof. ext_tac. Qed.

  Lemma extB_arange_l n st :
    ext "torch.arange" [VInt (Z.of_nat n)] [("device", device_token)] st = Ok (enc_l (arange_l n)) st.
  Proof. unfold ext_core. cbn. rewrite leb_0_of_nat. now rewrite Nat2Z.id. Qed.

  Lemma extB_arange_f n st :
    ext "torch.arange" [VInt (Z.of_nat n)] [("device", device_token); ("dtype", float_token)] st = Ok (enc_f (arange_f n)) st.
  Proof. unfold ext_core. cbn. rewrite leb_0_of_nat. now rewrite Nat2Z.id. Qed.

  Lemma extB_unsqueeze_f t d st : ext "$method.unsqueeze" [enc_f t; VInt d] [] st = ret_f "unsqueeze" (unsqueeze t d) st.
  Proof. ext_tac. Qed.
  Lemma extB_unsqueeze_l t d st : ext "$method.unsqueeze" [enc_l t; VInt d] [] st = ret_l "unsqueeze" (unsqueeze t d) st.
  Proof. ext_tac. Qed.
  Lemma extB_unsqueeze_b t d st : ext "$method.unsqueeze" [enc_b t; VInt d] [] st = ret_b "unsqueeze" (unsqueeze t d) st.
  Proof. ext_tac. Qed.
  Lemma extB_unsqueeze_c e t d st : ext "$method.unsqueeze" [enc_c e t; VInt d] [] st = ret_c e "unsqueeze" (unsqueeze t d) st.
  Proof. ext_tac. Qed.

  Lemma extB_squeeze_f t d st : ext "$method.squeeze" [enc_f t; VInt d] [] st = ret_f "squeeze" (squeeze t d) st.
  Proof. ext_tac. Qed.
  Lemma extB_squeeze_c e t d st : ext "$method.squeeze" [enc_c e t; VInt d] [] st = ret_c e "squeeze" (squeeze t d) st.
  Proof. ext_tac. Qed.

  (* an operator with a float tensor and a float tensor or a number is [SrcRun.operator]'s, as under [ext08] *)
  Lemma extB_operator_f o t y st r : operator a o (enc_f t) y st = r -> ext "operator" [VStr o; enc_f t; y] [] st = r.
  Proof. intros <-. ext_tac. Qed.
  Lemma extB_operator_if o k t st r : operator a o (VInt k) (enc_f t) st = r -> ext "operator" [VStr o; VInt k; enc_f t] [] st = r.
  Proof. intros <-. ext_tac. Qed.
  Lemma extB_operator_qf o s t st r : operator a o (VQ s) (enc_f t) st = r -> ext "operator" [VStr o; VQ s; enc_f t] [] st = r.
  Proof. intros <-. ext_tac. Qed.

  Lemma extB_add_l t u st : ext "operator" [VStr "add"; enc_l t; enc_l u] [] st = ret_l "add" (add_l t u) st.
  Proof. ext_tac. Qed.
  Lemma extB_and_b t u st : ext "operator" [VStr "and"; enc_b t; enc_b u] [] st = ret_b "and" (and_b t u) st.
  Proof. ext_tac. Qed.
  Lemma extB_or_b t u st : ext "operator" [VStr "or"; enc_b t; enc_b u] [] st = ret_b "or" (or_b t u) st.
  Proof. ext_tac. Qed.
  Lemma extB_ge_l t u st : ext "compare" [VStr "ge"; enc_l t; enc_l u] [] st = ret_b "ge" (ge_l t u) st.
  Proof. ext_tac. Qed.
  Lemma extB_lt_l t u st : ext "compare" [VStr "lt"; enc_l t; enc_l u] [] st = ret_b "lt" (lt_l t u) st.
  Proof. ext_tac. Qed.

  Lemma extB_any t d st : ext "$method.any" [enc_b t; VInt d] [] st = ret_b "any" (any_last t d false) st.
  Proof. ext_tac. Qed.
  Lemma extB_any_keep t d k st :
    ext "$method.any" [enc_b t; VInt d] [("keepdim", VBool k)] st = ret_b "any" (any_last t d k) st.
  Proof. ext_tac. Qed.

  Lemma extB_masked_fill e t m v st :
    ext "$method.masked_fill" [enc_c e t; enc_b m; v] [] st = ret_c e "masked_fill" (masked_fill_c t m v) st.
  Proof. ext_tac. Qed.
End ExtLemmas.

#[global] Arguments ext_core : simpl never.

Create HintDb extB discriminated.
#[global] Hint Resolve extB_check_none extB_shape_c extB_shape_f extB_device_c extB_device_f extB_dtype_c extB_full_l
  extB_full_q extB_to_l extB_numel_f extB_numel_l extB_arange_l extB_arange_f extB_unsqueeze_f extB_unsqueeze_l
  extB_unsqueeze_b extB_unsqueeze_c extB_squeeze_f extB_squeeze_c extB_add_l extB_and_b extB_or_b extB_ge_l extB_lt_l
  extB_any extB_any_keep extB_masked_fill extB_operator_f extB_operator_if extB_operator_qf : extB.
Ltac ext_eqB := solve [eauto 2 with extB operator nocore].

(* ---- parameter groups ------------------------------------------------------------------------------------- *)
Definition par_on (p : par) : bool :=
  match p with
  | PN => false
  | PF t => negb (Nat.eqb (numel (shp t)) 0)
  | PL t => negb (Nat.eqb (numel (shp t)) 0)
  end.

(* `x is not None and x.numel() and y is not None and y.numel()` *)
Definition group_test (x y : string) : expr :=
  EAnd (ECmp IsNot (EName x) (EConst VNone)) (EAnd (EMeth (EName x) "numel" [] [])
    (EAnd (ECmp IsNot (EName y) (EConst VNone)) (EMeth (EName y) "numel" [] []))).

(* the value of `x is not None and x.numel()` for a parameter x *)
Definition par_val (p : par) : val :=
  match p with PN => VBool false | PF t => VInt (Z.of_nat (numel (shp t))) | PL t => VInt (Z.of_nat (numel (shp t))) end.

Lemma truthy_par_val p : truthy (par_val p) = par_on p.
Proof. destruct p; cbn [par_val par_on truthy]; now rewrite ?of_nat_eqb0. Qed.

Section Group.
  Variable a : Model.arith.
  Variable spl : nat -> list val -> list Q.
  Variable gso : nat -> list val -> list val.
  Variable nested : string -> list val -> state -> option (outcome val).
  Notation ext := (ext_core a spl gso nested).

  #[local] Opaque ext_core.
  Ltac leafP := idtac;
    first [ apply extB_numel_f | apply extB_numel_l
          | rewrite ?cmp_isnot_foreign by reflexivity; cbn [rich andb]; cbv iota; try reflexivity; ok_refl ].

  Lemma par_last x p vs ev : lookup x vs = Some (enc_par p) ->
    eval ext (EAnd (ECmp IsNot (EName x) (EConst VNone)) (EMeth (EName x) "numel" [] [])) (mkState vs ev)
    = Ok (par_val p) (mkState vs ev).
  Proof.
    intros H. destruct p; cbn [enc_par] in H; (erewrite eval_and by ev leafP); cbn [truthy]; [reflexivity | ev leafP | ev leafP].
  Qed.

  Lemma par_and x p R vs ev : lookup x vs = Some (enc_par p) ->
    eval ext (EAnd (ECmp IsNot (EName x) (EConst VNone)) (EAnd (EMeth (EName x) "numel" [] []) R)) (mkState vs ev)
    = if par_on p then eval ext R (mkState vs ev) else Ok (par_val p) (mkState vs ev).
  Proof.
    intros H. destruct p; cbn [enc_par] in H; (erewrite eval_and by ev leafP); cbn [truthy]; [reflexivity | | ];
      (erewrite eval_and by ev leafP); cbn [truthy par_on par_val]; now rewrite of_nat_eqb0.
  Qed.

  (* a block guarded by the test of a parameter group runs when both parameters have elements *)
  Lemma group_if x y body vs ev p0 p : lookup x vs = Some (enc_par p0) -> lookup y vs = Some (enc_par p) ->
    exec ext (SIf (group_test x y) body SPass) (mkState vs ev)
    = if (par_on p0 && par_on p)%bool then exec ext body (mkState vs ev) else Ok CNormal (mkState vs ev).
  Proof.
    intros Hx Hy. unfold group_test. rewrite MiniPy.Lemmas.exec_if, (par_and x p0 _ vs ev Hx).
    destruct (par_on p0) eqn:E0; cbn [andb].
    - rewrite (par_last y p vs ev Hy). cbn [bind]. now rewrite truthy_par_val.
    - cbn [bind]. now rewrite truthy_par_val, E0.
  Qed.

  Lemma group_off x y body vs ev p0 p : lookup x vs = Some (enc_par p0) -> lookup y vs = Some (enc_par p) ->
    (par_on p0 && par_on p)%bool = false ->
    exec ext (SIf (group_test x y) body SPass) (mkState vs ev) = Ok CNormal (mkState vs ev).
  Proof. intros Hx Hy Hoff. now rewrite (group_if x y body vs ev p0 p Hx Hy), Hoff. Qed.
End Group.
