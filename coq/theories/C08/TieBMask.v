(* C08, second tie - symbolic runs of the masking blocks of `spec_augment_apply_parameters`
   (unit C08BSrc: apply_minit, apply_tmask, apply_fmask, apply_fill).

   Each lemma runs one block with [Interp.exec] from an ARBITRARY state in which the variables the block reads hold
   the stated values, under [ext_core a spl gso nested] for ANY [nested] (the blocks make no nested call), and
   gives the variables the block assigns in closed form; every other variable is untouched (frame). *)
From Coq Require Import ZArith QArith Qround List String Bool Arith Lia.
From PV Require Import MiniPy.Syntax MiniPy.Interp MiniTorch.Ops MiniTorch.OpsC08 MiniTorch.LemmasC08.
From PV Require Import MiniTorch.OpsC08B MiniTorch.LemmasC08B.
From PV Require Import Gen.C08BSrc C08.SrcRun C08.TieLib C08.SrcRunB C08.TieBLib.
From PV Require C08.Model.
Import ListNotations.
Local Open Scope string_scope.

#[local] Opaque ext_core.

(* the tensor operation it stands for, on tensors in canonical form *)
Ltac opsB_rw := progress (unfold arange_l, add_l, ge_l, lt_l, and_b, or_b;
  rewrite ?unsqueeze_T1_0, ?unsqueeze_T2_2, ?unsqueeze_T2_1, ?bc3_T2_T2, ?bc3_row_cols, ?bc3_T3_T3, ?bc3_col_row, ?any_last_T3,
          ?masked_fill_c_col, ?masked_fill_c_row, ?masked_fill_c_full).
Ltac leafB := leaf ext_eqB opsB_rw.
Ltac runB := etransitivity; [ step leafB | ].

(* the interval test as the source computes it: (idx >= start) & (idx < start + width), any over the mask columns *)
Definition s_in (f0 f : nat -> nat -> Z) (n x h : nat) : bool :=
  ((Z.of_nat x >=? f0 n h)%Z && (Z.of_nat x <? f0 n h + f n h)%Z)%bool.
Definition s_any (M : nat) (f0 f : nat -> nat -> Z) (n x : nat) : bool := existsb (s_in f0 f n x) (seq 0 M).

Section Mask.
  Variable a : Model.arith.
  Variable spl : nat -> list val -> list Q.
  Variable gso : nat -> list val -> list val.
  Variable nested : string -> list val -> state -> option (outcome val).
  Notation ext := (ext_core a spl gso nested).

  Lemma minit_run vs ev :
    exec ext apply_minit (mkState vs ev) = Ok CNormal (mkState (update "fmask" VNone (update "tmask" VNone vs)) ev).
  Proof. unfold apply_minit. runB. reflexivity. Qed.

  (* ---- time masks ---------------------------------------------------------------------------------------- *)
  Lemma tmask_on_run vs ev N M T f0 f :
    lookup "t_0" vs = Some (enc_l (T2 N M f0)) -> lookup "t" vs = Some (enc_l (T2 N M f)) ->
    Nat.eqb (numel [N; M]) 0 = false ->
    lookup "T" vs = Some (VInt (Z.of_nat T)) -> lookup "device" vs = Some device_token ->
    exists vs', exec ext apply_tmask (mkState vs ev) = Ok CNormal (mkState vs' ev)
      /\ lookup "tmask" vs' = Some (enc_b (T3 N T 1 (fun n t _ => s_any M f0 f n t)))
      /\ forall x, String.eqb x "tmask" = false -> String.eqb x "t_1" = false -> lookup x vs' = lookup x vs.
  Proof.
    intros H0 H1 Hn HT Hd. unfold apply_tmask.
    rewrite (group_if a spl gso nested "t_0" "t" _ vs ev (PL (T2 N M f0)) (PL (T2 N M f)) H0 H1). cbn [par_on shp T2]. rewrite Hn. cbn [negb andb].
    eexists. split; [|split].
    - runB. reflexivity.
    - rewrite !lookup_update. reflexivity.
    - intros x Hx1 Hx2. rewrite !lookup_update, Hx1, Hx2. reflexivity.
  Qed.

  (* ---- frequency masks ------------------------------------------------------------------------------------- *)
  Lemma fmask_on_run vs ev N M F g0 g :
    lookup "f_0" vs = Some (enc_l (T2 N M g0)) -> lookup "f" vs = Some (enc_l (T2 N M g)) ->
    Nat.eqb (numel [N; M]) 0 = false ->
    lookup "F" vs = Some (VInt (Z.of_nat F)) -> lookup "device" vs = Some device_token ->
    exists vs', exec ext apply_fmask (mkState vs ev) = Ok CNormal (mkState vs' ev)
      /\ lookup "fmask" vs' = Some (enc_b (T3 N 1 F (fun n _ x => s_any M g0 g n x)))
      /\ forall x, String.eqb x "fmask" = false -> String.eqb x "f_1" = false -> lookup x vs' = lookup x vs.
  Proof.
    intros H0 H1 Hn HF Hd. unfold apply_fmask.
    rewrite (group_if a spl gso nested "f_0" "f" _ vs ev (PL (T2 N M g0)) (PL (T2 N M g)) H0 H1). cbn [par_on shp T2]. rewrite Hn. cbn [negb andb].
    eexists. split; [|split].
    - runB. reflexivity.
    - rewrite !lookup_update. reflexivity.
    - intros x Hx1 Hx2. rewrite !lookup_update, Hx1, Hx2. reflexivity.
  Qed.

  (* ---- masked_fill and return ------------------------------------------------------------------------------ *)
  Definition opt_mask (o : option (tn bool)) : val := match o with Some m => enc_b m | None => VNone end.

  (* cell (n, t, f) is masked: by the time mask (N, T, 1) or by the frequency mask (N, 1, F) *)
  Definition mk (tp fq : option (nat -> nat -> nat -> bool)) (n t f : nat) : bool :=
    (match tp with Some p => p n t 0%nat | None => false end || match fq with Some q => q n 0%nat f | None => false end)%bool.

  Definition filled (tp fq : option (nat -> nat -> nat -> bool)) (cells : nat -> nat -> nat -> val) (n t f : nat) : val :=
    if mk tp fq n t f then VQ 0 else cells n t f.

  Lemma fill_run vs ev eps N T F cells tp fq :
    lookup "new_feats" vs = Some (enc_c eps (T3 N T F cells)) ->
    lookup "tmask" vs = Some (opt_mask (option_map (T3 N T 1) tp)) ->
    lookup "fmask" vs = Some (opt_mask (option_map (T3 N 1 F) fq)) ->
    exists vs', exec ext apply_fill (mkState vs ev)
                = Ok (CReturn (enc_c eps (T3 N T F (filled tp fq cells)))) (mkState vs' ev).
  Proof.
    intros Hn Ht Hf. unfold apply_fill, filled, mk.
    destruct tp as [p|], fq as [q|]; cbn [option_map opt_mask] in Ht, Hf.
    - eexists. runB.
      match goal with |- Ok (CReturn (enc_c _ ?x)) _ = Ok (CReturn (enc_c _ ?y)) _ => replace x with y; [reflexivity|] end.
      apply T3_ext. intros. reflexivity.
    - eexists. runB.
      match goal with |- Ok (CReturn (enc_c _ ?x)) _ = Ok (CReturn (enc_c _ ?y)) _ => replace x with y; [reflexivity|] end.
      apply T3_ext. intros. now rewrite orb_false_r.
    - eexists. runB. reflexivity.
    - eexists. runB. reflexivity.
  Qed.
End Mask.
