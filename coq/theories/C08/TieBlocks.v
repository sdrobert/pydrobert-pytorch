(* C08 tie - symbolic runs of the blocks of `spec_augment_draw_parameters`.

   The body is cut by statement markers (harness/py2coq/units/C08Src.json) into
     draw_head   argument check, N, T, F, device, eps, omeps, lengths (None / given)
     draw_twarp  `if max_time_warp:` ... W, w_0, w
     draw_fwarp  `if max_freq_warp:` ... V, v_0, v
     draw_tmask  `if max_time_mask and ...:` max_, nums_, t, t_0
     draw_fmask  `if max_freq_mask and num_freq_mask:` max_, f, f_0
     draw_ret    `return w_0, w, v_0, v, t_0, t, f_0, f`
   Each lemma below runs one block with [Interp.exec] from an ARBITRARY state in which the variables the
   block reads hold the stated values, and gives the final state in closed form: the variables the block
   assigns hold tensors in canonical form whose entries are the per-element functions [s_*] (the float32
   formulas exactly as the MiniTorch operations compute them), the other variables are untouched, and
   each torch.rand call has appended one event.  TieModel.v relates [s_*] to PV.C08.Model, Tie.v composes
   the blocks into the whole body. *)
From Coq Require Import ZArith QArith Qround List String Bool Arith Lia.
From PV Require Import MiniPy.Syntax MiniPy.Interp MiniTorch.Ops MiniTorch.OpsC08 MiniTorch.LemmasC08.
From PV Require Import Gen.C08Src C08.SrcRun C08.TieLib.
From PV Require C08.Model.
Import ListNotations.
Local Open Scope string_scope.

(* ---- the per-element formulas the operations compute -------------------------------------------- *)
Section Src.
  Variable a : Model.arith.
  Notation r32 := (Model.r32 a).
  Notation sc := (OpsC08.sc a).
  Local Open Scope Q_scope.

  (* W = (lengths / 2 - eps).clamp(0, max_time_warp) on the float32 length l *)
  Definition s_W (eps Wt l : Q) : Q :=
    Model.qmin (Model.qmax (r32 (r32 (l / sc (inject_Z 2)) - sc eps)) (sc (inject_Z 0))) (sc Wt).
  (* w_0 = rand * (lengths - 2 * W) + W;  w = rand * (2 * W) - W *)
  Definition s_w0 (W l u : Q) : Q := r32 (r32 (u * r32 (l - r32 (W * sc (inject_Z 2)))) + W).
  Definition s_w (W u : Q) : Q := r32 (r32 (u * r32 (W * sc (inject_Z 2))) - W).
  (* v_0 = rand * s1 + s2;  v = rand * s3 - s2  with the Python numbers s1 = F - 2 * V, s2 = V, s3 = 2 * V *)
  Definition s_v0 (s1 s2 u : Q) : Q := r32 (r32 (u * sc s1) + sc s2).
  Definition s_v (s3 s2 u : Q) : Q := r32 (r32 (u * sc s3) - sc s2).
  (* torch.clamp(lengths * p, max=M).floor() *)
  Definition s_cap (p : Q) (M : Z) (l : Q) : Q :=
    Model.z2q (Qfloor (Model.qmin (r32 (l * sc p)) (sc (inject_Z M)))).
  (* t = (rand * (max_ + omeps).unsqueeze(1)).long().masked_fill(nums_.unsqueeze(1) <= arange, 0) *)
  Definition s_t (om mx nm : Q) (m : nat) (u : Q) : Z :=
    if Qle_bool nm (Model.z2q (Z.of_nat m)) then 0%Z else Model.qtrunc (r32 (u * r32 (mx + sc om))).
  (* t_0 = (rand * (lengths.unsqueeze(1) - t + omeps)).long() *)
  Definition s_t0 (om l : Q) (t : Z) (u : Q) : Z :=
    Model.qtrunc (r32 (u * r32 (r32 (l - Model.z2q t) + sc om))).
  (* f = (rand * s).long() with the Python number s = max_ + omeps;  f_0 = (rand * (F - f + omeps)).long() *)
  Definition s_f (s u : Q) : Z := Model.qtrunc (r32 (u * sc s)).
  Definition s_f0 (om : Q) (F f : Z) (u : Q) : Z :=
    Model.qtrunc (r32 (u * r32 (r32 (Model.z2q (F - f)) + sc om))).
End Src.

(* ---- the symbolic run ---------------------------------------------------------------------------- *)
Lemma shp_T2 {X} n m (f : nat -> nat -> X) : shp (T2 n m f) = [n; m].  Proof. reflexivity. Qed.

Lemma min_val x y :
  (if match Qcompare (inject_Z x) (inject_Z y) with Datatypes.Lt => true | _ => false end then VInt x else VInt y) = VInt (Z.min y x).
Proof.
  unfold Qcompare, inject_Z. cbn [Qnum Qden]. rewrite !Z.mul_1_r. unfold Z.min. rewrite (Z.compare_antisym x y).
  destruct (x ?= y)%Z eqn:E; cbn [CompOpp]; reflexivity.
Qed.

Create HintDb ext08 discriminated.
#[global] Hint Resolve ext_operator ext_clamp ext_clamp_max ext_unsqueeze ext_masked_fill ext_le ext_rand_tuple1
  ext_rand_list1 ext_rand_list2 ext_float ext_long ext_floor ext_dtype ext_empty ext_arange ext_to_l ext_to_f ext_full
  ext_shape ext_device ext_eps ext_check_none : ext08.
Ltac ext_eq := solve [eauto 2 with ext08 operator nocore].
Ltac ops_rw := progress (unfold div_s, sub_s, mul_s, add_s, sub_t, mul_t, add_t, sub_fl, add_ls, clamp, floor, long_of_float,
    float_of_long, le_t, masked_fill_l, rsub_l, arange_f, full1;
  rewrite ?shp_T2, ?nats_eqb_refl, ?rand_1, ?rand_2, ?unsqueeze_T1_1, ?tmap_T1, ?tmap_T2, ?bc2_T1_T1, ?bc2_T2_col, ?bc2_col_T2, ?bc2_T2_T2, ?bc2_col_T1;
  cbn [ret_f ret_l ret_b shp nats_eqb Nat.eqb andb]).
Ltac leaf08 := leaf ext_eq ops_rw.
Ltac run := etransitivity; [ step leaf08 | ].
Ltac close_state := unfold set_var, emit; cbn [vars events]; rewrite ?app_length; cbn [List.length]; rewrite ?Nat.add_1_r;
  rewrite <- ?app_assoc; cbn [app]; rewrite ?app_nil_r; try reflexivity.

Section Blocks.
  Variable a : Model.arith.
  Variable rnd : nat -> nat -> Q.
  Notation ext := (ext08 a rnd).
  Notation zn := (fun n : nat => VInt (Z.of_nat n)).

  Definition ev_tuple1 (N : nat) : event := ("torch.rand", [VTuple [VInt (Z.of_nat N)]]).
  Definition ev_list1 (N : nat) : event := ("torch.rand", [VList [VInt (Z.of_nat N)]]).
  Definition ev_list2 (N M : nat) : event := ("torch.rand", [VList [VInt (Z.of_nat N); VInt (Z.of_nat M)]]).

  (* ---- time warp ---------------------------------------------------------------------------------- *)
  Definition W_of (eps Wt : Q) (L : nat -> Q) (n : nat) : Q := s_W a eps Wt (L n).

  Definition vars_twarp (k N : nat) (L : nat -> Q) (eps Wt : Q) (vs : list (string * val)) : list (string * val) :=
    if Model.nonzero Wt
    then update "w" (enc_f (T1 N (fun n => s_w a (W_of eps Wt L n) (rnd (S k) n))))
           (update "w_0" (enc_f (T1 N (fun n => s_w0 a (W_of eps Wt L n) (L n) (rnd k n))))
              (update "W" (enc_f (T1 N (W_of eps Wt L))) vs))
    else update "w" (enc_f empty0) (update "w_0" (enc_f empty0) vs).

  Definition events_twarp (N : nat) (Wt : Q) : list event :=
    if Model.nonzero Wt then [ev_tuple1 N; ev_list1 N] else [].

  Lemma twarp_run vs ev N L eps Wt :
    lookup "max_time_warp" vs = Some (VQ Wt) ->
    lookup "lengths" vs = Some (enc_f (T1 N L)) -> lookup "eps" vs = Some (VQ eps) ->
    lookup "N" vs = Some (VInt (Z.of_nat N)) -> lookup "device" vs = Some device_token ->
    Qeq_bool (sc a (inject_Z 2)) 0 = false ->
    exec ext draw_twarp (mkState vs ev)
    = Ok CNormal (mkState (vars_twarp (List.length ev) N L eps Wt vs) (ev ++ events_twarp N Wt)).
  Proof.
    intros HW HL He HN Hd H2. unfold draw_twarp, vars_twarp, events_twarp.
    erewrite exec_if_val by (cbn; rewrite HW; reflexivity).
    change (truthy (VQ Wt)) with (Model.nonzero Wt).
    destruct (Model.nonzero Wt).
    - run. close_state.
    - run. close_state.
  Qed.

  (* ---- time masks --------------------------------------------------------------------------------- *)
  Definition tmask_on (Mt : Z) (pt : Q) (nt : nat) (npt : Q) : bool :=
    negb (Mt =? 0)%Z && Model.nonzero pt && negb (Nat.eqb nt 0) && Model.nonzero npt.

  Definition t_of (om : Q) (Mt : Z) (pt : Q) (nt : nat) (npt : Q) (k : nat) (L : nat -> Q) (n m : nat) : Z :=
    s_t a om (s_cap a pt Mt (L n)) (s_cap a npt (Z.of_nat nt) (L n)) m (rnd k (n * nt + m)%nat).

  Definition vars_tmask (k N : nat) (L : nat -> Q) (om : Q) (Mt : Z) (pt : Q) (nt : nat) (npt : Q)
    (vs : list (string * val)) : list (string * val) :=
    if tmask_on Mt pt nt npt
    then update "t_0" (enc_l (T2 N nt (fun n m => s_t0 a om (L n) (t_of om Mt pt nt npt k L n m) (rnd (S k) (n * nt + m)%nat))))
           (update "t" (enc_l (T2 N nt (t_of om Mt pt nt npt k L)))
              (update "nums_" (enc_f (T1 N (fun n => s_cap a npt (Z.of_nat nt) (L n))))
                 (update "max_" (enc_f (T1 N (fun n => s_cap a pt Mt (L n)))) vs)))
    else update "t_0" (enc_f empty0) (update "t" (enc_f empty0) vs).

  Definition events_tmask (N : nat) (Mt : Z) (pt : Q) (nt : nat) (npt : Q) : list event :=
    if tmask_on Mt pt nt npt then [ev_list2 N nt; ev_list2 N nt] else [].

  Lemma tmask_cond vs ev Mt pt nt npt :
    lookup "max_time_mask" vs = Some (VInt Mt) -> lookup "max_time_mask_proportion" vs = Some (VQ pt) ->
    lookup "num_time_mask" vs = Some (VInt (Z.of_nat nt)) -> lookup "num_time_mask_proportion" vs = Some (VQ npt) ->
    exists v, eval ext (EAnd (EName "max_time_mask") (EAnd (EName "max_time_mask_proportion")
                          (EAnd (EName "num_time_mask") (EName "num_time_mask_proportion")))) (mkState vs ev)
              = Ok v (mkState vs ev) /\ truthy v = tmask_on Mt pt nt npt.
  Proof.
    intros HMt Hpt Hnt Hnpt. unfold tmask_on, Model.nonzero. rewrite <- (of_nat_eqb0 nt).
    repeat (erewrite eval_and by (apply eval_name; eassumption); cbn [truthy]).
    destruct (Mt =? 0)%Z eqn:E1, (Qeq_bool pt 0) eqn:E2, (Z.of_nat nt =? 0)%Z eqn:E3; cbn [negb andb];
      eexists; (split; [first [reflexivity | apply eval_name; eassumption]|]); cbn [truthy]; now rewrite ?E1, ?E2, ?E3.
  Qed.

  Lemma tmask_run vs ev N L om Mt pt nt npt :
    lookup "max_time_mask" vs = Some (VInt Mt) -> lookup "max_time_mask_proportion" vs = Some (VQ pt) ->
    lookup "num_time_mask" vs = Some (VInt (Z.of_nat nt)) -> lookup "num_time_mask_proportion" vs = Some (VQ npt) ->
    lookup "lengths" vs = Some (enc_f (T1 N L)) -> lookup "omeps" vs = Some (VQ om) ->
    lookup "N" vs = Some (VInt (Z.of_nat N)) -> lookup "device" vs = Some device_token ->
    exec ext draw_tmask (mkState vs ev)
    = Ok CNormal (mkState (vars_tmask (List.length ev) N L om Mt pt nt npt vs) (ev ++ events_tmask N Mt pt nt npt)).
  Proof.
    intros HMt Hpt Hnt Hnpt HL Hom HN Hd. unfold draw_tmask, vars_tmask, events_tmask.
    destruct (tmask_cond vs ev Mt pt nt npt HMt Hpt Hnt Hnpt) as [v [Hv Ht]].
    erewrite exec_if_val by exact Hv. rewrite Ht.
    destruct (tmask_on Mt pt nt npt).
    - run. close_state.
    - run. close_state.
  Qed.

  (* ---- frequency masks ------------------------------------------------------------------------------ *)
  Definition fmask_on (Mf : Z) (nf : nat) : bool := negb (Mf =? 0)%Z && negb (Nat.eqb nf 0).

  Definition f_of (om : Q) (Mf F : Z) (nf k n m : nat) : Z :=
    s_f a (Qred (inject_Z (Z.min Mf F) + om)) (rnd k (n * nf + m)%nat).

  Definition vars_fmask (k N : nat) (om : Q) (Mf F : Z) (nf : nat) (vs : list (string * val)) : list (string * val) :=
    if fmask_on Mf nf
    then update "f_0" (enc_l (T2 N nf (fun n m => s_f0 a om F (f_of om Mf F nf k n m) (rnd (S k) (n * nf + m)%nat))))
           (update "f" (enc_l (T2 N nf (f_of om Mf F nf k)))
              (update "max_" (VInt (Z.min Mf F)) vs))
    else update "f_0" (enc_f empty0) (update "f" (enc_f empty0) vs).

  Definition events_fmask (N : nat) (Mf : Z) (nf : nat) : list event :=
    if fmask_on Mf nf then [ev_list2 N nf; ev_list2 N nf] else [].

  Lemma fmask_cond vs ev Mf nf :
    lookup "max_freq_mask" vs = Some (VInt Mf) -> lookup "num_freq_mask" vs = Some (VInt (Z.of_nat nf)) ->
    exists v, eval ext (EAnd (EName "max_freq_mask") (EName "num_freq_mask")) (mkState vs ev)
              = Ok v (mkState vs ev) /\ truthy v = fmask_on Mf nf.
  Proof.
    intros HMf Hnf. unfold fmask_on. rewrite <- (of_nat_eqb0 nf).
    erewrite eval_and by (apply eval_name; eassumption). cbn [truthy].
    destruct (Mf =? 0)%Z eqn:E1; cbn [negb andb];
      eexists; (split; [first [reflexivity | apply eval_name; eassumption]|]); cbn [truthy]; now rewrite ?E1.
  Qed.

  Lemma fmask_run vs ev N om Mf F nf :
    lookup "max_freq_mask" vs = Some (VInt Mf) -> lookup "num_freq_mask" vs = Some (VInt (Z.of_nat nf)) ->
    lookup "F" vs = Some (VInt F) -> lookup "omeps" vs = Some (VQ om) ->
    lookup "N" vs = Some (VInt (Z.of_nat N)) -> lookup "device" vs = Some device_token ->
    exec ext draw_fmask (mkState vs ev)
    = Ok CNormal (mkState (vars_fmask (List.length ev) N om Mf F nf vs) (ev ++ events_fmask N Mf nf)).
  Proof.
    intros HMf Hnf HF Hom HN Hd. unfold draw_fmask, vars_fmask, events_fmask.
    destruct (fmask_cond vs ev Mf nf HMf Hnf) as [v [Hv Ht]].
    erewrite exec_if_val by exact Hv. rewrite Ht.
    destruct (fmask_on Mf nf).
    - eapply exec_seq_to; [ step ltac:(idtac; cbn; rewrite min_val; ok_refl) | ]. run. close_state.
    - run. close_state.
  Qed.

End Blocks.
