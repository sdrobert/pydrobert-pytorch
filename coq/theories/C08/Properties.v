(* C08 - SpecAugment draws stay within bounds and masking touches only masked cells.
   Property theorems only: each is closed by [exact <lemma>] and followed by
   [Print Assumptions].  The harness re-checks this file on every run.

   [exact] is the model over Q (no rounding), [ieee] the float32/float64 model that the
   correspondence compares bit for bit with torch (see Model.v). *)
From Coq Require Import List ZArith QArith Qround Qabs.
From PV Require Import C08.Model C08.Spec C08.ProofsDraw C08.ProofsRound C08.ProofsIeee
                       C08.ProofsMask C08.ProofsWarp C08.Proofs.
Import ListNotations.
Local Open Scope Q_scope.

(* ===== draws ========================================================================== *)

(* "For every ... configuration and random draw, the drawn parameters respect every
   configured limit": every clause of Spec.draw_ok, for all variates in [0,1) over Q, every
   eps in (0,1], every length and size >= 0, every valid configuration (including zero
   limits, proportions 0 and 1, warps larger than half the length). *)
Theorem c08_draw_within_bounds : forall eps c F len u,
  0 < eps -> eps <= 1 -> cfg_valid c -> (0 <= F)%Z -> (0 <= len)%Z -> uv_unit u ->
  draw_ok eps 0 c F len (draw exact eps c F len u).
Proof. exact draw_exact_ok. Qed.
Print Assumptions c08_draw_within_bounds.

(* "mask widths and counts obey both the absolute and the length-proportional caps, every
   mask lies inside the valid frames": 0 <= t <= Mt, t <= len * pt, #{t <> 0} <= nt and
   <= len * npt, 0 <= t_0, t_0 + t <= len *)
Theorem c08_time_mask_caps_and_inside_valid : forall eps c len us us0,
  0 < eps -> eps <= 1 -> (0 <= len)%Z -> (0 <= c_Mt c)%Z ->
  0 <= c_pt c /\ c_pt c <= 1 -> 0 <= c_npt c ->
  Forall unit_u us -> Forall unit_u us0 ->
  tmasks_ok 0 c len (time_masks exact eps c len us us0).
Proof. exact time_masks_ok. Qed.
Print Assumptions c08_time_mask_caps_and_inside_valid.

(* "... or coefficients": 0 <= f <= Mf, 0 <= f_0, f_0 + f <= F, exactly nf masks *)
Theorem c08_freq_mask_bounds : forall eps c F us us0,
  0 < eps -> eps <= 1 -> (0 <= F)%Z -> (0 <= c_Mf c)%Z ->
  Forall unit_u us -> Forall unit_u us0 ->
  fmasks_ok c F (freq_masks exact eps c F us us0).
Proof. exact freq_masks_ok. Qed.
Print Assumptions c08_freq_mask_bounds.

(* "warp centres and shifts stay within the permitted window": with the half-width
   W = clamp(len/2 - eps, 0, Wmax) the code uses: 0 <= W <= Wmax, 2W <= len,
   min(Wmax, len/2) - eps <= W, W <= w_0 <= len - W, -W <= w <= W *)
Theorem c08_time_warp_window : forall eps Wmax len u u',
  0 < eps -> 0 <= Wmax -> (0 <= len)%Z -> unit_u u -> unit_u u' ->
  let W := tw_W exact eps Wmax len in
  0 <= W /\ W <= Wmax /\ 2 * W <= z2q len /\ qmin Wmax (z2q len / 2) - eps <= W
  /\ W <= tw_w0 exact W len u /\ tw_w0 exact W len u <= z2q len - W
  /\ - W <= tw_w exact W u' /\ tw_w exact W u' <= W.
Proof. exact time_warp_window. Qed.
Print Assumptions c08_time_warp_window.

Theorem c08_freq_warp_window : forall eps Wmax F u u',
  0 < eps -> 0 <= Wmax -> (0 <= F)%Z -> unit_u u -> unit_u u' ->
  let V := fw_V exact eps Wmax F in
  0 <= V /\ V <= Wmax /\ 2 * V <= z2q F /\ qmin Wmax (z2q F / 2) - eps <= V
  /\ V <= fw_v0 exact V F u /\ fw_v0 exact V F u <= z2q F - V
  /\ - V <= fw_v exact V u' /\ fw_v exact V u' <= V.
Proof. exact freq_warp_window. Qed.
Print Assumptions c08_freq_warp_window.

(* the boolean judge the harness applies to what the implementation drew is this spec *)
Theorem c08_draw_checker_is_spec : forall ws ps c F len p,
  draw_okb ws ps c F len p = true <-> draw_ok ws ps c F len p.
Proof. exact draw_okb_iff. Qed.
Print Assumptions c08_draw_checker_is_spec.

(* ----- the same bounds under floating-point rounding ("floor/clamp arithmetic with the
   epsilon tricks must hold for every length and every seed") ----------------------------- *)

(* the float32/float64 model satisfies the three rounding laws: monotone, exact on integers
   up to 2^24, and  x <= (1 - 2^-24) R  ==>  RN(x) < R  for integers 0 < R <= 2^24 *)
Theorem c08_ieee_rounding_laws : rounding_laws ieee.
Proof. exact ieee_laws. Qed.
Print Assumptions c08_ieee_rounding_laws.

(* every time mask drawn in float32 (any dtype's eps, any float32 variate u <= 1 - 2^-24,
   len < 2^24): 0 <= t <= Mt, t <= the float32 proportional cap, 0 <= t_0, t_0 + t <= len *)
Theorem c08_time_masks_float32 : forall d c len us us0,
  (0 <= len)%Z /\ (len < two24)%Z -> (0 <= c_Mt c)%Z -> 0 <= c_pt c /\ c_pt c <= 1 ->
  Forall grid_u us -> Forall grid_u us0 ->
  Forall (fun b : Z * Z =>
      (0 <= snd b <= c_Mt c)%Z /\ z2q (snd b) <= r32 ieee (lenq ieee len * r32 ieee (c_pt c))
      /\ (0 <= fst b)%Z /\ (fst b + snd b <= len)%Z)
    (time_masks ieee (eps_of d) c len us us0).
Proof. exact time_masks_ieee. Qed.
Print Assumptions c08_time_masks_float32.

Theorem c08_freq_masks_float32 : forall d c F us us0,
  (0 <= F)%Z /\ (F < two24)%Z -> (0 <= c_Mf c)%Z -> Forall grid_u us -> Forall grid_u us0 ->
  fmasks_ok c F (freq_masks ieee (eps_of d) c F us us0).
Proof. exact freq_masks_ieee. Qed.
Print Assumptions c08_freq_masks_float32.

(* the count cap does not depend on the arithmetic: at most floor(min(len * npt, nt)) (as
   that arithmetic computes it) masks have a non-zero width *)
Theorem c08_time_mask_count_any_arith : forall a eps c len us us0,
  (count_nonzero (time_masks a eps c len us us0)
   <= Z.max 0 (cap a len (c_npt c) (Z.of_nat (c_nt c))))%Z.
Proof. exact count_nonzero_le_nums. Qed.
Print Assumptions c08_time_mask_count_any_arith.

(* ===== applying parameters ============================================================ *)

(* "Applying parameters zeroes exactly the masked time and frequency bands, leaves every
   other entry bit-identical when no warp was drawn" - cells are opaque values of any type *)
Theorem c08_apply_zeroes_exactly_masked : forall (A : Type) (zero : A) tm fm img t f d,
  (t < length img)%nat -> (f < length (nth t img []))%nat ->
  (masked_cell tm fm (Z.of_nat t) (Z.of_nat f) ->
     nth f (nth t (apply_masks zero tm fm img) []) d = zero)
  /\ (~ masked_cell tm fm (Z.of_nat t) (Z.of_nat f) ->
     nth f (nth t (apply_masks zero tm fm img) []) d = nth f (nth t img []) d).
Proof. exact @apply_masks_cell. Qed.
Print Assumptions c08_apply_zeroes_exactly_masked.

(* "The output always has the input's shape" *)
Theorem c08_mask_shape_preserved : forall (A : Type) (zero : A) tm fm img,
  length (apply_masks zero tm fm img) = length img
  /\ forall t, length (nth t (apply_masks zero tm fm img) []) = length (nth t img []).
Proof. exact @apply_masks_shape. Qed.
Print Assumptions c08_mask_shape_preserved.

Theorem c08_shape_preserved : forall len p img, rect (width img) img ->
  length (apply_lin len p img) = length img
  /\ forall t, (t < length img)%nat ->
       length (nth t (apply_lin len p img) []) = length (nth t img []).
Proof. exact apply_lin_shape. Qed.
Print Assumptions c08_shape_preserved.

(* "in evaluation mode the input is returned unchanged" *)
Theorem c08_eval_mode_identity : forall a eps c len u img,
  spec_augment false a eps c len u img = img.
Proof. exact eval_mode_identity. Qed.
Print Assumptions c08_eval_mode_identity.

(* ===== the linear warp ================================================================= *)

(* what the oracle must deliver: ANY exact solution of polyharmonic_spline's order-1 linear
   system on the three knots is the piecewise-linear map [lin3] (identity outside) *)
Theorem c08_order1_spline_is_piecewise_linear : forall c0 c1 c2 f1 w0 w1 w2 v1 v0,
  c0 < c1 -> c1 < c2 ->
  spline1_solution c0 c1 c2 c0 f1 c2 w0 w1 w2 v1 v0 ->
  forall x, spline1_eval c0 c1 c2 w0 w1 w2 v1 v0 x == lin3 (mkKnots c0 c1 f1 c2) x.
Proof. exact order1_spline_is_lin3. Qed.
Print Assumptions c08_order1_spline_is_piecewise_linear.

(* "the default (linear) time warp reads the valid frames in non-decreasing order": for all
   sources, flows (inside the window or not), lengths >= 1 and all pairs of output frames *)
Theorem c08_linear_warp_monotone : forall eps T src flow len i j d,
  0 < eps -> (0 < T)%Z -> 1 <= len -> (i <= j)%nat -> (j < Z.to_nat T)%nat ->
  nth i (warp_grid eps T src flow len) d <= nth j (warp_grid eps T src flow len) d.
Proof. exact linear_warp_monotone. Qed.
Print Assumptions c08_linear_warp_monotone.

(* ... and valid output frames read inside the valid input frames [0, L-1], up to the eps
   (in pixels eps*T/2) by which the two pinned knots lie outside them *)
Theorem c08_linear_warp_reads_valid_frames : forall eps T src flow (L : Z) i d,
  0 < eps -> (0 < T)%Z -> (1 <= L)%Z -> (Z.of_nat i <= L - 1)%Z -> (i < Z.to_nat T)%nat ->
  - (eps * z2q T / 2) <= unnorm T (nth i (warp_grid eps T src flow (z2q L)) d)
  /\ unnorm T (nth i (warp_grid eps T src flow (z2q L)) d) <= z2q (L - 1) + eps * z2q T / 2.
Proof. exact linear_warp_reads_valid. Qed.
Print Assumptions c08_linear_warp_reads_valid_frames.

(* "beginning and ending within half a frame of the first and last valid frame".
   FULL STATEMENT (for every draw the configuration permits) IS FALSE - see
   c08_linear_warp_pinned_refuted.  Proved here under the hypothesis that the clamped
   destination d keeps a margin from both ends: eps*T*s <= d and
   eps*T*(len-1-s) <= len-1-d (s the clamped source); together with the previous theorem
   the first / last valid frame then read within [-eps*T/2, 1/2] of frame 0 / L-1. *)
Theorem c08_linear_warp_pinned_partial : forall eps T src flow (L : Z) d0,
  0 < eps -> (0 < T)%Z -> (1 <= L)%Z -> (L <= T)%Z ->
  let len := z2q L in
  let s := qmax (qmin src (len - 1)) 0 in
  let d := qmax (qmin (s + flow) (len - 1)) 0 in
  eps * z2q T * s <= d ->
  eps * z2q T * (len - 1 - s) <= len - 1 - d ->
  unnorm T (nth 0 (warp_grid eps T src flow len) d0) <= 1 # 2
  /\ z2q (L - 1) - (1 # 2) <= unnorm T (nth (Z.to_nat (L - 1)) (warp_grid eps T src flow len) d0).
Proof. exact linear_warp_pinned_margin. Qed.
Print Assumptions c08_linear_warp_pinned_partial.

(* the unconditional pinning clause is refuted in exact arithmetic by draws inside the
   permitted window (T = len = 10, max_time_warp = 3, u = (99/100, 99/100) resp. (0, 0)):
   the last valid frame reads more than two frames early, frame 0 more than two frames
   late.  Replayed on the implementation: known finding K7. *)
Theorem c08_linear_warp_pinned_refuted :
  exists eps T (L : Z) Wmax u1 u2 u1' u2',
    0 < eps /\ (1 <= L)%Z /\ (L <= T)%Z /\ 0 <= Wmax
    /\ unit_u u1 /\ unit_u u2 /\ unit_u u1' /\ unit_u u2'
    /\ (let W := tw_W exact eps Wmax L in
        unnorm T (nth (Z.to_nat (L - 1))
                      (warp_grid eps T (tw_w0 exact W L u1) (tw_w exact W u2) (z2q L)) 0)
        < z2q (L - 1) - 2)
    /\ (let W := tw_W exact eps Wmax L in
        2 < unnorm T (nth 0 (warp_grid eps T (tw_w0 exact W L u1') (tw_w exact W u2') (z2q L)) 0)).
Proof. exact linear_warp_pinned_refuted. Qed.
Print Assumptions c08_linear_warp_pinned_refuted.

(* ===== resampling ====================================================================== *)

(* "no warp of any order yields a ... value ... outside the range of its input": bilinear
   resampling with border padding at ANY coordinates (whatever spline produced them) is a
   convex combination of in-bounds neighbours *)
Theorem c08_bilinear_border_in_range : forall lo hi img gx gy,
  (0 < zlen img)%Z -> (0 < width img)%Z -> rect (width img) img -> img_in lo hi img ->
  in_rng lo hi (bilinear img (zlen img) (width img) gx gy).
Proof. exact bilinear_in_range. Qed.
Print Assumptions c08_bilinear_border_in_range.

(* ... and so is every cell of a warped-then-masked output, with 0 added to the range *)
Theorem c08_warp_output_in_range : forall lo hi img tgrid fgrid tm fm t f,
  (0 < zlen img)%Z -> (0 < width img)%Z -> rect (width img) img -> img_in lo hi img ->
  (t < length tgrid)%nat -> (f < length fgrid)%nat ->
  let out := apply_with_grids (Some tgrid) (Some fgrid) tm fm img in
  in_rng (qmin lo 0) (qmax hi 0) (nth f (nth t out []) 0).
Proof. exact warped_masked_in_range. Qed.
Print Assumptions c08_warp_output_in_range.

(* ===== non-vacuity ====================================================================== *)
(* a concrete configuration with every group enabled, a warp larger than half the length,
   proportion 1, extreme variates: hypotheses hold, and the draw is non-trivial *)
Example c08_nonvacuous :
  let c := mkCfg 100 2 3 2 1 2 (1 # 2) 1 in
  let top := 16777215 # 16777216 in
  let u := mkUV top 0 (1 # 2) top [top; top] [top; 0] [top] [top] in
  cfg_valid c /\ uv_unit u /\ grid_u top
  /\ p_tm (draw exact eps32 c 4 7 u) = Some [(4, 3); (0, 3)]%Z
  /\ p_fm (draw exact eps32 c 4 7 u) = Some [(2, 2)]%Z
  /\ draw_okb eps32 0 c 4 7 (draw exact eps32 c 4 7 u) = true
  /\ draw ieee eps32 c 4 7 u
     = mkParams (Some (7 # 2, -7 # 2)) (Some (2, 16777213 # 8388608))
                (Some [(4, 3); (0, 3)]%Z) (Some [(2, 2)]%Z).
Proof.
  cbv zeta. unfold cfg_valid, uv_unit, unit_u, grid_u, u_top. cbn [c_Wt c_Wf c_Mt c_Mf c_pt c_npt
    u_w0 u_w u_v0 u_v u_t u_t0 u_f u_f0].
  repeat split; try (vm_compute; reflexivity); try (vm_compute; discriminate);
    repeat constructor; try (vm_compute; reflexivity); try (vm_compute; discriminate).
Qed.

(* ===== source tie: the Python text of spec_augment_draw_parameters ======================================
   PV.Gen.C08Src.draw_body is regenerated from /repo/src/pydrobert/torch/_img.py on every run by
   harness/py2coq/translate.py (the whole body; statement markers cut it into the blocks head / time warp /
   frequency warp / time masks / frequency masks / return, run one by one in TieBlocks*.v); MiniPy.Interp is
   its semantics; torch operations mean what MiniTorch.OpsC08 says through SrcRun.ext08, with the float32
   rounding [r32 a] of the model's arithmetic after every float32 operation; torch.rand is the oracle [rnd]
   (call index, flat position), exactly as the model takes the variates as data; Python-level float
   arithmetic is MiniPy's (exact): the model instance is [SrcRun.pyq a] (r64 = Qred, the identity up to ==).
   See notes/C08_tie_report.md. *)
From PV Require MiniPy.Syntax MiniPy.Interp Gen.C08Src C08.SrcRun C08.TieBlocks2 C08.TieModel C08.Tie C08.TieCor.

(* for every arithmetic satisfying the rounding laws (c08_ieee_rounding_laws: [ieee] does; [exact] does), every
   oracle, eps, configuration, N, T, F and lengths (omitted, or N values in (0, T]): interpreting the source
   returns an 8-tuple that reads back (as the harness reads torch's tensors) as one parameter set per batch
   element, equal to Model.draw on the variates the oracle served - mask groups (t_0, t), (f_0, f) EQUAL
   (max_ = floor(min(len * p, M)), nums, widths zeroed beyond nums, starts), warp groups equal as rationals *)
Theorem c08_source_draw_is_model : forall a rnd eps c N T F lens,
  rounding_laws a -> TieBlocks2.lens_ok N T lens ->
  exists v st ps,
    Interp.run (SrcRun.ext08 a rnd) C08Src.draw_body (SrcRun.draw_vars eps c N T F lens) = Interp.Ok v st
    /\ SrcRun.read_out N v = Some ps /\ length ps = N
    /\ forall n, (n < N)%nat ->
         SrcRun.params_eqv (nth n ps (mkParams None None None None))
           (draw (SrcRun.pyq a) eps c (Z.of_nat F) (SrcRun.len_of T lens n) (SrcRun.uv_of rnd c n)).
Proof. exact Tie.draw_tie. Qed.
Print Assumptions c08_source_draw_is_model.

(* at the exact arithmetic the masks are those of [draw exact], the function of c08_draw_within_bounds /
   c08_time_mask_caps_and_inside_valid / c08_freq_mask_bounds *)
Theorem c08_source_draw_exact : forall rnd eps c N T F lens, TieBlocks2.lens_ok N T lens ->
  exists v st ps,
    SrcRun.run_draw exact rnd eps c N T F lens = Interp.Ok v st /\ SrcRun.read_out N v = Some ps /\ length ps = N
    /\ forall n, (n < N)%nat ->
         let m := draw exact eps c (Z.of_nat F) (SrcRun.len_of T lens n) (SrcRun.uv_of rnd c n) in
         p_tm (nth n ps TieCor.no_params) = p_tm m /\ p_fm (nth n ps TieCor.no_params) = p_fm m.
Proof. exact TieCor.source_masks_exact. Qed.
Print Assumptions c08_source_draw_exact.

(* COMPOSED, purely about the interpreted source (over Q): every time mask it draws has
   0 <= t <= max_time_mask, t <= len * max_time_mask_proportion, at most num_time_mask and at most
   len * num_time_mask_proportion masks are non-empty, 0 <= t_0 and t_0 + t <= len (inside the valid length);
   every frequency mask has 0 <= f <= max_freq_mask, 0 <= f_0, f_0 + f <= F *)
Theorem c08_source_masks_within_limits : forall rnd eps c N T F lens,
  0 < eps -> eps <= 1 -> (0 <= c_Mt c)%Z -> (0 <= c_Mf c)%Z -> 0 <= c_pt c /\ c_pt c <= 1 -> 0 <= c_npt c ->
  (forall k i, unit_u (rnd k i)) -> TieBlocks2.lens_ok N T lens ->
  exists v st ps,
    SrcRun.run_draw exact rnd eps c N T F lens = Interp.Ok v st /\ SrcRun.read_out N v = Some ps /\ length ps = N
    /\ forall n, (n < N)%nat ->
         opt_ok (tmasks_ok 0 c (SrcRun.len_of T lens n)) (p_tm (nth n ps TieCor.no_params))
         /\ opt_ok (fmasks_ok c (Z.of_nat F)) (p_fm (nth n ps TieCor.no_params)).
Proof. exact TieCor.source_masks_within_limits. Qed.
Print Assumptions c08_source_masks_within_limits.

(* the same under float32 rounding (the arithmetic the harness compares bit for bit with torch): every
   dtype's eps, every float32 variate u <= 1 - 2^-24, T and F below 2^24 *)
Theorem c08_source_masks_float32 : forall d rnd c N T F lens,
  (Z.of_nat T < two24)%Z -> (Z.of_nat F < two24)%Z -> (0 <= c_Mt c)%Z -> (0 <= c_Mf c)%Z -> 0 <= c_pt c /\ c_pt c <= 1 ->
  (forall k i, grid_u (rnd k i)) -> TieBlocks2.lens_ok N T lens ->
  exists v st ps,
    SrcRun.run_draw ieee rnd (eps_of d) c N T F lens = Interp.Ok v st /\ SrcRun.read_out N v = Some ps /\ length ps = N
    /\ forall n, (n < N)%nat ->
         let len := SrcRun.len_of T lens n in
         opt_ok (Forall (fun b : Z * Z =>
                   (0 <= snd b <= c_Mt c)%Z /\ z2q (snd b) <= r32 ieee (lenq ieee len * r32 ieee (c_pt c))
                   /\ (0 <= fst b)%Z /\ (fst b + snd b <= len)%Z)) (p_tm (nth n ps TieCor.no_params))
         /\ opt_ok (fmasks_ok c (Z.of_nat F)) (p_fm (nth n ps TieCor.no_params)).
Proof. exact TieCor.source_masks_float32. Qed.
Print Assumptions c08_source_masks_float32.

(* the masks do not need the rounding laws: for EVERY arithmetic the per-element formulas the MiniTorch
   operations compute in the time-mask / frequency-mask blocks are Model.time_masks / Model.freq_masks *)
Theorem c08_source_time_mask_formulas : forall a eps c len (rt rt0 : nat -> Q),
  time_masks (SrcRun.pyq a) eps c len (map rt (seq 0 (c_nt c))) (map rt0 (seq 0 (c_nt c)))
  = map (fun m => let t := TieBlocks.s_t a (TieModel.om_of eps) (TieBlocks.s_cap a (c_pt c) (c_Mt c) (lenq a len))
                               (TieBlocks.s_cap a (c_npt c) (Z.of_nat (c_nt c)) (lenq a len)) m (rt m) in
                  (TieBlocks.s_t0 a (TieModel.om_of eps) (lenq a len) t (rt0 m), t)) (seq 0 (c_nt c)).
Proof. exact TieModel.time_masks_src. Qed.
Print Assumptions c08_source_time_mask_formulas.

(* non-vacuity: the configuration of c08_nonvacuous on a ragged batch of two; the interpreted source (float32
   rounding) reproduces the model's draws, and the hypotheses of the theorems above hold *)
Example c08_source_nonvacuous :
  let c := mkCfg 100 2 3 2 1 2 (1 # 2) 1 in
  let top := 16777215 # 16777216 in
  let u := mkUV top 0 (1 # 2) top [top; top] [top; 0] [top] [top] in
  TieBlocks2.lens_ok 2 7 (Some [7; 3]%Z)
  /\ SrcRun.src_draw_check F32 c 2 7 4 (Some [7; 3]%Z) [u; u] (SrcRun.model_draw ieee eps32 c 7 4 (Some [7; 3]%Z) [u; u]) = true
  /\ option_map (map p_tm) (SrcRun.src_draw ieee (SrcRun.rnd_of (SrcRun.calls_of c [u; u])) eps32 c 2 7 4 (Some [7; 3]%Z))
     = Some [Some [(4, 3); (0, 3)]; Some [(0, 3); (0, 0)]]%Z.
Proof. cbv zeta. repeat split; vm_compute; reflexivity. Qed.

(* ===== second source tie: the Python text of spec_augment_apply_parameters (masking, no warp) ================
   PV.Gen.C08BSrc.apply_body (the WHOLE body; unit harness/py2coq/units/C08BSrc.json, which also translates warp_1d_grid
   and spec_augment - executed against torch on every run by SrcRunB.src_*_check, no theorem yet) is regenerated from
   /repo/src/pydrobert/torch/_img.py on every run; torch operations mean what MiniTorch.OpsC08B / OpsC08 say through
   SrcRunB.ext_core; the feature tensor is a tensor of OPAQUE cells (arbitrary MiniPy values) which the code only
   moves or overwrites with the Python float 0.0.  See notes/C08_tie_report.md, section "Second tie". *)
From PV Require MiniTorch.OpsC08 MiniTorch.OpsC08B Gen.C08BSrc C08.SrcRunB C08.TieBLib C08.TieBMask C08.TieBApply C08.TieB.

(* for EVERY arithmetic, EVERY answer of the two kernel oracles and EVERY meaning of nested calls (none is made on this
   path), every feature tensor (N, T, F) of arbitrary cells, lengths omitted or N values in (0, T], warp groups (w_0, w),
   (v_0, v) with a member None or without element, each mask group (t_0, t), (f_0, f) either OFF (a member None or without
   element) or ON (two long tensors of one shape (N, M), N * M > 0): interpreting the source returns, without raising
   and without calling a kernel, a tensor of the input's shape whose batch element n is Model.apply_masks (zero = the
   float 0.0) on the (start, width) pairs of row n of the mask tensors *)
Theorem c08_source_apply_masks_is_model : forall a spl gso nested eps N T F cells pw0 pw pv0 pv tm fm order lens,
  TieBApply.lens_okB N T lens ->
  (TieBLib.par_on pw0 && TieBLib.par_on pw)%bool = false -> (TieBLib.par_on pv0 && TieBLib.par_on pv)%bool = false ->
  TieBApply.mspec_ok N tm -> TieBApply.mspec_ok N fm ->
  exists st out,
    Interp.run (SrcRunB.ext_core a spl gso nested) C08BSrc.apply_body
      (SrcRunB.apply_vars eps (OpsC08B.T3 N T F cells)
         (SrcRunB.enc_pars (TieBApply.pars_nowarp N pw0 pw pv0 pv tm fm)) order lens)
    = Interp.Ok (OpsC08B.enc_c eps (OpsC08.mkTn [N; T; F] out)) st
    /\ Interp.events st = []
    /\ forall n, (n < N)%nat ->
         SrcRunB.img_of Syntax.VNone T F out n
         = apply_masks (Syntax.VQ 0) (TieBApply.mspec_bands tm n) (TieBApply.mspec_bands fm n)
             (SrcRunB.img_of Syntax.VNone T F (OpsC08B.tabl3 N T F cells) n).
Proof. exact TieB.apply_nowarp_tie. Qed.
Print Assumptions c08_source_apply_masks_is_model.

(* COMPOSED with c08_apply_zeroes_exactly_masked, purely about the interpreted source: "applying parameters zeroes
   exactly the masked time and frequency bands, leaves every other entry bit-identical when no warp was drawn" - cell
   (n, t, f) of the returned tensor is the float 0.0 when t lies in a time band or f in a frequency band of batch
   element n, and is the input's cell otherwise *)
Theorem c08_source_apply_zeroes_exactly_masked : forall a spl gso nested eps N T F cells pw0 pw pv0 pv tm fm order lens,
  TieBApply.lens_okB N T lens ->
  (TieBLib.par_on pw0 && TieBLib.par_on pw)%bool = false -> (TieBLib.par_on pv0 && TieBLib.par_on pv)%bool = false ->
  TieBApply.mspec_ok N tm -> TieBApply.mspec_ok N fm ->
  exists st out,
    Interp.run (SrcRunB.ext_core a spl gso nested) C08BSrc.apply_body
      (SrcRunB.apply_vars eps (OpsC08B.T3 N T F cells)
         (SrcRunB.enc_pars (TieBApply.pars_nowarp N pw0 pw pv0 pv tm fm)) order lens)
    = Interp.Ok (OpsC08B.enc_c eps (OpsC08.mkTn [N; T; F] out)) st
    /\ forall n t f, (n < N)%nat -> (t < T)%nat -> (f < F)%nat ->
         (masked_cell (TieBApply.mspec_bands tm n) (TieBApply.mspec_bands fm n) (Z.of_nat t) (Z.of_nat f) ->
            OpsC08B.get3 Syntax.VNone T F out n t f = Syntax.VQ 0)
         /\ (~ masked_cell (TieBApply.mspec_bands tm n) (TieBApply.mspec_bands fm n) (Z.of_nat t) (Z.of_nat f) ->
            OpsC08B.get3 Syntax.VNone T F out n t f = cells n t f).
Proof. exact TieB.apply_nowarp_cells. Qed.
Print Assumptions c08_source_apply_zeroes_exactly_masked.

From Coq Require Import String.   (* string literals; shadows [length], which is not used below *)
(* the masking blocks one by one, from an arbitrary state (time masks ON: the (N, T, 1) mask the source builds is
   "some column h of row n has start <= t < start + width") *)
Theorem c08_source_time_mask_block : forall a spl gso nested vs ev N M T f0 f,
  Interp.lookup "t_0"%string vs = Some (OpsC08.enc_l (OpsC08.T2 N M f0)) ->
  Interp.lookup "t"%string vs = Some (OpsC08.enc_l (OpsC08.T2 N M f)) ->
  Nat.eqb (OpsC08.numel [N; M]) 0 = false ->
  Interp.lookup "T"%string vs = Some (Syntax.VInt (Z.of_nat T)) -> Interp.lookup "device"%string vs = Some SrcRun.device_token ->
  exists vs', Interp.exec (SrcRunB.ext_core a spl gso nested) C08BSrc.apply_tmask (Interp.mkState vs ev)
              = Interp.Ok Interp.CNormal (Interp.mkState vs' ev)
    /\ Interp.lookup "tmask"%string vs'
       = Some (OpsC08.enc_b (OpsC08B.T3 N T 1 (fun n t _ =>
                 masked (map (fun h => (f0 n h, f n h)) (seq 0 M)) (Z.of_nat t))))
    /\ forall x, String.eqb x "tmask" = false -> String.eqb x "t_1" = false -> Interp.lookup x vs' = Interp.lookup x vs.
Proof. exact TieB.tmask_block. Qed.
Print Assumptions c08_source_time_mask_block.

(* non-vacuity: a batch of one 3 x 2 image (cells 1..6), one time band (start 1, width 1), no frequency mask, no warp:
   the interpreted source zeroes row 1 only; the hypotheses of the theorems above hold for it *)
Example c08_source_apply_nonvacuous :
  let tm := TieBApply.MOn 1 (fun _ _ => 1%Z) (fun _ _ => 1%Z) in
  let fm := TieBApply.MOff SrcRunB.PN SrcRunB.PN in
  TieBApply.lens_okB 1 3 None /\ TieBApply.mspec_ok 1 tm /\ TieBApply.mspec_ok 1 fm
  /\ SrcRunB.src_apply_check 0 eps32 1 3 2
       [Syntax.VInt 1; Syntax.VInt 2; Syntax.VInt 3; Syntax.VInt 4; Syntax.VInt 5; Syntax.VInt 6]
       (TieBApply.pars_nowarp 1 SrcRunB.PN SrcRunB.PN SrcRunB.PN SrcRunB.PN tm fm) 1 None [] [] []
       (Some [Syntax.VInt 1; Syntax.VInt 2; Syntax.VQ 0; Syntax.VQ 0; Syntax.VInt 5; Syntax.VInt 6]) = true.
Proof. cbv zeta. repeat split; vm_compute; reflexivity. Qed.

(* ----- the wrapper `spec_augment` = draw then apply (C08BSrc.sa_body; the two calls are NESTED RUNS of the interpreter:
   the first tie's C08Src.draw_body under SrcRun.ext08, C08BSrc.apply_body under SrcRunB.extA), no warp configured
   (max_time_warp = max_freq_warp = 0), training mode.  For every arithmetic satisfying the rounding laws, every oracle:
   the interpreted wrapper returns, batch element by batch element, Model.apply_masks on the masks Model.draw draws from
   the variates torch.rand served *)
From PV Require C08.TieBSa C08.TieBSaCor.
Theorem c08_source_spec_augment_is_model : forall a, rounding_laws a ->
  forall spl gso rnd eps c N T F cells order lens,
  TieBlocks2.lens_ok N T lens -> nonzero (c_Wt c) = false -> nonzero (c_Wf c) = false ->
  exists st out,
    SrcRunB.run_sa a spl gso rnd eps (OpsC08B.T3 N T F cells) c order lens true
    = Interp.Ok (OpsC08B.enc_c eps (OpsC08.mkTn [N; T; F] out)) st
    /\ forall n, (n < N)%nat ->
         let p := draw (SrcRun.pyq a) eps c (Z.of_nat F) (SrcRun.len_of T lens n) (SrcRun.uv_of rnd c n) in
         SrcRunB.img_of Syntax.VNone T F out n
         = apply_masks (Syntax.VQ 0) (p_tm p) (p_fm p) (SrcRunB.img_of Syntax.VNone T F (OpsC08B.tabl3 N T F cells) n).
Proof. exact TieBSa.sa_nowarp_run. Qed.
Print Assumptions c08_source_spec_augment_is_model.

(* COMPOSED with the draw theorems (time_masks_ok / freq_masks_ok) and the masking theorem, purely about the interpreted
   wrapper over Q: there are drawn bands tm / fm per batch element such that every time band obeys the width and count
   caps and lies inside the valid length (0 <= t_0, t_0 + t <= len_n), every frequency band inside [0, F]; every cell
   inside a band is 0.0 and EVERY OTHER CELL IS THE INPUT'S CELL - so a changed cell always lies in a drawn range
   within the valid length (time) or the coefficients (frequency) *)
Theorem c08_source_spec_augment_masks_inside_valid : forall spl gso rnd eps c N T F cells order lens,
  0 < eps -> eps <= 1 -> (0 <= c_Mt c)%Z -> (0 <= c_Mf c)%Z -> 0 <= c_pt c /\ c_pt c <= 1 -> 0 <= c_npt c ->
  (forall k i, unit_u (rnd k i)) -> TieBlocks2.lens_ok N T lens ->
  nonzero (c_Wt c) = false -> nonzero (c_Wf c) = false ->
  exists st out,
    SrcRunB.run_sa exact spl gso rnd eps (OpsC08B.T3 N T F cells) c order lens true
    = Interp.Ok (OpsC08B.enc_c eps (OpsC08.mkTn [N; T; F] out)) st
    /\ forall n, (n < N)%nat -> exists tm fm,
         opt_ok (tmasks_ok 0 c (SrcRun.len_of T lens n)) tm /\ opt_ok (fmasks_ok c (Z.of_nat F)) fm
         /\ forall t f, (t < T)%nat -> (f < F)%nat ->
              (masked_cell tm fm (Z.of_nat t) (Z.of_nat f) -> OpsC08B.get3 Syntax.VNone T F out n t f = Syntax.VQ 0)
              /\ (~ masked_cell tm fm (Z.of_nat t) (Z.of_nat f) -> OpsC08B.get3 Syntax.VNone T F out n t f = cells n t f).
Proof. exact TieBSaCor.sa_masks_inside_valid. Qed.
Print Assumptions c08_source_spec_augment_masks_inside_valid.

(* ----- warp_1d_grid: the KNOT CONSTRUCTION block (C08BSrc.warp_knots: `src = torch.min(src, lengths - 1).clamp_min(0)` ..
   `dst = torch.stack([lowers, dst, uppers], 1)`), from an arbitrary state, exact arithmetic, any oracles: the two (N, 3)
   tensors handed to polyharmonic_spline (train values `src`, train points `dst`) hold per batch element exactly
   Model.warp_knots - pinned boundaries lowers = 1/T - 1 - eps and uppers = (2 len - 1)/T - 1 + eps, clamped source and
   destination mapped to grid coordinates.  (General arithmetic: TieBWarp.knots_run with the as-coded TieBWarp.wk_*.)
   The spline solve itself is an oracle; what any exact order-1 solution does with these knots is
   c08_order1_spline_is_piecewise_linear. *)
From PV Require C08.TieBWarp.
Theorem c08_source_warp_knots_block_is_model : forall spl gso nested vs ev N T eps (s fl L : nat -> Q),
  Interp.lookup "src" vs = Some (OpsC08.enc_f (OpsC08.T1 N s)) -> Interp.lookup "flow" vs = Some (OpsC08.enc_f (OpsC08.T1 N fl)) ->
  Interp.lookup "lengths" vs = Some (OpsC08.enc_f (OpsC08.T1 N L)) -> Interp.lookup "T" vs = Some (Syntax.VInt (Z.of_nat T)) ->
  Interp.lookup "eps" vs = Some (Syntax.VQ eps) -> Interp.lookup "N" vs = Some (Syntax.VInt (Z.of_nat N)) ->
  Interp.lookup "device" vs = Some SrcRun.device_token ->
  Interp.lookup "torch" vs = Some (Syntax.VDict [(Syntax.VStr "float", SrcRun.float_token); (Syntax.VStr "long", SrcRunB.long_token)]) ->
  T <> 0%nat ->
  exists vs' ks kd,
    Interp.exec (SrcRunB.ext_core exact spl gso nested) C08BSrc.warp_knots (Interp.mkState vs ev)
    = Interp.Ok Interp.CNormal (Interp.mkState vs' ev)
    /\ Interp.lookup "src" vs' = Some (OpsC08.enc_f (OpsC08.T2 N 3 ks))
    /\ Interp.lookup "dst" vs' = Some (OpsC08.enc_f (OpsC08.T2 N 3 kd))
    /\ forall n, let k := warp_knots eps (Z.of_nat T) (s n) (fl n) (L n) in
         ks n 0%nat == k_lo k /\ ks n 1%nat == k_src k /\ ks n 2%nat == k_up k
         /\ kd n 0%nat == k_lo k /\ kd n 1%nat == k_dst k /\ kd n 2%nat == k_up k.
Proof. exact TieBWarp.knots_block_exact. Qed.
Print Assumptions c08_source_warp_knots_block_is_model.

(* ----- warp_1d_grid, the WHOLE body (C08BSrc.warp_body) with max_length given, exact arithmetic, float tensors src / flow /
   lengths of N entries, any interpolation order: the interpreted source asks the spline oracle exactly ONCE - train points
   (N, 3, 1) = (lowers, dst, uppers), train values (N, 3, 1) = (lowers, src, uppers) with the knots of Model.warp_knots at
   float32's eps, query points (N, T, 1) = coord T i - and returns the oracle's answer as the (N, T) grid.  What an exact
   order-1 solve answers on such knots is lin3 (c08_order1_spline_is_piecewise_linear); the float32 solve is an oracle. *)
From PV Require C08.TieBWarp2.
Theorem c08_source_warp_1d_grid_asks_spline_with_model_knots : forall spl gso nested N T (s fl L : nat -> Q) order, T <> 0%nat ->
  exists st ks kd,
    Interp.run (SrcRunB.ext_core exact spl gso nested) C08BSrc.warp_body
      (SrcRunB.warp_vars (OpsC08.enc_f (OpsC08.T1 N s)) (OpsC08.enc_f (OpsC08.T1 N fl)) (OpsC08.enc_f (OpsC08.T1 N L))
         (Some (Z.of_nat T)) order)
    = Interp.Ok (OpsC08.enc_f (OpsC08.mkTn [N; T]
                   (SrcRunB.take 0 (N * T) (spl 0%nat (TieBWarp2.spl_args exact N T ks kd order))))) st
    /\ Interp.events st = [("polyharmonic_spline"%string, TieBWarp2.spl_args exact N T ks kd order)]
    /\ (forall n, let k := warp_knots eps32 (Z.of_nat T) (s n) (fl n) (L n) in
          ks n 0%nat == k_lo k /\ ks n 1%nat == k_src k /\ ks n 2%nat == k_up k
          /\ kd n 0%nat == k_lo k /\ kd n 1%nat == k_dst k /\ kd n 2%nat == k_up k)
    /\ forall i, TieBWarp2.wq exact T i == coord (Z.of_nat T) (z2q (Z.of_nat i)).
Proof. exact TieBWarp2.warp_run_exact. Qed.
Print Assumptions c08_source_warp_1d_grid_asks_spline_with_model_knots.
