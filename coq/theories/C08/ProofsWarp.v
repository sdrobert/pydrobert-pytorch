(* C08 - lemmas about the order-1 warp grid and bilinear border resampling. *)
From Coq Require Import List ZArith QArith Qround Qabs Bool Lia Lqa.
From PV Require Import C08.Model C08.Spec C08.ProofsDraw.
Import ListNotations.
Local Open Scope Q_scope.

(* ---- booleans ------------------------------------------------------------------- *)
Lemma qlt_bool_iff : forall x y, qlt_bool x y = true <-> x < y.
Proof. intros x y. unfold qlt_bool. rewrite negb_true_iff. apply Qle_bool_false. Qed.
Lemma qlt_bool_false : forall x y, qlt_bool x y = false <-> y <= x.
Proof.
  intros x y. unfold qlt_bool. rewrite negb_false_iff. apply Qle_bool_iff.
Qed.

(* ---- one linear segment --------------------------------------------------------- *)
Definition seg (a b fa fb x : Q) : Q := fa + (fb - fa) * (x - a) / (b - a).

Lemma seg_diff : forall a b fa fb x y, a < b ->
  seg a b fa fb y - seg a b fa fb x == (fb - fa) * (y - x) * / (b - a).
Proof. intros. unfold seg. field. lra. Qed.

Lemma seg_mono : forall a b fa fb x y, a < b -> fa <= fb -> x <= y ->
  seg a b fa fb x <= seg a b fa fb y.
Proof.
  intros a b fa fb x y Hab Hf Hxy. pose proof (seg_diff a b fa fb x y Hab) as D.
  assert (I : 0 < / (b - a)) by (apply Qinv_lt_0_compat; lra).
  assert (P : 0 <= (fb - fa) * (y - x)) by nra.
  assert (P2 : 0 <= (fb - fa) * (y - x) * / (b - a)) by (apply Qmult_le_0_compat; lra).
  lra.
Qed.

Lemma seg_at_a : forall a b fa fb, a < b -> seg a b fa fb a == fa.
Proof. intros. unfold seg. field. lra. Qed.
Lemma seg_at_b_eq : forall a b fa fb x, a < b -> x == b -> seg a b fa fb x == fb.
Proof. intros a b fa fb x H E. unfold seg. rewrite E. field. lra. Qed.
Lemma seg_at_b : forall a b fa fb, a < b -> seg a b fa fb b == fb.
Proof. intros a b fa fb H. apply seg_at_b_eq; [exact H|reflexivity]. Qed.

Lemma seg_bounds : forall a b fa fb x, a < b -> fa <= fb -> a <= x -> x <= b ->
  fa <= seg a b fa fb x /\ seg a b fa fb x <= fb.
Proof.
  intros a b fa fb x Hab Hf H1 H2. split.
  - rewrite <- (seg_at_a a b fa fb Hab) at 1. apply seg_mono; assumption.
  - rewrite <- (seg_at_b a b fa fb Hab) at 2. apply seg_mono; assumption.
Qed.

(* seg <= c  as a polynomial inequality *)
Lemma seg_le : forall a b fa fb x c, a < b ->
  (fb - fa) * (x - a) <= (c - fa) * (b - a) -> seg a b fa fb x <= c.
Proof.
  intros a b fa fb x c Hab H. unfold seg.
  assert (Q : (fb - fa) * (x - a) / (b - a) <= c - fa).
  { apply Qle_shift_div_r; [lra|exact H]. }
  lra.
Qed.
Lemma seg_ge : forall a b fa fb x c, a < b ->
  (c - fa) * (b - a) <= (fb - fa) * (x - a) -> c <= seg a b fa fb x.
Proof.
  intros a b fa fb x c Hab H. unfold seg.
  assert (Q : c - fa <= (fb - fa) * (x - a) / (b - a)).
  { apply Qle_shift_div_l; [lra|exact H]. }
  lra.
Qed.

(* ---- lin3 ------------------------------------------------------------------------- *)
Definition knots_ok (k : knots) : Prop :=
  k_lo k < k_dst k /\ k_dst k < k_up k /\ k_lo k <= k_src k /\ k_src k <= k_up k.

Lemma lin3_tail : forall k x, x < k_lo k \/ k_up k < x -> lin3 k x = x.
Proof.
  intros k x H. unfold lin3.
  destruct (qlt_bool x (k_lo k)) eqn:A; [reflexivity|].
  destruct (qlt_bool (k_up k) x) eqn:B; [reflexivity|].
  apply qlt_bool_false in A, B. lra.
Qed.
Lemma lin3_left : forall k x, k_lo k <= x -> x <= k_up k -> x <= k_dst k ->
  lin3 k x = seg (k_lo k) (k_dst k) (k_lo k) (k_src k) x.
Proof.
  intros k x H1 H2 H3. unfold lin3, seg.
  apply qlt_bool_false in H1, H2. rewrite H1, H2. cbn [orb].
  apply Qle_bool_iff in H3. now rewrite H3.
Qed.
Lemma lin3_right : forall k x, k_lo k <= x -> x <= k_up k -> k_dst k < x ->
  lin3 k x = seg (k_dst k) (k_up k) (k_src k) (k_up k) x.
Proof.
  intros k x H1 H2 H3. unfold lin3, seg.
  apply qlt_bool_false in H1, H2. rewrite H1, H2. cbn [orb].
  apply Qle_bool_false in H3. now rewrite H3.
Qed.

Lemma lin3_cases : forall k x,
  (x < k_lo k /\ lin3 k x = x) \/ (k_up k < x /\ lin3 k x = x)
  \/ (k_lo k <= x /\ x <= k_dst k /\ x <= k_up k /\ lin3 k x = seg (k_lo k) (k_dst k) (k_lo k) (k_src k) x)
  \/ (k_lo k <= x /\ k_dst k < x /\ x <= k_up k /\ lin3 k x = seg (k_dst k) (k_up k) (k_src k) (k_up k) x).
Proof.
  intros k x.
  destruct (Qlt_le_dec x (k_lo k)) as [A|A]; [left; split; [exact A|apply lin3_tail; auto]|].
  destruct (Qlt_le_dec (k_up k) x) as [B|B]; [right; left; split; [exact B|apply lin3_tail; auto]|].
  destruct (Qlt_le_dec (k_dst k) x) as [C|C].
  - right; right; right. repeat split; try assumption. apply lin3_right; assumption.
  - right; right; left. repeat split; try assumption. apply lin3_left; assumption.
Qed.

Lemma lin3_range : forall k x, knots_ok k -> k_lo k <= x -> x <= k_up k ->
  k_lo k <= lin3 k x /\ lin3 k x <= k_up k
  /\ (x <= k_dst k -> lin3 k x <= k_src k) /\ (k_dst k <= x -> k_src k <= lin3 k x).
Proof.
  intros k x [K1 [K2 [K3 K4]]] H1 H2.
  destruct (Qlt_le_dec (k_dst k) x) as [C|C].
  - rewrite lin3_right by assumption.
    destruct (seg_bounds (k_dst k) (k_up k) (k_src k) (k_up k) x K2 K4 (Qlt_le_weak _ _ C) H2) as [S1 S2].
    repeat split; try lra.
  - rewrite lin3_left by assumption.
    destruct (seg_bounds (k_lo k) (k_dst k) (k_lo k) (k_src k) x K1 K3 H1 C) as [S1 S2].
    repeat split; try lra. intro D. assert (E : x == k_dst k) by lra.
    pose proof (seg_at_b_eq _ _ (k_lo k) (k_src k) x K1 E). lra.
Qed.

(* the order-1 grid function is non-decreasing on the whole line *)
Lemma lin3_mono : forall k x y, knots_ok k -> x <= y -> lin3 k x <= lin3 k y.
Proof.
  intros k x y K Hxy. pose proof K as [K1 [K2 [K3 K4]]].
  destruct (lin3_cases k x) as [[A Ex]|[[A Ex]|[[A1 [A2 [A3 Ex]]]|[A1 [A2 [A3 Ex]]]]]];
  destruct (lin3_cases k y) as [[B Ey]|[[B Ey]|[[B1 [B2 [B3 Ey]]]|[B1 [B2 [B3 Ey]]]]]];
  try (rewrite Ex, Ey; lra); try lra.
  - (* x below, y in left *) rewrite Ex. destruct (lin3_range k y K B1 B3) as [R _]. lra.
  - rewrite Ex. destruct (lin3_range k y K B1 B3) as [R _]. lra.
  - (* x in left, y above *) rewrite Ey. destruct (lin3_range k x K A1 A3) as [_ [R _]]. lra.
  - rewrite Ex, Ey. apply seg_mono; assumption.
  - destruct (lin3_range k x K A1 A3) as [_ [_ [R _]]].
    destruct (lin3_range k y K B1 B3) as [_ [_ [_ R']]]. specialize (R A2).
    assert (k_dst k <= y) by lra. specialize (R' H). lra.
  - rewrite Ey. destruct (lin3_range k x K A1 A3) as [_ [R _]]. lra.
  - rewrite Ex, Ey. apply seg_mono; assumption.
Qed.

(* ---- the spline oracle: an exact solution of the order-1 system is lin3 ----------- *)
Lemma order1_spline_is_lin3 : forall c0 c1 c2 f1 w0 w1 w2 v1 v0,
  c0 < c1 -> c1 < c2 ->
  spline1_solution c0 c1 c2 c0 f1 c2 w0 w1 w2 v1 v0 ->
  forall x, spline1_eval c0 c1 c2 w0 w1 w2 v1 v0 x == lin3 (mkKnots c0 c1 f1 c2) x.
Proof.
  intros c0 c1 c2 f1 w0 w1 w2 v1 v0 H01 H12 [E0 [E1 [E2 [E3 E4]]]] x.
  unfold spline1_eval in E0, E1, E2.
  assert (Z0 : forall a, Qabs (a - a) == 0) by (intro a; rewrite Qabs_pos; lra).
  rewrite Z0 in E0, E1, E2.
  rewrite (Qabs_neg (c0 - c1)), (Qabs_neg (c0 - c2)) in E0 by lra.
  rewrite (Qabs_pos (c1 - c0)), (Qabs_neg (c1 - c2)) in E1 by lra.
  rewrite (Qabs_pos (c2 - c0)), (Qabs_pos (c2 - c1)) in E2 by lra.
  (* the affine part is the identity *)
  assert (C0 : c0 * (w0 + w1 + w2) == 0) by (rewrite E4; ring).
  assert (C1 : c1 * (w0 + w1 + w2) == 0) by (rewrite E4; ring).
  assert (C2 : c2 * (w0 + w1 + w2) == 0) by (rewrite E4; ring).
  assert (P0 : c0 * v1 + v0 == c0) by lra.
  assert (P2 : c2 * v1 + v0 == c2) by lra.
  assert (V : (c2 - c0) * (v1 - 1) == 0) by lra.
  apply Qmult_integral in V. destruct V as [V|V]; [lra|].
  assert (V1 : v1 == 1) by lra. assert (V0 : v0 == 0) by (rewrite V1 in P0; lra).
  clear P0 P2 V. rewrite V1, V0 in E0, E1, E2.
  assert (X4 : x * (w0 + w1 + w2) == 0) by (rewrite E4; ring).
  unfold spline1_eval. rewrite V1, V0.
  destruct (lin3_cases (mkKnots c0 c1 f1 c2) x)
    as [[A Ex]|[[A Ex]|[[A1 [A2 [A3 Ex]]]|[A1 [A2 [A3 Ex]]]]]];
    cbn [k_lo k_dst k_src k_up] in *; rewrite Ex.
  - rewrite (Qabs_neg (x - c0)), (Qabs_neg (x - c1)), (Qabs_neg (x - c2)) by lra. lra.
  - rewrite (Qabs_pos (x - c0)), (Qabs_pos (x - c1)), (Qabs_pos (x - c2)) by lra. lra.
  - rewrite (Qabs_pos (x - c0)), (Qabs_neg (x - c1)), (Qabs_neg (x - c2)) by lra.
    set (s := w0 - w1 - w2 + 1).
    assert (S : f1 - c0 == s * (c1 - c0)) by (unfold s; lra).
    assert (R : seg c0 c1 c0 f1 x == c0 + s * (x - c0)).
    { unfold seg. rewrite S. field. lra. }
    rewrite R. unfold s. lra.
  - rewrite (Qabs_pos (x - c0)), (Qabs_pos (x - c1)), (Qabs_neg (x - c2)) by lra.
    set (s := w0 + w1 - w2 + 1).
    assert (S : c2 - f1 == s * (c2 - c1)) by (unfold s; lra).
    assert (R : seg c1 c2 f1 c2 x == f1 + s * (x - c1)).
    { unfold seg. rewrite S. field. lra. }
    rewrite R. unfold s. lra.
Qed.

(* ---- the knots warp_1d_grid builds -------------------------------------------------- *)
Lemma coord_mono : forall T p q, (0 < T)%Z -> p <= q -> coord T p <= coord T q.
Proof.
  intros T p q HT H. unfold coord.
  assert (I : 0 < / z2q T).
  { apply Qinv_lt_0_compat. unfold z2q. change 0 with (inject_Z 0). rewrite <- Zlt_Qlt. exact HT. }
  unfold Qdiv. nra.
Qed.

Lemma clamp_range : forall x hi, 0 <= hi -> 0 <= qmax (qmin x hi) 0 /\ qmax (qmin x hi) 0 <= hi.
Proof.
  intros x hi H. split; [apply qmax_r|]. apply qmax_lub; [apply qmin_r|exact H].
Qed.

Lemma z2q_pos : forall T, (0 < T)%Z -> 0 < z2q T.
Proof. intros T H. unfold z2q. change 0 with (inject_Z 0). rewrite <- Zlt_Qlt. exact H. Qed.

Lemma z2q_minus1 : forall L, z2q (L - 1) == z2q L - 1.
Proof. intro L. apply z2q_minus. Qed.

Lemma tinv_facts : forall T, (0 < T)%Z -> 0 < / z2q T /\ z2q T * / z2q T == 1.
Proof.
  intros T HT. pose proof (z2q_pos T HT) as P. split; [apply Qinv_lt_0_compat; exact P|].
  apply Qmult_inv_r. lra.
Qed.

Lemma warp_knots_ok : forall eps T src flow len,
  0 < eps -> (0 < T)%Z -> 1 <= len -> knots_ok (warp_knots eps T src flow len).
Proof.
  intros eps T src flow len He HT Hl. unfold knots_ok, warp_knots. cbn [k_lo k_dst k_src k_up].
  set (s := qmax (qmin src (len - 1)) 0). set (d := qmax (qmin (s + flow) (len - 1)) 0).
  assert (Hl1 : 0 <= len - 1) by lra.
  destruct (clamp_range src (len - 1) Hl1) as [S0 S1]. fold s in S0, S1.
  destruct (clamp_range (s + flow) (len - 1) Hl1) as [D0 D1]. fold d in D0, D1.
  destruct (tinv_facts T HT) as [I _]. unfold coord, Qdiv. set (t := / z2q T) in *.
  repeat split; nra.
Qed.

Lemma zseq_length : forall T, length (zseq T) = Z.to_nat T.
Proof. intro T. unfold zseq. now rewrite map_length, seq_length. Qed.

Lemma zseq_nth : forall T i d, (i < Z.to_nat T)%nat -> nth i (zseq T) d = Z.of_nat i.
Proof.
  intros T i d H. unfold zseq. rewrite (nth_indep _ d (Z.of_nat 0)) by (now rewrite map_length, seq_length).
  rewrite map_nth, seq_nth by exact H. reflexivity.
Qed.

Lemma warp_grid_length : forall eps T src flow len, length (warp_grid eps T src flow len) = Z.to_nat T.
Proof. intros. unfold warp_grid. now rewrite map_length, zseq_length. Qed.

Lemma warp_grid_nth : forall eps T src flow len i d, (i < Z.to_nat T)%nat ->
  nth i (warp_grid eps T src flow len) d
  = lin3 (warp_knots eps T src flow len) (coord T (z2q (Z.of_nat i))).
Proof.
  intros eps T src flow len i d H. unfold warp_grid.
  set (f := fun i0 : Z => lin3 (warp_knots eps T src flow len) (coord T (z2q i0))).
  rewrite (nth_indep _ d (f 0%Z)) by (now rewrite map_length, zseq_length).
  rewrite map_nth, zseq_nth by exact H. reflexivity.
Qed.

(* "the linear time warp reads the frames in non-decreasing order" - for every pair of output
   frames, valid or not, every source, flow and length >= 1 *)
Lemma linear_warp_monotone : forall eps T src flow len i j d,
  0 < eps -> (0 < T)%Z -> 1 <= len -> (i <= j)%nat -> (j < Z.to_nat T)%nat ->
  nth i (warp_grid eps T src flow len) d <= nth j (warp_grid eps T src flow len) d.
Proof.
  intros eps T src flow len i j d He HT Hl Hij Hj.
  rewrite !warp_grid_nth by lia. apply lin3_mono; [apply warp_knots_ok; assumption|].
  apply coord_mono; [exact HT|]. apply z2q_le. lia.
Qed.

Lemma unnorm_mono : forall T g h, (0 < T)%Z -> g <= h -> unnorm T g <= unnorm T h.
Proof.
  intros T g h HT H. unfold unnorm. pose proof (z2q_pos T HT).
  apply Qmult_le_compat_r; [nra|]. unfold Qinv; cbn. discriminate.
Qed.

Lemma unnorm_coord : forall T p e, (0 < T)%Z -> unnorm T (coord T p + e) == p + e * z2q T / 2.
Proof.
  intros T p e HT. unfold unnorm, coord. field. pose proof (z2q_pos T HT). lra.
Qed.

Lemma unnorm_between : forall T p q e g, (0 < T)%Z -> coord T p + - e <= g -> g <= coord T q + e ->
  p - e * z2q T / 2 <= unnorm T g /\ unnorm T g <= q + e * z2q T / 2.
Proof.
  intros T p q e g HT A B. apply (unnorm_mono T _ _ HT) in A. apply (unnorm_mono T _ _ HT) in B.
  rewrite unnorm_coord in A, B by exact HT. split; [|exact B].
  assert (N : - e * z2q T / 2 == - (e * z2q T / 2)) by (unfold Qdiv; ring). lra.
Qed.

(* ... and every valid output frame reads inside the valid input frames, up to the epsilon
   by which the pinned knots lie outside them *)
Lemma linear_warp_reads_valid : forall eps T src flow (L : Z) i d,
  0 < eps -> (0 < T)%Z -> (1 <= L)%Z -> (Z.of_nat i <= L - 1)%Z -> (i < Z.to_nat T)%nat ->
  - (eps * z2q T / 2) <= unnorm T (nth i (warp_grid eps T src flow (z2q L)) d)
  /\ unnorm T (nth i (warp_grid eps T src flow (z2q L)) d) <= z2q (L - 1) + eps * z2q T / 2.
Proof.
  intros eps T src flow L i d He HT HL Hi HiT.
  assert (Hl : 1 <= z2q L) by (change 1 with (z2q 1); apply z2q_le; exact HL).
  rewrite warp_grid_nth by exact HiT.
  pose proof (warp_knots_ok eps T src flow (z2q L) He HT Hl) as K.
  set (k := warp_knots eps T src flow (z2q L)) in *.
  set (x := coord T (z2q (Z.of_nat i))).
  assert (Elo : k_lo k == coord T 0 + - eps) by (unfold k, warp_knots, coord; cbn [k_lo]; unfold Qdiv; ring).
  assert (Eup : k_up k == coord T (z2q (L - 1)) + eps).
  { unfold k, warp_knots, coord; cbn [k_up]. rewrite z2q_minus1. unfold Qdiv; ring. }
  assert (X1 : coord T 0 <= x).
  { apply coord_mono; [exact HT|]. change 0 with (z2q 0). apply z2q_le. lia. }
  assert (X2 : x <= coord T (z2q (L - 1))) by (apply coord_mono; [exact HT|apply z2q_le; exact Hi]).
  destruct (lin3_range k x K) as [R1 [R2 _]]; [lra|lra|].
  destruct (unnorm_between T 0 (z2q (L - 1)) eps (lin3 k x) HT) as [A B]; [lra|lra|]. split; lra.
Qed.

(* "beginning and ending within half a frame of the first and last valid frame", under the
   hypothesis that the (clamped) destination d keeps a margin from both ends:
   eps T s <= d  and  eps T (len-1-s) <= len-1-d   (s = clamped source) *)
Lemma linear_warp_pinned_margin : forall eps T src flow (L : Z) d0,
  0 < eps -> (0 < T)%Z -> (1 <= L)%Z -> (L <= T)%Z ->
  let len := z2q L in
  let s := qmax (qmin src (len - 1)) 0 in
  let d := qmax (qmin (s + flow) (len - 1)) 0 in
  eps * z2q T * s <= d ->
  eps * z2q T * (len - 1 - s) <= len - 1 - d ->
  unnorm T (nth 0 (warp_grid eps T src flow len) d0) <= 1 # 2
  /\ z2q (L - 1) - (1 # 2) <= unnorm T (nth (Z.to_nat (L - 1)) (warp_grid eps T src flow len) d0).
Proof.
  intros eps T src flow L d0 He HT HL HLT len s d M1 M2.
  assert (Hl : 1 <= len) by (unfold len; change 1 with (z2q 1); apply z2q_le; exact HL).
  assert (Hl1 : 0 <= len - 1) by lra.
  destruct (clamp_range src (len - 1) Hl1) as [S0 S1]. fold s in S0, S1.
  destruct (clamp_range (s + flow) (len - 1) Hl1) as [D0 D1]. fold d in D0, D1.
  pose proof (warp_knots_ok eps T src flow len He HT Hl) as K.
  destruct (tinv_facts T HT) as [I Tt]. pose proof (z2q_pos T HT) as TP.
  set (t := / z2q T) in *.
  assert (Kt : forall x y, eps * z2q T * x <= y -> eps * x <= y * t).
  { intros x y H. assert (X : eps * x == eps * z2q T * x * t).
    { transitivity (eps * x * (z2q T * t)); [rewrite Tt; ring|ring]. }
    rewrite X. apply Qmult_le_compat_r; lra. }
  pose proof (Kt _ _ M1) as K1. pose proof (Kt _ _ M2) as K2.
  set (k := warp_knots eps T src flow len) in *.
  assert (Elo : k_lo k == t - 1 - eps) by (unfold k, warp_knots; cbn [k_lo]; unfold Qdiv; fold t; ring).
  assert (Eup : k_up k == (2 * len - 1) * t - 1 + eps) by (unfold k, warp_knots; cbn [k_up]; unfold Qdiv; fold t; ring).
  assert (Ed : k_dst k == (2 * d + 1) * t - 1) by (unfold k, warp_knots, coord; cbn [k_dst]; unfold Qdiv; fold s d t; ring).
  assert (Es : k_src k == (2 * s + 1) * t - 1) by (unfold k, warp_knots, coord; cbn [k_src]; unfold Qdiv; fold s t; ring).
  destruct K as [Ka [Kb [Kc Kd]]].
  split.
  - rewrite warp_grid_nth by lia. fold k.
    set (x := coord T (z2q (Z.of_nat 0))).
    assert (Ex : x == t - 1) by (unfold x, coord; change (z2q (Z.of_nat 0)) with 0; unfold Qdiv; fold t; ring).
    rewrite lin3_left by nra.
    assert (G : seg (k_lo k) (k_dst k) (k_lo k) (k_src k) x <= coord T (1 # 2) + 0).
    { assert (Ec : coord T (1 # 2) + 0 == 2 * t - 1) by (unfold coord, Qdiv; fold t; ring).
      apply seg_le; [exact Ka|]. rewrite Ec, Elo, Ed, Es, Ex. nra. }
    apply (unnorm_mono T _ _ HT) in G. rewrite unnorm_coord in G by exact HT.
    assert (Z0 : 0 * z2q T / 2 == 0) by (unfold Qdiv; ring). lra.
  - rewrite warp_grid_nth by lia. fold k.
    rewrite Z2Nat.id by lia.
    set (x := coord T (z2q (L - 1))).
    assert (Ex : x == (2 * len - 1) * t - 1).
    { unfold x, coord. rewrite z2q_minus1. fold len. unfold Qdiv; fold t; ring. }
    assert (G : coord T (z2q (L - 1) - (1 # 2)) + 0 <= lin3 k x).
    { assert (Ec : coord T (z2q (L - 1) - (1 # 2)) + 0 == (2 * len - 2) * t - 1).
      { unfold coord. rewrite z2q_minus1. fold len. unfold Qdiv; fold t; ring. }
      destruct (Qlt_le_dec (k_dst k) x) as [C|C].
      - rewrite lin3_right by nra. apply seg_ge; [exact Kb|]. rewrite Ec, Eup, Ed, Es, Ex. nra.
      - rewrite lin3_left by nra.
        assert (Dl : d == len - 1) by nra.
        assert (Sl : s == len - 1) by nra.
        assert (Q : seg (k_lo k) (k_dst k) (k_lo k) (k_src k) x == k_src k).
        { apply seg_at_b_eq; [exact Ka|]. rewrite Ex, Ed, Dl. ring. }
        rewrite Q, Ec, Es, Sl. nra. }
    apply (unnorm_mono T _ _ HT) in G. rewrite unnorm_coord in G by exact HT.
    assert (Z0 : 0 * z2q T / 2 == 0) by (unfold Qdiv; ring). lra.
Qed.

(* Without the margin the pinning clause is FALSE, already in exact arithmetic, for draws the
   configuration permits: T = len = 10, max_time_warp = 3.
   (a) u = (99/100, 99/100): w_0 + w = 9.9 > len - 1 is clamped onto frame 9, which then reads
       source position w_0 = 6.96: more than two frames before the last valid frame;
   (b) u = (0, 0): w_0 = 3, w = -3, frame 0 reads source frame 3. *)
Lemma linear_warp_pinned_refuted :
  exists eps T (L : Z) Wmax u1 u2 u1' u2',
    0 < eps /\ (1 <= L)%Z /\ (L <= T)%Z /\ 0 <= Wmax
    /\ unit_u u1 /\ unit_u u2 /\ unit_u u1' /\ unit_u u2'
    /\ (let W := tw_W exact eps Wmax L in
        unnorm T (nth (Z.to_nat (L - 1))
                      (warp_grid eps T (tw_w0 exact W L u1) (tw_w exact W u2) (z2q L)) 0)
        < z2q (L - 1) - 2)
    /\ (let W := tw_W exact eps Wmax L in
        2 < unnorm T (nth 0 (warp_grid eps T (tw_w0 exact W L u1') (tw_w exact W u2') (z2q L)) 0)).
Proof.
  exists eps32, 10%Z, 10%Z, 3, (99 # 100), (99 # 100), 0, 0.
  repeat split; try (vm_compute; reflexivity); try (vm_compute; discriminate).
Qed.

(* ---- bilinear resampling with border padding ------------------------------------- *)
Definition in_rng (lo hi v : Q) : Prop := lo <= v /\ v <= hi.
Definition img_in (lo hi : Q) (img : list (list Q)) : Prop := Forall (Forall (in_rng lo hi)) img.
Definition rect (W : Z) (img : list (list Q)) : Prop := Forall (fun r => zlen r = W) img.

Lemma cell_in : forall lo hi W img y x, img_in lo hi img -> rect W img ->
  (0 <= y < zlen img)%Z -> (0 <= x < W)%Z -> in_rng lo hi (cell img y x).
Proof.
  intros lo hi W img y x Hi Hr Hy Hx. unfold cell.
  assert (Yb : ((0 <=? y) && (y <? zlen img))%Z = true) by (apply andb_true_iff; split; [apply Z.leb_le|apply Z.ltb_lt]; lia).
  rewrite Yb.
  assert (Yn : (Z.to_nat y < length img)%nat) by (unfold zlen in Hy; lia).
  set (row := nth (Z.to_nat y) img []).
  assert (Rin : In row img) by (apply nth_In; exact Yn).
  assert (RW : zlen row = W) by (unfold rect in Hr; rewrite Forall_forall in Hr; apply Hr, Rin).
  assert (Xb : ((0 <=? x) && (x <? zlen row))%Z = true) by (apply andb_true_iff; split; [apply Z.leb_le|apply Z.ltb_lt]; lia).
  rewrite Xb.
  assert (Xn : (Z.to_nat x < length row)%nat) by (unfold zlen in RW; lia).
  unfold img_in in Hi. rewrite Forall_forall in Hi. specialize (Hi row Rin).
  rewrite Forall_forall in Hi. apply Hi, nth_In, Xn.
Qed.

Lemma clip_range : forall size x, (0 < size)%Z -> 0 <= clip size x /\ clip size x <= z2q (size - 1).
Proof.
  intros size x H. unfold clip. split; [|apply qmin_l].
  apply qmin_glb; [apply z2q_nonneg; lia|apply qmax_r].
Qed.

(* the two interpolation weights along one axis, and the neighbour that may fall outside *)
Lemma axis_facts : forall size x, (0 < size)%Z ->
  let ix := clip size x in let i0 := Qfloor ix in
  (0 <= i0 < size)%Z /\ 0 <= z2q (i0 + 1) - ix /\ 0 <= ix - z2q i0
  /\ (z2q (i0 + 1) - ix) + (ix - z2q i0) == 1
  /\ ((i0 + 1 < size)%Z \/ ix - z2q i0 == 0).
Proof.
  intros size x H ix i0. destruct (clip_range size x H) as [C0 C1]. fold ix in C0, C1.
  pose proof (Qfloor_le ix) as F1. pose proof (Qlt_floor ix) as F2. fold i0 in F1, F2.
  fold (z2q i0) in F1. fold (z2q (i0 + 1)) in F2.
  assert (I0 : (0 <= i0)%Z) by (apply floor_nonneg; exact C0).
  assert (I1 : (i0 <= size - 1)%Z).
  { unfold i0. rewrite <- (Qfloor_Z (size - 1)). apply Qfloor_resp_le. exact C1. }
  pose proof (z2q_plus1 i0) as P.
  repeat split; try lia; try lra.
  destruct (Z.eq_dec i0 (size - 1)) as [E|E]; [right|left; lia].
  assert (E' : z2q i0 == z2q (size - 1)) by (rewrite E; reflexivity). lra.
Qed.

Lemma term_range : forall lo hi c w, 0 <= w -> (in_rng lo hi c \/ w == 0) ->
  lo * w <= c * w /\ c * w <= hi * w.
Proof.
  intros lo hi c w Hw [[H1 H2]|Z]; [split; nra|].
  assert (X : forall a, a * w == 0) by (intro a; rewrite Z; ring). rewrite !X. lra.
Qed.

Lemma bilinear_in_range : forall lo hi img gx gy,
  (0 < zlen img)%Z -> (0 < width img)%Z -> rect (width img) img -> img_in lo hi img ->
  in_rng lo hi (bilinear img (zlen img) (width img) gx gy).
Proof.
  intros lo hi img gx gy HH HW Hr Hi. unfold bilinear.
  set (W := width img) in *. set (H := zlen img) in *.
  destruct (axis_facts W (unnorm W gx) HW) as [X0 [Xa [Xb [Xs Xo]]]].
  destruct (axis_facts H (unnorm H gy) HH) as [Y0 [Ya [Yb [Ys Yo]]]].
  set (ix := clip W (unnorm W gx)) in *. set (iy := clip H (unnorm H gy)) in *.
  set (x0 := Qfloor ix) in *. set (y0 := Qfloor iy) in *.
  set (wx0 := z2q (x0 + 1) - ix) in *. set (wx1 := ix - z2q x0) in *.
  set (wy0 := z2q (y0 + 1) - iy) in *. set (wy1 := iy - z2q y0) in *.
  assert (C00 : in_rng lo hi (cell img y0 x0)) by (apply (cell_in lo hi W); assumption || lia).
  assert (T00 := term_range lo hi (cell img y0 x0) (wx0 * wy0) ltac:(nra) (or_introl C00)).
  assert (T01 := term_range lo hi (cell img y0 (x0 + 1)) (wx1 * wy0) ltac:(nra)).
  assert (T10 := term_range lo hi (cell img (y0 + 1) x0) (wx0 * wy1) ltac:(nra)).
  assert (T11 := term_range lo hi (cell img (y0 + 1) (x0 + 1)) (wx1 * wy1) ltac:(nra)).
  destruct T01 as [A1 A2].
  { destruct Xo as [Xo|Xo]; [left; apply (cell_in lo hi W); assumption || lia|right; rewrite Xo; ring]. }
  destruct T10 as [B1 B2].
  { destruct Yo as [Yo|Yo]; [left; apply (cell_in lo hi W); assumption || lia|right; rewrite Yo; ring]. }
  destruct T11 as [D1 D2].
  { destruct Xo as [Xo|Xo]; [|right; rewrite Xo; ring].
    destruct Yo as [Yo|Yo]; [left; apply (cell_in lo hi W); assumption || lia|right; rewrite Yo; ring]. }
  destruct T00 as [E1 E2].
  assert (S : wx0 * wy0 + wx1 * wy0 + wx0 * wy1 + wx1 * wy1 == 1).
  { transitivity ((wx0 + wx1) * (wy0 + wy1)); [ring|]. rewrite Xs, Ys. ring. }
  split; nra.
Qed.

Lemma resample_in_range : forall lo hi img tgrid fgrid,
  (0 < zlen img)%Z -> (0 < width img)%Z -> rect (width img) img -> img_in lo hi img ->
  img_in lo hi (resample img tgrid fgrid).
Proof.
  intros lo hi img tg fg HH HW Hr Hi. unfold resample, img_in.
  apply Forall_forall. intros row Hrow. apply in_map_iff in Hrow. destruct Hrow as [gy [E _]]. subst row.
  apply Forall_forall. intros v Hv. apply in_map_iff in Hv. destruct Hv as [gx [E _]]. subst v.
  apply bilinear_in_range; assumption.
Qed.

Lemma resample_shape : forall img tgrid fgrid,
  length (resample img tgrid fgrid) = length tgrid
  /\ Forall (fun r => length r = length fgrid) (resample img tgrid fgrid).
Proof.
  intros. unfold resample. split; [apply map_length|].
  apply Forall_forall. intros r Hr. apply in_map_iff in Hr. destruct Hr as [gy [E _]]. subst r. apply map_length.
Qed.
