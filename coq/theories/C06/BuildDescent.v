(* C06 — build_trie_ok, part 4: the child search of the lookup on buffers that meet [LevOK].
   One extension step from the cell of a level-n entry finds exactly the level-(n+1) entry
   whose reversed key is one token longer (or fails), hence a whole descent from a unigram
   cell ends in the cell of the entry with that reversed key, if it is listed. *)
From Coq Require Import List ZArith Bool Arith Lia ZifyBool ZifyNat Permutation Sorted.
From PV Require Import C06.Model C06.Spec C06.Proofs C06.BuildBase C06.BuildSort C06.BuildLevels.
Import ListNotations.
Local Open Scope Z_scope.

Lemma cands_in b sh j pos :
  0 <= zget (offsets b) (j + 1) 0 + 1 - zget (offsets b) j 0 <= Z.of_nat (maxdesc sh) ->
  (In pos (cands b sh j) <->
   zget (offsets b) j 0 + j <= pos < zget (offsets b) (j + 1) 0 + j + 1).
Proof.
  intros Hs. unfold cands. rewrite filter_In, in_map_iff. split.
  - intros [(k & <- & Hk) Hlt]. apply in_seq in Hk. lia.
  - intros Hp. split; [|lia]. exists (Z.to_nat (pos - (zget (offsets b) j 0 + j))).
    split; [lia|]. apply in_seq. lia.
Qed.

Lemma cands_nodup b sh j : NoDup (cands b sh j).
Proof.
  unfold cands. apply NoDup_filter. apply FinFun.Injective_map_NoDup; [|apply seq_NoDup].
  intros x y H. lia.
Qed.

Lemma ext_false_fold b sh rest d : fold_left (ext b sh) rest (d, false) = (d, false).
Proof. induction rest as [|t r IH]; [reflexivity|]. cbn [fold_left]. rewrite ext_false. apply IH. Qed.

Section Step.
  Variables (b : bufs) (sh : shape) (nuni : Z) (n : nat) (prev d : dict) (Lpos : Z).
  Let U := usize sh.
  Let lv := sort_rev d.
  Let Lm := Lpos + zlen prev + 1.
  Let ps := ppos (map fst prev) Lpos lv.
  Hypothesis Hprev : sorted_level n prev.
  Hypothesis Hwf : level_wf nuni n (map fst prev) d.
  Hypothesis Hpsz : psize b sh = zlen (logps b).
  Hypothesis Hoffs : forall j, Lpos <= j <= Lpos + zlen prev ->
    zget (offsets b) j 0 = Lm + count_lt ps j - j.
  Hypothesis Hids : forall k e, nth_error lv k = Some e ->
    zget (ids b) (Lm + Z.of_nat k - U) 0 = last (fst e) 0.
  Hypothesis Hfit : Lm + zlen lv <= zlen (logps b).
  Hypothesis Hspan : forall j, Lpos <= j < Lpos + zlen prev ->
    zget (offsets b) (j + 1) 0 + 1 - zget (offsets b) j 0 <= Z.of_nat (maxdesc sh).

  Let Hnd : nondecr ps := ppos_nondecr nuni n prev d Lpos Hprev Hwf.

  Lemma prev_keys_nodup : NoDup (map fst prev).
  Proof. apply sorted_NoDup. apply Hprev. Qed.

  Lemma lv_keys_nodup : NoDup (map fst lv).
  Proof. apply sorted_NoDup. apply sort_rev_sorted. apply (lw_nodup _ _ _ _ Hwf). Qed.

  (* the candidate cells of the entry at index i of the parent level *)
  Lemma cands_level i : (i < length prev)%nat -> forall pos,
    In pos (cands b sh (Lpos + Z.of_nat i)) <->
    Lm + count_lt ps (Lpos + Z.of_nat i) <= pos < Lm + count_lt ps (Lpos + Z.of_nat i + 1).
  Proof.
    intros Hi pos. set (j := Lpos + Z.of_nat i).
    assert (Hj : Lpos <= j < Lpos + zlen prev) by (unfold zlen, j; lia).
    pose proof (Hspan j Hj) as Hs. pose proof (count_lt_mono ps j (j + 1) ltac:(lia)) as Hm.
    rewrite cands_in.
    - rewrite (Hoffs j), (Hoffs (j + 1)) by lia. lia.
    - rewrite (Hoffs j), (Hoffs (j + 1)) in * by lia. lia.
  Qed.

  (* what a candidate cell holds *)
  Lemma cand_entry i ep pos : nth_error prev i = Some ep ->
    In pos (cands b sh (Lpos + Z.of_nat i)) ->
    exists k e, pos = Lm + Z.of_nat k /\ nth_error lv k = Some e /\
                fst e = fst ep ++ [idat b sh pos].
  Proof.
    intros Hi Hin.
    assert (Hil : (i < length prev)%nat) by (apply nth_error_Some; rewrite Hi; discriminate).
    apply (cands_level i Hil) in Hin.
    pose proof (count_lt_bounds ps (Lpos + Z.of_nat i)) as Hb0.
    pose proof (count_lt_bounds ps (Lpos + Z.of_nat i + 1)) as Hb1.
    assert (Hlen : zlen ps = zlen lv) by (unfold zlen, ps; rewrite ppos_length; reflexivity).
    set (k := Z.to_nat (pos - Lm)).
    assert (Hk : (k < length lv)%nat) by (unfold zlen in *; lia).
    destruct (nth_error lv k) as [e|] eqn:Ek; [|apply nth_error_None in Ek; lia].
    exists k, e. split; [lia|]. split; [exact Ek|].
    assert (Hgr : nth k ps 0 = Lpos + Z.of_nat i).
    { apply (group_range ps Hnd); [unfold ps; rewrite ppos_length; exact Hk|lia]. }
    destruct (ppos_parent nuni n prev d Lpos Hwf k e Ek) as (i' & Hi' & Hpar).
    fold lv in Hi'. fold ps in Hi'.
    assert (i' = i) by lia. subst i'.
    rewrite nth_error_map, Hi in Hpar. cbn in Hpar. injection Hpar as Hpar.
    destruct (sort_rev_parent _ _ _ _ e Hwf (nth_error_In _ _ Ek)) as [_ Hle].
    assert (Hne : fst e <> []) by (intros E; rewrite E in Hle; cbn in Hle; lia).
    rewrite (app_removelast_last 0 Hne) at 1. rewrite <- Hpar. f_equal. f_equal.
    unfold idat. fold U. rewrite Hpsz. rewrite Z.min_l by (unfold zlen in *; lia).
    replace pos with (Lm + Z.of_nat k) by lia. symmetry. apply Hids. exact Ek.
  Qed.

  Lemma cands_ids_nodup i ep : nth_error prev i = Some ep ->
    NoDup (map (idat b sh) (cands b sh (Lpos + Z.of_nat i))).
  Proof.
    intros Hi. apply NoDup_map_inj_in; [apply cands_nodup|].
    intros x y Hx Hy Heq.
    destruct (cand_entry i ep x Hi Hx) as (k & e & -> & Ek & Ee).
    destruct (cand_entry i ep y Hi Hy) as (k' & e' & -> & Ek' & Ee').
    assert (k = k'); [|subst; reflexivity].
    pose proof lv_keys_nodup as Hn. rewrite (NoDup_nth_error) in Hn. apply Hn.
    - rewrite map_length. apply nth_error_Some. rewrite Ek. discriminate.
    - rewrite !nth_error_map, Ek, Ek'. cbn. f_equal. rewrite Ee, Ee', Heq. reflexivity.
  Qed.

  (* the listed child is found ... *)
  Lemma ext_level_found i ep tok k e : nth_error prev i = Some ep -> nth_error lv k = Some e ->
    fst e = fst ep ++ [tok] -> ext b sh (Lpos + Z.of_nat i, true) tok = (Lm + Z.of_nat k, true).
  Proof.
    intros Hi Hk He.
    assert (Hil : (i < length prev)%nat) by (apply nth_error_Some; rewrite Hi; discriminate).
    assert (Hkl : (k < length lv)%nat) by (apply nth_error_Some; rewrite Hk; discriminate).
    assert (Hin : In (Lm + Z.of_nat k) (cands b sh (Lpos + Z.of_nat i))).
    { apply (cands_level i Hil).
      assert (Hg : count_lt ps (Lpos + Z.of_nat i) <= Z.of_nat k < count_lt ps (Lpos + Z.of_nat i + 1)); [|lia].
      apply (group_range ps Hnd).
      - unfold ps. rewrite ppos_length. exact Hkl.
      - unfold ps. rewrite (ppos_nth _ _ _ _ _ Hk). f_equal. f_equal.
        apply (kindex_unique _ prev_keys_nodup). rewrite nth_error_map, Hi. cbn. f_equal.
        rewrite He. symmetry. apply removelast_last. }
    destruct (cand_entry i ep _ Hi Hin) as (k' & e' & Hpos & Ek' & Ee').
    assert (k' = k) by lia. subst k'. rewrite Hk in Ek'. injection Ek' as <-.
    assert (Htok : idat b sh (Lm + Z.of_nat k) = tok).
    { rewrite He in Ee'. apply app_inv_head in Ee'. congruence. }
    rewrite <- Htok. apply ext_in; [apply (cands_ids_nodup i ep Hi)|exact Hin].
  Qed.

  (* ... and nothing else is *)
  Lemma ext_level_none i ep tok : nth_error prev i = Some ep ->
    (forall e, In e lv -> fst e <> fst ep ++ [tok]) ->
    snd (ext b sh (Lpos + Z.of_nat i, true) tok) = false.
  Proof.
    intros Hi Hno. destruct (ext b sh (Lpos + Z.of_nat i, true) tok) as [p f] eqn:E. cbn [snd].
    destruct f; [|reflexivity]. exfalso.
    destruct (ext_found b sh _ tok p (cands_ids_nodup i ep Hi) E) as [Hin Hid].
    destruct (cand_entry i ep p Hi Hin) as (k & e & _ & Ek & Ee).
    apply (Hno e (nth_error_In _ _ Ek)). rewrite Ee, Hid. reflexivity.
  Qed.
End Step.

(* the m-th level below prev, and the cell of its first entry *)
Fixpoint level_at (prev : dict) (Lpos : Z) (ds : list dict) (m : nat) {struct m} : dict * Z :=
  match m with
  | O => (prev, Lpos)
  | S m' => match ds with
            | d :: rest => level_at (sort_rev d) (Lpos + zlen prev + 1) rest m'
            | [] => ([], 0)
            end
  end.

(* max_direct_descendants bounds the number of children of every node *)
Fixpoint SpanOK (b : bufs) (S_ : Z) (prev : dict) (Lpos : Z) (ds : list dict) : Prop :=
  match ds with
  | [] => True
  | d :: rest =>
      (forall j, Lpos <= j < Lpos + zlen prev ->
                 zget (offsets b) (j + 1) 0 + 1 - zget (offsets b) j 0 <= S_) /\
      SpanOK b S_ (sort_rev d) (Lpos + zlen prev + 1) rest
  end.

(* every entry of a deeper level extends an entry of each level above it *)
Lemma ancestor_closed nuni : forall m ds n prev Lpos e,
  chain_wf nuni n prev ds -> sorted_level n prev -> (m <= length ds)%nat ->
  In e (fst (level_at prev Lpos ds m)) ->
  exists e0, In e0 prev /\ fst e0 = firstn n (fst e).
Proof.
  induction m as [|m IH]; intros ds n prev Lpos e Hch Hprev Hm Hin.
  - cbn [level_at fst] in Hin. exists e. split; [assumption|].
    rewrite firstn_all2; [reflexivity|]. rewrite (proj2 Hprev e Hin). lia.
  - destruct ds as [|d rest]; cbn [length] in Hm; [lia|]. cbn [level_at] in Hin.
    destruct Hch as [Hwf Hch].
    destruct (IH rest (S n) (sort_rev d) _ e Hch (sort_rev_level _ _ _ _ Hwf) ltac:(lia) Hin)
      as (e1 & Hin1 & He1).
    destruct (sort_rev_parent _ _ _ _ e1 Hwf Hin1) as [Hpar Hlen].
    apply in_map_iff in Hpar as (e0 & He0 & Hin0). exists e0. split; [assumption|].
    rewrite He0, removelast_firstn_len, Hlen, He1. cbn [pred].
    rewrite firstn_firstn. f_equal. lia.
Qed.

Section Descent.
  Variables (b : bufs) (sh : shape) (nuni : Z).
  Hypothesis Hpsz : psize b sh = zlen (logps b).

  Lemma descend_levels : forall rest ds n prev Lpos i ep,
    LevOK b (usize sh) prev Lpos ds -> chain_wf nuni n prev ds -> sorted_level n prev ->
    SpanOK b (Z.of_nat (maxdesc sh)) prev Lpos ds ->
    (length rest <= length ds)%nat -> nth_error prev i = Some ep ->
    let st := fold_left (ext b sh) rest (Lpos + Z.of_nat i, true) in
    let lf := level_at prev Lpos ds (length rest) in
    (forall k e, nth_error (fst lf) k = Some e -> fst e = fst ep ++ rest ->
                 st = (snd lf + Z.of_nat k, true)) /\
    ((forall e, In e (fst lf) -> fst e <> fst ep ++ rest) -> snd st = false).
  Proof.
    induction rest as [|tok rest IH]; intros ds n prev Lpos i ep HLev Hch Hprev Hspan Hlen Hi.
    - cbn [fold_left length level_at fst snd]. split.
      + intros k e Hk He. rewrite app_nil_r in He. f_equal. f_equal. f_equal.
        pose proof (sorted_NoDup prev (proj1 Hprev)) as Hn. rewrite NoDup_nth_error in Hn.
        apply Hn.
        * rewrite map_length. apply nth_error_Some. rewrite Hi. discriminate.
        * rewrite !nth_error_map, Hi, Hk. cbn. f_equal. symmetry. exact He.
      + intros Hno. exfalso. apply (Hno ep (nth_error_In _ _ Hi)). rewrite app_nil_r. reflexivity.
    - destruct ds as [|d dsr]; cbn [length] in Hlen; [lia|].
      cbn [LevOK] in HLev. destruct HLev as (Hoffs & Hent & (Hfit & _ & _) & HLev).
      destruct Hch as [Hwf Hch]. destruct Hspan as [Hsp Hspan].
      cbn [fold_left length level_at]. cbv zeta.
      set (lv := sort_rev d) in *. set (Lm := Lpos + zlen prev + 1) in *.
      assert (Hids : forall k e, nth_error lv k = Some e ->
                zget (ids b) (Lm + Z.of_nat k - usize sh) 0 = last (fst e) 0).
      { intros k e Hk. apply (Hent k e Hk). }
      destruct (dget lv (fst ep ++ [tok])) as [v|] eqn:Eg.
      + (* the child is listed *)
        apply dget_some in Eg. apply In_nth_error in Eg as [k1 Hk1].
        rewrite (ext_level_found b sh nuni n prev d Lpos Hprev Hwf Hpsz Hoffs Hids Hfit Hsp
                   i ep tok k1 _ Hi Hk1 eq_refl).
        fold lv. fold Lm.
        destruct (IH dsr (S n) lv Lm k1 (fst ep ++ [tok], v) HLev Hch
                    (sort_rev_level _ _ _ _ Hwf) Hspan ltac:(lia) Hk1) as [H1 H2].
        cbn [fst] in H1, H2. rewrite <- app_assoc in H1, H2. cbn [app] in H1, H2.
        split; assumption.
      + (* it is not: the search fails, and no deeper entry can extend the key *)
        assert (Hno : forall e, In e lv -> fst e <> fst ep ++ [tok]).
        { intros e He Heq. apply (dget_in lv (fst ep ++ [tok])); [|exact Eg].
          rewrite <- Heq. apply in_map. exact He. }
        pose proof (ext_level_none b sh nuni n prev d Lpos Hprev Hwf Hpsz Hoffs Hids Hfit Hsp
                      i ep tok Hi Hno) as Hf.
        destruct (ext b sh (Lpos + Z.of_nat i, true) tok) as [p f]. cbn [snd] in Hf. subst f.
        rewrite ext_false_fold. fold lv. fold Lm. split; [|reflexivity].
        intros k e Hk He. exfalso.
        destruct (ancestor_closed nuni (length rest) dsr (S n) lv Lm e Hch
                    (sort_rev_level _ _ _ _ Hwf) ltac:(lia) (nth_error_In _ _ Hk)) as (e0 & Hin0 & He0).
        apply (Hno e0 Hin0). rewrite He0, He.
        assert (Hl : length (fst ep) = n) by (apply (proj2 Hprev), (nth_error_In _ _ Hi)).
        replace (fst ep ++ tok :: rest) with ((fst ep ++ [tok]) ++ rest) by (rewrite <- app_assoc; reflexivity).
        rewrite firstn_app. rewrite firstn_all2 by (rewrite app_length; cbn [length]; lia).
        rewrite app_length. cbn [length]. replace (S n - (length (fst ep) + 1))%nat with 0%nat by lia.
        cbn [firstn]. rewrite app_nil_r. reflexivity.
  Qed.

  (* what the cells of a level hold *)
  Lemma level_values : forall m ds prev Lpos k e,
    LevOK b (usize sh) prev Lpos ds -> (1 <= m <= length ds)%nat ->
    nth_error (fst (level_at prev Lpos ds m)) k = Some e ->
    zget (logps b) (snd (level_at prev Lpos ds m) + Z.of_nat k) NaN = fst (snd e) /\
    ((m < length ds)%nat ->
       zget (logbs b) (snd (level_at prev Lpos ds m) + Z.of_nat k) NaN = snd (snd e) /\
       snd (level_at prev Lpos ds m) + Z.of_nat k < zlen (offsets b)).
  Proof.
    induction m as [|m IH]; intros ds prev Lpos k e HLev Hm Hk; [lia|].
    destruct ds as [|d rest]; cbn [length] in Hm; [lia|].
    cbn [LevOK] in HLev. destruct HLev as (_ & Hent & (_ & Hfit & _) & HLev). cbn [level_at] in *.
    destruct m as [|m].
    - cbn [level_at fst snd] in *. destruct (Hent k e Hk) as (_ & Hp & Hb). split; [exact Hp|].
      intros Hlt. assert (Hr : rest <> []) by (intros ->; cbn in Hlt; lia).
      split; [apply Hb; exact Hr|].
      specialize (Hfit Hr).
      assert (Z.of_nat k < zlen (sort_rev d)).
      { unfold zlen. assert (k < length (sort_rev d))%nat; [|lia]. apply nth_error_Some. rewrite Hk. discriminate. }
      lia.
    - destruct (IH rest (sort_rev d) _ k e HLev ltac:(cbn [length]; lia) Hk) as [Hp Hb].
      split; [exact Hp|]. intros Hlt. apply Hb. cbn [length] in Hlt. lia.
  Qed.
End Descent.
