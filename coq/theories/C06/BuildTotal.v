(* C06 — build_trie_ok, part 8: the constructor succeeds on every well-formed table
   ([build_trie_total]), in particular _infer_max_direct_descendants' assertions hold: a node
   has at most V + shift children because siblings carry distinct labels. *)
From Coq Require Import List ZArith Bool Arith Lia ZifyBool ZifyNat Permutation Sorted.
From PV Require Import C06.Model C06.Spec C06.Proofs C06.BuildBase C06.BuildSort C06.BuildLevels
  C06.BuildDescent C06.BuildClosure C06.BuildTrie.
Import ListNotations.
Local Open Scope Z_scope.

Lemma NoDup_bounded_length (l : list Z) n : 0 <= n -> NoDup l -> (forall x, In x l -> 0 <= x < n) ->
  zlen l <= n.
Proof.
  intros Hn Hnd Hb. assert (H : (length l <= length (zrange n))%nat).
  { apply NoDup_incl_length; [exact Hnd|]. intros x Hx. apply zrange_in. apply Hb. exact Hx. }
  unfold zrange in H. rewrite map_length, seq_length in H. unfold zlen. lia.
Qed.

Lemma last_in_range (k : list Z) n : k <> [] -> Forall (fun x => 0 <= x < n) k -> 0 <= last k 0 < n.
Proof.
  intros Hne H. rewrite Forall_forall in H. apply H.
  destruct k as [|x k]; [congruence|]. clear. revert x. induction k as [|y k IH]; intros x; [left; reflexivity|].
  right. apply IH.
Qed.

Section GroupSize.
  Variables (nuni : Z) (n : nat) (prev : dict) (d : dict) (Lpos : Z).
  Hypothesis Hn0 : 0 <= nuni.
  Hypothesis Hprev : sorted_level n prev.
  Hypothesis Hwf : level_wf nuni n (map fst prev) d.
  Let lv := sort_rev d.
  Let ps := ppos (map fst prev) Lpos lv.

  Lemma group_size j : Lpos <= j < Lpos + zlen prev ->
    0 <= count_lt ps (j + 1) - count_lt ps j <= nuni.
  Proof.
    intros Hj. pose proof (count_lt_mono ps j (j + 1) ltac:(lia)) as Hm. split; [lia|].
    pose proof (ppos_nondecr nuni n prev d Lpos Hprev Hwf) as Hnd. fold lv in Hnd. fold ps in Hnd.
    pose proof (count_lt_bounds ps j) as Hb0. pose proof (count_lt_bounds ps (j + 1)) as Hb1.
    assert (Hpl : zlen ps = zlen lv) by (unfold zlen, ps; rewrite ppos_length; reflexivity).
    set (c0 := count_lt ps j) in *. set (c1 := count_lt ps (j + 1)) in *.
    set (ks := seq (Z.to_nat c0) (Z.to_nat (c1 - c0))).
    set (dflt := (@nil Z, (NaN, NaN))).
    set (tokf := fun k => last (fst (nth k lv dflt)) 0).
    assert (Hks : forall k, In k ks -> (k < length lv)%nat /\ nth k ps 0 = j).
    { intros k Hk. apply in_seq in Hk. assert (Hkl : (k < length lv)%nat) by (unfold zlen in *; lia).
      split; [exact Hkl|]. apply (group_range ps Hnd).
      - unfold ps. rewrite ppos_length. exact Hkl.
      - fold c0. fold c1. lia. }
    assert (Hent : forall k, In k ks -> In (nth k lv dflt) lv /\
              fst (nth k lv dflt) = removelast (fst (nth k lv dflt)) ++ [tokf k] /\
              exists i, j = Lpos + Z.of_nat i /\
                        nth_error (map fst prev) i = Some (removelast (fst (nth k lv dflt)))).
    { intros k Hk. destruct (Hks k Hk) as [Hkl Hg].
      assert (Hne : nth_error lv k = Some (nth k lv dflt)) by (apply nth_error_nth'; exact Hkl).
      pose proof (nth_error_In _ _ Hne) as Hin. split; [exact Hin|].
      destruct (sort_rev_parent _ _ _ _ _ Hwf Hin) as [_ Hlen]. split.
      - apply (app_removelast_last 0). intros E. rewrite E in Hlen. cbn in Hlen. lia.
      - destruct (ppos_parent nuni n prev d Lpos Hwf k _ Hne) as (i & Hi & Hp).
        fold lv in Hi. fold ps in Hi. exists i. split; [lia|exact Hp]. }
    assert (Hlen : zlen (map tokf ks) = c1 - c0).
    { unfold zlen, ks. rewrite map_length, seq_length. lia. }
    rewrite <- Hlen. apply NoDup_bounded_length; [exact Hn0| |].
    - apply NoDup_map_inj_in; [apply seq_NoDup|]. intros k k' Hk Hk' Heq.
      destruct (Hent k Hk) as (_ & Ek & i & Hi & Hp). destruct (Hent k' Hk') as (_ & Ek' & i' & Hi' & Hp').
      assert (i' = i) by lia. subst i'. rewrite Hp in Hp'. injection Hp' as Hp'.
      assert (Hkeys : fst (nth k lv dflt) = fst (nth k' lv dflt)) by (rewrite Ek, Ek', Hp', Heq; reflexivity).
      pose proof (sorted_NoDup lv (sort_rev_sorted d (lw_nodup _ _ _ _ Hwf))) as Hn.
      rewrite (NoDup_nth _ (@nil Z)) in Hn. destruct (Hks k Hk) as [Hkl _]. destruct (Hks k' Hk') as [Hkl' _].
      apply Hn; rewrite ?map_length; try assumption.
      change (@nil Z) with (fst dflt). rewrite !map_nth. exact Hkeys.
    - intros x Hx. apply in_map_iff in Hx as (k & <- & Hk). destruct (Hent k Hk) as (Hin & Ek & _).
      unfold tokf. destruct (nth k lv dflt) as [rk v] eqn:Enth. cbn [fst] in *.
      apply sort_rev_in in Hin. pose proof (lw_tok _ _ _ _ Hwf _ Hin) as Ht. cbn [fst] in Ht.
      apply last_in_range.
      + intros E. rewrite E in Ek. destruct (removelast []); discriminate.
      + rewrite Forall_forall in *. intros y Hy. apply Ht. apply in_rev. rewrite rev_involutive. exact Hy.
  Qed.
End GroupSize.

(* _infer_max_direct_descendants returns *)

Lemma zmax_list_bounds n : forall t x, Forall (fun y => 0 <= y <= n) (x :: t) -> 0 <= zmax_list t x <= n.
Proof.
  induction t as [|z t IH]; intros x H; cbn [zmax_list].
  - inversion H; subst. assumption.
  - inversion H as [|? ? Hx Ht]; subst. inversion Ht as [|? ? Hz Ht']; subst.
    specialize (IH x (Forall_cons _ Hx Ht')). lia.
Qed.

Lemma desc_span_max_some offs lo hi n : 0 <= lo -> lo + 1 < hi -> hi <= zlen offs ->
  (forall j, lo <= j -> j + 1 < hi -> 0 <= zget offs (j + 1) 0 + 1 - zget offs j 0 <= n) ->
  exists m, desc_span_max offs lo hi = Some m /\ 0 <= m <= n.
Proof.
  intros Hlo Hhi Hlen Hb. unfold desc_span_max.
  rewrite if_false by lia.
  set (g := fun k => zget offs (k + 1) 0 + 1 - zget offs k 0).
  set (ks := map (fun k => lo + Z.of_nat k) (seq 0 (Z.to_nat (hi - 1 - lo)))).
  assert (Hall : Forall (fun y => 0 <= y <= n) (map g ks)).
  { rewrite Forall_forall. intros y Hy. apply in_map_iff in Hy as (k & <- & Hk). unfold ks in Hk.
    apply in_map_iff in Hk as (i & <- & Hi). apply in_seq in Hi. apply Hb; lia. }
  assert (Hne : map g ks <> []).
  { unfold ks. destruct (Z.to_nat (hi - 1 - lo)) as [|m] eqn:E; [lia|]. cbn [seq map]. discriminate. }
  destruct (map g ks) as [|x t]; [congruence|]. exists (zmax_list t x). split; [reflexivity|].
  apply zmax_list_bounds. exact Hall.
Qed.

Fixpoint lsum (ds : list dict) : Z := match ds with [] => 0 | d :: r => 1 + lsum r end.

Lemma maxdesc_loop_some b nuni U : 0 <= nuni -> forall ds n prev Lpos fuel S0,
  LevOK b U prev Lpos ds -> chain_wf nuni n prev ds -> sorted_level n prev -> 0 <= Lpos -> prev <> [] ->
  (ds <> [] -> Lpos + zlen prev < zlen (offsets b)) -> (ds = [] -> zlen (offsets b) <= Lpos) ->
  0 <= S0 <= nuni -> (length ds < fuel)%nat ->
  exists S1, maxdesc_loop fuel (offsets b) Lpos S0 = Some S1 /\ 0 <= S1 <= nuni.
Proof.
  intros Hn0. induction ds as [|d rest IH]; intros n prev Lpos fuel S0 HLev Hch Hprev HL Hpne Hin Hend HS Hf.
  - destruct fuel as [|f]; [cbn in Hf; lia|]. cbn [maxdesc_loop].
    specialize (Hend eq_refl). rewrite if_true by lia. eauto.
  - destruct fuel as [|f]; [cbn in Hf; lia|]. cbn [maxdesc_loop length] in *.
    specialize (Hin ltac:(discriminate)).
    pose proof (zlen_pos prev Hpne) as Hp1.
    rewrite if_false by lia.
    cbn [LevOK] in HLev. destruct HLev as (Hoffs & _ & (_ & Hfit & Hlast) & HLev).
    destruct Hch as [Hwf Hch].
    set (lv := sort_rev d) in *. set (Lm := Lpos + zlen prev + 1) in *.
    assert (Hj : Lpos + zget (offsets b) Lpos 0 = Lm).
    { rewrite Hoffs by lia. unfold lv. rewrite (ppos_count_lo nuni n prev d Lpos Hwf). lia. }
    rewrite Hj.
    assert (Hlvne : lv <> []) by apply (sort_rev_ne _ _ _ _ Hwf).
    assert (HLmO : Lm <= zlen (offsets b)) by (unfold Lm; lia).
    destruct (desc_span_max_some (offsets b) Lpos Lm nuni HL ltac:(unfold Lm; lia) HLmO) as (m & Em & Hm).
    { intros j Hj1 Hj2. rewrite (Hoffs j), (Hoffs (j + 1)) by (unfold Lm in *; lia).
      pose proof (group_size nuni n prev d Lpos Hn0 Hprev Hwf j ltac:(unfold Lm in *; lia)). fold lv in H.
      lia. }
    rewrite Em.
    apply (IH (S n) lv Lm f (Z.max S0 m)); try assumption; try lia;
      try (apply (sort_rev_level nuni n (map fst prev) d Hwf)); try (unfold Lm; lia).
Qed.

Lemma infer_maxdesc_some b V s nuni U d rest prev1 :
  U = nuni + 1 -> nuni = V + shiftz V s -> zlen prev1 = nuni -> 1 <= nuni ->
  LevOK b U prev1 0 (d :: rest) -> chain_wf nuni 1 prev1 (d :: rest) -> sorted_level 1 prev1 ->
  nuni < zlen (offsets b) -> (length rest < length (offsets b))%nat ->
  exists S_, infer_maxdesc V s (offsets b) = Some S_.
Proof.
  intros HU Hnuni Hlen Hn1 HLev Hch Hs Hlt Hfuel. unfold infer_maxdesc.
  rewrite if_false by lia. rewrite <- Hnuni, <- HU.
  rewrite if_false by lia.
  assert (Hp1 : prev1 <> []) by (intros E; rewrite E in Hlen; unfold zlen in Hlen; cbn in Hlen; lia).
  pose proof HLev as HLev0. pose proof Hch as Hch0.
  cbn [LevOK] in HLev. destruct HLev as (Hoffs & _ & (_ & Hfit & Hlast) & HLev). destruct Hch as [Hwf Hch].
  replace (0 + zlen prev1 + 1) with U in * by lia.
  destruct (desc_span_max_some (offsets b) 0 U nuni ltac:(lia) ltac:(lia) ltac:(lia)) as (S0 & E0 & HS0).
  { intros j Hj1 Hj2. rewrite (Hoffs j), (Hoffs (j + 1)) by lia.
    pose proof (group_size nuni 1 prev1 d 0 ltac:(lia) Hs Hwf j ltac:(lia)). lia. }
  rewrite E0. rewrite if_false by lia.
  assert (Hlvne : sort_rev d <> []) by apply (sort_rev_ne _ _ _ _ Hwf).
  destruct (maxdesc_loop_some b nuni U ltac:(lia) rest 2 (sort_rev d) U (S (length (offsets b))) S0 HLev Hch)
    as (S1 & E1 & HS1); try assumption; try lia.
  { apply (sort_rev_level nuni 1 (map fst prev1) d Hwf). }
  rewrite E1. rewrite if_true by lia. eauto.
Qed.

Section TailTotal.
  Variables (V s : Z) (N : nat) (G U O I P : Z) (uni : dict) (higher : list dict).
  Let nuni := V + shiftz V s.
  Hypothesis HV : 1 <= V.
  Hypothesis HN : N = S (length higher).
  Hypothesis Hasc : asc (in_range nuni) 1 (uni :: higher).
  Hypothesis Hcomp : forall x, 0 <= x < nuni -> In [x] (map fst uni).
  Hypothesis HU : U = nuni + (if Nat.eqb N 1 then 0 else 1).
  Hypothesis HI : I = P - U.
  Hypothesis HP : zlen uni + tot higher = P.
  Hypothesis HO : O = P - G.
  Hypothesis HG : G = zlen (last (uni :: higher) []).
  Hypothesis Huni : zlen uni = nuni.

  Lemma build_tail_some : exists bt, build_tail V s N G U O I P uni higher = Some bt.
  Proof.
    pose proof (nuni_pos V s HV) as Hn1. fold nuni in Hn1.
    destruct higher as [|d rest] eqn:Eh.
    - rewrite <- Eh in *.
      destruct (tail_unigram V s N G U O I P uni higher HV HN Hasc Hcomp HU HI HP HO HG Huni Eh) as (uvals & _ & _ & E & _).
      rewrite E. eauto.
    - rewrite <- Eh in *. assert (Hhne : higher <> []) by (rewrite Eh; discriminate).
      destruct (tail_levels V s N G U O I P uni higher HV HN Hasc Hcomp HU HI HP HO HG Huni Hhne)
        as (uvals & st' & Euv & Hb & HLev & Hch & Hlo & Hli & Hlp & Hlb & HU' & HGh & Htl & HG0 & _).
      rewrite (build_tail_unfold2 V s N G U O I P uni higher HN Hasc Hcomp HU HP HG uvals st' Hhne Euv Hb).
      destruct (infer_maxdesc_some (bufs_of st') V s nuni U d rest (uni_level nuni uvals) HU' eq_refl
                  (uni_level_length nuni uvals ltac:(lia)) Hn1) as [S_ ES];
        try (rewrite <- Eh; assumption).
      { apply uni_level_sorted. }
      { cbn [bufs_of offsets]. lia. }
      { cbn [bufs_of offsets].
        assert (Hge : Z.of_nat (length higher) + G <= tot higher) by (rewrite HGh; apply tot_ge_length).
        assert (Hlh : length higher = S (length rest)) by (rewrite Eh; reflexivity).
        unfold zlen in Hlo. lia. }
      cbn [bufs_of offsets] in ES. rewrite ES. eauto.
  Qed.
End TailTotal.

Theorem build_trie_total V s dicts : wf_dicts V s dicts = true -> exists bt, build_trie V s dicts = Some bt.
Proof.
  intros Hwfb. pose proof (wf_dicts_spec V s dicts Hwfb) as (HV & _).
  destruct (build_trie_reduce V s dicts Hwfb) as (G & U & O & uni & higher & E & HN & Hasc & Hcomp & HU & HP & HG & Huni & _).
  rewrite E.
  apply (build_tail_some V s (length dicts) G U O (O + G - U) (O + G) uni higher HV HN Hasc Hcomp);
    try reflexivity; try assumption; lia.
Qed.
