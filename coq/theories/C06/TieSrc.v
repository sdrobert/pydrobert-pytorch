(* C06 — tie, part 2: the tensor program [TieRun.lookup_fn] / [body_fn] / [main_fn] evaluated on the encoding of the
   model's buffers is the encoding of what the model computes.  All tensors of the loop are TABULATED over the lanes of
   the batch (MiniTorch.LemmasC06: (batch element, Some candidate) for the n path, (batch element, None) for the p
   path); one iteration of the loop is the model's [step] on every lane ([body_tab]), the loop is [descend]
   ([loop_tab], induction over the remaining orders), the statements after the context window produce
   [lookup1] for every (batch element, candidate) ([main_tab]).  Hypothesis throughout: every index a lane forms lies
   inside its buffer ([lane_safe] / [dsafe] / [lookup1_safe]; discharged from the validator in TieSafe.v).  No axioms. *)
From Coq Require Import List ZArith QArith Bool Arith Lia ZifyBool ZifyNat.
From PV Require Import C06.Model C06.Proofs MiniTorch.OpsC06 MiniTorch.LemmasC06 C06.SrcRun C06.TieRun.
Import ListNotations.
Local Open Scope Z_scope.

(* ---- the model's child search, lane-wise ---- *)
Section ExtTab.
  Variable b : bufs.
  Variable sh : shape.

  Definition st_of (d : Z) : Z := zget (offsets b) d 0 + d.
  Definition en_of (d : Z) : Z := zget (offsets b) (d + 1) 0 + d + 1.
  Definition mm (d tok : Z) (k : nat) : bool :=
    (en_of d >? st_of d + Z.of_nat k) && (tok =? idat b sh (st_of d + Z.of_nat k)).

  Lemma ext_tab_gen (d tok : Z) (ks : list nat) :
    let m := filter (fun pos => idat b sh pos =? tok)
               (filter (fun pos => pos <? en_of d) (map (fun k => st_of d + Z.of_nat k) ks)) in
    (match m with [] => true | _ => false end) = negb (existsb (mm d tok) ks) /\
    zsum m = fold_right Z.add 0 (map (fun k => if mm d tok k then st_of d + Z.of_nat k else 0) ks).
  Proof.
    induction ks as [|k ks IH]; [split; reflexivity|].
    cbn [map filter existsb]. unfold mm at 1 3.
    destruct (st_of d + Z.of_nat k <? en_of d) eqn:E1.
    - replace (en_of d >? st_of d + Z.of_nat k) with true by lia. cbn [filter andb].
      rewrite (Z.eqb_sym tok). destruct (idat b sh (st_of d + Z.of_nat k) =? tok) eqn:E2.
      + cbn [orb negb zsum fold_right]. split; [reflexivity|]. destruct IH as [_ IH]. unfold zsum in IH. rewrite IH. reflexivity.
      + cbn [orb]. destruct IH as [IH1 IH2]. split; [exact IH1|]. rewrite IH2. cbn [fold_right]. lia.
    - replace (en_of d >? st_of d + Z.of_nat k) with false by lia. cbn [andb orb].
      destruct IH as [IH1 IH2]. split; [exact IH1|]. rewrite IH2. cbn [fold_right]. lia.
  Qed.

  Lemma ext_tab (p : Z * bool) (tok : Z) :
    let d := fst p in
    let f := existsb (mm d tok) (seq 0 (maxdesc sh)) && snd p in
    ext b sh p tok =
    ((if f then fold_right Z.add 0 (map (fun k => if mm d tok k then st_of d + Z.of_nat k else 0) (seq 0 (maxdesc sh)))
      else d), f).
  Proof.
    cbv zeta. unfold ext, cands. fold (st_of (fst p)) (en_of (fst p)).
    destruct (ext_tab_gen (fst p) tok (seq 0 (maxdesc sh))) as [H1 H2]. cbv zeta in H1, H2.
    rewrite H1, H2, negb_involutive. reflexivity.
  Qed.
End ExtTab.

(* ---- buffers as tensors: gathers ---- *)
Lemma fadd_fl_of a c : fadd (fl_of a) (fl_of c) = fl_of (vadd a c).
Proof.
  destruct a as [x| |], c as [y| |]; try reflexivity. cbn [fl_of vadd fadd]. f_equal.
  apply Qred_complete. rewrite !Qred_correct. unfold Qeq, Qplus. cbn [Qnum Qden]. lia.
Qed.

Lemma zget_map_CI (xs : list Z) i : 0 <= i -> nth (Z.to_nat i) (map CI xs) (CI 0) = CI (zget xs i 0).
Proof. intros H. unfold zget. replace (i <? 0) with false by lia. apply (map_nth CI xs 0). Qed.

Lemma index1_ivec_T1 {X} (xs : list Z) (l : list X) (i : X -> Z) :
  (forall e, In e l -> 0 <= i e < zlen xs) ->
  index1 (ivec xs) (T1 l (fun e => CI (i e))) = Some (T1 l (fun e => CI (zget xs (i e) 0))).
Proof.
  intros H. unfold ivec. rewrite <- (map_length CI xs). apply index1_T1. intros e He. specialize (H e He).
  unfold zlen in H. rewrite pick_in by (rewrite map_length; lia). rewrite zget_map_CI by lia. reflexivity.
Qed.

Lemma index1_ivec_T2 {X Y} (xs : list Z) (l : list X) (ks : list Y) (i : X -> Y -> Z) :
  (forall e k, In e l -> In k ks -> 0 <= i e k < zlen xs) ->
  index1 (ivec xs) (T2 l ks (fun e k => CI (i e k))) = Some (T2 l ks (fun e k => CI (zget xs (i e k) 0))).
Proof.
  intros H. unfold ivec. rewrite <- (map_length CI xs). apply index1_T2. intros e k He Hk. specialize (H e k He Hk).
  unfold zlen in H. rewrite pick_in by (rewrite map_length; lia). rewrite zget_map_CI by lia. reflexivity.
Qed.

Lemma index1_fvec_T1 {X} (xs : list val) (l : list X) (i : X -> Z) :
  (forall e, In e l -> 0 <= i e < zlen xs) ->
  index1 (fvec xs) (T1 l (fun e => CI (i e))) = Some (T1 l (fun e => CF (fl_of (zget xs (i e) NaN)))).
Proof.
  intros H. unfold fvec. rewrite <- (map_length (fun v => CF (fl_of v)) xs). apply index1_T1. intros e He.
  specialize (H e He). unfold zlen in H. rewrite pick_in by (rewrite map_length; lia).
  unfold zget. replace (i e <? 0) with false by lia.
  rewrite (nth_indep _ (CI 0) (CF (fl_of NaN))) by (rewrite map_length; lia).
  rewrite (map_nth (fun v => CF (fl_of v)) xs NaN). reflexivity.
Qed.

Lemma as_int_T1 {X} (l : list X) (z : X -> Z) : as_int (T1 l (fun e => CI (z e))) = Some (T1 l (fun e => CI (z e))).
Proof. apply map_cells_T1. reflexivity. Qed.

Lemma isfinite_T1 {X} (l : list X) (v : X -> val) :
  isfinite (T1 l (fun e => CF (fl_of (v e)))) = Some (T1 l (fun e => CB (vfinite (v e)))).
Proof. apply map_cells_T1. intros e _. destruct (v e); reflexivity. Qed.

(* ---- one iteration of the loop on tabulated lanes ---- *)
Section Body.
  Variable b : bufs.
  Variable sh : shape.
  Variable B : nat.
  Variable ws : list (list Z).       (* the context window of every batch element, oldest token first *)
  Variable hs : list Z.              (* its (padded) index *)

  Let Vn := Z.to_nat (vocab sh).
  Let Sn := maxdesc sh.
  Let N := Z.of_nat (order sh).

  Definition win (bi : nat) : list Z := nth bi ws [].
  Definition hx (bi : nat) : Z := nth bi hs 0.
  Definition lanes : list lane := nl B Vn ++ pl B.

  Definition path (SS : nat -> nat -> pstate) (PP : nat -> Z * bool) (e : lane) : Z * bool :=
    match snd e with Some v => dn (SS (fst e) v) | None => PP (fst e) end.

  Definition tab_state (SS : nat -> nat -> pstate) (PP : nat -> Z * bool) : lstate :=
    LS (T1 lanes (fun e => CI (fst (path SS PP e))))
       (T1 lanes (fun e => CB (snd (path SS PP e))))
       (T1 (nl B Vn) (fun e => CF (fl_of (lastp (SS (fst e) (vof e))))))
       (T1 (nl B Vn) (fun e => CF (fl_of (lastb (SS (fst e) (vof e)))))).

  Definition wt : tens6 := T2 (seq 0 (order sh - 1)) (seq 0 B) (fun i bi => CI (nth i (win bi) 0)).

  Definition cst : lconst :=
    LC wt (T1 (seq 0 B) (fun bi => CI (hx bi))) (ivec (offsets b)) (ivec (ids b)) (fvec (logps b)) (fvec (logbs b))
       (T1 (seq 0 Sn) (fun k => CI (Z.of_nat k)))
       (vocab sh) N (Z.of_nat B * vocab sh) (osize b) (psize b sh) (usize sh) (Z.of_nat B).

  Definition tokn (n : Z) (bi : nat) : Z := nth (order sh - 1 - Z.to_nat n) (win bi) 0.
  Definition tokp (n : Z) (bi : nat) : Z := tokn (Z.min (n + 1) (N - 1)) bi.
  Definition tok (n : Z) (e : lane) : Z := match snd e with Some _ => tokn n (fst e) | None => tokp n (fst e) end.

  (* every index the step forms lies inside its buffer *)
  Definition lane_safe (n : Z) (p : Z * bool) (tk : Z) (is_n : bool) : Prop :=
    let d := fst p in
    0 <= d /\ d + 1 < osize b /\
    (forall k, (k < Sn)%nat -> 0 <= Z.min (st_of b d + Z.of_nat k) (psize b sh - 1) - usize sh < zlen (ids b)) /\
    let d' := fst (ext b sh p tk) in
    (if is_n then 0 <= d' < zlen (logps b)
     else (n =? N - 1) = false -> 0 <= Z.min d' (osize b - 1) < zlen (logbs b)).

  (* hist[-m]: the m-th token from the end of every window *)
  Lemma select0_wt m : 1 <= m <= N - 1 -> select0 wt (- m) = Some (T1 (seq 0 B) (fun bi => CI (tokn m bi))).
  Proof.
    intros Hm. unfold wt.
    rewrite (select0_T2 _ _ _ _ O) by (cbv zeta; rewrite seq_length; replace (- m <? 0) with true by lia; unfold N in Hm; lia).
    rewrite seq_length. replace (- m <? 0) with true by lia.
    rewrite seq_nth by (unfold N in Hm; lia). cbn [Nat.add]. f_equal. apply T1_ext. intros bi _. unfold tokn. f_equal. f_equal.
    unfold N in Hm. lia.
  Qed.

  Lemma body_tab n SS PP :
    0 <= vocab sh -> 1 <= n <= N - 1 ->
    (forall bi v, dp (SS bi v) = PP bi) ->
    (forall e, In e lanes -> lane_safe n (path SS PP e) (tok n e) (match snd e with Some _ => true | None => false end)) ->
    body_fn cst n (tab_state SS PP) =
    Some (tab_state (fun bi v => step b sh (hx bi) n (tokn n bi) (tokp n bi) (n =? N - 1) (SS bi v))
                    (fun bi => ext b sh (PP bi) (tokp n bi))).
  Proof.
    intros HV Hn Hcoh Hsafe.
    assert (HVn : vocab sh = Z.of_nat Vn) by (unfold Vn; lia).
    assert (HN : N = Z.of_nat (order sh)) by reflexivity.
    set (d := fun e => fst (path SS PP e)). set (f := fun e => snd (path SS PP e)).
    unfold body_fn, cst, tab_state.
    cbn [c_hist c_hidx c_offsets c_ids c_logps c_logbs c_srange c_V c_N c_M c_O c_P c_U c_B l_desc l_found l_lastp l_lastb].
    change (T1 lanes (fun e => CI (fst (path SS PP e)))) with (T1 lanes (fun e => CI (d e))).
    change (T1 lanes (fun e => CB (snd (path SS PP e)))) with (T1 lanes (fun e => CB (f e))).
    (* hist[-n], hist[-min(n + 1, N - 1)] *)
    rewrite (select0_wt n Hn). cbn [bo].
    rewrite (repeat_interleave_nl B Vn _ _ HVn). cbn [bo].
    rewrite (select0_wt (Z.min (n + 1) (N - 1))) by lia. cbn [bo].
    rewrite (T1_ext (nl B Vn) _ (fun e => CI (tok n e))).
    2:{ intros e He. apply nl_in in He as (bi & v & -> & _). reflexivity. }
    change (T1 (seq 0 B) (fun bi => CI (tokn (Z.min (n + 1) (N - 1)) bi))) with (T1 (seq 0 B) (fun bi => CI (tok n (bi, None)))).
    rewrite <- (T1_pl B (fun e => CI (tok n e))). rewrite cat0_T1. cbn [bo]. fold lanes.
    (* offsets[desc], offsets[desc + 1] *)
    assert (Hs1 : forall e, In e lanes -> 0 <= d e /\ d e + 1 < osize b).
    { intros e He. destruct (Hsafe e He) as (H1 & H2 & _). split; assumption. }
    rewrite (index1_ivec_T1 (offsets b) lanes d) by (intros e He; destruct (Hs1 e He); unfold osize in *; lia).
    cbn [bo]. rewrite as_int_T1. cbn [bo].
    unfold add. rewrite (bc2_T1 lanes addc _ _ (fun e => CI (st_of b (d e)))) by reflexivity. cbn [bo].
    unfold add_s at 1. rewrite (map_cells_T1 lanes _ _ (fun e => CI (d e + 1))) by reflexivity. cbn [bo].
    rewrite (index1_ivec_T1 (offsets b) lanes (fun e => d e + 1)) by (intros e He; destruct (Hs1 e He); unfold osize in *; lia).
    cbn [bo]. rewrite as_int_T1. cbn [bo].
    rewrite (bc2_T1 lanes addc _ _ (fun e => CI (zget (offsets b) (d e + 1) 0 + d e))) by reflexivity. cbn [bo].
    unfold add_s. rewrite (map_cells_T1 lanes _ _ (fun e => CI (en_of b (d e)))) by reflexivity. cbn [bo].
    (* pos_desc, the masks *)
    rewrite unsqueeze_T1. cbn [bo].
    rewrite (bc2_outer lanes (seq 0 Sn) addc _ _ (fun e k => CI (st_of b (d e) + Z.of_nat k))) by reflexivity. cbn [bo].
    rewrite unsqueeze_T1. cbn [bo].
    unfold gt. rewrite (bc2_rowwise lanes (seq 0 Sn) (cmpc Z.gtb) _ _
                          (fun e k => CB (en_of b (d e) >? st_of b (d e) + Z.of_nat k))) by reflexivity. cbn [bo].
    unfold clamp_max at 1. rewrite (map_cells_T2 lanes (seq 0 Sn) _ _
                          (fun e k => CI (Z.min (st_of b (d e) + Z.of_nat k) (psize b sh - 1)))) by reflexivity. cbn [bo].
    unfold sub_s. rewrite (map_cells_T2 lanes (seq 0 Sn) _ _
                          (fun e k => CI (Z.min (st_of b (d e) + Z.of_nat k) (psize b sh - 1) - usize sh))) by reflexivity. cbn [bo].
    rewrite (index1_ivec_T2 (ids b) lanes (seq 0 Sn)).
    2:{ intros e k He Hk. destruct (Hsafe e He) as (_ & _ & H3 & _). apply H3. apply in_seq in Hk. lia. }
    cbn [bo]. rewrite unsqueeze_T1. cbn [bo].
    unfold eq. rewrite (bc2_rowwise lanes (seq 0 Sn) (cmpc Z.eqb) _ _
                          (fun e k => CB (tok n e =? idat b sh (st_of b (d e) + Z.of_nat k)))) by reflexivity. cbn [bo].
    unfold band at 1. rewrite (bc2_T2 lanes (seq 0 Sn) andc _ _ (fun e k => CB (mm b sh (d e) (tok n e) k))) by reflexivity. cbn [bo].
    rewrite any1_T2. cbn [bo].
    set (f' := fun e => existsb (mm b sh (d e) (tok n e)) (seq 0 Sn) && f e).
    unfold band at 1. rewrite (bc2_T1 lanes andc _ _ (fun e => CB (f' e))) by reflexivity. cbn [bo].
    unfold invert at 1. rewrite (map_cells_T2 lanes (seq 0 Sn) _ _ (fun e k => CB (negb (mm b sh (d e) (tok n e) k)))) by reflexivity. cbn [bo].
    rewrite masked_fill_T2. cbn [bo].
    rewrite (T2_ext lanes (seq 0 Sn) _ (fun e k => CI (if mm b sh (d e) (tok n e) k then st_of b (d e) + Z.of_nat k else 0))).
    2:{ intros e k _ _. destruct (mm b sh (d e) (tok n e) k); reflexivity. }
    rewrite sum1_T2. cbn [bo].
    rewrite twhere_T1. cbn [bo].
    (* the new paths are the model's *)
    set (p' := fun e => ext b sh (path SS PP e) (tok n e)).
    assert (Hp' : forall e, p' e = ((if f' e then fold_right Z.add 0 (map (fun k => if mm b sh (d e) (tok n e) k then st_of b (d e) + Z.of_nat k else 0) (seq 0 Sn)) else d e), f' e)).
    { intros e. unfold p'. rewrite ext_tab. reflexivity. }
    rewrite (T1_ext lanes _ (fun e => CI (fst (p' e)))).
    2:{ intros e _. rewrite Hp'. cbn [fst]. destruct (f' e); reflexivity. }
    rewrite (T1_ext lanes (fun e => CB (f' e)) (fun e => CB (snd (p' e)))).
    2:{ intros e _. rewrite Hp'. reflexivity. }
    unfold lanes at 1 2 3 4.
    (* logps[desc[:M]] *)
    rewrite slice0_T1_front by (rewrite nl_length; lia). cbn [bo].
    rewrite (index1_fvec_T1 (logps b) (nl B Vn) (fun e => fst (p' e))).
    2:{ intros e He. assert (Hl : In e lanes) by (apply in_or_app; left; exact He).
        destruct (Hsafe e Hl) as (_ & _ & _ & H4). apply nl_in in He as (bi & v & -> & _). exact H4. }
    cbn [bo].
    set (cb := fun bi => if n =? N - 1 then Fin 0
                         else if snd (p' (bi, None)) then zget (logbs b) (Z.min (fst (p' (bi, None))) (osize b - 1)) NaN else Fin 0).
    assert (Hcb : (if n =? N - 1 then Some (zeros_like (T1 (nl B Vn) (fun e => CF (fl_of (lastb (SS (fst e) (vof e)))))))
                   else
                     do dm <- slice0 (T1 (nl B Vn ++ pl B) (fun e => CI (fst (p' e)))) (Some (Z.of_nat B * vocab sh)) None;
                     do cl <- clamp_max dm (osize b - 1);
                     do g <- index1 (fvec (logbs b)) cl;
                     do fm <- slice0 (T1 (nl B Vn ++ pl B) (fun e => CB (snd (p' e)))) (Some (Z.of_nat B * vocab sh)) None;
                     do ifm <- invert fm;
                     do mfb <- masked_fill g ifm (CF (FQ 0));
                     repeat_interleave mfb (vocab sh))
                  = Some (T1 (nl B Vn) (fun e => CF (fl_of (cb (fst e)))))).
    { subst cb. cbv beta. destruct (n =? N - 1) eqn:En.
      - rewrite zeros_like_T1. reflexivity.
      - rewrite slice0_T1_back by (rewrite nl_length; lia). cbn [bo].
        unfold clamp_max. rewrite (map_cells_T1 (pl B) _ _ (fun e => CI (Z.min (fst (p' e)) (osize b - 1)))) by reflexivity. cbn [bo].
        rewrite (index1_fvec_T1 (logbs b) (pl B) (fun e => Z.min (fst (p' e)) (osize b - 1))).
        2:{ intros e He. assert (Hl : In e lanes) by (apply in_or_app; right; exact He).
            destruct (Hsafe e Hl) as (_ & _ & _ & H4). apply pl_in in He as (bi & -> & _). cbn [snd] in H4. apply H4. exact En. }
        cbn [bo]. rewrite slice0_T1_back by (rewrite nl_length; lia). cbn [bo].
        unfold invert. rewrite (map_cells_T1 (pl B) _ _ (fun e => CB (negb (snd (p' e))))) by reflexivity. cbn [bo].
        rewrite masked_fill_T1. cbn [bo]. rewrite T1_pl.
        rewrite (repeat_interleave_nl B Vn _ _ HVn). f_equal. apply T1_ext. intros e _.
        destruct (snd (p' (fst e, None))); reflexivity. }
    rewrite Hcb. clear Hcb. cbn [bo].
    rewrite isfinite_T1. cbn [bo].
    rewrite slice0_T1_front by (rewrite nl_length; lia). cbn [bo].
    set (lpd := fun e => zget (logps b) (fst (p' e)) NaN).
    set (clob := fun e => vfinite (lpd e) && snd (p' e)).
    unfold band. rewrite (bc2_T1 (nl B Vn) andc _ _ (fun e => CB (clob e))) by reflexivity. cbn [bo].
    rewrite (bc2_T1 (nl B Vn) addc _ _ (fun e => CF (fl_of (vadd (lastp (SS (fst e) (vof e))) (cb (fst e)))))).
    2:{ intros e _. cbn [addc]. rewrite fadd_fl_of. reflexivity. }
    cbn [bo].
    rewrite (bc2_T1 (nl B Vn) addc _ _ (fun e => CF (fl_of (vadd (vadd (lastp (SS (fst e) (vof e))) (cb (fst e))) (lastb (SS (fst e) (vof e))))))).
    2:{ intros e _. cbn [addc]. rewrite fadd_fl_of. reflexivity. }
    cbn [bo].
    rewrite twhere_T1. cbn [bo].
    unfold invert. rewrite (map_cells_T1 (nl B Vn) _ _ (fun e => CB (negb (clob e)))) by reflexivity. cbn [bo].
    rewrite masked_fill_T1. cbn [bo].
    unfold ge_s. rewrite (map_cells_T1 (seq 0 B) _ _ (fun bi => CB (n <=? hx bi))) by reflexivity. cbn [bo].
    rewrite (repeat_interleave_nl B Vn _ _ HVn). cbn [bo].
    rewrite twhere_T1. cbn [bo].
    (* the four tensors are the tabulation of the model's step *)
    f_equal. unfold tab_state, lanes. f_equal.
    - apply T1_ext. intros e _. unfold path, p'. destruct e as [bi [v|]]; cbn [fst snd]; [|reflexivity].
      unfold step. cbn [dn]. reflexivity.
    - apply T1_ext. intros e _. unfold path, p'. destruct e as [bi [v|]]; cbn [fst snd]; reflexivity.
    - apply T1_ext. intros e He. apply nl_in in He as (bi & v & -> & _). cbn [fst snd vof].
      unfold step. cbn [lastp]. unfold clob, lpd, p', path, cb. cbn [fst snd]. rewrite Hcoh.
      destruct (n <=? hx bi); [|reflexivity].
      destruct (vfinite _ && snd _); reflexivity.
    - apply T1_ext. intros e He. apply nl_in in He as (bi & v & -> & _). cbn [fst snd vof].
      unfold step. cbn [lastb]. unfold clob, lpd, p', path, cb. cbn [fst snd]. rewrite Hcoh.
      destruct (vfinite _ && snd _); reflexivity.
  Qed.
End Body.

(* ---- the loop ---- *)
Section Loop.
  Variable b : bufs.
  Variable sh : shape.
  Variable B : nat.
  Variable ws : list (list Z).
  Variable hs : list Z.

  Let Vn := Z.to_nat (vocab sh).
  Let N := Z.of_nat (order sh).

  (* the model's descent with its lookahead, every index in range *)
  Fixpoint dsafe (hidx n : Z) (r : list Z) (s : pstate) : Prop :=
    match r with
    | [] => True
    | tn :: r' =>
        let tp := match r' with [] => tn | x :: _ => x end in
        let is_last := match r' with [] => true | _ => false end in
        lane_safe b sh n (dn s) tn true /\ lane_safe b sh n (dp s) tp false /\
        dsafe hidx (n + 1) r' (step b sh hidx n tn tp is_last s)
    end.

  Lemma tab_state_ext SS1 PP1 SS2 PP2 :
    (forall bi v, (bi < B)%nat -> (v < Vn)%nat -> SS1 bi v = SS2 bi v) ->
    (forall bi, (bi < B)%nat -> PP1 bi = PP2 bi) ->
    tab_state sh B SS1 PP1 = tab_state sh B SS2 PP2.
  Proof.
    intros HS HP. unfold tab_state. 
    assert (Hpath : forall e, In e (lanes sh B) -> path SS1 PP1 e = path SS2 PP2 e).
    { intros e He. unfold lanes in He. apply in_app_or in He as [He|He].
      - apply nl_in in He as (bi & v & -> & Hb & Hv). unfold path. cbn [fst snd]. rewrite HS by assumption. reflexivity.
      - apply pl_in in He as (bi & -> & Hb). unfold path. cbn [fst snd]. apply HP. assumption. }
    f_equal.
    - apply T1_ext. intros e He. rewrite Hpath by assumption. reflexivity.
    - apply T1_ext. intros e He. rewrite Hpath by assumption. reflexivity.
    - apply T1_ext. intros e He. apply nl_in in He as (bi & v & -> & Hb & Hv). cbn [fst snd vof]. rewrite HS by assumption. reflexivity.
    - apply T1_ext. intros e He. apply nl_in in He as (bi & v & -> & Hb & Hv). cbn [fst snd vof]. rewrite HS by assumption. reflexivity.
  Qed.

  Lemma skipn_nth_cons (r : list Z) : forall k, (k < length r)%nat -> skipn k r = nth k r 0 :: skipn (S k) r.
  Proof.
    induction r as [|x r IH]; intros k Hk; cbn in Hk; [lia|]. destruct k as [|k]; [reflexivity|].
    cbn [skipn nth]. apply IH. lia.
  Qed.

  Lemma rev_window (w : list Z) (n : Z) : length w = (order sh - 1)%nat -> 1 <= n <= N - 1 ->
    skipn (Z.to_nat n - 1) (rev w) = nth (order sh - 1 - Z.to_nat n) w 0 :: skipn (Z.to_nat n) (rev w).
  Proof.
    intros Hl Hn. assert (HN : N = Z.of_nat (order sh)) by reflexivity.
    assert (Hlr : length (rev w) = (order sh - 1)%nat) by (rewrite rev_length; exact Hl).
    rewrite skipn_nth_cons by lia. replace (S (Z.to_nat n - 1)) with (Z.to_nat n) by lia. f_equal.
    rewrite rev_nth by lia. f_equal. lia.
  Qed.

  (* the token the p path reads one order ahead, and whether this is the last order *)
  Lemma lookahead (w : list Z) (n : Z) : length w = (order sh - 1)%nat -> 1 <= n <= N - 1 ->
    (match skipn (Z.to_nat n) (rev w) with [] => nth (order sh - 1 - Z.to_nat n) w 0 | x :: _ => x end)
      = nth (order sh - 1 - Z.to_nat (Z.min (n + 1) (N - 1))) w 0
    /\ (match skipn (Z.to_nat n) (rev w) with [] => true | _ => false end) = (n =? N - 1).
  Proof.
    intros Hl Hn. assert (HN : N = Z.of_nat (order sh)) by reflexivity. destruct (Z.eq_dec n (N - 1)) as [E|E].
    - rewrite skipn_all2 by (rewrite rev_length, Hl; lia).
      replace (Z.min (n + 1) (N - 1)) with n by lia. split; [reflexivity|lia].
    - pose proof (rev_window w (n + 1) Hl ltac:(lia)) as Hw.
      replace (Z.to_nat (n + 1) - 1)%nat with (Z.to_nat n) in Hw by lia. rewrite Hw.
      replace (Z.min (n + 1) (N - 1)) with (n + 1) by lia. split; [reflexivity|lia].
  Qed.

  Lemma loop_tab : forall (k : nat) (n : Z) SS PP,
    Z.of_nat k = N - n -> 1 <= n -> 1 <= vocab sh ->
    (forall bi, (bi < B)%nat -> length (win ws bi) = (order sh - 1)%nat) ->
    (forall bi v, dp (SS bi v) = PP bi) ->
    (forall bi v, (bi < B)%nat -> (v < Vn)%nat ->
       dsafe (hx hs bi) n (skipn (Z.to_nat n - 1) (rev (win ws bi))) (SS bi v)) ->
    exists PP',
    loop_fn (cst b sh B ws hs) (zrange_z n N) (tab_state sh B SS PP) =
    Some (tab_state sh B (fun bi v => descend b sh (hx hs bi) n (skipn (Z.to_nat n - 1) (rev (win ws bi))) (SS bi v)) PP').
  Proof.
    assert (HN : N = Z.of_nat (order sh)) by reflexivity.
    induction k as [|k IH]; intros n SS PP Hk Hn HV Hlen Hcoh Hsafe.
    - exists PP. unfold zrange_z. replace (Z.to_nat (N - n)) with O by lia. cbn [seq map loop_fn].
      f_equal. apply tab_state_ext; [|reflexivity]. intros bi v Hb Hv.
      rewrite skipn_all2 by (rewrite rev_length, Hlen by assumption; lia). reflexivity.
    - unfold zrange_z. replace (Z.to_nat (N - n)) with (S k) by lia. cbn [seq map loop_fn].
      replace (n + Z.of_nat 0) with n by lia.
      rewrite (body_tab b sh B ws hs n SS PP); [ | lia | lia | assumption | ].
      2:{ intros e He. unfold lanes in He. apply in_app_or in He as [He|He].
          - apply nl_in in He as (bi & v & -> & Hb & Hv). specialize (Hsafe bi v Hb Hv).
            rewrite (rev_window (win ws bi) n) in Hsafe by (try apply Hlen; try assumption; lia).
            cbn [dsafe] in Hsafe. destruct Hsafe as (H1 & _ & _). unfold path, tok. cbn [fst snd]. exact H1.
          - apply pl_in in He as (bi & -> & Hb).
            assert (Hv : (0 < Vn)%nat) by (unfold Vn; lia). specialize (Hsafe bi O Hb Hv).
            rewrite (rev_window (win ws bi) n) in Hsafe by (try apply Hlen; try assumption; lia).
            cbn [dsafe] in Hsafe. destruct Hsafe as (_ & H2 & _). unfold path, tok. cbn [fst snd].
            rewrite Hcoh, (proj1 (lookahead (win ws bi) n (Hlen bi Hb) ltac:(lia))) in H2. exact H2. }
      cbn [bo].
      match goal with |- context [tab_state sh B ?S1 ?P1] => set (SS1 := S1); set (PP1 := P1) end.
      destruct (IH (n + 1) SS1 PP1) as (PP' & R); try lia; try assumption.
      { intros bi v. unfold SS1, PP1, step. cbn [dp]. rewrite Hcoh. reflexivity. }
      { intros bi v Hb Hv. specialize (Hsafe bi v Hb Hv).
        rewrite (rev_window (win ws bi) n) in Hsafe by (try apply Hlen; try assumption; lia).
        cbn [dsafe] in Hsafe. destruct Hsafe as (_ & _ & H3).
        replace (Z.to_nat (n + 1) - 1)%nat with (Z.to_nat n) by lia. unfold SS1.
        destruct (lookahead (win ws bi) n (Hlen bi Hb) ltac:(lia)) as [Ht1 Ht2].
        rewrite Ht1, Ht2 in H3. exact H3. }
      exists PP'.
      assert (Hz : map (fun i => n + Z.of_nat i) (seq 1 k) = zrange_z (n + 1) N).
      { unfold zrange_z. replace (Z.to_nat (N - (n + 1))) with k by lia. rewrite <- seq_shift, map_map.
        apply map_ext. intros i. lia. }
      rewrite Hz, R. f_equal. apply tab_state_ext; [|reflexivity]. intros bi v Hb Hv.
      replace (Z.to_nat (n + 1) - 1)%nat with (Z.to_nat n) by lia.
      rewrite (rev_window (win ws bi) n) by (try apply Hlen; try assumption; lia). cbn [descend].
      destruct (lookahead (win ws bi) n (Hlen bi Hb) ltac:(lia)) as [Ht1 Ht2]. rewrite Ht1, Ht2. reflexivity.
  Qed.
End Loop.

Lemma nth_map_lt {A C} (f : A -> C) (l : list A) i d d' : (i < length l)%nat -> nth i (map f l) d' = f (nth i l d).
Proof. intros H. rewrite (nth_indep _ d' (f d)) by (rewrite map_length; lia). apply map_nth. Qed.

Lemma arange_T1 (m : nat) : arange (Z.of_nat m) = Some (T1 (seq 0 m) (fun i => CI (Z.of_nat i))).
Proof. unfold arange, T1. replace (0 <=? Z.of_nat m) with true by lia. rewrite Nat2Z.id, seq_length. reflexivity. Qed.

(* ---- everything after the context window ---- *)
Section Main.
  Variable b : bufs.
  Variable sh : shape.
  Variable B : nat.

  Let Vn := Z.to_nat (vocab sh).
  Let Sn := maxdesc sh.
  Let N := Z.of_nat (order sh).

  (* the state the descent of (batch element, candidate v) starts in *)
  Definition init_st (w : list Z) (v : Z) : pstate :=
    let h1 := hd 0 (rev w) in mkSt (v, true) (h1, true) (zget (logps b) v NaN) (zget (logbs b) h1 NaN).

  (* every index the lookup of one (window, candidate) forms lies inside its buffer *)
  Definition lookup1_safe (hidx : Z) (w : list Z) (v : Z) : Prop :=
    0 <= hd 0 (rev w) < zlen (logbs b) /\ dsafe b sh hidx 1 (rev w) (init_st w v).

  Lemma T1_seq_split (m k : nat) (F : nat -> cell) : (k <= m)%nat ->
    T1 (seq 0 m) F = T1 (seq 0 k ++ seq k (m - k)) F.
  Proof. intros H. rewrite <- seq_app. replace (k + (m - k))%nat with m by lia. reflexivity. Qed.

  Lemma ones_lanes : 0 <= vocab sh ->
    ones_bool (Z.of_nat B * vocab sh + Z.of_nat B) = Some (T1 (lanes sh B) (fun _ => CB true)).
  Proof.
    intros HV.
    assert (Hl : Z.to_nat (Z.of_nat B * vocab sh + Z.of_nat B) = length (lanes sh B)).
    { unfold lanes. rewrite app_length, nl_length, pl_length. lia. }
    unfold ones_bool, full, T1. cbn [nats_of].
    replace (0 <=? Z.of_nat B * vocab sh + Z.of_nat B) with true by lia. cbn [option_map prodn fold_right].
    rewrite Hl, Nat.mul_1_r. f_equal. f_equal.
    generalize (lanes sh B). intros l. induction l as [|e l IH]; [reflexivity|]. cbn. rewrite IH. reflexivity.
  Qed.

  Lemma view_rows (F : lane -> cell) : 0 <= vocab sh ->
    view (T1 (nl B Vn) F) [Z.of_nat B; vocab sh] = Some (T6 [B; Vn] (map F (nl B Vn))).
  Proof.
    intros HV. unfold view, T1. cbn [nats_of]. replace (0 <=? Z.of_nat B) with true by lia.
    replace (0 <=? vocab sh) with true by lia. cbn [option_map numel sh6 dt6 prodn fold_right].
    rewrite nl_length, Nat2Z.id. fold Vn. replace (B * (Vn * 1) =? B * Vn * 1)%nat with true by lia. reflexivity.
  Qed.

  Variable ws0 : list (list Z).      (* the windows as sliced from the (padded) history *)
  Variable hexp : list Z.            (* hidx.expand(B) *)

  Let ws := map (mapwin sh) ws0.

  Lemma main_tab (histT hidxT : tens6) (rem hmin : Z) :
    (2 <= order sh)%nat -> 1 <= vocab sh -> vocab sh <= zlen (logps b) -> Z.of_nat Sn <= vocab sh + 1 ->
    length ws0 = B -> (forall bi, (bi < B)%nat -> length (nth bi ws0 []) = (order sh - 1)%nat) ->
    window_fn histT hidxT (Z.of_nat B) N rem hmin = Some (wt sh B ws0) ->
    (do hi <- as_int hidxT; expand hi [Z.of_nat B]) = Some (T1 (seq 0 B) (fun bi => CI (hx hexp bi))) ->
    (forall bi v, (bi < B)%nat -> (v < Vn)%nat -> lookup1_safe (hx hexp bi) (win ws bi) (Z.of_nat v)) ->
    main_fn histT hidxT (ivec (offsets b)) (ivec (ids b)) (fvec (logps b)) (fvec (logbs b))
      (T1 (seq 0 Vn) (fun v => CF (fl_of (zget (logps b) (Z.of_nat v) NaN))))
      (sos sh) (vocab sh) N (Z.of_nat Sn) (Z.of_nat B) (Z.of_nat B * vocab sh) (osize b) (psize b sh) (usize sh)
      (shiftz (vocab sh) (sos sh)) hmin rem
    = Some (T6 [B; Vn]
              (map (fun e => CF (fl_of (lookup1 b sh (hx hexp (fst e)) (win ws (fst e)) (Z.of_nat (vof e))))) (nl B Vn))).
  Proof.
    intros HN2 HV HVP HS Hlw Hlen Hwin Hexp Hsafe.
    assert (HNz : N = Z.of_nat (order sh)) by reflexivity.
    assert (HVn : vocab sh = Z.of_nat Vn) by (unfold Vn; lia).
    assert (Hws : forall bi, win ws bi = mapwin sh (win ws0 bi)).
    { intros bi. unfold win, ws. destruct (Nat.lt_ge_cases bi (length ws0)) as [Hb|Hb].
      - rewrite (nth_indep _ [] (mapwin sh [])) by (rewrite map_length; exact Hb). apply map_nth.
      - rewrite !nth_overflow by (try rewrite map_length; exact Hb). unfold mapwin. destruct (shiftb _ _); reflexivity. }
    assert (Hwl : forall bi, (bi < B)%nat -> length (win ws bi) = (order sh - 1)%nat).
    { intros bi Hb. rewrite Hws, mapwin_length. apply Hlen. exact Hb. }
    unfold main_fn. rewrite Hwin. cbn [bo].
    (* assert hist.shape == (N - 1, B) *)
    unfold wt at 1. cbn [sh6 T2]. rewrite !seq_length.
    replace (Z.to_nat (N - 1)) with (order sh - 1)%nat by lia. rewrite Nat2Z.id. cbn [shape_eqb].
    rewrite !Nat.eqb_refl. replace (0 <=? N - 1) with true by lia. replace (0 <=? Z.of_nat B) with true by lia.
    cbn [andb negb].
    (* if shift: hist = hist.masked_fill(hist.eq(sos), V) *)
    assert (Hmap : (if negb (shiftz (vocab sh) (sos sh) =? 0)
                    then do e <- eq_s (wt sh B ws0) (sos sh); masked_fill (wt sh B ws0) e (CI (vocab sh))
                    else Some (wt sh B ws0)) = Some (wt sh B ws)).
    { unfold shiftz.
      destruct (shiftb (vocab sh) (sos sh)) eqn:Esh; cbn [Z.eqb negb].
      - unfold eq_s, wt. rewrite (map_cells_T2 _ _ _ _ (fun i bi => CB (nth i (win ws0 bi) 0 =? sos sh))) by reflexivity.
        cbn [bo]. rewrite masked_fill_T2. f_equal. apply T2_ext. intros i bi Hi Hb. apply in_seq in Hi, Hb.
        rewrite Hws. unfold mapwin. rewrite Esh.
        rewrite (nth_map_lt (fun x => if x =? sos sh then vocab sh else x) (win ws0 bi) i 0 0)
          by (unfold win; rewrite Hlen by lia; lia). destruct (nth i (win ws0 bi) 0 =? sos sh); reflexivity.
      - f_equal. unfold wt. apply T2_ext. intros i bi _ _. rewrite Hws. unfold mapwin. rewrite Esh. reflexivity. }
    rewrite Hmap. clear Hmap. cbn [bo].
    change (as_int (ivec (ids b))) with (as_int (T1 (ids b) (fun z => CI z))). rewrite as_int_T1. cbn [bo].
    unfold wt at 1. unfold as_int at 1. rewrite (map_cells_T2 _ _ _ _ (fun i bi => CI (nth i (win ws bi) 0))) by reflexivity.
    cbn [bo]. fold (wt sh B ws).
    (* vrange, hidx, srange *)
    replace (vocab sh + 1) with (Z.of_nat (Vn + 1)) by lia. rewrite arange_T1. cbn [bo].
    destruct (as_int hidxT) as [hi|]; [|discriminate Hexp]. cbn [bo] in Hexp |- *. rewrite Hexp. cbn [bo].
    rewrite (T1_seq_split (Vn + 1) Sn) by (unfold Sn in *; lia).
    rewrite slice0_T1_front by (rewrite seq_length; reflexivity). cbn [bo].
    rewrite <- (T1_seq_split (Vn + 1) Sn) by (unfold Sn in *; lia).
    rewrite (T1_seq_split (Vn + 1) Vn) by lia.
    rewrite slice0_T1_front by (rewrite seq_length; lia). cbn [bo].
    rewrite repeat1_nl. cbn [bo].
    (* hist[-1] *)
    change (Z.opp 1) with (- (1)). rewrite (select0_wt sh B ws 1) by lia. cbn [bo]. rewrite as_int_T1. cbn [bo].
    set (SS0 := fun bi v => init_st (win ws bi) (Z.of_nat v)).
    set (PP0 := fun bi : nat => (tokn sh ws 1 bi, true)).
    assert (Hhd : forall bi, (bi < B)%nat -> hd 0 (rev (win ws bi)) = tokn sh ws 1 bi).
    { intros bi Hb. unfold tokn. pose proof (Hwl bi Hb) as Hl.
      rewrite <- (rev_involutive (win ws bi)) at 2. rewrite rev_nth by (rewrite rev_length; lia).
      rewrite rev_length, Hl. replace (order sh - 1 - S (order sh - 1 - Z.to_nat 1))%nat with O by lia.
      destruct (rev (win ws bi)); reflexivity. }
    rewrite (T1_ext (nl B Vn) _ (fun e => CI (fst (path SS0 PP0 e)))).
    2:{ intros e He. apply nl_in in He as (bi & v & -> & _). reflexivity. }
    change (T1 (seq 0 B) (fun bi => CI (tokn sh ws 1 bi))) with (T1 (seq 0 B) (fun bi => CI (fst (path SS0 PP0 (bi, None))))).
    rewrite <- (T1_pl B (fun e => CI (fst (path SS0 PP0 e)))). rewrite cat0_T1. cbn [bo].
    (* last_logps, last_backoffs, found *)
    rewrite repeat1_nl. cbn [bo].
    rewrite slice0_T1_back by (rewrite nl_length; lia). cbn [bo].
    rewrite (index1_fvec_T1 (logbs b) (pl B) (fun e => fst (path SS0 PP0 e))).
    2:{ intros e He. apply pl_in in He as (bi & -> & Hb). unfold path, PP0. cbn [fst snd].
        assert (Hv : (0 < Vn)%nat) by lia. destruct (Hsafe bi O Hb Hv) as [H1 _]. rewrite Hhd in H1 by exact Hb. exact H1. }
    cbn [bo]. rewrite T1_pl. rewrite (repeat_interleave_nl B Vn _ _ HVn). cbn [bo].
    rewrite ones_lanes by lia. cbn [bo].
    (* the loop *)
    assert (Hst : LS (T1 (nl B Vn ++ pl B) (fun e => CI (fst (path SS0 PP0 e)))) (T1 (lanes sh B) (fun _ => CB true))
                     (T1 (nl B Vn) (fun e => CF (fl_of (zget (logps b) (Z.of_nat (vof e)) NaN))))
                     (T1 (nl B Vn) (fun e => CF (fl_of (zget (logbs b) (fst (path SS0 PP0 (fst e, None))) NaN))))
                  = tab_state sh B SS0 PP0).
    { unfold tab_state. fold Vn. f_equal.
      - apply T1_ext. intros e He. unfold lanes in He. apply in_app_or in He as [He|He].
        + apply nl_in in He as (bi & v & -> & _). reflexivity.
        + apply pl_in in He as (bi & -> & _). reflexivity.
      - apply T1_ext. intros e He. apply nl_in in He as (bi & v & -> & Hb & _). unfold SS0, init_st, path, PP0. cbn [fst snd vof lastb].
        rewrite Hhd by exact Hb. reflexivity. }
    rewrite Hst. clear Hst.
    change (LC (wt sh B ws) (T1 (seq 0 B) (fun bi => CI (hx hexp bi))) (ivec (offsets b)) (ivec (ids b)) (fvec (logps b))
               (fvec (logbs b)) (T1 (seq 0 Sn) (fun i => CI (Z.of_nat i))) (vocab sh) N (Z.of_nat B * vocab sh) (osize b)
               (psize b sh) (usize sh) (Z.of_nat B)) with (cst b sh B ws hexp).
    destruct (loop_tab b sh B ws hexp (order sh - 1) 1 SS0 PP0) as (PP' & R); try lia.
    { exact Hwl. }
    { intros bi v. unfold SS0, init_st, PP0. cbn [dp]. f_equal.
      destruct (Nat.lt_ge_cases bi B) as [Hb|Hb]; [apply Hhd; exact Hb|].
      unfold tokn, win, ws. rewrite !(nth_overflow (map (mapwin sh) ws0)) by (rewrite map_length; lia). cbn [rev hd]. match goal with |- context [nth ?k [] 0] => destruct k end; reflexivity. }
    { intros bi v Hb Hv. cbn [Z.to_nat Pos.to_nat Pos.iter_op Nat.sub skipn]. apply (Hsafe bi v Hb Hv). }
    unfold N. rewrite R. cbn [bo l_lastp tab_state]. fold Vn.
    rewrite view_rows by lia. reflexivity.
  Qed.
End Main.
