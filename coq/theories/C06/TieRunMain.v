(* C06 — tie, part 1 (continued): the statements around the loop.  [main_run]: everything from the context window
   to `return last_logps.view(B, V)` is [TieRun.main_fn]; [top_run] / [lookup_run]: the whole body of
   `_lookup_calc_idx_log_probs` is [TieRun.lookup_fn] - for EVERY tensor argument and all integers, whenever the
   tensor program yields a tensor the interpreted source returns exactly that tensor.  The loop is entered through
   MiniPy.Lemmas.for_loop with the invariant [TieRun.Inv] ([loop_run]). *)
From Coq Require Import ZArith QArith List String Bool Arith Lia ZifyBool ZifyNat.
From PV Require Import MiniPy.Syntax MiniPy.Interp MiniPy.Lemmas MiniTorch.OpsC06 Gen.C06Src.
From PV Require Import C06.SrcRun C06.TieLib C06.TieRun.
Import ListNotations.
Local Open Scope string_scope.

Lemma loop_run c : forall ns s s' st, loop_fn c ns s = Some s' -> Inv c s st ->
  exists st', for_loop ext06_ops "n" loop_body (map VInt ns) st = Ok CNormal st' /\ Inv c s' st'.
Proof.
  induction ns as [|n r IH]; intros s s' st H HI.
  - injection H as <-. exists st. split; [reflexivity|exact HI].
  - cbn [loop_fn] in H. destruct (body_fn c n s) as [s1|] eqn:E; [cbn [bo] in H|discriminate H].
    destruct (body_run c n s s1 st E HI) as (st1 & R1 & HI1).
    destruct (IH s1 s' st1 H HI1) as (st2 & R2 & HI2).
    exists st2. split; [|exact HI2]. cbn [map for_loop]. rewrite R1. cbn [bind]. exact R2.
Qed.

Fixpoint nth_tail (k : nat) (s : stmt) : stmt :=
  match k, s with
  | O, _ => s
  | S k', SSeq _ b => nth_tail k' b
  | S _, _ => SPass
  end.
Definition main_stmts : stmt := Eval cbv in nth_tail 13 lookup_body.

Definition MainInv (hist hidx offsets ids logps logbs last_logps : tens6) (sos V N S B M O P U shift hidx_min rem : Z)
  (st : state) : Prop :=
  agrees [("hist", enc6 hist); ("hidx", enc6 hidx); ("offsets", enc6 offsets); ("ids", enc6 ids); ("logps", enc6 logps);
          ("logbs", enc6 logbs); ("last_logps", enc6 last_logps); ("sos", VInt sos); ("V", VInt V); ("N", VInt N);
          ("S", VInt S); ("B", VInt B); ("M", VInt M); ("O", VInt O); ("P", VInt P); ("U", VInt U);
          ("shift", VInt shift); ("hidx_min", VInt hidx_min); ("rem", VInt rem); ("device", device_token);
          ("torch", torch_module)] st.

Lemma foreign_shape sh : foreign (VTuple (enc_shape sh)) = false.
Proof. destruct sh; reflexivity. Qed.
Lemma cmp_eq_any a b : cmp_eval Eq a b = Some (val_eqb a b). Proof. reflexivity. Qed.
Lemma val_eqb_shape2 sh a b :
  negb (shape_eqb sh [Z.to_nat a; Z.to_nat b] && (0 <=? a)%Z && (0 <=? b)%Z) = false ->
  val_eqb (VTuple (enc_shape sh)) (VTuple [VInt a; VInt b]) = true.
Proof.
  intros H. apply negb_false_iff in H. apply andb_prop in H as [H Hb]. apply andb_prop in H as [H Ha].
  destruct sh as [|x [|y [|z r]]]; cbn [shape_eqb] in H; rewrite ?andb_false_r in H; try discriminate H.
  apply andb_prop in H as [H1 H2]. apply andb_prop in H2 as [H2 _].
  apply Nat.eqb_eq in H1, H2. subst x y.
  unfold enc_shape. cbn [map]. unfold val_eqb. cbn.
  rewrite !Z2Nat.id by lia. rewrite !Z.eqb_refl. reflexivity.
Qed.

Lemma attr_torch_long st : attribute ext06_ops torch_module "long" st = Ok long_token st. Proof. reflexivity. Qed.
Lemma attr_torch_bool st : attribute ext06_ops torch_module "bool" st = Ok bool_token st. Proof. reflexivity. Qed.
Ltac dif2 :=
  match goal with
  | H : bo (if ?c then _ else _) _ = Some _ |- _ => let E := fresh "C" in destruct c eqn:E
  | H : (if ?c then _ else _) = Some _ |- _ => let E := fresh "C" in destruct c eqn:E; try discriminate H
  end.
Lemma sub_t3_0 t b c st : subscript (VTuple [enc6 t; b; c]) (VInt 0) st = Ok (enc6 t) st. Proof. reflexivity. Qed.
Lemma sub_t3_1 t b c st : subscript (VTuple [enc6 t; b; c]) (VInt 1) st = Ok b st. Proof. reflexivity. Qed.
Lemma sub_t3_2 t b c st : subscript (VTuple [enc6 t; b; c]) (VInt 2) st = Ok c st. Proof. reflexivity. Qed.
Lemma bin_mod_int a b st : binop_eval Mod (VInt a) (VInt b) st =
  if Z.eqb b 0 then Exc "ZeroDivisionError" st else Ok (VInt (a mod b)) st.
Proof. reflexivity. Qed.
Lemma val_eqb_t3 a b c x y z :
  val_eqb (VTuple [VInt a; VInt b; VInt c]) (VTuple [VInt x; VInt y; VInt z]) = ((a =? x) && ((b =? y) && ((c =? z) && true)))%Z.
Proof. reflexivity. Qed.

Ltac rw2 :=
  repeat match goal with
  | |- context [attribute ext06_ops torch_module "long" _] => rewrite attr_torch_long
  | |- context [attribute ext06_ops torch_module "bool" _] => rewrite attr_torch_bool
  | |- context [foreign (VTuple (enc_shape _))] => rewrite foreign_shape
  | C : negb (shape_eqb (sh6 ?t) _ && _ && _) = false |- context [cmp_eval Eq (VTuple (enc_shape (sh6 ?t))) _] =>
      rewrite cmp_eq_any, (val_eqb_shape2 _ _ _ C)
  | |- context [subscript (VTuple [enc6 _; _; _]) (VInt 0) _] => rewrite sub_t3_0
  | |- context [subscript (VTuple [enc6 _; _; _]) (VInt 1) _] => rewrite sub_t3_1
  | |- context [subscript (VTuple [enc6 _; _; _]) (VInt 2) _] => rewrite sub_t3_2
  | |- context [binop_eval Mod (VInt _) (VInt _) _] => rewrite bin_mod_int
  | |- context [cmp_eval Eq (VTuple [VInt _; VInt _; VInt _]) (VTuple [VInt _; VInt _; VInt _])] => rewrite cmp_eq_any, val_eqb_t3
  end.

Lemma zrange_map lo hi : Interp.zrange lo hi = map VInt (zrange_z lo hi).
Proof. unfold Interp.zrange, zrange_z. rewrite map_map. reflexivity. Qed.

Ltac leaf2 := hide_state; repeat first [ progress (red06; rw) | progress rw2 | rwE | rwC ]; reflexivity.

Lemma main_run hist hidx offsets ids logps logbs last_logps sos V N S B M O P U shift hidx_min rem out st :
  main_fn hist hidx offsets ids logps logbs last_logps sos V N S B M O P U shift hidx_min rem = Some out ->
  MainInv hist hidx offsets ids logps logbs last_logps sos V N S B M O P U shift hidx_min rem st ->
  runs ext06_ops main_stmts st (fun o => exists st', o = Ok (CReturn (enc6 out)) st').
Proof.
  intros H HI. unfold MainInv in HI. unfold main_fn in H. apply bo_some in H as (w & E & H); cbv beta in H.
  unfold main_stmts; change st with (sets [] st).
  (* what follows the window is run once, from any state that holds the window as `hist` *)
  match goal with |- runs _ (SSeq _ ?rest) _ ?Q =>
    assert (Hrest : forall st1, MainInv w hidx offsets ids logps logbs last_logps sos V N S B M O P U shift hidx_min rem st1 ->
                                runs ext06_ops rest st1 Q)
  end.
  { clear - H. intros st HI. unfold MainInv in HI. change st with (sets [] st).
    dif2. eapply runs_assert; [ev_by leaf2|reflexivity| ].
    apply bo_some in H as (w1 & Ew & H); cbv beta in H.
    (* ... and what follows the replacement of the start symbol likewise *)
    match goal with |- runs _ (SSeq _ ?rest) _ ?Q =>
      assert (Hrest : forall st1, MainInv w1 hidx offsets ids logps logbs last_logps sos V N S B M O P U shift hidx_min rem st1 ->
                                  runs ext06_ops rest st1 Q)
    end.
    { clear - H. intros st HI. unfold MainInv in HI. change st with (sets [] st).
      repeat dopt. repeat run_by leaf2.
      match goal with
      | E : loop_fn ?c ?ns ?s0 = Some ?s1 |- runs _ _ ?st1 _ =>
          destruct (loop_run c ns s0 s1 st1 E) as (st2 & R & HI2); [unfold Inv; agrees_by|unfold Inv in HI2; cbn [c_B c_V l_lastp] in HI2]
      end.
      eapply runs_for; [ev_by leaf2|rewrite zrange_map; exact R| ].
      change st2 with (sets [] st2); eapply runs_return; [ev_by leaf2|eexists; reflexivity]. }
    match goal with |- runs _ (SSeq _ ?rest) _ _ => set (r := rest) in * end.
    dif2; [repeat dopt|injection Ew as <-]; if_by leaf2; repeat run_by leaf2.
    all: apply Hrest; unfold MainInv; agrees_by. }
  match goal with |- runs _ (SSeq _ ?rest) _ _ => set (r := rest) in * end.
  unfold window_fn in E. destruct (Z.of_nat (numel hidx) =? 1)%Z eqn:C; repeat dopt; if_by leaf2; repeat run_by leaf2.
  all: apply Hrest; unfold MainInv; agrees_by.
Qed.

(* ---- the statements before the window ---- *)
Ltac dif3 :=
  match goal with
  | H : match ?c with CI _ => _ | CB _ => _ | CF _ => _ end = Some _ |- _ => destruct c; try discriminate H
  end.

(* `0 if 0 <= sos and sos < V else 1` *)
Lemma shift_ev sos V st : lookup "sos" (vars st) = Some (VInt sos) -> lookup "V" (vars st) = Some (VInt V) ->
  ev ext06_ops (EIfExp (EAnd (ECmp LtE (EConst (VInt 0)) (EName "sos")) (ECmp Lt (EName "sos") (EName "V")))
                  (EConst (VInt 0)) (EConst (VInt 1))) st
    (VInt (if (0 <=? sos)%Z && (sos <? V)%Z then 0 else 1)).
Proof.
  intros H1 H2. unfold ev. repeat (progress (cbn [eval bind]; red06; rw)).
  destruct (0 <=? sos)%Z; repeat (progress (cbn [eval bind]; red06; rw)); [destruct (sos <? V)%Z| ]; reflexivity.
Qed.

Lemma top_run hist hidx offsets ids logps logbs sos V N G S out :
  lookup_fn hist hidx offsets ids logps logbs sos V N G S = Some out ->
  runs ext06_ops lookup_body (mkState (vars06 hist hidx offsets ids logps logbs sos V N G S) [])
    (fun o => exists st', o = Ok (CReturn (enc6 out)) st').
Proof.
  intros H. unfold lookup_fn in H. cbv zeta in H.
  match goal with |- runs _ _ ?st0 _ => set (st := st0); change st with (sets [] st) end.
  remember (if (0 <=? sos)%Z && (sos <? V)%Z then 0 else 1)%Z as shift eqn:Hshift.
  dopt. do 3 dif2. dopt.
  unfold lookup_body; repeat run_by leaf2.
  (eapply runs_assign; [apply shift_ev; lk| ]); rewrite <- Hshift; repeat run_by leaf2.
  eapply runs_assert; [ev_by leaf2|assumption| ]; repeat run_by leaf2.
  if_by leaf2; repeat run_by leaf2.
  (* a unigram model returns here *)
  dif2; if_by leaf2.
  { eapply runs_return_seq; [ev_by leaf2|eexists; reflexivity]. }
  run_by leaf2. repeat dopt. dif3. repeat run_by leaf2.
  (* left padding, if some context is too short *)
  dif2; repeat dopt; if_by leaf2; repeat run_by leaf2.
  all: eapply main_run; [exact H|unfold MainInv; agrees_by].
Qed.

Theorem lookup_run hist hidx offsets ids logps logbs sos V N G S out :
  lookup_fn hist hidx offsets ids logps logbs sos V N G S = Some out ->
  exists st, Interp.run ext06_ops lookup_body (vars06 hist hidx offsets ids logps logbs sos V N G S) = Ok (enc6 out) st.
Proof.
  intros H. destruct (top_run _ _ _ _ _ _ _ _ _ _ _ _ H) as (st' & R).
  exists st'. unfold Interp.run. rewrite R. reflexivity.
Qed.
