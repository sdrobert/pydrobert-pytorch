(* C06, second tie — the tie lemmas assembled.
   (1) vector index: interpreted `_lookup_calc_idx_log_probs` / `calc_idx_log_probs` with one index per batch element
       = the model's rows (TieBVec.lookup_fn_vec through TieRunMain.lookup_run).
   (2) all positions: interpreted `calc_full_log_probs_chunked` / `calc_full_log_probs` = Model.chunked / Model.forward
       (TieBRun.chunked_run), every position's row = the scalar-index lookup at that position, the same tensor for
       every chunk size >= 1, RuntimeError below 1.
   Properties.v composes both with the model's Katz theorems. *)
From Coq Require Import List ZArith QArith Bool Arith Lia ZifyBool ZifyNat String.
From PV Require Import MiniPy.Syntax MiniPy.Interp MiniTorch.OpsC06 MiniTorch.LemmasC06 MiniTorch.OpsC06B Gen.C06Src Gen.C06BSrc.
From PV Require Import C06.SrcRun C06.SrcRunB C06.TieRun C06.TieRunMain.
From PV Require C06.Model C06.Spec C06.Proofs C06.TieSafe C06.TieSrc C06.TieTop C06.TieSafeProofs C06.Tie C06.TieBVec C06.TieBRun.
Import ListNotations.
Local Open Scope Z_scope.

#[local] Arguments enc6 : simpl never.
#[local] Arguments Interp.run : simpl never.

(* ================================================ (1) vector index ================================================ *)
Section Vector.
  Variable b : Model.bufs.
  Variable sh : Model.shape.
  Variable hist : list (list Z).
  Variable B : nat.
  Variable l : list nat.

  Hypothesis Hsafe : TieSafe.safe_okb b sh = true.
  Hypothesis HV : 1 <= Model.vocab sh.
  Hypothesis Hhist : Proofs.hist_ok sh hist B.
  Hypothesis HlB : List.length l = B.
  Hypothesis HB : (2 <= B)%nat.
  Hypothesis Hil : Forall (fun i => (i <= List.length hist)%nat) l.

  Let Vn := Z.to_nat (Model.vocab sh).
  Let rows := Proofs.batch_rows b sh hist B l.
  Let ixv := Model.Vec (map Z.of_nat l).

  Lemma vec_model : Model.lookup_batch b sh hist B ixv = Some rows.
  Proof.
    destruct (TieSafeProofs.safe_okb_sound b sh Hsafe) as (Hl & Ho & _).
    unfold ixv, rows. apply Proofs.lookup_batch_vec; assumption.
  Qed.

  Lemma vec_tensor_program :
    lookup_fn (hist_tensor hist B) (idx_tensor ixv) (ivec (Model.offsets b)) (ivec (Model.ids b))
      (fvec (Model.logps b)) (fvec (Model.logbs b)) (Model.sos sh) (Model.vocab sh) (Z.of_nat (Model.order sh))
      (Model.gnodes sh) (Z.of_nat (Model.maxdesc sh))
    = Some (rows_tensor B Vn rows).
  Proof.
    destruct (TieSafeProofs.safe_okb_sound b sh Hsafe) as (Hl & Ho & Hr & HS & Hsf).
    pose proof Hhist as [Hrect Htoks].
    apply TieBVec.lookup_fn_vec; try assumption; try apply (Tie.vocab_le_logps b sh Hsafe).
    intros Ho2 bi v h Hb Hv Hh.
    assert (Hi : (TieBVec.ix l bi <= List.length hist)%nat) by (apply (TieBVec.ix_le sh hist B l HlB Hil bi Hb)).
    apply Hsf; try assumption.
    - rewrite Proofs.mapwin_length. unfold TieTop.ctx_of. apply Proofs.context_length.
    - apply Proofs.last_mapwin_range; [lia| |].
      + intros E. apply (f_equal (@List.length Z)) in E. unfold TieTop.ctx_of in E. rewrite Proofs.context_length in E. cbn in E. lia.
      + unfold TieTop.ctx_of. apply Proofs.context_toks. apply Forall_forall. intros x Hx.
        pose proof (Proofs.column_toks sh hist B bi Hhist Hb) as Hc. rewrite Forall_forall in Hc. apply Hc.
        eapply Proofs.In_firstn_in. exact Hx.
    - lia.
  Qed.

  (* the interpreted function returns the tensor of the model's rows, one index per batch element *)
  Theorem source_lookup_vec_is_model :
    Model.lookup_batch b sh hist B ixv = Some rows /\
    exists st, Interp.run ext06_ops lookup_body (lookup_vars b sh hist B ixv) = Ok (enc6 (rows_tensor B Vn rows)) st.
  Proof. split; [exact vec_model|]. apply lookup_run. exact vec_tensor_program. Qed.

  Theorem source_method_vec_is_model :
    exists st, Interp.run ext06 calc_idx_body (method_vars b sh hist B ixv)
               = Ok (VTuple [enc6 (rows_tensor B Vn rows); VDict []]) st.
  Proof. destruct source_lookup_vec_is_model as [_ [st0 R]]. apply (Tie.method_run _ _ _ _ _ _ st0 R). Qed.

  Theorem source_vec_refines_model :
    src_lookup_batch b sh hist B ixv = Some (Model.lookup_batch b sh hist B ixv).
  Proof.
    destruct source_method_vec_is_model as [st R]. unfold src_lookup_batch, run_method. rewrite R, vec_model.
    pose proof (Tie.vocab_le_logps b sh Hsafe) as Hvl. unfold Model.zlen in Hvl.
    destruct (Tie.batch_rows_shape b sh hist B l HlB ltac:(lia)) as [H1 H2].
    rewrite (Tie.rows_of_rows B Vn rows H1 H2). reflexivity.
  Qed.
End Vector.

(* ================================================ (2) all positions ================================================ *)
Section Full.
  Variable b : Model.bufs.
  Variable sh : Model.shape.
  Variable hist : list (list Z).
  Variable B : nat.

  Hypothesis Hsafe : TieSafe.safe_okb b sh = true.
  Hypothesis HV : 1 <= Model.vocab sh.
  Hypothesis Hhist : Proofs.hist_ok sh hist B.

  Let T := List.length hist.
  Let Vn := Z.to_nat (Model.vocab sh).
  Let mats := map (Proofs.all_rows b sh hist B) (seq 0 (S T)).

  Lemma chunked_model chunk : (1 <= chunk)%nat -> Model.chunked b sh hist B chunk = Some mats.
  Proof.
    intros Hc. destruct (TieSafeProofs.safe_okb_sound b sh Hsafe) as (Hl & Ho & _). destruct Hhist as [Hrect _].
    apply Proofs.chunked_spec; assumption.
  Qed.

  (* the interpreted method returns the (T+1, B, V) tensor of what Model.chunked computes, for every chunk size >= 1 *)
  Theorem source_chunked_is_model chunk : (1 <= chunk)%nat ->
    Model.chunked b sh hist B chunk = Some mats /\
    exists st, Interp.run ext06B chunked_body (chunked_vars b sh hist B (Z.of_nat chunk))
               = Ok (enc6 (mats_tensor (T + 1) B Vn mats)) st.
  Proof.
    intros Hc. split; [apply chunked_model; exact Hc|].
    exact (TieBRun.chunked_run b sh hist B chunk Hsafe HV Hhist Hc).
  Qed.

  (* `calc_full_log_probs` = the chunked method with chunk size 1 = Model.forward without an index *)
  Theorem source_full_is_model :
    Model.forward b sh hist B None = Some (Model.Full mats) /\
    exists st, Interp.run ext06B_full full_body (full_vars b sh hist B) = Ok (enc6 (mats_tensor (T + 1) B Vn mats)) st.
  Proof.
    split.
    - unfold Model.forward. rewrite (chunked_model 1 ltac:(lia)). reflexivity.
    - destruct (source_chunked_is_model 1 ltac:(lia)) as [_ [st0 R]].
      remember (enc6 (mats_tensor (T + 1) B Vn mats)) as RES.
      unfold full_body, full_vars, globals06. unfold Interp.run at 1. cbn - [ext06B_full chunked_body].
      unfold ext06B_full. cbn - [call_in chunked_body ext06B]. unfold call_in, globals06.
      unfold chunked_vars, globals06 in R. cbn [app] in R. change (Z.of_nat 1) with 1 in R. rewrite R. cbn. eexists. reflexivity.
  Qed.

  (* every position's slice of the returned tensor is the tensor the interpreted `calc_idx_log_probs` returns for the
     scalar index t (first tie: Tie.source_method_scalar_is_model) *)
  Lemma D_length k : List.length (TieBRun.D b sh hist B k) = (k * (B * Vn))%nat.
  Proof.
    induction k as [|k IH]; [reflexivity|]. replace (S k) with (k + 1)%nat by lia.
    rewrite TieBRun.D_add, app_length, IH. cbn [seq map List.concat]. rewrite app_nil_r.
    rewrite (TieBRun.cells_of_length b sh hist B Hsafe HV). fold Vn. lia.
  Qed.

  Theorem source_chunked_rows_are_lookups t : (t <= T)%nat ->
    select0 (mats_tensor (T + 1) B Vn mats) (Z.of_nat t)
    = Some (rows_tensor B Vn (Proofs.batch_rows b sh hist B (repeat t B))) /\
    exists st, Interp.run ext06 calc_idx_body (method_vars b sh hist B (Model.Scalar (Z.of_nat t)))
               = Ok (VTuple [enc6 (rows_tensor B Vn (Proofs.batch_rows b sh hist B (repeat t B))); VDict []]) st.
  Proof.
    intros Ht. split; [|apply (Tie.source_method_scalar_is_model b sh hist B t Hsafe HV Hhist Ht)].
    unfold select0, mats_tensor. cbn [sh6 dt6]. replace (Z.of_nat t <? 0) with false by lia.
    replace ((0 <=? Z.of_nat t) && (Z.of_nat t <? Z.of_nat (T + 1))) with true by lia.
    cbn [prodn fold_right]. rewrite Nat2Z.id. unfold rows_tensor. f_equal. f_equal.
    change (map (fun v => CF (fl_of v)) (List.concat (List.concat mats))) with (TieBRun.D b sh hist B (S T)).
    replace (S T) with (t + (1 + (T - t)))%nat by lia.
    rewrite TieBRun.D_add. rewrite skipn_app, skipn_all2 by (rewrite D_length; lia).
    rewrite D_length. replace (t * (B * (Vn * 1)) - t * (B * Vn))%nat with 0%nat by lia. cbn [app skipn].
    rewrite seq_app, map_app, concat_app, TieBRun.cells_of_app. cbn [seq map List.concat]. rewrite app_nil_r.
    rewrite firstn_app, firstn_all2 by (rewrite (TieBRun.cells_of_length b sh hist B Hsafe HV); fold Vn; lia).
    rewrite (TieBRun.cells_of_length b sh hist B Hsafe HV). fold Vn.
    replace (B * (Vn * 1) - B * Vn)%nat with 0%nat by lia. rewrite firstn_O, app_nil_r. reflexivity.
  Qed.
End Full.

(* a chunk size below 1: RuntimeError from the interpreted source, None from the model *)
Definition runtime_error : string := "RuntimeError"%string.   (* for statements in files that do not import String *)
Theorem source_chunked_raises b sh hist B z : z < 1 ->
  exists st, Interp.run ext06B chunked_body (chunked_vars b sh hist B z) = Exc runtime_error st.
Proof. exact (TieBRun.chunked_run_raises b sh hist B z). Qed.

(* ================================ the harness-side executables are the model's checks ================================ *)
Lemma mats_of_data_concat (Bn Vn : nat) : forall (mats : list (list (list Model.val))),
  Forall (fun m => List.length m = Bn /\ Forall (fun r => List.length r = Vn) m) mats ->
  mats_of_data (List.length mats) Bn Vn (List.concat (List.concat mats)) = mats.
Proof.
  induction 1 as [|m mats [Hm1 Hm2] _ IH]; [reflexivity|].
  cbn [List.length mats_of_data List.concat]. rewrite concat_app.
  assert (Hl : List.length (List.concat m) = (Bn * Vn)%nat)
    by (rewrite (Proofs.concat_length_const Vn m Hm2), Hm1; reflexivity).
  rewrite firstn_app, firstn_all2 by lia. rewrite Hl, Nat.sub_diag, firstn_O, app_nil_r.
  rewrite skipn_app, skipn_all2 by lia. rewrite Hl, Nat.sub_diag, skipn_O. cbn [app]. rewrite IH.
  rewrite <- Hm1. rewrite (Tie.rows_of_data_concat Vn m Hm2). reflexivity.
Qed.

Lemma mats_of_mats (T1 Bn Vn : nat) (mats : list (list (list Model.val))) :
  List.length mats = T1 -> Forall (fun m => List.length m = Bn /\ Forall (fun r => List.length r = Vn) m) mats ->
  mats_of (enc6 (mats_tensor T1 Bn Vn mats)) = Some mats.
Proof.
  intros Hl Hf. unfold mats_of. rewrite dec6_enc6. unfold mats_tensor. cbn [sh6 dt6].
  rewrite map_map. rewrite (sequence_map_ext _ (fun v => v)) by (intros; apply Tie.val_of_fl_of). rewrite map_id.
  unfold wf6. cbn [sh6 dt6 prodn fold_right]. rewrite map_length.
  assert (Hc : List.length (List.concat (List.concat mats)) = (T1 * (Bn * Vn))%nat).
  { subst T1. clear - Hf. induction Hf as [|m mats [Hm1 Hm2] _ IH]; [reflexivity|]. cbn [List.concat List.length].
    rewrite concat_app, app_length, IH, (Proofs.concat_length_const Vn m Hm2), Hm1. lia. }
  rewrite Hc. replace (T1 * (Bn * Vn) =? T1 * (Bn * (Vn * 1)))%nat with true by lia.
  subst T1. rewrite mats_of_data_concat by exact Hf. reflexivity.
Qed.

Lemma all_rows_shapes b sh hist B k : TieSafe.safe_okb b sh = true -> 1 <= Model.vocab sh ->
  Forall (fun m => List.length m = B /\ Forall (fun r => List.length r = Z.to_nat (Model.vocab sh)) m)
         (map (Proofs.all_rows b sh hist B) (seq 0 k)).
Proof.
  intros Hs HV. apply Forall_forall. intros m Hm. apply in_map_iff in Hm as (i & <- & _).
  exact (TieBRun.rows_at_shape b sh hist B Hs HV i).
Qed.

(* for EVERY chunk size (0 included) *)
Theorem source_chunked_check_is_check b sh hist B chunk impl :
  TieSafe.safe_okb b sh = true -> 1 <= Model.vocab sh -> Proofs.hist_ok sh hist B ->
  src_chunked_check b sh hist B chunk impl = Model.omats_eqb (Model.chunked b sh hist B chunk) impl.
Proof.
  intros Hs HV Hh. unfold src_chunked_check, src_chunked, run_chunked. destruct chunk as [|c].
  - destruct (source_chunked_raises b sh hist B 0 ltac:(lia)) as [st R]. change (Z.of_nat 0) with 0. rewrite R. reflexivity.
  - destruct (source_chunked_is_model b sh hist B Hs HV Hh (S c) ltac:(lia)) as [Hm [st R]]. rewrite R, Hm.
    cbn [src_of_run]. rewrite mats_of_mats; [reflexivity| |apply all_rows_shapes; assumption].
    rewrite map_length, seq_length. lia.
Qed.

Theorem source_full_check_is_check b sh hist B impl :
  TieSafe.safe_okb b sh = true -> 1 <= Model.vocab sh -> Proofs.hist_ok sh hist B ->
  src_full_check b sh hist B impl = Model.out_eqb (Model.forward b sh hist B None) impl.
Proof.
  intros Hs HV Hh. unfold src_full_check, src_full, run_full.
  destruct (source_full_is_model b sh hist B Hs HV Hh) as [Hm [st R]]. rewrite R, Hm.
  cbn [src_of_run]. rewrite mats_of_mats; [reflexivity| |apply all_rows_shapes; assumption].
  rewrite map_length, seq_length. lia.
Qed.
