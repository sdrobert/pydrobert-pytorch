(* C06 — The n-gram lookup model computes Katz back-off on any table.
   Property theorems only: each is closed by [exact <lemma>] (a conjunction by one [exact] per part), or composes
   theorems stated above it in a few lines, and is followed by [Print Assumptions].  The harness re-checks this file
   on every run.

   Reading guide.  [b] are the four flat buffers, [sh] the shape constants (vocab size, sos,
   order N, max_ngram_nodes, max_direct_descendants), [t] the n-gram table as the caller wrote
   it (any order, any sparsity), [tmap sh t] the same table with an out-of-vocabulary start
   symbol renamed to V (what _build_trie does first).  [trie_okb b sh (tmap sh t)] is a
   boolean the harness evaluates on the implementation's ACTUAL buffers for every generated
   table.  [katz] (Spec.v) is the back-off recursion evaluated directly on the table;
   [spec_at]/[spec_full] tabulate it for a batch of left-padded histories. *)
From Coq Require Import List ZArith Bool Arith.
From Coq Require Import Lia.
From PV Require Import C06.Model C06.Spec C06.Proofs C06.ProofsArpa.
From PV Require Import C06.BuildClosure C06.BuildTrie C06.BuildEnd C06.BuildTotal C06.BuildInfer.
Import ListNotations.
Local Open Scope Z_scope.

(* the validator is sound: buffers it accepts represent the table (TrieOK: every listed
   n-gram has a node carrying its two numbers, every other reachable node carries (-inf, 0)) *)
Theorem c06_validator_sound : forall b sh t, trie_okb b sh t = true -> TrieOK b sh t.
Proof. exact trie_okb_sound. Qed.
Print Assumptions c06_validator_sound.

(* "the lookup language model's next-token log-probabilities equal the back-off recursion
   evaluated directly on the table", for one batch element and one context window: the
   two-path descent on buffers that represent the table *)
Theorem c06_lookup_is_katz : forall b sh t w v hidx,
  TrieOK b sh t -> (length w = order sh - 1)%nat -> (1 <= length w)%nat ->
  0 <= last w 0 < nroots sh -> 0 <= v < vocab sh -> Z.of_nat (length w) <= hidx ->
  lookup1 b sh hidx w v = katz t w v.
Proof. exact lookup1_trie. Qed.
Print Assumptions c06_lookup_is_katz.

(* renaming the out-of-vocabulary start symbol does not change the recursion
   ("start symbol inside or outside the vocabulary") *)
Theorem c06_sos_renaming : forall sh t ctx v,
  tab_ok (vocab sh) (sos sh) t -> Forall (tok_ok (vocab sh) (sos sh)) ctx -> 0 <= v < vocab sh ->
  katz (tmap sh t) (mapwin sh ctx) v = katz t ctx v.
Proof. exact katz_tmap. Qed.
Print Assumptions c06_sos_renaming.

(* "one index at a time", on the whole batch, histories left-padded with the start symbol:
   calc_idx_log_probs with a scalar index i <= T *)
Theorem c06_one_index_is_katz : forall b sh t hist B i,
  trie_okb b sh (tmap sh t) = true -> tab_okb (vocab sh) (sos sh) t = true ->
  hist_ok sh hist B -> (i <= length hist)%nat ->
  lookup_batch b sh hist B (Scalar (Z.of_nat i)) =
  Some (spec_at t (order sh) (vocab sh) (sos sh) hist B (repeat i B)).
Proof. exact lookup_scalar_katz. Qed.
Print Assumptions c06_one_index_is_katz.

(* the same through __call__, including negative indices *)
Theorem c06_call_with_index_is_katz : forall b sh t hist B i,
  trie_okb b sh (tmap sh t) = true -> tab_okb (vocab sh) (sos sh) t = true ->
  hist_ok sh hist B -> - zlen hist - 1 <= i <= zlen hist ->
  forward b sh hist B (Some (Scalar i)) =
  Some (AtIdx (spec_at t (order sh) (vocab sh) (sos sh) hist B
                 (repeat (Z.to_nat ((i + zlen hist + 1) mod (zlen hist + 1))) B))).
Proof.
  intros b sh t hist B i Hv Ht Hh Hi. unfold forward, norm_idx.
  replace ((i <? - zlen hist - 1) || (zlen hist <? i)) with false by lia.
  set (j := (i + zlen hist + 1) mod (zlen hist + 1)).
  assert (Hj : 0 <= j < zlen hist + 1) by (subst j; apply Z.mod_pos_bound; unfold zlen; lia).
  rewrite <- (Z2Nat.id j) at 1 by lia.
  rewrite (c06_one_index_is_katz b sh t) by (try assumption; unfold zlen in Hj; lia). reflexivity.
Qed.
Print Assumptions c06_call_with_index_is_katz.

(* "whether all positions are computed at once, in chunks of any size": every chunk size
   gives the table of the recursion at all T+1 positions *)
Theorem c06_full_is_katz_any_chunk : forall b sh t hist B chunk,
  trie_okb b sh (tmap sh t) = true -> tab_okb (vocab sh) (sos sh) t = true ->
  hist_ok sh hist B -> (1 <= chunk)%nat ->
  chunked b sh hist B chunk = Some (spec_full t (order sh) (vocab sh) (sos sh) hist B).
Proof. exact chunked_katz. Qed.
Print Assumptions c06_full_is_katz_any_chunk.

Theorem c06_call_full_is_katz : forall b sh t hist B,
  trie_okb b sh (tmap sh t) = true -> tab_okb (vocab sh) (sos sh) t = true ->
  hist_ok sh hist B ->
  forward b sh hist B None = Some (Full (spec_full t (order sh) (vocab sh) (sos sh) hist B)).
Proof.
  intros b sh t hist B Hv Ht Hh. unfold forward.
  rewrite (c06_full_is_katz_any_chunk b sh t) by (try assumption; lia). reflexivity.
Qed.
Print Assumptions c06_call_full_is_katz.

(* chunked = one index at a time, for ANY buffers of consistent lengths (no table needed):
   the strided all-positions evaluation is a pure re-indexing *)
Theorem c06_chunked_eq_pointwise : forall b sh hist B chunk,
  lens_ok b sh = true -> (1 <= order sh)%nat -> rect hist B -> (1 <= chunk)%nat ->
  chunked b sh hist B chunk =
  opt_all (map (fun i => lookup_batch b sh hist B (Scalar (Z.of_nat i))) (seq 0 (S (length hist)))).
Proof.
  intros b sh hist B chunk Hl Ho Hr Hc. rewrite chunked_spec by assumption. symmetry.
  apply opt_all_map. intros i Hi. apply in_seq in Hi.
  rewrite lookup_batch_scalar by (try assumption; lia). reflexivity.
Qed.
Print Assumptions c06_chunked_eq_pointwise.

(* "with a different index per batch element": calc_idx_log_probs with a vector of indices
   (one per batch element, B >= 2; a one-element vector is squeezed to a scalar by __call__) *)
Theorem c06_per_element_index_is_katz : forall b sh t hist B l,
  trie_okb b sh (tmap sh t) = true -> tab_okb (vocab sh) (sos sh) t = true ->
  hist_ok sh hist B -> length l = B -> (2 <= B)%nat ->
  Forall (fun i => (i <= length hist)%nat) l ->
  lookup_batch b sh hist B (Vec (map Z.of_nat l)) =
  Some (spec_at t (order sh) (vocab sh) (sos sh) hist B l).
Proof. exact lookup_vec_katz. Qed.
Print Assumptions c06_per_element_index_is_katz.

Theorem c06_call_with_index_vector_is_katz : forall b sh t hist B zs,
  trie_okb b sh (tmap sh t) = true -> tab_okb (vocab sh) (sos sh) t = true ->
  hist_ok sh hist B -> length zs = B -> (2 <= B)%nat ->
  Forall (fun i => - zlen hist - 1 <= i <= zlen hist) zs ->
  forward b sh hist B (Some (Vec zs)) =
  Some (AtIdx (spec_at t (order sh) (vocab sh) (sos sh) hist B (map (wrap_idx (zlen hist)) zs))).
Proof. exact forward_vec_katz. Qed.
Print Assumptions c06_call_with_index_vector_is_katz.

(* per-element independence, for ANY buffers of consistent lengths: element bi of the result
   is a function of column bi and its own index only *)
Theorem c06_batch_elements_independent : forall b sh hist B l,
  lens_ok b sh = true -> (1 <= order sh)%nat -> length l = B -> (2 <= B)%nat ->
  Forall (fun i => (i <= length hist)%nat) l ->
  lookup_batch b sh hist B (Vec (map Z.of_nat l)) = Some (batch_rows b sh hist B l).
Proof. exact lookup_batch_vec. Qed.
Print Assumptions c06_batch_elements_independent.

(* "arbitrarily sparse ... (including missing lower-order suffixes)": the entries
   _build_trie adds for missing suffixes / unigrams are (-inf, 0) and do not change the
   recursion *)
Theorem c06_closure_entries_are_neutral : forall lo ks, exists extra,
  add_missing lo ks = lo ++ extra /\ Forall (fun e => snd e = (NInf, Fin 0)) extra.
Proof. exact add_missing_tfind. Qed.
Print Assumptions c06_closure_entries_are_neutral.

Theorem c06_closure_harmless : forall t extra ctx v,
  Forall (fun e => snd e = (NInf, Fin 0)) extra -> katz (t ++ extra) ctx v = katz t ctx v.
Proof. exact katz_add_neutral. Qed.
Print Assumptions c06_closure_harmless.

(* "after the model is saved and loaded into a freshly constructed instance": PARTIAL.
   Full statement wanted: for every table, infer_shape V s (bt_bufs (build_trie V s dicts))
   returns the constants build_trie computed.  Proved here: IF load_state_dict's inference
   returns the constants of the saved model (the harness checks exactly this premise on the
   implementation's actual buffers for every generated table), the reloaded model is the saved
   one, hence computes the same numbers for every query.  Missing: the proof that
   _build_trie's layout always satisfies the premise. *)
Theorem c06_reload_same_partial : forall b sh hist B ix,
  infer_shape (vocab sh) (sos sh) b = Some (order sh, gnodes sh, Z.of_nat (maxdesc sh)) ->
  forall N G S_, infer_shape (vocab sh) (sos sh) b = Some (N, G, S_) ->
  forward b (mkShape (vocab sh) (sos sh) N G (Z.to_nat S_)) hist B ix = forward b sh hist B ix.
Proof.
  intros b sh hist B ix H N G S_ H'. rewrite H in H'. injection H' as <- <- <-. rewrite Nat2Z.id.
  destruct sh; reflexivity.
Qed.
Print Assumptions c06_reload_same_partial.

(* "Reading an ARPA file yields exactly its listed entries": any sequence of lines whose
   non-blank lines are  <anything without \data\>, \data\, the counts, the sections in
   increasing order, \end\, <anything>  parses to exactly the listed entries (back-off weight 0
   when omitted, none stored for the highest order), whatever words happen to look like
   numbers.  Base 10 is the identity on the listed numbers; the base-e conversion is one IEEE
   division per number and is checked by the harness (Coq does not model floats). *)
Theorem c06_arpa_listed_entries : forall wf pre post secs ls,
  filter nonblank ls = arpa_lines wf pre post secs ->
  Forall (fun l => l <> LData) pre ->
  (forall n, (1 <= n <= length secs)%nat -> section_ok (length secs) n (nth_sec secs n)) ->
  parse_arpa ls = Some (arpa_dicts secs).
Proof. exact parse_wellformed. Qed.
Print Assumptions c06_arpa_listed_entries.

(* ---------- _build_trie meets the layout invariant, for ALL tables ---------------------------------- *)

(* [wf_dicts V s dicts] (BuildTrie.v) is the boolean reading of what the Python constructor
   requires of prob_dicts (it raises ValueError otherwise): vocab_size >= 1, at least one
   dictionary, the highest-order one not empty, every key of the i-th dictionary a sequence of i
   tokens each in range(vocab_size) or equal to sos -- plus "no key listed twice", which a Python
   dict guarantees by construction.  Nothing is assumed about sparsity (lower-order suffixes may be
   missing, lower dictionaries may be empty), about sos (inside or outside the vocabulary) or about
   the values (any Fin k / NInf / NaN).  [table_of dicts] = all the caller's entries;
   [built_shape V s bt] = the constants (N, G, max_direct_descendants) the model returns.

   "the buffers returned by build_trie represent the caller's table": every listed n-gram has a node
   carrying its two numbers, every other node the descent can reach (the suffixes / unigrams the
   builder adds) carries (-inf, 0).  This replaces the per-table run of the validator as the
   justification of the premise of the lookup theorems above. *)
Theorem c06_build_trie_ok : forall V s dicts bt,
  wf_dicts V s dicts = true -> build_trie V s dicts = Some bt ->
  TrieOK (bt_bufs bt) (built_shape V s bt) (tmap (built_shape V s bt) (table_of dicts)).
Proof. exact build_trie_ok. Qed.
Print Assumptions c06_build_trie_ok.

(* the constructor succeeds on every well-formed table (in particular the assertions of
   _infer_max_direct_descendants hold: a node has at most V + shift children), so the theorems below
   are not vacuous for any of them *)
Theorem c06_build_trie_total : forall V s dicts,
  wf_dicts V s dicts = true -> exists bt, build_trie V s dicts = Some bt.
Proof. exact build_trie_total. Qed.
Print Assumptions c06_build_trie_total.

(* conversely the inputs it rejects: no dictionary, an empty highest-order dictionary, a key of the
   wrong length or with a token outside range(vocab_size) + {sos} *)
Theorem c06_build_trie_requires : forall V s dicts bt, build_trie V s dicts = Some bt ->
  dicts <> [] /\ last dicts [] <> [] /\
  forallb (fun p => keys_okb V s (fst p) (snd p)) (combine (seq 1 (length dicts)) dicts) = true.
Proof. exact build_trie_some_requires. Qed.
Print Assumptions c06_build_trie_requires.

(* end to end, one batch element and one window of N-1 tokens (vocabulary ids or sos): build, rename
   the window as the lookup does, descend = the recursion on the caller's table *)
Theorem c06_build_then_lookup_is_katz : forall V s dicts bt,
  wf_dicts V s dicts = true -> build_trie V s dicts = Some bt -> forall w v hidx,
  (length w = length dicts - 1)%nat -> (1 <= length w)%nat ->
  Forall (tok_ok V s) w -> 0 <= v < V -> Z.of_nat (length w) <= hidx ->
  lookup1 (bt_bufs bt) (built_shape V s bt) hidx (mapwin (built_shape V s bt) w) v =
  katz (table_of dicts) w v.
Proof. exact build_then_lookup. Qed.
Print Assumptions c06_build_then_lookup_is_katz.

(* the same for the batch entry points: one index, per-element indices, all positions in chunks of
   any size, __call__ without and with an index (negative ones included) *)
Theorem c06_build_then_one_index_is_katz : forall V s dicts bt,
  wf_dicts V s dicts = true -> build_trie V s dicts = Some bt -> forall hist B i,
  hist_ok (built_shape V s bt) hist B -> (i <= length hist)%nat ->
  lookup_batch (bt_bufs bt) (built_shape V s bt) hist B (Scalar (Z.of_nat i)) =
  Some (spec_at (table_of dicts) (length dicts) V s hist B (repeat i B)).
Proof. exact build_then_index. Qed.
Print Assumptions c06_build_then_one_index_is_katz.

Theorem c06_build_then_per_element_index_is_katz : forall V s dicts bt,
  wf_dicts V s dicts = true -> build_trie V s dicts = Some bt -> forall hist B l,
  hist_ok (built_shape V s bt) hist B -> length l = B -> (2 <= B)%nat ->
  Forall (fun i => (i <= length hist)%nat) l ->
  lookup_batch (bt_bufs bt) (built_shape V s bt) hist B (Vec (map Z.of_nat l)) =
  Some (spec_at (table_of dicts) (length dicts) V s hist B l).
Proof. exact build_then_index_vector. Qed.
Print Assumptions c06_build_then_per_element_index_is_katz.

Theorem c06_build_then_full_is_katz_any_chunk : forall V s dicts bt,
  wf_dicts V s dicts = true -> build_trie V s dicts = Some bt -> forall hist B chunk,
  hist_ok (built_shape V s bt) hist B -> (1 <= chunk)%nat ->
  chunked (bt_bufs bt) (built_shape V s bt) hist B chunk =
  Some (spec_full (table_of dicts) (length dicts) V s hist B).
Proof. exact build_then_chunked. Qed.
Print Assumptions c06_build_then_full_is_katz_any_chunk.

Theorem c06_build_then_call_full_is_katz : forall V s dicts bt,
  wf_dicts V s dicts = true -> build_trie V s dicts = Some bt -> forall hist B,
  hist_ok (built_shape V s bt) hist B ->
  forward (bt_bufs bt) (built_shape V s bt) hist B None =
  Some (Full (spec_full (table_of dicts) (length dicts) V s hist B)).
Proof. exact build_then_forward_full. Qed.
Print Assumptions c06_build_then_call_full_is_katz.

Theorem c06_build_then_call_with_index_is_katz : forall V s dicts bt,
  wf_dicts V s dicts = true -> build_trie V s dicts = Some bt -> forall hist B i,
  hist_ok (built_shape V s bt) hist B -> - zlen hist - 1 <= i <= zlen hist ->
  forward (bt_bufs bt) (built_shape V s bt) hist B (Some (Scalar i)) =
  Some (AtIdx (spec_at (table_of dicts) (length dicts) V s hist B
                 (repeat (Z.to_nat ((i + zlen hist + 1) mod (zlen hist + 1))) B))).
Proof. exact build_then_forward_index. Qed.
Print Assumptions c06_build_then_call_with_index_is_katz.

(* "after the model is saved and loaded into a freshly constructed instance": FULL.  For every
   well-formed table, load_state_dict's inference on the buffers build_trie returns yields exactly the
   constants build_trie computed (N, max_ngram_nodes, max_direct_descendants) ... *)
Theorem c06_infer_shape_roundtrip : forall V s dicts bt,
  wf_dicts V s dicts = true -> build_trie V s dicts = Some bt ->
  infer_shape V s (bt_bufs bt) = Some (bt_order bt, bt_gnodes bt, bt_maxdesc bt).
Proof. exact infer_shape_roundtrip. Qed.
Print Assumptions c06_infer_shape_roundtrip.

(* ... hence the premise of c06_reload_same_partial always holds for built models: the reloaded
   instance exists and computes the same outputs as the saved one for every query *)
Theorem c06_reload_same : forall V s dicts bt,
  wf_dicts V s dicts = true -> build_trie V s dicts = Some bt ->
  (exists N G S_, infer_shape V s (bt_bufs bt) = Some (N, G, S_)) /\
  forall N G S_, infer_shape V s (bt_bufs bt) = Some (N, G, S_) ->
  forall hist B ix,
    forward (bt_bufs bt) (mkShape V s N G (Z.to_nat S_)) hist B ix =
    forward (bt_bufs bt) (built_shape V s bt) hist B ix.
Proof. exact reload_same_full. Qed.
Print Assumptions c06_reload_same.

(* every offset _build_trie writes fits the integer type it allocates beforehand from
   max_potential_offset = max_n (len(prob_dicts[n]) + len(prob_dicts[n-1])) over the closed
   dictionaries -- the bound of the repaired code (finding F33: the original bound was one smaller
   and the uint8 / int16 buffer wrapped when it was hit exactly).  [closed V s top lower] is the
   closed, completed, renamed list of dictionaries (lowest order first) that the model computes. *)
Theorem c06_build_offsets_fit : forall V s dicts bt top lower,
  wf_dicts V s dicts = true -> build_trie V s dicts = Some bt -> rev dicts = top :: lower ->
  Forall (fun o => 1 <= o <= max_potential_offset (closed V s top lower)) (offsets (bt_bufs bt)).
Proof. exact build_offsets_fit. Qed.
Print Assumptions c06_build_offsets_fit.

(* ---------- non-vacuity ---------------------------------------------------------------------------- *)

(* an order-3 table with missing suffixes and an out-of-vocabulary start symbol, and the
   buffers the implementation builds for it (ex_tab, ex_sh, ex_bufs: end of Spec.v), meet the
   hypotheses of the theorems above *)
Example c06_nonvacuous :
  trie_okb ex_bufs ex_sh (tmap ex_sh ex_tab) = true /\
  tab_okb 3 5 ex_tab = true /\
  hist_ok ex_sh [[0; 1]; [1; 2]; [1; 0]] 2 /\
  forward ex_bufs ex_sh [[0; 1]; [1; 2]; [1; 0]] 2 (Some (Vec [1; 3])) =
    Some (AtIdx [[Fin (-12); Fin (-4); NInf]; [Fin (-12); Fin (-2); NInf]]) /\
  option_map bt_bufs (build_trie 3 5
     [[([0], (Fin (-8), Fin (-4))); ([1], (Fin (-16), Fin (-2)))];
      [([0; 1], (Fin (-4), Fin (-1))); ([1; 1], (Fin (-6), Fin 0))];
      [([2; 0; 1], (Fin (-2), Fin 0)); ([0; 1; 1], (Fin (-12), Fin 0)); ([1; 2; 0], (Fin (-24), Fin 0))]])
    = Some ex_bufs /\
  infer_shape 3 5 ex_bufs = Some (3%nat, 3, 2).
Proof.
  split; [vm_compute; reflexivity|]. split; [vm_compute; reflexivity|].
  split; [|split; [vm_compute; reflexivity|split; vm_compute; reflexivity]].
  split.
  - repeat (apply Forall_cons; [reflexivity|]). apply Forall_nil.
  - repeat (first [apply Forall_nil | apply Forall_cons]); unfold tok_ok; cbn; lia.
Qed.

Example c06_arpa_nonvacuous :
  let secs := [[mkEntry (-8) [0] (Some (None, -4)); mkEntry (-16) [1] None];
               [mkEntry (-4) [0; 1] None; mkEntry (-6) [1; 1] None]] in
  let ls := [LOther; LBlank; LData; LCount 1 2; LCount 2 2; LBlank; LHeader 1;
             LEntry (-8) [Field (Some 0) None; Field None (Some (-4))];
             LEntry (-16) [Field (Some 1) (Some 8)]; LBlank; LHeader 2;
             LEntry (-4) [Field (Some 0) None; Field (Some 1) (Some 8)];
             LEntry (-6) [Field (Some 1) (Some 8); Field (Some 1) (Some 8)]; LBlank; LEnd] in
  filter nonblank ls = arpa_lines (fun x => if x =? 1 then Some 8 else None) [LOther] [] secs /\
  (forall n, (1 <= n <= 2)%nat -> section_ok 2 n (nth_sec secs n)) /\
  parse_arpa ls = Some [[([0], (Fin (-8), Fin (-4))); ([1], (Fin (-16), Fin 0))];
                        [([0; 1], (Fin (-4), Fin 0)); ([1; 1], (Fin (-6), Fin 0))]].
Proof.
  cbv zeta. split; [reflexivity|]. split; [|vm_compute; reflexivity].
  intros n Hn. assert (n = 1 \/ n = 2)%nat as [->| ->] by lia; unfold section_ok, nth_sec; cbn.
  - split; [repeat constructor; intros; lia|]. repeat constructor; cbn; intuition discriminate.
  - split; [repeat constructor; intros; reflexivity|]. repeat constructor; cbn; intuition discriminate.
Qed.

(* the order-3 table of c06_nonvacuous (missing suffixes, empty-able lower orders, sos out of
   vocabulary) and an order-2 table whose unigram dictionary is EMPTY are well-formed, and
   build_trie succeeds on them *)
Example c06_build_nonvacuous :
  wf_dicts 3 5
     [[([0], (Fin (-8), Fin (-4))); ([1], (Fin (-16), Fin (-2)))];
      [([0; 1], (Fin (-4), Fin (-1))); ([1; 1], (Fin (-6), Fin 0))];
      [([2; 0; 1], (Fin (-2), Fin 0)); ([0; 1; 1], (Fin (-12), Fin 0)); ([1; 2; 0], (Fin (-24), Fin 0))]] = true /\
  wf_dicts 2 0 [[]; [([1; 0], (NInf, Fin 0)); ([0; 0], (Fin (-3), NaN))]] = true /\
  option_map bt_order (build_trie 2 0 [[]; [([1; 0], (NInf, Fin 0)); ([0; 0], (Fin (-3), NaN))]]) = Some 2%nat.
Proof. split; [vm_compute; reflexivity|]. split; vm_compute; reflexivity. Qed.

(* the bound of c06_build_offsets_fit is attained: the table of finding F33 (254 unigrams, two
   bigrams under the first unigram) has max_potential_offset = 256 = its largest offset *)
Example c06_offsets_bound_tight_nonvacuous :
  let dicts := [[([0], (Fin (-8), Fin (-4)))]; [([0; 0], (Fin (-2), Fin 0)); ([1; 0], (Fin (-2), Fin 0))]] in
  wf_dicts 254 0 dicts = true /\
  max_potential_offset (closed 254 0 [([0; 0], (Fin (-2), Fin 0)); ([1; 0], (Fin (-2), Fin 0))]
                               [[([0], (Fin (-8), Fin (-4)))]]) = 256 /\
  option_map (fun bt => zmax_list (offsets (bt_bufs bt)) 0) (build_trie 254 0 dicts) = Some 256.
Proof. cbv zeta. split; [vm_compute; reflexivity|]. split; vm_compute; reflexivity. Qed.

(* ---------- source tie: the Python text of _lookup_calc_idx_log_probs / calc_idx_log_probs ----------------- *)

(* PV.Gen.C06Src.lookup_body / calc_idx_body are the MiniPy terms harness/py2coq regenerates from
   /repo/src/pydrobert/torch/_lm.py on every run (whole bodies of `_lookup_calc_idx_log_probs` and
   `LookupLanguageModel.calc_idx_log_probs`); SrcRun.ext06_ops gives the torch calls the meaning of
   PV.MiniTorch.OpsC06 (tensors = shape + row-major cells: unbounded ints, bools, exact rationals / -inf /
   nan); SrcRun.ext06 adds the call of the other translated function.  `self` is a MiniPy dict of tensor
   values and ints (SrcRun.method_vars).  TorchScript (`@script`) is not modelled: eager CPython text. *)
From PV Require MiniPy.Syntax MiniPy.Interp MiniTorch.OpsC06 Gen.C06Src.
From PV Require C06.SrcRun C06.TieRun C06.TieRunMain C06.TieSafe C06.TieSafeProofs C06.TieSrc C06.Tie.

(* (1) interpreted source = tensor program, for EVERY tensor argument (any shape, any data) and all
   integers: whenever the straight-line-plus-fold composition TieRun.lookup_fn of OpsC06 operations yields a
   tensor, interpreting the translated body on those arguments returns exactly that tensor.  The loop
   `for n in range(1, N)` is handled by an invariant over MiniPy.Lemmas.for_loop (TieRunMain.loop_run). *)
Theorem c06_source_lookup_is_tensor_program : forall hist hidx offs idt lps lbs s V N G S out,
  TieRun.lookup_fn hist hidx offs idt lps lbs s V N G S = Some out ->
  exists st, Interp.run SrcRun.ext06_ops C06Src.lookup_body (SrcRun.vars06 hist hidx offs idt lps lbs s V N G S)
             = Interp.Ok (SrcRun.enc6 out) st.
Proof. exact TieRunMain.lookup_run. Qed.
Print Assumptions c06_source_lookup_is_tensor_program.

(* (2) the in-range validator: on buffers it accepts, every index the two-path descent of one (window,
   candidate) forms lies inside offsets / ids / logps / logbs (TieSrc.lookup1_safe), for every window of N-1
   tokens whose newest token is a root and every candidate in the vocabulary.  The harness evaluates
   safe_okb on the implementation's ACTUAL buffers of every table whose queries it runs through the
   interpreted source.  (TrieOK alone does not imply it: TrieOK is stated through the model's own reads.) *)
Theorem c06_source_safe_sound : forall b sh, TieSafe.safe_okb b sh = true ->
  lens_ok b sh = true /\ (1 <= order sh)%nat /\ nroots sh <= zlen (logps b) /\
  Z.of_nat (maxdesc sh) <= vocab sh + 1 /\
  forall hidx w v, (2 <= order sh)%nat -> length w = (order sh - 1)%nat ->
    0 <= last w 0 < nroots sh -> 0 <= v < vocab sh -> TieSrc.lookup1_safe b sh hidx w v.
Proof. exact TieSafeProofs.safe_okb_sound. Qed.
Print Assumptions c06_source_safe_sound.

(* (3) interpreted source = model, scalar index (what __call__ passes for an int / 0-dim / 1-element idx and
   what calc_full_log_probs passes for every position): for ALL buffers the validator accepts, all
   histories of vocabulary ids / sos, every B, every index i <= T (left-padding with sos when i < N - 1, the
   N = 1 bypass included), interpreting the function returns the (B, V) tensor of exactly the rows
   Model.lookup_batch computes (= batch_rows: per batch element the two-path descent lookup1) *)
Theorem c06_source_lookup_is_model : forall b sh hist B i,
  TieSafe.safe_okb b sh = true -> 1 <= vocab sh -> hist_ok sh hist B -> (i <= length hist)%nat ->
  lookup_batch b sh hist B (Scalar (Z.of_nat i)) = Some (batch_rows b sh hist B (repeat i B)) /\
  exists st, Interp.run SrcRun.ext06_ops C06Src.lookup_body (SrcRun.lookup_vars b sh hist B (Scalar (Z.of_nat i)))
             = Interp.Ok (SrcRun.enc6 (SrcRun.rows_tensor B (Z.to_nat (vocab sh)) (batch_rows b sh hist B (repeat i B)))) st.
Proof. exact Tie.source_lookup_scalar_is_model. Qed.
Print Assumptions c06_source_lookup_is_model.

(* the method LookupLanguageModel.calc_idx_log_probs(self, hist, prev, idx): reads the four buffers and five
   constants off `self`, calls the function, returns (that tensor, prev) *)
Theorem c06_source_method_is_model : forall b sh hist B i,
  TieSafe.safe_okb b sh = true -> 1 <= vocab sh -> hist_ok sh hist B -> (i <= length hist)%nat ->
  exists st, Interp.run SrcRun.ext06 C06Src.calc_idx_body (SrcRun.method_vars b sh hist B (Scalar (Z.of_nat i)))
             = Interp.Ok (Syntax.VTuple
                            [SrcRun.enc6 (SrcRun.rows_tensor B (Z.to_nat (vocab sh)) (batch_rows b sh hist B (repeat i B)));
                             Syntax.VDict []]) st.
Proof. exact Tie.source_method_scalar_is_model. Qed.
Print Assumptions c06_source_method_is_model.

(* the executable the harness runs (SrcRun.src_lookup_batch: interpret, decode the returned tensor) refines
   the model, and the harness-side check is the model's check for EVERY scalar index, invalid ones included *)
Theorem c06_source_lookup_refines_model : forall b sh hist B i,
  TieSafe.safe_okb b sh = true -> 1 <= vocab sh -> hist_ok sh hist B -> (i <= length hist)%nat ->
  SrcRun.src_lookup_batch b sh hist B (Scalar (Z.of_nat i)) = Some (lookup_batch b sh hist B (Scalar (Z.of_nat i))).
Proof. exact Tie.source_scalar_refines_model. Qed.
Print Assumptions c06_source_lookup_refines_model.

Theorem c06_source_lookup_check_is_check : forall b sh hist B z impl,
  TieSafe.safe_okb b sh = true -> 1 <= vocab sh -> hist_ok sh hist B ->
  SrcRun.src_lookup_check b sh hist B (Scalar z) impl = out_eqb (forward b sh hist B (Some (Scalar z))) impl.
Proof.
  intros b sh hist B z impl Hs HV Hh. unfold SrcRun.src_lookup_check, SrcRun.src_forward, forward, norm_idx.
  destruct ((z <? - zlen hist - 1) || (zlen hist <? z))%bool eqn:Eb; [reflexivity|].
  set (z' := (z + zlen hist + 1) mod (zlen hist + 1)).
  assert (Hz : 0 <= z' <= zlen hist)
    by (unfold z'; pose proof (Z.mod_pos_bound (z + zlen hist + 1) (zlen hist + 1)); unfold zlen in *; lia).
  replace z' with (Z.of_nat (Z.to_nat z')) by lia.
  rewrite (c06_source_lookup_refines_model b sh hist B (Z.to_nat z') Hs HV Hh) by (unfold zlen in Hz; lia).
  cbn [option_map]. destruct (lookup_batch b sh hist B (Scalar (Z.of_nat (Z.to_nat z')))); reflexivity.
Qed.
Print Assumptions c06_source_lookup_check_is_check.

(* (4) COMPOSED with c06_one_index_is_katz, purely about the interpreted source: on buffers that pass both
   validators (the table's and the in-range one), calc_idx_log_probs as interpreted returns, for every
   batch of histories and every index, the tensor of the Katz back-off values of the table on the
   sos-padded histories *)
Theorem c06_source_lookup_is_katz : forall b sh t hist B i,
  trie_okb b sh (tmap sh t) = true -> tab_okb (vocab sh) (sos sh) t = true ->
  TieSafe.safe_okb b sh = true -> 1 <= vocab sh -> hist_ok sh hist B -> (i <= length hist)%nat ->
  exists st, Interp.run SrcRun.ext06 C06Src.calc_idx_body (SrcRun.method_vars b sh hist B (Scalar (Z.of_nat i)))
             = Interp.Ok (Syntax.VTuple
                            [SrcRun.enc6 (SrcRun.rows_tensor B (Z.to_nat (vocab sh))
                                            (spec_at t (order sh) (vocab sh) (sos sh) hist B (repeat i B)));
                             Syntax.VDict []]) st.
Proof.
  intros b sh t hist B i Ht Htab Hs HV Hh Hi.
  destruct (c06_source_method_is_model b sh hist B i Hs HV Hh Hi) as [st R]. exists st. rewrite R.
  destruct (c06_source_lookup_is_model b sh hist B i Hs HV Hh Hi) as [Hm _].
  rewrite (c06_one_index_is_katz b sh t hist B i Ht Htab Hh Hi) in Hm. injection Hm as <-. reflexivity.
Qed.
Print Assumptions c06_source_lookup_is_katz.

(* ... and with c06_build_trie_ok / c06_build_then_one_index_is_katz: for EVERY well-formed table, on the
   buffers the model of _build_trie returns, the interpreted source returns the Katz back-off values of the
   caller's table.  PARTIAL in one respect: that the built buffers pass the in-range validator is a premise
   here (checked per run on the implementation's actual buffers), not yet derived from build_trie. *)
Theorem c06_source_built_lookup_is_katz_partial : forall V s dicts bt hist B i,
  wf_dicts V s dicts = true -> build_trie V s dicts = Some bt ->
  TieSafe.safe_okb (bt_bufs bt) (built_shape V s bt) = true ->
  hist_ok (built_shape V s bt) hist B -> (i <= length hist)%nat ->
  exists st, Interp.run SrcRun.ext06 C06Src.calc_idx_body
               (SrcRun.method_vars (bt_bufs bt) (built_shape V s bt) hist B (Scalar (Z.of_nat i)))
             = Interp.Ok (Syntax.VTuple
                            [SrcRun.enc6 (SrcRun.rows_tensor B (Z.to_nat V)
                                            (spec_at (table_of dicts) (length dicts) V s hist B (repeat i B)));
                             Syntax.VDict []]) st.
Proof.
  intros V s dicts bt hist B i Hwf Hb Hs Hh Hi.
  assert (HV : 1 <= V) by (unfold wf_dicts in Hwf; repeat (apply andb_prop in Hwf as [Hwf _]); lia).
  destruct (c06_source_method_is_model _ _ hist B i Hs HV Hh Hi) as [st R]. exists st. rewrite R.
  destruct (c06_source_lookup_is_model _ _ hist B i Hs HV Hh Hi) as [Hm _].
  rewrite (c06_build_then_one_index_is_katz V s dicts bt Hwf Hb hist B i Hh Hi) in Hm. injection Hm as <-. reflexivity.
Qed.
Print Assumptions c06_source_built_lookup_is_katz_partial.

(* the example buffers of c06_nonvacuous pass the in-range validator, and the interpreted source answers a
   scalar and a per-element index query on them as the model does *)
Example c06_source_nonvacuous :
  TieSafe.safe_okb ex_bufs ex_sh = true /\
  SrcRun.src_lookup_check ex_bufs ex_sh [[0; 1]; [1; 2]; [1; 0]] 2 (Scalar 2)
    (Some (AtIdx [[Fin (-11); Fin (-12); NInf]; [Fin (-24); Fin (-16); NInf]])) = true /\
  SrcRun.src_lookup_check ex_bufs ex_sh [[0; 1]; [1; 2]; [1; 0]] 2 (Vec [1; 3])
    (Some (AtIdx [[Fin (-12); Fin (-4); NInf]; [Fin (-12); Fin (-2); NInf]])) = true.
Proof. split; [vm_compute; reflexivity|]. split; vm_compute; reflexivity. Qed.

(* ---------- second source tie: the vector-index path, calc_full_log_probs_chunked, calc_full_log_probs ---------- *)

(* PV.Gen.C06BSrc.chunked_body / full_body are the MiniPy terms harness/py2coq regenerates from
   /repo/src/pydrobert/torch/_lm.py on every run (WHOLE bodies of `LookupLanguageModel.calc_full_log_probs_chunked`
   and `calc_full_log_probs`); SrcRunB.ext06B = the first tie's SrcRun.ext06_ops + the calls only the all-positions
   code makes (PV.MiniTorch.OpsC06B: contiguous / storage_offset / as_strided on the row-major content, torch.empty
   of no element, torch.tensor of an int, iteration over a 1-D tensor, a 0-dim tensor as a slice bound; Python's
   three-argument range) + `self.calc_idx_log_probs`, which INTERPRETS the first tie's translated method.
   Hypotheses are those of the first tie: the in-range validator TieSafe.safe_okb on the buffers (evaluated on the
   implementation's actual buffers on every run), V >= 1, a rectangular history of vocabulary ids / sos.
   (Several statements are bundled per theorem: each Print Assumptions re-traverses the whole tie, ~5 s.) *)
From PV Require MiniTorch.OpsC06B Gen.C06BSrc C06.SrcRunB C06.TieBVec C06.TieBRun C06.TieB.

(* (5) VECTOR INDEX (idx a tensor with one index per batch element, B >= 2; the `masked_select(mask).view(B, N-1).T`
   window selection): for all buffers the validator accepts, all histories, all index vectors l with every entry
   <= T: (a) interpreting `_lookup_calc_idx_log_probs` returns the (B, V) tensor of exactly the rows
   Model.lookup_batch computes (left-padding with sos when the smallest index is < N - 1, the N = 1 bypass
   included); (b) so does the method calc_idx_log_probs, `prev` untouched; (c) the executable the harness runs
   (SrcRun.src_lookup_batch) refines the model. *)
Theorem c06_source_vector_lookup_is_model : forall b sh hist B l,
  TieSafe.safe_okb b sh = true -> 1 <= vocab sh -> hist_ok sh hist B ->
  length l = B -> (2 <= B)%nat -> Forall (fun i => (i <= length hist)%nat) l ->
  (lookup_batch b sh hist B (Vec (map Z.of_nat l)) = Some (batch_rows b sh hist B l) /\
   exists st, Interp.run SrcRun.ext06_ops C06Src.lookup_body (SrcRun.lookup_vars b sh hist B (Vec (map Z.of_nat l)))
              = Interp.Ok (SrcRun.enc6 (SrcRun.rows_tensor B (Z.to_nat (vocab sh)) (batch_rows b sh hist B l))) st) /\
  (exists st, Interp.run SrcRun.ext06 C06Src.calc_idx_body (SrcRun.method_vars b sh hist B (Vec (map Z.of_nat l)))
              = Interp.Ok (Syntax.VTuple
                             [SrcRun.enc6 (SrcRun.rows_tensor B (Z.to_nat (vocab sh)) (batch_rows b sh hist B l));
                              Syntax.VDict []]) st) /\
  SrcRun.src_lookup_batch b sh hist B (Vec (map Z.of_nat l)) = Some (lookup_batch b sh hist B (Vec (map Z.of_nat l))).
Proof.
  intros b sh hist B l Hs HV Hh HlB HB Hil. split; [|split].
  - exact (TieB.source_lookup_vec_is_model b sh hist B l Hs HV Hh HlB HB Hil).
  - exact (TieB.source_method_vec_is_model b sh hist B l Hs HV Hh HlB HB Hil).
  - exact (TieB.source_vec_refines_model b sh hist B l Hs HV Hh HlB HB Hil).
Qed.
Print Assumptions c06_source_vector_lookup_is_model.

(* COMPOSED with c06_per_element_index_is_katz, purely about the interpreted source: with a different index per
   batch element the interpreted method returns the Katz back-off values of the table, element bi at its own
   position l[bi], on the sos-padded history of that element *)
Theorem c06_source_vector_lookup_is_katz : forall b sh t hist B l,
  trie_okb b sh (tmap sh t) = true -> tab_okb (vocab sh) (sos sh) t = true ->
  TieSafe.safe_okb b sh = true -> 1 <= vocab sh -> hist_ok sh hist B ->
  length l = B -> (2 <= B)%nat -> Forall (fun i => (i <= length hist)%nat) l ->
  exists st, Interp.run SrcRun.ext06 C06Src.calc_idx_body (SrcRun.method_vars b sh hist B (Vec (map Z.of_nat l)))
             = Interp.Ok (Syntax.VTuple
                            [SrcRun.enc6 (SrcRun.rows_tensor B (Z.to_nat (vocab sh))
                                            (spec_at t (order sh) (vocab sh) (sos sh) hist B l));
                             Syntax.VDict []]) st.
Proof.
  intros b sh t hist B l Ht Htab Hs HV Hh HlB HB Hil.
  destruct (c06_source_vector_lookup_is_model b sh hist B l Hs HV Hh HlB HB Hil) as [[Hm _] [[st R] _]]. exists st. rewrite R.
  rewrite (c06_per_element_index_is_katz b sh t hist B l Ht Htab Hh HlB HB Hil) in Hm. injection Hm as <-. reflexivity.
Qed.
Print Assumptions c06_source_vector_lookup_is_katz.

(* (6) ALL POSITIONS: for all buffers the validator accepts, all histories (T = 0 included): (a) for every chunk
   size >= 1, interpreting the whole body of `calc_full_log_probs_chunked` - the preamble, one interpreted
   `calc_idx_log_probs(hist[:idx_], prev, idx_)` per position below min(T, N-1), one per chunk on the `as_strided`
   windows, `view(T_rest, B, V)`, `torch.cat`, the assertion - returns the (T+1, B, V) tensor of exactly the
   matrices Model.chunked computes (= all_rows: per position the rows of the scalar-index lookup); (b)
   `calc_full_log_probs` (what __call__ runs without an index; chunk size 1) returns the same tensor = Model.forward *)
Theorem c06_source_chunked_is_model : forall b sh hist B,
  TieSafe.safe_okb b sh = true -> 1 <= vocab sh -> hist_ok sh hist B ->
  let mats := map (all_rows b sh hist B) (seq 0 (S (length hist))) in
  let res := SrcRun.enc6 (SrcRunB.mats_tensor (length hist + 1) B (Z.to_nat (vocab sh)) mats) in
  (forall chunk, (1 <= chunk)%nat ->
     chunked b sh hist B chunk = Some mats /\
     exists st, Interp.run SrcRunB.ext06B C06BSrc.chunked_body (SrcRunB.chunked_vars b sh hist B (Z.of_nat chunk))
                = Interp.Ok res st) /\
  (forward b sh hist B None = Some (Full mats) /\
   exists st, Interp.run SrcRunB.ext06B_full C06BSrc.full_body (SrcRunB.full_vars b sh hist B) = Interp.Ok res st).
Proof.
  intros b sh hist B Hs HV Hh. cbv zeta. split.
  - intros chunk Hc. exact (TieB.source_chunked_is_model b sh hist B Hs HV Hh chunk Hc).
  - exact (TieB.source_full_is_model b sh hist B Hs HV Hh).
Qed.
Print Assumptions c06_source_chunked_is_model.

(* chunk-size independence, purely about the interpreted source: any two chunk sizes >= 1 return the same value;
   a chunk size below 1 (any integer, ANY buffers, any history) raises RuntimeError, as Model.chunked's None *)
Theorem c06_source_chunk_size_independent : forall b sh hist B,
  (TieSafe.safe_okb b sh = true -> 1 <= vocab sh -> hist_ok sh hist B ->
   forall c1 c2, (1 <= c1)%nat -> (1 <= c2)%nat ->
   exists v st1 st2,
     Interp.run SrcRunB.ext06B C06BSrc.chunked_body (SrcRunB.chunked_vars b sh hist B (Z.of_nat c1)) = Interp.Ok v st1 /\
     Interp.run SrcRunB.ext06B C06BSrc.chunked_body (SrcRunB.chunked_vars b sh hist B (Z.of_nat c2)) = Interp.Ok v st2) /\
  (forall z, z < 1 ->
   exists st, Interp.run SrcRunB.ext06B C06BSrc.chunked_body (SrcRunB.chunked_vars b sh hist B z)
              = Interp.Exc TieB.runtime_error st).      (* = "RuntimeError" *)
Proof.
  intros b sh hist B. split.
  - intros Hs HV Hh c1 c2 H1 H2.
    destruct (TieB.source_chunked_is_model b sh hist B Hs HV Hh c1 H1) as [_ [st1 R1]].
    destruct (TieB.source_chunked_is_model b sh hist B Hs HV Hh c2 H2) as [_ [st2 R2]].
    eexists. exists st1, st2. split; [exact R1|exact R2].
  - intros z Hz. exact (TieB.source_chunked_raises b sh hist B z Hz).
Qed.
Print Assumptions c06_source_chunk_size_independent.

(* "the same numbers come out whether all positions are computed at once, in chunks of any size, or one index at
   a time", about the interpreted sources: for every position t <= T, slice t of the tensor the interpreted chunked
   method returns IS the tensor the interpreted `calc_idx_log_probs` returns for the scalar index t *)
Theorem c06_source_chunked_rows_are_lookups : forall b sh hist B,
  TieSafe.safe_okb b sh = true -> 1 <= vocab sh -> hist_ok sh hist B -> forall t, (t <= length hist)%nat ->
  OpsC06.select0 (SrcRunB.mats_tensor (length hist + 1) B (Z.to_nat (vocab sh))
                    (map (all_rows b sh hist B) (seq 0 (S (length hist))))) (Z.of_nat t)
  = Some (SrcRun.rows_tensor B (Z.to_nat (vocab sh)) (batch_rows b sh hist B (repeat t B))) /\
  exists st, Interp.run SrcRun.ext06 C06Src.calc_idx_body (SrcRun.method_vars b sh hist B (Scalar (Z.of_nat t)))
             = Interp.Ok (Syntax.VTuple
                            [SrcRun.enc6 (SrcRun.rows_tensor B (Z.to_nat (vocab sh)) (batch_rows b sh hist B (repeat t B)));
                             Syntax.VDict []]) st.
Proof. exact TieB.source_chunked_rows_are_lookups. Qed.
Print Assumptions c06_source_chunked_rows_are_lookups.

(* (7) COMPOSED with c06_full_is_katz_any_chunk / c06_call_full_is_katz, purely about the interpreted source: on
   buffers that pass both validators, the chunked method (every chunk size >= 1) and calc_full_log_probs return
   the tensor of the Katz back-off values of the table at EVERY position of the sos-padded histories *)
Theorem c06_source_chunked_is_katz : forall b sh t hist B,
  trie_okb b sh (tmap sh t) = true -> tab_okb (vocab sh) (sos sh) t = true ->
  TieSafe.safe_okb b sh = true -> 1 <= vocab sh -> hist_ok sh hist B ->
  let res := SrcRun.enc6 (SrcRunB.mats_tensor (length hist + 1) B (Z.to_nat (vocab sh))
                            (spec_full t (order sh) (vocab sh) (sos sh) hist B)) in
  (forall chunk, (1 <= chunk)%nat ->
     exists st, Interp.run SrcRunB.ext06B C06BSrc.chunked_body (SrcRunB.chunked_vars b sh hist B (Z.of_nat chunk))
                = Interp.Ok res st) /\
  (exists st, Interp.run SrcRunB.ext06B_full C06BSrc.full_body (SrcRunB.full_vars b sh hist B) = Interp.Ok res st).
Proof.
  intros b sh t hist B Ht Htab Hs HV Hh. cbv zeta.
  destruct (c06_source_chunked_is_model b sh hist B Hs HV Hh) as [Hc [Hf Rf]]. cbv zeta in Hc, Hf, Rf.
  assert (E : map (all_rows b sh hist B) (seq 0 (S (length hist))) = spec_full t (order sh) (vocab sh) (sos sh) hist B)
    by (rewrite (c06_call_full_is_katz b sh t hist B Ht Htab Hh) in Hf; congruence).
  rewrite <- E. split; [|exact Rf]. intros chunk Hchunk. exact (proj2 (Hc chunk Hchunk)).
Qed.
Print Assumptions c06_source_chunked_is_katz.

(* the executables the harness runs (interpret, decode the returned tensor, compare) ARE the model's checks, for
   EVERY chunk size (0 included) and for the all-positions query *)
Theorem c06_source_chunked_check_is_check : forall b sh hist B,
  TieSafe.safe_okb b sh = true -> 1 <= vocab sh -> hist_ok sh hist B ->
  (forall chunk impl, SrcRunB.src_chunked_check b sh hist B chunk impl = omats_eqb (chunked b sh hist B chunk) impl) /\
  (forall impl, SrcRunB.src_full_check b sh hist B impl = out_eqb (forward b sh hist B None) impl).
Proof.
  intros b sh hist B Hs HV Hh. split.
  - intros chunk impl. exact (TieB.source_chunked_check_is_check b sh hist B chunk impl Hs HV Hh).
  - intros impl. exact (TieB.source_full_check_is_check b sh hist B impl Hs HV Hh).
Qed.
Print Assumptions c06_source_chunked_check_is_check.

(* on the example buffers of c06_nonvacuous the interpreted chunked method (chunk sizes 2 and 7), its RuntimeError
   for chunk size 0, the empty history and calc_full_log_probs answer as the model does *)
Example c06_source_B_nonvacuous :
  let h := [[0; 1]; [1; 2]; [1; 0]] in
  SrcRunB.src_chunked_check ex_bufs ex_sh h 2 2 (chunked ex_bufs ex_sh h 2 2) = true /\
  SrcRunB.src_chunked_check ex_bufs ex_sh h 2 7 (chunked ex_bufs ex_sh h 2 1) = true /\
  SrcRunB.src_chunked_check ex_bufs ex_sh h 2 0 None = true /\
  SrcRunB.src_chunked_check ex_bufs ex_sh [] 2 3 (chunked ex_bufs ex_sh [] 2 3) = true /\
  SrcRunB.src_full_check ex_bufs ex_sh h 2 (forward ex_bufs ex_sh h 2 None) = true /\
  option_map (@length _) (chunked ex_bufs ex_sh h 2 2) = Some 4%nat.
Proof. cbv zeta. repeat split; vm_compute; reflexivity. Qed.
