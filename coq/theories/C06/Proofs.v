(* C06 — lemmas: (A) value algebra, (B) child search under distinct ids, (C) soundness of the
   buffer validator, (D) the two-path descent computes the recursion, (E) renaming of the
   start symbol. *)
From Coq Require Import List ZArith Bool Arith Lia ZifyBool ZifyNat.
From PV Require Import C06.Model C06.Spec.
Import ListNotations.
Local Open Scope Z_scope.

(* ---------- (A) values ------------------------------------------------------------------ *)

Lemma vadd_comm a b : vadd a b = vadd b a.
Proof. destruct a, b; cbn; try reflexivity. f_equal; lia. Qed.

Lemma vadd_assoc a b c : vadd (vadd a b) c = vadd a (vadd b c).
Proof. destruct a, b, c; cbn; try reflexivity. f_equal; lia. Qed.

Lemma vadd_0_r a : vadd a (Fin 0) = a.
Proof. destruct a; cbn; try reflexivity. f_equal; lia. Qed.

Lemma val_eqb_eq a b : val_eqb a b = true -> a = b.
Proof. destruct a, b; cbn; intros H; try discriminate; try reflexivity. f_equal; lia. Qed.

Lemma val_eqb_refl a : val_eqb a a = true.
Proof. destruct a; cbn; try reflexivity. lia. Qed.

Lemma list_eqb_eq a : forall b, list_eqb a b = true <-> a = b.
Proof.
  induction a as [|x a IH]; intros [|y b]; cbn; split; intros H; try discriminate; try reflexivity.
  - apply andb_true_iff in H as [H1 H2]. apply IH in H2. f_equal; [lia|assumption].
  - injection H as -> ->. apply andb_true_iff; split; [lia|apply IH; reflexivity].
Qed.

Lemma vals_eqb_eq a : forall b, vals_eqb a b = true -> a = b.
Proof.
  induction a as [|x a IH]; intros [|y b]; cbn; intros H; try discriminate; try reflexivity.
  apply andb_true_iff in H as [H1 H2]. f_equal; [apply val_eqb_eq|apply IH]; assumption.
Qed.

Lemma rows_eqb_eq a : forall b, rows_eqb a b = true -> a = b.
Proof.
  induction a as [|x a IH]; intros [|y b]; cbn; intros H; try discriminate; try reflexivity.
  apply andb_true_iff in H as [H1 H2]. f_equal; [apply vals_eqb_eq|apply IH]; assumption.
Qed.

Lemma tfind_some t g x : tfind t g = Some x -> exists e, In e t /\ fst e = g /\ snd e = x.
Proof.
  induction t as [|e t IH]; cbn; [discriminate|].
  destruct (list_eqb (fst e) g) eqn:E.
  - intros [= <-]. exists e. apply list_eqb_eq in E. auto.
  - intros H. destruct (IH H) as (e' & Hin & Hk & Hv). exists e'. auto.
Qed.

(* ---------- (B) the child search when the candidate ids are pairwise distinct ------------ *)

Lemma nodupb_NoDup l : nodupb l = true -> NoDup l.
Proof.
  induction l as [|x l IH]; cbn; intros H; [constructor|].
  apply andb_true_iff in H as [H1 H2]. constructor; [|apply IH; assumption].
  intros Hin. apply negb_true_iff in H1.
  assert (existsb (Z.eqb x) l = true); [|congruence].
  apply existsb_exists. exists x. split; [assumption|lia].
Qed.

Lemma filter_unique (f : Z -> Z) (l : list Z) (t : Z) : NoDup (map f l) ->
  filter (fun x => f x =? t) l = [] \/
  exists p, filter (fun x => f x =? t) l = [p] /\ In p l /\ f p = t.
Proof.
  induction l as [|x l IH]; cbn [map filter]; intros Hnd; [left; reflexivity|].
  inversion Hnd as [|? ? Hnin Hnd']; subst.
  destruct (f x =? t) eqn:E.
  - right. exists x. split; [|split; [left; reflexivity|lia]].
    f_equal. destruct (IH Hnd') as [H0|(p & Hp & Hin & Hfp)]; [assumption|].
    exfalso. apply Hnin. apply in_map_iff. exists p. split; [lia|assumption].
  - destruct (IH Hnd') as [H0|(p & Hp & Hin & Hfp)]; [left; assumption|].
    right. exists p. split; [assumption|split; [right; assumption|assumption]].
Qed.

Lemma filter_unique_in (f : Z -> Z) (l : list Z) (p : Z) : NoDup (map f l) -> In p l ->
  filter (fun x => f x =? f p) l = [p].
Proof.
  intros Hnd Hin. destruct (filter_unique f l (f p) Hnd) as [H0|(q & Hq & Hinq & Hfq)].
  - exfalso. assert (Hp : In p (filter (fun x => f x =? f p) l)).
    { apply filter_In. split; [assumption|lia]. }
    rewrite H0 in Hp. destruct Hp.
  - rewrite Hq. f_equal.
    assert (Hp : In p (filter (fun x => f x =? f p) l)).
    { apply filter_In. split; [assumption|lia]. }
    rewrite Hq in Hp. destruct Hp as [->|[]]. reflexivity.
Qed.

Lemma ext_false b sh d tok : ext b sh (d, false) tok = (d, false).
Proof. unfold ext. cbn [fst snd]. rewrite andb_false_r. reflexivity. Qed.

Lemma ext_true_inv b sh st tok j : ext b sh st tok = (j, true) -> snd st = true.
Proof.
  unfold ext. intros H. injection H as _ H. apply andb_true_iff in H. tauto.
Qed.

Lemma ext_found b sh d tok j : NoDup (map (idat b sh) (cands b sh d)) ->
  ext b sh (d, true) tok = (j, true) -> In j (cands b sh d) /\ idat b sh j = tok.
Proof.
  intros Hnd. unfold ext. cbn [fst snd].
  destruct (filter_unique (idat b sh) (cands b sh d) tok Hnd) as [H0|(p & Hp & Hin & Hfp)].
  - rewrite H0. cbn. discriminate.
  - rewrite Hp. cbn. intros [= <-].
    replace (p + 0) with p by lia. split; assumption.
Qed.

Lemma ext_in b sh d pos : NoDup (map (idat b sh) (cands b sh d)) -> In pos (cands b sh d) ->
  ext b sh (d, true) (idat b sh pos) = (pos, true).
Proof.
  intros Hnd Hin. unfold ext. cbn [fst snd].
  rewrite (filter_unique_in (idat b sh) _ pos Hnd Hin). cbn. f_equal. lia.
Qed.

Lemma node_at_snoc b sh x rest tok :
  node_at b sh x (rest ++ [tok]) =
  match node_at b sh x rest with
  | Some j => let st := ext b sh (j, true) tok in if snd st then Some (fst st) else None
  | None => None
  end.
Proof.
  unfold node_at. rewrite fold_left_app. cbn [fold_left].
  destruct (fold_left (ext b sh) rest (x, true)) as [d f]. cbn [fst snd].
  destruct f; [reflexivity|]. rewrite ext_false. reflexivity.
Qed.

(* ---------- (C) the validator is sound ----------------------------------------------------- *)

Section Sound.
  Variables (b : bufs) (sh : shape) (t : tab).
  Hypothesis Hchk : forall d nd, (d < order sh)%nat -> In nd (level b sh d) ->
                                 node_check b sh t d nd = true.

  Lemma check_nodup d nd : (d < order sh - 1)%nat -> In nd (level b sh d) ->
    NoDup (map (idat b sh) (cands b sh (snd nd))).
  Proof.
    intros Hd Hin. assert (Hc := Hchk d nd ltac:(lia) Hin). unfold node_check in Hc.
    assert (E : Nat.ltb d (order sh - 1) = true) by (apply Nat.ltb_lt; assumption).
    rewrite E in Hc. apply nodupb_NoDup.
    destruct (nodupb (map (idat b sh) (cands b sh (snd nd)))); [reflexivity|].
    rewrite andb_false_l, andb_false_r, andb_false_l in Hc. discriminate.
  Qed.

  Lemma level_node_at : forall d rk j, (d < order sh)%nat -> In (rk, j) (level b sh d) ->
    exists x rest, rk = x :: rest /\ 0 <= x < nroots sh /\ length rest = d /\
                   node_at b sh x rest = Some j.
  Proof.
    induction d as [|d IH]; intros rk j Hd Hin.
    - cbn [level] in Hin. apply in_map_iff in Hin as (x & [= <- <-] & Hx).
      unfold zrange in Hx. apply in_map_iff in Hx as (k & <- & Hk). apply in_seq in Hk.
      exists (Z.of_nat k), []. repeat split; try lia.
    - cbn [level] in Hin. apply in_flat_map in Hin as ([rk0 j0] & Hin0 & Hkid).
      unfold kids in Hkid. cbn [fst snd] in Hkid.
      apply in_map_iff in Hkid as (pos & [= <- <-] & Hpos).
      destruct (IH rk0 j0 ltac:(lia) Hin0) as (x & rest & -> & Hx & Hlen & Hnode).
      exists x, (rest ++ [idat b sh pos]). split; [reflexivity|]. split; [assumption|].
      split; [rewrite app_length; cbn; lia|].
      rewrite node_at_snoc, Hnode.
      assert (Hnd := check_nodup d (x :: rest, j0) ltac:(lia) Hin0). cbn [snd] in Hnd.
      rewrite (ext_in b sh j0 pos Hnd Hpos). reflexivity.
  Qed.

  Lemma node_at_level : forall rest x j, 0 <= x < nroots sh -> (length rest < order sh)%nat ->
    node_at b sh x rest = Some j -> In (x :: rest, j) (level b sh (length rest)).
  Proof.
    induction rest as [|tok rest IH] using rev_ind; intros x j Hx Hlen Hnode.
    - unfold node_at in Hnode. cbn in Hnode. injection Hnode as <-. cbn [length level].
      apply in_map_iff. exists x. split; [reflexivity|].
      unfold zrange. apply in_map_iff. exists (Z.to_nat x). split; [lia|]. apply in_seq. lia.
    - rewrite app_length in Hlen |- *. cbn [length] in Hlen |- *.
      replace (length rest + 1)%nat with (S (length rest)) by lia. cbn [level].
      rewrite node_at_snoc in Hnode.
      destruct (node_at b sh x rest) as [j0|] eqn:E0; [|discriminate].
      specialize (IH x j0 Hx ltac:(lia) E0).
      assert (Hnd := check_nodup (length rest) (x :: rest, j0) ltac:(lia) IH). cbn [snd] in Hnd.
      destruct (ext b sh (j0, true) tok) as [j' f] eqn:Eext. cbn [fst snd] in Hnode.
      destruct f; [|discriminate]. injection Hnode as ->.
      destruct (ext_found b sh j0 tok j Hnd Eext) as [Hin Hid].
      apply in_flat_map. exists (x :: rest, j0). split; [assumption|].
      unfold kids. cbn [fst snd]. apply in_map_iff. exists j. rewrite Hid. auto.
  Qed.
End Sound.

Lemma trie_okb_sound b sh t : trie_okb b sh t = true -> TrieOK b sh t.
Proof.
  unfold trie_okb. intros H.
  apply andb_true_iff in H as [H Hcov]. apply andb_true_iff in H as [H Hlv].
  apply andb_true_iff in H as [H Hroots]. apply Z.leb_le in Hroots.
  apply andb_true_iff in H as [Hlens Hord]. apply Nat.leb_le in Hord.
  assert (Hchk : forall d nd, (d < order sh)%nat -> In nd (level b sh d) ->
                              node_check b sh t d nd = true).
  { intros d nd Hd Hin. rewrite forallb_forall in Hlv.
    specialize (Hlv d ltac:(apply in_seq; lia)). rewrite forallb_forall in Hlv. auto. }
  split; [assumption|]. split; [assumption|]. split; [assumption|].
  intros x rest Hx Hlen. unfold node_ok.
  destruct (tfind t (rev (x :: rest))) as [[p bo]|] eqn:Ef.
  - destruct (tfind_some _ _ _ Ef) as (e & Hine & Hk & Hv).
    rewrite forallb_forall in Hcov. specialize (Hcov e Hine).
    apply existsb_exists in Hcov as ([rk j] & Hnd & Heq). cbn [fst] in Heq.
    apply list_eqb_eq in Heq.
    pose proof (f_equal (@rev Z) Hk) as Hk'. rewrite rev_involutive in Hk'.
    assert (Hrk : rk = x :: rest) by (etransitivity; [exact Heq|exact Hk']). clear Heq. subst rk.
    unfold all_nodes in Hnd. apply in_flat_map in Hnd as (d & Hd & Hnd). apply in_seq in Hd.
    destruct (level_node_at b sh t Hchk d _ _ ltac:(lia) Hnd) as (x' & rest' & Hxr & _ & Hl & Hnode).
    injection Hxr as <- <-.
    exists j. split; [assumption|].
    assert (Hc := Hchk d _ ltac:(lia) Hnd). unfold node_check in Hc. cbn [fst snd] in Hc.
    rewrite Ef in Hc.
    apply andb_true_iff in Hc as [Hc Hval]. apply andb_true_iff in Hc as [Hj Hstr].
    apply andb_true_iff in Hval as [Hp Hb]. split; [apply val_eqb_eq; assumption|].
    intros Hinner. assert (E : Nat.ltb d (order sh - 1) = true) by (apply Nat.ltb_lt; lia).
    rewrite E in Hb, Hstr. split; [apply val_eqb_eq; assumption|].
    apply andb_true_iff in Hstr as [_ Hlt]. lia.
  - intros j Hnode.
    assert (Hnd := node_at_level b sh t Hchk rest x j Hx Hlen Hnode).
    assert (Hc := Hchk _ _ Hlen Hnd). unfold node_check in Hc. cbn [fst snd] in Hc.
    rewrite Ef in Hc.
    apply andb_true_iff in Hc as [Hc Hval]. apply andb_true_iff in Hc as [Hj Hstr].
    apply andb_true_iff in Hval as [Hp Hb]. split; [apply val_eqb_eq; assumption|].
    intros Hinner.
    assert (E : Nat.ltb (length rest) (order sh - 1) = true) by (apply Nat.ltb_lt; lia).
    rewrite E in Hb, Hstr. split; [apply val_eqb_eq; assumption|].
    apply andb_true_iff in Hstr as [_ Hlt]. lia.
Qed.

(* ---------- (D) the two-path descent computes the recursion ------------------------------- *)

Lemma node_at_fold b sh x rest :
  node_at b sh x rest =
  (if snd (fold_left (ext b sh) rest (x, true))
   then Some (fst (fold_left (ext b sh) rest (x, true))) else None).
Proof. reflexivity. Qed.

Section Descent.
  Variables (b : bufs) (sh : shape) (t : tab).
  Hypothesis Hok : TrieOK b sh t.

  (* what the n path reads at the node of  rev (v :: rest) *)
  Lemma npath_value v rest st : 0 <= v < nroots sh -> (length rest < order sh)%nat ->
    st = fold_left (ext b sh) rest (v, true) ->
    match tfind t (rev (v :: rest)) with
    | Some (Fin p, _) =>
        vfinite (zget (logps b) (fst st) NaN) && snd st = true /\
        zget (logps b) (fst st) NaN = Fin p
    | _ => vfinite (zget (logps b) (fst st) NaN) && snd st = false
    end.
  Proof.
    intros Hv Hlen ->. destruct Hok as (_ & _ & _ & Hnodes).
    specialize (Hnodes v rest Hv Hlen). unfold node_ok in Hnodes. rewrite node_at_fold in Hnodes.
    destruct (fold_left (ext b sh) rest (v, true)) as [d f]. cbn [fst snd] in *.
    destruct (tfind t (rev (v :: rest))) as [[p bo]|].
    - destruct Hnodes as (j & Hj & Hp & _). destruct f; [|discriminate]. injection Hj as ->.
      rewrite Hp. destruct p; cbn; auto.
    - destruct f; [|apply andb_false_r].
      destruct (Hnodes d eq_refl) as [Hp _]. rewrite Hp. reflexivity.
  Qed.

  (* what the p path reads at the node of the context  rev (x :: rest) *)
  Lemma ppath_value x rest st : 0 <= x < nroots sh -> (length rest < order sh - 1)%nat ->
    st = fold_left (ext b sh) rest (x, true) ->
    (if snd st then zget (logbs b) (Z.min (fst st) (osize b - 1)) NaN else Fin 0) =
    backoff t (rev (x :: rest)).
  Proof.
    intros Hx Hlen ->. destruct Hok as (_ & _ & _ & Hnodes).
    specialize (Hnodes x rest Hx ltac:(lia)). unfold node_ok in Hnodes.
    rewrite node_at_fold in Hnodes. unfold backoff.
    destruct (fold_left (ext b sh) rest (x, true)) as [d f]. cbn [fst snd] in *.
    destruct (tfind t (rev (x :: rest))) as [[p bo]|].
    - destruct Hnodes as (j & Hj & _ & Hb). destruct f; [|discriminate]. injection Hj as ->.
      destruct (Hb Hlen) as [Hb1 Hb2]. rewrite Z.min_l by lia. assumption.
    - destruct f; [|reflexivity].
      destruct (Hnodes d eq_refl) as [_ Hb]. destruct (Hb Hlen) as [Hb1 Hb2].
      rewrite Z.min_l by lia. assumption.
  Qed.

  Lemma descend_katz v h1 hidx : 0 <= v < vocab sh -> 0 <= h1 < nroots sh ->
    forall r pre s n,
      r <> [] ->
      hd 0 (pre ++ r) = h1 ->
      (length pre + length r = order sh - 1)%nat ->
      Z.of_nat (length pre + length r) <= hidx ->
      n = Z.of_nat (length pre) + 1 ->
      dn s = fold_left (ext b sh) pre (v, true) ->
      dp s = fold_left (ext b sh) (tl (pre ++ [hd 0 r])) (h1, true) ->
      vadd (lastp s) (lastb s) = vadd (katz t (rev pre) v) (backoff t (rev (pre ++ [hd 0 r]))) ->
      lastp (descend b sh hidx n r s) = katz t (rev (pre ++ r)) v.
  Proof.
    intros Hv Hh1.
    assert (Hv' : 0 <= v < nroots sh).
    { unfold nroots, shiftz. destruct (shiftb _ _); lia. }
    induction r as [|tn r' IH]; intros pre s n Hne Hhd Hlen Hidx Hn Hdn Hdp Hval; [congruence|].
    cbn [descend]. cbn [hd] in Hdp, Hval.
    (* facts about this iteration, common to both cases *)
    assert (Hkatz : katz t (rev (pre ++ [tn])) v =
                    match tfind t (rev (v :: pre ++ [tn])) with
                    | Some (Fin p, _) => Fin p
                    | _ => vadd (backoff t (rev (pre ++ [tn]))) (katz t (rev pre) v)
                    end).
    { rewrite rev_app_distr. cbn [rev app]. cbn [katz].
      replace ((tn :: rev pre) ++ [v]) with (rev (v :: pre ++ [tn]))
        by (cbn [rev]; rewrite rev_app_distr; reflexivity).
      reflexivity. }
    assert (Hnv := npath_value v (pre ++ [tn]) (ext b sh (dn s) tn) Hv'
                     ltac:(rewrite app_length; cbn [length] in *; lia)
                     ltac:(rewrite fold_left_app, <- Hdn; reflexivity)).
    assert (Hle : (n <=? hidx) = true) by (cbn [length] in Hidx; lia).
    set (c := vfinite (zget (logps b) (fst (ext b sh (dn s) tn)) NaN) && snd (ext b sh (dn s) tn)) in *.
    destruct r' as [|tp r''].
    - (* last iteration *)
      cbn [descend]. unfold step. cbn [lastp]. rewrite Hle. fold c.
      rewrite Hkatz.
      (* a finite listed probability ends the recursion; in every other case it backs off *)
      destruct (tfind t (rev (v :: pre ++ [tn]))) as [[[p| |] bo]|]; [destruct Hnv as [-> ->]; reflexivity|..].
      all: rewrite Hnv, vadd_0_r, Hval; apply vadd_comm.
    - (* an inner iteration *)
      cbn [hd] in IH.
      assert (Htl : tl (pre ++ [tn; tp]) = tl (pre ++ [tn]) ++ [tp]).
      { destruct pre; cbn [app tl]; [reflexivity|rewrite <- app_assoc; reflexivity]. }
      assert (Hh : h1 :: tl (pre ++ [tn; tp]) = pre ++ [tn; tp]).
      { destruct pre; cbn in Hhd |- *; rewrite Hhd; reflexivity. }
      assert (Hcb := ppath_value h1 (tl (pre ++ [tn; tp])) (ext b sh (dp s) tp) Hh1
                       ltac:(rewrite Htl, app_length; destruct pre; cbn [length tl app] in *;
                             rewrite ?app_length; cbn [length]; lia)
                       ltac:(rewrite Htl, fold_left_app, <- Hdp; reflexivity)).
      rewrite Hh in Hcb.
      replace (pre ++ tn :: tp :: r'') with ((pre ++ [tn]) ++ tp :: r'')
        by (rewrite <- app_assoc; reflexivity).
      apply IH.
      + discriminate.
      + rewrite <- app_assoc. exact Hhd.
      + rewrite app_length. cbn [length] in *. lia.
      + rewrite app_length. cbn [length] in *. lia.
      + rewrite app_length. cbn [length]. lia.
      + unfold step. cbn [dn]. rewrite fold_left_app, <- Hdn. reflexivity.
      + unfold step. cbn [dp hd].
        replace ((pre ++ [tn]) ++ [tp]) with (pre ++ [tn; tp]) by (rewrite <- app_assoc; reflexivity).
        rewrite Htl, fold_left_app, <- Hdp. reflexivity.
      + unfold step. cbn [lastp lastb hd]. rewrite Hle. fold c.
        replace ((pre ++ [tn]) ++ [tp]) with (pre ++ [tn; tp]) by (rewrite <- app_assoc; reflexivity).
        rewrite Hcb, Hkatz.
        destruct (tfind t (rev (v :: pre ++ [tn]))) as [[[p| |] bo]|]; [destruct Hnv as [-> ->]; reflexivity|..].
        all: rewrite Hnv, vadd_0_r, (vadd_comm (backoff t (rev (pre ++ [tn])))), <- Hval, !vadd_assoc; f_equal; apply vadd_comm.
  Qed.
End Descent.

Lemma lookup1_trie b sh t w v hidx : TrieOK b sh t ->
  (length w = order sh - 1)%nat -> (1 <= length w)%nat ->
  0 <= last w 0 < nroots sh -> 0 <= v < vocab sh -> Z.of_nat (length w) <= hidx ->
  lookup1 b sh hidx w v = katz t w v.
Proof.
  intros Hok Hlen Hpos Hlast Hv Hidx. unfold lookup1.
  assert (Hhd : hd 0 (rev w) = last w 0).
  { clear. induction w as [|x w IH] using rev_ind; [reflexivity|].
    rewrite rev_app_distr, last_last. reflexivity. }
  rewrite Hhd. set (h1 := last w 0) in *.
  assert (Hv' : 0 <= v < nroots sh).
  { unfold nroots, shiftz. destruct (shiftb _ _); lia. }
  replace (katz t w v) with (katz t (rev ([] ++ rev w)) v)
    by (cbn [app]; rewrite rev_involutive; reflexivity).
  destruct Hok as (Hl & Ho & Hr & Hnodes).
  apply (descend_katz b sh t (conj Hl (conj Ho (conj Hr Hnodes))) v h1 hidx Hv Hlast (rev w) [] _ 1).
  - intros E. apply (f_equal (@length Z)) in E. rewrite rev_length in E. cbn in E. lia.
  - exact Hhd.
  - rewrite rev_length. cbn [length]. lia.
  - rewrite rev_length. cbn [length]. lia.
  - reflexivity.
  - reflexivity.
  - reflexivity.
  - cbn [lastp lastb app rev]. rewrite Hhd. fold h1. cbn [katz].
    f_equal.
    + specialize (Hnodes v [] Hv' ltac:(cbn; lia)). unfold node_ok in Hnodes.
      cbn [rev app] in Hnodes. unfold node_at in Hnodes. cbn [fold_left fst snd] in Hnodes.
      destruct (tfind t [v]) as [[p bo]|].
      * destruct Hnodes as (j & [= <-] & Hp & _). assumption.
      * apply (Hnodes v eq_refl).
    + specialize (Hnodes h1 [] Hlast ltac:(cbn; lia)). unfold node_ok in Hnodes.
      cbn [rev app] in Hnodes. unfold node_at in Hnodes. cbn [fold_left fst snd length] in Hnodes.
      unfold backoff. destruct (tfind t [h1]) as [[p bo]|].
      * destruct Hnodes as (j & [= <-] & _ & Hb). apply Hb. lia.
      * apply (Hnodes h1 eq_refl). lia.
Qed.

(* ---------- (E) renaming the out-of-vocabulary start symbol ---------------------------------- *)

Definition tok_ok (V s x : Z) : Prop := 0 <= x < V \/ x = s.

Lemma tok_okb_ok V s x : tok_okb V s x = true <-> tok_ok V s x.
Proof. unfold tok_okb, tok_ok. lia. Qed.

Definition rename (sh : shape) (x : Z) : Z := if x =? sos sh then vocab sh else x.

Lemma mapwin_unfold sh w :
  mapwin sh w = if shiftb (vocab sh) (sos sh) then map (rename sh) w else w.
Proof. reflexivity. Qed.

Lemma rename_inj sh x y : shiftb (vocab sh) (sos sh) = true ->
  tok_ok (vocab sh) (sos sh) x -> tok_ok (vocab sh) (sos sh) y ->
  rename sh x = rename sh y -> x = y.
Proof.
  unfold shiftb, tok_ok, rename. intros Hs Hx Hy.
  destruct (x =? sos sh) eqn:Ex, (y =? sos sh) eqn:Ey; lia.
Qed.

Lemma mapwin_eqb sh k : forall g,
  Forall (tok_ok (vocab sh) (sos sh)) k -> Forall (tok_ok (vocab sh) (sos sh)) g ->
  list_eqb (mapwin sh k) (mapwin sh g) = list_eqb k g.
Proof.
  rewrite mapwin_unfold. destruct (shiftb (vocab sh) (sos sh)) eqn:Es.
  2:{ intros g _ _. rewrite mapwin_unfold, Es. reflexivity. }
  induction k as [|x k IH]; intros [|y g] Hk Hg; rewrite mapwin_unfold, Es; cbn [map list_eqb];
    try reflexivity.
  inversion Hk; inversion Hg; subst.
  specialize (IH g ltac:(assumption) ltac:(assumption)). rewrite mapwin_unfold, Es in IH. rewrite IH.
  f_equal. destruct (x =? y) eqn:E.
  - assert (x = y) by lia. subst. lia.
  - destruct (rename sh x =? rename sh y) eqn:E2; [|reflexivity].
    assert (x = y); [|lia]. apply (rename_inj sh); try assumption. lia.
Qed.

Definition tab_ok (V s : Z) (t : tab) : Prop := Forall (fun e => Forall (tok_ok V s) (fst e)) t.

Lemma toks_okb_ok V s l : toks_okb V s l = true -> Forall (tok_ok V s) l.
Proof.
  unfold toks_okb. rewrite forallb_forall, Forall_forall. intros H x Hx.
  apply tok_okb_ok, H, Hx.
Qed.

Lemma tab_okb_ok V s t : tab_okb V s t = true -> tab_ok V s t.
Proof.
  unfold tab_okb, tab_ok. rewrite forallb_forall, Forall_forall. intros H e He.
  apply toks_okb_ok, H, He.
Qed.

Lemma tfind_tmap sh t g : tab_ok (vocab sh) (sos sh) t -> Forall (tok_ok (vocab sh) (sos sh)) g ->
  tfind (tmap sh t) (mapwin sh g) = tfind t g.
Proof.
  intros Ht Hg. induction t as [|e t IH]; [reflexivity|].
  inversion Ht; subst. cbn [tmap map tfind fst snd].
  rewrite mapwin_eqb by assumption. fold (tmap sh t). rewrite IH by assumption. reflexivity.
Qed.

Lemma mapwin_app sh a c : mapwin sh (a ++ c) = mapwin sh a ++ mapwin sh c.
Proof. rewrite !mapwin_unfold. destruct (shiftb _ _); [apply map_app|reflexivity]. Qed.

Lemma mapwin_vocab sh v : 0 <= v < vocab sh -> mapwin sh [v] = [v].
Proof.
  intros Hv. rewrite mapwin_unfold. destruct (shiftb (vocab sh) (sos sh)) eqn:Es; [|reflexivity].
  cbn [map]. unfold rename. unfold shiftb in Es. f_equal.
  destruct (v =? sos sh) eqn:E; lia.
Qed.

Lemma mapwin_cons sh x l : mapwin sh (x :: l) = mapwin sh [x] ++ mapwin sh l.
Proof. apply (mapwin_app sh [x] l). Qed.

Lemma katz_tmap sh t ctx v : tab_ok (vocab sh) (sos sh) t ->
  Forall (tok_ok (vocab sh) (sos sh)) ctx -> 0 <= v < vocab sh ->
  katz (tmap sh t) (mapwin sh ctx) v = katz t ctx v.
Proof.
  intros Ht Hctx Hv.
  assert (Hvok : Forall (tok_ok (vocab sh) (sos sh)) [v]) by (constructor; [left; assumption|constructor]).
  induction ctx as [|x ctx IH].
  - replace (mapwin sh []) with (@nil Z) by (rewrite mapwin_unfold; destruct (shiftb _ _); reflexivity).
    cbn [katz]. rewrite <- (mapwin_vocab sh v Hv) at 1. rewrite tfind_tmap by assumption. reflexivity.
  - inversion Hctx; subst.
    assert (Hx : exists y l, mapwin sh (x :: ctx) = y :: l /\ l = mapwin sh ctx).
    { rewrite !mapwin_unfold. destruct (shiftb _ _); cbn [map]; eauto. }
    destruct Hx as (y & l & Hyl & ->).
    assert (Hk : katz (tmap sh t) (mapwin sh (x :: ctx)) v =
                 match tfind (tmap sh t) (mapwin sh (x :: ctx) ++ [v]) with
                 | Some (Fin p, _) => Fin p
                 | _ => vadd (backoff (tmap sh t) (mapwin sh (x :: ctx)))
                             (katz (tmap sh t) (mapwin sh ctx) v)
                 end).
    { rewrite Hyl. reflexivity. }
    rewrite Hk. rewrite <- (mapwin_vocab sh v Hv) at 1. rewrite <- mapwin_app.
    rewrite tfind_tmap by (try assumption; apply Forall_app; split; assumption).
    unfold backoff. rewrite tfind_tmap by assumption. rewrite IH by assumption. reflexivity.
Qed.

(* ---------- (F) the batch layer: every element is treated on its own ------------------------- *)

(* the padded index only matters through "hidx >= n", which always holds *)
Lemma descend_hidx b sh h h' : forall r n s,
  n + Z.of_nat (length r) - 1 <= h -> n + Z.of_nat (length r) - 1 <= h' ->
  descend b sh h n r s = descend b sh h' n r s.
Proof.
  induction r as [|tn r IH]; intros n s Hh Hh'; [reflexivity|].
  cbn [descend length] in *.
  assert (E : forall tp il, step b sh h n tn tp il s = step b sh h' n tn tp il s).
  { intros. unfold step. replace (n <=? h) with true by lia. replace (n <=? h') with true by lia.
    reflexivity. }
  rewrite E. apply IH; lia.
Qed.

Lemma lookup1_hidx b sh h h' w v : Z.of_nat (length w) <= h -> Z.of_nat (length w) <= h' ->
  lookup1 b sh h w v = lookup1 b sh h' w v.
Proof.
  intros Hh Hh'. unfold lookup1. f_equal. apply descend_hidx; rewrite rev_length; lia.
Qed.

(* the canonical per-element computation: position i of one column *)
Definition elem_row (b : bufs) (sh : shape) (col : list Z) (i : nat) : list val :=
  if Nat.eqb (order sh) 1 then firstn (Z.to_nat (vocab sh)) (logps b)
  else map (lookup1 b sh (Z.of_nat (order sh) - 1)
                    (mapwin sh (context (order sh) (sos sh) (firstn i col))))
           (zrange (vocab sh)).

Definition batch_rows (b : bufs) (sh : shape) (hist : list (list Z)) (B : nat) (idxs : list nat)
  : list (list val) :=
  map (fun p => elem_row b sh (column hist (fst p)) (snd p)) (combine (seq 0 B) idxs).

Lemma column_firstn rows bi n : column (firstn n rows) bi = firstn n (column rows bi).
Proof. unfold column. symmetry. apply firstn_map. Qed.

Lemma column_skipn rows bi n : column (skipn n rows) bi = skipn n (column rows bi).
Proof. unfold column. symmetry. apply skipn_map. Qed.

Lemma column_app r1 r2 bi : column (r1 ++ r2) bi = column r1 bi ++ column r2 bi.
Proof. unfold column. apply map_app. Qed.

Lemma column_length rows bi : length (column rows bi) = length rows.
Proof. unfold column. apply map_length. Qed.

Lemma nth_repeat_lt (s : Z) B bi : (bi < B)%nat -> nth bi (repeat s B) 0 = s.
Proof.
  revert bi. induction B as [|B IH]; intros bi H; [lia|]. destruct bi; [reflexivity|].
  cbn. apply IH. lia.
Qed.

Lemma firstn_app_len {A} (l1 l2 : list A) k n : length l1 = k ->
  firstn (k + n) (l1 ++ l2) = l1 ++ firstn n l2.
Proof. intros <-. apply firstn_app_2. Qed.

Lemma column_repeat s B k bi : (bi < B)%nat -> column (repeat (repeat s B) k) bi = repeat s k.
Proof.
  intros Hbi. unfold column. induction k as [|k IH]; [reflexivity|]. cbn [repeat map]. rewrite IH.
  f_equal. apply nth_repeat_lt. assumption.
Qed.

Lemma context_short N s (c : list Z) : (length c <= N - 1)%nat ->
  context N s c = repeat s (N - 1 - length c) ++ c.
Proof.
  intros H. unfold context, lastn. rewrite app_length, repeat_length.
  replace (N - 1 + length c - (N - 1))%nat with (length c) by lia.
  replace (N - 1)%nat with (length c + (N - 1 - length c))%nat at 1 by lia.
  rewrite repeat_app, <- app_assoc, skipn_app, repeat_length, Nat.sub_diag.
  rewrite skipn_all2 by (rewrite repeat_length; lia). reflexivity.
Qed.

Lemma context_long N s (c : list Z) : (N - 1 <= length c)%nat ->
  context N s c = skipn (length c - (N - 1)) c.
Proof.
  intros H. unfold context, lastn. rewrite app_length, repeat_length.
  replace (N - 1 + length c - (N - 1))%nat with (length c) by lia.
  rewrite skipn_app, repeat_length.
  rewrite skipn_all2 by (rewrite repeat_length; lia). reflexivity.
Qed.

Lemma context_length N s (c : list Z) : length (context N s c) = (N - 1)%nat.
Proof.
  destruct (Nat.le_gt_cases (length c) (N - 1)).
  - rewrite context_short by assumption. rewrite app_length, repeat_length. lia.
  - rewrite context_long by lia. rewrite skipn_length. lia.
Qed.

Lemma mapwin_length sh w : length (mapwin sh w) = length w.
Proof. rewrite mapwin_unfold. destruct (shiftb _ _); [apply map_length|reflexivity]. Qed.

Lemma map_combine_repeat {A C D} (f : A -> C) (g : C * Z -> D) (h : Z) (l : list A) :
  map g (combine (map f l) (repeat h (length l))) = map (fun x => g (f x, h)) l.
Proof. induction l as [|x l IH]; [reflexivity|]. cbn. rewrite IH. reflexivity. Qed.

Lemma map_combine_repeat_r {A D} (g : A * nat -> D) (i : nat) (l : list A) :
  map g (combine l (repeat i (length l))) = map (fun x => g (x, i)) l.
Proof. induction l as [|x l IH]; [reflexivity|]. cbn. rewrite IH. reflexivity. Qed.

Lemma map_combine_seq_repeat {C D} (f : nat -> C) (g : C * Z -> D) (h : Z) (B : nat) :
  map g (combine (map f (seq 0 B)) (repeat h B)) = map (fun x => g (f x, h)) (seq 0 B).
Proof. pose proof (map_combine_repeat f g h (seq 0 B)) as H. rewrite seq_length in H. exact H. Qed.

Lemma batch_rows_repeat b sh hist B i :
  batch_rows b sh hist B (repeat i B) =
  map (fun bi => elem_row b sh (column hist bi) i) (seq 0 B).
Proof.
  unfold batch_rows. pose proof (map_combine_repeat_r
    (fun p => elem_row b sh (column hist (fst p)) (snd p)) i (seq 0 B)) as H.
  rewrite seq_length in H. exact H.
Qed.

Lemma lookup_batch_scalar b sh hist B i : lens_ok b sh = true -> (1 <= order sh)%nat ->
  (i <= length hist)%nat ->
  lookup_batch b sh hist B (Scalar (Z.of_nat i)) = Some (batch_rows b sh hist B (repeat i B)).
Proof.
  intros Hl Ho Hi. rewrite batch_rows_repeat. unfold lookup_batch. rewrite Hl. cbn [negb].
  unfold elem_row. destruct (Nat.eqb (order sh) 1) eqn:E1.
  { f_equal. clear. generalize 0%nat. induction B as [|B IH]; intros k; [reflexivity|].
    cbn [repeat seq map]. f_equal. apply IH. }
  apply Nat.eqb_neq in E1. cbn [fold_right].
  set (N := Z.of_nat (order sh)).
  destruct (0 <? N - 1 - Z.of_nat i) eqn:Epad.
  - (* short history: padded *)
    cbn [map].
    replace (Z.of_nat i + (N - 1 - Z.of_nat i) - (N - 1)) with 0 by lia.
    cbn [Z.to_nat skipn].
    replace (Z.to_nat (Z.of_nat i + (N - 1 - Z.of_nat i))) with (Z.to_nat (N - 1 - Z.of_nat i) + i)%nat by lia.
    rewrite firstn_app_len by (apply repeat_length).
    set (k := Z.to_nat (N - 1 - Z.of_nat i)).
    assert (Hlen : length (repeat (repeat (sos sh) B) k ++ firstn i hist) = (order sh - 1)%nat).
    { rewrite app_length, repeat_length, firstn_length. subst k N. lia. }
    rewrite Hlen, Nat.eqb_refl. f_equal.
    rewrite map_combine_seq_repeat. cbn [fst snd].
    apply map_ext_in. intros bi Hbi. apply in_seq in Hbi.
    apply map_ext. intros v.
    rewrite column_app, column_repeat, column_firstn by lia.
    rewrite context_short by (rewrite firstn_length, column_length; lia).
    rewrite firstn_length, column_length.
    replace (order sh - 1 - Nat.min i (length hist))%nat with k by (subst k N; lia).
    apply lookup1_hidx; rewrite mapwin_length, app_length, repeat_length, firstn_length, column_length;
      subst k N; lia.
  - (* long enough *)
    cbn [map].
    set (rows := skipn (Z.to_nat (Z.of_nat i - (N - 1))) (firstn (Z.to_nat (Z.of_nat i)) hist)).
    assert (Hlen : length rows = (order sh - 1)%nat).
    { subst rows. rewrite skipn_length, firstn_length. subst N. lia. }
    rewrite Hlen, Nat.eqb_refl. f_equal.
    rewrite map_combine_seq_repeat. cbn [fst snd].
    apply map_ext_in. intros bi Hbi. apply map_ext. intros v.
    subst rows. rewrite column_skipn, column_firstn.
    rewrite context_long by (rewrite firstn_length, column_length; subst N; lia).
    rewrite firstn_length, column_length.
    replace (Z.to_nat (Z.of_nat i)) with i by lia.
    replace (Z.to_nat (Z.of_nat i - (N - 1))) with (Nat.min i (length hist) - (order sh - 1))%nat
      by (subst N; lia).
    apply lookup1_hidx; rewrite mapwin_length, skipn_length, firstn_length, column_length;
      subst N; lia.
Qed.

(* ---------- (G) all positions at once, in chunks of any size ------------------------------------ *)

Definition rect (hist : list (list Z)) (B : nat) : Prop := Forall (fun row => length row = B) hist.

Lemma nth_concat_rect hist B : rect hist B -> forall a bi, (bi < B)%nat -> (a < length hist)%nat ->
  nth (a * B + bi) (concat hist) 0 = nth bi (nth a hist []) 0.
Proof.
  induction 1 as [|row hist Hrow Hrect IH]; intros a bi Hbi Ha; [cbn in Ha; lia|].
  cbn [concat]. destruct a as [|a].
  - cbn [Nat.mul Nat.add nth]. apply app_nth1. lia.
  - cbn [nth length] in *. rewrite app_nth2 by nia.
    replace (S a * B + bi - length row)%nat with (a * B + bi)%nat by nia.
    apply IH; lia.
Qed.

Lemma nth_map_seq {A} (f : nat -> A) n j d : (j < n)%nat -> nth j (map f (seq 0 n)) d = f j.
Proof.
  intros H. rewrite (nth_indep _ d (f 0%nat)) by (rewrite map_length, seq_length; assumption).
  rewrite map_nth, seq_nth by assumption. reflexivity.
Qed.

Lemma nth_skipn' {A} (d : A) : forall a (X : list A) i, nth (a + i) X d = nth i (skipn a X) d.
Proof.
  induction a as [|a IH]; intros X i; [reflexivity|].
  destruct X as [|x X]; [destruct i; reflexivity|]. cbn [Nat.add nth skipn]. apply IH.
Qed.

Lemma map_nth_seq0 {A} (d : A) : forall (X : list A) n, (n <= length X)%nat ->
  map (fun i => nth i X d) (seq 0 n) = firstn n X.
Proof.
  induction X as [|x X IH]; intros n H.
  - cbn in H. assert (n = 0)%nat by lia. subst. reflexivity.
  - destruct n as [|n]; [reflexivity|]. cbn [seq map firstn nth]. f_equal.
    rewrite <- seq_shift, map_map. cbn [nth]. apply IH. cbn in H. lia.
Qed.

Lemma map_nth_seq {A} (X : list A) d a n : (a + n <= length X)%nat ->
  map (fun i => nth (a + i) X d) (seq 0 n) = firstn n (skipn a X).
Proof.
  intros H. rewrite <- map_nth_seq0 with (d := d) by (rewrite skipn_length; lia).
  apply map_ext. intros i. apply nth_skipn'.
Qed.

Lemma context_window N s (X : list Z) q : let Nm1 := Nat.min (length X) (N - 1) in
  (Nm1 <= q)%nat -> (q <= length X)%nat ->
  context N s (firstn Nm1 (skipn (q - Nm1) X)) = context N s (firstn q X).
Proof.
  intros Nm1 H1 H2. subst Nm1. destruct (Nat.le_gt_cases (N - 1) (length X)) as [Hc|Hc].
  - rewrite Nat.min_r in * by assumption.
    rewrite !context_long by (rewrite ?firstn_length, ?skipn_length; lia).
    rewrite !firstn_length, skipn_length.
    replace (Nat.min (N - 1) (length X - (q - (N - 1))) - (N - 1))%nat with 0%nat by lia.
    cbn [skipn]. rewrite firstn_skipn_comm. f_equal; [lia|]. f_equal. lia.
  - rewrite Nat.min_l in * by lia. assert (q = length X) by lia. subst q.
    rewrite Nat.sub_diag. cbn [skipn]. reflexivity.
Qed.

Lemma elem_row_firstn b sh X i k : (i <= k)%nat ->
  elem_row b sh (firstn k X) i = elem_row b sh X i.
Proof.
  intros H. unfold elem_row. destruct (Nat.eqb (order sh) 1); [reflexivity|].
  rewrite firstn_firstn, Nat.min_l by assumption. reflexivity.
Qed.

Lemma nth_column hist bi : forall k, nth k (column hist bi) 0 = nth bi (nth k hist []) 0.
Proof.
  unfold column. induction hist as [|row hist IH]; intros [|k]; cbn [map nth];
    try (destruct bi; reflexivity); try reflexivity. apply IH.
Qed.

Lemma strided_elem b sh hist B Trest t r bi :
  let T := length hist in let Nm1 := Nat.min T (order sh - 1) in
  rect hist B -> (Nm1 <= t)%nat -> (t + Trest <= T + 1)%nat -> (r < Trest)%nat -> (bi < B)%nat ->
  elem_row b sh (column (strided (concat hist) B Nm1 Trest t) (r * B + bi)) Nm1 =
  elem_row b sh (column hist bi) (t + r).
Proof.
  intros T Nm1 Hrect Ht HT Hr Hbi.
  assert (Hcol : column (strided (concat hist) B Nm1 Trest t) (r * B + bi) =
                 firstn Nm1 (skipn (t + r - Nm1) (column hist bi))).
  { unfold column at 1. unfold strided. rewrite map_map.
    rewrite <- map_nth_seq with (d := 0) by (rewrite column_length; fold T; lia).
    apply map_ext_in. intros i Hi. apply in_seq in Hi.
    rewrite nth_map_seq by nia.
    replace (B * (t - Nm1) + i * B + (r * B + bi))%nat with ((t + r - Nm1 + i) * B + bi)%nat by nia.
    rewrite (nth_concat_rect hist B Hrect) by (fold T; lia).
    symmetry. apply nth_column. }
  unfold elem_row. destruct (Nat.eqb (order sh) 1); [reflexivity|].
  rewrite Hcol. rewrite firstn_firstn, Nat.min_id.
  pose proof (context_window (order sh) (sos sh) (column hist bi) (t + r)) as Hw.
  rewrite column_length in Hw. fold T in Hw. cbv zeta in Hw. fold Nm1 in Hw.
  rewrite Hw by lia. reflexivity.
Qed.

Lemma map_seq_add {A} (f : nat -> A) t : forall k c,
  map (fun r => f (t + r)%nat) (seq c k) = map f (seq (t + c) k).
Proof.
  induction k as [|k IH]; intros c; [reflexivity|]. cbn [seq map]. f_equal.
  replace (S (t + c)) with (t + S c)%nat by lia. apply IH.
Qed.

Lemma chunks_map_seq {A} (F : nat -> A) B : forall k a,
  chunks B k (map F (seq a (k * B))) =
  map (fun r => map (fun bi => F (a + r * B + bi)%nat) (seq 0 B)) (seq 0 k).
Proof.
  induction k as [|k IH]; intros a; [reflexivity|].
  cbn [chunks Nat.mul]. rewrite seq_app, map_app.
  rewrite firstn_app, firstn_all2 by (rewrite map_length, seq_length; lia).
  rewrite map_length, seq_length, Nat.sub_diag. cbn [firstn]. rewrite app_nil_r.
  rewrite skipn_app, skipn_all2 by (rewrite map_length, seq_length; lia).
  rewrite map_length, seq_length, Nat.sub_diag. cbn [skipn app].
  rewrite IH. cbn [seq map]. f_equal.
  - rewrite <- (Nat.add_0_r a) at 1. rewrite <- map_seq_add. apply map_ext. intros bi. f_equal. lia.
  - rewrite <- seq_shift, map_map. apply map_ext. intros r. apply map_ext. intros bi. f_equal. lia.
Qed.

Lemma opt_all_map {A C} (f : A -> option C) (g : A -> C) l :
  (forall x, In x l -> f x = Some (g x)) -> opt_all (map f l) = Some (map g l).
Proof.
  induction l as [|x l IH]; intros H; [reflexivity|]. cbn [map opt_all].
  rewrite (H x (or_introl eq_refl)), IH by (intros; apply H; right; assumption). reflexivity.
Qed.

Definition all_rows (b : bufs) (sh : shape) (hist : list (list Z)) (B : nat) (i : nat)
  : list (list val) := batch_rows b sh hist B (repeat i B).

Lemma strided_length flat B Nm1 Trest t : length (strided flat B Nm1 Trest t) = Nm1.
Proof. unfold strided. rewrite map_length, seq_length. reflexivity. Qed.

Lemma chunk_loop_spec b sh hist B chunk :
  let T := length hist in let Nm1 := Nat.min T (order sh - 1) in
  lens_ok b sh = true -> (1 <= order sh)%nat -> rect hist B -> (1 <= chunk)%nat ->
  forall fuel t, (Nm1 <= t)%nat -> (T + 1 - t <= fuel)%nat ->
  chunk_loop b sh (concat hist) B T Nm1 chunk fuel t =
  Some (map (all_rows b sh hist B) (seq t (T + 1 - t))).
Proof.
  intros T Nm1 Hl Ho Hrect Hc.
  induction fuel as [|fuel IH]; intros t Ht Hf.
  - replace (T + 1 - t)%nat with 0%nat by lia. reflexivity.
  - cbn [chunk_loop]. destruct (Nat.leb (T + 1) t) eqn:E.
    + apply Nat.leb_le in E. replace (T + 1 - t)%nat with 0%nat by lia. reflexivity.
    + apply Nat.leb_gt in E. set (Trest := Nat.min chunk (T + 1 - t)).
      pose proof (lookup_batch_scalar b sh (strided (concat hist) B Nm1 Trest t) (Trest * B) Nm1 Hl Ho) as Hs.
      rewrite strided_length in Hs. rewrite (Hs (le_n _)).
      rewrite IH by lia. f_equal.
      rewrite batch_rows_repeat.
      rewrite (chunks_map_seq (fun j => elem_row b sh (column (strided (concat hist) B Nm1 Trest t) j) Nm1) B Trest 0).
      replace (T + 1 - t)%nat with (Trest + (T + 1 - (t + chunk)))%nat by (subst Trest; lia).
      rewrite seq_app, map_app. f_equal.
      * assert (Hgen : forall r, In r (seq 0 Trest) ->
                  map (fun bi => elem_row b sh (column (strided (concat hist) B Nm1 Trest t) (0 + r * B + bi)) Nm1) (seq 0 B)
                  = all_rows b sh hist B (t + r)).
        { intros r Hr. apply in_seq in Hr. unfold all_rows. rewrite batch_rows_repeat.
          apply map_ext_in. intros bi Hbi. apply in_seq in Hbi. cbn [Nat.add].
          apply (strided_elem b sh hist B Trest t r bi); try assumption; subst Trest; lia. }
        rewrite (map_ext_in _ _ _ Hgen). rewrite (map_seq_add (all_rows b sh hist B) t Trest 0).
        rewrite Nat.add_0_r. reflexivity.
      * destruct (Nat.le_gt_cases chunk (T + 1 - t)) as [Hle|Hgt].
        -- subst Trest. rewrite Nat.min_l by assumption. reflexivity.
        -- replace (T + 1 - (t + chunk))%nat with 0%nat by lia. reflexivity.
Qed.

Lemma chunked_spec b sh hist B chunk :
  lens_ok b sh = true -> (1 <= order sh)%nat -> rect hist B -> (1 <= chunk)%nat ->
  chunked b sh hist B chunk = Some (map (all_rows b sh hist B) (seq 0 (S (length hist)))).
Proof.
  intros Hl Ho Hrect Hc. unfold chunked.
  replace (Nat.ltb chunk 1) with false by (symmetry; apply Nat.ltb_ge; assumption).
  set (T := length hist). set (Nm1 := Nat.min T (order sh - 1)).
  rewrite (opt_all_map _ (all_rows b sh hist B)).
  2:{ intros i Hi. apply in_seq in Hi.
      rewrite lookup_batch_scalar by (try assumption; rewrite firstn_length; fold T; lia).
      f_equal. unfold all_rows. rewrite !batch_rows_repeat. apply map_ext. intros bi.
      rewrite column_firstn. apply elem_row_firstn. lia. }
  pose proof (chunk_loop_spec b sh hist B chunk Hl Ho Hrect Hc (S T) Nm1) as Hloop.
  cbv zeta in Hloop. fold T in Hloop. fold Nm1 in Hloop.
  rewrite Hloop by lia. f_equal. rewrite <- map_app. f_equal.
  replace (S T) with (Nm1 + (T + 1 - Nm1))%nat by (subst Nm1; lia).
  rewrite seq_app. reflexivity.
Qed.

(* ---------- (H) putting it together: buffers that pass the validator give the recursion ------- *)

Lemma In_skipn_in {A} (x : A) n l : In x (skipn n l) -> In x l.
Proof. intros H. rewrite <- (firstn_skipn n l). apply in_or_app. right. assumption. Qed.

Lemma In_firstn_in {A} (x : A) n l : In x (firstn n l) -> In x l.
Proof. intros H. rewrite <- (firstn_skipn n l). apply in_or_app. left. assumption. Qed.

Lemma context_toks N V s c : Forall (tok_ok V s) c -> Forall (tok_ok V s) (context N s c).
Proof.
  intros H. destruct (Nat.le_gt_cases (length c) (N - 1)).
  - rewrite context_short by assumption. apply Forall_app. split; [|assumption].
    apply Forall_forall. intros x Hx. apply repeat_spec in Hx. right. assumption.
  - rewrite context_long by lia. apply Forall_forall. intros x Hx.
    rewrite Forall_forall in H. apply H. eapply In_skipn_in. exact Hx.
Qed.

Lemma rename_range sh x : 0 <= vocab sh -> tok_ok (vocab sh) (sos sh) x ->
  0 <= (if shiftb (vocab sh) (sos sh) then rename sh x else x) < nroots sh.
Proof.
  unfold tok_ok, nroots, shiftz, rename. intros HV H.
  destruct (shiftb (vocab sh) (sos sh)) eqn:E; unfold shiftb in E.
  - destruct (x =? sos sh) eqn:Ex; lia.
  - lia.
Qed.

Lemma last_mapwin_range sh w : 0 <= vocab sh -> w <> [] -> Forall (tok_ok (vocab sh) (sos sh)) w ->
  0 <= last (mapwin sh w) 0 < nroots sh.
Proof.
  intros HV Hne Hw. rewrite mapwin_unfold.
  assert (Hl : tok_ok (vocab sh) (sos sh) (last w 0)).
  { rewrite Forall_forall in Hw. apply Hw. destruct w as [|x w]; [congruence|].
    clear. revert x. induction w as [|y w IH]; intros x; [left; reflexivity|].
    right. apply IH. }
  pose proof (rename_range sh (last w 0) HV Hl) as Hr.
  destruct (shiftb (vocab sh) (sos sh)); [|assumption].
  replace (last (map (rename sh) w) 0) with (rename sh (last w 0)); [assumption|].
  clear - Hne. induction w as [|x w IH]; [congruence|]. destruct w as [|y w]; [reflexivity|].
  cbn [map last] in *. apply IH. discriminate.
Qed.

Lemma elem_row_katz b sh t col i : TrieOK b sh (tmap sh t) ->
  tab_ok (vocab sh) (sos sh) t -> Forall (tok_ok (vocab sh) (sos sh)) col ->
  elem_row b sh col i = katz_row t (order sh) (vocab sh) (sos sh) col i.
Proof.
  intros Hok Ht Hcol. unfold elem_row, katz_row.
  assert (Hctx : Forall (tok_ok (vocab sh) (sos sh)) (context (order sh) (sos sh) (firstn i col))).
  { apply context_toks. apply Forall_forall. intros x Hx. rewrite Forall_forall in Hcol.
    apply Hcol. eapply In_firstn_in. exact Hx. }
  destruct (Nat.eqb (order sh) 1) eqn:E1.
  - apply Nat.eqb_eq in E1. destruct Hok as (_ & _ & Hr & Hnodes).
    assert (Hc : context (order sh) (sos sh) (firstn i col) = []).
    { apply length_zero_iff_nil. rewrite context_length. lia. }
    rewrite Hc. rewrite <- (map_nth_seq0 NaN) by (unfold nroots, shiftz, zlen in Hr; destruct (shiftb _ _); lia).
    unfold zrange. rewrite map_map. apply map_ext_in. intros k Hk. apply in_seq in Hk.
    assert (Hv : 0 <= Z.of_nat k < vocab sh) by lia.
    assert (Hv' : 0 <= Z.of_nat k < nroots sh) by (unfold nroots, shiftz; destruct (shiftb _ _); lia).
    specialize (Hnodes (Z.of_nat k) [] Hv' ltac:(cbn; lia)). unfold node_ok in Hnodes.
    cbn [rev app] in Hnodes. unfold node_at in Hnodes. cbn [fold_left fst snd] in Hnodes.
    rewrite <- (mapwin_vocab sh _ Hv) in Hnodes.
    assert (Hkk : Forall (tok_ok (vocab sh) (sos sh)) [Z.of_nat k]).
    { constructor; [left; assumption|constructor]. }
    rewrite (tfind_tmap sh t _ Ht Hkk) in Hnodes.
    cbn [katz].
    assert (Hz : zget (logps b) (Z.of_nat k) NaN = nth k (logps b) NaN).
    { unfold zget. replace (Z.of_nat k <? 0) with false by lia. rewrite Nat2Z.id. reflexivity. }
    rewrite <- Hz.
    destruct (tfind t [Z.of_nat k]) as [[p bo]|].
    + destruct Hnodes as (j & [= <-] & Hp & _). assumption.
    + apply (Hnodes (Z.of_nat k) eq_refl).
  - apply Nat.eqb_neq in E1. assert (Ho : (1 <= order sh)%nat) by (destruct Hok as (_ & Ho & _); exact Ho).
    apply map_ext_in. intros v Hv. unfold zrange in Hv. apply in_map_iff in Hv as (k & <- & Hk).
    apply in_seq in Hk.
    set (w := context (order sh) (sos sh) (firstn i col)) in *.
    assert (Hlen : length w = (order sh - 1)%nat) by apply context_length.
    rewrite (lookup1_trie b sh (tmap sh t) (mapwin sh w) (Z.of_nat k) _ Hok);
      rewrite ?mapwin_length; try lia.
    + apply katz_tmap; try assumption. lia.
    + apply last_mapwin_range; [lia| |assumption]. intros E. rewrite E in Hlen. cbn in Hlen. lia.
Qed.

Definition hist_ok (sh : shape) (hist : list (list Z)) (B : nat) : Prop :=
  rect hist B /\ Forall (Forall (tok_ok (vocab sh) (sos sh))) hist.

Lemma column_toks sh hist B bi : hist_ok sh hist B -> (bi < B)%nat ->
  Forall (tok_ok (vocab sh) (sos sh)) (column hist bi).
Proof.
  intros [Hr Ht] Hbi. unfold column. apply Forall_forall. intros x Hx.
  apply in_map_iff in Hx as (row & <- & Hrow).
  unfold rect in Hr. rewrite Forall_forall in Hr, Ht.
  specialize (Hr row Hrow). specialize (Ht row Hrow). rewrite Forall_forall in Ht.
  apply Ht. apply nth_In. lia.
Qed.

Lemma batch_rows_spec b sh t hist B idxs : TrieOK b sh (tmap sh t) ->
  tab_ok (vocab sh) (sos sh) t -> hist_ok sh hist B ->
  batch_rows b sh hist B idxs = spec_at t (order sh) (vocab sh) (sos sh) hist B idxs.
Proof.
  intros Hok Ht Hh. unfold batch_rows, spec_at. apply map_ext_in. intros [bi i] Hin.
  apply in_combine_l in Hin. apply in_seq in Hin. cbn [fst snd].
  apply elem_row_katz; try assumption. apply (column_toks sh hist B); [assumption|lia].
Qed.

Lemma lookup_scalar_katz b sh t hist B i : trie_okb b sh (tmap sh t) = true ->
  tab_okb (vocab sh) (sos sh) t = true -> hist_ok sh hist B -> (i <= length hist)%nat ->
  lookup_batch b sh hist B (Scalar (Z.of_nat i)) =
  Some (spec_at t (order sh) (vocab sh) (sos sh) hist B (repeat i B)).
Proof.
  intros Hv Ht Hh Hi. apply trie_okb_sound in Hv. apply tab_okb_ok in Ht.
  destruct Hv as (Hl & Ho & Hrest).
  rewrite lookup_batch_scalar by assumption. f_equal.
  apply batch_rows_spec; try assumption. exact (conj Hl (conj Ho Hrest)).
Qed.

Lemma chunked_katz b sh t hist B chunk : trie_okb b sh (tmap sh t) = true ->
  tab_okb (vocab sh) (sos sh) t = true -> hist_ok sh hist B -> (1 <= chunk)%nat ->
  chunked b sh hist B chunk = Some (spec_full t (order sh) (vocab sh) (sos sh) hist B).
Proof.
  intros Hv Ht Hh Hc. apply trie_okb_sound in Hv. apply tab_okb_ok in Ht.
  destruct Hv as (Hl & Ho & Hrest).
  rewrite chunked_spec by (try assumption; apply Hh). f_equal. unfold spec_full.
  apply map_ext. intros i. unfold all_rows.
  apply batch_rows_spec; try assumption. exact (conj Hl (conj Ho Hrest)).
Qed.

(* ---------- (I) a different index per batch element ---------------------------------------------- *)

Lemma skipn_repeat {A} (s : A) : forall k a, skipn a (repeat s k) = repeat s (k - a).
Proof.
  induction k as [|k IH]; intros a; [destruct a; reflexivity|].
  destruct a as [|a]; [reflexivity|]. cbn [repeat skipn Nat.sub]. apply IH.
Qed.

Lemma window_padded (s : Z) k i n X : (i <= length X)%nat -> (n - 1 <= i + k)%nat -> (k <= n - 1)%nat ->
  firstn (n - 1) (skipn (i + k - (n - 1)) (repeat s k ++ X)) = context n s (firstn i X).
Proof.
  intros Hi Hn Hk. destruct (Nat.le_gt_cases i (n - 1)) as [Hc|Hc].
  - rewrite skipn_app, skipn_repeat, repeat_length.
    replace (i + k - (n - 1) - k)%nat with 0%nat by lia. cbn [skipn].
    replace (k - (i + k - (n - 1)))%nat with (n - 1 - i)%nat by lia.
    rewrite context_short by (rewrite firstn_length; lia). rewrite firstn_length, Nat.min_l by assumption.
    replace (n - 1)%nat with ((n - 1 - i) + i)%nat at 1 by lia.
    apply firstn_app_len. apply repeat_length.
  - rewrite skipn_app, skipn_repeat, repeat_length.
    replace (k - (i + k - (n - 1)))%nat with 0%nat by lia. cbn [repeat app].
    replace (i + k - (n - 1) - k)%nat with (i - (n - 1))%nat by lia.
    rewrite context_long by (rewrite firstn_length; lia). rewrite firstn_length, Nat.min_l by assumption.
    rewrite firstn_skipn_comm. f_equal. f_equal. lia.
Qed.

Lemma filter_range_gen a c : forall L s,
  filter (fun r => Nat.leb a r && Nat.ltb r c) (seq s L) =
  seq (Nat.max a s) (Nat.min c (s + L) - Nat.max a s).
Proof.
  induction L as [|L IH]; intros s.
  - cbn [seq filter]. replace (Nat.min c (s + 0) - Nat.max a s)%nat with 0%nat by lia. reflexivity.
  - cbn [seq filter]. rewrite IH.
    destruct (Nat.leb a s) eqn:A; [apply Nat.leb_le in A|apply Nat.leb_gt in A].
    + destruct (Nat.ltb s c) eqn:A2; [apply Nat.ltb_lt in A2|apply Nat.ltb_ge in A2]; cbn [andb].
      * replace (Nat.max a s) with s by lia.
        replace (Nat.min c (s + S L) - s)%nat with (S (Nat.min c (S s + L) - Nat.max a (S s)))%nat by lia.
        cbn [seq]. f_equal. f_equal. lia.
      * replace (Nat.min c (S s + L) - Nat.max a (S s))%nat with 0%nat by lia.
        replace (Nat.min c (s + S L) - Nat.max a s)%nat with 0%nat by lia. reflexivity.
    + cbn [andb]. f_equal; lia.
Qed.

Lemma filter_range L a c : (a <= c)%nat -> (c <= L)%nat ->
  filter (fun r => Nat.leb a r && Nat.ltb r c) (seq 0 L) = seq a (c - a).
Proof. intros H1 H2. rewrite filter_range_gen. f_equal; lia. Qed.

Lemma chunks_concat {A} n : forall (ls : list (list A)),
  Forall (fun x => length x = n) ls -> chunks n (length ls) (concat ls) = ls.
Proof.
  induction 1 as [|x ls Hx Hls IH]; [reflexivity|]. cbn [length chunks concat].
  rewrite firstn_app, firstn_all2 by lia. rewrite Hx, Nat.sub_diag. cbn [firstn]. rewrite app_nil_r.
  rewrite skipn_app, skipn_all2 by lia. rewrite Hx, Nat.sub_diag. cbn [skipn app].
  rewrite IH. reflexivity.
Qed.

Lemma concat_length_const {A} n : forall (ls : list (list A)),
  Forall (fun x => length x = n) ls -> length (concat ls) = (length ls * n)%nat.
Proof.
  induction 1 as [|x ls Hx Hls IH]; [reflexivity|]. cbn [concat length]. rewrite app_length, IH, Hx. lia.
Qed.

Lemma combine_map_both {A C D} (F : A -> C) (G : A -> D) (l : list A) :
  combine (map F l) (map G l) = map (fun c => (F c, G c)) l.
Proof. induction l as [|x l IH]; [reflexivity|]. cbn. rewrite IH. reflexivity. Qed.

Lemma map_snd_combine {A C} : forall (l1 : list A) (l2 : list C), length l1 = length l2 ->
  map snd (combine l1 l2) = l2.
Proof.
  induction l1 as [|x l1 IH]; intros [|y l2] H; cbn in *; try lia; try reflexivity.
  f_equal. apply IH. lia.
Qed.

Lemma fold_min_le h0 hr x : In x (h0 :: hr) -> fold_right Z.min h0 hr <= x.
Proof.
  induction hr as [|h hr IH]; cbn [fold_right]; intros [->|H]; try lia.
  - destruct H.
  - pose proof (IH (or_introl eq_refl)). lia.
  - destruct H as [->|H]; [lia|]. pose proof (IH (or_intror H)). lia.
Qed.

Lemma fold_min_in h0 hr : In (fold_right Z.min h0 hr) (h0 :: hr).
Proof.
  induction hr as [|h hr IH]; cbn [fold_right]; [left; reflexivity|].
  destruct (Z.min_spec h (fold_right Z.min h0 hr)) as [[_ ->]|[_ ->]].
  - right. left. reflexivity.
  - destruct IH as [E|E]; [left; assumption|right; right; assumption].
Qed.

(* how far a batch of indices is padded on the left: by the amount its smallest one is short of a full window *)
Lemma pad_covers (n i0 : nat) (r : list nat) :
  let m := fold_right Z.min (Z.of_nat i0) (map Z.of_nat r) in
  let k := if 0 <? Z.of_nat n - 1 - m then Z.to_nat (Z.of_nat n - 1 - m) else 0%nat in
  (k <= n - 1)%nat /\ forall i, In i (i0 :: r) -> (n - 1 <= i + k)%nat.
Proof.
  cbv zeta. set (m := fold_right Z.min (Z.of_nat i0) (map Z.of_nat r)).
  assert (Hle : forall i, In i (i0 :: r) -> m <= Z.of_nat i).
  { intros i Hi. apply fold_min_le. change (In (Z.of_nat i) (map Z.of_nat (i0 :: r))). apply in_map. exact Hi. }
  pose proof (fold_min_in (Z.of_nat i0) (map Z.of_nat r)) as Hin.
  change (In m (map Z.of_nat (i0 :: r))) in Hin. apply in_map_iff in Hin as (im & Em & _).
  destruct (0 <? Z.of_nat n - 1 - m) eqn:Ep; (split; [lia|]); intros i Hi; specialize (Hle i Hi); lia.
Qed.

(* the rows strictly between position - N and position, of the history padded by k rows: the context window *)
Lemma masked_window (s : Z) (hist : list (list Z)) (B n k bi i : nat) :
  (bi < B)%nat -> (i <= length hist)%nat -> (n - 1 <= i + k)%nat -> (k <= n - 1)%nat ->
  let hist' := repeat (repeat s B) k ++ hist in
  map (fun r => nth bi (nth r hist' []) 0)
      (filter (fun r => (Z.of_nat (i + k) - Z.of_nat n <? Z.of_nat r) && (Z.of_nat r <? Z.of_nat (i + k))) (seq 0 (length hist')))
  = context n s (firstn i (column hist bi)).
Proof.
  intros Hbi Hi Hik Hk hist'.
  assert (HL : length hist' = (k + length hist)%nat) by (subst hist'; rewrite app_length, repeat_length; reflexivity).
  rewrite (filter_ext _ (fun r => Nat.leb (i + k - (n - 1)) r && Nat.ltb r (i + k))).
  2:{ intros r. destruct (Nat.leb (i + k - (n - 1)) r) eqn:A, (Nat.ltb r (i + k)) eqn:A2;
        try apply Nat.leb_le in A; try apply Nat.leb_gt in A;
        try apply Nat.ltb_lt in A2; try apply Nat.ltb_ge in A2; lia. }
  rewrite filter_range by lia.
  replace (i + k - (i + k - (n - 1)))%nat with (n - 1)%nat by lia.
  rewrite (map_ext _ (fun r => nth r (column hist' bi) 0)) by (intros r; symmetry; apply nth_column).
  rewrite <- (Nat.add_0_r (i + k - (n - 1))) at 1.
  rewrite <- (map_seq_add (fun r => nth r (column hist' bi) 0) (i + k - (n - 1)) (n - 1) 0).
  rewrite map_nth_seq by (rewrite column_length; lia).
  subst hist'. rewrite column_app, column_repeat by lia.
  apply window_padded; rewrite ?column_length; lia.
Qed.

Lemma lookup_batch_vec b sh hist B l : lens_ok b sh = true -> (1 <= order sh)%nat ->
  length l = B -> (2 <= B)%nat -> Forall (fun i => (i <= length hist)%nat) l ->
  lookup_batch b sh hist B (Vec (map Z.of_nat l)) = Some (batch_rows b sh hist B l).
Proof.
  intros Hl Ho HlB HB Hil. unfold lookup_batch. rewrite Hl. cbn [negb].
  destruct l as [|i0 [|i1 l2]]; cbn [length] in HlB; try lia.
  set (l := i0 :: i1 :: l2) in *.
  change (map Z.of_nat l) with (Z.of_nat i0 :: map Z.of_nat (i1 :: l2)).
  cbv iota beta.
  destruct (Nat.eqb (order sh) 1) eqn:E1.
  { f_equal. unfold batch_rows, elem_row. rewrite E1.
    assert (Hlen : length (combine (seq 0 B) l) = B) by (rewrite combine_length, seq_length; subst l; cbn [length]; lia).
    revert Hlen. generalize (combine (seq 0 B) l). clear. intros c <-.
    induction c as [|x c IH]; [reflexivity|]. cbn. f_equal. apply IH. }
  apply Nat.eqb_neq in E1.
  set (n := order sh) in *. set (N := Z.of_nat n).
  set (hl := Z.of_nat i0 :: map Z.of_nat (i1 :: l2)).
  assert (Ehl : hl = map Z.of_nat l) by reflexivity.
  set (m := fold_right Z.min (Z.of_nat i0) (map Z.of_nat (i1 :: l2))).
  set (k := if 0 <? N - 1 - m then Z.to_nat (N - 1 - m) else 0%nat).
  destruct (pad_covers n i0 (i1 :: l2)) as [Hk1 Hk2]. fold m N k in Hk1, Hk2.
  (* both branches of the padding test, uniformly *)
  assert (Ehist : (if 0 <? N - 1 - m then repeat (repeat (sos sh) B) (Z.to_nat (N - 1 - m)) ++ hist else hist)
                  = repeat (repeat (sos sh) B) k ++ hist).
  { subst k. destruct (0 <? N - 1 - m); reflexivity. }
  assert (Ehl' : (if 0 <? N - 1 - m then map (fun h => h + (N - 1 - m)) hl else hl)
                 = map (fun i => Z.of_nat (i + k)) l).
  { rewrite Ehl. subst k. destruct (0 <? N - 1 - m) eqn:Ep.
    - rewrite map_map. apply map_ext. intros i. lia.
    - rewrite <- (map_id (map Z.of_nat l)) at 1. rewrite map_map. apply map_ext. intros i. lia. }
  fold m. fold hl. rewrite Ehist, Ehl'.
  set (hist' := repeat (repeat (sos sh) B) k ++ hist).
  set (g := fun i : nat => Z.of_nat (i + k)).
  cbv zeta.
  change (map g l) with (g i0 :: g i1 :: map g l2).
  cbv iota beta.
  change (g i0 :: g i1 :: map g l2) with (map g l).
  rewrite map_length.
  replace (Nat.eqb (length l) B) with true by (symmetry; apply Nat.eqb_eq; subst l; cbn [length]; lia).
  cbn [negb].
  set (C := combine (seq 0 B) l).
  assert (HC2 : map snd C = l) by (apply map_snd_combine; rewrite seq_length; subst l; cbn [length]; lia).
  assert (HCl : length C = B) by (subst C; rewrite combine_length, seq_length; subst l; cbn [length]; lia).
  assert (EC : combine (seq 0 B) (map g l) = map (fun c => (fst c, g (snd c))) C).
  { subst C. clear. generalize (seq 0 B). induction l as [|x l IH]; intros [|y s]; cbn; try reflexivity.
    f_equal. apply IH. }
  rewrite EC, map_map. cbn [fst snd].
  set (sel := fun c : nat * nat =>
       map (fun r => nth (fst c) (nth r hist' []) 0)
           (filter (fun r => (g (snd c) - N <? Z.of_nat r) && (Z.of_nat r <? g (snd c))) (seq 0 (length hist')))).
  assert (Hsel : forall c, In c C -> sel c = context n (sos sh) (firstn (snd c) (column hist (fst c)))).
  { intros [bi i] Hc. pose proof (in_combine_l _ _ _ _ Hc) as Hbi. apply in_seq in Hbi.
    pose proof (in_combine_r _ _ _ _ Hc) as Hi. cbn [fst snd].
    rewrite Forall_forall in Hil. specialize (Hil i Hi). specialize (Hk2 i Hi).
    subst sel g. cbn [fst snd]. apply masked_window; lia. }
  set (ws := map sel C).
  assert (Hws : Forall (fun x => length x = (n - 1)%nat) ws).
  { subst ws. apply Forall_forall. intros x Hx. apply in_map_iff in Hx as (c & <- & Hc).
    rewrite (Hsel c Hc). apply context_length. }
  change (map (fun x => sel x) C) with ws.
  assert (Hwl : length ws = B) by (subst ws; rewrite map_length; assumption).
  rewrite (concat_length_const (n - 1) ws Hws), Hwl, Nat.eqb_refl.
  rewrite <- Hwl at 1. rewrite (chunks_concat (n - 1) ws Hws).
  f_equal. unfold batch_rows. fold C.
  assert (Hgl : map g l = map (fun c => g (snd c)) C).
  { rewrite <- (map_map snd g C), HC2. reflexivity. }
  rewrite Hgl.
  subst ws. rewrite combine_map_both, map_map. cbn [fst snd].
  apply map_ext_in. intros [cb ci] Hc. rewrite (Hsel _ Hc). cbn [fst snd].
  unfold elem_row. replace (Nat.eqb (order sh) 1) with false by (symmetry; apply Nat.eqb_neq; assumption).
  apply map_ext. intros v. fold n.
  pose proof (in_combine_r _ _ _ _ Hc) as Hi. specialize (Hk2 ci Hi).
  apply lookup1_hidx; rewrite mapwin_length, context_length; subst g N; cbv beta; lia.
Qed.

Lemma lookup_vec_katz b sh t hist B l : trie_okb b sh (tmap sh t) = true ->
  tab_okb (vocab sh) (sos sh) t = true -> hist_ok sh hist B ->
  length l = B -> (2 <= B)%nat -> Forall (fun i => (i <= length hist)%nat) l ->
  lookup_batch b sh hist B (Vec (map Z.of_nat l)) =
  Some (spec_at t (order sh) (vocab sh) (sos sh) hist B l).
Proof.
  intros Hv Ht Hh HlB HB Hil. apply trie_okb_sound in Hv. apply tab_okb_ok in Ht.
  destruct Hv as (Hl & Ho & Hrest).
  rewrite lookup_batch_vec by assumption. f_equal.
  apply batch_rows_spec; try assumption. exact (conj Hl (conj Ho Hrest)).
Qed.

Definition wrap_idx (T i : Z) : nat := Z.to_nat ((i + T + 1) mod (T + 1)).

Lemma forward_vec_katz b sh t hist B zs : trie_okb b sh (tmap sh t) = true ->
  tab_okb (vocab sh) (sos sh) t = true -> hist_ok sh hist B ->
  length zs = B -> (2 <= B)%nat -> Forall (fun i => - zlen hist - 1 <= i <= zlen hist) zs ->
  forward b sh hist B (Some (Vec zs)) =
  Some (AtIdx (spec_at t (order sh) (vocab sh) (sos sh) hist B (map (wrap_idx (zlen hist)) zs))).
Proof.
  intros Hv Ht Hh HlB HB Hz. unfold forward, norm_idx.
  destruct zs as [|z0 [|z1 zs]]; cbn [length] in HlB; try lia.
  set (l := z0 :: z1 :: zs) in *.
  replace (Nat.eqb (length l) B) with true by (symmetry; apply Nat.eqb_eq; subst l; cbn [length]; lia).
  cbn [negb].
  assert (Hbad : existsb (fun i => (i <? - zlen hist - 1) || (zlen hist <? i)) l = false).
  { apply not_true_is_false. intros E. apply existsb_exists in E as (x & Hx & Hb).
    rewrite Forall_forall in Hz. specialize (Hz x Hx). lia. }
  rewrite Hbad.
  assert (Hmap : map (fun i => (i + zlen hist + 1) mod (zlen hist + 1)) l
                 = map Z.of_nat (map (wrap_idx (zlen hist)) l)).
  { rewrite map_map. apply map_ext_in. intros x Hx. unfold wrap_idx.
    rewrite Z2Nat.id; [reflexivity|]. apply Z.mod_pos_bound. unfold zlen. lia. }
  rewrite Hmap. rewrite (lookup_vec_katz b sh t); try assumption; try reflexivity.
  - rewrite map_length. subst l. cbn [length]. lia.
  - apply Forall_forall. intros i Hi. apply in_map_iff in Hi as (x & <- & Hx). unfold wrap_idx.
    pose proof (Z.mod_pos_bound (x + zlen hist + 1) (zlen hist + 1) ltac:(unfold zlen; lia)).
    unfold zlen in *. lia.
Qed.

(* ---------- (J) completing the table with (-inf, 0) entries does not change the recursion ---------- *)

Lemma tfind_app t1 t2 g :
  tfind (t1 ++ t2) g = match tfind t1 g with Some x => Some x | None => tfind t2 g end.
Proof.
  induction t1 as [|e t1 IH]; [reflexivity|]. cbn [app tfind].
  destruct (list_eqb (fst e) g); [reflexivity|apply IH].
Qed.

Lemma katz_add_absent t k ctx v : tfind t k = None ->
  katz (t ++ [(k, (NInf, Fin 0))]) ctx v = katz t ctx v.
Proof.
  intros Hk.
  assert (Hf : forall g, tfind (t ++ [(k, (NInf, Fin 0))]) g =
                         match tfind t g with
                         | Some x => Some x
                         | None => if list_eqb k g then Some (NInf, Fin 0) else None
                         end).
  { intros g. rewrite tfind_app. cbn [tfind fst snd]. reflexivity. }
  assert (Hb : forall c, backoff (t ++ [(k, (NInf, Fin 0))]) c = backoff t c).
  { intros c. unfold backoff. rewrite Hf. destruct (tfind t c) as [[p bo]|]; [reflexivity|].
    destruct (list_eqb k c); reflexivity. }
  induction ctx as [|x ctx IH].
  - cbn [katz]. rewrite Hf. destruct (tfind t [v]) as [[p bo]|]; [reflexivity|].
    destruct (list_eqb k [v]); reflexivity.
  - cbn [katz]. rewrite Hf, Hb, IH.
    destruct (tfind t ((x :: ctx) ++ [v])) as [[p bo]|]; [reflexivity|].
    destruct (list_eqb k ((x :: ctx) ++ [v])); reflexivity.
Qed.

Lemma add_missing_tfind lo ks :
  exists extra, add_missing lo ks = lo ++ extra /\
                Forall (fun e => snd e = (NInf, Fin 0)) extra.
Proof.
  unfold add_missing. revert lo. induction ks as [|k ks IH]; intros lo.
  - exists []. rewrite app_nil_r. split; [reflexivity|constructor].
  - cbn [fold_left]. destruct (dhas lo k).
    + apply IH.
    + destruct (IH (lo ++ [(k, (NInf, Fin 0))])) as (extra & E & Hex).
      exists ((k, (NInf, Fin 0)) :: extra). rewrite E, <- app_assoc. split; [reflexivity|].
      constructor; [reflexivity|assumption].
Qed.

Lemma katz_add_neutral t extra ctx v : Forall (fun e => snd e = (NInf, Fin 0)) extra ->
  katz (t ++ extra) ctx v = katz t ctx v.
Proof.
  intros H. revert t. induction H as [|[k x] extra Hx Hex IH]; intros t.
  - rewrite app_nil_r. reflexivity.
  - cbn [snd] in Hx. subst x.
    replace (t ++ (k, (NInf, Fin 0)) :: extra) with ((t ++ [(k, (NInf, Fin 0))]) ++ extra)
      by (rewrite <- app_assoc; reflexivity).
    rewrite IH. destruct (tfind t k) as [y|] eqn:E.
    + (* the key is already listed: the appended copy is never reached *)
      clear IH. assert (Hf : forall g, tfind (t ++ [(k, (NInf, Fin 0))]) g = tfind t g).
      { intros g. rewrite tfind_app. destruct (tfind t g) eqn:Eg; [reflexivity|].
        cbn [tfind fst snd]. destruct (list_eqb k g) eqn:Ek; [|reflexivity].
        apply list_eqb_eq in Ek. subst. congruence. }
      induction ctx as [|c ctx IHc]; cbn [katz]; unfold backoff; rewrite ?Hf; [reflexivity|].
      rewrite IHc. reflexivity.
    + apply katz_add_absent. assumption.
Qed.

(* the closure step of _build_trie appends only (-inf, 0) entries ([add_missing_tfind]), and
   such entries are invisible to the recursion ([katz_add_neutral]) *)
Lemma katz_add_missing lo ks ctx v : katz (add_missing lo ks) ctx v = katz lo ctx v.
Proof.
  destruct (add_missing_tfind lo ks) as (extra & -> & Hex). apply katz_add_neutral. assumption.
Qed.
