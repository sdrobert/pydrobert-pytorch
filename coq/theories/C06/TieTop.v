(* C06 — tie, part 3: the statements before the context window, on the encoding of the model's inputs; assembly. *)
From Coq Require Import List ZArith QArith Bool Arith Lia ZifyBool ZifyNat.
From PV Require Import C06.Model C06.Spec C06.Proofs MiniTorch.OpsC06 MiniTorch.LemmasC06 C06.SrcRun C06.TieRun C06.TieSrc.
Import ListNotations.
Local Open Scope Z_scope.

Lemma map_repeat' {A C} (f : A -> C) (x : A) n : map f (repeat x n) = repeat (f x) n.
Proof. induction n as [|n IH]; [reflexivity|]. cbn. rewrite IH. reflexivity. Qed.

(* ---- rectangular histories as tensors ---- *)
Lemma concat_rect_length (rows : list (list Z)) B : rect rows B -> length (concat rows) = (length rows * B)%nat.
Proof.
  induction 1 as [|r rows Hr _ IH]; [reflexivity|]. cbn [concat length]. rewrite app_length, IH, Hr. lia.
Qed.

Lemma skipn_concat_rect (rows : list (list Z)) B : rect rows B -> forall a,
  skipn (a * B) (concat rows) = concat (skipn a rows).
Proof.
  induction 1 as [|r rows Hr _ IH]; intros a.
  - rewrite !skipn_nil. reflexivity.
  - destruct a as [|a]; [reflexivity|]. cbn [concat skipn]. replace (S a * B)%nat with (B + a * B)%nat by lia.
    rewrite skipn_app, skipn_all2 by lia. rewrite Hr. cbn [app]. replace (B + a * B - B)%nat with (a * B)%nat by lia. apply IH.
Qed.

Lemma firstn_concat_rect (rows : list (list Z)) B : rect rows B -> forall a,
  firstn (a * B) (concat rows) = concat (firstn a rows).
Proof.
  induction 1 as [|r rows Hr _ IH]; intros a.
  - rewrite !firstn_nil. reflexivity.
  - destruct a as [|a]; [reflexivity|]. cbn [concat firstn]. replace (S a * B)%nat with (B + a * B)%nat by lia.
    rewrite firstn_app, firstn_all2 by lia. rewrite Hr. replace (B + a * B - B)%nat with (a * B)%nat by lia. rewrite IH. reflexivity.
Qed.

Lemma rect_firstn rows B a : rect rows B -> rect (firstn a rows) B.
Proof. intros H. apply Forall_forall. intros r Hr. apply (proj1 (Forall_forall _ _) H). apply (In_firstn_in _ _ _ Hr). Qed.

Lemma rect_skipn rows B a : rect rows B -> rect (skipn a rows) B.
Proof. intros H. apply Forall_forall. intros r Hr. apply (proj1 (Forall_forall _ _) H). apply (In_skipn_in _ _ _ Hr). Qed.

(* x[a:c] of a (T, B) history *)
Lemma slice0_hist (rows : list (list Z)) B (a c : Z) : rect rows B -> 0 <= a <= c -> c <= zlen rows ->
  slice0 (hist_tensor rows B) (Some a) (Some c) =
  Some (hist_tensor (firstn (Z.to_nat (c - a)) (skipn (Z.to_nat a) rows)) B).
Proof.
  intros Hr Ha Hc. unfold zlen in Hc. unfold slice0, hist_tensor. cbn [sh6 dt6 clip prodn fold_right].
  replace (a <? 0) with false by lia. replace (c <? 0) with false by lia.
  rewrite (Z.min_r _ a), (Z.min_r _ c) by lia. rewrite !Z.max_r by lia.
  rewrite Nat.mul_1_r. f_equal.
  rewrite firstn_length, skipn_length. replace (Nat.min (Z.to_nat (c - a)) (length rows - Z.to_nat a)) with (Z.to_nat (c - a)) by lia.
  f_equal. rewrite skipn_map, firstn_map. f_equal.
  rewrite (skipn_concat_rect rows B Hr), (firstn_concat_rect _ B (rect_skipn _ _ _ Hr)). reflexivity.
Qed.

(* a rectangular block of rows, column by column *)
Lemma concat_rect_tab (rows : list (list Z)) B : rect rows B ->
  map CI (concat rows) = flat_map (fun i => map (fun bi => CI (nth bi (nth i rows []) 0)) (seq 0 B)) (seq 0 (length rows)).
Proof.
  induction 1 as [|r rows Hr _ IH]; [reflexivity|].
  cbn [concat length seq flat_map]. rewrite map_app, IH. f_equal.
  - cbn [nth]. rewrite <- Hr. rewrite <- (firstn_all r) at 1. rewrite <- (map_nth_seq0 0 r (length r)) by lia.
    rewrite map_map. reflexivity.
  - symmetry. rewrite <- seq_shift, flat_map_concat_map, map_map, <- flat_map_concat_map. reflexivity.
Qed.

Lemma hist_tensor_wt sh (rows : list (list Z)) B : rect rows B -> length rows = (order sh - 1)%nat ->
  hist_tensor rows B = wt sh B (map (column rows) (seq 0 B)).
Proof.
  intros Hr Hl. unfold hist_tensor, wt, T2. rewrite !seq_length, Hl. f_equal.
  rewrite (concat_rect_tab rows B Hr), Hl.
  assert (Hfe : forall (l : list nat) (f g : nat -> list cell), (forall i, In i l -> f i = g i) -> flat_map f l = flat_map g l).
  { induction l as [|x l IH]; intros f g H; [reflexivity|]. cbn [flat_map]. rewrite (H x) by (left; reflexivity).
    rewrite (IH f g) by (intros; apply H; right; assumption). reflexivity. }
  apply Hfe. intros i _. apply map_ext_in. intros bi Hbi. apply in_seq in Hbi. unfold win.
  rewrite (nth_indep (map (column rows) (seq 0 B)) [] (column rows 0)) by (rewrite map_length, seq_length; lia).
  rewrite (map_nth (column rows) (seq 0 B) 0%nat), seq_nth by lia. cbn [Nat.add]. rewrite nth_column. reflexivity.
Qed.



(* ---- the statements before the window ---- *)
Section Top.
  Variable b : bufs.
  Variable sh : shape.
  Variable hist : list (list Z).
  Variable B : nat.

  Let Vn := Z.to_nat (vocab sh).
  Let N := Z.of_nat (order sh).

  Lemma size_hist rows : size (hist_tensor rows B) 1 = Some B.
  Proof. reflexivity. Qed.

  Lemma numel_ivec l : Z.of_nat (numel (ivec l)) = zlen l.
  Proof. unfold numel, ivec, zlen. cbn [sh6 prodn fold_right]. lia. Qed.

  Lemma numel_fvec l : Z.of_nat (numel (fvec l)) = zlen l.
  Proof. unfold numel, fvec, zlen. cbn [sh6 prodn fold_right]. lia. Qed.

  Lemma usize_eq : (1 <= order sh)%nat ->
    vocab sh + (if (0 <=? sos sh) && (sos sh <? vocab sh) then 0 else 1) + 1 mod N = usize sh.
  Proof.
    intros Ho. unfold usize, shiftz, shiftb. destruct ((0 <=? sos sh) && (sos sh <? vocab sh)); cbn [negb];
      (destruct (Nat.eqb_spec (order sh) 1) as [E|E];
       [unfold N; rewrite E; reflexivity | rewrite Z.mod_small by (unfold N; lia); reflexivity]).
  Qed.

  Lemma shift_eq : (if (0 <=? sos sh) && (sos sh <? vocab sh) then 0 else 1) = shiftz (vocab sh) (sos sh).
  Proof. unfold shiftz, shiftb. destruct ((0 <=? sos sh) && (sos sh <? vocab sh)); reflexivity. Qed.

  Lemma slice_logps : vocab sh <= zlen (logps b) -> 0 <= vocab sh ->
    slice0 (fvec (logps b)) None (Some (vocab sh)) =
    Some (T1 (seq 0 Vn) (fun v => CF (fl_of (zget (logps b) (Z.of_nat v) NaN)))).
  Proof.
    intros H H0. unfold zlen in H. unfold slice0, fvec, T1. cbn [sh6 dt6 clip prodn fold_right].
    replace (vocab sh <? 0) with false by lia. rewrite Z.min_r, Z.max_r by lia. rewrite Z.sub_0_r, Nat.mul_1_r.
    cbn [Z.to_nat Nat.mul skipn]. fold Vn. rewrite seq_length. f_equal. f_equal.
    rewrite firstn_map. rewrite <- (map_nth_seq0 NaN (logps b) Vn) by (unfold Vn; lia). rewrite map_map.
    apply map_ext. intros v. unfold zget. replace (Z.of_nat v <? 0) with false by lia. rewrite Nat2Z.id. reflexivity.
  Qed.

  (* the rows of the result, lane by lane *)
  Lemma rows_nl (g : nat -> Z -> val) :
    map (fun v => CF (fl_of v)) (concat (map (fun bi => map (g bi) (zrange (vocab sh))) (seq 0 B)))
    = map (fun e => CF (fl_of (g (fst e) (Z.of_nat (vof e))))) (nl B Vn).
  Proof.
    unfold nl. rewrite !flat_map_concat_map, !concat_map, !map_map. f_equal. apply map_ext. intros bi.
    unfold zrange. fold Vn. rewrite !map_map. reflexivity.
  Qed.
End Top.

Section Scalar.
  Variable b : bufs.
  Variable sh : shape.
  Variable hist : list (list Z).
  Variable B : nat.

  Let Vn := Z.to_nat (vocab sh).
  Local Notation N := (Z.of_nat (order sh)).

  Definition ctx_of (i : nat) (bi : nat) : list Z := context (order sh) (sos sh) (firstn i (column hist bi)).

  Definition padT (k : nat) : tens6 := T6 [k; B] (repeat (CI (sos sh)) (k * (B * 1))).

  Lemma full_pad (k : nat) : full [Z.of_nat k; Z.of_nat B] (CI (sos sh)) = Some (padT k).
  Proof.
    unfold full, padT. cbn [nats_of]. replace (0 <=? Z.of_nat k) with true by lia. replace (0 <=? Z.of_nat B) with true by lia.
    cbn [option_map]. rewrite !Nat2Z.id. reflexivity.
  Qed.

  Lemma cat_pad (k : nat) : cat0 [padT k; hist_tensor hist B] = Some (hist_tensor (repeat (repeat (sos sh) B) k ++ hist) B).
  Proof.
    unfold cat0, padT, hist_tensor. cbn [sh6 dt6 cat_rows shape_eqb option_map fst snd prodn fold_right].
    rewrite Nat.eqb_refl. cbn [andb option_map fst snd]. f_equal. f_equal.
    - rewrite app_length, repeat_length. f_equal. lia.
    - rewrite app_nil_r, concat_app, map_app. f_equal. rewrite Nat.mul_1_r.
      induction k as [|k IH]; [reflexivity|]. cbn [repeat concat Nat.mul]. rewrite map_app, <- IH, repeat_app. f_equal.
      symmetry. apply map_repeat'.
  Qed.

  Lemma expand_scalar (h : Z) :
    (do hi <- as_int (T6 [] [CI h]); expand hi [Z.of_nat B]) = Some (T1 (seq 0 B) (fun bi => CI (hx (repeat h B) bi))).
  Proof.
    unfold as_int, map_cells. cbn [dt6 sh6 map sequence option_map bo]. unfold expand. cbn [nats_of].
    replace (0 <=? Z.of_nat B) with true by lia. cbn [option_map sh6 dt6]. rewrite Nat2Z.id. unfold T1. rewrite seq_length.
    f_equal. f_equal. unfold hx. rewrite repeat_as_map. apply map_ext_in. intros bi Hbi. apply in_seq in Hbi.
    rewrite nth_repeat_lt by lia. reflexivity.
  Qed.

  (* the lookup for any index tensor, [ix bi] being the index of batch element bi: what depends on the kind of index
     (its minimum, the window selection on the padded history, the expansion to B entries) is assumed *)
  Lemma lookup_fn_rows (hidxT : tens6) (ix : nat -> nat) (m : Z) :
    lens_ok b sh = true -> (1 <= order sh)%nat -> 1 <= vocab sh -> vocab sh <= zlen (logps b) ->
    Z.of_nat (maxdesc sh) <= vocab sh + 1 ->
    (Z.of_nat (numel hidxT) =? 0) = false -> tmin hidxT = Some (T6 [] [CI m]) ->
    let pad := 0 <? N - 1 - m in
    let k := if pad then Z.to_nat (N - 1 - m) else 0%nat in
    let ws0 := map (fun bi => ctx_of (ix bi) bi) (seq 0 B) in
    let hexp := map (fun bi => Z.of_nat (ix bi + k)) (seq 0 B) in
    (forall bi, (bi < B)%nat -> (order sh - 1 <= ix bi + k)%nat) ->
    ((2 <= order sh)%nat -> exists hT,
        (if pad then add_s hidxT (N - 1 - m) else Some hidxT) = Some hT /\
        window_fn (hist_tensor (repeat (repeat (sos sh) B) k ++ hist) B) hT (Z.of_nat B) N
          (if pad then 0 else N - 1 - m) (if pad then m + (N - 1 - m) else m) = Some (wt sh B ws0) /\
        (do hi <- as_int hT; expand hi [Z.of_nat B]) = Some (T1 (seq 0 B) (fun bi => CI (hx hexp bi)))) ->
    ((2 <= order sh)%nat -> forall bi v h, (bi < B)%nat -> (v < Vn)%nat -> N - 1 <= h ->
        lookup1_safe b sh h (mapwin sh (ctx_of (ix bi) bi)) (Z.of_nat v)) ->
    lookup_fn (hist_tensor hist B) hidxT (ivec (offsets b)) (ivec (ids b)) (fvec (logps b)) (fvec (logbs b))
      (sos sh) (vocab sh) N (gnodes sh) (Z.of_nat (maxdesc sh))
    = Some (rows_tensor B Vn (map (fun bi => elem_row b sh (column hist bi) (ix bi)) (seq 0 B))).
  Proof.
    intros Hlens Ho HV HVP HS Hne Hmin pad k ws0 hexp Hik Hwin Hsafe.
    unfold lookup_fn. rewrite size_hist. cbn [bo]. cbv zeta.
    rewrite !(numel_ivec sh), !(numel_fvec sh). rewrite (usize_eq sh Ho). rewrite shift_eq.
    replace (N =? 0) with false by lia.
    assert (H1 : (zlen (ids b) =? zlen (offsets b) + gnodes sh - usize sh) = true)
      by (unfold lens_ok, psize, osize in Hlens; lia).
    assert (H2 : (zlen (logps b) =? zlen (offsets b) + gnodes sh) = true) by (unfold lens_ok, psize, osize in Hlens; lia).
    assert (H3 : (zlen (logbs b) =? zlen (offsets b)) = true) by (unfold lens_ok, psize, osize in Hlens; lia).
    rewrite H1, H2, H3. cbn [andb].
    change (zlen (offsets b) + gnodes sh) with (psize b sh). change (zlen (offsets b)) with (osize b).
    rewrite Hne, (slice_logps b sh HVP) by lia. cbn [bo]. fold Vn. unfold rows_tensor.
    destruct (Nat.eqb_spec (order sh) 1) as [E1|E1].
    - (* unigram model *)
      replace (N =? 1) with true by lia. unfold expand. cbn [nats_of]. replace (0 <=? Z.of_nat B) with true by lia.
      replace (0 <=? vocab sh) with true by lia. cbn [option_map sh6 dt6 T1]. rewrite !Nat2Z.id. fold Vn. rewrite seq_length, Nat.eqb_refl.
      f_equal. f_equal. unfold elem_row. rewrite E1. cbn [Nat.eqb]. fold Vn.
      rewrite <- (map_nth_seq0 NaN (logps b) Vn) by (unfold Vn, zlen in *; lia).
      rewrite repeat_as_map, concat_map, !map_map. f_equal. apply map_ext. intros _.
      apply map_ext. intros v. unfold zget. replace (Z.of_nat v <? 0) with false by lia. rewrite Nat2Z.id. reflexivity.
    - assert (HN2 : (2 <= order sh)%nat) by lia.
      replace (N =? 1) with false by lia.
      rewrite Hmin. cbn [bo]. unfold item. cbn [dt6 numel sh6 prodn fold_right Nat.eqb bo].
      destruct (Hwin HN2) as (hT & Hadd & Hw & Hexp).
      assert (Hlw : length ws0 = B) by (unfold ws0; rewrite map_length, seq_length; reflexivity).
      assert (Hnw : forall bi, (bi < B)%nat -> nth bi ws0 [] = ctx_of (ix bi) bi).
      { intros bi Hb. unfold ws0. rewrite nth_map_seq by lia. reflexivity. }
      assert (Hlen : forall bi, (bi < B)%nat -> length (nth bi ws0 []) = (order sh - 1)%nat).
      { intros bi Hb. rewrite Hnw by exact Hb. apply context_length. }
      assert (Hwm : forall bi, (bi < B)%nat -> win (map (mapwin sh) ws0) bi = mapwin sh (ctx_of (ix bi) bi)).
      { intros bi Hb. unfold win. rewrite (nth_indep _ [] (mapwin sh [])) by (rewrite map_length; lia).
        rewrite map_nth, Hnw by exact Hb. reflexivity. }
      assert (Hhx : forall bi, (bi < B)%nat -> hx hexp bi = Z.of_nat (ix bi + k)).
      { intros bi Hb. unfold hx, hexp. apply (nth_map_seq (fun bi => Z.of_nat (ix bi + k))). exact Hb. }
      (* the result of main_tab is the model's rows *)
      assert (Hres : T6 [B; Vn] (map (fun e => CF (fl_of (lookup1 b sh (hx hexp (fst e)) (win (map (mapwin sh) ws0) (fst e)) (Z.of_nat (vof e))))) (nl B Vn))
                = T6 [B; Vn] (map (fun v => CF (fl_of v)) (concat (map (fun bi => elem_row b sh (column hist bi) (ix bi)) (seq 0 B))))).
      { f_equal. unfold elem_row. replace (order sh =? 1)%nat with false by lia.
        rewrite (rows_nl sh B (fun bi => lookup1 b sh (N - 1) (mapwin sh (context (order sh) (sos sh) (firstn (ix bi) (column hist bi)))))).
        apply map_ext_in. intros e He. apply nl_in in He as (bi & v & -> & Hb & Hv). cbn [fst snd vof].
        rewrite Hwm by exact Hb. rewrite (Hhx bi Hb). specialize (Hik bi Hb). f_equal. f_equal.
        apply lookup1_hidx; rewrite mapwin_length; unfold ctx_of; rewrite context_length; lia. }
      rewrite <- Hres.
      assert (Hsf : forall bi v, (bi < B)%nat -> (v < Vn)%nat ->
                lookup1_safe b sh (hx hexp bi) (win (map (mapwin sh) ws0) bi) (Z.of_nat v)).
      { intros bi v Hb Hv. rewrite Hwm by exact Hb. apply Hsafe; try assumption. rewrite (Hhx bi Hb).
        specialize (Hik bi Hb). lia. }
      unfold pad in *. destruct (0 <? N - 1 - m) eqn:Epad.
      + (* some history is too short: all are left-padded with sos *)
        assert (Ek : N - 1 - m = Z.of_nat k) by (unfold k; lia).
        rewrite Ek in *. rewrite (full_pad k). cbn [bo]. rewrite (cat_pad k). cbn [bo]. rewrite Hadd. cbn [bo].
        apply (main_tab b sh B ws0 hexp); try assumption; lia.
      + injection Hadd as <-. apply (main_tab b sh B ws0 hexp); try assumption; lia.
  Qed.

  Theorem lookup_fn_scalar (i : nat) :
    lens_ok b sh = true -> (1 <= order sh)%nat -> 1 <= vocab sh -> vocab sh <= zlen (logps b) ->
    Z.of_nat (maxdesc sh) <= vocab sh + 1 -> rect hist B -> (i <= length hist)%nat ->
    ((2 <= order sh)%nat -> forall bi v h, (bi < B)%nat -> (v < Vn)%nat -> N - 1 <= h ->
        lookup1_safe b sh h (mapwin sh (ctx_of i bi)) (Z.of_nat v)) ->
    lookup_fn (hist_tensor hist B) (idx_tensor (Scalar (Z.of_nat i))) (ivec (offsets b)) (ivec (ids b))
      (fvec (logps b)) (fvec (logbs b)) (sos sh) (vocab sh) N (gnodes sh) (Z.of_nat (maxdesc sh))
    = Some (rows_tensor B Vn (batch_rows b sh hist B (repeat i B))).
  Proof.
    intros Hlens Ho HV HVP HS Hrect Hi Hsafe. rewrite batch_rows_repeat.
    apply (lookup_fn_rows (idx_tensor (Scalar (Z.of_nat i))) (fun _ => i) (Z.of_nat i)); try assumption; try reflexivity.
    - cbv zeta. intros bi _. destruct (0 <? N - 1 - Z.of_nat i) eqn:Epad; lia.
    - cbv zeta. unfold idx_tensor. intros HN2. destruct (0 <? N - 1 - Z.of_nat i) eqn:Epad.
      + (* short history: left-padded with sos *)
        set (k := Z.to_nat (N - 1 - Z.of_nat i)). eexists. split; [reflexivity|]. split.
        * unfold window_fn. cbn [numel sh6 prodn fold_right Z.of_nat Pos.of_succ_nat Z.eqb Pos.eqb].
          change (- 0) with 0. rewrite slice0_hist.
          -- f_equal. rewrite Z.sub_0_r. cbn [Z.to_nat skipn].
             replace (Z.to_nat (Z.of_nat i + (N - 1 - Z.of_nat i))) with (k + i)%nat by lia.
             rewrite firstn_app_len by (apply repeat_length).
             rewrite (hist_tensor_wt sh).
             ++ f_equal. apply map_ext_in. intros bi Hbi. apply in_seq in Hbi.
                rewrite column_app, column_repeat, column_firstn by lia. unfold ctx_of.
                rewrite context_short by (rewrite firstn_length, column_length; lia).
                rewrite firstn_length, column_length. f_equal. f_equal. unfold k. lia.
             ++ apply Forall_app. split; [apply Forall_forall; intros r Hr; apply repeat_spec in Hr; subst r; apply repeat_length|].
                apply rect_firstn. exact Hrect.
             ++ rewrite app_length, repeat_length, firstn_length. unfold k. lia.
          -- apply Forall_app. split; [apply Forall_forall; intros r Hr; apply repeat_spec in Hr; subst r; apply repeat_length|exact Hrect].
          -- lia.
          -- unfold zlen. rewrite app_length, repeat_length. unfold k. lia.
        * rewrite <- repeat_as_map. replace (Z.of_nat (i + k)) with (Z.of_nat i + (N - 1 - Z.of_nat i)) by (unfold k; lia).
          apply expand_scalar.
      + (* long enough *)
        eexists. split; [reflexivity|]. split; [|rewrite <- repeat_as_map, Nat.add_0_r; apply expand_scalar].
        cbn [repeat app]. unfold window_fn. cbn [numel sh6 prodn fold_right Z.of_nat Pos.of_succ_nat Z.eqb Pos.eqb].
        rewrite slice0_hist by (try exact Hrect; unfold zlen; lia).
        f_equal.
        replace (Z.to_nat (Z.of_nat i - - (N - 1 - Z.of_nat i))) with (order sh - 1)%nat by lia.
        replace (Z.to_nat (- (N - 1 - Z.of_nat i))) with (i - (order sh - 1))%nat by lia.
        rewrite (hist_tensor_wt sh).
        * f_equal. apply map_ext_in. intros bi Hbi. apply in_seq in Hbi. unfold ctx_of.
          rewrite context_long by (rewrite firstn_length, column_length; lia).
          rewrite firstn_length, column_length, column_firstn, column_skipn.
          rewrite skipn_firstn_comm. replace (Init.Nat.min i (length hist)) with i by lia. f_equal. lia.
        * apply rect_firstn, rect_skipn. exact Hrect.
        * rewrite firstn_length, skipn_length. lia.
  Qed.
End Scalar.
