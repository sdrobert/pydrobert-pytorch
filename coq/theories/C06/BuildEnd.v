(* C06 — build_trie_ok, part 7: end to end.  Composition of [build_trie_ok] with the lookup
   lemmas of Proofs.v: on the buffers the model of _build_trie returns for a well-formed table,
   every entry point of the lookup computes the back-off recursion on that table. *)
From Coq Require Import List ZArith Bool Arith Lia ZifyBool ZifyNat.
From PV Require Import C06.Model C06.Spec C06.Proofs C06.BuildBase C06.BuildSort C06.BuildLevels
  C06.BuildDescent C06.BuildClosure C06.BuildTrie.
Import ListNotations.
Local Open Scope Z_scope.

Lemma build_tail_consts V s N G U O I P uni higher bt :
  build_tail V s N G U O I P uni higher = Some bt -> bt_order bt = N /\ bt_gnodes bt = G.
Proof.
  unfold build_tail. cbv zeta.
  destruct (opt_all _); [|discriminate]. destruct (build_levels _ _ _ _ _); [|discriminate].
  destruct (infer_maxdesc _ _ _); [|discriminate]. intros [= <-]. split; reflexivity.
Qed.

Lemma build_trie_order V s dicts bt : build_trie V s dicts = Some bt -> bt_order bt = length dicts.
Proof.
  rewrite build_trie_core. destruct (rev dicts) as [|top lower]; [discriminate|].
  destruct (match top with [] => true | _ => false end); [discriminate|].
  destruct (negb _); [discriminate|]. unfold build_core. cbv zeta.
  destruct (map (fun d => map (ren_entry V s) d) (closed0 V s top lower)) as [|uni higher]; [discriminate|].
  intros H. apply build_tail_consts in H. apply H.
Qed.

Lemma wf_table_ok V s dicts : wf_dicts V s dicts = true -> tab_ok V s (table_of dicts).
Proof.
  intros H. destruct (wf_dicts_spec V s dicts H) as (_ & Hwf & _).
  unfold tab_ok, table_of. rewrite Forall_forall. intros e He.
  apply in_concat in He as (d & Hd & He). apply In_nth_error in Hd as [i Hi].
  destruct (Hwf i d Hi) as [_ Hk]. apply (Hk e He).
Qed.

Section EndToEnd.
  Variables (V s : Z) (dicts : list dict) (bt : built).
  Hypothesis Hwf : wf_dicts V s dicts = true.
  Hypothesis Hbuild : build_trie V s dicts = Some bt.
  Let b := bt_bufs bt.
  Let sh := built_shape V s bt.
  Let t := table_of dicts.

  Lemma built_trie : TrieOK b sh (tmap sh t).
  Proof. exact (build_trie_ok V s dicts bt Hwf Hbuild). Qed.

  Lemma built_tab : tab_ok (vocab sh) (sos sh) t.
  Proof. exact (wf_table_ok V s dicts Hwf). Qed.

  Lemma built_order : order sh = length dicts.
  Proof. exact (build_trie_order V s dicts bt Hbuild). Qed.

  (* one batch element, one context window of N-1 tokens (each a vocabulary id or sos) *)
  Lemma build_then_lookup w v hidx :
    (length w = length dicts - 1)%nat -> (1 <= length w)%nat ->
    Forall (tok_ok V s) w -> 0 <= v < V -> Z.of_nat (length w) <= hidx ->
    lookup1 b sh hidx (mapwin sh w) v = katz t w v.
  Proof.
    intros Hlen Hpos Hw Hv Hidx. pose proof (wf_dicts_spec V s dicts Hwf) as (HV & _).
    rewrite (lookup1_trie b sh (tmap sh t) (mapwin sh w) v hidx built_trie);
      rewrite ?mapwin_length; try assumption; try (rewrite built_order; lia).
    - apply (katz_tmap sh t w v built_tab); assumption.
    - apply last_mapwin_range; [cbn; lia| |exact Hw]. intros E. rewrite E in Hpos. cbn in Hpos. lia.
  Qed.

  Lemma build_then_index hist B i : hist_ok sh hist B -> (i <= length hist)%nat ->
    lookup_batch b sh hist B (Scalar (Z.of_nat i)) =
    Some (spec_at t (length dicts) V s hist B (repeat i B)).
  Proof.
    intros Hh Hi. destruct built_trie as (Hl & Ho & Hrest).
    rewrite lookup_batch_scalar by assumption. f_equal. rewrite <- built_order.
    apply (batch_rows_spec b sh t hist B _ (conj Hl (conj Ho Hrest)) built_tab Hh).
  Qed.

  Lemma build_then_index_vector hist B l : hist_ok sh hist B -> length l = B -> (2 <= B)%nat ->
    Forall (fun i => (i <= length hist)%nat) l ->
    lookup_batch b sh hist B (Vec (map Z.of_nat l)) = Some (spec_at t (length dicts) V s hist B l).
  Proof.
    intros Hh HlB HB Hil. destruct built_trie as (Hl & Ho & Hrest).
    rewrite lookup_batch_vec by assumption. f_equal. rewrite <- built_order.
    apply (batch_rows_spec b sh t hist B _ (conj Hl (conj Ho Hrest)) built_tab Hh).
  Qed.

  Lemma build_then_chunked hist B chunk : hist_ok sh hist B -> (1 <= chunk)%nat ->
    chunked b sh hist B chunk = Some (spec_full t (length dicts) V s hist B).
  Proof.
    intros Hh Hc. destruct built_trie as (Hl & Ho & Hrest).
    rewrite chunked_spec by (try assumption; apply Hh). f_equal. unfold spec_full.
    apply map_ext. intros i. unfold all_rows. rewrite <- built_order.
    apply (batch_rows_spec b sh t hist B _ (conj Hl (conj Ho Hrest)) built_tab Hh).
  Qed.

  Lemma build_then_forward_full hist B : hist_ok sh hist B ->
    forward b sh hist B None = Some (Full (spec_full t (length dicts) V s hist B)).
  Proof. intros Hh. unfold forward. rewrite build_then_chunked by (try assumption; lia). reflexivity. Qed.

  Lemma build_then_forward_index hist B i : hist_ok sh hist B -> - zlen hist - 1 <= i <= zlen hist ->
    forward b sh hist B (Some (Scalar i)) =
    Some (AtIdx (spec_at t (length dicts) V s hist B
                   (repeat (Z.to_nat ((i + zlen hist + 1) mod (zlen hist + 1))) B))).
  Proof.
    intros Hh Hi. unfold forward, norm_idx.
    rewrite if_false by lia.
    set (j := (i + zlen hist + 1) mod (zlen hist + 1)).
    assert (Hj : 0 <= j < zlen hist + 1) by (subst j; apply Z.mod_pos_bound; unfold zlen; lia).
    rewrite <- (Z2Nat.id j) at 1 by lia.
    rewrite build_then_index by (try assumption; unfold zlen in Hj; lia). reflexivity.
  Qed.
End EndToEnd.
