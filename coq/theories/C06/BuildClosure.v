(* C06 — build_trie_ok, part 5: the table _build_trie stores.
   The suffix closure (top-down), the unigram completion and the renaming of an
   out-of-vocabulary start symbol turn the caller's dictionaries into a chain of levels
   that is duplicate-free, suffix-closed, has all tokens in [0, V + shift), and differs from
   the caller's table only by (-inf, 0) entries. *)
From Coq Require Import List ZArith Bool Arith Lia ZifyBool ZifyNat Permutation Sorted.
From PV Require Import C06.Model C06.Spec C06.Proofs C06.BuildBase C06.BuildSort C06.BuildLevels.
Import ListNotations.
Local Open Scope Z_scope.

Definition neutral (e : list Z * (val * val)) : Prop := snd e = (NInf, Fin 0).

Lemma dhas_in d k : dhas d k = true <-> In k (map fst d).
Proof.
  unfold dhas. rewrite existsb_exists. split.
  - intros (e & He & Heq). apply list_eqb_eq in Heq. subst k. apply in_map. exact He.
  - intros H. apply in_map_iff in H as (e & <- & He). exists e. split; [exact He|apply list_eqb_refl].
Qed.

Lemma NoDup_snoc {A} (l : list A) x : NoDup l -> ~ In x l -> NoDup (l ++ [x]).
Proof.
  induction 1 as [|y l Hnin Hnd IH]; intros Hx; cbn [app]; [constructor; [intros []|constructor]|].
  constructor.
  - intros Hin. apply in_app_or in Hin as [Hin|[<-|[]]]; [contradiction|]. apply Hx. left. reflexivity.
  - apply IH. intros Hin. apply Hx. right. exact Hin.
Qed.

(* prob_dicts[n - 1][suffix] = -inf, 0.0 *)

Lemma add_missing_spec ks : forall lo, exists extra,
  add_missing lo ks = lo ++ extra /\ Forall neutral extra /\
  (forall e, In e extra -> In (fst e) ks) /\
  (forall k, In k ks -> In k (map fst (lo ++ extra))) /\
  (NoDup (map fst lo) -> NoDup (map fst (lo ++ extra))).
Proof.
  unfold add_missing. induction ks as [|k ks IH]; intros lo.
  - exists []. rewrite app_nil_r. cbn [fold_left]. repeat split; auto. intros k [].
  - cbn [fold_left]. destruct (dhas lo k) eqn:Eh.
    + destruct (IH lo) as (extra & E & Hn & Hk & Hc & Hd). exists extra. repeat split; auto.
      * intros e He. right. auto.
      * intros k' [<-|Hk']; [|auto]. rewrite map_app. apply in_or_app. left. apply dhas_in. exact Eh.
    + destruct (IH (lo ++ [(k, (NInf, Fin 0))])) as (extra & E & Hn & Hk & Hc & Hd).
      exists ((k, (NInf, Fin 0)) :: extra). rewrite E, <- app_assoc. cbn [app]. repeat split.
      * constructor; [reflexivity|exact Hn].
      * intros e [<-|He]; [left; reflexivity|right; auto].
      * intros k' [<-|Hk'].
        -- rewrite map_app. apply in_or_app. right. left. reflexivity.
        -- specialize (Hc k' Hk'). rewrite <- app_assoc in Hc. exact Hc.
      * intros Hnd. rewrite <- app_assoc in Hd. apply Hd.
        rewrite map_app. cbn [map fst]. apply NoDup_snoc; [exact Hnd|].
        intros Hin. apply dhas_in in Hin. congruence.
Qed.

Section Chains.
  Variable T : Z -> Prop.                       (* which tokens may occur *)

  Definition key_ok (n : nat) (k : list Z) : Prop := length k = n /\ Forall T k.
  Definition level_pre0 (n : nat) (d : dict) : Prop :=
    NoDup (map fst d) /\ forall e, In e d -> key_ok n (fst e).
  Definition level_pre (n : nat) (d : dict) : Prop := level_pre0 n d /\ d <> [].
  (* every entry's suffix is an entry one order down *)
  Definition sub (hi lo : dict) : Prop := forall e, In e hi -> In (tl (fst e)) (map fst lo).

  (* highest order first *)
  Fixpoint desc (m : nat) (l : list dict) : Prop :=
    match l with
    | [] => True
    | a :: r => level_pre m a /\ (match r with [] => True | lo :: _ => sub a lo end) /\ desc (pred m) r
    end.

  (* lowest order first *)
  Fixpoint asc (m : nat) (l : list dict) : Prop :=
    match l with
    | [] => True
    | a :: r => level_pre m a /\ (match r with [] => True | hi :: _ => sub hi a end) /\ asc (S m) r
    end.

  Fixpoint desc0 (m : nat) (l : list dict) : Prop :=
    match l with [] => True | a :: r => level_pre0 m a /\ desc0 (pred m) r end.

  Lemma asc_snoc : forall l m x, asc m l -> level_pre (m + length l) x ->
    (forall lo, hd_error (rev l) = Some lo -> sub x lo) -> asc m (l ++ [x]).
  Proof.
    induction l as [|a l IH]; intros m x Ha Hx Hsub.
    - cbn [app asc length] in *. rewrite Nat.add_0_r in Hx. auto.
    - cbn [app]. destruct Ha as (Hpa & Hadj & Ha). cbn [asc]. split; [exact Hpa|]. split.
      + destruct l as [|h l']; cbn [app]; [|exact Hadj]. apply Hsub. reflexivity.
      + apply IH; [exact Ha| |].
        * cbn [length] in Hx. replace (S m + length l)%nat with (m + S (length l))%nat by lia. exact Hx.
        * intros lo Hlo. apply Hsub. cbn [rev]. destruct (rev l) as [|y r] eqn:E; [discriminate|].
          cbn [app hd_error] in *. exact Hlo.
  Qed.

  Lemma desc_asc : forall l, desc (length l) l -> asc 1 (rev l).
  Proof.
    induction l as [|a r IH]; intros H; [exact I|]. cbn [length desc] in H. destruct H as (Hpa & Hadj & Hr).
    cbn [rev]. apply asc_snoc.
    - apply IH. exact Hr.
    - rewrite rev_length. exact Hpa.
    - intros lo Hlo. rewrite rev_involutive in Hlo. destruct r as [|lo' r']; [discriminate|].
      cbn in Hlo. injection Hlo as <-. exact Hadj.
  Qed.
End Chains.

Definition ext_of (d c : dict) : Prop := exists extra, c = d ++ extra /\ Forall neutral extra.

Lemma ext_of_refl d : ext_of d d.
Proof. exists []. rewrite app_nil_r. split; [reflexivity|constructor]. Qed.

Lemma ext_of_trans a b c : ext_of a b -> ext_of b c -> ext_of a c.
Proof.
  intros (x & -> & Hx) (y & -> & Hy). exists (x ++ y). rewrite app_assoc. split; [reflexivity|].
  apply Forall_app. split; assumption.
Qed.

Lemma close_down_head hi lower : exists t, close_down hi lower = hi :: t.
Proof. destruct lower; cbn [close_down]; eauto. Qed.

Lemma close_down_length : forall lower hi, length (close_down hi lower) = S (length lower).
Proof. induction lower as [|lo r IH]; intros hi; cbn [close_down length]; [reflexivity|]. rewrite IH. reflexivity. Qed.

Lemma Forall_tl {A} (P : A -> Prop) (l : list A) : Forall P l -> Forall P (tl l).
Proof. destruct 1; [constructor|assumption]. Qed.

Lemma close_down_spec T : forall lower hi,
  level_pre T (S (length lower)) hi -> desc0 T (length lower) lower ->
  desc T (S (length lower)) (close_down hi lower) /\ Forall2 ext_of (hi :: lower) (close_down hi lower).
Proof.
  induction lower as [|lo rest IH]; intros hi Hhi Hlow.
  - cbn [close_down desc length]. split; [auto|]. constructor; [apply ext_of_refl|constructor].
  - cbn [close_down length desc0] in *. destruct Hlow as [Hlo Hrest].
    set (ks := map (fun e => tl (fst e)) hi).
    destruct (add_missing_spec ks lo) as (extra & E & Hn & Hk & Hc & Hd).
    set (c := add_missing lo ks) in *.
    assert (Hpc : level_pre T (S (length rest)) c).
    { destruct Hhi as [[Hnd Hkeys] Hne]. destruct Hlo as [Hndl Hkl]. split; [split|].
      - rewrite E. apply Hd. exact Hndl.
      - intros e He. rewrite E in He. apply in_app_or in He as [He|He]; [apply Hkl; exact He|].
        specialize (Hk e He). unfold ks in Hk. apply in_map_iff in Hk as (e' & Heq & He').
        destruct (Hkeys e' He') as [Hl Ht]. rewrite <- Heq. split.
        + destruct (fst e'); cbn [length tl] in *; lia.
        + apply Forall_tl. exact Ht.
      - destruct hi as [|e0 hi']; [congruence|]. intros Ec.
        assert (Hin : In (tl (fst e0)) (map fst c)).
        { rewrite E. apply Hc. unfold ks. cbn [map]. left. reflexivity. }
        rewrite Ec in Hin. destruct Hin. }
    destruct (IH c Hpc Hrest) as [Hdesc Hf2].
    destruct (close_down_head c rest) as [t Et]. fold c. rewrite Et in *.
    split.
    + cbn [desc]. split; [exact Hhi|]. split; [|exact Hdesc].
      intros e He. rewrite E. apply Hc. unfold ks. apply in_map_iff. exists e. auto.
    + constructor; [apply ext_of_refl|]. inversion Hf2; subst. constructor; [|assumption].
      exists extra. split; [exact E|exact Hn].
Qed.

Lemma Forall2_snoc {A B} (R : A -> B -> Prop) l1 l2 x y : Forall2 R l1 l2 -> R x y ->
  Forall2 R (l1 ++ [x]) (l2 ++ [y]).
Proof. intros H Hxy. apply Forall2_app; [exact H|]. constructor; [exact Hxy|constructor]. Qed.

Lemma Forall2_rev {A B} (R : A -> B -> Prop) l1 l2 : Forall2 R l1 l2 -> Forall2 R (rev l1) (rev l2).
Proof.
  induction 1 as [|x y l1 l2 Hxy H IH]; [constructor|]. cbn [rev]. apply Forall2_snoc; assumption.
Qed.

Lemma Forall2_nth_error {A B} (R : A -> B -> Prop) l1 l2 : Forall2 R l1 l2 ->
  forall i x, nth_error l1 i = Some x -> exists y, nth_error l2 i = Some y /\ R x y.
Proof.
  induction 1 as [|x y l1 l2 Hxy H IH]; intros i a Hi; [destruct i; discriminate|].
  destruct i as [|i]; cbn [nth_error] in *.
  - injection Hi as <-. eauto.
  - apply IH. exact Hi.
Qed.

Lemma Forall2_len {A B} (R : A -> B -> Prop) l1 l2 : Forall2 R l1 l2 -> length l1 = length l2.
Proof. induction 1; cbn [length]; congruence. Qed.

Definition ren (V s x : Z) : Z := if shiftb V s && (x =? s) then V else x.
Definition ren_entry (V s : Z) (e : list Z * (val * val)) : list Z * (val * val) :=
  (map (ren V s) (fst e), snd e).
Definition uni_toks (V s : Z) : list Z := zrange V ++ (if shiftb V s then [s] else []).

Definition closed0 (V s : Z) (top : dict) (lower : list dict) : list dict :=
  match rev (close_down top lower) with
  | [] => []
  | uni :: higher => add_missing uni (map (fun x => [x]) (uni_toks V s)) :: higher
  end.

Definition closed (V s : Z) (top : dict) (lower : list dict) : list dict :=
  map (fun d => map (ren_entry V s) d) (closed0 V s top lower).

Definition in_range (n x : Z) : Prop := 0 <= x < n.

Lemma ren_range V s x : 0 <= V -> tok_ok V s x -> in_range (V + shiftz V s) (ren V s x).
Proof.
  unfold tok_ok, in_range, ren, shiftz. intros HV H. destruct (shiftb V s) eqn:Es; unfold shiftb in Es.
  - destruct (x =? s) eqn:Ex; cbn [andb]; lia.
  - cbn [andb]. lia.
Qed.

Lemma ren_inj V s x y : tok_ok V s x -> tok_ok V s y -> ren V s x = ren V s y -> x = y.
Proof.
  unfold tok_ok, ren. intros Hx Hy. destruct (shiftb V s) eqn:Es; unfold shiftb in Es; cbn [andb]; [|auto].
  destruct (x =? s) eqn:Ex, (y =? s) eqn:Ey; lia.
Qed.

Lemma map_ren_inj V s k : forall k', Forall (tok_ok V s) k -> Forall (tok_ok V s) k' ->
  map (ren V s) k = map (ren V s) k' -> k = k'.
Proof.
  induction k as [|x k IH]; intros [|y k'] Hk Hk' E; cbn [map] in E; try discriminate; [reflexivity|].
  inversion Hk; inversion Hk'; subst. injection E as E1 E2. f_equal; [apply (ren_inj V s); assumption|].
  apply IH; assumption.
Qed.

Lemma tl_map {A B} (f : A -> B) l : tl (map f l) = map f (tl l).
Proof. destruct l; reflexivity. Qed.

Lemma level_pre_ren V s n d : 0 <= V -> level_pre (tok_ok V s) n d ->
  level_pre (in_range (V + shiftz V s)) n (map (ren_entry V s) d).
Proof.
  intros HV [[Hnd Hk] Hne]. split; [split|].
  - rewrite map_map. cbn [ren_entry fst]. rewrite <- (map_map fst (map (ren V s))).
    apply NoDup_map_inj_in; [exact Hnd|]. intros a c Ha Hc.
    apply in_map_iff in Ha as (ea & <- & Ha). apply in_map_iff in Hc as (ec & <- & Hc).
    apply map_ren_inj; [apply (Hk ea Ha)|apply (Hk ec Hc)].
  - intros e He. apply in_map_iff in He as (e0 & <- & He0). destruct (Hk e0 He0) as [Hl Ht].
    cbn [ren_entry fst]. split; [rewrite map_length; exact Hl|].
    rewrite Forall_forall in *. intros x Hx. apply in_map_iff in Hx as (x0 & <- & Hx0).
    apply ren_range; auto.
  - destruct d; [congruence|discriminate].
Qed.

Lemma sub_ren V s hi lo : sub hi lo -> sub (map (ren_entry V s) hi) (map (ren_entry V s) lo).
Proof.
  intros H e He. apply in_map_iff in He as (e0 & <- & He0). cbn [ren_entry fst].
  rewrite tl_map, map_map. cbn [ren_entry fst]. rewrite <- (map_map fst (map (ren V s))).
  apply in_map. apply H. exact He0.
Qed.

Lemma asc_ren V s : 0 <= V -> forall l m, asc (tok_ok V s) m l ->
  asc (in_range (V + shiftz V s)) m (map (fun d => map (ren_entry V s) d) l).
Proof.
  intros HV. induction l as [|a r IH]; intros m H; [exact I|]. cbn [map asc] in *.
  destruct H as (Hp & Hadj & Hr). split; [apply level_pre_ren; assumption|]. split; [|apply IH; exact Hr].
  destruct r as [|h r']; [exact I|]. cbn [map]. apply sub_ren. exact Hadj.
Qed.

(* the caller's dictionaries: order i+1 at index i, no key listed twice *)
Definition dicts_wf (V s : Z) (dicts : list dict) : Prop :=
  forall i d, nth_error dicts i = Some d -> level_pre0 (tok_ok V s) (S i) d.

Lemma desc0_of_nth T : forall l, (forall i d, nth_error (rev l) i = Some d -> level_pre0 T (S i) d) ->
  desc0 T (length l) l.
Proof.
  induction l as [|a r IH]; intros H; [exact I|]. cbn [length desc0 pred]. cbn [rev] in H. split.
  - apply H. rewrite nth_error_app2 by (rewrite rev_length; lia). rewrite rev_length, Nat.sub_diag. reflexivity.
  - apply IH. intros i d Hi. apply H. rewrite nth_error_app1; [exact Hi|].
    apply nth_error_Some. rewrite Hi. discriminate.
Qed.

Section Closed.
  Variables (V s : Z) (dicts : list dict) (top : dict) (lower : list dict).
  Hypothesis HV : 0 <= V.
  Hypothesis Hrev : rev dicts = top :: lower.
  Hypothesis Hwf : dicts_wf V s dicts.
  Hypothesis Htop : top <> [].

  Lemma dicts_eq : dicts = rev lower ++ [top].
  Proof. rewrite <- (rev_involutive dicts), Hrev. reflexivity. Qed.

  Lemma top_pre : level_pre (tok_ok V s) (S (length lower)) top.
  Proof.
    split; [|exact Htop]. apply Hwf. rewrite dicts_eq.
    rewrite nth_error_app2 by (rewrite rev_length; lia). rewrite rev_length, Nat.sub_diag. reflexivity.
  Qed.

  Lemma lower_pre : desc0 (tok_ok V s) (length lower) lower.
  Proof.
    apply desc0_of_nth. intros i d Hi. apply Hwf. rewrite dicts_eq. rewrite nth_error_app1; [exact Hi|].
    apply nth_error_Some. rewrite Hi. discriminate.
  Qed.

  Lemma closed0_spec :
    exists uni higher, closed0 V s top lower = uni :: higher /\
      asc (tok_ok V s) 1 (uni :: higher) /\ Forall2 ext_of dicts (uni :: higher) /\
      (forall x, In x (uni_toks V s) -> In [x] (map fst uni)) /\
      (forall e, In e uni -> exists x, fst e = [x] /\ In x (uni_toks V s)).
  Proof.
    destruct (close_down_spec (tok_ok V s) lower top top_pre lower_pre) as [Hdesc Hf2].
    pose proof (close_down_length lower top) as Hlen.
    rewrite <- Hlen in Hdesc. apply desc_asc in Hdesc.
    apply Forall2_rev in Hf2. rewrite <- Hrev, rev_involutive in Hf2.
    unfold closed0. destruct (rev (close_down top lower)) as [|uni higher] eqn:Er.
    { apply (f_equal (@length dict)) in Er. rewrite rev_length, Hlen in Er. discriminate. }
    set (ks := map (fun x => [x]) (uni_toks V s)).
    destruct (add_missing_spec ks uni) as (extra & E & Hn & Hk & Hc & Hd).
    exists (add_missing uni ks), higher. split; [reflexivity|].
    cbn [asc] in Hdesc. destruct Hdesc as ([[Hnd Hkeys] Hne] & Hadj & Hrest).
    assert (Hkeys' : forall e, In e (add_missing uni ks) -> exists x, fst e = [x] /\ In x (uni_toks V s)).
    { intros e He. rewrite E in He. apply in_app_or in He as [He|He].
      - destruct (Hkeys e He) as [Hl Ht]. destruct (fst e) as [|x [|y t]] eqn:Ek; cbn [length] in Hl; try lia.
        exists x. split; [reflexivity|]. inversion Ht as [|? ? Hx _]; subst.
        unfold uni_toks. apply in_or_app. unfold tok_ok in Hx. destruct (shiftb V s) eqn:Es; unfold shiftb in Es.
        + destruct (Z.eq_dec x s) as [->|Hxs]; [right; left; reflexivity|left].
          unfold zrange. apply in_map_iff. exists (Z.to_nat x). split; [lia|apply in_seq; lia].
        + left. unfold zrange. apply in_map_iff. exists (Z.to_nat x). split; [lia|apply in_seq; lia].
      - specialize (Hk e He). unfold ks in Hk. apply in_map_iff in Hk as (x & <- & Hx). eauto. }
    split; [|split; [|split]].
    - cbn [asc]. split; [split; [split|]|split].
      + rewrite E. apply Hd. exact Hnd.
      + intros e He. destruct (Hkeys' e He) as (x & Ex & Hx). rewrite Ex. split; [reflexivity|].
        constructor; [|constructor]. unfold uni_toks in Hx. apply in_app_or in Hx as [Hx|Hx].
        * left. unfold zrange in Hx. apply in_map_iff in Hx as (k & <- & Hk'). apply in_seq in Hk'. lia.
        * destruct (shiftb V s); [|destruct Hx]. destruct Hx as [<-|[]]. right. reflexivity.
      + rewrite E. destruct uni; [congruence|discriminate].
      + destruct higher as [|h r]; [exact I|]. intros e He. rewrite E, map_app. apply in_or_app. left.
        apply Hadj. exact He.
      + exact Hrest.
    - inversion Hf2 as [|d1 u dr hr Hdu Hrest2]; subst. constructor; [|exact Hrest2].
      apply (ext_of_trans _ uni); [exact Hdu|]. exists extra. split; [exact E|exact Hn].
    - intros x Hx. rewrite E. apply Hc. unfold ks. apply in_map_iff. exists x. auto.
    - exact Hkeys'.
  Qed.
End Closed.
