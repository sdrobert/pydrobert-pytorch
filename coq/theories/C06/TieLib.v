(* C06 — running translated code by rule.  The expressions of the translated bodies are pure ([ev]): one rule per
   syntactic form splits an evaluation into those of the sub-expressions and one leaf about the operator itself; one
   rule per statement form pushes an assignment onto the frame [sets L st] of the variables written so far, over a base
   state [st] of which only some [lookup]s are known.  Nothing reduces the program text or walks the state. *)
From Coq Require Import ZArith QArith List String Bool.
From PV Require Import MiniPy.Syntax MiniPy.Interp MiniPy.Lemmas.
Import ListNotations.
Local Open Scope string_scope.

Fixpoint sets (L : list (string * val)) (st : state) : state :=
  match L with [] => st | (x, v) :: r => set_var x v (sets r st) end.

Lemma lookup_sets y L st :
  lookup y (vars (sets L st)) = match lookup y L with Some v => Some v | None => lookup y (vars st) end.
Proof.
  induction L as [|[x v] L IH]; cbn [sets set_var vars lookup].
  - destruct (lookup y (vars st)); reflexivity.
  - rewrite lookup_update. destruct (String.eqb y x); [reflexivity|exact IH].
Qed.

Lemma lookup_sets_new y v L st : lookup y L = Some v -> lookup y (vars (sets L st)) = Some v.
Proof. intros H. rewrite lookup_sets, H. reflexivity. Qed.

Lemma lookup_sets_old y v L st : lookup y L = None -> lookup y (vars st) = Some v -> lookup y (vars (sets L st)) = Some v.
Proof. intros H1 H2. rewrite lookup_sets, H1. exact H2. Qed.

Definition agrees (env : list (string * val)) (st : state) : Prop :=
  forall x v, lookup x env = Some v -> lookup x (vars st) = Some v.

Lemma agrees_nil st : agrees [] st.
Proof. intros x v H. discriminate H. Qed.

Lemma agrees_cons x v env st : lookup x (vars st) = Some v -> agrees env st -> agrees ((x, v) :: env) st.
Proof.
  intros H HA y w. cbn [lookup]. destruct (String.eqb_spec y x) as [->|_]; [|apply HA].
  intros E. injection E as <-. exact H.
Qed.

(* a variable of the frame is read off its concrete names; any other one off what is known of the base state *)
Ltac lk :=
  try match goal with s := sets _ _ |- lookup _ (vars ?s') = _ => constr_eq s s'; unfold s end;
  first [ apply lookup_sets_new; reflexivity
        | apply lookup_sets_old; [reflexivity | first [eassumption | match goal with HA : agrees _ _ |- _ => apply HA end; reflexivity | reflexivity]] ].
Ltac agrees_by := repeat (apply agrees_cons; [lk| ]); apply agrees_nil.

Section Rules.
  Variable ext : string -> list val -> list (string * val) -> state -> outcome val.

  Definition ev (e : expr) (st : state) (v : val) : Prop := eval ext e st = Ok v st.

  Definition plain (e : expr) : Prop := match e with EStar _ => False | _ => True end.

  Inductive evs : list expr -> state -> list val -> Prop :=
  | evs_nil st : evs [] st []
  | evs_cons e l v vs st : plain e -> ev e st v -> evs l st vs -> evs (e :: l) st (v :: vs).

  Inductive evkw : list (string * expr) -> state -> list (string * val) -> Prop :=
  | evkw_nil st : evkw [] st []
  | evkw_cons n e l v vs st : ev e st v -> evkw l st vs -> evkw ((n, e) :: l) st ((n, v) :: vs).

  (* copies of the argument evaluators local to [eval] *)
  Fixpoint evals (l : list expr) (st : state) : outcome (list val) :=
    match l with
    | [] => Ok [] st
    | EStar x :: r =>
        bind (eval ext x st) (fun v st1 =>
          match container_items v with
          | Some items => bind (evals r st1) (fun vs st2 => Ok (items ++ vs)%list st2)
          | None => Stuck "star of a non-container"
          end)
    | x :: r => bind (eval ext x st) (fun v st1 => bind (evals r st1) (fun vs st2 => Ok (v :: vs) st2))
    end.

  Fixpoint evalkw (l : list (string * expr)) (st : state) : outcome (list (string * val)) :=
    match l with
    | [] => Ok [] st
    | (n, x) :: r => bind (eval ext x st) (fun v st1 => bind (evalkw r st1) (fun vs st2 => Ok ((n, v) :: vs) st2))
    end.

  Lemma evals_pure l st vs : evs l st vs -> evals l st = Ok vs st.
  Proof.
    induction 1 as [|e l v vs st Hp He _ IH]; [reflexivity|].
    destruct e; try contradiction; cbn [evals]; rewrite He; cbn [bind]; rewrite IH; reflexivity.
  Qed.

  Lemma evalkw_pure l st vs : evkw l st vs -> evalkw l st = Ok vs st.
  Proof.
    induction 1 as [|n e l v vs st He _ IH]; [reflexivity|].
    cbn [evalkw]. rewrite He. cbn [bind]. rewrite IH. reflexivity.
  Qed.

  Lemma ev_const v st : ev (EConst v) st v.
  Proof. reflexivity. Qed.

  Lemma ev_name x st v : lookup x (vars st) = Some v -> ev (EName x) st v.
  Proof. intros H. unfold ev. cbn [eval]. rewrite H. reflexivity. Qed.

  Lemma ev_attr o a st ov r : ev o st ov -> attribute ext ov a st = Ok r st -> ev (EAttr o a) st r.
  Proof. intros Ho H. unfold ev. cbn [eval]. rewrite Ho. exact H. Qed.

  Lemma ev_sub o k st ov kv r : ev o st ov -> ev k st kv ->
    match subscript ov kv st with Stuck _ => ext "$getitem" [ov; kv] [] st | x => x end = Ok r st ->
    ev (ESub o k) st r.
  Proof. intros Ho Hk H. unfold ev. cbn [eval]. rewrite Ho. cbn [bind]. rewrite Hk. exact H. Qed.

  Lemma ev_bin op a b st av bv r : ev a st av -> ev b st bv ->
    match binop_eval op av bv st with Stuck _ => ext "operator" [VStr (binop_name op); av; bv] [] st | x => x end = Ok r st ->
    ev (EBin op a b) st r.
  Proof. intros Ha Hb H. unfold ev. cbn [eval]. rewrite Ha. cbn [bind]. rewrite Hb. exact H. Qed.

  Lemma ev_neg a st z : ev a st (VInt z) -> ev (ENeg a) st (VInt (- z)).
  Proof. intros Ha. unfold ev. cbn [eval]. rewrite Ha. reflexivity. Qed.

  Lemma ev_cmp op a b st av bv r : ev a st av -> ev b st bv ->
    (if (rich op && (foreign av || foreign bv))%bool then ext "compare" [VStr (cmpop_name op); av; bv] [] st
     else match cmp_eval op av bv with
          | Some c => Ok (VBool c) st
          | None => ext "compare" [VStr (cmpop_name op); av; bv] [] st
          end) = Ok r st ->
    ev (ECmp op a b) st r.
  Proof. intros Ha Hb H. unfold ev. cbn [eval]. rewrite Ha. cbn [bind]. rewrite Hb. exact H. Qed.

  Lemma ev_call f args kw st vs kvs r : evs args st vs -> evkw kw st kvs ->
    match kvs, builtin f vs st with [], Some o => o | _, _ => ext f vs kvs st end = Ok r st ->
    ev (ECall f args kw) st r.
  Proof.
    intros Ha Hk H. unfold ev. change (eval ext (ECall f args kw) st) with
      (bind (evals args st) (fun vs st1 => bind (evalkw kw st1) (fun kvs st2 =>
         match kvs, builtin f vs st2 with [], Some o => o | _, _ => ext f vs kvs st2 end))).
    rewrite (evals_pure _ _ _ Ha). cbn [bind]. rewrite (evalkw_pure _ _ _ Hk). exact H.
  Qed.

  Lemma ev_meth o m args st ov vs r : ev o st ov -> evs args st vs ->
    match method ov m vs with
    | Some (x, None) => Ok x st
    | None => ext ("$method." ++ m) (ov :: vs) [] st
    | _ => Stuck ("method " ++ m)
    end = Ok r st ->
    ev (EMeth o m args []) st r.
  Proof.
    intros Ho Ha H. unfold ev. change (eval ext (EMeth o m args []) st) with
      (bind (eval ext o st) (fun ov st1 => bind (evals args st1) (fun vs st2 =>
         match method ov m vs with
         | Some (x, None) => Ok x st2
         | None => ext ("$method." ++ m) (ov :: vs) [] st2
         | _ => Stuck ("method " ++ m)
         end))).
    rewrite Ho. cbn [bind]. rewrite (evals_pure _ _ _ Ha). exact H.
  Qed.

  Lemma ev_tuple items st vs : evs items st vs -> ev (ETupleLit items) st (VTuple vs).
  Proof.
    intros Ha. unfold ev. change (eval ext (ETupleLit items) st) with (bind (evals items st) (fun vs st1 => Ok (VTuple vs) st1)).
    rewrite (evals_pure _ _ _ Ha). reflexivity.
  Qed.

  Lemma ev_list items st vs : evs items st vs -> ev (EListLit items) st (VList vs).
  Proof.
    intros Ha. unfold ev. change (eval ext (EListLit items) st) with (bind (evals items st) (fun vs st1 => Ok (VList vs) st1)).
    rewrite (evals_pure _ _ _ Ha). reflexivity.
  Qed.

  Definition runs (P : stmt) (st : state) (Q : outcome ctl -> Prop) : Prop := Q (exec ext P st).

  Lemma runs_seq_assoc a b c st Q : runs (SSeq a (SSeq b c)) st Q -> runs (SSeq (SSeq a b) c) st Q.
  Proof.
    unfold runs. intros H. replace (exec ext (SSeq (SSeq a b) c) st) with (exec ext (SSeq a (SSeq b c)) st); [exact H|].
    cbn [exec]. destruct (exec ext a st) as [[|w] st1|n st1|w]; reflexivity.
  Qed.

  Lemma runs_assign x e b L st v Q : ev e (sets L st) v -> runs b (sets ((x, v) :: L) st) Q ->
    runs (SSeq (SAssign [TName x] e) b) (sets L st) Q.
  Proof. unfold runs. intros He H. cbn [exec assign_all store place_of]. rewrite He. exact H. Qed.

  Lemma runs_assign_last x e L st v (Q : outcome ctl -> Prop) : ev e (sets L st) v -> Q (Ok CNormal (sets ((x, v) :: L) st)) ->
    runs (SAssign [TName x] e) (sets L st) Q.
  Proof. unfold runs. intros He H. cbn [exec assign_all store place_of]. rewrite He. exact H. Qed.

  Lemma runs_assign3 x y z e b L st v Q : ev e (sets L st) v -> runs b (sets ((z, v) :: (y, v) :: (x, v) :: L) st) Q ->
    runs (SSeq (SAssign [TName x; TName y; TName z] e) b) (sets L st) Q.
  Proof. unfold runs. intros He H. cbn [exec assign_all store place_of]. rewrite He. exact H. Qed.

  Lemma exec_append x a L st l v : ev (EName x) (sets L st) (VList l) -> ev a (sets L st) v ->
    exec ext (SExpr (EMeth (EName x) "append" [a] [])) (sets L st) = Ok CNormal (sets ((x, VList (l ++ [v])) :: L) st).
  Proof. intros Hx Ha. cbn [exec]. rewrite Hx. cbn [bind]. rewrite Ha. reflexivity. Qed.

  Lemma runs_append_last x a L st l v (Q : outcome ctl -> Prop) : ev (EName x) (sets L st) (VList l) -> ev a (sets L st) v ->
    Q (Ok CNormal (sets ((x, VList (l ++ [v])) :: L) st)) -> runs (SExpr (EMeth (EName x) "append" [a] [])) (sets L st) Q.
  Proof. unfold runs. intros Hx Ha H. rewrite (exec_append _ _ _ _ _ _ Hx Ha). exact H. Qed.

  Lemma runs_if c t f b st cv Q : ev c st cv -> runs (SSeq (if truthy cv then t else f) b) st Q ->
    runs (SSeq (SIf c t f) b) st Q.
  Proof. unfold runs. intros Hc H. cbn [exec]. rewrite Hc. cbn [bind]. destruct (truthy cv); exact H. Qed.

  Lemma runs_pass b st Q : runs b st Q -> runs (SSeq SPass b) st Q.
  Proof. intros H. exact H. Qed.

  Lemma runs_raise n b st (Q : outcome ctl -> Prop) : Q (Exc n st) -> runs (SSeq (SRaise n) b) st Q.
  Proof. intros H. exact H. Qed.

  Lemma runs_assert e b st v Q : ev e st v -> truthy v = true -> runs b st Q -> runs (SSeq (SAssert e) b) st Q.
  Proof. unfold runs. intros He Hv H. cbn [exec]. rewrite He. cbn [bind]. rewrite Hv. exact H. Qed.

  Lemma runs_return e st v (Q : outcome ctl -> Prop) : ev e st v -> Q (Ok (CReturn v) st) -> runs (SReturn e) st Q.
  Proof. unfold runs. intros He H. cbn [exec]. rewrite He. exact H. Qed.

  Lemma runs_return_seq e b st v (Q : outcome ctl -> Prop) : ev e st v -> Q (Ok (CReturn v) st) -> runs (SSeq (SReturn e) b) st Q.
  Proof. unfold runs. intros He H. cbn [exec]. rewrite He. exact H. Qed.

  Lemma runs_for x e body b st items st1 Q : ev e st (VList items) ->
    for_loop ext x body items st = Ok CNormal st1 -> runs b st1 Q -> runs (SSeq (SFor x e body) b) st Q.
  Proof.
    unfold runs. intros He Hl H. rewrite exec_seq, exec_for, He. cbn [bind iter_items container_items]. rewrite Hl. exact H.
  Qed.

  Lemma run_returns body vars0 v :
    runs body (mkState vars0 []) (fun o => exists st, o = Ok (CReturn v) st) -> exists st, Interp.run ext body vars0 = Ok v st.
  Proof. intros (st & H). exists st. unfold Interp.run. rewrite H. reflexivity. Qed.

  Lemma run_raises body vars0 n :
    runs body (mkState vars0 []) (fun o => exists st, o = Exc n st) -> exists st, Interp.run ext body vars0 = Exc n st.
  Proof. intros (st & H). exists st. unfold Interp.run. rewrite H. reflexivity. Qed.
End Rules.

Arguments sets : simpl never.

(* [leaf] closes the goals about single operators, the only ones that depend on the unit.  The state is named first:
   every rule carries it, and the proof term should not hold the frame that often. *)
Ltac ev_by leaf :=
  lazymatch goal with
  | |- ev _ _ (sets ?L ?st) _ => let s := fresh "s" in set (s := sets L st); ev_at leaf
  | _ => ev_at leaf
  end
with ev_at leaf :=
  lazymatch goal with
  | |- ev _ (EConst _) _ _ => apply ev_const
  | |- ev _ (EName _) _ _ => apply ev_name; lk
  | |- ev _ (EAttr _ _) _ _ => eapply ev_attr; [ev_at leaf | leaf]
  | |- ev _ (ESub _ _) _ _ => eapply ev_sub; [ev_at leaf | ev_at leaf | leaf]
  | |- ev _ (EBin _ _ _) _ _ => eapply ev_bin; [ev_at leaf | ev_at leaf | leaf]
  | |- ev _ (ENeg _) _ _ => eapply ev_neg; ev_at leaf
  | |- ev _ (ECmp _ _ _) _ _ => eapply ev_cmp; [ev_at leaf | ev_at leaf | leaf]
  | |- ev _ (ECall _ _ _) _ _ => eapply ev_call; [evs_by leaf | evkw_by leaf | leaf]
  | |- ev _ (EMeth _ _ _ []) _ _ => eapply ev_meth; [ev_at leaf | evs_by leaf | leaf]
  | |- ev _ (ETupleLit _) _ _ => eapply ev_tuple; evs_by leaf
  | |- ev _ (EListLit _) _ _ => eapply ev_list; evs_by leaf
  end
with evs_by leaf :=
  lazymatch goal with
  | |- evs _ [] _ _ => apply evs_nil
  | |- evs _ (_ :: _) _ _ => eapply evs_cons; [exact I | ev_at leaf | evs_by leaf]
  end
with evkw_by leaf :=
  lazymatch goal with
  | |- evkw _ [] _ _ => apply evkw_nil
  | |- evkw _ (_ :: _) _ _ => eapply evkw_cons; [ev_at leaf | evkw_by leaf]
  end.

(* (the translator nests the statements of a tuple assignment) *)
Ltac run_by leaf :=
  lazymatch goal with
  | |- runs _ (SSeq (SAssign [TName _] _) _) _ _ => eapply runs_assign; [ev_by leaf| ]
  | |- runs _ (SSeq (SAssign [TName _; TName _; TName _] _) _) _ _ => eapply runs_assign3; [ev_by leaf| ]
  | |- runs _ (SSeq (SSeq _ _) _) _ _ => apply runs_seq_assoc
  | |- runs _ (SSeq SPass _) _ _ => apply runs_pass
  end.
(* `if`: the value of the condition is a test that a hypothesis [C : test = true / false] decides *)
Ltac if_by leaf :=
  eapply runs_if; [ev_by leaf| ]; cbn [truthy];
  match goal with C : ?c = _ |- context [if ?c then _ else _] => rewrite C end.
