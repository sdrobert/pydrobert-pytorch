(* C06 — build_trie_ok, part 3: the allocation loops of _build_trie, level by level.
   [LevOK] is the intermediate specification of the finished buffers: for every level, the
   cells of the parent level hold  first-child-position - own-position  (children counted in
   sorted order), and the cells of the level hold the label / log-probability / back-off of its
   entries in sorted order.  [build_levels_spec]: the model's `while prob_dicts` loop
   establishes it for every well-formed chain of levels. *)
From Coq Require Import List ZArith Bool Arith Lia ZifyBool ZifyNat Permutation Sorted.
From PV Require Import C06.Model C06.Spec C06.Proofs C06.BuildBase C06.BuildSort.
Import ListNotations.
Local Open Scope Z_scope.

Lemma dget_some {A} (d : list (list Z * A)) k v : dget d k = Some v -> In (k, v) d.
Proof.
  induction d as [|e d IH]; cbn [dget]; [discriminate|].
  destruct (list_eqb (fst e) k) eqn:E.
  - intros [= <-]. apply list_eqb_eq in E. subst k. left. destruct e; reflexivity.
  - intros H. right. apply IH. assumption.
Qed.

Lemma dget_in {A} (d : list (list Z * A)) k : In k (map fst d) -> dget d k <> None.
Proof.
  induction d as [|e d IH]; cbn [map dget]; intros H; [destruct H|].
  destruct (list_eqb (fst e) k) eqn:E; [discriminate|].
  destruct H as [H|H]; [rewrite H, list_eqb_refl in E; discriminate|]. apply IH. assumption.
Qed.

Lemma dget_nodup {A} (d : list (list Z * A)) k v : NoDup (map fst d) -> In (k, v) d -> dget d k = Some v.
Proof.
  induction d as [|e d IH]; cbn [map dget]; intros Hnd Hin; [destruct Hin|].
  inversion Hnd as [|? ? Hnin Hnd']; subst. destruct Hin as [->|Hin].
  - cbn [fst snd]. rewrite list_eqb_refl. reflexivity.
  - rewrite list_eqb_neq; [apply IH; assumption|].
    intros E. apply Hnin. rewrite E. change k with (fst (k, v)). apply in_map. assumption.
Qed.

Lemma nodup_fst_unique {A} (d : list (list Z * A)) k v v' : NoDup (map fst d) ->
  In (k, v) d -> In (k, v') d -> v = v'.
Proof.
  intros Hnd H1 H2. pose proof (dget_nodup d k v Hnd H1) as E1.
  pose proof (dget_nodup d k v' Hnd H2) as E2. congruence.
Qed.

Lemma removelast_rev (k : list Z) : removelast (rev k) = rev (tl k).
Proof. destruct k as [|x t]; [reflexivity|]. cbn [rev tl]. apply removelast_last. Qed.

Lemma last_rev (k : list Z) d : last (rev k) d = hd d k.
Proof. destruct k as [|x t]; [reflexivity|]. cbn [rev hd]. apply last_last. Qed.

Lemma zlen_pos {A} (l : list A) : l <> [] -> 1 <= zlen l.
Proof. unfold zlen. destruct l; [congruence|cbn [length]; lia]. Qed.

Lemma zlen_sort_rev d : zlen (sort_rev d) = zlen d.
Proof. unfold zlen. rewrite sort_rev_length. reflexivity. Qed.

(* absolute position of the parent of entry e (reversed key) *)
Definition ppar (parents : list (list Z * Z)) (ls : Z) (e : list Z * (val * val)) : Z :=
  match dget parents (removelast (fst e)) with Some pr => pr + ls | None => 0 end.

Fixpoint children_from (es : dict) (a : Z) : list (list Z * Z) :=
  match es with [] => [] | e :: r => (fst e, a) :: children_from r (a + 1) end.

Lemma fold_alloc U start ls il parents : forall es st,
  (forall e, In e es -> dget parents (removelast (fst e)) <> None) ->
  fold_left (alloc_one U start ls il parents) es (Some st) =
  Some (mkB (offs_loop (map (ppar parents ls) es) (b_offs st) (b_alloc st))
            (fill (map (fun e => last (fst e) 0) es) (b_ids st) (b_alloc st - U))
            (fill (map (fun e => fst (snd e)) es) (b_lps st) (b_alloc st))
            (if il then b_lbs st else fill (map (fun e => snd (snd e)) es) (b_lbs st) (b_alloc st))
            (b_children st ++ children_from es (b_alloc st - start))
            (b_alloc st + zlen es)).
Proof.
  induction es as [|e es IH]; intros st Hpar.
  - destruct st as [o i p b c a]. cbn. rewrite app_nil_r. destruct il; do 2 f_equal; unfold zlen; cbn; lia.
  - cbn [fold_left].
    destruct (dget parents (removelast (fst e))) as [pr|] eqn:Ed.
    2:{ exfalso. apply (Hpar e (or_introl eq_refl)). assumption. }
    assert (Hstep : alloc_one U start ls il parents (Some st) e =
      Some (mkB (backfill (S (length (b_offs st))) (b_offs st) (pr + ls) (b_alloc st))
                (pyset (b_ids st) (b_alloc st - U) (last (fst e) 0))
                (pyset (b_lps st) (b_alloc st) (fst (snd e)))
                (if il then b_lbs st else pyset (b_lbs st) (b_alloc st) (snd (snd e)))
                (b_children st ++ [(fst e, b_alloc st - start)])
                (b_alloc st + 1))).
    { unfold alloc_one. rewrite Ed. reflexivity. }
    rewrite Hstep.
    rewrite IH by (intros; apply Hpar; right; assumption).
    cbn [b_offs b_ids b_lps b_lbs b_children b_alloc map offs_loop fill children_from].
    assert (Hp : ppar parents ls e = pr + ls) by (unfold ppar; rewrite Ed; reflexivity). rewrite Hp.
    replace (b_alloc st + 1 - U) with (b_alloc st - U + 1) by lia.
    replace (b_alloc st + 1 - start) with (b_alloc st - start + 1) by lia.
    rewrite <- app_assoc. cbn [app].
    replace (b_alloc st + 1 + zlen es) with (b_alloc st + zlen (e :: es)) by (unfold zlen; cbn [length]; lia).
    destruct il; reflexivity.
Qed.

Lemma children_from_dget : forall es a i e, NoDup (map fst es) -> nth_error es i = Some e ->
  dget (children_from es a) (fst e) = Some (a + Z.of_nat i).
Proof.
  induction es as [|h es IH]; intros a i e Hnd Hi; [destruct i; discriminate|].
  cbn [children_from dget fst snd]. inversion Hnd as [|? ? Hnin Hnd']; subst.
  destruct i as [|i]; cbn [nth_error] in Hi.
  - injection Hi as ->. rewrite list_eqb_refl. f_equal. lia.
  - rewrite list_eqb_neq.
    + rewrite (IH (a + 1) i e Hnd' Hi). f_equal. lia.
    + intros E. apply Hnin. rewrite E. apply in_map. eapply nth_error_In. exact Hi.
Qed.

(* d: the closed, renamed dictionary of order n + 1 (keys earliest-first); pk: the reversed keys
   of the order-n level *)
Record level_wf (nuni : Z) (n : nat) (pk : list (list Z)) (d : dict) : Prop := mkLW
  { lw_nodup : NoDup (map fst d);
    lw_len : forall e, In e d -> length (fst e) = S n;
    lw_tok : forall e, In e d -> Forall (fun x => 0 <= x < nuni) (fst e);
    lw_par : forall e, In e d -> In (rev (tl (fst e))) pk;
    lw_ne : d <> [] }.

Fixpoint chain_wf (nuni : Z) (n : nat) (prev : dict) (ds : list dict) : Prop :=
  match ds with
  | [] => True
  | d :: rest => level_wf nuni n (map fst prev) d /\ chain_wf nuni (S n) (sort_rev d) rest
  end.

(* a sorted level: strictly increasing reversed keys, all of length n *)
Definition sorted_level (n : nat) (lv : dict) : Prop :=
  StronglySorted klt lv /\ forall e, In e lv -> length (fst e) = n.

Lemma sort_rev_level nuni n pk d : level_wf nuni n pk d -> sorted_level (S n) (sort_rev d).
Proof.
  intros H. split; [apply sort_rev_sorted, (lw_nodup _ _ _ _ H)|].
  intros [rk v] Hin. apply sort_rev_in in Hin. cbn [fst].
  rewrite <- (rev_length rk). apply (lw_len _ _ _ _ H _ Hin).
Qed.

Lemma sort_rev_parent nuni n pk d e : level_wf nuni n pk d -> In e (sort_rev d) ->
  In (removelast (fst e)) pk /\ length (fst e) = S n.
Proof.
  intros H Hin. destruct e as [rk v]. apply sort_rev_in in Hin. cbn [fst]. split.
  - rewrite <- (rev_involutive rk) at 1. rewrite removelast_rev. apply (lw_par _ _ _ _ H _ Hin).
  - rewrite <- (rev_length rk). apply (lw_len _ _ _ _ H _ Hin).
Qed.

Lemma sort_rev_ne nuni n pk d : level_wf nuni n pk d -> sort_rev d <> [].
Proof.
  intros H E. apply (f_equal (@length _)) in E. rewrite sort_rev_length in E.
  pose proof (lw_ne _ _ _ _ H). destruct d; [congruence|discriminate].
Qed.

(* parent positions of the sorted entries of a level *)
Definition ppos (pk : list (list Z)) (Lpos : Z) (lv : dict) : list Z :=
  map (fun e => Lpos + Z.of_nat (kindex (removelast (fst e)) pk)) lv.

Lemma ppos_length pk Lpos lv : length (ppos pk Lpos lv) = length lv.
Proof. apply map_length. Qed.

Lemma ppos_nth pk Lpos lv k e : nth_error lv k = Some e ->
  nth k (ppos pk Lpos lv) 0 = Lpos + Z.of_nat (kindex (removelast (fst e)) pk).
Proof.
  intros H. unfold ppos.
  apply nth_error_nth. rewrite nth_error_map, H. reflexivity.
Qed.

Section PposFacts.
  Variables (nuni : Z) (n : nat) (prev : dict) (d : dict) (Lpos : Z).
  Hypothesis Hprev : sorted_level n prev.
  Hypothesis Hwf : level_wf nuni n (map fst prev) d.
  Let lv := sort_rev d.
  Let ps := ppos (map fst prev) Lpos lv.

  Lemma ppos_range : Forall (fun p => Lpos <= p < Lpos + zlen prev) ps.
  Proof.
    unfold ps, ppos. rewrite Forall_forall. intros p Hp. apply in_map_iff in Hp as (e & <- & He).
    destruct (sort_rev_parent _ _ _ _ e Hwf He) as [Hin _].
    pose proof (kindex_lt _ _ Hin) as Hlt. rewrite map_length in Hlt. unfold zlen. lia.
  Qed.

  (* no parent lies below the level's first cell, all lie below its dummy cell *)
  Lemma ppos_count_lo : count_lt ps Lpos = 0.
  Proof.
    apply count_lt_none. pose proof ppos_range as Hr. rewrite Forall_forall in *.
    intros p Hp. specialize (Hr p Hp). lia.
  Qed.

  Lemma ppos_count_hi j : Lpos + zlen prev <= j -> count_lt ps j = zlen d.
  Proof.
    intros Hj. rewrite count_lt_all.
    - unfold zlen, ps. rewrite ppos_length. apply zlen_sort_rev.
    - pose proof ppos_range as Hr. rewrite Forall_forall in *. intros p Hp. specialize (Hr p Hp). lia.
  Qed.

  Lemma prev_nth_lt i j ki kj : (i < j)%nat -> nth_error (map fst prev) i = Some ki ->
    nth_error (map fst prev) j = Some kj -> lex_ltb ki kj = true.
  Proof.
    intros Hij Hi Hj. destruct Hprev as [Hs _].
    assert (Hjl : (j < length prev)%nat).
    { rewrite <- (map_length fst). apply nth_error_Some. rewrite Hj. discriminate. }
    pose proof (sorted_nth prev ([], (NaN, NaN)) Hs i j Hij Hjl) as Hlt. unfold klt in Hlt.
    rewrite nth_error_map in Hi, Hj.
    destruct (nth_error prev i) as [ei|] eqn:Ei; [|discriminate].
    destruct (nth_error prev j) as [ej|] eqn:Ej; [|discriminate].
    cbn in Hi, Hj. injection Hi as <-. injection Hj as <-.
    rewrite (nth_error_nth _ _ _ Ei), (nth_error_nth _ _ _ Ej) in Hlt. exact Hlt.
  Qed.

  Lemma ppos_nondecr : nondecr ps.
  Proof.
    unfold ps, ppos.
    apply (nondecr_map klt (fun e => In (removelast (fst e)) (map fst prev) /\ length (fst e) = S n)).
    - apply sort_rev_sorted, (lw_nodup _ _ _ _ Hwf).
    - rewrite Forall_forall. intros e He. apply (sort_rev_parent _ _ _ _ e Hwf He).
    - intros a b [Ha La] [Hb Lb] Hab.
      destruct (Nat.le_gt_cases (kindex (removelast (fst a)) (map fst prev))
                                (kindex (removelast (fst b)) (map fst prev))) as [Hle|Hgt]; [lia|].
      exfalso.
      pose proof (prev_nth_lt _ _ _ _ Hgt (kindex_nth _ _ Hb) (kindex_nth _ _ Ha)) as Hlt.
      assert (Hane : fst a <> []) by (intros E; rewrite E in La; cbn in La; lia).
      assert (Hbne : fst b <> []) by (intros E; rewrite E in Lb; cbn in Lb; lia).
      pose proof (app_removelast_last 0 Hane) as Ea. pose proof (app_removelast_last 0 Hbne) as Eb.
      assert (Hl : length (removelast (fst b)) = length (removelast (fst a))).
      { apply (f_equal (@length Z)) in Ea, Eb. rewrite app_length in Ea, Eb. cbn [length] in Ea, Eb. lia. }
      unfold klt in Hab. pose proof (lex_asym _ _ Hab) as Hba.
      rewrite Eb, Ea, lex_snoc, Hlt in Hba by assumption. discriminate.
  Qed.

  (* the parent cell of entry k holds the entry's key minus its last token *)
  Lemma ppos_parent k e : nth_error lv k = Some e ->
    exists i, nth k ps 0 = Lpos + Z.of_nat i /\ nth_error (map fst prev) i = Some (removelast (fst e)).
  Proof.
    intros Hk. exists (kindex (removelast (fst e)) (map fst prev)). split.
    - apply ppos_nth. exact Hk.
    - apply kindex_nth. apply nth_error_In in Hk. apply (sort_rev_parent _ _ _ _ e Hwf Hk).
  Qed.
End PposFacts.

Definition bufs_of (st : bstate) : bufs := mkBufs (b_offs st) (b_ids st) (b_lps st) (b_lbs st).

(* prev: the sorted parent level (reversed keys), stored from cell Lpos on; ds: the remaining
   closed dictionaries in increasing order *)
Fixpoint LevOK (b : bufs) (U : Z) (prev : dict) (Lpos : Z) (ds : list dict) : Prop :=
  match ds with
  | [] => True
  | d :: rest =>
      let lv := sort_rev d in
      let Lm := Lpos + zlen prev + 1 in
      let ps := ppos (map fst prev) Lpos lv in
      (forall j, Lpos <= j <= Lpos + zlen prev -> zget (offsets b) j 0 = Lm + count_lt ps j - j) /\
      (forall k e, nth_error lv k = Some e ->
         zget (ids b) (Lm + Z.of_nat k - U) 0 = last (fst e) 0 /\
         zget (logps b) (Lm + Z.of_nat k) NaN = fst (snd e) /\
         (rest <> [] -> zget (logbs b) (Lm + Z.of_nat k) NaN = snd (snd e))) /\
      (Lm + zlen lv <= zlen (logps b) /\ (rest <> [] -> Lm + zlen lv < zlen (offsets b)) /\
       (rest = [] -> zlen (offsets b) <= Lm)) /\
      LevOK b U lv Lm rest
  end.

Record st_ok (O I P Lpos start : Z) (st : bstate) : Prop := mkSO
  { so_alloc : b_alloc st = start;
    so_lo : zlen (b_offs st) = O; so_li : zlen (b_ids st) = I;
    so_lp : zlen (b_lps st) = P; so_lb : zlen (b_lbs st) = O;
    so_zero : forall q, Lpos <= q -> zget (b_offs st) q 0 = 0;
    so_nz : Lpos = 0 \/ zget (b_offs st) (Lpos - 1) 0 <> 0 }.

Definition parents_ok (parents : list (list Z * Z)) (prev : dict) (Lpos ls : Z) : Prop :=
  forall i k, nth_error (map fst prev) i = Some k -> dget parents k = Some (Lpos + Z.of_nat i - ls).

Fixpoint tot (ds : list dict) : Z := match ds with [] => 0 | d :: r => zlen d + 1 + tot r end.

Lemma tot_ge_length ds : Z.of_nat (length ds) + zlen (last ds []) <= tot ds.
Proof.
  induction ds as [|d r IH]; [cbn [length last tot]; unfold zlen; cbn [length]; lia|]. cbn [tot length]. destruct r as [|d' r'].
  - cbn [last tot length]. lia.
  - rewrite !last_cons. rewrite last_cons in IH. assert (0 <= zlen d) by (unfold zlen; lia).
    unfold dict in *. lia.
Qed.

Lemma tot_last ds : ds <> [] -> zlen (last ds []) + 1 <= tot ds.
Proof. intros H. pose proof (tot_ge_length ds). destruct ds; [congruence|cbn [length] in *; lia]. Qed.

(* the state after one level *)
Definition level_result (U : Z) (il : bool) (d : dict) (parents : list (list Z * Z)) (ls : Z)
  (st : bstate) : bstate :=
  let start := b_alloc st in
  let lv := sort_rev d in
  mkB (level_offs (map (ppar parents ls) lv) (b_offs st) start)
      (fill (map (fun e => last (fst e) 0) lv) (b_ids st) (start + 1 - U))
      (fill (map (fun e => fst (snd e)) lv) (pyset (b_lps st) start NaN) (start + 1))
      (if il then pyset (b_lbs st) start NaN
       else fill (map (fun e => snd (snd e)) lv) (pyset (b_lbs st) start NaN) (start + 1))
      [] (start + 1 + zlen lv).

Lemma build_levels_step U d rest parents ls st :
  (forall e, In e (sort_rev d) -> dget parents (removelast (fst e)) <> None) ->
  build_levels U (d :: rest) parents ls st =
  build_levels U rest (children_from (sort_rev d) 1) (b_alloc st)
    (level_result U (match rest with [] => true | _ => false end) d parents ls st).
Proof.
  intros Hpar. cbn [build_levels]. rewrite fold_alloc by assumption.
  cbn [b_offs b_ids b_lps b_lbs b_children b_alloc app].
  unfold level_result, level_offs.
  replace (b_alloc st + 1 - b_alloc st) with 1 by lia.
  replace (zlen (map (ppar parents ls) (sort_rev d))) with (zlen d)
    by (unfold zlen; rewrite map_length, sort_rev_length; reflexivity).
  destruct rest; reflexivity.
Qed.

Lemma nth_map_error {A B} (f : A -> B) l k e d : nth_error l k = Some e -> nth k (map f l) d = f e.
Proof. intros H. apply nth_error_nth. rewrite nth_error_map, H. reflexivity. Qed.

(* a slice written by [fill]: inside it the written values, outside it the old ones *)
Lemma zget_fill_map {A B} (f : B -> A) (xs : list B) d l i j k e : 0 <= i -> i + zlen xs <= zlen l ->
  j = i + Z.of_nat k -> nth_error xs k = Some e -> zget (fill (map f xs) l i) j d = f e.
Proof.
  intros Hi Hl -> Hk. assert (k < length xs)%nat by (apply nth_error_Some; rewrite Hk; discriminate).
  rewrite zget_fill by (unfold zlen in *; rewrite ?map_length; lia).
  replace ((i <=? i + Z.of_nat k) && (i + Z.of_nat k <? i + zlen (map f xs))) with true
    by (unfold zlen; rewrite map_length; lia).
  replace (Z.to_nat (i + Z.of_nat k - i)) with k by lia. apply nth_map_error. exact Hk.
Qed.

Lemma zget_fill_out {A} (xs : list A) d l i j : 0 <= i -> i + zlen xs <= zlen l -> j < i \/ i + zlen xs <= j ->
  zget (fill xs l i) j d = zget l j d.
Proof.
  intros Hi Hl Hj. rewrite zget_fill by assumption.
  rewrite if_false by lia. reflexivity.
Qed.

Lemma build_levels_spec U nuni O I P (HU : U = nuni + 1) (HI : I = P - U) :
  forall ds n prev Lpos parents ls st,
    chain_wf nuni n prev ds -> sorted_level n prev -> prev <> [] -> 0 <= Lpos ->
    st_ok O I P Lpos (Lpos + zlen prev) st -> parents_ok parents prev Lpos ls ->
    nuni <= Lpos + zlen prev ->
    (ds <> [] -> Lpos + zlen prev + tot ds = P /\ O = P - zlen (last ds [])) ->
    exists st', build_levels U ds parents ls st = Some st' /\
      LevOK (bufs_of st') U prev Lpos ds /\
      zlen (b_offs st') = O /\ zlen (b_ids st') = I /\ zlen (b_lps st') = P /\ zlen (b_lbs st') = O /\
      (forall q, q < Lpos -> zget (b_offs st') q 0 = zget (b_offs st) q 0) /\
      (forall q, q < Lpos + zlen prev + 1 - U -> zget (b_ids st') q 0 = zget (b_ids st) q 0) /\
      (forall q, q < Lpos + zlen prev -> zget (b_lps st') q NaN = zget (b_lps st) q NaN) /\
      (forall q, q < Lpos + zlen prev -> zget (b_lbs st') q NaN = zget (b_lbs st) q NaN).
Proof.
  induction ds as [|d rest IH]; intros n prev Lpos parents ls st Hwf Hprev Hpne HL Hst Hpar Hnuni Hsz.
  - exists st. destruct Hst. cbn [build_levels LevOK]. repeat split; auto.
  - destruct Hwf as [Hwf Hchain]. destruct (Hsz ltac:(discriminate)) as [HP HO]. clear Hsz.
    cbn [tot] in HP.
    set (start := Lpos + zlen prev) in *. set (lv := sort_rev d).
    set (ps := ppos (map fst prev) Lpos lv).
    pose proof (zlen_sort_rev d) as Hc. fold lv in Hc.
    assert (Hlvne : lv <> []) by apply (sort_rev_ne _ _ _ _ Hwf).
    pose proof (zlen_pos lv Hlvne) as Hc1. rewrite Hc in Hc1. pose proof (zlen_pos prev Hpne) as Hp1.
    assert (Htr : 0 <= tot rest) by (pose proof (tot_ge_length rest); unfold zlen in *; lia).
    assert (HstO : start < O /\ (rest <> [] -> start + 1 + zlen d < O) /\ (rest = [] -> O = start + 1)).
    { pose proof (tot_ge_length rest) as Ht. destruct rest as [|d' r']; [cbn [last tot] in *; repeat split; try congruence; lia|].
      rewrite !last_cons in HO. rewrite last_cons in Ht. cbn [length] in Ht. unfold dict in *.
      repeat split; try discriminate; lia. }
    destruct HstO as (HstO & HstO' & HstO'').
    destruct Hst as [Ha Hlo Hli Hlp Hlb Hz Hnz].
    (* every entry finds its parent *)
    assert (Hfound : forall e, In e lv -> dget parents (removelast (fst e)) <> None).
    { intros e He. destruct (sort_rev_parent _ _ _ _ e Hwf He) as [Hin _].
      apply In_nth_error in Hin as [i Hi]. rewrite (Hpar i _ Hi). discriminate. }
    assert (Hps : map (ppar parents ls) lv = ps).
    { unfold ps, ppos. apply map_ext_in. intros e He.
      destruct (sort_rev_parent _ _ _ _ e Hwf He) as [Hin _].
      unfold ppar. rewrite (Hpar _ _ (kindex_nth _ _ Hin)). lia. }
    rewrite build_levels_step by assumption.
    set (il := match rest with [] => true | _ => false end).
    set (st1 := level_result U il d parents ls st).
    (* the offsets after this level *)
    assert (Hoffs : forall j, zget (b_offs st1) j 0 =
              if (Lpos <=? j) && (j <=? start) then start + 1 + count_lt ps j - j else zget (b_offs st) j 0).
    { intros j. unfold st1, level_result. cbn [b_offs]. fold lv. rewrite Hps, Ha.
      apply level_offs_spec; try lia.
      - unfold ps. intros E. apply (f_equal (@length Z)) in E. rewrite ppos_length in E.
        unfold zlen in Hc, Hc1. cbn [length] in E. lia.
      - apply (ppos_nondecr nuni n prev d Lpos Hprev Hwf).
      - apply (ppos_range nuni n prev d Lpos Hwf). }
    assert (Hcnt : count_lt ps start = zlen d) by (apply (ppos_count_hi nuni n prev d Lpos Hwf); lia).
    assert (Hlen1 : zlen (b_offs st1) = O /\ zlen (b_ids st1) = I /\ zlen (b_lps st1) = P /\ zlen (b_lbs st1) = O).
    { unfold st1, level_result, zlen. cbn [b_offs b_ids b_lps b_lbs].
      rewrite level_offs_length, !fill_length, pyset_length. destruct il; rewrite ?fill_length, pyset_length; auto. }
    destruct Hlen1 as (Hlo1 & Hli1 & Hlp1 & Hlb1).
    assert (Hlvs : sorted_level (S n) lv) by (apply (sort_rev_level nuni n (map fst prev) d Hwf)).
    destruct (IH (S n) lv (start + 1) (children_from lv 1) (b_alloc st) st1) as (st' & Hb & HLev & Hlo' & Hli' & Hlp' & Hlb' & Fo & Fi & Fp & Fb);
      try assumption; try lia.
    { constructor; try assumption.
      - unfold st1, level_result. cbn [b_alloc]. fold lv. lia.
      - intros q Hq. rewrite Hoffs. rewrite if_false by lia. apply Hz. lia.
      - right. replace (start + 1 - 1) with start by lia. rewrite Hoffs.
        rewrite if_true by lia. lia. }
    { intros i k Hi. rewrite nth_error_map in Hi. destruct (nth_error lv i) as [e|] eqn:Ei; [|discriminate].
      cbn in Hi. injection Hi as <-.
      rewrite (children_from_dget lv 1 i e (sorted_NoDup lv (proj1 Hlvs)) Ei). f_equal. lia. }
    { intros Hr. rewrite Hc. split; [lia|]. rewrite HO, last_cons.
      destruct rest as [|d' r']; [congruence|]. rewrite !last_cons. reflexivity. }
    exists st'. split; [exact Hb|].
    assert (Hfill_pre : 0 <= start + 1 - U /\ start + 1 + zlen lv <= P) by lia.
    split; [|repeat split; try assumption].
    + cbn [LevOK]. fold lv. fold start. fold ps. split; [|split; [|split]].
      * intros j Hj. cbn [bufs_of offsets]. rewrite Fo by lia. rewrite Hoffs.
        rewrite if_true by lia. reflexivity.
      * intros k e Hk.
        assert (Hklt : Z.of_nat k < zlen lv).
        { unfold zlen. assert (k < length lv)%nat; [|lia]. apply nth_error_Some. rewrite Hk. discriminate. }
        cbn [bufs_of ids logps logbs]. split; [|split].
        -- rewrite Fi by lia. unfold st1, level_result. cbn [b_ids]. fold lv.
           apply (zget_fill_map (fun e0 => last (fst e0) 0) lv) with (k := k); [lia|unfold zlen in *; lia|lia|exact Hk].
        -- rewrite Fp by lia. unfold st1, level_result. cbn [b_lps]. fold lv.
           apply (zget_fill_map (fun e0 => fst (snd e0)) lv) with (k := k);
             [lia|unfold zlen in *; rewrite pyset_length; lia|lia|exact Hk].
        -- intros Hr. specialize (HstO' Hr). rewrite Fb by lia. unfold st1, level_result. cbn [b_lbs]. fold lv.
           replace il with false by (unfold il; destruct rest; [congruence|reflexivity]).
           apply (zget_fill_map (fun e0 => snd (snd e0)) lv) with (k := k);
             [lia|unfold zlen in *; rewrite pyset_length; lia|lia|exact Hk].
      * cbn [bufs_of logps offsets]. split; [lia|]. split; [intros Hr; specialize (HstO' Hr); lia|].
        intros Hr. specialize (HstO'' Hr). lia.
      * exact HLev.
    + intros q Hq. rewrite Fo by lia. rewrite Hoffs.
      rewrite if_false by lia. reflexivity.
    + intros q Hq. rewrite Fi by lia. unfold st1, level_result. cbn [b_ids]. fold lv.
      apply zget_fill_out; unfold zlen in *; rewrite ?map_length; lia.
    + intros q Hq. rewrite Fp by lia. unfold st1, level_result. cbn [b_lps]. fold lv.
      rewrite zget_fill_out by (unfold zlen in *; rewrite ?map_length, ?pyset_length; lia).
      apply zget_pyset_other; lia.
    + intros q Hq. rewrite Fb by lia. unfold st1, level_result. cbn [b_lbs]. fold lv.
      assert (Hil : il = true \/ (il = false /\ rest <> [])).
      { unfold il. destruct rest; [left; reflexivity|right; split; [reflexivity|discriminate]]. }
      destruct Hil as [E|[E Hr]]; rewrite E.
      * apply zget_pyset_other; lia.
      * specialize (HstO' Hr).
        rewrite zget_fill_out by (unfold zlen in *; rewrite ?map_length, ?pyset_length; lia).
        apply zget_pyset_other; lia.
Qed.
