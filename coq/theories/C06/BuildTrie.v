(* C06 — build_trie_ok, part 6: putting the layers together.
   [build_trie_ok]: for every well-formed list of dictionaries the buffers returned by the
   model of _build_trie represent the caller's table ([TrieOK], with the start symbol renamed
   when it is out of vocabulary) under the constants the model returns. *)
From Coq Require Import List ZArith Bool Arith Lia ZifyBool ZifyNat Permutation Sorted.
From PV Require Import C06.Model C06.Spec C06.Proofs C06.BuildBase C06.BuildSort C06.BuildLevels
  C06.BuildDescent C06.BuildClosure.
Import ListNotations.
Local Open Scope Z_scope.

(* build_trie after its checks and closure, as a function of the closed dictionaries *)

Definition build_tail (V s : Z) (N : nat) (G U O I P : Z) (uni : dict) (higher : list dict)
  : option built :=
  let one_mod_N := if Nat.eqb N 1 then 0 else 1 in
  let nuni := U - one_mod_N in
  match opt_all (map (fun x => dget uni [x]) (zrange nuni)) with
  | None => None
  | Some uvals =>
      let zeros := fun n => repeat 0 (Z.to_nat n) in
      let fzeros := fun n => repeat (Fin 0) (Z.to_nat n) in
      let lps0 := map fst uvals ++ fzeros (P - nuni) in
      let lbs0 := if Nat.eqb N 1 then fzeros O else map snd uvals ++ fzeros (O - nuni) in
      let parents := map (fun x => ([x], x)) (zrange (U - 1)) in
      match build_levels U higher parents 0 (mkB (zeros O) (zeros I) lps0 lbs0 [] nuni) with
      | None => None
      | Some st =>
          let offs := b_offs st in
          let bf := mkBufs offs (b_ids st) (b_lps st) (b_lbs st) in
          match infer_maxdesc V s offs with
          | None => None
          | Some S_ =>
              Some (mkBuilt bf N G S_
                      (match offs with [] => 0%nat | _ => int_width (zmax_list offs 0) end)
                      (int_width U))
          end
      end
  end.

Definition build_core (V s : Z) (N : nat) (cl0 : list dict) : option built :=
  let total := fold_right (fun d acc => zlen d + acc) 0 cl0 in
  let G := zlen (last cl0 []) in
  let U := V + shiftz V s + (if Nat.eqb N 1 then 0 else 1) in
  let O := total - G + (Z.of_nat N - 1) in
  match map (fun d => map (ren_entry V s) d) cl0 with
  | [] => None
  | uni :: higher => build_tail V s N G U O (O + G - U) (O + G) uni higher
  end.

Lemma build_trie_core V s dicts :
  build_trie V s dicts =
  match rev dicts with
  | [] => None
  | top :: lower =>
      if match top with [] => true | _ => false end then None else
      if negb (forallb (fun p => keys_okb V s (fst p) (snd p)) (combine (seq 1 (length dicts)) dicts))
      then None
      else build_core V s (length dicts) (closed0 V s top lower)
  end.
Proof. unfold build_trie. destruct (rev dicts) as [|top lower]; reflexivity. Qed.

Lemma asc_chain nuni : forall ds n pd prev,
  asc (in_range nuni) n (pd :: ds) -> (forall k, In k (map fst pd) -> In (rev k) (map fst prev)) ->
  chain_wf nuni n prev ds.
Proof.
  induction ds as [|d rest IH]; intros n pd prev Hasc Hk; [exact I|].
  cbn [asc] in Hasc. destruct Hasc as (_ & Hsub & ([[Hnd Hkeys] Hne] & Hadj & Hrest)).
  cbn [chain_wf]. split.
  - constructor; [exact Hnd| | | |exact Hne].
    + intros e He. apply (Hkeys e He).
    + intros e He. apply (Hkeys e He).
    + intros e He. apply Hk. apply Hsub. exact He.
  - apply (IH (S n) d).
    + cbn [asc]. split; [split; [split|]; assumption|]. split; assumption.
    + intros k Hin. apply in_map_iff in Hin as ([k' v] & <- & Hin). cbn [fst].
      change (rev k') with (fst (rev k', v)). apply in_map. apply sort_rev_in. rewrite rev_involutive. exact Hin.
Qed.

Definition uni_level (nuni : Z) (uvals : list (val * val)) : dict :=
  map (fun x => ([x], nth (Z.to_nat x) uvals (NaN, NaN))) (zrange nuni).

Lemma uni_level_length nuni uvals : 0 <= nuni -> zlen (uni_level nuni uvals) = nuni.
Proof. intros H. unfold zlen, uni_level, zrange. rewrite !map_length, seq_length. lia. Qed.

Lemma uni_level_nth nuni uvals i : (i < Z.to_nat nuni)%nat ->
  nth_error (uni_level nuni uvals) i = Some ([Z.of_nat i], nth i uvals (NaN, NaN)).
Proof.
  intros H. unfold uni_level, zrange. rewrite map_map, nth_error_map.
  rewrite (nth_error_nth' _ 0%nat) by (rewrite seq_length; exact H). rewrite seq_nth by exact H.
  cbn. rewrite Nat2Z.id. reflexivity.
Qed.

Lemma uni_level_sorted nuni uvals : sorted_level 1 (uni_level nuni uvals).
Proof.
  split.
  - unfold uni_level, zrange. rewrite map_map. generalize 0%nat as a. generalize (Z.to_nat nuni) as m.
    induction m as [|m IH]; intros a; cbn [seq map]; constructor; [apply IH|].
    rewrite Forall_forall. intros e He. apply in_map_iff in He as (k & <- & Hk). apply in_seq in Hk.
    unfold klt. cbn [fst lex_ltb]. lia.
  - intros e He. unfold uni_level in He. apply in_map_iff in He as (x & <- & _). reflexivity.
Qed.

Lemma uni_level_keys nuni uvals x : 0 <= x < nuni -> In [x] (map fst (uni_level nuni uvals)).
Proof.
  intros H. unfold uni_level. rewrite map_map. cbn [fst]. apply in_map_iff. exists x. split; [reflexivity|].
  unfold zrange. apply in_map_iff. exists (Z.to_nat x). split; [lia|apply in_seq; lia].
Qed.

Lemma opt_all_some {A B} (f : A -> option B) : forall l r, opt_all (map f l) = Some r ->
  length r = length l /\ forall i x, nth_error l i = Some x -> exists y, nth_error r i = Some y /\ f x = Some y.
Proof.
  induction l as [|a l IH]; intros r H; cbn [map opt_all] in H.
  - injection H as <-. split; [reflexivity|]. intros [|i] x Hx; discriminate.
  - destruct (f a) as [y|] eqn:Ea; [|discriminate]. destruct (opt_all (map f l)) as [r'|] eqn:Er; [|discriminate].
    injection H as <-. destruct (IH r' eq_refl) as [Hl Hn]. split; [cbn [length]; lia|].
    intros [|i] x Hx; cbn [nth_error] in *.
    + injection Hx as <-. eauto.
    + apply Hn. exact Hx.
Qed.

Lemma dget_singletons l x : In x l -> dget (map (fun x => ([x], x)) l) [x] = Some x.
Proof.
  induction l as [|y l IH]; intros H; [destruct H|]. cbn [map dget fst snd list_eqb].
  destruct (Z.eqb_spec y x) as [->|Hne]; cbn [andb]; [reflexivity|].
  apply IH. destruct H as [H|H]; [congruence|exact H].
Qed.

Lemma zmax_list_ge : forall t x y, In y (x :: t) -> y <= zmax_list t x.
Proof.
  induction t as [|z t IH]; intros x y H; cbn [zmax_list].
  - destruct H as [->|[]]. lia.
  - destruct H as [->|[->|H]].
    + pose proof (IH y y (or_introl eq_refl)). lia.
    + lia.
    + pose proof (IH x y (or_intror H)). lia.
Qed.

Lemma desc_span_max_le offs lo hi m : desc_span_max offs lo hi = Some m ->
  forall j, lo <= j -> j + 1 < hi -> zget offs (j + 1) 0 + 1 - zget offs j 0 <= m.
Proof.
  unfold desc_span_max. destruct ((hi <=? lo + 1) || (zlen offs <? hi)); [discriminate|].
  set (g := fun k => zget offs (k + 1) 0 + 1 - zget offs k 0).
  set (ks := map (fun k => lo + Z.of_nat k) (seq 0 (Z.to_nat (hi - 1 - lo)))).
  intros H j Hlo Hhi.
  assert (Hin : In (g j) (map g ks)).
  { apply in_map. unfold ks. apply in_map_iff. exists (Z.to_nat (j - lo)). split; [lia|apply in_seq; lia]. }
  destruct (map g ks) as [|x t]; [discriminate|]. injection H as <-.
  apply zmax_list_ge. exact Hin.
Qed.

Lemma SpanOK_mono b S_ S' : S_ <= S' -> forall ds prev Lpos, SpanOK b S_ prev Lpos ds -> SpanOK b S' prev Lpos ds.
Proof.
  intros Hle. induction ds as [|d rest IH]; intros prev Lpos H; [exact I|].
  destruct H as [H1 H2]. split; [|apply IH; exact H2]. intros j Hj. specialize (H1 j Hj). lia.
Qed.

Lemma maxdesc_loop_mono : forall fuel offs i S0 S_, maxdesc_loop fuel offs i S0 = Some S_ -> S0 <= S_.
Proof.
  induction fuel as [|f IH]; intros offs i S0 S_ H; cbn [maxdesc_loop] in H; [discriminate|].
  destruct (zlen offs <=? i); [injection H as <-; lia|].
  destruct (desc_span_max offs i (i + zget offs i 0)) as [m|]; [|discriminate].
  apply IH in H. lia.
Qed.

Lemma maxdesc_loop_span b nuni U : forall ds n prev Lpos fuel S0 S_,
  LevOK b U prev Lpos ds -> chain_wf nuni n prev ds -> sorted_level n prev ->
  (ds <> [] -> Lpos + zlen prev < zlen (offsets b)) -> (ds = [] -> zlen (offsets b) <= Lpos) ->
  maxdesc_loop fuel (offsets b) Lpos S0 = Some S_ -> SpanOK b S_ prev Lpos ds.
Proof.
  induction ds as [|d rest IH]; intros n prev Lpos fuel S0 S_ HLev Hch Hprev Hin Hend H; [exact I|].
  destruct fuel as [|f]; cbn [maxdesc_loop] in H; [discriminate|].
  specialize (Hin ltac:(discriminate)). assert (0 <= zlen prev) by (unfold zlen; lia).
  rewrite if_false in H by lia.
  cbn [LevOK] in HLev. destruct HLev as (Hoffs & _ & (_ & Hfit & Hlast) & HLev).
  destruct Hch as [Hwf Hch].
  set (lv := sort_rev d) in *. set (Lm := Lpos + zlen prev + 1) in *.
  assert (Hj : Lpos + zget (offsets b) Lpos 0 = Lm).
  { rewrite Hoffs by lia. unfold lv. rewrite (ppos_count_lo nuni n prev d Lpos Hwf). lia. }
  rewrite Hj in H. destruct (desc_span_max (offsets b) Lpos Lm) as [m|] eqn:Em; [|discriminate].
  cbn [SpanOK]. fold lv. fold Lm. split.
  - intros j Hjr. pose proof (desc_span_max_le _ _ _ _ Em j ltac:(lia) ltac:(unfold Lm; lia)) as Hle.
    apply maxdesc_loop_mono in H. lia.
  - apply (IH (S n) lv Lm f (Z.max S0 m) S_); try assumption.
    apply (sort_rev_level nuni n (map fst prev) d Hwf).
Qed.

Lemma mapwin_ren sh w : mapwin sh w = map (ren (vocab sh) (sos sh)) w.
Proof.
  unfold mapwin, ren. destruct (shiftb (vocab sh) (sos sh)); cbn [andb]; [reflexivity|].
  symmetry. apply map_id.
Qed.

Lemma tfind_in t : forall e, In e t -> tfind t (fst e) <> None.
Proof.
  induction t as [|h t IH]; intros e He; [destruct He|]. cbn [tfind].
  destruct (list_eqb (fst h) (fst e)) eqn:E; [discriminate|].
  destruct He as [->|He]; [rewrite list_eqb_refl in E; discriminate|]. apply IH. exact He.
Qed.

Lemma Forall2_nth_error_r {A B} (R : A -> B -> Prop) l1 l2 : Forall2 R l1 l2 ->
  forall i y, nth_error l2 i = Some y -> exists x, nth_error l1 i = Some x /\ R x y.
Proof.
  induction 1 as [|x y l1 l2 Hxy H IH]; intros i b Hi; [destruct i; discriminate|].
  destruct i as [|i]; cbn [nth_error] in *.
  - injection Hi as <-. eauto.
  - apply IH. exact Hi.
Qed.

(* level m+1 of the stored table = the caller's order-(m+1) entries (renamed) plus (-inf, 0) entries *)
Lemma closed_values sh dicts cl0 m c0 :
  dicts_wf (vocab sh) (sos sh) dicts -> Forall2 ext_of dicts cl0 -> nth_error cl0 m = Some c0 ->
  let t := tmap sh (concat dicts) in
  (forall k v, length k = S m -> tfind t k = Some v -> In (k, v) (map (ren_entry (vocab sh) (sos sh)) c0)) /\
  (forall k v, In (k, v) (map (ren_entry (vocab sh) (sos sh)) c0) -> tfind t k = None -> v = (NInf, Fin 0)).
Proof.
  intros Hwf Hf2 Hm t.
  destruct (Forall2_nth_error_r _ _ _ Hf2 m c0 Hm) as (d & Hd & (extra & Ec & Hn)).
  split.
  - intros k v Hlen Hf. destruct (tfind_some _ _ _ Hf) as (e & Hin & Hk & Hv).
    unfold t, tmap in Hin. apply in_map_iff in Hin as (e0 & <- & Hin0). cbn [fst snd] in Hk, Hv.
    apply in_concat in Hin0 as (d' & Hd' & He0). apply In_nth_error in Hd' as [j Hj].
    destruct (Hwf j d' Hj) as [_ Hkeys]. destruct (Hkeys e0 He0) as [Hl _].
    assert (j = m). { rewrite <- Hk, mapwin_length in Hlen. lia. } subst j.
    pose proof (eq_trans (eq_sym Hj) Hd) as Hdd. injection Hdd as ->.
    apply in_map_iff. exists e0. split.
    + unfold ren_entry. rewrite <- mapwin_ren, Hk, Hv. reflexivity.
    + rewrite Ec. apply in_or_app. left. exact He0.
  - intros k v Hin Hf. apply in_map_iff in Hin as (e0 & E & Hin0). unfold ren_entry in E.
    injection E as Ek Ev. rewrite Ec in Hin0. apply in_app_or in Hin0 as [Hin0|Hin0].
    + exfalso. assert (Hint : In (mapwin sh (fst e0), snd e0) t).
      { unfold t, tmap. apply in_map_iff. exists e0. split; [reflexivity|].
        apply in_concat. exists d. split; [eapply nth_error_In; exact Hd|exact Hin0]. }
      apply tfind_in in Hint. cbn [fst] in Hint. rewrite mapwin_ren, Ek in Hint. contradiction.
    + rewrite Forall_forall in Hn. rewrite <- Ev. apply (Hn e0 Hin0).
Qed.

(* the completed unigram dictionary has exactly V + shift entries *)

Lemma zrange_NoDup n : NoDup (zrange n).
Proof. unfold zrange. apply FinFun.Injective_map_NoDup; [|apply seq_NoDup]. intros a c H. lia. Qed.

Lemma zrange_in n x : In x (zrange n) <-> 0 <= x < n.
Proof.
  unfold zrange. rewrite in_map_iff. split.
  - intros (k & <- & Hk). apply in_seq in Hk. lia.
  - intros H. exists (Z.to_nat x). split; [lia|apply in_seq; lia].
Qed.

Lemma uni_toks_NoDup V s : NoDup (uni_toks V s).
Proof.
  unfold uni_toks. destruct (shiftb V s) eqn:Es; [|rewrite app_nil_r; apply zrange_NoDup].
  apply NoDup_snoc; [apply zrange_NoDup|]. rewrite zrange_in. unfold shiftb in Es. lia.
Qed.

Lemma uni_toks_length V s : 0 <= V -> zlen (uni_toks V s) = V + shiftz V s.
Proof.
  intros HV. unfold zlen, uni_toks, shiftz, zrange. rewrite app_length, map_length, seq_length.
  destruct (shiftb V s); cbn [length]; lia.
Qed.

Lemma uni_toks_in V s x : 0 <= V -> In x (uni_toks V s) -> 0 <= ren V s x < V + shiftz V s.
Proof.
  intros HV H. apply ren_range; [exact HV|]. unfold uni_toks in H. apply in_app_or in H as [H|H].
  - left. apply zrange_in. exact H.
  - destruct (shiftb V s); [|destruct H]. destruct H as [<-|[]]. right. reflexivity.
Qed.

Lemma uni_count V s (uni : dict) : 0 <= V -> NoDup (map fst uni) ->
  (forall x, In x (uni_toks V s) -> In [x] (map fst uni)) ->
  (forall e, In e uni -> exists x, fst e = [x] /\ In x (uni_toks V s)) ->
  zlen uni = V + shiftz V s.
Proof.
  intros HV Hnd Hc Hk. rewrite <- uni_toks_length by exact HV. unfold zlen. f_equal.
  rewrite <- (map_length fst uni), <- (map_length (fun x => [x]) (uni_toks V s)).
  apply Permutation_length. apply NoDup_Permutation; [exact Hnd| |].
  - apply FinFun.Injective_map_NoDup; [|apply uni_toks_NoDup]. intros a c E. congruence.
  - intros k. split.
    + intros Hin. apply in_map_iff in Hin as (e & <- & He). destruct (Hk e He) as (x & -> & Hx).
      apply in_map_iff. exists x. auto.
    + intros Hin. apply in_map_iff in Hin as (x & <- & Hx). apply Hc. exact Hx.
Qed.

Lemma tot_map (f : list Z * (val * val) -> list Z * (val * val)) (l : list dict) :
  tot (map (fun d => map f d) l) = fold_right (fun d acc => zlen d + acc) 0 l + zlen l.
Proof.
  unfold zlen. induction l as [|d l IH]; cbn [map tot fold_right length]; [reflexivity|].
  rewrite IH. unfold zlen. rewrite map_length. lia.
Qed.

Lemma level_at_nth : forall m ds prev Lpos, (m < length ds)%nat ->
  fst (level_at prev Lpos ds (S m)) = sort_rev (nth m ds []).
Proof.
  induction m as [|m IH]; intros ds prev Lpos Hm; destruct ds as [|d rest]; cbn [length] in Hm; try lia.
  - reflexivity.
  - cbn [level_at nth]. apply IH. lia.
Qed.

Lemma infer_maxdesc_span b V s nuni U S_ d rest prev1 :
  U = nuni + 1 -> nuni = V + shiftz V s -> zlen prev1 = nuni -> 1 <= nuni ->
  LevOK b U prev1 0 (d :: rest) -> chain_wf nuni 1 prev1 (d :: rest) -> sorted_level 1 prev1 ->
  nuni < zlen (offsets b) ->
  infer_maxdesc V s (offsets b) = Some S_ -> 0 <= S_ /\ SpanOK b S_ prev1 0 (d :: rest).
Proof.
  intros HU Hnuni Hlen Hn1 HLev Hch Hs Hlt H. unfold infer_maxdesc in H.
  rewrite if_false in H by lia.
  rewrite <- Hnuni, <- HU in H.
  destruct (negb ((0 <? U) && (U <=? zlen (offsets b)))); [discriminate|].
  destruct (desc_span_max (offsets b) 0 U) as [S0|] eqn:E0; [|discriminate].
  destruct (S0 <? 0) eqn:Eneg; [discriminate|].
  destruct (maxdesc_loop (S (length (offsets b))) (offsets b) U S0) as [S1|] eqn:El; [|discriminate].
  destruct (S1 <? U); [|discriminate]. injection H as <-.
  pose proof (maxdesc_loop_mono _ _ _ _ _ El) as Hmono. split; [lia|].
  cbn [SpanOK]. split.
  - intros j Hj. pose proof (desc_span_max_le _ _ _ _ E0 j ltac:(lia) ltac:(lia)). lia.
  - cbn [LevOK] in HLev. destruct HLev as (_ & _ & (_ & Hfit & Hlast) & HLev). destruct Hch as [Hwf Hch].
    replace (0 + zlen prev1 + 1) with U in * by lia.
    apply (maxdesc_loop_span b nuni U rest 2 (sort_rev d) U (S (length (offsets b))) S0 S1 HLev Hch); try assumption.
    apply (sort_rev_level nuni 1 (map fst prev1) d Hwf).
Qed.

Lemma opt_all_total {A B} (f : A -> option B) l : (forall x, In x l -> f x <> None) ->
  exists r, opt_all (map f l) = Some r.
Proof.
  induction l as [|a l IH]; intros H; [exists []; reflexivity|]. cbn [map opt_all].
  destruct (f a) as [y|] eqn:Ea; [|exfalso; apply (H a (or_introl eq_refl)); exact Ea].
  destruct IH as [r Er]; [intros x Hx; apply H; right; exact Hx|]. rewrite Er. eauto.
Qed.

Lemma nuni_pos V s : 1 <= V -> 1 <= V + shiftz V s.
Proof. unfold shiftz. destruct (shiftb V s); lia. Qed.

Lemma uni_key nuni uni higher : asc (in_range nuni) 1 (uni :: higher) ->
  forall e, In e uni -> exists x, fst e = [x] /\ 0 <= x < nuni.
Proof.
  intros Hasc e He. destruct Hasc as ([[_ Hk] _] & _). destruct (Hk e He) as [Hl Ht].
  destruct (fst e) as [|x [|y r]]; cbn [length] in Hl; try lia. exists x. split; [reflexivity|].
  inversion Ht; assumption.
Qed.

Lemma uvals_spec nuni (uni : dict) uvals :
  opt_all (map (fun x => dget uni [x]) (zrange nuni)) = Some uvals ->
  length uvals = Z.to_nat nuni /\
  forall x, 0 <= x < nuni -> In ([x], nth (Z.to_nat x) uvals (NaN, NaN)) uni.
Proof.
  intros H. destruct (opt_all_some _ _ _ H) as [Hl Hn]. split.
  - rewrite Hl. unfold zrange. rewrite map_length, seq_length. reflexivity.
  - intros x Hx. destruct (Hn (Z.to_nat x) x) as (y & Hy & Hd).
    { unfold zrange. rewrite nth_error_map, (nth_error_nth' _ 0%nat) by (rewrite seq_length; lia).
      rewrite seq_nth by lia. cbn. f_equal. lia. }
    rewrite (nth_error_nth _ _ _ Hy). apply dget_some. exact Hd.
Qed.

Section Tail.
  Variables (V s : Z) (N : nat) (G U O I P : Z) (uni : dict) (higher : list dict) (t : tab).
  Let nuni := V + shiftz V s.
  Hypothesis HV : 1 <= V.
  Hypothesis HN : N = S (length higher).
  Hypothesis Hasc : asc (in_range nuni) 1 (uni :: higher).
  Hypothesis Hcomp : forall x, 0 <= x < nuni -> In [x] (map fst uni).
  Hypothesis Hvals : forall m dm, nth_error (uni :: higher) m = Some dm ->
    (forall k v, length k = S m -> tfind t k = Some v -> In (k, v) dm) /\
    (forall k v, In (k, v) dm -> tfind t k = None -> v = (NInf, Fin 0)).

  Lemma uni_nodup : NoDup (map fst uni).
  Proof. apply Hasc. Qed.

  Hypothesis HU : U = nuni + (if Nat.eqb N 1 then 0 else 1).
  Hypothesis HI : I = P - U.
  Hypothesis HP : zlen uni + tot higher = P.
  Hypothesis HO : O = P - G.
  Hypothesis HG : G = zlen (last (uni :: higher) []).
  Hypothesis Huni : zlen uni = nuni.

  (* N >= 2: the unigram values are found and the level loop runs to completion, leaving buffers
     that meet the intermediate specification *)
  Lemma tail_levels : higher <> [] ->
    exists uvals st',
      opt_all (map (fun x => dget uni [x]) (zrange nuni)) = Some uvals /\
      build_levels U higher (map (fun x => ([x], x)) (zrange nuni)) 0
        (mkB (repeat 0 (Z.to_nat O)) (repeat 0 (Z.to_nat I))
             (map fst uvals ++ repeat (Fin 0) (Z.to_nat (P - nuni)))
             (map snd uvals ++ repeat (Fin 0) (Z.to_nat (O - nuni))) [] nuni) = Some st' /\
      LevOK (bufs_of st') U (uni_level nuni uvals) 0 higher /\
      chain_wf nuni 1 (uni_level nuni uvals) higher /\
      zlen (b_offs st') = O /\ zlen (b_ids st') = I /\ zlen (b_lps st') = P /\ zlen (b_lbs st') = O /\
      U = nuni + 1 /\ G = zlen (last higher []) /\ G + 1 <= tot higher /\ 0 <= G /\
      length uvals = Z.to_nat nuni /\
      (forall x, 0 <= x < nuni -> In ([x], nth (Z.to_nat x) uvals (NaN, NaN)) uni) /\
      (forall x, 0 <= x < nuni ->
         zget (b_lps st') x NaN = fst (nth (Z.to_nat x) uvals (NaN, NaN)) /\
         zget (b_lbs st') x NaN = snd (nth (Z.to_nat x) uvals (NaN, NaN))).
  Proof using HV HN Hasc Hcomp HU HI HP HO HG Huni.
    clear Hvals. intros Hhne. pose proof (nuni_pos V s HV) as Hn1. fold nuni in Hn1.
    destruct (opt_all_total (fun x => dget uni [x]) (zrange nuni)) as [uvals Euv].
    { intros x Hx. apply dget_in. apply Hcomp. apply zrange_in. exact Hx. }
    assert (HNe : Nat.eqb N 1 = false).
    { apply Nat.eqb_neq. rewrite HN. destruct higher; [congruence|cbn [length]; lia]. }
    rewrite HNe in HU.
    destruct (uvals_spec nuni uni uvals Euv) as [Hulen Huv].
    set (prev1 := uni_level nuni uvals).
    assert (Hp1len : zlen prev1 = nuni) by (apply uni_level_length; lia).
    assert (HGh : G = zlen (last higher [])).
    { rewrite HG. destruct higher; [congruence|]. rewrite !last_cons. reflexivity. }
    assert (Htl : G + 1 <= tot higher) by (rewrite HGh; apply tot_last; exact Hhne).
    assert (HG0 : 0 <= G) by (rewrite HG; unfold zlen; lia).
    assert (Hch : chain_wf nuni 1 prev1 higher).
    { apply (asc_chain nuni higher 1 uni prev1 Hasc). intros k Hk.
      apply in_map_iff in Hk as (e & <- & He). destruct (uni_key nuni uni higher Hasc e He) as (x & -> & Hx).
      apply uni_level_keys. exact Hx. }
    set (parents := map (fun x => ([x], x)) (zrange nuni)).
    set (st0 := mkB (repeat 0 (Z.to_nat O)) (repeat 0 (Z.to_nat I))
                    (map fst uvals ++ repeat (Fin 0) (Z.to_nat (P - nuni)))
                    (map snd uvals ++ repeat (Fin 0) (Z.to_nat (O - nuni))) [] nuni).
    destruct (build_levels_spec U nuni O I P HU HI higher 1 prev1 0 parents 0 st0)
      as (st' & Hb & HLev & Hlo & Hli & Hlp & Hlb & Fo & Fi & Fp & Fb); try assumption; try lia.
    { apply uni_level_sorted. }
    { intros E. rewrite E in Hp1len. unfold zlen in Hp1len. cbn in Hp1len. lia. }
    { rewrite Hp1len. unfold st0. constructor; cbn [b_alloc b_offs b_ids b_lps b_lbs]; unfold zlen;
        rewrite ?app_length, ?map_length, ?repeat_length, ?Hulen; try lia. intros q Hq. apply zget_repeat. }
    { intros i k Hi. rewrite nth_error_map in Hi.
      assert (Hil : (i < Z.to_nat nuni)%nat).
      { assert (i < length prev1)%nat; [|unfold zlen in Hp1len; lia]. apply nth_error_Some.
        destruct (nth_error prev1 i); [discriminate|discriminate Hi]. }
      unfold prev1 in Hi. rewrite (uni_level_nth nuni uvals i Hil) in Hi. cbn in Hi. injection Hi as <-.
      unfold parents. rewrite dget_singletons; [f_equal; lia|]. apply zrange_in. lia. }
    exists uvals, st'. repeat split; try assumption; try lia.
    all: rewrite ?Fp, ?Fb by lia; unfold st0; cbn [b_lps b_lbs];
      rewrite zget_app_l by (unfold zlen; rewrite map_length, Hulen; lia); rewrite zget_nth by lia.
    - change NaN with (fst (NaN, NaN)) at 1. apply map_nth.
    - change NaN with (snd (NaN, NaN)) at 1. apply map_nth.
  Qed.

  Lemma build_tail_unfold2 uvals st' : higher <> [] ->
    opt_all (map (fun x => dget uni [x]) (zrange nuni)) = Some uvals ->
    build_levels U higher (map (fun x => ([x], x)) (zrange nuni)) 0
      (mkB (repeat 0 (Z.to_nat O)) (repeat 0 (Z.to_nat I))
           (map fst uvals ++ repeat (Fin 0) (Z.to_nat (P - nuni)))
           (map snd uvals ++ repeat (Fin 0) (Z.to_nat (O - nuni))) [] nuni) = Some st' ->
    build_tail V s N G U O I P uni higher =
    match infer_maxdesc V s (b_offs st') with
    | None => None
    | Some S_ =>
        Some (mkBuilt (bufs_of st') N G S_
                (match b_offs st' with [] => 0%nat | _ => int_width (zmax_list (b_offs st') 0) end)
                (int_width U))
    end.
  Proof using HN Hasc Hcomp HU HP HG.
    clear Hvals. intros Hhne Euv Hb.
    assert (HNe : Nat.eqb N 1 = false).
    { apply Nat.eqb_neq. rewrite HN. destruct higher; [congruence|cbn [length]; lia]. }
    unfold build_tail. rewrite HNe. cbv zeta. rewrite HNe in HU.
    replace (U - 1) with nuni by lia. rewrite Euv, Hb. reflexivity.
  Qed.

  (* N = 1: no level loop, the buffers are the unigram log-probabilities *)
  Lemma tail_unigram : higher = [] -> exists uvals,
    length uvals = Z.to_nat nuni /\
    (forall x, 0 <= x < nuni -> In ([x], nth (Z.to_nat x) uvals (NaN, NaN)) uni) /\
    build_tail V s N G U O I P uni higher
    = Some (mkBuilt (mkBufs [] [] (map fst uvals) []) N G 0 0%nat (int_width U)) /\
    N = 1%nat /\ P = nuni /\ G = nuni /\ U = nuni.
  Proof using HV HN Hasc Hcomp HU HI HP HO HG Huni.
    clear Hvals. intros Eh.
    destruct (opt_all_total (fun x => dget uni [x]) (zrange nuni)) as [uvals Euv].
    { intros x Hx. apply dget_in. apply Hcomp. apply zrange_in. exact Hx. }
    destruct (uvals_spec nuni uni uvals Euv) as [Hulen Huv].
    assert (HN1 : N = 1%nat) by (rewrite HN, Eh; reflexivity).
    rewrite Eh in *. cbn [tot last] in *. rewrite HN1 in HU. cbn [Nat.eqb] in HU.
    exists uvals. repeat split; try assumption; try lia.
    unfold build_tail. rewrite HN1. cbn [Nat.eqb]. cbv zeta.
    replace (U - 0) with nuni by lia. rewrite Euv.
    replace O with 0 by lia. replace I with 0 by lia. replace (P - nuni) with 0 by lia.
    cbn [build_levels Z.to_nat repeat b_offs b_ids b_lps b_lbs]. rewrite app_nil_r. reflexivity.
  Qed.

  Lemma build_tail_ok2 bt : higher <> [] -> build_tail V s N G U O I P uni higher = Some bt ->
    TrieOK (bt_bufs bt) (mkShape V s (bt_order bt) (bt_gnodes bt) (Z.to_nat (bt_maxdesc bt))) t.
  Proof.
    intros Hhne H. pose proof (nuni_pos V s HV) as Hn1. fold nuni in Hn1.
    assert (HNe : Nat.eqb N 1 = false) by (apply Nat.eqb_neq; destruct higher; [congruence|cbn [length] in HN; lia]).
    destruct (tail_levels Hhne) as (uvals & st' & Euv & Hb & HLev & Hch & Hlo & Hli & Hlp & Hlb & HU' & HGh & Htl &
                                    HG0 & Hulen & Huv & Hlps1).
    rewrite (build_tail_unfold2 uvals st' Hhne Euv Hb) in H.
    set (prev1 := uni_level nuni uvals) in *.
    assert (Hp1len : zlen prev1 = nuni) by (apply uni_level_length; lia).
    destruct (infer_maxdesc V s (b_offs st')) as [S_|] eqn:Einf; [|discriminate].
    injection H as <-. cbn [bt_bufs bt_order bt_gnodes bt_maxdesc].
    set (b := bufs_of st'). set (sh := mkShape V s N G (Z.to_nat S_)).
    assert (Husz : usize sh = U).
    { unfold usize, sh. cbn [vocab sos order]. rewrite HNe. fold nuni. lia. }
    assert (Hpsz : psize b sh = zlen (logps b)).
    { unfold psize, osize, b, sh. cbn [bufs_of offsets logps gnodes]. lia. }
    destruct higher as [|d rest] eqn:Eh; [congruence|]. rewrite <- Eh in *.
    destruct (infer_maxdesc_span b V s nuni U S_ d rest prev1 HU' eq_refl Hp1len Hn1) as [HS0 Hspan];
      try (rewrite <- Eh; assumption).
    { apply uni_level_sorted. }
    { unfold b. cbn [bufs_of offsets]. lia. }
    { exact Einf. }
    rewrite <- Eh in Hspan.
    assert (HLev' : LevOK b (usize sh) prev1 0 higher) by (rewrite Husz; exact HLev).
    assert (Hspan' : SpanOK b (Z.of_nat (maxdesc sh)) prev1 0 higher).
    { unfold sh. cbn [maxdesc]. rewrite Z2Nat.id by lia. exact Hspan. }
    (* TrieOK *)
    split; [|split; [|split]].
    - unfold lens_ok. rewrite Hpsz. unfold osize, b. cbn [bufs_of offsets ids logps logbs].
      rewrite Husz. lia.
    - unfold sh. cbn [order]. lia.
    - unfold nroots, sh, b. cbn [vocab sos bufs_of logps]. fold nuni. lia.
    - intros x rest0 Hx Hlen. unfold nroots, sh in Hx. cbn [vocab sos] in Hx. fold nuni in Hx. fold sh in Hx.
      assert (Hord : order sh = S (length higher)) by (unfold sh; cbn [order]; exact HN).
      rewrite Hord in Hlen.
      set (i := Z.to_nat x).
      assert (Hi : nth_error prev1 i = Some ([x], nth i uvals (NaN, NaN))).
      { unfold prev1. rewrite (uni_level_nth nuni uvals i) by (unfold i; lia). unfold i. rewrite Z2Nat.id by lia.
        reflexivity. }
      destruct (descend_levels b sh nuni Hpsz rest0 higher 1 prev1 0 i _ HLev' Hch (uni_level_sorted nuni uvals)
                  Hspan' ltac:(lia) Hi) as [Hfound Hnone].
      cbv zeta in Hfound, Hnone. cbn [fst] in Hfound, Hnone.
      replace (0 + Z.of_nat i) with x in * by (unfold i; lia).
      unfold node_ok. rewrite node_at_fold. rewrite Hord.
      set (lf := level_at prev1 0 higher (length rest0)) in *.
      (* which entries the level of this node holds *)
      assert (Hlf : forall v, In (x :: rest0, v) (fst lf) <->
                In (rev (x :: rest0), v) (nth (length rest0) (uni :: higher) [])).
      { intros v. unfold lf. destruct rest0 as [|tok r0].
        - cbn [length level_at fst nth rev app]. split.
          + intros Hin. unfold prev1, uni_level in Hin. apply in_map_iff in Hin as (x' & E & Hx').
            injection E as <- <-. apply Huv. apply zrange_in. exact Hx'.
          + intros Hin. pose proof (Huv x Hx) as Hin'.
            rewrite (nodup_fst_unique uni [x] _ _ uni_nodup Hin Hin').
            unfold prev1, uni_level. apply in_map_iff. exists x. split; [reflexivity|apply zrange_in; exact Hx].
        - cbn [length]. rewrite level_at_nth by (cbn [length] in Hlen; lia).
          change (nth (S (length r0)) (uni :: higher) []) with (nth (length r0) higher []).
          apply sort_rev_in. }
      assert (Hnth : nth_error (uni :: higher) (length rest0) = Some (nth (length rest0) (uni :: higher) [])).
      { apply nth_error_nth'. cbn [length]. lia. }
      destruct (Hvals _ _ Hnth) as [Hv1 Hv2].
      assert (Hvalues : forall k e, nth_error (fst lf) k = Some e -> fst e = x :: rest0 ->
                zget (logps b) (snd lf + Z.of_nat k) NaN = fst (snd e) /\
                ((length rest0 < S (length higher) - 1)%nat ->
                 zget (logbs b) (snd lf + Z.of_nat k) NaN = snd (snd e) /\ snd lf + Z.of_nat k < osize b)).
      { intros k e Hk He. destruct rest0 as [|tok r0].
        - unfold lf in *. cbn [length level_at fst snd] in *.
          pose proof (sorted_NoDup prev1 (proj1 (uni_level_sorted nuni uvals))) as Hn.
          rewrite NoDup_nth_error in Hn.
          assert (k = i).
          { apply Hn; [rewrite map_length; apply nth_error_Some; rewrite Hk; discriminate|].
            rewrite !nth_error_map, Hk, Hi. cbn. f_equal. exact He. }
          subst k. rewrite Hi in Hk. injection Hk as <-. cbn [fst snd].
          replace (0 + Z.of_nat i) with x by (unfold i; lia). destruct (Hlps1 x Hx) as [Hp Hb'].
          split; [exact Hp|]. intros _. split; [exact Hb'|]. unfold osize, b. cbn [bufs_of offsets]. lia.
        - destruct (level_values b sh (length (tok :: r0)) higher prev1 0 k e HLev' ltac:(cbn [length] in *; lia) Hk)
            as [Hp Hb']. fold lf in Hp, Hb'. split; [exact Hp|]. intros Hin. apply Hb'. lia. }
      destruct (tfind t (rev (x :: rest0))) as [[p bo]|] eqn:Ef.
      + (* listed: the descent ends in its cell *)
        assert (Hin : In (x :: rest0, (p, bo)) (fst lf)).
        { apply Hlf. apply Hv1; [rewrite rev_length; reflexivity|exact Ef]. }
        apply In_nth_error in Hin as [k Hk].
        specialize (Hfound k _ Hk eq_refl). rewrite Hfound. cbn [fst snd].
        exists (snd lf + Z.of_nat k). split; [reflexivity|].
        destruct (Hvalues k _ Hk eq_refl) as [Hp Hb']. cbn [fst snd] in Hp, Hb'. split; [exact Hp|exact Hb'].
      + (* not listed: any cell reached holds (-inf, 0) *)
        intros j Hj.
        destruct (dget (fst lf) (x :: rest0)) as [v|] eqn:Eg.
        * apply dget_some in Eg. pose proof (proj1 (Hlf v) Eg) as Hcl.
          rewrite (Hv2 _ _ Hcl Ef) in *.
          apply In_nth_error in Eg as [k Hk]. specialize (Hfound k _ Hk eq_refl). rewrite Hfound in Hj.
          cbn [fst snd] in Hj. injection Hj as <-.
          destruct (Hvalues k _ Hk eq_refl) as [Hp Hb']. cbn [fst snd] in Hp, Hb'. split; [exact Hp|exact Hb'].
        * exfalso. rewrite Hnone in Hj; [discriminate|].
          intros e He Heq. apply (dget_in (fst lf) (x :: rest0)); [|exact Eg].
          change ([x] ++ rest0) with (x :: rest0) in Heq. rewrite <- Heq. apply in_map. exact He.
  Qed.

  Lemma build_tail_ok1 bt : higher = [] -> build_tail V s N G U O I P uni higher = Some bt ->
    TrieOK (bt_bufs bt) (mkShape V s (bt_order bt) (bt_gnodes bt) (Z.to_nat (bt_maxdesc bt))) t.
  Proof.
    intros Eh H. pose proof (nuni_pos V s HV) as Hn1. fold nuni in Hn1. destruct (tail_unigram Eh) as (uvals & Hulen & Huv & E & HN1 & HPn & HGn & HU').
    rewrite E in H. injection H as <-. cbn [bt_bufs bt_order bt_gnodes bt_maxdesc].
    set (b := mkBufs _ _ _ _). set (sh := mkShape V s N G (Z.to_nat 0)).
    assert (Hlps : forall x, 0 <= x < nuni -> zget (logps b) x NaN = fst (nth (Z.to_nat x) uvals (NaN, NaN))).
    { intros x Hx. unfold b. cbn [logps]. rewrite zget_nth by lia. change NaN with (fst (NaN, NaN)) at 1. apply map_nth. }
    split; [|split; [|split]].
    - unfold lens_ok, psize, osize, usize, b, sh, zlen. cbn [offsets ids logps logbs vocab sos order gnodes length].
      rewrite HN1. cbn [Nat.eqb]. fold nuni. rewrite map_length, Hulen. lia.
    - unfold sh. cbn [order]. lia.
    - unfold nroots, sh, b, zlen. cbn [vocab sos logps]. fold nuni. rewrite map_length, Hulen. lia.
    - intros x rest0 Hx Hlen. unfold nroots, sh in Hx. cbn [vocab sos] in Hx. fold nuni in Hx.
      unfold sh in Hlen. cbn [order] in Hlen. assert (rest0 = []) by (destruct rest0; [reflexivity|cbn [length] in Hlen; lia]).
      subst rest0. unfold node_ok, node_at. cbn [fold_left fst snd rev app length].
      destruct (Hvals 0%nat uni eq_refl) as [Hv1 Hv2]. pose proof (Huv x Hx) as Hin.
      destruct (tfind t [x]) as [[p bo]|] eqn:Ef.
      + exists x. split; [reflexivity|]. split; [|unfold sh; cbn [order]; lia].
        rewrite Hlps by exact Hx. pose proof (Hv1 [x] _ eq_refl Ef) as Hin'.
        rewrite (nodup_fst_unique uni [x] _ _ uni_nodup Hin Hin'). reflexivity.
      + intros j [= <-]. split; [|unfold sh; cbn [order]; lia].
        rewrite Hlps by exact Hx. rewrite (Hv2 _ _ Hin Ef). reflexivity.
  Qed.
End Tail.

Fixpoint nodupk (l : list (list Z)) : bool :=
  match l with [] => true | k :: t => negb (existsb (list_eqb k) t) && nodupk t end.

Lemma nodupk_NoDup l : nodupk l = true -> NoDup l.
Proof.
  induction l as [|k t IH]; cbn [nodupk]; intros H; [constructor|].
  apply andb_true_iff in H as [H1 H2]. constructor; [|apply IH; exact H2].
  intros Hin. apply negb_true_iff in H1. assert (existsb (list_eqb k) t = true); [|congruence].
  apply existsb_exists. exists k. split; [exact Hin|apply list_eqb_refl].
Qed.

(* what the Python code requires of prob_dicts (it raises ValueError otherwise), plus the fact
   that a Python dict lists no key twice:
   vocab_size >= 1; at least one dictionary; the highest-order one is not empty; every key of
   the i-th dictionary is a sequence of i tokens, each in range(vocab_size) or equal to sos *)
Definition wf_dicts (V s : Z) (dicts : list dict) : bool :=
  (1 <=? V)
  && negb (match dicts with [] => true | _ => false end)
  && negb (match last dicts [] with [] => true | _ => false end)
  && forallb (fun p => keys_okb V s (fst p) (snd p)) (combine (seq 1 (length dicts)) dicts)
  && forallb (fun d => nodupk (map fst d)) dicts.

Lemma in_combine_seq {A} : forall (l : list A) a i d, nth_error l i = Some d ->
  In ((a + i)%nat, d) (combine (seq a (length l)) l).
Proof.
  induction l as [|x l IH]; intros a i d Hi; [destruct i; discriminate|].
  cbn [length seq combine]. destruct i as [|i]; cbn [nth_error] in Hi.
  - injection Hi as <-. left. f_equal. lia.
  - right. replace (a + S i)%nat with (S a + i)%nat by lia. apply IH. exact Hi.
Qed.

Lemma wf_dicts_spec V s dicts : wf_dicts V s dicts = true ->
  1 <= V /\ dicts_wf V s dicts /\
  (exists top lower, rev dicts = top :: lower /\ top <> []) /\
  forallb (fun p => keys_okb V s (fst p) (snd p)) (combine (seq 1 (length dicts)) dicts) = true.
Proof.
  unfold wf_dicts. intros H.
  apply andb_true_iff in H as [H Hnd]. apply andb_true_iff in H as [H Hk].
  apply andb_true_iff in H as [H Hlast]. apply andb_true_iff in H as [HV Hne].
  split; [lia|]. split; [|split; [|exact Hk]].
  - intros i d Hi. split.
    + apply nodupk_NoDup. rewrite forallb_forall in Hnd. apply Hnd. eapply nth_error_In. exact Hi.
    + intros e He. rewrite forallb_forall in Hk.
      specialize (Hk _ (in_combine_seq dicts 1 i d Hi)). cbn [fst snd] in Hk.
      unfold keys_okb in Hk. rewrite forallb_forall in Hk. specialize (Hk e He).
      apply andb_true_iff in Hk as [Hl Ht]. split; [apply Nat.eqb_eq in Hl; lia|].
      apply toks_okb_ok. exact Ht.
  - destruct (rev dicts) as [|top lower] eqn:Er.
    + apply (f_equal (@rev dict)) in Er. rewrite rev_involutive in Er. rewrite Er in Hne. discriminate.
    + exists top, lower. split; [reflexivity|].
      assert (Hd : dicts = rev lower ++ [top]) by (rewrite <- (rev_involutive dicts), Er; reflexivity).
      rewrite Hd, last_last in Hlast. destruct top; [discriminate|discriminate].
Qed.

Lemma nth_error_map_some {A B} (g : A -> B) l m y : nth_error (map g l) m = Some y ->
  exists x, nth_error l m = Some x /\ y = g x.
Proof.
  rewrite nth_error_map. destruct (nth_error l m); cbn [option_map]; [|discriminate].
  intros [= <-]. eauto.
Qed.

Lemma last_map_len (f : list Z * (val * val) -> list Z * (val * val)) : forall (l : list dict) d0,
  zlen (last (map (fun d => map f d) l) (map f d0)) = zlen (last l d0).
Proof.
  induction l as [|x r IH]; intros d0; cbn [map].
  - cbn [last]. unfold zlen. rewrite map_length. reflexivity.
  - rewrite !last_cons. apply IH.
Qed.

Definition built_shape (V s : Z) (bt : built) : shape :=
  mkShape V s (bt_order bt) (bt_gnodes bt) (Z.to_nat (bt_maxdesc bt)).

(* the table the caller wrote: all dictionaries together *)
Definition table_of (dicts : list dict) : tab := concat dicts.

(* build_trie on a well-formed table = its second half run on the closed, renamed chain *)
Lemma build_trie_reduce V s dicts : wf_dicts V s dicts = true ->
  exists G U O uni higher,
    build_trie V s dicts = build_tail V s (length dicts) G U O (O + G - U) (O + G) uni higher /\
    length dicts = S (length higher) /\
    asc (in_range (V + shiftz V s)) 1 (uni :: higher) /\
    (forall x, 0 <= x < V + shiftz V s -> In [x] (map fst uni)) /\
    U = V + shiftz V s + (if Nat.eqb (length dicts) 1 then 0 else 1) /\
    zlen uni + tot higher = O + G /\
    G = zlen (last (uni :: higher) []) /\
    zlen uni = V + shiftz V s /\
    (forall sh, vocab sh = V -> sos sh = s -> forall m dm, nth_error (uni :: higher) m = Some dm ->
       (forall k v, length k = S m -> tfind (tmap sh (table_of dicts)) k = Some v -> In (k, v) dm) /\
       (forall k v, In (k, v) dm -> tfind (tmap sh (table_of dicts)) k = None -> v = (NInf, Fin 0))) /\
    (forall top lower, rev dicts = top :: lower -> closed V s top lower = uni :: higher).
Proof.
  intros Hwfb. destruct (wf_dicts_spec V s dicts Hwfb) as (HV & Hwf & (top & lower & Hrev & Htop) & Hk).
  rewrite build_trie_core, Hrev, Hk. cbn [negb].
  destruct top as [|e0 top']; [congruence|]. set (top := e0 :: top') in *.
  destruct (closed0_spec V s dicts top lower ltac:(lia) Hrev Hwf Htop)
    as (uni0 & higher0 & E0 & Hasc0 & Hf2 & Hcomp & Hukeys).
  pose proof (asc_ren V s ltac:(lia) _ _ Hasc0) as Hasc. cbn [map] in Hasc.
  assert (Huni0 : zlen uni0 = V + shiftz V s).
  { apply uni_count; try assumption; try lia. apply Hasc0. }
  assert (HN : length dicts = S (length higher0)) by (rewrite (Forall2_len _ _ _ Hf2); reflexivity).
  assert (Hvals : forall sh, vocab sh = V -> sos sh = s -> forall m dm,
            nth_error (map (fun d => map (ren_entry V s) d) (uni0 :: higher0)) m = Some dm ->
            (forall k v, length k = S m -> tfind (tmap sh (table_of dicts)) k = Some v -> In (k, v) dm) /\
            (forall k v, In (k, v) dm -> tfind (tmap sh (table_of dicts)) k = None -> v = (NInf, Fin 0))).
  { intros sh <- <- m dm Hm. apply nth_error_map_some in Hm as (c0 & Hc0 & ->).
    apply (closed_values sh dicts (uni0 :: higher0) m c0 Hwf Hf2 Hc0). }
  unfold build_core. rewrite E0. cbn [map].
  set (uni := map (ren_entry V s) uni0) in *.
  set (higher := map (fun d => map (ren_entry V s) d) higher0) in *.
  assert (Hcomp' : forall x, 0 <= x < V + shiftz V s -> In [x] (map fst uni)).
  { intros x Hx. unfold uni. rewrite map_map. cbn [ren_entry fst].
    assert (Hx0 : exists x0, In x0 (uni_toks V s) /\ ren V s x0 = x).
    { unfold uni_toks, ren, shiftz in *. destruct (shiftb V s) eqn:Es; unfold shiftb in Es; cbn [andb].
      - destruct (Z.eq_dec x V) as [->|Hne].
        + exists s. split; [apply in_or_app; right; left; reflexivity|]. rewrite if_true by lia. reflexivity.
        + exists x. split; [apply in_or_app; left; apply zrange_in; lia|]. rewrite if_false by lia. reflexivity.
      - exists x. split; [rewrite app_nil_r; apply zrange_in; lia|reflexivity]. }
    destruct Hx0 as (x0 & Hx0 & <-). specialize (Hcomp x0 Hx0).
    apply in_map_iff in Hcomp as (e & He & Hin). apply in_map_iff. exists e. split; [|exact Hin].
    rewrite He. reflexivity. }
  assert (Hzu : zlen uni = V + shiftz V s) by (unfold uni, zlen; rewrite map_length; exact Huni0).
  assert (Htot : zlen uni + tot higher =
                 fold_right (fun d acc => zlen d + acc) 0 (uni0 :: higher0) + (Z.of_nat (length dicts) - 1)).
  { unfold higher. rewrite tot_map. cbn [fold_right]. unfold zlen at 1. unfold uni. rewrite map_length.
    unfold zlen. lia. }
  assert (HG : zlen (last (uni0 :: higher0) []) = zlen (last (uni :: higher) [])).
  { change (uni :: higher) with (map (fun d => map (ren_entry V s) d) (uni0 :: higher0)).
    symmetry. apply (last_map_len (ren_entry V s) (uni0 :: higher0) []). }
  assert (HNh : length dicts = S (length higher)) by (unfold higher; rewrite map_length; exact HN).
  set (G := zlen (last (uni0 :: higher0) [])) in *.
  set (total := fold_right (fun d acc => zlen d + acc) 0 (uni0 :: higher0)) in *.
  set (U := V + shiftz V s + (if Nat.eqb (length dicts) 1 then 0 else 1)) in *.
  set (O := total - G + (Z.of_nat (length dicts) - 1)) in *.
  exists G, U, O, uni, higher. split; [reflexivity|]. split; [exact HNh|]. split; [exact Hasc|].
  split; [exact Hcomp'|]. split; [reflexivity|]. split; [unfold O; lia|]. split; [exact HG|]. split; [exact Hzu|]. split; [exact Hvals|].
  intros top2 lower2 Hrev2. injection Hrev2 as <- <-.
  unfold closed. rewrite E0. reflexivity.
Qed.

Theorem build_trie_ok V s dicts bt :
  wf_dicts V s dicts = true -> build_trie V s dicts = Some bt ->
  TrieOK (bt_bufs bt) (built_shape V s bt) (tmap (built_shape V s bt) (table_of dicts)).
Proof.
  intros Hwfb H. pose proof (wf_dicts_spec V s dicts Hwfb) as (HV & _).
  destruct (build_trie_reduce V s dicts Hwfb)
    as (G & U & O & uni & higher & E & HN & Hasc & Hcomp & HU & HP & HG & Huni & Hvals & _).
  rewrite E in H. specialize (Hvals (built_shape V s bt) eq_refl eq_refl).
  destruct higher as [|d0 r0] eqn:Eh; rewrite <- Eh in *.
  - apply (build_tail_ok1 V s (length dicts) G U O (O + G - U) (O + G) uni higher _ HV HN Hasc Hcomp Hvals);
      try reflexivity; try assumption; lia.
  - apply (build_tail_ok2 V s (length dicts) G U O (O + G - U) (O + G) uni higher _ HV HN Hasc Hcomp Hvals);
      try reflexivity; try assumption; try lia. rewrite Eh. discriminate.
Qed.
