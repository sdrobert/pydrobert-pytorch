(* C06 — build_trie_ok, part 9: load_state_dict's shape inference recovers the constants of the
   saved model ([infer_shape_roundtrip]): walking from dummy node to dummy node counts the levels and
   ends exactly at len(offsets) + max_ngram_nodes. *)
From Coq Require Import List ZArith Bool Arith Lia ZifyBool ZifyNat Permutation Sorted.
From PV Require Import C06.Model C06.Spec C06.Proofs C06.BuildBase C06.BuildSort C06.BuildLevels
  C06.BuildDescent C06.BuildClosure C06.BuildTrie C06.BuildEnd C06.BuildTotal.
Import ListNotations.
Local Open Scope Z_scope.

Lemma infer_loop_levels b nuni U : forall ds n prev Lpos fuel Nc Gc,
  LevOK b U prev Lpos ds -> chain_wf nuni n prev ds -> sorted_level n prev -> 0 <= Lpos ->
  (ds <> [] -> Lpos + zlen prev < zlen (offsets b)) ->
  (ds = [] -> zlen (offsets b) <= Lpos + zlen prev) -> (length ds < fuel)%nat ->
  infer_loop fuel (offsets b) (Lpos + zlen prev) Nc Gc =
  Some (Lpos + zlen prev + tot ds, (Nc + length ds)%nat,
        match ds with [] => Gc | _ => zlen (last ds []) end).
Proof.
  induction ds as [|d rest IH]; intros n prev Lpos fuel Nc Gc HLev Hch Hprev HL Hin Hend Hf.
  - destruct fuel as [|f]; [cbn in Hf; lia|]. cbn [infer_loop tot length].
    specialize (Hend eq_refl). rewrite if_true by lia.
    replace (Lpos + zlen prev + 0) with (Lpos + zlen prev) by lia. rewrite Nat.add_0_r. reflexivity.
  - destruct fuel as [|f]; [cbn in Hf; lia|]. cbn [infer_loop length] in *.
    specialize (Hin ltac:(discriminate)). assert (0 <= zlen prev) by (unfold zlen; lia).
    rewrite if_false by lia.
    cbn [LevOK] in HLev. destruct HLev as (Hoffs & _ & (_ & Hfit & Hlast) & HLev).
    destruct Hch as [Hwf Hch].
    set (lv := sort_rev d) in *. set (Lm := Lpos + zlen prev + 1) in *.
    pose proof (zlen_sort_rev d) as Hc. fold lv in Hc.
    assert (Ho : zget (offsets b) (Lpos + zlen prev) 0 = zlen lv + 1).
    { rewrite Hoffs by lia. unfold lv. rewrite (ppos_count_hi nuni n prev d Lpos Hwf) by lia. unfold Lm. rewrite zlen_sort_rev. lia. }
    rewrite Ho. assert (0 <= zlen lv) by (unfold zlen; lia).
    rewrite if_false by lia.
    replace (Lpos + zlen prev + (zlen lv + 1)) with (Lm + zlen lv) by (unfold Lm; lia).
    replace (zlen lv + 1 - 1) with (zlen lv) by lia.
    rewrite (IH (S n) lv Lm f (S Nc) (zlen lv) HLev Hch); try assumption; try lia;
      try (apply (sort_rev_level nuni n (map fst prev) d Hwf)); try (unfold Lm; lia);
      try (intros Hr; specialize (Hlast Hr); lia).
    cbn [tot]. f_equal. f_equal; [f_equal; [unfold Lm; lia|lia]|].
    destruct rest as [|d' r']; [cbn [last]; exact Hc|]. rewrite !last_cons. reflexivity.
Qed.

Lemma asc_chain_last_ne T : forall (higher : list dict) m uni, asc T m (uni :: higher) -> higher <> [] ->
  exists e r, last higher [] = e :: r.
Proof.
  induction higher as [|d rest IH]; intros m uni Hasc Hne; [congruence|].
  cbn [asc] in Hasc. destruct Hasc as (_ & _ & Hrest). destruct rest as [|d' r'].
  - cbn [last]. destruct Hrest as ([_ Hd] & _). destruct d as [|e r]; [congruence|]. exists e, r. reflexivity.
  - rewrite !last_cons. destruct (IH (S m) d Hrest ltac:(discriminate)) as (e & r & E).
    rewrite last_cons in E. exists e, r. exact E.
Qed.

Lemma build_tail_infer V s N G U O I P uni higher bt :
  1 <= V -> N = S (length higher) -> asc (in_range (V + shiftz V s)) 1 (uni :: higher) ->
  (forall x, 0 <= x < V + shiftz V s -> In [x] (map fst uni)) ->
  U = V + shiftz V s + (if Nat.eqb N 1 then 0 else 1) -> I = P - U -> zlen uni + tot higher = P ->
  O = P - G -> G = zlen (last (uni :: higher) []) -> zlen uni = V + shiftz V s ->
  build_tail V s N G U O I P uni higher = Some bt ->
  infer_shape V s (bt_bufs bt) = Some (N, G, bt_maxdesc bt).
Proof.
  intros HV HN Hasc Hcomp HU HI HP HO HG Huni H. set (nuni := V + shiftz V s) in *.
  pose proof (nuni_pos V s HV) as Hn1. fold nuni in Hn1.
  destruct higher as [|d rest] eqn:Eh.
  - (* unigram model *)
    rewrite <- Eh in *.
    destruct (tail_unigram V s N G U O I P uni higher HV HN Hasc Hcomp HU HI HP HO HG Huni Eh)
      as (uvals & Hulen & _ & E & HN1 & HPn & HGn & HU').
    rewrite E in H. injection H as <-.
    cbn [bt_bufs bt_maxdesc]. unfold infer_shape. cbn [ids offsets logps zlen length Z.of_nat Z.eqb negb andb].
    cbn [infer_maxdesc zlen length Z.of_nat Z.eqb].
    fold nuni.
    replace (zlen (map fst uvals) =? nuni) with true by (unfold zlen; rewrite map_length, Hulen; lia).
    cbn [negb]. rewrite HN1, HGn. reflexivity.
  - rewrite <- Eh in *. assert (Hhne : higher <> []) by (rewrite Eh; discriminate).
    destruct (tail_levels V s N G U O I P uni higher HV HN Hasc Hcomp HU HI HP HO HG Huni Hhne)
      as (uvals & st' & Euv & Hb & HLev & Hch & Hlo & Hli & Hlp & Hlb & HU' & HGh & Htl & HG0 & _).
    rewrite (build_tail_unfold2 V s N G U O I P uni higher HN Hasc Hcomp HU HP HG uvals st' Hhne Euv Hb) in H.
    destruct (infer_maxdesc V s (b_offs st')) as [S_|] eqn:ES; [|discriminate]. injection H as <-.
    cbn [bt_bufs bt_maxdesc]. unfold infer_shape. cbn [bufs_of ids offsets logps].
    assert (HGpos : 1 <= G).
    { rewrite HGh. destruct (asc_chain_last_ne (in_range nuni) higher 1 uni Hasc Hhne) as (e & r & Hx).
      unfold zlen. rewrite Hx. cbn [length]. lia. }
    assert (HI1 : 1 <= I) by (fold nuni in HU'; lia).
    rewrite if_true by lia.
    fold nuni. fold nuni in HU'. rewrite <- HU'.
    rewrite if_false by lia.
    pose proof (infer_loop_levels (bufs_of st') nuni U higher 1 (uni_level nuni uvals) 0
                  (S (length (b_offs st'))) 1%nat (U - 1) HLev Hch (uni_level_sorted nuni uvals)) as Hloop.
    rewrite (uni_level_length nuni uvals ltac:(lia)) in Hloop. cbn [bufs_of offsets] in Hloop.
    replace (0 + nuni) with (U - 1) in Hloop by lia.
    rewrite Hloop; try lia.
    + replace (U - 1 + tot higher =? zlen (b_offs st') + match higher with [] => U - 1 | _ :: _ => zlen (last higher []) end)
        with true.
      * rewrite ES. f_equal. f_equal. f_equal; [lia|]. destruct higher; [congruence|]. symmetry. exact HGh.
      * destruct higher; [congruence|]. rewrite <- HGh. lia.
    + intros E. congruence.
    + assert (Hge : Z.of_nat (length higher) + G <= tot higher) by (rewrite HGh; apply tot_ge_length).
      unfold zlen in Hlo. lia.
Qed.

(* load_state_dict on the saved buffers infers exactly the constants of the saved model *)
Theorem infer_shape_roundtrip V s dicts bt :
  wf_dicts V s dicts = true -> build_trie V s dicts = Some bt ->
  infer_shape V s (bt_bufs bt) = Some (bt_order bt, bt_gnodes bt, bt_maxdesc bt).
Proof.
  intros Hwfb H. pose proof (wf_dicts_spec V s dicts Hwfb) as (HV & _).
  destruct (build_trie_reduce V s dicts Hwfb) as (G & U & O & uni & higher & E & HN & Hasc & Hcomp & HU & HP & HG & Huni & _).
  rewrite E in H. destruct (build_tail_consts _ _ _ _ _ _ _ _ _ _ _ H) as [-> ->].
  apply (build_tail_infer V s (length dicts) G U O (O + G - U) (O + G) uni higher bt HV HN Hasc Hcomp HU);
    try assumption; lia.
Qed.

(* max_direct_descendants is a natural number *)
Lemma infer_maxdesc_nonneg V s offs S_ : infer_maxdesc V s offs = Some S_ -> 0 <= S_.
Proof.
  unfold infer_maxdesc. destruct (zlen offs =? 0); [intros [= <-]; lia|].
  destruct (negb _); [discriminate|]. destruct (desc_span_max offs 0 _) as [S0|]; [|discriminate].
  destruct (S0 <? 0) eqn:E0; [discriminate|].
  destruct (maxdesc_loop _ offs _ S0) as [S1|] eqn:E1; [|discriminate].
  destruct (S1 <? _); [|discriminate]. intros [= <-]. apply maxdesc_loop_mono in E1. lia.
Qed.

(* a freshly constructed instance that loads the saved buffers is the saved model: the inference
   succeeds, and whatever constants it returns give the same outputs for every query *)
Theorem reload_same_full V s dicts bt :
  wf_dicts V s dicts = true -> build_trie V s dicts = Some bt ->
  (exists N G S_, infer_shape V s (bt_bufs bt) = Some (N, G, S_)) /\
  forall N G S_, infer_shape V s (bt_bufs bt) = Some (N, G, S_) ->
  forall hist B ix,
    forward (bt_bufs bt) (mkShape V s N G (Z.to_nat S_)) hist B ix =
    forward (bt_bufs bt) (built_shape V s bt) hist B ix.
Proof.
  intros Hwfb H. pose proof (infer_shape_roundtrip V s dicts bt Hwfb H) as Hr. split; [eauto|].
  intros N G S_ Hi hist B ix. rewrite Hr in Hi. injection Hi as <- <- <-. reflexivity.
Qed.

(* which inputs the constructor rejects: it returns only if there is at least one dictionary, the
   highest-order one is not empty and every key has the right length and admissible tokens *)
Lemma build_trie_some_requires V s dicts bt : build_trie V s dicts = Some bt ->
  dicts <> [] /\ last dicts [] <> [] /\
  forallb (fun p => keys_okb V s (fst p) (snd p)) (combine (seq 1 (length dicts)) dicts) = true.
Proof.
  rewrite build_trie_core. destruct (rev dicts) as [|top lower] eqn:Er; [discriminate|].
  assert (Hd : dicts = rev lower ++ [top]) by (rewrite <- (rev_involutive dicts), Er; reflexivity).
  destruct top as [|e0 top']; [discriminate|].
  destruct (forallb _ _) eqn:Ek; [|discriminate]. intros _. split; [|split; [|reflexivity]].
  - rewrite Hd. destruct (rev lower); discriminate.
  - rewrite Hd, last_last. discriminate.
Qed.

(* every offset fits the integer type the code allocates (the bound of the F33 repair) *)

(* max(len(prob_dicts[n]) + len(prob_dicts[n - 1]) for n in range(1, N)) on the closed dictionaries *)
Fixpoint mpo_from (prevlen : Z) (ds : list dict) : Z :=
  match ds with [] => 0 | d :: r => Z.max (prevlen + zlen d) (mpo_from (zlen d) r) end.

Definition max_potential_offset (cl : list dict) : Z :=
  match cl with [] => 0 | u :: h => mpo_from (zlen u) h end.

Lemma levok_offsets_bound b U nuni : forall ds n prev Lpos,
  LevOK b U prev Lpos ds -> chain_wf nuni n prev ds -> sorted_level n prev -> prev <> [] ->
  (ds <> [] -> Lpos + zlen prev < zlen (offsets b)) -> (ds = [] -> zlen (offsets b) <= Lpos) ->
  forall j, Lpos <= j < zlen (offsets b) -> 1 <= zget (offsets b) j 0 <= mpo_from (zlen prev) ds.
Proof.
  induction ds as [|d rest IH]; intros n prev Lpos HLev Hch Hprev Hpne Hin Hend j Hj.
  - specialize (Hend eq_refl). lia.
  - specialize (Hin ltac:(discriminate)).
    pose proof (zlen_pos prev Hpne) as Hp1.
    cbn [LevOK] in HLev. destruct HLev as (Hoffs & _ & (_ & Hfit & Hlast) & HLev).
    destruct Hch as [Hwf Hch]. cbn [mpo_from].
    set (lv := sort_rev d) in *. set (Lm := Lpos + zlen prev + 1) in *.
    pose proof (zlen_sort_rev d) as Hc. fold lv in Hc.
    assert (Hlvne : lv <> []) by apply (sort_rev_ne _ _ _ _ Hwf).
    pose proof (zlen_pos lv Hlvne) as Hd1. rewrite Hc in Hd1.
    destruct (Z_le_gt_dec j (Lpos + zlen prev)) as [Hle|Hgt].
    + rewrite Hoffs by lia.
      pose proof (count_lt_bounds (ppos (map fst prev) Lpos lv) j) as Hb.
      assert (Hpl : zlen (ppos (map fst prev) Lpos lv) = zlen lv) by (unfold zlen; rewrite ppos_length; reflexivity).
      destruct (Z.eq_dec j Lpos) as [->|Hne].
      * unfold lv. rewrite (ppos_count_lo nuni n prev d Lpos Hwf). unfold Lm. split; [lia|].
        apply Z.le_trans with (zlen prev + zlen d); [lia|apply Z.le_max_l].
      * unfold Lm. split; [lia|]. apply Z.le_trans with (zlen prev + zlen d); [lia|apply Z.le_max_l].
    + assert (Hr : rest <> []) by (intros E; specialize (Hlast E); unfold Lm in *; lia).
      pose proof (IH (S n) lv Lm HLev Hch (sort_rev_level _ _ _ _ Hwf) Hlvne Hfit Hlast j ltac:(unfold Lm; lia)) as Hb.
      rewrite Hc in Hb. split; [lia|]. apply Z.le_trans with (mpo_from (zlen d) rest); [lia|apply Z.le_max_r].
Qed.

Lemma Forall_zget (P : Z -> Prop) (l : list Z) :
  (forall j, 0 <= j < zlen l -> P (zget l j 0)) -> Forall P l.
Proof.
  intros H. rewrite Forall_forall. intros x Hx. apply (In_nth _ _ 0) in Hx as (k & Hk & <-).
  rewrite <- (Nat2Z.id k), <- zget_nth by lia. apply H. unfold zlen. lia.
Qed.

Theorem build_offsets_fit V s dicts bt top lower :
  wf_dicts V s dicts = true -> build_trie V s dicts = Some bt -> rev dicts = top :: lower ->
  Forall (fun o => 1 <= o <= max_potential_offset (closed V s top lower)) (offsets (bt_bufs bt)).
Proof.
  intros Hwfb H Hrev. pose proof (wf_dicts_spec V s dicts Hwfb) as (HV & _).
  destruct (build_trie_reduce V s dicts Hwfb)
    as (G & U & O & uni & higher & E & HN & Hasc & Hcomp & HU & HP & HG & Huni & _ & Hcl).
  rewrite (Hcl top lower Hrev). cbn [max_potential_offset]. rewrite E in H.
  set (nuni := V + shiftz V s) in *. pose proof (nuni_pos V s HV) as Hn1. fold nuni in Hn1.
  destruct higher as [|d rest] eqn:Eh.
  - rewrite <- Eh in *.
    destruct (tail_unigram V s (length dicts) G U O (O + G - U) (O + G) uni higher HV HN Hasc Hcomp HU
                eq_refl HP ltac:(lia) HG Huni Eh) as (uvals & _ & _ & E' & _).
    rewrite E' in H. injection H as <-. constructor.
  - rewrite <- Eh in *. assert (Hhne : higher <> []) by (rewrite Eh; discriminate).
    destruct (tail_levels V s (length dicts) G U O (O + G - U) (O + G) uni higher HV HN Hasc Hcomp HU
                eq_refl HP ltac:(lia) HG Huni Hhne)
      as (uvals & st' & Euv & Hb & HLev & Hch & Hlo & Hli & Hlp & Hlb & HU' & HGh & Htl & HG0 & _).
    rewrite (build_tail_unfold2 V s (length dicts) G U O (O + G - U) (O + G) uni higher HN Hasc Hcomp HU HP HG
               uvals st' Hhne Euv Hb) in H.
    destruct (infer_maxdesc V s (b_offs st')) as [S_|]; [|discriminate]. injection H as <-.
    cbn [bt_bufs bufs_of offsets]. apply Forall_zget. intros j Hj.
    pose proof (levok_offsets_bound (bufs_of st') U nuni higher 1 (uni_level nuni uvals) 0 HLev Hch
                  (uni_level_sorted nuni uvals)) as Hbd.
    rewrite (uni_level_length nuni uvals ltac:(lia)) in Hbd. cbn [bufs_of offsets] in Hbd.
    rewrite Huni. apply Hbd; try lia.
    + intros Ee. pose proof (uni_level_length nuni uvals ltac:(lia)) as Hl. rewrite Ee in Hl.
      unfold zlen in Hl. cbn in Hl. lia.
    + intros Ee. congruence.
Qed.
