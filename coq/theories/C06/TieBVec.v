(* C06, second tie, part 1 — the VECTOR-INDEX path of `_lookup_calc_idx_log_probs` (idx a tensor with one index per
   batch element, B >= 2): the tensor program [TieRun.lookup_fn] (= the interpreted source for every tensor argument,
   TieRunMain.lookup_run) evaluated on the encoding of the model's buffers, a (T, B) history and an index vector is the
   encoding of the rows [Proofs.batch_rows] = what Model.lookup_batch computes (Proofs.lookup_batch_vec).
   New here: the per-element context window - `range_ = arange(hist.size(0))`, the mask
   `(hidx.unsqueeze(1) - N < range_) & (hidx.unsqueeze(1) > range_)`, `hist.T.masked_select(mask).view(B, N - 1).T` -
   on tabulated tensors ([window_vec]); everything after the window is TieSrc.main_tab, as for a scalar index. *)
From Coq Require Import List ZArith QArith Bool Arith Lia ZifyBool ZifyNat.
From PV Require Import C06.Model C06.Spec C06.Proofs MiniTorch.OpsC06 MiniTorch.LemmasC06 MiniTorch.OpsC06B
  MiniTorch.LemmasC06B C06.SrcRun C06.TieRun C06.TieSrc C06.TieTop.
Import ListNotations.
Local Open Scope Z_scope.

(* a rectangular history as a tabulated 2-D tensor *)
Lemma hist_T2 (rows : list (list Z)) B : rect rows B ->
  hist_tensor rows B = T2 (seq 0 (length rows)) (seq 0 B) (fun r bi => CI (nth bi (nth r rows []) 0)).
Proof.
  intros Hr. unfold hist_tensor, T2. rewrite !seq_length. f_equal. apply (concat_rect_tab rows B Hr).
Qed.

Lemma ivec_T1 (xs : list Z) : ivec xs = T1 (seq 0 (length xs)) (fun bi => CI (nth bi xs 0)).
Proof. unfold ivec. change (T6 [length xs] (map CI xs)) with (T1 xs CI). apply (T1_positions CI 0 xs). Qed.

Lemma batch_rows_nth b sh hist B (l : list nat) : length l = B ->
  batch_rows b sh hist B l = map (fun bi => elem_row b sh (column hist bi) (nth bi l 0%nat)) (seq 0 B).
Proof.
  intros <-. unfold batch_rows.
  assert (H : forall (s : nat) (l : list nat),
             combine (seq s (length l)) l = map (fun bi => (bi, nth (bi - s) l 0%nat)) (seq s (length l))).
  { intros s l0. revert s. induction l0 as [|x l0 IH]; intros s; [reflexivity|]. cbn [length seq combine map].
    rewrite Nat.sub_diag. cbn [nth]. f_equal. rewrite IH. apply map_ext_in. intros bi Hbi. apply in_seq in Hbi.
    replace (bi - s)%nat with (S (bi - S s)) by lia. reflexivity. }
  rewrite H, map_map. apply map_ext. intros bi. cbn [fst snd]. rewrite Nat.sub_0_r. reflexivity.
Qed.

Section Vec.
  Variable b : bufs.
  Variable sh : shape.
  Variable hist : list (list Z).
  Variable B : nat.
  Variable l : list nat.             (* the index of every batch element *)

  Let Vn := Z.to_nat (vocab sh).
  Local Notation N := (Z.of_nat (order sh)).
  Local Notation n := (order sh).

  Hypothesis Hrect : rect hist B.
  Hypothesis HlB : length l = B.
  Hypothesis Hil : Forall (fun i => (i <= length hist)%nat) l.

  Definition ix (bi : nat) : nat := nth bi l 0%nat.
  Definition ws_vec : list (list Z) := map (fun bi => ctx_of sh hist (ix bi) bi) (seq 0 B).

  Lemma ix_le bi : (bi < B)%nat -> (ix bi <= length hist)%nat.
  Proof. intros Hb. rewrite Forall_forall in Hil. apply Hil. apply nth_In. lia. Qed.

  (* the per-element window selection on the (padded) history *)
  Lemma window_vec (k : nat) (rem hmin : Z) :
    (2 <= B)%nat -> (2 <= n)%nat -> (k <= n - 1)%nat -> (forall bi, (bi < B)%nat -> (n - 1 <= ix bi + k)%nat) ->
    window_fn (hist_tensor (repeat (repeat (sos sh) B) k ++ hist) B) (ivec (map (fun i => Z.of_nat (i + k)) l))
      (Z.of_nat B) N rem hmin
    = Some (wt sh B ws_vec).
  Proof.
    intros HB Hn Hk Hik.
    set (rows := repeat (repeat (sos sh) B) k ++ hist).
    assert (Hrows : rect rows B).
    { apply Forall_app. split; [|exact Hrect]. apply Forall_forall. intros r Hr. apply repeat_spec in Hr. subst r.
      apply repeat_length. }
    assert (HL : length rows = (k + length hist)%nat) by (unfold rows; rewrite app_length, repeat_length; reflexivity).
    set (hx' := fun bi => Z.of_nat (ix bi + k)).
    assert (Hidx : ivec (map (fun i => Z.of_nat (i + k)) l) = T1 (seq 0 B) (fun bi => CI (hx' bi))).
    { rewrite ivec_T1, map_length, HlB. apply T1_ext. intros bi Hbi. apply in_seq in Hbi. f_equal. unfold hx', ix.
      rewrite (nth_indep _ 0 (Z.of_nat (0 + k))) by (rewrite map_length; lia).
      apply (map_nth (fun i => Z.of_nat (i + k)) l 0%nat). }
    unfold window_fn. rewrite Hidx.
    replace (Z.of_nat (numel (T1 (seq 0 B) (fun bi => CI (hx' bi)))) =? 1) with false
      by (unfold numel, T1; cbn [sh6 prodn fold_right]; rewrite seq_length; lia).
    replace (size (hist_tensor rows B) 0) with (Some (length rows)) by reflexivity. cbn [bo].
    rewrite arange_T1. cbn [bo]. rewrite unsqueeze_T1. cbn [bo].
    unfold sub_s. rewrite (map_cells_TC (seq 0 B) _ _ (fun bi => CI (hx' bi - N))) by reflexivity. cbn [bo].
    unfold lt. rewrite (bc2_outer (seq 0 B) (seq 0 (length rows)) (cmpc Z.ltb) _ _
                          (fun bi r => CB (hx' bi - N <? Z.of_nat r))) by reflexivity. cbn [bo].
    unfold gt. rewrite (bc2_outer (seq 0 B) (seq 0 (length rows)) (cmpc Z.gtb) _ _
                          (fun bi r => CB (hx' bi >? Z.of_nat r))) by reflexivity. cbn [bo].
    unfold band. rewrite (bc2_T2 (seq 0 B) (seq 0 (length rows)) andc _ _
                            (fun bi r => CB ((hx' bi - N <? Z.of_nat r) && (hx' bi >? Z.of_nat r)))) by reflexivity.
    cbn [bo].
    rewrite (hist_T2 rows B Hrows), transpose_T2. cbn [bo].
    rewrite masked_select_T2. cbn [bo]. cbv zeta.
    (* every row of the selection is the context window of its batch element *)
    set (G := fun bi j => CI (nth j (ctx_of sh hist (ix bi) bi) 0)).
    assert (Hd : flat_map (fun bi => map (fun r => CI (nth bi (nth r rows []) 0))
                                         (filter (fun r => (hx' bi - N <? Z.of_nat r) && (hx' bi >? Z.of_nat r))
                                                 (seq 0 (length rows)))) (seq 0 B)
                 = flat_map (fun bi => map (G bi) (seq 0 (n - 1))) (seq 0 B)).
    { apply flat_map_ext_in. intros bi Hbi. apply in_seq in Hbi.
      rewrite <- (map_map (fun r => nth bi (nth r rows []) 0) CI).
      rewrite (filter_ext _ (fun r => (Z.of_nat (ix bi + k) - N <? Z.of_nat r) && (Z.of_nat r <? Z.of_nat (ix bi + k))))
        by (intros r; unfold hx'; lia).
      unfold rows. rewrite (masked_window (sos sh) hist B n k bi (ix bi)) by (try apply ix_le; try apply Hik; lia).
      unfold G. rewrite <- (map_map (fun j => nth j (ctx_of sh hist (ix bi) bi) 0) CI). f_equal.
      rewrite (map_nth_seq0 0 _ (n - 1)) by (unfold ctx_of; rewrite context_length; lia).
      symmetry. apply firstn_all2. unfold ctx_of. rewrite context_length. lia. }
    rewrite Hd.
    pose proof (view_T2 (seq 0 B) (seq 0 (n - 1)) G) as Hv. cbv zeta in Hv. rewrite !seq_length in Hv.
    replace (N - 1) with (Z.of_nat (n - 1)) by lia. rewrite Hv. cbn [bo]. rewrite transpose_T2. f_equal.
    unfold wt. apply T2_ext. intros j bi _ Hbi. apply in_seq in Hbi. unfold G, win, ws_vec. f_equal. f_equal.
    rewrite nth_map_seq by lia. reflexivity.
  Qed.

  Hypothesis Hlens : lens_ok b sh = true.
  Hypothesis Ho : (1 <= n)%nat.
  Hypothesis HV : 1 <= vocab sh.
  Hypothesis HVP : vocab sh <= zlen (logps b).
  Hypothesis HS : Z.of_nat (maxdesc sh) <= vocab sh + 1.
  Hypothesis HB : (2 <= B)%nat.
  Hypothesis Hsafe : (2 <= n)%nat -> forall bi v h, (bi < B)%nat -> (v < Vn)%nat -> N - 1 <= h ->
    lookup1_safe b sh h (mapwin sh (ctx_of sh hist (ix bi) bi)) (Z.of_nat v).

  Theorem lookup_fn_vec :
    lookup_fn (hist_tensor hist B) (idx_tensor (Vec (map Z.of_nat l))) (ivec (offsets b)) (ivec (ids b))
      (fvec (logps b)) (fvec (logbs b)) (sos sh) (vocab sh) N (gnodes sh) (Z.of_nat (maxdesc sh))
    = Some (rows_tensor B Vn (batch_rows b sh hist B l)).
  Proof.
    rewrite (batch_rows_nth b sh hist B l HlB).
    assert (Hex : exists i0 r, l = i0 :: r) by (clear - HlB HB; destruct l as [|i0 r]; [cbn in HlB; lia|eauto]).
    destruct Hex as (i0 & r & El).
    set (m := fold_right Z.min (Z.of_nat i0) (map Z.of_nat r)).
    assert (Htmin : tmin (ivec (map Z.of_nat l)) = Some (T6 [] [CI m])).
    { unfold tmin, ivec. cbn [dt6]. rewrite map_map. cbn [int_of]. rewrite sequence_map_some, map_id. rewrite El. reflexivity. }
    destruct (pad_covers n i0 r) as [Hk1 Hk2]. fold m in Hk1, Hk2. rewrite <- El in Hk2.
    apply (lookup_fn_rows b sh hist B (idx_tensor (Vec (map Z.of_nat l))) ix m); try assumption.
    - unfold idx_tensor. rewrite (numel_ivec sh). unfold zlen. rewrite map_length. lia.
    - cbv zeta. intros bi Hb. apply Hk2. apply nth_In. lia.
    - cbv zeta. unfold idx_tensor. intros HN2.
      set (k := if 0 <? N - 1 - m then Z.to_nat (N - 1 - m) else 0%nat) in *.
      assert (Hik : forall bi, (bi < B)%nat -> (n - 1 <= ix bi + k)%nat) by (intros bi Hb; apply Hk2; apply nth_In; lia).
      set (hexp := map (fun i => Z.of_nat (i + k)) l).
      assert (Hl' : length hexp = B) by (unfold hexp; rewrite map_length; exact HlB).
      exists (ivec hexp). split; [|split].
      + destruct (0 <? N - 1 - m) eqn:Epad.
        * change (ivec (map Z.of_nat l)) with (T1 (map Z.of_nat l) CI). unfold add_s.
          rewrite (map_cells_T1 _ _ _ (fun z => CI (z + (N - 1 - m)))) by reflexivity.
          unfold T1, ivec, hexp. rewrite !map_length, !map_map. f_equal. f_equal. apply map_ext. intros i. f_equal. unfold k. lia.
        * f_equal. f_equal. unfold hexp. apply map_ext. intros i. unfold k. f_equal. lia.
      + apply (window_vec k); assumption.
      + change (ivec hexp) with (T1 hexp CI). rewrite as_int_T1. cbn [bo]. unfold expand, T1. cbn [nats_of].
        replace (0 <=? Z.of_nat B) with true by lia. cbn [option_map sh6 dt6]. rewrite Nat2Z.id.
        rewrite Hl', Nat.eqb_refl, seq_length. f_equal. f_equal.
        rewrite (map_nth_positions (fun e => CI e) 0 hexp), Hl'. apply map_ext_in. intros bi Hbi. apply in_seq in Hbi.
        f_equal. unfold hx, hexp, ix. rewrite (nth_map_seq (fun bi => Z.of_nat (nth bi l 0%nat + k))) by lia.
        rewrite (nth_indep _ 0 (Z.of_nat (0 + k))) by (rewrite map_length; lia).
        apply (map_nth (fun i => Z.of_nat (i + k)) l 0%nat).
  Qed.
End Vec.
