(* C06 — build_trie_ok, part 2: the ordering layer.
   Tuple comparison of reversed keys is a strict total order; the insertion sort of
   _build_trie returns a strictly sorted permutation; in a sorted level the entries are
   grouped by parent, the groups come in the order of the parents, and counting parents
   below a position delimits each group. *)
From Coq Require Import List ZArith Bool Arith Lia ZifyBool ZifyNat Permutation Sorted.
From PV Require Import C06.Model C06.Spec C06.Proofs C06.BuildBase.
Import ListNotations.
Local Open Scope Z_scope.

Lemma lex_irrefl a : lex_ltb a a = false.
Proof. induction a as [|x a IH]; cbn [lex_ltb]; [reflexivity|]. rewrite IH. lia. Qed.

Lemma lex_trans a : forall b c, lex_ltb a b = true -> lex_ltb b c = true -> lex_ltb a c = true.
Proof.
  induction a as [|x a IH]; intros [|y b] [|z c]; cbn [lex_ltb]; intros H1 H2;
    try discriminate; try reflexivity.
  pose proof (IH b c). lia.
Qed.

Lemma lex_asym a b : lex_ltb a b = true -> lex_ltb b a = false.
Proof.
  intros H. destruct (lex_ltb b a) eqn:E; [|reflexivity].
  pose proof (lex_trans _ _ _ H E) as H'. rewrite lex_irrefl in H'. discriminate.
Qed.

Lemma lex_total a : forall b, lex_ltb a b = false -> a <> b -> lex_ltb b a = true.
Proof.
  induction a as [|x a IH]; intros [|y b]; cbn [lex_ltb]; intros H Hne;
    try discriminate; try reflexivity; try congruence.
  pose proof (IH b). destruct (Z.eq_dec x y); [subst; assert (a <> b) by congruence|]; lia.
Qed.

(* same-length keys: compare the prefixes first, the last token second *)
Lemma lex_snoc pa : forall pb x y, length pa = length pb ->
  lex_ltb (pa ++ [x]) (pb ++ [y]) = lex_ltb pa pb || (list_eqb pa pb && (x <? y)).
Proof.
  induction pa as [|u pa IH]; intros [|v pb] x y Hlen; cbn [length] in Hlen; try lia.
  - cbn. lia.
  - cbn [app lex_ltb list_eqb]. rewrite IH by lia.
    destruct (u <? v), (u =? v), (lex_ltb pa pb), (list_eqb pa pb), (x <? y); reflexivity.
Qed.

Lemma list_eqb_refl a : list_eqb a a = true.
Proof. apply list_eqb_eq. reflexivity. Qed.

Lemma list_eqb_neq a b : a <> b -> list_eqb a b = false.
Proof.
  intros H. destruct (list_eqb a b) eqn:E; [|reflexivity]. apply list_eqb_eq in E. congruence.
Qed.

Section Sort.
  Context {A : Type}.
  Definition klt (a b : list Z * A) : Prop := lex_ltb (fst a) (fst b) = true.

  Lemma insort_perm (e : list Z * A) l : Permutation (insort e l) (e :: l).
  Proof.
    induction l as [|h t IH]; cbn [insort]; [reflexivity|].
    destruct (lex_ltb (fst e) (fst h)); [reflexivity|].
    rewrite IH. apply perm_swap.
  Qed.

  Lemma insort_sorted (e : list Z * A) l : StronglySorted klt l ->
    Forall (fun h => fst h <> fst e) l -> StronglySorted klt (insort e l).
  Proof.
    induction 1 as [|h t Ht IH Hh]; intros Hne; cbn [insort].
    - constructor; constructor.
    - inversion Hne as [|? ? Hhe Hne']; subst.
      destruct (lex_ltb (fst e) (fst h)) eqn:E.
      + constructor; [constructor; assumption|]. constructor; [exact E|].
        rewrite Forall_forall in *. intros z Hz. unfold klt in *.
        apply (lex_trans _ (fst h)); [exact E|apply Hh; assumption].
      + constructor; [apply IH; assumption|].
        assert (Hhe' : klt h e) by (unfold klt; apply lex_total; [assumption|congruence]).
        rewrite Forall_forall in *. intros z Hz.
        apply (Permutation_in _ (insort_perm e t)) in Hz. destruct Hz as [<-|Hz]; [assumption|].
        apply Hh. assumption.
  Qed.

  Lemma fold_insort_perm (l : list (list Z * A)) : Permutation (fold_right insort [] l) l.
  Proof.
    induction l as [|e l IH]; cbn [fold_right]; [reflexivity|].
    rewrite insort_perm. constructor. exact IH.
  Qed.

  Lemma fold_insort_sorted (l : list (list Z * A)) : NoDup (map fst l) ->
    StronglySorted klt (fold_right insort [] l).
  Proof.
    induction l as [|e l IH]; cbn [fold_right map]; intros Hnd; [constructor|].
    inversion Hnd as [|? ? Hnin Hnd']; subst. apply insort_sorted; [apply IH; assumption|].
    rewrite Forall_forall. intros h Hh Heq.
    apply (Permutation_in _ (fold_insort_perm l)) in Hh. apply Hnin. rewrite <- Heq.
    apply in_map. assumption.
  Qed.

  Lemma sorted_nth (l : list (list Z * A)) d : StronglySorted klt l ->
    forall i j, (i < j)%nat -> (j < length l)%nat -> klt (nth i l d) (nth j l d).
  Proof.
    induction 1 as [|h t Ht IH Hh]; intros i j Hij Hj; cbn [length] in Hj; [lia|].
    destruct j as [|j]; [lia|]. destruct i as [|i]; cbn [nth].
    - rewrite Forall_forall in Hh. apply Hh. apply nth_In. lia.
    - apply IH; lia.
  Qed.

  Lemma sorted_NoDup (l : list (list Z * A)) : StronglySorted klt l -> NoDup (map fst l).
  Proof.
    induction 1 as [|h t Ht IH Hh]; cbn [map]; constructor; [|assumption].
    intros Hin. apply in_map_iff in Hin as (z & Hz & Hin). rewrite Forall_forall in Hh.
    specialize (Hh z Hin). unfold klt in Hh. rewrite Hz, lex_irrefl in Hh. discriminate.
  Qed.
End Sort.

Definition rev_entry (e : list Z * (val * val)) : list Z * (val * val) := (rev (fst e), snd e).

Lemma sort_rev_unfold d : sort_rev d = fold_right insort [] (map rev_entry d).
Proof. reflexivity. Qed.

Lemma sort_rev_perm d : Permutation (sort_rev d) (map rev_entry d).
Proof. rewrite sort_rev_unfold. apply fold_insort_perm. Qed.

Lemma rev_inj (a b : list Z) : rev a = rev b -> a = b.
Proof. intros H. rewrite <- (rev_involutive a), <- (rev_involutive b), H. reflexivity. Qed.

Lemma sort_rev_sorted d : NoDup (map fst d) -> StronglySorted klt (sort_rev d).
Proof.
  intros H. rewrite sort_rev_unfold. apply fold_insort_sorted.
  rewrite map_map. cbn [rev_entry fst].
  rewrite <- (map_map fst (@rev Z)). apply FinFun.Injective_map_NoDup; [|assumption].
  intros a b. apply rev_inj.
Qed.

Lemma sort_rev_length d : length (sort_rev d) = length d.
Proof. rewrite (Permutation_length (sort_rev_perm d)). apply map_length. Qed.

Lemma sort_rev_in d rk v : In (rk, v) (sort_rev d) <-> In (rev rk, v) d.
Proof.
  split; intros H.
  - apply (Permutation_in _ (sort_rev_perm d)) in H. apply in_map_iff in H as ([k v'] & E & Hin).
    unfold rev_entry in E. cbn [fst snd] in E. injection E as <- <-. rewrite rev_involutive. assumption.
  - apply (Permutation_in _ (Permutation_sym (sort_rev_perm d))). apply in_map_iff.
    exists (rev rk, v). split; [|assumption]. unfold rev_entry. cbn [fst snd]. rewrite rev_involutive.
    reflexivity.
Qed.

Fixpoint kindex (k : list Z) (l : list (list Z)) : nat :=
  match l with [] => 0%nat | h :: t => if list_eqb h k then 0%nat else S (kindex k t) end.

Lemma kindex_nth k l : In k l -> nth_error l (kindex k l) = Some k.
Proof.
  induction l as [|h t IH]; intros H; [destruct H|]. cbn [kindex].
  destruct (list_eqb h k) eqn:E.
  - apply list_eqb_eq in E. subst. reflexivity.
  - cbn [nth_error]. apply IH. destruct H as [->|H]; [|assumption].
    rewrite list_eqb_refl in E. discriminate.
Qed.

Lemma kindex_lt k l : In k l -> (kindex k l < length l)%nat.
Proof. intros H. apply nth_error_Some. rewrite (kindex_nth k l H). discriminate. Qed.

Lemma kindex_unique l : NoDup l -> forall i k, nth_error l i = Some k -> kindex k l = i.
Proof.
  induction 1 as [|h t Hnin Hnd IH]; intros i k Hi; [destruct i; discriminate|].
  cbn [kindex]. destruct i as [|i]; cbn [nth_error] in Hi.
  - injection Hi as ->. rewrite list_eqb_refl. reflexivity.
  - rewrite list_eqb_neq; [f_equal; apply IH; assumption|].
    intros ->. apply Hnin. eapply nth_error_In. exact Hi.
Qed.

Lemma count_lt_nth ps : nondecr ps -> forall k j, (k < length ps)%nat ->
  (count_lt ps j <= Z.of_nat k <-> j <= nth k ps 0).
Proof.
  induction 1 as [|p r Hge Hnd IH]; intros k j Hk; cbn [length] in Hk; [lia|].
  cbn [count_lt]. destruct (Z.ltb_spec p j) as [Hpj|Hpj].
  - destruct k as [|k]; cbn [nth].
    + pose proof (count_lt_bounds r j). lia.
    + specialize (IH k j ltac:(lia)). lia.
  - assert (Hz : count_lt r j = 0).
    { apply count_lt_none. rewrite Forall_forall in *. intros q Hq. specialize (Hge q Hq). lia. }
    rewrite Hz. destruct k as [|k]; cbn [nth]; [lia|].
    assert (p <= nth k r 0); [|lia].
    rewrite Forall_forall in Hge. apply Hge. apply nth_In. lia.
Qed.

(* entry k belongs to the group of the parent at position j  iff  its parent position is j *)
Lemma group_range ps : nondecr ps -> forall k j, (k < length ps)%nat ->
  (count_lt ps j <= Z.of_nat k < count_lt ps (j + 1) <-> nth k ps 0 = j).
Proof.
  intros Hnd k j Hk. pose proof (count_lt_nth ps Hnd k j Hk). pose proof (count_lt_nth ps Hnd k (j + 1) Hk).
  lia.
Qed.

Lemma nondecr_map {B} (R : B -> B -> Prop) (Q : B -> Prop) (f : B -> Z) (l : list B) :
  StronglySorted R l -> Forall Q l -> (forall a b, Q a -> Q b -> R a b -> f a <= f b) ->
  nondecr (map f l).
Proof.
  intros Hs Hq Hf. induction Hs as [|h t Ht IH Hh]; cbn [map]; [constructor|].
  inversion Hq; subst. constructor; [|apply IH; assumption].
  rewrite Forall_forall in *. intros z Hz. apply in_map_iff in Hz as (b & <- & Hb).
  apply Hf; auto.
Qed.
