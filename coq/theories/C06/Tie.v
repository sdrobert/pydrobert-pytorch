(* C06 — the tie lemmas of the source tie, assembled:  interpreted source = tensor program (TieRun, TieRunMain) =
   model (TieSrc, TieTop) under the in-range hypothesis (TieSafe, TieSafeProofs). *)
From Coq Require Import List ZArith QArith Bool Arith Lia ZifyBool ZifyNat String.
From PV Require Import MiniPy.Syntax MiniPy.Interp MiniTorch.OpsC06 MiniTorch.LemmasC06 Gen.C06Src.
From PV Require Import C06.SrcRun C06.TieLib C06.TieRun C06.TieRunMain.
From PV Require C06.Model C06.Spec C06.Proofs C06.TieSafe C06.TieSrc C06.TieTop C06.TieSafeProofs.
Import ListNotations.
Local Open Scope Z_scope.

#[local] Arguments enc6 : simpl never.
#[local] Arguments Interp.run : simpl never.

(* the method `LookupLanguageModel.calc_idx_log_probs` passes the buffers and constants of `self` on and returns `prev` *)
Lemma method_run b sh hist B ix out st0 :
  Interp.run ext06_ops lookup_body (lookup_vars b sh hist B ix) = Ok out st0 ->
  exists st, Interp.run ext06 calc_idx_body (method_vars b sh hist B ix) = Ok (VTuple [out; VDict []]) st.
Proof.
  intros H. unfold lookup_vars, vars06 in H. cbn [app] in H.
  apply run_returns. unfold calc_idx_body, method_vars.
  match goal with |- runs _ _ ?st0 _ => change st0 with (sets [] st0) end.
  (* a leaf is an attribute read off the dictionary `self`, or the call: the other body interpreted on a fresh frame *)
  eapply runs_return; [|eexists; reflexivity].
  ev_by ltac:(first [ reflexivity
                    | unfold ext06, call_body;
                      cbn [builtin is String.eqb Ascii.eqb Bool.eqb List.length Nat.eqb combine app lookup_body_params];
                      rewrite H; reflexivity ]).
Qed.

(* ---- reading the result back ---- *)
Lemma val_of_fl_of v : val_of (CF (fl_of v)) = Some v.
Proof.
  destruct v as [z| |]; try reflexivity. cbn [fl_of val_of].
  pose proof (Qred_correct (z # 8)) as Hq. set (q := Qred (z # 8)) in *.
  assert (Hz : (Qnum q * 8 / Zpos (Qden q))%Z = z).
  { unfold Qeq in Hq. cbn [Qnum Qden] in Hq. rewrite Hq. apply Z.div_mul. discriminate. }
  rewrite Hz. replace (Qeq_bool q (z # 8)) with true; [reflexivity|].
  symmetry. apply Qeq_bool_iff. exact Hq.
Qed.

Lemma rows_of_data_concat (Vn : nat) : forall (rows : list (list Model.val)),
  Forall (fun r => List.length r = Vn) rows -> rows_of_data (List.length rows) Vn (List.concat rows) = rows.
Proof.
  induction 1 as [|r rows Hr _ IH]; [reflexivity|]. cbn [List.length rows_of_data List.concat].
  rewrite firstn_app, firstn_all2 by lia. rewrite Hr, Nat.sub_diag, firstn_O, app_nil_r.
  rewrite skipn_app, skipn_all2 by lia. rewrite Hr, Nat.sub_diag, skipn_O. cbn [app]. rewrite IH. reflexivity.
Qed.

Lemma rows_of_rows (B Vn : nat) (rows : list (list Model.val)) :
  List.length rows = B -> Forall (fun r => List.length r = Vn) rows ->
  rows_of (enc6 (rows_tensor B Vn rows)) = Some rows.
Proof.
  intros Hl Hr. unfold rows_of. rewrite dec6_enc6. unfold rows_tensor. cbn [sh6 dt6].
  rewrite map_map. rewrite (sequence_map_ext _ (fun v => v)) by (intros; apply val_of_fl_of). rewrite map_id.
  unfold wf6. cbn [sh6 dt6 prodn fold_right]. rewrite map_length.
  assert (Hc : List.length (List.concat rows) = (B * Vn)%nat).
  { subst B. clear - Hr. induction Hr as [|r rows Hr _ IH]; [reflexivity|]. cbn [List.concat List.length].
    rewrite app_length, IH, Hr. lia. }
  rewrite Hc. replace (B * Vn =? B * (Vn * 1))%nat with true by lia. subst B. rewrite rows_of_data_concat by exact Hr.
  reflexivity.
Qed.

Lemma batch_rows_shape b sh hist B l : List.length l = B ->
  (Z.to_nat (Model.vocab sh) <= List.length (Model.logps b))%nat ->
  List.length (Proofs.batch_rows b sh hist B l) = B /\
  Forall (fun r => List.length r = Z.to_nat (Model.vocab sh)) (Proofs.batch_rows b sh hist B l).
Proof.
  intros Hl Hv. unfold Proofs.batch_rows. split; [rewrite map_length, combine_length, seq_length; lia|].
  apply Forall_forall. intros r Hr. apply in_map_iff in Hr as (p & <- & _). unfold Proofs.elem_row.
  destruct (Nat.eqb (Model.order sh) 1).
  - rewrite firstn_length. lia.
  - rewrite map_length. unfold Model.zrange. rewrite map_length, seq_length. reflexivity.
Qed.

Lemma vocab_le_logps b sh : TieSafe.safe_okb b sh = true -> Model.vocab sh <= Model.zlen (Model.logps b).
Proof.
  intros Hsafe. destruct (TieSafeProofs.safe_okb_sound b sh Hsafe) as (_ & _ & Hr & _).
  unfold Spec.nroots, Model.shiftz in Hr. destruct (Model.shiftb _ _); lia.
Qed.

(* ---- scalar index ---- *)
Section Scalar.
  Variable b : Model.bufs.
  Variable sh : Model.shape.
  Variable hist : list (list Z).
  Variable B : nat.
  Variable i : nat.

  Hypothesis Hsafe : TieSafe.safe_okb b sh = true.
  Hypothesis HV : 1 <= Model.vocab sh.
  Hypothesis Hhist : Proofs.hist_ok sh hist B.
  Hypothesis Hi : (i <= List.length hist)%nat.

  Let Vn := Z.to_nat (Model.vocab sh).
  Let rows := Proofs.batch_rows b sh hist B (repeat i B).

  Lemma scalar_model : Model.lookup_batch b sh hist B (Model.Scalar (Z.of_nat i)) = Some rows.
  Proof.
    destruct (TieSafeProofs.safe_okb_sound b sh Hsafe) as (Hl & Ho & _).
    apply Proofs.lookup_batch_scalar; assumption.
  Qed.

  Lemma scalar_tensor_program :
    lookup_fn (hist_tensor hist B) (idx_tensor (Model.Scalar (Z.of_nat i))) (ivec (Model.offsets b)) (ivec (Model.ids b))
      (fvec (Model.logps b)) (fvec (Model.logbs b)) (Model.sos sh) (Model.vocab sh) (Z.of_nat (Model.order sh))
      (Model.gnodes sh) (Z.of_nat (Model.maxdesc sh))
    = Some (rows_tensor B Vn rows).
  Proof.
    destruct (TieSafeProofs.safe_okb_sound b sh Hsafe) as (Hl & Ho & Hr & HS & Hsf).
    destruct Hhist as [Hrect Htoks].
    apply TieTop.lookup_fn_scalar; try assumption; try apply (vocab_le_logps b sh Hsafe).
    intros Ho2 bi v h Hb Hv Hh. apply Hsf; try assumption.
    - rewrite Proofs.mapwin_length. unfold TieTop.ctx_of. apply Proofs.context_length.
    - apply Proofs.last_mapwin_range; [lia| |].
      + intros E. apply (f_equal (@List.length Z)) in E. unfold TieTop.ctx_of in E. rewrite Proofs.context_length in E. cbn in E. lia.
      + unfold TieTop.ctx_of. apply Proofs.context_toks. apply Forall_forall. intros x Hx.
        pose proof (Proofs.column_toks sh hist B bi Hhist Hb) as Hc. rewrite Forall_forall in Hc. apply Hc.
        eapply Proofs.In_firstn_in. exact Hx.
    - unfold Vn in Hv. lia.
  Qed.

  (* the interpreted function returns the tensor of the model's rows *)
  Theorem source_lookup_scalar_is_model :
    Model.lookup_batch b sh hist B (Model.Scalar (Z.of_nat i)) = Some rows /\
    exists st, Interp.run ext06_ops lookup_body (lookup_vars b sh hist B (Model.Scalar (Z.of_nat i)))
               = Ok (enc6 (rows_tensor B Vn rows)) st.
  Proof. split; [exact scalar_model|]. apply lookup_run. exact scalar_tensor_program. Qed.

  (* ... and so does the method, with `prev` untouched *)
  Theorem source_method_scalar_is_model :
    exists st, Interp.run ext06 calc_idx_body (method_vars b sh hist B (Model.Scalar (Z.of_nat i)))
               = Ok (VTuple [enc6 (rows_tensor B Vn rows); VDict []]) st.
  Proof. destruct source_lookup_scalar_is_model as [_ [st0 R]]. apply (method_run _ _ _ _ _ _ st0 R). Qed.

  Theorem source_scalar_refines_model :
    src_lookup_batch b sh hist B (Model.Scalar (Z.of_nat i)) = Some (Model.lookup_batch b sh hist B (Model.Scalar (Z.of_nat i))).
  Proof.
    destruct source_method_scalar_is_model as [st R]. unfold src_lookup_batch, run_method. rewrite R, scalar_model.
    pose proof (vocab_le_logps b sh Hsafe) as Hvl. unfold Model.zlen in Hvl.
    destruct (batch_rows_shape b sh hist B (repeat i B) (repeat_length _ _) ltac:(lia)) as [H1 H2].
    rewrite (rows_of_rows B Vn rows H1 H2). reflexivity.
  Qed.
End Scalar.
