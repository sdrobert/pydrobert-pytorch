(* C06 — build_trie_ok, part 1: the array layer.
   Flat-buffer primitives of the model of _build_trie (zget / upd / pyset), the "fill a
   segment" loop, the back-fill `while`, the trailing `for`, and the closed form of the
   offsets they produce for one level:  offsets[j] = a0 + #{parents < j} - j. *)
From Coq Require Import List ZArith Bool Arith Lia ZifyBool ZifyNat.
From PV Require Import C06.Model.
Import ListNotations.
Local Open Scope Z_scope.

Lemma if_true {A} (b : bool) (x y : A) : b = true -> (if b then x else y) = x.
Proof. intros ->. reflexivity. Qed.

Lemma if_false {A} (b : bool) (x y : A) : b = false -> (if b then x else y) = y.
Proof. intros ->. reflexivity. Qed.

(* the closed forms below are conditionals on the position; both sides are decided case by case *)
Ltac ifs :=
  repeat match goal with |- context [if ?c then _ else _] => destruct c eqn:? end; try lia; try reflexivity.

Lemma upd_length {A} (l : list A) : forall i x, length (upd l i x) = length l.
Proof.
  induction l as [|h t IH]; intros i x; [reflexivity|].
  destruct i; cbn [upd length]; [reflexivity|]. rewrite IH. reflexivity.
Qed.

Lemma nth_upd_same {A} (l : list A) : forall i x d, (i < length l)%nat -> nth i (upd l i x) d = x.
Proof.
  induction l as [|h t IH]; intros i x d H; cbn [length] in H; [lia|].
  destruct i; cbn [upd nth]; [reflexivity|]. apply IH. lia.
Qed.

Lemma nth_upd_other {A} (l : list A) : forall i j x d, i <> j -> nth j (upd l i x) d = nth j l d.
Proof.
  induction l as [|h t IH]; intros i j x d H; [reflexivity|].
  destruct i, j; cbn [upd nth]; try reflexivity; try lia. apply IH. lia.
Qed.

Lemma zget_nth {A} (l : list A) i d : 0 <= i -> zget l i d = nth (Z.to_nat i) l d.
Proof. intros H. unfold zget. rewrite if_false by lia. reflexivity. Qed.

Lemma zget_neg {A} (l : list A) i d : i < 0 -> zget l i d = d.
Proof. intros H. unfold zget. rewrite if_true by lia. reflexivity. Qed.

Lemma zget_beyond {A} (l : list A) i d : zlen l <= i -> zget l i d = d.
Proof.
  intros H. unfold zlen in H. rewrite zget_nth by lia. apply nth_overflow. lia.
Qed.

Lemma pyset_length {A} (l : list A) i x : length (pyset l i x) = length l.
Proof. unfold pyset. destruct (pyidx l i <? 0); [reflexivity|apply upd_length]. Qed.

Lemma zlen_pyset {A} (l : list A) i x : zlen (pyset l i x) = zlen l.
Proof. unfold zlen. rewrite pyset_length. reflexivity. Qed.

Lemma pyset_nonneg {A} (l : list A) i x : 0 <= i -> pyset l i x = upd l (Z.to_nat i) x.
Proof.
  intros H. unfold pyset, pyidx. replace (i <? 0) with false by lia.
  rewrite if_false by lia. reflexivity.
Qed.

Lemma zget_pyset_same {A} (l : list A) i x d : 0 <= i < zlen l -> zget (pyset l i x) i d = x.
Proof.
  intros H. unfold zlen in H. rewrite pyset_nonneg, zget_nth by lia. apply nth_upd_same. lia.
Qed.

Lemma zget_pyset_other {A} (l : list A) i j x d : 0 <= i -> j <> i ->
  zget (pyset l i x) j d = zget l j d.
Proof.
  intros Hi Hj. rewrite pyset_nonneg by lia. destruct (Z.ltb_spec j 0) as [Hn|Hn].
  - rewrite !zget_neg by lia. reflexivity.
  - rewrite !zget_nth by lia. apply nth_upd_other. lia.
Qed.

Lemma zget_pyset {A} (l : list A) i j x d : 0 <= i < zlen l ->
  zget (pyset l i x) j d = if j =? i then x else zget l j d.
Proof.
  intros H. destruct (Z.eqb_spec j i) as [->|Hne].
  - apply zget_pyset_same. assumption.
  - apply zget_pyset_other; lia.
Qed.

Lemma pyget_nonneg {A} (l : list A) i d : 0 <= i -> pyget l i d = zget l i d.
Proof. intros H. unfold pyget, pyidx. rewrite if_false by lia. reflexivity. Qed.

Lemma zget_app_l {A} (l1 l2 : list A) i d : i < zlen l1 -> zget (l1 ++ l2) i d = zget l1 i d.
Proof.
  intros H. unfold zlen in H. destruct (Z.ltb_spec i 0) as [Hn|Hn].
  - rewrite !zget_neg by lia. reflexivity.
  - rewrite !zget_nth by lia. apply app_nth1. lia.
Qed.

Lemma zget_app_r {A} (l1 l2 : list A) i d : zlen l1 <= i ->
  zget (l1 ++ l2) i d = zget l2 (i - zlen l1) d.
Proof.
  intros H. unfold zlen in *. rewrite !zget_nth by lia. rewrite app_nth2 by lia.
  f_equal. lia.
Qed.

Lemma zget_repeat {A} (x : A) n i : zget (repeat x n) i x = x.
Proof.
  destruct (Z.ltb_spec i 0) as [Hn|Hn]; [apply zget_neg; lia|]. rewrite zget_nth by lia.
  apply nth_repeat.
Qed.

(* x0 at i, x1 at i+1, ...: what the allocation loop does to ids / logps / logbs *)
Fixpoint fill {A} (xs : list A) (l : list A) (i : Z) : list A :=
  match xs with [] => l | x :: r => fill r (pyset l i x) (i + 1) end.

Lemma fill_length {A} (xs : list A) : forall l i, length (fill xs l i) = length l.
Proof.
  induction xs as [|x r IH]; intros l i; [reflexivity|]. cbn [fill]. rewrite IH. apply pyset_length.
Qed.

Lemma zget_fill {A} (xs : list A) d : forall l i j, 0 <= i -> i + zlen xs <= zlen l ->
  zget (fill xs l i) j d =
  if (i <=? j) && (j <? i + zlen xs) then nth (Z.to_nat (j - i)) xs d else zget l j d.
Proof.
  induction xs as [|x r IH]; intros l i j Hi Hlen; cbn [fill]; unfold zlen in *; cbn [length] in *.
  - ifs.
  - rewrite IH by (rewrite ?pyset_length; lia). rewrite zget_pyset by (unfold zlen; lia).
    destruct (Z.eqb_spec j i) as [->|Hne].
    + replace (Z.to_nat (i - i)) with 0%nat by lia. ifs.
    + destruct (Z.ltb_spec j i); [ifs|]. replace (Z.to_nat (j - i)) with (S (Z.to_nat (j - (i + 1)))) by lia. ifs.
Qed.

(* the back-fill `while` *)

Lemma backfill_length : forall fuel offs p a, length (backfill fuel offs p a) = length offs.
Proof.
  induction fuel as [|f IH]; intros offs p a; [reflexivity|]. cbn [backfill].
  destruct ((0 <=? p) && (zget offs p 0 =? 0)); [|reflexivity]. rewrite IH. apply pyset_length.
Qed.

(* lo = the nearest cell at or below p that is already non-zero (-1: none) *)
Lemma backfill_spec : forall fuel offs p a lo,
  -1 <= lo <= p -> p < zlen offs -> p - lo <= Z.of_nat fuel ->
  (forall q, lo < q <= p -> zget offs q 0 = 0) -> (lo = -1 \/ zget offs lo 0 <> 0) ->
  forall j, zget (backfill fuel offs p a) j 0 =
            if (lo <? j) && (j <=? p) then a - j else zget offs j 0.
Proof.
  induction fuel as [|f IH]; intros offs p a lo Hlo Hp Hf Hz Hstop j; cbn [backfill].
  - ifs.
  - destruct (Z.eq_dec lo p) as [->|Hne].
    + destruct Hstop as [->|Hnz]; ifs.
    + rewrite (Hz p) by lia. rewrite if_true by lia.
      rewrite (IH _ (p - 1) a lo); rewrite ?zlen_pyset; try lia.
      * rewrite zget_pyset by lia. ifs.
      * intros q Hq. rewrite zget_pyset_other by lia. apply Hz. lia.
      * destruct Hstop as [->|Hnz]; [left; reflexivity|right]. rewrite zget_pyset_other by lia. assumption.
Qed.

(* the trailing `for` *)

Lemma trailfill_length : forall fuel offs i, length (trailfill fuel offs i) = length offs.
Proof.
  induction fuel as [|f IH]; intros offs i; [reflexivity|]. cbn [trailfill].
  destruct (i <? 0); [reflexivity|]. destruct (negb (pyget offs (i - 1) 0 =? 0)); [reflexivity|].
  rewrite IH. apply pyset_length.
Qed.

(* hi = the last cell below i that is already non-zero *)
Lemma trailfill_spec : forall fuel offs i hi,
  0 <= hi < i -> i < zlen offs -> i - hi - 1 <= Z.of_nat fuel ->
  zget offs hi 0 <> 0 -> (forall q, hi < q < i -> zget offs q 0 = 0) ->
  forall j, zget (trailfill fuel offs i) j 0 =
            if (hi <? j) && (j <? i) then zget offs i 0 + (i - j) else zget offs j 0.
Proof.
  induction fuel as [|f IH]; intros offs i hi Hhi Hi Hf Hnz Hz j; cbn [trailfill].
  - ifs.
  - rewrite if_false by lia. rewrite pyget_nonneg by lia.
    destruct (Z.eq_dec (i - 1) hi) as [E|Hne].
    + rewrite E. ifs.
    + rewrite (Hz (i - 1)) by lia. cbn [Z.eqb negb].
      rewrite (IH _ (i - 1) hi); rewrite ?zlen_pyset; try lia.
      * rewrite zget_pyset_same, zget_pyset by lia. ifs.
      * rewrite zget_pyset_other by lia. assumption.
      * intros q Hq. rewrite zget_pyset_other by lia. apply Hz. lia.
Qed.

(* number of parent positions strictly below j *)
Fixpoint count_lt (ps : list Z) (j : Z) : Z :=
  match ps with [] => 0 | p :: r => (if p <? j then 1 else 0) + count_lt r j end.

Lemma count_lt_bounds ps j : 0 <= count_lt ps j <= zlen ps.
Proof.
  unfold zlen. induction ps as [|p r IH]; cbn [count_lt length]; [lia|]. destruct (p <? j); lia.
Qed.

Lemma count_lt_all ps j : Forall (fun p => p < j) ps -> count_lt ps j = zlen ps.
Proof.
  unfold zlen. induction 1 as [|p r Hp Hr IH]; cbn [count_lt length]; [reflexivity|].
  rewrite if_true by lia. lia.
Qed.

Lemma count_lt_none ps j : Forall (fun p => j <= p) ps -> count_lt ps j = 0.
Proof.
  induction 1 as [|p r Hp Hr IH]; cbn [count_lt]; [reflexivity|].
  rewrite if_false by lia. lia.
Qed.

Lemma count_lt_mono ps j j' : j <= j' -> count_lt ps j <= count_lt ps j'.
Proof.
  intros H. induction ps as [|p r IH]; cbn [count_lt]; [lia|].
  destruct (p <? j) eqn:E1, (p <? j') eqn:E2; lia.
Qed.

(* the parent positions of the entries of a level, in allocation order *)
Fixpoint offs_loop (ps : list Z) (offs : list Z) (a : Z) : list Z :=
  match ps with
  | [] => offs
  | p :: r => offs_loop r (backfill (S (length offs)) offs p a) (a + 1)
  end.

Lemma offs_loop_length ps : forall offs a, length (offs_loop ps offs a) = length offs.
Proof.
  induction ps as [|p r IH]; intros offs a; [reflexivity|]. cbn [offs_loop].
  rewrite IH. apply backfill_length.
Qed.

Lemma last_cons {A} (r : list A) : forall (x d : A), last (x :: r) d = last r x.
Proof.
  induction r as [|y r IH]; intros x d; [reflexivity|].
  change (last (x :: y :: r) d) with (last (y :: r) d). rewrite (IH y d), (IH y x). reflexivity.
Qed.

Lemma last_Forall {A} (P : A -> Prop) (r : list A) : forall x, P x -> Forall P r -> P (last r x).
Proof.
  induction r as [|y r IH]; intros x Hx Hr; [exact Hx|]. inversion Hr; subst.
  rewrite last_cons. apply IH; assumption.
Qed.

Inductive nondecr : list Z -> Prop :=
  | nd_nil : nondecr []
  | nd_cons p r : Forall (fun q => p <= q) r -> nondecr r -> nondecr (p :: r).

(* hi = last cell already filled (or the non-zero cell just below the level, or -1) *)
Lemma offs_loop_spec start : forall ps offs a hi,
  start < zlen offs -> start < a -> -1 <= hi ->
  nondecr ps -> Forall (fun p => hi <= p < start /\ 0 <= p) ps ->
  (forall q, hi < q < start -> zget offs q 0 = 0) -> (hi = -1 \/ zget offs hi 0 <> 0) ->
  forall j, zget (offs_loop ps offs a) j 0 =
            if (hi <? j) && (j <=? last ps hi) then a + count_lt ps j - j else zget offs j 0.
Proof.
  induction ps as [|p r IH]; intros offs a hi Hst Ha Hhi Hnd Hps Hz Hstop j.
  - cbn [offs_loop last]. rewrite if_false by lia. reflexivity.
  - cbn [offs_loop]. rewrite last_cons.
    inversion Hnd as [|? ? Hge Hnd']; subst. inversion Hps as [|? ? [Hp Hp0] Hps']; subst.
    set (offs1 := backfill (S (length offs)) offs p a).
    assert (Hb : forall j, zget offs1 j 0 = if (hi <? j) && (j <=? p) then a - j else zget offs j 0).
    { apply backfill_spec; try assumption; try lia.
      all: try (unfold zlen in Hst; lia).
      all: try (intros q Hq; apply Hz; lia). }
    assert (Hrange : Forall (fun q => p <= q < start /\ 0 <= q) r).
    { rewrite Forall_forall in *. intros q Hq. specialize (Hge q Hq). specialize (Hps' q Hq). lia. }
    assert (Hlast : p <= last r p < start /\ 0 <= last r p).
    { apply (last_Forall (fun q => p <= q < start /\ 0 <= q)); [lia|assumption]. }
    rewrite (IH offs1 (a + 1) p); try assumption; try lia.
    + rewrite Hb. cbn [count_lt]. destruct (Z.ltb_spec p j) as [Hpj|Hpj]; [ifs|].
      rewrite (count_lt_none r j) by (rewrite Forall_forall in *; intros q Hq; specialize (Hge q Hq); lia). ifs.
    + unfold offs1, zlen. rewrite backfill_length. exact Hst.
    + intros q Hq. rewrite Hb. rewrite if_false by lia. apply Hz. lia.
    + right. rewrite Hb. destruct ((hi <? p) && (p <=? p)) eqn:E; [lia|].
      destruct Hstop as [->|Hnz]; [lia|]. assert (p = hi) by lia. subst. assumption.
Qed.

(* the whole treatment of one level: dummy offset, allocation loop, trailing loop *)
Definition level_offs (ps : list Z) (offs : list Z) (start : Z) : list Z :=
  let o1 := pyset offs start (zlen ps + 1) in
  let o2 := offs_loop ps o1 (start + 1) in
  trailfill (S (Z.to_nat start)) o2 start.

Lemma level_offs_length ps offs start : length (level_offs ps offs start) = length offs.
Proof.
  unfold level_offs. rewrite trailfill_length, offs_loop_length, pyset_length. reflexivity.
Qed.

(* Lpos = first cell of the parent level, start = its dummy cell; every cell of the level
   gets  (start + 1) + #{parents below it} - its own position *)
Lemma level_offs_spec ps offs Lpos start :
  0 <= Lpos < start -> start < zlen offs -> ps <> [] ->
  nondecr ps -> Forall (fun p => Lpos <= p < start) ps ->
  (forall q, Lpos <= q <= start -> zget offs q 0 = 0) ->
  (Lpos = 0 \/ zget offs (Lpos - 1) 0 <> 0) ->
  forall j, zget (level_offs ps offs start) j 0 =
            if (Lpos <=? j) && (j <=? start) then start + 1 + count_lt ps j - j else zget offs j 0.
Proof.
  intros HL Hst Hne Hnd Hps Hz Hstop j. unfold level_offs.
  set (o1 := pyset offs start (zlen ps + 1)).
  assert (Ho1 : forall q, zget o1 q 0 = if q =? start then zlen ps + 1 else zget offs q 0).
  { intros q. apply zget_pyset. lia. }
  assert (Hl1 : zlen o1 = zlen offs) by apply zlen_pyset.
  set (o2 := offs_loop ps o1 (start + 1)).
  assert (Ho2 : forall q, zget o2 q 0 =
            if (Lpos - 1 <? q) && (q <=? last ps (Lpos - 1)) then start + 1 + count_lt ps q - q
            else zget o1 q 0).
  { apply (offs_loop_spec start); try lia; try assumption.
    - rewrite Forall_forall in *. intros p Hp. specialize (Hps p Hp). lia.
    - intros q Hq. rewrite Ho1. rewrite if_false by lia. apply Hz. lia.
    - destruct Hstop as [->|Hnz]; [left; reflexivity|right].
      rewrite Ho1. rewrite if_false by lia. assumption. }
  assert (Hl2 : zlen o2 = zlen offs).
  { unfold o2, zlen. rewrite offs_loop_length. exact Hl1. }
  set (hi := last ps (Lpos - 1)).
  assert (Hhi : Lpos <= hi < start).
  { destruct ps as [|p r]; [congruence|]. unfold hi. rewrite last_cons.
    inversion Hps; subst. apply (last_Forall (fun q => Lpos <= q < start)); assumption. }
  assert (Hpre : Forall (fun p => p <= hi) ps).
  { clear - Hnd. unfold hi. generalize (Lpos - 1) as d. induction Hnd as [|p r Hge Hnd IH]; intros d; [constructor|].
    rewrite last_cons. constructor.
    - apply (last_Forall (fun q => p <= q)); [lia|assumption].
    - apply IH. }
  rewrite (trailfill_spec _ o2 start hi); try lia.
  - rewrite !Ho2. fold hi. rewrite !Ho1.
    destruct (Z.ltb_spec hi j) as [Hj|Hj]; [|ifs].
    rewrite (count_lt_all ps j) by (rewrite Forall_forall in *; intros p Hp; specialize (Hpre p Hp); lia). ifs.
  - rewrite Ho2. fold hi. rewrite if_true by lia.
    pose proof (count_lt_bounds ps hi). lia.
  - intros q Hq. rewrite Ho2. fold hi. rewrite if_false by lia.
    rewrite Ho1. rewrite if_false by lia. apply Hz. lia.
Qed.

Lemma NoDup_map_inj_in {A B} (f : A -> B) (l : list A) : NoDup l ->
  (forall x y, In x l -> In y l -> f x = f y -> x = y) -> NoDup (map f l).
Proof.
  induction 1 as [|x l Hnin Hnd IH]; intros Hinj; cbn [map]; constructor.
  - intros Hin. apply in_map_iff in Hin as (y & Hy & Hyl). apply Hnin.
    rewrite (Hinj x y (or_introl eq_refl) (or_intror Hyl) (eq_sym Hy)). assumption.
  - apply IH. intros a c Ha Hc. apply Hinj; right; assumption.
Qed.

