(* C06 — tie, part 1: the MiniPy term of `_lookup_calc_idx_log_probs` (PV.Gen.C06Src.lookup_body, regenerated
   from /repo on every run), interpreted with [SrcRun.ext06_ops], IS the tensor program [lookup_fn] below - a
   composition of the operations of PV.MiniTorch.OpsC06 with the loop over the n-gram order as a fold - for EVERY
   tensor argument (any shape, any data) and all integers: whenever the tensor program yields a tensor, the
   interpreted source returns exactly that tensor.  (Success direction only: where the tensor program is undefined
   - outside the modelled domain of an operation, a failed assertion, the RuntimeError for an empty idx - nothing
   is claimed here.)  Nothing in this file knows the model; part 2 (TieSrc.v) evaluates [lookup_fn] on the
   encoding of the model's buffers.  If the source is edited, the regenerated term changes and this file is
   re-checked against it. *)
From Coq Require Import ZArith QArith List String Bool Arith Lia ZifyBool ZifyNat.
From PV Require Import MiniPy.Syntax MiniPy.Interp MiniPy.Lemmas MiniTorch.OpsC06 Gen.C06Src.
From PV Require Import C06.SrcRun C06.TieLib.
Import ListNotations.
Local Open Scope string_scope.

(* ---- the tensor program ---------------------------------------------------------------------------------- *)
Definition bo {A B} (o : option A) (k : A -> option B) : option B := match o with Some a => k a | None => None end.
Notation "'do' x <- o ; k" := (bo o (fun x => k)) (at level 200, x name, right associativity).

Local Open Scope Z_scope.

(* what the loop carries *)
Record lstate := LS { l_desc : tens6; l_found : tens6; l_lastp : tens6; l_lastb : tens6 }.

(* what the loop reads *)
Record lconst := LC
  { c_hist : tens6; c_hidx : tens6; c_offsets : tens6; c_ids : tens6; c_logps : tens6; c_logbs : tens6;
    c_srange : tens6; c_V : Z; c_N : Z; c_M : Z; c_O : Z; c_P : Z; c_U : Z; c_B : Z }.

(* body of `for n in range(1, N)` *)
Definition body_fn (c : lconst) (n : Z) (s : lstate) : option lstate :=
  do r1 <- select0 (c_hist c) (- n);
  do r1' <- repeat_interleave r1 (c_V c);
  do r2 <- select0 (c_hist c) (- Z.min (n + 1) (c_N c - 1));
  do hist_n <- cat0 [r1'; r2];
  do o1 <- index1 (c_offsets c) (l_desc s);
  do o1' <- as_int o1;
  do desc_starts <- add o1' (l_desc s);
  do dp1 <- add_s (l_desc s) 1;
  do o2 <- index1 (c_offsets c) dp1;
  do o2' <- as_int o2;
  do t2 <- add o2' (l_desc s);
  do desc_ends <- add_s t2 1;
  do us <- unsqueeze desc_starts 1;
  do pos_desc <- add us (c_srange c);
  do ue <- unsqueeze desc_ends 1;
  do em1 <- gt ue pos_desc;
  do cm <- clamp_max pos_desc (c_P c - 1);
  do cmu <- sub_s cm (c_U c);
  do ids_ <- index1 (c_ids c) cmu;
  do uh <- unsqueeze hist_n 1;
  do e <- eq uh ids_;
  do em <- band em1 e;
  do a <- any1 em 1;
  do found <- band a (l_found s);
  do inv <- invert em;
  do mf <- masked_fill pos_desc inv (CI 0);
  do sm <- sum1 mf 1;
  do desc <- twhere found sm (l_desc s);
  do dM <- slice0 desc None (Some (c_M c));
  do logps_desc <- index1 (c_logps c) dM;
  do cur_backoffs <-
     (if n =? c_N c - 1 then Some (zeros_like (l_lastb s))
      else
        do dm <- slice0 desc (Some (c_M c)) None;
        do cl <- clamp_max dm (c_O c - 1);
        do g <- index1 (c_logbs c) cl;
        do fm <- slice0 found (Some (c_M c)) None;
        do ifm <- invert fm;
        do mfb <- masked_fill g ifm (CF (FQ 0));
        repeat_interleave mfb (c_V c));
  do fin <- isfinite logps_desc;
  do fM <- slice0 found None (Some (c_M c));
  do clobber <- band fin fM;
  do s1 <- add (l_lastp s) cur_backoffs;
  do s2 <- add s1 (l_lastb s);
  do cur_logps <- twhere clobber logps_desc s2;
  do ic <- invert clobber;
  do last_backoffs <- masked_fill cur_backoffs ic (CF (FQ 0));
  do ge <- ge_s (c_hidx c) n;
  do ger <- repeat_interleave ge (c_V c);
  do last_logps <- twhere ger cur_logps (l_lastp s);
  Some (LS desc found last_logps last_backoffs).

Fixpoint loop_fn (c : lconst) (ns : list Z) (s : lstate) : option lstate :=
  match ns with
  | [] => Some s
  | n :: r => do s' <- body_fn c n s; loop_fn c r s'
  end.

Definition zrange_z (lo hi : Z) : list Z := map (fun i => lo + Z.of_nat i) (seq 0 (Z.to_nat (hi - lo))).

(* the context window: `if hidx.numel() == 1: hist = hist[-rem:hidx_min]  else: ... masked_select ... view ... .T` *)
Definition window_fn (hist hidx : tens6) (B N rem hidx_min : Z) : option tens6 :=
  if Z.of_nat (numel hidx) =? 1 then slice0 hist (Some (- rem)) (Some hidx_min)
  else
    do n0 <- size hist 0;
    do range_ <- arange (Z.of_nat n0);
    do u <- unsqueeze hidx 1;
    do u1 <- sub_s u N;
    do m1 <- lt u1 range_;
    do u' <- unsqueeze hidx 1;
    do m2 <- gt u' range_;
    do mask <- band m1 m2;
    do ht <- transpose hist;
    do ms <- masked_select ht mask;
    do v <- view ms [B; N - 1];
    transpose v.

(* everything after the padding; [hist], [hidx], [hidx_min], [rem] as they are then *)
Definition main_fn (hist hidx offsets ids logps logbs last_logps : tens6) (sos V N S B M O P U shift hidx_min rem : Z)
  : option tens6 :=
  do w <- window_fn hist hidx B N rem hidx_min;
  if negb (shape_eqb (sh6 w) [Z.to_nat (N - 1); Z.to_nat B] && (0 <=? N - 1) && (0 <=? B)) then None else
  do w1 <- (if negb (shift =? 0) then do e <- eq_s w sos; masked_fill w e (CI V) else Some w);
  do _ <- as_int ids;
  do w2 <- as_int w1;
  do vrange <- arange (V + 1);
  do hi <- as_int hidx;
  do hidx' <- expand hi [B];
  do srange <- slice0 vrange None (Some S);
  do v1 <- slice0 vrange None (Some V);
  do v2 <- repeat1 v1 B;
  do h1 <- select0 w2 (Z.opp 1);
  do h1' <- as_int h1;
  do desc <- cat0 [v2; h1'];
  do lastp <- repeat1 last_logps B;
  do d1 <- slice0 desc (Some M) None;
  do lb <- index1 logbs d1;
  do lastb <- repeat_interleave lb V;
  do found <- ones_bool (M + B);
  do s <- loop_fn (LC w2 hidx' offsets ids logps logbs srange V N M O P U B) (zrange_z 1 N) (LS desc found lastp lastb);
  view (l_lastp s) [B; V].

Definition lookup_fn (hist hidx offsets ids logps logbs : tens6) (sos V N G S : Z) : option tens6 :=
  do Bn <- size hist 1;
  let B := Z.of_nat Bn in
  let M := B * V in
  let O := Z.of_nat (numel offsets) in
  let shift := if (0 <=? sos) && (sos <? V) then 0 else 1 in
  let U := V + shift + 1 mod N in
  let I := O + G - U in
  let P := O + G in
  if N =? 0 then None else
  if (Z.of_nat (numel ids) =? I) && ((Z.of_nat (numel logps) =? P) && ((Z.of_nat (numel logbs) =? O) && true)) then
    if Z.of_nat (numel hidx) =? 0 then None
    else
      do last_logps <- slice0 logps None (Some V);
      if N =? 1 then expand last_logps [B; V]
      else
        do mn <- tmin hidx;
        do mc <- item mn;
        match mc with
        | CI hidx_min =>
            let rem := N - 1 - hidx_min in
            if 0 <? rem then
              do f <- full [rem; B] (CI sos);
              do hist' <- cat0 [f; hist];
              do hidx' <- add_s hidx rem;
              main_fn hist' hidx' offsets ids logps logbs last_logps sos V N S B M O P U shift (hidx_min + rem) 0
            else main_fn hist hidx offsets ids logps logbs last_logps sos V N S B M O P U shift hidx_min rem
        | _ => None
        end
  else None.

Local Close Scope Z_scope.

(* ---- the loop body as a sub-term of the generated term --------------------------------------------------- *)
Fixpoint find_for (s : stmt) : option (string * expr * stmt) :=
  match s with
  | SFor x e b => Some (x, e, b)
  | SSeq a b => match find_for a with Some r => Some r | None => find_for b end
  | _ => None
  end.
Definition loop_body : stmt := Eval cbv in match find_for lookup_body with Some (_, _, b) => b | None => SPass end.

(* ---- values ---- *)
Lemma dec_shape_enc s : dec_shape (enc_shape s) = Some s.
Proof.
  induction s as [|n s0 IH]; [reflexivity| ]. cbn [enc_shape map dec_shape].
  change (map (fun n => VInt (Z.of_nat n)) s0) with (enc_shape s0). rewrite IH.
  replace (Z.leb 0 (Z.of_nat n)) with true by lia. cbn. rewrite Nat2Z.id. reflexivity.
Qed.

Lemma dec_cell_enc c : dec_cell (enc_cell c) = Some c.
Proof. destruct c as [z|b|[q| | ]]; reflexivity. Qed.

Lemma dec_cells_enc d : sequence (map dec_cell (map enc_cell d)) = Some d.
Proof.
  induction d as [|c d IH]; [reflexivity| ]. cbn [map sequence]. rewrite dec_cell_enc, IH. reflexivity.
Qed.

Lemma dec6_enc6 t : dec6 (enc6 t) = Some t.
Proof.
  destruct t as [s d]. unfold dec6, enc6. cbn [sh6 dt6]. rewrite String.eqb_refl, dec_shape_enc, dec_cells_enc.
  reflexivity.
Qed.

Ltac ext_tac :=
  intros; unfold ext06_ops; cbn [is String.eqb Ascii.eqb Bool.eqb negb no_kw tensors_of]; unfold on1, on2; rewrite ?dec6_enc6; reflexivity.

Lemma ext_size t d st : ext06_ops "$method.size" [enc6 t; VInt d] [] st = retn "size" (size t d) st. Proof. ext_tac. Qed.
Lemma ext_numel t st : ext06_ops "$method.numel" [enc6 t] [] st = Ok (VInt (Z.of_nat (numel t))) st. Proof. ext_tac. Qed.
Lemma ext_getitem_int t i st : ext06_ops "$getitem" [enc6 t; VInt i] [] st = ret6 "x[int]" (select0 t i) st. Proof. ext_tac. Qed.
Lemma ext_getitem_tensor t k st : ext06_ops "$getitem" [enc6 t; enc6 k] [] st = ret6 "x[tensor]" (index1 t k) st.
Proof. ext_tac. Qed.
Lemma ext_device t st : ext06_ops "$attr.device" [enc6 t] [] st = Ok device_token st. Proof. ext_tac. Qed.
Lemma ext_dtype t st : ext06_ops "$attr.dtype" [enc6 t] [] st =
  match as_int t with Some _ => Ok int_dtype_token st | None => stuck6 "dtype of a non-integer tensor" end.
Proof. ext_tac. Qed.
Lemma ext_shape t st : ext06_ops "$attr.shape" [enc6 t] [] st = Ok (VTuple (enc_shape (sh6 t))) st. Proof. ext_tac. Qed.
Lemma ext_T t st : ext06_ops "$attr.T" [enc6 t] [] st = ret6 "T" (transpose t) st. Proof. ext_tac. Qed.
Lemma ext_slice_ni t b st : ext06_ops "$getitem" [enc6 t; VTuple [VStr "$slice"; VNone; VInt b; VNone]] [] st
  = ret6 "x[a:b]" (slice0 t None (Some b)) st. Proof. ext_tac. Qed.
Lemma ext_slice_in t a st : ext06_ops "$getitem" [enc6 t; VTuple [VStr "$slice"; VInt a; VNone; VNone]] [] st
  = ret6 "x[a:b]" (slice0 t (Some a) None) st. Proof. ext_tac. Qed.
Lemma ext_slice_ii t a b st : ext06_ops "$getitem" [enc6 t; VTuple [VStr "$slice"; VInt a; VInt b; VNone]] [] st
  = ret6 "x[a:b]" (slice0 t (Some a) (Some b)) st. Proof. ext_tac. Qed.
Lemma ext_add_s t c st : ext06_ops "operator" [VStr "add"; enc6 t; VInt c] [] st = ret6 "tensor + int" (add_s t c) st. Proof. ext_tac. Qed.
Lemma ext_sub_s t c st : ext06_ops "operator" [VStr "sub"; enc6 t; VInt c] [] st = ret6 "tensor - int" (sub_s t c) st. Proof. ext_tac. Qed.
Lemma ext_add t u st : ext06_ops "operator" [VStr "add"; enc6 t; enc6 u] [] st = ret6 "add" (add t u) st.
Proof. ext_tac. Qed.
Lemma ext_and t u st : ext06_ops "operator" [VStr "and"; enc6 t; enc6 u] [] st = ret6 "and" (band t u) st.
Proof. ext_tac. Qed.
Lemma ext_ge_s t c st : ext06_ops "compare" [VStr "ge"; enc6 t; VInt c] [] st = ret6 "tensor >= int" (ge_s t c) st. Proof. ext_tac. Qed.
Lemma ext_lt t u st : ext06_ops "compare" [VStr "lt"; enc6 t; enc6 u] [] st = ret6 "lt" (lt t u) st.
Proof. ext_tac. Qed.
Lemma ext_gt t u st : ext06_ops "compare" [VStr "gt"; enc6 t; enc6 u] [] st = ret6 "gt" (gt t u) st.
Proof. ext_tac. Qed.
Lemma ext_eq t u st : ext06_ops "compare" [VStr "eq"; enc6 t; enc6 u] [] st = ret6 "eq" (eq t u) st.
Proof. ext_tac. Qed.
Lemma ext_invert t st : ext06_ops "$invert" [enc6 t] [] st = ret6 "invert" (invert t) st. Proof. ext_tac. Qed.
Lemma ext_cat t u st : ext06_ops "torch.cat" [VList [enc6 t; enc6 u]] [] st = ret6 "cat" (cat0 [t; u]) st.
Proof. ext_tac. Qed.
Lemma ext_where c a b st : ext06_ops "torch.where" [enc6 c; enc6 a; enc6 b] [] st = ret6 "where" (twhere c a b) st.
Proof. ext_tac. Qed.
Lemma ext_zeros_like t st : ext06_ops "torch.zeros_like" [enc6 t] [] st = Ok (enc6 (zeros_like t)) st. Proof. ext_tac. Qed.
Lemma ext_isfinite t st : ext06_ops "torch.isfinite" [enc6 t] [] st = ret6 "isfinite" (isfinite t) st. Proof. ext_tac. Qed.
Lemma ext_int z st : ext06_ops "int" [VInt z] [] st = Ok (VInt z) st. Proof. reflexivity. Qed.
Lemma ext_expand1 t a st : ext06_ops "$method.expand" [enc6 t; VInt a] [] st = ret6 "expand" (expand t [a]) st. Proof. ext_tac. Qed.
Lemma ext_expand2 t a b st : ext06_ops "$method.expand" [enc6 t; VInt a; VInt b] [] st = ret6 "expand" (expand t [a; b]) st. Proof. ext_tac. Qed.
Lemma ext_view2 t a b st : ext06_ops "$method.view" [enc6 t; VInt a; VInt b] [] st = ret6 "view" (view t [a; b]) st. Proof. ext_tac. Qed.
Lemma ext_min t st : ext06_ops "$method.min" [enc6 t] [] st = ret6 "min" (tmin t) st. Proof. ext_tac. Qed.
Lemma ext_item t st : ext06_ops "$method.item" [enc6 t] [] st =
  match item t with Some c => Ok (enc_cell c) st | None => stuck6 "item" end. Proof. ext_tac. Qed.
Lemma ext_unsqueeze t d st : ext06_ops "$method.unsqueeze" [enc6 t; VInt d] [] st = ret6 "unsqueeze" (unsqueeze t d) st. Proof. ext_tac. Qed.
Lemma ext_masked_select t m st : ext06_ops "$method.masked_select" [enc6 t; enc6 m] [] st = ret6 "masked_select" (masked_select t m) st.
Proof. ext_tac. Qed.
Lemma ext_masked_fill_i t m v st : ext06_ops "$method.masked_fill" [enc6 t; enc6 m; VInt v] [] st = ret6 "masked_fill" (masked_fill t m (CI v)) st.
Proof. ext_tac. Qed.
Lemma ext_masked_fill_q t m q st : ext06_ops "$method.masked_fill" [enc6 t; enc6 m; VQ q] [] st = ret6 "masked_fill" (masked_fill t m (CF (FQ q))) st.
Proof. ext_tac. Qed.
Lemma ext_eq_s t c st : ext06_ops "$method.eq" [enc6 t; VInt c] [] st = ret6 "eq" (eq_s t c) st. Proof. ext_tac. Qed.
Lemma ext_to t st : ext06_ops "$method.to" [enc6 t; int_dtype_token] [] st = ret6 "to" (as_int t) st. Proof. ext_tac. Qed.
Lemma ext_long t st : ext06_ops "$method.long" [enc6 t] [] st = ret6 "long" (as_int t) st. Proof. ext_tac. Qed.
Lemma ext_repeat t k st : ext06_ops "$method.repeat" [enc6 t; VInt k] [] st = ret6 "repeat" (repeat1 t k) st. Proof. ext_tac. Qed.
Lemma ext_repeat_interleave t k st : ext06_ops "$method.repeat_interleave" [enc6 t; VInt k] [] st = ret6 "repeat_interleave" (repeat_interleave t k) st. Proof. ext_tac. Qed.
Lemma ext_clamp_max t c st : ext06_ops "$method.clamp_max" [enc6 t; VInt c] [] st = ret6 "clamp_max" (clamp_max t c) st. Proof. ext_tac. Qed.
Lemma ext_any t d st : ext06_ops "$method.any" [enc6 t; VInt d] [] st = ret6 "any" (any1 t d) st. Proof. ext_tac. Qed.
Lemma ext_sum t d st : ext06_ops "$method.sum" [enc6 t; VInt d] [] st = ret6 "sum" (sum1 t d) st. Proof. ext_tac. Qed.
Lemma ext_full a b z st : ext06_ops "torch.full" [VTuple [VInt a; VInt b]; VInt z] [("dtype", long_token); ("device", device_token)] st
  = ret6 "full" (full [a; b] (CI z)) st. Proof. reflexivity. Qed.
Lemma ext_arange_d n st : ext06_ops "torch.arange" [VInt n] [("device", device_token)] st = ret6 "arange" (arange n) st. Proof. reflexivity. Qed.
Lemma ext_arange_dl n st : ext06_ops "torch.arange" [VInt n] [("device", device_token); ("dtype", long_token)] st = ret6 "arange" (arange n) st. Proof. reflexivity. Qed.
Lemma ext_as_tensor t st : ext06_ops "torch.as_tensor" [enc6 t] [("dtype", long_token); ("device", device_token)] st = ret6 "as_tensor" (as_int t) st.
Proof. ext_tac. Qed.
Lemma ext_ones n st : ext06_ops "torch.ones" [VInt n] [("device", device_token); ("dtype", bool_token)] st = ret6 "ones" (ones_bool n) st. Proof. reflexivity. Qed.

Lemma ret6_some why t st : ret6 why (Some t) st = Ok (enc6 t) st. Proof. reflexivity. Qed.

Lemma method_enc6 t m args : method (enc6 t) m args = None. Proof. reflexivity. Qed.
Lemma foreign_enc6 t : foreign (enc6 t) = true. Proof. reflexivity. Qed.
Lemma foreign_int z : foreign (VInt z) = false. Proof. reflexivity. Qed.
Lemma foreign_tuple_int z l : foreign (VTuple (VInt z :: l)) = false. Proof. reflexivity. Qed.
Lemma sub_t2_0 a b st : subscript (VTuple [a; b]) (VInt 0) st = Ok a st. Proof. reflexivity. Qed.
Lemma sub_t2_1 a b st : subscript (VTuple [a; b]) (VInt 1) st = Ok b st. Proof. reflexivity. Qed.
Lemma attribute_enc6 t a st : attribute ext06_ops (enc6 t) a st = ext06_ops ("$attr." ++ a) [enc6 t] [] st.
Proof. reflexivity. Qed.
Lemma subscript_enc6 t k st : exists w, subscript (enc6 t) k st = Stuck w.
Proof. unfold enc6, subscript. destruct k; cbn; eauto. Qed.
Lemma binop_enc6 op t v st : exists w, binop_eval op (enc6 t) v st = Stuck w.
Proof. unfold binop_eval, enc6. cbn [is_inf orb]. destruct (is_inf v) eqn:E.
  - destruct v; try discriminate. destruct op; cbn; eauto.
  - destruct op; cbn; eauto; destruct v; cbn; eauto. Qed.

Lemma sub_enc6 t k st (X : outcome val) : match subscript (enc6 t) k st with Stuck _ => X | o => o end = X.
Proof. destruct (subscript_enc6 t k st) as [w ->]. reflexivity. Qed.
Lemma bin_enc6 op t v st (X : outcome val) : match binop_eval op (enc6 t) v st with Stuck _ => X | o => o end = X.
Proof. destruct (binop_enc6 op t v st) as [w ->]. reflexivity. Qed.
Lemma bin_add_int a b st : binop_eval Add (VInt a) (VInt b) st = Ok (VInt (a + b)) st. Proof. reflexivity. Qed.
Lemma bin_sub_int a b st : binop_eval Sub (VInt a) (VInt b) st = Ok (VInt (a - b)) st. Proof. reflexivity. Qed.
Lemma bin_mul_int a b st : binop_eval Mul (VInt a) (VInt b) st = Ok (VInt (a * b)) st. Proof. reflexivity. Qed.
Lemma cmp_eq_int a b : cmp_eval Eq (VInt a) (VInt b) = Some (a =? b)%Z. Proof. reflexivity. Qed.
Lemma cmp_le_int : forall a b, cmp_eval LtE (VInt a) (VInt b) = Some (a <=? b)%Z.
Proof. intros. cbn. unfold Qcompare. cbn. rewrite !Z.mul_1_r. unfold Z.leb. destruct (a ?= b)%Z; reflexivity. Qed.

(* what a leaf reduces: the dispatch on names and the plumbing around an operator; the operators stay folded *)
Ltac red06 :=
  cbn [bind builtin is String.eqb Ascii.eqb Bool.eqb String.append binop_name cmpop_name rich andb orb negb enc_cell truthy].

Ltac ext_rw f :=
  lazymatch f with
  | "$method.size" => rewrite ext_size
  | "$method.numel" => rewrite ext_numel
  | "$attr.device" => rewrite ext_device
  | "$attr.dtype" => rewrite ext_dtype
  | "$attr.shape" => rewrite ext_shape
  | "$attr.T" => rewrite ext_T
  | "$getitem" => first [rewrite ext_getitem_int | rewrite ext_getitem_tensor | rewrite ext_slice_ni | rewrite ext_slice_in | rewrite ext_slice_ii]
  | "operator" => first [rewrite ext_add_s | rewrite ext_sub_s | rewrite ext_add | rewrite ext_and]
  | "compare" => first [rewrite ext_ge_s | rewrite ext_lt | rewrite ext_gt | rewrite ext_eq]
  | "$invert" => rewrite ext_invert
  | "torch.cat" => rewrite ext_cat
  | "torch.where" => rewrite ext_where
  | "torch.zeros_like" => rewrite ext_zeros_like
  | "torch.isfinite" => rewrite ext_isfinite
  | "int" => rewrite ext_int
  | "$method.expand" => first [rewrite ext_expand1 | rewrite ext_expand2]
  | "$method.view" => rewrite ext_view2
  | "$method.min" => rewrite ext_min
  | "$method.item" => rewrite ext_item
  | "$method.unsqueeze" => rewrite ext_unsqueeze
  | "$method.masked_select" => rewrite ext_masked_select
  | "$method.masked_fill" => first [rewrite ext_masked_fill_i | rewrite ext_masked_fill_q]
  | "$method.eq" => rewrite ext_eq_s
  | "$method.to" => rewrite ext_to
  | "$method.long" => rewrite ext_long
  | "$method.repeat" => rewrite ext_repeat
  | "$method.repeat_interleave" => rewrite ext_repeat_interleave
  | "$method.clamp_max" => rewrite ext_clamp_max
  | "$method.any" => rewrite ext_any
  | "$method.sum" => rewrite ext_sum
  | "torch.full" => rewrite ext_full
  | "torch.arange" => first [rewrite ext_arange_d | rewrite ext_arange_dl]
  | "torch.as_tensor" => rewrite ext_as_tensor
  | "torch.ones" => rewrite ext_ones
  end.

Ltac rw :=
  repeat match goal with
  | H : lookup ?x ?l = Some _ |- context [lookup ?x ?l] => rewrite H
  | |- context [method (enc6 _) _ _] => rewrite method_enc6
  | |- context [attribute ext06_ops (enc6 _) _ _] => rewrite attribute_enc6
  | |- context [foreign (enc6 _)] => rewrite foreign_enc6
  | |- context [foreign (VInt _)] => rewrite foreign_int
  | |- context [foreign (VTuple (VInt _ :: _))] => rewrite foreign_tuple_int
  | |- context [subscript (VTuple [_; _]) (VInt 0) _] => rewrite sub_t2_0
  | |- context [subscript (VTuple [_; _]) (VInt 1) _] => rewrite sub_t2_1
  | |- context [match subscript (enc6 _) _ _ with _ => _ end] => rewrite sub_enc6
  | |- context [match binop_eval _ (enc6 _) _ _ with _ => _ end] => rewrite bin_enc6
  | |- context [binop_eval Add (VInt _) (VInt _) _] => rewrite bin_add_int
  | |- context [binop_eval Sub (VInt _) (VInt _) _] => rewrite bin_sub_int
  | |- context [binop_eval Mul (VInt _) (VInt _) _] => rewrite bin_mul_int
  | |- context [cmp_eval Eq (VInt _) (VInt _)] => rewrite cmp_eq_int
  | |- context [cmp_eval Lt (VInt _) (VInt _)] => rewrite cmp_lt_int
  | |- context [cmp_eval LtE (VInt _) (VInt _)] => rewrite cmp_le_int
  | |- context [cmp_eval Gt (VInt _) (VInt _)] => rewrite cmp_gt_int
  | |- context [extreme_of false _ _] => rewrite min_int
  | |- context [ext06_ops ?f _ _ _] => ext_rw f
  end.

Lemma bo_some {A B} (o : option A) (k : A -> option B) b : bo o k = Some b -> exists a, o = Some a /\ k a = Some b.
Proof. destruct o as [a|]; [exists a; split; [reflexivity|assumption]|discriminate]. Qed.

(* the next operation of the tensor program succeeded: name its result (the same name if it was computed before) *)
Ltac dopt :=
  match goal with
  | H : bo (Some _) _ = Some _ |- _ => cbn [bo] in H
  | H : bo ?o _ = Some _ |- _ =>
      lazymatch o with
      | (if _ then _ else _) => fail
      | _ => let E := fresh "E" in apply bo_some in H as (? & E & H); cbv beta in H;
             try match goal with E0 : o = Some _ |- _ => tryif constr_eq E0 E then fail else (rewrite E0 in E; injection E as <-) end
      end
  end.

Definition Inv (c : lconst) (s : lstate) (st : state) : Prop :=
  agrees [("hist", enc6 (c_hist c)); ("hidx", enc6 (c_hidx c)); ("offsets", enc6 (c_offsets c)); ("ids", enc6 (c_ids c));
          ("logps", enc6 (c_logps c)); ("logbs", enc6 (c_logbs c)); ("srange", enc6 (c_srange c));
          ("V", VInt (c_V c)); ("N", VInt (c_N c)); ("M", VInt (c_M c)); ("O", VInt (c_O c)); ("P", VInt (c_P c));
          ("U", VInt (c_U c)); ("B", VInt (c_B c));
          ("desc", enc6 (l_desc s)); ("found", enc6 (l_found s)); ("last_logps", enc6 (l_lastp s));
          ("last_backoffs", enc6 (l_lastb s))] st.

Ltac dif :=
  match goal with
  | H : bo (if ?c then _ else _) _ = Some _ |- _ => let E := fresh "C" in destruct c eqn:E
  | H : (if ?c then _ else _) = Some _ |- _ => let E := fresh "C" in destruct c eqn:E; [ | try discriminate H]
  end.
Ltac rwE :=
  match goal with
  | E : ?o = Some _ |- context [ret6 _ ?o _] => rewrite E; cbn [ret6]
  | E : ?o = Some _ |- context [retn _ ?o _] => rewrite E; cbn [retn]
  | E : ?o = Some _ |- context [match ?o with Some _ => _ | None => _ end] => rewrite E
  end.
Ltac rwC :=
  match goal with
  | C : ?c = _ |- context [if ?c then _ else _] => rewrite C
  end.

(* one operator on values in hand: the container operations answer Stuck on a tensor, [ext06_ops] takes over, and its
   result is the tensor the hypotheses name.  A leaf does not look into the state, which would be most of its goal. *)
Ltac hide_state := match goal with s := sets _ _ |- _ => clearbody s | |- context [sets ?L ?s] => generalize (sets L s); intro end.
Ltac leaf06 := hide_state; repeat first [ progress (red06; rw) | rwE ]; reflexivity.

Lemma body_run c n s s' st : body_fn c n s = Some s' -> Inv c s st ->
  runs ext06_ops loop_body (set_var "n" (VInt n) st) (fun o => exists st', o = Ok CNormal st' /\ Inv c s' st').
Proof.
  intros H HI. unfold Inv in HI. unfold body_fn in H.
  change (set_var "n" (VInt n) st) with (sets [("n", VInt n)] st).
  (* up to the `if`, which is where [body_fn] branches as well *)
  repeat dopt. unfold loop_body. repeat run_by leaf06.
  dif; repeat dopt; injection H as <-.
  all: if_by leaf06; repeat run_by leaf06.
  all: eapply runs_assign_last; [ev_by leaf06| ].
  all: eexists; split; [reflexivity| ]; unfold Inv; cbn [l_desc l_found l_lastp l_lastb]; agrees_by.
Qed.
