(* C02 - the preamble of `_string_matching` (PV.Gen.C02Src.er_pre) for the call `error_rate` makes
   (return_mistakes = True): argument checks, the uniform-cost shortcut (costs reset to 1.0 and return_mistakes
   CLEARED when ins_cost == del_cost == sub_cost > 0; mult stays 1.0), transposition of batch-first input, sizes, and
   the lengths - torch.full without eos, `_lens_from_eos` (TieLens) and the include_eos fix-up with eos - leave the
   state TieBlocks.stageA describes, with return_mistakes = not uniform and the lengths Model.eff_len. *)
From Coq Require Import QArith List String Lia ZifyBool ZifyNat.
From PV Require Import MiniPy.Syntax MiniPy.Interp MiniTorch.OpsC07 MiniTorch.LemmasC07 MiniTorch.OpsC01 MiniTorch.LemmasC01.
From PV Require Import Gen.C02Src C01.SrcRun C01.TieLib C01.TieMath C02.SrcRun C02.TieLib C02.TieMath C02.TieLoop C02.TieBlocks C02.TieWhole C02.TieLens.
Import ListNotations.
Local Open Scope string_scope.

#[local] Arguments Z.add : simpl never.
#[local] Arguments Z.sub : simpl never.
#[local] Arguments Z.of_nat : simpl never.
#[local] Arguments Z.of_nat : simpl nomatch.
#[local] Arguments zf : simpl never.
#[local] Arguments ofx : simpl never.
#[local] Arguments argmin_3 : simpl never.
#[local] Arguments seq : simpl never.
#[local] Arguments fmin_list : simpl never.
#[local] Arguments zrange : simpl never.
#[local] Arguments sw : simpl never.
#[local] Arguments swp : simpl never.

#[local] Arguments Qeq_bool : simpl never.
#[local] Arguments Qcompare : simpl never.
#[local] Arguments Z.eqb : simpl nomatch.
#[local] Arguments any_b : simpl never.

Definition in_tensor (bf : bool) (T N : nat) (f : nat -> nat -> Z) : tn Z :=
  if bf then mkTn [N; T] (tab2 N T (fun n t => f t n)) else mkTn [T; N] (tab2 T N f).

Lemma in_tensor_rank bf T N f : List.length (shp (in_tensor bf T N f)) = 2%nat.
Proof. destruct bf; reflexivity. Qed.

(* the arguments of the call made by error_rate (padding is not read on this path) *)
Definition params (s : positive) (c : C01.Model.cfg) (R N H : nat) (rf hf : nat -> nat -> Z) (w : bool) : list (string * val) :=
  [("ref", enc_i (in_tensor (C01.Model.c_bf c) R N rf)); ("hyp", enc_i (in_tensor (C01.Model.c_bf c) H N hf));
   ("eos", opt_int (C01.Model.c_eos c)); ("include_eos", VBool (C01.Model.c_incl c));
   ("batch_first", VBool (C01.Model.c_bf c));
   ("ins_cost", VQ (qz s (C01.Model.c_ins c))); ("del_cost", VQ (qz s (C01.Model.c_del c)));
   ("sub_cost", VQ (qz s (C01.Model.c_sub c)));
   ("warn", VBool w); ("norm", VBool (C01.Model.c_norm c)); ("return_mask", VBool false);
   ("return_prf_dsts", VBool false); ("exclude_last", VBool false); ("return_mistakes", VBool true);
   ("torch", torch_module)].

Definition pre_a : stmt := seq_take 5 er_pre.
Definition pre_b : stmt := seq_take 9 (seq_drop 5 er_pre).
Definition pre_c : stmt := seq_drop 14 er_pre.

Lemma er_pre_split : forall st, exec ext02 er_pre st = exec ext02 (SSeq pre_a (SSeq pre_b pre_c)) st.
Proof.
  intros st. unfold pre_a, pre_b, pre_c. rewrite <- (exec_take_drop 5 er_pre st).
  cbn [exec]. destruct (exec ext02 (seq_take 5 er_pre) st) as [[|v] st1|n st1|q]; cbn [bind]; try reflexivity.
  change (seq_drop 14 er_pre) with (seq_drop 9 (seq_drop 5 er_pre)).
  symmetry. apply (exec_take_drop 9 (seq_drop 5 er_pre) st1).
Qed.

Section Pre.
  Variables (s : positive) (c : C01.Model.cfg) (R N H : nat) (rf hf : nat -> nat -> Z) (w : bool).

  (* after the argument checks and the uniform-cost shortcut; [tbf]: the layout ref and hyp are in *)
  Definition stageP1_of (tbf : bool) : list (string * val) :=
    [("ref", enc_i (in_tensor tbf R N rf)); ("hyp", enc_i (in_tensor tbf H N hf));
     ("eos", opt_int (C01.Model.c_eos c)); ("include_eos", VBool (C01.Model.c_incl c));
     ("batch_first", VBool (C01.Model.c_bf c));
     ("ins_cost", VQ (qz (eff_scale s c) (eff_ci c))); ("del_cost", VQ (qz (eff_scale s c) (eff_cd c)));
     ("sub_cost", VQ (qz (eff_scale s c) (eff_cs c))); ("mult", VQ 1);
     ("warn", VBool w); ("norm", VBool (C01.Model.c_norm c)); ("return_mask", VBool false);
     ("return_prf_dsts", VBool false); ("exclude_last", VBool false); ("return_mistakes", VBool (negb (uniform c)));
     ("torch", torch_module)].
  Definition stageP1 : list (string * val) := stageP1_of (C01.Model.c_bf c).

  Lemma cost_cond : forall st,
    lookup "ins_cost" (vars st) = Some (VQ (qz s (C01.Model.c_ins c))) ->
    lookup "del_cost" (vars st) = Some (VQ (qz s (C01.Model.c_del c))) ->
    lookup "sub_cost" (vars st) = Some (VQ (qz s (C01.Model.c_sub c))) ->
    eval ext02 (EAnd (ECmp Eq (EName "ins_cost") (EName "del_cost"))
                 (EAnd (ECmp Eq (EName "del_cost") (EName "sub_cost"))
                       (ECmp Gt (EName "sub_cost") (EConst (VQ (0 # 1)%Q))))) st = Ok (VBool (uniform c)) st.
  Proof.
    intros st Hi Hd Hs. unfold uniform, C02.Model.uniform_costs.
    repeat (progress (cbn; look)). rewrite qz_eqb.
    destruct (C01.Model.c_ins c =? C01.Model.c_del c)%Z; [|reflexivity].
    repeat (progress (cbn; look)). rewrite qz_eqb.
    destruct (C01.Model.c_del c =? C01.Model.c_sub c)%Z; [|reflexivity].
    repeat (progress (cbn; look)). now rewrite qz_gt0.
  Qed.

  Lemma pre_a_run : forall st, known st (params s c R N H rf hf w) ->
    runs_to (fun st' => known st' stageP1) (exec ext02 pre_a st).
  Proof.
    intros st K. unfold params in K. open_known K. unfold pre_a, er_pre. cbn [seq_take].
    assertstep. assertstep.
    ifstep_t ltac:(repeat (progress (evn; rewrite ?in_tensor_rank)); reflexivity).
    asg. seqnorm.
    match goal with
    | Hi : lookup "ins_cost" (vars ?st0) = _, Hd : lookup "del_cost" (vars ?st0) = _, Hs : lookup "sub_cost" (vars ?st0) = _
      |- ?P (exec ext02 (SSeq (SIf ?cc ?t ?f) ?b) ?st0) =>
        apply (step_if P cc t f b st0 _ (cost_cond st0 Hi Hd Hs)); cbn [truthy]
    end.
    unfold stageP1, stageP1_of, eff_scale, eff_ci, eff_cd, eff_cs.
    destruct (uniform c); cbn [negb].
    - ifstep. assign3. asg. seqnorm. apply runs_to_ok. close_known.
    - ifsame. seqnorm. apply runs_to_ok. close_known.
  Qed.

  (* after the transposition and the size queries: time-major tensors *)
  Definition stageP2 : list (string * val) :=
    [("ref", enc_i (mkTn [R; N] (tab2 R N rf))); ("hyp", enc_i (mkTn [H; N] (tab2 H N hf)));
     ("eos", opt_int (C01.Model.c_eos c)); ("include_eos", VBool (C01.Model.c_incl c));
     ("ins_cost", VQ (qz (eff_scale s c) (eff_ci c))); ("del_cost", VQ (qz (eff_scale s c) (eff_cd c)));
     ("sub_cost", VQ (qz (eff_scale s c) (eff_cs c))); ("mult", VQ 1);
     ("warn", VBool w); ("norm", VBool (C01.Model.c_norm c)); ("return_mask", VBool false);
     ("return_prf_dsts", VBool false); ("exclude_last", VBool false); ("return_mistakes", VBool (negb (uniform c)));
     ("torch", torch_module);
     ("max_ref_steps", VInt (Z.of_nat R)); ("batch_size", VInt (Z.of_nat N)); ("max_hyp_steps", VInt (Z.of_nat H));
     ("device", device_token)].

  Ltac asg_t tac := assign ltac:(repeat (progress (evn; tac)); reflexivity).

  Lemma pre_b_run : forall st, known st stageP1 -> runs_to (fun st' => known st' stageP2) (exec ext02 pre_b st).
  Proof.
    intros st K. unfold pre_b, er_pre. cbn [seq_take seq_drop].
    apply runs_to_seq with (P := fun st' => known st' (stageP1_of false)).
    - unfold stageP1, stageP1_of in *. open_known K. destruct (C01.Model.c_bf c); unfold in_tensor in *.
      + ifstep. asg_t ltac:(rewrite ?transpose2_mat). asg_t ltac:(rewrite ?transpose2_mat). apply runs_to_ok. close_known.
      + ifstep. apply runs_to_ok. close_known.
    - clear st K. intros st K. unfold stageP1_of, in_tensor in K. open_known K.
      assign3. asg. asg. asg. asg. asg. asg. asg. asg. asg. asg.
      ifstep_t ltac:(repeat (progress (evn; rewrite ?Z.eqb_refl)); reflexivity).
      seqnorm. apply runs_to_ok. unfold stageP2. close_known.
  Qed.

  Definition ref_len (n : nat) : nat := C01.Model.eff_len (C01.Model.c_eos c) (C01.Model.c_incl c) (colf R rf n).
  Definition hyp_len (n : nat) : nat := C01.Model.eff_len (C01.Model.c_eos c) (C01.Model.c_incl c) (colf H hf n).

  Lemma colf_length : forall T f n, List.length (colf T f n) = T.
  Proof. intros. unfold colf. now rewrite map_length, seq_length. Qed.

  (* the include_eos fix-up on one length, when some / no sequence of the batch lacks the eos *)
  Lemma fixup_any : forall e T f n,
    (Z.of_nat (C01.Model.first_eos e (colf T f n)) + 1
     - b2z (Z.of_nat (C01.Model.first_eos e (colf T f n)) =? Z.of_nat T))%Z
    = Z.of_nat (C01.Model.eff_len (Some e) true (colf T f n)).
  Proof.
    intros. unfold C01.Model.eff_len. rewrite colf_length.
    replace (Z.of_nat (C01.Model.first_eos e (colf T f n)) =? Z.of_nat T)%Z
      with (Nat.eqb (C01.Model.first_eos e (colf T f n)) T) by lia.
    destruct (Nat.eqb (C01.Model.first_eos e (colf T f n)) T); cbn [b2z]; lia.
  Qed.

  Lemma fixup_none : forall e T f n,
    (Z.of_nat (C01.Model.first_eos e (colf T f n)) =? Z.of_nat T)%Z = false ->
    (Z.of_nat (C01.Model.first_eos e (colf T f n)) + 1)%Z = Z.of_nat (C01.Model.eff_len (Some e) true (colf T f n)).
  Proof.
    intros e T f n E. unfold C01.Model.eff_len. rewrite colf_length.
    replace (Nat.eqb (C01.Model.first_eos e (colf T f n)) T) with false by lia. lia.
  Qed.

  Lemma any_false_at : forall (g : nat -> bool) M n, (n < M)%nat ->
    any_b (mkTn [M] (map g (seq 0 M))) = false -> g n = false.
  Proof.
    intros g M n Hn Hany. unfold any_b in Hany. cbn [dat] in Hany.
    destruct (g n) eqn:E; [|reflexivity]. rewrite <- Hany. symmetry.
    apply existsb_exists. exists true. split; [|reflexivity]. apply in_map_iff. exists n. split; [exact E|apply in_seq; lia].
  Qed.

  Notation A := (stageA (negb (uniform c)) (eff_scale s c) (eff_ci c) (eff_cd c) (eff_cs c) 1 R N H rf hf ref_len hyp_len
                   (C01.Model.c_norm c) w).

  (* close a goal about one of the two length tensors *)
  Ltac close_lens :=
    match goal with
    | L : lookup ?x (vars ?st) = Some _ |- lookup ?x (vars ?st) = Some _ =>
        rewrite L; unfold lens_tensor, ref_len, hyp_len; do 3 f_equal; apply map_ext_seq; intros n Hn;
        first [ apply fixup_any
              | apply fixup_none;
                match goal with Hany : any_b _ = false |- _ => exact (any_false_at _ _ n Hn Hany) end
              | reflexivity ]
    end.

  Lemma pre_c_run : forall st, (C01.Model.c_eos c <> None -> R <> 0%nat /\ H <> 0%nat) ->
    known st stageP2 -> runs_to (fun st' => known st' A) (exec ext02 pre_c st).
  Proof.
    intros st Hnz K. unfold stageP2 in K. open_known K. unfold pre_c, er_pre. cbn [seq_drop].
    unfold ref_len, hyp_len. destruct (C01.Model.c_eos c) as [e|]; cbn [opt_int] in *.
    - destruct (Hnz ltac:(discriminate)) as [HR HH].
      destruct (lens_run_2 (fun x => x) R N rf e HR) as [sr Hr].
      destruct (lens_run_2 (fun x => x) H N hf e HH) as [sh Hh].
      ifstep.
      assign ltac:(ev; rewrite ext_lens; unfold C07.SrcRun.call_body; rewrite Hr; reflexivity).
      assign ltac:(ev; rewrite ext_lens; unfold C07.SrcRun.call_body; rewrite Hh; reflexivity).
      clear Hr Hh sr sh.
      destruct (C01.Model.c_incl c).
      + ifstep. asg. asg. ifstep.
        match goal with |- context [if any_b ?m then _ else _] => destruct (any_b m) eqn:? end;
        [ ifsame; asg | idtac ];
        (asg; asg; ifstep;
         match goal with |- context [if any_b ?m then _ else _] => destruct (any_b m) eqn:? end;
         [ ifsame; asg | idtac ];
         seqnorm; apply runs_to_ok; unfold stageA; close_known; close_lens).
      + ifstep. seqnorm. apply runs_to_ok. unfold stageA. close_known; close_lens.
    - ifstep.
      asg_t ltac:(replace (Z.of_nat N <? 0)%Z with false by lia; rewrite ?Nat2Z.id, ?full_vec).
      asg_t ltac:(replace (Z.of_nat N <? 0)%Z with false by lia; rewrite ?Nat2Z.id, ?full_vec).
      apply runs_to_ok. unfold stageA. close_known;
      match goal with
      | L : lookup ?x (vars ?st) = Some _ |- lookup ?x (vars ?st) = Some _ =>
          rewrite L; unfold lens_tensor; do 3 f_equal; apply map_ext_seq; intros n Hn;
          cbn [C01.Model.eff_len]; now rewrite colf_length
      end.
  Qed.

  Theorem pre_run : forall st, (C01.Model.c_eos c <> None -> R <> 0%nat /\ H <> 0%nat) ->
    known st (params s c R N H rf hf w) -> runs_to (fun st' => known st' A) (exec ext02 er_pre st).
  Proof.
    intros st Hnz K. rewrite er_pre_split.
    eapply runs_to_seq; [apply pre_a_run; exact K|]. intros st1 K1.
    eapply runs_to_seq; [apply pre_b_run; exact K1|]. intros st2 K2.
    apply pre_c_run; assumption.
  Qed.
End Pre.
