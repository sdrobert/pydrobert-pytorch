(* C02 - infrastructure of the source tie of `_string_matching` in the `return_mistakes = True` configuration:
   what reaches C02.SrcRun.ext02 call by call (the calls of the plain path are answered by C01's ext01, with the
   lemmas of C01.TieLib; the names ext02 overrides have their lemmas here, the three new operations are MiniTorch.OpsC02's),
   statement-by-statement execution lemmas and the tactics of the symbolic runs for ext02.  The generic part
   (abstract states, [runs_to], [seq_take] / [seq_drop] / [flatten]) is C01.TieLib's, imported.
   No statement about the source itself here. *)
From Coq Require Import QArith List String Lia ZifyBool ZifyNat.
From PV Require Import MiniPy.Syntax MiniPy.Interp MiniTorch.OpsC07 MiniTorch.LemmasC07 MiniTorch.OpsC01 MiniTorch.LemmasC01 MiniTorch.OpsC02 MiniTorch.LemmasC02.
From PV Require Import Gen.C02Src C01.SrcRun C01.TieLib C02.SrcRun.
Import ListNotations.
Local Open Scope string_scope.

#[global] Arguments dec01 : simpl never.
#[global] Arguments enc_b : simpl never.
#[global] Arguments enc_i : simpl never.
#[global] Arguments enc_x : simpl never.
#[global] Arguments tab2 : simpl never.
#[global] Arguments tab3 : simpl never.
#[global] Arguments qz : simpl never.
#[global] Arguments select0 : simpl never.
#[global] Arguments set_select0 : simpl never.
#[global] Arguments slice0 : simpl never.
#[global] Arguments set_slice0 : simpl never.
#[global] Arguments broadcast : simpl never.
#[global] Arguments where_f : simpl never.
#[global] Arguments min_dim : simpl never.
#[global] Arguments gather0 : simpl never.
#[global] Arguments unsqueeze : simpl never.
#[global] Arguments squeeze_dim : simpl never.
#[global] Arguments expand2 : simpl never.
#[global] Arguments triu_f : simpl never.
#[global] Arguments transpose2 : simpl never.
#[global] Arguments arange_f : simpl never.
#[global] Arguments full : simpl never.
#[global] Arguments fadd : simpl never.
#[global] Arguments fsub : simpl never.
#[global] Arguments fmul : simpl never.
#[global] Arguments fdiv : simpl never.
#[global] Arguments fmin : simpl never.
#[global] Arguments fge : simpl never.
#[global] Arguments b2f : simpl never.
#[global] Arguments z2f : simpl never.
#[global] Arguments ext01 : simpl never.

Lemma num_q_enc_x t : num_q (enc_x t) = None.  Proof. reflexivity. Qed.
Lemma num_q_enc_i t : num_q (enc_i t) = None.  Proof. reflexivity. Qed.

(* a call that ext02 hands over to ext01 *)
Ltac via L :=
  unfold ext02; cbn; rewrite ?dec01_enc_x, ?dec01_enc_i, ?dec01_enc_b; cbn; rewrite ?num_q_enc_x, ?num_q_enc_i; cbn; apply L.

(* what reaches ext02, call by call: only "_lens_from_eos", "compare", "operator" and "$setitem" are its own, every
   other name is ext01's (the lemmas of C01.TieLib apply after [ext02_other]) *)
Lemma ext02_other f args kw st :
  is f "_lens_from_eos" = false -> is f "compare" = false -> is f "operator" = false -> is f "$setitem" = false ->
  ext02 f args kw st = ext01 f args kw st.
Proof. intros E1 E2 E3 E4. unfold ext02. now rewrite E1, E2, E3, E4. Qed.

Section ExtLemmas.
  Notation ext := ext02.
  Lemma ext_cmp_lt c y st : ext "compare" [VStr "lt"; VInt c; enc_i y] [] st = Ok (enc_b (map_t (fun v => Z.ltb c v) y)) st.
  Proof. via C01.TieLib.ext_cmp_lt. Qed.
  Lemma ext_cmp_ge x c st : ext "compare" [VStr "ge"; enc_i x; VInt c] [] st = Ok (enc_b (ge_s x c)) st.
  Proof. via C01.TieLib.ext_cmp_ge. Qed.
  Lemma ext_cmp_eq x c st : ext "compare" [VStr "eq"; enc_i x; VInt c] [] st = Ok (enc_b (eq_s x c)) st.
  Proof. via C01.TieLib.ext_cmp_eq. Qed.
  Lemma ext_cmp_ne x y st : ext "compare" [VStr "ne"; enc_i x; enc_i y] [] st =
    ret01 "ne" (option_map AB (cmp_i (fun u v => negb (Z.eqb u v)) x y)) st.
  Proof. via C01.TieLib.ext_cmp_ne. Qed.
  Lemma ext_mul_q_x q y st : ext "operator" [VStr "mul"; VQ q; enc_x y] [] st = Ok (enc_x (map_t (fmul (Fq q)) y)) st.
  Proof. via C01.TieLib.ext_mul_q_x. Qed.
  Lemma ext_mul_x_q x q st : ext "operator" [VStr "mul"; enc_x x; VQ q] [] st = Ok (enc_x (map_t (fun e => fmul e (Fq q)) x)) st.
  Proof. via C01.TieLib.ext_mul_x_q. Qed.
  Lemma ext_add_x x y st : ext "operator" [VStr "add"; enc_x x; enc_x y] [] st = ret01 "add" (option_map AX (bin_f fadd x y)) st.
  Proof. via C01.TieLib.ext_add_x. Qed.
  Lemma ext_sub_x x y st : ext "operator" [VStr "sub"; enc_x x; enc_x y] [] st = ret01 "sub" (option_map AX (bin_f fsub x y)) st.
  Proof. via C01.TieLib.ext_sub_x. Qed.
  Lemma ext_setitem_slice_x x a b y st :
    ext "$setitem" [enc_x x; VTuple [VStr "$slice"; a; b; VNone]; enc_x y] [] st =
    match dec_bound a, dec_bound b with
    | Some a', Some b' => ret01 "setitem slice" (option_map AX (set_slice0 x a' b' y)) st
    | _, _ => Stuck "setitem"
    end.
  Proof. via C01.TieLib.ext_setitem_slice_x. Qed.
  Lemma ext_lens tok e d st : ext "_lens_from_eos" [tok; e; d] [] st =
    C07.SrcRun.call_body (fun x => x) er_lens (("tok", tok) :: ("eos", e) :: ("dim", d) :: C07.SrcRun.globals07) st.
  Proof. reflexivity. Qed.
  Lemma ext_add_i_int x c st : ext "operator" [VStr "add"; enc_i x; VInt c] [] st = Ok (enc_i (add_s x c)) st.
  Proof. via C01.TieLib.ext_add_i_int. Qed.
  Lemma ext_sub_i x y st : ext "operator" [VStr "sub"; enc_i x; enc_i y] [] st = ret01 "sub" (option_map AI (bin_i Z.sub x y)) st.
  Proof. via C01.TieLib.ext_sub_i. Qed.
  Lemma ext_div_x x y st : ext "operator" [VStr "truediv"; enc_x x; enc_x y] [] st = ret01 "truediv" (option_map AX (bin_f fdiv x y)) st.
  Proof. via C01.TieLib.ext_div_x. Qed.
  Lemma ext_cmp_ge_x x y st : ext "compare" [VStr "ge"; enc_x x; enc_x y] [] st = ret01 "ge" (option_map AB (cmp_f fge x y)) st.
  Proof. unfold ext02. cbn. now rewrite !dec01_enc_x. Qed.
  Lemma ext_add_x_q x q st : ext "operator" [VStr "add"; enc_x x; VQ q] [] st = Ok (enc_x (add_scalar_f x q)) st.
  Proof. unfold ext02. cbn. now rewrite dec01_enc_x. Qed.
  Lemma ext_setitem_int_x x i y st : ext "$setitem" [enc_x x; VInt i; enc_x y] [] st =
    match set_select0 x i y with
    | Some (Some r) => Ok (enc_x r) st
    | Some None => Exc index_error st
    | None => oob "setitem: integer key"
    end.
  Proof. unfold ext02. cbn. now rewrite !dec01_enc_x. Qed.
  Lemma ext_getitem_int_x x i st : ext "$getitem" [enc_x x; VInt i] [] st =
    match select0 x i with Some (Some r) => Ok (enc_x r) st | Some None => Exc index_error st | None => oob "getitem" end.
  Proof. unfold ext02. cbn. unfold ext01, ext01_ops. cbn. now rewrite dec01_enc_x. Qed.
End ExtLemmas.

#[global] Arguments ext02 : simpl never.

Section Exec.
  Notation ext := ext02.
  Lemma exec_assign x e st v : eval ext e st = Ok v st -> exec ext (SAssign [TName x] e) st = Ok CNormal (set_var x v st).
  Proof. intros H. cbn [exec]. rewrite H. reflexivity. Qed.
  (* x[k] = e on a float tensor held by the variable x *)
  Lemma exec_setitem x ke e st v kv t nv :
    eval ext e st = Ok v st -> lookup x (vars st) = Some (enc_x t) -> eval ext ke st = Ok kv st ->
    ext "$setitem" [enc_x t; kv; v] [] st = Ok nv st ->
    exec ext (SAssign [TSub (EName x) ke] e) st = Ok CNormal (set_var x nv st).
  Proof.
    intros He Hx Hk Hs. cbn [exec]. rewrite He. cbn [bind assign_all place_of store eval]. rewrite Hx. cbn [bind].
    rewrite Hk. cbn [bind]. unfold enc_x at 1. fold (enc_x t). rewrite Hs. cbn [bind]. reflexivity.
  Qed.
  Lemma exec_assert e st v : eval ext e st = Ok v st -> truthy v = true -> exec ext (SAssert e) st = Ok CNormal st.
  Proof. intros H T. cbn [exec]. rewrite H. cbn [bind]. now rewrite T. Qed.
  Lemma exec_if c t f st v : eval ext c st = Ok v st -> exec ext (SIf c t f) st = exec ext (if truthy v then t else f) st.
  Proof. intros H. cbn [exec]. rewrite H. cbn [bind]. destruct (truthy v); reflexivity. Qed.

  (* one statement of a goal [P (exec ext s st)] (P = runs_to Q, returns v): nothing is rewritten under the rest of the
     program, and the state after the statement comes as a fresh variable with its defining equation *)
  Section Step.
    Variable P : outcome ctl -> Prop.
    Lemma step_seq a b st st1 : exec ext a st = Ok CNormal st1 -> (forall st', st' = st1 -> P (exec ext b st')) -> P (exec ext (SSeq a b) st).
    Proof. intros H K. cbn [exec]. rewrite H. now apply K. Qed.
    Lemma step_last a st st1 : exec ext a st = Ok CNormal st1 -> (forall st', st' = st1 -> P (Ok CNormal st')) -> P (exec ext a st).
    Proof. intros H K. rewrite H. now apply K. Qed.
    Lemma step_assign3 x y z e b st v : eval ext e st = Ok v st ->
      (forall s1, s1 = set_var x v st -> forall s2, s2 = set_var y v s1 -> forall s3, s3 = set_var z v s2 -> P (exec ext b s3)) ->
      P (exec ext (SSeq (SAssign [TName x; TName y; TName z] e) b) st).
    Proof. intros H K. cbn [exec]. rewrite H. now apply (K _ eq_refl _ eq_refl). Qed.
    Lemma step_if c t f b st v : eval ext c st = Ok v st ->
      P (exec ext (SSeq (if truthy v then t else f) b) st) -> P (exec ext (SSeq (SIf c t f) b) st).
    Proof. intros H K. cbn [exec] in *. rewrite H. cbn [bind]. now destruct (truthy v). Qed.
    Lemma step_if_same c t b st v : eval ext c st = Ok v st -> P (exec ext (SSeq t b) st) -> P (exec ext (SSeq (SIf c t t) b) st).
    Proof. intros H K. apply (step_if c t t b st v H). now destruct (truthy v). Qed.
    Lemma step_assoc a b c st : P (exec ext (SSeq a (SSeq b c)) st) -> P (exec ext (SSeq (SSeq a b) c) st).
    Proof. now rewrite exec_seq_assoc. Qed.
    Lemma step_pass b st : P (exec ext b st) -> P (exec ext (SSeq SPass b) st).
    Proof. exact (fun K => K). Qed.
  End Step.
End Exec.

(* one rewriting step of the symbolic evaluation, dispatched on what the goal shows: a fact about tensor values inside
   the interpreter, or the lemma of the ext02 call that is ready (chosen by the name and the kinds of its arguments, so
   that a call still waiting for an argument costs nothing) *)
Ltac rw_ext01_call f args :=
  lazymatch f with
  | "$getitem" =>
      lazymatch args with
      | [enc_i _; VInt _] => rewrite ext_getitem_int_i
      | [enc_x _; VTuple _] => rewrite ext_getitem_slice_x
      end
  | "$method.float" => rewrite ext_float_b
  | "torch.min" => rewrite ext_torch_min
  | "$method.min" => rewrite ext_min_dim
  | "torch.where" => rewrite ext_where
  | "$method.dim" => rewrite ext_dim_i
  | "$method.t" => rewrite ext_t_i
  | "torch.empty" => rewrite ext_empty
  | "$method.detach" => rewrite ext_detach_i
  | "$attr.shape" => rewrite ext_shape_i
  | "$attr.device" => rewrite ext_device_i
  | "$attr.dtype" => lazymatch args with [enc_i _] => rewrite ext_dtype_i | [enc_x _] => rewrite ext_dtype_x end
  | "$method.any" => rewrite ext_any
  | "$method.to" =>
      lazymatch args with
      | [enc_b _; ?tok] => first [rewrite ext_to_b_long | rewrite ext_to_b_float]
      | [enc_i _; _] => rewrite ext_to_i_float
      end
  | "torch.full" => rewrite ext_full
  | "torch.arange" => rewrite ext_arange_f
  | "float" => rewrite ext_float_inf
  | "torch.full_like" => rewrite ext_full_like_inf
  | "$method.triu" => rewrite ext_triu
  | "$method.unsqueeze" => lazymatch args with [enc_x _; _] => rewrite ext_unsqueeze_x | [enc_i _; _] => rewrite ext_unsqueeze_i end
  | "$method.squeeze" => rewrite ext_squeeze_x
  | "$method.expand" => rewrite ext_expand_x
  | "$method.gather" => rewrite ext_gather
  | "$method.eq" => rewrite ext_eq_m
  | "$method.gt" => rewrite ext_gt_m
  end.

Ltac rw_ext_call f args :=
  lazymatch f with
  | "compare" =>
      lazymatch args with
      | [VStr "lt"; VInt _; enc_i _] => rewrite ext_cmp_lt
      | [VStr "ge"; enc_i _; VInt _] => rewrite ext_cmp_ge
      | [VStr "eq"; enc_i _; VInt _] => rewrite ext_cmp_eq
      | [VStr "ne"; enc_i _; enc_i _] => rewrite ext_cmp_ne
      | [VStr "ge"; enc_x _; enc_x _] => rewrite ext_cmp_ge_x
      end
  | "operator" =>
      lazymatch args with
      | [VStr "mul"; VQ _; enc_x _] => rewrite ext_mul_q_x
      | [VStr "mul"; enc_x _; VQ _] => rewrite ext_mul_x_q
      | [VStr "add"; enc_x _; enc_x _] => rewrite ext_add_x
      | [VStr "sub"; enc_x _; enc_x _] => rewrite ext_sub_x
      | [VStr "add"; enc_i _; VInt _] => rewrite ext_add_i_int
      | [VStr "sub"; enc_i _; enc_i _] => rewrite ext_sub_i
      | [VStr "truediv"; enc_x _; enc_x _] => rewrite ext_div_x
      | [VStr "add"; enc_x _; VQ _] => rewrite ext_add_x_q
      end
  | "$setitem" =>
      lazymatch args with
      | [enc_x _; VInt _; enc_x _] => rewrite ext_setitem_int_x
      | [enc_x _; VTuple _; enc_x _] => rewrite ext_setitem_slice_x
      end
  | "$getitem" =>
      lazymatch args with
      | [enc_x _; VInt _] => rewrite ext_getitem_int_x
      | _ => rewrite (ext02_other f) by reflexivity; rw_ext01_call f args
      end
  | _ => rewrite (ext02_other f) by reflexivity; rw_ext01_call f args
  end.

Ltac rw1 :=
  match goal with
  | |- context [foreign (enc_i ?t)] => change (foreign (enc_i t)) with true
  | |- context [foreign (enc_x ?t)] => change (foreign (enc_x t)) with true
  | |- context [method (enc_i ?t) ?m ?a] => change (method (enc_i t) m a) with (@None (val * option val))
  | |- context [method (enc_b ?t) ?m ?a] => change (method (enc_b t) m a) with (@None (val * option val))
  | |- context [method (enc_x ?t) ?m ?a] => change (method (enc_x t) m a) with (@None (val * option val))
  | |- context [attribute ?e (enc_i ?t) ?a ?st] => change (attribute e (enc_i t) a st) with (e ("$attr." ++ a) [enc_i t] [] st)
  | |- context [attribute ?e (enc_x ?t) ?a ?st] => change (attribute e (enc_x t) a st) with (e ("$attr." ++ a) [enc_x t] [] st)
  | |- context [subscript (enc_i ?t) (VInt ?i) ?st] => change (subscript (enc_i t) (VInt i) st) with (@Stuck val "item of a library object")
  | |- context [subscript (enc_x ?t) (VInt ?i) ?st] => change (subscript (enc_x t) (VInt i) st) with (@Stuck val "item of a library object")
  | |- context [subscript (enc_x ?t) (VTuple ?k) ?st] => change (subscript (enc_x t) (VTuple k) st) with (@Stuck val "subscript")
  | |- context [binop_eval ?op (VQ ?q) (enc_x ?t) ?st] => change (binop_eval op (VQ q) (enc_x t) st) with (@Stuck val (binop_name op))
  | |- context [binop_eval ?op (enc_x ?t) (VQ ?q) ?st] => change (binop_eval op (enc_x t) (VQ q) st) with (@Stuck val (binop_name op))
  | |- context [binop_eval ?op (enc_x ?t) (enc_x ?u) ?st] => change (binop_eval op (enc_x t) (enc_x u) st) with (@Stuck val (binop_name op))
  | |- context [binop_eval ?op (enc_i ?t) (VInt ?c) ?st] => change (binop_eval op (enc_i t) (VInt c) st) with (@Stuck val (binop_name op))
  | |- context [binop_eval ?op (enc_i ?t) (enc_i ?u) ?st] => change (binop_eval op (enc_i t) (enc_i u) st) with (@Stuck val (binop_name op))
  | |- context [ext02 ?f ?args _ _] => rw_ext_call f args
  end.

(* frames: a run that only writes the variables [ws] *)
Definition frame (ws : list string) (st0 st : state) : Prop :=
  forall z, existsb (String.eqb z) ws = false -> lookup z (vars st) = lookup z (vars st0).

Lemma frame_refl : forall ws st, frame ws st st.
Proof. intros ws st z _. reflexivity. Qed.

Lemma frame_trans : forall ws a b c, frame ws a b -> frame ws b c -> frame ws a c.
Proof. intros ws a b c F G z Hz. now rewrite (G z Hz), (F z Hz). Qed.

Lemma frame_set_var : forall ws st0 st y v, existsb (String.eqb y) ws = true -> frame ws st0 st -> frame ws st0 (set_var y v st).
Proof.
  intros ws st0 st y v Hy F z Hz. unfold set_var. cbn [vars]. rewrite lookup_update.
  destruct (String.eqb z y) eqn:E; [|now apply F].
  apply String.eqb_eq in E. subst z. rewrite Hy in Hz. discriminate.
Qed.

Lemma frame_lookup : forall ws st0 st z w, frame ws st0 st -> existsb (String.eqb z) ws = false ->
  lookup z (vars st0) = w -> lookup z (vars st) = w.
Proof. intros ws st0 st z w F Hz H. now rewrite (F z Hz). Qed.

Lemma carry_lookup : forall z y v st stn w, stn = set_var y v st -> String.eqb z y = false ->
  lookup z (vars st) = w -> lookup z (vars stn) = w.
Proof. intros z y v st stn w -> E H. now apply lookup_set_var_ne. Qed.

Lemma carry_frame : forall ws s0 st y v stn, stn = set_var y v st -> existsb (String.eqb y) ws = true ->
  frame ws s0 st -> frame ws s0 stn.
Proof. intros ws s0 st y v stn -> E F. now apply frame_set_var. Qed.

(* Hst : stn = set_var y v st.  Carry the lookup hypotheses about st (the one about y itself is dropped), and the
   [frame ws st0 st] hypotheses over a write to a variable of ws, over to stn *)
Ltac carry_state Hst :=
  lazymatch type of Hst with
  | ?stn = set_var ?y ?v ?st =>
      repeat match goal with
      | H : lookup ?z (vars st) = ?w |- _ => first [ apply (carry_lookup z y v st stn w Hst eq_refl) in H | clear H ]
      | F : frame ?ws ?s0 st |- _ => apply (carry_frame ws s0 st y v stn Hst eq_refl) in F
      end;
      let Hy := fresh "L" in
      assert (Hy : lookup y (vars stn) = Some v) by (rewrite Hst; apply lookup_set_var_eq);
      clear Hst
  end.

Ltac push_state :=
  match goal with
  | |- context [set_var ?y ?v ?st] =>
      is_var st;
      let stn := fresh "st" in
      let Hst := fresh "Hst" in
      remember (set_var y v st) as stn eqn:Hst; carry_state Hst
  end.
Ltac intro_state := let stn := fresh "st" in let Hst := fresh "Hst" in intros stn Hst; carry_state Hst.

(* carry every [lookup z (vars st0) = w] hypothesis over a frame F : frame ws st0 st (z outside ws) *)
Ltac transport F :=
  match type of F with
  | frame ?ws ?s0 ?st =>
      repeat match goal with
      | H : lookup ?z (vars s0) = ?w |- _ =>
          let b := eval vm_compute in (existsb (String.eqb z) ws) in
          lazymatch b with
          | true => clear H
          | false =>
              let H' := fresh "L" in
              assert (H' : lookup z (vars st) = w) by (exact (frame_lookup ws s0 st z w F eq_refl H));
              clear H
          end
      end
  end.

(* tactics of the symbolic runs (ext02 versions of C01.TieLib's) *)
Ltac ev := repeat (progress (cbn; look; repeat rw1; try change (Pos.to_nat 1) with 1%nat)).

Ltac norm :=
  unfold bool_to_float, bool_to_long, long_to_float, ge_s, eq_s, cmp_scalar, add_s, bin_f, bin_i, cmp_i, cmp_f, add_scalar_f, map_t;
  cbn [shp dat];
  rewrite ?map_map, ?map_tab2;
  try lazymatch goal with |- context [broadcast _ _ _ _ _] =>
    rewrite ?broadcast_mat_row, ?broadcast_same2, ?broadcast_same1, ?broadcast_3_mat, ?broadcast_col_row end;
  try lazymatch goal with |- context [where_f _ _ _] => rewrite ?where_row_mat, ?where_same1, ?where_same2 end;
  try lazymatch goal with |- context [slice0 _ _ _] => rewrite ?slice0_init, ?slice0_tail end;
  try lazymatch goal with |- context [set_slice0 _ _ _ _] => rewrite ?set_slice0_tail end;
  try lazymatch goal with |- context [unsqueeze _ _] => rewrite ?unsqueeze_1_0, ?unsqueeze_1_1, ?unsqueeze_2_m1 end;
  try lazymatch goal with |- context [squeeze_dim _ _] => rewrite ?squeeze_2_0 end;
  cbn [option_map ret01 enc01].
Ltac evn := repeat (progress (ev; norm)).

(* the first statement of the sequence (or the only statement) of a goal [P (exec ext02 s st)]: [run] shows
   [exec ext02 s0 st = Ok CNormal ?st1] for that statement *)
Ltac seqnorm :=
  repeat lazymatch goal with
  | |- ?P (exec ext02 (SSeq (SSeq _ _) _) _) => apply (step_assoc P)
  | |- ?P (exec ext02 (SSeq SPass _) _) => apply (step_pass P)
  end.
Ltac step run :=
  seqnorm;
  lazymatch goal with
  | |- ?P (exec ext02 (SSeq ?a ?b) ?st) => eapply (step_seq P a b st); [ run | intro_state ]
  | |- ?P (exec ext02 ?a ?st) => eapply (step_last P a st); [ run | intro_state ]
  end.
Ltac assign tac := step ltac:(eapply exec_assign; solve [tac]).
Ltac asg := assign ltac:(evn; reflexivity).

Ltac ifstep_t tac :=
  seqnorm;
  lazymatch goal with
  | |- ?P (exec ext02 (SSeq (SIf ?c ?t ?f) ?b) ?st) => eapply (step_if P c t f b st); [ solve [tac] | cbn [truthy] ]
  | |- ?P (exec ext02 (SIf ?c ?t ?f) ?st) => erewrite (exec_if c t f st) by (solve [tac]); cbn [truthy]
  end.
Ltac ifstep := ifstep_t ltac:(evn; reflexivity).
(* an `if` whose branches are the same statement (`if warn: warnings.warn(..)`, dropped by the translator) *)
Ltac ifsame :=
  seqnorm;
  lazymatch goal with
  | |- ?P (exec ext02 (SSeq (SIf ?c ?t ?t) ?b) ?st) => eapply (step_if_same P c t b st); [ solve [evn; reflexivity] | ]
  end.

(* x[k] = e; [tv] evaluates e, [tac] closes the goal about the "$setitem" call *)
Ltac setitem_t tv tac :=
  step ltac:(eapply exec_setitem; [ solve [tv] | solve [look; reflexivity] | solve [ev; reflexivity] | solve [tac] ]).
Ltac setitem := setitem_t ltac:(evn; reflexivity) ltac:(evn; reflexivity).

Lemma exec_take_drop : forall n s st, exec ext02 (SSeq (seq_take n s) (seq_drop n s)) st = exec ext02 s st.
Proof.
  induction n as [|n IH]; intros s st; [reflexivity|].
  destruct s; cbn [seq_take seq_drop]; try apply exec_seq_pass_r.
  rewrite exec_seq_assoc. cbn [exec]. destruct (exec ext02 s1 st) as [[|v] st1|m st1|w]; cbn [bind]; try reflexivity.
  apply IH.
Qed.

Ltac assertstep :=
  seqnorm;
  lazymatch goal with
  | |- ?P (exec ext02 (SSeq ?a ?b) ?st) =>
      eapply (step_seq P a b st); [ eapply exec_assert; [ solve [evn; reflexivity] | reflexivity ] | intros ? -> ]
  end.

Ltac assign3 :=
  seqnorm;
  lazymatch goal with
  | |- ?P (exec ext02 (SSeq (SAssign [TName ?x; TName ?y; TName ?z] ?e) ?b) ?st) =>
      eapply (step_assign3 P x y z e b st); [ solve [evn; reflexivity] | intro_state; intro_state; intro_state ]
  end.

(* sequences of statements up to re-association: the flattened spine *)
Fixpoint exec_list (l : list stmt) (st : state) : outcome ctl :=
  match l with
  | [] => Ok CNormal st
  | x :: r => bind (exec ext02 x st) (fun c st1 => match c with CNormal => exec_list r st1 | CReturn _ => Ok c st1 end)
  end.

Lemma exec_list_app : forall l1 l2 st,
  exec_list (l1 ++ l2) st =
  bind (exec_list l1 st) (fun c st1 => match c with CNormal => exec_list l2 st1 | CReturn _ => Ok c st1 end).
Proof.
  induction l1 as [|x l1 IH]; intros l2 st; [reflexivity|].
  cbn [app exec_list]. destruct (exec ext02 x st) as [[|v] st1|n st1|w]; cbn [bind]; try reflexivity. apply IH.
Qed.

Lemma exec_flatten : forall s st, exec ext02 s st = exec_list (flatten s) st.
Proof.
  induction s; intros st;
    try (cbn [flatten exec_list];
         match goal with |- ?e = bind ?e _ => destruct e as [[|v] st1|n st1|w]; reflexivity end).
  - reflexivity.
  - cbn [flatten]. rewrite exec_list_app. cbn [exec]. rewrite IHs1.
    destruct (exec_list (flatten s1) st) as [[|v] st1|n st1|w]; cbn [bind]; try reflexivity. apply IHs2.
Qed.

Definition returns (v : val) (o : outcome ctl) : Prop := exists st', o = Ok (CReturn v) st'.

Lemma runs_to_seq : forall (P Q : state -> Prop) a b st,
  runs_to P (exec ext02 a st) -> (forall st1, P st1 -> runs_to Q (exec ext02 b st1)) ->
  runs_to Q (exec ext02 (SSeq a b) st).
Proof. intros P Q a b st [st1 [He P1]] Hb. cbn [exec]. rewrite He. cbn [bind]. now apply Hb. Qed.

Lemma returns_seq : forall (P : state -> Prop) v a b st,
  runs_to P (exec ext02 a st) -> (forall st1, P st1 -> returns v (exec ext02 b st1)) ->
  returns v (exec ext02 (SSeq a b) st).
Proof. intros P v a b st [st1 [He P1]] Hb. cbn [exec]. rewrite He. cbn [bind]. now apply Hb. Qed.

Fixpoint known (st : state) (l : list (string * val)) : Prop :=
  match l with
  | [] => True
  | (x, v) :: r => lookup x (vars st) = Some v /\ known st r
  end.

Ltac open_known H := cbn [known app] in H; repeat match type of H with _ /\ _ => let L := fresh "K" in destruct H as [L H] end; clear H.
Ltac close_known := cbn [known app]; repeat split; try assumption.
