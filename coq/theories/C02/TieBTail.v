(* C02, second source tie - the block Gen.C02BSrc.mer_tail of `minimum_error_rate_loss` ("if samples < 2:" .. "return loss"),
   run symbolically from a state that holds the arguments of the call ([arg_vars]) in front of anything in which
   batch_size = N and samples = M (the block mer_pre ends in such a state, TieBPre.pre_vars): for every N, M >= 2, oracle
   weights w (N rows of M), both layouts, sub_avg and every reduction it returns the tensor [loss_t] - AS CODED, on the
   float elements: E = what the call of error_rate returned, viewed (N, M); E - mean(1, keepdim) when sub_avg; times the
   oracle's softmax; mean / sum / none.  With M < 2 it raises RuntimeError.  The call of error_rate is the run of the
   translated `error_rate` (Gen.C02Src.er_wrap under SrcRun.ext02w): a hypothesis here, discharged in TieB.v by
   C02.Tie.error_rate_wrapper_is_model. *)
From Coq Require Import QArith List String Lia.
From PV Require Import MiniPy.Syntax MiniPy.Interp MiniTorch.OpsC07 MiniTorch.LemmasC07 MiniTorch.OpsC01 MiniTorch.LemmasC01 MiniTorch.OpsC02B MiniTorch.LemmasC02B.
From PV Require Import Gen.C02Src Gen.C02BSrc C01.SrcRun C01.TieLib C02.SrcRun C02.SrcRunB C02.TieBLib C02.TieBPre.
Import ListNotations.
Local Open Scope string_scope.

#[local] Arguments extB : simpl never.
#[local] Arguments mean_keep : simpl never.

Section Tail.
  Variable w : list (list Q).
  Variables (N M : nat) (lpd : list fx) (reft hypt : tn Z) (bf : bool).
  Variables (eos : option Z) (incl norm warn : bool) (qi qd qs : Q).

  (* the loss as the statements compute it *)
  Definition e_sub (sub_avg : bool) (E : nat -> nat -> fx) (n m : nat) : fx :=
    if sub_avg then fsub (E n m) (fdiv (fsum (map (E n) (seq 0 M))) (z2f (Z.of_nat M))) else E n m.
  Definition l_w (E : nat -> nat -> fx) (n m : nat) : fx := fmul (E n m) (qfx (nth m (nth n w []) 0%Q)).
  Definition loss_t (sub_avg : bool) (red : C02.Model.reduction) (E : nat -> nat -> fx) : tn fx :=
    let L := mkTn [N; M] (tab2 N M (l_w (e_sub sub_avg E))) in
    match red with C02.Model.RNone => L | C02.Model.RSum => sum_all L | C02.Model.RMean => mean_all L end.

  Hypothesis HwN : List.length w = N.
  Hypothesis HwM : forall row, List.In row w -> List.length row = M.

  Section Frame.
    Variable red : C02.Model.reduction.
    Notation tail_st sub_avg tl :=
      (mkState (arg_vars (mkTn [N; M] lpd) reft hypt bf (opt_int eos) (VBool incl) (VBool sub_avg) (VBool norm) (VQ qi) (VQ qd) (VQ qs)
                  (red_val red) (VBool warn) tl) []).

    (* the reductions and `return loss`, on any variables in which reduction and loss are bound *)
    Lemma tail_reduce : forall L vs, lookup "reduction" vs = Some (red_val red) -> lookup "loss" vs = Some (enc_x L) ->
      exists st', exec (extB w) (seq_drop 4 mer_tail) (mkState vs []) =
        Ok (CReturn (enc_x (match red with C02.Model.RNone => L | C02.Model.RSum => sum_all L | C02.Model.RMean => mean_all L end))) st'.
    Proof.
      intros L vs Hred HL. unfold mer_tail, red_val in *. cbn [seq_drop].
      destruct red; eexists; repeat stepB ltac:(repeat (progress (evB; rewrite ?lookup_update, ?Hred, ?HL)); reflexivity).
    Qed.

    (* `loss = er * softmax(log_probs, 1)` and the rest *)
    Lemma tail_loss : forall E vs, lookup "log_probs" vs = Some (enc_x (mkTn [N; M] lpd)) -> lookup "reduction" vs = Some (red_val red) ->
      lookup "er" vs = Some (enc_x (mkTn [N; M] (tab2 N M E))) ->
      exists st', exec (extB w) (seq_drop 3 mer_tail) (mkState vs []) = Ok (CReturn (enc_x (loss_t false red E))) st'.
    Proof.
      intros E vs Hlp Hred HE.
      destruct (tail_reduce (mkTn [N; M] (tab2 N M (l_w E))) (update "loss" (enc_x (mkTn [N; M] (tab2 N M (l_w E)))) vs)) as [st' Hr];
        [now rewrite lookup_update..|].
      exists st'. unfold mer_tail in *. cbn [seq_drop] in *.
      stepB ltac:(repeat (progress (evB; rewrite ?HE, ?Hlp)); rewrite (extB_softmax _ _ _ _ _ HwN HwM), (concat_rectw_tab2 0%Q N M w HwN HwM), map_tab2;
                  evB; unfold bin_f; rewrite broadcast_same2; reflexivity).
      exact Hr.
    Qed.

    Variable tl : list (string * val).
    Hypothesis Hsamples : lookup "samples" tl = Some (VInt (Z.of_nat M)).
    Hypothesis Hbatch : lookup "batch_size" tl = Some (VInt (Z.of_nat N)).

    (* the sample-count check and `er = error_rate(...).view(batch_size, samples)` *)
    Lemma tail_head : forall sub_avg E st', (2 <= M)%nat ->
      Interp.run ext02w er_wrap (wrap_vars reft hypt eos incl bf qi qd qs warn norm) = Ok (enc_x (mkTn [(N * M)%nat] (tab2 N M E))) st' ->
      exec (extB w) mer_tail (tail_st sub_avg tl) =
      exec (extB w) (seq_drop 2 mer_tail) (tail_st sub_avg (update "er" (enc_x (mkTn [N; M] (tab2 N M E))) tl)).
    Proof.
      intros sub_avg E st' HM Hrun.
      assert (HM2 : (Z.of_nat M <? 2)%Z = false) by (apply Z.ltb_ge; lia).
      unfold mer_tail, arg_vars. cbn [seq_drop].
      stepB ltac:(evB; rewrite Hsamples; evB; rewrite qcmp_lt_int, HM2; reflexivity).
      rewrite exec_seq_pass.
      stepB ltac:(evB; rewrite (extB_error_rate _ _ _ _ _ _ _ _ _ _ _ _ _ _ Hrun); evB; rewrite Hbatch; evB; rewrite Hsamples; evB;
                  rewrite view_1_2; reflexivity).
      reflexivity.
    Qed.

    Lemma tail_run : forall sub_avg E st', (2 <= M)%nat ->
      Interp.run ext02w er_wrap (wrap_vars reft hypt eos incl bf qi qd qs warn norm) = Ok (enc_x (mkTn [(N * M)%nat] (tab2 N M E))) st' ->
      exists st'', exec (extB w) mer_tail (tail_st sub_avg tl) = Ok (CReturn (enc_x (loss_t sub_avg red E))) st''.
    Proof.
      intros sub_avg E st' HM Hrun. rewrite (tail_head sub_avg E st' HM Hrun).
      set (tl1 := update "er" _ tl).
      assert (H1 : lookup "er" tl1 = Some (enc_x (mkTn [N; M] (tab2 N M E)))) by (unfold tl1; now rewrite lookup_update).
      destruct sub_avg.
      - destruct (tail_loss (e_sub true E) (vars (tail_st true (update "er" (enc_x (mkTn [N; M] (tab2 N M (e_sub true E)))) tl1)))) as [st'' Hr];
          [reflexivity..|cbn [vars arg_vars lookup String.eqb Ascii.eqb Bool.eqb]; now rewrite lookup_update|].
        exists st''. unfold mer_tail, arg_vars in *. cbn [seq_drop vars] in *.
        stepB ltac:(evB; reflexivity).
        stepB ltac:(repeat (progress (evB; rewrite ?H1)); rewrite mean_keep_rows; evB; unfold bin_f; rewrite broadcast_mat_col; reflexivity).
        exact Hr.
      - destruct (tail_loss E (vars (tail_st false tl1))) as [st'' Hr]; [reflexivity..|exact H1|].
        exists st''. unfold mer_tail, arg_vars in *. cbn [seq_drop vars] in *.
        stepB ltac:(evB; reflexivity). rewrite exec_seq_pass. exact Hr.
    Qed.

    Lemma tail_raises : forall sub_avg, (M < 2)%nat -> exec (extB w) mer_tail (tail_st sub_avg tl) = Exc runtime_error (tail_st sub_avg tl).
    Proof.
      clear HwN HwM Hbatch. intros sub_avg HM. assert (HM2 : (Z.of_nat M <? 2)%Z = true) by (apply Z.ltb_lt; lia).
      unfold mer_tail, arg_vars.
      stepB ltac:(evB; rewrite Hsamples; evB; rewrite qcmp_lt_int, HM2; reflexivity).
      reflexivity.
    Qed.
  End Frame.
End Tail.
