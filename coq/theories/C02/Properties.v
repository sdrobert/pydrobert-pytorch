(* C02 — The error rate counts the edits of some minimum-cost alignment; MER loss.
   Property theorems only: each is closed by [exact <lemma>] and followed by
   [Print Assumptions].  The harness re-checks this file on every run.

   Reading guide.  Edit scripts ([op], [transforms], [cost], [lev]), [denote] (a tensor
   column cut at its first eos), [cfg], [seq_of], [wf_tensor], [entry] are C01's.  [edits s]
   counts the insertions, deletions and substitutions of script s ([Keep] is free).
   [er_spec ci cd cs r h m]: some minimum-cost script turning r into h has m edits.
   Results are [Cost m] (m edits), [Ratio m d] (m / d), [Lit z] (padding value; 0/1 convention
   for an empty reference).  No theorem needs positive costs except the equal-cost ones;
   the property's "positive costs" is a special case.  The batch dimension of the model is
   a map over columns. *)
From Coq Require Import List ZArith QArith Bool Arith.
From PV Require Import C01.Obs C01.Spec C01.Model C01.LevFacts C01.Proofs.
From PV Require Import C02.Spec C02.Model C02.ProofsSpec C02.ProofsModel C02.ProofsMer.
Import ListNotations.
Local Open Scope Z_scope.

(* ---- the specification side: the checker used to judge implementation outputs ------------ *)

(* [opt_counts] (textbook recursion) lists exactly the edit counts of minimum-cost scripts;
   [er_okb] is sound and complete for "the count of some minimum-cost alignment" *)
Theorem c02_opt_counts_iff : forall ci cd cs r h m,
  In m (opt_counts ci cd cs r h) <-> er_spec ci cd cs r h m.
Proof. exact opt_counts_iff. Qed.
Print Assumptions c02_opt_counts_iff.

Theorem c02_er_okb_iff : forall ci cd cs r h m,
  er_okb ci cd cs r h m = true <->
  exists s, transforms s r h
            /\ (forall s', transforms s' r h -> cost ci cd cs s <= cost ci cd cs s')
            /\ edits s = m.
Proof. exact er_okb_iff_scripts. Qed.
Print Assumptions c02_er_okb_iff.

(* a script is minimum-cost iff its cost is C01's [lev] *)
Theorem c02_optimal_iff_lev : forall ci cd cs r h s,
  optimal_script ci cd cs r h s <-> transforms s r h /\ cost ci cd cs s = lev ci cd cs r h.
Proof. exact optimal_iff_lev. Qed.
Print Assumptions c02_optimal_iff_lev.

(* "the fewest / the most edits found among minimum-cost alignments" exist and are computed *)
Theorem c02_min_opt_edits_fewest : forall ci cd cs r h,
  fewest_edits ci cd cs r h (min_opt_edits ci cd cs r h).
Proof. exact min_opt_edits_fewest. Qed.
Print Assumptions c02_min_opt_edits_fewest.

Theorem c02_max_opt_edits_most : forall ci cd cs r h,
  most_edits ci cd cs r h (max_opt_edits ci cd cs r h).
Proof. exact max_opt_edits_most. Qed.
Print Assumptions c02_max_opt_edits_most.

(* the float judgement the harness applies to an implementation output accepts exactly the
   values the property admits *)
Theorem c02_spec_er_q_okb_iff : forall norm ci cd cs r h q,
  spec_er_q_okb norm ci cd cs r h q = true <->
  exists v, spec_er_val norm ci cd cs r h v /\ match_val 1 v q = true.
Proof. exact spec_er_q_okb_iff. Qed.
Print Assumptions c02_spec_er_q_okb_iff.

(* ---- mechanism 1: the parallel `mistakes` table ------------------------------------------ *)

(* "updated with the same argmin choices as the cost table": the cost rows kept by the
   return_mistakes branch (where / sequential deletion loop) are, step for step, the rows of
   the cost-only branch (min / triangular-matrix fold) that C01 is about *)
Theorem c02_cost_rows_are_c01_rows : forall ci cd cs r h hlen excl steps,
  (hlen <= length h)%nat ->
  map fst (all_rm ci cd cs r h hlen excl steps) = all_rows ci cd cs r h hlen excl steps.
Proof. exact cost_rows_are_c01_rows. Qed.
Print Assumptions c02_cost_rows_are_c01_rows.

(* while a pair is live, cell i of the state after hyp_idx = j holds the minimum cost on the
   prefixes and the number of edits of a script that attains it *)
Theorem c02_mistakes_invariant : forall ci cd cs r h hlen excl steps j i,
  (hlen <= length h)%nat -> (j <= steps)%nat -> (j <= frozen hlen excl)%nat ->
  (i <= length r)%nat ->
  let st := nth j (all_rm ci cd cs r h hlen excl steps) ([], []) in
  nth i (fst st) 0 = lev ci cd cs (firstn i r) (firstn j h) /\
  exists s, transforms s (firstn i r) (firstn j h)
            /\ cost ci cd cs s = lev ci cd cs (firstn i r) (firstn j h)
            /\ (forall s', transforms s' (firstn i r) (firstn j h) ->
                           cost ci cd cs s <= cost ci cd cs s')
            /\ edits s = nth i (snd st) 0.
Proof. exact mistakes_invariant. Qed.
Print Assumptions c02_mistakes_invariant.

(* finished pairs keep both tables (where(not_done, ., last)) *)
Theorem c02_mistakes_freeze : forall ci cd cs r h hlen excl steps j,
  (hlen <= length h)%nat -> (j <= steps)%nat -> (frozen hlen excl <= j)%nat ->
  nth j (all_rm ci cd cs r h hlen excl steps) ([], [])
  = nth (frozen hlen excl) (all_rm ci cd cs r h hlen excl steps) ([], []).
Proof. exact rm_freeze_nth. Qed.
Print Assumptions c02_mistakes_freeze.

(* ---- "the error rate of a pair is the number of insertions, deletions and substitutions
        along an alignment whose weighted cost is minimal" -------------------------------- *)
Theorem c02_error_rate_optimal_alignment : forall c N ref hyp n,
  (n < N)%nat -> wf_tensor (c_bf c) N ref -> wf_tensor (c_bf c) N hyp -> c_norm c = false ->
  exists m s,
    nth n (error_rate c N ref hyp) (Lit 0) = Cost m
    /\ transforms s (denote (c_eos c) (c_incl c) (seq_of (c_bf c) n ref))
                    (denote (c_eos c) (c_incl c) (seq_of (c_bf c) n hyp))
    /\ (forall s', transforms s' (denote (c_eos c) (c_incl c) (seq_of (c_bf c) n ref))
                                 (denote (c_eos c) (c_incl c) (seq_of (c_bf c) n hyp)) ->
                   cost (c_ins c) (c_del c) (c_sub c) s <= cost (c_ins c) (c_del c) (c_sub c) s')
    /\ cost (c_ins c) (c_del c) (c_sub c) s
       = lev (c_ins c) (c_del c) (c_sub c)
             (denote (c_eos c) (c_incl c) (seq_of (c_bf c) n ref))
             (denote (c_eos c) (c_incl c) (seq_of (c_bf c) n hyp))
    /\ edits s = m.
Proof. exact error_rate_optimal_alignment. Qed.
Print Assumptions c02_error_rate_optimal_alignment.

(* "it never falls below the fewest nor exceeds the most edits found among minimum-cost
   alignments" - against the computed extremes and against any lo / hi that are the extremes *)
Theorem c02_error_rate_within_min_max : forall c N ref hyp n,
  (n < N)%nat -> wf_tensor (c_bf c) N ref -> wf_tensor (c_bf c) N hyp -> c_norm c = false ->
  exists m,
    nth n (error_rate c N ref hyp) (Lit 0) = Cost m
    /\ fewest_edits (c_ins c) (c_del c) (c_sub c)
         (denote (c_eos c) (c_incl c) (seq_of (c_bf c) n ref))
         (denote (c_eos c) (c_incl c) (seq_of (c_bf c) n hyp))
         (min_opt_edits (c_ins c) (c_del c) (c_sub c)
            (denote (c_eos c) (c_incl c) (seq_of (c_bf c) n ref))
            (denote (c_eos c) (c_incl c) (seq_of (c_bf c) n hyp)))
    /\ most_edits (c_ins c) (c_del c) (c_sub c)
         (denote (c_eos c) (c_incl c) (seq_of (c_bf c) n ref))
         (denote (c_eos c) (c_incl c) (seq_of (c_bf c) n hyp))
         (max_opt_edits (c_ins c) (c_del c) (c_sub c)
            (denote (c_eos c) (c_incl c) (seq_of (c_bf c) n ref))
            (denote (c_eos c) (c_incl c) (seq_of (c_bf c) n hyp)))
    /\ min_opt_edits (c_ins c) (c_del c) (c_sub c)
         (denote (c_eos c) (c_incl c) (seq_of (c_bf c) n ref))
         (denote (c_eos c) (c_incl c) (seq_of (c_bf c) n hyp))
       <= m <=
       max_opt_edits (c_ins c) (c_del c) (c_sub c)
         (denote (c_eos c) (c_incl c) (seq_of (c_bf c) n ref))
         (denote (c_eos c) (c_incl c) (seq_of (c_bf c) n hyp))
    /\ (forall lo hi,
          fewest_edits (c_ins c) (c_del c) (c_sub c)
            (denote (c_eos c) (c_incl c) (seq_of (c_bf c) n ref))
            (denote (c_eos c) (c_incl c) (seq_of (c_bf c) n hyp)) lo ->
          most_edits (c_ins c) (c_del c) (c_sub c)
            (denote (c_eos c) (c_incl c) (seq_of (c_bf c) n ref))
            (denote (c_eos c) (c_incl c) (seq_of (c_bf c) n hyp)) hi ->
          lo <= m <= hi).
Proof. exact error_rate_within_min_max. Qed.
Print Assumptions c02_error_rate_within_min_max.

(* "and equals the plain Levenshtein distance whenever the three costs are equal":
   with equal positive costs every minimum-cost alignment has exactly lev 1 1 1 edits ... *)
Theorem c02_uniform_optimal_edits : forall c r h s, 0 < c ->
  optimal_script c c c r h s -> edits s = lev 1 1 1 r h.
Proof. exact uniform_optimal_edits. Qed.
Print Assumptions c02_uniform_optimal_edits.

(* ... and that is what is returned (through the unit-cost shortcut into C01's table);
   [spec_value norm 1 1 1] is C01's "distance, divided by |ref| on request" at unit costs *)
Theorem c02_error_rate_uniform_is_levenshtein : forall c N ref hyp n,
  (n < N)%nat -> wf_tensor (c_bf c) N ref -> wf_tensor (c_bf c) N hyp ->
  c_ins c = c_del c -> c_del c = c_sub c -> 0 < c_sub c ->
  nth n (error_rate c N ref hyp) (Lit 0)
  = spec_value (c_norm c) 1 1 1
      (denote (c_eos c) (c_incl c) (seq_of (c_bf c) n ref))
      (denote (c_eos c) (c_incl c) (seq_of (c_bf c) n hyp)).
Proof. exact error_rate_uniform_is_levenshtein. Qed.
Print Assumptions c02_error_rate_uniform_is_levenshtein.

(* mechanism 2: "With normalisation it is that count divided by the reference length, with an
   empty reference scoring 0 when the hypothesis is also empty and 1 otherwise" *)
Theorem c02_error_rate_norm : forall c N ref hyp n,
  (n < N)%nat -> wf_tensor (c_bf c) N ref -> wf_tensor (c_bf c) N hyp -> c_norm c = true ->
  match length (denote (c_eos c) (c_incl c) (seq_of (c_bf c) n ref)) with
  | O => nth n (error_rate c N ref hyp) (Lit 0)
         = Lit (if (0 <? length (denote (c_eos c) (c_incl c) (seq_of (c_bf c) n hyp)))%nat
                then 1 else 0)
  | S _ => exists m,
      nth n (error_rate c N ref hyp) (Lit 0)
      = Ratio m (length (denote (c_eos c) (c_incl c) (seq_of (c_bf c) n ref)))
      /\ er_spec (c_ins c) (c_del c) (c_sub c)
           (denote (c_eos c) (c_incl c) (seq_of (c_bf c) n ref))
           (denote (c_eos c) (c_incl c) (seq_of (c_bf c) n hyp)) m
  end.
Proof. exact error_rate_norm. Qed.
Print Assumptions c02_error_rate_norm.

(* "the per-prefix variant gives the same for each hypothesis prefix, padded past the
   hypothesis's length" - every entry of the table, both layouts, norm or not, exclude_last
   or not; [spec_er_val] is the judgement of the two theorems above (count of a minimum-cost
   alignment of the reference with that prefix, normalised with the empty-reference rule) *)
Theorem c02_prefix_error_rates_correct : forall c N ref hyp n k,
  (n < N)%nat -> wf_tensor (c_bf c) N ref -> wf_tensor (c_bf c) N hyp ->
  (k < time_len (c_bf c) hyp + (if c_excl c then 0 else 1))%nat ->
  let v := entry (c_bf c) k n (prefix_error_rates c N ref hyp) in
  if (k <? length (denote (c_eos c) (c_incl c) (seq_of (c_bf c) n hyp))
          + (if c_excl c then 0 else 1))%nat
  then spec_er_val (c_norm c) (c_ins c) (c_del c) (c_sub c)
         (denote (c_eos c) (c_incl c) (seq_of (c_bf c) n ref))
         (firstn k (denote (c_eos c) (c_incl c) (seq_of (c_bf c) n hyp))) v
  else v = Lit (c_pad c).
Proof. exact prefix_error_rates_correct. Qed.
Print Assumptions c02_prefix_error_rates_correct.

(* ---- mechanism 3: "The minimum-error-rate loss equals the softmax-weighted (optionally
        mean-subtracted) error rates of the supplied samples" ------------------------------
   w = softmax(log_probs, 1) is an input.  [seq3_of bf n m hyp] is sample m of batch element
   n in either layout, [ref_seq] its reference (row n of a 2-D ref, entry (n, m) of a 3-D
   one); [er_nm n m] is the model's error rate for exactly that pair, [mu_n n] the mean over
   the M samples of element n, [loss_nm n m] = (er_nm n m [- mu_n n]) * w[n][m], [loss_mat]
   the N x M matrix of these.  So the flattening n*M + m, the expansion of a 2-D reference and
   .view(N, M) line up in both layouts, for every reduction. *)
Theorem c02_mer_loss_formula : forall c sub_avg N M w ref hyp,
  (2 <= M)%nat -> wf3 (c_bf c) N M hyp -> wf_ref (c_bf c) N M ref -> wf_w N M w ->
  forall red,
  mer_loss c sub_avg red N M w ref hyp =
  match red with
  | RNone => MMat (loss_mat c sub_avg N M w ref hyp)
  | RSum => MScalar (qsum (map qsum (loss_mat c sub_avg N M w ref hyp)))
  | RMean => MScalar (qsum (map qsum (loss_mat c sub_avg N M w ref hyp)) / (Z.of_nat (N * M) # 1))
  end.
Proof. exact mer_loss_formula. Qed.
Print Assumptions c02_mer_loss_formula.

(* the error rate entering the loss for sample (n, m) is one the property admits for it *)
Theorem c02_mer_er_allowed : forall c ref hyp n m,
  spec_er_val (c_norm c) (c_ins c) (c_del c) (c_sub c)
    (denote (c_eos c) (c_incl c) (ref_seq (c_bf c) n m ref))
    (denote (c_eos c) (c_incl c) (seq3_of (c_bf c) n m hyp))
    (pair_er c (ref_seq (c_bf c) n m ref) (seq3_of (c_bf c) n m hyp)).
Proof. exact mer_er_allowed. Qed.
Print Assumptions c02_mer_er_allowed.

(* "all (N, M>=2) sample sets": fewer than two samples is an error *)
Theorem c02_mer_loss_too_few_samples : forall c sub_avg red N M w ref hyp,
  (M < 2)%nat -> mer_loss c sub_avg red N M w ref hyp = MErr.
Proof. exact mer_loss_too_few_samples. Qed.
Print Assumptions c02_mer_loss_too_few_samples.

(* the judgement of an observed loss that the harness applies on a disagreement: it accepts
   exactly when SOME matrix E of admitted error rates (one admissible value per sample,
   [adm_vals] = counts of minimum-cost alignments, normalised with the empty-reference rule)
   makes the declarative formula [spec_loss] (w * (E - row mean)) match within the tolerance *)
Theorem c02_spec_mer_core_iff : forall eos incl norm ci cd cs sub_avg red M pairs W tol obs,
  (2 <= M)%nat ->
  spec_mer_core eos incl norm ci cd cs sub_avg red M pairs W tol obs = true <->
  exists E, allowed_rates eos incl norm ci cd cs pairs E
            /\ loss_close red (length pairs * M) (spec_loss sub_avg M E W) tol obs = true.
Proof. exact spec_mer_core_iff. Qed.
Print Assumptions c02_spec_mer_core_iff.

Theorem c02_adm_vals_iff : forall eos incl norm ci cd cs rh q,
  In q (adm_vals eos incl norm ci cd cs rh) <->
  let r := denote eos incl (fst rh) in
  let h := denote eos incl (snd rh) in
  if norm then
    match length r with
    | O => q = (if (0 <? length h)%nat then 1%Q else 0%Q)
    | S _ => exists m, er_spec ci cd cs r h m /\ q = ((m # 1) / (Z.of_nat (length r) # 1))%Q
    end
  else exists m, er_spec ci cd cs r h m /\ q = (m # 1).
Proof. exact adm_vals_iff. Qed.
Print Assumptions c02_adm_vals_iff.

(* non-vacuity: a ragged batch-first batch with eos = 9 (eos at position 0 = empty reference,
   garbage after eos, a hypothesis without eos), unequal costs (3/4, 1/4, 1) for which
   minimum-cost alignments with different numbers of edits exist; the code's tie-breaking
   returns the largest admissible count for pair 0 ({2,3} -> 3), a middle one for pair 2
   ({3,4,5} under costs (1/4, 3/4, 1) -> 4); the hypotheses of the theorems hold *)
Example c02_nonvacuous :
  let c := mkCfg (Some 9) false false true 3 1 4 (-100) false in
  let ref := [[1; 1; 2; 9; 5]; [9; 1; 1; 9; 9]; [1; 2; 0; 0; 9]] in
  let hyp := [[2; 1; 9; 7]; [2; 2; 2; 2]; [0; 2; 1; 9]] in
  wf_tensor (c_bf c) 3 ref /\ wf_tensor (c_bf c) 3 hyp
  /\ denote (c_eos c) (c_incl c) (seq_of true 0 ref) = [1; 1; 2]
  /\ denote (c_eos c) (c_incl c) (seq_of true 1 ref) = []
  /\ denote (c_eos c) (c_incl c) (seq_of true 1 hyp) = [2; 2; 2; 2]
  /\ opt_counts 3 1 4 [1; 1; 2] [2; 1] = [3; 2]
  /\ error_rate c 3 ref hyp = [Cost 3; Cost 4; Cost 4]
  /\ opt_counts 1 3 4 [1; 2; 0; 0] [0; 2; 1] = [5; 4; 3]
  /\ error_rate (mkCfg (Some 9) false true true 1 3 4 0 false) 3 ref hyp
     = [Ratio 3 3; Lit 1; Ratio 4 4]
  /\ prefix_error_rates (mkCfg (Some 9) true false true 3 1 4 (-100) true) 3 ref hyp
     = [[Cost 4; Cost 3; Cost 3; Lit (-100)]; [Cost 1; Cost 1; Cost 2; Cost 3];
        [Cost 5; Cost 4; Cost 4; Cost 4]]
  /\ mer_loss (mkCfg (Some 9) false true true 3 1 4 0 false) true RNone 1 2
       [[1 # 4; 3 # 4]] (inl [[1; 1; 2; 9]]) [[[2; 1; 9]; [1; 1; 2]]]
     = MMat (loss_mat (mkCfg (Some 9) false true true 3 1 4 0 false) true 1 2
               [[1 # 4; 3 # 4]] (inl [[1; 1; 2; 9]]) [[[2; 1; 9]; [1; 1; 2]]]).
Proof.
  cbv zeta.
  split; [split; [reflexivity|exists 5%nat; intros row [<-|[<-|[<-|[]]]]; reflexivity]|].
  split; [split; [reflexivity|exists 4%nat; intros row [<-|[<-|[<-|[]]]]; reflexivity]|].
  repeat (split; [vm_compute; reflexivity|]). vm_compute; reflexivity.
Qed.

(* =====================================================================================================================
   SOURCE TIE (DESIGN.md section 10; notes/C02_tie_report.md).  The statements below are about the Python text of
   src/pydrobert/torch/_string.py::_string_matching in the configuration `error_rate` calls it with (return_mistakes =
   True: the parallel `mistakes` table, substitution winning ties through `>=`, the in-place sequential deletion loop,
   the final gather, mult / norm) and about `error_rate` itself, as translated to MiniPy terms on every run
   (PV.Gen.C02Src, harness/py2coq, unit C02Src) and interpreted by PV.MiniPy.Interp with the torch calls given the
   meaning of PV.MiniTorch.OpsC01 / OpsC02 / OpsC07 (SrcRun.ext02 = C01's ext01 + three operations).  Costs: integers
   ci cd cs over ANY common denominator s (the float cost is c / s: every triple of rationals, uniform or not); the cost
   row is kept over s, the mistakes over 1 ([zf s v] = the float v / s).  No hypothesis beyond what a matrix is
   ([wf_src]), 0 < N, and - with an eos - non-zero widths (torch.max over an empty dimension raises).
   ===================================================================================================================== *)
From PV Require MiniPy.Interp MiniTorch.OpsC07 MiniTorch.OpsC01 C01.TieLib C01.TieMath C02.SrcRun C02.TieMath C02.TieLoop C02.TieWhole C02.Tie.

(* priority 1: ONE EXECUTION OF THE LOOP BODY (PV.Gen.C02Src.er_loop's body, hyp_idx = k) on a state that holds the
   error_rate configuration, the tensors ref (R x N), hyp (H x N), hyp_lens, the costs, the cost row lf / s and the
   mistakes table mf (both R+1 x N) runs to a state of the same kind whose two tables are, in EVERY column n, exactly
   Model.step_rm of that column - candidates with substitution winning ties, the sequential deletion sweep with deletion
   only when strictly cheaper, freezing by not_done - for both tables at once *)
Theorem c02_source_loop_body_is_step_rm :
  forall (s : positive) (ci cd cs : Z) (R N H : nat) (rf hf : nat -> nat -> Z) (hl : nat -> nat)
         (vrl vmult vnorm vwarn : MiniPy.Syntax.val) (st : MiniPy.Interp.state) (k : nat) (lf mf : nat -> nat -> Z),
  (1 <= k <= H)%nat ->
  C02.TieLoop.body_pre s ci cd cs R N H rf hf hl vrl vmult vnorm vwarn lf mf st ->
  C01.TieLib.runs_to
    (C02.TieLoop.body_pre s ci cd cs R N H rf hf hl vrl vmult vnorm vwarn
       (fun i n => nth i (fst (step_rm ci cd cs (C02.TieLoop.colf R rf n) (C02.TieLoop.colf H hf n) (hl n) false k
                                 (C02.TieLoop.colf (S R) lf n, C02.TieLoop.colf (S R) mf n))) 0)
       (fun i n => nth i (snd (step_rm ci cd cs (C02.TieLoop.colf R rf n) (C02.TieLoop.colf H hf n) (hl n) false k
                                 (C02.TieLoop.colf (S R) lf n, C02.TieLoop.colf (S R) mf n))) 0))
    (C02.Tie.run_loop_body k st).
Proof. exact C02.Tie.loop_body_is_step_rm. Qed.
Print Assumptions c02_source_loop_body_is_step_rm.

(* priority 2: THE `for hyp_idx in range(1, max_hyp_steps + 1)` STATEMENT: H iterations of step_rm in every column *)
Theorem c02_source_loop_is_rm_loop :
  forall (s : positive) (ci cd cs : Z) (R N H : nat) (rf hf : nat -> nat -> Z) (hl : nat -> nat)
         (vrl vmult vnorm vwarn : MiniPy.Syntax.val) (st : MiniPy.Interp.state) (lf mf : nat -> nat -> Z),
  C02.TieLoop.body_pre s ci cd cs R N H rf hf hl vrl vmult vnorm vwarn lf mf st -> C02.Tie.max_hyp_steps_is H st ->
  C01.TieLib.runs_to
    (C02.TieLoop.body_pre s ci cd cs R N H rf hf hl vrl vmult vnorm vwarn
       (fun i n => nth i (fst (C02.TieMath.iter_rm ci cd cs (C02.TieLoop.colf R rf n) (C02.TieLoop.colf H hf n) (hl n) H 1
                                 (C02.TieLoop.colf (S R) lf n, C02.TieLoop.colf (S R) mf n))) 0)
       (fun i n => nth i (snd (C02.TieMath.iter_rm ci cd cs (C02.TieLoop.colf R rf n) (C02.TieLoop.colf H hf n) (hl n) H 1
                                 (C02.TieLoop.colf (S R) lf n, C02.TieLoop.colf (S R) mf n))) 0))
    (C02.Tie.run_loop st).
Proof. exact C02.Tie.loop_is_rm_loop. Qed.
Print Assumptions c02_source_loop_is_rm_loop.

(* priorities 3-4: THE WHOLE CALL.  The blocks er_pre; er_row0; er_main; er_fin, run in sequence on the arguments of the
   call error_rate makes (ref / hyp as handed over: N rows of width R / H when batch_first, else R / H rows of width N;
   any eos, include_eos, norm, batch_first, warn; costs c / s, uniform - the shortcut into C01's cost table on unit
   costs - or not - the mistakes table), return the tensor of Model.error_rate, entry for entry: Cost m as the float m,
   Ratio m d as m / d, Lit z as z ([model_tensor]) *)
Theorem c02_source_error_rate_is_model :
  forall (s : positive) (c : cfg) (N R H : nat) (ref hyp : list (list Z)) (w : bool) (pad : Z),
  (0 < N)%nat -> C02.Tie.wf_src (c_bf c) N R ref -> C02.Tie.wf_src (c_bf c) N H hyp ->
  (c_eos c <> None -> R <> 0%nat /\ H <> 0%nat) ->
  exists st', C02.Tie.run_error_rate s c N ref hyp w pad
              = MiniPy.Interp.Ok
                  (MiniTorch.OpsC01.enc_x
                     (MiniTorch.OpsC07.mkTn [N] (map (C02.TieWhole.val_fx 1) (error_rate c N ref hyp)))) st'.
Proof. exact C02.Tie.error_rate_is_model. Qed.
Print Assumptions c02_source_error_rate_is_model.

(* THE WHOLE BODY OF THE FUNCTION AS ONE TERM (Gen.C02Src.er_body, every statement of _string_matching) *)
Theorem c02_source_string_matching_is_model :
  forall (s : positive) (c : cfg) (N R H : nat) (ref hyp : list (list Z)) (w : bool) (pad : Z),
  (0 < N)%nat -> C02.Tie.wf_src (c_bf c) N R ref -> C02.Tie.wf_src (c_bf c) N H hyp ->
  (c_eos c <> None -> R <> 0%nat /\ H <> 0%nat) ->
  exists st', C02.Tie.run_string_matching s c N ref hyp w pad
              = MiniPy.Interp.Ok
                  (MiniTorch.OpsC01.enc_x
                     (MiniTorch.OpsC07.mkTn [N] (map (C02.TieWhole.val_fx 1) (error_rate c N ref hyp)))) st'.
Proof. exact C02.Tie.string_matching_is_model. Qed.
Print Assumptions c02_source_string_matching_is_model.

(* THE WRAPPER: the body of `error_rate` (Gen.C02Src.er_wrap), whose call `_string_matching(ref, .., warn, norm=norm,
   return_mistakes=True)` binds the parameters in Python's way (positionals, keywords, the remaining defaults evaluated
   in the module's globals) and runs er_body *)
Theorem c02_source_error_rate_wrapper_is_model :
  forall (s : positive) (c : cfg) (N R H : nat) (ref hyp : list (list Z)) (w : bool),
  (0 < N)%nat -> C02.Tie.wf_src (c_bf c) N R ref -> C02.Tie.wf_src (c_bf c) N H hyp ->
  (c_eos c <> None -> R <> 0%nat /\ H <> 0%nat) ->
  exists st', C02.Tie.run_error_rate_wrapper s c N ref hyp w
              = MiniPy.Interp.Ok
                  (MiniTorch.OpsC01.enc_x
                     (MiniTorch.OpsC07.mkTn [N] (map (C02.TieWhole.val_fx 1) (error_rate c N ref hyp)))) st'.
Proof. exact C02.Tie.error_rate_wrapper_is_model. Qed.
Print Assumptions c02_source_error_rate_wrapper_is_model.

(* the executables the harness evaluates on the cases of every run ARE these runs *)
Theorem c02_source_src_er_is_model :
  forall (c : cfg) (scale : Z) (N R H : nat) (ref hyp : list (list Z)),
  (0 < N)%nat -> C02.Tie.wf_src (c_bf c) N R ref -> C02.Tie.wf_src (c_bf c) N H hyp ->
  (c_eos c <> None -> R <> 0%nat /\ H <> 0%nat) ->
  C02.SrcRun.src_er C02.SrcRun.er_blocks c scale N ref hyp = Some (Some (map (C02.TieWhole.val_fx 1) (error_rate c N ref hyp))) /\
  C02.SrcRun.src_er Gen.C02Src.er_body c scale N ref hyp = Some (Some (map (C02.TieWhole.val_fx 1) (error_rate c N ref hyp))) /\
  C02.SrcRun.src_er_wrap c scale N ref hyp = Some (Some (map (C02.TieWhole.val_fx 1) (error_rate c N ref hyp))).
Proof. exact C02.Tie.src_er_is_model. Qed.
Print Assumptions c02_source_src_er_is_model.

(* composed with c02_error_rate_optimal_alignment - a statement purely about the interpreted source of `error_rate`:
   without normalisation entry n of the returned tensor is the number of insertions, deletions and substitutions
   ([edits]) of a script that turns reference n into hypothesis n (each cut at its first eos) at minimum weighted cost *)
Theorem c02_source_error_rate_counts_optimal_alignment :
  forall (s : positive) (c : cfg) (N R H : nat) (ref hyp : list (list Z)) (w : bool),
  (0 < N)%nat -> C02.Tie.wf_src (c_bf c) N R ref -> C02.Tie.wf_src (c_bf c) N H hyp ->
  (c_eos c <> None -> R <> 0%nat /\ H <> 0%nat) -> c_norm c = false ->
  exists out st',
    C02.Tie.run_error_rate_wrapper s c N ref hyp w
    = MiniPy.Interp.Ok (MiniTorch.OpsC01.enc_x (MiniTorch.OpsC07.mkTn [N] out)) st' /\
    length out = N /\
    forall n, (n < N)%nat ->
      exists m sc,
        nth n out MiniTorch.OpsC01.FNaN = C01.TieMath.zf 1 m
        /\ transforms sc (denote (c_eos c) (c_incl c) (seq_of (c_bf c) n ref))
                         (denote (c_eos c) (c_incl c) (seq_of (c_bf c) n hyp))
        /\ (forall s', transforms s' (denote (c_eos c) (c_incl c) (seq_of (c_bf c) n ref))
                                     (denote (c_eos c) (c_incl c) (seq_of (c_bf c) n hyp)) ->
                       cost (c_ins c) (c_del c) (c_sub c) sc <= cost (c_ins c) (c_del c) (c_sub c) s')
        /\ edits sc = m.
Proof. exact C02.Tie.error_rate_counts_optimal_alignment. Qed.
Print Assumptions c02_source_error_rate_counts_optimal_alignment.

(* composed with c02_error_rate_norm: with normalisation the count of a minimum-cost alignment divided by the reference
   length; an empty reference scores 0 when the hypothesis is empty as well and 1 otherwise *)
Theorem c02_source_error_rate_normalised :
  forall (s : positive) (c : cfg) (N R H : nat) (ref hyp : list (list Z)) (w : bool),
  (0 < N)%nat -> C02.Tie.wf_src (c_bf c) N R ref -> C02.Tie.wf_src (c_bf c) N H hyp ->
  (c_eos c <> None -> R <> 0%nat /\ H <> 0%nat) -> c_norm c = true ->
  exists out st',
    C02.Tie.run_error_rate_wrapper s c N ref hyp w
    = MiniPy.Interp.Ok (MiniTorch.OpsC01.enc_x (MiniTorch.OpsC07.mkTn [N] out)) st' /\
    length out = N /\
    forall n, (n < N)%nat ->
      let r := denote (c_eos c) (c_incl c) (seq_of (c_bf c) n ref) in
      let h := denote (c_eos c) (c_incl c) (seq_of (c_bf c) n hyp) in
      match length r with
      | O => nth n out MiniTorch.OpsC01.FNaN = MiniTorch.OpsC01.z2f (if (0 <? length h)%nat then 1 else 0)
      | S _ => exists m,
          nth n out MiniTorch.OpsC01.FNaN
          = MiniTorch.OpsC01.Fq (Qred (MiniTorch.LemmasC01.qz 1 m / inject_Z (Z.of_nat (length r))))
          /\ er_spec (c_ins c) (c_del c) (c_sub c) r h m
      end.
Proof. exact C02.Tie.error_rate_normalised. Qed.
Print Assumptions c02_source_error_rate_normalised.

(* non-vacuity: the batch of c02_nonvacuous (batch-first, eos = 9, costs 3/4, 1/4, 1: minimum-cost alignments with
   different numbers of edits exist) meets the hypotheses, and the interpreted source - blocks, whole body, wrapper -
   returns 3, 4, 4; with norm and costs 1/4, 3/4, 1 it returns 3/3, 1 (empty reference), 4/4 *)
Example c02_source_nonvacuous :
  let c := mkCfg (Some 9) false false true 3 1 4 (-100) false in
  let c' := mkCfg (Some 9) false true true 1 3 4 0 false in
  let ref := [[1; 1; 2; 9; 5]; [9; 1; 1; 9; 9]; [1; 2; 0; 0; 9]] in
  let hyp := [[2; 1; 9; 7]; [2; 2; 2; 2]; [0; 2; 1; 9]] in
  let f := fun z => MiniTorch.OpsC01.Fq (inject_Z z) in
  C02.Tie.wf_src (c_bf c) 3 5 ref /\ C02.Tie.wf_src (c_bf c) 3 4 hyp /\
  C02.SrcRun.src_er C02.SrcRun.er_blocks c 4 3 ref hyp = Some (Some [f 3; f 4; f 4]) /\
  C02.SrcRun.src_er Gen.C02Src.er_body c 4 3 ref hyp = Some (Some [f 3; f 4; f 4]) /\
  C02.SrcRun.src_er_wrap c 4 3 ref hyp = Some (Some [f 3; f 4; f 4]) /\
  C02.SrcRun.src_er_wrap c' 4 3 ref hyp = Some (Some [f 1; f 1; f 1]).
Proof.
  intros c c' ref hyp f.
  assert (Hr : C02.Tie.wf_src (c_bf c) 3 5 ref) by (split; [reflexivity|intros row [<-|[<-|[<-|[]]]]; reflexivity]).
  assert (Hh : C02.Tie.wf_src (c_bf c) 3 4 hyp) by (split; [reflexivity|intros row [<-|[<-|[<-|[]]]]; reflexivity]).
  assert (Hnz : forall k : cfg, c_eos k <> None -> 5%nat <> 0%nat /\ 4%nat <> 0%nat) by (split; discriminate).
  (* the hypotheses hold, so the runs return what Model.error_rate does: only the model is evaluated *)
  destruct (c02_source_src_er_is_model c 4 3 5 4 ref hyp (Nat.lt_0_succ 2) Hr Hh (Hnz c)) as (E1 & E2 & E3).
  destruct (c02_source_src_er_is_model c' 4 3 5 4 ref hyp (Nat.lt_0_succ 2) Hr Hh (Hnz c')) as (_ & _ & E4).
  rewrite E1, E2, E3, E4. split; [exact Hr|split; [exact Hh|]]. repeat split; vm_compute; reflexivity.
Qed.

(* =====================================================================================================================
   SECOND SOURCE TIE (notes/C02_tie_report.md, section "Second tie"): `minimum_error_rate_loss`.  The statements below are
   about the Python text of src/pydrobert/torch/_string.py::minimum_error_rate_loss as translated to MiniPy terms on every
   run (PV.Gen.C02BSrc.mer_body = the whole body; mer_pre / mer_tail = its two consecutive blocks; unit C02BSrc) and
   interpreted by PV.MiniPy.Interp under C02.SrcRunB.extB: the torch calls mean what PV.MiniTorch.OpsC02B (repeat, size,
   mean, sum, the slice of a shape tuple), OpsC07.view (reshape / view) and the operations of the first tie say; the call
   `error_rate(ref, hyp, eos=.., ..)` is the run of the OTHER translated function (Gen.C02Src.er_wrap, which runs the
   translated _string_matching), tied above; `torch.nn.functional.softmax(log_probs, 1)` is an ORACLE whose values are
   the data w (N rows of M weights, as for Model.mer_loss) - the contents [lpd] of log_probs are arbitrary.
   [C02.TieB.run_mer w s c sub_avg red N M R H lpd ref hyp warn] = the interpreted call on log_probs (N x M), ref = a
   2-D (inl: N x R | R x N) or 3-D (inr: N x M x R | R x N x M) tensor, hyp (N x M x H | H x N x M), costs c / s,
   reduction red.  Hypotheses: what the tensors ARE ([wf_ref_src], [wf3_src], [wf_w]), 0 < N, and NON-ZERO WIDTHS R, H:
   with a zero width `ref.reshape(-1, 0)` / `hyp.reshape(0, -1)` raises in torch (OpsC07.view: None), a case outside
   the input space of the property's correspondence.
   ===================================================================================================================== *)
From PV Require C02.SrcRunB C02.TieBMath C02.TieB.

(* THE WHOLE BODY, M >= 2: every statement of minimum_error_rate_loss - the rank checks, the sizes from hyp.shape, the
   expansion of a 2-D reference (unsqueeze + repeat) in both layouts, the shape checks, the flattening of ref and hyp,
   the call of error_rate, .view(batch_size, samples), the mean subtraction, the product with the softmax, the reduction -
   returns the tensor of Model.mer_loss ([mres_tensor]: MMat rows as the (N, M) tensor of the rationals in lowest terms,
   MScalar q as the 0-dimensional tensor), for 2-D and 3-D references, sub_avg and the three reductions *)
Theorem c02_source_mer_loss_is_model :
  forall (w : list (list Q)) (s : positive) (c : cfg) (sub_avg : bool) (red : reduction) (N M R H : nat)
         (lpd : list MiniTorch.OpsC01.fx) (ref : list (list Z) + list (list (list Z))) (hyp : list (list (list Z))) (warn : bool),
  (0 < N)%nat -> (2 <= M)%nat -> R <> 0%nat -> H <> 0%nat ->
  C02.TieB.wf_ref_src (c_bf c) N M R ref -> C02.TieB.wf3_src (c_bf c) N M H hyp -> wf_w N M w ->
  exists st', C02.TieB.run_mer w s c sub_avg red N M R H lpd ref hyp warn
              = MiniPy.Interp.Ok
                  (MiniTorch.OpsC01.enc_x (C02.TieBMath.mres_tensor N M (mer_loss c sub_avg red N M w ref hyp))) st'.
Proof. exact C02.TieB.mer_is_model. Qed.
Print Assumptions c02_source_mer_loss_is_model.

(* the same for the two blocks mer_pre; mer_tail run in sequence *)
Theorem c02_source_mer_loss_blocks_is_model :
  forall (w : list (list Q)) (s : positive) (c : cfg) (sub_avg : bool) (red : reduction) (N M R H : nat)
         (lpd : list MiniTorch.OpsC01.fx) (ref : list (list Z) + list (list (list Z))) (hyp : list (list (list Z))) (warn : bool),
  (0 < N)%nat -> (2 <= M)%nat -> R <> 0%nat -> H <> 0%nat ->
  C02.TieB.wf_ref_src (c_bf c) N M R ref -> C02.TieB.wf3_src (c_bf c) N M H hyp -> wf_w N M w ->
  exists st', C02.TieB.run_mer_blocks w s c sub_avg red N M R H lpd ref hyp warn
              = MiniPy.Interp.Ok
                  (MiniTorch.OpsC01.enc_x (C02.TieBMath.mres_tensor N M (mer_loss c sub_avg red N M w ref hyp))) st'.
Proof. exact C02.TieB.mer_blocks_is_model. Qed.
Print Assumptions c02_source_mer_loss_blocks_is_model.

(* THE RAISE PATH: fewer than two samples (M = 0 or 1, any N) - the interpreted source raises RuntimeError (after the
   flattening, at "if samples < 2"), exactly when Model.mer_loss is MErr *)
Theorem c02_source_mer_loss_too_few_samples :
  forall (w : list (list Q)) (s : positive) (c : cfg) (sub_avg : bool) (red : reduction) (N M R H : nat)
         (lpd : list MiniTorch.OpsC01.fx) (ref : list (list Z) + list (list (list Z))) (hyp : list (list (list Z))) (warn : bool),
  (M < 2)%nat -> R <> 0%nat -> H <> 0%nat ->
  C02.TieB.wf_ref_src (c_bf c) N M R ref -> C02.TieB.wf3_src (c_bf c) N M H hyp ->
  (exists st', C02.TieB.run_mer w s c sub_avg red N M R H lpd ref hyp warn = MiniPy.Interp.Exc C01.SrcRun.runtime_error st') /\
  (exists st', C02.TieB.run_mer_blocks w s c sub_avg red N M R H lpd ref hyp warn = MiniPy.Interp.Exc C01.SrcRun.runtime_error st') /\
  mer_loss c sub_avg red N M w ref hyp = MErr.
Proof. exact C02.TieB.mer_raises. Qed.
Print Assumptions c02_source_mer_loss_too_few_samples.

(* composed with c02_mer_loss_formula and c02_mer_er_allowed - a statement purely about the interpreted source: with
   reduction = "none" entry (n, m) of the returned (N, M) tensor is  (er[n,m] - mean_m' er[n,m']) * w[n,m]  (er[n,m] * w[n,m]
   when sub_avg is off), in lowest terms, where every er[n,m] is an error rate the property admits for sample m of batch
   element n against its reference (row n of a 2-D ref / entry (n, m) of a 3-D one; both cut at the first eos): the edit
   count of a minimum-cost alignment, normalised with the empty-reference rule when norm is on.  So the flattening n*M + m,
   the expansion of a 2-D reference and .view(N, M) line up in both layouts - in the source text *)
Theorem c02_source_mer_loss_entries :
  forall (w : list (list Q)) (s : positive) (c : cfg) (sub_avg : bool) (N M R H : nat)
         (lpd : list MiniTorch.OpsC01.fx) (ref : list (list Z) + list (list (list Z))) (hyp : list (list (list Z))) (warn : bool),
  (0 < N)%nat -> (2 <= M)%nat -> R <> 0%nat -> H <> 0%nat ->
  C02.TieB.wf_ref_src (c_bf c) N M R ref -> C02.TieB.wf3_src (c_bf c) N M H hyp -> wf_w N M w ->
  exists (er : nat -> nat -> Q) out st',
    C02.TieB.run_mer w s c sub_avg RNone N M R H lpd ref hyp warn
    = MiniPy.Interp.Ok (MiniTorch.OpsC01.enc_x (MiniTorch.OpsC07.mkTn [N; M] out)) st' /\
    length out = (N * M)%nat /\
    (forall n m, (n < N)%nat -> (m < M)%nat ->
       let mean := (qsum (map (er n) (seq 0 M)) / (Z.of_nat M # 1))%Q in
       nth (n * M + m) out MiniTorch.OpsC01.FNaN
       = C02.SrcRunB.qfx ((if sub_avg then er n m - mean else er n m) * nth m (nth n w []) 0)%Q) /\
    (forall n m,
       exists v, er n m = val_q v /\
         spec_er_val (c_norm c) (c_ins c) (c_del c) (c_sub c)
           (denote (c_eos c) (c_incl c) (ref_seq (c_bf c) n m ref))
           (denote (c_eos c) (c_incl c) (seq3_of (c_bf c) n m hyp)) v).
Proof. exact C02.TieB.mer_loss_entries. Qed.
Print Assumptions c02_source_mer_loss_entries.

(* non-vacuity: the loss example of c02_nonvacuous (batch-first, 2-D reference, eos = 9, costs 3/4, 1/4, 1, norm, sub_avg)
   and a time-major 3-D one meet the hypotheses; the interpreted source - whole body and blocks, as the harness runs them
   (SrcRunB.src_mer) - returns ((1 - 1/2) * 1/4, (0 - 1/2) * 3/4) = (1/8, -3/8), resp. the mean 1/4 * 1/4 + 1/2 * 3/8 ... of
   Model.mer_loss; with one sample it raises *)
Example c02_source_mer_nonvacuous :
  let c := mkCfg (Some 9) false true true 3 1 4 0 false in
  let c' := mkCfg (Some 9) false true false 3 1 4 0 false in
  let w := [[1 # 4; 3 # 4]] in
  let ref := inl [[1; 1; 2; 9]] in
  let hyp := [[[2; 1; 9]; [1; 1; 2]]] in
  let ref' := inr [[[1; 1]]; [[1; 2]]; [[2; 9]]; [[9; 9]]] in
  let hyp' := [[[2; 1]]; [[1; 1]]; [[9; 2]]] in
  C02.TieB.wf_ref_src (c_bf c) 1 2 4 ref /\ C02.TieB.wf3_src (c_bf c) 1 2 3 hyp /\ wf_w 1 2 w /\
  C02.TieB.wf_ref_src (c_bf c') 1 2 4 ref' /\ C02.TieB.wf3_src (c_bf c') 1 2 3 hyp' /\
  mer_loss c true RNone 1 2 w ref hyp = MMat [[27 # 216; -81 # 216]] /\
  C02.SrcRunB.src_mer Gen.C02BSrc.mer_body c 4 true RNone 1 2 w ref hyp = Some (MMat [[1 # 8; -3 # 8]]) /\
  C02.SrcRunB.src_mer C02.SrcRunB.mer_blocks c 4 true RNone 1 2 w ref hyp = Some (MMat [[1 # 8; -3 # 8]]) /\
  C02.SrcRunB.src_mer Gen.C02BSrc.mer_body c' 4 false RNone 1 2 w ref' hyp' = Some (MMat [[1 # 4; 3 # 8]]) /\
  C02.SrcRunB.src_mer Gen.C02BSrc.mer_body c' 4 false RSum 1 2 w ref' hyp' = Some (MScalar (5 # 8)) /\
  C02.SrcRunB.src_mer Gen.C02BSrc.mer_body c' 4 false RNone 1 1 [[1 # 4]] (inr [[[1]]; [[1]]; [[2]]; [[9]]]) [[[2]]; [[1]]; [[9]]]
    = Some MErr.
Proof.
  cbv zeta.
  split; [split; [reflexivity|intros row [<-|[]]; reflexivity]|].
  split; [split; [reflexivity|intros row [<-|[]]; split; [reflexivity|intros r [<-|[<-|[]]]; reflexivity]]|].
  split; [split; [reflexivity|intros row [<-|[]]; reflexivity]|].
  split; [split; [reflexivity|intros pl [<-|[<-|[<-|[<-|[]]]]]; (split; [reflexivity|intros r [<-|[]]; reflexivity])]|].
  split; [split; [reflexivity|intros pl [<-|[<-|[<-|[]]]]; (split; [reflexivity|intros r [<-|[]]; reflexivity])]|].
  repeat split; vm_compute; reflexivity.
Qed.
