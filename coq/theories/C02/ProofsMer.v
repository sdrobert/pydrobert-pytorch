(* C02 — minimum_error_rate_loss: the flattening (n, m) -> n*M + m of both layouts, the
   expansion of a 2-D reference, .view(N, M) of the error rates and the reductions give
   loss[n][m] = w[n][m] * (er(ref_n(,m), hyp_{n,m}) - mean_m' er(..)) and its sum / mean. *)
From Coq Require Import List QArith Lia.
From PV Require Import C01.Obs C01.Spec C01.Model C01.Proofs.
From PV Require Import C02.Spec C02.Model C02.ProofsModel.
Import ListNotations.
Local Open Scope Z_scope.

Lemma length_concat_const {A} (M : nat) (l : list (list A)) :
  (forall row, In row l -> length row = M) -> length (concat l) = (length l * M)%nat.
Proof.
  induction l as [|x l IH]; intros H; [reflexivity|].
  cbn [concat length]. rewrite app_length.
  rewrite IH by (intros row Hr; apply H; right; exact Hr).
  rewrite (H x) by (left; reflexivity). lia.
Qed.

Lemma nth_concat {A} (M : nat) (d : A) : forall (l : list (list A)) n m,
  (forall row, In row l -> length row = M) -> (m < M)%nat ->
  nth (n * M + m) (concat l) d = nth m (nth n l []) d.
Proof.
  induction l as [|x l IH]; intros n m H Hm.
  - cbn [concat]. generalize (n * M + m)%nat as k. intros k. destruct k, n, m; reflexivity.
  - cbn [concat]. destruct n as [|n]; cbn [nth].
    + rewrite app_nth1 by (rewrite (H x) by (left; reflexivity); lia). reflexivity.
    + rewrite app_nth2 by (rewrite (H x) by (left; reflexivity); lia).
      rewrite (H x) by (left; reflexivity).
      replace (S n * M + m - M)%nat with (n * M + m)%nat by lia.
      apply IH; [intros row Hr; apply H; right; exact Hr|exact Hm].
Qed.

Lemma nth_repeat {A} (x d : A) M m : (m < M)%nat -> nth m (repeat x M) d = x.
Proof. revert m; induction M as [|M IH]; intros m Hm; [lia|]. destruct m; cbn [repeat nth]; [reflexivity|apply IH; lia]. Qed.

Lemma chunks_length {A} M N (l : list A) : length (chunks M N l) = N.
Proof. revert l; induction N as [|N IH]; intros l; cbn [chunks length]; [reflexivity|]. rewrite IH. reflexivity. Qed.

Lemma chunks_nth {A} (d : A) M : forall N (l : list A) n m,
  (n < N)%nat -> (m < M)%nat -> nth m (nth n (chunks M N l) []) d = nth (n * M + m) l d.
Proof.
  induction N as [|N IH]; intros l n m Hn Hm; [lia|].
  cbn [chunks]. destruct n as [|n]; cbn [nth].
  - cbn [Nat.mul Nat.add]. revert l; induction m as [|m IHm] in M, Hm |- *; intros l.
    + destruct M; [lia|]. destruct l; reflexivity.
    + destruct M; [lia|]. destruct l as [|x l]; [reflexivity|]. cbn [firstn nth]. apply IHm. lia.
  - rewrite IH by lia. replace (S n * M + m)%nat with (M + (n * M + m))%nat by lia.
    generalize (n * M + m)%nat as k. intros k. clear. revert l; induction M as [|M IHM]; intros l.
    + reflexivity.
    + destruct l as [|x l]; [destruct k; reflexivity|]. cbn [skipn Nat.add nth]. apply IHM.
Qed.

Lemma chunk_row_length {A} M : forall N (l : list A) n,
  length l = (N * M)%nat -> (n < N)%nat -> length (nth n (chunks M N l) []) = M.
Proof.
  induction N as [|N IH]; intros l n HL Hn; [lia|].
  cbn [chunks]. destruct n as [|n]; cbn [nth].
  - rewrite firstn_length. lia.
  - apply IH; [rewrite skipn_length; lia|lia].
Qed.

(* sequence (n, m) of a 3-D tensor: (N, M, T) when batch_first, (T, N, M) otherwise *)
Definition seq3_of (bf : bool) (n m : nat) (t : list (list (list Z))) : list Z :=
  if bf then nth m (nth n t []) [] else map (fun plane => nth m (nth n plane []) 0) t.

(* the reference that sample (n, m) is scored against *)
Definition ref_seq (bf : bool) (n m : nat) (ref : list (list Z) + list (list (list Z))) : list Z :=
  match ref with inl r2 => seq_of bf n r2 | inr r3 => seq3_of bf n m r3 end.

Definition wf3 (bf : bool) (N M : nat) (t : list (list (list Z))) : Prop :=
  if bf then length t = N /\ (forall row, In row t -> length row = M)
             /\ exists W, forall row, In row t -> forall s, In s row -> length s = W
  else forall plane, In plane t -> forall row, In row plane -> length row = M.

Definition wf_ref (bf : bool) (N M : nat) (ref : list (list Z) + list (list (list Z))) : Prop :=
  match ref with inl r2 => wf_tensor bf N r2 | inr r3 => wf3 bf N M r3 end.

Definition wf_w (N M : nat) (w : list (list Q)) : Prop :=
  length w = N /\ forall row, In row w -> length row = M.

Lemma flatten3_wf bf N M t : wf3 bf N M t -> wf_tensor bf (N * M) (flatten3 bf t).
Proof.
  unfold wf3, wf_tensor, flatten3. destruct bf; [|trivial].
  intros [HN [HM [W HW]]]. split.
  - rewrite (length_concat_const M) by exact HM. rewrite HN. reflexivity.
  - exists W. intros s Hs. apply in_concat in Hs as [row [Hr Hs]]. exact (HW row Hr s Hs).
Qed.

Lemma seq_of_flatten3 bf N M t n m : wf3 bf N M t -> (n < N)%nat -> (m < M)%nat ->
  seq_of bf (n * M + m) (flatten3 bf t) = seq3_of bf n m t.
Proof.
  unfold wf3, seq_of, flatten3, seq3_of. destruct bf.
  - intros [HN [HM _]] Hn Hm. apply nth_concat; assumption.
  - intros HM Hn Hm. unfold col. rewrite map_map. apply map_ext_in. intros plane Hp.
    apply nth_concat; [exact (HM plane Hp)|exact Hm].
Qed.

Lemma expand_ref_wf bf N M ref : wf_tensor bf N ref -> wf3 bf N M (expand_ref bf M ref).
Proof.
  unfold wf_tensor, wf3, expand_ref. destruct bf.
  - intros [HN [W HW]]. split; [rewrite map_length; exact HN|]. split.
    + intros row Hr. apply in_map_iff in Hr as [s [<- _]]. apply repeat_length.
    + exists W. intros row Hr s Hs. apply in_map_iff in Hr as [s0 [<- Hs0]].
      apply repeat_spec in Hs. subst s. apply HW. exact Hs0.
  - intros _ plane Hp row Hr. apply in_map_iff in Hp as [row0 [<- _]].
    apply in_map_iff in Hr as [x [<- _]]. apply repeat_length.
Qed.

Lemma seq3_of_expand_ref bf N M ref n m : wf_tensor bf N ref -> (n < N)%nat -> (m < M)%nat ->
  seq3_of bf n m (expand_ref bf M ref) = seq_of bf n ref.
Proof.
  unfold wf_tensor, seq3_of, expand_ref, seq_of. destruct bf.
  - intros [HN _] Hn Hm. rewrite (nth_map_lt _ ref n []) by lia. apply nth_repeat. exact Hm.
  - intros _ Hn Hm. unfold col. rewrite map_map. apply map_ext. intros row.
    destruct (lt_dec n (length row)) as [Hlt|Hge].
    + rewrite (nth_map_lt _ row n 0) by exact Hlt. apply nth_repeat. exact Hm.
    + rewrite (nth_overflow (map _ row)) by (rewrite map_length; lia).
      rewrite (nth_overflow row) by lia. destruct m; reflexivity.
Qed.

Lemma ref3_of_wf bf N M ref : wf_ref bf N M ref -> wf3 bf N M (ref3_of bf M ref).
Proof. destruct ref as [r2|r3]; cbn [wf_ref ref3_of]; [apply expand_ref_wf|auto]. Qed.

Lemma seq3_of_ref3 bf N M ref n m : wf_ref bf N M ref -> (n < N)%nat -> (m < M)%nat ->
  seq3_of bf n m (ref3_of bf M ref) = ref_seq bf n m ref.
Proof.
  destruct ref as [r2|r3]; cbn [wf_ref ref3_of ref_seq]; [|reflexivity].
  intros. apply (seq3_of_expand_ref bf N); assumption.
Qed.

Section Mer.
  Variable c : cfg.
  Variable sub_avg : bool.
  Variables N M : nat.
  Variable w : list (list Q).
  Variable ref : list (list Z) + list (list (list Z)).
  Variable hyp : list (list (list Z)).
  Notation bf := (c_bf c).

  (* the error rate of sample m of batch element n, as the model computes it for that pair *)
  Definition er_nm (n m : nat) : Q :=
    val_q (pair_er c (ref_seq bf n m ref) (seq3_of bf n m hyp)).

  Definition mu_n (n : nat) : Q := (qsum (map (er_nm n) (seq 0 M)) / (Z.of_nat M # 1))%Q.

  Definition loss_nm (n m : nat) : Q :=
    ((if sub_avg then er_nm n m - mu_n n else er_nm n m) * nth m (nth n w []) 0)%Q.

  Definition loss_mat : list (list Q) :=
    map (fun n => map (loss_nm n) (seq 0 M)) (seq 0 N).

  Hypothesis HM : (2 <= M)%nat.
  Hypothesis Hhyp : wf3 bf N M hyp.
  Hypothesis Href : wf_ref bf N M ref.
  Hypothesis Hw : wf_w N M w.

  Lemma er_view :
    chunks M N (map val_q (error_rate c (N * M)
                             (flatten3 bf (ref3_of bf M ref)) (flatten3 bf hyp)))
    = map (fun n => map (er_nm n) (seq 0 M)) (seq 0 N).
  Proof.
    set (flat := map val_q _).
    assert (HL : length flat = (N * M)%nat)
      by (unfold flat; rewrite map_length, error_rate_length; reflexivity).
    assert (Hnm : forall n m, (n < N)%nat -> (m < M)%nat -> nth (n * M + m) flat 0%Q = er_nm n m).
    { intros n m Hn Hm. unfold flat.
      assert (Hlt : (n * M + m < N * M)%nat) by nia.
      rewrite (nth_map_lt val_q _ _ (Lit 0)) by (rewrite error_rate_length; exact Hlt).
      rewrite error_rate_nth;
        [|exact Hlt|apply flatten3_wf, ref3_of_wf; exact Href|apply flatten3_wf; exact Hhyp].
      rewrite (seq_of_flatten3 _ N) by (try apply ref3_of_wf; assumption).
      rewrite (seq_of_flatten3 _ N) by assumption.
      rewrite (seq3_of_ref3 _ N) by assumption. reflexivity. }
    apply (nth_ext _ _ [] []).
    - rewrite chunks_length, map_length, seq_length. reflexivity.
    - intros n Hn. rewrite chunks_length in Hn.
      rewrite nth_map_seq by exact Hn. cbn [Nat.add].
      apply (nth_ext _ _ 0%Q 0%Q).
      + rewrite chunk_row_length, map_length, seq_length by assumption. reflexivity.
      + intros m Hm. rewrite chunk_row_length in Hm by assumption.
        rewrite chunks_nth by assumption. rewrite nth_map_seq by exact Hm. cbn [Nat.add].
        apply Hnm; assumption.
  Qed.

  Lemma map2_seq_rows {A B} (f : nat -> list A -> B) (g : nat -> B) K (l : list (list A)) :
    length l = K -> (forall n, (n < K)%nat -> f n (nth n l []) = g n) ->
    map2 (fun n row => f n row) (seq 0 K) l = map g (seq 0 K).
  Proof.
    intros HL Hf. apply (nth_ext _ _ (g 0%nat) (g 0%nat)).
    - rewrite map2_length, map_length, seq_length, HL. lia.
    - intros n Hn. rewrite map2_length, seq_length, HL in Hn.
      rewrite (nth_map2 _ _ _ n 0%nat [] _) by (rewrite ?seq_length, ?HL; lia).
      rewrite seq_nth by lia. rewrite nth_map_seq by lia. cbn [Nat.add]. apply Hf. lia.
  Qed.

  Theorem mer_loss_formula red :
    mer_loss c sub_avg red N M w ref hyp =
    match red with
    | RNone => MMat loss_mat
    | RSum => MScalar (qsum (map qsum loss_mat))
    | RMean => MScalar (qsum (map qsum loss_mat) / (Z.of_nat (N * M) # 1))
    end.
  Proof.
    unfold mer_loss. replace (M <? 2)%nat with false by (symmetry; apply Nat.ltb_ge; exact HM).
    rewrite er_view. destruct Hw as [HwN HwM]. cbv zeta.
    (* every list as a tabulation: w by its entries, then map2 / map index-wise *)
    assert (HLoss :
      map2 (fun erow wrow => map2 Qmult erow wrow)
        (if sub_avg
         then map (fun row => map (fun x => (x - qsum row / (Z.of_nat M # 1))%Q) row) (map (fun n => map (er_nm n) (seq 0 M)) (seq 0 N))
         else map (fun n => map (er_nm n) (seq 0 M)) (seq 0 N)) w
      = loss_mat).
    { rewrite <- (map_nth_seq w []) at 1. rewrite HwN. unfold loss_mat, loss_nm, mu_n.
      destruct sub_avg; rewrite ?map_map, map2_tab; apply map_ext_in; intros n Hn; apply in_seq in Hn;
        rewrite <- (map_nth_seq (nth n w []) 0%Q) at 1; rewrite (HwM (nth n w [])), ?map_map, map2_tab by (apply nth_In; lia);
        reflexivity. }
    rewrite HLoss. destruct red; reflexivity.
  Qed.

  (* and every error rate entering the loss is one the property admits for that sample *)
  Theorem mer_er_allowed n m :
    spec_er_val (c_norm c) (c_ins c) (c_del c) (c_sub c)
      (denote (c_eos c) (c_incl c) (ref_seq bf n m ref))
      (denote (c_eos c) (c_incl c) (seq3_of bf n m hyp))
      (pair_er c (ref_seq bf n m ref) (seq3_of bf n m hyp)).
  Proof. apply pair_er_correct. Qed.
End Mer.

Theorem mer_loss_too_few_samples c sub_avg red N M w ref hyp :
  (M < 2)%nat -> mer_loss c sub_avg red N M w ref hyp = MErr.
Proof. intros H. unfold mer_loss. apply Nat.ltb_lt in H. rewrite H. reflexivity. Qed.
