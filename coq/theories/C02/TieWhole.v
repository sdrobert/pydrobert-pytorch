(* C02 - the blocks composed: from the state the preamble leaves (TieBlocks.stageA, return_mistakes still set or
   cleared by the uniform-cost shortcut) the interpreted er_row0; er_main; er_fin return, for every pair n, the
   float of PV.C02.Model.pair_er on column n; with the preamble (TiePre) this gives the whole-function theorems
   of Tie.v. *)
From Coq Require Import QArith List String Lia ZifyBool ZifyNat.
From PV Require Import MiniPy.Syntax MiniPy.Interp MiniTorch.OpsC07 MiniTorch.OpsC01 MiniTorch.LemmasC01.
From PV Require Import Gen.C02Src C01.TieLib C01.TieMath C02.SrcRun C02.TieLib C02.TieMath C02.TieLoop C02.TieLoopU C02.TieBlocks.
From PV Require C01.TieWhole.
Import ListNotations.
Local Open Scope string_scope.

#[local] Arguments Z.add : simpl never.
#[local] Arguments Z.sub : simpl never.
#[local] Arguments Z.of_nat : simpl never.
#[local] Arguments zf : simpl never.
#[local] Arguments ofx : simpl never.
#[local] Arguments argmin_3 : simpl never.
#[local] Arguments seq : simpl never.
#[local] Arguments fmin_list : simpl never.
#[local] Arguments zrange : simpl never.
#[local] Arguments sw : simpl never.
#[local] Arguments swp : simpl never.

(* a loop statement with the properties of TieLoop.loop_tie and TieLoopU.loop_tieU *)
Definition loop_ok (lp : stmt) : Prop :=
  (forall s ci cd cs R N H rf hf hl vrl vmult vnorm vwarn st lf mf,
    body_pre s ci cd cs R N H rf hf hl vrl vmult vnorm vwarn lf mf st ->
    lookup "max_hyp_steps" (vars st) = Some (VInt (Z.of_nat H)) ->
    runs_to (body_pre s ci cd cs R N H rf hf hl vrl vmult vnorm vwarn
               (fun i n => nth i (fst (iter_col ci cd cs R H rf hf hl H 0 lf mf n)) 0%Z)
               (fun i n => nth i (snd (iter_col ci cd cs R H rf hf hl H 0 lf mf n)) 0%Z)) (exec ext02 lp st)) /\
  (forall s ci cd cs R N H rf hf hl vrl vmult vnorm vwarn st lf,
    body_preU s ci cd cs R N H rf hf hl vrl vmult vnorm vwarn lf st ->
    lookup "max_hyp_steps" (vars st) = Some (VInt (Z.of_nat H)) ->
    runs_to (body_preU s ci cd cs R N H rf hf hl vrl vmult vnorm vwarn
               (fun i n => nth i (iter_colU ci cd cs R H rf hf hl H 0 lf n) 0%Z)) (exec ext02 lp st)).

Lemma er_loop_ok : loop_ok er_loop.
Proof. split; intros; [now apply loop_tie|now apply loop_tieU]. Qed.

Section Tail.
  Variables (s : positive) (ci cd cs : Z) (mult : Q) (R N H : nat) (rf hf : nat -> nat -> Z) (rl hl : nat -> nat) (nm w : bool).

  (* return_mistakes still set: the mistakes table *)
  Theorem tail_run_m_gen : forall lp, loop_ok lp -> forall st, (forall n, (n < N)%nat -> (rl n <= R)%nat) ->
    known st (stageA true s ci cd cs mult R N H rf hf rl hl nm w) ->
    returns (enc_x (mkTn [N] (map (fin_value mult rl hl nm 1 (fun n => nth (rl n) (snd (final_rm ci cd cs R H rf hf hl n)) 0%Z)) (seq 0 N))))
            (exec ext02 (SSeq er_row0 (SSeq (SSeq main_flags (SSeq lp main_rest)) er_fin)) st).
  Proof.
    intros lp [Hlp _] st Hrl K.
    eapply returns_seq; [exact (row0_run_m s ci cd cs mult R N H rf hf rl hl nm w st K)|]. intros st1 K1.
    eapply returns_seq; [apply (main_run_m_gen s ci cd cs mult R N H rf hf rl hl nm w lp); [intros; now apply Hlp|exact Hrl|exact K1]|]. intros st2 K2.
    eapply (fin_run _ _ rf hf). exact K2.
  Qed.

  (* return_mistakes cleared: the cost table *)
  Theorem tail_run_u_gen : forall lp, loop_ok lp -> forall st, (forall n, (n < N)%nat -> (rl n <= R)%nat) ->
    known st (stageA false s ci cd cs mult R N H rf hf rl hl nm w) ->
    returns (enc_x (mkTn [N] (map (fin_value mult rl hl nm s (fun n => nth (rl n) (final_col ci cd cs R H rf hf hl n) 0%Z)) (seq 0 N))))
            (exec ext02 (SSeq er_row0 (SSeq (SSeq main_flags (SSeq lp main_rest)) er_fin)) st).
  Proof.
    intros lp [Hlm Hlp] st Hrl K.
    eapply returns_seq; [exact (row0_run_u s ci cd cs mult R N H rf hf rl hl nm w st K)|]. intros st1 K1.
    eapply returns_seq; [apply (main_run_u_gen s ci cd cs mult R N H rf hf rl hl nm w lp); [intros; now apply Hlm|intros; now apply Hlp|exact Hrl|exact K1]|]. intros st2 K2.
    eapply (fin_run _ _ rf hf). exact K2.
  Qed.
End Tail.

(* the value of a model result as the float the source computes (C01.TieWhole.val_fx) *)
Definition val_fx (s : positive) (v : C01.Obs.val) : fx :=
  match v with
  | C01.Obs.Cost x => zf s x
  | C01.Obs.Ratio n d => Fq (Qred (qz s n / inject_Z (Z.of_nat d)))
  | C01.Obs.Lit z => z2f z
  end.

Definition uniform (c : C01.Model.cfg) : bool :=
  C02.Model.uniform_costs (C01.Model.c_ins c) (C01.Model.c_del c) (C01.Model.c_sub c).

(* the scale and costs in force after the uniform-cost shortcut (mult stays 1: return_mistakes was set) *)
Definition eff_scale (s : positive) (c : C01.Model.cfg) : positive := if uniform c then 1%positive else s.
Definition eff_ci (c : C01.Model.cfg) : Z := if uniform c then 1%Z else C01.Model.c_ins c.
Definition eff_cd (c : C01.Model.cfg) : Z := if uniform c then 1%Z else C01.Model.c_del c.
Definition eff_cs (c : C01.Model.cfg) : Z := if uniform c then 1%Z else C01.Model.c_sub c.

(* C01.TieWhole.norm_value at scale 1 and mult 1 *)
Lemma norm_value : forall (nm : bool) (rlen hlen : nat) (v : Z),
  (let x := fmul (zf 1 v) (Fq 1) in
   if nm then (if (Z.of_nat rlen =? 0)%Z then b2f (Z.of_nat hlen >? 0)%Z else fdiv x (z2f (Z.of_nat rlen))) else x)
  = val_fx 1 (C01.Model.normalise nm rlen v (0 <? hlen)%nat).
Proof.
  intros nm rlen hlen v. replace (Z.of_nat hlen >? 0)%Z with (0 <? hlen)%nat by lia.
  transitivity (val_fx 1 (C01.Model.normalise nm rlen (v * 1) (0 <? hlen)%nat)); [|now rewrite Z.mul_1_r].
  apply (C01.TieWhole.norm_value 1 1 1 1). unfold fmul, zf. now rewrite qz_mul_s_1, Z.mul_1_r.
Qed.

(* the mistakes path *)
Lemma pair_value_m : forall (c : C01.Model.cfg) (R H : nat) (r h : list Z),
  List.length r = R -> List.length h = H -> uniform c = false ->
  let rlen := C01.Model.eff_len (C01.Model.c_eos c) (C01.Model.c_incl c) r in
  let hlen := C01.Model.eff_len (C01.Model.c_eos c) (C01.Model.c_incl c) h in
  (let x := fmul (zf 1 (nth rlen (snd (iter_rm (C01.Model.c_ins c) (C01.Model.c_del c) (C01.Model.c_sub c) r h hlen H 1
                                         (map (fun i => Z.of_nat i * C01.Model.c_del c)%Z (seq 0 (S R)),
                                          map (fun i => Z.of_nat i) (seq 0 (S R))))) 0%Z))
                 (Fq 1) in
   if C01.Model.c_norm c
   then (if (Z.of_nat rlen =? 0)%Z then b2f (Z.of_nat hlen >? 0)%Z else fdiv x (z2f (Z.of_nat rlen)))
   else x)
  = val_fx 1 (C02.Model.pair_er c r h).
Proof.
  intros c R H r h Lr Lh Hu rlen hlen. unfold C02.Model.pair_er. unfold uniform in Hu. rewrite Hu.
  fold rlen. fold hlen.
  assert (E0 : (map (fun i => Z.of_nat i * C01.Model.c_del c)%Z (seq 0 (S R)), map (fun i => Z.of_nat i) (seq 0 (S R)))
               = C02.Model.state0 (C01.Model.c_del c) r).
  { unfold C02.Model.state0, C01.Model.row0. now rewrite Lr. }
  rewrite E0, iter_rm_all, Lh. apply norm_value.
Qed.

(* the uniform-cost shortcut: C01's table on unit costs *)
Lemma pair_value_u : forall (c : C01.Model.cfg) (R H : nat) (r h : list Z),
  List.length r = R -> List.length h = H -> uniform c = true ->
  let rlen := C01.Model.eff_len (C01.Model.c_eos c) (C01.Model.c_incl c) r in
  let hlen := C01.Model.eff_len (C01.Model.c_eos c) (C01.Model.c_incl c) h in
  (let x := fmul (zf 1 (nth rlen (iter_rows 1 1 1 r h hlen H 1 (map (fun i => Z.of_nat i * 1)%Z (seq 0 (S R)))) 0%Z)) (Fq 1) in
   if C01.Model.c_norm c
   then (if (Z.of_nat rlen =? 0)%Z then b2f (Z.of_nat hlen >? 0)%Z else fdiv x (z2f (Z.of_nat rlen)))
   else x)
  = val_fx 1 (C02.Model.pair_er c r h).
Proof.
  intros c R H r h Lr Lh Hu rlen hlen. unfold C02.Model.pair_er. unfold uniform in Hu. rewrite Hu.
  unfold C01.Model.pair_ed, C02.Model.unit_cfg.
  cbn [C01.Model.c_ins C01.Model.c_del C01.Model.c_sub C01.Model.c_eos C01.Model.c_incl C01.Model.c_norm].
  change (C01.Model.eff_costs 1 1 1) with (1%Z, (1%Z, 1%Z, 1%Z)). cbv iota. fold rlen. fold hlen.
  assert (E0 : map (fun i => Z.of_nat i * 1)%Z (seq 0 (S R)) = C01.Model.row0 1 r) by (unfold C01.Model.row0; now rewrite Lr).
  rewrite E0, iter_rows_all, Lh. rewrite Z.mul_1_r. apply norm_value.
Qed.
