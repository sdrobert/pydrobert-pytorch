(* C02 - `_lens_from_eos(tok, eos, 0)` on a (T x B) tensor: the body PV.Gen.C02Src.er_lens (translated in THIS unit),
   interpreted by C07.SrcRun.call_body with the C07 environment (that is what ext02 does with the call), returns for
   every column the index of its first eos, or T when there is none - PV.C01.Model.first_eos.  The translated term
   is, by [reflexivity], the text of C07's unit, so the run is C07.Tie.lens_ops_run (the tensor operations the body
   performs, for any tensor and dimension) with the operations on a tabulated (T x B) tensor along dimension 0
   (C01.TieLens.lens_ops_2, the per-column arithmetic C07.Tie.lens_col and C01.TieLens.first_eos_same). *)
From Coq Require Import ZArith QArith List String Bool Arith Lia ZifyBool ZifyNat.
From PV Require Import MiniPy.Syntax MiniPy.Interp MiniTorch.Ops MiniTorch.Lemmas MiniTorch.OpsC07 MiniTorch.LemmasC07
  MiniTorch.LemmasC01.
From PV Require Import Gen.C02Src C07.SrcRun.
From PV Require Gen.C07LensSrc C07.Tie C01.TieLens C01.Model.
Import ListNotations.
Local Open Scope string_scope.

(* the unit's copy of `_lens_from_eos` is the text of C07's unit *)
Lemma er_lens_same : er_lens = Gen.C07LensSrc.lens_from_eos_body.
Proof. reflexivity. Qed.

Lemma lens_run_2 : forall lsm T B h e, T <> 0%nat ->
  exists st, Interp.run (ext07_ops lsm) er_lens
               (("tok", enc_i (mkTn [T; B] (tab2 T B h))) :: ("eos", VInt e) :: ("dim", VInt 0) :: globals07) =
    Ok (enc_i (mkTn [B] (map (fun b => Z.of_nat (C01.Model.first_eos e (map (fun t => h t b) (seq 0 T)))) (seq 0 B)))) st.
Proof.
  intros lsm T B h e HT. destruct (C01.TieLens.lens_ops_2 T B h e) as (Hx & Hh).
  destruct (C07.Tie.lens_ops_run lsm (mkTn [T; B] (tab2 T B h)) e 0 _ _ _ ltac:(unfold rank; cbn [shp List.length]; lia) Hx Hh
              (max_bool_2 _ _ _ HT)) as [st H].
  exists st. rewrite er_lens_same.
  fold (lens_vars (mkTn [T; B] (tab2 T B h)) e 0). fold (run_lens lsm (mkTn [T; B] (tab2 T B h)) e 0).
  change (Z.of_nat 0) with 0%Z in H. rewrite H. cbv beta iota.
  unfold masked_fill, zip_same, eq_sb. cbn [shp dat nth]. rewrite nats_eqb_refl, map_map, zipw_map. cbn [option_map ret_any enc_any].
  do 3 f_equal. apply map_ext_seq. intros b Hb.
  rewrite <- C01.TieLens.first_eos_same. apply (C07.Tie.lens_col e T (fun t => h t b)).
Qed.

Lemma lens_run_2_empty : forall lsm B h e,
  exists st, Interp.run (ext07_ops lsm) er_lens
               (("tok", enc_i (mkTn [0%nat; B] (tab2 0 B h))) :: ("eos", VInt e) :: ("dim", VInt 0) :: globals07) =
    Exc index_error st.
Proof.
  intros lsm B h e. rewrite er_lens_same. destruct (C01.TieLens.lens_ops_2 0 B h e) as (Hx & Hh).
  exact (C07.Tie.lens_ops_run lsm (mkTn [0%nat; B] (tab2 0 B h)) e 0 _ _ _ ltac:(unfold rank; cbn [shp List.length]; lia) Hx Hh
           (max_bool_2_empty _ _)).
Qed.
