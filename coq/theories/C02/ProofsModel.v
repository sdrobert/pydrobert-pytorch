(* C02 — lemmas tying Model.v (the `mistakes` table of _string_matching) to Spec.v.
   Central statements: [body_fst] / [cost_rows_are_c01_rows] (the cost row kept beside the
   mistakes is C01's cost row), [mistakes_invariant] (every cell of the mistakes table is
   the number of edits of a script whose cost is the cell of the cost table = lev),
   [pair_er_correct], [pair_prefix_er_correct], and the batch-level headlines. *)
From Coq Require Import List ZArith QArith Bool Arith Lia.
From PV Require Import C01.Obs C01.Spec C01.Model C01.LevFacts C01.Proofs.
From PV Require Import C02.Spec C02.Model C02.ProofsSpec.
Import ListNotations.
Local Open Scope Z_scope.

Lemma where3_length p x y :
  length (where3 p x y) = Nat.min (length p) (Nat.min (length x) (length y)).
Proof.
  revert x y; induction p as [|b p IH]; intros x y; [reflexivity|].
  destruct x as [|a x], y as [|c y]; cbn [where3 length Nat.min]; try reflexivity.
  rewrite IH. reflexivity.
Qed.

Lemma nth_where3 p x y i :
  (i < length p)%nat -> (i < length x)%nat -> (i < length y)%nat ->
  nth i (where3 p x y) 0 = if nth i p false then nth i x 0 else nth i y 0.
Proof.
  revert x y i; induction p as [|b p IH]; intros [|a x] [|c y] i Hp Hx Hy; cbn [length] in *; try lia.
  destruct i as [|i]; [reflexivity|]. cbn [where3 nth]. apply IH; lia.
Qed.

(* where(row[1:] >= sub_row, sub_row, row[1:]) is the elementwise minimum *)
Lemma where3_min x : forall y, where3 (map2 (fun a b => b <=? a) x y) y x = map2 Z.min x y.
Proof.
  induction x as [|a x IH]; intros [|b y]; cbn [map2 where3]; try reflexivity.
  rewrite IH. f_equal. destruct (b <=? a) eqn:E; [apply Z.leb_le in E|apply Z.leb_gt in E]; lia.
Qed.

(* the cost part of the in-place loop: v[i] = min(v[i], v[i-1] + d), left to right *)
Fixpoint ssweep (cd p : Z) (l : list Z) : list Z :=
  match l with
  | [] => []
  | x :: t => let x' := Z.min x (p + cd) in x' :: ssweep cd x' t
  end.

Lemma ssweep_length cd p l : length (ssweep cd p l) = length l.
Proof. revert p; induction l as [|x l IH]; intros p; cbn [ssweep length]; [reflexivity|]. rewrite IH. reflexivity. Qed.

Lemma del_loop_fst cd row : forall mist pr pm, length mist = length row ->
  fst (del_loop cd pr pm row mist) = ssweep cd pr row.
Proof.
  induction row as [|x row IH]; intros [|m mist] pr pm HL; cbn [length] in HL; try lia; [reflexivity|].
  cbn [del_loop ssweep].
  assert (E : (if x <=? pr + cd then x else pr + cd) = Z.min x (pr + cd)).
  { destruct (x <=? pr + cd) eqn:E; [apply Z.leb_le in E|apply Z.leb_gt in E]; lia. }
  rewrite E.
  destruct (del_loop cd (Z.min x (pr + cd)) (if x <=? pr + cd then m else pm + 1) row mist)
    as [rr mm] eqn:ED.
  cbn [fst]. f_equal. rewrite <- (IH mist _ (if x <=? pr + cd then m else pm + 1)) by lia.
  rewrite ED. reflexivity.
Qed.

Lemma nth_ssweep_0 cd p l : l <> [] -> nth 0 (ssweep cd p l) 0 = Z.min (nth 0 l 0) (p + cd).
Proof. destruct l; [contradiction|reflexivity]. Qed.

Lemma nth_ssweep_S cd l : forall p k, (S k < length l)%nat ->
  nth (S k) (ssweep cd p l) 0 = Z.min (nth (S k) l 0) (nth k (ssweep cd p l) 0 + cd).
Proof.
  induction l as [|y l IH]; intros p k Hk; cbn [length] in Hk; [lia|].
  cbn [ssweep nth]. destruct k as [|k].
  - rewrite nth_ssweep_0 by (destruct l; [cbn in Hk; lia|discriminate]). reflexivity.
  - rewrite IH by lia. reflexivity.
Qed.

Lemma sweep_at_ssweep cd x t k : (k < length t)%nat ->
  sweep_at cd (x :: t) (S k) = nth k (ssweep cd x t) 0.
Proof.
  induction k as [|k IH]; intros Hk.
  - cbn [sweep_at nth]. rewrite nth_ssweep_0 by (destruct t; [cbn in Hk; lia|discriminate]).
    reflexivity.
  - change (sweep_at cd (x :: t) (S (S k)))
      with (Z.min (nth (S (S k)) (x :: t) 0) (sweep_at cd (x :: t) (S k) + cd)).
    rewrite IH by lia. rewrite nth_ssweep_S by lia. reflexivity.
Qed.

Lemma sweep_cons cd x t : sweep cd (x :: t) = x :: ssweep cd x t.
Proof.
  apply (nth_ext _ _ 0 0).
  - unfold sweep. rewrite map_length, seq_length. cbn [length]. rewrite ssweep_length. reflexivity.
  - intros i Hi. unfold sweep in *. rewrite map_length, seq_length in Hi.
    rewrite nth_map_seq by exact Hi. cbn [Nat.add]. destruct i as [|i]; [reflexivity|].
    cbn [nth]. apply sweep_at_ssweep. cbn [length] in Hi. lia.
Qed.

Lemma del_sweep_fst cd row mist : length mist = length row ->
  fst (del_sweep cd row mist) = del_fold cd row.
Proof.
  intros HL. rewrite del_fold_is_sweep. destruct row as [|x row], mist as [|m mist];
    cbn [length] in HL; try lia; [reflexivity|].
  cbn [del_sweep]. destruct (del_loop cd x m row mist) as [rr mm] eqn:ED. cbn [fst].
  rewrite sweep_cons. f_equal. rewrite <- (del_loop_fst cd row mist x m) by lia. rewrite ED. reflexivity.
Qed.

Lemma map2_tab : forall {A B C} (f : A -> B -> C) g h a n,
  map2 f (map g (seq a n)) (map h (seq a n)) = map (fun i => f (g i) (h i)) (seq a n).
Proof. intros A B C f g h a n. revert a. induction n as [|n IH]; intros a; cbn; [reflexivity|now rewrite IH]. Qed.

Lemma where3_tab : forall p x y a n,
  where3 (map p (seq a n)) (map x (seq a n)) (map y (seq a n)) = map (fun i => if p i then x i else y i) (seq a n).
Proof. intros p x y a n. revert a. induction n as [|n IH]; intros a; cbn; [reflexivity|now rewrite IH]. Qed.

Lemma removelast_tab : forall {A} (g : nat -> A) n, removelast (map g (seq 0 (S n))) = map g (seq 0 n).
Proof. intros A g n. rewrite seq_S, map_app. apply removelast_last. Qed.

Lemma tl_tab : forall {A} (g : nat -> A) n, tl (map g (seq 0 (S n))) = map (fun i => g (S i)) (seq 0 n).
Proof. intros A g n. cbn [seq map tl]. now rewrite <- seq_shift, map_map. Qed.

Lemma cons_tab : forall {A} (g : nat -> A) n, g 0%nat :: map (fun i => g (S i)) (seq 0 n) = map g (seq 0 (S n)).
Proof. intros A g n. cbn [seq map]. now rewrite <- seq_shift, map_map. Qed.

Section Rows.
  Variables ci cd cs : Z.
  Variables r h : list Z.
  Notation lev := (lev ci cd cs).
  Notation cost := (cost ci cd cs).
  Notation lrow := (lrow ci cd cs r h).
  Notation body := (body ci cd cs r).
  Notation R := (length r).

  (* the cost row of the mistakes branch is C01's cost row *)
  Lemma body_fst tok im last lastm :
    length last = S R -> length lastm = S R ->
    fst (body tok im (last, lastm)) = del_fold cd (cand_row ci cs r tok im last).
  Proof.
    intros HL HM. unfold Model.body. rewrite del_sweep_fst.
    - rewrite where3_min. reflexivity.
    - cbn [length]. f_equal.
      rewrite !where3_length, !map2_length, !length_tl, !length_removelast, !map_length, HL, HM. lia.
  Qed.

  (* witnesses: a cell (cost c, mistakes m) at reference prefix i, hypothesis prefix j *)
  Definition W (i j : nat) (c m : Z) : Prop :=
    exists s, transforms s (firstn i r) (firstn j h) /\ cost s = c /\ edits s = m.

  (* a witness extended by one operation *)
  Lemma W_snoc o a b i j i' j' c m :
    transforms [o] a b -> firstn i' r = firstn i r ++ a -> firstn j' h = firstn j h ++ b ->
    W i j c m -> W i' j' (c + op_cost ci cd cs o) (m + is_edit o).
  Proof.
    intros To Er Eh [s [T [C E]]]. exists (s ++ [o]). rewrite Er, Eh, cost_app, edits_app, C, E.
    split; [now apply transforms_app|]. cbn [Spec.cost edits]. split; lia.
  Qed.

  Lemma W_ins i j c m : (j < length h)%nat -> W i j c m -> W i (S j) (c + ci) (m + 1).
  Proof.
    intros Hj. apply (W_snoc (Ins (nth j h 0)) [] [nth j h 0]);
      [repeat constructor|now rewrite app_nil_r|now apply firstn_snoc_nth].
  Qed.

  Lemma W_del i j c m : (i < R)%nat -> W i j c m -> W (S i) j (c + cd) (m + 1).
  Proof.
    intros Hi. apply (W_snoc (Del (nth i r 0)) [nth i r 0] []);
      [repeat constructor|now apply firstn_snoc_nth|now rewrite app_nil_r].
  Qed.

  Lemma W_sub i j c m : (i < R)%nat -> (j < length h)%nat -> W i j c m ->
    W (S i) (S j) (c + cs * (if nth i r 0 =? nth j h 0 then 0 else 1))
                  (m + (if nth i r 0 =? nth j h 0 then 0 else 1)).
  Proof.
    intros Hi Hj. destruct (nth i r 0 =? nth j h 0) eqn:Eab.
    - apply Z.eqb_eq in Eab. rewrite Z.mul_0_r.
      apply (W_snoc (Keep (nth i r 0)) [nth i r 0] [nth j h 0]);
        [rewrite <- Eab; repeat constructor|now apply firstn_snoc_nth|now apply firstn_snoc_nth].
    - apply Z.eqb_neq in Eab. rewrite Z.mul_1_r.
      apply (W_snoc (Sub (nth i r 0) (nth j h 0)) [nth i r 0] [nth j h 0]);
        [constructor; [exact Eab|constructor]|now apply firstn_snoc_nth|now apply firstn_snoc_nth].
  Qed.

  Lemma W_0 i : (i <= R)%nat -> W i 0 (Z.of_nat i * cd) (Z.of_nat i).
  Proof.
    intros Hi. exists (map Del (firstn i r)). cbn [firstn]. split; [apply transforms_all_del|].
    rewrite cost_all_del, edits_all_del, firstn_length, Nat.min_l by lia. split; reflexivity.
  Qed.

  (* both tables have R + 1 entries and every cell has a witness *)
  Definition Wst (j : nat) (st : list Z * list Z) : Prop :=
    length (fst st) = S R /\ length (snd st) = S R /\
    forall i, (i <= R)%nat -> W i j (nth i (fst st) 0) (nth i (snd st) 0).

  Lemma state0_W : Wst 0 (state0 cd r).
  Proof.
    unfold Wst, state0, row0. cbn [fst snd]. rewrite !map_length, seq_length.
    split; [reflexivity|split; [reflexivity|]]. intros i Hi.
    rewrite !nth_map_seq by lia. cbn [Nat.add]. apply W_0. exact Hi.
  Qed.

  (* the deletion loop keeps witnesses *)
  Lemma del_loop_W j cdrow : forall mist pr pm i0,
    length mist = length cdrow -> (i0 + length cdrow <= R)%nat ->
    W i0 j pr pm ->
    (forall k, (k < length cdrow)%nat -> W (S i0 + k) j (nth k cdrow 0) (nth k mist 0)) ->
    length (fst (del_loop cd pr pm cdrow mist)) = length cdrow /\
    length (snd (del_loop cd pr pm cdrow mist)) = length cdrow /\
    forall k, (k < length cdrow)%nat ->
      W (S i0 + k) j (nth k (fst (del_loop cd pr pm cdrow mist)) 0)
                     (nth k (snd (del_loop cd pr pm cdrow mist)) 0).
  Proof.
    induction cdrow as [|x row IH]; intros [|m mist] pr pm i0 HL Hi0 Hp Hk; cbn [length] in *; try lia.
    - cbn [del_loop fst snd length]. split; [reflexivity|split; [reflexivity|]]. intros k Hlt. lia.
    - cbn [del_loop].
      set (x' := if x <=? pr + cd then x else pr + cd).
      set (m' := if x <=? pr + cd then m else pm + 1).
      assert (Hx' : W (S i0) j x' m').
      { unfold x', m'. destruct (x <=? pr + cd).
        - specialize (Hk 0%nat ltac:(lia)). rewrite Nat.add_0_r in Hk. exact Hk.
        - apply W_del; [lia|exact Hp]. }
      destruct (IH mist x' m' (S i0)) as [L1 [L2 L3]]; [lia|lia|exact Hx'| |].
      { intros k Hlt. specialize (Hk (S k) ltac:(lia)). cbn [nth] in Hk.
        replace (S (S i0) + k)%nat with (S i0 + S k)%nat by lia. exact Hk. }
      destruct (del_loop cd x' m' row mist) as [rr mm] eqn:ED. cbn [fst snd length] in *.
      split; [lia|split; [lia|]]. intros k Hlt. destruct k as [|k]; cbn [nth].
      + rewrite Nat.add_0_r. exact Hx'.
      + replace (S i0 + S k)%nat with (S (S i0) + k)%nat by lia. apply L3. lia.
  Qed.

  Lemma del_sweep_W j row mist :
    length row = S R -> length mist = S R ->
    (forall i, (i <= R)%nat -> W i j (nth i row 0) (nth i mist 0)) ->
    Wst j (del_sweep cd row mist).
  Proof.
    intros HL HM HW. destruct row as [|x row], mist as [|m mist]; cbn [length] in *; try lia.
    cbn [del_sweep].
    destruct (del_loop_W j row mist x m 0%nat) as [L1 [L2 L3]]; [lia|lia|exact (HW 0%nat ltac:(lia))| |].
    { intros k Hk. exact (HW (S k) ltac:(lia)). }
    destruct (del_loop cd x m row mist) as [rr mm] eqn:ED. cbn [fst snd] in *.
    unfold Wst. cbn [fst snd length]. split; [lia|split; [lia|]].
    intros i Hi. destruct i as [|i]; cbn [nth].
    - exact (HW 0%nat ltac:(lia)).
    - apply (L3 i). lia.
  Qed.

  (* one live step (ins_mask = 1) *)
  Lemma body_W j st : (j < length h)%nat -> Wst j st -> Wst (S j) (body (nth j h 0) 1 st).
  Proof.
    intros Hj [HL [HM HW]]. destruct st as [last lastm]. cbn [fst snd] in *.
    rewrite <- (map_nth_seq last 0), <- (map_nth_seq lastm 0), HL, HM. rewrite <- (map_nth_seq r 0) at 1.
    unfold Model.body. rewrite !map_map, !removelast_tab, !tl_tab, !map2_tab, !where3_tab.
    apply del_sweep_W; try (cbn [length]; now rewrite map_length, seq_length).
    intros [|i] Hi; cbn [nth seq map hd]; replace (ci * 1) with ci by lia.
    - apply W_ins; [exact Hj|]. apply HW. lia.
    - rewrite !nth_map_seq by lia. cbn [Nat.add].
      destruct (_ <=? _); [apply W_sub|apply W_ins]; try lia; try exact Hj; apply HW; lia.
  Qed.

  (* the states of a pair that is still live *)
  Fixpoint ideal (j : nat) : list Z * list Z :=
    match j with
    | O => state0 cd r
    | S j' => body (nth j' h 0) 1 (ideal j')
    end.

  Lemma ideal_W j : (j <= length h)%nat -> Wst j (ideal j).
  Proof.
    induction j as [|j IH]; intros Hj; [apply state0_W|].
    cbn [ideal]. apply body_W; [lia|]. apply IH. lia.
  Qed.

  Lemma ideal_fst j : (j <= length h)%nat -> fst (ideal j) = lrow j.
  Proof.
    induction j as [|j IH]; intros Hj.
    - cbn [ideal state0 fst]. apply row0_lrow.
    - cbn [ideal]. destruct (ideal_W j ltac:(lia)) as [HL [HM _]].
      destruct (ideal j) as [last lastm] eqn:EI. cbn [fst snd] in *.
      rewrite body_fst by assumption. rewrite IH by lia. apply step_lrow. lia.
  Qed.

  (* every cell of the mistakes table counts the edits of a script that realises the cell
     of the cost table, and that cell is the minimum cost *)
  Theorem ideal_cells j i : (j <= length h)%nat -> (i <= R)%nat ->
    nth i (fst (ideal j)) 0 = lev (firstn i r) (firstn j h) /\
    er_spec ci cd cs (firstn i r) (firstn j h) (nth i (snd (ideal j)) 0).
  Proof.
    intros Hj Hi. destruct (ideal_W j Hj) as [_ [_ HW]].
    assert (E : nth i (fst (ideal j)) 0 = lev (firstn i r) (firstn j h))
      by (rewrite ideal_fst by exact Hj; apply lrow_nth; exact Hi).
    split; [exact E|]. destruct (HW i Hi) as [s [T [C Ed]]]. exists s. split; [|exact Ed].
    apply optimal_iff_lev. split; [exact T|]. rewrite C. exact E.
  Qed.

  Variables (hlen : nat) (excl : bool).
  Notation frozen := (frozen hlen excl).
  Notation step_rm := (step_rm ci cd cs r h hlen excl).

  Lemma step_rm_live idx : (hlen <= length h)%nat -> (1 <= idx)%nat -> (idx <= frozen)%nat ->
    step_rm idx (ideal (idx - 1)) = ideal idx.
  Proof.
    intros Hh H1 Hf. unfold Model.step_rm, Proofs.frozen in *.
    replace (idx - (if excl then 0 else 1) <? hlen)%nat with true
      by (symmetry; apply Nat.ltb_lt; destruct excl; lia).
    replace (idx <=? hlen)%nat with true by (symmetry; apply Nat.leb_le; destruct excl; lia).
    replace idx with (S (idx - 1)) at 3 by lia. reflexivity.
  Qed.

  Lemma step_rm_frozen idx st : (frozen < idx)%nat -> step_rm idx st = st.
  Proof.
    intros Hf. unfold Model.step_rm, Proofs.frozen in *.
    replace (idx - (if excl then 0 else 1) <? hlen)%nat with false
      by (symmetry; apply Nat.ltb_ge; destruct excl; lia).
    reflexivity.
  Qed.

  Lemma rm_loop_length fuel : forall idx st,
    length (rm_loop ci cd cs r h hlen excl fuel idx st) = fuel.
  Proof. induction fuel as [|f IH]; intros; cbn [rm_loop length]; [reflexivity|]. rewrite IH. reflexivity. Qed.

  Lemma rm_loop_nth : (hlen <= length h)%nat -> forall fuel idx st k,
    (1 <= idx)%nat -> st = ideal (Nat.min (idx - 1) frozen) -> (k < fuel)%nat ->
    nth k (rm_loop ci cd cs r h hlen excl fuel idx st) ([], []) = ideal (Nat.min (idx + k) frozen).
  Proof.
    intros Hh. induction fuel as [|f IH]; intros idx st k H1 HS Hk; [lia|].
    cbn [rm_loop].
    assert (Hstep : step_rm idx st = ideal (Nat.min idx frozen)).
    { subst st. destruct (le_lt_dec idx frozen) as [Hle|Hgt].
      - rewrite !Nat.min_l by lia. apply step_rm_live; assumption.
      - rewrite step_rm_frozen by exact Hgt. rewrite !Nat.min_r by lia. reflexivity. }
    destruct k as [|k]; cbn [nth].
    - rewrite Hstep. f_equal. lia.
    - rewrite (IH (S idx) _ k); [f_equal; lia|lia| |lia].
      rewrite Hstep. f_equal. lia.
  Qed.

  Lemma all_rm_length steps : length (all_rm ci cd cs r h hlen excl steps) = S steps.
  Proof. unfold all_rm. cbn [length]. rewrite rm_loop_length. reflexivity. Qed.

  Lemma all_rm_nth steps k : (hlen <= length h)%nat -> (k <= steps)%nat ->
    nth k (all_rm ci cd cs r h hlen excl steps) ([], []) = ideal (Nat.min k frozen).
  Proof.
    intros Hh Hk. unfold all_rm. destruct k as [|k]; cbn [nth]; [reflexivity|].
    rewrite (rm_loop_nth Hh steps 1 (state0 cd r) k); [reflexivity|lia|reflexivity|lia].
  Qed.

  (* `prefix_ers[0] = ref_lens`: entry i of the first mistakes row is i, so the gather is uniform over all states *)
  Lemma gather_all_rm steps i : (i <= R)%nat ->
    Z.of_nat i :: map (fun st => nth i (snd st) 0) (tl (all_rm ci cd cs r h hlen excl steps))
    = map (fun st => nth i (snd st) 0) (all_rm ci cd cs r h hlen excl steps).
  Proof. intros Hi. unfold all_rm. cbn [tl map state0 snd]. now rewrite nth_map_seq by lia. Qed.

  Lemma frozen_le : (hlen <= length h)%nat -> (frozen <= length h)%nat.
  Proof. unfold Proofs.frozen. destruct excl; lia. Qed.

  (* mechanism 1: the cost rows kept by the return_mistakes branch are the rows of the
     cost-only branch (C01's model), step for step, frozen rows included *)
  Theorem cost_rows_are_c01_rows steps : (hlen <= length h)%nat ->
    map fst (all_rm ci cd cs r h hlen excl steps) = all_rows ci cd cs r h hlen excl steps.
  Proof.
    intros Hh. apply (nth_ext _ _ [] []).
    - rewrite map_length, all_rm_length, all_rows_length. reflexivity.
    - intros k Hk. rewrite map_length, all_rm_length in Hk.
      rewrite (nth_map_lt fst _ k ([], [])) by (rewrite all_rm_length; exact Hk).
      rewrite all_rm_nth, all_rows_nth by lia.
      apply ideal_fst. pose proof (frozen_le Hh). lia.
  Qed.

  (* mechanism 1, headline form: while the pair is live, cell i of the row after hyp_idx = j
     is (lev, number of edits of a minimum-cost script) on the prefixes *)
  Theorem mistakes_invariant steps j i :
    (hlen <= length h)%nat -> (j <= steps)%nat -> (j <= frozen)%nat -> (i <= R)%nat ->
    let st := nth j (all_rm ci cd cs r h hlen excl steps) ([], []) in
    nth i (fst st) 0 = lev (firstn i r) (firstn j h) /\
    exists s, transforms s (firstn i r) (firstn j h)
              /\ cost s = lev (firstn i r) (firstn j h)
              /\ (forall s', transforms s' (firstn i r) (firstn j h) -> cost s <= cost s')
              /\ edits s = nth i (snd st) 0.
  Proof.
    intros Hh Hj Hf Hi. cbv zeta. rewrite all_rm_nth, Nat.min_l by assumption.
    pose proof (frozen_le Hh).
    destruct (ideal_cells j i ltac:(lia) Hi) as [E [s [Hopt Ed]]].
    split; [exact E|]. exists s. destruct Hopt as [T Hmin].
    split; [exact T|split; [|split; [exact Hmin|exact Ed]]].
    apply optimal_iff_lev. split; assumption.
  Qed.

  (* finished pairs keep both tables *)
  Theorem rm_freeze steps j :
    (hlen <= length h)%nat -> (j <= steps)%nat -> (frozen <= j)%nat ->
    nth j (all_rm ci cd cs r h hlen excl steps) ([], []) = ideal frozen.
  Proof. intros Hh Hj Hf. rewrite all_rm_nth, Nat.min_r by assumption. reflexivity. Qed.

  (* the same without naming the live states: later entries repeat entry [frozen] *)
  Theorem rm_freeze_nth steps j :
    (hlen <= length h)%nat -> (j <= steps)%nat -> (frozen <= j)%nat ->
    nth j (all_rm ci cd cs r h hlen excl steps) ([], [])
    = nth frozen (all_rm ci cd cs r h hlen excl steps) ([], []).
  Proof.
    intros Hh Hj Hf. rewrite !all_rm_nth by lia. rewrite Nat.min_r, Nat.min_id by assumption.
    reflexivity.
  Qed.
End Rows.

Lemma uniform_costs_true i d s : uniform_costs i d s = true -> i = s /\ d = s /\ 0 < s.
Proof.
  unfold uniform_costs. intros E. apply andb_true_iff in E as [E E3].
  apply andb_true_iff in E as [E1 E2]. apply Z.eqb_eq in E1, E2. apply Z.ltb_lt in E3. lia.
Qed.

Lemma normalise_er_spec norm ci cd cs (r' h' : list Z) rl hl m :
  rl = length r' -> hl = length h' -> er_spec ci cd cs r' h' m ->
  spec_er_val norm ci cd cs r' h' (normalise norm rl m (0 <? hl)%nat).
Proof.
  intros -> -> Hm. unfold normalise, spec_er_val. destruct norm; [|exists m; auto].
  destruct (length r') eqn:EL; cbn [Nat.eqb]; [reflexivity|]. exists m. auto.
Qed.

Lemma spec_value_er_spec norm c (r' h' : list Z) : 0 < c ->
  spec_er_val norm c c c r' h' (spec_value norm 1 1 1 r' h').
Proof.
  intros Hc. unfold spec_value, spec_er_val. pose proof (uniform_er_spec c r' h' Hc).
  destruct norm; [|eexists; eauto].
  destruct (length r'); [reflexivity|]. eexists; eauto.
Qed.

Theorem pair_er_correct c r h :
  spec_er_val (c_norm c) (c_ins c) (c_del c) (c_sub c)
    (denote (c_eos c) (c_incl c) r) (denote (c_eos c) (c_incl c) h) (pair_er c r h).
Proof.
  unfold pair_er. destruct (uniform_costs (c_ins c) (c_del c) (c_sub c)) eqn:EU.
  - apply uniform_costs_true in EU as [E1 [E2 E3]]. rewrite E1, E2.
    rewrite pair_ed_correct. unfold spec_pair_ed, unit_cfg. cbn [c_eos c_incl c_norm c_ins c_del c_sub].
    apply spec_value_er_spec. exact E3.
  - pose proof (eff_len_le (c_eos c) (c_incl c) r) as Hr.
    pose proof (eff_len_le (c_eos c) (c_incl c) h) as Hh.
    rewrite last_nth, all_rm_length.
    replace (S (length h) - 1)%nat with (length h) by lia.
    rewrite all_rm_nth by lia. unfold frozen. rewrite Nat.min_r by lia.
    destruct (ideal_cells (c_ins c) (c_del c) (c_sub c) r h _ _ Hh Hr) as [_ Hs].
    rewrite !firstn_eff_len in Hs.
    apply normalise_er_spec; [symmetry; apply length_denote|symmetry; apply length_denote|exact Hs].
Qed.

(* entry k of the per-prefix table of one pair *)
Definition prefix_entry_ok (c : cfg) (r h : list Z) (k : nat) (v : val) : Prop :=
  let R' := denote (c_eos c) (c_incl c) r in
  let H' := denote (c_eos c) (c_incl c) h in
  if (k <? length H' + (if c_excl c then 0 else 1))%nat
  then spec_er_val (c_norm c) (c_ins c) (c_del c) (c_sub c) R' (firstn k H') v
  else v = Lit (c_pad c).

Lemma pair_prefix_er_length c r h :
  length (pair_prefix_er c r h) = (length h + (if c_excl c then 0 else 1))%nat.
Proof.
  unfold pair_prefix_er. destruct (uniform_costs (c_ins c) (c_del c) (c_sub c)).
  - rewrite pair_prefix_correct. unfold spec_pair_prefix. rewrite map_length, seq_length. reflexivity.
  - rewrite map2_length, seq_length. cbn [length]. rewrite map_length, length_tl, all_rm_length. lia.
Qed.

Theorem pair_prefix_er_correct c r h k :
  (k < length h + (if c_excl c then 0 else 1))%nat ->
  prefix_entry_ok c r h k (nth k (pair_prefix_er c r h) (Lit 0)).
Proof.
  intros Hk. unfold prefix_entry_ok, pair_prefix_er.
  destruct (uniform_costs (c_ins c) (c_del c) (c_sub c)) eqn:EU.
  - apply uniform_costs_true in EU as [E1 [E2 E3]]. rewrite E1, E2.
    rewrite pair_prefix_correct. unfold spec_pair_prefix, unit_cfg.
    cbn [c_eos c_incl c_norm c_ins c_del c_sub c_excl c_pad].
    rewrite nth_map_seq by exact Hk. cbn [Nat.add].
    destruct (k <? _)%nat; [|reflexivity]. apply spec_value_er_spec. exact E3.
  - set (rl := eff_len (c_eos c) (c_incl c) r).
    set (hl := eff_len (c_eos c) (c_incl c) h).
    set (out_len := (length h + (if c_excl c then 0 else 1))%nat) in *.
    assert (Hr : (rl <= length r)%nat) by apply eff_len_le.
    assert (Hh : (hl <= length h)%nat) by apply eff_len_le.
    rewrite gather_all_rm by exact Hr.
    rewrite (nth_map2 _ _ _ k 0%nat 0 (Lit 0)) by (rewrite ?seq_length, ?map_length, ?all_rm_length; lia).
    rewrite seq_nth by exact Hk. cbn [Nat.add].
    rewrite (nth_map_lt _ _ k ([], [])), all_rm_nth by (rewrite ?all_rm_length; lia).
    rewrite length_denote. fold hl.
    rewrite Nat.leb_antisym. destruct (k <? hl + (if c_excl c then 0 else 1))%nat eqn:E; cbn [negb]; [|reflexivity].
    apply Nat.ltb_lt in E. rewrite Nat.min_l by (unfold frozen; destruct (c_excl c); lia).
    assert (Hkh : (k <= hl)%nat) by (destruct (c_excl c); lia).
    destruct (ideal_cells (c_ins c) (c_del c) (c_sub c) r h k rl ltac:(lia) Hr) as [_ Hs].
    unfold rl in Hs at 1. rewrite firstn_eff_len in Hs.
    rewrite <- (firstn_firstn_le h k hl) in Hs by exact Hkh.
    unfold hl in Hs at 1. rewrite firstn_eff_len in Hs.
    apply normalise_er_spec; [symmetry; apply length_denote| |exact Hs].
    rewrite firstn_length, length_denote, Nat.min_l by (fold hl; lia). reflexivity.
Qed.

Theorem error_rate_nth c N ref hyp n :
  (n < N)%nat -> wf_tensor (c_bf c) N ref -> wf_tensor (c_bf c) N hyp ->
  nth n (error_rate c N ref hyp) (Lit 0)
  = pair_er c (seq_of (c_bf c) n ref) (seq_of (c_bf c) n hyp).
Proof.
  intros Hn Hr Hh. unfold error_rate.
  rewrite (nth_map2 _ _ _ n [] [] (Lit 0)) by (rewrite sequences_length; exact Hn).
  rewrite !sequences_nth by assumption. reflexivity.
Qed.

Lemma error_rate_length c N ref hyp : length (error_rate c N ref hyp) = N.
Proof. unfold error_rate. rewrite map2_length, !sequences_length. lia. Qed.

Theorem prefix_error_rates_nth c N ref hyp n k :
  (n < N)%nat -> wf_tensor (c_bf c) N ref -> wf_tensor (c_bf c) N hyp ->
  (k < time_len (c_bf c) hyp + (if c_excl c then 0 else 1))%nat ->
  entry (c_bf c) k n (prefix_error_rates c N ref hyp)
  = nth k (pair_prefix_er c (seq_of (c_bf c) n ref) (seq_of (c_bf c) n hyp)) (Lit 0).
Proof.
  intros Hn Hr Hh Hk. unfold prefix_error_rates. cbv zeta.
  rewrite hd_nth0, sequences_nth, (seq_of_length _ N) by (assumption || lia).
  now apply prefix_table_nth.
Qed.

Section Headline.
  Variable c : cfg.
  Variables (N : nat) (ref hyp : list (list Z)).
  Let bf := c_bf c.
  Let ci := c_ins c.
  Let cd := c_del c.
  Let cs := c_sub c.
  Let Rn n := denote (c_eos c) (c_incl c) (seq_of bf n ref).
  Let Hn n := denote (c_eos c) (c_incl c) (seq_of bf n hyp).
  Let out_len := (time_len bf hyp + (if c_excl c then 0 else 1))%nat.

  Theorem error_rate_spec n :
    (n < N)%nat -> wf_tensor bf N ref -> wf_tensor bf N hyp ->
    spec_er_val (c_norm c) ci cd cs (Rn n) (Hn n) (nth n (error_rate c N ref hyp) (Lit 0)).
  Proof.
    intros Hlt Hr Hh. subst bf. rewrite error_rate_nth by assumption. apply pair_er_correct.
  Qed.

  (* un-normalised: the count of a minimum-cost alignment *)
  Theorem error_rate_optimal_alignment n :
    (n < N)%nat -> wf_tensor bf N ref -> wf_tensor bf N hyp -> c_norm c = false ->
    exists m s,
      nth n (error_rate c N ref hyp) (Lit 0) = Cost m
      /\ transforms s (Rn n) (Hn n)
      /\ (forall s', transforms s' (Rn n) (Hn n) -> cost ci cd cs s <= cost ci cd cs s')
      /\ cost ci cd cs s = lev ci cd cs (Rn n) (Hn n)
      /\ edits s = m.
  Proof.
    intros Hlt Hr Hh Hnorm. pose proof (error_rate_spec n Hlt Hr Hh) as Hs.
    unfold spec_er_val in Hs. rewrite Hnorm in Hs. destruct Hs as [m [E [s [Hopt Ed]]]].
    exists m, s. destruct (proj1 (optimal_iff_lev _ _ _ _ _ _) Hopt) as [T C].
    destruct Hopt as [_ Hmin]. auto.
  Qed.

  Theorem error_rate_within_min_max n :
    (n < N)%nat -> wf_tensor bf N ref -> wf_tensor bf N hyp -> c_norm c = false ->
    exists m,
      nth n (error_rate c N ref hyp) (Lit 0) = Cost m
      /\ fewest_edits ci cd cs (Rn n) (Hn n) (min_opt_edits ci cd cs (Rn n) (Hn n))
      /\ most_edits ci cd cs (Rn n) (Hn n) (max_opt_edits ci cd cs (Rn n) (Hn n))
      /\ min_opt_edits ci cd cs (Rn n) (Hn n) <= m <= max_opt_edits ci cd cs (Rn n) (Hn n)
      /\ (forall lo hi, fewest_edits ci cd cs (Rn n) (Hn n) lo ->
                        most_edits ci cd cs (Rn n) (Hn n) hi -> lo <= m <= hi).
  Proof.
    intros Hlt Hr Hh Hnorm. pose proof (error_rate_spec n Hlt Hr Hh) as Hs.
    unfold spec_er_val in Hs. rewrite Hnorm in Hs. destruct Hs as [m [E Hm]].
    exists m. split; [exact E|]. split; [apply min_opt_edits_fewest|].
    split; [apply max_opt_edits_most|]. split; [apply er_spec_within_computed; exact Hm|].
    intros lo hi Hlo Hhi. apply (er_spec_within ci cd cs (Rn n) (Hn n)); assumption.
  Qed.

  Theorem error_rate_uniform_is_levenshtein n :
    (n < N)%nat -> wf_tensor bf N ref -> wf_tensor bf N hyp ->
    ci = cd -> cd = cs -> 0 < cs ->
    nth n (error_rate c N ref hyp) (Lit 0) = spec_value (c_norm c) 1 1 1 (Rn n) (Hn n).
  Proof.
    intros Hlt Hr Hh E1 E2 E3. subst bf. rewrite error_rate_nth by assumption.
    unfold pair_er. replace (uniform_costs (c_ins c) (c_del c) (c_sub c)) with true.
    - rewrite pair_ed_correct. reflexivity.
    - symmetry. unfold uniform_costs. subst ci cd cs. rewrite E1, E2, Z.eqb_refl.
      cbn [andb]. apply Z.ltb_lt. exact E3.
  Qed.

  Theorem error_rate_norm n :
    (n < N)%nat -> wf_tensor bf N ref -> wf_tensor bf N hyp -> c_norm c = true ->
    match length (Rn n) with
    | O => nth n (error_rate c N ref hyp) (Lit 0)
           = Lit (if (0 <? length (Hn n))%nat then 1 else 0)
    | S _ => exists m, nth n (error_rate c N ref hyp) (Lit 0) = Ratio m (length (Rn n))
                       /\ er_spec ci cd cs (Rn n) (Hn n) m
    end.
  Proof.
    intros Hlt Hr Hh Hnorm. pose proof (error_rate_spec n Hlt Hr Hh) as Hs.
    unfold spec_er_val in Hs. rewrite Hnorm in Hs. exact Hs.
  Qed.

  Theorem prefix_error_rates_correct n k :
    (n < N)%nat -> wf_tensor bf N ref -> wf_tensor bf N hyp -> (k < out_len)%nat ->
    let v := entry bf k n (prefix_error_rates c N ref hyp) in
    if (k <? length (Hn n) + (if c_excl c then 0 else 1))%nat
    then spec_er_val (c_norm c) ci cd cs (Rn n) (firstn k (Hn n)) v
    else v = Lit (c_pad c).
  Proof.
    intros Hlt Hr Hh Hk. cbv zeta. subst bf. rewrite prefix_error_rates_nth by assumption.
    apply pair_prefix_er_correct. rewrite (seq_of_length _ N) by assumption. exact Hk.
  Qed.
End Headline.

(* the boolean judgements of Spec.v used by the harness accept exactly the admitted values *)
Lemma existsb_opt_counts ci cd cs r h (f : Z -> bool) :
  existsb f (opt_counts ci cd cs r h) = true <-> exists m, er_spec ci cd cs r h m /\ f m = true.
Proof.
  rewrite existsb_exists. split; intros [m [H1 H2]]; exists m; split; try assumption;
    apply opt_counts_iff; assumption.
Qed.

Theorem spec_er_q_okb_iff norm ci cd cs r h q :
  spec_er_q_okb norm ci cd cs r h q = true <->
  exists v, spec_er_val norm ci cd cs r h v /\ match_val 1 v q = true.
Proof.
  unfold spec_er_q_okb, spec_er_val. destruct norm.
  - destruct (length r) eqn:EL.
    + split; [intros H; eexists; split; [reflexivity|exact H]|intros [v [-> H]]; exact H].
    + rewrite existsb_opt_counts. split.
      * intros [m [H1 H2]]. exists (Ratio m (S n)). split; [exists m; auto|exact H2].
      * intros [v [[m [-> H1]] H2]]. exists m. auto.
  - rewrite existsb_opt_counts. split.
    + intros [m [H1 H2]]. exists (Cost m). split; [exists m; auto|exact H2].
    + intros [v [[m [-> H1]] H2]]. exists m. auto.
Qed.
