(* C02 - the in-place sequential deletion loop of the `return_mistakes` branch of `_string_matching`,
     for ref_idx in range(1, max_ref_steps + 1):
         del_ = row[ref_idx - 1] + del_cost ; pick_sub = del_ >= row[ref_idx]
         row[ref_idx] = torch.where(pick_sub, row[ref_idx], del_)
         mistakes[ref_idx] = torch.where(pick_sub, mistakes[ref_idx], mistakes[ref_idx - 1] + 1.0)
   (the term is cut out of PV.Gen.C02Src.er_loop, regenerated from /repo on every run) interpreted on the two
   (R+1 x N) tables: after the iterations 1..j, in every column, the positions <= j hold TieMath.sw (deletion only
   when strictly cheaper, counted as one more mistake), the others are untouched ([swp]); nothing but ref_idx, del_,
   pick_sub, row, mistakes is written ([frame]).  Proof: induction over MiniPy.Lemmas.for_loop. *)
From Coq Require Import QArith List String Lia ZifyBool ZifyNat.
From PV Require Import MiniPy.Syntax MiniPy.Interp MiniPy.Lemmas MiniTorch.OpsC07 MiniTorch.LemmasC07 MiniTorch.OpsC01 MiniTorch.LemmasC01 MiniTorch.LemmasC02.
From PV Require Import Gen.C02Src C01.TieLib C01.TieMath C02.SrcRun C02.TieLib C02.TieMath.
Import ListNotations.
Local Open Scope string_scope.

#[local] Arguments Z.of_nat : simpl never.

Definition loop_body : stmt := match er_loop with SFor _ _ b => b | _ => SPass end.
Definition loop_iter : expr := match er_loop with SFor _ e _ => e | _ => EConst VNone end.
Lemma er_loop_eq : er_loop = SFor "hyp_idx" loop_iter loop_body. Proof. reflexivity. Qed.

Definition body_if : stmt := match seq_drop 6 loop_body with SSeq a _ => a | _ => SPass end.
Definition mist_branch : stmt := match body_if with SIf _ t _ => t | _ => SPass end.
Definition inner_loop : stmt := match seq_drop 6 mist_branch with SSeq a _ => a | _ => SPass end.
Definition inner_body : stmt := match inner_loop with SFor _ _ b => b | _ => SPass end.
Definition inner_iter : expr := match inner_loop with SFor _ e _ => e | _ => EConst VNone end.
Lemma inner_loop_eq : inner_loop = SFor "ref_idx" inner_iter inner_body. Proof. reflexivity. Qed.

Definition inner_ws : list string := ["ref_idx"; "del_"; "pick_sub"; "row"; "mistakes"].

Definition inner_pre (s : positive) (cd : Z) (R N : nat) (x m : nat -> nat -> Z) (j : nat) (st : state) : Prop :=
  lookup "del_cost" (vars st) = Some (VQ (qz s cd)) /\
  lookup "row" (vars st) =
    Some (enc_x (mkTn [S R; N] (tab2 (S R) N (fun i n => zf s (fst (swp cd (fun a => x a n) (fun a => m a n) j i)))))) /\
  lookup "mistakes" (vars st) =
    Some (enc_x (mkTn [S R; N] (tab2 (S R) N (fun i n => zf 1 (snd (swp cd (fun a => x a n) (fun a => m a n) j i)))))).

Lemma zrange_1 : forall n, zrange 1 (Z.of_nat n + 1) = map (fun i => VInt (1 + Z.of_nat i)) (seq 0 n).
Proof. intros n. unfold zrange. replace (Z.to_nat (Z.of_nat n + 1 - 1)) with n by lia. reflexivity. Qed.

Section Inner.
  Variables (s : positive) (cd : Z) (R N : nat) (x m : nat -> nat -> Z).
  Notation pre := (inner_pre s cd R N x m).

  Lemma inner_step : forall st j, (j < R)%nat -> pre j st ->
    runs_to (fun st' => pre (S j) st' /\ frame inner_ws st st')
            (exec ext02 inner_body (set_var "ref_idx" (VInt (Z.of_nat (S j))) st)).
  Proof.
    intros st j Hj (Hdc & Hrow & Hmist).
    pose proof (frame_refl inner_ws st) as F.
    unfold inner_body, inner_loop, mist_branch, body_if, loop_body, er_loop. cbn [seq_drop]. cbv iota.
    push_state.
    assert (Hidx : (Z.of_nat (S j) - 1)%Z = Z.of_nat j) by lia.
    assign ltac:(repeat (progress (evn; rewrite ?Hidx, ?select0_mat by lia)); reflexivity).
    assign ltac:(repeat (progress (evn; rewrite ?select0_mat by lia)); reflexivity).
    setitem_t ltac:(repeat (progress (evn; rewrite ?select0_mat by lia)); reflexivity)
              ltac:(repeat (progress (evn; rewrite ?set_select0_mat by lia)); reflexivity).
    setitem_t ltac:(repeat (progress (evn; rewrite ?Hidx, ?select0_mat by lia)); reflexivity)
              ltac:(repeat (progress (evn; rewrite ?set_select0_mat by lia)); reflexivity).
    apply runs_to_ok. split; [|match goal with F0 : frame _ _ _ |- _ => exact F0 end]. unfold inner_pre. split; [assumption|]. split.
    - match goal with L : lookup "row" _ = _ |- _ => rewrite L end. do 3 f_equal. apply tab2_ext. intros i n Hi Hn.
      rewrite fadd_zf_q, fge_zf. rewrite <- (swp_step_fst cd (fun a => x a n) (fun a => m a n) j i).
      destruct (i =? S j)%nat; [|reflexivity].
      match goal with |- context [if ?b then _ else _] => destruct b end; reflexivity.
    - match goal with L : lookup "mistakes" _ = _ |- _ => rewrite L end. do 3 f_equal. apply tab2_ext. intros i n Hi Hn.
      rewrite one_qz, !fadd_zf_q, fge_zf. rewrite <- (swp_step_snd cd (fun a => x a n) (fun a => m a n) j i).
      destruct (i =? S j)%nat; [|reflexivity].
      match goal with |- context [if ?b then _ else _] => destruct b end; reflexivity.
  Qed.

  Lemma inner_run : forall k a st, (a + k <= R)%nat -> pre a st ->
    runs_to (fun st' => pre (a + k) st' /\ frame inner_ws st st')
            (for_loop ext02 "ref_idx" inner_body (map (fun i => VInt (1 + Z.of_nat i)) (seq a k)) st).
  Proof.
    induction k as [|k IH]; intros a st Hak P.
    - apply runs_to_ok. rewrite Nat.add_0_r. split; [exact P|apply frame_refl].
    - rewrite <- cons_seq. cbn [map for_loop].
      replace (1 + Z.of_nat a)%Z with (Z.of_nat (S a)) by lia.
      destruct (inner_step st a ltac:(lia) P) as [st1 [He [P1 F1]]]. rewrite He. cbn [bind].
      destruct (IH (S a) st1 ltac:(lia) P1) as [st2 [He2 [P2 F2]]]. exists st2. split; [exact He2|].
      split; [|exact (frame_trans _ _ _ _ F1 F2)].
      replace (a + S k)%nat with (S a + k)%nat by lia. exact P2.
  Qed.

  (* the `for ref_idx in range(1, max_ref_steps + 1)` statement: the whole sweep, in every column *)
  Theorem inner_tie : forall st, pre 0 st -> lookup "max_ref_steps" (vars st) = Some (VInt (Z.of_nat R)) ->
    runs_to (fun st' => pre R st' /\ frame inner_ws st st') (exec ext02 inner_loop st).
  Proof.
    intros st P Hmax. rewrite inner_loop_eq, exec_for.
    assert (Hit : eval ext02 inner_iter st = Ok (VList (zrange 1 (Z.of_nat R + 1))) st).
    { unfold inner_iter, inner_loop, mist_branch, body_if, loop_body, er_loop. cbn [seq_drop]. cbv iota. ev. reflexivity. }
    rewrite Hit. cbn [bind iter_items container_items]. rewrite zrange_1.
    apply (inner_run R 0 st); [lia|exact P].
  Qed.
End Inner.

