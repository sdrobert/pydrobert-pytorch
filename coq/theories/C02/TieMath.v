(* C02 - the arithmetic behind the source tie, free of the interpreter: the two tables of PV.C02.Model
   ([body] = candidates + [del_sweep], [step_rm]) by index.  [cx] / [cm] are entry i of the cost row / the
   mistakes row after the substitution-or-insertion choice (`pick_sub = row[1:] >= sub_row`: substitution wins
   ties), [sw] the in-place sequential deletion loop (`for ref_idx ..: del_ >= row[ref_idx]`: deletion only when
   strictly cheaper) as a recursion over the index. *)
From Coq Require Import QArith List Lia ZifyBool ZifyNat.
From PV Require Import MiniTorch.OpsC01 MiniTorch.LemmasC01 MiniTorch.OpsC02 MiniTorch.LemmasC02.
From PV Require Import C01.TieMath.
From PV Require C02.ProofsModel.
Import ListNotations.
Local Open Scope Z_scope.

(* (row[i], mistakes[i]) after the loop has passed position i; x / m: the two rows before the loop *)
Fixpoint sw (cd : Z) (x m : nat -> Z) (i : nat) : Z * Z :=
  match i with
  | O => (x 0%nat, m 0%nat)
  | S i' =>
      let d := fst (sw cd x m i') + cd in
      if x (S i') <=? d then (x (S i'), m (S i')) else (d, snd (sw cd x m i') + 1)
  end.

Lemma sw_ext : forall cd x m x' m' i, (forall j, (j <= i)%nat -> x j = x' j) -> (forall j, (j <= i)%nat -> m j = m' j) ->
  sw cd x m i = sw cd x' m' i.
Proof.
  intros cd x m x' m' i. induction i as [|i IH]; intros Hx Hm; cbn [sw].
  - now rewrite Hx, Hm by lia.
  - rewrite IH by (intros; (apply Hx || apply Hm); lia). now rewrite (Hx (S i)), (Hm (S i)) by lia.
Qed.

Lemma del_loop_sw : forall cd x m n a,
  Model.del_loop cd (fst (sw cd x m a)) (snd (sw cd x m a)) (map x (seq (S a) n)) (map m (seq (S a) n)) =
  (map (fun i => fst (sw cd x m i)) (seq (S a) n), map (fun i => snd (sw cd x m i)) (seq (S a) n)).
Proof.
  intros cd x m n. induction n as [|n IH]; intros a; [reflexivity|].
  specialize (IH (S a)). cbn [seq map Model.del_loop sw] in *. cbv zeta in *.
  destruct (x (S a) <=? fst (sw cd x m a) + cd); cbn [fst snd] in *; rewrite IH; reflexivity.
Qed.

Lemma del_sweep_sw : forall cd x m n,
  Model.del_sweep cd (map x (seq 0 (S n))) (map m (seq 0 (S n))) =
  (map (fun i => fst (sw cd x m i)) (seq 0 (S n)), map (fun i => snd (sw cd x m i)) (seq 0 (S n))).
Proof.
  intros cd x m n. unfold Model.del_sweep. cbn [seq map].
  change (x 0%nat) with (fst (sw cd x m 0)). change (m 0%nat) with (snd (sw cd x m 0)).
  rewrite del_loop_sw. reflexivity.
Qed.

(* floats: the cost row over the denominator s, the mistakes row over 1 *)
Lemma b2f_zf1 : forall b : bool, b2f b = zf 1 (if b then 1 else 0).
Proof. intros []; unfold b2f, zf; rewrite qz_1; reflexivity. Qed.

Lemma fge_zf : forall s a b, fge (zf s a) (zf s b) = (b <=? a).
Proof. intros. unfold zf. apply fge_qz. Qed.

Lemma fadd_zf_q : forall s a b, fadd (zf s a) (Fq (qz s b)) = zf s (a + b).
Proof. intros. apply fadd_zf. Qed.

Lemma one_qz : (1 # 1)%Q = qz 1 1.
Proof. reflexivity. Qed.

Section Step.
  Variables (ci cd cs : Z) (R H : nat).
  Variables (rcol hcol lcol mcol : nat -> Z) (hlen k : nat).

  Let r := map rcol (seq 0 R).
  Let h := map hcol (seq 0 H).
  Let last := map lcol (seq 0 (S R)).
  Let lastm := map mcol (seq 0 (S R)).

  Definition im : Z := if (k <=? hlen)%nat then 1 else 0.                      (* ins_mask *)
  Definition ne (j : nat) : Z := if rcol j =? hcol (k - 1)%nat then 0 else 1.  (* neq_mask *)

  (* row / mistakes after `row[1:] = where(pick_sub, sub_row, row[1:])`, `mistakes[1:] = where(pick_sub, msub_row, ..)` *)
  Definition cx (i : nat) : Z :=
    match i with
    | O => lcol 0%nat + ci * im
    | S i' => if lcol i' + cs * ne i' <=? lcol (S i') + ci * im then lcol i' + cs * ne i' else lcol (S i') + ci * im
    end.
  Definition cm (i : nat) : Z :=
    match i with
    | O => mcol 0%nat + im
    | S i' => if lcol i' + cs * ne i' <=? lcol (S i') + ci * im then mcol i' + ne i' else mcol (S i') + im
    end.

  (* the float expressions the interpreted body leaves at entry i of the two tables before the deletion loop *)
  Lemma zf_if : forall s (b : bool) u v, (if b then zf s u else zf s v) = zf s (if b then u else v).
  Proof. intros s [] u v; reflexivity. Qed.

  Lemma cx_src : forall s i,
    match i with
    | O => fadd (zf s (lcol 0%nat)) (fmul (Fq (qz s ci)) (b2f (Z.of_nat hlen >=? Z.of_nat k)%Z))
    | S i' =>
        if fge (fadd (zf s (lcol (S i'))) (fmul (Fq (qz s ci)) (b2f (Z.of_nat hlen >=? Z.of_nat k)%Z)))
               (fadd (zf s (lcol i')) (fmul (Fq (qz s cs)) (b2f (negb (rcol i' =? hcol (k - 1)%nat)%Z))))
        then fadd (zf s (lcol i')) (fmul (Fq (qz s cs)) (b2f (negb (rcol i' =? hcol (k - 1)%nat)%Z)))
        else fadd (zf s (lcol (S i'))) (fmul (Fq (qz s ci)) (b2f (Z.of_nat hlen >=? Z.of_nat k)%Z))
    end = zf s (cx i).
  Proof.
    intros s i. unfold cx, im, ne.
    replace (Z.of_nat hlen >=? Z.of_nat k)%Z with (k <=? hlen)%nat by lia.
    destruct i as [|i']; rewrite !fmul_zf_b2f, !fadd_zf, ?fge_zf, ?zf_if; [reflexivity|].
    destruct (rcol i' =? hcol (k - 1)%nat); reflexivity.
  Qed.

  Lemma cm_src : forall s i,
    match i with
    | O => fadd (zf 1 (mcol 0%nat)) (b2f (Z.of_nat hlen >=? Z.of_nat k)%Z)
    | S i' =>
        if fge (fadd (zf s (lcol (S i'))) (fmul (Fq (qz s ci)) (b2f (Z.of_nat hlen >=? Z.of_nat k)%Z)))
               (fadd (zf s (lcol i')) (fmul (Fq (qz s cs)) (b2f (negb (rcol i' =? hcol (k - 1)%nat)%Z))))
        then fadd (zf 1 (mcol i')) (b2f (negb (rcol i' =? hcol (k - 1)%nat)%Z))
        else fadd (zf 1 (mcol (S i'))) (b2f (Z.of_nat hlen >=? Z.of_nat k)%Z)
    end = zf 1 (cm i).
  Proof.
    intros s i. unfold cm, im, ne.
    replace (Z.of_nat hlen >=? Z.of_nat k)%Z with (k <=? hlen)%nat by lia.
    destruct i as [|i']; rewrite ?fmul_zf_b2f, !b2f_zf1, !fadd_zf, ?fge_zf, ?zf_if; [reflexivity|].
    destruct (rcol i' =? hcol (k - 1)%nat); reflexivity.
  Qed.

  Hypothesis Hk : (1 <= k <= H)%nat.

  Lemma body_lists :
    Model.body ci cd cs r (nth (k - 1) h 0) im (last, lastm) =
    (map (fun i => fst (sw cd cx cm i)) (seq 0 (S R)), map (fun i => snd (sw cd cx cm i)) (seq 0 (S R))).
  Proof.
    unfold Model.body, h. cbv zeta. rewrite Proofs.nth_map_seq by lia. cbn [Nat.add].
    unfold last, lastm, r. rewrite !map_map, !ProofsModel.removelast_tab, !ProofsModel.tl_tab, !ProofsModel.map2_tab, !ProofsModel.where3_tab.
    rewrite <- (del_sweep_sw cd cx cm R), <- (ProofsModel.cons_tab cx), <- (ProofsModel.cons_tab cm). reflexivity.
  Qed.

  (* frozen columns (k - 1 >= hlen) keep both tables *)
  Lemma step_rm_lists :
    Model.step_rm ci cd cs r h hlen false k (last, lastm) =
    (map (fun i => if (k - 1 <? hlen)%nat then fst (sw cd cx cm i) else lcol i) (seq 0 (S R)),
     map (fun i => if (k - 1 <? hlen)%nat then snd (sw cd cx cm i) else mcol i) (seq 0 (S R))).
  Proof. unfold Model.step_rm. cbv zeta. fold im. destruct (k - 1 <? hlen)%nat; [apply body_lists|reflexivity]. Qed.
End Step.

Fixpoint iter_rm (ci cd cs : Z) (r h : list Z) (hlen : nat) (fuel k : nat) (st : list Z * list Z) : list Z * list Z :=
  match fuel with
  | O => st
  | S f => iter_rm ci cd cs r h hlen f (S k) (Model.step_rm ci cd cs r h hlen false k st)
  end.

Lemma iter_rm_loop : forall ci cd cs r h hlen fuel k st,
  iter_rm ci cd cs r h hlen fuel k st = List.last (Model.rm_loop ci cd cs r h hlen false fuel k st) st.
Proof.
  intros ci cd cs r h hlen fuel. induction fuel as [|f IH]; intros k st; [reflexivity|].
  cbn [iter_rm Model.rm_loop]. rewrite IH, last_cons. reflexivity.
Qed.

Lemma iter_rm_all : forall ci cd cs r h hlen steps,
  iter_rm ci cd cs r h hlen steps 1 (Model.state0 cd r) = List.last (Model.all_rm ci cd cs r h hlen false steps) ([], []).
Proof. intros. rewrite iter_rm_loop. unfold Model.all_rm. now rewrite last_cons. Qed.

(* the deletion loop after it has passed position j: positions <= j updated, the others as before *)
Definition swp (cd : Z) (x m : nat -> Z) (j i : nat) : Z * Z :=
  if (i <=? j)%nat then sw cd x m i else (x i, m i).

Lemma swp_0 : forall cd x m i, swp cd x m 0 i = (x i, m i).
Proof. intros. unfold swp. destruct i; reflexivity. Qed.

Lemma swp_full : forall cd x m j i, (i <= j)%nat -> swp cd x m j i = sw cd x m i.
Proof. intros. unfold swp. now replace (i <=? j)%nat with true by lia. Qed.

Lemma swp_step_fst : forall cd x m j i,
  (if (i =? S j)%nat
   then (if fst (swp cd x m j (S j)) <=? fst (swp cd x m j j) + cd then fst (swp cd x m j (S j)) else fst (swp cd x m j j) + cd)
   else fst (swp cd x m j i)) = fst (swp cd x m (S j) i).
Proof.
  intros. unfold swp. rewrite Nat.leb_refl. replace (S j <=? j)%nat with false by lia. cbn [fst].
  destruct (Nat.eqb_spec i (S j)) as [->|Hne].
  - rewrite Nat.leb_refl. cbn [sw]. cbv zeta. destruct (x (S j) <=? fst (sw cd x m j) + cd); reflexivity.
  - destruct (i <=? j)%nat eqn:E1, (i <=? S j)%nat eqn:E2; try reflexivity; lia.
Qed.

Lemma swp_step_snd : forall cd x m j i,
  (if (i =? S j)%nat
   then (if fst (swp cd x m j (S j)) <=? fst (swp cd x m j j) + cd then snd (swp cd x m j (S j)) else snd (swp cd x m j j) + 1)
   else snd (swp cd x m j i)) = snd (swp cd x m (S j) i).
Proof.
  intros. unfold swp. rewrite Nat.leb_refl. replace (S j <=? j)%nat with false by lia. cbn [fst snd].
  destruct (Nat.eqb_spec i (S j)) as [->|Hne].
  - rewrite Nat.leb_refl. cbn [sw]. cbv zeta. destruct (x (S j) <=? fst (sw cd x m j) + cd); reflexivity.
  - destruct (i <=? j)%nat eqn:E1, (i <=? S j)%nat eqn:E2; try reflexivity; lia.
Qed.
