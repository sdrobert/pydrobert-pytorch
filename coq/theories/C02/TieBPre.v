(* C02, second source tie - the block Gen.C02BSrc.mer_pre of `minimum_error_rate_loss` (the rank checks; per layout: the
   sizes taken from hyp.shape, the expansion of a 2-D reference by unsqueeze + repeat, the two shape checks,
   max_ref_steps, the flattening of ref and hyp by reshape), run symbolically on the arguments of a call, for every
   batch size N, number of samples M (also 0 and 1), widths R, H <> 0 and both layouts: it ends normally in the state
   [pre_vars] - ref / hyp replaced by the flattened (N*M x T | T x N*M) tensors over the SAME row-major data (for a 2-D
   reference: the data of Model.expand_ref), batch_size = N, samples = M. *)
From Coq Require Import QArith List String.
From PV Require Import MiniPy.Syntax MiniPy.Interp MiniTorch.OpsC07 MiniTorch.OpsC01 MiniTorch.LemmasC01 MiniTorch.OpsC02B MiniTorch.LemmasC02B.
From PV Require Import Gen.C02BSrc C01.TieLib C02.SrcRun C02.SrcRunB C02.TieBLib.
Import ListNotations.
Local Open Scope string_scope.

#[local] Arguments extB : simpl never.
#[local] Arguments repeat3 : simpl never.

(* the arguments of a call, the tensors given as they are, in front of the variables [tl] *)
Definition arg_vars (lp : tn fx) (ref hyp : tn Z) (bf : bool) (veos vincl vsub vnorm vi vd vs vred vwarn : val)
  (tl : list (string * val)) : list (string * val) :=
  ("log_probs", enc_x lp) :: ("ref", enc_i ref) :: ("hyp", enc_i hyp) :: ("eos", veos) :: ("include_eos", vincl) :: ("sub_avg", vsub) ::
  ("batch_first", VBool bf) :: ("norm", vnorm) :: ("ins_cost", vi) :: ("del_cost", vd) :: ("sub_cost", vs) :: ("reduction", vred) ::
  ("warn", vwarn) :: tl.

Definition call_vars (lp : tn fx) (ref hyp : tn Z) (bf : bool) (veos vincl vsub vnorm vi vd vs vred vwarn : val) : list (string * val) :=
  arg_vars lp ref hyp bf veos vincl vsub vnorm vi vd vs vred vwarn globals02.

Definition flat_shape (bf : bool) (K T : nat) : list nat := if bf then [K; T] else [T; K].
Definition shape3 (bf : bool) (N M T : nat) : list nat := if bf then [N; M; T] else [T; N; M].

Definition nat_v (n : nat) : val := VInt (Z.of_nat n).

(* the sizes taken from hyp.shape, as the assignments of the layout's branch leave them in the variables [tl] *)
Definition size_upd (bf : bool) (N M H : nat) (tl : list (string * val)) : list (string * val) :=
  if bf
  then update "max_hyp_steps" (nat_v H) (update "samples" (nat_v M) (update "batch_size" (nat_v N)
         (update "$t1" (VTuple [nat_v N; nat_v M; nat_v H]) tl)))
  else update "samples" (nat_v M) (update "batch_size" (nat_v N) (update "max_hyp_steps" (nat_v H)
         (update "$t2" (VTuple [nat_v H; nat_v N; nat_v M]) tl))).

Definition pre_vars (lp : tn fx) (ref hyp : tn Z) (bf : bool) (N M R H : nat)
  (veos vincl vsub vnorm vi vd vs vred vwarn : val) : list (string * val) :=
  arg_vars lp ref hyp bf veos vincl vsub vnorm vi vd vs vred vwarn (update "max_ref_steps" (nat_v R) (size_upd bf N M H globals02)).

Lemma size_samples bf N M R H tl : lookup "samples" (update "max_ref_steps" (nat_v R) (size_upd bf N M H tl)) = Some (nat_v M).
Proof. destruct bf; cbn [size_upd]; now rewrite !lookup_update. Qed.
Lemma size_batch bf N M R H tl : lookup "batch_size" (update "max_ref_steps" (nat_v R) (size_upd bf N M H tl)) = Some (nat_v N).
Proof. destruct bf; cbn [size_upd]; now rewrite !lookup_update. Qed.

Lemma unsqueeze_2_1 : forall {X} A B (d : list X), OpsC07.unsqueeze (mkTn [A; B] d) 1 = Some (mkTn [A; 1%nat; B] d).
Proof. reflexivity. Qed.

(* the branch of `if batch_first:` for a layout *)
Definition pre_layout (bf : bool) : stmt := match seq_drop 3 mer_pre with SIf _ a b => if bf then a else b | _ => SPass end.

Section Pre.
  Variable w : list (list Q).
  Variables (N M R H : nat) (lpx : list fx).
  Variables (veos vincl vsub vnorm vi vd vs vred vwarn : val).
  Hypothesis HR : R <> 0%nat.
  Hypothesis HH : H <> 0%nat.

  (* the block reads and writes log_probs, ref, hyp and, among the other variables [tl], batch_first and what it adds *)
  Notation pre_st ref hyp tl := (mkState (("log_probs", enc_x (mkTn [N; M] lpx)) :: ("ref", enc_i ref) :: ("hyp", enc_i hyp) :: tl) []).

  (* the three rank checks and the test of batch_first *)
  Lemma pre_checks : forall bf rsh dr hsh dh tl, lookup "batch_first" tl = Some (VBool bf) ->
    List.length hsh = 3%nat -> List.length rsh = 2%nat \/ List.length rsh = 3%nat ->
    exec (extB w) mer_pre (pre_st (mkTn rsh dr) (mkTn hsh dh) tl) = exec (extB w) (pre_layout bf) (pre_st (mkTn rsh dr) (mkTn hsh dh) tl).
  Proof.
    intros bf rsh dr hsh dh tl Hbf Hh Hr. unfold pre_layout, mer_pre. cbn [seq_drop].
    stepB ltac:(evB; reflexivity). rewrite exec_seq_pass.
    stepB ltac:(evB; rewrite Hh; reflexivity). rewrite exec_seq_pass.
    stepB ltac:(evB; destruct Hr as [-> | ->]; reflexivity). rewrite exec_seq_pass.
    erewrite exec_if_ok by (evB; rewrite Hbf; reflexivity). now destruct bf.
  Qed.

  Lemma pre_sizes : forall bf ref dh tl,
    exec (extB w) (pre_layout bf) (pre_st ref (mkTn (shape3 bf N M H) dh) tl) =
    exec (extB w) (seq_drop 1 (pre_layout bf)) (pre_st ref (mkTn (shape3 bf N M H) dh) (size_upd bf N M H tl)).
  Proof.
    intros bf ref dh tl. unfold pre_layout, mer_pre, nat_v.
    destruct bf; cbn [seq_drop shape3 size_upd]; do 7 stepB ltac:(repeat (progress (evB; rewrite ?lookup_update)); reflexivity); reflexivity.
  Qed.

  (* `if ref.dim() == 2:` the expansion of a 2-D reference (batch_first: N rows of width R; else R rows of width N) *)
  Lemma pre_expand_2 : forall (bf : bool) (m : list (list Z)) hyp tl, List.length m = (if bf then N else R) -> rectw (if bf then R else N) m ->
    lookup "samples" tl = Some (nat_v M) ->
    exec (extB w) (seq_drop 1 (pre_layout bf)) (pre_st (mkTn (flat_shape bf N R) (List.concat m)) hyp tl) =
    exec (extB w) (seq_drop 2 (pre_layout bf))
      (pre_st (mkTn (shape3 bf N M R)
                    (List.concat (List.concat (C02.Model.expand_ref bf M m))))
         hyp tl).
  Proof.
    intros bf m hyp tl HL Hm Hs. unfold pre_layout, mer_pre, nat_v in *.
    destruct bf; cbn [seq_drop shape3 flat_shape C02.Model.expand_ref]; stepB ltac:(evB; reflexivity).
    - stepB ltac:(repeat (progress (evB; rewrite ?Hs, ?unsqueeze_2_1)); rewrite (repeat3_rows N R M m HL Hm); reflexivity). reflexivity.
    - stepB ltac:(repeat (progress (evB; rewrite ?Hs, ?unsqueeze_2_m1)); rewrite (repeat3_entries R N M m HL Hm); reflexivity). reflexivity.
  Qed.

  Lemma pre_expand_3 : forall bf rsh dr hyp tl, List.length rsh = 3%nat ->
    exec (extB w) (seq_drop 1 (pre_layout bf)) (pre_st (mkTn rsh dr) hyp tl) =
    exec (extB w) (seq_drop 2 (pre_layout bf)) (pre_st (mkTn rsh dr) hyp tl).
  Proof.
    intros bf rsh dr hyp tl Hr. unfold pre_layout, mer_pre.
    destruct bf; cbn [seq_drop]; stepB ltac:(evB; rewrite Hr; reflexivity); now rewrite exec_seq_pass.
  Qed.

  (* the two shape checks, max_ref_steps, the flattening of ref and hyp *)
  Lemma pre_flatten : forall bf dr dh tl,
    lookup "batch_size" tl = Some (nat_v N) -> lookup "samples" tl = Some (nat_v M) -> lookup "max_hyp_steps" tl = Some (nat_v H) ->
    exec (extB w) (seq_drop 2 (pre_layout bf)) (pre_st (mkTn (shape3 bf N M R) dr) (mkTn (shape3 bf N M H) dh) tl) =
    Ok CNormal (pre_st (mkTn (flat_shape bf (N * M) R) dr) (mkTn (flat_shape bf (N * M) H) dh) (update "max_ref_steps" (nat_v R) tl)).
  Proof.
    intros bf dr dh tl Hb Hs Hh. unfold pre_layout, mer_pre, nat_v in *.
    destruct bf; cbn [seq_drop shape3 flat_shape];
      (stepB ltac:(repeat (progress (evB; rewrite ?Hb, ?Hs, ?Z.eqb_refl)); reflexivity); rewrite exec_seq_pass;
       stepB ltac:(evB; reflexivity);
       stepB ltac:(repeat (progress (evB; rewrite ?lookup_update)); rewrite ?view_3_tail, ?view_3_head by assumption; reflexivity);
       erewrite exec_assign_ok
         by (repeat (progress (evB; rewrite ?lookup_update, ?Hh)); rewrite ?view_3_tail, ?view_3_head by assumption; reflexivity);
       reflexivity).
  Qed.

  Notation call_st bf ref hyp :=
    (mkState (call_vars (mkTn [N; M] lpx) ref hyp bf veos vincl vsub vnorm vi vd vs vred vwarn) []).
  Notation end_st bf ref hyp :=
    (mkState (pre_vars (mkTn [N; M] lpx) ref hyp bf N M R H veos vincl vsub vnorm vi vd vs vred vwarn) []).

  (* the whole block on a 3-D reference, and on a 2-D one (batch_first: N rows of width R; else R rows of width N) *)
  Lemma pre_run_3 : forall bf dr dh,
    exec (extB w) mer_pre (call_st bf (mkTn (shape3 bf N M R) dr) (mkTn (shape3 bf N M H) dh)) =
    Ok CNormal (end_st bf (mkTn (flat_shape bf (N * M) R) dr) (mkTn (flat_shape bf (N * M) H) dh)).
  Proof.
    intros bf dr dh. unfold call_vars, pre_vars, arg_vars.
    rewrite pre_checks with (bf := bf), pre_sizes, pre_expand_3 by (destruct bf; auto).
    rewrite pre_flatten by (destruct bf; cbn [size_upd]; now rewrite !lookup_update). now destruct bf.
  Qed.

  Lemma pre_run_2 : forall (bf : bool) (m : list (list Z)) dh, List.length m = (if bf then N else R) -> rectw (if bf then R else N) m ->
    exec (extB w) mer_pre (call_st bf (mkTn (flat_shape bf N R) (List.concat m)) (mkTn (shape3 bf N M H) dh)) =
    Ok CNormal (end_st bf (mkTn (flat_shape bf (N * M) R) (List.concat (List.concat (C02.Model.expand_ref bf M m))))
                  (mkTn (flat_shape bf (N * M) H) dh)).
  Proof.
    intros bf m dh HL Hm. unfold call_vars, pre_vars, arg_vars.
    rewrite pre_checks with (bf := bf), pre_sizes, (pre_expand_2 bf m _ _ HL Hm)
      by (destruct bf; cbn [size_upd]; auto; now rewrite !lookup_update).
    rewrite pre_flatten by (destruct bf; cbn [size_upd]; now rewrite !lookup_update). now destruct bf.
  Qed.
End Pre.
