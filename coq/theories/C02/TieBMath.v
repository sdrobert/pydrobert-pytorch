(* C02, second source tie - arithmetic (no interpreter here): the float elements [fx] the interpreted
   `minimum_error_rate_loss` computes with are the rationals of Model.mer_loss in lowest terms ([qfx]); the tensor
   TieBTail.loss_t built from what the interpreted `error_rate` returns IS the tensor of Model.mer_loss, for both
   layouts, 2-D / 3-D references, sub_avg and the three reductions (through ProofsMer.er_view / mer_loss_formula). *)
From Coq Require Import ZArith QArith Qreduction List Bool Arith Lia.
From PV Require Import MiniTorch.Ops MiniTorch.OpsC07 MiniTorch.LemmasC07 MiniTorch.OpsC01 MiniTorch.LemmasC01 MiniTorch.OpsC02B
  MiniTorch.LemmasC02B.
From PV Require Import C01.Obs C01.Model C01.Proofs C01.TieMath C02.Model C02.ProofsModel C02.ProofsMer C02.TieWhole C02.SrcRunB C02.TieBTail.
Import ListNotations.

(* floats that are rationals in lowest terms *)
Lemma qfx_eq : forall a b, a == b -> qfx a = qfx b.
Proof. intros a b H. unfold qfx. f_equal. now apply Qred_complete. Qed.

Lemma fadd_qfx : forall a b, fadd (qfx a) (qfx b) = qfx (a + b).
Proof. intros. unfold fadd, qfx. f_equal. apply Qred_complete. now rewrite !Qred_correct. Qed.

Lemma fsub_qfx : forall a b, fsub (qfx a) (qfx b) = qfx (a - b).
Proof. intros. unfold fsub, qfx. f_equal. apply Qred_complete. now rewrite !Qred_correct. Qed.

Lemma fmul_qfx : forall a b, fmul (qfx a) (qfx b) = qfx (a * b).
Proof. intros. unfold fmul, qfx. f_equal. apply Qred_complete. now rewrite !Qred_correct. Qed.

Lemma fdiv_qfx_nat : forall a n, n <> 0%nat -> fdiv (qfx a) (z2f (Z.of_nat n)) = qfx (a / (Z.of_nat n # 1)).
Proof.
  intros a n Hn. unfold fdiv, qfx, z2f, inject_Z.
  replace (Qeq_bool (Z.of_nat n # 1) 0) with false.
  - f_equal. apply Qred_complete. now rewrite Qred_correct.
  - symmetry. apply not_true_is_false. intros E. apply Qeq_bool_eq in E. unfold Qeq in E. cbn [Qnum Qden] in E. lia.
Qed.

Lemma fsum_qfx : forall l, fsum (map qfx l) = qfx (qsum l).
Proof.
  induction l as [|a l IH]; [reflexivity|].
  cbn [map]. unfold fsum in *. cbn [fold_right]. rewrite IH, fadd_qfx. reflexivity.
Qed.

Lemma qsum_app : forall l1 l2, qsum (l1 ++ l2) == qsum l1 + qsum l2.
Proof.
  induction l1 as [|a l1 IH]; intros l2; cbn [app qsum fold_right].
  - now rewrite Qplus_0_l.
  - fold (qsum (l1 ++ l2)). fold (qsum l1). rewrite IH. now rewrite Qplus_assoc.
Qed.

Lemma qsum_concat : forall ll, qsum (concat ll) == qsum (map qsum ll).
Proof.
  induction ll as [|l ll IH]; [reflexivity|].
  cbn [concat map]. rewrite qsum_app. cbn [qsum fold_right]. fold (qsum (map qsum ll)). now rewrite IH.
Qed.

Lemma val_fx_qfx : forall v, val_fx 1 v = qfx (val_q v).
Proof.
  intros [m|m d|z]; cbn [val_fx val_q]; unfold zf, qfx.
  - reflexivity.
  - f_equal. apply Qred_complete. unfold qz. now rewrite Qred_correct.
  - unfold z2f. f_equal. rewrite <- (qz_1 z). reflexivity.
Qed.

(* Model.chunks is OpsC02B.split_rows *)
Lemma chunks_split_rows : forall {A} M N (l : list A), chunks M N l = split_rows M N l.
Proof. intros A M N. induction N as [|N IH]; intros l; [reflexivity|]. cbn [chunks split_rows]. now rewrite IH. Qed.

Lemma concat_rows_tab2 : forall {X} N M (f : nat -> nat -> X),
  concat (map (fun n => map (f n) (seq 0 M)) (seq 0 N)) = tab2 N M f.
Proof. intros. unfold tab2. now rewrite flat_map_concat_map. Qed.

Definition mres_tensor (N M : nat) (r : mres) : tn fx :=
  match r with
  | MMat rows => mkTn [N; M] (map qfx (concat rows))
  | MScalar q => mkTn [] [qfx q]
  | MErr => mkTn [] []
  end.

Section Mer.
  Variable c : cfg.
  Variable sub_avg : bool.
  Variables N M : nat.
  Variable w : list (list Q).
  Variable ref : list (list Z) + list (list (list Z)).
  Variable hyp : list (list (list Z)).
  Notation bf := (c_bf c).
  Hypothesis HN : (0 < N)%nat.
  Hypothesis HM : (2 <= M)%nat.
  Hypothesis Hhyp : wf3 bf N M hyp.
  Hypothesis Href : wf_ref bf N M ref.
  Hypothesis Hw : wf_w N M w.

  (* what the interpreted error_rate returns, entry n*M + m = the error rate of sample m of batch element n *)
  Definition e_src (n m : nat) : fx := qfx (er_nm c ref hyp n m).

  Lemma er_flat :
    map (val_fx 1) (error_rate c (N * M) (flatten3 bf (ref3_of bf M ref)) (flatten3 bf hyp)) = tab2 N M e_src.
  Proof.
    rewrite (map_ext (val_fx 1) (fun v => qfx (val_q v))) by apply val_fx_qfx.
    rewrite <- map_map.
    rewrite <- (concat_split_rows M N (map val_q _)) by (now rewrite map_length, error_rate_length).
    rewrite <- chunks_split_rows, (er_view c N M ref hyp HM Hhyp Href).
    rewrite concat_rows_tab2, map_tab2. reflexivity.
  Qed.

  Lemma e_sub_model : forall n m,
    e_sub M sub_avg e_src n m = qfx (if sub_avg then er_nm c ref hyp n m - mu_n c M ref hyp n else er_nm c ref hyp n m).
  Proof.
    intros n m. unfold e_sub, e_src. destruct sub_avg; [|reflexivity].
    rewrite <- (map_map (er_nm c ref hyp n) qfx), fsum_qfx, fdiv_qfx_nat by lia. rewrite fsub_qfx. reflexivity.
  Qed.

  Lemma l_w_model : forall n m, l_w w (e_sub M sub_avg e_src) n m = qfx (loss_nm c sub_avg M w ref hyp n m).
  Proof. intros n m. unfold l_w. rewrite e_sub_model, fmul_qfx. reflexivity. Qed.

  Lemma loss_data : tab2 N M (l_w w (e_sub M sub_avg e_src)) = map qfx (concat (loss_mat c sub_avg N M w ref hyp)).
  Proof.
    unfold loss_mat. rewrite concat_rows_tab2, map_tab2. apply tab2_ext. intros n m _ _. apply l_w_model.
  Qed.

  Theorem loss_t_is_model : forall red,
    loss_t w N M sub_avg red e_src = mres_tensor N M (mer_loss c sub_avg red N M w ref hyp).
  Proof.
    intros red. rewrite (mer_loss_formula c sub_avg N M w ref hyp HM Hhyp Href Hw red).
    unfold loss_t. rewrite loss_data. destruct red; cbn [mres_tensor].
    - unfold mean_all. cbn [shp dat]. rewrite fsum_qfx, numel_2, fdiv_qfx_nat by nia. do 2 f_equal.
      apply qfx_eq. now rewrite qsum_concat.
    - unfold sum_all. cbn [dat]. rewrite fsum_qfx. do 2 f_equal. apply qfx_eq. apply qsum_concat.
    - reflexivity.
  Qed.
End Mer.
