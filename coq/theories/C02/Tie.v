(* C02 - the source tie of `_string_matching` (src/pydrobert/torch/_string.py) for the call `error_rate` / `ErrorRate`
   make (return_mistakes = True, return_mask = return_prf_dsts = exclude_last = False), checked by the kernel.
   PV.Gen.C02Src.{er_pre, er_row0, er_main, er_fin, er_loop, er_lens, er_body, er_wrap} are the MiniPy terms
   harness/py2coq/translate.py regenerates from /repo on every C02 run; PV.MiniPy.Interp is their semantics; the torch
   calls mean what PV.MiniTorch.OpsC01 / OpsC02 / OpsC07 say (through SrcRun.ext02).  Statements, for EVERY batch size,
   tensor widths, token values, lengths, eos / include_eos / norm / batch_first / warn setting and costs (integers ci cd
   cs over any common denominator s, i.e. the floats c / s - uniform or not, also zero or negative):

     loop_body_is_step_rm      one execution of the loop body = Model.step_rm in every column: both tables (TieLoop.body_run)
     loop_is_rm_loop           the whole `for hyp_idx` loop = the iteration of step_rm (TieLoop.loop_tie)
     error_rate_is_model       the blocks er_pre; er_row0; er_main; er_fin run in sequence on the arguments of the call
                               return the tensor of Model.error_rate (Cost m -> m, Ratio m d -> m / d, Lit z -> z)
     string_matching_is_model  the same for the whole body as ONE term (er_body)
     error_rate_wrapper_is_model  the same for the body of `error_rate` itself (er_wrap), whose call of `_string_matching`
                               binds the parameters in Python's way and runs er_body (SrcRun.ext02w)
     error_rate_counts_optimal_alignment   composed with ProofsModel.error_rate_optimal_alignment: without norm, entry n
                               is the number of edits of a minimum-cost alignment of the two sequences cut at their first eos

   If the source is edited so that one of these stops being true, this development stops compiling and the C02 check
   reports the broken obligation.  The files: TieLib (tactics, what reaches ext02), TieMath (arithmetic of the two
   tables), TieInner (the in-place deletion loop), TieLoop (body / loop, mistakes path), TieLoopU (body / loop after the
   uniform-cost shortcut), TieBlocks (row 0, loop + gather, mult + norm), TieLens (`_lens_from_eos`), TiePre (preamble),
   TieWhole (composition, Model.pair_er), TieBody (er_body, er_wrap). *)
From Coq Require Import QArith List String Lia ZifyBool ZifyNat.
From PV Require Import MiniPy.Syntax MiniPy.Interp MiniTorch.Lemmas MiniTorch.OpsC07 MiniTorch.LemmasC07 MiniTorch.OpsC01 MiniTorch.LemmasC01.
From PV Require Import Gen.C02Src C01.SrcRun C01.TieLib C01.TieMath C02.SrcRun C02.TieLib C02.TieMath C02.TieInner C02.TieLoop C02.TieLoopU C02.TieBlocks C02.TieWhole C02.TiePre C02.TieBody.
Import ListNotations.
Local Open Scope string_scope.

(* names used by the statements of Properties.v (which holds no string literal) *)
Definition hyp_idx_name : string := "hyp_idx".
Definition max_hyp_steps_name : string := "max_hyp_steps".

(* one execution of the loop body with hyp_idx = k *)
Definition run_loop_body (k : nat) (st : state) : outcome ctl :=
  exec ext02 loop_body (set_var hyp_idx_name (VInt (Z.of_nat k)) st).

Definition run_loop (st : state) : outcome ctl := exec ext02 er_loop st.

Definition max_hyp_steps_is (H : nat) (st : state) : Prop :=
  lookup max_hyp_steps_name (vars st) = Some (VInt (Z.of_nat H)).

Theorem loop_body_is_step_rm :
  forall (s : positive) (ci cd cs : Z) (R N H : nat) (rf hf : nat -> nat -> Z) (hl : nat -> nat)
         (vrl vmult vnorm vwarn : val) (st : state) (k : nat) (lf mf : nat -> nat -> Z),
  (1 <= k <= H)%nat ->
  body_pre s ci cd cs R N H rf hf hl vrl vmult vnorm vwarn lf mf st ->
  runs_to (body_pre s ci cd cs R N H rf hf hl vrl vmult vnorm vwarn
             (fun i n => nth i (fst (C02.Model.step_rm ci cd cs (colf R rf n) (colf H hf n) (hl n) false k
                                       (colf (S R) lf n, colf (S R) mf n))) 0%Z)
             (fun i n => nth i (snd (C02.Model.step_rm ci cd cs (colf R rf n) (colf H hf n) (hl n) false k
                                       (colf (S R) lf n, colf (S R) mf n))) 0%Z))
          (run_loop_body k st).
Proof. intros. now apply body_run. Qed.

Theorem loop_is_rm_loop :
  forall (s : positive) (ci cd cs : Z) (R N H : nat) (rf hf : nat -> nat -> Z) (hl : nat -> nat)
         (vrl vmult vnorm vwarn : val) (st : state) (lf mf : nat -> nat -> Z),
  body_pre s ci cd cs R N H rf hf hl vrl vmult vnorm vwarn lf mf st -> max_hyp_steps_is H st ->
  runs_to (body_pre s ci cd cs R N H rf hf hl vrl vmult vnorm vwarn
             (fun i n => nth i (fst (iter_rm ci cd cs (colf R rf n) (colf H hf n) (hl n) H 1 (colf (S R) lf n, colf (S R) mf n))) 0%Z)
             (fun i n => nth i (snd (iter_rm ci cd cs (colf R rf n) (colf H hf n) (hl n) H 1 (colf (S R) lf n, colf (S R) mf n))) 0%Z))
          (run_loop st).
Proof. intros. now apply loop_tie. Qed.

(* a (N x T) batch-first or (T x N) time-major matrix as a list of rows *)
Definition wf_src (bf : bool) (N T : nat) (m : list (list Z)) : Prop :=
  if bf then List.length m = N /\ C01.Proofs.rect T m else List.length m = T /\ C01.Proofs.rect N m.

Definition at_src (bf : bool) (m : list (list Z)) (t n : nat) : Z :=
  if bf then nth t (nth n m []) 0%Z else nth n (nth t m []) 0%Z.

Lemma concat_rect : forall (m : list (list Z)) W, C01.Proofs.rect W m ->
  List.concat m = tab2 (List.length m) W (fun i j => nth j (nth i m []) 0%Z).
Proof.
  induction m as [|row m IH]; intros W HW; [reflexivity|].
  cbn [List.concat List.length]. rewrite tab2_S. cbn [nth]. f_equal.
  - rewrite <- (HW row) by (left; reflexivity). symmetry. apply C01.Proofs.map_nth_seq.
  - apply IH. intros r Hr. apply HW. right. exact Hr.
Qed.

Lemma mat_tensor_in : forall bf N T m, (0 < N)%nat -> wf_src bf N T m ->
  mat_tensor bf N m = in_tensor bf T N (at_src bf m).
Proof.
  intros bf N T m HN Hwf. unfold mat_tensor, in_tensor, wf_src, at_src in *. destruct bf; destruct Hwf as [HL HW].
  - assert (Hhd : List.length (hd [] m) = T).
    { destruct m as [|row m]; [cbn in HL; lia|]. apply HW. left. reflexivity. }
    rewrite Hhd, (concat_rect m T HW), HL. reflexivity.
  - rewrite (concat_rect m N HW), HL. reflexivity.
Qed.

Lemma colf_seq_of : forall bf N T m n, (n < N)%nat -> wf_src bf N T m ->
  colf T (at_src bf m) n = C01.Proofs.seq_of bf n m.
Proof.
  intros bf N T m n Hn Hwf. unfold colf, at_src, C01.Proofs.seq_of, wf_src in *. destruct bf; destruct Hwf as [HL HW].
  - rewrite <- (HW (nth n m [])) by (apply nth_In; lia). apply C01.Proofs.map_nth_seq.
  - unfold C01.Model.col. rewrite <- HL. clear HL HW Hn.
    induction m as [|row m IH]; [reflexivity|].
    cbn [List.length map nth]. rewrite <- cons_seq. cbn [map nth]. f_equal.
    rewrite <- seq_shift, map_map. exact IH.
Qed.

Lemma wf_src_model : forall bf N T m, wf_src bf N T m -> C01.Proofs.wf_tensor bf N m.
Proof. intros bf N T m H. unfold wf_src, C01.Proofs.wf_tensor in *. destruct bf; [|exact I]. destruct H as [HL HW]. split; [exact HL|now exists T]. Qed.

(* _string_matching(ref, hyp, eos, include_eos, batch_first, ins, del, sub, warn, norm=norm, return_mistakes=True) *)
Definition call_vars (s : positive) (c : C01.Model.cfg) (N : nat) (ref hyp : list (list Z)) (w : bool) (pad : Z) : list (string * val) :=
  er_vars (mat_tensor (C01.Model.c_bf c) N ref) (mat_tensor (C01.Model.c_bf c) N hyp)
    (C01.Model.c_eos c) (C01.Model.c_incl c) (C01.Model.c_bf c)
    (qz s (C01.Model.c_ins c)) (qz s (C01.Model.c_del c)) (qz s (C01.Model.c_sub c)) w (C01.Model.c_norm c) pad.

Definition run_prog (prog : stmt) (s : positive) (c : C01.Model.cfg) (N : nat) (ref hyp : list (list Z)) (w : bool) (pad : Z)
  : outcome val := Interp.run ext02 prog (call_vars s c N ref hyp w pad).

Definition run_error_rate := run_prog er_blocks.

(* the model's result as the tensor the source returns *)
Definition model_tensor (c : C01.Model.cfg) (N : nat) (ref hyp : list (list Z)) : val :=
  enc_x (mkTn [N] (map (val_fx 1) (C02.Model.error_rate c N ref hyp))).

(* any program that runs like er_pre; er_row0; flag block; <a loop with the properties of er_loop>; exits; gather; er_fin,
   from any initial variables that hold the arguments of the call *)
Lemma prog_run_known :
  forall (prog lp : stmt), loop_ok lp ->
  (forall st, exec ext02 prog st
              = exec ext02 (SSeq er_pre (SSeq er_row0 (SSeq (SSeq main_flags (SSeq lp main_rest)) er_fin))) st) ->
  forall (s : positive) (c : C01.Model.cfg) (N R H : nat) (rf hf : nat -> nat -> Z) (w : bool) (vars0 : list (string * val)),
  known (mkState vars0 []) (params s c R N H rf hf w) ->
  (C01.Model.c_eos c <> None -> R <> 0%nat /\ H <> 0%nat) ->
  exists out st', Interp.run ext02 prog vars0 = Ok (enc_x (mkTn [N] (map out (seq 0 N)))) st' /\
    forall n, (n < N)%nat -> out n = val_fx 1 (C02.Model.pair_er c (colf R rf n) (colf H hf n)).
Proof.
  intros prog lp Hlp Hprog s c N R H rf hf w vars0 K Hnz.
  unfold Interp.run. rewrite Hprog.
  assert (Hrl : forall n, (n < N)%nat -> (ref_len c R rf n <= R)%nat).
  { intros n Hn. unfold ref_len. rewrite <- (colf_length R rf n) at 2. apply C01.Proofs.eff_len_le. }
  assert (Hret : exists out, returns (enc_x (mkTn [N] (map out (seq 0 N))))
                         (exec ext02 (SSeq er_pre (SSeq er_row0 (SSeq (SSeq main_flags (SSeq lp main_rest)) er_fin))) (mkState vars0 [])) /\
                       forall n, (n < N)%nat -> out n = val_fx 1 (C02.Model.pair_er c (colf R rf n) (colf H hf n))).
  { destruct (uniform c) eqn:Hu.
    - eexists. split.
      + eapply returns_seq; [apply pre_run; [exact Hnz|exact K]|]. intros st1 K1.
        unfold eff_scale, eff_ci, eff_cd, eff_cs in K1. rewrite Hu in K1. cbn [negb] in K1.
        eapply tail_run_u_gen; [exact Hlp|exact Hrl|exact K1].
      + intros n Hn. unfold fin_value, final_col, iter_colU, ref_len, hyp_len.
        apply (pair_value_u c R H (colf R rf n) (colf H hf n) (colf_length R rf n) (colf_length H hf n) Hu).
    - eexists. split.
      + eapply returns_seq; [apply pre_run; [exact Hnz|exact K]|]. intros st1 K1.
        unfold eff_scale, eff_ci, eff_cd, eff_cs in K1. rewrite Hu in K1. cbn [negb] in K1.
        eapply tail_run_m_gen; [exact Hlp|exact Hrl|exact K1].
      + intros n Hn. unfold fin_value, final_rm, iter_col, ref_len, hyp_len.
        apply (pair_value_m c R H (colf R rf n) (colf H hf n) (colf_length R rf n) (colf_length H hf n) Hu). }
  destruct Hret as [out [[st' He] Hout]]. rewrite He. exists out, st'. split; [reflexivity|exact Hout].
Qed.

(* the per-column values are the model's tensor *)
Lemma model_tensor_eq : forall (c : C01.Model.cfg) (N R H : nat) (ref hyp : list (list Z)) (out : nat -> fx),
  wf_src (C01.Model.c_bf c) N R ref -> wf_src (C01.Model.c_bf c) N H hyp ->
  (forall n, (n < N)%nat -> out n = val_fx 1 (C02.Model.pair_er c (colf R (at_src (C01.Model.c_bf c) ref) n)
                                                               (colf H (at_src (C01.Model.c_bf c) hyp) n))) ->
  enc_x (mkTn [N] (map out (seq 0 N))) = model_tensor c N ref hyp.
Proof.
  intros c N R H ref hyp out Hr Hh Hout. unfold model_tensor. do 3 f_equal.
  apply (nth_ext _ _ FNaN FNaN).
  - now rewrite !map_length, seq_length, C02.ProofsModel.error_rate_length.
  - intros n Hn. rewrite map_length, seq_length in Hn.
    rewrite nth_map_seq by exact Hn.
    rewrite (C01.Proofs.nth_map_lt (val_fx 1) _ n (C01.Obs.Lit 0)) by (now rewrite C02.ProofsModel.error_rate_length).
    rewrite C02.ProofsModel.error_rate_nth by (try exact Hn; eapply wf_src_model; eassumption).
    rewrite <- (colf_seq_of _ N R ref n Hn Hr), <- (colf_seq_of _ N H hyp n Hn Hh).
    now apply Hout.
Qed.

Lemma prog_is_model :
  forall (prog lp : stmt), loop_ok lp ->
  (forall st, exec ext02 prog st
              = exec ext02 (SSeq er_pre (SSeq er_row0 (SSeq (SSeq main_flags (SSeq lp main_rest)) er_fin))) st) ->
  forall (s : positive) (c : C01.Model.cfg) (N R H : nat) (ref hyp : list (list Z)) (w : bool) (pad : Z),
  (0 < N)%nat -> wf_src (C01.Model.c_bf c) N R ref -> wf_src (C01.Model.c_bf c) N H hyp ->
  (C01.Model.c_eos c <> None -> R <> 0%nat /\ H <> 0%nat) ->
  exists st', run_prog prog s c N ref hyp w pad = Ok (model_tensor c N ref hyp) st'.
Proof.
  intros prog lp Hlp Hprog s c N R H ref hyp w pad HN Hr Hh Hnz.
  unfold run_prog, call_vars.
  rewrite (mat_tensor_in _ N R ref HN Hr), (mat_tensor_in _ N H hyp HN Hh).
  match goal with |- context [Interp.run ext02 prog ?v] =>
    assert (K : known (mkState v []) (params s c R N H (at_src (C01.Model.c_bf c) ref) (at_src (C01.Model.c_bf c) hyp) w))
      by (unfold params, er_vars, globals01, torch_module; cbn [known app]; repeat split; reflexivity);
    destruct (prog_run_known prog lp Hlp Hprog s c N R H _ _ w v K Hnz) as [out [st' [He Hout]]]
  end.
  rewrite He. exists st'. f_equal. now apply (model_tensor_eq c N R H).
Qed.

(* the blocks in sequence *)
Theorem error_rate_is_model :
  forall (s : positive) (c : C01.Model.cfg) (N R H : nat) (ref hyp : list (list Z)) (w : bool) (pad : Z),
  (0 < N)%nat -> wf_src (C01.Model.c_bf c) N R ref -> wf_src (C01.Model.c_bf c) N H hyp ->
  (C01.Model.c_eos c <> None -> R <> 0%nat /\ H <> 0%nat) ->
  exists st', run_error_rate s c N ref hyp w pad = Ok (model_tensor c N ref hyp) st'.
Proof.
  intros. apply (prog_is_model er_blocks er_loop er_loop_ok) with (R := R) (H := H); try assumption.
  intros st. unfold er_blocks. rewrite !exec_flatten. f_equal.
Qed.

(* the whole body of the function, as one term *)
Definition run_string_matching := run_prog er_body.

Theorem string_matching_is_model :
  forall (s : positive) (c : C01.Model.cfg) (N R H : nat) (ref hyp : list (list Z)) (w : bool) (pad : Z),
  (0 < N)%nat -> wf_src (C01.Model.c_bf c) N R ref -> wf_src (C01.Model.c_bf c) N H hyp ->
  (C01.Model.c_eos c <> None -> R <> 0%nat /\ H <> 0%nat) ->
  exists st', run_string_matching s c N ref hyp w pad = Ok (model_tensor c N ref hyp) st'.
Proof.
  intros. apply (prog_is_model er_body loop3 loop3_ok er_body_split) with (R := R) (H := H); assumption.
Qed.

(* the wrapper: error_rate(ref, hyp, eos, include_eos, norm, batch_first, ins_cost, del_cost, sub_cost, warn) *)
Definition run_error_rate_wrapper (s : positive) (c : C01.Model.cfg) (N : nat) (ref hyp : list (list Z)) (w : bool) : outcome val :=
  Interp.run ext02w er_wrap
    (wrap_vars (mat_tensor (C01.Model.c_bf c) N ref) (mat_tensor (C01.Model.c_bf c) N hyp)
       (C01.Model.c_eos c) (C01.Model.c_incl c) (C01.Model.c_bf c)
       (qz s (C01.Model.c_ins c)) (qz s (C01.Model.c_del c)) (qz s (C01.Model.c_sub c)) w (C01.Model.c_norm c)).

(* Python's binding of the call `_string_matching(ref, .., warn, norm=norm, return_mistakes=True)` *)
Lemma bind_call_er : forall vref vhyp veos vincl vbf vci vcd vcs vw vnorm,
  bind_call er_body_params er_body_defaults [vref; vhyp; veos; vincl; vbf; vci; vcd; vcs; vw]
    [("norm", vnorm); ("return_mistakes", VBool true)] =
  Some [("ref", vref); ("hyp", vhyp); ("eos", veos); ("include_eos", vincl); ("batch_first", vbf);
        ("ins_cost", vci); ("del_cost", vcd); ("sub_cost", vcs); ("warn", vw); ("norm", vnorm);
        ("return_mask", VBool false); ("return_prf_dsts", VBool false); ("exclude_last", VBool false);
        ("padding", VInt (-100)); ("return_mistakes", VBool true)].
Proof. reflexivity. Qed.

Theorem error_rate_wrapper_is_model :
  forall (s : positive) (c : C01.Model.cfg) (N R H : nat) (ref hyp : list (list Z)) (w : bool),
  (0 < N)%nat -> wf_src (C01.Model.c_bf c) N R ref -> wf_src (C01.Model.c_bf c) N H hyp ->
  (C01.Model.c_eos c <> None -> R <> 0%nat /\ H <> 0%nat) ->
  exists st', run_error_rate_wrapper s c N ref hyp w = Ok (model_tensor c N ref hyp) st'.
Proof.
  intros s c N R H ref hyp w HN Hr Hh Hnz.
  unfold run_error_rate_wrapper, wrap_vars, er_wrap.
  destruct (prog_run_known er_body loop3 loop3_ok er_body_split s c N R H
              (at_src (C01.Model.c_bf c) ref) (at_src (C01.Model.c_bf c) hyp) w
              ([("ref", enc_i (mat_tensor (C01.Model.c_bf c) N ref)); ("hyp", enc_i (mat_tensor (C01.Model.c_bf c) N hyp));
                ("eos", opt_int (C01.Model.c_eos c)); ("include_eos", VBool (C01.Model.c_incl c));
                ("batch_first", VBool (C01.Model.c_bf c));
                ("ins_cost", VQ (qz s (C01.Model.c_ins c))); ("del_cost", VQ (qz s (C01.Model.c_del c)));
                ("sub_cost", VQ (qz s (C01.Model.c_sub c))); ("warn", VBool w); ("norm", VBool (C01.Model.c_norm c));
                ("return_mask", VBool false); ("return_prf_dsts", VBool false); ("exclude_last", VBool false);
                ("padding", VInt (-100)); ("return_mistakes", VBool true)] ++ globals02)
              ltac:(rewrite (mat_tensor_in _ N R ref HN Hr), (mat_tensor_in _ N H hyp HN Hh);
                    unfold params, globals02, globals01, torch_module; cbn [known app]; repeat split; reflexivity) Hnz)
    as [out [st' [He Hout]]].
  unfold Interp.run at 1. cbn [exec eval bind lookup vars app globals02 globals01 String.eqb Ascii.eqb Bool.eqb builtin is].
  unfold ext02w. cbn [is String.eqb Ascii.eqb Bool.eqb]. rewrite bind_call_er, He. cbn [bind].
  eexists. f_equal. now apply (model_tensor_eq c N R H).
Qed.

(* the executables of the harness are these runs *)
Lemma out_vector_model : forall c N ref hyp st',
  out_vector N (Ok (model_tensor c N ref hyp) st') = Some (Some (map (val_fx 1) (C02.Model.error_rate c N ref hyp))).
Proof.
  intros. unfold out_vector, model_tensor. rewrite dec01_enc_x. cbn [shp dat]. rewrite nats_eqb_refl. reflexivity.
Qed.

Corollary src_er_is_model :
  forall (c : C01.Model.cfg) (scale : Z) (N R H : nat) (ref hyp : list (list Z)),
  (0 < N)%nat -> wf_src (C01.Model.c_bf c) N R ref -> wf_src (C01.Model.c_bf c) N H hyp ->
  (C01.Model.c_eos c <> None -> R <> 0%nat /\ H <> 0%nat) ->
  src_er er_blocks c scale N ref hyp = Some (Some (map (val_fx 1) (C02.Model.error_rate c N ref hyp))) /\
  src_er er_body c scale N ref hyp = Some (Some (map (val_fx 1) (C02.Model.error_rate c N ref hyp))) /\
  src_er_wrap c scale N ref hyp = Some (Some (map (val_fx 1) (C02.Model.error_rate c N ref hyp))).
Proof.
  intros c scale N R H ref hyp HN Hr Hh Hnz.
  destruct (error_rate_is_model (Z.to_pos scale) c N R H ref hyp false (C01.Model.c_pad c) HN Hr Hh Hnz) as [st1 He1].
  destruct (string_matching_is_model (Z.to_pos scale) c N R H ref hyp false (C01.Model.c_pad c) HN Hr Hh Hnz) as [st2 He2].
  destruct (error_rate_wrapper_is_model (Z.to_pos scale) c N R H ref hyp false HN Hr Hh Hnz) as [st3 He3].
  unfold src_er, src_er_wrap, C02.SrcRun.cfg_vars, cost_q.
  unfold run_error_rate, run_string_matching, run_prog, call_vars, run_error_rate_wrapper, qz in He1, He2, He3.
  rewrite He1, He2, He3, !out_vector_model. repeat split; reflexivity.
Qed.

(* composed with the model's theorems: statements purely about the interpreted source *)
(* without normalisation entry n of the tensor `error_rate` returns is the number of insertions, deletions and
   substitutions of a minimum-cost alignment of reference n and hypothesis n, each cut at its first eos *)
Theorem error_rate_counts_optimal_alignment :
  forall (s : positive) (c : C01.Model.cfg) (N R H : nat) (ref hyp : list (list Z)) (w : bool),
  (0 < N)%nat -> wf_src (C01.Model.c_bf c) N R ref -> wf_src (C01.Model.c_bf c) N H hyp ->
  (C01.Model.c_eos c <> None -> R <> 0%nat /\ H <> 0%nat) -> C01.Model.c_norm c = false ->
  exists out st', run_error_rate_wrapper s c N ref hyp w = Ok (enc_x (mkTn [N] out)) st' /\
    List.length out = N /\
    forall n, (n < N)%nat ->
      exists m sc,
        nth n out FNaN = zf 1 m
        /\ C01.Spec.transforms sc (C01.Spec.denote (C01.Model.c_eos c) (C01.Model.c_incl c) (C01.Proofs.seq_of (C01.Model.c_bf c) n ref))
                                  (C01.Spec.denote (C01.Model.c_eos c) (C01.Model.c_incl c) (C01.Proofs.seq_of (C01.Model.c_bf c) n hyp))
        /\ (forall s', C01.Spec.transforms s' (C01.Spec.denote (C01.Model.c_eos c) (C01.Model.c_incl c) (C01.Proofs.seq_of (C01.Model.c_bf c) n ref))
                                              (C01.Spec.denote (C01.Model.c_eos c) (C01.Model.c_incl c) (C01.Proofs.seq_of (C01.Model.c_bf c) n hyp)) ->
                       (C01.Spec.cost (C01.Model.c_ins c) (C01.Model.c_del c) (C01.Model.c_sub c) sc
                        <= C01.Spec.cost (C01.Model.c_ins c) (C01.Model.c_del c) (C01.Model.c_sub c) s')%Z)
        /\ C02.Spec.edits sc = m.
Proof.
  intros s c N R H ref hyp w HN Hr Hh Hnz Hnorm.
  destruct (error_rate_wrapper_is_model s c N R H ref hyp w HN Hr Hh Hnz) as [st' He].
  eexists. exists st'. split; [exact He|]. split.
  - now rewrite map_length, C02.ProofsModel.error_rate_length.
  - intros n Hn.
    rewrite (C01.Proofs.nth_map_lt (val_fx 1) _ n (C01.Obs.Lit 0)) by (now rewrite C02.ProofsModel.error_rate_length).
    destruct (C02.ProofsModel.error_rate_optimal_alignment c N ref hyp n Hn (wf_src_model _ _ _ _ Hr) (wf_src_model _ _ _ _ Hh) Hnorm)
      as [m [sc [Hv [Ht [Hmin [_ Hed]]]]]].
    exists m, sc. rewrite Hv. cbn [val_fx]. repeat split; assumption.
Qed.

(* with normalisation: that count divided by the reference length; an empty reference scores 0 when the hypothesis is
   empty as well and 1 otherwise *)
Theorem error_rate_normalised :
  forall (s : positive) (c : C01.Model.cfg) (N R H : nat) (ref hyp : list (list Z)) (w : bool),
  (0 < N)%nat -> wf_src (C01.Model.c_bf c) N R ref -> wf_src (C01.Model.c_bf c) N H hyp ->
  (C01.Model.c_eos c <> None -> R <> 0%nat /\ H <> 0%nat) -> C01.Model.c_norm c = true ->
  exists out st', run_error_rate_wrapper s c N ref hyp w = Ok (enc_x (mkTn [N] out)) st' /\
    List.length out = N /\
    forall n, (n < N)%nat ->
      let r := C01.Spec.denote (C01.Model.c_eos c) (C01.Model.c_incl c) (C01.Proofs.seq_of (C01.Model.c_bf c) n ref) in
      let h := C01.Spec.denote (C01.Model.c_eos c) (C01.Model.c_incl c) (C01.Proofs.seq_of (C01.Model.c_bf c) n hyp) in
      match List.length r with
      | O => nth n out FNaN = z2f (if (0 <? List.length h)%nat then 1 else 0)
      | S _ => exists m, nth n out FNaN = Fq (Qred (qz 1 m / inject_Z (Z.of_nat (List.length r))))
                         /\ C02.Spec.er_spec (C01.Model.c_ins c) (C01.Model.c_del c) (C01.Model.c_sub c) r h m
      end.
Proof.
  intros s c N R H ref hyp w HN Hr Hh Hnz Hnorm.
  destruct (error_rate_wrapper_is_model s c N R H ref hyp w HN Hr Hh Hnz) as [st' He].
  eexists. exists st'. split; [exact He|]. split.
  - now rewrite map_length, C02.ProofsModel.error_rate_length.
  - intros n Hn. cbv zeta.
    rewrite (C01.Proofs.nth_map_lt (val_fx 1) _ n (C01.Obs.Lit 0)) by (now rewrite C02.ProofsModel.error_rate_length).
    pose proof (C02.ProofsModel.error_rate_norm c N ref hyp n Hn (wf_src_model _ _ _ _ Hr) (wf_src_model _ _ _ _ Hh) Hnorm) as Hm.
    destruct (List.length (C01.Spec.denote (C01.Model.c_eos c) (C01.Model.c_incl c) (C01.Proofs.seq_of (C01.Model.c_bf c) n ref))).
    + rewrite Hm. reflexivity.
    + destruct Hm as [m [Hv Hs]]. exists m. rewrite Hv. split; [reflexivity|exact Hs].
Qed.
