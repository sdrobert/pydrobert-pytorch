(* C02, second source tie - infrastructure: what reaches C02.SrcRunB.extB call by call (the calls of the vocabulary of
   the first tie are answered by ext02 / ext01: their lemmas are re-stated for extB and proved FROM those of C02.TieLib / C01.TieLib), the
   facts about tensor values inside the interpreter, and the tactic of the symbolic runs.  No statement about the
   source itself here. *)
From Coq Require Import QArith List String.
From PV Require Export MiniPy.Lemmas.
From PV Require Import MiniPy.Syntax MiniPy.Interp MiniTorch.Ops MiniTorch.OpsC07 MiniTorch.OpsC01 MiniTorch.LemmasC01 MiniTorch.OpsC02B.
From PV Require Import Gen.C02Src C01.SrcRun C02.SrcRun C02.SrcRunB.
From PV Require C02.TieLib.
Import ListNotations.
Local Open Scope string_scope.

(* a call that extB hands over to ext02 *)
Ltac toB := unfold extB; cbn [is String.eqb Ascii.eqb Bool.eqb orb]; rewrite ?dec01_enc_x, ?dec01_enc_i, ?C02.TieLib.ext02_other by reflexivity.
Ltac viaB L := toB; apply L.

Section ExtLemmas.
  Variable w : list (list Q).
  Notation ext := (extB w).

  Lemma extB_dim_i x st : ext "$method.dim" [enc_i x] [] st = Ok (VInt (Z.of_nat (List.length (shp x)))) st.
  Proof. viaB C01.TieLib.ext_dim_i. Qed.
  Lemma extB_dim_x x st : ext "$method.dim" [enc_x x] [] st = Ok (VInt (Z.of_nat (List.length (shp x)))) st.
  Proof. toB. unfold ext01, ext01_ops. cbn [is String.eqb Ascii.eqb Bool.eqb no_kw negb]. now rewrite dec01_enc_x. Qed.
  Lemma extB_shape_i x st : ext "$attr.shape" [enc_i x] [] st = Ok (VTuple (map (fun n => VInt (Z.of_nat n)) (shp x))) st.
  Proof. viaB C01.TieLib.ext_shape_i. Qed.
  Lemma extB_shape_x x st : ext "$attr.shape" [enc_x x] [] st = Ok (VTuple (map (fun n => VInt (Z.of_nat n)) (shp x))) st.
  Proof. toB. unfold ext01, ext01_ops. cbn [is String.eqb Ascii.eqb Bool.eqb no_kw negb]. now rewrite dec01_enc_x. Qed.
  Lemma extB_unsqueeze_i x d st : ext "$method.unsqueeze" [enc_i x; VInt d] [] st = ret01 "unsqueeze" (option_map AI (unsqueeze x d)) st.
  Proof. viaB C01.TieLib.ext_unsqueeze_i. Qed.
  Lemma extB_sub_x x y st : ext "operator" [VStr "sub"; enc_x x; enc_x y] [] st = ret01 "sub" (option_map AX (bin_f fsub x y)) st.
  Proof. viaB C02.TieLib.ext_sub_x. Qed.

  (* the vocabulary of minimum_error_rate_loss *)
  Lemma extB_repeat_i x a b c st : ext "$method.repeat" [enc_i x; VInt a; VInt b; VInt c] [] st = retB "repeat" (option_map AI (repeat3 x a b c)) st.
  Proof. unfold extB. cbn [is String.eqb Ascii.eqb Bool.eqb orb]. now rewrite dec01_enc_i. Qed.
  Lemma extB_size_i x d st : ext "$method.size" [enc_i x; VInt d] [] st =
    match size_dim x d with Some n => Ok (VInt (Z.of_nat n)) st | None => Stuck "size: dimension out of range" end.
  Proof. unfold extB. cbn [is String.eqb Ascii.eqb Bool.eqb orb]. now rewrite dec01_enc_i. Qed.
  Lemma extB_reshape_i x a b st : ext "$method.reshape" [enc_i x; VInt a; VInt b] [] st = retB "reshape / view" (option_map AI (view x [a; b])) st.
  Proof. unfold extB. cbn [is String.eqb Ascii.eqb Bool.eqb orb]. now rewrite dec01_enc_i. Qed.
  Lemma extB_view_x x a b st : ext "$method.view" [enc_x x; VInt a; VInt b] [] st = retB "reshape / view" (option_map AX (view x [a; b])) st.
  Proof. unfold extB. cbn [is String.eqb Ascii.eqb Bool.eqb orb]. now rewrite dec01_enc_x. Qed.
  Lemma extB_mean_keep x d st : ext "$method.mean" [enc_x x; VInt d] [("keepdim", VBool true)] st = retB "mean" (option_map AX (mean_keep x d)) st.
  Proof. unfold extB. cbn [is String.eqb Ascii.eqb Bool.eqb orb kw_keepdim]. now rewrite dec01_enc_x. Qed.
  Lemma extB_mean_all x st : ext "$method.mean" [enc_x x] [] st = Ok (enc_x (mean_all x)) st.
  Proof. unfold extB. cbn [is String.eqb Ascii.eqb Bool.eqb orb]. now rewrite dec01_enc_x. Qed.
  Lemma extB_sum_all x st : ext "$method.sum" [enc_x x] [] st = Ok (enc_x (sum_all x)) st.
  Proof. unfold extB. cbn [is String.eqb Ascii.eqb Bool.eqb orb]. now rewrite dec01_enc_x. Qed.
  Lemma extB_mul_x x y st : ext "operator" [VStr "mul"; enc_x x; enc_x y] [] st = retB "mul" (option_map AX (bin_f fmul x y)) st.
  Proof. unfold extB. cbn [is String.eqb Ascii.eqb Bool.eqb orb]. now rewrite !dec01_enc_x. Qed.
  Lemma extB_softmax n m d st : List.length w = n -> (forall row, List.In row w -> List.length row = m) ->
    ext "torch.nn.functional.softmax" [enc_x (mkTn [n; m] d); VInt 1] [] st = Ok (enc_x (mkTn [n; m] (map qfx (List.concat w)))) st.
  Proof.
    intros Hn Hm. unfold extB. cbn [is String.eqb Ascii.eqb Bool.eqb orb]. rewrite dec01_enc_x. cbn [shp].
    rewrite Hn, Nat.eqb_refl. cbn [andb].
    replace (forallb (fun row => Nat.eqb (List.length row) m) w) with true; [reflexivity|].
    symmetry. apply forallb_forall. intros row Hr. apply Nat.eqb_eq. now apply Hm.
  Qed.
  (* t[:2] and t[1:] on a shape of three sizes *)
  Lemma extB_slice3_to2 a b c st :
    ext "$getitem" [VTuple [VInt a; VInt b; VInt c]; VTuple [VStr "$slice"; VNone; VInt 2; VNone]] [] st = Ok (VTuple [VInt a; VInt b]) st.
  Proof. reflexivity. Qed.
  Lemma extB_slice3_from1 a b c st :
    ext "$getitem" [VTuple [VInt a; VInt b; VInt c]; VTuple [VStr "$slice"; VInt 1; VNone; VNone]] [] st = Ok (VTuple [VInt b; VInt c]) st.
  Proof. reflexivity. Qed.

  (* the call of the other translated function: Python's binding of error_rate(ref, hyp, eos=.., ..), then its body *)
  Lemma bind_call_wrap : forall vref vhyp a b c d e f g h,
    bind_call er_wrap_params er_wrap_defaults [vref; vhyp]
      [("eos", a); ("include_eos", b); ("norm", c); ("batch_first", d); ("ins_cost", e); ("del_cost", f); ("sub_cost", g); ("warn", h)] =
    Some [("ref", vref); ("hyp", vhyp); ("eos", a); ("include_eos", b); ("norm", c); ("batch_first", d); ("ins_cost", e);
          ("del_cost", f); ("sub_cost", g); ("warn", h)].
  Proof. reflexivity. Qed.

  Lemma extB_error_rate : forall (ref hyp : tn Z) eos incl bf qi qd qs warn norm v st' st,
    Interp.run ext02w er_wrap (wrap_vars ref hyp eos incl bf qi qd qs warn norm) = Ok v st' ->
    ext "error_rate" [enc_i ref; enc_i hyp]
      [("eos", opt_int eos); ("include_eos", VBool incl); ("norm", VBool norm); ("batch_first", VBool bf);
       ("ins_cost", VQ qi); ("del_cost", VQ qd); ("sub_cost", VQ qs); ("warn", VBool warn)] st = Ok v st.
  Proof.
    intros ref hyp eos incl bf qi qd qs warn norm v st' st Hrun.
    unfold extB. cbn [is String.eqb Ascii.eqb Bool.eqb]. rewrite bind_call_wrap.
    unfold wrap_vars in Hrun. rewrite Hrun. reflexivity.
  Qed.
End ExtLemmas.

Lemma qcmp_lt_int : forall a b : Z,
  match (inject_Z a ?= inject_Z b)%Q with Datatypes.Lt => true | _ => false end = (a <? b)%Z.
Proof. intros a b. unfold Qcompare, inject_Z. cbn [Qnum Qden]. now rewrite !Z.mul_1_r. Qed.

Lemma subscript_tuple_slice l a b c st : subscript (VTuple l) (VTuple [VStr "$slice"; a; b; c]) st = Stuck "subscript".
Proof. reflexivity. Qed.

Section Exec.
  Variable ext : string -> list val -> list (string * val) -> state -> outcome val.
  Lemma execB_seq_cong a b b' st : (forall st1, exec ext b st1 = exec ext b' st1) -> exec ext (SSeq a b) st = exec ext (SSeq a b') st.
  Proof. intros Hb. cbn [exec]. destruct (exec ext a st) as [[|v] st1|n st1|m]; cbn [bind]; try reflexivity. apply Hb. Qed.
  Lemma execB_seq4 a b c d t st :
    exec ext (SSeq (SSeq a (SSeq b (SSeq c d))) t) st = exec ext (SSeq a (SSeq b (SSeq c (SSeq d t)))) st.
  Proof.
    rewrite exec_seq_assoc. apply execB_seq_cong. intros st1.
    rewrite exec_seq_assoc. apply execB_seq_cong. intros st2.
    apply exec_seq_assoc.
  Qed.
  Lemma execB_seq_raise n b st : exec ext (SSeq (SRaise n) b) st = Exc n st.
  Proof. reflexivity. Qed.

  (* the statement at the head of a sequence, goal-directed: what is left to show is the run of the rest *)
  Lemma step_assign x e b st v st1 o : eval ext e st = Ok v st1 -> exec ext b (set_var x v st1) = o ->
    exec ext (SSeq (SAssign [TName x] e) b) st = o.
  Proof. intros H <-. cbn [exec]. now rewrite H. Qed.
  Lemma step_assign_exc x e b st n st1 : eval ext e st = Exc n st1 -> exec ext (SSeq (SAssign [TName x] e) b) st = Exc n st1.
  Proof. intros H. cbn [exec]. now rewrite H. Qed.
  Lemma step_if c t f b st v st1 o : eval ext c st = Ok v st1 -> exec ext (SSeq (if truthy v then t else f) b) st1 = o ->
    exec ext (SSeq (SIf c t f) b) st = o.
  Proof. intros H <-. cbn [exec]. rewrite H. cbn [bind]. now destruct (truthy v). Qed.
  Lemma step_assoc a b c st o : exec ext (SSeq a (SSeq b c)) st = o -> exec ext (SSeq (SSeq a b) c) st = o.
  Proof. intros <-. apply exec_seq_assoc. Qed.
End Exec.

Ltac rw_extB f args :=
  lazymatch f with
  | "$method.dim" => lazymatch args with [enc_i _] => rewrite extB_dim_i | [enc_x _] => rewrite extB_dim_x end
  | "$attr.shape" => lazymatch args with [enc_i _] => rewrite extB_shape_i | [enc_x _] => rewrite extB_shape_x end
  | "$method.unsqueeze" => rewrite extB_unsqueeze_i
  | "$method.repeat" => rewrite extB_repeat_i
  | "$method.size" => rewrite extB_size_i
  | "$method.reshape" => rewrite extB_reshape_i
  | "$method.view" => rewrite extB_view_x
  | "$method.mean" => lazymatch args with [_; _] => rewrite extB_mean_keep | [_] => rewrite extB_mean_all end
  | "$method.sum" => rewrite extB_sum_all
  | "operator" => lazymatch args with [VStr "sub"; enc_x _; enc_x _] => rewrite extB_sub_x | [VStr "mul"; enc_x _; enc_x _] => rewrite extB_mul_x end
  | "$getitem" =>
      lazymatch args with
      | [VTuple [_; _; _]; VTuple [VStr "$slice"; VNone; VInt 2; VNone]] => rewrite extB_slice3_to2
      | [VTuple [_; _; _]; VTuple [VStr "$slice"; VInt 1; VNone; VNone]] => rewrite extB_slice3_from1
      end
  end.

Ltac rwB :=
  match goal with
  | |- context [foreign (enc_i ?t)] => change (foreign (enc_i t)) with true
  | |- context [foreign (enc_x ?t)] => change (foreign (enc_x t)) with true
  | |- context [method (enc_i ?t) ?m ?a] => change (method (enc_i t) m a) with (@None (val * option val))
  | |- context [method (enc_x ?t) ?m ?a] => change (method (enc_x t) m a) with (@None (val * option val))
  | |- context [attribute ?e (enc_i ?t) ?a ?st] => change (attribute e (enc_i t) a st) with (e ("$attr." ++ a) [enc_i t] [] st)
  | |- context [attribute ?e (enc_x ?t) ?a ?st] => change (attribute e (enc_x t) a st) with (e ("$attr." ++ a) [enc_x t] [] st)
  | |- context [binop_eval Sub (enc_x ?t) (enc_x ?u) ?st] => change (binop_eval Sub (enc_x t) (enc_x u) st) with (@Stuck val "sub")
  | |- context [binop_eval Mul (enc_x ?t) (enc_x ?u) ?st] => change (binop_eval Mul (enc_x t) (enc_x u) st) with (@Stuck val "mul")
  | |- context [extB ?w ?f ?args _ _] => rw_extB f args
  end.

Ltac evB := lazy [eval bind]; repeat (progress (cbn; repeat rwB; try change (Pos.to_nat 1) with 1%nat; try change (Pos.to_nat 2) with 2%nat)).

(* statement by statement on a concrete state, for a goal [exec ext (SSeq s b) st = o] (nothing is rewritten under the rest
   of the program): [tac] finishes the evaluation of the expression *)
Ltac stateB := unfold set_var; cbn [update vars events String.eqb Ascii.eqb Bool.eqb].
Ltac stepB tac :=
  lazymatch goal with
  | |- exec _ (SSeq (SSeq _ _) _) _ = _ => apply step_assoc
  | |- exec _ (SSeq SPass _) _ = _ => rewrite exec_seq_pass
  | |- exec _ (SSeq (SAssign [TName _] _) _) _ = _ => eapply step_assign; [ solve [tac] | stateB ]
  | |- exec _ (SSeq (SIf _ _ _) _) _ = _ => eapply step_if; [ solve [tac] | cbv beta iota delta [truthy negb] ]
  | |- exec _ (SReturn _) _ = _ => eapply exec_return_ok; solve [tac]
  end.
