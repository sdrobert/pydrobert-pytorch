(* C02 - the `for hyp_idx` loop of `_string_matching` (PV.Gen.C02Src.er_loop) on the path the uniform-cost shortcut
   takes: `if ins_cost == del_cost == sub_cost > 0` resets the costs to 1.0 and CLEARS return_mistakes, so the loop
   runs its cost-only branch (`torch.min`, the fold through del_mat) - the configuration C01 is about.  Same
   statement and script as C01.TieLoop (body = C01.Model.step_row in every column), re-run here on this unit's term
   with ext02, so that the C02 tie depends on no lemma about another unit's translated term.  The arithmetic
   (C01.TieMath.step_entry_src, iter_rows) is C01's, imported. *)
From Coq Require Import QArith List Ascii String Lia ZifyBool ZifyNat.
From PV Require Import MiniPy.Syntax MiniPy.Interp MiniPy.Lemmas MiniTorch.OpsC07 MiniTorch.LemmasC07 MiniTorch.OpsC01 MiniTorch.LemmasC01.
From PV Require Import Gen.C02Src C01.TieLib C01.TieMath C02.SrcRun C02.TieLib C02.TieMath C02.TieInner C02.TieLoop.
Import ListNotations.
Local Open Scope string_scope.

#[local] Arguments Z.add : simpl never.
#[local] Arguments Z.sub : simpl never.
#[local] Arguments Z.of_nat : simpl never.
#[local] Arguments zf : simpl never.
#[local] Arguments ofx : simpl never.
#[local] Arguments argmin_3 : simpl never.
#[local] Arguments seq : simpl never.
#[local] Arguments fmin_list : simpl never.
#[local] Arguments zrange : simpl never.
#[local] Arguments sw : simpl never.
#[local] Arguments swp : simpl never.

(* what the loop reads and preserves on this path (C01.TieLoop.body_pre) *)
Definition body_preU (s : positive) (ci cd cs : Z) (R N H : nat) (rf hf : nat -> nat -> Z) (hl : nat -> nat)
  (vrl vmult vnorm vwarn : val) (lf : nat -> nat -> Z) (st : state) : Prop :=
  lookup "exclude_last" (vars st) = Some (VBool false) /\
  lookup "return_mistakes" (vars st) = Some (VBool false) /\
  lookup "return_mask" (vars st) = Some (VBool false) /\
  lookup "return_prf_dsts" (vars st) = Some (VBool false) /\
  lookup "hyp_lens" (vars st) = Some (enc_i (mkTn [N] (map (fun n => Z.of_nat (hl n)) (seq 0 N)))) /\
  lookup "ref" (vars st) = Some (enc_i (mkTn [R; N] (tab2 R N rf))) /\
  lookup "hyp" (vars st) = Some (enc_i (mkTn [H; N] (tab2 H N hf))) /\
  lookup "ins_cost" (vars st) = Some (VQ (qz s ci)) /\
  lookup "sub_cost" (vars st) = Some (VQ (qz s cs)) /\
  lookup "del_mat" (vars st) =
    Some (enc_x (mkTn [S R; S R; 1%nat] (tab2 (S R) (S R) (fun i j => ofx s (C01.Model.del_entry cd i j))))) /\
  lookup "ref_lens" (vars st) = Some vrl /\
  lookup "mult" (vars st) = Some vmult /\
  lookup "norm" (vars st) = Some vnorm /\
  lookup "warn" (vars st) = Some vwarn /\
  lookup "row" (vars st) = Some (enc_x (mkTn [S R; N] (tab2 (S R) N (fun i n => zf s (lf i n))))).

Lemma body_preU_ext s ci cd cs R N H rf hf hl vrl vmult vnorm vwarn lf lf' st :
  (forall i n, (i < S R)%nat -> (n < N)%nat -> lf i n = lf' i n) ->
  body_preU s ci cd cs R N H rf hf hl vrl vmult vnorm vwarn lf st ->
  body_preU s ci cd cs R N H rf hf hl vrl vmult vnorm vwarn lf' st.
Proof.
  intros E P. unfold body_preU in *.
  destruct P as (H1 & H2 & H3 & H4 & H5 & H6 & H7 & H8 & H9 & H10 & H11 & H12 & H13 & H14 & P).
  repeat (split; [assumption|]).
  rewrite P. do 3 f_equal. apply tab2_ext. intros i n Hi Hn. now rewrite E.
Qed.

(* the loop body with "$" ++ t as the tuple-unpacking temporary of the cost-only branch (the translator numbers the
   temporaries per translated term: the body of er_loop and the one inside er_body differ in this name only) *)
Definition else_tmp (t : string) (f : stmt) : stmt :=
  match f with
  | SSeq a (SSeq (SAssign _ e) _) =>
      SSeq a (SSeq (SAssign [TName t] e)
        (SSeq (SAssign [TName "row"] (ESub (EName t) (EConst (VInt 0)))) (SAssign [TName "_"] (ESub (EName t) (EConst (VInt 1))))))
  | _ => f
  end.
Definition body_tmp (t : string) : stmt := body_else (else_tmp (String "$"%char t) (else_of loop_body)).

Section BodyU.
  Variables (s : positive) (ci cd cs : Z) (R N H : nat) (rf hf : nat -> nat -> Z) (hl : nat -> nat).
  Variables (vrl vmult vnorm vwarn : val).

  Notation pre := (body_preU s ci cd cs R N H rf hf hl vrl vmult vnorm vwarn).

  Definition step_colU (k : nat) (lf : nat -> nat -> Z) (n : nat) : list Z :=
    C01.Model.step_row ci cd cs (colf R rf n) (colf H hf n) (hl n) false k (colf (S R) lf n).

  Theorem body_run_tmp : forall t st k lf, (1 <= k <= H)%nat -> pre lf st ->
    runs_to (pre (fun i n => nth i (step_colU k lf n) 0%Z))
            (exec ext02 (body_tmp t) (set_var "hyp_idx" (VInt (Z.of_nat k)) st)).
  Proof.
    intros t st k lf Hk (Hexcl & Hmist & Hmask & Hprf & Hhl & Href & Hhyp & Hci & Hcs & Hdm & Hrl & Hmu & Hno & Hwa & Hrow).
    unfold body_tmp, body_else, else_of, loop_body, er_loop. cbv iota. cbn [seq_at seq_drop else_tmp]. unfold step_colU.
    push_state.
    assert (Hidx : (Z.of_nat k - 1)%Z = Z.of_nat (k - 1)) by lia.
    asg. asg. asg.
    assign ltac:(ev; rewrite Hidx, select0_mat by lia; evn; reflexivity).
    asg. asg. ifstep. setitem.
    assign ltac:(evn; rewrite min_dim_3 by lia; reflexivity).
    asg. asg. asg. ifstep. ifstep.
    apply runs_to_ok. unfold body_preU. repeat (split; [assumption|]).
    match goal with L : lookup "row" _ = _ |- _ => rewrite L end.
    do 3 f_equal. apply tab2_ext. intros i n Hi Hn. rewrite Hidx.
    apply (step_entry_src ci cd cs R H (fun j => rf j n) (fun t => hf t n) (fun i1 => lf i1 n) (hl n) k Hk s i Hi).
  Qed.

  Theorem body_runU : forall st k lf, (1 <= k <= H)%nat -> pre lf st ->
    runs_to (pre (fun i n => nth i (step_colU k lf n) 0%Z))
            (exec ext02 loop_body (set_var "hyp_idx" (VInt (Z.of_nat k)) st)).
  Proof. exact (body_run_tmp "t1"). Qed.

  Definition iter_colU (m a : nat) (lf : nat -> nat -> Z) (n : nat) : list Z :=
    iter_rows ci cd cs (colf R rf n) (colf H hf n) (hl n) m (S a) (colf (S R) lf n).

  Lemma step_colU_length k lf n : (1 <= k <= H)%nat -> List.length (step_colU k lf n) = S R.
  Proof. intros Hk. unfold step_colU, colf. now apply step_row_length. Qed.

  Section AnyBody.
    Variable bd : stmt.
    Hypothesis Hbd : forall st k lf, (1 <= k <= H)%nat -> pre lf st ->
      runs_to (pre (fun i n => nth i (step_colU k lf n) 0%Z))
              (exec ext02 bd (set_var "hyp_idx" (VInt (Z.of_nat k)) st)).

    Lemma loop_run_genU : forall m a lf st, (a + m <= H)%nat -> pre lf st ->
      runs_to (pre (fun i n => nth i (iter_colU m a lf n) 0%Z))
              (for_loop ext02 "hyp_idx" bd (map (fun i => VInt (1 + Z.of_nat i)) (seq a m)) st).
    Proof.
      induction m as [|m IH]; intros a lf st Ham P.
      - apply runs_to_ok. eapply body_preU_ext; [|exact P].
        intros i n Hi Hn. cbv beta. unfold iter_colU, iter_rows, colf. rewrite Proofs.nth_map_seq by exact Hi. reflexivity.
      - rewrite <- cons_seq. cbn [map for_loop].
        replace (1 + Z.of_nat a)%Z with (Z.of_nat (S a)) by lia.
        destruct (Hbd st (S a) lf ltac:(lia) P) as [st1 [He P1]]. rewrite He. cbn [bind].
        destruct (IH (S a) _ st1 ltac:(lia) P1) as [st2 [He2 P2]]. exists st2. split; [exact He2|].
        eapply body_preU_ext; [|exact P2].
        intros i n Hi Hn. cbv beta. f_equal. unfold iter_colU. cbn [iter_rows]. f_equal.
        transitivity (map (fun i0 => nth i0 (step_colU (S a) lf n) 0%Z) (seq 0 (List.length (step_colU (S a) lf n)))).
        { rewrite step_colU_length by lia. reflexivity. }
        apply Proofs.map_nth_seq.
    Qed.

    Theorem loop_tie_genU : forall st lf, pre lf st -> lookup "max_hyp_steps" (vars st) = Some (VInt (Z.of_nat H)) ->
      runs_to (pre (fun i n => nth i (iter_colU H 0 lf n) 0%Z)) (exec ext02 (SFor "hyp_idx" loop_iter bd) st).
    Proof.
      intros st lf P Hmax. rewrite exec_for.
      assert (Hexcl : lookup "exclude_last" (vars st) = Some (VBool false)) by apply P.
      assert (Hit : eval ext02 loop_iter st = Ok (VList (zrange 1 (Z.of_nat H + 1))) st).
      { unfold loop_iter, er_loop. cbv iota. ev. reflexivity. }
      rewrite Hit. cbn [bind iter_items container_items]. rewrite zrange_1.
      apply loop_run_genU; [lia|exact P].
    Qed.
  End AnyBody.

  Theorem loop_tieU : forall st lf, pre lf st -> lookup "max_hyp_steps" (vars st) = Some (VInt (Z.of_nat H)) ->
    runs_to (pre (fun i n => nth i (iter_colU H 0 lf n) 0%Z)) (exec ext02 er_loop st).
  Proof. rewrite er_loop_eq. exact (loop_tie_genU loop_body body_runU). Qed.
End BodyU.
