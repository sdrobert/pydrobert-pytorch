(* C02 — facts about the specification alone: optimal scripts, the checker [optdp] /
   [er_okb] is sound and complete for [er_spec], the extremal counts, equal costs. *)
From Coq Require Import List ZArith QArith Bool Arith Lia.
From PV Require Import C01.Obs C01.Spec C01.LevFacts C02.Spec.
Import ListNotations.
Local Open Scope Z_scope.

Lemma edits_app s1 s2 : edits (s1 ++ s2) = edits s1 + edits s2.
Proof. induction s1 as [|o s1 IH]; cbn [app edits]; lia. Qed.

Lemma edits_nonneg s : 0 <= edits s.
Proof. induction s as [|o s IH]; cbn [edits]; [lia|]. destruct o; cbn [is_edit]; lia. Qed.

Lemma edits_all_del r : edits (map Del r) = Z.of_nat (length r).
Proof. induction r as [|a r IH]; [reflexivity|]. cbn [map edits is_edit length]. lia. Qed.

Lemma edits_all_ins h : edits (map Ins h) = Z.of_nat (length h).
Proof. induction h as [|a h IH]; [reflexivity|]. cbn [map edits is_edit length]. lia. Qed.

(* with an empty reference (hypothesis) there is only one script *)
Lemma transforms_nil_l s h : transforms s [] h -> s = map Ins h.
Proof.
  revert s; induction h as [|b h IH]; intros s T; inversion T; subst; [reflexivity|].
  cbn [map]. f_equal. apply IH. assumption.
Qed.

Lemma transforms_nil_r s r : transforms s r [] -> s = map Del r.
Proof.
  revert s; induction r as [|a r IH]; intros s T; inversion T; subst; [reflexivity|].
  cbn [map]. f_equal. apply IH. assumption.
Qed.

Section Facts.
  Variables ci cd cs : Z.
  Notation lev := (lev ci cd cs).
  Notation cost := (cost ci cd cs).
  Notation optimal_script := (optimal_script ci cd cs).
  Notation er_spec := (er_spec ci cd cs).
  Notation optdp := (optdp ci cd cs).
  Notation opt_counts := (opt_counts ci cd cs).

  Lemma optimal_iff_lev r h s :
    optimal_script r h s <-> transforms s r h /\ cost s = lev r h.
  Proof.
    split.
    - intros [T Hmin]. split; [exact T|].
      destruct (lev_attained ci cd cs r h) as [s0 [T0 C0]].
      pose proof (Hmin s0 T0). pose proof (lev_lower_bound ci cd cs s r h T). lia.
    - intros [T C]. split; [exact T|]. intros s' T'. rewrite C.
      apply lev_lower_bound. exact T'.
  Qed.

  Lemma optimal_exists r h : exists s, optimal_script r h s.
  Proof.
    destruct (lev_attained ci cd cs r h) as [s [T C]]. exists s.
    apply optimal_iff_lev. split; assumption.
  Qed.

  Definition scost (a b : Z) : Z := if a =? b then 0 else cs.
  Definition sedit (a b : Z) : Z := if a =? b then 0 else 1.

  Lemma lev_cons' a r b h :
    lev (a :: r) (b :: h) =
    Z.min (Z.min (lev r (b :: h) + cd) (lev (a :: r) h + ci)) (lev r h + scost a b).
  Proof. apply lev_cons. Qed.

  (* the rest s' of a script that attains the distance L with a first step of cost k is optimal for its sub-problem *)
  Lemma tail_optimal s' r' h' k L : transforms s' r' h' -> k + cost s' = L -> L <= lev r' h' + k ->
    lev r' h' + k = L /\ forall m, m = edits s' -> er_spec r' h' m.
  Proof.
    intros T C HL. pose proof (lev_lower_bound ci cd cs s' _ _ T). assert (cost s' = lev r' h') by lia.
    split; [lia|]. intros m ->. exists s'. split; [apply optimal_iff_lev; split; assumption|reflexivity].
  Qed.

  (* the count m belongs to an optimal script of (a::r, b::h) iff it comes from an optimal
     script of one of the three sub-problems through a step that attains the minimum *)
  Lemma er_spec_cons a r b h m :
    er_spec (a :: r) (b :: h) m <->
    (lev r (b :: h) + cd = lev (a :: r) (b :: h) /\ er_spec r (b :: h) (m - 1)) \/
    (lev (a :: r) h + ci = lev (a :: r) (b :: h) /\ er_spec (a :: r) h (m - 1)) \/
    (lev r h + scost a b = lev (a :: r) (b :: h) /\ er_spec r h (m - sedit a b)).
  Proof.
    pose proof (lev_cons' a r b h) as HL.
    split.
    - intros [s [Hopt He]]. apply optimal_iff_lev in Hopt as [T C].
      inversion T as [|s' r0 h0 b0 T'|s' r0 h0 a0 T'|s' r0 h0 a0 b0 Hab T'|s' r0 h0 a0 T']; subst;
        cbn [Spec.cost op_cost edits is_edit] in *; unfold scost, sedit in *.
      + right; left. destruct (tail_optimal _ _ _ ci _ T' C) as [E Hs]; [lia|]. split; [exact E|apply Hs; lia].
      + left. destruct (tail_optimal _ _ _ cd _ T' C) as [E Hs]; [lia|]. split; [exact E|apply Hs; lia].
      + right; right. destruct (a =? b) eqn:E; [apply Z.eqb_eq in E; contradiction|].
        destruct (tail_optimal _ _ _ cs _ T' C) as [E' Hs]; [lia|]. split; [exact E'|apply Hs; lia].
      + right; right. rewrite Z.eqb_refl in *.
        destruct (tail_optimal _ _ _ 0 _ T' C) as [E' Hs]; [lia|]. split; [exact E'|apply Hs; lia].
    - intros [[E [s [Hopt He]]]|[[E [s [Hopt He]]]|[E [s [Hopt He]]]]];
        apply optimal_iff_lev in Hopt as [T C].
      + exists (Del a :: s). split; [apply optimal_iff_lev; split; [constructor; exact T|]|];
          cbn [Spec.cost op_cost edits is_edit]; lia.
      + exists (Ins b :: s). split; [apply optimal_iff_lev; split; [constructor; exact T|]|];
          cbn [Spec.cost op_cost edits is_edit]; lia.
      + unfold scost, sedit in *. destruct (a =? b) eqn:Eab.
        * apply Z.eqb_eq in Eab. subst b.
          exists (Keep a :: s). split; [apply optimal_iff_lev; split; [constructor; exact T|]|];
            cbn [Spec.cost op_cost edits is_edit]; lia.
        * apply Z.eqb_neq in Eab.
          exists (Sub a b :: s).
          split; [apply optimal_iff_lev; split; [constructor; assumption|]|];
            cbn [Spec.cost op_cost edits is_edit]; lia.
  Qed.

  Lemma er_spec_nil_l h m : er_spec [] h m <-> m = Z.of_nat (length h).
  Proof.
    split.
    - intros [s [[T _] He]]. apply transforms_nil_l in T. subst s. rewrite edits_all_ins in He. lia.
    - intros ->. exists (map Ins h). split; [|apply edits_all_ins].
      apply optimal_iff_lev. split; [apply transforms_all_ins|].
      rewrite lev_nil_l. apply cost_all_ins.
  Qed.

  Lemma er_spec_nil_r r m : er_spec r [] m <-> m = Z.of_nat (length r).
  Proof.
    split.
    - intros [s [[T _] He]]. apply transforms_nil_r in T. subst s. rewrite edits_all_del in He. lia.
    - intros ->. exists (map Del r). split; [|apply edits_all_del].
      apply optimal_iff_lev. split; [apply transforms_all_del|].
      rewrite lev_nil_r. apply cost_all_del.
  Qed.

  Lemma optdp_nil_l h : optdp [] h = (Z.of_nat (length h) * ci, [Z.of_nat (length h)]).
  Proof. reflexivity. Qed.

  Lemma optdp_nil_r r : optdp r [] = (Z.of_nat (length r) * cd, [Z.of_nat (length r)]).
  Proof. destruct r; reflexivity. Qed.

  Lemma optdp_cons a r b h :
    optdp (a :: r) (b :: h) =
    merge3 (shift cd 1 (optdp r (b :: h))) (shift ci 1 (optdp (a :: r) h))
           (shift (scost a b) (sedit a b) (optdp r h)).
  Proof. reflexivity. Qed.

  Lemma optdp_fst r : forall h, fst (optdp r h) = lev r h.
  Proof.
    induction r as [|a r IHr]; intros h; [reflexivity|].
    induction h as [|b h IHh].
    - rewrite optdp_nil_r, lev_nil_r. reflexivity.
    - rewrite optdp_cons, lev_cons'. unfold merge3, shift. cbn [fst].
      rewrite IHr, IHh, IHr. reflexivity.
  Qed.

  Lemma in_keep_if v p m : In m (keep_if v p) <-> fst p = v /\ In m (snd p).
  Proof.
    unfold keep_if. destruct (fst p =? v) eqn:E.
    - apply Z.eqb_eq in E. tauto.
    - apply Z.eqb_neq in E. cbn [In]. tauto.
  Qed.

  Lemma in_shift dc de p m : In m (snd (shift dc de p)) <-> In (m - de) (snd p).
  Proof.
    unfold shift. cbn [snd]. rewrite in_map_iff. split.
    - intros [x [E Hin]]. replace (m - de) with x by lia. exact Hin.
    - intros Hin. exists (m - de). split; [lia|exact Hin].
  Qed.

  Lemma fst_shift dc de (p : Z * list Z) : fst (shift dc de p) = fst p + dc.
  Proof. reflexivity. Qed.

  Theorem optdp_counts r : forall h m, In m (snd (optdp r h)) <-> er_spec r h m.
  Proof.
    induction r as [|a r IHr]; intros h m.
    - rewrite optdp_nil_l, er_spec_nil_l. cbn [snd In]. intuition.
    - induction h as [|b h IHh] in m |- *.
      + rewrite optdp_nil_r, er_spec_nil_r. cbn [snd In]. intuition.
      + rewrite optdp_cons, er_spec_cons. unfold merge3. cbn [snd].
        rewrite nodup_In, !in_app_iff, !in_keep_if, !in_shift.
        rewrite !fst_shift, !optdp_fst, IHr, IHh, IHr, <- lev_cons'. reflexivity.
  Qed.

  Theorem er_okb_iff r h m : er_okb ci cd cs r h m = true <-> er_spec r h m.
  Proof.
    unfold er_okb. rewrite existsb_exists. unfold Spec.opt_counts. split.
    - intros [x [Hin E]]. apply Z.eqb_eq in E. subst x. apply optdp_counts. exact Hin.
    - intros H. exists m. split; [apply optdp_counts; exact H|apply Z.eqb_refl].
  Qed.

  Theorem er_okb_iff_scripts r h m :
    er_okb ci cd cs r h m = true <->
    exists s, transforms s r h /\ (forall s', transforms s' r h -> cost s <= cost s') /\ edits s = m.
  Proof.
    rewrite er_okb_iff. split.
    - intros [s [[T Hm] E]]. exists s. auto.
    - intros [s [T [Hm E]]]. exists s. split; [split|]; assumption.
  Qed.

  Lemma opt_counts_iff r h m : In m (opt_counts r h) <-> er_spec r h m.
  Proof. apply optdp_counts. Qed.

  Lemma opt_counts_nonempty r h : opt_counts r h <> [].
  Proof.
    destruct (optimal_exists r h) as [s Hs].
    assert (Hin : In (edits s) (opt_counts r h)) by (apply opt_counts_iff; exists s; auto).
    intros E. rewrite E in Hin. exact Hin.
  Qed.

  Lemma fold_min_spec (l : list Z) d : In d l ->
    In (fold_right Z.min d l) l /\ forall x, In x l -> fold_right Z.min d l <= x.
  Proof.
    intros Hd. assert (G : forall l', (In (fold_right Z.min d l') l' \/ fold_right Z.min d l' = d)
                            /\ forall x, In x l' -> fold_right Z.min d l' <= x).
    { induction l' as [|y l' [IH1 IH2]]; cbn [fold_right In].
      - split; [right; reflexivity|intros x []].
      - split.
        + destruct (Z.min_spec y (fold_right Z.min d l')) as [[_ E]|[_ E]]; rewrite E.
          * left; left; reflexivity.
          * destruct IH1 as [IH1|IH1]; [left; right; exact IH1|right; exact IH1].
        + intros x [<-|Hx]; [lia|]. specialize (IH2 x Hx). lia. }
    destruct (G l) as [[G1|G1] G2]; split; try assumption. rewrite G1. exact Hd.
  Qed.

  Lemma fold_max_spec (l : list Z) d : In d l ->
    In (fold_right Z.max d l) l /\ forall x, In x l -> x <= fold_right Z.max d l.
  Proof.
    intros Hd. assert (G : forall l', (In (fold_right Z.max d l') l' \/ fold_right Z.max d l' = d)
                            /\ forall x, In x l' -> x <= fold_right Z.max d l').
    { induction l' as [|y l' [IH1 IH2]]; cbn [fold_right In].
      - split; [right; reflexivity|intros x []].
      - split.
        + destruct (Z.max_spec y (fold_right Z.max d l')) as [[_ E]|[_ E]]; rewrite E.
          * destruct IH1 as [IH1|IH1]; [left; right; exact IH1|right; exact IH1].
          * left; left; reflexivity.
        + intros x [<-|Hx]; [lia|]. specialize (IH2 x Hx). lia. }
    destruct (G l) as [[G1|G1] G2]; split; try assumption. rewrite G1. exact Hd.
  Qed.

  Lemma hd_in_opt_counts r h : In (hd 0 (opt_counts r h)) (opt_counts r h).
  Proof.
    pose proof (opt_counts_nonempty r h). destruct (opt_counts r h); [contradiction|left; reflexivity].
  Qed.

  Theorem min_opt_edits_fewest r h : fewest_edits ci cd cs r h (min_opt_edits ci cd cs r h).
  Proof.
    unfold fewest_edits, min_opt_edits.
    destruct (fold_min_spec (opt_counts r h) _ (hd_in_opt_counts r h)) as [H1 H2].
    split; [apply opt_counts_iff; exact H1|].
    intros s Hs. apply H2. apply opt_counts_iff. exists s. auto.
  Qed.

  Theorem max_opt_edits_most r h : most_edits ci cd cs r h (max_opt_edits ci cd cs r h).
  Proof.
    unfold most_edits, max_opt_edits.
    destruct (fold_max_spec (opt_counts r h) _ (hd_in_opt_counts r h)) as [H1 H2].
    split; [apply opt_counts_iff; exact H1|].
    intros s Hs. apply H2. apply opt_counts_iff. exists s. auto.
  Qed.

  (* "it never falls below the fewest nor exceeds the most edits found among minimum-cost
     alignments" *)
  Theorem er_spec_within r h m lo hi :
    er_spec r h m -> fewest_edits ci cd cs r h lo -> most_edits ci cd cs r h hi -> lo <= m <= hi.
  Proof.
    intros [s [Hs <-]] [_ Hlo] [_ Hhi]. split; [apply Hlo|apply Hhi]; exact Hs.
  Qed.

  Corollary er_spec_within_computed r h m :
    er_spec r h m -> min_opt_edits ci cd cs r h <= m <= max_opt_edits ci cd cs r h.
  Proof.
    intros H. apply (er_spec_within r h m); [exact H|apply min_opt_edits_fewest|apply max_opt_edits_most].
  Qed.
End Facts.

(* equal costs: every minimum-cost alignment has exactly lev 1 1 1 edits *)
Lemma cost_uniform c s : cost c c c s = c * edits s.
Proof.
  induction s as [|o s IH]; cbn [cost edits]; [lia|]. rewrite IH.
  destruct o; cbn [op_cost is_edit]; lia.
Qed.

Theorem uniform_optimal_edits c r h s : 0 < c ->
  optimal_script c c c r h s -> edits s = lev 1 1 1 r h.
Proof.
  intros Hc Hs. apply optimal_iff_lev in Hs as [T C].
  rewrite cost_uniform, (lev_scale c) in C by lia. nia.
Qed.

Theorem uniform_er_spec c r h : 0 < c -> er_spec c c c r h (lev 1 1 1 r h).
Proof.
  intros Hc. destruct (optimal_exists c c c r h) as [s Hs]. exists s. split; [exact Hs|].
  apply (uniform_optimal_edits c); assumption.
Qed.

Theorem uniform_er_spec_iff c r h m : 0 < c -> er_spec c c c r h m <-> m = lev 1 1 1 r h.
Proof.
  intros Hc. split.
  - intros [s [Hs <-]]. apply (uniform_optimal_edits c); assumption.
  - intros ->. apply uniform_er_spec. exact Hc.
Qed.

(* the judgement of an observed loss (used by the harness only on a disagreement) *)
Lemma choices_iff {A} (l : list (list A)) (x : list A) :
  In x (choices l) <-> Forall2 (fun a xs => In a xs) x l.
Proof.
  revert x; induction l as [|xs l IH]; intros x; cbn [choices].
  - split; [intros [<-|[]]; constructor|intros H; inversion H; left; reflexivity].
  - rewrite in_flat_map. split.
    + intros [a [Ha Hx]]. apply in_map_iff in Hx as [t [<- Ht]]. constructor; [exact Ha|].
      apply IH. exact Ht.
    + intros H. inversion H as [|a xs' t l' Ha Ht]; subst. exists a. split; [exact Ha|].
      apply in_map_iff. exists t. split; [reflexivity|]. apply IH. exact Ht.
Qed.

Lemma adm_vals_iff eos incl norm ci cd cs rh q :
  In q (adm_vals eos incl norm ci cd cs rh) <->
  let r := denote eos incl (fst rh) in
  let h := denote eos incl (snd rh) in
  if norm then
    match length r with
    | O => q = (if (0 <? length h)%nat then 1%Q else 0%Q)
    | S _ => exists m, er_spec ci cd cs r h m /\ q = ((m # 1) / (Z.of_nat (length r) # 1))%Q
    end
  else exists m, er_spec ci cd cs r h m /\ q = (m # 1).
Proof.
  unfold adm_vals. cbv zeta. destruct norm.
  - destruct (length (denote eos incl (fst rh))) eqn:EL.
    + cbn [In]. split; [intros [<-|[]]; reflexivity|intros ->; left; reflexivity].
    + rewrite in_map_iff. split.
      * intros [m [<- Hm]]. exists m. split; [apply opt_counts_iff; exact Hm|reflexivity].
      * intros [m [Hm ->]]. exists m. split; [reflexivity|apply opt_counts_iff; exact Hm].
  - rewrite in_map_iff. split.
    + intros [m [<- Hm]]. exists m. split; [apply opt_counts_iff; exact Hm|reflexivity].
    + intros [m [Hm ->]]. exists m. split; [reflexivity|apply opt_counts_iff; exact Hm].
Qed.

(* E is a matrix of error rates the property admits for the given (reference, hypothesis) pairs *)
Definition allowed_rates eos incl norm ci cd cs
  (pairs : list (list (list Z * list Z))) (E : list (list Q)) : Prop :=
  Forall2 (Forall2 (fun q rh => In q (adm_vals eos incl norm ci cd cs rh))) E pairs.

Definition loss_close (red : sreduction) (K : nat) (L : list (list Q)) (tol : Q) (obs : sobs) : bool :=
  match red, obs with
  | SNone, SMat rows => forall2b (forall2b (sclose tol)) L rows
  | SSum, SScalar q => sclose tol (qsum_s (map qsum_s L)) q
  | SMean, SScalar q => sclose tol (qsum_s (map qsum_s L) / (Z.of_nat K # 1)) q
  | _, _ => false
  end.

Lemma Forall2_map_r {A B C} (P : A -> C -> Prop) (g : B -> C) (l : list B) :
  forall x, Forall2 P x (map g l) <-> Forall2 (fun a b => P a (g b)) x l.
Proof.
  induction l as [|b l IH]; intros x; cbn [map].
  - split; intros H; inversion H; constructor.
  - split; intros H; inversion H; subst; constructor; try assumption; apply IH; assumption.
Qed.

Lemma Forall2_iff {A B} (P Q : A -> B -> Prop) : (forall a b, P a b <-> Q a b) ->
  forall x l, Forall2 P x l <-> Forall2 Q x l.
Proof.
  intros HPQ x l. split; intros H; induction H; constructor; try assumption; apply HPQ; assumption.
Qed.

Lemma choices_rows_iff {A B} (f : B -> list A) (ps : list (list B)) (E : list (list A)) :
  In E (choices (map (fun row => choices (map f row)) ps)) <->
  Forall2 (Forall2 (fun q b => In q (f b))) E ps.
Proof.
  rewrite choices_iff, Forall2_map_r. apply Forall2_iff. intros e row.
  rewrite choices_iff, Forall2_map_r. reflexivity.
Qed.

Theorem spec_mer_core_iff eos incl norm ci cd cs sub_avg red M pairs W tol obs : (2 <= M)%nat ->
  spec_mer_core eos incl norm ci cd cs sub_avg red M pairs W tol obs = true <->
  exists E, allowed_rates eos incl norm ci cd cs pairs E
            /\ loss_close red (length pairs * M) (spec_loss sub_avg M E W) tol obs = true.
Proof.
  intros HM. unfold spec_mer_core.
  replace (M <? 2)%nat with false by (symmetry; apply Nat.ltb_ge; exact HM).
  rewrite existsb_exists. unfold allowed_rates, loss_close.
  split; intros [E [H1 H2]]; exists E; (split; [|exact H2]); apply choices_rows_iff; exact H1.
Qed.
