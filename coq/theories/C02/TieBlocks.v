(* C02 - the blocks of `_string_matching` around the loop (PV.Gen.C02Src.er_row0, er_main, er_fin), in both
   configurations the preamble of an `error_rate` call can leave: return_mistakes still True (costs not all equal
   and positive: the `mistakes` table) or cleared by the uniform-cost shortcut (costs reset to 1: the cost table
   with del_mat, C01's path).  Each lemma: from a description of the state ([known st l]) the interpreted block
   runs to a state described by the next list. *)
From Coq Require Import QArith List String Lia ZifyBool ZifyNat.
From PV Require Import MiniPy.Syntax MiniPy.Interp MiniTorch.OpsC07 MiniTorch.LemmasC07 MiniTorch.OpsC01 MiniTorch.LemmasC01.
From PV Require Import Gen.C02Src C01.SrcRun C01.TieLib C01.TieMath C02.SrcRun C02.TieLib C02.TieMath C02.TieLoop C02.TieLoopU.
Import ListNotations.
Local Open Scope string_scope.

#[local] Arguments seq : simpl never.
#[local] Arguments zrange : simpl never.

Definition torch_module : val := VDict [(VStr "long", long_token); (VStr "float", float_token); (VStr "bool", bool_token)].

Definition lens_tensor (N : nat) (l : nat -> nat) : val := enc_i (mkTn [N] (map (fun n => Z.of_nat (l n)) (seq 0 N))).

(* after the preamble: flags ([rm] = return_mistakes as the shortcut left it), time-major tensors, sizes, the costs
   in force over the denominator s, mult, the lengths *)
Definition stageA (rm : bool) (s : positive) (ci cd cs : Z) (mult : Q) (R N H : nat) (rf hf : nat -> nat -> Z) (rl hl : nat -> nat)
  (nm w : bool) : list (string * val) :=
  [("exclude_last", VBool false); ("return_mistakes", VBool rm); ("return_mask", VBool false);
   ("return_prf_dsts", VBool false); ("norm", VBool nm); ("warn", VBool w);
   ("ref", enc_i (mkTn [R; N] (tab2 R N rf))); ("hyp", enc_i (mkTn [H; N] (tab2 H N hf)));
   ("max_ref_steps", VInt (Z.of_nat R)); ("batch_size", VInt (Z.of_nat N)); ("max_hyp_steps", VInt (Z.of_nat H));
   ("device", device_token); ("torch", torch_module);
   ("ins_cost", VQ (qz s ci)); ("del_cost", VQ (qz s cd)); ("sub_cost", VQ (qz s cs)); ("mult", VQ mult);
   ("ref_lens", lens_tensor N rl); ("hyp_lens", lens_tensor N hl)].

(* after row 0: the mistakes path / the cost-only path *)
Definition stageBm (s : positive) (cd : Z) (R N : nat) : list (string * val) :=
  [("mistakes", enc_x (mkTn [S R; N] (tab2 (S R) N (fun i _ => zf 1 (Z.of_nat i)))));
   ("row", enc_x (mkTn [S R; N] (tab2 (S R) N (fun i _ => zf s (Z.of_nat i * cd)))))].

Definition stageBu (s : positive) (cd : Z) (R N : nat) : list (string * val) :=
  [("del_mat", enc_x (mkTn [S R; S R; 1%nat] (tab2 (S R) (S R) (fun i j => ofx s (C01.Model.del_entry cd i j)))));
   ("row", enc_x (mkTn [S R; N] (tab2 (S R) N (fun i _ => zf s (Z.of_nat i * cd)))))].

(* after the gather: er[n] = g n / sg *)
Definition stageC (sg : positive) (g : nat -> Z) (mult : Q) (N : nat) (rl hl : nat -> nat) (nm w : bool) : list (string * val) :=
  [("er", enc_x (mkTn [N] (map (fun n => zf sg (g n)) (seq 0 N))));
   ("mult", VQ mult); ("norm", VBool nm); ("warn", VBool w);
   ("ref_lens", lens_tensor N rl); ("hyp_lens", lens_tensor N hl)].

Lemma z2f_zf1 : forall z, z2f z = zf 1 z.
Proof. intros. unfold z2f, zf. now rewrite qz_1. Qed.

Definition main_flags : stmt := match er_main with SSeq a _ => a | _ => SPass end.
Definition main_rest : stmt := match er_main with SSeq _ (SSeq _ r) => r | _ => SPass end.
Lemma er_main_eq : er_main = SSeq main_flags (SSeq er_loop main_rest).
Proof. reflexivity. Qed.

Section Blocks.
  Variables (s : positive) (ci cd cs : Z) (mult : Q) (R N H : nat) (rf hf : nat -> nat -> Z) (rl hl : nat -> nat) (nm w : bool).
  Notation A rm := (stageA rm s ci cd cs mult R N H rf hf rl hl nm w).

  Lemma row0_run_m : forall st, known st (A true) -> runs_to (fun st' => known st' (A true ++ stageBm s cd R N)) (exec ext02 er_row0 st).
  Proof.
    intros st K. unfold stageA in K. open_known K. unfold er_row0.
    assign ltac:(evn; replace (Z.of_nat R + 1)%Z with (Z.of_nat (S R)) by lia; rewrite arange_f_nat; evn; reflexivity).
    ifstep.
    assign ltac:(evn; replace (Z.of_nat R + 1)%Z with (Z.of_nat (S R)) by lia; rewrite expand2_col; evn; reflexivity).
    asg.
    assign ltac:(evn; replace (Z.of_nat R + 1)%Z with (Z.of_nat (S R)) by lia; rewrite expand2_col; evn; reflexivity).
    apply runs_to_ok. unfold stageA, stageBm. close_known.
    - match goal with L : lookup "mistakes" _ = _ |- _ => rewrite L end. do 3 f_equal. apply tab2_ext. intros i j Hi Hj.
      apply z2f_zf1.
    - match goal with L : lookup "row" _ = _ |- _ => rewrite L end. do 3 f_equal. apply tab2_ext. intros i j Hi Hj.
      apply fmul_z2f_zf.
  Qed.

  Lemma row0_run_u : forall st, known st (A false) -> runs_to (fun st' => known st' (A false ++ stageBu s cd R N)) (exec ext02 er_row0 st).
  Proof.
    intros st K. unfold stageA in K. open_known K. unfold er_row0.
    assign ltac:(evn; replace (Z.of_nat R + 1)%Z with (Z.of_nat (S R)) by lia; rewrite arange_f_nat; evn; reflexivity).
    ifstep.
    asg. asg.
    assign ltac:(evn; change 1%Z with (Z.of_nat 1); rewrite full_mat, triu_mat; evn; reflexivity).
    asg.
    assign ltac:(evn; replace (Z.of_nat R + 1)%Z with (Z.of_nat (S R)) by lia; rewrite expand2_col; evn; reflexivity).
    apply runs_to_ok. unfold stageA, stageBu. close_known.
    - match goal with L : lookup "del_mat" _ = _ |- _ => rewrite L end. do 3 f_equal. apply tab2_ext. intros i j Hi Hj.
      apply del_entry_src.
    - match goal with L : lookup "row" _ = _ |- _ => rewrite L end. do 3 f_equal. apply tab2_ext. intros i j Hi Hj.
      apply fmul_z2f_zf.
  Qed.

  (* er_main: the flag block, the loop, the exits of the other configurations, the gather *)
  (* column n of the two tables after all H steps, from row 0 = arange * del_cost, mistakes 0 = arange *)
  Definition final_rm (n : nat) : list Z * list Z :=
    iter_col ci cd cs R H rf hf hl H 0 (fun i _ => Z.of_nat i * cd)%Z (fun i _ => Z.of_nat i) n.

  (* column n of the cost table after all H steps *)
  Definition final_col (n : nat) : list Z :=
    iter_colU ci cd cs R H rf hf hl H 0 (fun i _ => Z.of_nat i * cd)%Z n.

  Section AnyLoop.
    Variable lp : stmt.

    Hypothesis Hlp_m : forall st lf mf,
      body_pre s ci cd cs R N H rf hf hl (lens_tensor N rl) (VQ mult) (VBool nm) (VBool w) lf mf st ->
      lookup "max_hyp_steps" (vars st) = Some (VInt (Z.of_nat H)) ->
      runs_to (body_pre s ci cd cs R N H rf hf hl (lens_tensor N rl) (VQ mult) (VBool nm) (VBool w)
                 (fun i n => nth i (fst (iter_col ci cd cs R H rf hf hl H 0 lf mf n)) 0%Z)
                 (fun i n => nth i (snd (iter_col ci cd cs R H rf hf hl H 0 lf mf n)) 0%Z)) (exec ext02 lp st).

    Lemma main_run_m_gen : forall st, (forall n, (n < N)%nat -> (rl n <= R)%nat) ->
      known st (A true ++ stageBm s cd R N) ->
      runs_to (fun st' => known st' (stageC 1 (fun n => nth (rl n) (snd (final_rm n)) 0%Z) mult N rl hl nm w))
              (exec ext02 (SSeq main_flags (SSeq lp main_rest)) st).
    Proof.
      intros st Hrl K. unfold stageA, stageBm in K. open_known K.
      unfold main_flags, er_main. cbv iota. ifstep. ifstep. seqnorm.
      eapply runs_to_seq.
      - apply (Hlp_m st (fun i _ => Z.of_nat i * cd)%Z (fun i _ => Z.of_nat i)); [|assumption].
        unfold body_pre. repeat split; assumption.
      - intros st1 P1.
        destruct P1 as (Hexcl & Hmist & Hmask & Hprf & Hhl & Href & Hhyp & Hci & Hcs & Hcd & Hmr & Hrl' & Hmu & Hno & Hwa & Hrow & Hmi).
        unfold main_rest, er_main. cbv iota. unfold lens_tensor in *.
        ifstep. ifstep. ifstep.
        assign ltac:(evn; rewrite gather0_row by (intros j Hj; specialize (Hrl j Hj); lia); evn; reflexivity).
        apply runs_to_ok. unfold stageC, lens_tensor. close_known.
    Qed.

    Hypothesis Hlp_u : forall st lf,
      body_preU s ci cd cs R N H rf hf hl (lens_tensor N rl) (VQ mult) (VBool nm) (VBool w) lf st ->
      lookup "max_hyp_steps" (vars st) = Some (VInt (Z.of_nat H)) ->
      runs_to (body_preU s ci cd cs R N H rf hf hl (lens_tensor N rl) (VQ mult) (VBool nm) (VBool w)
                 (fun i n => nth i (iter_colU ci cd cs R H rf hf hl H 0 lf n) 0%Z)) (exec ext02 lp st).

    Lemma main_run_u_gen : forall st, (forall n, (n < N)%nat -> (rl n <= R)%nat) ->
      known st (A false ++ stageBu s cd R N) ->
      runs_to (fun st' => known st' (stageC s (fun n => nth (rl n) (final_col n) 0%Z) mult N rl hl nm w))
              (exec ext02 (SSeq main_flags (SSeq lp main_rest)) st).
    Proof.
      intros st Hrl K. unfold stageA, stageBu in K. open_known K.
      unfold main_flags, er_main. cbv iota. ifstep. ifstep. seqnorm.
      eapply runs_to_seq.
      - apply (Hlp_u st (fun i _ => Z.of_nat i * cd)%Z); [|assumption].
        unfold body_preU. repeat split; assumption.
      - intros st1 P1. destruct P1 as (Hexcl & Hmist & Hmask & Hprf & Hhl & Href & Hhyp & Hci & Hcs & Hdm & Hrl' & Hmu & Hno & Hwa & Hrow).
        unfold main_rest, er_main. cbv iota. unfold lens_tensor in *.
        ifstep. ifstep. ifstep.
        assign ltac:(evn; rewrite gather0_row by (intros j Hj; specialize (Hrl j Hj); lia); evn; reflexivity).
        apply runs_to_ok. unfold stageC, lens_tensor. close_known.
    Qed.
  End AnyLoop.

  (* er_fin: mult, the normalisation, return *)
  Definition fin_value (sg : positive) (g : nat -> Z) (n : nat) : fx :=
    let x := fmul (zf sg (g n)) (Fq mult) in
    if nm then (if (Z.of_nat (rl n) =? 0)%Z then b2f (Z.of_nat (hl n) >? 0)%Z else fdiv x (z2f (Z.of_nat (rl n))))
    else x.

  Lemma fin_run : forall sg g st, known st (stageC sg g mult N rl hl nm w) ->
    returns (enc_x (mkTn [N] (map (fin_value sg g) (seq 0 N)))) (exec ext02 er_fin st).
  Proof.
    intros sg g st K. unfold stageC, lens_tensor in K. open_known K. unfold er_fin.
    asg. ifstep. unfold fin_value. destruct nm; cbv iota.
    - asg. asg. ifstep.
      match goal with |- context [if ?b then _ else _] => destruct b eqn:Hany end.
      + ifsame. asg. cbn [exec eval]. look. cbn [bind]. eexists. reflexivity.
      + seqnorm. cbn [exec eval]. look. cbn [bind]. eexists. do 4 f_equal.
        apply map_ext_seq. intros n Hn.
        replace (Z.of_nat (rl n) =? 0)%Z with false; [reflexivity|].
        unfold any_b in Hany. cbn [dat] in Hany. symmetry.
        destruct (Z.of_nat (rl n) =? 0)%Z eqn:E; [|reflexivity].
        rewrite <- Hany. symmetry. apply existsb_exists. exists true. split; [|reflexivity].
        apply in_map_iff. exists n. split; [exact E|apply in_seq; lia].
    - seqnorm. cbn [exec eval]. look. cbn [bind]. eexists. reflexivity.
  Qed.
End Blocks.
