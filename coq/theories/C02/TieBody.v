(* C02 - the WHOLE body of `_string_matching` as one term (PV.Gen.C02Src.er_body): it is the sequence of the blocks
   er_pre; er_row0; <flag block; loop; exits; gather>; er_fin, where the loop differs from er_loop only in the name of a
   tuple-unpacking temporary of the cost-only branch (the translator numbers them per translated term): its body is an
   instance of the bodies TieLoop.body_else / TieLoopU.body_tmp are proved for; everything else is literally the blocks. *)
From Coq Require Import ZArith List String.
From PV Require Import MiniPy.Syntax MiniPy.Interp MiniTorch.OpsC01.
From PV Require Import Gen.C02Src C01.TieLib C02.SrcRun C02.TieLib C02.TieInner C02.TieLoop C02.TieLoopU C02.TieBlocks C02.TieWhole.
Import ListNotations.
Local Open Scope string_scope.


Definition loop3 : stmt := match seq_drop 19 er_body with SSeq a _ => a | _ => SPass end.
Definition body3 : stmt := match loop3 with SFor _ _ b => b | _ => SPass end.
Lemma loop3_eq : loop3 = SFor "hyp_idx" loop_iter body3.
Proof. reflexivity. Qed.

Lemma er_body_split : forall st,
  exec ext02 er_body st =
  exec ext02 (SSeq er_pre (SSeq er_row0 (SSeq (SSeq main_flags (SSeq loop3 main_rest)) er_fin))) st.
Proof. intros st. rewrite !exec_flatten. f_equal. Qed.

Section Body3.
  Variables (s : positive) (ci cd cs : Z) (R N H : nat) (rf hf : nat -> nat -> Z) (hl : nat -> nat).
  Variables (vrl vmult vnorm vwarn : val).

  Theorem body_run3 : forall st k lf mf, (1 <= k <= H)%nat -> body_pre s ci cd cs R N H rf hf hl vrl vmult vnorm vwarn lf mf st ->
    runs_to (body_pre s ci cd cs R N H rf hf hl vrl vmult vnorm vwarn
               (fun i n => nth i (fst (step_col ci cd cs R H rf hf hl k lf mf n)) 0%Z)
               (fun i n => nth i (snd (step_col ci cd cs R H rf hf hl k lf mf n)) 0%Z))
            (exec ext02 body3 (set_var "hyp_idx" (VInt (Z.of_nat k)) st)).
  Proof. exact (body_run_else s ci cd cs R N H rf hf hl vrl vmult vnorm vwarn (else_of body3)). Qed.

  Theorem body_runU3 : forall st k lf, (1 <= k <= H)%nat -> body_preU s ci cd cs R N H rf hf hl vrl vmult vnorm vwarn lf st ->
    runs_to (body_preU s ci cd cs R N H rf hf hl vrl vmult vnorm vwarn (fun i n => nth i (step_colU ci cd cs R H rf hf hl k lf n) 0%Z))
            (exec ext02 body3 (set_var "hyp_idx" (VInt (Z.of_nat k)) st)).
  Proof. exact (body_run_tmp s ci cd cs R N H rf hf hl vrl vmult vnorm vwarn "t3"). Qed.
End Body3.

Lemma loop3_ok : loop_ok loop3.
Proof.
  split; intros; rewrite loop3_eq.
  - apply (loop_tie_gen s ci cd cs R N H rf hf hl vrl vmult vnorm vwarn body3); [apply body_run3|assumption|assumption].
  - apply (loop_tie_genU s ci cd cs R N H rf hf hl vrl vmult vnorm vwarn body3); [apply body_runU3|assumption|assumption].
Qed.
