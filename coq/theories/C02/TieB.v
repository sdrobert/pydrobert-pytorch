(* C02 - the SECOND source tie: `minimum_error_rate_loss` (src/pydrobert/torch/_string.py), checked by the kernel.
   PV.Gen.C02BSrc.{mer_body, mer_pre, mer_tail} are the MiniPy terms harness/py2coq/translate.py regenerates from /repo
   on every C02 run (unit C02BSrc); PV.MiniPy.Interp is their semantics; the torch calls mean what PV.MiniTorch.OpsC02B
   (repeat, size, mean, sum, the slice of a shape) and the operations of the first tie say (through SrcRunB.extB); the
   call `error_rate(...)` IS the run of the translated `error_rate` / `_string_matching` of unit C02Src, whose tie
   (C02.Tie.error_rate_wrapper_is_model) is used here; softmax(log_probs, 1) is an oracle: its values are the data w.

   Statements, for EVERY batch size N > 0, number of samples M, widths R, H <> 0, token values, eos / include_eos / norm /
   batch_first / warn, costs (integers over any common denominator s), 2-D or 3-D reference, sub_avg, reduction, oracle
   weights w (N rows of M) and contents of log_probs:

     mer_is_model            M >= 2: the whole body returns the tensor of Model.mer_loss ([mres_tensor]: entry q as the float
                             q in lowest terms; mean / sum as a 0-dimensional tensor)
     mer_blocks_is_model     the same for the two blocks mer_pre; mer_tail run in sequence
     mer_raises              M < 2: the whole body raises RuntimeError (Model.mer_loss = MErr)
     mer_loss_entries        composed with ProofsMer.mer_loss_formula / mer_er_allowed (reduction = none): entry (n, m) of the
                             returned tensor = (er[n,m] - mean_m er[n,.]) * w[n,m] (without the mean when sub_avg is off), where
                             er[n,m] is an error rate the property admits for sample m of batch element n against its reference
   The files: TieBLib (what reaches extB, tactics), TieBPre (mer_pre), TieBTail (mer_tail), TieBMath (arithmetic, the model). *)
From Coq Require Import ZArith QArith List String Bool Arith Lia.
From PV Require Import MiniPy.Syntax MiniPy.Interp MiniPy.Lemmas MiniTorch.Ops MiniTorch.Lemmas MiniTorch.OpsC07 MiniTorch.LemmasC07
  MiniTorch.OpsC01 MiniTorch.LemmasC01 MiniTorch.OpsC02 MiniTorch.OpsC02B MiniTorch.LemmasC02B.
From PV Require Import Gen.C02Src Gen.C02BSrc C01.SrcRun C02.SrcRun C02.SrcRunB C02.TieBLib C02.TieBPre C02.TieBTail C02.TieBMath.
From PV Require C01.Obs C01.Spec C01.Model C01.Proofs C02.Spec C02.Model C02.ProofsModel C02.ProofsMer C02.TieWhole C02.Tie.
Import ListNotations.
Local Open Scope string_scope.

Notation rect := C01.Proofs.rect.

(* a 3-D tensor as nested lists: N lists of M sequences of width T when batch_first, else T planes of N rows of M entries *)
Definition wf3_src (bf : bool) (N M T : nat) (t : list (list (list Z))) : Prop :=
  if bf then List.length t = N /\ (forall row, List.In row t -> List.length row = M /\ rect T row)
  else List.length t = T /\ (forall pl, List.In pl t -> List.length pl = N /\ rect M pl).

Definition wf_ref_src (bf : bool) (N M R : nat) (ref : list (list Z) + list (list (list Z))) : Prop :=
  match ref with inl r2 => C02.Tie.wf_src bf N R r2 | inr r3 => wf3_src bf N M R r3 end.

Definition ten3x (bf : bool) (N M T : nat) (t : list (list (list Z))) : tn Z :=
  mkTn (shape3 bf N M T) (List.concat (List.concat t)).

Definition ref_x (bf : bool) (N M R : nat) (ref : list (list Z) + list (list (list Z))) : tn Z :=
  match ref with inl r2 => mkTn (flat_shape bf N R) (List.concat r2) | inr r3 => ten3x bf N M R r3 end.

Lemma wf3_src_model : forall bf N M T t, wf3_src bf N M T t -> C02.ProofsMer.wf3 bf N M t.
Proof.
  intros bf N M T t. unfold wf3_src, C02.ProofsMer.wf3. destruct bf.
  - intros [HN Hr]. split; [exact HN|]. split.
    + intros row Hin. now apply Hr.
    + exists T. intros row Hin s Hs. now apply (Hr row Hin).
  - intros [_ Hp] pl Hin row Hrow. now apply (Hp pl Hin).
Qed.

Lemma wf3_src_flat : forall bf N M T t, wf3_src bf N M T t ->
  C02.Tie.wf_src bf (N * M) T (C02.Model.flatten3 bf t).
Proof.
  intros bf N M T t. unfold wf3_src, C02.Tie.wf_src, C02.Model.flatten3. destruct bf.
  - intros [HN Hr]. split.
    + rewrite (C02.ProofsMer.length_concat_const M) by (intros row Hin; now apply Hr). now rewrite HN.
    + intros s Hs. apply in_concat in Hs as [row [Hin Hs]]. now apply (Hr row Hin).
  - intros [HT Hp]. split; [now rewrite map_length|].
    intros s Hs. apply in_map_iff in Hs as [pl [<- Hin]].
    rewrite (C02.ProofsMer.length_concat_const M) by (intros row Hrow; now apply (Hp pl Hin)).
    now rewrite (proj1 (Hp pl Hin)).
Qed.

(* the flattened tensor of the source is the matrix the first tie speaks about *)
Lemma flat_is_mat : forall bf N M T t, (0 < N * M)%nat -> wf3_src bf N M T t ->
  mkTn (flat_shape bf (N * M) T) (List.concat (List.concat t)) = mat_tensor bf (N * M) (C02.Model.flatten3 bf t).
Proof.
  intros bf N M T t HK Hwf. pose proof (wf3_src_flat bf N M T t Hwf) as Hf.
  unfold mat_tensor, flat_shape, C02.Tie.wf_src, C02.Model.flatten3 in *. destruct bf; destruct Hf as [HL HW].
  - f_equal. f_equal. f_equal.
    destruct (List.concat t) as [|r0 rest]; [cbn in HL; lia|]. cbn [hd]. symmetry. apply HW. now left.
  - rewrite map_length in *. rewrite concat_concat_map. f_equal. f_equal. exact (eq_sym (proj1 Hwf)).
Qed.

Lemma expand_ref_wf_src : forall bf N M R r2, C02.Tie.wf_src bf N R r2 -> wf3_src bf N M R (C02.Model.expand_ref bf M r2).
Proof.
  intros bf N M R r2. unfold C02.Tie.wf_src, wf3_src, C02.Model.expand_ref. destruct bf; intros [HL HW].
  - split; [now rewrite map_length|]. intros row Hin. apply in_map_iff in Hin as [s [<- Hs]]. split; [apply repeat_length|].
    intros s' Hs'. apply repeat_spec in Hs'. subst s'. now apply HW.
  - split; [now rewrite map_length|]. intros pl Hin. apply in_map_iff in Hin as [row [<- Hrow]]. split.
    + rewrite map_length. now apply HW.
    + intros r Hr. apply in_map_iff in Hr as [x [<- _]]. apply repeat_length.
Qed.

Lemma wf_ref_src_model : forall bf N M R ref, wf_ref_src bf N M R ref -> C02.ProofsMer.wf_ref bf N M ref.
Proof.
  intros bf N M R [r2|r3]; cbn [wf_ref_src C02.ProofsMer.wf_ref]; [apply C02.Tie.wf_src_model|apply wf3_src_model].
Qed.

Lemma ref3_wf_src : forall bf N M R ref, wf_ref_src bf N M R ref -> wf3_src bf N M R (C02.Model.ref3_of bf M ref).
Proof. intros bf N M R [r2|r3]; cbn [wf_ref_src C02.Model.ref3_of]; [apply expand_ref_wf_src|auto]. Qed.

Lemma body_split : forall w st, exec (extB w) mer_body st = exec (extB w) (SSeq mer_pre mer_tail) st.
Proof.
  intros w st. unfold mer_body, mer_pre, mer_tail. symmetry. apply execB_seq4.
Qed.

Definition mer_args (s : positive) (c : C01.Model.cfg) (sub_avg : bool) (red : C02.Model.reduction) (N M R H : nat)
  (lpd : list fx) (ref : list (list Z) + list (list (list Z))) (hyp : list (list (list Z))) (warn : bool) : list (string * val) :=
  mer_vars (mkTn [N; M] lpd) (ref_x (C01.Model.c_bf c) N M R ref) (ten3x (C01.Model.c_bf c) N M H hyp)
    (C01.Model.c_eos c) (C01.Model.c_incl c) sub_avg (C01.Model.c_bf c) (C01.Model.c_norm c)
    (qz s (C01.Model.c_ins c)) (qz s (C01.Model.c_del c)) (qz s (C01.Model.c_sub c)) (red_val red) warn.

Definition run_mer_prog (prog : stmt) (w : list (list Q)) (s : positive) (c : C01.Model.cfg) (sub_avg : bool)
  (red : C02.Model.reduction) (N M R H : nat) (lpd : list fx) (ref : list (list Z) + list (list (list Z)))
  (hyp : list (list (list Z))) (warn : bool) : outcome val :=
  Interp.run (extB w) prog (mer_args s c sub_avg red N M R H lpd ref hyp warn).

Definition run_mer := run_mer_prog mer_body.
Definition run_mer_blocks := run_mer_prog mer_blocks.

(* the block mer_pre on the arguments of a call: the flattened tensors over the data of Model.flatten3 / ref3_of *)
Lemma pre_on_args : forall w s c sub_avg red N M R H lpd ref hyp warn,
  R <> 0%nat -> H <> 0%nat -> wf_ref_src (C01.Model.c_bf c) N M R ref -> wf3_src (C01.Model.c_bf c) N M H hyp ->
  exec (extB w) mer_pre (mkState (mer_args s c sub_avg red N M R H lpd ref hyp warn) []) =
  Ok CNormal
    (mkState (pre_vars (mkTn [N; M] lpd)
                (mkTn (flat_shape (C01.Model.c_bf c) (N * M) R) (List.concat (List.concat (C02.Model.ref3_of (C01.Model.c_bf c) M ref))))
                (mkTn (flat_shape (C01.Model.c_bf c) (N * M) H) (List.concat (List.concat hyp)))
                (C01.Model.c_bf c) N M R H (opt_int (C01.Model.c_eos c)) (VBool (C01.Model.c_incl c)) (VBool sub_avg)
                (VBool (C01.Model.c_norm c)) (VQ (qz s (C01.Model.c_ins c))) (VQ (qz s (C01.Model.c_del c))) (VQ (qz s (C01.Model.c_sub c)))
                (red_val red) (VBool warn)) []).
Proof.
  intros w s c sub_avg red N M R H lpd ref hyp warn HR HH Href Hhyp.
  unfold mer_args, mer_vars, ref_x, ten3x, wf_ref_src, C02.Tie.wf_src in *.
  destruct ref as [r2|r3]; cbn [C02.Model.ref3_of].
  - apply pre_run_2; [assumption|assumption| |]; destruct (C01.Model.c_bf c); apply Href.
  - apply pre_run_3; assumption.
Qed.

(* M >= 2: the two blocks in sequence return the tensor of Model.mer_loss *)
Lemma blocks_return : forall w s c sub_avg red N M R H lpd ref hyp warn,
  (0 < N)%nat -> (2 <= M)%nat -> R <> 0%nat -> H <> 0%nat ->
  wf_ref_src (C01.Model.c_bf c) N M R ref -> wf3_src (C01.Model.c_bf c) N M H hyp -> C02.ProofsMer.wf_w N M w ->
  exists st', exec (extB w) (SSeq mer_pre mer_tail) (mkState (mer_args s c sub_avg red N M R H lpd ref hyp warn) []) =
              Ok (CReturn (enc_x (mres_tensor N M (C02.Model.mer_loss c sub_avg red N M w ref hyp)))) st'.
Proof.
  intros w s c sub_avg red N M R H lpd ref hyp warn HN HM HR HH Href Hhyp Hw.
  cbn [exec]. rewrite (pre_on_args w s c sub_avg red N M R H lpd ref hyp warn HR HH Href Hhyp). cbn [bind].
  assert (HK : (0 < N * M)%nat) by nia.
  pose proof (ref3_wf_src _ N M R ref Href) as Href3.
  rewrite (flat_is_mat _ N M R _ HK Href3), (flat_is_mat _ N M H _ HK Hhyp).
  destruct (C02.Tie.error_rate_wrapper_is_model s c (N * M) R H
              (C02.Model.flatten3 (C01.Model.c_bf c) (C02.Model.ref3_of (C01.Model.c_bf c) M ref))
              (C02.Model.flatten3 (C01.Model.c_bf c) hyp) warn HK
              (wf3_src_flat _ N M R _ Href3) (wf3_src_flat _ N M H _ Hhyp) (fun _ => conj HR HH)) as [st' He].
  unfold C02.Tie.run_error_rate_wrapper, C02.Tie.model_tensor in He.
  rewrite (er_flat c N M ref hyp HM (wf3_src_model _ N M H hyp Hhyp) (wf_ref_src_model _ N M R ref Href)) in He.
  destruct Hw as [HwN HwM].
  destruct (tail_run w N M lpd _ _ (C01.Model.c_bf c) (C01.Model.c_eos c) (C01.Model.c_incl c) (C01.Model.c_norm c) warn
              (qz s (C01.Model.c_ins c)) (qz s (C01.Model.c_del c)) (qz s (C01.Model.c_sub c)) HwN HwM red
              _ (size_samples (C01.Model.c_bf c) N M R H globals02) (size_batch _ N M R H _) sub_avg (e_src c ref hyp) st' HM He) as [st'' Ht].
  unfold pre_vars. rewrite Ht. exists st''. do 3 f_equal.
  exact (loss_t_is_model c sub_avg N M w ref hyp HN HM (wf3_src_model _ N M H hyp Hhyp) (wf_ref_src_model _ N M R ref Href)
           (conj HwN HwM) red).
Qed.

Theorem mer_blocks_is_model : forall w s c sub_avg red N M R H lpd ref hyp warn,
  (0 < N)%nat -> (2 <= M)%nat -> R <> 0%nat -> H <> 0%nat ->
  wf_ref_src (C01.Model.c_bf c) N M R ref -> wf3_src (C01.Model.c_bf c) N M H hyp -> C02.ProofsMer.wf_w N M w ->
  exists st', run_mer_blocks w s c sub_avg red N M R H lpd ref hyp warn =
              Ok (enc_x (mres_tensor N M (C02.Model.mer_loss c sub_avg red N M w ref hyp))) st'.
Proof.
  intros w s c sub_avg red N M R H lpd ref hyp warn HN HM HR HH Href Hhyp Hw.
  destruct (blocks_return w s c sub_avg red N M R H lpd ref hyp warn HN HM HR HH Href Hhyp Hw) as [st' He].
  unfold run_mer_blocks, run_mer_prog, Interp.run, mer_blocks. rewrite He. now exists st'.
Qed.

Theorem mer_is_model : forall w s c sub_avg red N M R H lpd ref hyp warn,
  (0 < N)%nat -> (2 <= M)%nat -> R <> 0%nat -> H <> 0%nat ->
  wf_ref_src (C01.Model.c_bf c) N M R ref -> wf3_src (C01.Model.c_bf c) N M H hyp -> C02.ProofsMer.wf_w N M w ->
  exists st', run_mer w s c sub_avg red N M R H lpd ref hyp warn =
              Ok (enc_x (mres_tensor N M (C02.Model.mer_loss c sub_avg red N M w ref hyp))) st'.
Proof.
  intros w s c sub_avg red N M R H lpd ref hyp warn HN HM HR HH Href Hhyp Hw.
  destruct (blocks_return w s c sub_avg red N M R H lpd ref hyp warn HN HM HR HH Href Hhyp Hw) as [st' He].
  unfold run_mer, run_mer_prog, Interp.run. rewrite body_split, He. now exists st'.
Qed.

(* M < 2: RuntimeError, as Model.mer_loss = MErr *)
Theorem mer_raises : forall w s c sub_avg red N M R H lpd ref hyp warn,
  (M < 2)%nat -> R <> 0%nat -> H <> 0%nat ->
  wf_ref_src (C01.Model.c_bf c) N M R ref -> wf3_src (C01.Model.c_bf c) N M H hyp ->
  (exists st', run_mer w s c sub_avg red N M R H lpd ref hyp warn = Exc runtime_error st') /\
  (exists st', run_mer_blocks w s c sub_avg red N M R H lpd ref hyp warn = Exc runtime_error st') /\
  C02.Model.mer_loss c sub_avg red N M w ref hyp = C02.Model.MErr.
Proof.
  intros w s c sub_avg red N M R H lpd ref hyp warn HM HR HH Href Hhyp.
  assert (He : exists st', exec (extB w) (SSeq mer_pre mer_tail) (mkState (mer_args s c sub_avg red N M R H lpd ref hyp warn) []) =
                           Exc runtime_error st').
  { cbn [exec]. rewrite (pre_on_args w s c sub_avg red N M R H lpd ref hyp warn HR HH Href Hhyp). cbn [bind].
    unfold pre_vars. rewrite (tail_raises w N M _ _ _ _ _ _ _ _ _ _ _ _ _ (size_samples _ N M R H _)) by exact HM. eexists. reflexivity. }
  destruct He as [st' He]. split; [|split].
  - unfold run_mer, run_mer_prog, Interp.run. rewrite body_split, He. now exists st'.
  - unfold run_mer_blocks, run_mer_prog, Interp.run, mer_blocks. rewrite He. now exists st'.
  - now apply C02.ProofsMer.mer_loss_too_few_samples.
Qed.

(* composed with the model's theorems: a statement purely about the interpreted source *)
(* reduction = "none": entry (n, m) of the tensor `minimum_error_rate_loss` returns is
   (er[n,m] - mean over the M samples of er[n,.]) * w[n,m]   (er[n,m] * w[n,m] when sub_avg is off),
   where er[n,m] is an error rate the property admits (C02.Spec.spec_er_val: the edit count of a minimum-cost alignment,
   normalised with the empty-reference rule when norm is on) for sample m of batch element n against its reference
   (row n of a 2-D ref, entry (n, m) of a 3-D one), each cut at its first eos *)
Theorem mer_loss_entries : forall w s c sub_avg N M R H lpd ref hyp warn,
  (0 < N)%nat -> (2 <= M)%nat -> R <> 0%nat -> H <> 0%nat ->
  wf_ref_src (C01.Model.c_bf c) N M R ref -> wf3_src (C01.Model.c_bf c) N M H hyp -> C02.ProofsMer.wf_w N M w ->
  exists (er : nat -> nat -> Q) out st',
    run_mer w s c sub_avg C02.Model.RNone N M R H lpd ref hyp warn = Ok (enc_x (mkTn [N; M] out)) st' /\
    List.length out = (N * M)%nat /\
    (forall n m, (n < N)%nat -> (m < M)%nat ->
       let mean := (C02.Model.qsum (map (er n) (seq 0 M)) / (Z.of_nat M # 1))%Q in
       nth (n * M + m) out FNaN = qfx ((if sub_avg then er n m - mean else er n m) * nth m (nth n w []) 0)%Q) /\
    (forall n m,
       exists v, er n m = C02.Model.val_q v /\
         C02.Spec.spec_er_val (C01.Model.c_norm c) (C01.Model.c_ins c) (C01.Model.c_del c) (C01.Model.c_sub c)
           (C01.Spec.denote (C01.Model.c_eos c) (C01.Model.c_incl c) (C02.ProofsMer.ref_seq (C01.Model.c_bf c) n m ref))
           (C01.Spec.denote (C01.Model.c_eos c) (C01.Model.c_incl c) (C02.ProofsMer.seq3_of (C01.Model.c_bf c) n m hyp)) v).
Proof.
  intros w s c sub_avg N M R H lpd ref hyp warn HN HM HR HH Href Hhyp Hw.
  destruct (mer_is_model w s c sub_avg C02.Model.RNone N M R H lpd ref hyp warn HN HM HR HH Href Hhyp Hw) as [st' He].
  rewrite (C02.ProofsMer.mer_loss_formula c sub_avg N M w ref hyp HM (wf3_src_model _ N M H hyp Hhyp)
             (wf_ref_src_model _ N M R ref Href) Hw C02.Model.RNone) in He.
  cbn [mres_tensor] in He.
  exists (C02.ProofsMer.er_nm c ref hyp). eexists. exists st'. split; [exact He|]. split; [|split].
  - unfold C02.ProofsMer.loss_mat. rewrite concat_rows_tab2, map_length, tab2_length. reflexivity.
  - intros n m Hn Hm. cbv zeta. unfold C02.ProofsMer.loss_mat. rewrite concat_rows_tab2, map_tab2.
    rewrite nth_tab2 by assumption. reflexivity.
  - intros n m. eexists. split; [reflexivity|]. apply C02.ProofsMer.mer_er_allowed.
Qed.
