(* MiniPy — reasoning principles for the interpreter (no new definitions of semantics). *)
From Coq Require Import ZArith QArith List String Bool.
From PV Require Import MiniPy.Syntax MiniPy.Interp.
Import ListNotations.
Local Open Scope string_scope.

Lemma lookup_update x y v l : lookup x (update y v l) = if String.eqb x y then Some v else lookup x l.
Proof.
  induction l as [|[z w] l IH]; cbn [update lookup]; [reflexivity|].
  destruct (String.eqb y z) eqn:E; cbn [lookup].
  - apply String.eqb_eq in E. subst z. destruct (String.eqb x y); reflexivity.
  - rewrite IH. destruct (String.eqb x z) eqn:F; [|reflexivity].
    apply String.eqb_eq in F. subst z. now rewrite String.eqb_sym, E.
Qed.

Lemma lookup_update_eq x v l : lookup x (update x v l) = Some v.
Proof. now rewrite lookup_update, String.eqb_refl. Qed.

Lemma lookup_update_neq x y v l : String.eqb x y = false -> lookup x (update y v l) = lookup x l.
Proof. intros E. now rewrite lookup_update, E. Qed.

Lemma bind_ok {A B} (o : outcome A) (k : A -> state -> outcome B) a s : o = Ok a s -> bind o k = k a s.
Proof. now intros ->. Qed.

Lemma cmp_lt_int a b : cmp_eval Lt (VInt a) (VInt b) = Some (a <? b)%Z.
Proof. cbn. unfold Qcompare. cbn. rewrite !Z.mul_1_r. unfold Z.ltb. destruct (a ?= b)%Z; reflexivity. Qed.

Lemma cmp_gt_int a b : cmp_eval Gt (VInt a) (VInt b) = Some (b <? a)%Z.
Proof.
  cbn. unfold Qcompare. cbn. rewrite !Z.mul_1_r. unfold Z.ltb. rewrite (Z.compare_antisym a b).
  destruct (a ?= b)%Z; reflexivity.
Qed.

Lemma min_int a b st : extreme_of false [VInt a; VInt b] st = Ok (VInt (Z.min a b)) st.
Proof.
  unfold extreme_of, q_extreme. rewrite cmp_lt_int. unfold Z.min, Z.ltb.
  rewrite (Z.compare_antisym b a). destruct (b ?= a)%Z; reflexivity.
Qed.

(* an equation used as a conversion: no rewriting step, with the whole goal as its motive, enters the proof *)
Ltac by_conv H := match type of H with ?l = ?r => change l with r end.

Section Lemmas.
  Variable ext : string -> list val -> list (string * val) -> state -> outcome val.

  (* the loop of [SFor] as a top-level function: induction over the iterated items *)
  Fixpoint for_loop (x : string) (body : stmt) (l : list val) (st : state) {struct l} : outcome ctl :=
    match l with
    | [] => Ok CNormal st
    | i :: r =>
        bind (exec ext body (set_var x i st)) (fun c st' =>
          match c with CNormal => for_loop x body r st' | CReturn _ => Ok c st' end)
    end.

  Lemma exec_for x e body st :
    exec ext (SFor x e body) st =
    bind (eval ext e st) (fun v st1 =>
      match iter_items v with
      | None => Stuck "for over a non-container"
      | Some items => for_loop x body items st1
      end).
  Proof.
    cbn [exec]. destruct (eval ext e st) as [v st1|n st1|w]; cbn [bind]; try reflexivity.
    destruct (iter_items v) as [items|]; [|reflexivity].
    revert st1. induction items as [|i r IH]; intros st1; [reflexivity|].
    cbn [for_loop]. destruct (exec ext body (set_var x i st1)) as [c st'|n st'|w]; cbn [bind]; try reflexivity.
    destruct c; [apply IH|reflexivity].
  Qed.

  (* the key computation of [ESorted] as a top-level function *)
  Fixpoint sorted_keys (x : string) (key : expr) (l : list val) (st : state) {struct l}
    : outcome (list (val * val)) :=
    match l with
    | [] => Ok [] st
    | i :: r =>
        bind (eval ext key (set_var x i st)) (fun k st' =>
          bind (sorted_keys x key r st') (fun ks st'' => Ok ((k, i) :: ks) st''))
    end.

  Lemma eval_sorted it x key st :
    eval ext (ESorted it x key) st =
    bind (eval ext it st) (fun v st1 =>
      match container_items v with
      | None => Stuck "sorted of a non-container"
      | Some items =>
          bind (sorted_keys x key items st1) (fun kis st2 =>
            match sort_keyed kis with
            | Some sorted => Ok (VList sorted) st2
            | None => ext "$sorted" [VList (map fst kis); VList (map snd kis)] [] st2
            end)
      end).
  Proof.
    cbn [eval]. destruct (eval ext it st) as [v st1|n st1|w]; cbn [bind]; try reflexivity.
    destruct (container_items v) as [items|]; [|reflexivity].
    f_equal. revert st1. induction items as [|i r IH]; intros st1; [reflexivity|].
    cbn [sorted_keys]. destruct (eval ext key (set_var x i st1)) as [k st'|n st'|w]; cbn [bind]; try reflexivity.
    rewrite IH. reflexivity.
  Qed.

  (* the loop of [SForC] (a `for` whose body may `continue`) as a top-level function *)
  Fixpoint forc_loop (x : string) (body : stmt) (l : list val) (st : state) {struct l} : outcome ctl :=
    match l with
    | [] => Ok CNormal st
    | i :: r =>
        match exec ext body (set_var x i st) with
        | Ok CNormal st' => forc_loop x body r st'
        | Ok (CReturn w) st' => Ok (CReturn w) st'
        | Exc n st' => if String.eqb n "$continue" then forc_loop x body r st' else Exc n st'
        | Stuck w => Stuck w
        end
    end.

  Lemma exec_forc x e body st :
    exec ext (SForC x e body) st =
    bind (eval ext e st) (fun v st1 =>
      match iter_items v with
      | None => Stuck "for over a non-container"
      | Some items => forc_loop x body items st1
      end).
  Proof.
    cbn [exec]. destruct (eval ext e st) as [v st1|n st1|w]; cbn [bind]; try reflexivity.
    destruct (iter_items v) as [items|]; [|reflexivity].
    revert st1. induction items as [|i r IH]; intros st1; [reflexivity|].
    cbn [forc_loop]. destruct (exec ext body (set_var x i st1)) as [c st'|n st'|w]; try reflexivity.
    - destruct c; [apply IH|reflexivity].
    - destruct (String.eqb n "$continue"); [apply IH|reflexivity].
  Qed.

  (* the handler selection of [STryExc] as a top-level function *)
  Fixpoint pick_handler (n : string) (st1 : state) (hs : list (list string * stmt)) {struct hs} : outcome ctl :=
    match hs with
    | [] => Exc n st1
    | (names, h) :: r =>
        if exc_matches n names then exec ext h (set_var "$exc" (VStr n) st1) else pick_handler n st1 r
    end.

  Lemma exec_tryexc body handlers st :
    exec ext (STryExc body handlers) st =
    match exec ext body st with
    | Exc n st1 => pick_handler n st1 handlers
    | o => o
    end.
  Proof.
    cbn [exec]. destruct (exec ext body st) as [c st1|n st1|w]; try reflexivity.
    induction handlers as [|[names h] r IH]; [reflexivity|].
    cbn [pick_handler]. destruct (exc_matches n names); [reflexivity|exact IH].
  Qed.

  (* the item loop of [EListComp] as a top-level function *)
  Fixpoint comp_loop (elt : expr) (x : string) (names : list string) (cond : expr) (l : list val) (st : state)
      {struct l} : outcome (list val) :=
    match l with
    | [] => Ok [] st
    | i :: r =>
        bind (bind_item x names i st) (fun _ st' =>
          bind (eval ext cond st') (fun c st2 =>
            if truthy c
            then bind (eval ext elt st2) (fun y st3 =>
                   bind (comp_loop elt x names cond r st3) (fun ys st4 => Ok (y :: ys) st4))
            else comp_loop elt x names cond r st2))
    end.

  Lemma eval_listcomp elt x names it cond st :
    eval ext (EListComp elt x names it cond) st =
    bind (eval ext it st) (fun v st1 =>
      match (if foreign v then None else container_items v) with
      | None => Stuck "comprehension over a non-container"
      | Some items =>
          bind (comp_loop elt x names cond items st1) (fun ys st2 =>
            Ok (VList ys) (restore_vars (x :: names) (vars st1) st2))
      end).
  Proof.
    cbn [eval]. destruct (eval ext it st) as [v st1|n st1|w]; cbn [bind]; try reflexivity.
    destruct (if foreign v then None else container_items v) as [items|]; [|reflexivity].
    f_equal. generalize st1. induction items as [|i r IH]; intros st0; [reflexivity|].
    cbn [comp_loop]. destruct (bind_item x names i st0) as [u st'|n st'|w]; cbn [bind]; try reflexivity.
    destruct (eval ext cond st') as [c st2|n st2|w]; cbn [bind]; try reflexivity.
    destruct (truthy c); [|apply IH].
    destruct (eval ext elt st2) as [y st3|n st3|w]; cbn [bind]; try reflexivity.
    rewrite IH. reflexivity.
  Qed.

  (* the item loop of [EGenCall] as a top-level function *)
  Fixpoint gen_loop (f : string) (elt : expr) (x : string) (names : list string) (cond : expr) (l : list val)
      (st : state) {struct l} : outcome val :=
    match l with
    | [] => gen_finish f st
    | i :: r =>
        bind (bind_item x names i st) (fun _ st' =>
          bind (eval ext cond st') (fun c st2 =>
            if truthy c
            then bind (eval ext elt st2) (fun y st3 =>
                   match gen_step f y with
                   | GStop w => Ok w st3
                   | GNext => gen_loop f elt x names cond r st3
                   | GStuck w => Stuck w
                   end)
            else gen_loop f elt x names cond r st2))
    end.

  Lemma eval_gencall f elt x names it cond st :
    eval ext (EGenCall f elt x names it cond) st =
    bind (eval ext it st) (fun v st1 =>
      match (if foreign v then None else container_items v) with
      | None => Stuck "generator over a non-container"
      | Some items =>
          bind (gen_loop f elt x names cond items st1) (fun w st2 =>
            Ok w (restore_vars (x :: names) (vars st1) st2))
      end).
  Proof.
    cbn [eval]. destruct (eval ext it st) as [v st1|n st1|w]; cbn [bind]; try reflexivity.
    destruct (if foreign v then None else container_items v) as [items|]; [|reflexivity].
    f_equal. generalize st1. induction items as [|i r IH]; intros st0; [reflexivity|].
    cbn [gen_loop]. destruct (bind_item x names i st0) as [u st'|n st'|w]; cbn [bind]; try reflexivity.
    destruct (eval ext cond st') as [c st2|n st2|w]; cbn [bind]; try reflexivity.
    destruct (truthy c); [|apply IH].
    destruct (eval ext elt st2) as [y st3|n st3|w]; cbn [bind]; try reflexivity.
    destruct (gen_step f y); try reflexivity. apply IH.
  Qed.

  Lemma exec_with e x body st :
    exec ext (SWith e x body) st =
    bind (eval ext e st) (fun m st1 =>
      bind (ext "$enter" [m] [] st1) (fun v st2 =>
        let cur st3 := match lookup x (vars st3) with Some w => w | None => VNone end in
        match exec ext body (set_var x v st2) with
        | Ok c st3 => bind (ext "$exit" [m; cur st3; VNone] [] st3) (fun _ st4 => Ok c st4)
        | Exc n st3 =>
            if internal_exc n then Stuck "control signal through a with block"
            else bind (ext "$exit" [m; cur st3; VStr n] [] st3) (fun r st4 =>
                   if truthy r then Ok CNormal st4 else Exc n st4)
        | Stuck w => Stuck w
        end)).
  Proof. reflexivity. Qed.

  Lemma exec_seq a b st :
    exec ext (SSeq a b) st =
    bind (exec ext a st) (fun c st1 => match c with CNormal => exec ext b st1 | CReturn v => Ok c st1 end).
  Proof. reflexivity. Qed.

  Lemma exec_if c t f st :
    exec ext (SIf c t f) st = bind (eval ext c st) (fun cv st1 => if truthy cv then exec ext t st1 else exec ext f st1).
  Proof. reflexivity. Qed.

  Lemma eval_const v st : eval ext (EConst v) st = Ok v st.
  Proof. reflexivity. Qed.

  Lemma eval_name x st v : lookup x (vars st) = Some v -> eval ext (EName x) st = Ok v st.
  Proof. intros H. cbn [eval]. now rewrite H. Qed.

  Lemma exec_pass st : exec ext SPass st = Ok CNormal st.
  Proof. reflexivity. Qed.

  Lemma exec_raise n st : exec ext (SRaise n) st = Exc n st.
  Proof. reflexivity. Qed.

  Lemma exec_return e st : exec ext (SReturn e) st = bind (eval ext e st) (fun v st1 => Ok (CReturn v) st1).
  Proof. reflexivity. Qed.

  Lemma exec_return_ok e st v st1 : eval ext e st = Ok v st1 -> exec ext (SReturn e) st = Ok (CReturn v) st1.
  Proof. intros H. exact (bind_ok _ _ _ _ H). Qed.

  Lemma exec_assert e st :
    exec ext (SAssert e) st =
    bind (eval ext e st) (fun v st1 => if truthy v then Ok CNormal st1 else Exc "AssertionError" st1).
  Proof. reflexivity. Qed.

  Lemma exec_assign1 x e st :
    exec ext (SAssign [TName x] e) st = bind (eval ext e st) (fun v st1 => Ok CNormal (set_var x v st1)).
  Proof. cbn [exec]. destruct (eval ext e st); reflexivity. Qed.

  Lemma exec_assign_ok x e st v st1 :
    eval ext e st = Ok v st1 -> exec ext (SAssign [TName x] e) st = Ok CNormal (set_var x v st1).
  Proof. intros H. now rewrite exec_assign1, H. Qed.

  Lemma exec_if_ok c t f st v st1 :
    eval ext c st = Ok v st1 -> exec ext (SIf c t f) st = exec ext (if truthy v then t else f) st1.
  Proof. intros H. rewrite exec_if, H. cbn [bind]. now destruct (truthy v). Qed.

  Lemma exec_seq_ok a b st st' : exec ext a st = Ok CNormal st' -> exec ext (SSeq a b) st = exec ext b st'.
  Proof. intros H. exact (bind_ok _ _ _ _ H). Qed.

  Lemma exec_seq_to a b st st' r :
    exec ext a st = Ok CNormal st' -> exec ext b st' = r -> exec ext (SSeq a b) st = r.
  Proof. intros H <-. now apply exec_seq_ok. Qed.

  Lemma exec_seq_ret a b st v st' :
    exec ext a st = Ok (CReturn v) st' -> exec ext (SSeq a b) st = Ok (CReturn v) st'.
  Proof. intros H. exact (bind_ok _ _ _ _ H). Qed.

  Lemma exec_seq_exc a b st n st' : exec ext a st = Exc n st' -> exec ext (SSeq a b) st = Exc n st'.
  Proof. intros H. now rewrite exec_seq, H. Qed.

  Lemma exec_seq_assoc a b c st : exec ext (SSeq (SSeq a b) c) st = exec ext (SSeq a (SSeq b c)) st.
  Proof. cbn [exec]. destruct (exec ext a st) as [[|v] st1|n st1|w]; reflexivity. Qed.

  Lemma exec_seq_pass b st : exec ext (SSeq SPass b) st = exec ext b st.
  Proof. reflexivity. Qed.

  Lemma exec_seq_pass_r a st : exec ext (SSeq a SPass) st = exec ext a st.
  Proof. cbn [exec]. destruct (exec ext a st) as [[|v] st1|n st1|w]; reflexivity. Qed.

  Lemma exec_seq_assign x e b st v st1 :
    eval ext e st = Ok v st1 -> exec ext (SSeq (SAssign [TName x] e) b) st = exec ext b (set_var x v st1).
  Proof. intros H. exact (exec_seq_ok _ _ _ _ (exec_assign_ok _ _ _ _ _ H)). Qed.

  Lemma exec_seq_if c t f b st v st1 :
    eval ext c st = Ok v st1 ->
    exec ext (SSeq (SIf c t f) b) st = exec ext (SSeq (if truthy v then t else f) b) st1.
  Proof. intros H. now rewrite !exec_seq, (exec_if_ok _ _ _ _ _ _ H). Qed.

  Lemma exec_seq_assign3 x y z e b st v st1 :
    eval ext e st = Ok v st1 ->
    exec ext (SSeq (SAssign [TName x; TName y; TName z] e) b) st =
    exec ext b (set_var z v (set_var y v (set_var x v st1))).
  Proof. intros H. cbn [exec]. now rewrite H. Qed.

  Lemma exec_seq_assert e b st v :
    eval ext e st = Ok v st -> truthy v = true -> exec ext (SSeq (SAssert e) b) st = exec ext b st.
  Proof. intros H T. cbn [exec]. rewrite H. cbn [bind]. now rewrite T. Qed.
End Lemmas.
