(* C05, second tie, part 3: the loop body's program [TieBRun.frame_prog] (= the interpreted body of
   `for t in range(len_max):`, TieBRun.frame_is_prog) evaluated on the tensors that encode a beam of the model, for a
   module that does NOT fuse a language model (`self.lm is None or not self.beta`: CTCPrefixSearch(width), or beta = 0):
   the carried variables afterwards encode Model.sstep's beam - the plain path (t < len_min), the masked path with the
   element still running (len_min <= t < len) and the frozen element (len <= t), with the first widening from one slot
   to `width`.  ONE batch element (N = 1).  The fused configurations are tied to the tensor program only (part 1). *)
From Coq Require Import ZArith QArith Qcanon List String Bool Arith Lia ZifyBool ZifyNat.
From PV Require Import MiniPy.Syntax MiniPy.Interp MiniTorch.Ops MiniTorch.OpsC05 MiniTorch.LemmasC05 MiniTorch.OpsC05B
  MiniTorch.LemmasC05B Gen.C05Src Gen.C05BSrc.
From PV Require Import C05.Model C05.ModelB C05.ProofsModel C05.ProofsSearch C05.SrcRun C05.SrcRunB C05.TieRun C05.Tie
  C05.TieBRun.
Import ListNotations.
Local Open Scope nat_scope.

#[local] Ltac Zify.zify_post_hook ::= Z.to_euclidean_division_equations.

Tactic Notation "bstep" uconstr(L) := rewrite L; cbn [bo].

(* the carried variables of a beam, as tensors *)
Definition carT_of (bm : beam) (pv : val) : carT :=
  mkCarT (Z.of_nat (Kp bm)) (enc_nb bm) (enc_bb bm) (enc_y bm) (enc_last bm) (enc_lens bm) (enc_isp bm) pv.

Lemma carT_eq a a' b b' c c' d d' e e' f f' g g' h h' :
  a = a' -> b = b' -> c = c' -> d = d' -> e = e' -> f = f' -> g = g' -> h = h' ->
  Some (mkCarT a b c d e f g h) = Some (mkCarT a' b' c' d' e' f' g' h').
Proof. now intros -> -> -> -> -> -> -> ->. Qed.

Lemma enc_carT_of bm pv : enc_carT (carT_of bm pv) = enc_car bm pv. Proof. reflexivity. Qed.

(* [widen] and [pad_inf] on the lists of a beam that has 1 or [width] slots *)
Lemma bidx_widen K' width k : K' = 1 \/ K' = width -> k < width -> bidx K' k < K'.
Proof. intros [E|E] Hk; [rewrite E; cbn; lia|rewrite bidx_same by lia; lia]. Qed.
Lemma widen_nth {A} K' width (l : list A) d k : K' = 1 \/ K' = width -> k < width -> List.length l = K' ->
  nth k (widen K' width l d) d = nth (bidx K' k) l d.
Proof.
  intros HK Hk Hl. unfold widen. destruct HK as [E|E].
  - rewrite E. destruct (Nat.ltb_spec 1 width).
    + rewrite nth_repeat_if. replace (k <? width) with true by lia. reflexivity.
    + assert (width = 1) by lia. subst width. replace k with 0 by lia. reflexivity.
  - rewrite E. replace (width <? width) with false by lia. rewrite bidx_same by lia. reflexivity.
Qed.
Lemma widen_len {A} K' width (l : list A) d : 1 <= width -> K' = 1 \/ K' = width -> List.length l = K' ->
  List.length (widen K' width l d) = width.
Proof.
  intros Wpos HK Hl. unfold widen. destruct (Nat.ltb_spec K' width); [apply repeat_length|]. destruct HK; lia.
Qed.
Lemma pad_len K' width l : 1 <= width -> K' = 1 \/ K' = width -> List.length l = K' ->
  List.length (pad_inf K' width l) = width.
Proof.
  intros Wpos HK Hl. unfold pad_inf. destruct (Nat.ltb_spec K' width); [rewrite app_length, repeat_length; lia|]. destruct HK; lia.
Qed.
Lemma pad_nth K' width l k : List.length l = K' ->
  nth k (pad_inf K' width l) NegInf = if k <? K' then nth k l NegInf else NegInf.
Proof.
  intros Hl. unfold pad_inf. destruct (Nat.ltb_spec K' width).
  - destruct (Nat.ltb_spec k K').
    + now rewrite app_nth1 by lia.
    + rewrite app_nth2 by lia. rewrite nth_repeat_if. destruct (_ <? _); reflexivity.
  - destruct (Nat.ltb_spec k K'); [reflexivity|]. apply nth_overflow. lia.
Qed.

Section Frame.
Variables (V width : nat) (has_lm : bool) (beta : Q) (vm : bool) (lmS : list nat -> list Qc).
Variable lm : list nat -> list Qc.
Variables (len_min len : nat) (fs : list (list Qc * Qc)) (t : nat) (bm : beam) (choice : list nat) (pv : val).
Hypothesis Hfus : fused beta has_lm = false.
Hypothesis Vpos : 1 <= V.
Hypothesis Wpos : 1 <= width.
Hypothesis W : wf bm.
Hypothesis HK : Kp bm = 1 \/ Kp bm = width.
Hypothesis Clen : List.length choice = Kout V bm width.
Hypothesis Crange : forall i, List.In i choice -> i < ncand V bm.
Hypothesis Ht : t < List.length fs.
Hypothesis Hmin : len_min <= len.

Notation K' := (Kp bm).
Notation S := (b_t bm).
Let nonext := fst (nth t fs ([], 0%Qc)).
Let blank := snd (nth t fs ([], 0%Qc)).
Let fr := mk_frame NoLM lm nonext blank bm.
Let nx := fst (advance V fr bm width choice).
Let frozen := Nat.leb len t.

Lemma Kp_pos : 1 <= K'. Proof. apply (wf_pos bm W). Qed.
Lemma nxK : Kp nx = width. Proof. apply (nx_Kp V width fr bm choice Vpos Wpos Clen). Qed.
Lemma nxT : b_t nx = S + 1. Proof. unfold nx. rewrite (nx_t V width fr bm choice). lia. Qed.
Lemma expK : exp_ok K' width. Proof. unfold exp_ok. destruct HK; auto. Qed.

(* the frame's tensors *)
Lemma sel_nonext : select0 NegInf (enc_frames_nonext V fs) (Z.of_nat t) = Some (enc_nonext V fr).
Proof.
  unfold enc_frames_nonext. change (tab [List.length fs; 1; V] _)
    with (T3 (List.length fs) 1 V (fun s _ v => Fin (nth v (fst (nth s fs ([], 0%Qc))) 0%Qc))).
  rewrite select0_T3 by exact Ht. reflexivity.
Qed.
Lemma sel_blank : select0 NegInf (enc_frames_blank fs) (Z.of_nat t) = Some (enc_blank fr).
Proof.
  unfold enc_frames_blank. change (tab [List.length fs; 1] _)
    with (T2 (List.length fs) 1 (fun s _ => Fin (snd (nth s fs ([], 0%Qc))))).
  rewrite select0_T2 by exact Ht. reflexivity.
Qed.

Lemma fuse_nolm St :
  prog_fuse lmS beta V V has_lm vm 1 V (Z.of_nat K') (enc_y bm) (enc_lens bm) St (enc_nonext V fr) (enc_blank fr)
  = Some (enc_ext V fr bm, []).
Proof.
  unfold prog_fuse. rewrite Hfus.
  change (enc_nonext V fr) with (T2 1 V (fun _ v => Fin (nth v nonext 0%Qc))).
  bstep unsqueeze_T2_1. bstep expand_T3_mid. do 2 f_equal.
  change (enc_ext V fr bm) with (T3 1 K' V (fun _ k v => Fin (extp fr k v))).
  apply T3_ext. intros i k v _ Hk _. unfold extp, fr, mk_frame. cbn [f_ext].
  rewrite nth_map_seq by exact Hk. reflexivity.
Qed.

(* the call of the step function: the first tie *)
Lemma adv_call_model :
  adv_call (sel_given choice)
    [VTuple [enc_f (enc_ext V fr bm); enc_f (enc_nonext V fr); enc_f (enc_blank fr)]; VInt (Z.of_nat width);
     VTuple [enc_f (enc_nb bm); enc_f (enc_bb bm)]; enc_i (enc_y bm); enc_i (enc_last bm); enc_i (enc_lens bm);
     enc_b (enc_isp bm)]
  = Some (mkO7 (enc_y nx) (enc_last nx) (enc_lens nx) (enc_nb nx) (enc_bb nx) (enc_isp nx)
               (tab [1; List.length (b_nb nx)] (fun ix => Z.of_nat (nth (at_ ix 1) (fst (snd (advance V fr bm width choice))) 0)))
               (tab [1; List.length (b_nb nx)] (fun ix => nth (at_ ix 1) (snd (snd (advance V fr bm width choice))) false))).
Proof.
  unfold adv_call, call_vars.
  destruct (advance_tie_sel (sel_given choice) V width fr bm choice eq_refl Vpos Wpos W Clen Crange) as [st Hst].
  unfold advance_vars, vars_of in Hst. rewrite Hst. unfold enc_out, nx.
  destruct (advance V fr bm width choice) as [nx0 [src non]]. cbn [fst snd]. unfold dec_outs7.
  now rewrite !dec_enc_i, !dec_enc_f, !dec_enc_b.
Qed.

(* ---- the beam after the frame --------------------------------------------------------------------------- *)
Let bm' := sstep V width NoLM lm frozen nonext blank choice bm.

Lemma frame_nolm St :
  frame_prog (sel_given choice) lmS beta V V has_lm vm width 1 V (Z.of_nat t) (Z.of_nat len_min) (enc_len len)
    (enc_frames_nonext V fs) (enc_frames_blank fs) (enc_pad width) (carT_of bm pv) St
  = Some (carT_of bm' pv).
Proof.
  unfold frame_prog, carT_of. cbn [k_pw k_nb k_b k_y k_last k_lens k_isp k_prev]. rewrite Hfus.
  rewrite sel_nonext, sel_blank.
  assert (Evm : (if (Z.of_nat t <? Z.of_nat len_min)%Z then Some None
                 else option_map Some (unsqueeze false (ilt_rs (Z.of_nat t) (enc_len len)) 1))
                = Some (if t <? len_min then None else Some (T2 1 1 (fun _ _ => t <? len)))).
  { destruct (Nat.ltb_spec t len_min).
    - now replace (Z.of_nat t <? Z.of_nat len_min)%Z with true by lia.
    - replace (Z.of_nat t <? Z.of_nat len_min)%Z with false by lia.
      change (enc_len len) with (T1 1 (fun _ => Z.of_nat len)). unfold ilt_rs. rewrite tmap_T1.
      rewrite unsqueeze_T1_1. cbn [option_map]. do 2 f_equal. apply T2_ext. intros. lia. }
  rewrite Evm. cbn [bo]. bstep fuse_nolm. cbn [fst snd]. bstep adv_call_model.
  cbn [o7_y o7_last o7_lens o7_nb o7_b o7_isp o7_src o7_ne].
  pose proof nxK as EK. pose proof nxT as ET. pose proof Kp_pos as HKp. pose proof expK as HE.
  unfold bm', sstep. fold fr. fold nx. unfold frozen.
  destruct (Nat.ltb_spec t len_min) as [Hlt|Hge].
  - (* the plain path *)
    replace (len <=? t) with false by lia. unfold prog_mask. cbn [bo fst snd]. rewrite <- EK. reflexivity.
  - unfold prog_mask. cbn [k_pw k_nb k_b k_y k_last k_lens k_isp k_prev o7_y o7_last o7_lens o7_nb o7_b o7_isp o7_src o7_ne].
    change (enc_y bm) with (T3 S 1 K' (fun s _ k => Z.of_nat (ycell bm k s))).
    bstep (expand_keep_T3_last 0%Z S 1 K' width _ HE).
    change (enc_pad width) with (T3 1 1 width (fun _ _ _ => 0%Z)). bstep cat2_T3_0.
    bstep unsqueeze_T2_0.
    change (enc_y nx) with (T3 (b_t nx) 1 (Kp nx) (fun s _ k => Z.of_nat (ycell nx k s))). rewrite ET, EK.
    bstep where_b_T3_mask.
    change (enc_lens nx) with (T2 1 (Kp nx) (fun _ k => Z.of_nat (lens nx k))). rewrite EK.
    change (enc_lens bm) with (T2 1 K' (fun _ k => Z.of_nat (lens bm k))).
    bstep (where_b_T2_mask 0%Z width K' (t <? len) _ _ HE).
    change (enc_nb nx) with (T2 1 (Kp nx) (fun _ k => nth k (b_nb nx) NegInf)).
    change (enc_bb nx) with (T2 1 (Kp nx) (fun _ k => nth k (b_b nx) NegInf)). rewrite EK.
    change (enc_nb bm) with (T2 1 K' (fun _ k => nth k (b_nb bm) NegInf)).
    change (enc_bb bm) with (T2 1 K' (fun _ k => nth k (b_b bm) NegInf)).
    assert (Enbb : (if (Z.of_nat K' <? Z.of_nat width)%Z
                    then if (Z.of_nat K' =? 1)%Z
                         then do ninf <- full [Z.of_nat 1; (Z.of_nat width - Z.of_nat K')%Z] NegInf;
                              do a <- cat2 NegInf (T2 1 K' (fun _ k => nth k (b_nb bm) NegInf)) ninf 1;
                              do b <- cat2 NegInf (T2 1 K' (fun _ k => nth k (b_b bm) NegInf)) ninf 1; Some (a, b)
                         else None
                    else Some (T2 1 K' (fun _ k => nth k (b_nb bm) NegInf), T2 1 K' (fun _ k => nth k (b_b bm) NegInf)))
                   = Some (T2 1 width (fun _ k => if k <? K' then nth k (b_nb bm) NegInf else NegInf),
                           T2 1 width (fun _ k => if k <? K' then nth k (b_b bm) NegInf else NegInf))).
    { destruct HK as [E|E].
      - destruct (Nat.ltb_spec K' width).
        + replace (Z.of_nat K' <? Z.of_nat width)%Z with true by lia. replace (Z.of_nat K' =? 1)%Z with true by lia.
          replace (Z.of_nat width - Z.of_nat K')%Z with (Z.of_nat (width - K')) by lia.
          bstep full_T2. bstep cat2_T2_1. bstep cat2_T2_1. replace (K' + (width - K')) with width by lia. reflexivity.
        + replace (Z.of_nat K' <? Z.of_nat width)%Z with false by lia. assert (width = K') by lia.
          do 2 f_equal; rewrite H0; apply T2_ext; intros i k _ Hk; now replace (k <? K') with true by lia.
      - replace (Z.of_nat K' <? Z.of_nat width)%Z with false by lia.
        do 2 f_equal; rewrite <- E; apply T2_ext; intros i k _ Hk; now replace (k <? K') with true by lia. }
    rewrite Enbb. cbn [bo fst snd].
    bstep (where_b_T2_mask NegInf width width (t <? len)). 2:{ left; reflexivity. }
    bstep (where_b_T2_mask NegInf width width (t <? len)). 2:{ left; reflexivity. }
    (* the two cases: still running, frozen *)
    destruct (Nat.ltb_spec t len) as [Hrun|Hfro].
    + replace (len <=? t) with false by lia. cbn [fst snd]. rewrite <- EK, <- ET. reflexivity.
    + replace (len <=? t) with true by lia.
      cbn [fst snd]. unfold Kp. cbn [b_nb b_b b_t b_y b_last b_lens b_isp].
      assert (Lnb : List.length (pad_inf (List.length (b_nb bm)) width (b_nb bm)) = width) by (apply pad_len; auto).
      apply carT_eq.
      * now rewrite Lnb.
      * unfold enc_nb. cbn [b_nb]. rewrite Lnb. apply tab2_ext. intros i k _ Hk. cbn [at_ nth].
        rewrite pad_nth by reflexivity. rewrite (bidx_same width k Hk). reflexivity.
      * unfold enc_bb. cbn [b_nb b_b]. rewrite Lnb. apply tab2_ext. intros i k _ Hk. cbn [at_ nth].
        rewrite pad_nth by (apply (wf_b bm W)). rewrite (bidx_same width k Hk). reflexivity.
      * unfold enc_y. cbn [b_nb b_t b_y]. rewrite Lnb. try rewrite ET. try replace (Datatypes.S (b_t bm)) with (b_t bm + 1) by lia. apply tab3_ext. intros s i k Hs _ Hk. cbn [at_ nth].
        rewrite (nth_indep _ [] ((fun c => c ++ [0]) [])) by (rewrite map_length, (widen_len K' width _ _ Wpos HK (wf_y bm W)); exact Hk).
        rewrite (map_nth (fun c => c ++ [0])). rewrite (widen_nth K' width _ _ k HK Hk (wf_y bm W)).
        pose proof (bidx_widen K' width k HK Hk) as Hb.
        pose proof (wf_col bm W _ Hb) as Hc. unfold col in Hc. unfold ycell. destruct (Nat.ltb_spec s S).
        -- rewrite app_nth1 by lia. reflexivity.
        -- rewrite app_nth2 by lia. rewrite Hc. replace (s - S) with 0 by lia. reflexivity.
      * unfold enc_last. cbn [b_nb b_last]. rewrite Lnb. fold (Kp nx). rewrite EK. reflexivity.
      * unfold enc_lens. cbn [b_nb b_lens]. rewrite Lnb. apply tab2_ext. intros i k _ Hk. cbn [at_ nth].
        rewrite (widen_nth K' width _ _ k HK Hk (wf_lens bm W)). reflexivity.
      * unfold enc_isp. cbn [b_nb b_isp]. rewrite Lnb. fold (Kp nx). rewrite EK. reflexivity.
      * reflexivity.
Qed.
End Frame.

(* ---- the tie of one frame (no fused language model) --------------------------------------------------------- *)
Theorem frame_tie_nolm : forall V width has_lm beta vm lmS lm len_min len fs t bm choice pv,
  fused beta has_lm = false -> 1 <= V -> 1 <= width -> wf bm -> (Kp bm = 1 \/ Kp bm = width) ->
  List.length choice = Kout V bm width -> (forall i, List.In i choice -> i < ncand V bm) ->
  t < List.length fs -> len_min <= len ->
  src_frame V width has_lm beta vm lmS len_min len fs choice t (enc_car bm pv)
  = Some (enc_car (sstep V width NoLM lm (Nat.leb len t) (fst (nth t fs ([], 0%Qc))) (snd (nth t fs ([], 0%Qc))) choice bm) pv).
Proof.
  intros V width has_lm beta vm lmS lm len_min len fs t bm choice pv Hf Vpos Wpos W HK Clen Crange Ht Hmin.
  unfold src_frame, run_frame, the_self.
  pose proof (frame_is_prog (sel_given choice) lmS beta V V has_lm vm width 1 V (Kp bm) (Z.of_nat t) (Z.of_nat len_min)
                (enc_len len) (enc_frames_nonext V fs) (enc_frames_blank fs) (enc_pad width) (enc_nb bm) (enc_bb bm)
                (enc_y bm) (enc_last bm) (enc_lens bm) (enc_isp bm) [] pv) as Hsim.
  cbv zeta in Hsim. rewrite Hf in Hsim.
  change (mkCarT (Z.of_nat (Kp bm)) (enc_nb bm) (enc_bb bm) (enc_y bm) (enc_last bm) (enc_lens bm) (enc_isp bm) pv)
    with (carT_of bm pv) in Hsim.
  rewrite (frame_nolm V width has_lm beta vm lmS lm len_min len fs t bm choice pv Hf Vpos Wpos W HK Clen Crange Ht Hmin []) in Hsim.
  rewrite enc_carT_of in Hsim. unfold vnat. unfold simF in Hsim.
  destruct (Interp.run _ fwd_frame _) as [v st|n st|w]; try contradiction.
  destruct Hsim as [-> Hr]. rewrite Hr. now rewrite enc_carT_of.
Qed.

(* ---- the beam stays well-formed and has `width` slots after any frame ------------------------------------------- *)
Lemma sstep_wf : forall V width fus lm frozen nonext blank choice bm,
  1 <= V -> 1 <= width -> wf bm -> (Kp bm = 1 \/ Kp bm = width) ->
  List.length choice = Kout V bm width -> (forall i, List.In i choice -> i < ncand V bm) ->
  wf (sstep V width fus lm frozen nonext blank choice bm) /\ Kp (sstep V width fus lm frozen nonext blank choice bm) = width.
Proof.
  intros V width fus lm frozen nonext blank choice bm Vpos Wpos W HK Clen Crange. unfold sstep.
  set (fr := mk_frame fus lm nonext blank bm). set (nx := fst (advance V fr bm width choice)).
  pose proof (nx_wf V width fr bm choice Vpos Wpos W Clen Crange) as Wn. fold nx in Wn.
  pose proof (nx_Kp V width fr bm choice Vpos Wpos Clen) as Kn. fold nx in Kn.
  destruct frozen; [|split; assumption].
  fold (Kp bm).
  pose proof (fun A (l : list A) d => @widen_len A (Kp bm) width l d Wpos HK) as Lw.
  pose proof (fun l => pad_len (Kp bm) width l Wpos HK) as Lp.
  assert (Nw : forall {A} (l : list A) d k, k < width -> List.length l = Kp bm ->
               exists j, j < Kp bm /\ nth k (widen (Kp bm) width l d) d = nth j l d).
  { intros A l d k Hk Hl. exists (bidx (Kp bm) k). split; [apply (bidx_widen _ width); auto|apply widen_nth; auto]. }
  assert (KP : Kp (mkBeam (b_t nx) (map (fun c => c ++ [0]) (widen (Kp bm) width (b_y bm) [])) (b_last nx)
                     (widen (Kp bm) width (b_lens bm) 0) (pad_inf (Kp bm) width (b_nb bm))
                     (pad_inf (Kp bm) width (b_b bm)) (b_isp nx)) = width).
  { unfold Kp. cbn [b_nb]. apply Lp. reflexivity. }
  split; [|exact KP]. constructor; rewrite ?KP; cbn [b_b b_y b_last b_lens b_isp b_t].
  - exact Wpos.
  - apply Lp. apply (wf_b bm W).
  - rewrite map_length. apply Lw. apply (wf_y bm W).
  - rewrite (wf_last nx Wn). exact Kn.
  - apply Lw. apply (wf_lens bm W).
  - rewrite (wf_isp nx Wn). exact Kn.
  - intros k Hk. unfold col. cbn [b_y].
    rewrite (nth_indep _ [] ((fun c => c ++ [0]) [])) by (rewrite map_length, Lw; [exact Hk|apply (wf_y bm W)]).
    rewrite (map_nth (fun c => c ++ [0])). destruct (Nw _ (b_y bm) [] k Hk (wf_y bm W)) as [j [Hj ->]].
    rewrite app_length. pose proof (wf_col bm W j Hj) as Hc. unfold col in Hc. rewrite Hc.
    unfold nx. rewrite (nx_t V width fr bm choice). cbn [List.length]. lia.
  - intros k. unfold lens. cbn [b_lens]. unfold nx. rewrite (nx_t V width fr bm choice).
    destruct (Nat.ltb_spec k width) as [Hk|Hk].
    + destruct (Nw _ (b_lens bm) 0 k Hk (wf_lens bm W)) as [j [Hj ->]]. pose proof (wf_len bm W j). unfold lens in H. lia.
    + rewrite nth_overflow; [lia|]. rewrite Lw; [exact Hk|apply (wf_lens bm W)].
Qed.

(* ---- all frames: the hand-written glue [SrcRunB.src_frames] around the interpreted body -------------------------- *)
Lemma skipn_nth {A} (l : list A) t d : t < List.length l -> skipn t l = nth t l d :: skipn (Datatypes.S t) l.
Proof.
  revert t. induction l as [|x l IH]; intros t Ht; cbn [List.length] in Ht; [lia|].
  destruct t; [reflexivity|]. cbn [skipn nth]. apply IH. lia.
Qed.

Lemma src_frames_nolm : forall V width has_lm beta vm lmS lm len_min len fs pv,
  fused beta has_lm = false -> 1 <= V -> 1 <= width -> len_min <= len ->
  forall n t choices bm, t + n = List.length fs -> wf bm -> (Kp bm = 1 \/ Kp bm = width) ->
  choices_wf V width NoLM lm len t (skipn t fs) choices bm ->
  src_frames V width has_lm beta vm lmS len_min len fs n t choices (enc_car bm pv)
  = Some (enc_car (sloop V width NoLM lm len t (skipn t fs) choices bm) pv)
  /\ wf (sloop V width NoLM lm len t (skipn t fs) choices bm).
Proof.
  intros V width has_lm beta vm lmS lm len_min len fs pv Hf Vpos Wpos Hmin.
  induction n as [|n IH]; intros t choices bm Hn W HK Hc.
  - rewrite skipn_all2 by lia. split; [reflexivity|exact W].
  - assert (Ht : t < List.length fs) by lia.
    rewrite (skipn_nth fs t ([], 0%Qc) Ht) in Hc |- *. destruct (nth t fs ([], 0%Qc)) as [nonext blank] eqn:En.
    cbn [choices_wf] in Hc. destruct Hc as [[Clen Crange] Hc']. cbn [src_frames sloop].
    rewrite (frame_tie_nolm V width has_lm beta vm lmS lm len_min len fs t bm (hd [] choices) pv Hf Vpos Wpos W HK Clen Crange Ht Hmin).
    rewrite En. cbn [fst snd].
    destruct (sstep_wf V width NoLM lm (len <=? t) nonext blank (hd [] choices) bm Vpos Wpos W HK Clen Crange) as [W' K'].
    apply IH; [lia|exact W'|right; exact K'|exact Hc'].
Qed.
