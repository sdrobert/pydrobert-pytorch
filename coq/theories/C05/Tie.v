(* C05 — tie, part 2: the tensor program [TieRun.adv_tensor] (= the interpreted source of
   `ctc_prefix_search_advance`, TieRun.run_is_adv) evaluated on the tensors that encode a frame and a beam of the
   model (ONE batch element, N = 1) computes exactly the tensors that encode Model.advance's result - for every
   vocabulary size >= 1, width >= 1, frame, well-formed beam (ProofsModel.wf) and every answer [choice] of the
   topk oracle that has Kout entries, all of them candidate indices (in particular the model's stable selection).
   Block by block, in the order the blocks execute:
     A candidates      invalid_prev .. nb_nonext_probs_cand          [cands_model]
     B to_match                                                      [to_match_model]
     C merge           ext_is_exact .. tot_probs_cand                [merge_model]
     D choose          topk .. y_next_last                           [choose_model]
     E prefix matrix   next_prefix_is_prefix .. next_is_prefix       [prefix_model]
     F padding         `if K < width:` .. return                     [pad_model] *)
From Coq Require Import ZArith QArith Qcanon List String Bool Arith Lia ZifyBool ZifyNat.
From PV Require Import MiniPy.Syntax MiniPy.Interp MiniTorch.Ops MiniTorch.OpsC05 MiniTorch.LemmasC05 Gen.C05Src.
From PV Require Import C05.Model C05.ProofsModel C05.ProofsSearch C05.ProofsTopk C05.SrcRun C05.TieRun.
Import ListNotations.
Local Open Scope nat_scope.

#[local] Ltac Zify.zify_post_hook ::= Z.to_euclidean_division_equations.

Tactic Notation "bstep" uconstr(L) := rewrite L; cbn [bo].

Section Adv.
Variable sel : nat -> list mass -> nat -> list nat.
Variables (V width : nat) (fr : frame) (bm : beam) (choice : list nat).
Hypothesis Hsel : sel 0 (map (cand V fr bm) (seq 0 (ncand V bm))) (Kout V bm width) = choice.
Hypothesis Vpos : 1 <= V.
Hypothesis Wpos : 1 <= width.
Hypothesis W : wf bm.
Hypothesis Clen : List.length choice = Kout V bm width.
Hypothesis Crange : forall i, List.In i choice -> i < ncand V bm.

Let K' := Kp bm.
Let S := b_t bm.
Let K := Kout V bm width.

Lemma Kp_pos : 1 <= K'. Proof. apply (wf_pos bm W). Qed.

(* ---- the argument tensors, tabulated ---------------------------------------------------------------- *)
Lemma enc_ext_T : enc_ext V fr bm = T3 1 K' V (fun _ k v => Fin (extp fr k v)). Proof. reflexivity. Qed.
Lemma enc_nonext_T : enc_nonext V fr = T2 1 V (fun _ v => Fin (nth v (f_nonext fr) 0%Qc)). Proof. reflexivity. Qed.
Lemma enc_blank_T : enc_blank fr = T1 1 (fun _ => Fin (f_blank fr)). Proof. reflexivity. Qed.
Lemma enc_nb_T : enc_nb bm = T2 1 K' (fun _ k => nth k (b_nb bm) NegInf). Proof. reflexivity. Qed.
Lemma enc_bb_T : enc_bb bm = T2 1 K' (fun _ k => nth k (b_b bm) NegInf). Proof. reflexivity. Qed.
Lemma enc_y_T : enc_y bm = T3 S 1 K' (fun s _ k => Z.of_nat (ycell bm k s)). Proof. reflexivity. Qed.
Lemma enc_last_T : enc_last bm = T2 1 K' (fun _ k => Z.of_nat (nth k (b_last bm) 0)). Proof. reflexivity. Qed.
Lemma enc_lens_T : enc_lens bm = T2 1 K' (fun _ k => Z.of_nat (lens bm k)). Proof. reflexivity. Qed.
Lemma enc_isp_T : enc_isp bm = T3 1 K' K' (fun _ k k' => isp bm k k'). Proof. reflexivity. Qed.

(* ---- A. candidates -------------------------------------------------------------------------------------- *)
Definition t_invalid : tn bool := T2 1 K' (fun _ k => invalid bm k).
Definition t_last : tn Z := T2 1 K' (fun _ k => Z.of_nat (lastc V bm k)).
Definition t_nbext : tn mass := T3 1 K' V (fun _ k v => Fin (nb_ext V fr bm k v)).
Definition t_bnon : tn mass := T2 1 K' (fun _ k => Fin (b_nonext fr bm k)).
Definition t_nbnon : tn mass := T2 1 K' (fun _ k => Fin (nb_nonext0 V fr bm k)).

Lemma masked_nb k :
  (if invalid bm k then F0 else nth k (b_nb bm) NegInf) = Fin (nbq bm k).
Proof.
  unfold nbq, invalid, F0. destruct (nth k (b_nb bm) NegInf), (nth k (b_b bm) NegInf); reflexivity.
Qed.
Lemma masked_b k :
  (if invalid bm k then F0 else nth k (b_b bm) NegInf) = Fin (bq bm k).
Proof.
  unfold bq, invalid, F0. destruct (nth k (b_nb bm) NegInf), (nth k (b_b bm) NegInf); reflexivity.
Qed.

Lemma lastc_lt k : lastc V bm k < V. Proof. unfold lastc, clampV. lia. Qed.

Lemma clamp_nat x : Z.min (Z.max (Z.of_nat x) 0) (Z.of_nat V - 1) = Z.of_nat (clampV V x).
Proof. unfold clampV. lia. Qed.

Lemma is_fin_Fin q : is_fin (Fin q) = true. Proof. reflexivity. Qed.

Lemma cands_model :
  adv_cands 1 K' V (enc_ext V fr bm) (enc_nonext V fr) (enc_blank fr) (enc_nb bm) (enc_bb bm) (enc_last bm)
  = Some (mkCands t_invalid t_last t_nbext t_bnon t_nbnon).
Proof.
  unfold adv_cands. rewrite enc_ext_T, enc_nonext_T, enc_blank_T, enc_nb_T, enc_bb_T, enc_last_T.
  unfold fadd at 1. bstep zipb_T2_same. unfold feq_neginf. rewrite tmap_T2. fold t_invalid.
  change (T2 1 K' (fun _ k => is_neginf (madd (nth k (b_nb bm) NegInf) (nth k (b_b bm) NegInf)))) with t_invalid.
  unfold t_invalid at 1 2. bstep masked_fill_T2_same. bstep masked_fill_T2_same.
  rewrite (T2_ext 1 K' _ (fun _ k => Fin (nbq bm k))) by (intros; apply masked_nb).
  rewrite (T2_ext 1 K' (fun _ j => if invalid bm j then F0 else nth j (b_b bm) NegInf) (fun _ k => Fin (bq bm k)))
    by (intros; apply masked_b).
  unfold fadd at 1. bstep zipb_T2_same.
  unfold iclamp. rewrite tmap_T2.
  rewrite (T2_ext 1 K' _ (fun _ k => Z.of_nat (lastc V bm k))) by (intros; apply clamp_nat).
  bstep unsqueeze_T2_2. change (Z.of_nat 1) with 1%Z.
  replace [1%Z; Z.of_nat K'; Z.of_nat V] with [Z.of_nat 1; Z.of_nat K'; Z.of_nat V] by reflexivity.
  bstep expand_T3_last. bstep unsqueeze_T2_2.
  rewrite scatter_value_T3_2 by (intros; pose proof (lastc_lt j); lia). cbn [bo].
  bstep unsqueeze_T2_2. unfold fadd at 1. bstep zipb_T3_last1.
  unfold fmul at 1. rewrite !forallb_T3 by (intros; try destruct (_ =? _); reflexivity). cbn [andb].
  bstep zipb_T3_same.
  rewrite (T3_ext 1 K' V _ (fun _ k v => Fin (nb_ext V fr bm k v))).
  2:{ intros i k v _ _ _. unfold nb_ext, F0. rewrite Nat2Z.id. destruct (v =? lastc V bm k); reflexivity. }
  bstep unsqueeze_T1_1.
  unfold fmul at 1. rewrite !forallb_T2 by (intros; reflexivity). cbn [andb].
  bstep zipb_T2_col.
  rewrite gather_T2_1; [|lia|intros; pose proof (lastc_lt j); lia]. cbn [bo].
  unfold fmul at 1. rewrite !forallb_T2 by (intros; reflexivity). cbn [andb].
  bstep zipb_T2_same.
  unfold t_last, t_nbext, t_bnon, t_nbnon. do 2 f_equal. apply T2_ext. intros i k _ _. unfold nb_nonext0.
  now rewrite Nat2Z.id.
Qed.

(* ---- B. to_match ------------------------------------------------------------------------------------------ *)
Definition t_tm : tn Z := T3 1 K' K' (fun _ k k' => Z.of_nat (to_match V bm k k')).

Lemma to_match_model : adv_to_match 1 K' V S (enc_y bm) (enc_lens bm) = Some t_tm.
Proof.
  unfold adv_to_match. rewrite enc_y_T, enc_lens_T. destruct (Nat.eqb_spec S 0) as [HS|HS].
  - replace (negb (Z.of_nat S =? 0)%Z) with false by lia. rewrite full_T3. f_equal. apply T3_ext.
    intros i k k' _ _ _. unfold to_match. fold S. rewrite HS. reflexivity.
  - replace (negb (Z.of_nat S =? 0)%Z) with true by lia. unfold iclamp. rewrite tmap_T2.
    bstep unsqueeze_T2_2. bstep expand_T3_last. bstep transpose_T3_01.
    rewrite gather_T3_0; [|lia|lia|intros; lia]. cbn [bo]. bstep transpose_T3_01. rewrite tmap_T3.
    f_equal. apply T3_ext. intros i k k' _ _ _. rewrite clamp_nat. unfold to_match. fold S.
    replace (S =? 0) with false by (symmetry; apply Nat.eqb_neq; exact HS). do 3 f_equal. lia.
Qed.

(* ---- C. the merge of an extension into an identical existing prefix; the candidate vector ---------------- *)
Definition t_nbext_c : tn mass := T3 1 K' V (fun _ k v => nb_ext_c V fr bm k v).
Definition t_nbnon_c : tn mass := T2 1 K' (fun _ k => nb_nonext_c V fr bm k).
Definition t_cand : tn mass := T2 1 (ncand V bm) (fun _ => cand V fr bm).

Lemma to_match_lt k k' : to_match V bm k k' < V.
Proof. unfold to_match, clampV. destruct (b_t bm =? 0); lia. Qed.

Lemma existsb_ext_in {A} (f g : A -> bool) l : (forall x, List.In x l -> f x = g x) -> existsb f l = existsb g l.
Proof.
  induction l as [|x l IH]; intros H; [reflexivity|]. cbn [existsb]. rewrite H by (now left).
  rewrite IH; [reflexivity|]. intros y Hy. apply H. now right.
Qed.

Lemma merge_model :
  adv_merge 1 K' V (mkCands t_invalid t_last t_nbext t_bnon t_nbnon) t_tm (enc_lens bm) (enc_isp bm)
  = Some (mkMerged t_nbext_c t_nbnon_c t_cand).
Proof.
  unfold adv_merge. cbn [c_invalid c_last c_nbext c_bnon c_nbnon]. rewrite enc_lens_T, enc_isp_T.
  unfold iadd_s. rewrite tmap_T2. bstep unsqueeze_T2_2. bstep unsqueeze_T2_1.
  unfold ieq at 1. bstep zipb_T3_outer. unfold band at 1. bstep zipb_T3_same.
  rewrite (T3_ext 1 K' K' _ (fun _ k k' => ext_is_exact bm k k')).
  2:{ intros i k k' _ _ _. unfold ext_is_exact. f_equal. destruct (Nat.eqb_spec (lens bm k + 1) (lens bm k')); lia. }
  unfold t_nbext at 1, t_tm at 1.
  rewrite gather_T3_2; [|lia|lia|intros i k k' _ _ _; pose proof (to_match_lt k k'); lia]. cbn [bo].
  unfold bnot. rewrite tmap_T3. bstep masked_fill_T3_same. bstep fsum_T3_1.
  unfold t_nbnon at 1. unfold fadd at 1. bstep zipb_T2_same.
  rewrite (T2_ext 1 K' _ (fun _ k' => Fin (nb_nonext1 V fr bm k'))).
  2:{ intros i k' _ _. unfold nb_nonext1, Model.merged. fold K'.
      rewrite (map_ext _ (fun k => Fin (if ext_is_exact bm k k' then nb_ext V fr bm k (to_match V bm k k') else 0%Qc))).
      - rewrite fold_madd_fin. reflexivity.
      - intros k. rewrite Nat2Z.id. unfold F0. destruct (ext_is_exact bm k k'); reflexivity. }
  unfold t_tm at 1.
  rewrite one_hot_T3; [|exact Vpos|intros i k k' _ _ _; pose proof (to_match_lt k k'); lia]. cbn [bo].
  unfold to_bool. rewrite tmap_T4. bstep unsqueeze_T3_3. unfold band at 1. bstep zipb_T4_last1. bstep bany_T4_2.
  rewrite (T3_ext 1 K' V _ (fun _ k v => has_match V bm k v)).
  2:{ intros i k v _ _ _. unfold has_match. fold K'. apply existsb_ext_in. intros k' _. rewrite Nat2Z.id. f_equal.
      rewrite (Nat.eqb_sym (to_match V bm k k') v). destruct (v =? to_match V bm k k'); reflexivity. }
  unfold t_nbext at 1. bstep masked_fill_T3_same. unfold t_invalid at 1. bstep unsqueeze_T2_2.
  bstep masked_fill_T3_last1.
  rewrite (T3_ext 1 K' V _ (fun _ k v => nb_ext_c V fr bm k v)).
  2:{ intros i k v _ _ _. unfold nb_ext_c. destruct (invalid bm k), (has_match V bm k v); reflexivity. }
  unfold t_invalid at 1. bstep masked_fill_T2_same.
  change (T2 1 K' (fun _ j => if invalid bm j then NegInf else Fin (nb_nonext1 V fr bm j))) with t_nbnon_c.
  change (T3 1 K' V (fun _ k v => nb_ext_c V fr bm k v)) with t_nbext_c.
  unfold t_nbext_c at 1. change 1%Z with (Z.of_nat 1). rewrite view_merge_T3 by lia. cbn [bo].
  unfold t_nbnon_c at 1, t_bnon at 1. unfold fadd at 1. bstep zipb_T2_same. bstep cat2_T2_1.
  do 3 f_equal. unfold t_cand, ncand. fold K'. replace (K' * (V + 1)) with (K' * V + K') by lia.
  apply T2_ext. intros i r _ _. unfold cand. fold K'. destruct (r <? K' * V); reflexivity.
Qed.

(* ---- D. topk and the chosen slots ------------------------------------------------------------------------ *)
Let ix (j : nat) : nat := ch choice j.

Definition t_isnon : tn bool := T2 1 K (fun _ j => c_nonext V bm (ix j)).
Definition t_src : tn Z := T2 1 K (fun _ j => Z.of_nat (c_src V bm (ix j))).
Definition t_ext : tn Z := T2 1 K (fun _ j => Z.of_nat (c_ext V (ix j))).
Definition t_ynext : tn Z := T3 (S + 1) 1 K (fun s _ j => Z.of_nat (nth s (c_col V bm (ix j)) 0)).
Definition t_ylens : tn Z := T2 1 K (fun _ j => Z.of_nat (c_len V bm (ix j))).
Definition t_nbnext : tn mass := T2 1 K (fun _ j => c_nb V fr bm (ix j)).
Definition t_bnext : tn mass := T2 1 K (fun _ j => c_b V fr bm (ix j)).
Definition t_ylast : tn Z := T2 1 K (fun _ j => Z.of_nat (Model.c_last V bm (ix j))).

Lemma ix_lt j : j < K -> ix j < ncand V bm.
Proof. intros H. apply (ch_range V width bm choice Clen Crange j H). Qed.
Lemma src_lt j : j < K -> c_src V bm (ix j) < K'.
Proof. intros H. apply (src_range V width bm choice Vpos Wpos Clen). now apply ix_lt. Qed.
Lemma K_le_ncand : K <= ncand V bm. Proof. unfold K, Kout. lia. Qed.
Lemma KV_pos : 1 <= K' * V. Proof. pose proof Kp_pos. nia. Qed.
Lemma lens_le k : lens bm k <= S. Proof. apply (wf_len bm W). Qed.
Lemma col_len k : k < K' -> List.length (nth k (b_y bm) []) = S. Proof. apply (wf_col bm W). Qed.

Lemma znon x : (Z.of_nat K' * Z.of_nat V <=? Z.of_nat x)%Z = c_nonext V bm x.
Proof. unfold c_nonext. fold K'. destruct (Nat.leb_spec (K' * V) x); lia. Qed.

Lemma zsrc x : (if c_nonext V bm x then (Z.of_nat x - Z.of_nat K' * Z.of_nat V)%Z else Z.quot (Z.of_nat x) (Z.of_nat V))
               = Z.of_nat (c_src V bm x).
Proof.
  unfold c_src. pose proof (znon x) as E. destruct (c_nonext V bm x).
  - fold K'. lia.
  - rewrite Z.quot_div_nonneg by lia. now rewrite Nat2Z.inj_div.
Qed.

Lemma zext x : (Z.of_nat x mod Z.of_nat V)%Z = Z.of_nat (c_ext V x).
Proof. unfold c_ext. now rewrite Nat2Z.inj_mod. Qed.

Lemma col_nth j s : j < K -> s < S + 1 ->
  (if s =? lens bm (c_src V bm (ix j)) then Z.of_nat (c_ext V (ix j))
   else if s <? S then Z.of_nat (ycell bm (c_src V bm (ix j)) s) else 0%Z)
  = Z.of_nat (nth s (c_col V bm (ix j)) 0).
Proof.
  intros Hj Hs. unfold c_col. pose proof (src_lt j Hj) as Hk. pose proof (col_len _ Hk) as Hc.
  pose proof (lens_le (c_src V bm (ix j))) as Hl.
  destruct (Nat.eqb_spec s (lens bm (c_src V bm (ix j)))) as [->|Hne].
  - rewrite nth_upd_eq; [reflexivity|]. rewrite app_length, Hc. cbn [List.length]. lia.
  - rewrite nth_upd_neq by lia. destruct (Nat.ltb_spec s S).
    + rewrite app_nth1 by lia. reflexivity.
    + rewrite app_nth2 by lia. rewrite Hc. replace (s - S) with 0 by lia. reflexivity.
Qed.

Lemma choose_model :
  adv_choose sel 1 K' V S (Z.of_nat K) (mkCands t_invalid t_last t_nbext t_bnon t_nbnon)
    (mkMerged t_nbext_c t_nbnon_c t_cand) (enc_y bm) (enc_lens bm)
  = Some (mkChosen t_isnon t_src t_ext t_ynext t_ylens t_nbnext t_bnext t_ylast).
Proof.
  unfold adv_choose. cbn [c_invalid c_last c_nbext c_bnon c_nbnon m_nbext m_nbnon m_cand].
  rewrite enc_y_T, enc_lens_T. pose proof K_le_ncand as HK. pose proof KV_pos as HKV.
  unfold t_cand at 1. rewrite topk_T2; [|exact HK|].
  2:{ intros i Hi. replace i with 0 by lia. fold K in Hsel. rewrite Hsel. split; [exact Clen|exact Crange]. }
  cbn [bo].
  rewrite (T2_ext 1 K (fun i j => Z.of_nat (nth j (sel i (map (cand V fr bm) (seq 0 (ncand V bm))) K) 0))
                      (fun _ j => Z.of_nat (ix j))).
  2:{ intros i j Hi _. replace i with 0 by lia. fold K in Hsel. now rewrite Hsel. }
  unfold ige_s, isub_s, itrunc_div_s, irem_s.
  replace (Z.of_nat V =? 0)%Z with false by lia. cbn [bo]. rewrite !tmap_T2.
  rewrite (T2_ext 1 K (fun _ j => (Z.of_nat K' * Z.of_nat V <=? Z.of_nat (ix j))%Z) (fun _ j => c_nonext V bm (ix j)))
    by (intros; apply znon).
  bstep where_T2.
  rewrite (T2_ext 1 K _ (fun _ j => Z.of_nat (c_src V bm (ix j)))) by (intros; apply zsrc).
  rewrite (T2_ext 1 K (fun _ j => (Z.of_nat (ix j) mod Z.of_nat V)%Z) (fun _ j => Z.of_nat (c_ext V (ix j))))
    by (intros; apply zext).
  rewrite gather_T2_1; [|lia|intros i j _ Hj; pose proof (src_lt j Hj); lia]. cbn [bo].
  bstep unsqueeze_T2_0. change 1%Z with (Z.of_nat 1). bstep expand_T3_first.
  rewrite gather_T3_2; [|lia|lia|intros s i j _ _ Hj; pose proof (src_lt j Hj); lia]. cbn [bo].
  bstep full_T3. bstep cat2_T3_0. bstep unsqueeze_T2_0. bstep unsqueeze_T2_0.
  rewrite scatter_src_T3_0.
  2:{ intros i j _ Hj. rewrite Nat2Z.id. pose proof (lens_le (c_src V bm (ix j))). lia. }
  cbn [bo].
  rewrite (T3_ext (S + 1) 1 K _ (fun s _ j => Z.of_nat (nth s (c_col V bm (ix j)) 0))).
  2:{ intros s i j Hs _ Hj. rewrite !Nat2Z.id. rewrite <- (col_nth j s Hj Hs).
      destruct (s =? lens bm (c_src V bm (ix j))); [reflexivity|]. destruct (s <? S); reflexivity. }
  unfold bnot. rewrite !tmap_T2. unfold iadd_b at 1. bstep zipb_T2_same.
  unfold t_nbext_c at 1. rewrite view_merge_T3 by lia. cbn [bo].
  unfold iclamp. rewrite tmap_T2.
  rewrite gather_T2_1; [|lia|intros i j _ Hj; lia]. cbn [bo].
  unfold t_nbnon_c at 1.
  rewrite gather_T2_1; [|lia|intros i j _ Hj; pose proof (src_lt j Hj); lia]. cbn [bo].
  bstep where_T2.
  unfold t_bnon at 1.
  rewrite gather_T2_1; [|lia|intros i j _ Hj; pose proof (src_lt j Hj); lia]. cbn [bo].
  bstep masked_fill_T2_same.
  unfold t_last at 1.
  rewrite gather_T2_1; [|lia|intros i j _ Hj; pose proof (src_lt j Hj); lia]. cbn [bo].
  unfold imul_b at 1. bstep zipb_T2_same. unfold imul_b at 1. bstep zipb_T2_same.
  unfold iadd at 1. bstep zipb_T2_same.
  unfold t_isnon, t_src, t_ext, t_ynext, t_ylens, t_nbnext, t_bnext, t_ylast. do 2 f_equal.
  - apply T2_ext. intros i j _ Hj. rewrite Nat2Z.id. unfold c_len. destruct (c_nonext V bm (ix j)); cbn [negb b2z]; lia.
  - apply T2_ext. intros i j _ Hj. rewrite !Nat2Z.id. unfold c_nb. destruct (c_nonext V bm (ix j)); [reflexivity|].
    fold K'. match goal with |- context [Z.to_nat ?z] => replace (Z.to_nat z) with (Nat.min (ix j) (K' * V - 1)) by lia end.
    reflexivity.
  - apply T2_ext. intros i j _ Hj. rewrite Nat2Z.id. unfold c_b, F0. destruct (c_nonext V bm (ix j)); reflexivity.
  - apply T2_ext. intros i j _ Hj. rewrite Nat2Z.id. unfold Model.c_last. destruct (c_nonext V bm (ix j)); cbn [negb b2z]; lia.
Qed.

(* ---- E. the prefix-relation matrix ------------------------------------------------------------------------ *)
Definition t_nip : tn bool := T3 1 K K (fun _ j j' => c_isp V bm (ix j) (ix j')).

Lemma len_le j : c_len V bm (ix j) <= S + 1.
Proof. pose proof (c_len_le V width bm choice Vpos Wpos W Clen (ix j)). fold S in H. lia. Qed.

Lemma prefix_model :
  adv_prefix 1 K' (Z.of_nat K) (mkChosen t_isnon t_src t_ext t_ynext t_ylens t_nbnext t_bnext t_ylast) (enc_isp bm)
  = Some t_nip.
Proof.
  unfold adv_prefix. cbn [h_isnon h_src h_ext h_y h_lens h_nb h_b h_last]. rewrite enc_isp_T.
  change 1%Z with (Z.of_nat 1).
  unfold t_src at 1. bstep unsqueeze_T2_2. bstep expand_T3_last.
  rewrite gather_T3_1; [|lia|lia|intros i j k' _ Hj _; pose proof (src_lt j Hj); lia]. cbn [bo].
  unfold t_src at 1. bstep unsqueeze_T2_1. bstep expand_T3_mid.
  rewrite gather_T3_2; [|lia|lia|intros i j j' _ _ Hj; pose proof (src_lt j' Hj); lia]. cbn [bo].
  unfold t_ylens at 1. bstep unsqueeze_T2_2. unfold t_ylens at 1. bstep unsqueeze_T2_1.
  unfold ile at 1. bstep zipb_T3_outer.
  unfold isub_s, iclamp. unfold t_ylens at 1. rewrite !tmap_T2. bstep unsqueeze_T2_2. bstep expand_T3_last.
  bstep transpose_T3_01. unfold t_ynext at 1.
  rewrite gather_T3_0; [|lia|lia|intros j i j' _ _ _; pose proof (len_le j); lia]. cbn [bo].
  bstep transpose_T3_01. unfold t_ext at 1. bstep unsqueeze_T2_2. unfold ieq at 1. bstep zipb_T3_last1.
  unfold band at 1. bstep zipb_T3_same. unfold t_isnon at 1. bstep unsqueeze_T2_2. unfold t_isnon at 1.
  bstep unsqueeze_T2_2. unfold bnot. rewrite tmap_T3. unfold band at 1. bstep zipb_T3_last1_l.
  unfold bor at 1. bstep zipb_T3_last1_l. unfold band at 1. rewrite zipb_T3_same. f_equal. apply T3_ext.
  intros i j j' _ Hj Hj'. rewrite !Nat2Z.id. unfold c_isp. f_equal; [f_equal|].
  - pose proof (len_le j). pose proof (len_le j'). destruct (Nat.leb_spec (c_len V bm (ix j)) (c_len V bm (ix j'))); lia.
  - f_equal. f_equal.
    replace (Z.to_nat (Z.max (Z.of_nat (c_len V bm (ix j)) - Z.of_nat 1) 0)) with (c_len V bm (ix j) - 1) by lia.
    match goal with |- (Z.of_nat ?a =? Z.of_nat ?b)%Z = _ => destruct (Nat.eqb_spec a b); lia end.
Qed.

(* ---- F. filling to `width` with invalid slots; the returned tensors -------------------------------------- *)
Let nx : beam := fst (advance V fr bm width choice).
Let osrc : list nat := fst (snd (advance V fr bm width choice)).
Let onon : list bool := snd (snd (advance V fr bm width choice)).

Definition o_model : outs :=
  mkOuts (T3 (S + 1) 1 width (fun s _ j => Z.of_nat (ycell nx j s)))
         (T2 1 width (fun _ j => Z.of_nat (nth j (b_last nx) 0)))
         (T2 1 width (fun _ j => Z.of_nat (lens nx j)))
         (T2 1 width (fun _ j => nth j (b_nb nx) NegInf))
         (T2 1 width (fun _ j => nth j (b_b nx) NegInf))
         (T3 1 width width (fun _ j j' => isp nx j j'))
         (T2 1 width (fun _ j => Z.of_nat (nth j osrc 0)))
         (T2 1 width (fun _ j => nth j onon false)).

Lemma K_le_width : K <= width. Proof. unfold K, Kout. lia. Qed.

Lemma nx_ycell j s : j < width ->
  Z.of_nat (ycell nx j s) = if j <? K then Z.of_nat (nth s (c_col V bm (ix j)) 0) else 0%Z.
Proof.
  intros Hj. unfold ycell. change (nth j (b_y nx) []) with (col nx j). destruct (Nat.ltb_spec j K) as [H|H].
  - unfold nx. now rewrite (nx_col V width fr bm choice Clen j H).
  - unfold nx. rewrite (nx_col_fill V width fr bm choice Vpos Wpos Clen j H Hj).
    rewrite nth_repeat_if. destruct (s <? Datatypes.S (b_t bm)); reflexivity.
Qed.

Lemma nx_src j : nth j osrc 0 = if j <? K then c_src V bm (ix j) else 0.
Proof. unfold osrc, advance. cbn [fst snd]. rewrite (nth_map_app_repeat _ _ _ _ _ 0), Clen. reflexivity. Qed.
Lemma nx_non j : nth j onon false = if j <? K then c_nonext V bm (ix j) else false.
Proof. unfold onon, advance. cbn [fst snd]. rewrite (nth_map_app_repeat _ _ _ _ _ 0), Clen. reflexivity. Qed.

Lemma o_model_eq :
  o_model =
  mkOuts (T3 (S + 1) 1 width (fun s _ j => if j <? K then Z.of_nat (nth s (c_col V bm (ix j)) 0) else 0%Z))
         (T2 1 width (fun _ j => if j <? K then Z.of_nat (Model.c_last V bm (ix j)) else 0%Z))
         (T2 1 width (fun _ j => if j <? K then Z.of_nat (c_len V bm (ix j)) else 0%Z))
         (T2 1 width (fun _ j => if j <? K then c_nb V fr bm (ix j) else NegInf))
         (T2 1 width (fun _ j => if j <? K then c_b V fr bm (ix j) else NegInf))
         (T3 1 width width (fun _ j j' => if j <? K then (if j' <? K then c_isp V bm (ix j) (ix j') else false) else false))
         (T2 1 width (fun _ j => if j <? K then Z.of_nat (c_src V bm (ix j)) else 0%Z))
         (T2 1 width (fun _ j => if j <? K then c_nonext V bm (ix j) else false)).
Proof.
  unfold o_model. f_equal.
  - apply T3_ext. intros s i j _ _ Hj. now apply nx_ycell.
  - apply T2_ext. intros i j _ _. unfold nx. rewrite (nx_last V width fr bm choice Clen j). fold K. fold (ix j).
    destruct (j <? K); reflexivity.
  - apply T2_ext. intros i j _ _. unfold nx. rewrite (nx_lens V width fr bm choice Clen j). fold K. fold (ix j).
    destruct (j <? K); reflexivity.
  - apply T2_ext. intros i j _ _. unfold nx. now rewrite (nx_nb V width fr bm choice Clen j).
  - apply T2_ext. intros i j _ _. unfold nx. now rewrite (nx_b V width fr bm choice Clen j).
  - apply T3_ext. intros i j j' _ _ _. unfold nx. rewrite (nx_isp V width fr bm choice Clen j j'). fold K. fold (ix j). fold (ix j').
    destruct (j <? K), (j' <? K); reflexivity.
  - apply T2_ext. intros i j _ _. rewrite nx_src. destruct (j <? K); reflexivity.
  - apply T2_ext. intros i j _ _. apply nx_non.
Qed.

Lemma pad_model :
  adv_pad 1 S (Z.of_nat width) (Z.of_nat K) (mkChosen t_isnon t_src t_ext t_ynext t_ylens t_nbnext t_bnext t_ylast) t_nip
  = Some o_model.
Proof.
  rewrite o_model_eq. unfold adv_pad. cbn [h_isnon h_src h_ext h_y h_lens h_nb h_b h_last].
  pose proof K_le_width as HK. destruct (Nat.ltb_spec K width) as [Hlt|Hge].
  - replace (Z.of_nat K <? Z.of_nat width)%Z with true by lia.
    replace (Z.of_nat width - Z.of_nat K)%Z with (Z.of_nat (width - K)) by lia.
    replace (Z.of_nat S + 1)%Z with (Z.of_nat (S + 1)) by lia. change 1%Z with (Z.of_nat 1).
    assert (EK : K + (width - K) = width) by lia.
    bstep full_T3. unfold t_ynext at 1. bstep cat2_T3_2. rewrite EK.
    bstep full_T2. unfold t_ylast at 1. bstep cat2_T2_1. unfold t_ylens at 1. bstep cat2_T2_1. rewrite EK.
    bstep full_T2. unfold t_nbnext at 1. bstep cat2_T2_1. unfold t_bnext at 1. bstep cat2_T2_1. rewrite EK.
    bstep full_T2. unfold t_isnon at 1. bstep cat2_T2_1. rewrite EK.
    bstep unsqueeze_T2_1. bstep expand_T3_mid. unfold t_nip at 1. bstep cat2_T3_2. rewrite EK.
    bstep unsqueeze_T2_2. bstep expand_T3_last. bstep cat2_T3_1. rewrite EK.
    unfold t_src at 1. bstep cat2_T2_1. rewrite EK. reflexivity.
  - replace (Z.of_nat K <? Z.of_nat width)%Z with false by lia. assert (E : K = width) by lia.
    unfold t_isnon, t_src, t_ext, t_ynext, t_ylens, t_nbnext, t_bnext, t_ylast, t_nip. rewrite <- E. do 2 f_equal.
    (* field by field: nothing is padded, every index is below K *)
    all: (apply T2_ext || apply T3_ext); intros; now rewrite ?(proj2 (Nat.ltb_lt _ K)) by assumption.
Qed.

(* ---- the tensor program on the encoded frame and beam = the encoded Model.advance ------------------------ *)
Lemma Kz : Z.min (Z.of_nat width) (Z.of_nat K' * (Z.of_nat V + 1)) = Z.of_nat K.
Proof. unfold K, Kout, ncand. fold K'. lia. Qed.

Lemma adv_tensor_model :
  adv_tensor sel 1 K' V S (enc_ext V fr bm) (enc_nonext V fr) (enc_blank fr) (Z.of_nat width)
    (enc_nb bm) (enc_bb bm) (enc_y bm) (enc_last bm) (enc_lens bm) (enc_isp bm) = Some o_model.
Proof.
  unfold adv_tensor. rewrite Kz. bstep cands_model. bstep to_match_model. bstep merge_model. bstep choose_model.
  bstep prefix_model. apply pad_model.
Qed.

Lemma enc_o_model : enc_outs o_model = enc_out (advance V fr bm width choice).
Proof.
  unfold enc_out. assert (E : advance V fr bm width choice = (nx, (osrc, onon))).
  { unfold nx, osrc, onon. destruct (advance V fr bm width choice) as [a [b c]]. reflexivity. }
  rewrite E. cbv beta iota.
  assert (EW : List.length (b_nb nx) = width) by (apply (nx_Kp V width fr bm choice Vpos Wpos Clen)).
  unfold enc_y, enc_last, enc_lens, enc_nb, enc_bb, enc_isp. rewrite EW.
  replace (b_t nx) with (S + 1) by (unfold nx; rewrite (nx_t V width fr bm choice); unfold S; lia).
  reflexivity.
Qed.
End Adv.

(* ---- the tie ------------------------------------------------------------------------------------------------ *)
(* For EVERY topk oracle [sel], vocabulary size >= 1, width >= 1, frame, well-formed beam: if the oracle answers
   [choice] on the candidate row, and [choice] has Kout entries, all of them candidate indices, then interpreting the
   translated source computes the tensors that encode Model.advance under that choice - all seven returned
   tensors, every cell (also the undefined ones: 0, as in the model). *)
Theorem advance_tie_sel : forall sel V width fr bm choice,
  sel 0 (map (cand V fr bm) (seq 0 (ncand V bm))) (Kout V bm width) = choice ->
  1 <= V -> 1 <= width -> wf bm -> List.length choice = Kout V bm width ->
  (forall i, List.In i choice -> i < ncand V bm) ->
  exists st, Interp.run (ext05 sel) cpsa_body (advance_vars V width fr bm)
             = Interp.Ok (enc_out (advance V fr bm width choice)) st.
Proof.
  intros sel V width fr bm choice Hsel Vpos Wpos W Clen Crange. unfold advance_vars.
  pose proof (run_is_adv sel (enc_ext V fr bm) (enc_nonext V fr) (enc_blank fr) (Z.of_nat width) (enc_nb bm) (enc_bb bm)
                (enc_y bm) (enc_last bm) (enc_lens bm) (enc_isp bm) 1 (Kp bm) V (b_t bm)
                eq_refl eq_refl eq_refl eq_refl eq_refl eq_refl eq_refl eq_refl eq_refl) as Hsim.
  assert (Hw : (1 <= Z.of_nat width)%Z) by lia. specialize (Hsim Hw).
  rewrite (adv_tensor_model sel V width fr bm choice Hsel Vpos Wpos W Clen Crange) in Hsim.
  unfold vars0 in Hsim. unfold sim in Hsim.
  destruct (Interp.run (ext05 sel) cpsa_body _) as [v st|nm st|w]; try contradiction.
  exists st. rewrite Hsim. now rewrite (enc_o_model V width fr bm choice Vpos Wpos Clen).
Qed.

(* the oracle answers a given list (the harness: the answer it observed from torch) *)
Theorem advance_tie : forall V width fr bm choice,
  1 <= V -> 1 <= width -> wf bm -> List.length choice = Kout V bm width ->
  (forall i, List.In i choice -> i < ncand V bm) ->
  exists st, run_advance V width fr bm choice = Interp.Ok (enc_out (advance V fr bm width choice)) st.
Proof. intros. unfold run_advance. now apply advance_tie_sel. Qed.

(* the oracle is the model's stable selection (as in the C04 tie): no hypothesis on the choice is left *)
Definition stable_choice (V width : nat) (fr : frame) (bm : beam) : list nat :=
  topk_stable (fun i => nth i (map (cand V fr bm) (seq 0 (ncand V bm))) NegInf) (ncand V bm) (Kout V bm width).

Theorem advance_tie_stable : forall V width fr bm,
  1 <= V -> 1 <= width -> wf bm ->
  exists st, run_advance_stable V width fr bm
             = Interp.Ok (enc_out (advance V fr bm width (stable_choice V width fr bm))) st.
Proof.
  intros V width fr bm Vpos Wpos W. unfold run_advance_stable.
  pose proof (auto_step_ok V fr bm width Wpos (wf_pos bm W)) as Hok. cbv zeta in Hok. fold (stable_choice V width fr bm) in Hok.
  destruct (topk_ok_facts _ _ _ _ _ Hok) as [Hl Hr _ _ _].
  apply advance_tie_sel; try assumption.
  unfold sel_stable, stable_choice. now rewrite map_length, seq_length.
Qed.
