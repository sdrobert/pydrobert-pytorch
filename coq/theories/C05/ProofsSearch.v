(* C05 - the whole search (Model.search): the loop, freezing of finished elements, and the
   clauses of the property that talk about the returned beam. *)
From Coq Require Import List Arith Bool QArith Qcanon Lia.
From PV Require Import C05.Model C05.ProofsNum C05.ProofsModel.
Import ListNotations.
Local Open Scope nat_scope.

(* ---- order on masses ---------------------------------------------------------------------- *)

Definition mle (a b : mass) : Prop :=
  match a, b with
  | NegInf, _ => True
  | Fin _, NegInf => False
  | Fin x, Fin y => (x <= y)%Qc
  end.

Lemma mge0_mle : forall a b, mge_eps 0%Qc a b = true -> mle b a.
Proof.
  destruct a, b; cbn; intros H; auto; try discriminate.
  apply qleb_true in H. replace (q + 0)%Qc with q in H by ring. auto.
Qed.

Lemma mle_trans : forall a b c, mle a b -> mle b c -> mle a c.
Proof. destruct a, b, c; cbn; intros; auto; try tauto. eapply qle_trans; eauto. Qed.

Lemma mle_refl : forall a, mle a a.
Proof. destruct a; cbn; auto. apply qle_refl. Qed.

Definition sorted_desc (l : list mass) : Prop :=
  forall i j, i <= j -> j < length l -> mle (nth j l NegInf) (nth i l NegInf).

Lemma sorted_eps_desc : forall l, sorted_eps 0%Qc l = true -> sorted_desc l.
Proof.
  induction l as [|x l]; intros H i j Lij Lj; [cbn in Lj; lia|].
  assert (Hl : sorted_eps 0%Qc l = true).
  { destruct l; auto. cbn [sorted_eps] in H. apply andb_true_iff in H. tauto. }
  destruct i.
  - destruct j; [apply mle_refl|]. cbn [nth]. cbn [length] in Lj.
    (* x >= head of l >= l[j] *)
    destruct l as [|y l]; [cbn in Lj; lia|].
    cbn [sorted_eps] in H. apply andb_true_iff in H. destruct H as [H1 _].
    apply mle_trans with y; [|apply mge0_mle; auto].
    apply (IHl Hl 0 j); [lia|cbn [length] in *; lia].
  - destruct j; [lia|]. cbn [nth]. apply IHl; auto; cbn [length] in Lj; lia.
Qed.

Lemma sorted_eps_neginf' : forall n, sorted_eps 0%Qc (NegInf :: repeat NegInf n) = true.
Proof.
  induction n; [reflexivity|]. change (repeat NegInf (S n)) with (NegInf :: repeat NegInf n).
  change (sorted_eps 0%Qc (NegInf :: NegInf :: repeat NegInf n))
    with (mge_eps 0%Qc NegInf NegInf && sorted_eps 0%Qc (NegInf :: repeat NegInf n)).
  rewrite IHn. reflexivity.
Qed.

Lemma sorted_eps_neginf : forall n, sorted_eps 0%Qc (repeat NegInf n) = true.
Proof. destruct n; auto. apply sorted_eps_neginf'. Qed.

Lemma sorted_eps_app_neginf : forall l n, sorted_eps 0%Qc l = true ->
  sorted_eps 0%Qc (l ++ repeat NegInf n) = true.
Proof.
  induction l as [|x l]; intros n H.
  - apply sorted_eps_neginf.
  - destruct l as [|y l].
    + cbn [app]. destruct n; auto. pose proof (sorted_eps_neginf' n) as SN.
      change (repeat NegInf (S n)) with (NegInf :: repeat NegInf n).
      change (sorted_eps 0%Qc (x :: NegInf :: repeat NegInf n))
        with (mge_eps 0%Qc x NegInf && sorted_eps 0%Qc (NegInf :: repeat NegInf n)).
      rewrite SN. destruct x; reflexivity.
    + cbn [app sorted_eps] in *. apply andb_true_iff in H. destruct H as [H1 H2].
      rewrite H1. apply (IHl n H2).
Qed.

Lemma sorted_desc_neginf_last : forall l i j, sorted_desc l -> i <= j -> j < length l ->
  nth i l NegInf = NegInf -> nth j l NegInf = NegInf.
Proof.
  intros l i j S Lij Lj H. specialize (S i j Lij Lj). rewrite H in S.
  destruct (nth j l NegInf); auto. destruct S.
Qed.

(* ---- map2 ------------------------------------------------------------------------------------ *)

Lemma map2_map : forall {A B C D} (f : B -> C -> D) (g : A -> B) (h : A -> C) l,
  map2 f (map g l) (map h l) = map (fun x => f (g x) (h x)) l.
Proof. induction l; cbn; auto. f_equal; auto. Qed.

Lemma map2_app : forall {A B C} (f : A -> B -> C) l1 l2 m1 m2, length l1 = length m1 ->
  map2 f (l1 ++ l2) (m1 ++ m2) = map2 f l1 m1 ++ map2 f l2 m2.
Proof.
  induction l1; destruct m1; cbn; intros; auto; try lia. f_equal. apply IHl1. lia.
Qed.

Lemma map2_repeat : forall {A B C} (f : A -> B -> C) a b n,
  map2 f (repeat a n) (repeat b n) = repeat (f a b) n.
Proof. induction n; cbn; auto. f_equal; auto. Qed.

Lemma map2_length : forall {A B C} (f : A -> B -> C) l m, length l = length m ->
  length (map2 f l m) = length l.
Proof. induction l; destruct m; cbn; intros; auto; try lia. Qed.

Lemma map2_nth : forall {A B C} (f : A -> B -> C) l m i da db dc, length l = length m ->
  i < length l -> nth i (map2 f l m) dc = f (nth i l da) (nth i m db).
Proof.
  induction l; destruct m; cbn [length]; intros; try lia.
  destruct i; cbn; auto. apply IHl; lia.
Qed.

(* ---- the step function returns masses in non-increasing order ----------------------------- *)

Definition probs_of (bm : beam) : list mass := map2 madd (b_nb bm) (b_b bm).

Lemma cnb_cb_cand : forall V fr bm ind, 1 <= V -> ind < ncand V bm ->
  madd (c_nb V fr bm ind) (c_b V fr bm ind) = cand V fr bm ind.
Proof.
  intros V fr bm ind Vpos R. unfold c_nb, c_b, cand, c_src, c_nonext. unfold ncand in R.
  destruct (Kp bm * V <=? ind) eqn:E1.
  - apply Nat.leb_le in E1. replace (ind <? Kp bm * V) with false by (symmetry; apply Nat.ltb_ge; auto).
    reflexivity.
  - apply Nat.leb_gt in E1. replace (ind <? Kp bm * V) with true by (symmetry; apply Nat.ltb_lt; auto).
    replace (Nat.min ind (Kp bm * V - 1)) with ind by lia.
    destruct (nb_ext_c V fr bm (ind / V) (ind mod V)); cbn; auto. f_equal. ring.
Qed.

Record topk_facts V fr bm width choice : Prop := mkTopk
  { tk_len : length choice = Kout V bm width;
    tk_range : forall i, In i choice -> i < ncand V bm;
    tk_nodup : NoDup choice;
    tk_sorted : sorted_eps 0%Qc (map (cand V fr bm) choice) = true;
    tk_dom : forall u, u < ncand V bm -> ~ In u choice ->
             forall c, In c choice -> mle (cand V fr bm u) (cand V fr bm c) }.

Lemma nth_map_seq : forall {A} (f : nat -> A) n i d, i < n -> nth i (map f (seq 0 n)) d = f i.
Proof.
  intros. rewrite (nth_indep _ d (f 0)) by (rewrite map_length, seq_length; auto).
  rewrite map_nth, seq_nth; auto.
Qed.

Lemma last_nth : forall {A} (l : list A) d, last l d = nth (length l - 1) l d.
Proof.
  induction l as [|a l]; intros; auto. destruct l as [|b t]; auto.
  change (last (a :: b :: t) d) with (last (b :: t) d). rewrite IHl.
  cbn [length]. replace (S (S (length t)) - 1) with (S (length t - 0)) by lia.
  replace (S (length t) - 1) with (length t - 0) by lia. reflexivity.
Qed.

Lemma sorted_desc_last : forall l i, sorted_desc l -> i < length l -> mle (last l NegInf) (nth i l NegInf).
Proof. intros l i S L. rewrite last_nth. apply S; lia. Qed.

Lemma topk_ok_facts : forall V fr bm width choice,
  topk_ok V fr bm 0%Qc width choice = true -> topk_facts V fr bm width choice.
Proof.
  intros V fr bm width choice H. unfold topk_ok in H.
  repeat (apply andb_true_iff in H; destruct H as [H ?]).
  apply Nat.eqb_eq in H.
  assert (R : forall i, In i choice -> i < ncand V bm).
  { intros i Hi. rewrite forallb_forall in H3. apply Nat.ltb_lt. auto. }
  assert (EQ : map (fun i => nth i (map (cand V fr bm) (seq 0 (ncand V bm))) NegInf) choice
               = map (cand V fr bm) choice).
  { apply map_ext_in. intros i Hi. apply nth_map_seq. auto. }
  rewrite EQ in *.
  constructor; auto.
  - apply nodupb_NoDup; auto.
  - intros u Ru NI c Hc. rewrite forallb_forall in H0.
    specialize (H0 u (proj2 (in_seq _ _ _) (conj (Nat.le_0_l _) Ru))).
    apply orb_true_iff in H0. destruct H0 as [H0|H0].
    + exfalso. apply NI. apply existsb_exists in H0. destruct H0 as (x & Hx & E).
      apply Nat.eqb_eq in E. subst. auto.
    + rewrite nth_map_seq in H0 by auto. apply mge0_mle in H0.
      apply mle_trans with (last (map (cand V fr bm) choice) NegInf); auto.
      apply In_nth with (d := 0) in Hc. destruct Hc as (i & Li & <-).
      rewrite <- (map_nth (cand V fr bm)) with (d := 0).
      rewrite (nth_indep _ (cand V fr bm 0) NegInf) by (rewrite map_length; auto).
      apply sorted_desc_last; [apply sorted_eps_desc; auto|rewrite map_length; auto].
Qed.

Lemma advance_probs : forall V fr bm width choice, 1 <= V ->
  length choice = Kout V bm width -> (forall i, In i choice -> i < ncand V bm) ->
  probs_of (fst (advance V fr bm width choice))
  = map (cand V fr bm) choice ++ repeat NegInf (width - Kout V bm width).
Proof.
  intros V fr bm width choice Vpos CL CR. unfold probs_of, advance. cbn [fst b_nb b_b].
  rewrite map2_app by (rewrite !map_length; auto). rewrite map2_map, map2_repeat. f_equal.
  apply map_ext_in. intros i Hi. apply cnb_cb_cand; auto.
Qed.

Lemma advance_sorted : forall V fr bm width choice, 1 <= V ->
  topk_ok V fr bm 0%Qc width choice = true ->
  sorted_eps 0%Qc (probs_of (fst (advance V fr bm width choice))) = true.
Proof.
  intros V fr bm width choice Vpos H. apply topk_ok_facts in H. destruct H.
  rewrite advance_probs by auto. apply sorted_eps_app_neginf. auto.
Qed.

(* ---- what a caller sees of a beam ------------------------------------------------------------ *)

Definition observe (r : list (list nat) * list nat * list mass)
  : list (list nat) * list nat * list mass :=
  let '(y, ls, ps) := r in (map2 (fun l c => firstn l c) ls y, ls, ps).

Definition kpb (bm : beam) : nat := length (b_nb bm).

Definition bobs (width : nat) (bm : beam) : list (list nat) * list nat * list mass :=
  if (kpb bm =? 1) && negb (width =? 1) then
    (repeat (pref bm 0) width, repeat (lens bm 0) width, probs_of bm ++ repeat NegInf (width - 1))
  else (map (pref bm) (seq 0 (kpb bm)), b_lens bm, probs_of bm).

Record wfv (bm : beam) : Prop := mkWfv
  { wfv_pos : 1 <= kpb bm;
    wfv_b : length (b_b bm) = kpb bm;
    wfv_y : length (b_y bm) = kpb bm;
    wfv_lens : length (b_lens bm) = kpb bm;
    wfv_le : forall k, k < kpb bm -> lens bm k <= length (col bm k) }.

Lemma wf_wfv : forall bm, wf bm -> wfv bm.
Proof.
  intros bm W. destruct W. constructor; auto.
  intros k L. rewrite wf_col by auto. apply wf_len.
Qed.

Lemma map2_seq : forall {A B C} (f : A -> B -> C) l m da db, length l = length m ->
  map2 f l m = map (fun k => f (nth k l da) (nth k m db)) (seq 0 (length l)).
Proof.
  induction l; destruct m; cbn [length]; intros; try lia; auto.
  cbn [map2 seq map nth]. f_equal. rewrite (IHl m da db) by lia.
  rewrite <- seq_shift, map_map. reflexivity.
Qed.

Lemma map_const_repeat : forall {A} (f : nat -> A) c n, (forall k, k < n -> f k = c) ->
  map f (seq 0 n) = repeat c n.
Proof.
  intros A f c n H. apply nth_ext with (d := f 0) (d' := c).
  - rewrite map_length, seq_length, repeat_length. auto.
  - intros i Li. rewrite map_length, seq_length in Li.
    rewrite map_nth, seq_nth, nth_repeat by auto. cbn. apply H. auto.
Qed.

Lemma observe_search : forall V width fus lm len frames choices,
  wfv (sloop V width fus lm len 0 frames choices init_beam) ->
  observe (search V width fus lm len frames choices)
  = bobs width (sloop V width fus lm len 0 frames choices init_beam).
Proof.
  intros V width fus lm len frames choices Wv. unfold search, bobs.
  set (bm := sloop V width fus lm len 0 frames choices init_beam) in *. unfold kpb.
  destruct ((length (b_nb bm) =? 1) && negb (width =? 1)); unfold observe.
  - rewrite map2_repeat. reflexivity.
  - f_equal. f_equal. rewrite (map2_seq _ _ _ 0 []) by (rewrite (wfv_lens bm Wv), (wfv_y bm Wv); auto).
    rewrite (wfv_lens bm Wv). reflexivity.
Qed.

(* ---- a finished element: nothing visible changes --------------------------------------------- *)

Lemma frozen_step : forall V width fus lm nonext blank choice bm, 1 <= width ->
  wfv bm -> (kpb bm = width \/ kpb bm = 1) ->
  let bm' := sstep V width fus lm true nonext blank choice bm in
  bobs width bm' = bobs width bm /\ wfv bm' /\ kpb bm' = width.
Proof.
  intros V width fus lm nonext blank choice bm Wpos Wv KP. cbv zeta.
  unfold sstep. set (nx := fst (advance V _ bm width choice)).
  fold (kpb bm). destruct Wv as [P1 P2 P3 P4 P5].
  destruct (Nat.eq_dec (kpb bm) width) as [E|NE].
  - (* the beam already has its full width *)
    unfold widen, pad_inf. replace (kpb bm <? width) with false by (symmetry; apply Nat.ltb_ge; lia).
    split; [|split].
    + unfold bobs, kpb, probs_of. cbn [b_nb b_b b_lens].
      fold (kpb bm). destruct ((kpb bm =? 1) && negb (width =? 1)) eqn:C.
      * apply andb_true_iff in C. destruct C as [C1 C2]. apply Nat.eqb_eq in C1.
        apply negb_true_iff, Nat.eqb_neq in C2. lia.
      * f_equal. f_equal. apply map_ext_in. intros k Hk. apply in_seq in Hk.
        unfold pref, prefix_of. cbn [b_lens b_y].
        rewrite (nth_indep _ [] ([] ++ [0])) by (rewrite map_length; lia).
        rewrite (map_nth (fun c => c ++ [0])). apply firstn_app_le. apply (P5 k). lia.
    + constructor; unfold kpb; cbn [b_nb b_b b_y b_lens]; auto; try (rewrite map_length; auto).
      intros k Lk. unfold lens, col. cbn [b_lens b_y].
      rewrite (nth_indep _ [] ([] ++ [0])) by (rewrite map_length; fold (kpb bm) in Lk; lia).
      rewrite (map_nth (fun c => c ++ [0])), app_length. specialize (P5 k Lk). unfold lens, col in P5. lia.
    + unfold kpb. cbn [b_nb]. auto.
  - (* the initial one-slot beam is widened: one real slot, the rest invalid *)
    assert (K1 : kpb bm = 1) by lia.
    unfold widen, pad_inf. replace (kpb bm <? width) with true by (symmetry; apply Nat.ltb_lt; lia).
    assert (LNB : length (b_nb bm ++ repeat NegInf (width - kpb bm)) = width).
    { rewrite app_length, repeat_length. fold (kpb bm). lia. }
    match goal with |- bobs width ?b = _ /\ _ => set (bm' := b) end.
    assert (KB : kpb bm' = width) by (unfold kpb, bm'; cbn [b_nb]; exact LNB).
    split; [|split].
    + unfold bobs at 1. rewrite KB.
      replace ((width =? 1) && negb (width =? 1)) with false by (destruct (width =? 1); reflexivity).
      unfold bobs. rewrite K1. cbn [Nat.eqb andb]. unfold bm'.
      replace (negb (width =? 1)) with true by (symmetry; apply negb_true_iff, Nat.eqb_neq; lia).
      f_equal; [f_equal|]; try reflexivity.
      * apply map_const_repeat. intros k Lk. unfold pref, prefix_of. cbn [b_lens b_y].
        rewrite nth_repeat_if. apply Nat.ltb_lt in Lk. rewrite Lk.
        rewrite (nth_indep _ [] ([] ++ [0])) by (rewrite map_length, repeat_length; apply Nat.ltb_lt; auto).
        rewrite (map_nth (fun c => c ++ [0])), nth_repeat_if, Lk.
        apply firstn_app_le. apply (P5 0). lia.
      * unfold probs_of. cbn [b_nb b_b]. rewrite map2_app by (fold (kpb bm); lia).
        rewrite map2_repeat. rewrite K1. reflexivity.
    + constructor; rewrite ?KB; unfold bm'; cbn [b_nb b_b b_y b_lens]; try lia.
      * rewrite app_length, repeat_length, P2. lia.
      * rewrite map_length, repeat_length. auto.
      * rewrite repeat_length. auto.
      * intros k Lk. unfold lens, col. cbn [b_lens b_y]. rewrite nth_repeat_if.
        apply Nat.ltb_lt in Lk. rewrite Lk.
        rewrite (nth_indep _ [] ([] ++ [0])) by (rewrite map_length, repeat_length; apply Nat.ltb_lt; auto).
        rewrite (map_nth (fun c => c ++ [0])), nth_repeat_if, Lk, app_length.
        assert (L0 : 0 < kpb bm) by lia. specialize (P5 0 L0). unfold lens, col in P5. lia.
    + exact KB.
Qed.

Lemma dead_phase : forall V width fus lm len frames choices t bm, 1 <= width -> len <= t ->
  wfv bm -> (kpb bm = width \/ kpb bm = 1) ->
  bobs width (sloop V width fus lm len t frames choices bm) = bobs width bm /\
  wfv (sloop V width fus lm len t frames choices bm).
Proof.
  intros V width fus lm len. induction frames as [|[nonext blank] frames]; intros choices t bm Wpos L Wv KP; auto.
  cbn [sloop]. replace (len <=? t) with true by (symmetry; apply Nat.leb_le; auto).
  destruct (frozen_step V width fus lm nonext blank (hd [] choices) bm Wpos Wv KP) as (E & Wv' & KP').
  destruct (IHframes (tl choices) (S t) _ Wpos (Nat.le_le_succ_r _ _ L) Wv' (or_introl KP')) as [E2 W2].
  split; auto. congruence.
Qed.

(* ---- the steps an element really takes -------------------------------------------------------- *)

Lemma sloop_app : forall V width fus lm len f1 f2 choices t bm,
  sloop V width fus lm len t (f1 ++ f2) choices bm
  = sloop V width fus lm len (t + length f1) f2 (skipn (length f1) choices)
      (sloop V width fus lm len t f1 choices bm).
Proof.
  intros V width fus lm len. induction f1 as [|[nonext blank] f1]; intros f2 choices t bm.
  - cbn. rewrite Nat.add_0_r. reflexivity.
  - cbn [app sloop length]. rewrite IHf1. replace (S t + length f1) with (t + S (length f1)) by lia.
    destruct choices; cbn [tl skipn]; auto. rewrite skipn_nil. reflexivity.
Qed.

Lemma choices_ok_app : forall V width fus lm eps len f1 f2 choices t bm,
  choices_ok V width fus lm eps len t (f1 ++ f2) choices bm = true ->
  choices_ok V width fus lm eps len t f1 choices bm = true.
Proof.
  intros V width fus lm eps len. induction f1 as [|[nonext blank] f1]; intros f2 choices t bm H; auto.
  cbn [app choices_ok] in *. apply andb_true_iff in H. destruct H as [H1 H2].
  rewrite H1. apply (IHf1 f2). auto.
Qed.

Lemma live_phase : forall V width fus lm len frames choices t bm, 1 <= V -> 1 <= width ->
  t + length frames <= len ->
  choices_ok V width fus lm 0%Qc len t frames choices bm = true ->
  inv V bm -> b_t bm = t ->
  let bm' := sloop V width fus lm len t frames choices bm in
  inv V bm' /\ b_t bm' = t + length frames /\
  (frames <> [] -> Kp bm' = width /\ sorted_eps 0%Qc (probs_of bm') = true).
Proof.
  intros V width fus lm len. induction frames as [|[nonext blank] frames];
    intros choices t bm Vpos Wpos L C I T; cbv zeta.
  - cbn [sloop length]. split; [auto|split; [lia|]]. intros H. exfalso. apply H. reflexivity.
  - cbn [sloop choices_ok length] in *. cbn [length] in L.
    replace (len <=? t) with false in * by (symmetry; apply Nat.leb_gt; lia).
    cbn [orb] in C. apply andb_true_iff in C. destruct C as [C1 C2].
    pose proof (topk_ok_facts _ _ _ _ _ C1) as F. destruct F as [F1 F2 F3 F4 F5].
    unfold sstep in *. set (fr := mk_frame fus lm nonext blank bm) in *.
    set (nx := fst (advance V fr bm width (hd [] choices))) in *.
    assert (Inx : inv V nx) by (apply advance_inv; auto).
    assert (Tnx : b_t nx = S t) by (unfold nx, advance; cbn; congruence).
    destruct (IHframes (tl choices) (S t) nx Vpos Wpos) as (J1 & J2 & J3); auto; try lia.
    split; [exact J1|]. split; [lia|]. intros _. destruct frames as [|f frames].
    + cbn [sloop]. split.
      * apply (nx_Kp V width fr bm (hd [] choices)); auto.
      * apply advance_sorted; auto.
    + apply J3. discriminate.
Qed.

(* ---- the returned beam ---------------------------------------------------------------------------- *)

Section SearchThms.
  Variables (V width : nat) (fus : fusion) (lm : list nat -> list Qc) (len : nat).
  Variables (frames : list (list Qc * Qc)) (choices : list (list nat)).
  Hypothesis Vpos : 1 <= V.
  Hypothesis Wpos : 1 <= width.
  Hypothesis COK : choices_ok V width fus lm 0%Qc len 0 frames choices init_beam = true.

  Definition live_frames : list (list Qc * Qc) := firstn len frames.
  Definition live_beam : beam := sloop V width fus lm len 0 live_frames choices init_beam.

  Lemma live_len : length live_frames = Nat.min len (length frames).
  Proof. apply firstn_length. Qed.

  Lemma live_ok : choices_ok V width fus lm 0%Qc len 0 live_frames choices init_beam = true.
  Proof.
    apply choices_ok_app with (f2 := skipn len frames). unfold live_frames. rewrite firstn_skipn. exact COK.
  Qed.

  Lemma live_facts :
    inv V live_beam /\ b_t live_beam = length live_frames /\
    (live_frames <> [] -> Kp live_beam = width /\ sorted_eps 0%Qc (probs_of live_beam) = true).
  Proof.
    pose proof live_len as LL.
    apply (live_phase V width fus lm len live_frames choices 0 init_beam); auto.
    - lia.
    - apply live_ok.
    - apply init_inv.
  Qed.

  Lemma live_kp : kpb live_beam = width \/ kpb live_beam = 1.
  Proof.
    destruct live_facts as (_ & _ & H). unfold live_beam in *. destruct live_frames.
    - right. reflexivity.
    - left. apply H. discriminate.
  Qed.

  Lemma search_obs : observe (search V width fus lm len frames choices) = bobs width live_beam.
  Proof.
    pose proof live_len as LL. destruct live_facts as (I & T & _).
    pose proof (wf_wfv _ (inv_wf V _ I)) as Wv.
    assert (E : sloop V width fus lm len 0 frames choices init_beam
                = sloop V width fus lm len (0 + length live_frames) (skipn len frames)
                    (skipn (length live_frames) choices) live_beam).
    { rewrite <- (firstn_skipn len frames) at 1. apply sloop_app. }
    destruct (skipn len frames) as [|f rest] eqn:SK.
    - cbn [sloop] in E. rewrite observe_search; rewrite E; auto.
    - assert (LF : len < length frames).
      { destruct (le_lt_dec (length frames) len) as [C|C]; auto.
        rewrite skipn_all2 in SK by auto. discriminate. }
      destruct (dead_phase V width fus lm len (f :: rest) (skipn (length live_frames) choices)
                  (0 + length live_frames) live_beam Wpos) as [D1 D2]; auto; try lia.
      + apply live_kp.
      + rewrite observe_search; rewrite E; auto.
  Qed.
End SearchThms.

(* "an element's result equals that of searching its own valid frames alone" *)
Lemma element_independent : forall V width fus lm len frames choices, 1 <= V -> 1 <= width ->
  choices_ok V width fus lm 0%Qc len 0 frames choices init_beam = true ->
  observe (search V width fus lm len frames choices)
  = observe (search V width fus lm len (firstn len frames) choices).
Proof.
  intros V width fus lm len frames choices Vpos Wpos C.
  rewrite (search_obs V width fus lm len frames choices Vpos Wpos C).
  rewrite (search_obs V width fus lm len (firstn len frames) choices Vpos Wpos).
  - unfold live_beam, live_frames. rewrite firstn_firstn, Nat.min_id. reflexivity.
  - apply (live_ok V width fus lm len frames choices C).
Qed.

Lemma probs_of_valid : forall bm k, wf bm -> valid bm k ->
  nth k (probs_of bm) NegInf = Fin (nbq bm k + bq bm k)%Qc.
Proof.
  intros bm k W [Lk IV]. unfold probs_of.
  rewrite (map2_nth madd _ _ k NegInf NegInf) by (rewrite ?(wf_b bm W); auto).
  unfold nbq, bq. rewrite IV. unfold invalid in IV.
  destruct (nth k (b_nb bm) NegInf); [discriminate|]. destruct (nth k (b_b bm) NegInf); [discriminate|].
  reflexivity.
Qed.

(* what [bobs] shows of a beam of 1 or [width] slots: its slots, then -inf up to [width] *)
Lemma bobs_slot : forall width bm, wfv bm -> 1 <= width -> kpb bm = width \/ kpb bm = 1 ->
  let '(P, Ls, Ps) := bobs width bm in
  length P = width /\ length Ls = width /\ length Ps = width /\
  Ps = probs_of bm ++ repeat NegInf (width - kpb bm) /\
  forall k, k < kpb bm -> k < width /\ nth k P [] = pref bm k /\ nth k Ls 0 = lens bm k.
Proof.
  intros width bm Wv Wpos KP.
  assert (PL : length (probs_of bm) = kpb bm).
  { unfold probs_of. rewrite map2_length; auto. rewrite (wfv_b bm Wv). reflexivity. }
  unfold bobs. destruct ((kpb bm =? 1) && negb (width =? 1)) eqn:Cnd.
  - (* only the initial slot exists; the rest of the width is filled with -inf *)
    apply andb_true_iff in Cnd. destruct Cnd as [C1 _]. apply Nat.eqb_eq in C1.
    rewrite !repeat_length, app_length, repeat_length, PL, C1.
    split; [lia|]. split; [lia|]. split; [lia|]. split; [reflexivity|].
    intros k Lk. assert (k = 0) by lia. subst k. rewrite !nth_repeat_if.
    replace (0 <? width) with true by (symmetry; apply Nat.ltb_lt; lia). auto.
  - assert (KW : kpb bm = width).
    { destruct KP as [KP|KP]; auto. apply andb_false_iff in Cnd. destruct Cnd as [Cnd|Cnd].
      - apply Nat.eqb_neq in Cnd. lia.
      - apply negb_false_iff, Nat.eqb_eq in Cnd. lia. }
    rewrite map_length, seq_length, (wfv_lens bm Wv), PL, KW, Nat.sub_diag, app_nil_r.
    split; [auto|]. split; [auto|]. split; [auto|]. split; [reflexivity|].
    intros k Lk. split; [lia|]. split; [|reflexivity].
    rewrite (nth_indep _ [] (pref bm 0)); [|rewrite map_length, seq_length; lia].
    rewrite map_nth, seq_nth by lia. reflexivity.
Qed.

(* what the returned slots are, in terms of the last beam the element really computed *)
Lemma out_slot : forall V width fus lm len frames choices, 1 <= V -> 1 <= width ->
  choices_ok V width fus lm 0%Qc len 0 frames choices init_beam = true ->
  let '(P, Ls, Ps) := observe (search V width fus lm len frames choices) in
  let bm := live_beam V width fus lm len frames choices in
  length P = width /\ length Ls = width /\ length Ps = width /\ sorted_desc Ps /\
  forall i q, nth i Ps NegInf = Fin q ->
    valid bm i /\ nth i (probs_of bm) NegInf = Fin q /\
    nth i P [] = pref bm i /\ nth i Ls 0 = lens bm i.
Proof.
  intros V width fus lm len frames choices Vpos Wpos C.
  rewrite (search_obs V width fus lm len frames choices Vpos Wpos C).
  destruct (live_facts V width fus lm len frames choices Vpos Wpos C) as (I & T & H).
  pose proof (live_kp V width fus lm len frames choices Vpos Wpos C) as KP.
  assert (SD : sorted_eps 0%Qc (probs_of (live_beam V width fus lm len frames choices)) = true).
  { unfold live_beam in *. destruct (live_frames len frames); [reflexivity|apply H; discriminate]. }
  set (bm := live_beam V width fus lm len frames choices) in *.
  pose proof (wf_wfv bm (inv_wf V bm I)) as Wv.
  pose proof (bobs_slot width bm Wv Wpos KP) as BS. destruct (bobs width bm) as [[P Ls] Ps].
  destruct BS as (LP & LL & LPs & -> & SL).
  split; [auto|]. split; [auto|]. split; [auto|].
  split; [apply sorted_eps_desc, sorted_eps_app_neginf, SD|].
  intros i q Hq.
  assert (Li : i < kpb bm).
  { destruct (le_lt_dec (kpb bm) i) as [G|]; auto. exfalso. rewrite app_length, repeat_length in LPs.
    rewrite app_nth2, nth_repeat_if in Hq by lia. destruct (_ <? _); discriminate. }
  rewrite app_nth1 in Hq by (rewrite app_length, repeat_length in LPs; lia).
  destruct (SL i Li) as (_ & E1 & E2). split; [|auto]. split; [exact Li|].
  unfold invalid. unfold probs_of in Hq.
  rewrite (map2_nth madd _ _ i NegInf NegInf) in Hq by (rewrite ?(wfv_b bm Wv); auto).
  rewrite Hq. reflexivity.
Qed.

Lemma nothing_pruned_app : forall V width fus lm len f1 f2 choices t bm,
  nothing_pruned V width fus lm len t (f1 ++ f2) choices bm = true ->
  nothing_pruned V width fus lm len t f1 choices bm = true.
Proof.
  intros V width fus lm len. induction f1 as [|[nonext blank] f1]; intros f2 choices t bm H; auto.
  cbn [app nothing_pruned] in *. apply andb_true_iff in H. destruct H as [H1 H2].
  rewrite H1. apply (IHf1 f2). auto.
Qed.

(* every valid slot of the last live beam is returned, at its own position *)
Lemma out_slot_rev : forall V width fus lm len frames choices, 1 <= V -> 1 <= width ->
  choices_ok V width fus lm 0%Qc len 0 frames choices init_beam = true ->
  let '(P, Ls, Ps) := observe (search V width fus lm len frames choices) in
  let bm := live_beam V width fus lm len frames choices in
  forall k, valid bm k ->
    k < width /\ nth k P [] = pref bm k /\ nth k Ps NegInf = nth k (probs_of bm) NegInf.
Proof.
  intros V width fus lm len frames choices Vpos Wpos C.
  rewrite (search_obs V width fus lm len frames choices Vpos Wpos C).
  destruct (live_facts V width fus lm len frames choices Vpos Wpos C) as (I & _ & _).
  pose proof (live_kp V width fus lm len frames choices Vpos Wpos C) as KP.
  set (bm := live_beam V width fus lm len frames choices) in *.
  pose proof (wf_wfv bm (inv_wf V bm I)) as Wv.
  pose proof (bobs_slot width bm Wv Wpos KP) as BS. destruct (bobs width bm) as [[P Ls] Ps].
  destruct BS as (_ & _ & LPs & -> & SL). rewrite app_length, repeat_length in LPs.
  cbv zeta. intros k [Lk _]. change (k < kpb bm) in Lk. destruct (SL k Lk) as (Lw & E1 & _).
  split; [exact Lw|]. split; [exact E1|]. apply app_nth1. lia.
Qed.
