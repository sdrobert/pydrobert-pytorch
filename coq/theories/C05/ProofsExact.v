(* C05 - when no live candidate is ever left out, the vectorised model holds every prefix with
   exactly its alignment mass. *)
From Coq Require Import List Arith Bool QArith Qcanon Lia.
From PV Require Import C05.Model C05.Spec C05.ProofsNum C05.ProofsSpec C05.ProofsModel
  C05.ProofsSearch C05.ProofsMass.
Import ListNotations.
Local Open Scope nat_scope.

Definition mexact (V : nat) (frames : list sframe) (E : score) (bm : beam) : Prop :=
  (forall k, valid bm k ->
     nbq bm k = A_nb V frames E (b_t bm) (pref bm k) /\
     bq bm k = A_b V frames E (b_t bm) (pref bm k)) /\
  (forall p, Forall (fun x => x < V) p -> length p <= b_t bm ->
     exists k, valid bm k /\ pref bm k = p).

Section ExactStep.
  Variables (V width : nat) (fr : frame) (bm : beam) (choice : list nat).
  Variables (frames : list sframe) (E : score).
  Hypothesis Vpos : 1 <= V.
  Hypothesis Wpos : 1 <= width.
  Hypothesis I : inv V bm.
  Hypothesis Clen : length choice = Kout V bm width.
  Hypothesis Crange : forall i, In i choice -> i < ncand V bm.
  Hypothesis Cnodup : NoDup choice.
  Hypothesis FA : frame_agrees V fr bm frames E (b_t bm).
  Hypothesis MX : mexact V frames E bm.
  Hypothesis KEPT : all_kept V fr bm choice = true.

  Let W := inv_wf V bm I.
  Let n := b_t bm.
  Let nx := fst (advance V fr bm width choice).
  Notation chj := (ch choice).

  Lemma kept_in : forall u, u < ncand V bm -> cand V fr bm u <> NegInf -> In u choice.
  Proof.
    intros u R H. unfold all_kept in KEPT. rewrite forallb_forall in KEPT.
    specialize (KEPT u (proj2 (in_seq _ _ _) (conj (Nat.le_0_l _) R))).
    apply orb_true_iff in KEPT. destruct KEPT as [K|K].
    - apply existsb_exists in K. destruct K as (x & Hx & Ex). apply Nat.eqb_eq in Ex. subst. auto.
    - destruct (cand V fr bm u); [congruence|discriminate].
  Qed.

  Lemma in_choice_slot : forall u, In u choice -> exists j, j < Kout V bm width /\ chj j = u.
  Proof.
    intros u H. apply In_nth with (d := 0) in H. destruct H as (j & Lj & Ej).
    exists j. rewrite <- Clen. auto.
  Qed.

  Lemma ext_term_eq : forall k v, valid bm k -> v < V ->
    nb_ext V fr bm k v
    = ((A_b V frames E n (pref bm k)
        + (if opt_is (last_opt (pref bm k)) v then 0 else A_nb V frames E n (pref bm k)))
       * E n (pref bm k) v)%Qc.
  Proof.
    intros k v Vk Hv. destruct MX as [MX1 _]. destruct (MX1 k Vk) as [M1 M2]. fold n in M1, M2.
    rewrite (ext_by_view V fr bm frames E k v I FA Vk Hv). fold n. rewrite M1, M2. ring.
  Qed.

  (* the merge delivers exactly the mass of the one slot holding the prefix minus its last token *)
  Lemma merged_eq : forall k', valid bm k' -> 0 < lens bm k' ->
    let p := pref bm k' in let v := last p 0 in
    merged V fr bm k'
    = ((A_b V frames E n (removelast p)
        + (if opt_is (last_opt (removelast p)) v then 0 else A_nb V frames E n (removelast p)))
       * E n (removelast p) v)%Qc.
  Proof.
    intros k' Vk' L. cbv zeta. destruct MX as [_ MX2].
    destruct (merged_cases V fr bm I k' Vk' L) as [Hv [(k0 & Vk0 & Pk0 & ->)|[NONE _]]].
    - rewrite ext_term_eq, Pk0 by auto. reflexivity.
    - exfalso. destruct (MX2 (removelast (pref bm k'))) as (k0 & Vk0 & Pk0).
      + apply removelast_forall. apply (inv_lt V bm I k' Vk').
      + rewrite removelast_length, pref_length by (auto; apply Vk'). pose proof (wf_len bm W k'). lia.
      + exact (NONE k0 Vk0 Pk0).
  Qed.

  Lemma no_match_long : forall k v, k < Kp bm -> lens bm k = n -> has_match V bm k v = false.
  Proof.
    intros k v Lk Ln. unfold has_match. destruct (existsb _ _) eqn:EX; auto.
    apply existsb_exists in EX. destruct EX as (k' & _ & H). apply andb_true_iff in H. destruct H as [_ H].
    unfold ext_is_exact in H. apply andb_true_iff in H. destruct H as [H _]. apply Nat.eqb_eq in H.
    pose proof (wf_len bm W k'). fold n in H0. lia.
  Qed.

  Lemma exact_step : mexact V frames E nx.
  Proof.
    destruct FA as (F1 & F2 & F3). destruct MX as [MX1 MX2].
    assert (Tn : b_t nx = S n) by reflexivity.
    split.
    - (* values *)
      intros j Vj. rewrite Tn.
      destruct (nx_slot V width fr bm choice Vpos Wpos I Clen Crange j Vj) as [VS SL]. fold nx in SL.
      set (src := c_src V bm (chj j)) in *. set (p := pref bm src) in *.
      pose proof (inv_lt V bm I src VS) as PV. fold p in PV. pose proof VS as [VS1 _].
      destruct (MX1 src VS) as [M1 M2]. fold n in M1, M2. fold p in M1, M2.
      destruct SL as [(-> & -> & ->)|(v & Hv & HM & -> & -> & ->)].
      + rewrite A_b_step, A_nb_step by auto. split.
        * unfold nb_nonext1, nb_nonext0. destruct (Nat.eq_dec (lens bm src) 0) as [L0|L0].
          -- fold p. rewrite (pref_nil bm src W VS1 L0 : p = []). cbn [last_opt].
             rewrite (inv_nb0 V bm I src VS L0).
             unfold merged. rewrite qsum_map_zero; [ring|].
             intros k _. unfold ext_is_exact. rewrite L0.
             replace (lens bm k + 1 =? 0) with false by (symmetry; apply Nat.eqb_neq; lia). reflexivity.
          -- rewrite (last_opt_last _ (pref_nonnil bm src W VS1 L0 : p <> [])).
             rewrite (inv_last V bm I src VS) by lia. fold p.
             rewrite (merged_eq src VS) by lia. fold p. rewrite F1, M1. reflexivity.
        * unfold b_nonext. rewrite F2, M1, M2. reflexivity.
      + assert (PV' : Forall (fun x => x < V) (p ++ [v])) by (apply Forall_app; auto).
        (* p ++ [v] was not in the beam, hence is longer than n and had no mass *)
        assert (LONG : n < length (p ++ [v])).
        { destruct (le_lt_dec (length (p ++ [v])) n) as [C|C]; auto. exfalso.
          destruct (MX2 (p ++ [v]) PV' C) as (k' & Vk' & Pk').
          rewrite (has_match_of_ext V bm src k' v Vpos I VS Vk' Hv Pk') in HM. discriminate. }
        destruct (A_long V frames E n (p ++ [v]) LONG) as [Z1 Z2].
        rewrite A_b_step, A_nb_step by auto. rewrite last_opt_snoc, removelast_snoc, Z1, Z2.
        rewrite (ext_term_eq src v VS Hv). fold p. split; ring.
    - (* every prefix is present *)
      intros p' PV' LP'. rewrite Tn in LP'.
      assert (FIND : forall u, u < ncand V bm -> cand V fr bm u <> NegInf ->
                     exists j, j < Kout V bm width /\ chj j = u /\ valid nx j).
      { intros u R H. destruct (in_choice_slot u (kept_in u R H)) as (j & Lj & Ej).
        exists j. repeat split; auto.
        - unfold nx. rewrite (nx_Kp V width fr bm choice Vpos Wpos Clen). unfold Kout in Lj. lia.
        - unfold nx. rewrite (nx_invalid V width fr bm choice Vpos Wpos Clen Crange).
          apply Nat.ltb_lt in Lj. rewrite Lj, Ej. destruct (cand V fr bm u); [congruence|reflexivity]. }
      destruct (le_lt_dec (length p') n) as [LE|GT].
      + destruct (MX2 p' PV' LE) as (src & [VS1 VS2] & PS).
        destruct (cand_keep_at V fr bm src VS1) as (R & NE & SR & CU). set (u := Kp bm * V + src) in *.
        destruct (FIND u R) as (j & Lj & Ej & Vj).
        { rewrite CU. unfold nb_nonext_c. rewrite VS2. discriminate. }
        exists j. split; auto.
        unfold nx. rewrite (pref_nx V width fr bm choice Vpos Wpos I Clen Crange j Lj), Ej, NE, SR. exact PS.
      + assert (NEp : p' <> []) by (destruct p'; cbn in GT; [lia|discriminate]).
        pose proof (snoc_decomp p' 0 NEp) as D. set (p := removelast p') in *. set (v := last p' 0) in *.
        rewrite D in PV'. apply Forall_app in PV'. destruct PV' as [PVp PVv]. assert (Hv : v < V) by (inversion PVv; auto).
        assert (LPn : length p = n).
        { apply (f_equal (@length nat)) in D. rewrite app_length in D. cbn [length] in D. lia. }
        destruct (MX2 p PVp) as (src & [VS1 VS2] & PS); [lia|].
        assert (LS : lens bm src = n) by (rewrite <- (pref_length bm src), PS by auto; auto).
        destruct (cand_ext_at V fr bm src v VS1 Hv) as (R & NE & SR & MD & CU). set (u := src * V + v) in *.
        destruct (FIND u R) as (j & Lj & Ej & Vj).
        { rewrite CU. unfold nb_ext_c. rewrite (no_match_long src v VS1 LS), VS2. discriminate. }
        exists j. split; auto.
        unfold nx. rewrite (pref_nx V width fr bm choice Vpos Wpos I Clen Crange j Lj), Ej, NE, SR, MD, PS.
        symmetry. exact D.
  Qed.
End ExactStep.

Lemma mexact_init : forall V frames E, mexact V frames E init_beam.
Proof.
  intros V frames E. destruct (A_0 V frames E []) as [Z1 Z2]. rewrite list_nat_eqb_refl in Z2. split.
  - intros k [L _]. cbn in L. assert (k = 0) by lia. subst k.
    change (b_t init_beam) with 0. change (pref init_beam 0) with (@nil nat). rewrite Z1, Z2. split; reflexivity.
  - intros p _ L. change (b_t init_beam) with 0 in L. destruct p; [|cbn in L; lia].
    exists 0. split; [split; [cbn; lia|reflexivity]|reflexivity].
Qed.

(* ---- along the loop ---------------------------------------------------------------------------- *)

(* the property's "the exact total probability of all alignments collapsing to it whenever
   nothing had to be pruned", for the vectorised model: every returned mass IS the alignment mass
   of its prefix, and every blank-free prefix no longer than the element's input is returned *)
Lemma search_mass_exact : forall V width fus lm len frames choices, 1 <= V -> 1 <= width ->
  choices_ok V width fus lm 0%Qc len 0 frames choices init_beam = true ->
  nothing_pruned V width fus lm len 0 frames choices init_beam = true ->
  let L := firstn len frames in
  let E := fused_score fus lm L in
  let '(P, Ls, Ps) := observe (search V width fus lm len frames choices) in
  (forall i q, nth i Ps NegInf = Fin q -> q = ctc_mass V L E (nth i P [])) /\
  (forall p, Forall (fun x => x < V) p -> length p <= length L ->
     exists i, i < width /\ nth i P [] = p /\ nth i Ps NegInf = Fin (ctc_mass V L E p)).
Proof.
  intros V width fus lm len frames choices Vpos Wpos C NP L E.
  pose proof (out_slot V width fus lm len frames choices Vpos Wpos C) as O.
  pose proof (out_slot_rev V width fus lm len frames choices Vpos Wpos C) as OR.
  destruct (observe (search V width fus lm len frames choices)) as [[P Ls] Ps].
  destruct O as (_ & _ & _ & _ & O).
  destruct (live_facts V width fus lm len frames choices Vpos Wpos C) as (I & T & _).
  pose proof (live_ok V width fus lm len frames choices C) as CL.
  assert (NPL : nothing_pruned V width fus lm len 0 (live_frames len frames) choices init_beam = true).
  { apply nothing_pruned_app with (f2 := skipn len frames). unfold live_frames. rewrite firstn_skipn. exact NP. }
  assert (MX : mexact V L E (live_beam V width fus lm len frames choices)).
  { unfold live_beam, E. fold (live_frames len frames) in L.
    destruct (sloop_keeps V width fus lm len L
                (fun r cs t b => nothing_pruned V width fus lm len t r cs b = true /\ mexact V L (fused_score fus lm L) b)
                Vpos Wpos) with (rest := live_frames len frames) (done := @nil sframe) (choices := choices) (bm := init_beam)
      as [cs [_ H]]; auto.
    - intros nonext blank r cs b fr LT C1 Ib FA [NPb MXb]. cbn [nothing_pruned] in NPb.
      destruct (topk_ok_facts _ _ _ _ _ C1) as [F1 F2 F3 F4 F5].
      replace (len <=? b_t b) with false in NPb by (symmetry; apply Nat.leb_gt; lia).
      cbn [orb] in NPb. apply andb_true_iff in NPb. destruct NPb as [NP1 NP2]. split; [exact NP2|].
      apply (exact_step V width fr b (hd [] cs) L (fused_score fus lm L)); auto.
    - unfold L. rewrite live_len. lia.
    - apply init_inv.
    - split; [exact NPL|apply mexact_init]. }
  set (bm := live_beam V width fus lm len frames choices) in *.
  pose proof (inv_wf V bm I) as W. destruct MX as [MX1 MX2].
  assert (PR : forall k, valid bm k ->
               nth k (probs_of bm) NegInf = Fin (ctc_mass V L E (pref bm k))).
  { intros k Vk. destruct (MX1 k Vk) as [M1 M2]. rewrite T in M1, M2.
    change (live_frames len frames) with L in M1, M2.
    rewrite ctc_mass_split. unfold sframe in *. rewrite <- M1, <- M2.
    apply probs_of_valid; auto. }
  split.
  - intros i q Hq. destruct (O i q Hq) as (Vi & PQ & -> & _). rewrite (PR i Vi) in PQ. congruence.
  - intros p PV LP. change L with (live_frames len frames) in LP. rewrite <- T in LP. destruct (MX2 p PV LP) as (k & Vk & Pk).
    destruct (OR k Vk) as (Lk & E1 & E2). exists k. split; auto. split; [congruence|].
    rewrite E2, (PR k Vk), Pk. reflexivity.
Qed.
