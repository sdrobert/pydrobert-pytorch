(* C05 — tie, part 3: the executable forms used by the harness.  The seven tensors the interpreted source returns,
   read back as the model's (beam, (src, nonext)) ([SrcRun.dec_out]), ARE Model.advance's result, and
   [SrcRun.src_advance_check] is Model.check_advance - for every well-formed input. *)
From Coq Require Import ZArith QArith Qcanon List String Bool Arith Lia ZifyBool ZifyNat.
From PV Require Import MiniPy.Syntax MiniPy.Interp MiniTorch.Ops MiniTorch.OpsC05 MiniTorch.LemmasC05 Gen.C05Src.
From PV Require Import C05.Model C05.ProofsModel C05.ProofsSearch C05.ProofsTopk C05.SrcRun C05.TieRun C05.Tie.
Import ListNotations.
Local Open Scope nat_scope.

(* ---- lists ------------------------------------------------------------------------------------------------ *)
Lemma sequence_some {A} (f : nat -> A) l : sequence (map (fun i => Some (f i)) l) = Some (map f l).
Proof. induction l as [|x l IH]; [reflexivity|]. cbn [map sequence]. now rewrite IH. Qed.

Lemma sequence_ext_some {A} (g : nat -> option A) (f : nat -> A) l :
  (forall i, List.In i l -> g i = Some (f i)) -> sequence (map g l) = Some (map f l).
Proof.
  intros H. rewrite (map_ext_in g (fun i => Some (f i))) by exact H. apply sequence_some.
Qed.

Lemma map_nth_all {A} (l : list A) d n : List.length l = n -> map (fun i => nth i l d) (seq 0 n) = l.
Proof.
  intros <-. apply nth_ext with (d := d) (d' := d).
  - now rewrite map_length, seq_length.
  - intros i Hi. rewrite map_length, seq_length in Hi.
    rewrite (nth_indep _ d (nth 0 l d)) by (now rewrite map_length, seq_length).
    rewrite (map_nth (fun i => nth i l d)), seq_nth by exact Hi. reflexivity.
Qed.

Lemma znat_of_nat n : znat (Z.of_nat n) = Some n.
Proof. unfold znat. replace (0 <=? Z.of_nat n)%Z with true by lia. now rewrite Nat2Z.id. Qed.

(* ---- a result whose lists all have their lengths ---------------------------------------------------------- *)
Record wfx (res : beam * (list nat * list bool)) : Prop := mkWfx
  { x_b : List.length (b_b (fst res)) = List.length (b_nb (fst res));
    x_y : List.length (b_y (fst res)) = List.length (b_nb (fst res));
    x_last : List.length (b_last (fst res)) = List.length (b_nb (fst res));
    x_lens : List.length (b_lens (fst res)) = List.length (b_nb (fst res));
    x_isp : List.length (b_isp (fst res)) = List.length (b_nb (fst res));
    x_col : forall c, List.In c (b_y (fst res)) -> List.length c = b_t (fst res);
    x_row : forall r, List.In r (b_isp (fst res)) -> List.length r = List.length (b_nb (fst res));
    x_src : List.length (fst (snd res)) = List.length (b_nb (fst res));
    x_non : List.length (snd (snd res)) = List.length (b_nb (fst res)) }.

(* a row tensor of a list, read back cell by cell, is the list *)
Lemma row_back {X} (d : X) l W : List.length l = W ->
  map (fun k => get d (tab [1; W] (fun ix => nth (at_ ix 1) l d)) [0; k]) (seq 0 W) = l.
Proof.
  intros Hl. transitivity (map (fun k => nth k l d) (seq 0 W)); [|now apply map_nth_all].
  apply map_ext_in. intros k Hk. apply in_seq in Hk.
  change (tab [1; W] (fun ix => nth (at_ ix 1) l d)) with (T2 1 W (fun _ k => nth k l d)). now rewrite get_T2 by lia.
Qed.
Lemma zrow_back l W : List.length l = W ->
  sequence (map (fun k => znat (get 0%Z (tab [1; W] (fun ix => Z.of_nat (nth (at_ ix 1) l 0))) [0; k])) (seq 0 W)) = Some l.
Proof.
  intros Hl. rewrite (sequence_ext_some _ (fun k => nth k l 0)); [now rewrite (map_nth_all l 0 W Hl)|].
  intros k Hk. apply in_seq in Hk.
  change (tab [1; W] (fun ix => Z.of_nat (nth (at_ ix 1) l 0))) with (T2 1 W (fun _ k => Z.of_nat (nth k l 0))).
  rewrite get_T2 by lia. apply znat_of_nat.
Qed.

Lemma dec_enc_out res : wfx res -> dec_out (enc_out res) = Some res.
Proof.
  intros [Hb Hy Hl Hn Hi Hc Hr Hs Ho]. destruct res as [nx [src non]]. cbn [fst snd] in *.
  unfold enc_out, dec_out. rewrite !dec_enc_i, !dec_enc_f, !dec_enc_b.
  set (W := List.length (b_nb nx)) in *. set (H := b_t nx) in *.
  unfold enc_y at 1. cbn [shp tab]. fold W. fold H.
  unfold enc_last at 1, enc_lens at 1, enc_nb at 1, enc_bb at 1, enc_isp at 1. cbn [shp tab]. fold W.
  rewrite !nats_eqb_refl. cbn [andb].
  (* y *)
  rewrite (sequence_ext_some _ (fun k => nth k (b_y nx) [])).
  2:{ intros k Hk. apply in_seq in Hk.
      rewrite (sequence_ext_some _ (fun s => nth s (nth k (b_y nx) []) 0)).
      - f_equal. apply map_nth_all. apply Hc. apply nth_In. lia.
      - intros s Hs'. apply in_seq in Hs'. unfold enc_y. fold W. fold H.
        change (tab [H; 1; W] (fun ix => Z.of_nat (nth (at_ ix 0) (nth (at_ ix 2) (b_y nx) []) 0)))
          with (T3 H 1 W (fun s _ k => Z.of_nat (nth s (nth k (b_y nx) []) 0))).
        rewrite get_T3 by lia. apply znat_of_nat. }
  rewrite (map_nth_all (b_y nx) [] W Hy).
  (* last, lens, src *)
  unfold enc_last, enc_lens. fold W.
  rewrite (zrow_back (b_last nx) W Hl), (zrow_back (b_lens nx) W Hn), (zrow_back src W Hs).
  (* masses, matrix, flags *)
  unfold enc_nb, enc_bb. fold W. rewrite (row_back NegInf (b_nb nx) W eq_refl), (row_back NegInf (b_b nx) W Hb).
  assert (E3 : map (fun k => map (fun k' => get false (enc_isp nx) [0; k; k']) (seq 0 W)) (seq 0 W) = b_isp nx).
  { transitivity (map (fun k => nth k (b_isp nx) []) (seq 0 W)); [|apply map_nth_all; exact Hi]. apply map_ext_in. intros k Hk. apply in_seq in Hk.
    transitivity (map (fun k' => nth k' (nth k (b_isp nx) []) false) (seq 0 W)); [|apply map_nth_all; apply Hr; apply nth_In; lia].
    apply map_ext_in. intros k' Hk'. apply in_seq in Hk'. unfold enc_isp. fold W.
    change (tab [1; W; W] (fun ix => nth (at_ ix 2) (nth (at_ ix 1) (b_isp nx) []) false))
      with (T3 1 W W (fun _ k k' => nth k' (nth k (b_isp nx) []) false)).
    now rewrite get_T3 by lia. }
  rewrite E3, (row_back false non W Ho). destruct nx; reflexivity.
Qed.

Lemma advance_wfx V width fr bm choice :
  1 <= V -> 1 <= width -> wf bm -> List.length choice = Kout V bm width ->
  (forall i, List.In i choice -> i < ncand V bm) -> wfx (advance V fr bm width choice).
Proof.
  intros Vpos Wpos W Clen Crange. pose proof (nx_wf V width fr bm choice Vpos Wpos W Clen Crange) as Wn.
  pose proof (nx_Kp V width fr bm choice Vpos Wpos Clen) as EK. unfold Kp in EK.
  assert (HK : Kout V bm width <= width) by (unfold Kout; lia).
  destruct Wn as [_ Hb Hy Hl Hn Hi Hc _]. unfold Kp in *. constructor; try assumption.
  - intros c Hin. destruct (In_nth _ _ [] Hin) as [k [Hk <-]]. apply Hc. now rewrite <- Hy.
  - intros r Hin. rewrite EK. unfold advance in Hin. cbn [fst b_isp] in Hin. apply in_app_iff in Hin. destruct Hin as [Hin|Hin].
    + apply in_map_iff in Hin. destruct Hin as [i [<- _]]. rewrite app_length, map_length, repeat_length, Clen. lia.
    + apply repeat_spec in Hin. subst r. apply repeat_length.
  - rewrite EK. unfold advance. cbn [fst snd]. rewrite app_length, map_length, repeat_length, Clen. lia.
  - rewrite EK. unfold advance. cbn [fst snd]. rewrite app_length, map_length, repeat_length, Clen. lia.
Qed.

(* for ALL well-formed inputs and admissible answers the interpreted source, read back, is the model *)
Theorem src_advance_tie : forall V width fr bm choice,
  1 <= V -> 1 <= width -> wf bm -> List.length choice = Kout V bm width ->
  (forall i, List.In i choice -> i < ncand V bm) ->
  src_advance V width fr bm choice = Some (advance V fr bm width choice).
Proof.
  intros V width fr bm choice Vpos Wpos W Clen Crange. unfold src_advance.
  destruct (advance_tie V width fr bm choice Vpos Wpos W Clen Crange) as [st E]. rewrite E.
  apply dec_enc_out. now apply advance_wfx.
Qed.

Lemma topk_ok_range V fr bm width choice : topk_ok V fr bm 0%Qc width choice = true ->
  List.length choice = Kout V bm width /\ forall i, List.In i choice -> i < ncand V bm.
Proof.
  intros H. unfold topk_ok in H. repeat (apply andb_true_iff in H; destruct H as [H ?]).
  split; [now apply Nat.eqb_eq|]. intros i Hi. rewrite forallb_forall in H3. apply Nat.ltb_lt. now apply H3.
Qed.

(* the harness entry point is the model's own check (no hypothesis on the observed answer: an answer
   Model.topk_ok rejects makes both false) *)
Theorem src_advance_check_is_check : forall V width fr bm choice o_y o_last o_lens o_nb o_b o_isp o_src o_nonext,
  1 <= V -> 1 <= width -> wf bm ->
  src_advance_check V width fr bm choice o_y o_last o_lens o_nb o_b o_isp o_src o_nonext
  = check_advance V width fr bm choice o_y o_last o_lens o_nb o_b o_isp o_src o_nonext.
Proof.
  intros V width fr bm choice o_y o_last o_lens o_nb o_b o_isp o_src o_nonext Vpos Wpos W.
  unfold src_advance_check, check_advance.
  destruct (topk_ok V fr bm 0%Qc width choice) eqn:Hok.
  - destruct (topk_ok_range _ _ _ _ _ Hok) as [Clen Crange].
    rewrite (src_advance_tie V width fr bm choice Vpos Wpos W Clen Crange). unfold compare_advance.
    destruct (advance V fr bm width choice) as [nx [src non]]. now rewrite Hok.
  - destruct (advance V fr bm width choice) as [nx [src non]]. cbn [andb].
    destruct (src_advance V width fr bm choice) as [[nx' [src' non']]|]; [|reflexivity].
    unfold compare_advance. now rewrite Hok.
Qed.

(* ---- composed with the model-side theorems: statements purely about the interpreted source -------------- *)
(* c05_prefix_matrix_invariant_step through the tie: if the beam handed to the step function satisfies the
   invariant (valid prefixes blank-free and pairwise distinct, prefix matrix sound on all slots and complete on
   the valid ones, last token, nb([]) = 0), so does the beam the INTERPRETED SOURCE returns (topk = the stable
   selection), read back from its tensors *)
Theorem source_advance_keeps_invariant : forall V width fr bm res,
  1 <= V -> 1 <= width -> inv V bm ->
  src_advance V width fr bm (stable_choice V width fr bm) = Some res -> inv V (fst res).
Proof.
  intros V width fr bm res Vpos Wpos I E. pose proof (inv_wf V bm I) as W.
  pose proof (ProofsTopk.auto_step_ok V fr bm width Wpos (wf_pos bm W)) as Hok. cbv zeta in Hok.
  fold (stable_choice V width fr bm) in Hok.
  destruct (ProofsSearch.topk_ok_facts _ _ _ _ _ Hok) as [Hl Hr Hn _ _].
  rewrite (src_advance_tie V width fr bm _ Vpos Wpos W Hl Hr) in E. inversion E. subst res.
  now apply advance_inv.
Qed.

(* non-vacuity: a beam of three slots at t = 2 (an empty prefix, "1", and its extension "1 0" whose source is
   present: a merge), one invalid slot pair among the masses, vocabulary 2, width 5 of 9 candidates (pruning) *)
Definition ex_fr : frame := mkFrame [[qc 1 2; qc 1 4]; [qc 1 4; qc 1 2]; [qc 1 8; qc 1 8]] [qc 1 2; qc 1 4] (qc 1 4).
Definition ex_bm : beam :=
  mkBeam 2 [[0; 0]; [1; 0]; [1; 0]] [0; 1; 0] [0; 1; 2] [F 0 1; F 1 4; F 1 8] [F 1 2; F 1 8; NegInf]
         [[true; true; true]; [false; true; true]; [false; false; true]].

Lemma ex_wf : wf ex_bm.
Proof. constructor; cbn; try lia. - intros [|[|[|k]]] H; cbn in *; lia || reflexivity. - intros [|[|[|[|k]]]]; cbn; lia. Qed.

Lemma ex_nonvacuous_src :
  wf ex_bm /\
  src_advance 2 5 ex_fr ex_bm (stable_choice 2 5 ex_fr ex_bm) = Some (advance 2 ex_fr ex_bm 5 (stable_choice 2 5 ex_fr ex_bm)) /\
  b_lens (fst (advance 2 ex_fr ex_bm 5 (stable_choice 2 5 ex_fr ex_bm))) = [1; 1; 0; 2; 1] /\
  b_y (fst (advance 2 ex_fr ex_bm 5 (stable_choice 2 5 ex_fr ex_bm))) = [[1; 1; 0]; [0; 0; 0]; [0; 0; 0]; [1; 1; 0]; [1; 0; 0]] /\
  snd (advance 2 ex_fr ex_bm 5 (stable_choice 2 5 ex_fr ex_bm)) = ([1; 0; 0; 1; 0], [true; false; true; false; false]).
Proof.
  split; [exact ex_wf|]. split; [|repeat split; vm_compute; reflexivity].
  apply src_advance_tie; try lia; [exact ex_wf|vm_compute; reflexivity|].
  intros i Hi. vm_compute in Hi. vm_compute. intuition lia.
Qed.
