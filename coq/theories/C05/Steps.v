(* A function body as the list of its statements, run from a position: a symbolic run then carries the position, not
   the remainder of the body (whose identifiers, spelled as Coq strings, make it by far the largest term in sight). *)
From Coq Require Import List String Arith Lia.
From PV Require Import MiniPy.Syntax MiniPy.Interp MiniPy.Lemmas.
Import ListNotations.

Fixpoint flat (s : stmt) : list stmt :=
  match s with SSeq a b => flat a ++ flat b | _ => [s] end.

(* what [Interp.run] does with the outcome of the body *)
Definition fin (o : outcome ctl) : outcome val :=
  match o with
  | Ok CNormal st => Ok VNone st
  | Ok (CReturn v) st => Ok v st
  | Exc n st => Exc n st
  | Stuck w => Stuck w
  end.

Section Steps.
Variable ext : string -> list val -> list (string * val) -> state -> outcome val.

(* `a; b`: b runs unless a returned *)
Definition andthen (o : outcome ctl) (k : state -> outcome ctl) : outcome ctl :=
  bind o (fun c st => match c with CNormal => k st | CReturn _ => Ok c st end).

Fixpoint execs (l : list stmt) (st : state) : outcome ctl :=
  match l with
  | [] => Ok CNormal st
  | s :: r => andthen (exec ext s st) (execs r)
  end.

Lemma execs_app l1 l2 st : execs (l1 ++ l2) st = andthen (execs l1 st) (execs l2).
Proof.
  revert st. induction l1 as [|s r IH]; intros st; [reflexivity|].
  cbn [app execs]. unfold andthen at 1 3. destruct (exec ext s st) as [[|v] st1|n st1|w]; cbn [bind]; auto.
Qed.

Lemma exec_flat s st : exec ext s st = execs (flat s) st.
Proof.
  revert st. induction s; intros st;
    try (cbn [flat execs]; unfold andthen; destruct (exec ext _ st) as [[|?] ?|? ?|?]; reflexivity).
  cbn [flat]. rewrite execs_app, exec_seq, IHs1. unfold andthen.
  destruct (execs (flat s1) st) as [[|v] st1|n st1|w]; cbn [bind]; auto.
Qed.

Definition from (l : list stmt) (k : nat) (st : state) : outcome ctl := execs (skipn k l) st.

Lemma from_step l k s st : nth_error l k = Some s -> from l k st = andthen (exec ext s st) (from l (S k)).
Proof.
  unfold from. revert l. induction k as [|k IH]; intros [|x l] H; try discriminate.
  - injection H as ->. reflexivity.
  - apply (IH l H).
Qed.

Lemma from_end l k st : nth_error l k = None -> from l k st = Ok CNormal st.
Proof. intros H. unfold from. apply nth_error_None in H. now rewrite skipn_all2. Qed.

Lemma run_from body vs : Interp.run ext body vs = fin (from (flat body) 0 (mkState vs [])).
Proof. unfold Interp.run, from. cbn [skipn]. now rewrite exec_flat. Qed.

(* inside a block, the remainder of the block stays behind a local definition while its first statement runs *)
Lemma exec_seq_let a b st (Q : outcome ctl -> Prop) :
  (let rest := b in Q (andthen (exec ext a st) (exec ext rest))) -> Q (exec ext (SSeq a b) st).
Proof. exact (fun H => H). Qed.
End Steps.

(* one branch of a run ends where another does: [o] leaves the state [P a] describes when [r] is [Some a], and is
   outside the modelled subset when [r] is [None] *)
Definition sim1 {A} (P : A -> state -> Prop) (o : outcome ctl) (r : option A) : Prop :=
  match o, r with
  | Ok c st, Some a => c = CNormal /\ P a st
  | Stuck _, None => True
  | _, _ => False
  end.

#[global] Arguments from : simpl never.
#[global] Arguments andthen !o k /.

(* The goals have the form [rel L R] with the interpreter's outcome [L] on the left.  A file that steps declares
   [exec], [set_var], [lookup] and [vars] (and its own [ext] and operations) `simpl never`. *)

Ltac pc_step :=
  lazymatch goal with
  | |- context [from ?E ?l ?k ?st] =>
      let s := eval lazy in (nth_error l k) in
      lazymatch s with
      | Some ?s' => rewrite (from_step E l k s' st eq_refl)
      | None => rewrite (from_end E l k st eq_refl)
      end
  end.

Ltac unhide := match goal with |- context [exec _ ?r ?st] => is_var r; subst r end.
Ltac step0 :=
  lazymatch goal with
  | |- context C [exec ?E (SSeq ?a ?b) ?st] =>
      let Q := constr:(fun the_outcome : outcome ctl => ltac:(let g := context C [the_outcome] in exact g)) in
      apply (exec_seq_let E a b st Q); intro; cbv beta
  | |- context [exec _ (SAssign [TName _] _) _] => rewrite exec_assign1
  | |- context [exec ?E (SIf ?c ?a ?b) ?st] => rewrite (exec_if E c a b st)
  | |- context [exec _ (SAssert _) _] => rewrite exec_assert
  | |- context [exec _ (SRaise _) _] => rewrite exec_raise
  | |- context [exec _ (SReturn _) _] => rewrite exec_return
  | |- context [exec _ SPass _] => rewrite exec_pass
  end.

(* The state is kept behind a local definition [S], in normal form: the goal holds its name where it would hold
   copies of it.  Reads and writes of variables are computed by [lazy] ([cbn] is slow at comparing strings). *)
Ltac reg_state st :=
  lazymatch st with
  | mkState _ _ => let S := fresh "S" in set (S := st)
  | set_var _ _ _ =>
      let st1 := lazymatch goal with S0 := _ : state |- _ => eval cbv delta [S0] in st | _ => st end in
      let st2 := eval lazy [set_var update vars events String.eqb Ascii.eqb Bool.eqb] in st1 in
      let S := fresh "S" in pose (S := st2); change st with S
  end;
  repeat match goal with S0 := _ : state |- _ => clear S0 end.
Ltac reg :=
  try match goal with
  | |- context [from _ _ _ ?st] => reg_state st
  | |- context [exec _ _ ?st] => reg_state st
  end.
(* [lazy [eval bind]] unfolds [eval] on the (concrete) expression ([cbn] would spend its time refolding the nested
   fixpoints of [eval]); the variables the expression reads come to the surface one after the other and
   are looked up in the body [b] of [S].  All of it is computed on the term and put into the goal in one step. *)
Ltac ev_term b t :=
  let t := eval lazy beta iota in t in
  lazymatch t with
  | context C [lookup ?x (vars ?S)] =>
      let v := eval lazy [lookup vars String.eqb Ascii.eqb Bool.eqb] in (lookup x (vars b)) in
      let t' := context C [v] in ev_term b t'
  | _ => t
  end.
(* [cbn] does the rest (what [method], [subscript] ... compute, the plumbing), which may bring the next read up; the
   rounds run on the term, the goal is changed once *)
Ltac ev_loop b t :=
  let t1 := ev_term b t in
  let t2 := eval cbn in t1 in
  lazymatch t2 with context [lookup ?x (vars ?S)] => ev_loop b t2 | _ => t2 end.
Ltac ev :=
  lazymatch goal with
  | S := ?b : state |- ?rel ?L ?R =>
      let L1 := eval lazy [eval bind] in L in let L2 := ev_loop b L1 in try progress change (rel L2 R)
  | |- context [eval] => lazy [eval bind]
  | _ => idtac
  end;
  try progress cbn.
Ltac go_with rw := ev; repeat (progress rw; ev).

(* case analysis on a test / on the result of an operation that both sides perform, on the goal alone ([destruct]
   would also scan the bodies of the local definitions) *)
Ltac dcond :=
  match goal with |- _ ?L ?R =>
    match L with context [if ?c then _ else _] => match R with context [c] => case_eq c; intros ? end end end.
Ltac dopt_on o := case_eq o; [intros ? ?|intros ?].
(* the right-hand side is only looked at by these case analyses: between them it stays behind a local definition *)
Ltac expose := try match goal with |- _ _ ?R => is_var R; subst R end.
Ltac hide := try match goal with |- _ _ ?R => tryif is_var R then fail else (let RR := fresh "RR" in set (RR := R)) end.
Ltac done := try lazymatch goal with
  | |- True => exact I
  | |- _ /\ _ => split; reflexivity
  | |- @eq _ _ _ => reflexivity
  end.
