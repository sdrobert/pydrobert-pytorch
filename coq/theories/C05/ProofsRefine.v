(* C05 - the vectorised model refines the textbook prefix beam search on a finite map:
   the valid slots of the beam, read as (prefix |-> (nb, b)), evolve by Spec.pbs_keeps. *)
From Coq Require Import List Arith Bool QArith Qcanon Lia.
From PV Require Import C05.Model C05.Spec C05.ProofsNum C05.ProofsSpec C05.ProofsModel
  C05.ProofsSearch C05.ProofsMass.
Import ListNotations.
Local Open Scope nat_scope.

(* ---- the beam as a finite map -------------------------------------------------------------- *)

Definition slots (bm : beam) : list nat :=
  filter (fun k => negb (invalid bm k)) (seq 0 (Kp bm)).
Definition entry_of (bm : beam) (k : nat) : entry := (pref bm k, (nbq bm k, bq bm k)).
Definition view (bm : beam) : list entry := map (entry_of bm) (slots bm).

Lemma slots_valid : forall bm k, In k (slots bm) <-> valid bm k.
Proof.
  intros. unfold slots, valid. rewrite filter_In, in_seq, negb_true_iff. intuition lia.
Qed.

Lemma slots_nodup : forall bm, NoDup (slots bm).
Proof. intros. apply NoDup_filter, seq_NoDup. Qed.

Lemma NoDup_map_on : forall {A B} (f : A -> B) l,
  NoDup l -> (forall a b, In a l -> In b l -> f a = f b -> a = b) -> NoDup (map f l).
Proof.
  induction l; intros ND H; cbn [map]; constructor; inversion ND; subst.
  - intro I. apply in_map_iff in I. destruct I as (b & E & Ib).
    assert (a = b) by (apply H; auto with datatypes). subst. auto.
  - apply IHl; auto. intros; apply H; auto with datatypes.
Qed.

Lemma view_nodup : forall V bm, inv V bm -> NoDup (map fst (view bm)).
Proof.
  intros V bm I. unfold view. rewrite map_map. cbn [entry_of fst].
  apply NoDup_map_on; [apply slots_nodup|].
  intros a b Ha Hb E. apply slots_valid in Ha, Hb. apply (inv_dist V bm I); auto.
Qed.

Lemma view_in : forall bm k, valid bm k -> In (entry_of bm k) (view bm).
Proof. intros. unfold view. apply in_map. apply slots_valid. auto. Qed.

Lemma view_in_inv : forall bm e, In e (view bm) -> exists k, valid bm k /\ e = entry_of bm k.
Proof.
  intros bm e H. unfold view in H. apply in_map_iff in H. destruct H as (k & <- & Hk).
  exists k. split; auto. apply slots_valid. auto.
Qed.

Lemma view_lookup : forall V bm k, inv V bm -> valid bm k ->
  lookup (view bm) (pref bm k) = (nbq bm k, bq bm k).
Proof.
  intros V bm k I Vk. apply lookup_in; [apply (view_nodup V); auto|]. apply (view_in bm k Vk).
Qed.

Lemma view_inb : forall bm p, inb (view bm) p = true <-> exists k, valid bm k /\ pref bm k = p.
Proof.
  intros. rewrite inb_true. split.
  - intros (m & H). apply view_in_inv in H. destruct H as (k & Vk & E). inversion E; subst. eauto.
  - intros (k & Vk & <-). eexists. apply (view_in bm k Vk).
Qed.

Lemma view_lookup_none : forall bm p, (forall k, valid bm k -> pref bm k <> p) ->
  lookup (view bm) p = (0%Qc, 0%Qc) /\ inb (view bm) p = false.
Proof.
  intros bm p H. assert (inb (view bm) p = false).
  { destruct (inb (view bm) p) eqn:E; auto. apply view_inb in E. destruct E as (k & Vk & Pk).
    exfalso. apply (H k Vk Pk). }
  split; auto. apply lookup_notin. auto.
Qed.

(* ---- twins: whatever the prefix matrix relates to a valid slot is itself in the map --------- *)

Definition twins (bm : beam) : Prop :=
  forall k k', k < Kp bm -> k' < Kp bm -> valid bm k -> isp bm k k' = true ->
    exists k'', valid bm k'' /\ pref bm k'' = pref bm k'.

Lemma twins_init : twins init_beam.
Proof.
  intros k k' L L' Vk _. cbn in L, L'. assert (k' = 0) by lia. subst k'.
  exists 0. split; auto. split; [cbn; lia|reflexivity].
Qed.

Lemma to_match_pref : forall V bm k k', wf bm -> lens bm k < lens bm k' ->
  to_match V bm k k' = clampV V (nth (lens bm k) (pref bm k') 0).
Proof.
  intros V bm k k' W L. pose proof (wf_len bm W k') as LT. unfold to_match.
  replace (b_t bm =? 0) with false by (symmetry; apply Nat.eqb_neq; lia).
  replace (Nat.min (lens bm k) (b_t bm - 1)) with (lens bm k) by lia.
  rewrite pref_nth by auto. reflexivity.
Qed.

Section RefineStep.
  Variables (V width : nat) (fr : frame) (bm : beam) (choice : list nat).
  Variables (L : list sframe) (E : score).
  Hypothesis Vpos : 1 <= V.
  Hypothesis Wpos : 1 <= width.
  Hypothesis I : inv V bm.
  Hypothesis TW : twins bm.
  Hypothesis TK : topk_facts V fr bm width choice.
  Hypothesis FA : frame_agrees V fr bm L E (b_t bm).

  Let W := inv_wf V bm I.
  Let n := b_t bm.
  Let nx := fst (advance V fr bm width choice).
  Let K := Kout V bm width.
  Let Clen := tk_len V fr bm width choice TK.
  Let Crange := tk_range V fr bm width choice TK.
  Let Cnodup := tk_nodup V fr bm width choice TK.
  Let B := view bm.
  Notation chj := (ch choice).

  (* whatever [ext_is_exact] relates a valid slot to, a valid slot holds that one-token extension *)
  Lemma exact_to_twin : forall k k', valid bm k -> k' < Kp bm -> ext_is_exact bm k k' = true ->
    exists k4, valid bm k4 /\ pref bm k4 = pref bm k ++ [to_match V bm k k'] /\ to_match V bm k k' < V.
  Proof.
    intros k k' Vk Lk' EX. pose proof EX as EX0. unfold ext_is_exact in EX. apply andb_true_iff in EX.
    destruct EX as [EL EI]. apply Nat.eqb_eq in EL.
    destruct (TW k k' (proj1 Vk) Lk' Vk EI) as (k4 & Vk4 & Pk4).
    assert (L4 : lens bm k4 = lens bm k').
    { rewrite <- !pref_length by (auto; apply Vk4). congruence. }
    assert (TM : to_match V bm k k4 = to_match V bm k k').
    { rewrite !to_match_pref by (auto; lia). congruence. }
    assert (EX4 : ext_is_exact bm k k4 = true).
    { unfold ext_is_exact. apply andb_true_iff. split; [apply Nat.eqb_eq; lia|].
      apply (inv_cmp V bm I); auto. rewrite Pk4. apply (inv_snd V bm I); auto. apply Vk. }
    destruct (exact_pre V bm I k k4 (proj1 Vk) Vk4 EX4) as (P1 & P2 & P3).
    exists k4. split; auto. rewrite <- TM, P2. split.
    - rewrite P1. apply snoc_decomp. auto.
    - pose proof (inv_lt V bm I k4 Vk4) as F. rewrite (snoc_decomp _ 0 P3) in F.
      apply Forall_app in F. destruct F as [_ F]. inversion F; auto.
  Qed.

  Lemma has_match_twin : forall k v, valid bm k -> has_match V bm k v = true ->
    exists k4, valid bm k4 /\ pref bm k4 = pref bm k ++ [v].
  Proof.
    intros k v Vk H. unfold has_match in H. apply existsb_exists in H. destruct H as (k' & Hk' & H).
    apply in_seq in Hk'. apply andb_true_iff in H. destruct H as [H1 H2]. apply Nat.eqb_eq in H1.
    destruct (exact_to_twin k k' Vk (proj2 Hk') H2) as (k4 & V4 & P4 & _). rewrite H1 in P4. eauto.
  Qed.

  Lemma merged_view : forall src, valid bm src -> 0 < lens bm src ->
    let p := pref bm src in let v := last p 0 in
    merged V fr bm src
    = (if inb B (removelast p)
       then let '(np, bp) := lookup B (removelast p) in
            ((if opt_is (last_opt (removelast p)) v then 0 else np) + bp) * E n (removelast p) v
       else 0)%Qc.
  Proof.
    intros src Vs Ls. cbv zeta.
    destruct (merged_cases V fr bm I src Vs Ls) as [Hv [(k0 & Vk0 & Pk0 & ->)|[NONE ->]]].
    - rewrite <- Pk0. unfold B. rewrite (proj2 (view_inb bm (pref bm k0)) (ex_intro _ k0 (conj Vk0 eq_refl))).
      rewrite (view_lookup V bm k0 I Vk0). apply (ext_by_view V fr bm L E k0 _ I FA Vk0 Hv).
    - destruct (inb B (removelast (pref bm src))) eqn:INB; [|reflexivity].
      apply view_inb in INB. destruct INB as (k & Vk & Pk). destruct (NONE k Vk Pk).
  Qed.

  (* the candidate "slot src keeps its prefix" is the map recursion's entry for that prefix *)
  Lemma entry_nonext : forall src, valid bm src ->
    new_entry V L E n B (pref bm src)
    = (pref bm src, (nb_nonext1 V fr bm src, b_nonext fr bm src)).
  Proof.
    intros src Vs. destruct FA as (F1 & F2 & F3).
    unfold new_entry. unfold B at 1. rewrite (view_lookup V bm src I Vs).
    fold (fr_at L n). fold n in F1, F2. rewrite <- F1, <- F2.
    unfold nb_nonext1, nb_nonext0, b_nonext.
    destruct (Nat.eq_dec (lens bm src) 0) as [L0|L0].
    - rewrite (pref_nil bm src W (proj1 Vs) L0). cbn [last_opt]. rewrite (inv_nb0 V bm I src Vs L0).
      unfold merged. rewrite qsum_map_zero.
      + f_equal; f_equal; ring.
      + intros k _. unfold ext_is_exact. rewrite L0.
        replace (lens bm k + 1 =? 0) with false by (symmetry; apply Nat.eqb_neq; lia). reflexivity.
    - rewrite (last_opt_last _ (pref_nonnil bm src W (proj1 Vs) L0)). rewrite (merged_view src Vs) by lia.
      rewrite (inv_last V bm I src Vs) by lia. reflexivity.
  Qed.

  (* the candidate "slot src extended by v", when it was not cleared *)
  Lemma entry_ext : forall src v, valid bm src -> v < V -> has_match V bm src v = false ->
    new_entry V L E n B (pref bm src ++ [v])
    = (pref bm src ++ [v], (nb_ext V fr bm src v, 0%Qc)).
  Proof.
    intros src v Vs Hv HM.
    assert (NONE : forall k, valid bm k -> pref bm k <> pref bm src ++ [v]).
    { intros k Vk C. rewrite (has_match_of_ext V bm src k v Vpos I Vs Vk Hv C) in HM. discriminate. }
    destruct (view_lookup_none bm _ NONE) as [LK _].
    unfold new_entry. fold B in LK. rewrite LK. rewrite last_opt_snoc, removelast_snoc.
    assert (INB : inb B (pref bm src) = true) by (apply view_inb; eauto).
    rewrite INB. unfold B at 1. rewrite (view_lookup V bm src I Vs).
    rewrite (ext_by_view V fr bm L E src v I FA Vs Hv). fold n.
    f_equal. f_equal; ring.
  Qed.
End RefineStep.

Lemma filter_length_le : forall {A} (f : A -> bool) l, length (filter f l) <= length l.
Proof. induction l; cbn; auto. destruct (f a); cbn; lia. Qed.

Lemma filter_all : forall {A} (f : A -> bool) l, (forall x, In x l -> f x = true) -> filter f l = l.
Proof.
  induction l; intros H; cbn; auto. rewrite H by auto with datatypes. f_equal. apply IHl.
  intros; apply H; auto with datatypes.
Qed.

Section RefineStep2.
  Variables (V width : nat) (fr : frame) (bm : beam) (choice : list nat).
  Variables (L : list sframe) (E : score).
  Hypothesis Vpos : 1 <= V.
  Hypothesis Wpos : 1 <= width.
  Hypothesis I : inv V bm.
  Hypothesis TW : twins bm.
  Hypothesis TK : topk_facts V fr bm width choice.
  Hypothesis FA : frame_agrees V fr bm L E (b_t bm).

  Let W := inv_wf V bm I.
  Let n := b_t bm.
  Let nx := fst (advance V fr bm width choice).
  Let K := Kout V bm width.
  Let Clen := tk_len V fr bm width choice TK.
  Let Crange := tk_range V fr bm width choice TK.
  Let Cnodup := tk_nodup V fr bm width choice TK.
  Let Cdom := tk_dom V fr bm width choice TK.
  Let B := view bm.
  Let Inx : inv V nx := advance_inv V width fr bm choice Vpos Wpos I Clen Crange Cnodup.
  Notation chj := (ch choice).

  Lemma chosen_slot : forall u, In u choice -> exists j, j < K /\ chj j = u.
  Proof.
    intros u H. apply In_nth with (d := 0) in H. destruct H as (j & Lj & Ej).
    exists j. unfold K. rewrite <- Clen. auto.
  Qed.

  Lemma slot_chosen : forall j, j < K -> In (chj j) choice.
  Proof. intros. apply nth_In. rewrite Clen. auto. Qed.

  Lemma valid_of_fin : forall j, j < K -> cand V fr bm (chj j) <> NegInf -> valid nx j.
  Proof.
    intros j Lj H. split.
    - unfold nx. rewrite (nx_Kp V width fr bm choice Vpos Wpos Clen). unfold K, Kout in Lj. lia.
    - unfold nx. rewrite (nx_invalid V width fr bm choice Vpos Wpos Clen Crange). fold K.
      apply Nat.ltb_lt in Lj. rewrite Lj. destruct (cand V fr bm (chj j)); [congruence|reflexivity].
  Qed.

  Lemma fin_of_valid : forall j, valid nx j ->
    j < K /\ cand V fr bm (chj j) = Fin (nbq nx j + bq nx j)%Qc.
  Proof.
    intros j Vj.
    destruct (valid_nx V width fr bm choice Vpos Wpos Clen Crange j Vj) as (Lj & R & _).
    split; auto. destruct Vj as [_ IV]. unfold nbq, bq. rewrite IV. unfold invalid in IV.
    unfold nx in IV |- *. rewrite (nx_nb V width fr bm choice Clen), (nx_b V width fr bm choice Clen) in IV.
    rewrite (nx_nb V width fr bm choice Clen), (nx_b V width fr bm choice Clen).
    apply Nat.ltb_lt in Lj. rewrite Lj in IV. rewrite Lj.
    rewrite <- (cnb_cb_cand V fr bm (chj j) Vpos R).
    destruct (c_nb V fr bm (chj j)); [discriminate|]. destruct (c_b V fr bm (chj j)); [discriminate|].
    reflexivity.
  Qed.

  (* if an invalid candidate was selected then every live one was *)
  Lemma all_fin_chosen : forall c, In c choice -> cand V fr bm c = NegInf ->
    forall u, u < ncand V bm -> cand V fr bm u <> NegInf -> In u choice.
  Proof.
    intros c Hc Nc u R H. destruct (in_dec Nat.eq_dec u choice) as [Y|N]; auto.
    exfalso. pose proof (Cdom u R N c Hc) as M. rewrite Nc in M.
    destruct (cand V fr bm u); [congruence|exact M].
  Qed.

  Lemma full_when_unchosen : forall u, u < ncand V bm -> ~ In u choice -> K = width.
  Proof.
    intros u R N. unfold K, Kout. destruct (le_lt_dec width (ncand V bm)); [lia|].
    exfalso. apply N.
    assert (INC : incl (seq 0 (ncand V bm)) choice).
    { apply NoDup_length_incl; auto.
      - rewrite seq_length, Clen. unfold Kout. lia.
      - intros x Hx. apply in_seq. split; [lia|]. apply Crange. auto. }
    apply INC. apply in_seq. lia.
  Qed.

  Lemma entry_nx : forall j, valid nx j ->
    entry_of nx j = new_entry V L E n B (pref nx j) /\ In (pref nx j) (cand_prefixes V B).
  Proof.
    intros j Vj.
    destruct (nx_slot V width fr bm choice Vpos Wpos I Clen Crange j Vj) as [VS SL]. fold nx in SL.
    set (src := c_src V bm (chj j)) in *. unfold entry_of.
    destruct SL as [(-> & -> & ->)|(v & Hv & HM & -> & -> & ->)]; split.
    - symmetry. apply (entry_nonext V width fr bm choice L E Vpos Wpos I TK FA src VS).
    - apply cand_prefixes_in. left. eexists. apply (view_in bm src VS).
    - symmetry. apply (entry_ext V fr bm L E Vpos I FA src v VS Hv HM).
    - apply cand_prefixes_in. right. exists (pref bm src), (nbq bm src, bq bm src), v.
      split; auto. apply (view_in bm src VS).
  Qed.

  (* every candidate prefix of the map recursion is a candidate index of the vectorised step,
     with the same total mass *)
  Lemma cand_of_prefix : forall q, In q (cand_prefixes V B) ->
    exists u, u < ncand V bm /\
      cand V fr bm u = Fin (e_tot (new_entry V L E n B q)) /\
      (forall j, j < K -> chj j = u -> pref nx j = q).
  Proof.
    assert (KEEP : forall k, valid bm k ->
              exists u, u < ncand V bm /\
                cand V fr bm u = Fin (e_tot (new_entry V L E n B (pref bm k))) /\
                (forall j, j < K -> chj j = u -> pref nx j = pref bm k)).
    { intros k Vk. exists (Kp bm * V + k).
      destruct (cand_keep_at V fr bm k (proj1 Vk)) as (R & NE & SR & CU).
      split; auto. split.
      - unfold n, B. rewrite (entry_nonext V width fr bm choice L E Vpos Wpos I TK FA k Vk).
        rewrite CU. unfold nb_nonext_c. rewrite (proj2 Vk). reflexivity.
      - intros j Lj Ej. unfold nx. rewrite (pref_nx V width fr bm choice Vpos Wpos I Clen Crange j Lj), Ej, NE, SR.
        reflexivity. }
    intros q Hq. apply cand_prefixes_in in Hq.
    destruct Hq as [(m & Hm)|(p & m & v & Hm & Hv & ->)].
    - apply view_in_inv in Hm. destruct Hm as (k & Vk & Em). inversion Em; subst. apply KEEP. auto.
    - apply view_in_inv in Hm. destruct Hm as (k & Vk & Em). inversion Em; subst.
      destruct (inb B (pref bm k ++ [v])) eqn:INB.
      + apply view_inb in INB. destruct INB as (k' & Vk' & Pk'). rewrite <- Pk'. apply KEEP. auto.
      + assert (HM : has_match V bm k v = false).
        { destruct (has_match V bm k v) eqn:HM; auto. exfalso.
          destruct (has_match_twin V width fr bm choice Vpos Wpos I TW TK k v Vk HM) as (k4 & V4 & P4).
          assert (inb B (pref bm k ++ [v]) = true); [|congruence]. apply view_inb. eauto. }
        exists (k * V + v). destruct (cand_ext_at V fr bm k v (proj1 Vk) Hv) as (R & NE & SR & MD & CU).
        split; auto. split.
        * unfold n, B. rewrite (entry_ext V fr bm L E Vpos I FA k v Vk Hv HM).
          rewrite CU. unfold nb_ext_c. rewrite HM, (proj2 Vk). cbn [orb]. unfold e_tot. cbn [fst snd].
          f_equal. ring.
        * intros j Lj Ej. unfold nx.
          rewrite (pref_nx V width fr bm choice Vpos Wpos I Clen Crange j Lj), Ej, NE, SR, MD. reflexivity.
  Qed.

  (* one step of the vectorised code is one admissible step of the map recursion of width [width] *)
  Lemma refine_step : pbs_keeps width (pbs_cands V L E n B) (view nx).
  Proof.
    split; [apply (view_nodup V); exact Inx|]. split; [|split].
    - intros e He. apply view_in_inv in He. destruct He as (j & Vj & ->).
      destruct (entry_nx j Vj) as [E1 E2]. rewrite E1. unfold pbs_cands. apply in_map. exact E2.
    - unfold view. rewrite map_length. unfold slots.
      eapply Nat.le_trans; [apply filter_length_le|]. rewrite seq_length.
      unfold nx. rewrite (nx_Kp V width fr bm choice Vpos Wpos Clen). lia.
    - intros c Hc NI. unfold pbs_cands in Hc. apply in_map_iff in Hc. destruct Hc as (q & <- & Hq).
      destruct (cand_of_prefix q Hq) as (u & R & CU & PU).
      destruct (in_dec Nat.eq_dec u choice) as [Y|N].
      + exfalso. apply NI. destruct (chosen_slot u Y) as (j & Lj & Ej).
        assert (Vj : valid nx j) by (apply valid_of_fin; auto; rewrite Ej, CU; discriminate).
        destruct (entry_nx j Vj) as [E1 _]. rewrite (PU j Lj Ej) in E1. rewrite <- E1. apply view_in. auto.
      + pose proof (full_when_unchosen u R N) as KW.
        assert (ALL : forall j, j < K -> valid nx j /\ mle (cand V fr bm u) (cand V fr bm (chj j))).
        { intros j Lj. pose proof (Cdom u R N (chj j) (slot_chosen j Lj)) as M. split; auto.
          apply valid_of_fin; auto. rewrite CU in M. destruct (cand V fr bm (chj j)); [destruct M|discriminate]. }
        split.
        * unfold view. rewrite map_length. unfold slots. rewrite filter_all, seq_length.
          -- unfold nx. rewrite (nx_Kp V width fr bm choice Vpos Wpos Clen). reflexivity.
          -- intros j Hj. apply in_seq in Hj. unfold nx in Hj. rewrite (nx_Kp V width fr bm choice Vpos Wpos Clen) in Hj.
             destruct (ALL j) as [[_ IV] _]; [lia|]. rewrite IV. reflexivity.
        * intros e He. apply view_in_inv in He. destruct He as (j & Vj & ->).
          destruct (fin_of_valid j Vj) as [Lj CJ]. destruct (ALL j Lj) as [_ M].
          rewrite CU, CJ in M. exact M.
  Qed.

  Lemma twins_step : twins nx.
  Proof.
    intros j j' Lj Lj' Vj H.
    destruct (invalid nx j') eqn:IV'; [|exists j'; split; auto; split; auto].
    unfold nx in H. rewrite (nx_isp V width fr bm choice Clen) in H. fold K in H.
    destruct (j <? K) eqn:E1; [|discriminate]. destruct (j' <? K) eqn:E2; [|discriminate].
    apply Nat.ltb_lt in E1, E2. cbn [andb] in H.
    destruct (valid_nx V width fr bm choice Vpos Wpos Clen Crange j Vj) as (_ & R & VS & _).
    pose proof (ch_range V width bm choice Clen Crange j' E2) as R'.
    pose proof (src_range V width bm choice Vpos Wpos Clen _ R') as SR'.
    unfold c_isp in H. apply andb_true_iff in H. destruct H as [H _].
    apply andb_true_iff in H. destruct H as [H _].
    destruct (TW _ _ (proj1 VS) SR' VS H) as (s & Vs & Ps).
    (* an invalid candidate was selected, so every live candidate was *)
    assert (NEG : cand V fr bm (chj j') = NegInf).
    { unfold nx in IV'. rewrite (nx_invalid V width fr bm choice Vpos Wpos Clen Crange) in IV'. fold K in IV'.
      apply Nat.ltb_lt in E2. rewrite E2 in IV'. destruct (cand V fr bm (chj j')); [auto|discriminate]. }
    pose proof (all_fin_chosen (chj j') (slot_chosen j' E2) NEG) as ALLFIN.
    assert (GET : forall q, In q (cand_prefixes V B) -> exists j'', valid nx j'' /\ pref nx j'' = q).
    { intros q Hq. destruct (cand_of_prefix q Hq) as (u & Ru & CU & PU).
      assert (Y : In u choice) by (apply ALLFIN; auto; rewrite CU; discriminate).
      destruct (chosen_slot u Y) as (j'' & Lj'' & Ej''). exists j''. split; [|apply PU; auto].
      apply valid_of_fin; auto. rewrite Ej'', CU. discriminate. }
    unfold nx. rewrite (pref_nx V width fr bm choice Vpos Wpos I Clen Crange j' E2). fold nx. rewrite <- Ps.
    destruct (c_nonext V bm (chj j')).
    - apply GET. apply cand_prefixes_in. left. eexists. apply (view_in bm s Vs).
    - apply GET. apply cand_prefixes_in. right. exists (pref bm s), (nbq bm s, bq bm s), (c_ext V (chj j')).
      split; [apply (view_in bm s Vs)|]. split; auto. apply (ext_range V width bm choice Vpos Wpos Clen).
  Qed.
End RefineStep2.

(* ---- along the loop ---------------------------------------------------------------------------- *)

Lemma view_init : view init_beam = pbs_init.
Proof. reflexivity. Qed.

(* the property's "the probability reported for a prefix equals the mass the standard prefix-beam
   recursion of that width assigns to it": the returned slots with a mass other than -inf are
   exactly the entries (prefix |-> nb + b) of a beam that the width-[width] prefix beam search on
   a finite map reaches on the element's own valid frames *)
Lemma model_refines_pbs_ref : forall V width fus lm len frames choices, 1 <= V -> 1 <= width ->
  choices_ok V width fus lm 0%Qc len 0 frames choices init_beam = true ->
  let L := firstn len frames in
  let E := fused_score fus lm L in
  exists B, pbs_reach V width L E (length L) B /\
    let '(P, Ls, Ps) := observe (search V width fus lm len frames choices) in
    (forall i q, nth i Ps NegInf = Fin q ->
       exists nb b, In (nth i P [], (nb, b)) B /\ q = (nb + b)%Qc) /\
    (forall p nb b, In (p, (nb, b)) B ->
       exists i, i < width /\ nth i P [] = p /\ nth i Ps NegInf = Fin (nb + b)%Qc).
Proof.
  intros V width fus lm len frames choices Vpos Wpos C L E.
  pose proof (out_slot V width fus lm len frames choices Vpos Wpos C) as O.
  pose proof (out_slot_rev V width fus lm len frames choices Vpos Wpos C) as OR.
  destruct (live_facts V width fus lm len frames choices Vpos Wpos C) as (I & T & _).
  pose proof (live_ok V width fus lm len frames choices C) as CL.
  exists (view (live_beam V width fus lm len frames choices)). split.
  - unfold live_beam, E. fold (live_frames len frames) in L.
    change (length L) with (0 + length (live_frames len frames)).
    destruct (sloop_keeps V width fus lm len L
                (fun _ _ t b => twins b /\ pbs_reach V width L (fused_score fus lm L) t (view b))
                Vpos Wpos) with (rest := live_frames len frames) (done := @nil sframe) (choices := choices) (bm := init_beam)
      as [_ [_ H]]; auto.
    + intros nonext blank _ cs b fr _ C1 Ib FA [TWb PRb]. pose proof (topk_ok_facts _ _ _ _ _ C1) as TK.
      assert (Inx : inv V (fst (advance V fr b width (hd [] cs)))) by (destruct TK; apply advance_inv; auto).
      split.
      * apply (twins_step V width fr b (hd [] cs) L (fused_score fus lm L)); auto.
      * apply pbs_S with (B := view b); auto.
        apply (refine_step V width fr b (hd [] cs) L (fused_score fus lm L)); auto.
    + unfold L. rewrite live_len. lia.
    + apply init_inv.
    + split; [apply twins_init|rewrite view_init; constructor].
  - destruct (observe (search V width fus lm len frames choices)) as [[P Ls] Ps].
    destruct O as (_ & _ & _ & _ & O).
    set (bm := live_beam V width fus lm len frames choices) in *.
    pose proof (inv_wf V bm I) as W. split.
    + intros i q Hq. destruct (O i q Hq) as (Vi & PQ & -> & _).
      rewrite (probs_of_valid bm i W Vi) in PQ. inversion PQ; subst q.
      exists (nbq bm i), (bq bm i). split; auto. apply (view_in bm i Vi).
    + intros p nb b Hin. apply view_in_inv in Hin. destruct Hin as (k & Vk & Ek). inversion Ek; subst.
      destruct (OR k Vk) as (Lk & E1 & E2). exists k. split; auto. split; auto.
      rewrite E2. apply probs_of_valid; auto.
Qed.
