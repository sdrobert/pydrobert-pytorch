(* C05 - small toolkit: canonical rationals, sums, boolean list equality. *)
From Coq Require Import List Arith Bool QArith Qcanon Lia Lra Psatz.
From PV Require Import C05.Model.
Import ListNotations.
Local Open Scope Qc_scope.
Local Open Scope nat_scope.

(* move a goal about Qc order/arithmetic to Q, where lra / nra work *)
Ltac qc2q :=
  unfold Qcle, Qclt, Qcplus, Qcmult, Qcminus, Qcopp, Q2Qc in *; cbn [this] in *;
  repeat rewrite Qred_correct in *.

Lemma q0 : this 0%Qc = 0%Q. Proof. reflexivity. Qed.
Lemma q1 : this 1%Qc = 1%Q. Proof. reflexivity. Qed.

Lemma qle_refl : forall a : Qc, (a <= a)%Qc. Proof. intros; apply Qcle_refl. Qed.
Lemma qle_trans : forall a b c : Qc, (a <= b -> b <= c -> a <= c)%Qc.
Proof. intros; eapply Qcle_trans; eauto. Qed.
Lemma qle_00 : (0 <= 0)%Qc. Proof. apply Qcle_refl. Qed.
Lemma qle_01 : (0 <= 1)%Qc. Proof. unfold Qcle; cbn; lra. Qed.
Lemma qadd_nonneg : forall a b : Qc, (0 <= a -> 0 <= b -> 0 <= a + b)%Qc.
Proof. intros. qc2q. lra. Qed.
Lemma qmul_nonneg : forall a b : Qc, (0 <= a -> 0 <= b -> 0 <= a * b)%Qc.
Proof. intros. qc2q. nra. Qed.
Lemma qadd_le : forall a b c d : Qc, (a <= b -> c <= d -> a + c <= b + d)%Qc.
Proof. intros. qc2q. lra. Qed.
Lemma qmul_le : forall a b c d : Qc, (0 <= a -> a <= b -> 0 <= c -> c <= d -> a * c <= b * d)%Qc.
Proof. intros. qc2q. nra. Qed.
Lemma qle_antisym : forall a b : Qc, (a <= b -> b <= a -> a = b)%Qc.
Proof. intros; apply Qcle_antisym; auto. Qed.

Lemma qleb_true : forall a b : Qc, qleb a b = true <-> (a <= b)%Qc.
Proof. intros. unfold qleb, Qcle. apply Qle_bool_iff. Qed.
Lemma qleb_false : forall a b : Qc, qleb a b = false <-> (b < a)%Qc.
Proof.
  intros. unfold qleb, Qclt. split; intro H.
  - destruct (Qlt_le_dec b a) as [L|L]; auto.
    apply Qle_bool_iff in L. congruence.
  - destruct (Qle_bool a b) eqn:E; auto. apply Qle_bool_iff in E. lra.
Qed.

(* ---- sums ---------------------------------------------------------------------- *)
Lemma qsum_cons : forall x l, qsum (x :: l) = (x + qsum l)%Qc.
Proof. reflexivity. Qed.
Lemma qsum_nil : qsum [] = 0%Qc.
Proof. reflexivity. Qed.

Lemma qsum_app : forall l m, qsum (l ++ m) = (qsum l + qsum m)%Qc.
Proof.
  induction l; intros; cbn [app]; rewrite ?qsum_cons, ?qsum_nil; [ring|]. rewrite IHl. ring.
Qed.

Lemma qsum_map_plus : forall {A} (f g : A -> Qc) l,
  qsum (map (fun x => f x + g x)%Qc l) = (qsum (map f l) + qsum (map g l))%Qc.
Proof. induction l; cbn [map]; rewrite ?qsum_cons, ?qsum_nil; [ring|]. rewrite IHl. ring. Qed.

Lemma qsum_map_scale : forall {A} (f : A -> Qc) c l,
  qsum (map (fun x => f x * c)%Qc l) = (qsum (map f l) * c)%Qc.
Proof. induction l; cbn [map]; rewrite ?qsum_cons, ?qsum_nil; [ring|]. rewrite IHl. ring. Qed.

Lemma qsum_map_ext : forall {A} (f g : A -> Qc) l,
  (forall x, In x l -> f x = g x) -> qsum (map f l) = qsum (map g l).
Proof.
  induction l; intros H; cbn [map]; auto. rewrite !qsum_cons, H, IHl; auto with datatypes.
Qed.

Lemma qsum_flat_map : forall {A B} (f : B -> Qc) (g : A -> list B) l,
  qsum (map f (flat_map g l)) = qsum (map (fun a => qsum (map f (g a))) l).
Proof.
  induction l; cbn [flat_map map]; auto. rewrite map_app, qsum_app, qsum_cons, IHl. reflexivity.
Qed.

Lemma qsum_nonneg : forall l, (forall x, In x l -> (0 <= x)%Qc) -> (0 <= qsum l)%Qc.
Proof.
  induction l; intros H; [apply qle_00|]. rewrite qsum_cons. apply qadd_nonneg.
  - apply H; auto with datatypes.
  - apply IHl; intros; apply H; auto with datatypes.
Qed.

Lemma qif0_le : forall (c : bool) a A, (0 <= a)%Qc -> (a <= A)%Qc ->
  (0 <= (if c then 0 else a))%Qc /\ ((if c then 0 else a) <= (if c then 0 else A))%Qc.
Proof. intros [] a A H0 H1; auto using qle_00. Qed.

Lemma qsum_map_zero : forall {A} (f : A -> Qc) l,
  (forall x, In x l -> f x = 0%Qc) -> qsum (map f l) = 0%Qc.
Proof.
  induction l; intros H; auto. cbn [map]. rewrite qsum_cons.
  rewrite H by auto with datatypes. rewrite IHl by auto with datatypes. ring.
Qed.

Lemma qsum_map_le : forall {A} (f g : A -> Qc) l,
  (forall x, In x l -> (f x <= g x)%Qc) -> (qsum (map f l) <= qsum (map g l))%Qc.
Proof.
  induction l; intros H; [apply qle_refl|]. cbn [map]. rewrite !qsum_cons. apply qadd_le.
  - apply H; auto with datatypes.
  - apply IHl; intros; apply H; auto with datatypes.
Qed.

(* a sum in which only the term of one index can be non-zero *)
Lemma qsum_single : forall {A} (f : A -> Qc) l v,
  NoDup l -> In v l -> (forall c, In c l -> c <> v -> f c = 0%Qc) -> qsum (map f l) = f v.
Proof.
  induction l; intros v ND I Z; [destruct I|].
  cbn [map]. rewrite qsum_cons. inversion ND; subst. destruct I as [->|I].
  - rewrite qsum_map_zero; [ring|]. intros x Hx. apply Z; auto with datatypes. congruence.
  - rewrite (IHl v); auto with datatypes.
    rewrite Z; auto with datatypes; [ring | congruence].
Qed.

(* ---- boolean list equality -------------------------------------------------------- *)
Lemma list_nat_eqb_true : forall a b, list_nat_eqb a b = true <-> a = b.
Proof. intros. unfold list_nat_eqb. destruct (list_eq_dec Nat.eq_dec a b); split; congruence. Qed.
Lemma list_nat_eqb_false : forall a b, list_nat_eqb a b = false <-> a <> b.
Proof. intros. unfold list_nat_eqb. destruct (list_eq_dec Nat.eq_dec a b); split; congruence. Qed.
Lemma list_nat_eqb_refl : forall a, list_nat_eqb a a = true.
Proof. intros; apply list_nat_eqb_true; auto. Qed.

(* ---- last / removelast ---------------------------------------------------------------- *)
Lemma snoc_inj : forall {A} (a b : list A) x y, a ++ [x] = b ++ [y] -> a = b /\ x = y.
Proof. intros. apply app_inj_tail in H. auto. Qed.

Lemma removelast_snoc : forall {A} (a : list A) x, removelast (a ++ [x]) = a.
Proof. intros. rewrite removelast_app by discriminate. cbn. apply app_nil_r. Qed.

Lemma last_snoc : forall {A} (a : list A) x d, last (a ++ [x]) d = x.
Proof. intros. apply last_last. Qed.

Lemma snoc_decomp : forall {A} (p : list A) d, p <> [] -> p = removelast p ++ [last p d].
Proof. intros. apply app_removelast_last; auto. Qed.

