(* C05 - the declarative side: alignment sums obey the CTC recursion; the map-based prefix
   beam search is exact when nothing is pruned and never exceeds the true mass. *)
From Coq Require Import List Arith Bool QArith Qcanon Lia Lra Psatz.
From PV Require Import C05.Model C05.Spec C05.ProofsNum.
Import ListNotations.
Local Open Scope Qc_scope.
Local Open Scope nat_scope.

(* ---- alignments ---------------------------------------------------------------------- *)

Lemma arun_snoc : forall V frames E a c,
  arun V frames E (a ++ [c]) = astep V frames E (arun V frames E a) c.
Proof. intros. unfold arun. rewrite fold_left_app. reflexivity. Qed.

Lemma aligns_length : forall V n a, In a (aligns V n) -> length a = n.
Proof.
  induction n; intros a H; cbn [aligns] in H.
  - destruct H as [<-|[]]; auto.
  - apply in_flat_map in H. destruct H as (a0 & H0 & H1). apply in_map_iff in H1.
    destruct H1 as (c & <- & _). rewrite app_length, (IHn a0); auto. cbn; lia.
Qed.

Lemma aligns_labels : forall V n a, In a (aligns V n) -> Forall (fun c => c <= V) a.
Proof.
  induction n; intros a H; cbn [aligns] in H.
  - destruct H as [<-|[]]; auto.
  - apply in_flat_map in H. destruct H as (a0 & H0 & H1). apply in_map_iff in H1.
    destruct H1 as (c & <- & Hc). apply in_seq in Hc. apply Forall_app; split; auto.
    constructor; auto; lia.
Qed.

Lemma astep_t : forall V frames E st c, a_t (astep V frames E st c) = S (a_t st).
Proof. intros. unfold astep. destruct (Nat.eqb c V); [|destruct (opt_is _ _)]; reflexivity. Qed.

Lemma arun_t : forall V frames E a, a_t (arun V frames E a) = length a.
Proof.
  intros V frames E a. induction a using rev_ind; [reflexivity|].
  rewrite arun_snoc, astep_t, IHa, app_length. cbn; lia.
Qed.

(* the last label read is recorded; a non-blank last label is the last token of the prefix *)
Definition st_ok (V : nat) (st : astate) : Prop :=
  match a_last st with
  | None => True
  | Some c => c <= V /\ (c <> V -> last_opt (a_pre st) = Some c)
  end.

Lemma last_opt_snoc : forall p c, last_opt (p ++ [c]) = Some c.
Proof. intros. unfold last_opt. destruct (p ++ [c]) eqn:E; [destruct p; discriminate|]. rewrite <- E, last_snoc. auto. Qed.

Lemma opt_is_true : forall o c, opt_is o c = true <-> o = Some c.
Proof. destruct o; cbn; intros; [rewrite Nat.eqb_eq|]; split; congruence. Qed.

Lemma astep_ok : forall V frames E st c, st_ok V st -> c <= V -> st_ok V (astep V frames E st c).
Proof.
  intros V frames E st c H Hc. unfold astep, st_ok.
  destruct (Nat.eqb c V) eqn:E1; cbn [a_last a_pre].
  - apply Nat.eqb_eq in E1. split; auto. congruence.
  - destruct (opt_is (a_last st) c) eqn:E2; cbn [a_last a_pre].
    + apply opt_is_true in E2. unfold st_ok in H. rewrite E2 in H. tauto.
    + split; auto. intros _. apply last_opt_snoc.
Qed.

Lemma arun_ok : forall V frames E a, Forall (fun c => c <= V) a -> st_ok V (arun V frames E a).
Proof.
  intros V frames E a. induction a using rev_ind; intros H; [exact I|].
  apply Forall_app in H. destruct H as [H1 H2]. inversion H2; subst.
  rewrite arun_snoc. apply astep_ok; auto.
Qed.

Lemma astep_pre_len : forall V frames E st c,
  length (a_pre (astep V frames E st c)) <= S (length (a_pre st)).
Proof.
  intros. unfold astep. destruct (Nat.eqb c V); [|destruct (opt_is _ _)]; cbn [a_pre]; auto.
  rewrite app_length; cbn; lia.
Qed.

Lemma arun_pre_len : forall V frames E a, length (a_pre (arun V frames E a)) <= length a.
Proof.
  intros V frames E a. induction a using rev_ind; [cbn; lia|].
  rewrite arun_snoc, app_length. pose proof (astep_pre_len V frames E (arun V frames E a) x).
  cbn; lia.
Qed.

Lemma astep_pre_lt : forall V frames E st c, c <= V ->
  Forall (fun x => x < V) (a_pre st) -> Forall (fun x => x < V) (a_pre (astep V frames E st c)).
Proof.
  intros. unfold astep. destruct (Nat.eqb c V) eqn:E1; [|destruct (opt_is _ _)]; cbn [a_pre]; auto.
  apply Forall_app; split; auto. constructor; auto. apply Nat.eqb_neq in E1. lia.
Qed.

Lemma arun_pre_lt : forall V frames E a, Forall (fun c => c <= V) a ->
  Forall (fun x => x < V) (a_pre (arun V frames E a)).
Proof.
  intros V frames E a. induction a using rev_ind; intros H; [constructor|].
  apply Forall_app in H. destruct H as [H1 H2]. inversion H2; subst.
  rewrite arun_snoc. apply astep_pre_lt; auto.
Qed.

(* ---- contributions of one alignment state ------------------------------------------------ *)

Definition cb (V : nat) (st : astate) (p : list nat) : Qc :=
  if list_nat_eqb (a_pre st) p && ends_blank V st then a_w st else 0%Qc.
Definition cnb (V : nat) (st : astate) (p : list nat) : Qc :=
  if list_nat_eqb (a_pre st) p && negb (ends_blank V st) then a_w st else 0%Qc.

Lemma A_b_eq : forall V frames E n p,
  A_b V frames E n p = qsum (map (fun a => cb V (arun V frames E a) p) (aligns V n)).
Proof. reflexivity. Qed.
Lemma A_nb_eq : forall V frames E n p,
  A_nb V frames E n p = qsum (map (fun a => cnb V (arun V frames E a) p) (aligns V n)).
Proof. reflexivity. Qed.

Definition fr_at (frames : list sframe) (t : nat) : sframe := nth t frames ([], 0%Qc).

Lemma seq_nodup_in : forall V v, v <= V -> NoDup (seq 0 (S V)) /\ In v (seq 0 (S V)).
Proof. intros. split; [apply seq_NoDup|apply in_seq; lia]. Qed.

(* one more frame, blank-ending part *)
Lemma step_cb : forall V frames E st p,
  qsum (map (fun c => cb V (astep V frames E st c) p) (seq 0 (S V)))
  = ((cnb V st p + cb V st p) * snd (fr_at frames (a_t st)))%Qc.
Proof.
  intros. destruct (seq_nodup_in V V (le_n _)) as [ND IN].
  rewrite (qsum_single _ _ V ND IN).
  - unfold cb, cnb, astep. rewrite Nat.eqb_refl. cbn [a_pre a_last a_w ends_blank].
    rewrite Nat.eqb_refl. unfold fr_at.
    destruct (list_nat_eqb (a_pre st) p); destruct (ends_blank V st); cbn [andb negb]; ring.
  - intros c _ Hc. unfold cb, astep. apply Nat.eqb_neq in Hc. rewrite Hc.
    destruct (opt_is (a_last st) c); cbn [a_pre a_last ends_blank]; rewrite Hc, andb_false_r; auto.
Qed.

Lemma ends_blank_false : forall V st, ends_blank V st = false ->
  exists c, a_last st = Some c /\ c <> V.
Proof.
  unfold ends_blank. intros V st H. destruct (a_last st); [|discriminate].
  exists n. split; auto. apply Nat.eqb_neq; auto.
Qed.

Lemma last_opt_nil_iff : forall p, last_opt p = None <-> p = [].
Proof. destruct p; cbn; split; congruence. Qed.

Lemma last_opt_some : forall p v, last_opt p = Some v -> p = removelast p ++ [v].
Proof.
  intros p v H. destruct p; [discriminate|]. unfold last_opt in H.
  assert (E : last (n :: p) 0 = v) by congruence. rewrite <- E.
  apply snoc_decomp. discriminate.
Qed.

Definition opt_eqb (o : option nat) (v : nat) : bool := opt_is o v.

(* one more frame, non-blank-ending part *)
(* a step by a label that is not the last one of [p] leaves no mass on "[p], ending non-blank" *)
Lemma cnb_astep_other : forall V frames E st c p, st_ok V st -> last_opt p <> Some c ->
  cnb V (astep V frames E st c) p = 0%Qc.
Proof.
  intros V frames E st c p OK NL. unfold cnb, astep.
  destruct (Nat.eqb c V) eqn:EV; cbn [a_pre a_last a_w ends_blank].
  - rewrite EV. cbn [negb]. rewrite andb_false_r. auto.
  - destruct (opt_is (a_last st) c) eqn:OL; cbn [a_pre a_last a_w ends_blank]; rewrite EV; cbn [negb]; rewrite andb_true_r.
    + apply opt_is_true in OL. unfold st_ok in OK. rewrite OL in OK. destruct OK as [_ OK].
      apply Nat.eqb_neq in EV. specialize (OK EV).
      destruct (list_nat_eqb (a_pre st) p) eqn:E1; auto.
      apply list_nat_eqb_true in E1. rewrite E1 in OK. contradiction.
    + destruct (list_nat_eqb (a_pre st ++ [c]) p) eqn:E1; auto.
      apply list_nat_eqb_true in E1. rewrite <- E1, last_opt_snoc in NL. congruence.
Qed.

Lemma step_cnb : forall V frames E st p, st_ok V st ->
  Forall (fun x => x < V) p ->
  qsum (map (fun c => cnb V (astep V frames E st c) p) (seq 0 (S V)))
  = match last_opt p with
    | None => 0%Qc
    | Some v =>
        (cnb V st p * nth v (fst (fr_at frames (a_t st))) 0
         + (cb V st (removelast p)
            + (if opt_is (last_opt (removelast p)) v then 0 else cnb V st (removelast p)))
           * E (a_t st) (removelast p) v)%Qc
    end.
Proof.
  intros V frames E st p OK PV.
  destruct (last_opt p) as [v|] eqn:LP.
  - pose proof (last_opt_some _ _ LP) as Pdec. set (p' := removelast p) in *.
    assert (Hv : v < V).
    { rewrite Pdec in PV. apply Forall_app in PV. destruct PV as [_ PV]. inversion PV; auto. }
    destruct (seq_nodup_in V v (Nat.lt_le_incl _ _ Hv)) as [ND IN].
    rewrite (qsum_single _ _ v ND IN).
    + (* the term of label v *)
      unfold cnb at 1, astep. assert (EV : Nat.eqb v V = false) by (apply Nat.eqb_neq; lia).
      rewrite EV. destruct (opt_is (a_last st) v) eqn:OL; cbn [a_pre a_last a_w ends_blank]; rewrite ?EV; cbn [negb].
      * (* repeat of the last label *)
        apply opt_is_true in OL. unfold st_ok in OK. rewrite OL in OK. destruct OK as [_ OK].
        assert (LPre : last_opt (a_pre st) = Some v) by (apply OK; lia).
        rewrite andb_true_r. unfold cnb, cb, ends_blank. rewrite OL, EV. cbn [negb]. rewrite !andb_true_r, !andb_false_r.
        unfold fr_at.
        destruct (list_nat_eqb (a_pre st) p) eqn:E1.
        -- (* pre = p, so pre <> p' *)
           apply list_nat_eqb_true in E1.
           assert (E2 : list_nat_eqb (a_pre st) p' = false).
           { apply list_nat_eqb_false. intro C. rewrite C in E1. rewrite <- E1 in Pdec.
             apply (f_equal (@length nat)) in Pdec. rewrite app_length in Pdec. cbn in Pdec. lia. }
           rewrite E2. destruct (opt_is (last_opt p') v); ring.
        -- destruct (list_nat_eqb (a_pre st) p') eqn:E2.
           ++ apply list_nat_eqb_true in E2. rewrite <- E2, LPre. cbn [opt_is]. rewrite Nat.eqb_refl. ring.
           ++ destruct (opt_is (last_opt p') v); ring.
      * (* extension by v *)
        rewrite andb_true_r.
        assert (NL : a_last st <> Some v) by (intro C; apply opt_is_true in C; congruence).
        unfold cnb, cb.
        destruct (list_nat_eqb (a_pre st ++ [v]) p) eqn:E1.
        -- apply list_nat_eqb_true in E1. rewrite Pdec in E1. apply snoc_inj in E1. destruct E1 as [E1 _].
           assert (E0 : list_nat_eqb (a_pre st) p = false).
           { apply list_nat_eqb_false. intro C. rewrite C in E1. rewrite <- E1 in Pdec.
             apply (f_equal (@length nat)) in Pdec. rewrite app_length in Pdec. cbn in Pdec. lia. }
           rewrite E0. cbn [andb]. rewrite E1, list_nat_eqb_refl. cbn [andb].
           destruct (ends_blank V st) eqn:EB; cbn [negb].
           ++ destruct (opt_is (last_opt p') v); ring.
           ++ apply ends_blank_false in EB. destruct EB as (c & Lc & NcV).
              unfold st_ok in OK. rewrite Lc in OK. destruct OK as [_ OK]. rewrite E1 in OK.
              rewrite (OK NcV). cbn [opt_is].
              assert (Nat.eqb c v = false) by (apply Nat.eqb_neq; congruence).
              rewrite H. ring.
        -- assert (E2 : list_nat_eqb (a_pre st) p' = false).
           { apply list_nat_eqb_false. intro C. apply list_nat_eqb_false in E1. apply E1. rewrite C. auto. }
           rewrite E2. cbn [andb].
           destruct (list_nat_eqb (a_pre st) p) eqn:E0; cbn [andb].
           ++ (* pre = p but not ending non-blank on v: ends_blank must hold, or last <> v *)
              destruct (ends_blank V st) eqn:EB; cbn [negb].
              ** destruct (opt_is (last_opt p') v); ring.
              ** apply ends_blank_false in EB. destruct EB as (c & Lc & NcV).
                 unfold st_ok in OK. rewrite Lc in OK. destruct OK as [_ OK].
                 apply list_nat_eqb_true in E0. rewrite E0, LP in OK. specialize (OK NcV).
                 exfalso. apply NL. congruence.
           ++ destruct (opt_is (last_opt p') v); ring.
    + intros c _ Ncv. apply cnb_astep_other; [assumption|congruence].
  - (* p = [] : nothing ends non-blank with an empty prefix *)
    apply qsum_map_zero. intros c _. apply cnb_astep_other; [assumption|congruence].
Qed.

(* ---- the CTC recursion on alignment sums ---------------------------------------------- *)

Lemma sum_next : forall (f : astate -> Qc) V frames E n,
  qsum (map (fun a => f (arun V frames E a)) (aligns V (S n)))
  = qsum (map (fun a => qsum (map (fun c => f (astep V frames E (arun V frames E a) c))
                                  (seq 0 (S V)))) (aligns V n)).
Proof.
  intros. cbn [aligns]. rewrite qsum_flat_map. apply qsum_map_ext. intros a _.
  rewrite map_map. apply qsum_map_ext. intros c _. rewrite arun_snoc. auto.
Qed.

Lemma A_b_step : forall V frames E n p,
  A_b V frames E (S n) p
  = ((A_nb V frames E n p + A_b V frames E n p) * snd (fr_at frames n))%Qc.
Proof.
  intros. rewrite !A_b_eq, A_nb_eq.
  rewrite (sum_next (fun st => cb V st p)).
  rewrite <- qsum_map_plus, <- qsum_map_scale. apply qsum_map_ext. intros a Ha.
  rewrite step_cb, arun_t, (aligns_length _ _ _ Ha). reflexivity.
Qed.

Lemma A_nb_step : forall V frames E n p, Forall (fun x => x < V) p ->
  A_nb V frames E (S n) p
  = match last_opt p with
    | None => 0%Qc
    | Some v =>
        (A_nb V frames E n p * nth v (fst (fr_at frames n)) 0
         + (A_b V frames E n (removelast p)
            + (if opt_is (last_opt (removelast p)) v then 0 else A_nb V frames E n (removelast p)))
           * E n (removelast p) v)%Qc
    end.
Proof.
  intros V frames E n p PV. rewrite A_nb_eq.
  rewrite (sum_next (fun st => cnb V st p)).
  destruct (last_opt p) as [v|] eqn:LP.
  - rewrite !A_nb_eq, A_b_eq.
    destruct (opt_is (last_opt (removelast p)) v) eqn:OI.
    + rewrite <- qsum_map_scale with (f := fun a => cnb V (arun V frames E a) p).
      assert (forall X : Qc, (X + 0 = X)%Qc) as Z by (intros; ring). rewrite Z.
      rewrite <- qsum_map_scale with (f := fun a => cb V (arun V frames E a) (removelast p)).
      rewrite <- qsum_map_plus. apply qsum_map_ext. intros a Ha.
      rewrite step_cnb; auto.
      2:{ eapply arun_ok, aligns_labels; eauto. }
      rewrite LP, OI, arun_t, (aligns_length _ _ _ Ha). ring.
    + rewrite <- qsum_map_scale with (f := fun a => cnb V (arun V frames E a) p).
      rewrite <- qsum_map_plus with (f := fun a => cb V (arun V frames E a) (removelast p)).
      rewrite <- qsum_map_scale with (f := fun a => (cb V (arun V frames E a) (removelast p) + cnb V (arun V frames E a) (removelast p))%Qc).
      rewrite <- qsum_map_plus. apply qsum_map_ext. intros a Ha.
      rewrite step_cnb; auto.
      2:{ eapply arun_ok, aligns_labels; eauto. }
      rewrite LP, OI, arun_t, (aligns_length _ _ _ Ha). ring.
  - apply qsum_map_zero. intros a Ha. rewrite step_cnb; auto.
    + rewrite LP. auto.
    + eapply arun_ok, aligns_labels; eauto.
Qed.

(* a prefix longer than the number of frames has no mass *)
Lemma A_long : forall V frames E n p, n < length p ->
  A_nb V frames E n p = 0%Qc /\ A_b V frames E n p = 0%Qc.
Proof.
  intros V frames E n p L. rewrite A_nb_eq, A_b_eq.
  split; apply qsum_map_zero; intros a Ha; unfold cnb, cb;
    (destruct (list_nat_eqb (a_pre (arun V frames E a)) p) eqn:E1; auto;
     apply list_nat_eqb_true in E1;
     pose proof (arun_pre_len V frames E a) as Q; rewrite E1, (aligns_length _ _ _ Ha) in Q; lia).
Qed.

Definition nonneg_frames (frames : list sframe) (E : score) : Prop :=
  (forall t v, (0 <= nth v (fst (fr_at frames t)) 0)%Qc) /\
  (forall t, (0 <= snd (fr_at frames t))%Qc) /\
  (forall t p v, (0 <= E t p v)%Qc).

Lemma astep_w_nonneg : forall V frames E st c, nonneg_frames frames E ->
  (0 <= a_w st)%Qc -> (0 <= a_w (astep V frames E st c))%Qc.
Proof.
  intros V frames E st c (N1 & N2 & N3) H. unfold astep.
  destruct (Nat.eqb c V); [|destruct (opt_is _ _)]; cbn [a_w]; apply qmul_nonneg; auto.
  - apply N2.
  - apply N1.
Qed.

Lemma arun_w_nonneg : forall V frames E a, nonneg_frames frames E ->
  (0 <= a_w (arun V frames E a))%Qc.
Proof.
  intros V frames E a N. induction a using rev_ind; [apply qle_01|].
  rewrite arun_snoc. apply astep_w_nonneg; auto.
Qed.

Lemma A_nonneg : forall V frames E n p, nonneg_frames frames E ->
  (0 <= A_nb V frames E n p)%Qc /\ (0 <= A_b V frames E n p)%Qc.
Proof.
  intros V frames E n p N. rewrite A_nb_eq, A_b_eq.
  split; apply qsum_nonneg; intros x Hx; apply in_map_iff in Hx; destruct Hx as (a & <- & _);
    unfold cnb, cb; match goal with |- (0 <= if ?b then _ else _)%Qc => destruct b end;
    auto using arun_w_nonneg, qle_00.
Qed.

(* total mass = non-blank part + blank part *)
Lemma ctc_mass_split : forall V frames E p,
  ctc_mass V frames E p
  = (A_nb V frames E (length frames) p + A_b V frames E (length frames) p)%Qc.
Proof.
  intros. unfold ctc_mass, mass_in, runs. rewrite map_map, A_nb_eq, A_b_eq, <- qsum_map_plus.
  apply qsum_map_ext. intros a _. unfold cnb, cb.
  destruct (list_nat_eqb _ p); destruct (ends_blank V _); cbn [andb negb]; ring.
Qed.

Lemma A_0 : forall V frames E p,
  A_nb V frames E 0 p = 0%Qc /\ A_b V frames E 0 p = (if list_nat_eqb [] p then 1 else 0)%Qc.
Proof.
  intros. rewrite A_nb_eq, A_b_eq. cbn [aligns map]. unfold cnb, cb, arun. cbn.
  destruct (list_nat_eqb [] p); cbn; split; ring.
Qed.

(* ---- finite maps -------------------------------------------------------------------- *)

Lemma inb_true : forall B p, inb B p = true <-> exists m, In (p, m) B.
Proof.
  intros. unfold inb. rewrite existsb_exists. split.
  - intros ((q, m) & I & Q). apply list_nat_eqb_true in Q. cbn in Q. subst. eauto.
  - intros (m & I). exists (p, m). split; auto. apply list_nat_eqb_refl.
Qed.

Lemma lookup_in : forall B p m, NoDup (map fst B) -> In (p, m) B -> lookup B p = m.
Proof.
  unfold lookup. induction B as [|[q mq] B]; intros p m ND I; [destruct I|].
  cbn [find fst]. cbn [map fst] in ND. inversion ND; subst.
  destruct (list_nat_eqb q p) eqn:Q.
  - apply list_nat_eqb_true in Q. subst q. destruct I as [I|I]; [inversion I; reflexivity|].
    exfalso. apply H1. apply in_map_iff. exists (p, m). auto.
  - destruct I as [I|I]; [inversion I; subst; rewrite list_nat_eqb_refl in Q; discriminate|].
    apply IHB; auto.
Qed.

Lemma lookup_notin : forall B p, inb B p = false -> lookup B p = (0%Qc, 0%Qc).
Proof.
  unfold lookup, inb. induction B as [|[q mq] B]; intros p H; auto.
  cbn [existsb find fst] in *. apply orb_false_iff in H. destruct H as [H1 H2].
  rewrite H1. auto.
Qed.

Lemma nodup_pre_in : forall l x, In x (nodup_pre l) <-> In x l.
Proof.
  induction l; intros x; cbn [nodup_pre]; [tauto|].
  destruct (existsb (list_nat_eqb a) l) eqn:Ex.
  - rewrite IHl. split; auto with datatypes. intros [<-|H]; auto.
    apply existsb_exists in Ex. destruct Ex as (y & Hy & Q). apply list_nat_eqb_true in Q. subst; auto.
  - cbn [In]. rewrite IHl. tauto.
Qed.

Lemma nodup_pre_nodup : forall l, NoDup (nodup_pre l).
Proof.
  induction l; cbn [nodup_pre]; [constructor|].
  destruct (existsb (list_nat_eqb a) l) eqn:Ex; auto.
  constructor; auto. rewrite nodup_pre_in. intro I.
  assert (existsb (list_nat_eqb a) l = true); [|congruence].
  apply existsb_exists. exists a. split; auto. apply list_nat_eqb_refl.
Qed.

Lemma cand_prefixes_in : forall V B q,
  In q (cand_prefixes V B) <->
  (exists m, In (q, m) B) \/ (exists p m v, In (p, m) B /\ v < V /\ q = p ++ [v]).
Proof.
  intros. unfold cand_prefixes. rewrite nodup_pre_in, in_app_iff, in_map_iff, in_flat_map. split.
  - intros [((p, m) & <- & I)|((p, m) & I & Q)]; [left; eauto|right].
    apply in_map_iff in Q. destruct Q as (v & <- & Hv). apply in_seq in Hv.
    exists p, m, v. cbn. repeat split; auto; lia.
  - intros [(m & I)|(p & m & v & I & Hv & ->)].
    + left. exists (q, m). auto.
    + right. exists (p, m). split; auto. apply in_map_iff. exists v. split; auto. apply in_seq. lia.
Qed.

(* ---- never more than the true mass ---------------------------------------------------- *)

Definition bounded V frames E (n : nat) (B : list entry) : Prop :=
  NoDup (map fst B) /\
  forall p nb b, In (p, (nb, b)) B ->
    Forall (fun x => x < V) p /\
    (0 <= nb)%Qc /\ (nb <= A_nb V frames E n p)%Qc /\
    (0 <= b)%Qc /\ (b <= A_b V frames E n p)%Qc.

Lemma lookup_bounded : forall V frames E n B p, nonneg_frames frames E -> bounded V frames E n B ->
  let '(nb, b) := lookup B p in
  (0 <= nb)%Qc /\ (nb <= A_nb V frames E n p)%Qc /\ (0 <= b)%Qc /\ (b <= A_b V frames E n p)%Qc.
Proof.
  intros V frames E n B p N [ND Bd].
  destruct (inb B p) eqn:I.
  - apply inb_true in I. destruct I as ([nb b] & I). rewrite (lookup_in _ _ _ ND I).
    destruct (Bd _ _ _ I) as (_ & H). exact H.
  - rewrite lookup_notin; auto. destruct (A_nonneg V frames E n p N). auto using qle_00.
Qed.

Lemma new_entry_fst : forall V frames E t B q, fst (new_entry V frames E t B q) = q.
Proof. intros. unfold new_entry. destruct (lookup B q). reflexivity. Qed.

Lemma new_entry_bounded : forall V frames E n B q, nonneg_frames frames E ->
  bounded V frames E n B -> Forall (fun x => x < V) q ->
  let e := new_entry V frames E n B q in
  (0 <= fst (snd e))%Qc /\ (fst (snd e) <= A_nb V frames E (S n) q)%Qc /\
  (0 <= snd (snd e))%Qc /\ (snd (snd e) <= A_b V frames E (S n) q)%Qc.
Proof.
  intros V frames E n B q N Bd QV.
  pose proof (lookup_bounded V frames E n B q N Bd) as Lq.
  destruct N as (N1 & N2 & N3).
  unfold new_entry. destruct (lookup B q) as [nq bq]. destruct Lq as (Q1 & Q2 & Q3 & Q4).
  cbn [fst snd]. rewrite A_b_step, A_nb_step by auto. fold (fr_at frames n).
  assert (B0 : (0 <= (nq + bq) * snd (fr_at frames n))%Qc) by (apply qmul_nonneg; auto using qadd_nonneg).
  assert (B1 : ((nq + bq) * snd (fr_at frames n)
               <= (A_nb V frames E n q + A_b V frames E n q) * snd (fr_at frames n))%Qc).
  { apply qmul_le; auto using qadd_nonneg, qadd_le, qle_refl. }
  destruct (last_opt q) as [v|] eqn:LQ.
  - set (p := removelast q).
    pose proof (lookup_bounded V frames E n B p (conj N1 (conj N2 N3)) Bd) as Lp.
    destruct (A_nonneg V frames E n p (conj N1 (conj N2 N3))) as [AP1 AP2].
    assert (S0 : (0 <= nq * nth v (fst (fr_at frames n)) 0)%Qc) by (apply qmul_nonneg; auto).
    assert (S1 : (nq * nth v (fst (fr_at frames n)) 0 <= A_nb V frames E n q * nth v (fst (fr_at frames n)) 0)%Qc).
    { apply qmul_le; auto using qle_refl. }
    assert (X : let x := (if inb B p
                then let '(np, bp) := lookup B p in
                     ((if opt_is (last_opt p) v then 0 else np) + bp) * E n p v
                else 0)%Qc in
               (0 <= x)%Qc /\
               (x <= (A_b V frames E n p + (if opt_is (last_opt p) v then 0 else A_nb V frames E n p)) * E n p v)%Qc).
    { cbv zeta. destruct (inb B p).
      - destruct (lookup B p) as [np bp]. destruct Lp as (P1 & P2 & P3 & P4).
        destruct (qif0_le (opt_is (last_opt p) v) np (A_nb V frames E n p) P1 P2) as [Y0 Y1].
        split; [apply qmul_nonneg; auto using qadd_nonneg|].
        apply qmul_le; auto using qadd_nonneg, qle_refl.
        rewrite (Qcplus_comm (A_b V frames E n p)). apply qadd_le; auto.
      - split; [apply qle_00|]. apply qmul_nonneg; auto.
        destruct (opt_is (last_opt p) v); apply qadd_nonneg; auto using qle_00. }
    cbv zeta in X. destruct X as [X0 X1].
    repeat split; auto using qadd_nonneg, qadd_le.
  - replace (0 + 0)%Qc with 0%Qc by ring. repeat split; auto using qle_00.
Qed.

Lemma bounded_init : forall V frames E, bounded V frames E 0 pbs_init.
Proof.
  intros. split; [repeat constructor; auto|].
  intros p nb b [H|[]]. inversion H; subst. destruct (A_0 V frames E []) as [-> ->].
  rewrite list_nat_eqb_refl. repeat split; auto using qle_00, qle_01, qle_refl.
Qed.

Lemma cands_prefix_lt : forall V frames E n B q, bounded V frames E n B ->
  In q (cand_prefixes V B) -> Forall (fun x => x < V) q.
Proof.
  intros V frames E n B q [_ Bd] I. apply cand_prefixes_in in I.
  destruct I as [([nb b] & I)|(p & [nb b] & v & I & Hv & ->)].
  - apply (Bd _ _ _ I).
  - apply Forall_app; split; [apply (Bd _ _ _ I)|constructor; auto].
Qed.

Lemma bounded_step : forall V K frames E n B B', nonneg_frames frames E ->
  bounded V frames E n B -> pbs_keeps K (pbs_cands V frames E n B) B' ->
  bounded V frames E (S n) B'.
Proof.
  intros V K frames E n B B' N Bd (ND & Inc & _). split; auto.
  intros p nb b I. apply Inc in I. unfold pbs_cands in I. apply in_map_iff in I.
  destruct I as (q & Eq & Iq).
  pose proof (cands_prefix_lt _ _ _ _ _ _ Bd Iq) as QV.
  pose proof (new_entry_bounded V frames E n B q N Bd QV) as H.
  pose proof (new_entry_fst V frames E n B q) as F.
  rewrite Eq in H, F. cbn [fst snd] in H, F. subst q. tauto.
Qed.

Lemma reach_bounded : forall V K frames E n B, nonneg_frames frames E ->
  pbs_reach V K frames E n B -> bounded V frames E n B.
Proof.
  intros V K frames E n B N R. induction R; [apply bounded_init|].
  eapply bounded_step; eauto.
Qed.

(* the property's "never more than that otherwise" *)
Lemma pbs_le_exact : forall V K frames E B p nb b, nonneg_frames frames E ->
  pbs_reach V K frames E (length frames) B -> In (p, (nb, b)) B ->
  (0 <= nb + b)%Qc /\ (nb + b <= ctc_mass V frames E p)%Qc.
Proof.
  intros V K frames E B p nb b N R I. apply reach_bounded in R; auto.
  destruct R as [_ Bd]. destruct (Bd _ _ _ I) as (_ & H1 & H2 & H3 & H4).
  rewrite ctc_mass_split. split; auto using qadd_nonneg, qadd_le.
Qed.

(* ---- exact when nothing is pruned ------------------------------------------------------- *)

Definition exactB V frames E (n : nat) (B : list entry) : Prop :=
  NoDup (map fst B) /\
  forall e, In e B <->
    exists p, Forall (fun x => x < V) p /\ length p <= n /\
              e = (p, (A_nb V frames E n p, A_b V frames E n p)).

Lemma exact_lookup : forall V frames E n B p, exactB V frames E n B ->
  Forall (fun x => x < V) p -> lookup B p = (A_nb V frames E n p, A_b V frames E n p).
Proof.
  intros V frames E n B p [ND Ex] PV. destruct (le_lt_dec (length p) n) as [L|L].
  - apply lookup_in; auto. apply Ex. eauto.
  - destruct (A_long V frames E n p L) as [-> ->]. apply lookup_notin.
    destruct (inb B p) eqn:I; auto. apply inb_true in I. destruct I as (m & I).
    apply Ex in I. destruct I as (p' & _ & L' & Q). inversion Q; subst. lia.
Qed.

Lemma exact_inb : forall V frames E n B p, exactB V frames E n B ->
  Forall (fun x => x < V) p -> length p <= n -> inb B p = true.
Proof. intros V frames E n B p [ND Ex] PV L. apply inb_true. eexists. apply Ex. eauto. Qed.

Lemma removelast_forall : forall {A} (P : A -> Prop) l, Forall P l -> Forall P (removelast l).
Proof.
  intros A P l H. destruct l; [constructor|].
  rewrite (snoc_decomp (a :: l) a) in H by discriminate. apply Forall_app in H. tauto.
Qed.

Lemma removelast_length : forall {A} (l : list A), length (removelast l) = length l - 1.
Proof.
  intros. destruct l; auto. rewrite (snoc_decomp (a :: l) a) at 2 by discriminate.
  rewrite app_length. cbn [length]. lia.
Qed.

Lemma exact_new_entry : forall V frames E n B q, exactB V frames E n B ->
  Forall (fun x => x < V) q -> length q <= S n ->
  new_entry V frames E n B q = (q, (A_nb V frames E (S n) q, A_b V frames E (S n) q)).
Proof.
  intros V frames E n B q Ex QV L. unfold new_entry.
  rewrite (exact_lookup _ _ _ _ _ _ Ex QV). rewrite A_b_step, A_nb_step by auto.
  fold (fr_at frames n). destruct (last_opt q) as [v|] eqn:LQ.
  - assert (PV : Forall (fun x => x < V) (removelast q)) by (apply removelast_forall; auto).
    rewrite (exact_inb _ _ _ _ _ _ Ex PV) by (rewrite removelast_length; lia).
    rewrite (exact_lookup _ _ _ _ _ _ Ex PV).
    f_equal; f_equal; try reflexivity. destruct (opt_is (last_opt (removelast q)) v); ring.
  - f_equal; f_equal; try reflexivity; ring.
Qed.

Lemma exact_cands : forall V frames E n B q, exactB V frames E n B ->
  In q (cand_prefixes V B) <-> Forall (fun x => x < V) q /\ length q <= S n.
Proof.
  intros V frames E n B q [ND Ex]. rewrite cand_prefixes_in. split.
  - intros [(m & I)|(p & m & v & I & Hv & ->)].
    + apply Ex in I. destruct I as (p & PV & L & Q). inversion Q; subst. auto.
    + apply Ex in I. destruct I as (p' & PV & L & Q). inversion Q; subst. split.
      * apply Forall_app; auto.
      * rewrite app_length. cbn. lia.
  - intros [QV L]. destruct (le_lt_dec (length q) n) as [L'|L'].
    + left. eexists. apply Ex. eauto.
    + right. assert (NE : q <> []) by (destruct q; cbn in L'; [lia|discriminate]).
      pose proof (snoc_decomp q 0 NE) as D.
      exists (removelast q), (A_nb V frames E n (removelast q), A_b V frames E n (removelast q)), (last q 0).
      rewrite D in QV. apply Forall_app in QV. destruct QV as [Q1 Q2]. inversion Q2; subst.
      repeat split; auto. apply Ex. exists (removelast q). repeat split; auto.
      rewrite removelast_length. lia.
Qed.

Lemma exact_init : forall V frames E, exactB V frames E 0 pbs_init.
Proof.
  intros. split; [repeat constructor; auto|]. intros e.
  destruct (A_0 V frames E []) as [Z1 Z2]. rewrite list_nat_eqb_refl in Z2. split.
  - intros [<-|[]]. exists []. rewrite Z1, Z2. repeat split; auto.
  - intros (p & _ & L & ->). destruct p; [|cbn in L; lia]. rewrite Z1, Z2. left. reflexivity.
Qed.

Lemma exact_step : forall V frames E n B B', exactB V frames E n B ->
  NoDup (map fst B') -> incl B' (pbs_cands V frames E n B) -> incl (pbs_cands V frames E n B) B' ->
  exactB V frames E (S n) B'.
Proof.
  intros V frames E n B B' Ex ND I1 I2. split; auto. intros e. split.
  - intros I. apply I1 in I. unfold pbs_cands in I. apply in_map_iff in I. destruct I as (q & <- & Iq).
    apply (exact_cands _ _ _ _ _ _ Ex) in Iq. destruct Iq as [QV L].
    exists q. repeat split; auto. apply exact_new_entry; auto.
  - intros (p & PV & L & ->). apply I2. unfold pbs_cands. apply in_map_iff. exists p. split.
    + apply exact_new_entry; auto.
    + apply (exact_cands _ _ _ _ _ _ Ex). auto.
Qed.

Lemma full_exact : forall V frames E n B, pbs_full V frames E n B -> exactB V frames E n B.
Proof. intros V frames E n B F. induction F; [apply exact_init|]. eapply exact_step; eauto. Qed.

(* the property's "exact total probability of all alignments collapsing to it whenever nothing
   had to be pruned": every blank-free prefix no longer than the input is in the beam with
   exactly its alignment mass, and the beam holds nothing else *)
Lemma pbs_exact_when_unpruned : forall V frames E B,
  pbs_full V frames E (length frames) B ->
  (forall p nb b, In (p, (nb, b)) B ->
     Forall (fun x => x < V) p /\ length p <= length frames /\
     (nb + b)%Qc = ctc_mass V frames E p) /\
  (forall p, Forall (fun x => x < V) p -> length p <= length frames ->
     exists nb b, In (p, (nb, b)) B /\ (nb + b)%Qc = ctc_mass V frames E p).
Proof.
  intros V frames E B F. apply full_exact in F. destruct F as [ND Ex]. split.
  - intros p nb b I. apply Ex in I. destruct I as (p' & PV & L & Q). inversion Q; subst.
    rewrite ctc_mass_split. auto.
  - intros p PV L. do 2 eexists. split; [apply Ex; eauto|]. rewrite ctc_mass_split. auto.
Qed.

(* the checker's way of summing is the specification's *)
Lemma mass_fast_eq : forall rs p, mass_fast rs p = mass_in rs p.
Proof.
  intros rs p. unfold mass_fast, mass_in.
  assert (G : forall acc, fold_left (fun acc st => if list_nat_eqb (a_pre st) p then (acc + a_w st)%Qc else acc) rs acc
                          = (acc + qsum (map (fun st => if list_nat_eqb (a_pre st) p then a_w st else 0%Qc) rs))%Qc).
  { induction rs as [|st rs]; intros acc; cbn [fold_left map]; rewrite ?qsum_cons, ?qsum_nil; [ring|].
    rewrite IHrs. destruct (list_nat_eqb (a_pre st) p); ring. }
  rewrite G. ring.
Qed.
