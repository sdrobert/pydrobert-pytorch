(* C05 - the masses carried by the vectorised model never exceed the alignment sums. *)
From Coq Require Import List Arith Bool QArith Qcanon Lia.
From PV Require Import C05.Model C05.Spec C05.ProofsNum C05.ProofsSpec C05.ProofsModel C05.ProofsSearch.
Import ListNotations.
Local Open Scope nat_scope.

(* the frame handed to the step function is frame n of the specification, and its per-slot
   extension scores are the specification's scores of the slots' prefixes *)
Definition frame_agrees (V : nat) (fr : frame) (bm : beam) (frames : list sframe) (E : score)
  (n : nat) : Prop :=
  f_nonext fr = fst (fr_at frames n) /\ f_blank fr = snd (fr_at frames n) /\
  forall k v, valid bm k -> v < V -> extp fr k v = E n (pref bm k) v.

Definition mbound (V : nat) (frames : list sframe) (E : score) (bm : beam) : Prop :=
  forall k, valid bm k ->
    (0 <= nbq bm k)%Qc /\ (nbq bm k <= A_nb V frames E (b_t bm) (pref bm k))%Qc /\
    (0 <= bq bm k)%Qc /\ (bq bm k <= A_b V frames E (b_t bm) (pref bm k))%Qc.

Lemma last_opt_last : forall p, p <> [] -> last_opt p = Some (last p 0).
Proof. destruct p; intros; [congruence|reflexivity]. Qed.

(* extending valid slot k by v, in terms of the map only *)
Lemma ext_by_view : forall V fr bm (L : list sframe) E k v, inv V bm ->
  frame_agrees V fr bm L E (b_t bm) -> valid bm k -> v < V ->
  nb_ext V fr bm k v
  = (((if opt_is (last_opt (pref bm k)) v then 0 else nbq bm k) + bq bm k)
     * E (b_t bm) (pref bm k) v)%Qc.
Proof.
  intros V fr bm L E k v I (F1 & F2 & F3) Vk Hv.
  unfold nb_ext. rewrite (F3 k v Vk Hv).
  destruct (Nat.eq_dec (lens bm k) 0) as [L0|L0].
  - rewrite (inv_nb0 V bm I k Vk L0).
    destruct (v =? lastc V bm k); destruct (opt_is (last_opt (pref bm k)) v); ring.
  - rewrite (last_opt_last _ (pref_nonnil bm k (inv_wf V bm I) (proj1 Vk) L0)). cbn [opt_is].
    rewrite (inv_last V bm I k Vk) by lia. rewrite Nat.eqb_sym.
    destruct (last (pref bm k) 0 =? v); ring.
Qed.

Section MassStep.
  Variables (V width : nat) (fr : frame) (bm : beam) (choice : list nat).
  Variables (frames : list sframe) (E : score).
  Hypothesis Vpos : 1 <= V.
  Hypothesis Wpos : 1 <= width.
  Hypothesis I : inv V bm.
  Hypothesis Clen : length choice = Kout V bm width.
  Hypothesis Crange : forall i, In i choice -> i < ncand V bm.
  Hypothesis Cnodup : NoDup choice.
  Hypothesis NN : nonneg_frames frames E.
  Hypothesis FA : frame_agrees V fr bm frames E (b_t bm).
  Hypothesis MB : mbound V frames E bm.

  Let W := inv_wf V bm I.
  Let n := b_t bm.
  Let nx := fst (advance V fr bm width choice).

  (* extending the valid slot k by token v *)
  Lemma ext_term_le : forall k v, valid bm k -> v < V ->
    (0 <= nb_ext V fr bm k v)%Qc /\
    (nb_ext V fr bm k v
     <= (A_b V frames E n (pref bm k)
         + (if opt_is (last_opt (pref bm k)) v then 0 else A_nb V frames E n (pref bm k)))
        * E n (pref bm k) v)%Qc.
  Proof.
    intros k v Vk Hv. destruct NN as (N1 & N2 & N3).
    destruct (MB k Vk) as (M1 & M2 & M3 & M4). fold n in M2, M4.
    destruct (A_nonneg V frames E n (pref bm k) NN) as [AN AB].
    rewrite (ext_by_view V fr bm frames E k v I FA Vk Hv). fold n.
    destruct (qif0_le (opt_is (last_opt (pref bm k)) v) (nbq bm k) (A_nb V frames E n (pref bm k)) M1 M2) as [X0 X1].
    split.
    - apply qmul_nonneg; auto using qadd_nonneg.
    - apply qmul_le; auto using qadd_nonneg, qle_refl.
      rewrite (Qcplus_comm (A_b V frames E n (pref bm k))). apply qadd_le; auto.
  Qed.

  (* an invalid slot contributes no mass *)
  Lemma invalid_ext_zero : forall k v, invalid bm k = true -> nb_ext V fr bm k v = 0%Qc.
  Proof.
    intros k v H. unfold nb_ext, nbq, bq. rewrite H. destruct (v =? lastc V bm k); ring.
  Qed.

  (* a slot that [ext_is_exact] relates to k' holds k' minus its last token, and the token to
     match is that last token *)
  Lemma exact_pre : forall k k', k < Kp bm -> valid bm k' -> ext_is_exact bm k k' = true ->
    pref bm k = removelast (pref bm k') /\ to_match V bm k k' = last (pref bm k') 0 /\
    pref bm k' <> [].
  Proof using I.
    clear - I W. (* [lia] would bring the section's other arithmetic hypotheses into the proof *)
    intros k k' Lk Vk' H. unfold ext_is_exact in H. apply andb_true_iff in H. destruct H as [H1 H2].
    apply Nat.eqb_eq in H1. destruct Vk' as [Lk' IVk'].
    apply (inv_snd V bm I) in H2; auto. apply is_pre_exists in H2. destruct H2 as (s & Hs).
    assert (LS : length s = 1).
    { apply (f_equal (@length nat)) in Hs. rewrite app_length, !pref_length in Hs by auto. lia. }
    destruct s as [|x [|y s]]; cbn in LS; try lia.
    rewrite Hs, removelast_snoc, last_snoc. split; auto. split; [|destruct (pref bm k); discriminate].
    pose proof (wf_len bm W k') as LT.
    unfold to_match. replace (b_t bm =? 0) with false by (symmetry; apply Nat.eqb_neq; lia).
    replace (Nat.min (lens bm k) (b_t bm - 1)) with (lens bm k) by lia.
    rewrite <- pref_nth by lia. rewrite Hs, <- (pref_length bm k) by auto.
    rewrite app_nth2, Nat.sub_diag by lia. cbn [nth].
    assert (x < V).
    { pose proof (inv_lt V bm I k' (conj Lk' IVk')) as F. rewrite Hs in F. apply Forall_app in F.
      destruct F as [_ F]. inversion F; auto. }
    unfold clampV. lia.
  Qed.

  (* of the terms of [merged], only that of the valid slot holding k' minus its last token can differ from 0 *)
  Lemma merged_cases : forall k', valid bm k' -> 0 < lens bm k' ->
    let p := pref bm k' in let v := last p 0 in
    v < V /\
    ((exists k0, valid bm k0 /\ pref bm k0 = removelast p /\ merged V fr bm k' = nb_ext V fr bm k0 v)
     \/ (forall k, valid bm k -> pref bm k <> removelast p) /\ merged V fr bm k' = 0%Qc).
  Proof using I.
    clear - I W n.
    intros k' Vk' L p v.
    assert (NE : p <> []) by (apply pref_nonnil; auto; [apply Vk'|lia]).
    pose proof (inv_lt V bm I k' Vk') as PV. fold p in PV.
    pose proof (snoc_decomp p 0 NE) as D. fold v in D.
    split; [rewrite D in PV; apply Forall_app in PV; destruct PV as [_ F]; inversion F; auto|].
    assert (LP : length p = lens bm k') by (apply pref_length; auto; apply Vk').
    assert (T : forall k, k < Kp bm -> ~ (valid bm k /\ pref bm k = removelast p) ->
              (if ext_is_exact bm k k' then nb_ext V fr bm k (to_match V bm k k') else 0%Qc) = 0%Qc).
    { intros k Lk N. destruct (ext_is_exact bm k k') eqn:EX; [|reflexivity].
      destruct (invalid bm k) eqn:IV; [apply invalid_ext_zero; auto|].
      exfalso. apply N. split; [split; auto|]. apply (exact_pre k k' Lk Vk' EX). }
    destruct (Exists_dec (fun k => invalid bm k = false /\ pref bm k = removelast p) (seq 0 (Kp bm))) as [EX|NX].
    { intro k. destruct (bool_dec (invalid bm k) false), (list_eq_dec Nat.eq_dec (pref bm k) (removelast p)); tauto. }
    - left. apply Exists_exists in EX. destruct EX as (k0 & Hk0 & IV0 & Pk0). apply in_seq in Hk0.
      assert (Vk0 : valid bm k0) by (split; [lia|exact IV0]).
      exists k0. split; [exact Vk0|]. split; [exact Pk0|].
      assert (EX0 : ext_is_exact bm k0 k' = true).
      { unfold ext_is_exact. apply andb_true_iff. split.
        - apply Nat.eqb_eq. rewrite <- (pref_length bm k0), Pk0, removelast_length, LP by (auto; apply Vk0). lia.
        - apply (inv_cmp V bm I); auto. rewrite Pk0. fold p. rewrite D at 2. apply is_pre_app. }
      unfold merged. rewrite (qsum_single _ _ k0).
      + rewrite EX0. destruct (exact_pre k0 k' (proj1 Vk0) Vk' EX0) as (_ & TM & _).
        fold p in TM. fold v in TM. rewrite TM. reflexivity.
      + apply seq_NoDup.
      + apply in_seq. lia.
      + intros k Hk Nk. apply in_seq in Hk. apply T; [lia|]. intros [Vk Pk]. apply Nk.
        apply (inv_dist V bm I); auto. congruence.
    - assert (NONE : forall k, valid bm k -> pref bm k <> removelast p).
      { intros k Vk Pk. apply NX. apply Exists_exists. exists k.
        split; [apply in_seq; destruct Vk; lia|split; [apply Vk|exact Pk]]. }
      right. split; [exact NONE|]. unfold merged. apply qsum_map_zero. intros k Hk. apply in_seq in Hk.
      apply T; [lia|]. intros [Vk Pk]. exact (NONE k Vk Pk).
  Qed.

  Lemma merged_le : forall k', valid bm k' -> 0 < lens bm k' ->
    let p := pref bm k' in let v := last p 0 in
    (0 <= merged V fr bm k')%Qc /\
    (merged V fr bm k'
     <= (A_b V frames E n (removelast p)
         + (if opt_is (last_opt (removelast p)) v then 0 else A_nb V frames E n (removelast p)))
        * E n (removelast p) v)%Qc.
  Proof.
    intros k' Vk' L. cbv zeta.
    destruct (merged_cases k' Vk' L) as [Hv [(k0 & Vk0 & Pk0 & ->)|[_ ->]]].
    - rewrite <- Pk0. apply ext_term_le; auto.
    - destruct NN as (N1 & N2 & N3). destruct (A_nonneg V frames E n (removelast (pref bm k')) NN) as [AN AB].
      split; [apply qle_00|]. apply qmul_nonneg; auto.
      destruct (opt_is _ _); auto using qadd_nonneg, qle_00.
  Qed.

  Notation chj := (ch choice).

  Lemma mass_step : mbound V frames E nx.
  Proof.
    intros j Vj. assert (Tn : b_t nx = S n) by reflexivity. rewrite Tn.
    destruct (nx_slot V width fr bm choice Vpos Wpos I Clen Crange j Vj) as [VS SL]. fold nx in SL.
    set (src := c_src V bm (chj j)) in *. set (p := pref bm src) in *.
    pose proof (inv_lt V bm I src VS) as PV. fold p in PV. pose proof VS as [VS1 _].
    destruct NN as (N1 & N2 & N3). destruct FA as (F1 & F2 & F3).
    destruct (MB src VS) as (M1 & M2 & M3 & M4). fold n in M2, M4. fold p in M2, M4.
    destruct (A_nonneg V frames E n p NN) as [AN AB].
    destruct SL as [(-> & -> & ->)|(v & Hv & HM & -> & -> & ->)].
    - (* the slot keeps its prefix *)
      rewrite A_b_step, A_nb_step by auto.
      assert (Bq : (0 <= b_nonext fr bm src)%Qc /\
                   (b_nonext fr bm src <= (A_nb V frames E n p + A_b V frames E n p) * snd (fr_at frames n))%Qc).
      { unfold b_nonext. rewrite F2. fold n. split.
        - apply qmul_nonneg; auto using qadd_nonneg.
        - apply qmul_le; auto using qadd_nonneg, qadd_le, qle_refl. }
      unfold nb_nonext1, nb_nonext0. destruct (Nat.eq_dec (lens bm src) 0) as [L0|L0].
      + (* the empty prefix carries no non-blank mass *)
        assert (LO : last_opt p = None) by (unfold p; rewrite pref_nil; auto). rewrite LO.
        rewrite (inv_nb0 V bm I src VS L0).
        unfold merged. rewrite qsum_map_zero.
        * replace (0 * nth (lastc V bm src) (f_nonext fr) 0 + 0)%Qc with 0%Qc by ring.
          split; [apply qle_00|]. split; [apply qle_00|]. exact Bq.
        * intros k _. unfold ext_is_exact. rewrite L0.
          replace (lens bm k + 1 =? 0) with false by (symmetry; apply Nat.eqb_neq; lia). reflexivity.
      + rewrite (last_opt_last _ (pref_nonnil bm src W VS1 L0 : p <> [])).
        destruct (merged_le src VS) as [G0 G1]; [lia|]. fold p in G1.
        rewrite (inv_last V bm I src VS) by lia. fold p.
        rewrite F1. fold n.
        split; [apply qadd_nonneg; auto; apply qmul_nonneg; auto|].
        split; [|exact Bq].
        apply qadd_le; auto. apply qmul_le; auto using qle_refl.
    - (* the slot extends its source by one token *)
      assert (PV' : Forall (fun x => x < V) (p ++ [v])) by (apply Forall_app; auto).
      rewrite A_nb_step by auto. rewrite last_opt_snoc, removelast_snoc.
      destruct (A_nonneg V frames E n (p ++ [v]) NN) as [AN' AB'].
      destruct (A_nonneg V frames E (S n) (p ++ [v]) NN) as [_ AB''].
      destruct (ext_term_le src v VS Hv) as [X0 X1]. fold p in X1.
      split; auto. split; [|split; [apply qle_00|exact AB'']].
      eapply qle_trans; [exact X1|].
      match goal with |- (?b <= ?a + ?b)%Qc => replace b with (0 + b)%Qc at 1 by ring end.
      apply qadd_le; auto using qle_refl. apply qmul_nonneg; auto.
  Qed.
End MassStep.

Lemma mbound_init : forall V frames E, mbound V frames E init_beam.
Proof.
  intros V frames E k [L _]. cbn in L. assert (k = 0) by lia. subst k.
  destruct (A_0 V frames E []) as [Z1 Z2]. rewrite list_nat_eqb_refl in Z2.
  change (b_t init_beam) with 0. change (pref init_beam 0) with (@nil nat). rewrite Z1, Z2.
  change (nbq init_beam 0) with 0%Qc. change (bq init_beam 0) with 1%Qc.
  repeat split; auto using qle_00, qle_01, qle_refl.
Qed.

(* ---- along the loop ---------------------------------------------------------------------------- *)

Lemma mk_frame_agrees : forall V fus lm (L : list sframe) t nonext blank bm,
  nth t L ([], 0%Qc) = (nonext, blank) -> b_t bm = t ->
  frame_agrees V (mk_frame fus lm nonext blank bm) bm L (fused_score fus lm L) (b_t bm).
Proof.
  intros V fus lm L t nonext blank bm HN HT. unfold frame_agrees, fr_at. rewrite HT, HN.
  cbn [fst snd mk_frame f_nonext f_blank]. repeat split; auto.
  intros k v [Lk _] Hv. unfold extp, mk_frame, fused_score. cbn [f_ext]. rewrite HN. cbn [fst snd].
  rewrite nth_map_seq by exact Lk. reflexivity.
Qed.

(* The loop over the frames an element really processes keeps whatever one admissible step keeps.  [P] may speak of
   the frames and the topk answers still to come (for "nothing pruned from here on"). *)
Lemma sloop_keeps : forall V width fus lm len (L : list sframe)
    (P : list sframe -> list (list nat) -> nat -> beam -> Prop),
  1 <= V -> 1 <= width ->
  (forall nonext blank rest choices bm,
     let fr := mk_frame fus lm nonext blank bm in
     b_t bm < len -> topk_ok V fr bm 0%Qc width (hd [] choices) = true -> inv V bm ->
     frame_agrees V fr bm L (fused_score fus lm L) (b_t bm) ->
     P ((nonext, blank) :: rest) choices (b_t bm) bm ->
     P rest (tl choices) (S (b_t bm)) (fst (advance V fr bm width (hd [] choices)))) ->
  forall rest done choices bm, L = done ++ rest -> length L <= len ->
  choices_ok V width fus lm 0%Qc len (length done) rest choices bm = true ->
  inv V bm -> b_t bm = length done ->
  P rest choices (length done) bm ->
  exists cs, P [] cs (length done + length rest) (sloop V width fus lm len (length done) rest choices bm).
Proof.
  intros V width fus lm len L P Vpos Wpos Hstep. induction rest as [|[nonext blank] rest];
    intros done choices bm EL LL C I T HP.
  - cbn [sloop length]. rewrite Nat.add_0_r. eauto.
  - cbn [sloop choices_ok] in *.
    assert (LT : length done < len).
    { rewrite EL, app_length in LL. cbn [length] in LL. lia. }
    replace (len <=? length done) with false in * by (symmetry; apply Nat.leb_gt; lia).
    cbn [orb] in C. apply andb_true_iff in C. destruct C as [C1 C2].
    pose proof (topk_ok_facts _ _ _ _ _ C1) as F. destruct F as [F1 F2 F3 F4 F5].
    unfold sstep in *. set (fr := mk_frame fus lm nonext blank bm) in *.
    set (nx := fst (advance V fr bm width (hd [] choices))) in *.
    assert (HN : nth (length done) L ([], 0%Qc) = (nonext, blank)).
    { rewrite EL, app_nth2, Nat.sub_diag by lia. reflexivity. }
    assert (FA : frame_agrees V fr bm L (fused_score fus lm L) (b_t bm)).
    { apply mk_frame_agrees with (t := length done); auto. }
    assert (Inx : inv V nx) by (apply advance_inv; auto).
    assert (Tnx : b_t nx = length (done ++ [(nonext, blank)])).
    { rewrite app_length. cbn [length]. unfold nx, advance. cbn [fst b_t]. lia. }
    assert (Pnx : P rest (tl choices) (length (done ++ [(nonext, blank)])) nx).
    { rewrite <- Tnx. replace (b_t nx) with (S (b_t bm)) by reflexivity.
      apply Hstep; auto; rewrite T; auto. }
    cbn [length]. replace (length done + S (length rest)) with (length (done ++ [(nonext, blank)]) + length rest)
      by (rewrite app_length; cbn; lia).
    replace (S (length done)) with (length (done ++ [(nonext, blank)])) in * by (rewrite app_length; cbn; lia).
    apply IHrest; auto. rewrite <- app_assoc. exact EL.
Qed.

(* the property's "never more than that": every returned mass is at most the total mass of the
   alignments (of the element's own valid frames, under the scores the search uses) that
   collapse to the returned prefix *)
Lemma search_mass_le : forall V width fus lm len frames choices, 1 <= V -> 1 <= width ->
  choices_ok V width fus lm 0%Qc len 0 frames choices init_beam = true ->
  let L := firstn len frames in
  nonneg_frames L (fused_score fus lm L) ->
  let '(P, Ls, Ps) := observe (search V width fus lm len frames choices) in
  forall i q, nth i Ps NegInf = Fin q ->
    (0 <= q)%Qc /\ (q <= ctc_mass V L (fused_score fus lm L) (nth i P []))%Qc.
Proof.
  intros V width fus lm len frames choices Vpos Wpos C L NN.
  pose proof (out_slot V width fus lm len frames choices Vpos Wpos C) as O.
  destruct (observe (search V width fus lm len frames choices)) as [[P Ls] Ps].
  destruct O as (_ & _ & _ & _ & O).
  destruct (live_facts V width fus lm len frames choices Vpos Wpos C) as (I & T & _).
  pose proof (live_ok V width fus lm len frames choices C) as CL.
  assert (MB : mbound V L (fused_score fus lm L) (live_beam V width fus lm len frames choices)).
  { unfold live_beam. fold (live_frames len frames) in L.
    destruct (sloop_keeps V width fus lm len L (fun _ _ _ b => mbound V L (fused_score fus lm L) b) Vpos Wpos)
      with (rest := live_frames len frames) (done := @nil sframe) (choices := choices) (bm := init_beam) as [_ H]; auto.
    - intros nonext blank _ cs b fr _ C1 Ib FA MBb. destruct (topk_ok_facts _ _ _ _ _ C1) as [F1 F2 F3 F4 F5].
      apply (mass_step V width fr b (hd [] cs) L (fused_score fus lm L)); auto.
    - unfold L. rewrite live_len. lia.
    - apply init_inv.
    - apply mbound_init. }
  set (bm := live_beam V width fus lm len frames choices) in *.
  intros i q Hq. destruct (O i q Hq) as (Vi & PQ & -> & _).
  destruct (MB i Vi) as (M1 & M2 & M3 & M4).
  rewrite T in M2, M4. fold L in M2, M4.
  rewrite ctc_mass_split.
  rewrite (probs_of_valid bm i (inv_wf V bm I) Vi) in PQ. inversion PQ; subst q.
  split; auto using qadd_nonneg, qadd_le.
Qed.

(* without a language model the scores are the frame probabilities themselves *)
Lemma nolm_nonneg : forall (L : list sframe),
  (forall t v, (0 <= nth v (fst (nth t L ([], 0%Qc))) 0)%Qc) ->
  (forall t, (0 <= snd (nth t L ([], 0%Qc)))%Qc) ->
  nonneg_frames L (fused_score NoLM no_lm L).
Proof.
  intros L H1 H2. repeat split; auto. intros t p v. unfold fused_score, ext_row. apply H1.
Qed.
