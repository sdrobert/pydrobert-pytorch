(* C05 - invariants of the vectorised step function (Model.advance). *)
From Coq Require Import List Arith Bool QArith Qcanon Lia.
From PV Require Import C05.Model C05.ProofsNum.
Import ListNotations.
Local Open Scope nat_scope.

(* ---- lists ------------------------------------------------------------------------------ *)

Lemma upd_length : forall {A} (l : list A) i x, length (upd l i x) = length l.
Proof. induction l; destruct i; cbn; auto. Qed.

Lemma nth_upd_eq : forall {A} (l : list A) i x d, i < length l -> nth i (upd l i x) d = x.
Proof. induction l; destruct i; cbn; intros; auto; try lia. apply IHl. lia. Qed.

Lemma nth_upd_neq : forall {A} (l : list A) i j x d, i <> j -> nth j (upd l i x) d = nth j l d.
Proof. induction l; destruct i, j; cbn; intros; auto; try lia. Qed.

Lemma firstn_upd_ge : forall {A} (l : list A) i n x, n <= i -> firstn n (upd l i x) = firstn n l.
Proof.
  induction l; destruct i, n; cbn; intros; auto; try lia. f_equal. apply IHl. lia.
Qed.

Lemma firstn_snoc_upd : forall {A} (l : list A) n x d, n <= length l ->
  firstn (S n) (upd (l ++ [d]) n x) = firstn n l ++ [x].
Proof.
  induction l; destruct n; cbn [length]; intros; try lia; auto.
  cbn [app upd firstn]. f_equal. apply IHl. lia.
Qed.

Lemma firstn_app_le : forall {A} (l m : list A) n, n <= length l -> firstn n (l ++ m) = firstn n l.
Proof. intros. rewrite firstn_app. replace (n - length l) with 0 by lia. cbn. apply app_nil_r. Qed.

Lemma nth_firstn : forall {A} (l : list A) n i d, i < n -> nth i (firstn n l) d = nth i l d.
Proof.
  induction l; destruct n, i; cbn; intros; auto; try lia. apply IHl. lia.
Qed.

Lemma nth_map_app_repeat : forall {A B} (f : A -> B) (l : list A) (d : B) n j a,
  nth j (map f l ++ repeat d n) d = if j <? length l then f (nth j l a) else d.
Proof.
  intros. destruct (j <? length l) eqn:E.
  - apply Nat.ltb_lt in E. rewrite app_nth1 by (rewrite map_length; auto).
    rewrite (nth_indep _ d (f a)) by (rewrite map_length; auto). apply map_nth.
  - apply Nat.ltb_ge in E. rewrite app_nth2 by (rewrite map_length; auto).
    rewrite map_length. destruct (le_lt_dec n (j - length l)).
    + apply nth_overflow. rewrite repeat_length. auto.
    + apply nth_repeat.
Qed.

Lemma nth_repeat_if : forall {A} (x d : A) n i, nth i (repeat x n) d = if i <? n then x else d.
Proof.
  intros. destruct (i <? n) eqn:E.
  - apply Nat.ltb_lt in E. rewrite (nth_indep _ d x) by (rewrite repeat_length; auto). apply nth_repeat.
  - apply Nat.ltb_ge in E. apply nth_overflow. rewrite repeat_length. auto.
Qed.

Lemma nodupb_NoDup : forall l, nodupb l = true -> NoDup l.
Proof.
  induction l; cbn; intros H; constructor; apply andb_true_iff in H; destruct H as [H1 H2]; auto.
  intro I. apply negb_true_iff in H1.
  assert (existsb (Nat.eqb a) l = true); [|congruence].
  apply existsb_exists. exists a. split; auto. apply Nat.eqb_refl.
Qed.

(* ---- prefixes --------------------------------------------------------------------------- *)

Definition is_pre (p q : list nat) : Prop := firstn (length p) q = p.

Lemma is_pre_refl : forall p, is_pre p p.
Proof. intros. unfold is_pre. apply firstn_all. Qed.

Lemma is_pre_len : forall p q, is_pre p q -> length p <= length q.
Proof.
  unfold is_pre. intros p q H. apply (f_equal (@length nat)) in H. rewrite firstn_length in H. lia.
Qed.

Lemma is_pre_app : forall p q, is_pre p (p ++ q).
Proof. intros. unfold is_pre. rewrite firstn_app, firstn_all, Nat.sub_diag. cbn. apply app_nil_r. Qed.

Lemma is_pre_exists : forall p q, is_pre p q <-> exists s, q = p ++ s.
Proof.
  split.
  - intros H. exists (skipn (length p) q). unfold is_pre in H. rewrite <- H at 1. symmetry. apply firstn_skipn.
  - intros (s & ->). apply is_pre_app.
Qed.

Lemma is_pre_trans : forall p q r, is_pre p q -> is_pre q r -> is_pre p r.
Proof.
  intros p q r H1 H2. apply is_pre_exists in H1, H2. destruct H1 as (s & ->). destruct H2 as (s' & ->).
  rewrite <- app_assoc. apply is_pre_app.
Qed.

Lemma is_pre_eq_len : forall p q, is_pre p q -> length p = length q -> p = q.
Proof. unfold is_pre. intros p q H L. rewrite L, firstn_all in H. auto. Qed.

(* p a prefix of q ++ [v]: of q already, or the whole *)
Lemma is_pre_snoc_r : forall p q v, is_pre p (q ++ [v]) -> is_pre p q \/ p = q ++ [v].
Proof.
  intros p q v H. destruct (le_lt_dec (length p) (length q)).
  - left. unfold is_pre in *. rewrite firstn_app_le in H; auto.
  - right. apply is_pre_eq_len; auto. apply is_pre_len in H. rewrite app_length in *. cbn in *. lia.
Qed.

Lemma is_pre_snoc_l : forall p q v, is_pre (p ++ [v]) q ->
  is_pre p q /\ length p < length q /\ nth (length p) q 0 = v.
Proof.
  intros p q v H. apply is_pre_exists in H. destruct H as (s & ->). rewrite <- app_assoc. cbn [app].
  split; [apply is_pre_app|]. split; [rewrite app_length; cbn; lia|].
  rewrite app_nth2 by lia. rewrite Nat.sub_diag. reflexivity.
Qed.

Lemma is_pre_snoc_intro : forall p q v, is_pre p q -> length p < length q ->
  nth (length p) q 0 = v -> is_pre (p ++ [v]) q.
Proof.
  intros p q v H L N. apply is_pre_exists in H. destruct H as (s & ->). apply is_pre_exists.
  destruct s as [|x s]; [rewrite app_nil_r in L; lia|].
  rewrite app_nth2, Nat.sub_diag in N by lia. cbn in N. subst x.
  exists s. rewrite <- app_assoc. reflexivity.
Qed.

(* ---- shape of a beam ------------------------------------------------------------------------ *)

Definition col (bm : beam) (k : nat) : list nat := nth k (b_y bm) [].
Definition pref (bm : beam) (k : nat) : list nat := prefix_of bm k.

Record wf (bm : beam) : Prop := mkWf
  { wf_pos : 1 <= Kp bm;
    wf_b : length (b_b bm) = Kp bm;
    wf_y : length (b_y bm) = Kp bm;
    wf_last : length (b_last bm) = Kp bm;
    wf_lens : length (b_lens bm) = Kp bm;
    wf_isp : length (b_isp bm) = Kp bm;
    wf_col : forall k, k < Kp bm -> length (col bm k) = b_t bm;
    wf_len : forall k, lens bm k <= b_t bm }.

Lemma pref_length : forall bm k, wf bm -> k < Kp bm -> length (pref bm k) = lens bm k.
Proof.
  intros bm k W L. unfold pref, prefix_of. fold (lens bm k). fold (col bm k).
  rewrite firstn_length, (wf_col bm W k L). pose proof (wf_len bm W k). lia.
Qed.

Lemma pref_nil : forall bm k, wf bm -> k < Kp bm -> lens bm k = 0 -> pref bm k = [].
Proof. intros bm k W L Z. apply length_zero_iff_nil. rewrite pref_length; auto. Qed.

Lemma pref_nonnil : forall bm k, wf bm -> k < Kp bm -> lens bm k <> 0 -> pref bm k <> [].
Proof. intros bm k W L Z C. apply Z. rewrite <- (pref_length bm k W L), C. reflexivity. Qed.

Lemma pref_nth : forall bm k i, i < lens bm k -> nth i (pref bm k) 0 = ycell bm k i.
Proof. intros. unfold pref, prefix_of, ycell. fold (lens bm k). apply nth_firstn. auto. Qed.

Definition valid (bm : beam) (k : nat) : Prop := k < Kp bm /\ invalid bm k = false.

(* ---- what the step function returns, slot by slot -------------------------------------------- *)

Section Step.
  Variables (V width : nat) (fr : frame) (bm : beam) (choice : list nat).
  Hypothesis Vpos : 1 <= V.
  Hypothesis Wpos : 1 <= width.
  Hypothesis W : wf bm.
  Hypothesis Clen : length choice = Kout V bm width.
  Hypothesis Crange : forall i, In i choice -> i < ncand V bm.

  Let nx := fst (advance V fr bm width choice).
  Let K := Kout V bm width.
  Definition ch (j : nat) : nat := nth j choice 0.

  Lemma K_le : K <= width. Proof. unfold K, Kout. lia. Qed.

  Lemma ch_range : forall j, j < K -> ch j < ncand V bm.
  Proof. intros. apply Crange. apply nth_In. rewrite Clen. auto. Qed.

  Lemma nx_Kp : Kp nx = width.
  Proof.
    unfold nx, advance, Kp. cbn [fst b_nb]. rewrite app_length, map_length, repeat_length, Clen.
    pose proof K_le. unfold K in *. lia.
  Qed.

  Lemma nx_t : b_t nx = S (b_t bm). Proof. reflexivity. Qed.

  Lemma nx_nb : forall j, nth j (b_nb nx) NegInf = if j <? K then c_nb V fr bm (ch j) else NegInf.
  Proof. intros. unfold nx, advance. cbn [fst b_nb]. rewrite (nth_map_app_repeat _ _ _ _ _ 0), Clen. reflexivity. Qed.

  Lemma nx_b : forall j, nth j (b_b nx) NegInf = if j <? K then c_b V fr bm (ch j) else NegInf.
  Proof. intros. unfold nx, advance. cbn [fst b_b]. rewrite (nth_map_app_repeat _ _ _ _ _ 0), Clen. reflexivity. Qed.

  Lemma nx_lens : forall j, lens nx j = if j <? K then c_len V bm (ch j) else 0.
  Proof. intros. unfold lens, nx, advance. cbn [fst b_lens]. rewrite (nth_map_app_repeat _ _ _ _ _ 0), Clen. reflexivity. Qed.

  Lemma nx_last : forall j, nth j (b_last nx) 0 = if j <? K then c_last V bm (ch j) else 0.
  Proof. intros. unfold nx, advance. cbn [fst b_last]. rewrite (nth_map_app_repeat _ _ _ _ _ 0), Clen. reflexivity. Qed.

  Lemma nx_col : forall j, j < K -> col nx j = c_col V bm (ch j).
  Proof.
    intros j L. unfold col, nx, advance. cbn [fst b_y].
    rewrite app_nth1 by (rewrite map_length, Clen; auto).
    rewrite (nth_indep _ [] (c_col V bm 0)) by (rewrite map_length, Clen; auto). apply map_nth.
  Qed.

  Lemma nx_col_fill : forall j, K <= j -> j < width -> col nx j = repeat 0 (S (b_t bm)).
  Proof.
    intros j L L'. unfold col, nx, advance. cbn [fst b_y].
    rewrite app_nth2 by (rewrite map_length, Clen; auto). rewrite map_length, Clen.
    rewrite (nth_indep _ [] (repeat 0 (S (b_t bm)))); [apply nth_repeat|].
    rewrite repeat_length. unfold K in *. lia.
  Qed.

  Lemma nx_isp : forall j j', isp nx j j' = if (j <? K) && (j' <? K) then c_isp V bm (ch j) (ch j') else false.
  Proof.
    intros. unfold isp, nx, advance. cbn [fst b_isp].
    destruct (j <? K) eqn:E.
    - apply Nat.ltb_lt in E. rewrite app_nth1 by (rewrite map_length, Clen; auto).
      rewrite (nth_indep _ [] ((fun i => map (c_isp V bm i) choice ++ repeat false (width - Kout V bm width)) 0))
        by (rewrite map_length, Clen; auto).
      rewrite (map_nth (fun i => map (c_isp V bm i) choice ++ repeat false (width - Kout V bm width))).
      rewrite (nth_map_app_repeat _ _ _ _ _ 0), Clen. reflexivity.
    - apply Nat.ltb_ge in E. cbn [andb]. rewrite app_nth2 by (rewrite map_length, Clen; auto).
      rewrite map_length, Clen. fold K.
      rewrite nth_repeat_if. destruct (j - K <? width - K).
      + rewrite nth_repeat_if. destruct (j' <? width); reflexivity.
      + destruct j'; reflexivity.
  Qed.

  (* source slot and token of a chosen index *)
  Lemma src_range : forall ind, ind < ncand V bm -> c_src V bm ind < Kp bm.
  Proof.
    intros ind H. unfold c_src, c_nonext, ncand in *.
    destruct (Kp bm * V <=? ind) eqn:E.
    - apply Nat.leb_le in E. lia.
    - apply Nat.leb_gt in E. apply Nat.div_lt_upper_bound; lia.
  Qed.

  Lemma ext_range : forall ind, c_ext V ind < V.
  Proof. intros. unfold c_ext. apply Nat.mod_upper_bound. lia. Qed.

  Lemma c_col_length : forall ind, ind < ncand V bm -> length (c_col V bm ind) = S (b_t bm).
  Proof.
    intros. unfold c_col. rewrite upd_length, app_length. fold (col bm (c_src V bm ind)).
    rewrite (wf_col bm W) by (apply src_range; auto). cbn; lia.
  Qed.

  Lemma c_len_le : forall ind, c_len V bm ind <= S (b_t bm).
  Proof. intros. unfold c_len. pose proof (wf_len bm W (c_src V bm ind)). destruct (c_nonext V bm ind); lia. Qed.

  Lemma nx_wf : wf nx.
  Proof.
    pose proof K_le as KL. pose proof nx_Kp as KP.
    constructor.
    - rewrite KP. auto.
    - rewrite KP. unfold nx, advance. cbn [fst b_b]. rewrite app_length, map_length, repeat_length, Clen. fold K. lia.
    - rewrite KP. unfold nx, advance. cbn [fst b_y]. rewrite app_length, map_length, repeat_length, Clen. fold K. lia.
    - rewrite KP. unfold nx, advance. cbn [fst b_last]. rewrite app_length, map_length, repeat_length, Clen. fold K. lia.
    - rewrite KP. unfold nx, advance. cbn [fst b_lens]. rewrite app_length, map_length, repeat_length, Clen. fold K. lia.
    - rewrite KP. unfold nx, advance. cbn [fst b_isp]. rewrite app_length, map_length, repeat_length, Clen. fold K. lia.
    - rewrite KP, nx_t. intros k Lk. destruct (le_lt_dec K k).
      + rewrite nx_col_fill by auto. apply repeat_length.
      + rewrite nx_col by auto. apply c_col_length, ch_range; auto.
    - intros k. rewrite nx_lens, nx_t. destruct (k <? K); [apply c_len_le|lia].
  Qed.

  (* the new prefix of a chosen slot: its source's prefix, plus the token when extending *)
  Lemma nx_pref : forall j, j < K ->
    pref nx j = if c_nonext V bm (ch j) then pref bm (c_src V bm (ch j))
                else pref bm (c_src V bm (ch j)) ++ [c_ext V (ch j)].
  Proof.
    intros j L. unfold pref at 1, prefix_of. fold (lens nx j). fold (col nx j).
    rewrite nx_lens, nx_col by auto. apply Nat.ltb_lt in L. rewrite L. apply Nat.ltb_lt in L.
    pose proof (ch_range j L) as R. pose proof (src_range _ R) as SR.
    unfold c_len, c_col. fold (col bm (c_src V bm (ch j))).
    pose proof (wf_len bm W (c_src V bm (ch j))) as LL. pose proof (wf_col bm W _ SR) as LC.
    destruct (c_nonext V bm (ch j)).
    - rewrite Nat.add_0_r, firstn_upd_ge by lia. rewrite firstn_app_le by lia. reflexivity.
    - rewrite Nat.add_1_r, firstn_snoc_upd by lia. reflexivity.
  Qed.

  Lemma nx_invalid : forall j, invalid nx j = if j <? K then is_neginf (cand V fr bm (ch j)) else true.
  Proof.
    intros. unfold invalid. rewrite nx_nb, nx_b. destruct (j <? K) eqn:E; [|reflexivity].
    apply Nat.ltb_lt in E. pose proof (ch_range j E) as R.
    unfold c_nb, c_b, cand, c_src, c_nonext. unfold ncand in R.
    destruct (Kp bm * V <=? ch j) eqn:E1.
    - apply Nat.leb_le in E1. replace (ch j <? Kp bm * V) with false by (symmetry; apply Nat.ltb_ge; auto).
      reflexivity.
    - apply Nat.leb_gt in E1. replace (ch j <? Kp bm * V) with true by (symmetry; apply Nat.ltb_lt; auto).
      replace (Nat.min (ch j) (Kp bm * V - 1)) with (ch j) by lia.
      destruct (nb_ext_c V fr bm (ch j / V) (ch j mod V)); reflexivity.
  Qed.
End Step.

(* ---- the invariant ---------------------------------------------------------------------------- *)

Record inv (V : nat) (bm : beam) : Prop := mkInv
  { inv_wf : wf bm;
    (* valid prefixes are blank-free *)
    inv_lt : forall k, valid bm k -> Forall (fun x => x < V) (pref bm k);
    (* ... and pairwise distinct *)
    inv_dist : forall k k', valid bm k -> valid bm k' -> pref bm k = pref bm k' -> k = k';
    (* the prefix matrix never claims a relation that does not hold (any slots) *)
    inv_snd : forall k k', k < Kp bm -> k' < Kp bm -> isp bm k k' = true ->
              is_pre (pref bm k) (pref bm k');
    (* ... and records every relation between valid slots *)
    inv_cmp : forall k k', valid bm k -> valid bm k' -> is_pre (pref bm k) (pref bm k') ->
              isp bm k k' = true;
    inv_last : forall k, valid bm k -> 0 < lens bm k -> lastc V bm k = last (pref bm k) 0;
    inv_nb0 : forall k, valid bm k -> lens bm k = 0 -> nbq bm k = 0%Qc }.

Lemma has_match_of_ext : forall V bm k k' v, 1 <= V -> inv V bm -> valid bm k -> valid bm k' ->
  v < V -> pref bm k' = pref bm k ++ [v] -> has_match V bm k v = true.
Proof.
  intros V bm k k' v Vpos I Vk Vk' Hv E. pose proof (inv_wf V bm I) as W.
  destruct Vk as [Lk IVk]. destruct Vk' as [Lk' IVk'].
  assert (LL : lens bm k' = lens bm k + 1).
  { rewrite <- !pref_length by auto. rewrite E, app_length. reflexivity. }
  pose proof (wf_len bm W k') as LT.
  unfold has_match. apply existsb_exists. exists k'. split; [apply in_seq; lia|].
  apply andb_true_iff. split.
  - apply Nat.eqb_eq. unfold to_match.
    replace (b_t bm =? 0) with false by (symmetry; apply Nat.eqb_neq; lia).
    replace (Nat.min (lens bm k) (b_t bm - 1)) with (lens bm k) by lia.
    rewrite <- pref_nth by lia. rewrite E, <- (pref_length bm k) by auto.
    rewrite app_nth2, Nat.sub_diag by lia. cbn [nth]. unfold clampV. lia.
  - unfold ext_is_exact. apply andb_true_iff. split; [apply Nat.eqb_eq; lia|].
    apply (inv_cmp V bm I); [split; auto|split; auto|]. rewrite E. apply is_pre_app.
Qed.

(* the two kinds of candidate index: slot k kept (Kp * V + k), slot k extended by v (k * V + v) *)
Lemma cand_keep_at : forall V fr bm k, k < Kp bm ->
  let u := Kp bm * V + k in
  u < ncand V bm /\ c_nonext V bm u = true /\ c_src V bm u = k /\
  cand V fr bm u = madd (nb_nonext_c V fr bm k) (Fin (b_nonext fr bm k)).
Proof.
  intros V fr bm k Lk u.
  assert (NE : c_nonext V bm u = true) by (apply Nat.leb_le; unfold u; lia).
  assert (SR : u - Kp bm * V = k) by (unfold u; lia).
  repeat split; auto.
  - unfold ncand, u. lia.
  - unfold c_src. rewrite NE. exact SR.
  - unfold cand. replace (u <? Kp bm * V) with false by (symmetry; apply Nat.ltb_ge; unfold u; lia).
    rewrite SR. reflexivity.
Qed.

Lemma cand_ext_at : forall V fr bm k v, k < Kp bm -> v < V ->
  let u := k * V + v in
  u < ncand V bm /\ c_nonext V bm u = false /\ c_src V bm u = k /\ c_ext V u = v /\
  cand V fr bm u = nb_ext_c V fr bm k v.
Proof.
  intros V fr bm k v Lk Hv u.
  assert (R1 : u < Kp bm * V) by (unfold u; nia).
  assert (NE : c_nonext V bm u = false) by (apply Nat.leb_gt; exact R1).
  assert (DV : u / V = k) by (unfold u; rewrite Nat.div_add_l by lia; rewrite Nat.div_small by auto; lia).
  assert (MD : u mod V = v) by (unfold u; rewrite Nat.add_comm, Nat.mod_add by lia; apply Nat.mod_small; auto).
  repeat split; auto.
  - unfold ncand. nia.
  - unfold c_src. rewrite NE. exact DV.
  - unfold cand. rewrite (proj2 (Nat.ltb_lt _ _) R1), DV, MD. reflexivity.
Qed.

Section Preserve.
  Variables (V width : nat) (fr : frame) (bm : beam) (choice : list nat).
  Hypothesis Vpos : 1 <= V.
  Hypothesis Wpos : 1 <= width.
  Hypothesis I : inv V bm.
  Hypothesis Clen : length choice = Kout V bm width.
  Hypothesis Crange : forall i, In i choice -> i < ncand V bm.
  Hypothesis Cnodup : NoDup choice.

  Let W := inv_wf V bm I.
  Let nx := fst (advance V fr bm width choice).
  Let K := Kout V bm width.
  Notation chj := (ch choice).
  Let SR := src_range V width bm choice Vpos Wpos Clen.
  Let ER := ext_range V width bm choice Vpos Wpos Clen.
  Let CR := ch_range V width bm choice Clen Crange.

  Lemma valid_nx : forall j, valid nx j ->
    j < K /\ chj j < ncand V bm /\ valid bm (c_src V bm (chj j)) /\
    (c_nonext V bm (chj j) = false -> has_match V bm (c_src V bm (chj j)) (c_ext V (chj j)) = false).
  Proof.
    intros j [Lj IV]. unfold nx in IV. rewrite (nx_invalid V width fr bm choice Vpos Wpos Clen Crange) in IV.
    fold K in IV. destruct (j <? K) eqn:E; [|discriminate]. apply Nat.ltb_lt in E.
    pose proof (CR j E) as R.
    pose proof (SR _ R) as SRj.
    repeat split; auto.
    - unfold cand, c_src, c_nonext in *. unfold ncand in R.
      destruct (Kp bm * V <=? chj j) eqn:E1.
      + apply Nat.leb_le in E1. replace (chj j <? Kp bm * V) with false in IV by (symmetry; apply Nat.ltb_ge; auto).
        unfold nb_nonext_c in IV. destruct (invalid bm (chj j - Kp bm * V)); [discriminate|reflexivity].
      + apply Nat.leb_gt in E1. replace (chj j <? Kp bm * V) with true in IV by (symmetry; apply Nat.ltb_lt; auto).
        unfold nb_ext_c in IV. destruct (invalid bm (chj j / V)); [|reflexivity].
        rewrite orb_true_r in IV. discriminate.
    - intros NE. unfold cand, c_src, c_ext in *. rewrite NE. unfold c_nonext in NE.
      apply Nat.leb_gt in NE. replace (chj j <? Kp bm * V) with true in IV by (symmetry; apply Nat.ltb_lt; auto).
      unfold nb_ext_c in IV. destruct (has_match V bm (chj j / V) (chj j mod V)); [discriminate|reflexivity].
  Qed.

  Lemma ch_inj : forall j j', j < K -> j' < K -> chj j = chj j' -> j = j'.
  Proof.
    intros j j' L L' E. apply (proj1 (NoDup_nth choice 0) Cnodup); auto; rewrite Clen; auto.
  Qed.

  (* an index is determined by (non-extending?, source, token) *)
  Lemma ind_eq : forall a b, a < ncand V bm -> b < ncand V bm ->
    c_nonext V bm a = c_nonext V bm b -> c_src V bm a = c_src V bm b ->
    (c_nonext V bm a = false -> c_ext V a = c_ext V b) -> a = b.
  Proof.
    intros a b Ra Rb N S E. unfold c_src, c_ext in *. rewrite <- N in S.
    destruct (c_nonext V bm a) eqn:Na; symmetry in N; unfold c_nonext in *.
    - apply Nat.leb_le in Na, N. lia.
    - specialize (E eq_refl). rewrite (Nat.div_mod_eq a V), (Nat.div_mod_eq b V). congruence.
  Qed.

  Lemma pref_nx : forall j, j < K ->
    pref nx j = if c_nonext V bm (chj j) then pref bm (c_src V bm (chj j))
                else pref bm (c_src V bm (chj j)) ++ [c_ext V (chj j)].
  Proof. intros. apply (nx_pref V width fr bm choice Vpos Wpos W Clen Crange). auto. Qed.

  (* a valid slot of [nx] keeps the prefix of its source slot, or extends it by a token under which the source
     merges with no slot of [bm]; its two masses are those of the candidate *)
  Lemma nx_slot : forall j, valid nx j ->
    let src := c_src V bm (chj j) in
    valid bm src /\
    (pref nx j = pref bm src /\ nbq nx j = nb_nonext1 V fr bm src /\ bq nx j = b_nonext fr bm src
     \/ exists v, v < V /\ has_match V bm src v = false /\
          pref nx j = pref bm src ++ [v] /\ nbq nx j = nb_ext V fr bm src v /\ bq nx j = 0%Qc).
  Proof.
    intros j Vj. destruct (valid_nx j Vj) as (Lj & R & VS & HM). split; [exact VS|].
    destruct Vj as [_ IV]. unfold nbq, bq. rewrite IV. unfold nx.
    rewrite (nx_nb V width fr bm choice Clen), (nx_b V width fr bm choice Clen). fold K nx.
    rewrite (proj2 (Nat.ltb_lt _ _) Lj), (pref_nx j Lj).
    unfold c_nb, c_b. set (src := c_src V bm (chj j)) in *. destruct (c_nonext V bm (chj j)) eqn:NEXT.
    - left. unfold nb_nonext_c. rewrite (proj2 VS). auto.
    - right. exists (c_ext V (chj j)). specialize (HM eq_refl).
      assert (SRC : chj j / V = src) by (unfold src, c_src; rewrite NEXT; reflexivity).
      unfold c_nonext in NEXT. apply Nat.leb_gt in NEXT.
      replace (Nat.min (chj j) (Kp bm * V - 1)) with (chj j) by lia.
      rewrite SRC. fold (c_ext V (chj j)). unfold nb_ext_c. rewrite HM, (proj2 VS). auto.
  Qed.

  Lemma nx_lt : forall j, valid nx j -> Forall (fun x => x < V) (pref nx j).
  Proof.
    intros j Vj. destruct (valid_nx j Vj) as (Lj & R & VS & HM). rewrite pref_nx by auto.
    destruct (c_nonext V bm (chj j)); [apply (inv_lt V bm I); auto|].
    apply Forall_app. split; [apply (inv_lt V bm I); auto|]. constructor; auto.
  Qed.

  Lemma nx_dist : forall j j', valid nx j -> valid nx j' -> pref nx j = pref nx j' -> j = j'.
  Proof.
    intros j j' Vj Vj' E.
    destruct (valid_nx j Vj) as (Lj & R & VS & HM). destruct (valid_nx j' Vj') as (Lj' & R' & VS' & HM').
    rewrite !pref_nx in E by auto. apply ch_inj; auto.
    destruct (c_nonext V bm (chj j)) eqn:N; destruct (c_nonext V bm (chj j')) eqn:N'.
    - apply ind_eq; auto; try congruence. apply (inv_dist V bm I); auto.
    - exfalso. specialize (HM' eq_refl).
      rewrite (has_match_of_ext V bm _ _ (c_ext V (chj j')) Vpos I VS' VS) in HM'; auto; discriminate.
    - exfalso. specialize (HM eq_refl).
      rewrite (has_match_of_ext V bm _ _ (c_ext V (chj j)) Vpos I VS VS') in HM; auto; discriminate.
    - apply snoc_inj in E. destruct E as [E1 E2].
      apply ind_eq; auto; try congruence. apply (inv_dist V bm I); auto.
  Qed.

  Lemma pref_nx_def : forall j, pref nx j = firstn (lens nx j) (col nx j).
  Proof. reflexivity. Qed.

  Let Wnx : wf nx := nx_wf V width fr bm choice Vpos Wpos W Clen Crange.
  Let KPnx : Kp nx = width := nx_Kp V width fr bm choice Vpos Wpos Clen.

  Lemma lens_nx : forall j, j < K -> lens nx j = c_len V bm (chj j).
  Proof.
    intros j L. unfold nx. rewrite (nx_lens V width fr bm choice Clen). fold K.
    apply Nat.ltb_lt in L. rewrite L. reflexivity.
  Qed.

  Lemma col_nx : forall j, j < K -> col nx j = c_col V bm (chj j).
  Proof. intros. apply (nx_col V width fr bm choice Clen). auto. Qed.

  Lemma K_le_width : K <= width. Proof. unfold K, Kout. lia. Qed.

  Lemma pre_src_nx : forall j, j < K -> is_pre (pref bm (c_src V bm (chj j))) (pref nx j).
  Proof.
    intros j L. rewrite pref_nx by auto. destruct (c_nonext V bm (chj j)); [apply is_pre_refl|apply is_pre_app].
  Qed.

  Lemma len_src : forall ind, ind < ncand V bm -> length (pref bm (c_src V bm ind)) = lens bm (c_src V bm ind).
  Proof. intros. apply pref_length; auto. Qed.

  (* below the source's length a new column is the source's prefix *)
  Lemma c_col_low : forall ind i, ind < ncand V bm -> i < lens bm (c_src V bm ind) ->
    nth i (c_col V bm ind) 0 = nth i (pref bm (c_src V bm ind)) 0.
  Proof.
    intros ind i R L. unfold c_col. rewrite nth_upd_neq by lia.
    pose proof (wf_len bm W (c_src V bm ind)) as LT. pose proof (wf_col bm W _ (SR _ R)) as LC.
    unfold col in LC. rewrite app_nth1 by lia. rewrite pref_nth by auto. reflexivity.
  Qed.

  Lemma c_col_at : forall ind, ind < ncand V bm ->
    nth (lens bm (c_src V bm ind)) (c_col V bm ind) 0 = c_ext V ind.
  Proof.
    intros ind R. unfold c_col. apply nth_upd_eq.
    pose proof (wf_len bm W (c_src V bm ind)) as LT. pose proof (wf_col bm W _ (SR _ R)) as LC.
    unfold col in LC. rewrite app_length. cbn. lia.
  Qed.

  Lemma nx_snd : forall j j', j < Kp nx -> j' < Kp nx -> isp nx j j' = true ->
    is_pre (pref nx j) (pref nx j').
  Proof.
    intros j j' _ _ H. unfold nx in H. rewrite (nx_isp V width fr bm choice Clen) in H. fold K in H.
    destruct (j <? K) eqn:E; [|discriminate]. destruct (j' <? K) eqn:E'; [|discriminate].
    apply Nat.ltb_lt in E, E'. cbn [andb] in H.
    pose proof (CR j E) as R. pose proof (CR j' E') as R'.
    unfold c_isp in H. apply andb_true_iff in H. destruct H as [H H3].
    apply andb_true_iff in H. destruct H as [H1 H2]. apply Nat.leb_le in H2.
    apply (inv_snd V bm I) in H1; auto.
    pose proof (is_pre_trans _ _ _ H1 (pre_src_nx j' E')) as PT.
    assert (LN : length (pref nx j') = c_len V bm (chj j')).
    { rewrite pref_length; auto; [apply lens_nx; auto|rewrite KPnx; pose proof K_le_width; lia]. }
    rewrite (pref_nx j) by auto. unfold c_len in H2 at 1.
    destruct (c_nonext V bm (chj j)) eqn:N; auto.
    cbn [negb orb andb] in H3. apply Nat.eqb_eq in H3.
    apply is_pre_snoc_intro; auto; rewrite len_src by auto.
    - lia.
    - unfold c_len in H3 at 1. rewrite N in H3. replace (lens bm (c_src V bm (chj j)) + 1 - 1) with (lens bm (c_src V bm (chj j))) in H3 by lia.
      rewrite pref_nx_def, nth_firstn, col_nx by (rewrite ?lens_nx by auto; lia). auto.
  Qed.

  Lemma nx_cmp : forall j j', valid nx j -> valid nx j' -> is_pre (pref nx j) (pref nx j') ->
    isp nx j j' = true.
  Proof.
    intros j j' Vj Vj' P.
    destruct (valid_nx j Vj) as (Lj & R & VS & HM). destruct (valid_nx j' Vj') as (Lj' & R' & VS' & HM').
    unfold nx. rewrite (nx_isp V width fr bm choice Clen). fold K.
    apply Nat.ltb_lt in Lj, Lj'. rewrite Lj, Lj'. apply Nat.ltb_lt in Lj, Lj'. cbn [andb].
    rewrite !pref_nx in P by auto. unfold c_isp, c_len.
    pose proof (len_src _ R) as LS. pose proof (len_src _ R') as LS'.
    pose proof (ER (chj j)) as EV. pose proof (ER (chj j')) as EV'.
    destruct (c_nonext V bm (chj j)) eqn:N; destruct (c_nonext V bm (chj j')) eqn:N'; cbn [negb orb andb].
    - rewrite (inv_cmp V bm I) by auto. apply is_pre_len in P. rewrite andb_true_r. apply Nat.leb_le. lia.
    - apply is_pre_snoc_r in P. destruct P as [P|P].
      + rewrite (inv_cmp V bm I) by auto. apply is_pre_len in P. rewrite andb_true_r. apply Nat.leb_le. lia.
      + exfalso. specialize (HM' eq_refl).
        rewrite (has_match_of_ext V bm _ _ _ Vpos I VS' VS EV' P) in HM'. discriminate.
    - apply is_pre_snoc_l in P. destruct P as (P1 & P2 & P3).
      rewrite (inv_cmp V bm I) by auto. cbn [andb]. apply andb_true_iff. split; [apply Nat.leb_le; lia|].
      apply Nat.eqb_eq. replace (lens bm (c_src V bm (chj j)) + 1 - 1) with (lens bm (c_src V bm (chj j))) by lia.
      rewrite c_col_low by (auto; lia). rewrite <- LS. auto.
    - apply is_pre_snoc_r in P. destruct P as [P|P].
      + apply is_pre_snoc_l in P. destruct P as (P1 & P2 & P3).
        rewrite (inv_cmp V bm I) by auto. cbn [andb]. apply andb_true_iff. split; [apply Nat.leb_le; lia|].
        apply Nat.eqb_eq. replace (lens bm (c_src V bm (chj j)) + 1 - 1) with (lens bm (c_src V bm (chj j))) by lia.
        rewrite c_col_low by (auto; lia). rewrite <- LS. auto.
      + apply snoc_inj in P. destruct P as [P1 P2].
        assert (ES : c_src V bm (chj j) = c_src V bm (chj j')) by (apply (inv_dist V bm I); auto).
        rewrite (inv_cmp V bm I) by (auto; rewrite P1; apply is_pre_refl). cbn [andb].
        apply andb_true_iff. split; [apply Nat.leb_le; rewrite ES; lia|].
        apply Nat.eqb_eq. replace (lens bm (c_src V bm (chj j)) + 1 - 1) with (lens bm (c_src V bm (chj j))) by lia.
        rewrite ES, c_col_at by auto. auto.
  Qed.

  Lemma clampV_lt : forall x, x < V -> clampV V x = x.
  Proof. intros. unfold clampV. lia. Qed.

  Lemma nx_lastc : forall j, valid nx j -> 0 < lens nx j -> lastc V nx j = last (pref nx j) 0.
  Proof.
    intros j Vj L. destruct (valid_nx j Vj) as (Lj & R & VS & HM).
    unfold lastc, nx. rewrite (nx_last V width fr bm choice Clen). fold K. fold nx.
    apply Nat.ltb_lt in Lj. rewrite Lj. apply Nat.ltb_lt in Lj.
    rewrite lens_nx in L by auto. rewrite pref_nx by auto. unfold c_last, c_len in *.
    destruct (c_nonext V bm (chj j)).
    - rewrite <- (inv_last V bm I) by (auto; lia). unfold lastc, clampV. lia.
    - rewrite last_snoc. apply clampV_lt. apply ER.
  Qed.

  Lemma nx_nbq0 : forall j, valid nx j -> lens nx j = 0 -> nbq nx j = 0%Qc.
  Proof.
    intros j Vj L. destruct (valid_nx j Vj) as (Lj & R & VS & HM). destruct Vj as [_ IV].
    unfold nbq. rewrite IV. unfold nx. rewrite (nx_nb V width fr bm choice Clen). fold K.
    apply Nat.ltb_lt in Lj. rewrite Lj. apply Nat.ltb_lt in Lj.
    rewrite lens_nx in L by auto. unfold c_len, c_nb in *.
    destruct (c_nonext V bm (chj j)); [|lia]. rewrite Nat.add_0_r in L.
    unfold nb_nonext_c. destruct VS as [VS1 VS2]. rewrite VS2. cbn [fin0].
    unfold nb_nonext1, nb_nonext0. rewrite (inv_nb0 V bm I) by (auto; split; auto).
    unfold merged. rewrite qsum_map_zero; [ring|].
    intros k _. unfold ext_is_exact. rewrite L.
    replace (lens bm k + 1 =? 0) with false by (symmetry; apply Nat.eqb_neq; lia). reflexivity.
  Qed.

  (* the step function preserves the invariant, for ANY K distinct in-range indices *)
  Lemma advance_inv : inv V nx.
  Proof.
    constructor.
    - exact Wnx.
    - exact nx_lt.
    - exact nx_dist.
    - exact nx_snd.
    - exact nx_cmp.
    - exact nx_lastc.
    - exact nx_nbq0.
  Qed.
End Preserve.

Lemma init_inv : forall V, inv V init_beam.
Proof.
  intros V. constructor.
  - constructor; cbn; auto.
    + intros k L. assert (k = 0) by lia. subst. reflexivity.
    + intros [|[|k]]; cbn; lia.
  - intros k [L _]. cbn in L. assert (k = 0) by lia. subst. constructor.
  - intros k k' [L _] [L' _] _. cbn in L, L'. lia.
  - intros k k' L L' _. cbn in L, L'. assert (k = 0) by lia. assert (k' = 0) by lia. subst. reflexivity.
  - intros k k' [L _] [L' _] _. cbn in L, L'. assert (k = 0) by lia. assert (k' = 0) by lia. subst. reflexivity.
  - intros k [L _] H. cbn in L. assert (k = 0) by lia. subst. cbn in H. lia.
  - intros k [L _] _. cbn in L. assert (k = 0) by lia. subst. reflexivity.
Qed.
