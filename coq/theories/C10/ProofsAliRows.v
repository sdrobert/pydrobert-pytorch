(* C10 - policy 'ali', part 2: the per-row masks select the documented segment boundaries, and the two global
   nonzero() results are the concatenation of per-row (source, start, end) blocks. *)
From Coq Require Import List ZArith Bool Arith Lia Sorted.
From PV Require Import C10.Model C10.Spec C10.Lists.
Import ListNotations.
Local Open Scope Z_scope.

Lemma nonzero_from_filter : forall (p : nat -> bool) n s,
  nonzero_from (Z.of_nat s) (map p (seq s n)) = map Z.of_nat (filter p (seq s n)).
Proof.
  intros p n; induction n as [|n IH]; intros s; [reflexivity|].
  cbn [seq map nonzero_from filter]. replace (Z.of_nat s + 1) with (Z.of_nat (S s)) by lia.
  destruct (p s); cbn [map]; now rewrite IH.
Qed.

Lemma nth_firstn_lt : forall A (l : list A) k i d, (i < k)%nat -> nth i (firstn k l) d = nth i l d.
Proof.
  intros A l; induction l as [|x l IH]; intros k i d H; [now rewrite firstn_nil|].
  destruct k as [|k]; [lia|]. destruct i as [|i]; [reflexivity|]. cbn. apply IH. lia.
Qed.

(* the boundary test as the code evaluates it, at position t of a row whose length is L *)
Definition bdb (row : list Z) (L : Z) (t : nat) : bool :=
  match t with
  | O => L >? 0
  | S t' => negb (nth t' row 0 =? nth t row 0) && (L >? Z.of_nat t)
  end.
Definition bnds (T : nat) (row : list Z) (L : Z) : list nat := filter (bdb row L) (seq 0 T).
Definition ends_of (B : list nat) (L : nat) : list nat := match B with [] => [] | _ :: B' => B' ++ [L] end.

Definition Lz (T : nat) (inl : option Z) : Z := match inl with Some l => l | None => Z.of_nat T end.

Lemma nonzero_from_filter0 : forall (p : nat -> bool) n,
  nonzero_from 0 (map p (seq 0 n)) = map Z.of_nat (filter p (seq 0 n)).
Proof. intros p n. exact (nonzero_from_filter p n 0). Qed.

Lemma chg_bdb : forall T row inl t, (1 <= t < T)%nat ->
  negb (nth (t - 1) row 0 =? nth t row 0) && match inl with Some l => l >? Z.of_nat t | None => true end
  = bdb row (Lz T inl) t.
Proof.
  intros T row inl t Ht. destruct t as [|t']; [lia|]. cbn [bdb].
  replace (S t' - 1)%nat with t' by lia. f_equal.
  destruct inl as [l|]; cbn [Lz]; [reflexivity|]. symmetry. rewrite Z.gtb_ltb. apply Z.ltb_lt. lia.
Qed.

Lemma row_starts : forall v T row inl, (1 <= T)%nat ->
  nonzero_from 0 (fst (ali_row_masks v T row inl)) = map Z.of_nat (bnds T row (Lz T inl)).
Proof.
  intros v T row inl HT. unfold ali_row_masks, bnds. cbn [fst]. fold (Lz T inl).
  rewrite <- nonzero_from_filter0. f_equal.
  destruct T as [|T']; [lia|]. cbn [seq map bdb]. replace (S T' - 1)%nat with T' by lia. f_equal.
  apply map_ext_in. intros t Ht. apply in_seq in Ht. apply chg_bdb. lia.
Qed.

(* the mask whose nonzero() gives the ends, position by position (repaired variant: T + 1 columns) *)
Definition pe (T : nat) (row : list Z) (L : Z) (t : nat) : bool :=
  (match t with O => false | S _ => (t <? T)%nat && bdb row L t end) || ((L >? 0) && (L =? Z.of_nat t)).

Lemma row_ends_mask : forall v T row inl, d1 v = false -> (1 <= T)%nat ->
  snd (ali_row_masks v T row inl) = map (pe T row (Lz T inl)) (seq 0 (T + 1)).
Proof.
  intros v T row inl Hv HT. unfold ali_row_masks. cbn [snd]. fold (Lz T inl). rewrite Hv.
  set (chg := map _ (seq 1 (T - 1))).
  assert (Hchg : chg = map (bdb row (Lz T inl)) (seq 1 (T - 1))).
  { subst chg. apply map_ext_in. intros t Ht. apply in_seq in Ht. apply chg_bdb. lia. }
  assert (He0 : (false :: chg) ++ [false]
                = map (fun t => match t with O => false | S _ => (t <? T)%nat && bdb row (Lz T inl) t end) (seq 0 (T + 1))).
  { rewrite Hchg. replace (T + 1)%nat with (S (T - 1) + 1)%nat by lia. rewrite seq_app, map_app. cbn [seq map Nat.add]. f_equal.
    - f_equal. apply map_ext_in. intros t Ht. apply in_seq in Ht. destruct t as [|t']; [lia|].
      destruct (Nat.ltb_spec (S t') T); [reflexivity|lia].
    - destruct (Nat.ltb_spec (S (T - 1)) T); [lia|reflexivity]. }
  rewrite He0. unfold zlen. rewrite map_length, seq_length.
  rewrite arange01, Nat2Z.id, map2_map_map. reflexivity.
Qed.

Lemma sorted_app_single : forall l x, StronglySorted lt l -> (forall t, In t l -> (t < x)%nat) -> StronglySorted lt (l ++ [x]).
Proof.
  intros l x H; induction H as [|y l H IH Hy]; intros Hx; cbn.
  - constructor; constructor.
  - constructor.
    + apply IH. intros; apply Hx; now right.
    + rewrite Forall_forall in *. intros t Ht. apply in_app_or in Ht as [Ht|[Ht|[]]]; [now apply Hy|].
      subst t. apply Hx. now left.
Qed.

Lemma bnds_sorted : forall T row L, StronglySorted lt (bnds T row L).
Proof. intros. apply sorted_filter, sorted_seq. Qed.

Lemma bnds_in : forall T row L t, In t (bnds T row L) <-> (t < T)%nat /\ bdb row L t = true.
Proof. intros. unfold bnds. rewrite filter_In, in_seq. intuition lia. Qed.

Lemma bdb_lt : forall row L t, bdb row L t = true -> Z.of_nat t < L.
Proof.
  intros row L [|t] H; cbn [bdb] in H.
  - apply Z.gtb_lt in H. lia.
  - apply andb_true_iff in H as [_ H]. apply Z.gtb_lt in H. lia.
Qed.

Lemma bnds_pos : forall T row L, (1 <= T)%nat -> 0 < L -> bnds T row L = 0%nat :: filter (bdb row L) (seq 1 (T - 1)).
Proof.
  intros T row L HT HL. unfold bnds. destruct T as [|T']; [lia|]. replace (S T' - 1)%nat with T' by lia.
  cbn [seq filter bdb]. destruct (Z.gtb_spec L 0); [reflexivity|lia].
Qed.

Lemma bnds_zero : forall T row L, L <= 0 -> bnds T row L = [].
Proof.
  intros T row L HL. unfold bnds. rewrite (filter_ext_in _ (fun _ => false)); [induction (seq 0 T); cbn; auto|].
  intros a _. destruct (bdb row L a) eqn:E; [|reflexivity]. apply bdb_lt in E. lia.
Qed.

Lemma row_ends : forall T row L, (1 <= T)%nat -> 0 <= L <= Z.of_nat T ->
  filter (pe T row L) (seq 0 (T + 1)) = ends_of (bnds T row L) (Z.to_nat L).
Proof.
  intros T row L HT HL. apply sorted_lt_ext.
  - apply sorted_filter, sorted_seq.
  - pose proof (bnds_sorted T row L) as Hs. destruct (bnds T row L) as [|b B'] eqn:EB; cbn [ends_of]; [constructor|].
    apply StronglySorted_inv in Hs as [Hs _]. apply sorted_app_single; [assumption|].
    intros t Ht. assert (Hin : In t (bnds T row L)) by (rewrite EB; now right).
    apply bnds_in in Hin as [_ Hin]. apply bdb_lt in Hin. lia.
  - intros t. rewrite filter_In, in_seq. unfold pe. rewrite orb_true_iff, andb_true_iff, Z.eqb_eq, Z.gtb_lt.
    destruct (Z.le_gt_cases L 0) as [HL0|HL0].
    + rewrite bnds_zero by assumption. cbn [ends_of In].
      destruct t as [|t']; [intuition lia|]. rewrite andb_true_iff. split; [|tauto].
      intros [_ [[_ H]|H]]; [apply bdb_lt in H|]; lia.
    + rewrite (bnds_pos T row L HT HL0). cbn [ends_of]. rewrite in_app_iff, filter_In, in_seq. cbn [In].
      destruct t as [|t']; [intuition (discriminate || lia)|]. rewrite andb_true_iff, Nat.ltb_lt. intuition lia.
Qed.

(* per row: starts and ends as the code finds them *)
Definition row_S (T : nat) (row : list Z) (L : Z) : list Z := map Z.of_nat (bnds T row L).
Definition row_E (T : nat) (row : list Z) (L : Z) : list Z := map Z.of_nat (ends_of (bnds T row L) (Z.to_nat L)).

Lemma row_SE_length : forall T row L, length (row_S T row L) = length (row_E T row L).
Proof.
  intros. unfold row_S, row_E. rewrite !map_length. destruct (bnds T row L); cbn [ends_of length]; [reflexivity|].
  rewrite app_length. cbn. lia.
Qed.

Lemma row_masks_SE : forall v T row inl, d1 v = false -> (1 <= T)%nat -> 0 <= Lz T inl <= Z.of_nat T ->
  nonzero_from 0 (fst (ali_row_masks v T row inl)) = row_S T row (Lz T inl)
  /\ nonzero_from 0 (snd (ali_row_masks v T row inl)) = row_E T row (Lz T inl).
Proof.
  intros v T row inl Hv HT HL. split; [now apply row_starts|].
  rewrite (row_ends_mask v T row inl Hv HT).
  rewrite nonzero_from_filter0, row_ends by assumption. reflexivity.
Qed.

(* the boundaries are those of the documented definition, on the row cut at its length *)
Lemma bnds_seg_starts : forall T row L, length row = T -> 0 <= L <= Z.of_nat T ->
  seg_starts (firstn (Z.to_nat L) row) (bnds T row L).
Proof.
  intros T row L Hrow HL. split; [apply bnds_sorted|].
  intros t. rewrite bnds_in. unfold is_boundary. rewrite firstn_length, Hrow.
  replace (Nat.min (Z.to_nat L) T) with (Z.to_nat L) by lia.
  destruct t as [|t']; cbn [bdb].
  - rewrite Z.gtb_lt. intuition lia.
  - rewrite andb_true_iff, negb_true_iff, Z.eqb_neq, Z.gtb_lt. replace (S t' - 1)%nat with t' by lia.
    split.
    + intros (Ht & Hb & HtL). split; [lia|right]. now rewrite !nth_firstn_lt by lia.
    + intros (Ht & [Hd|Hb]); [discriminate|]. rewrite !nth_firstn_lt in Hb by lia. intuition lia.
Qed.

(* ---- the global nonzero() results are block-structured ---- *)
Definition blocks_of (rm : nat -> list Z -> list bool * list bool) (s : nat) (rows : list (list Z))
  : list (list (Z * (Z * Z))) :=
  map (fun nr => map (fun se => (Z.of_nat (fst nr), se))
                     (combine (nonzero_from 0 (fst (rm (fst nr) (snd nr)))) (nonzero_from 0 (snd (rm (fst nr) (snd nr))))))
      (enum_from s rows).

Lemma map_const_combine : forall A B C (c : C) (a : list A) (b : list B), length a = length b ->
  map (fun _ => c) a = map (fun _ => c) (combine a b).
Proof.
  intros A B C c a; induction a as [|x a IH]; intros [|y b] H; cbn in *; try lia; [reflexivity|].
  f_equal. apply IH. lia.
Qed.

Lemma nonzero2_blocks : forall rm rows s,
  (forall nr, In nr (enum_from s rows) ->
              length (nonzero_from 0 (fst (rm (fst nr) (snd nr)))) = length (nonzero_from 0 (snd (rm (fst nr) (snd nr))))) ->
  let ms := map (fun nr => rm (fst nr) (snd nr)) (enum_from s rows) in
  let X := concat (blocks_of rm s rows) in
  map snd (nonzero2_from (Z.of_nat s) (map fst ms)) = map (fun x => fst (snd x)) X
  /\ map snd (nonzero2_from (Z.of_nat s) (map snd ms)) = map (fun x => snd (snd x)) X
  /\ map fst (nonzero2_from (Z.of_nat s) (map fst ms)) = map fst X.
Proof.
  intros rm rows; induction rows as [|row rows IH]; intros s Hlen; [repeat split|].
  unfold blocks_of. rewrite enum_from_cons. cbn [map concat nonzero2_from fst snd].
  fold (blocks_of rm (S s) rows).
  replace (Z.of_nat s + 1) with (Z.of_nat (S s)) by lia.
  destruct (IH (S s)) as (I1 & I2 & I3).
  { intros nr Hnr. apply Hlen. rewrite enum_from_cons. now right. }
  specialize (Hlen (s, row) ltac:(rewrite enum_from_cons; now left)). cbn [fst snd] in Hlen.
  rewrite !map_app, I1, I2, I3, !map_map. cbn [fst snd].
  set (Sr := nonzero_from 0 (fst (rm s row))) in *. set (Er := nonzero_from 0 (snd (rm s row))) in *.
  repeat split; f_equal.
  - rewrite map_id. symmetry. apply (map_fst_combine _ _ Sr Er Hlen).
  - rewrite map_id. symmetry. apply (map_snd_combine _ _ Sr Er Hlen).
  - apply map_const_combine. exact Hlen.
Qed.
