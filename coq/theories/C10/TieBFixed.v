(* C10, second source tie — policy 'fixed' of `slice_spect_data`: the interpreted source computes the windows of
   Model.fixed_windows and filters them by in_lens > mid, row by row. *)
From Coq Require Import ZArith QArith List String Bool Arith Lia ZifyBool ZifyNat.
From PV Require Import MiniPy.Syntax MiniPy.Interp MiniTorch.Ops MiniTorch.Value MiniTorch.Lemmas.
From PV Require Import MiniTorch.OpsC10 MiniTorch.ValueC10 MiniTorch.LemmasC10 MiniTorch.OpsC10B MiniTorch.LemmasC10B Gen.C10BSrc.
From PV Require Import C10.SrcRun C10.SrcRunB C10.TieBCommon C10.TieBPrefix.
From PV Require C10.Model.
Import ListNotations.
Local Open Scope string_scope.

(* flattened tabulated tensors: (n*m, k) and (n*m) *)
Definition F3 (n m k : nat) (a : nat -> nat -> nat -> Z) : itens := mkIT [numel [n; m]; k] (D3 n m k (fun i j l => CInt (a i j l))).
Definition F2 (n m : nat) (g : nat -> nat -> cell) : itens := mkIT [numel [n; m]] (D2 n m g).

Lemma xB_arange3 : forall a b s st, (0 < s)%Z -> (a <= b)%Z ->
  extB "torch.arange" [VInt a; VInt b; VInt s] [("device", device_token)] st
  = Ok (enc10 (I1 (Z.to_nat ((b - a + s - 1) / s)) (fun i => (a + Z.of_nat i * s)%Z))) st.
Proof. ext_clause. now rewrite arange3_I1. Qed.
Lemma xB_arange : forall z st, (0 <= z)%Z ->
  extB "torch.arange" [VInt z] [("device", device_token)] st = Ok (enc10 (I1 (Z.to_nat z) Z.of_nat)) st.
Proof. ext_clause. unfold OpsC10.arange. now replace (z <? 0)%Z with false by lia. Qed.
Lemma xB_arange_nat : forall R st,
  extB "torch.arange" [VInt (Z.of_nat R)] [("device", device_token)] st = Ok (enc10 (I1 R Z.of_nat)) st.
Proof. intros. rewrite xB_arange by lia. now rewrite Nat2Z.id. Qed.
Lemma xB_add_I1_int : forall k a z st,
  extB "operator" [VStr "add"; enc10 (I1 k a); VInt z] [] st = Ok (enc10 (I1 k (fun i => (a i + z)%Z))) st.
Proof. ext_clause. unfold OpsC10.add, I1. now rewrite (bcast_C1_scalar _ k _ z (fun i => CInt (a i + z))). Qed.
Lemma xB_sub_I1_int : forall k a z st,
  extB "operator" [VStr "sub"; enc10 (I1 k a); VInt z] [] st = Ok (enc10 (I1 k (fun i => (a i - z)%Z))) st.
Proof. ext_clause. unfold OpsC10.sub, I1. now rewrite (bcast_C1_scalar _ k _ z (fun i => CInt (a i - z))). Qed.
Lemma xB_mul_I1_int : forall k a z st,
  extB "operator" [VStr "mul"; enc10 (I1 k a); VInt z] [] st = Ok (enc10 (I1 k (fun i => (a i * z)%Z))) st.
Proof. ext_clause. unfold mul, I1. now rewrite (bcast_C1_scalar _ k _ z (fun i => CInt (a i * z))). Qed.
Lemma xB_expand_rows : forall k a N st,
  extB "$method.expand" [enc10 (I1 k a); VInt (Z.of_nat N); VInt (-1)] [] st = Ok (enc10 (I2 N k (fun _ j => a j))) st.
Proof. ext_clause. unfold I1. now rewrite expand_to_C1_rows. Qed.
Lemma xB_expand_col : forall n k a st,
  extB "$method.expand" [enc10 (I2 n 1 a); VInt (Z.of_nat n); VInt (Z.of_nat k)] [] st
  = Ok (enc10 (I2 n k (fun i _ => a i 0%nat))) st.
Proof. ext_clause. unfold I2. now rewrite expand_to_C2col. Qed.
Lemma xB_view_col : forall n a st,
  extB "$method.view" [enc10 (I1 n a); VInt (Z.of_nat n); VInt 1] [] st = Ok (enc10 (I2 n 1 (fun i _ => a i))) st.
Proof.
  ext_clause. change [VInt (Z.of_nat n); VInt 1] with (map (fun n => VInt (Z.of_nat n)) [n; 1%nat]).
  rewrite dec_nats_enc. unfold I1. now rewrite view_C1_col.
Qed.
Lemma xB_unsqueeze_1 : forall n a st,
  extB "$method.unsqueeze" [enc10 (I1 n a); VInt 1] [] st = Ok (enc10 (I2 n 1 (fun i _ => a i))) st.
Proof. ext_clause. unfold I1. now rewrite unsqueeze_C1_1. Qed.
Lemma xB_size_1 : forall m k a st, extB "$method.size" [enc10 (I2 m k a); VInt 1] [] st = Ok (VInt (Z.of_nat k)) st.
Proof. ext_clause. reflexivity. Qed.
Lemma xB_stack2 : forall m k f g st,
  extB "torch.stack" [VList [enc10 (I2 m k f); enc10 (I2 m k g)]; VInt 2] [] st
  = Ok (enc10 (I3 m k 2 (fun j l c => pair_cell (f j l) (g j l) c))) st.
Proof.
  ext_clause. unfold I2. rewrite stack2_C2. unfold I3, C3, ret10. do 3 f_equal.
Qed.
Lemma xB_flatten_I3 : forall n m k a st,
  extB "$method.flatten" [enc10 (I3 n m k a)] [("end_dim", VInt 1)] st = Ok (enc10 (F3 n m k a)) st.
Proof. ext_clause. reflexivity. Qed.
Lemma xB_flatten_I2 : forall n m a st,
  extB "$method.flatten" [enc10 (I2 n m a)] [] st = Ok (enc10 (F2 n m (fun i j => CInt (a i j)))) st.
Proof. ext_clause. reflexivity. Qed.
Lemma xB_flatten_B2 : forall n m b st,
  extB "$method.flatten" [enc10 (B2 n m b)] [] st = Ok (enc10 (F2 n m (fun i j => CBool (b i j)))) st.
Proof. ext_clause. reflexivity. Qed.
Lemma xB_gt_col_I1 : forall n r a b st,
  extB "compare" [VStr "gt"; enc10 (I2 n 1 a); enc10 (I1 r b)] [] st
  = Ok (enc10 (B2 n r (fun i j => (a i 0%nat >? b j)%Z))) st.
Proof. ext_clause. now rewrite compare_I2col_I1. Qed.

Lemma bools_F2 : forall n m b, forallb is_bool_cell (idata (F2 n m (fun i j => CBool (b i j)))) = true.
Proof.
  intros. unfold F2. cbn [idata]. apply forallb_forall. intros x Hx. unfold D2 in Hx. apply in_flat_map in Hx.
  destruct Hx as [i [_ Hx]]. unfold D1 in Hx. apply in_map_iff in Hx. destruct Hx as [j [<- _]]. reflexivity.
Qed.

Lemma getitem_mask : forall x m st,
  getitemB (enc10 x) (enc10 m) st
  = if forallb is_bool_cell (idata m) then ret10 "x[mask]" (mask_rows x m) st else ret10 "x[idx]" (index_select1 x m) st.
Proof.
  intros. unfold getitemB. rewrite dec10_enc10. unfold enc10 at 1 2. cbv beta iota. fold (enc10 m).
  change (is_slice (enc10 m)) with (@None (option Z * option Z)). cbv beta iota. now rewrite dec10_enc10.
Qed.

Lemma xB_mask_F3 : forall n m k a b st,
  extB "$getitem" [enc10 (F3 n m k a); enc10 (F2 n m (fun i j => CBool (b i j)))] [] st
  = Ok (enc10 (mkIT [List.length (kept2 n m b); k]
                    (flat_map (fun p => D1 k (fun l => CInt (a (fst p) (snd p) l))) (kept2 n m b)))) st.
Proof.
  ext_clause. rewrite getitem_mask, bools_F2. unfold F3, F2.
  pose proof (mask_rows_D3 n m [k] (fun i j l => CInt (a i j l)) b) as H.
  replace (numel [k]) with k in H by (unfold numel; cbn [fold_right]; lia). now rewrite H.
Qed.
Lemma xB_mask_F2 : forall n m g b st,
  extB "$getitem" [enc10 (F2 n m g); enc10 (F2 n m (fun i j => CBool (b i j)))] [] st
  = Ok (enc10 (V1 (map (fun p => g (fst p) (snd p)) (kept2 n m b)))) st.
Proof. ext_clause. rewrite getitem_mask, bools_F2. unfold F2. now rewrite mask_rows_D2. Qed.

#[export] Hint Resolve xB_arange3 xB_arange xB_arange_nat xB_add_I1_int xB_sub_I1_int xB_mul_I1_int xB_expand_rows xB_expand_col
  xB_view_col xB_unsqueeze_1 xB_size_1 xB_stack2 xB_flatten_I3 xB_flatten_I2 xB_flatten_B2 xB_gt_col_I1 xB_mask_F3
  xB_mask_F2 : c10ext.
#[export] Hint Extern 1 (_ < _)%Z => lia : c10ext.
#[export] Hint Extern 1 (_ <= _)%Z => lia : c10ext.

Lemma filter_true : forall {A} (l : list A), filter (fun _ => true) l = l.
Proof. induction l as [|x l IH]; cbn; [reflexivity|now rewrite IH]. Qed.

Lemma kept2_all_length : forall n m, List.length (kept2 n m (fun _ _ => true)) = numel [n; m].
Proof.
  intros. unfold kept2. rewrite (length_flat_map_const _ _ m).
  - rewrite seq_length. unfold numel. cbn [fold_right]. lia.
  - intros i _. now rewrite map_length, filter_true, seq_length.
Qed.

Lemma F3_all : forall n m k a,
  F3 n m k a = mkIT [List.length (kept2 n m (fun _ _ => true)); k]
                    (flat_map (fun p => D1 k (fun l => CInt (a (fst p) (snd p) l))) (kept2 n m (fun _ _ => true))).
Proof.
  intros. unfold F3. rewrite kept2_all_length. f_equal. unfold kept2, D3, D2.
  rewrite flat_map_flat_map. apply flat_map_ext_in. intros i _. now rewrite filter_true, flat_map_map'.
Qed.

Lemma F2_all : forall n m g,
  F2 n m g = V1 (map (fun p => g (fst p) (snd p)) (kept2 n m (fun _ _ => true))).
Proof.
  intros. unfold F2, V1. rewrite map_length, kept2_all_length. f_equal. unfold kept2, D2, D1.
  rewrite map_flat_map. apply flat_map_ext_in. intros i _. now rewrite filter_true, map_map.
Qed.

Definition fixed_block : stmt := if_then (seq_head (drop_seq 6 slice_body)).

Lemma fixed_policy : forall vs, lookup "policy" vs = Some (VStr "fixed") ->
  exec extB (seq_head (drop_seq 6 slice_body)) (mkState vs []) = exec extB fixed_block (mkState vs []).
Proof. intros vs H. apply exec_if_then. cbv [if_cond seq_head drop_seq slice_body]. run. rewrite H. reflexivity. Qed.

Ltac prog := cbv [seq_head drop_seq if_then if_else if_cond slice_body fixed_block].
Ltac stmt := open_seq prog.
(* in a state of which only some variables are known: what the hypotheses say of it is used whenever a lookup stops the run *)
Ltac look := rewrite ?lookup_update; run; repeat match goal with H : lookup ?x ?vs = _ |- context [lookup ?x ?vs] => rewrite H; run end.
Ltac steps := repeat first [progress look | call extB].

(* the result tensors: all windows / those with in_lens > mid *)
Definition fixed_keep (lf : option (nat -> Z)) (m : nat -> Z) (i j : nat) : bool :=
  match lf with Some l => (l i >? m j)%Z | None => true end.

Definition fixed_slices (N k : nat) (s e : nat -> Z) (b : nat -> nat -> bool) : itens :=
  mkIT [List.length (kept2 N k b); 2%nat]
       (flat_map (fun p => D1 2 (fun l => CInt (pair_cell (s (snd p)) (e (snd p)) l))) (kept2 N k b)).
Definition fixed_sources (N k : nat) (b : nat -> nat -> bool) : itens :=
  V1 (map (fun p => CInt (Z.of_nat (fst p))) (kept2 N k b)).

(* the statements after the branch: in_lens, if given, is a vector of any length L; the length test is the only raise *)
Lemma fixed_tail_run : forall N L k s e m lf vs,
  lookup "starts" vs = Some (enc10 (I1 k s)) -> lookup "ends" vs = Some (enc10 (I1 k e)) ->
  lookup "mids" vs = Some (enc10 (I1 k m)) -> lookup "N" vs = Some (VInt (Z.of_nat N)) ->
  lookup "device" vs = Some device_token -> lookup "in_lens" vs = Some (opt_tensor (option_map (I1 L) lf)) ->
  if match lf with Some _ => Nat.eqb L N | None => true end
  then exists vs', exec extB (drop_seq 2 fixed_block) (mkState vs []) = Ok CNormal (mkState vs' [])
                   /\ lookup "slices" vs' = Some (enc10 (fixed_slices N k s e (fixed_keep lf m)))
                   /\ lookup "sources" vs' = Some (enc10 (fixed_sources N k (fixed_keep lf m)))
  else exists st, exec extB (drop_seq 2 fixed_block) (mkState vs []) = Exc runtime_error st.
Proof.
  intros N L k s e m lf vs Hs He Hm HN Hd Hl.
  assert (Hrun : exists vs1, exec extB (drop_seq 2 fixed_block) (mkState vs []) = exec extB (drop_seq 6 fixed_block) (mkState vs1 [])
            /\ lookup "slices" vs1 = Some (enc10 (F3 N k 2 (fun _ l c => pair_cell (s l) (e l) c)))
            /\ lookup "sources" vs1 = Some (enc10 (F2 N k (fun i _ => CInt (Z.of_nat i))))
            /\ lookup "mids" vs1 = Some (enc10 (I1 k m)) /\ lookup "N" vs1 = Some (VInt (Z.of_nat N))
            /\ lookup "in_lens" vs1 = Some (opt_tensor (option_map (I1 L) lf))).
  { eexists. split.
    - hide_rhs. stmt. steps. unpack. close_stmt.
      stmt. steps. close_stmt.
      stmt. steps. close_stmt.
      stmt. steps. close_stmt. show_rhs. reflexivity.
    - rewrite !lookup_update. cbn [String.eqb Ascii.eqb Bool.eqb]. auto. }
  destruct Hrun as (vs1 & -> & Hsl & Hso & Hm1 & HN1 & Hl1). clear Hs He Hm HN Hd Hl.
  prog. run. destruct lf as [l|]; cbn [option_map opt_tensor] in Hl1; steps.
  - cbn [ishape I1 C1 enc_shape map]. run. destruct (Nat.eqb_spec L N) as [->|Hne].
    + rewrite Z.eqb_refl. run. steps. item. steps. item. steps.
      eexists. split; [reflexivity|]. rewrite !lookup_update. cbn [String.eqb Ascii.eqb Bool.eqb].
      split; reflexivity.
    + replace (Z.of_nat L =? Z.of_nat N)%Z with false by lia. run. eexists. reflexivity.
  - eexists. split; [reflexivity|].
    rewrite Hsl, Hso, F3_all, F2_all. split; reflexivity.
Qed.

Definition head_ok (N T : nat) (lobe : Z) (w : Model.wtype) (vo : bool) (il : option itens) (st0 : state) : Prop :=
  exists k s e m vs,
    exec extB fixed_block st0 = exec extB (drop_seq 2 fixed_block) (mkState vs [])
    /\ lookup "starts" vs = Some (enc10 (I1 k s)) /\ lookup "ends" vs = Some (enc10 (I1 k e))
    /\ lookup "mids" vs = Some (enc10 (I1 k m)) /\ lookup "N" vs = Some (VInt (Z.of_nat N))
    /\ lookup "device" vs = Some device_token /\ lookup "in_lens" vs = Some (opt_tensor il)
    /\ Model.fixed_windows Model.repaired (Z.of_nat T) lobe w vo = D1 k (fun i => (s i, e i, m i)).

Ltac calls := repeat first [call extB | rewrite max_int; run].
(* the statements of a branch but the last; the last one, and out of the branch *)
Ltac branch := repeat (stmt; calls; close_stmt); prog; run.
Ltac head_end := calls; close_stmt; show_rhs; reflexivity.
(* the windows, read off the state the branch ends in *)
Ltac windows :=
  repeat (split; [reflexivity|]); unfold Model.fixed_windows, Model.arange, D1; cbn [Model.d3 Model.repaired]; rewrite map_map.

Lemma fixed_head : forall N T rest data il ol lobe w vo, T <> 0%nat -> (0 <= lobe)%Z ->
  head_ok N T lobe w vo il
    (mkState (prefix_vars (mkIT (N :: T :: rest) data) il ol "fixed" (wt_name w) vo lobe N T) []).
Proof.
  intros N T rest data il ol lobe w vo HT Hl. unfold head_ok, prefix_vars.
  change fixed_block with (drop_seq 0 fixed_block) at 1.
  (* `shift = ..`, then through the tests on window_type / valid_only into the branch taken *)
  destruct w, vo; cbn [wt_name]; do 5 eexists;
    (split; [hide_rhs; stmt; close_stmt; next_stmt; repeat (open_if prog; close_if); enter_seq|]).
  - branch. head_end.
  - windows. reflexivity.
  - (* symmetric, all *)
    stmt. close_stmt. stmt. close_stmt.
    stmt. replace (lobe + 1 =? 0)%Z with false by lia. run. close_stmt.
    stmt. rewrite xB_arange by (apply Z.div_pos; lia). run. calls. close_stmt.
    branch. head_end.
  - windows.
    match goal with |- map _ (seq 0 ?a) = map _ (seq 0 ?b) => replace a with b by (f_equal; rewrite Z.div_1_r; lia) end.
    apply map_ext. intros i. replace (0 + Z.of_nat i * 1)%Z with (Z.of_nat i) by lia. reflexivity.
  - branch. head_end.
  - windows. reflexivity.
  - branch. head_end.
  - windows. reflexivity.
  - branch. head_end.
  - windows. reflexivity.
  - branch. head_end.
  - windows. reflexivity.
Qed.
