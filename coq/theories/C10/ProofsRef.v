(* C10 - policy 'ref': the mask filters exactly the documented segments. *)
From Coq Require Import List ZArith Bool Arith Lia Sorted.
From PV Require Import C10.Model C10.Spec C10.Lists.
Import ListNotations.
Local Open Scope Z_scope.

Lemma ref_window_win : forall wt lobe x, ref_window wt lobe x = ref_win wt lobe x.
Proof. intros [] lobe x; reflexivity. Qed.

Lemma ref_keep_iff : forall wt vo lobe L OL t x,
  ref_keep wt vo lobe L OL t x = true <-> ref_kept wt vo lobe L OL t x.
Proof.
  intros wt vo lobe L OL t x. unfold ref_keep, ref_kept, inside, ref_win.
  destruct wt, vo; cbn [do_left do_right fst snd]; rewrite !andb_true_iff;
    rewrite ?Z.gtb_ltb, ?Z.geb_leb, ?Z.ltb_lt, ?Z.leb_le; intuition lia.
Qed.

Definition ref_len (T : nat) (in_lens : option (list Z)) (n : nat) : Z :=
  match in_lens with Some ls => nth n ls 0 | None => Z.of_nat T end.
Definition ref_other (T : nat) (rows : list (list (Z * Z * Z))) (in_lens other_lens : option (list Z)) (n : nat) : Z :=
  match other_lens with
  | Some os => nth n os 0
  | None => ref_default_other (nth n rows []) (ref_len T in_lens n)
  end.

Lemma ref_default_ok : forall v T row L, d2 v = false -> Z.max (L - 1) 0 < Z.of_nat T ->
  ref_other_default v T row L = Some (ref_default_other row L).
Proof.
  intros v T row L Hv H. unfold ref_other_default, ref_default_other. rewrite Hv.
  destruct (Z.max (L - 1) 0 <? Z.of_nat T) eqn:E; [|apply Z.ltb_ge in E; lia].
  destruct (L =? 0) eqn:E0; [reflexivity|]. do 3 f_equal.
  destruct (Z.le_gt_cases L 0); [|lia]. rewrite !Z2Nat.inj_neg || idtac; lia.
Qed.

Lemma ref_rows_ok : forall v T wt vo lobe in_lens other_lens rows0 rows s,
  d2 v = false ->
  (other_lens = None -> forall i, (i < length rows)%nat -> Z.max (ref_len T in_lens (s + i) - 1) 0 < Z.of_nat T) ->
  (forall i, (i < length rows)%nat -> nth i rows [] = nth (s + i) rows0 []) ->
  ref_rows v T wt vo lobe in_lens other_lens s rows
  = Some (flat_map (fun nr => ref_row wt vo lobe (ref_len T in_lens (fst nr)) (ref_other T rows0 in_lens other_lens (fst nr))
                                      (fst nr) (snd nr)) (enum_from s rows)).
Proof.
  intros v T wt vo lobe in_lens other_lens rows0 rows; induction rows as [|row rest IH]; intros s Hv Hd Hr; [reflexivity|].
  cbn [ref_rows]. rewrite enum_from_cons. cbn [flat_map fst snd].
  fold (ref_len T in_lens s).
  assert (Ho : match other_lens with Some os => Some (nth s os 0) | None => ref_other_default v T row (ref_len T in_lens s) end
               = Some (ref_other T rows0 in_lens other_lens s)).
  { unfold ref_other. destruct other_lens as [os|]; [reflexivity|].
    rewrite ref_default_ok; [|assumption|]. 
    - specialize (Hr 0%nat ltac:(cbn; lia)). cbn [nth] in Hr. rewrite Nat.add_0_r in Hr. now rewrite Hr.
    - specialize (Hd eq_refl 0%nat ltac:(cbn; lia)). now rewrite Nat.add_0_r in Hd. }
  rewrite Ho, (IH (S s)); [reflexivity|assumption| |].
  - intros E i Hi. specialize (Hd E (S i) ltac:(cbn; lia)). now replace (S s + i)%nat with (s + S i)%nat by lia.
  - intros i Hi. specialize (Hr (S i) ltac:(cbn; lia)). cbn [nth] in Hr. now replace (S s + i)%nat with (s + S i)%nat by lia.
Qed.

Definition ref_lens_ok (T : nat) (rows : list (list (Z * Z * Z))) (in_lens other_lens : option (list Z)) : Prop :=
  match other_lens with
  | Some os => length os = length rows
  | None => forall n, (n < length rows)%nat -> Z.max (ref_len T in_lens n - 1) 0 < Z.of_nat T
  end.

Theorem ref_windows_spec : forall v T rows in_lens other_lens wt vo lobe,
  d2 v = false -> ref_lens_ok T rows in_lens other_lens ->
  exists out, slice_ref v T rows in_lens other_lens wt vo lobe = Some out
              /\ ref_spec rows (ref_len T in_lens) (ref_other T rows in_lens other_lens) wt vo lobe out.
Proof.
  intros v T rows in_lens other_lens wt vo lobe Hv Hok. unfold slice_ref. rewrite Hv.
  assert (H1 : match other_lens with Some os => negb (Nat.eqb (length os) (length rows)) | None => false end = false).
  { destruct other_lens as [os|]; [|reflexivity]. cbn in Hok. now rewrite Hok, Nat.eqb_refl. }
  rewrite H1.
  assert (H2 : match other_lens, rows with None, [] => false | _, _ => false end = false)
    by (destruct other_lens, rows; reflexivity).
  rewrite H2.
  rewrite (ref_rows_ok v T wt vo lobe in_lens other_lens rows rows 0 Hv).
  - eexists. split; [reflexivity|].
    exists (fun n => map (fun tx => ref_win wt lobe (snd tx))
                         (filter (fun tx => ref_keep wt vo lobe (ref_len T in_lens n) (ref_other T rows in_lens other_lens n)
                                                     (fst tx) (snd tx)) (enumerate (nth n rows [])))).
    split.
    + rewrite (flat_map_enum_seq _ _ _ [] rows 0). unfold labelled. apply flat_map_ext_in. intros n _.
      cbn [fst snd]. rewrite Nat.sub_0_r. unfold ref_row. rewrite map_map. apply map_ext. intros tx.
      now rewrite ref_window_win.
    + intros n Hn. unfold ref_seq_spec. apply selects_filter. intros; apply ref_keep_iff.
  - intros E i Hi. subst other_lens. cbn in Hok. cbn [Nat.add]. now apply Hok.
  - intros i Hi. reflexivity.
Qed.

Theorem ref_valid_inside : forall rows len other wt lobe out x,
  ref_spec rows len other wt true lobe out -> In x out ->
  exists n : nat, x = (fst x, Z.of_nat n) /\ (n < length rows)%nat /\ inside (other n) (fst x) /\ fst (fst x) < snd (fst x).
Proof.
  intros rows len other wt lobe out x (per & E & H) Hin. subst out.
  apply in_labelled in Hin as (n & Ex & Hn & Hin). exists n. split; [assumption|]. split; [assumption|].
  destruct (H n Hn) as (idx & _ & Hm & Eo). rewrite Eo in Hin.
  apply in_map_iff in Hin as (t & Hw & Ht). apply Hm in Ht as [_ Hk]. rewrite <- Hw.
  unfold ref_kept in Hk. tauto.
Qed.
