(* C10 - policy 'ali', part 4: one block of the model's output is the documented list of slices of that sequence;
   main theorem; the segment starts are determined by the sequence; valid-only slices lie inside it. *)
From Coq Require Import List ZArith Bool Arith Lia Sorted.
From PV Require Import C10.Model C10.Spec C10.Lists C10.ProofsFixed C10.ProofsAliOps C10.ProofsAliRows C10.ProofsAli.
Import ListNotations.
Local Open Scope Z_scope.

Lemma flat_map_if : forall A B (c : A -> bool) (g : A -> B) l,
  flat_map (fun m => if c m then [g m] else []) l = map g (filter c l).
Proof. intros. induction l as [|a l IH]; [reflexivity|]. cbn. destruct (c a); cbn; now rewrite IH. Qed.

Lemma S_nth : forall T row L i, nth i (row_S T row L) 0 = seg_start (bnds T row L) (Z.of_nat i).
Proof. intros. unfold row_S, seg_start. rewrite Nat2Z.id. exact (map_nth Z.of_nat (bnds T row L) 0%nat i). Qed.

Lemma E_nth : forall T row L i, length row = T -> 0 <= L <= Z.of_nat T -> (i < length (bnds T row L))%nat ->
  nth i (row_E T row L) 0 = seg_end (firstn (Z.to_nat L) row) (bnds T row L) (Z.of_nat i).
Proof.
  intros T row L i Hrow HL Hi. unfold row_E, seg_end, zlen.
  destruct (bnds T row L) as [|b B']; [cbn in Hi; lia|]. cbn [ends_of length] in *.
  replace (Z.to_nat (Z.of_nat i + 1)) with (S i) by lia. cbn [nth].
  rewrite (nth_indep _ 0 (Z.of_nat 0)) by (rewrite map_length, app_length; cbn; lia).
  rewrite map_nth. destruct (Z.ltb_spec (Z.of_nat i + 1) (Z.of_nat (S (length B')))).
  - rewrite app_nth1 by lia. reflexivity.
  - rewrite app_nth2 by lia. replace (i - length B')%nat with 0%nat by lia. cbn [nth].
    rewrite firstn_length, Hrow. lia.
Qed.

Lemma block_out_spec : forall (sg : nat -> list (Z * Z)) n T row L wt vo lobe,
  length row = T -> 0 <= L <= Z.of_nat T -> 0 <= lobe ->
  sg n = combine (row_S T row L) (row_E T row L) ->
  block_out sg wt vo lobe n
  = flat_map (fun m => ali_slice (firstn (Z.to_nat L) row) (bnds T row L) wt vo lobe (Z.of_nat m))
             (seq 0 (length (bnds T row L))).
Proof.
  intros sg n T row L wt vo lobe Hrow HL Hl Hsg.
  set (B := bnds T row L). set (a := firstn (Z.to_nat L) row).
  assert (HM : length (sg n) = length B).
  { rewrite Hsg, combine_length, <- row_SE_length. unfold row_S. rewrite map_length. fold B. lia. }
  assert (Hs : forall i, sg_s sg n i = seg_start B (Z.of_nat i)).
  { intros i. unfold sg_s. rewrite Hsg, combine_nth by apply row_SE_length. cbn [fst]. apply S_nth. }
  assert (He : forall i, (i < length B)%nat -> sg_e sg n i = seg_end a B (Z.of_nat i)).
  { intros i Hi. unfold sg_e. rewrite Hsg, combine_nth by apply row_SE_length. cbn [snd]. now apply E_nth. }
  unfold block_out. rewrite HM. unfold ali_slice. destruct vo.
  - (* valid_only: slice m exists iff segments m - lobe and m + lobe (as applicable) exist *)
    rewrite (flat_map_if nat (Z * Z)
               (fun m => (0 <=? (if do_left wt then Z.of_nat m - lobe else Z.of_nat m))
                         && ((if do_right wt then Z.of_nat m + lobe else Z.of_nat m) <? zlen B))
               (fun m => (seg_start B (if do_left wt then Z.of_nat m - lobe else Z.of_nat m),
                          seg_end a B (if do_right wt then Z.of_nat m + lobe else Z.of_nat m)))).
    set (l := lobe_l wt lobe). set (r := lobe_r wt lobe).
    assert (Hfil : filter (fun m => (0 <=? (if do_left wt then Z.of_nat m - lobe else Z.of_nat m))
                                    && ((if do_right wt then Z.of_nat m + lobe else Z.of_nat m) <? zlen B))
                          (seq 0 (length B))
                   = seq l (length B - (l + r))).
    { apply sorted_lt_ext; [apply sorted_filter, sorted_seq|apply sorted_seq|].
      intros m. rewrite filter_In, !in_seq, andb_true_iff, Z.leb_le, Z.ltb_lt. unfold zlen.
      subst l r. unfold lobe_l, lobe_r. destruct wt; cbn [do_left do_right]; lia. }
    rewrite Hfil. replace (seq l (length B - (l + r))) with (seq (0 + l) (length B - (l + r))) by reflexivity.
    rewrite map_seq_shift. apply map_ext_in. intros i Hi. apply in_seq in Hi.
    rewrite Hs, He by lia. subst l r. unfold lobe_l, lobe_r.
    destruct wt; cbn [do_left do_right]; f_equal; f_equal; lia.
  - (* otherwise: clamp to the first / last segment of the sequence *)
    rewrite flat_map_singleton. apply map_ext_in. intros i Hi. apply in_seq in Hi.
    rewrite Hs, He by lia. unfold lobe_l, lobe_r, zlen.
    destruct wt; cbn [do_left do_right]; f_equal; f_equal; lia.
Qed.

(* ---- main theorem ---- *)
Definition inl_of (in_lens : option (list Z)) (n : nat) : option Z :=
  match in_lens with None => None | Some ls => Some (nth n ls 0) end.
Definition ali_rm (v : variant) (T : nat) (in_lens : option (list Z)) (n : nat) (row : list Z) :=
  ali_row_masks v T row (inl_of in_lens n).
Definition ali_sg (T : nat) (rows : list (list Z)) (in_lens : option (list Z)) (n : nat) : list (Z * Z) :=
  combine (row_S T (nth n rows []) (len_of (Z.of_nat T) in_lens n))
          (row_E T (nth n rows []) (len_of (Z.of_nat T) in_lens n)).

Lemma Lz_len_of : forall T in_lens n, Lz T (inl_of in_lens n) = len_of (Z.of_nat T) in_lens n.
Proof. intros T [ls|] n; reflexivity. Qed.

Lemma len_of_range : forall N T in_lens n, lens_ok N (Z.of_nat T) in_lens -> (n < N)%nat ->
  0 <= len_of (Z.of_nat T) in_lens n <= Z.of_nat T.
Proof.
  intros N T [ls|] n Hok Hn; cbn [len_of lens_ok] in *; [|lia].
  destruct Hok as [Hlen Hall]. rewrite Forall_forall in Hall. apply Hall, nth_In. lia.
Qed.

Theorem ali_windows_spec : forall v T rows in_lens wt vo lobe,
  d1 v = false -> d4 v = false -> (1 <= T)%nat -> 0 <= lobe ->
  Forall (fun r => length r = T) rows -> lens_ok (length rows) (Z.of_nat T) in_lens ->
  exists out, slice_ali v T rows in_lens wt vo lobe = Some out
              /\ ali_spec rows (len_of (Z.of_nat T) in_lens) wt vo lobe out.
Proof.
  intros v T rows in_lens wt vo lobe Hd1 Hd4 HT Hl Hrows Hok. unfold slice_ali.
  assert (Hchk : match in_lens with Some ls => negb (Nat.eqb (length ls) (length rows)) | None => false end = false).
  { destruct in_lens as [ls|]; [|reflexivity]. destruct Hok as [Hlen _]. now rewrite Hlen, Nat.eqb_refl. }
  rewrite Hchk, Hd4.
  assert (Hmasks : ali_masks v T rows in_lens = map (fun nr => ali_rm v T in_lens (fst nr) (snd nr)) (enum_from 0 rows))
    by reflexivity.
  rewrite Hmasks.
  assert (Hrow : forall n, (n < length rows)%nat ->
                           nonzero_from 0 (fst (ali_rm v T in_lens n (nth n rows [])))
                           = row_S T (nth n rows []) (len_of (Z.of_nat T) in_lens n)
                           /\ nonzero_from 0 (snd (ali_rm v T in_lens n (nth n rows [])))
                              = row_E T (nth n rows []) (len_of (Z.of_nat T) in_lens n)).
  { intros n Hn. unfold ali_rm. rewrite <- Lz_len_of. apply row_masks_SE; try assumption.
    rewrite Lz_len_of. now apply (len_of_range (length rows)). }
  assert (Hlen : forall nr, In nr (enum_from 0 rows) ->
                            length (nonzero_from 0 (fst (ali_rm v T in_lens (fst nr) (snd nr))))
                            = length (nonzero_from 0 (snd (ali_rm v T in_lens (fst nr) (snd nr))))).
  { intros nr Hnr. destruct (In_enumerate _ rows nr [] Hnr) as [Hn En]. rewrite En. destruct (Hrow _ Hn) as [E1 E2].
    rewrite E1, E2. apply row_SE_length. }
  pose proof (nonzero2_blocks (ali_rm v T in_lens) rows 0 Hlen) as HB. cbn [Z.of_nat] in HB.
  destruct HB as (E1 & E2 & E3). rewrite E1, E2, E3.
  assert (Hwf : blocks_wf (blocks_of (ali_rm v T in_lens) 0 rows) (ali_sg T rows in_lens)).
  { intros n Hn. unfold blocks_of in *. rewrite map_length, enum_from_length in Hn.
    rewrite (nth_map_enum_from _ _ _ _ rows n []) by assumption. cbn [fst snd Nat.add].
    destruct (Hrow n Hn) as [F1 F2]. rewrite F1, F2. reflexivity. }
  rewrite (ali_lobes_blocks _ _ wt vo lobe Hwf Hl).
  eexists. split; [reflexivity|].
  unfold blocks_of. rewrite map_length, enum_from_length.
  exists (block_out (ali_sg T rows in_lens) wt vo lobe). split; [reflexivity|].
  intros n Hn. exists (bnds T (nth n rows []) (len_of (Z.of_nat T) in_lens n)).
  assert (Hr : length (nth n rows []) = T) by (rewrite Forall_forall in Hrows; apply Hrows, nth_In; assumption).
  pose proof (len_of_range (length rows) T in_lens n Hok Hn) as HL.
  split.
  - now apply bnds_seg_starts.
  - apply (block_out_spec _ n T); try assumption. reflexivity.
Qed.

(* ---- the spec determines its output ---- *)
Lemma seg_starts_unique : forall a B1 B2, seg_starts a B1 -> seg_starts a B2 -> B1 = B2.
Proof.
  intros a B1 B2 [S1 M1] [S2 M2]. apply sorted_lt_ext; try assumption. intros t. rewrite M1, M2. tauto.
Qed.

(* ---- valid_only slices lie inside their sequence ---- *)
Lemma seg_bounds : forall a B, seg_starts a B -> forall m, (m < length B)%nat ->
  0 <= seg_start B (Z.of_nat m) /\ seg_end a B (Z.of_nat m) <= zlen a.
Proof.
  intros a B [HS HM] m Hm. unfold seg_start, seg_end, zlen. split; [lia|].
  destruct (Z.ltb_spec (Z.of_nat m + 1) (Z.of_nat (length B))); [|lia].
  assert (Hin : In (nth (Z.to_nat (Z.of_nat m + 1)) B 0%nat) B) by (apply nth_In; lia).
  apply HM in Hin. destruct Hin as [Hin _]. lia.
Qed.

Theorem ali_valid_inside : forall rows len wt lobe out x, 0 <= lobe ->
  ali_spec rows len wt true lobe out -> In x out ->
  exists n : nat, x = (fst x, Z.of_nat n) /\ (n < length rows)%nat
                  /\ inside (zlen (firstn (Z.to_nat (len n)) (nth n rows []))) (fst x).
Proof.
  intros rows len wt lobe out x Hl (per & E & H) Hin. subst out.
  apply in_labelled in Hin as (n & Ex & Hn & Hin). exists n. split; [assumption|]. split; [assumption|].
  destruct (H n Hn) as (B & HB & Eo). rewrite Eo in Hin.
  apply in_flat_map in Hin as (m & Hm & Hin). apply in_seq in Hm. unfold ali_slice in Hin.
  set (lo := if do_left wt then Z.of_nat m - lobe else Z.of_nat m) in *.
  set (hi := if do_right wt then Z.of_nat m + lobe else Z.of_nat m) in *.
  destruct ((0 <=? lo) && (hi <? zlen B)) eqn:Ec; [|contradiction].
  destruct Hin as [Hin|[]]. rewrite <- Hin. apply andb_true_iff in Ec as [E1 E2].
  apply Z.leb_le in E1. apply Z.ltb_lt in E2. unfold zlen in E2.
  pose proof (seg_bounds _ B HB (Z.to_nat lo) ltac:(subst lo hi; destruct wt; cbn [do_left do_right] in *; lia)) as [P1 _].
  pose proof (seg_bounds _ B HB (Z.to_nat hi) ltac:(lia)) as [_ P2].
  rewrite Z2Nat.id in P1, P2 by (subst lo hi; destruct wt; cbn [do_left do_right] in *; lia).
  split; assumption.
Qed.
