(* C10 — the tie, part 1 (no interpreter here): the tensors the interpreted source ends with, written as
   tabulated index functions (what Tie.v's symbolic run produces), ARE the model's result; and reading the
   defined cells of that result back gives the model's lists.  Pure list reasoning. *)
From Coq Require Import ZArith List Bool Arith Lia.
From PV Require Import MiniTorch.Ops MiniTorch.OpsC10 MiniTorch.LemmasC10.
From PV Require Import C10.Model C10.Spec C10.Lists C10.ProofsTokens C10.SrcRun.
Import ListNotations.
Local Open Scope Z_scope.

(* ---- the index functions ------------------------------------------------------------------------------------ *)
Definition tok0 : Z * Z * Z := (0, 0, 0).
Definition tcell (x : Z * Z * Z) (c : nat) : Z :=
  match c with O => tk_tok x | S O => tk_start x | _ => tk_end x end.
Definition rfun (refs : list (list (Z * Z * Z))) (n r c : nat) : Z := tcell (nth r (nth n refs []) tok0) c.
Definition sfun (slices : list (Z * Z)) (n c : nat) : Z :=
  match c with O => fst (nth n slices (0, 0)) | _ => snd (nth n slices (0, 0)) end.
Definition lfun (ls : list Z) (n : nat) : Z := nth n ls 0.

(* chunked_lens[i] as the code computes it: mask.long().sum(1) *)
Definition count_row (R : nat) (keep : nat -> bool) : Z := zsum (D1 R (fun l => if keep l then 1 else 0)).

(* the mask after `mask = mask & (refs[..., 1:] >= 0).all(2) & ...` and the `if partial` statement *)
Definition head_keep (rf : nat -> nat -> nat -> Z) (sf : nat -> nat -> Z) (rl : option (nat -> Z)) (partial : bool)
  (i j : nat) : bool :=
  (match rl with Some lf => lf i >? Z.of_nat j | None => true end
   && ((rf i j 1%nat >=? 0) && ((rf i j 2%nat >=? 0) && true))
   && (rf i j 2%nat >=? rf i j 1%nat))
  && (if partial then sf i 0%nat <? rf i j 2%nat else sf i 0%nat <=? rf i j 1%nat)
  && (if partial then sf i 1%nat >? rf i j 1%nat else sf i 1%nat >=? rf i j 2%nat).

(* cell (i, r, l) of `chunked` after masked_scatter_: component l of the r-th kept triple of row i, if any *)
Definition kept_cell (R : nat) (rf : nat -> nat -> nat -> Z) (keep : nat -> nat -> bool) (i r l : nat) : option Z :=
  option_map (fun p => rf i p l) (nth_error (kept_idx R (keep i)) r).

(* ... and after `chunked[..., 1:] += slices[..., 0]...` when retain is false *)
Definition out_cell (retain : bool) (R : nat) rf (sf : nat -> nat -> Z) keep (i r l : nat) : option Z :=
  if retain then kept_cell R rf keep i r l
  else match l with
       | O => kept_cell R rf keep i r O
       | S l' => option_map (fun z => z + sf i 0%nat) (kept_cell R rf keep i r (S l'))
       end.

Lemma zsum_count : forall R keep, count_row R keep = Z.of_nat (length (kept_idx R keep)).
Proof.
  intros R keep. unfold count_row, kept_idx, D1. induction (seq 0 R) as [|l s IH]; [reflexivity|].
  cbn [map zsum fold_right filter]. fold (zsum (map (fun l => if keep l then 1 else 0) s)). rewrite IH.
  destruct (keep l); cbn [length]; lia.
Qed.

(* ---- the model's inputs are tabulated tensors ------------------------------------------------------------------ *)
Lemma tok_cells_D1 : forall x, tok_cells x = D1 3 (fun c => CInt (tcell x c)).
Proof. reflexivity. Qed.

Lemma refs_tensor_tab : forall R refs, Forall (fun r => length r = R) refs ->
  refs_tensor R refs = I3 (length refs) R 3 (rfun refs).
Proof.
  intros R refs H. unfold refs_tensor, I3, C3. f_equal. unfold D3.
  rewrite <- (flat_map_nth_seq (flat_map tok_cells) refs []).
  apply flat_map_ext_in. intros n Hn. apply in_seq in Hn.
  assert (HR : length (nth n refs []) = R).
  { rewrite Forall_forall in H. apply H. apply nth_In. lia. }
  rewrite <- (flat_map_nth_seq tok_cells (nth n refs []) tok0), HR. unfold D2.
  apply flat_map_ext_in. intros r _. apply tok_cells_D1.
Qed.

Lemma slices_tensor_tab : forall slices, slices_tensor slices = I2 (length slices) 2 (sfun slices).
Proof.
  intros slices. unfold slices_tensor, I2, C2. f_equal. unfold D2.
  rewrite <- (flat_map_nth_seq (fun w => [CInt (fst w); CInt (snd w)]) slices (0, 0)).
  apply flat_map_ext_in. intros n _. reflexivity.
Qed.

Lemma vec_tensor_tab : forall ls, vec_tensor ls = I1 (length ls) (lfun ls).
Proof.
  intros ls. unfold vec_tensor, I1, C1, D1. f_equal.
  rewrite (list_as_map _ ls 0) at 1. now rewrite map_map.
Qed.

Lemma I1_ext : forall k a b, (forall l, (l < k)%nat -> a l = b l) -> I1 k a = I1 k b.
Proof. intros k a b H. unfold I1, C1. f_equal. apply D1_ext. intros l Hl. now rewrite H. Qed.

(* ---- the mask is the model's tok_keep ---------------------------------------------------------------------------- *)
Definition rl_of (ref_lens : option (list Z)) : option (nat -> Z) := option_map lfun ref_lens.

Lemma keep_model : forall refs slices ref_lens partial n r,
  head_keep (rfun refs) (sfun slices) (rl_of ref_lens) partial n r
  = tok_keep partial (rowL ref_lens n) (nth n slices (0, 0)) r (nth r (nth n refs []) tok0).
Proof.
  intros refs slices ref_lens partial n r. unfold head_keep, tok_keep, rfun, sfun, tcell, rl_of, rowL, lfun.
  destruct ref_lens as [ls|]; destruct partial; cbn [option_map]; rewrite ?andb_true_r, ?andb_true_l, <- ?andb_assoc; reflexivity.
Qed.

Lemma kept_row_idx : forall refs slices ref_lens partial R n, length (nth n refs []) = R ->
  kept_row partial (rowL ref_lens n) (nth n slices (0, 0)) (nth n refs [])
  = map (fun p => nth p (nth n refs []) tok0)
        (kept_idx R (head_keep (rfun refs) (sfun slices) (rl_of ref_lens) partial n)).
Proof.
  intros refs slices ref_lens partial R n HR. unfold kept_row, kept_idx.
  rewrite (enumerate_as_map _ tok0), HR, filter_map_comm, map_map. cbn [fst snd].
  f_equal. apply filter_ext_in. intros r _. symmetry. apply keep_model.
Qed.

(* ---- one row of the result ------------------------------------------------------------------------------------------ *)
Definition out_tok (retain : bool) (sl : Z * Z) (x : Z * Z * Z) : Z * Z * Z := shift_of as_coded retain sl x.

Lemma row_cells : forall (retain : bool) R rf sf keep (row : list (Z * Z * Z)) (sl : Z * Z) i,
  (forall p c, rf i p c = tcell (nth p row tok0) c) -> sf i 0%nat = fst sl ->
  let ki := kept_idx R (keep i) in
  flat_map tok_cells (map (fun p => out_tok retain sl (nth p row tok0)) ki)
    ++ repeat CUndef (3 * (R - length (map (fun p => out_tok retain sl (nth p row tok0)) ki)))
  = D2 R 3 (fun r c => ocell (out_cell retain R rf sf keep i r c)).
Proof.
  intros retain R rf sf keep row sl i Hrf Hsf ki.
  assert (Hle : (length ki <= R)%nat).
  { subst ki. unfold kept_idx. etransitivity; [apply filter_len_le'|]. now rewrite seq_length. }
  rewrite map_length. unfold D2. replace R with (length ki + (R - length ki))%nat at 2 by lia.
  rewrite seq_app, flat_map_app. cbn [Nat.add]. f_equal.
  - rewrite flat_map_map'. rewrite <- (flat_map_nth_seq (fun p => tok_cells (out_tok retain sl (nth p row tok0))) ki 0%nat).
    apply flat_map_ext_in. intros r Hr. apply in_seq in Hr.
    unfold out_cell, kept_cell. fold ki. rewrite (nth_error_nth' ki 0%nat) by lia. cbn [option_map].
    unfold out_tok, shift_of, shift_tok. destruct retain; cbn [k1 as_coded D1 seq map ocell option_map tok_cells tk_tok tk_start tk_end fst snd];
      rewrite ?Hrf, ?Hsf; reflexivity.
  - rewrite (flat_map_ext_in _ (fun _ => repeat CUndef 3)).
    + rewrite flat_map_const_repeat. f_equal. lia.
    + intros r Hr. apply in_seq in Hr. unfold out_cell, kept_cell. fold ki.
      replace (nth_error ki r) with (@None nat) by (symmetry; apply nth_error_None; lia).
      destruct retain; reflexivity.
Qed.

(* ---- the whole result ------------------------------------------------------------------------------------------------ *)
Definition lens_shape_ok (N : nat) (ref_lens : option (list Z)) : Prop :=
  match ref_lens with Some ls => length ls = N | None => True end.

Theorem tab_result_is_model : forall R refs slices ref_lens partial retain,
  Forall (fun r => length r = R) refs -> length slices = length refs ->
  let N := length refs in
  let keep := head_keep (rfun refs) (sfun slices) (rl_of ref_lens) partial in
  let M := chunk_tokens as_coded refs slices ref_lens partial retain in
  O3 N R 3 (out_cell retain R (rfun refs) (sfun slices) keep) = chunked_tensor R (fst M)
  /\ I1 N (fun i => count_row R (keep i)) = vec_tensor (snd M).
Proof.
  intros R refs slices ref_lens partial retain HR Hl N keep M.
  assert (Hn : forall n, (n < N)%nat ->
            nth n (fst M) [] = map (fun p => out_tok retain (nth n slices (0, 0)) (nth p (nth n refs []) tok0)) (kept_idx R (keep n))
            /\ nth n (snd M) 0 = zlen (nth n (fst M) [])).
  { intros n Hn. destruct (chunk_tokens_nth as_coded refs slices ref_lens partial retain R n HR Hl Hn) as (_ & _ & E & El).
    fold M in E, El. split; [|exact El]. rewrite E. unfold row_out.
    rewrite (kept_row_idx refs slices ref_lens partial R n), map_map; [reflexivity|].
    rewrite Forall_forall in HR. apply HR. apply nth_In. exact Hn. }
  assert (HL1 : length (fst M) = N /\ length (snd M) = N).
  { destruct refs as [|r0 refs'].
    - subst M N. cbn. destruct retain; split; reflexivity.
    - destruct (chunk_tokens_nth as_coded (r0 :: refs') slices ref_lens partial retain R 0 HR Hl) as (L1 & L2 & _);
        [cbn; lia|]. fold M in L1, L2. now split. }
  destruct HL1 as [L1 L2]. split.
  - unfold chunked_tensor, O3, C3. rewrite L1. f_equal. unfold D3.
    rewrite <- (flat_map_nth_seq (fun row => flat_map tok_cells row ++ repeat CUndef (3 * (R - length row))) (fst M) []), L1.
    apply flat_map_ext_in. intros n Hn'. apply in_seq in Hn'. destruct (Hn n) as [E _]; [lia|]. rewrite E.
    symmetry. apply (row_cells retain R (rfun refs) (sfun slices) keep (nth n refs []) (nth n slices (0, 0)) n); reflexivity.
  - rewrite vec_tensor_tab, L2. apply I1_ext. intros n Hn'. destruct (Hn n Hn') as [E El].
    unfold lfun. rewrite El, E. unfold zlen. rewrite map_length. apply zsum_count.
Qed.

(* ---- reading the defined cells back ------------------------------------------------------------------------------------ *)
Lemma toks_of_tok_cells : forall row, toks_of_cells (flat_map tok_cells row) = Some row.
Proof.
  induction row as [|[[a b] c] row IH]; [reflexivity|].
  cbn [flat_map tok_cells app toks_of_cells tk_tok tk_start tk_end fst snd]. now rewrite IH.
Qed.

Lemma length_tok_cells : forall row, length (flat_map tok_cells row) = (3 * length row)%nat.
Proof. induction row as [|x row IH]; [reflexivity|]. cbn [flat_map tok_cells app length]. rewrite IH. lia. Qed.

Lemma all_some_map2_rows : forall R (rows : list (list (Z * Z * Z))) (lens : list Z),
  length lens = length rows ->
  (forall n, (n < length rows)%nat -> nth n lens 0 = zlen (nth n rows []) /\ (length (nth n rows []) <= R)%nat) ->
  all_some (map2 (fun row l => toks_of_cells (firstn (3 * Z.to_nat l) row))
              (map (fun row => flat_map tok_cells row ++ repeat CUndef (3 * (R - length row))) rows) lens)
  = Some rows.
Proof.
  intros R rows. induction rows as [|row rows IH]; intros lens Hl H; destruct lens as [|l lens]; cbn in Hl; try discriminate;
    [reflexivity|].
  unfold map2. cbn [map combine all_some fst snd]. fold (map2 (fun row l => toks_of_cells (firstn (3 * Z.to_nat l) row))
              (map (fun row => flat_map tok_cells row ++ repeat CUndef (3 * (R - length row))) rows) lens).
  destruct (H 0%nat) as [E0 _]; [cbn; lia|]. cbn [nth] in E0. subst l. unfold zlen. rewrite Nat2Z.id.
  rewrite <- length_tok_cells, firstn_app_exact, toks_of_tok_cells.
  rewrite IH; [reflexivity|lia|]. intros n Hn. apply (H (S n)). cbn. lia.
Qed.

Lemma chunks_rows : forall (k : nat) (blocks : list (list cell)),
  Forall (fun b => length b = k) blocks -> chunks (length blocks) k (concat blocks) = blocks.
Proof. intros. now apply chunks_concat. Qed.

Theorem read_model_result : forall R (rows : list (list (Z * Z * Z))) (lens : list Z),
  length lens = length rows ->
  (forall n, (n < length rows)%nat -> nth n lens 0 = zlen (nth n rows []) /\ (length (nth n rows []) <= R)%nat) ->
  read_result (chunked_tensor R rows) (vec_tensor lens) = Some (rows, lens).
Proof.
  intros R rows lens Hl H. unfold read_result, chunked_tensor, vec_tensor. cbn [ishape idata].
  rewrite map_map. cbn [as_int].
  rewrite (all_some_map_ext (fun z : Z => Some z) (fun z => z) lens) by reflexivity. rewrite map_id.
  rewrite Hl, !Nat.eqb_refl. cbn [andb].
  rewrite <- concat_map_flat.
  replace (length rows) with (length (map (fun row => flat_map tok_cells row ++ repeat CUndef (3 * (R - length row))) rows)) at 1
    by apply map_length.
  rewrite chunks_rows.
  - rewrite (all_some_map2_rows R rows lens Hl H). reflexivity.
  - apply Forall_forall. intros b Hb. apply in_map_iff in Hb. destruct Hb as [row [<- Hin]].
    rewrite app_length, length_tok_cells, repeat_length.
    destruct (In_nth _ _ [] Hin) as [n [Hn En]]. destruct (H n Hn) as [_ Hle]. rewrite En in Hle. lia.
Qed.
