(* C10, second source tie — policy 'fixed', whole function: for every input tensor with at least two dimensions, every
   in_lens (omitted, or N lengths), window type, validity setting and lobe size >= 0, the interpreted source of
   `slice_spect_data` returns exactly the windows and sources of Model.slice_fixed (repaired = what /repo does today). *)
From Coq Require Import ZArith QArith List String Bool Arith Lia ZifyBool ZifyNat.
From PV Require Import MiniPy.Syntax MiniPy.Interp MiniTorch.Ops MiniTorch.Value MiniTorch.Lemmas.
From PV Require Import MiniTorch.OpsC10 MiniTorch.ValueC10 MiniTorch.LemmasC10 MiniTorch.OpsC10B MiniTorch.LemmasC10B Gen.C10BSrc.
From PV Require Import C10.SrcRun C10.SrcRunB C10.TieBCommon C10.TieBPrefix C10.TieBFixed C10.TieModel.
From PV Require C10.Model.
Import ListNotations.
Local Open Scope string_scope.

(* the model's list, row by row, is the image of the kept (row, window) pairs *)
Lemma fixed_out_kept : forall N k s e m (ls : option (list Z)),
  flat_map (fun n => map (fun w => (Model.win_of w, Z.of_nat n))
                         (match ls with
                          | None => D1 k (fun i => (s i, e i, m i))
                          | Some l => filter (fun w => (nth n l 0 >? snd w)%Z) (D1 k (fun i => (s i, e i, m i)))
                          end)) (seq 0 N)
  = map (fun p => ((s (snd p), e (snd p)), Z.of_nat (fst p))) (kept2 N k (fixed_keep (option_map lfun ls) m)).
Proof.
  intros. unfold kept2. rewrite map_flat_map. apply flat_map_ext_in. intros n _.
  rewrite map_map. unfold D1. destruct ls as [l|]; cbn [option_map fixed_keep].
  - rewrite filter_map_comm, map_map. reflexivity.
  - rewrite filter_true, map_map. reflexivity.
Qed.

Lemma fixed_result_model : forall N k s e m ls out,
  out = map (fun p => ((s (snd p), e (snd p)), Z.of_nat (fst p))) (kept2 N k (fixed_keep (option_map lfun ls) m)) ->
  fixed_slices N k s e (fixed_keep (option_map lfun ls) m) = slices_tensor (map fst out)
  /\ fixed_sources N k (fixed_keep (option_map lfun ls) m) = vec_tensor (map snd out).
Proof.
  intros N k s e m ls out ->. unfold fixed_slices, fixed_sources, slices_tensor, vec_tensor, V1.
  rewrite !map_length, !map_map. cbn [fst snd]. split.
  - f_equal. rewrite flat_map_map'. reflexivity.
  - reflexivity.
Qed.

Lemma wt_ok_name : forall w, wt_ok (wt_name w) = true.
Proof. destruct w; reflexivity. Qed.

(* `return slices, sources` *)
Lemma fixed_return : forall N k s e m ls vs,
  lookup "slices" vs = Some (enc10 (fixed_slices N k s e (fixed_keep (option_map lfun ls) m))) ->
  lookup "sources" vs = Some (enc10 (fixed_sources N k (fixed_keep (option_map lfun ls) m))) ->
  exec extB (drop_seq 7 slice_body) (mkState vs [])
  = Ok (CReturn (slices_value (map (fun p => ((s (snd p), e (snd p)), Z.of_nat (fst p)))
                                   (kept2 N k (fixed_keep (option_map lfun ls) m))))) (mkState vs []).
Proof.
  intros N k s e m ls vs Hsl Hso. cbv [drop_seq slice_body]. run. rewrite Hsl. run. rewrite Hso. run.
  unfold slices_value. destruct (fixed_result_model N k s e m ls _ eq_refl) as [E1 E2]. now rewrite <- E1, <- E2.
Qed.

(* policy 'fixed', every outcome: the windows and sources of the model, or RuntimeError where the model has None
   (in_lens of a length other than N) *)
Theorem fixed_tie_total : forall N T rest data ol in_lens w vo lobe, T <> 0%nat -> (0 <= lobe)%Z ->
  exists st, run_slice_raw (mkIT (N :: T :: rest) data) (option_map vec_tensor in_lens) ol "fixed" (wt_name w) vo lobe
             = match Model.slice_fixed Model.repaired N (Z.of_nat T) in_lens w vo lobe with
               | Some out => Ok (slices_value out) st
               | None => Exc runtime_error st
               end.
Proof.
  intros N T rest data ol in_lens w vo lobe HT Hl.
  destruct (fixed_head N T rest data (option_map vec_tensor in_lens) ol lobe w vo HT Hl)
    as (k & s & e & m & vs & Hrun & Hs & He & Hmi & HN & Hd & Hil & Hw).
  assert (Hil' : lookup "in_lens" vs
                 = Some (opt_tensor (option_map (I1 (match in_lens with Some l => List.length l | None => N end))
                                                (option_map lfun in_lens)))).
  { rewrite Hil. destruct in_lens as [l|]; [|reflexivity]. cbn [option_map]. now rewrite vec_tensor_tab. }
  pose proof (fixed_tail_run N _ k s e m (option_map lfun in_lens) vs Hs He Hmi HN Hd Hil') as Htail.
  unfold run_slice_raw, Interp.run. rewrite prefix_run by (try assumption; apply wt_ok_name).
  next_stmt. rewrite fixed_policy, Hrun by reflexivity.
  unfold Model.slice_fixed. rewrite Hw.
  destruct in_lens as [l|]; cbn [option_map] in Htail; [destruct (Nat.eqb (List.length l) N)|].
  - destruct Htail as (vs' & -> & Hsl & Hso). eexists. cbn [bind]. close_stmt.
    now rewrite (fixed_return N k s e m (Some l) vs' Hsl Hso), (fixed_out_kept N k s e m (Some l)).
  - destruct Htail as (st & ->). exists st. reflexivity.
  - destruct Htail as (vs' & -> & Hsl & Hso). eexists. cbn [bind]. close_stmt.
    now rewrite (fixed_return N k s e m None vs' Hsl Hso), (fixed_out_kept N k s e m None).
Qed.

Theorem fixed_tie : forall N T rest data ol in_lens w vo lobe out,
  T <> 0%nat -> (0 <= lobe)%Z ->
  Model.slice_fixed Model.repaired N (Z.of_nat T) in_lens w vo lobe = Some out ->
  exists st, run_slice_raw (mkIT (N :: T :: rest) data) (option_map vec_tensor in_lens) ol "fixed" (wt_name w) vo lobe
             = Ok (slices_value out) st.
Proof.
  intros N T rest data ol in_lens w vo lobe out HT Hl Hm.
  destruct (fixed_tie_total N T rest data ol in_lens w vo lobe HT Hl) as [st H]. rewrite Hm in H. now exists st.
Qed.

(* the executable form the harness evaluates *)
Theorem src_slice_fixed_tie : forall N T in_lens ol w vo lobe out,
  T <> 0%nat -> (0 <= lobe)%Z ->
  Model.slice_fixed Model.repaired N (Z.of_nat T) in_lens w vo lobe = Some out ->
  exists st, run_slice T (Model.InFixed N) in_lens ol w vo lobe = Ok (slices_value out) st.
Proof.
  intros N T in_lens ol w vo lobe out HT Hl Hm. unfold run_slice, slice_vars. cbn [input_tensor policy_name].
  unfold full. exact (fixed_tie N T [] _ (option_map vec_tensor ol) in_lens w vo lobe out HT Hl Hm).
Qed.

(* ---- composed with the model theorem sd_fixed_windows_spec: a statement purely about the interpreted source ---- *)
From PV Require C10.Spec C10.Proofs C10.ProofsFixed.

Theorem source_fixed_windows_spec : forall N T in_lens ol w vo lobe,
  (1 <= T)%nat -> (0 <= lobe)%Z -> ProofsFixed.lens_ok N (Z.of_nat T) in_lens ->
  exists out st, run_slice T (Model.InFixed N) in_lens ol w vo lobe = Ok (slices_value out) st
                 /\ Spec.fixed_spec N (ProofsFixed.len_of (Z.of_nat T) in_lens) w vo lobe out.
Proof.
  intros N T in_lens ol w vo lobe HT Hl Hok.
  destruct (Proofs.sd_fixed_windows_spec Model.repaired N T in_lens ol w vo lobe eq_refl HT Hl Hok) as (out & Hm & Hspec).
  unfold Model.slice_spect_data in Hm.
  replace (Nat.eqb T 0) with false in Hm by (symmetry; apply Nat.eqb_neq; lia).
  replace (lobe <? 0)%Z with false in Hm by lia.
  destruct (src_slice_fixed_tie N T in_lens ol w vo lobe out ltac:(lia) Hl Hm) as [st Hrun].
  exists out, st. split; assumption.
Qed.

(* the policy's name, for statements in files that do not open string_scope *)
Definition fixed_name : string := "fixed".
