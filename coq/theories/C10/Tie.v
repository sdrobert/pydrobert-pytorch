(* C10 — tie between the Python text of `chunk_token_sequences_by_slices` and PV.C10.Model.chunk_tokens, checked
   by the kernel.  PV.Gen.C10Src.chunk_tokens_body is the MiniPy term that harness/py2coq/translate.py regenerates
   from /repo/src/pydrobert/torch/_feats.py on every run; PV.MiniPy.Interp is its semantics; the torch calls mean
   what PV.MiniTorch.OpsC10 says (through SrcRun.ext10).  The lemmas below say: for EVERY batch of N token rows of
   any common length R, every slice per row, ref_lens given or omitted, partial / retain set or not, interpreting the
   source returns exactly the model's (chunked, chunked_lens) - chunked with the cells past chunked_lens[n]
   UNDEFINED (they come from new_empty and are never written) - AS CODED (known finding K1: `+=` where the
   property wants `-=`); that it raises RuntimeError on the malformed shapes, and returns empty chunks for 2-D
   refs.  If the source is edited so that this stops being true, this file stops compiling and the C10 check
   reports the broken obligation. *)
From Coq Require Import ZArith List String Bool Arith Lia ZifyBool ZifyNat.
From PV Require Import MiniPy.Syntax MiniPy.Interp MiniTorch.Ops MiniTorch.Value MiniTorch.Lemmas.
From PV Require Import MiniTorch.OpsC10 MiniTorch.ValueC10 MiniTorch.LemmasC10 MiniTorch.LemmasC10B Gen.C10Src.
From PV Require Import C10.SrcRun.
From PV Require Export C10.TieLib.
From PV Require Import C10.Model C10.Spec C10.Lists C10.ProofsTokens C10.Proofs C10.TieModel.
Import ListNotations.
Local Open Scope string_scope.

Lemma dec_index_enc10 : forall t, dec_index (enc10 t) = None.
Proof. reflexivity. Qed.

Lemma ndim_I3 : forall n m k a, ndim (I3 n m k a) = 3%nat. Proof. reflexivity. Qed.
Lemma size_I3_0 : forall n m k a, OpsC10.size (I3 n m k a) 0 = Some n. Proof. reflexivity. Qed.
Lemma size_I3_1 : forall n m k a, OpsC10.size (I3 n m k a) 1 = Some m. Proof. reflexivity. Qed.
Lemma size_I3_2 : forall n m k a, OpsC10.size (I3 n m k a) 2 = Some k. Proof. reflexivity. Qed.
Lemma ishape_I3 : forall n m k a, ishape (I3 n m k a) = [n; m; k]. Proof. reflexivity. Qed.
Lemma ishape_I2 : forall m k a, ishape (I2 m k a) = [m; k]. Proof. reflexivity. Qed.
Lemma ishape_I1 : forall k a, ishape (I1 k a) = [k]. Proof. reflexivity. Qed.

Lemma arange_nat : forall R, OpsC10.arange (Z.of_nat R) = Some (I1 R Z.of_nat).
Proof. intros R. unfold OpsC10.arange. replace (Z.of_nat R <? 0)%Z with false by lia. now rewrite Nat2Z.id. Qed.

Lemma ones_B2 : forall n m, ones_bool [n; m] = B2 n m (fun _ _ => true).
Proof. intros. unfold ones_bool. now rewrite full_2. Qed.
Lemma new_empty_3 : forall n m k, new_empty [n; m; k] = O3 n m k (fun _ _ _ => None).
Proof. intros. unfold new_empty. now rewrite full_3. Qed.
Lemma unsqueeze_I1_1 : forall n a, OpsC10.unsqueeze (I1 n a) 1 = Some (I2 n 1 (fun i _ => a i)).
Proof. intros. unfold I1. now rewrite unsqueeze_C1_1. Qed.
Lemma unsqueeze_B2_2 : forall n m b, OpsC10.unsqueeze (B2 n m b) 2 = Some (B3 n m 1 (fun i j _ => b i j)).
Proof. intros. unfold B2. now rewrite unsqueeze_C2_2. Qed.
Lemma slice_I3_from1 : forall n m a, slice_last (I3 n m 3 a) (Some 1%Z) None = Some (I3 n m 2 (fun i j l => a i j (S l))).
Proof. intros. unfold I3. now rewrite (slice_last_C3 n m 3 _ (Some 1%Z) None 1 2) by (reflexivity || lia). Qed.
Lemma slice_O3_from1 : forall n m h, slice_last (O3 n m 3 h) (Some 1%Z) None = Some (O3 n m 2 (fun i j l => h i j (S l))).
Proof. intros. unfold O3. now rewrite (slice_last_C3 n m 3 _ (Some 1%Z) None 1 2) by (reflexivity || lia). Qed.
Lemma slice_I2_to1 : forall n a, slice_last (I2 n 2 a) None (Some 1%Z) = Some (I2 n 1 (fun i l => a i l)).
Proof. intros. unfold I2. now rewrite (slice_last_C2 n 2 _ None (Some 1%Z) 0 1) by (reflexivity || lia). Qed.
Lemma slice_I2_from1 : forall n a, slice_last (I2 n 2 a) (Some 1%Z) None = Some (I2 n 1 (fun i l => a i (S l))).
Proof. intros. unfold I2. now rewrite (slice_last_C2 n 2 _ (Some 1%Z) None 1 1) by (reflexivity || lia). Qed.
Lemma select_I3_2 : forall n m a, select_last (I3 n m 3 a) 2 = Some (I2 n m (fun i j => a i j 2%nat)).
Proof. intros. unfold I3. now rewrite (select_last_C3 n m 3 _ 2%Z 2%nat) by reflexivity. Qed.
Lemma select_I3_1 : forall n m a, select_last (I3 n m 3 a) 1 = Some (I2 n m (fun i j => a i j 1%nat)).
Proof. intros. unfold I3. now rewrite (select_last_C3 n m 3 _ 1%Z 1%nat) by reflexivity. Qed.
Lemma select_I2_0 : forall n a, select_last (I2 n 2 a) 0 = Some (I1 n (fun i => a i 0%nat)).
Proof. intros. unfold I2. now rewrite (select_last_C2 n 2 _ 0%Z 0%nat) by reflexivity. Qed.
Lemma expand_B3_last : forall n m k b, expand (B3 n m 1 b) [n; m; k] = Some (B3 n m k (fun i j _ => b i j 0%nat)).
Proof. intros. unfold B3. now rewrite expand_C3_last. Qed.
Lemma view_I1_n11 : forall n a, view (I1 n a) [n; 1; 1]%nat = Some (I3 n 1 1 (fun i _ _ => a i)).
Proof. intros. unfold I1. now rewrite view_C1_n11. Qed.
Lemma expand_I3_n11 : forall n m k a, expand (I3 n 1 1 a) [n; m; k] = Some (I3 n m k (fun i _ _ => a i 0%nat 0%nat)).
Proof. intros. unfold I3. now rewrite expand_C3_n11. Qed.
Lemma masked_select_I3 : forall n m k a b,
  OpsC10.masked_select (I3 n m k a) (B3 n m k (fun i j _ => b i j)) = Some (V1 (sel3 n m k (fun i j l => CInt (a i j l)) b)).
Proof. intros. unfold I3. apply masked_select_C3. Qed.
Lemma set_slice_O3_from1 : forall n m h g,
  set_slice_last (O3 n m 3 h) (Some 1%Z) None (O3 n m 2 g)
  = Some (O3 n m 3 (fun i j l => match l with O => h i j O | S l' => g i j l' end)).
Proof.
  intros. unfold O3. rewrite (set_slice_last_C3 n m 3 _ (Some 1%Z) None 1 2) by (reflexivity || lia).
  unfold C3. f_equal.
Qed.
Lemma sum_long_B2 : forall m k (b : nat -> nat -> bool),
  sum_last (I2 m k (fun j l => if b j l then 1%Z else 0%Z)) 1 = Some (I1 m (fun j => count_row k (b j))).
Proof. intros. apply sum_last_I2. Qed.
Lemma leb_0_of_nat : forall n, (0 <=? Z.of_nat n)%Z = true.
Proof. intros. lia. Qed.

(* One foreign call (H : c = ext10 f args kw st): the clause of ext10 is selected by computation, with the tensors and
   the operations on them kept folded; then the equation of the operation on tabulated tensors applies. *)
Ltac tstep H :=
  cbn -[enc10 dec10 I1 I2 I3 B2 B3 O3 C1 C2 C3 V1 OpsC10.arange OpsC10.unsqueeze OpsC10.size OpsC10.compare
        OpsC10.logical_and OpsC10.add OpsC10.all_last OpsC10.sum_last OpsC10.long OpsC10.select_last OpsC10.slice_last
        OpsC10.set_slice_last OpsC10.expand OpsC10.view OpsC10.masked_select OpsC10.masked_scatter OpsC10.new_empty
        OpsC10.new_zeros OpsC10.ones_bool OpsC10.ndim Z.of_nat count_row] in H;
  change (Z.of_nat 3) with 3%Z in H; change (Z.of_nat 2) with 2%Z in H;
  change (Pos.to_nat 1) with 1%nat in H; change (Pos.to_nat 2) with 2%nat in H; change (Pos.to_nat 3) with 3%nat in H;
  rewrite ?dec_index_enc10, ?dec10_enc10, ?on1_enc, ?on2_enc, ?on2_enc_int,
    ?ndim_I3, ?size_I3_0, ?size_I3_1, ?size_I3_2, ?ishape_I3, ?ishape_I2, ?ishape_I1, ?Z.eqb_refl, ?arange_nat,
    ?leb_0_of_nat, ?Nat2Z.id, ?ones_B2, ?new_empty_3, ?unsqueeze_I1_1, ?unsqueeze_B2_2, ?slice_I3_from1, ?slice_O3_from1,
    ?slice_I2_to1, ?slice_I2_from1, ?select_I3_2, ?select_I3_1, ?select_I2_0, ?expand_B3_last, ?view_I1_n11, ?expand_I3_n11,
    ?masked_select_I3, ?set_slice_O3_from1, ?compare_I2col_I1, ?compare_I2col_I2, ?compare_I2_I2, ?compare_I3_scalar,
    ?and_B2_B2, ?add_O3_I3, ?all_last_B3, ?long_B2, ?sum_long_B2 in H.
Ltac call10 := call_in ext10 ltac:(fun H => repeat (progress tstep H)).
Ltac calls := repeat first [call10 | item].
Ltac stmt := open_seq ltac:(cbv [seq_head drop_seq chunk_tokens_body]); calls.

Lemma scatter_select_lens : forall n m k a b,
  OpsC10.masked_scatter (O3 n m k (fun _ _ _ => None))
     (B3 n m k (fun i j _ => (count_row m (b i) >? Z.of_nat j)%Z))
     (V1 (sel3 n m k (fun i j l => CInt (a i j l)) b))
  = Some (O3 n m k (fun i r l => option_map (fun p => a i p l) (nth_error (kept_idx m (b i)) r))).
Proof. intros. apply (scatter_of_select n m k a b (fun i => count_row m (b i))). intros. apply zsum_count. Qed.

(* what the body computes after the mask is known (statements 8..13: chunked_lens = ... to the return), whatever the mask *)
Definition tail_vars (N R : nat) rf sf (rl : val) (partial retain : bool) (keep : nat -> nat -> bool) : list (string * val) :=
  [("refs", enc10 (I3 N R 3 rf)); ("slices", enc10 (I2 N 2 sf)); ("ref_lens", rl);
   ("partial", VBool partial); ("retain", VBool retain); ("torch", torch_module);
   ("$t1", VTuple [VInt (Z.of_nat N); VInt (Z.of_nat R)]); ("N", VInt (Z.of_nat N)); ("R", VInt (Z.of_nat R));
   ("arange", enc10 (I1 R Z.of_nat)); ("mask", enc10 (B2 N R keep))].

Definition tail_result (N R : nat) rf sf keep (retain : bool) : val :=
  VTuple [enc10 (O3 N R 3 (out_cell retain R rf sf keep)); enc10 (I1 N (fun i => count_row R (keep i)))].

Lemma tail_run : forall N R rf sf rl partial retain keep,
  exists st, exec ext10 (drop_seq 7 chunk_tokens_body) (mkState (tail_vars N R rf sf rl partial retain keep) [])
             = Ok (CReturn (tail_result N R rf sf keep retain)) st.
Proof.
  intros. unfold tail_vars.
  stmt. close_stmt.
  stmt. close_stmt.
  stmt. close_stmt.
  stmt. rewrite scatter_select_lens. fold (kept_cell R rf keep). run. close_stmt.
  destruct retain; stmt; close_stmt; cbv [drop_seq chunk_tokens_body]; run; eexists; reflexivity.
Qed.

Definition tab_vars (N R : nat) rf sf (rl : option (nat -> Z)) (partial retain : bool) : list (string * val) :=
  tokens_vars_raw (I3 N R 3 rf) (I2 N 2 sf) (option_map (I1 N) rl) partial retain.

(* statements 6 and 7, which refine the mask by the well-formedness of the tokens and by the slice: whatever the mask is *)
Lemma mask_run : forall N R rf sf rl partial retain k0,
  exec ext10 (drop_seq 5 chunk_tokens_body) (mkState (tail_vars N R rf sf rl partial retain k0) [])
  = exec ext10 (drop_seq 7 chunk_tokens_body)
      (mkState (tail_vars N R rf sf rl partial retain
                  (fun i j => (k0 i j && ((rf i j 1%nat >=? 0)%Z && ((rf i j 2%nat >=? 0)%Z && true))
                               && (rf i j 2%nat >=? rf i j 1%nat)%Z)
                              && (if partial then sf i 0%nat <? rf i j 2%nat else sf i 0%nat <=? rf i j 1%nat)%Z
                              && (if partial then sf i 1%nat >? rf i j 1%nat else sf i 1%nat >=? rf i j 2%nat)%Z)) []).
Proof.
  intros. hide_rhs. unfold tail_vars.
  stmt. close_stmt.
  destruct partial; stmt; close_stmt; show_rhs; reflexivity.
Qed.

Lemma head_run : forall N R rf sf rl partial retain,
  exec ext10 chunk_tokens_body (mkState (tab_vars N R rf sf rl partial retain) [])
  = exec ext10 (drop_seq 7 chunk_tokens_body)
      (mkState (tail_vars N R rf sf (opt_tensor (option_map (I1 N) rl)) partial retain (head_keep rf sf rl partial)) []).
Proof.
  intros. change chunk_tokens_body with (drop_seq 0 chunk_tokens_body) at 1.
  transitivity (exec ext10 (drop_seq 5 chunk_tokens_body)
                  (mkState (tail_vars N R rf sf (opt_tensor (option_map (I1 N) rl)) partial retain
                              (fun i j => match rl with Some lf => (lf i >? Z.of_nat j)%Z | None => true end)) []));
    [|rewrite mask_run; reflexivity].
  hide_rhs. unfold tab_vars, tokens_vars_raw, torch_module.
  stmt. close_stmt.
  stmt. unpack. close_stmt.
  stmt. rewrite Z.eqb_refl. run. close_stmt.
  stmt. close_stmt.
  destruct rl as [lf|]; cbn [option_map opt_tensor] in *; stmt.
  - rewrite Z.eqb_refl. run. calls. close_stmt. show_rhs. reflexivity.
  - close_stmt. show_rhs. reflexivity.
Qed.

Lemma run_tab : forall N R rf sf rl partial retain,
  exists st, exec ext10 chunk_tokens_body (mkState (tab_vars N R rf sf rl partial retain) [])
             = Ok (CReturn (tail_result N R rf sf (head_keep rf sf rl partial) retain)) st.
Proof. intros. rewrite head_run. apply tail_run. Qed.

Lemma tokens_vars_tab : forall R refs slices ref_lens partial retain,
  Forall (fun r => List.length r = R) refs -> List.length slices = List.length refs ->
  lens_shape_ok (List.length refs) ref_lens ->
  tokens_vars R refs slices ref_lens partial retain
  = tab_vars (List.length refs) R (rfun refs) (sfun slices) (rl_of ref_lens) partial retain.
Proof.
  intros R refs slices ref_lens partial retain HR Hl Hs. unfold tokens_vars, tab_vars.
  rewrite (refs_tensor_tab R refs HR), slices_tensor_tab, Hl. f_equal.
  destruct ref_lens as [ls|]; [|reflexivity]. cbn [option_map rl_of]. cbn in Hs. now rewrite vec_tensor_tab, Hs.
Qed.

(* for every well-shaped input the interpreted source returns the model's result: chunked (cells past chunked_lens[n]
   undefined) and chunked_lens *)
Theorem tokens_tie : forall R refs slices ref_lens partial retain,
  tokens_shape_ok refs slices R -> lens_shape_ok (List.length refs) ref_lens ->
  exists st, run_tokens R refs slices ref_lens partial retain
             = Ok (result_value R (chunk_tokens as_coded refs slices ref_lens partial retain)) st.
Proof.
  intros R refs slices ref_lens partial retain [HR Hl] Hs. unfold run_tokens.
  rewrite (tokens_vars_tab R refs slices ref_lens partial retain HR Hl Hs).
  destruct (run_tab (List.length refs) R (rfun refs) (sfun slices) (rl_of ref_lens) partial retain) as [st Hrun].
  exists st. apply run_of_exec. rewrite Hrun. unfold tail_result, result_value.
  destruct (tab_result_is_model R refs slices ref_lens partial retain HR Hl) as [E1 E2].
  cbv zeta in E1, E2. now rewrite E1, E2.
Qed.

(* the model's result has the shape read_result expects *)
Lemma model_result_shape : forall R refs slices ref_lens partial retain,
  Forall (fun r => List.length r = R) refs -> List.length slices = List.length refs ->
  let M := chunk_tokens as_coded refs slices ref_lens partial retain in
  List.length (snd M) = List.length (fst M)
  /\ forall n, (n < List.length (fst M))%nat ->
       nth n (snd M) 0%Z = zlen (nth n (fst M) []) /\ (List.length (nth n (fst M) []) <= R)%nat.
Proof.
  intros R refs slices ref_lens partial retain HR Hl M.
  destruct refs as [|r0 refs'].
  - subst M. cbn. destruct retain; (split; [reflexivity|intros n Hn; cbn in Hn; lia]).
  - destruct (chunk_tokens_nth as_coded (r0 :: refs') slices ref_lens partial retain R 0 HR Hl) as (L1 & L2 & _);
      [cbn; lia|]. fold M in L1, L2. split; [congruence|]. intros n Hn. rewrite L1 in Hn.
    destruct (chunk_tokens_nth as_coded (r0 :: refs') slices ref_lens partial retain R n HR Hl Hn) as (_ & _ & E & El).
    fold M in E, El. split; [exact El|]. rewrite E. unfold row_out. rewrite map_length.
    etransitivity; [apply kept_row_length|]. rewrite Forall_forall in HR. rewrite (HR (nth n (r0 :: refs') [])); [lia|].
    now apply nth_In.
Qed.

(* the executable form the harness evaluates: for all well-shaped inputs it is the model *)
Theorem src_chunk_tokens_tie : forall R refs slices ref_lens partial retain,
  tokens_shape_ok refs slices R -> lens_shape_ok (List.length refs) ref_lens ->
  src_chunk_tokens R refs slices ref_lens partial retain
  = Some (chunk_tokens as_coded refs slices ref_lens partial retain).
Proof.
  intros R refs slices ref_lens partial retain [HR Hl] Hs. unfold src_chunk_tokens.
  destruct (tokens_tie R refs slices ref_lens partial retain (conj HR Hl) Hs) as [st ->]. unfold result_value.
  rewrite !dec10_enc10.
  destruct (model_result_shape R refs slices ref_lens partial retain HR Hl) as [L H].
  rewrite (read_model_result R _ _ L H). now destruct (chunk_tokens as_coded refs slices ref_lens partial retain).
Qed.

Theorem src_chunk_tokens_check_is_check : forall R refs slices ref_lens partial retain impl,
  tokens_shape_ok refs slices R -> lens_shape_ok (List.length refs) ref_lens ->
  src_chunk_tokens_check R refs slices ref_lens partial retain impl
  = check_tokens as_coded refs slices ref_lens partial retain impl.
Proof. intros. unfold src_chunk_tokens_check, check_tokens. now rewrite src_chunk_tokens_tie. Qed.

(* Composed with the model theorems: a statement purely about the interpreted source.
   Whatever the arithmetic as coded does to the boundaries (K1), the tokens the source keeps in row n are exactly those
   whose known segment is contained in (partial: overlaps) the slice and that lie before ref_lens[n], in the order of the
   source; chunked_lens[n] counts them; and with retain they are returned unchanged. *)
Theorem source_tokens_kept_in_order : forall R refs slices ref_lens partial retain n,
  tokens_shape_ok refs slices R -> lens_shape_ok (List.length refs) ref_lens -> (n < List.length refs)%nat ->
  exists rows lens st spec_row,
    run_tokens R refs slices ref_lens partial retain = Ok (result_value R (rows, lens)) st
    /\ read_result (chunked_tensor R rows) (vec_tensor lens) = Some (rows, lens)
    /\ tokens_row_spec partial retain (rowL ref_lens n) (nth n slices (0, 0)%Z) (nth n refs []) spec_row
    /\ map tk_tok (nth n rows []) = map tk_tok spec_row
    /\ nth n lens 0%Z = zlen spec_row
    /\ (retain = true -> nth n rows [] = spec_row).
Proof.
  intros R refs slices ref_lens partial retain n [HR Hl] Hs Hn.
  set (M := chunk_tokens as_coded refs slices ref_lens partial retain).
  destruct (tokens_tie R refs slices ref_lens partial retain (conj HR Hl) Hs) as [st Hrun]. fold M in Hrun.
  destruct (model_result_shape R refs slices ref_lens partial retain HR Hl) as [L H]. fold M in L, H.
  exists (fst M), (snd M), st, (nth n (fst (chunk_tokens repaired refs slices ref_lens partial retain)) []).
  split; [now destruct M|]. split; [apply (read_model_result R _ _ L H)|].
  destruct (tokens_kept_spec repaired refs slices ref_lens partial retain R n (conj HR Hl) Hn (or_intror eq_refl))
    as (Sp & Ln & L1' & L2').
  destruct (tokens_order_preserved as_coded refs slices ref_lens partial retain R n (conj HR Hl) Hn) as (_ & Eq).
  fold M in Eq. split; [exact Sp|]. split; [exact Eq|].
  destruct (chunk_tokens_nth as_coded refs slices ref_lens partial retain R n HR Hl Hn) as (_ & _ & E & El).
  destruct (chunk_tokens_nth repaired refs slices ref_lens partial retain R n HR Hl Hn) as (_ & _ & E' & _).
  fold M in E, El. split.
  - rewrite El. unfold zlen. f_equal. rewrite <- (map_length tk_tok (nth n (fst M) [])), Eq. now rewrite map_length.
  - intros ->. rewrite E, E'. unfold row_out. apply map_ext. intros x. reflexivity.
Qed.
