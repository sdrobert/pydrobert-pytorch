(* C10 - chunk_token_sequences_by_slices: the flat select/scatter code computes a per-row filter; the kept tokens are
   those of the spec; relative boundaries are wrong as coded (K1) and right in the repaired variant. *)
From Coq Require Import List ZArith Bool Arith Lia Sorted.
From PV Require Import C10.Model C10.Spec C10.Lists.
Import ListNotations.
Local Open Scope Z_scope.

(* ---- what one row of the result is ---- *)
Definition rowL (ref_lens : option (list Z)) (n : nat) : option Z :=
  match ref_lens with Some ls => Some (nth n ls 0) | None => None end.
Definition kept_row (partial : bool) (L : option Z) (sl : window) (row : list token) : list token :=
  map snd (filter (fun rx => tok_keep partial L sl (fst rx) (snd rx)) (enumerate row)).
Definition shift_of (v : variant) (retain : bool) (sl : window) (x : token) : token :=
  if retain then x else shift_tok (if k1 v then fst sl else - fst sl) x.
Definition row_out v partial retain L sl row : list token :=
  map (shift_of v retain sl) (kept_row partial L sl row).

Lemma gtb_false : forall a b, a <= b -> (a >? b) = false.
Proof. intros. rewrite Z.gtb_ltb. apply Z.ltb_ge. lia. Qed.
Lemma gtb_true : forall a b, b < a -> (a >? b) = true.
Proof. intros. rewrite Z.gtb_ltb. apply Z.ltb_lt. lia. Qed.

(* ---- masked_scatter_ of concatenated rows into prefix masks is row-wise placement ---- *)
Lemma scatter_row_false : forall A (d : A) (f : nat -> bool) l src,
  (forall r, In r l -> f r = false) -> scatter_row d (map f l) src = (repeat d (length l), src).
Proof.
  intros A d f l; induction l as [|r l IH]; intros src H; [reflexivity|].
  cbn [map scatter_row]. rewrite (H r) by now left.
  rewrite IH by (intros; apply H; now right). reflexivity.
Qed.

Lemma scatter_row_prefix : forall A (d : A) R (kept rest : list A) s, (length kept <= R)%nat ->
  scatter_row d (map (fun r => Z.of_nat (s + length kept) >? Z.of_nat r) (seq s R)) (kept ++ rest)
  = (kept ++ repeat d (R - length kept), rest).
Proof.
  intros A d R; induction R as [|R IH]; intros kept rest s Hl.
  - destruct kept; cbn in Hl; [reflexivity|lia].
  - cbn [seq map scatter_row]. destruct kept as [|x k].
    + cbn [length app]. rewrite (gtb_false (Z.of_nat (s + 0)) (Z.of_nat s)) by lia.
      rewrite scatter_row_false.
      * rewrite seq_length. reflexivity.
      * intros r Hr. apply in_seq in Hr. apply gtb_false. lia.
    + cbn [length app]. rewrite (gtb_true (Z.of_nat (s + S (length k))) (Z.of_nat s)) by lia.
      rewrite (map_ext _ (fun r => Z.of_nat (S s + length k) >? Z.of_nat r))
        by (intros; do 2 f_equal; lia).
      cbn in Hl. rewrite IH by lia. reflexivity.
Qed.

Lemma masked_scatter_rows : forall A E (d : A) R (kept : E -> list A) (es : list E) rest,
  (forall e, In e es -> (length (kept e) <= R)%nat) ->
  masked_scatter d (map (fun e => map (fun r => zlen (kept e) >? Z.of_nat r) (seq 0 R)) es)
                 (flat_map kept es ++ rest)
  = map (fun e => kept e ++ repeat d (R - length (kept e))) es.
Proof.
  intros A E d R kept es; induction es as [|e es IH]; intros rest H; [reflexivity|].
  cbn [map flat_map masked_scatter]. rewrite <- app_assoc.
  pose proof (scatter_row_prefix A d R (kept e) (flat_map kept es ++ rest) 0 (H e (or_introl eq_refl))) as P.
  cbn [Nat.add] in P. unfold zlen. rewrite P. f_equal. apply IH. intros; apply H; now right.
Qed.

(* ---- the model, row by row ---- *)
Lemma kept_row_length : forall partial L sl row, (length (kept_row partial L sl row) <= length row)%nat.
Proof.
  intros. unfold kept_row. rewrite map_length.
  etransitivity; [apply filter_len_le'|]. rewrite enumerate_enum_from, enum_from_length. lia.
Qed.

Lemma select_row : forall partial L sl row,
  map fst (filter snd (combine row (tok_mask_row partial L sl row))) = kept_row partial L sl row.
Proof.
  intros. unfold tok_mask_row, kept_row.
  rewrite <- (map_snd_enum_from _ 0 row) at 1. rewrite <- enumerate_enum_from.
  apply mask_select_filter.
Qed.

Lemma count_row : forall partial L sl row,
  zlen (filter (fun b : bool => b) (tok_mask_row partial L sl row)) = zlen (kept_row partial L sl row).
Proof.
  intros. unfold zlen, tok_mask_row, kept_row. now rewrite count_true_filter, map_length.
Qed.

Theorem chunk_tokens_rows : forall v refs slices ref_lens partial retain R,
  Forall (fun r => length r = R) refs -> length slices = length refs ->
  chunk_tokens v refs slices ref_lens partial retain
  = (map (fun n => row_out v partial retain (rowL ref_lens n) (nth n slices (0, 0)) (nth n refs [])) (seq 0 (length refs)),
     map (fun n => zlen (kept_row partial (rowL ref_lens n) (nth n slices (0, 0)) (nth n refs []))) (seq 0 (length refs))).
Proof.
  intros v refs slices ref_lens partial retain R HR Hl.
  set (N := length refs). set (rf := fun n => nth n refs []). set (sf := fun n => nth n slices (0, 0)).
  set (kept := fun n => kept_row partial (rowL ref_lens n) (sf n) (rf n)).
  set (msk := fun n => tok_mask_row partial (rowL ref_lens n) (sf n) (rf n)).
  (* refs, slices and the mask, by position *)
  assert (Hrefs : refs = map rf (seq 0 N)) by apply list_as_map.
  assert (Hsl : slices = map sf (seq 0 N)) by (unfold N; rewrite <- Hl; apply list_as_map).
  unfold chunk_tokens. set (mask := map _ (enumerate (combine refs slices))).
  assert (Hmask : mask = map msk (seq 0 N)).
  { subst mask. rewrite (enumerate_as_map _ ([], (0, 0))), map_map, combine_length, Hl, Nat.min_id.
    apply map_ext_in. intros n Hn. apply in_seq in Hn. cbn [fst snd]. now rewrite combine_nth by lia. }
  rewrite Hmask. clear Hmask mask.
  set (Rm := match refs with [] => 0%nat | r :: _ => length r end).
  assert (HRm : forall n, In n (seq 0 N) -> (length (kept n) <= Rm)%nat).
  { intros n Hn. apply in_seq in Hn. subst Rm. destruct refs as [|r0 refs']; [cbn in Hn; lia|].
    rewrite Forall_forall in HR. rewrite (HR r0 (or_introl eq_refl)), <- (HR (rf n)) by (apply nth_In; lia).
    apply kept_row_length. }
  rewrite !map_map.
  rewrite (map_ext _ (fun n => zlen (kept n))) by (intros; apply count_row).
  assert (Hflat : masked_select refs (map msk (seq 0 N)) = flat_map kept (seq 0 N)).
  { unfold masked_select. rewrite Hrefs at 1. rewrite combine_map_map', flat_map_map'.
    apply flat_map_ext_in. intros n _. cbn [fst snd]. apply select_row. }
  rewrite Hflat, <- (app_nil_r (flat_map kept (seq 0 N))).
  match goal with
  | |- context [masked_scatter _ (map ?f (seq 0 N)) _] =>
      rewrite (map_ext f (fun n => map (fun r => zlen (kept n) >? Z.of_nat r) (seq 0 Rm)))
        by (intros; unfold msk; now rewrite count_row)
  end.
  rewrite (masked_scatter_rows _ _ (0, 0, 0) Rm kept (seq 0 N) [] HRm).
  f_equal.
  destruct retain.
  - rewrite map2_map_map. apply map_ext. intros n. unfold row_out, shift_of.
    unfold zlen. rewrite Nat2Z.id, firstn_app_exact. fold (kept n). now rewrite map_id.
  - rewrite Hsl at 1. rewrite map2_map_map, map2_map_map. apply map_ext. intros n.
    unfold zlen. rewrite Nat2Z.id, map_app, <- (map_length (shift_tok (if k1 v then fst (sf n) else - fst (sf n))) (kept n)).
    rewrite firstn_app_exact. reflexivity.
Qed.

(* row n of the result, by position *)
Theorem chunk_tokens_nth : forall v refs slices ref_lens partial retain R n,
  Forall (fun r => length r = R) refs -> length slices = length refs -> (n < length refs)%nat ->
  let out := chunk_tokens v refs slices ref_lens partial retain in
  length (fst out) = length refs /\ length (snd out) = length refs
  /\ nth n (fst out) [] = row_out v partial retain (rowL ref_lens n) (nth n slices (0, 0)) (nth n refs [])
  /\ nth n (snd out) 0 = zlen (nth n (fst out) []).
Proof.
  intros v refs slices ref_lens partial retain R n HR Hl Hn out. subst out.
  rewrite (chunk_tokens_rows v refs slices ref_lens partial retain R HR Hl). cbn [fst snd].
  rewrite !map_length, seq_length, !nth_map_seq by assumption. repeat split.
  unfold row_out, zlen. now rewrite map_length.
Qed.

(* ---- the kept tokens are those the spec names ---- *)
Lemma tok_keep_iff : forall partial L sl r x, tok_keep partial L sl r x = true <-> tok_kept partial L sl r x.
Proof.
  intros partial L sl r x. unfold tok_keep, tok_kept, tok_known, tok_in.
  rewrite !andb_true_iff. destruct L as [l|]; destruct partial; rewrite ?andb_true_iff;
    rewrite ?Z.gtb_ltb, ?Z.geb_leb, ?Z.ltb_lt, ?Z.leb_le; intuition lia.
Qed.

(* exactly the tokens whose known segments are contained in / overlap the slice, in order, boundaries re-expressed
   (repaired) or retained *)
Theorem row_out_meets_spec : forall v partial retain L sl row,
  (retain = true \/ k1 v = false) ->
  tokens_row_spec partial retain L sl row (row_out v partial retain L sl row).
Proof.
  intros v partial retain L sl row Hv. unfold tokens_row_spec, row_out, kept_row.
  rewrite map_map.
  rewrite (map_ext (fun x => shift_of v retain sl (snd x)) (fun tx => tok_out retain sl (snd tx))).
  - apply selects_filter. intros; apply tok_keep_iff.
  - intros [r x]. cbn [snd]. unfold shift_of, tok_out, shift_tok.
    destruct retain; [reflexivity|]. destruct Hv as [Hv|Hv]; [discriminate|]. rewrite Hv.
    apply f_equal2; [apply f_equal2; [reflexivity|lia]|lia].
Qed.

(* as coded: every kept boundary is the spec's plus twice the slice start (all inputs) *)
Theorem row_out_as_coded : forall v partial L sl row,
  k1 v = true ->
  row_out v partial false L sl row
  = map (fun x => (tk_tok x, tk_start x + 2 * fst sl, tk_end x + 2 * fst sl))
        (row_out repaired partial false L sl row).
Proof.
  intros v partial L sl row Hv. unfold row_out. rewrite map_map. apply map_ext. intros x.
  unfold shift_of, shift_tok, tk_tok, tk_start, tk_end. rewrite Hv. cbn [k1 repaired fst snd].
  apply f_equal2; [apply f_equal2; [reflexivity|lia]|lia].
Qed.

Theorem row_out_subseq : forall v partial L sl row, subseq (row_out v partial true L sl row) row.
Proof.
  intros. unfold row_out, kept_row. rewrite enumerate_enum_from.
  rewrite (map_ext (shift_of v true sl) (fun x => x)) by reflexivity. rewrite map_id.
  apply subseq_filter_enum.
Qed.

(* in order, whatever the boundary arithmetic: the kept token ids are a subsequence of the source's *)
Theorem row_out_tok_subseq : forall v partial retain L sl row,
  subseq (map tk_tok (row_out v partial retain L sl row)) (map tk_tok row).
Proof.
  intros. unfold row_out. rewrite map_map.
  rewrite (map_ext (fun x => tk_tok (shift_of v retain sl x)) tk_tok).
  - apply subseq_map. unfold kept_row. rewrite enumerate_enum_from. apply subseq_filter_enum.
  - intros [[t s] e]. unfold shift_of, shift_tok. destruct retain; reflexivity.
Qed.

Theorem contained_overlaps : forall sl x, tk_start x < tk_end x -> tok_in false sl x -> tok_in true sl x.
Proof. unfold tok_in. intros. lia. Qed.
