(* C10 — what the symbolic runs of the two translated functions share.  [run] reduces the interpreter and nothing
   else: calls of the unit's [ext] and integer arithmetic stay as they are, and an encoded tensor [enc10 t] is looked
   into only as far as its tag (enough for the interpreter to see that it is a library object).  A run therefore stops
   exactly at the next foreign call, with its arguments evaluated; that call is answered apart from the goal ([call],
   [call_in]), and the run goes on. *)
From Coq Require Import ZArith QArith List String Bool Lia.
From PV Require Export MiniPy.Lemmas.
From PV Require Import MiniPy.Syntax MiniPy.Interp MiniTorch.Value MiniTorch.Lemmas MiniTorch.OpsC10 MiniTorch.ValueC10.
Import ListNotations.
Local Open Scope string_scope.

Lemma dec_cells_enc : forall d, dec_cells (map enc_cell d) = Some d.
Proof. induction d as [|c d IH]; [reflexivity|]. destruct c; cbn [map enc_cell dec_cells]; now rewrite IH. Qed.

Lemma dec10_enc10 : forall t, dec10 (enc10 t) = Some t.
Proof.
  intros [sh d]. unfold dec10, enc10, enc_shape. cbn [ishape idata]. rewrite String.eqb_refl, dec_nats_enc, dec_cells_enc.
  reflexivity.
Qed.

Lemma operand_enc10 : forall t, operand (enc10 t) = Some t.
Proof. intros t. exact (dec10_enc10 t). Qed.

Lemma on1_enc : forall why t k st, on1 why (enc10 t) k st = ret10 why (k t) st.
Proof. intros. unfold on1. now rewrite dec10_enc10. Qed.
Lemma on2_enc : forall why t u k st, on2 why (enc10 t) (enc10 u) k st = ret10 why (k t u) st.
Proof. intros. unfold on2. now rewrite !operand_enc10. Qed.
Lemma on2_enc_int : forall why t z k st, on2 why (enc10 t) (VInt z) k st = ret10 why (k t (scalar_int z)) st.
Proof. intros. unfold on2. now rewrite operand_enc10. Qed.

(* the parts of a program: the k-th tail of a right-nested sequence, its head; the parts of an `if` *)
Fixpoint drop_seq (k : nat) (s : stmt) : stmt :=
  match k, s with S k', SSeq _ b => drop_seq k' b | _, _ => s end.
Definition seq_head (s : stmt) : stmt := match s with SSeq a _ => a | _ => s end.
Definition if_then (s : stmt) : stmt := match s with SIf _ t _ => t | _ => s end.
Definition if_else (s : stmt) : stmt := match s with SIf _ _ f => f | _ => s end.
Definition if_cond (s : stmt) : expr := match s with SIf c _ _ => c | _ => EConst (VBool true) end.

(* one statement at a time: what follows is kept behind [seq_k], which [run] does not open *)
Section Exec.
  Variable ext : string -> list val -> list (string * val) -> state -> outcome val.

  Definition seq_k (b : stmt) : ctl -> state -> outcome ctl :=
    fun c st1 => match c with CNormal => exec ext b st1 | CReturn v => Ok c st1 end.

  Lemma seq_k_normal : forall b st, seq_k b CNormal st = exec ext b st.
  Proof. reflexivity. Qed.

  (* ... and the branches of an `if` behind [if_k] *)
  Definition if_k (s : stmt) : val -> state -> outcome ctl :=
    fun cv st1 => if truthy cv then exec ext (if_then s) st1 else exec ext (if_else s) st1.
  Lemma if_k_bool : forall s (b : bool) st, if_k s (VBool b) st = exec ext (if b then if_then s else if_else s) st.
  Proof. intros s [] st; reflexivity. Qed.

  Lemma run_of_exec : forall body vars v st,
    exec ext body (mkState vars []) = Ok (CReturn v) st -> Interp.run ext body vars = Ok v st.
  Proof. intros body vars v st H. unfold Interp.run. now rewrite H. Qed.

  Lemma run_of_exc : forall body vars n st,
    exec ext body (mkState vars []) = Exc n st -> Interp.run ext body vars = Exc n st.
  Proof. intros body vars n st H. unfold Interp.run. now rewrite H. Qed.
End Exec.

Lemma exec_if_then : forall ext s st,
  eval ext (if_cond s) st = Ok (VBool true) st -> exec ext s st = exec ext (if_then s) st.
Proof. intros ext [] st H; try reflexivity. cbn [if_cond if_then exec] in *. now rewrite H. Qed.

(* the value operations only move when what they look at is known: under the binders of a continuation they stay folded *)
Arguments attribute ext o a !st.
Arguments binop_eval op a b !st.
Arguments builtin f args !st.
Arguments method !o m !args.
Arguments cmp_eval op !a !b.
Arguments truthy !v.

Ltac run :=
  lazy [exec eval bind assign_all store place_of set_var vars events];
  cbn [lookup update truthy negb andb orb fst snd
       builtin is String.eqb Ascii.eqb Bool.eqb String.append rich cmpop_name binop_name container_items mem
       foreign foreign_item method attribute dict_get binop_eval is_inf inf_bin num_bin cmp_eval val_eqb as_q as_z
       enc10 itensor_tag option_map ret10 ret_nat
       Z.opp Z.eqb Z.ltb Z.leb Z.gtb Z.geb Z.compare Pos.eqb Pos.compare Pos.compare_cont].

(* equations that run to an [exec] of the rest of the program keep that side out of the way meanwhile *)
Ltac hide_rhs := match goal with |- _ = ?r => let x := fresh "rhs" in remember r as x end.
Ltac show_rhs := lazymatch goal with H : ?x = _ |- _ = ?x => subst x end.

(* The program stays folded: the goal speaks of [exec ext (drop_seq k body) st].  [open_seq prog] splits off statement k
   (what follows, [drop_seq (S k) body], goes behind a local definition), spells that statement out with [prog] (a cbv
   over [seq_head], [drop_seq] and the constants the program is made of) and runs it; [close_stmt], once it has run to
   [Ok CNormal _], enters statement k+1.  The last statement of a body is run by [prog; run] alone. *)
Ltac next_stmt :=
  lazymatch goal with
  | |- context [exec ?ext (drop_seq ?k ?b) ?st] =>
      change (exec ext (drop_seq k b) st)
        with (bind (exec ext (seq_head (drop_seq k b)) st) (seq_k ext (drop_seq (S k) b)));
      let r := fresh "rest" in set (r := seq_k ext (drop_seq (S k) b))
  end.
Ltac open_seq prog := next_stmt; prog; run.
Ltac close_stmt := lazymatch goal with r := seq_k _ _ |- _ => subst r end; rewrite seq_k_normal.
(* a statement that is itself a sequence (the branch of an `if`) is entered at its statement 0 *)
Ltac enter_seq :=
  lazymatch goal with |- context [exec ?ext ?s ?st] => change (exec ext s st) with (exec ext (drop_seq 0 s) st) end.
(* [open_if prog] evaluates the condition of the `if` the run stands at, the branches staying folded behind a local
   definition; [close_if], once the condition is [Ok (VBool _) _] with the boolean decided, enters the branch taken *)
Ltac open_if prog :=
  lazymatch goal with
  | |- context [exec ?ext ?s ?st] =>
      lazymatch eval hnf in s with SIf _ _ _ => idtac end;
      change (exec ext s st) with (bind (eval ext (if_cond s) st) (if_k ext s));
      let b := fresh "br" in set (b := if_k ext s); prog; run
  end.
Ltac close_if := lazymatch goal with b := if_k _ _ |- _ => subst b end; rewrite if_k_bool; cbv iota.

Create HintDb c10ext discriminated.

(* The foreign call the run has stopped at is the one whose arguments are all known.  [call ext] answers it from the
   equations in [c10ext]; [call_in ext tac] states it for an arbitrary state, names it c and lets [tac H] work out the
   right-hand side of H : c = ext f args kw st (by computation and rewriting in H: the answer being an existential
   variable until then, nothing may rewrite in the goal). *)
Ltac call ext :=
  lazymatch goal with
  | |- context [ext ?f ?a ?k ?s] =>
      let H := fresh in
      eassert (H : ext f a k s = _) by (solve [eauto with nocore c10ext]); rewrite H; clear H; run
  end.
Ltac call_in ext tac :=
  lazymatch goal with
  | |- context [ext ?f ?a ?k ?s] =>
      let H := fresh in
      eassert (H : forall st, ext f a k st = (_ : state -> outcome val) st);
      [ let st0 := fresh "st" in let c := fresh "c" in let Hc := fresh "Hc" in
        intro st0; remember (ext f a k st0) as c eqn:Hc; tac Hc; subst c; reflexivity
      | rewrite (H s); clear H; run ]
  end.

(* a tuple assignment is translated to `t = e; a = t[0]; b = t[1]` *)
Lemma subscript_pair_0 : forall a b st, subscript (VTuple [a; b]) (VInt 0) st = Ok a st.
Proof. reflexivity. Qed.
Lemma subscript_pair_1 : forall a b st, subscript (VTuple [a; b]) (VInt 1) st = Ok b st.
Proof. reflexivity. Qed.

(* x[k] with k a tensor, a slice or a tuple of them (all encoded as tuples) is not a subscript of the subset: it is
   left to the unit's [ext] (the conversion is the computation of [subscript] on the two tags) *)
Ltac item :=
  lazymatch goal with |- context [subscript ?o ?k ?s] => change (subscript o k s) with (@Stuck val "subscript") end; run.

Ltac unpack := rewrite ?lookup_update; run; rewrite subscript_pair_0; run; rewrite ?lookup_update; run; rewrite subscript_pair_1; run.

Lemma q_cmp_inj : forall op a b, q_cmp op (inject_Z a) (inject_Z b) =
  match op with Lt => (a <? b)%Z | LtE => (a <=? b)%Z | Gt => (a >? b)%Z | GtE => (a >=? b)%Z | _ => false end.
Proof.
  intros op a b. unfold q_cmp, Qcompare. cbn [Qnum Qden inject_Z]. rewrite !Z.mul_1_r.
  destruct op; try reflexivity; unfold Z.ltb, Z.leb, Z.gtb, Z.geb; destruct (a ?= b)%Z; reflexivity.
Qed.

Lemma cmp_eval_int : forall op a b, rich op = true ->
  cmp_eval op (VInt a) (VInt b) =
  Some match op with Lt => (a <? b)%Z | LtE => (a <=? b)%Z | Gt => (a >? b)%Z | GtE => (a >=? b)%Z
              | Eq => (a =? b)%Z | _ => negb (a =? b)%Z end.
Proof. intros op a b H. destruct op; try discriminate; cbn [cmp_eval val_eqb as_q]; try rewrite q_cmp_inj; reflexivity. Qed.

Lemma max_int : forall a b st, extreme_of true [VInt a; VInt b] st = Ok (VInt (Z.max a b)) st.
Proof.
  intros. unfold extreme_of, q_extreme. rewrite (cmp_eval_int Gt b a eq_refl).
  destruct (b >? a)%Z eqn:E; do 2 f_equal; lia.
Qed.
