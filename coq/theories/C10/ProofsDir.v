(* C10 - with valid_only the windows of slice_spect_data lie inside their sequences (all policies); the directory driver,
   one utterance: every chunk is the source restricted to its window, with the tokens the spec names; the chunked
   utterances are well-formed (repaired boundary arithmetic), and are not as coded (K1). *)
From Coq Require Import List ZArith Bool Arith Lia Sorted.
From PV Require Import C10.Model C10.Spec C10.Lists C10.ProofsTokens C10.ProofsFixed C10.ProofsRef
     C10.ProofsAliOps C10.ProofsAliRows C10.ProofsAli C10.ProofsAliSpec.
Import ListNotations.
Local Open Scope Z_scope.

Lemma chunk_const_length : forall x c sl, length (chunk_const x c sl) = Z.to_nat (Z.max (snd sl - fst sl) 0).
Proof. intros. unfold chunk_const. now rewrite arange01, !map_length, seq_length. Qed.

Lemma nth_skipn' : forall A (l : list A) k i d, nth i (skipn k l) d = nth (k + i) l d.
Proof.
  intros A l; induction l as [|x l IH]; intros k i d.
  - rewrite skipn_nil. now destruct i, k.
  - destruct k as [|k]; [reflexivity|]. cbn. apply IH.
Qed.

(* a window inside the sequence: the chunk is the plain restriction *)
Lemma chunk_const_restrict : forall x c sl, inside (zlen x) sl -> chunk_const x c sl = restrict x sl.
Proof.
  intros x c [a b] [Ha Hb]. cbn [fst snd] in *. unfold zlen in Hb.
  apply (nth_ext _ _ c c).
  - rewrite chunk_const_length. unfold restrict. cbn [fst snd]. rewrite firstn_length, skipn_length. lia.
  - intros i Hi. rewrite chunk_const_length in Hi. cbn [fst snd] in Hi.
    unfold chunk_const, restrict. cbn [fst snd]. rewrite arange01, map_map.
    rewrite nth_map_seq by lia. rewrite nth_firstn_lt by lia. rewrite nth_skipn'.
    unfold zlen. destruct (Z.leb_spec 0 (a + Z.of_nat i)); [|lia].
    destruct (Z.ltb_spec (a + Z.of_nat i) (Z.of_nat (length x))); [|lia]. cbn [andb].
    f_equal. lia.
Qed.

Lemma nth_repeat_lt : forall A (x : A) n i d, (i < n)%nat -> nth i (repeat x n) d = x.
Proof. intros A x n; induction n as [|n IH]; intros i d H; [lia|]. destruct i; cbn; [reflexivity|]. apply IH. lia. Qed.

(* ---- the chunks of one utterance, by position ---- *)
Definition slices_of (v : variant) (p : policy) (wt : wtype) (vo : bool) (lobe : Z) (u : utt) : sres :=
  match p with
  | Fixed => slice_spect_data v (length (u_feat u)) (InFixed 1) None None wt vo lobe
  | Ali => match u_ali u with
           | Some a => slice_spect_data v (length a) (InAli [a]) None None wt vo lobe
           | None => None
           end
  | Ref => match u_ref u with
           | Some (RefSeg r) => slice_spect_data v (length r) (InRef [r]) None None wt vo lobe
           | Some (RefTok []) => Some []
           | _ => None
           end
  end.

Definition pad_vo (pad : option Z) : bool := match pad with None => true | Some _ => false end.
Definition pad_c (pad : option Z) : Z := match pad with None => 0 | Some c => c end.

Theorem chunk_utt_chunks : forall v p wt pad lobe partial retain u chunks ch,
  chunk_utt v p wt pad lobe partial retain u = Some chunks -> In ch chunks ->
  exists sws, slices_of v p wt (pad_vo pad) lobe u = Some sws
    /\ In (c_win ch) (map fst sws)
    /\ c_feat ch = chunk_const (u_feat u) (pad_c pad) (c_win ch)
    /\ c_ali ch = match u_ali u with Some a => Some (chunk_const a (pad_c pad) (c_win ch)) | None => None end
    /\ c_ref ch = match u_ref u with
                  | None => None
                  | Some (RefSeg r) => Some (row_out v partial retain None (c_win ch) r)
                  | Some (RefTok _) => Some []
                  end.
Proof.
  intros v p wt pad lobe partial retain u chunks ch Hc Hin. unfold chunk_utt in Hc.
  fold (pad_vo pad) in Hc. fold (pad_c pad) in Hc. fold (slices_of v p wt (pad_vo pad) lobe u) in Hc.
  destruct (slices_of v p wt (pad_vo pad) lobe u) as [sws|]; [|discriminate].
  exists sws. split; [reflexivity|].
  set (slices := map fst sws) in *. set (M := length slices) in *.
  destruct (match u_ref u with
            | None => Some None
            | Some (RefSeg r) => Some (Some (fst (chunk_tokens v (repeat r M) slices None partial retain)))
            | Some (RefTok _) => if d5 v then (if Nat.eqb M 0 then Some (Some []) else None) else Some (Some (repeat [] M))
            end) as [rs|] eqn:Ers; [|discriminate].
  inversion Hc; subst chunks; clear Hc.
  apply in_map_iff in Hin as ([i sl] & Ech & Hisl). subst ch. cbn [c_win c_feat c_ali c_ref]. change (fst (i, sl)) with i. change (snd (i, sl)) with sl.
  destruct (In_enumerate _ slices (i, sl) (0, 0) Hisl) as [Hi Esl]. cbn [fst snd] in Hi, Esl.
  split; [subst sl; apply nth_In; assumption|]. split; [reflexivity|]. split; [reflexivity|].
  destruct (u_ref u) as [[r|tk]|].
  - replace rs with (Some (fst (chunk_tokens v (repeat r M) slices None partial retain))) by congruence.
    cbv beta iota. apply f_equal.
    destruct (chunk_tokens_nth v (repeat r M) slices None partial retain (length r) i) as (_ & _ & Hn & _).
    + apply Forall_forall. intros x Hx. apply repeat_spec in Hx. now subst x.
    + now rewrite repeat_length.
    + now rewrite repeat_length.
    + rewrite Hn. cbn [rowL]. subst sl.
      now rewrite nth_repeat_lt by assumption.
  - destruct (d5 v).
    + destruct (Nat.eqb_spec M 0); [lia|discriminate].
    + inversion Ers; subst rs. f_equal. now rewrite nth_repeat_lt by assumption.
  - inversion Ers; subst rs. reflexivity.
Qed.

(* ---- with valid_only every window of slice_spect_data lies inside its sequence (non-negative start, end within the
   length the policy is given: in_lens / T for fixed and ali, other_lens for ref) ---- *)
Theorem valid_only_inside : forall v T inp in_lens other_lens wt lobe out x,
  d1 v = false -> d2 v = false -> d3 v = false -> d4 v = false ->
  match inp with
  | InFixed N => lens_ok N (Z.of_nat T) in_lens
  | InAli rows => Forall (fun r => length r = T) rows /\ lens_ok (length rows) (Z.of_nat T) in_lens
  | InRef rows => ref_lens_ok T rows in_lens other_lens
  end ->
  slice_spect_data v T inp in_lens other_lens wt true lobe = Some out -> In x out ->
  exists n : nat, x = (fst x, Z.of_nat n)
    /\ (n < match inp with InFixed N => N | InAli rows => length rows | InRef rows => length rows end)%nat
    /\ inside (match inp with
               | InRef rows => ref_other T rows in_lens other_lens n
               | _ => len_of (Z.of_nat T) in_lens n
               end) (fst x).
Proof.
  intros v T inp in_lens other_lens wt lobe out x H1 H2 H3 H4 Hok Hs Hin. unfold slice_spect_data in Hs.
  destruct (Nat.eqb_spec T 0) as [|HT]; [inversion Hs; subst; contradiction|].
  destruct (Z.ltb_spec lobe 0) as [|Hl]; [discriminate|].
  destruct inp as [N|rows|rows].
  - destruct (fixed_windows_spec v N (Z.of_nat T) in_lens wt true lobe H3 Hl ltac:(lia) Hok) as (o & Ho & Hsp).
    rewrite Ho in Hs. inversion Hs; subst o. exact (fixed_valid_inside _ _ _ _ _ _ Hsp Hin).
  - destruct Hok as [Hr Hok].
    destruct (ali_windows_spec v T rows in_lens wt true lobe H1 H4 ltac:(lia) Hl Hr Hok) as (o & Ho & Hsp).
    rewrite Ho in Hs. inversion Hs; subst o.
    destruct (ali_valid_inside _ _ _ _ _ _ Hl Hsp Hin) as (n & En & Hn & Hi).
    exists n. split; [assumption|]. split; [assumption|].
    (* row n has T entries, of which the first len_of .. n <= T are considered *)
    pose proof (len_of_range _ _ _ _ Hok Hn). unfold zlen in Hi. rewrite firstn_length in Hi.
    rewrite Forall_forall in Hr. rewrite (Hr (nth n rows [])) in Hi by (apply nth_In; assumption).
    replace (Z.of_nat (Nat.min (Z.to_nat (len_of (Z.of_nat T) in_lens n)) T)) with (len_of (Z.of_nat T) in_lens n) in Hi by lia.
    exact Hi.
  - destruct (ref_windows_spec v T rows in_lens other_lens wt true lobe H2 Hok) as (o & Ho & Hsp).
    rewrite Ho in Hs. inversion Hs; subst o.
    destruct (ref_valid_inside _ _ _ _ _ _ _ Hsp Hin) as (n & En & Hn & Hi & _). now exists n.
Qed.

(* ---- without --pad-mode every window lies inside the utterance ---- *)
Lemma tok_wf_end : forall T x, tok_wf T x -> 0 <= T -> tk_end x <= T.
Proof. intros T x [[_ H]|[_ [_ H]]] HT; lia. Qed.

Definition utt_ref_list (u : utt) : option (list (Z * Z * Z)) :=
  match u_ref u with Some (RefSeg r) => Some r | Some (RefTok _) => None | None => None end.

Theorem valid_windows_inside : forall v p wt lobe u sws w,
  d1 v = false -> d2 v = false -> d3 v = false -> d4 v = false ->
  utt_wf (u_feat u) (u_ali u) (utt_ref_list u) ->
  slices_of v p wt true lobe u = Some sws -> In w (map fst sws) ->
  inside (zlen (u_feat u)) w.
Proof.
  intros v p wt lobe u sws w H1 H2 H3 H4 [Hali Href] Hs Hin.
  apply in_map_iff in Hin as (x & Ew & Hx). subst w.
  unfold slices_of in Hs. destruct p.
  - destruct (valid_only_inside v _ (InFixed 1) None None wt lobe sws x H1 H2 H3 H4 I Hs Hx) as (n & _ & _ & Hi).
    exact Hi.
  - destruct (u_ali u) as [a|]; [|discriminate].
    destruct (valid_only_inside v (length a) (InAli [a]) None None wt lobe sws x H1 H2 H3 H4) as (n & _ & _ & Hi); try assumption.
    { split; [repeat constructor|exact I]. }
    unfold zlen. rewrite <- Hali. exact Hi.
  - unfold utt_ref_list in Href. destruct (u_ref u) as [[r|[|t tk]]|]; try discriminate.
    + destruct (Nat.eqb_spec (length r) 0) as [E|E]; [rewrite E in Hs; inversion Hs; subst; contradiction|].
      destruct (valid_only_inside v (length r) (InRef [r]) None None wt lobe sws x H1 H2 H3 H4) as (n & _ & Hn & Hi1 & Hi2); try assumption.
      { intros n Hn. cbn [ref_len]. lia. }
      cbn [length] in Hn. assert (n = 0%nat) by lia. subst n. split; [assumption|].
      (* the end of the last token bounds the windows, and is itself within the utterance *)
      cbn [ref_other ref_len nth] in Hi2. unfold ref_default_other in Hi2.
      destruct (Z.eqb_spec (Z.of_nat (length r)) 0) as [E0|E0]; [lia|].
      assert (Hin : In (nth (Z.to_nat (Z.of_nat (length r) - 1)) r (0, 0, 0)) r) by (apply nth_In; lia).
      rewrite Forall_forall in Href. apply Href in Hin. apply tok_wf_end in Hin; [|unfold zlen; lia]. lia.
    + inversion Hs; subst. contradiction.
Qed.

(* "every chunk equals the source restricted to its window", for the default (valid-only) windows *)
Theorem chunk_is_restriction : forall v p wt lobe partial retain u chunks ch,
  d1 v = false -> d2 v = false -> d3 v = false -> d4 v = false -> (retain = true \/ k1 v = false) ->
  utt_wf (u_feat u) (u_ali u) (utt_ref_list u) ->
  chunk_utt v p wt None lobe partial retain u = Some chunks -> In ch chunks ->
  inside (zlen (u_feat u)) (c_win ch)
  /\ c_feat ch = restrict (u_feat u) (c_win ch)
  /\ c_ali ch = match u_ali u with Some a => Some (restrict a (c_win ch)) | None => None end
  /\ match u_ref u with
     | Some (RefSeg r) => exists out, c_ref ch = Some out /\ tokens_row_spec partial retain None (c_win ch) r out
     | Some (RefTok _) => c_ref ch = Some []
     | None => c_ref ch = None
     end.
Proof.
  intros v p wt lobe partial retain u chunks ch H1 H2 H3 H4 Hk Hwf Hc Hin.
  destruct (chunk_utt_chunks _ _ _ _ _ _ _ _ _ _ Hc Hin) as (sws & Hs & Hw & Ef & Ea & Er).
  cbn [pad_vo pad_c] in *.
  pose proof (valid_windows_inside v p wt lobe u sws (c_win ch) H1 H2 H3 H4 Hwf Hs Hw) as Hi.
  split; [assumption|]. split; [rewrite Ef; now apply chunk_const_restrict|]. split.
  - rewrite Ea. destruct Hwf as [Hali _]. destruct (u_ali u) as [a|]; [|reflexivity].
    f_equal. apply chunk_const_restrict. unfold zlen in *. now rewrite Hali.
  - destruct (u_ref u) as [[r|tk]|]; try assumption.
    eexists. split; [exact Er|]. now apply row_out_meets_spec.
Qed.

(* the chunked utterances are well-formed (any policy, any padding, default token options) *)
Theorem chunked_dir_wellformed : forall v p wt pad lobe u chunks ch,
  k1 v = false ->
  chunk_utt v p wt pad lobe false false u = Some chunks -> In ch chunks ->
  utt_wf (c_feat ch) (c_ali ch) (c_ref ch).
Proof.
  intros v p wt pad lobe u chunks ch Hk Hc Hin.
  destruct (chunk_utt_chunks _ _ _ _ _ _ _ _ _ _ Hc Hin) as (sws & _ & _ & Ef & Ea & Er).
  split.
  - rewrite Ea, Ef. destruct (u_ali u); [|exact I]. now rewrite !chunk_const_length.
  - rewrite Er. destruct (u_ref u) as [[r|tk]|]; [|constructor|exact I].
    apply Forall_forall. intros y Hy.
    pose proof (row_out_meets_spec v false false None (c_win ch) r (or_intror Hk)) as (idx & _ & Hm & Eo).
    rewrite Eo in Hy. apply in_map_iff in Hy as (t & Ey & Ht). apply Hm in Ht as [_ (_ & (K1 & K2 & K3) & (I1 & I2))].
    subst y. right. unfold tok_out, tk_start, tk_end in *. cbn [fst snd].
    unfold zlen. rewrite Ef, chunk_const_length. lia.
Qed.

(* with --pad-mode constant: inside the utterance the chunk is the source, outside it is the pad value *)
Lemma chunk_const_nth : forall x c sl i, (i < length (chunk_const x c sl))%nat ->
  nth i (chunk_const x c sl) c
  = if (0 <=? fst sl + Z.of_nat i) && (fst sl + Z.of_nat i <? zlen x) then nth (Z.to_nat (fst sl + Z.of_nat i)) x c else c.
Proof.
  intros x c sl i Hi. rewrite chunk_const_length in Hi. unfold chunk_const. rewrite arange01, map_map.
  now rewrite nth_map_seq by lia.
Qed.

Theorem chunk_padded_restriction : forall v p wt pad lobe partial retain u chunks ch,
  chunk_utt v p wt pad lobe partial retain u = Some chunks -> In ch chunks ->
  let a := fst (c_win ch) in
  let c := pad_c pad in
  length (c_feat ch) = Z.to_nat (Z.max (snd (c_win ch) - a) 0)
  /\ (forall i, (i < length (c_feat ch))%nat ->
        nth i (c_feat ch) c = if (0 <=? a + Z.of_nat i) && (a + Z.of_nat i <? zlen (u_feat u))
                              then nth (Z.to_nat (a + Z.of_nat i)) (u_feat u) c else c)
  /\ match u_ali u, c_ali ch with
     | Some al, Some cal =>
         length cal = length (c_feat ch)
         /\ forall i, (i < length cal)%nat ->
              nth i cal c = if (0 <=? a + Z.of_nat i) && (a + Z.of_nat i <? zlen al)
                            then nth (Z.to_nat (a + Z.of_nat i)) al c else c
     | None, None => True
     | _, _ => False
     end.
Proof.
  intros v p wt pad lobe partial retain u chunks ch Hc Hin a c.
  destruct (chunk_utt_chunks _ _ _ _ _ _ _ _ _ _ Hc Hin) as (sws & _ & _ & Ef & Ea & _).
  rewrite Ef. split; [apply chunk_const_length|]. split; [intros i Hi; now apply chunk_const_nth|].
  rewrite Ea. destruct (u_ali u) as [al|]; [|exact I].
  split; [now rewrite !chunk_const_length|]. intros i Hi. now apply chunk_const_nth.
Qed.

(* K1: as coded, a well-formed utterance yields a chunk whose token lies outside it *)
Definition k1_only := mkV true false false false false false.
Theorem dir_k1_refuted :
  exists u chunks ch,
    utt_wf (u_feat u) (u_ali u) (utt_ref_list u)
    /\ chunk_utt k1_only Fixed Causal None 2 false false u = Some chunks /\ In ch chunks
    /\ ~ utt_wf (c_feat ch) (c_ali ch) (c_ref ch).
Proof.
  exists (mkUtt [11; 12; 13; 14; 15; 16] (Some [1; 1; 2; 2; 2; 3]) (Some (RefSeg [(7, 0, 2); (8, 3, 6); (9, -1, -1)]))).
  eexists. exists (mkChunk (3, 6) [14; 15; 16] (Some [2; 2; 3]) (Some [(8, 6, 9)])).
  split; [|split; [vm_compute; reflexivity|split; [right; left; reflexivity|]]].
  - split; [reflexivity|]. cbn. repeat constructor; unfold tok_wf, tk_start, tk_end, zlen; cbn; lia.
  - intros [_ H]. cbn in H. inversion H as [|? ? Hx _]; subst. unfold tok_wf, tk_start, tk_end, zlen in Hx. cbn in Hx. lia.
Qed.
