(* C10, second source tie — policy 'fixed', the raise path: the test `in_lens.shape != (N,)` of the source on a shape
   other than [N]. *)
From Coq Require Import ZArith QArith List String Bool Arith Lia ZifyBool ZifyNat.
From PV Require Import MiniPy.Syntax MiniPy.Interp MiniTorch.Ops MiniTorch.Value MiniTorch.Lemmas.
From PV Require Import MiniTorch.OpsC10 MiniTorch.ValueC10 MiniTorch.LemmasC10 MiniTorch.OpsC10B MiniTorch.LemmasC10B Gen.C10BSrc.
From PV Require Import C10.SrcRun C10.SrcRunB C10.TieBCommon C10.TieBPrefix C10.TieBFixed C10.TieBFixedTop C10.TieModel.
From PV Require C10.Model.
Import ListNotations.
Local Open Scope string_scope.

Lemma shape_ne : forall sh N, sh <> [N] -> val_eqb (VTuple (enc_shape sh)) (VTuple [VInt (Z.of_nat N)]) = false.
Proof.
  intros sh N H. destruct sh as [|a [|b sh]]; cbn [enc_shape map]; unfold val_eqb; cbn; try reflexivity.
  - destruct (Z.eqb_spec (Z.of_nat a) (Z.of_nat N)); [|reflexivity]. exfalso. apply H. f_equal. lia.
  - apply andb_false_r.
Qed.

Lemma shape_ne_cbn : forall sh N, sh <> [N] ->
  ltac:(let x := eval cbn in (val_eqb (VTuple (enc_shape sh)) (VTuple [VInt (Z.of_nat N)])) in exact (x = false)).
Proof. intros sh N H. exact (shape_ne sh N H). Qed.

