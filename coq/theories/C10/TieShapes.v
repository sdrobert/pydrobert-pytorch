(* C10 — the tie, part 3: what the interpreted source of `chunk_token_sequences_by_slices` does on the shapes the
   model's input type cannot express - for ARBITRARY tensors (any data): RuntimeError when refs is neither 2- nor
   3-dimensional, when its last dimension is not 3, when slices is not (N, 2), when ref_lens is not (N,); an (N, 0)
   tensor and N zeros for token-only (2-D) refs.  Same technique as Tie.v. *)
From Coq Require Import ZArith List String Bool Arith Lia ZifyBool ZifyNat.
From PV Require Import MiniPy.Syntax MiniPy.Interp MiniTorch.Ops MiniTorch.Value MiniTorch.Lemmas.
From PV Require Import MiniTorch.OpsC10 MiniTorch.ValueC10 MiniTorch.LemmasC10 Gen.C10Src.
From PV Require Import C10.SrcRun.
From PV Require Import C10.Model C10.Spec C10.Lists C10.ProofsTokens C10.Proofs C10.TieModel C10.Tie.
From PV Require Import C10.TieBCommon.
Import ListNotations.
Local Open Scope string_scope.
(* a foreign call on a tensor of which only the shape is known (H : ishape refs = ..) *)
Ltac gcall H :=
  call_in ext10 ltac:(fun Hc => repeat (progress (
    tstep Hc;
    rewrite ?(ndim_of_shape _ _ H), ?(size_of_shape _ _ 0%Z 0%nat H eq_refl), ?(size_of_shape _ _ 1%Z 1%nat H eq_refl),
      ?(size_of_shape _ _ 2%Z 2%nat H eq_refl) in Hc))).
Ltac gstmt H := open_seq ltac:(cbv [seq_head drop_seq chunk_tokens_body]); repeat gcall H.
Ltac start := unfold run_tokens_raw, Interp.run; change chunk_tokens_body with (drop_seq 0 chunk_tokens_body).

(* refs that is neither 2- nor 3-dimensional *)
Theorem tokens_raises_ndim : forall refs slices rl partial retain,
  ndim refs <> 2%nat -> ndim refs <> 3%nat ->
  run_tokens_raw refs slices rl partial retain
  = Exc runtime_error (mkState (tokens_vars_raw refs slices rl partial retain) []).
Proof.
  intros refs slices rl partial retain H2 H3. start. unfold tokens_vars_raw.
  stmt. replace (Z.of_nat (ndim refs) =? 2)%Z with false by lia. run. calls.
  replace (Z.of_nat (ndim refs) =? 3)%Z with false by lia. reflexivity.
Qed.

(* 3-dimensional refs whose last dimension is not 3 *)
Theorem tokens_raises_last_dim : forall refs slices rl partial retain n m k,
  ishape refs = [n; m; k] -> k <> 3%nat ->
  run_tokens_raw refs slices rl partial retain
  = Exc runtime_error (mkState (tokens_vars_raw refs slices rl partial retain) []).
Proof.
  intros refs slices rl partial retain n m k Hs Hk. start. unfold tokens_vars_raw.
  gstmt Hs. replace (Z.of_nat k =? 3)%Z with false by lia. reflexivity.
Qed.

(* token-only (2-D) refs: an (N, 0) tensor and N zeros, whatever the other arguments are *)
Theorem tokens_2d : forall refs slices rl partial retain N R,
  ishape refs = [N; R] ->
  exists st, run_tokens_raw refs slices rl partial retain
             = Ok (VTuple [enc10 (new_empty [N; 0%nat]); enc10 (new_zeros [N])]) st.
Proof.
  intros refs slices rl partial retain N R Hs. start. unfold tokens_vars_raw.
  gstmt Hs. eexists. reflexivity.
Qed.

(* the first two statements on 3-dimensional refs with three columns *)
Lemma shapes_lead : forall refs slices rl partial retain N R, ishape refs = [N; R; 3%nat] ->
  exec ext10 (drop_seq 0 chunk_tokens_body) (mkState (tokens_vars_raw refs slices rl partial retain) [])
  = exec ext10 (drop_seq 2 chunk_tokens_body)
      (mkState (tokens_vars_raw refs slices rl partial retain
                ++ [("$t1", VTuple [VInt (Z.of_nat N); VInt (Z.of_nat R)]); ("N", VInt (Z.of_nat N)); ("R", VInt (Z.of_nat R))]) []).
Proof.
  intros refs slices rl partial retain N R Hs. hide_rhs. unfold tokens_vars_raw.
  gstmt Hs. close_stmt.
  gstmt Hs. unpack. close_stmt.
  show_rhs. reflexivity.
Qed.

(* slices that is not (N, 2) *)
Theorem tokens_raises_slices : forall refs ss sd rl partial retain N R,
  ishape refs = [N; R; 3%nat] -> ss <> [N; 2%nat] ->
  exists st, run_tokens_raw refs (mkIT ss sd) rl partial retain = Exc runtime_error st.
Proof.
  intros refs ss sd rl partial retain N R Hs Hne. start. rewrite (shapes_lead _ _ _ _ _ N R Hs).
  unfold tokens_vars_raw. cbn [app]. gstmt Hs.
  destruct ss as [|a [|b [|c ss']]]; cbn [ishape enc_shape map]; run; rewrite ?andb_false_r; run;
    try (eexists; reflexivity).
  destruct (Z.eqb_spec (Z.of_nat a) (Z.of_nat N)); run; try (eexists; reflexivity).
  destruct (Z.eqb_spec (Z.of_nat b) 2); run; try (eexists; reflexivity).
  exfalso. apply Hne. f_equal; [lia|f_equal; lia].
Qed.

(* ref_lens that is not (N,) *)
Theorem tokens_raises_ref_lens : forall refs slices ls ld partial retain N R,
  ishape refs = [N; R; 3%nat] -> ishape slices = [N; 2%nat] -> ls <> [N] ->
  exists st, run_tokens_raw refs slices (Some (mkIT ls ld)) partial retain = Exc runtime_error st.
Proof.
  intros refs [ss sd] ls ld partial retain N R Hs Hsl Hne. cbn [ishape] in Hsl. subst ss.
  start. rewrite (shapes_lead _ _ _ _ _ N R Hs). unfold tokens_vars_raw, opt_tensor. cbn [app].
  gstmt Hs. rewrite Z.eqb_refl. run. close_stmt.
  gstmt Hs. close_stmt.
  gstmt Hs.
  destruct ls as [|a [|b ls']]; cbn [ishape enc_shape map]; run; rewrite ?andb_false_r; run;
    try (eexists; reflexivity).
  destruct (Z.eqb_spec (Z.of_nat a) (Z.of_nat N)); run; try (eexists; reflexivity).
  exfalso. apply Hne. f_equal. lia.
Qed.
