(* C10 - Slicing policies yield the documented windows; token chunks are slice-relative.
   Property theorems only: each is closed by [exact <lemma of Proofs*.v>] or, where that takes a few lines, proved in
   place, and followed by [Print Assumptions].
   The harness re-checks this file on every run.

   [v] is the model variant (Model.v header).  /repo today: k1 as coded (known finding K1), d1..d5 repaired
   (fix: commits da2ab1a, 1646a02, 8b9cc8a, 3726416); the correspondence check establishes on every run which variant
   the implementation follows and compares it with exactly that model. *)
From Coq Require Import List ZArith Bool Arith Lia Sorted.
From PV Require Import C10.Model C10.Spec C10.Proofs.
Import ListNotations.
Local Open Scope Z_scope.

(* ================================================================================================== *)
(* the slicer returns exactly the windows the documented policy prescribes, in order, each labelled   *)
(*  with its source element - one theorem per policy, for every window type, validity setting, lobe   *)
(*  size >= 0, batch size and in_lens / other_lens given or omitted                                    *)
(* ================================================================================================== *)
Theorem c10_fixed_windows_spec : forall v N T in_lens other_lens wt vo lobe,
  d3 v = false -> (1 <= T)%nat -> 0 <= lobe -> lens_ok N (Z.of_nat T) in_lens ->
  exists out, slice_spect_data v T (InFixed N) in_lens other_lens wt vo lobe = Some out
              /\ fixed_spec N (len_of (Z.of_nat T) in_lens) wt vo lobe out.
Proof. exact sd_fixed_windows_spec. Qed.
Print Assumptions c10_fixed_windows_spec.

Theorem c10_ali_windows_spec : forall v T rows in_lens other_lens wt vo lobe,
  d1 v = false -> d4 v = false -> (1 <= T)%nat -> 0 <= lobe ->
  Forall (fun r => length r = T) rows -> lens_ok (length rows) (Z.of_nat T) in_lens ->
  exists out, slice_spect_data v T (InAli rows) in_lens other_lens wt vo lobe = Some out
              /\ ali_spec rows (len_of (Z.of_nat T) in_lens) wt vo lobe out.
Proof. intros. rewrite dispatch by assumption. now apply ali_windows_spec. Qed.
Print Assumptions c10_ali_windows_spec.

Theorem c10_ref_windows_spec : forall v T rows in_lens other_lens wt vo lobe,
  d2 v = false -> (1 <= T)%nat -> 0 <= lobe -> ref_lens_ok T rows in_lens other_lens ->
  exists out, slice_spect_data v T (InRef rows) in_lens other_lens wt vo lobe = Some out
              /\ ref_spec rows (ref_len T in_lens) (ref_other T rows in_lens other_lens) wt vo lobe out.
Proof. intros. rewrite dispatch by assumption. now apply ref_windows_spec. Qed.
Print Assumptions c10_ref_windows_spec.

(* "exactly": each spec has one solution, so an output meets the spec iff it equals the model's *)
Theorem c10_fixed_spec_unique : forall N len wt vo lobe o1 o2,
  fixed_spec N len wt vo lobe o1 -> fixed_spec N len wt vo lobe o2 -> o1 = o2.
Proof. exact fixed_spec_unique. Qed.
Print Assumptions c10_fixed_spec_unique.

Theorem c10_ali_spec_unique : forall rows len wt vo lobe o1 o2,
  ali_spec rows len wt vo lobe o1 -> ali_spec rows len wt vo lobe o2 -> o1 = o2.
Proof.
  intros rows len wt vo lobe.
  apply (labelled_unique (length rows) (fun n => ali_seq_spec (firstn (Z.to_nat (len n)) (nth n rows [])) wt vo lobe)).
  intros n a b _ (B1 & S1 & F1) (B2 & S2 & F2). rewrite F1, F2, (seg_starts_unique _ _ _ S1 S2). reflexivity.
Qed.
Print Assumptions c10_ali_spec_unique.

Theorem c10_ref_spec_unique : forall rows len other wt vo lobe o1 o2,
  ref_spec rows len other wt vo lobe o1 -> ref_spec rows len other wt vo lobe o2 -> o1 = o2.
Proof.
  intros rows len other wt vo lobe.
  apply (labelled_unique (length rows) (fun n => ref_seq_spec wt vo lobe (len n) (other n) (nth n rows []))).
  intros n a b _. apply selects_unique.
Qed.
Print Assumptions c10_ref_spec_unique.

(* lengths 0: an input without frames yields no windows, and the policy prescribes none for an empty sequence *)
Theorem c10_empty_input_no_windows : forall v inp il ol wt vo lobe, slice_spect_data v 0 inp il ol wt vo lobe = Some [].
Proof. reflexivity. Qed.
Print Assumptions c10_empty_input_no_windows.

Theorem c10_fixed_len0_no_windows : forall wt vo lobe out, 0 <= lobe -> fixed_seq_spec wt vo lobe 0 out -> out = [].
Proof.
  intros wt vo lobe out Hl (K & E & H). destruct K as [|K]; [assumption|exfalso].
  pose proof (proj1 (H 0%nat) ltac:(lia)) as Hk. unfold fx_keep, fx_win, fx_mid, inside in Hk.
  pose proof (half_sym lobe Hl) as Hh.
  assert (0 <= (lobe + 1) / 2) by (apply Z.div_pos; lia).
  destruct wt, vo; cbn [fx_off fx_size fst snd] in Hk; rewrite ?Hh in Hk; lia.
Qed.
Print Assumptions c10_fixed_len0_no_windows.

(* ================================================================================================== *)
(* "with valid-only set every returned window lies inside its sequence"                                *)
(* ================================================================================================== *)
Theorem c10_valid_only_inside : forall v T inp in_lens other_lens wt lobe out w n,
  d1 v = false -> d2 v = false -> d3 v = false -> d4 v = false -> (1 <= T)%nat -> 0 <= lobe ->
  match inp with
  | InFixed N => lens_ok N (Z.of_nat T) in_lens
  | InAli rows => Forall (fun r => length r = T) rows /\ lens_ok (length rows) (Z.of_nat T) in_lens
  | InRef rows => ref_lens_ok T rows in_lens other_lens
  end ->
  slice_spect_data v T inp in_lens other_lens wt true lobe = Some out -> In (w, Z.of_nat n) out ->
  inside (match inp with
          | InRef rows => ref_other T rows in_lens other_lens n
          | _ => len_of (Z.of_nat T) in_lens n
          end) w.
Proof.
  intros v T inp in_lens other_lens wt lobe out w n H1 H2 H3 H4 _ _ Hok Hs Hin.
  destruct (valid_only_inside v T inp in_lens other_lens wt lobe out _ H1 H2 H3 H4 Hok Hs Hin) as (m & Em & _ & Hi).
  cbn [fst] in Em, Hi. inversion Em as [E]. apply Nat2Z.inj in E. now subst m.
Qed.
Print Assumptions c10_valid_only_inside.

(* ================================================================================================== *)
(* Token chunking keeps, in order, exactly the tokens whose known segments are contained in the slice *)
(*  (or merely overlap it when partial matches are allowed), and unless asked to retain them           *)
(*  re-expresses their boundaries as offsets from the slice start                                     *)
(* ================================================================================================== *)
(* holds when boundaries are retained (any variant) and, for relative boundaries, with the corrected arithmetic *)
Theorem c10_tokens_kept_iff_contained_or_overlap : forall v refs slices ref_lens partial retain R n,
  tokens_shape_ok refs slices R -> (n < length refs)%nat -> (retain = true \/ k1 v = false) ->
  let out := chunk_tokens v refs slices ref_lens partial retain in
  tokens_row_spec partial retain (rowL ref_lens n) (nth n slices (0, 0)) (nth n refs []) (nth n (fst out) [])
  /\ nth n (snd out) 0 = zlen (nth n (fst out) [])
  /\ length (fst out) = length refs /\ length (snd out) = length refs.
Proof. exact tokens_kept_spec. Qed.
Print Assumptions c10_tokens_kept_iff_contained_or_overlap.

(* "in order", and the SET of kept tokens is right even with the arithmetic as coded *)
Theorem c10_tokens_order_preserved : forall v refs slices ref_lens partial retain R n,
  tokens_shape_ok refs slices R -> (n < length refs)%nat ->
  let out := chunk_tokens v refs slices ref_lens partial retain in
  subseq (map tk_tok (nth n (fst out) [])) (map tk_tok (nth n refs []))
  /\ map tk_tok (nth n (fst out) []) = map tk_tok (nth n (fst (chunk_tokens repaired refs slices ref_lens partial retain)) []).
Proof. exact tokens_order_preserved. Qed.
Print Assumptions c10_tokens_order_preserved.

Theorem c10_retain_keeps_boundaries : forall v refs slices ref_lens partial R n,
  tokens_shape_ok refs slices R -> (n < length refs)%nat ->
  subseq (nth n (fst (chunk_tokens v refs slices ref_lens partial true)) []) (nth n refs []).
Proof. exact retain_keeps_boundaries. Qed.
Print Assumptions c10_retain_keeps_boundaries.

(* "overlap" for a non-empty token and slice means sharing a frame; containment implies it *)
Theorem c10_overlap_iff_common_frame : forall sl x, tk_start x < tk_end x -> fst sl < snd sl ->
  (tok_in true sl x <-> exists t, fst sl <= t < snd sl /\ tk_start x <= t < tk_end x).
Proof.
  intros sl x Hx Hs. unfold tok_in. split.
  - intros [H1 H2]. exists (Z.max (fst sl) (tk_start x)). lia.
  - intros (t & H1 & H2). lia.
Qed.
Print Assumptions c10_overlap_iff_common_frame.

(* KNOWN FINDING K1: as coded the relative boundaries are wrong ... *)
Theorem c10_relative_boundaries_refuted :
  exists refs slices,
    tokens_shape_ok refs slices 1
    /\ fst (chunk_tokens as_coded refs slices None false false) = [[(8, 4, 7)]]
    /\ ~ tokens_row_spec false false None (nth 0 slices (0, 0)) (nth 0 refs []) [(8, 4, 7)]
    /\ tokens_row_spec false false None (nth 0 slices (0, 0)) (nth 0 refs []) [(8, 0, 3)].
Proof. exact relative_boundaries_refuted. Qed.
Print Assumptions c10_relative_boundaries_refuted.

(* ... in exactly one way, for all inputs: every kept boundary is the spec's plus twice the slice start *)
Theorem c10_relative_boundaries_characterised : forall v refs slices ref_lens partial R n,
  tokens_shape_ok refs slices R -> (n < length refs)%nat -> k1 v = true ->
  nth n (fst (chunk_tokens v refs slices ref_lens partial false)) []
  = map (fun x => (tk_tok x, tk_start x + 2 * fst (nth n slices (0, 0)), tk_end x + 2 * fst (nth n slices (0, 0))))
        (nth n (fst (chunk_tokens repaired refs slices ref_lens partial false)) [])
  /\ snd (chunk_tokens v refs slices ref_lens partial false) = snd (chunk_tokens repaired refs slices ref_lens partial false).
Proof. exact relative_boundaries_characterised. Qed.
Print Assumptions c10_relative_boundaries_characterised.

(* ================================================================================================== *)
(* Consequently chunking a well-formed data directory by any policy yields a well-formed data         *)
(*  directory in which every chunk equals the source restricted to its window  (corrected arithmetic) *)
(* ================================================================================================== *)
Theorem c10_chunk_is_restriction : forall v p wt lobe partial retain u chunks ch,
  d1 v = false -> d2 v = false -> d3 v = false -> d4 v = false -> (retain = true \/ k1 v = false) ->
  utt_wf (u_feat u) (u_ali u) (utt_ref_list u) ->
  chunk_utt v p wt None lobe partial retain u = Some chunks -> In ch chunks ->
  inside (zlen (u_feat u)) (c_win ch)
  /\ c_feat ch = restrict (u_feat u) (c_win ch)
  /\ c_ali ch = match u_ali u with Some a => Some (restrict a (c_win ch)) | None => None end
  /\ match u_ref u with
     | Some (RefSeg r) => exists out, c_ref ch = Some out /\ tokens_row_spec partial retain None (c_win ch) r out
     | Some (RefTok _) => c_ref ch = Some []
     | None => c_ref ch = None
     end.
Proof. exact chunk_is_restriction. Qed.
Print Assumptions c10_chunk_is_restriction.

(* with or without --pad-mode (constant): a chunk has the length of its window, equals the source inside the utterance
   and the pad value outside (padding itself is property C09's subject) *)
Theorem c10_chunk_padded_restriction : forall v p wt pad lobe partial retain u chunks ch,
  chunk_utt v p wt pad lobe partial retain u = Some chunks -> In ch chunks ->
  let a := fst (c_win ch) in
  let c := pad_c pad in
  length (c_feat ch) = Z.to_nat (Z.max (snd (c_win ch) - a) 0)
  /\ (forall i, (i < length (c_feat ch))%nat ->
        nth i (c_feat ch) c = if (0 <=? a + Z.of_nat i) && (a + Z.of_nat i <? zlen (u_feat u))
                              then nth (Z.to_nat (a + Z.of_nat i)) (u_feat u) c else c)
  /\ match u_ali u, c_ali ch with
     | Some al, Some cal =>
         length cal = length (c_feat ch)
         /\ forall i, (i < length cal)%nat ->
              nth i cal c = if (0 <=? a + Z.of_nat i) && (a + Z.of_nat i <? zlen al)
                            then nth (Z.to_nat (a + Z.of_nat i)) al c else c
     | None, None => True
     | _, _ => False
     end.
Proof. exact chunk_padded_restriction. Qed.
Print Assumptions c10_chunk_padded_restriction.

(* any policy, window type, lobe, with or without --pad-mode; default token options *)
Theorem c10_chunked_dir_wellformed : forall v p wt pad lobe u chunks ch,
  k1 v = false ->
  chunk_utt v p wt pad lobe false false u = Some chunks -> In ch chunks ->
  utt_wf (c_feat ch) (c_ali ch) (c_ref ch).
Proof. exact chunked_dir_wellformed. Qed.
Print Assumptions c10_chunked_dir_wellformed.

(* K1 again: with the arithmetic as coded the consequence fails *)
Theorem c10_dir_k1_refuted :
  exists u chunks ch,
    utt_wf (u_feat u) (u_ali u) (utt_ref_list u)
    /\ chunk_utt k1_only Fixed Causal None 2 false false u = Some chunks /\ In ch chunks
    /\ ~ utt_wf (c_feat ch) (c_ali ch) (c_ref ch).
Proof. exact dir_k1_refuted. Qed.
Print Assumptions c10_dir_k1_refuted.

(* ================================================================================================== *)
(* The other as-coded definitions (repaired in /repo; kept because the check tests for a relapse):     *)
(* each makes the statement above false                                                                *)
(* ================================================================================================== *)
Theorem c10_ali_d1_refuted :
  slice_spect_data as_coded 4 (InAli [[1; 1; 2; 2]]) None None Symmetric true 0 = None
  /\ ali_spec [[1; 1; 2; 2]] (len_of 4 None) Symmetric true 0 [((0, 2), 0); ((2, 4), 0)].
Proof.
  split; [reflexivity|].
  destruct (ali_windows_spec repaired 4 [[1; 1; 2; 2]] None Symmetric true 0 eq_refl eq_refl ltac:(lia) ltac:(lia)) as (o & Ho & Hs).
  - repeat constructor.
  - exact I.
  - vm_compute in Ho. inversion Ho; subst o. exact Hs.
Qed.
Print Assumptions c10_ali_d1_refuted.

Theorem c10_ref_d2_refuted :
  slice_spect_data as_coded 2 (InRef [[(7, 0, 2); (8, 2, 5)]]) None None Symmetric true 0 = None
  /\ ref_spec [[(7, 0, 2); (8, 2, 5)]] (ref_len 2 None) (ref_other 2 [[(7, 0, 2); (8, 2, 5)]] None None)
              Symmetric true 0 [((0, 2), 0); ((2, 5), 0)].
Proof.
  split; [reflexivity|].
  destruct (ref_windows_spec repaired 2 [[(7, 0, 2); (8, 2, 5)]] None None Symmetric true 0 eq_refl) as (o & Ho & Hs).
  - intros n Hn. cbn in *. lia.
  - vm_compute in Ho. inversion Ho; subst o. exact Hs.
Qed.
Print Assumptions c10_ref_d2_refuted.

Theorem c10_ref_d2_always_raises : forall v T rows in_lens wt vo lobe,
  d2 v = true -> slice_ref v T rows in_lens None wt vo lobe = None.
Proof.
  intros v T rows in_lens wt vo lobe Hv. unfold slice_ref. destruct rows as [|row rest]; [now rewrite Hv|].
  cbn [ref_rows]. unfold ref_other_default. rewrite Hv. reflexivity.
Qed.
Print Assumptions c10_ref_d2_always_raises.

Theorem c10_fixed_d3_refuted :
  exists out, slice_fixed as_coded 1 1 None Symmetric false 1 = Some out
              /\ ~ fixed_spec 1 (len_of 1 None) Symmetric false 1 out.
Proof.
  exists [((0, 3), 0)]. split; [reflexivity|]. intros Hspec.
  destruct (fixed_windows_spec repaired 1 1 None Symmetric false 1 eq_refl ltac:(lia) ltac:(lia) I) as (o & Ho & Hs).
  vm_compute in Ho. inversion Ho; subst o.
  pose proof (fixed_spec_unique _ _ _ _ _ _ _ Hspec Hs). discriminate.
Qed.
Print Assumptions c10_fixed_d3_refuted.

(* D3 shows only when in_lens is omitted: with in_lens given every variant agrees with the repaired one *)
Theorem c10_fixed_given_lens_agree : forall v N T ls wt vo lobe,
  0 <= lobe -> 0 <= T -> lens_ok N T (Some ls) ->
  slice_fixed v N T (Some ls) wt vo lobe = slice_fixed repaired N T (Some ls) wt vo lobe.
Proof. exact fixed_given_lens_agree. Qed.
Print Assumptions c10_fixed_given_lens_agree.

Theorem c10_ali_d4_refuted :
  slice_spect_data (mkV false false false false true false) 4 (InAli [[1; 2; 3; 0]]) (Some [3]) None Symmetric true 2 = None
  /\ ali_spec [[1; 2; 3; 0]] (len_of 4 (Some [3])) Symmetric true 2 [].
Proof.
  split; [reflexivity|].
  destruct (ali_windows_spec repaired 4 [[1; 2; 3; 0]] (Some [3]) Symmetric true 2 eq_refl eq_refl ltac:(lia) ltac:(lia)) as (o & Ho & Hs).
  - repeat constructor.
  - split; [reflexivity|]. repeat constructor; lia.
  - vm_compute in Ho. inversion Ho; subst o. exact Hs.
Qed.
Print Assumptions c10_ali_d4_refuted.

(* ================================================================================================== *)
(* non-vacuity: the docstring's worked examples meet the hypotheses and give the documented windows    *)
(* ================================================================================================== *)
Example c10_ali_nonvacuous :
  let row := [1; 1; 1; 1; 2; 2; 2; 1; 5; 5] in
  Forall (fun r => length r = 10%nat) [row] /\ lens_ok 1 10 None
  /\ slice_spect_data k1_only 10 (InAli [row]) None None Symmetric true 1 = Some [((0, 8), 0); ((4, 10), 0)]
  /\ slice_spect_data k1_only 10 (InAli [row]) None None Causal false 1
     = Some [((0, 4), 0); ((0, 7), 0); ((4, 8), 0); ((7, 10), 0)]
  /\ slice_spect_data k1_only 11 (InAli [row ++ [0]; row ++ [0]]) (Some [10; 4]) None Future true 1
     = Some [((0, 7), 0); ((4, 8), 0); ((7, 10), 0)].
Proof. cbv zeta. split; [repeat constructor|]. split; [exact I|]. repeat split; vm_compute; reflexivity. Qed.

Example c10_fixed_nonvacuous :
  lens_ok 2 11 (Some [8; 5])
  /\ slice_spect_data k1_only 11 (InFixed 2) (Some [8; 5]) None Symmetric false 2
     = Some [((-1, 4), 0); ((2, 7), 0); ((5, 10), 0); ((-1, 4), 1); ((2, 7), 1)]
  /\ slice_spect_data k1_only 8 (InFixed 1) None None Symmetric true 2 = Some [((0, 5), 0); ((3, 8), 0)].
Proof.
  split; [split; [reflexivity|repeat (apply Forall_cons; [lia|]); apply Forall_nil]|].
  split; vm_compute; reflexivity.
Qed.

Example c10_ref_nonvacuous :
  let row := [(1, 0, 0); (2, 2, 3); (3, -1, 1); (4, 0, -1); (5, 3, 5); (6, 4, 4)] in
  ref_lens_ok 6 [row] (Some [5]) (Some [6]) /\ ref_lens_ok 6 [row] (Some [5]) None
  /\ slice_spect_data k1_only 6 (InRef [row]) (Some [5]) (Some [6]) Symmetric false 2
     = Some [((-2, 2), 0); ((0, 5), 0); ((1, 7), 0)]
  /\ slice_spect_data k1_only 6 (InRef [row]) (Some [5]) None Causal true 2 = Some [((0, 3), 0); ((1, 5), 0)].
Proof.
  cbv zeta. split; [reflexivity|].
  split; [intros n Hn; assert (n = 0%nat) by (cbn in Hn; lia); subst n; vm_compute; reflexivity|].
  split; vm_compute; reflexivity.
Qed.

Example c10_tokens_nonvacuous :
  tokens_shape_ok [[(8, 2, 5); (9, 5, 9); (1, 9, 12)]; [(3, 0, 2); (4, -1, -1); (5, 1, 1)]] [(2, 9); (0, 2)] 3
  /\ chunk_tokens repaired [[(8, 2, 5); (9, 5, 9); (1, 9, 12)]; [(3, 0, 2); (4, -1, -1); (5, 1, 1)]] [(2, 9); (0, 2)]
                  (Some [3; 2]) false false
     = ([[(8, 0, 3); (9, 3, 7)]; [(3, 0, 2)]], [2; 1])
  /\ chunk_tokens as_coded [[(8, 2, 5); (9, 5, 9); (1, 9, 12)]; [(3, 0, 2); (4, -1, -1); (5, 1, 1)]] [(2, 9); (0, 2)]
                  (Some [3; 2]) true false
     = ([[(8, 4, 7); (9, 7, 11)]; [(3, 0, 2)]], [2; 1]).
Proof. split; [split; [repeat constructor|reflexivity]|]. split; vm_compute; reflexivity. Qed.

(* ================================================================================================== *)
(* the tie to the source text (chunk_token_sequences_by_slices)                                       *)
(*  PV.Gen.C10Src.chunk_tokens_body is regenerated from /repo/src/pydrobert/torch/_feats.py on every  *)
(*  run (harness/py2coq/translate.py: the body of the function, node for node); PV.MiniPy.Interp is   *)
(*  the semantics of the translated subset; SrcRun.ext10 gives the torch calls (ndim/size/shape,      *)
(*  arange, ones, unsqueeze, broadcasting comparisons, &, all, ellipsis/slice/boolean-mask indexing,  *)
(*  long().sum, expand, view, new_empty, masked_scatter_, the in-place += on a slice) the meaning     *)
(*  defined in PV.MiniTorch.OpsC10 (unbounded integers; new_empty cells are UNDEFINED until written). *)
(*  The theorems are about that regenerated term, for EVERY N, R, refs, slices, ref_lens given or     *)
(*  omitted, partial, retain.  The model side is AS CODED (known finding K1: += where the property    *)
(*  wants -=): that is what the text says.                                                            *)
(* ================================================================================================== *)
From PV Require MiniPy.Syntax MiniPy.Interp MiniTorch.OpsC10 MiniTorch.ValueC10 Gen.C10Src C10.SrcRun C10.TieModel C10.Tie
  C10.TieShapes.

(* running the source text on N rows of R triples returns exactly the model's result: the (N, R, 3) tensor whose row n
   holds the model's tokens and then R - chunked_lens[n] UNDEFINED triples (SrcRun.chunked_tensor), and chunked_lens *)
Theorem c10_source_tokens_is_model : forall R refs slices ref_lens partial retain,
  tokens_shape_ok refs slices R -> TieModel.lens_shape_ok (length refs) ref_lens ->
  exists st,
    Interp.run SrcRun.ext10 C10Src.chunk_tokens_body (SrcRun.tokens_vars R refs slices ref_lens partial retain)
    = Interp.Ok (SrcRun.result_value R (chunk_tokens as_coded refs slices ref_lens partial retain)) st.
Proof. exact Tie.tokens_tie. Qed.
Print Assumptions c10_source_tokens_is_model.

(* the same in the executable form the harness evaluates on the cases of every run: reading the DEFINED cells
   chunked[n, :chunked_lens[n]] of what the interpreted source returns gives the model's lists *)
Theorem c10_source_tokens_refines_model : forall R refs slices ref_lens partial retain,
  tokens_shape_ok refs slices R -> TieModel.lens_shape_ok (length refs) ref_lens ->
  SrcRun.src_chunk_tokens R refs slices ref_lens partial retain
  = Some (chunk_tokens as_coded refs slices ref_lens partial retain).
Proof. exact Tie.src_chunk_tokens_tie. Qed.
Print Assumptions c10_source_tokens_refines_model.

Theorem c10_source_tokens_check_is_check : forall R refs slices ref_lens partial retain impl,
  tokens_shape_ok refs slices R -> TieModel.lens_shape_ok (length refs) ref_lens ->
  SrcRun.src_chunk_tokens_check R refs slices ref_lens partial retain impl
  = check_tokens as_coded refs slices ref_lens partial retain impl.
Proof. exact Tie.src_chunk_tokens_check_is_check. Qed.
Print Assumptions c10_source_tokens_check_is_check.

(* malformed calls, ARBITRARY tensors (any data, any further arguments): RuntimeError, raised where the text raises it *)
Theorem c10_source_tokens_raises_ndim : forall refs slices rl partial retain,
  OpsC10.ndim refs <> 2%nat -> OpsC10.ndim refs <> 3%nat ->
  Interp.run SrcRun.ext10 C10Src.chunk_tokens_body (SrcRun.tokens_vars_raw refs slices rl partial retain)
  = Interp.Exc SrcRun.runtime_error (Interp.mkState (SrcRun.tokens_vars_raw refs slices rl partial retain) []).
Proof. exact TieShapes.tokens_raises_ndim. Qed.
Print Assumptions c10_source_tokens_raises_ndim.

Theorem c10_source_tokens_raises_last_dim : forall refs slices rl partial retain n m k,
  OpsC10.ishape refs = [n; m; k] -> k <> 3%nat ->
  Interp.run SrcRun.ext10 C10Src.chunk_tokens_body (SrcRun.tokens_vars_raw refs slices rl partial retain)
  = Interp.Exc SrcRun.runtime_error (Interp.mkState (SrcRun.tokens_vars_raw refs slices rl partial retain) []).
Proof. exact TieShapes.tokens_raises_last_dim. Qed.
Print Assumptions c10_source_tokens_raises_last_dim.

Theorem c10_source_tokens_raises_slices : forall refs ss sd rl partial retain N R,
  OpsC10.ishape refs = [N; R; 3%nat] -> ss <> [N; 2%nat] ->
  exists st,
    Interp.run SrcRun.ext10 C10Src.chunk_tokens_body
      (SrcRun.tokens_vars_raw refs (OpsC10.mkIT ss sd) rl partial retain)
    = Interp.Exc SrcRun.runtime_error st.
Proof. exact TieShapes.tokens_raises_slices. Qed.
Print Assumptions c10_source_tokens_raises_slices.

Theorem c10_source_tokens_raises_ref_lens : forall refs slices ls ld partial retain N R,
  OpsC10.ishape refs = [N; R; 3%nat] -> OpsC10.ishape slices = [N; 2%nat] -> ls <> [N] ->
  exists st,
    Interp.run SrcRun.ext10 C10Src.chunk_tokens_body
      (SrcRun.tokens_vars_raw refs slices (Some (OpsC10.mkIT ls ld)) partial retain)
    = Interp.Exc SrcRun.runtime_error st.
Proof. exact TieShapes.tokens_raises_ref_lens. Qed.
Print Assumptions c10_source_tokens_raises_ref_lens.

(* token-only (2-D) refs: an (N, 0) tensor and N zero lengths, whatever the other arguments are *)
Theorem c10_source_tokens_2d_empty : forall refs slices rl partial retain N R,
  OpsC10.ishape refs = [N; R] ->
  exists st,
    Interp.run SrcRun.ext10 C10Src.chunk_tokens_body (SrcRun.tokens_vars_raw refs slices rl partial retain)
    = Interp.Ok (Syntax.VTuple [ValueC10.enc10 (OpsC10.new_empty [N; 0%nat]); ValueC10.enc10 (OpsC10.new_zeros [N])]) st.
Proof. exact TieShapes.tokens_2d. Qed.
Print Assumptions c10_source_tokens_2d_empty.

(* composed with c10_tokens_kept_iff_contained_or_overlap / c10_tokens_order_preserved: a statement purely about the
   interpreted source.  Whatever the boundary arithmetic as coded does (K1), the value the source returns decodes to
   rows / lens such that row n holds exactly the tokens of refs[n] that lie before ref_lens[n] and whose known segment
   is contained in (partial: overlaps) slices[n] - same token ids, same order as the spec's unique answer spec_row -,
   chunked_lens[n] is their number, and with retain the triples themselves are the spec's. *)
Theorem c10_source_tokens_kept_in_order : forall R refs slices ref_lens partial retain n,
  tokens_shape_ok refs slices R -> TieModel.lens_shape_ok (length refs) ref_lens -> (n < length refs)%nat ->
  exists rows lens st spec_row,
    Interp.run SrcRun.ext10 C10Src.chunk_tokens_body (SrcRun.tokens_vars R refs slices ref_lens partial retain)
      = Interp.Ok (SrcRun.result_value R (rows, lens)) st
    /\ SrcRun.read_result (SrcRun.chunked_tensor R rows) (SrcRun.vec_tensor lens) = Some (rows, lens)
    /\ tokens_row_spec partial retain (rowL ref_lens n) (nth n slices (0, 0)) (nth n refs []) spec_row
    /\ map tk_tok (nth n rows []) = map tk_tok spec_row
    /\ nth n lens 0 = zlen spec_row
    /\ (retain = true -> nth n rows [] = spec_row).
Proof. exact Tie.source_tokens_kept_in_order. Qed.
Print Assumptions c10_source_tokens_kept_in_order.

(* non-vacuity: the interpreted source on the inputs of c10_tokens_nonvacuous (as coded: + 2 on the first row), a
   malformed and a 2-D call *)
Example c10_source_tokens_nonvacuous :
  SrcRun.src_chunk_tokens 3 [[(8, 2, 5); (9, 5, 9); (1, 9, 12)]; [(3, 0, 2); (4, -1, -1); (5, 1, 1)]] [(2, 9); (0, 2)]
      (Some [3; 2]) true false
    = Some ([[(8, 4, 7); (9, 7, 11)]; [(3, 0, 2)]], [2; 1])
  /\ SrcRun.src_tokens_rejects [1; 3; 2]%nat [1; 2]%nat None = true
  /\ SrcRun.src_tokens_2d_empty 2 3 = true.
Proof. split; [vm_compute; reflexivity|]. split; vm_compute; reflexivity. Qed.

(* ================================================================================================== *)
(* SECOND SOURCE TIE: the Python text of `slice_spect_data` (whole body), regenerated by py2coq on    *)
(*  every run (PV.Gen.C10BSrc.slice_body), interpreted by MiniPy.Interp with the torch calls given    *)
(*  the meaning of MiniTorch.OpsC10 / OpsC10B (SrcRunB.extB).  Policy 'fixed' is tied for all inputs; *)
(*  the leading statements (empty input, lobe / window tests) for every policy.  See                  *)
(*  notes/C10_tie_report.md, section "Second tie".                                                    *)
(* ================================================================================================== *)
From PV Require C10.SrcRunB C10.TieBPrefix C10.TieBFixedTop Gen.C10BSrc.
From PV Require MiniTorch.OpsC10 MiniTorch.OpsC10B MiniTorch.ValueC10.

(* policy 'fixed': for every input tensor with at least two dimensions (any trailing sizes, any data), in_lens omitted
   or N lengths, every window type, validity setting, lobe size >= 0, T >= 1: the interpreted source returns exactly the
   (M, 2) windows tensor and the (M,) sources tensor of Model.slice_fixed (d3 repaired = /repo today) *)
Theorem c10_source_slice_fixed_is_model : forall N T rest data ol in_lens w vo lobe out,
  T <> 0%nat -> 0 <= lobe ->
  slice_fixed repaired N (Z.of_nat T) in_lens w vo lobe = Some out ->
  exists st, Interp.run SrcRunB.extB C10BSrc.slice_body
               (SrcRunB.slice_vars_raw (OpsC10.mkIT (N :: T :: rest) data) (option_map SrcRun.vec_tensor in_lens) ol
                                       TieBFixedTop.fixed_name (SrcRunB.wt_name w) vo lobe)
             = Interp.Ok (SrcRunB.slices_value out) st.
Proof. exact TieBFixedTop.fixed_tie. Qed.
Print Assumptions c10_source_slice_fixed_is_model.

(* composed with c10_fixed_windows_spec: purely about the interpreted source - it returns the unique list of windows
   the declarative spec of the fixed policy prescribes (arithmetic progression of starts, window size, kept iff the
   middle index lies before the sequence's length), in order, labelled by source *)
Theorem c10_source_slice_fixed_windows : forall N T in_lens ol w vo lobe,
  (1 <= T)%nat -> 0 <= lobe -> lens_ok N (Z.of_nat T) in_lens ->
  exists out st, Interp.run SrcRunB.extB C10BSrc.slice_body (SrcRunB.slice_vars T (InFixed N) in_lens ol w vo lobe)
                   = Interp.Ok (SrcRunB.slices_value out) st
                 /\ fixed_spec N (len_of (Z.of_nat T) in_lens) w vo lobe out.
Proof. exact TieBFixedTop.source_fixed_windows_spec. Qed.
Print Assumptions c10_source_slice_fixed_windows.

(* every policy (also unknown ones), ARBITRARY tensors: sequences of length 0 give an empty (0, 2) and an empty (0,)
   tensor before any other test (c10_empty_input_no_windows about the source) *)
Theorem c10_source_slice_empty : forall N rest data il ol policy wt vo lobe,
  exists st, Interp.run SrcRunB.extB C10BSrc.slice_body
               (SrcRunB.slice_vars_raw (OpsC10.mkIT (N :: 0%nat :: rest) data) il ol policy wt vo lobe)
             = Interp.Ok (Syntax.VTuple [ValueC10.enc10 (OpsC10B.empty [0; 2]%nat); ValueC10.enc10 (OpsC10B.empty [0%nat])]) st.
Proof.
  intros. destruct (TieBPrefix.prefix_empty N 0 rest data il ol policy wt vo lobe eq_refl) as [st H].
  exists st. now apply TieLib.run_of_exec.
Qed.
Print Assumptions c10_source_slice_empty.

(* every policy, arbitrary tensors: a negative lobe size / an unknown window type raises RuntimeError *)
Theorem c10_source_slice_raises_lobe : forall N T rest data il ol policy wt vo lobe, T <> 0%nat -> lobe < 0 ->
  exists st, Interp.run SrcRunB.extB C10BSrc.slice_body
               (SrcRunB.slice_vars_raw (OpsC10.mkIT (N :: T :: rest) data) il ol policy wt vo lobe)
             = Interp.Exc SrcRun.runtime_error st.
Proof.
  intros N T rest data il ol policy wt vo lobe HT Hl.
  destruct (TieBPrefix.prefix_neg_lobe N T rest data il ol policy wt vo lobe HT Hl) as [st H].
  exists st. now apply TieLib.run_of_exc.
Qed.
Print Assumptions c10_source_slice_raises_lobe.

Theorem c10_source_slice_raises_window : forall N T rest data il ol policy wt vo lobe, T <> 0%nat -> 0 <= lobe ->
  TieBPrefix.wt_ok wt = false ->
  exists st, Interp.run SrcRunB.extB C10BSrc.slice_body
               (SrcRunB.slice_vars_raw (OpsC10.mkIT (N :: T :: rest) data) il ol policy wt vo lobe)
             = Interp.Exc SrcRun.runtime_error st.
Proof.
  intros N T rest data il ol policy wt vo lobe HT Hl Hw.
  destruct (TieBPrefix.prefix_bad_window N T rest data il ol policy wt vo lobe HT Hl Hw) as [st H].
  exists st. now apply TieLib.run_of_exc.
Qed.
Print Assumptions c10_source_slice_raises_window.

(* non-vacuity: the interpreted source on the docstring's examples (T = 8, lobe 2), an 'ali' and a 'ref' call (executed,
   not yet tied), a rejected call *)
Example c10_source_slice_nonvacuous :
  SrcRunB.src_slice 8 (InFixed 1) None None Symmetric true 2 = Some (Some [((0, 5), 0); ((3, 8), 0)])
  /\ SrcRunB.src_slice 8 (InFixed 2) (Some [8; 5]) None Causal false 2
     = Some (Some [((-2, 1), 0); ((1, 4), 0); ((4, 7), 0); ((-2, 1), 1); ((1, 4), 1)])
  /\ SrcRunB.src_slice 5 (InAli [[1; 1; 2; 3; 3]; [4; 4; 5; 4; 4]]) (Some [5; 4]) None Symmetric true 1
     = Some (Some [((0, 5), 0); ((0, 4), 1)])
  /\ SrcRunB.src_slice 2 (InRef [[(1, 0, 3); (2, 3, 5)]; [(1, -1, 3); (2, 1, 2)]]) None None Symmetric true 0
     = Some (Some [((0, 3), 0); ((3, 5), 0); ((1, 2), 1)])
  /\ SrcRunB.src_slice 8 (InFixed 2) (Some [8; 5; 1]) None Future false 2 = Some None.
Proof. repeat split; vm_compute; reflexivity. Qed.

(* policy 'fixed', the raise path of the model: in_lens whose length is not N -> RuntimeError (slice_fixed = None) *)
From PV Require C10.TieBFixedRaise.
Theorem c10_source_slice_fixed_raises_in_lens : forall N T rest data ol ls w vo lobe,
  T <> 0%nat -> 0 <= lobe ->
  slice_fixed repaired N (Z.of_nat T) (Some ls) w vo lobe = None ->
  exists st, Interp.run SrcRunB.extB C10BSrc.slice_body
               (SrcRunB.slice_vars_raw (OpsC10.mkIT (N :: T :: rest) data) (Some (SrcRun.vec_tensor ls)) ol
                                       TieBFixedTop.fixed_name (SrcRunB.wt_name w) vo lobe)
             = Interp.Exc SrcRun.runtime_error st.
Proof.
  intros N T rest data ol ls w vo lobe HT Hl Hm.
  destruct (TieBFixedTop.fixed_tie_total N T rest data ol (Some ls) w vo lobe HT Hl) as [st H]. rewrite Hm in H. now exists st.
Qed.
Print Assumptions c10_source_slice_fixed_raises_in_lens.
