(* C10 - list lemmas shared by the proofs. *)
From Coq Require Import List ZArith Bool Arith Lia Sorted.
From PV Require Export MiniTorch.LemmasC10.
From PV Require Import C10.Model C10.Spec.
Import ListNotations.

Definition enum_from {A} (s : nat) (l : list A) : list (nat * A) := combine (seq s (length l)) l.

Lemma enumerate_enum_from : forall A (l : list A), enumerate l = enum_from 0 l.
Proof. reflexivity. Qed.

Lemma enum_from_cons : forall A s (x : A) l, enum_from s (x :: l) = (s, x) :: enum_from (S s) l.
Proof. reflexivity. Qed.

Lemma enum_from_length : forall A s (l : list A), length (enum_from s l) = length l.
Proof. intros. unfold enum_from. rewrite combine_length, seq_length. lia. Qed.

Lemma map_snd_enum_from : forall A s (l : list A), map snd (enum_from s l) = l.
Proof.
  intros A s l; revert s; induction l as [|x l IH]; intros s; [reflexivity|].
  rewrite enum_from_cons; cbn [map snd]. now rewrite IH.
Qed.

Lemma map_fst_enum_from : forall A s (l : list A), map fst (enum_from s l) = seq s (length l).
Proof.
  intros A s l; revert s; induction l as [|x l IH]; intros s; [reflexivity|].
  rewrite enum_from_cons; cbn [map fst length seq]. now rewrite IH.
Qed.

Lemma nth_enum_from : forall A s (l : list A) i d, (i < length l)%nat ->
  nth i (enum_from s l) (0%nat, d) = ((s + i)%nat, nth i l d).
Proof.
  intros A s l; revert s; induction l as [|x l IH]; intros s i d Hi; [cbn in Hi; lia|].
  rewrite enum_from_cons. destruct i as [|i]; cbn [nth].
  - f_equal; lia.
  - cbn in Hi. rewrite IH by lia. f_equal; lia.
Qed.

Lemma nth_map_enum_from : forall A B (g : nat * A -> B) s (l : list A) i d d', (i < length l)%nat ->
  nth i (map g (enum_from s l)) d' = g ((s + i)%nat, nth i l d).
Proof.
  intros A B g s l i d d' Hi. rewrite (nth_indep _ d' (g (0%nat, d))) by now rewrite map_length, enum_from_length.
  now rewrite map_nth, nth_enum_from.
Qed.

Lemma In_enumerate : forall A (l : list A) x d, In x (enumerate l) -> (fst x < length l)%nat /\ snd x = nth (fst x) l d.
Proof.
  intros A l x d H. rewrite enumerate_enum_from in H.
  apply (In_nth _ _ (0%nat, d)) in H as (i & Hi & E). rewrite enum_from_length in Hi.
  rewrite nth_enum_from in E by assumption. subst x. cbn [fst snd Nat.add]. split; [assumption|reflexivity].
Qed.

(* ---- map2 ---- *)
Lemma map2_map_map : forall A B C E (f : B -> C -> E) (g : A -> B) (h : A -> C) (l : list A),
  map2 f (map g l) (map h l) = map (fun a => f (g a) (h a)) l.
Proof.
  intros. unfold map2. induction l as [|a l IH]; [reflexivity|]. cbn. now rewrite IH.
Qed.

Lemma map2_length : forall A B C (f : A -> B -> C) a b, length (map2 f a b) = Nat.min (length a) (length b).
Proof. intros. unfold map2. now rewrite map_length, combine_length. Qed.

Lemma map_fst_combine : forall A B (a : list A) (b : list B), length a = length b -> map fst (combine a b) = a.
Proof.
  intros A B a; induction a as [|x a IH]; intros [|y b] H; cbn in *; try lia; [reflexivity|].
  f_equal. apply IH. lia.
Qed.
Lemma map_snd_combine : forall A B (a : list A) (b : list B), length a = length b -> map snd (combine a b) = b.
Proof.
  intros A B a; induction a as [|x a IH]; intros [|y b] H; cbn in *; try lia; [reflexivity|].
  f_equal. apply IH. lia.
Qed.

(* selecting with a mask computed from the elements *)
Lemma mask_select_filter : forall A B (f : A -> B) (p : A -> bool) (l : list A),
  map fst (filter snd (combine (map f l) (map p l))) = map f (filter p l).
Proof.
  intros. induction l as [|a l IH]; [reflexivity|]. cbn.
  destruct (p a); cbn; now rewrite IH.
Qed.

Lemma count_true_filter : forall A (p : A -> bool) (l : list A),
  length (filter (fun b : bool => b) (map p l)) = length (filter p l).
Proof.
  intros. induction l as [|a l IH]; [reflexivity|]. cbn. destruct (p a); cbn; now rewrite IH.
Qed.

(* ---- sorted index lists ---- *)
Lemma sorted_lt_ext : forall a b : list nat,
  StronglySorted lt a -> StronglySorted lt b -> (forall t, In t a <-> In t b) -> a = b.
Proof.
  induction a as [|x a IH]; intros b Ha Hb H.
  - destruct b as [|y b]; [reflexivity|]. exfalso. apply (proj2 (H y)). now left.
  - destruct b as [|y b]; [exfalso; apply (proj1 (H x)); now left|].
    apply StronglySorted_inv in Ha as [Ha Hxa]. apply StronglySorted_inv in Hb as [Hb Hyb].
    rewrite Forall_forall in Hxa, Hyb.
    assert (x = y).
    { destruct (proj1 (H x) (or_introl eq_refl)) as [E|I]; [now symmetry|].
      destruct (proj2 (H y) (or_introl eq_refl)) as [E|I']; [assumption|].
      specialize (Hxa _ I'). specialize (Hyb _ I). lia. }
    subst y. f_equal. apply IH; try assumption.
    intros t; split; intros I.
    + destruct (proj1 (H t) (or_intror I)) as [E|I']; [|assumption].
      subst t. specialize (Hxa _ I). lia.
    + destruct (proj2 (H t) (or_intror I)) as [E|I']; [|assumption].
      subst t. specialize (Hyb _ I). lia.
Qed.

Lemma selects_unique : forall A B (P : nat -> A -> Prop) (f : A -> B) d l o1 o2,
  selects P f d l o1 -> selects P f d l o2 -> o1 = o2.
Proof.
  intros A B P f d l o1 o2 (i1 & S1 & M1 & E1) (i2 & S2 & M2 & E2).
  assert (i1 = i2) by (apply sorted_lt_ext; try assumption; intros t; rewrite M1, M2; tauto).
  subst. reflexivity.
Qed.

(* ---- subsequences ---- *)
Lemma subseq_filter_enum : forall A (p : nat * A -> bool) s (l : list A),
  subseq (map snd (filter p (enum_from s l))) l.
Proof.
  intros A p s l; revert s; induction l as [|x l IH]; intros s; [constructor|].
  rewrite enum_from_cons. cbn [filter]. destruct (p (s, x)); cbn [map snd].
  - apply subseq_take, IH.
  - apply subseq_skip, IH.
Qed.

Lemma subseq_map : forall A B (f : A -> B) s l, subseq s l -> subseq (map f s) (map f l).
Proof. intros A B f s l H; induction H; cbn; now constructor. Qed.

(* ---- firstn / skipn / app / repeat ---- *)
Lemma firstn_app_exact : forall A (a b : list A), firstn (length a) (a ++ b) = a.
Proof. intros. rewrite firstn_app, Nat.sub_diag, firstn_all. cbn. apply app_nil_r. Qed.

Lemma flat_map_nil : forall A B (f : A -> list B) l, (forall a, In a l -> f a = []) -> flat_map f l = [].
Proof.
  intros A B f l; induction l as [|a l IH]; intros H; [reflexivity|]. cbn.
  rewrite (H a) by now left. apply IH. intros; apply H; now right.
Qed.

Lemma labelled_ext : forall per per' N, (forall n, (n < N)%nat -> per n = per' n) -> labelled per N = labelled per' N.
Proof.
  intros per per' N H. unfold labelled. apply flat_map_ext_in. intros n Hn. apply in_seq in Hn.
  rewrite H by lia. reflexivity.
Qed.

Lemma labelled_unique : forall N (S : nat -> list window -> Prop),
  (forall n a b, (n < N)%nat -> S n a -> S n b -> a = b) ->
  forall o1 o2,
  (exists per, o1 = labelled per N /\ forall n, (n < N)%nat -> S n (per n)) ->
  (exists per, o2 = labelled per N /\ forall n, (n < N)%nat -> S n (per n)) -> o1 = o2.
Proof.
  intros N S HS o1 o2 (p1 & E1 & H1) (p2 & E2 & H2). subst.
  apply labelled_ext. intros n Hn. apply (HS n); auto.
Qed.

Lemma in_labelled : forall per N x, In x (labelled per N) ->
  exists n : nat, x = (fst x, Z.of_nat n) /\ (n < N)%nat /\ In (fst x) (per n).
Proof.
  intros per N x Hin. unfold labelled in Hin.
  apply in_flat_map in Hin as (n & Hn & Hin). apply in_seq in Hn.
  apply in_map_iff in Hin as (w & E & Hin). subst x. exists n. cbn [fst]. split; [reflexivity|]. split; [lia|assumption].
Qed.

Lemma flat_map_enum_seq : forall A B (f : nat * A -> list B) d (l : list A) s,
  flat_map f (enum_from s l) = flat_map (fun n => f (n, nth (n - s) l d)) (seq s (length l)).
Proof.
  intros A B f d l; induction l as [|x l IH]; intros s; [reflexivity|].
  rewrite enum_from_cons. cbn [flat_map length seq]. rewrite Nat.sub_diag. cbn [nth]. f_equal.
  rewrite IH. apply flat_map_ext_in. intros n Hn. apply in_seq in Hn.
  replace (n - s)%nat with (S (n - S s)) by lia. reflexivity.
Qed.

(* ---- lists as maps over seq ---- *)
Lemma list_as_map : forall A (l : list A) d, l = map (fun j => nth j l d) (seq 0 (length l)).
Proof.
  intros A l d. apply (nth_ext _ _ d d).
  - now rewrite map_length, seq_length.
  - intros i Hi. rewrite (nth_indep (map (fun j => nth j l d) (seq 0 (length l))) d (nth 0 l d))
      by (rewrite map_length, seq_length; lia).
    rewrite (map_nth (fun j => nth j l d) (seq 0 (length l)) 0%nat i), seq_nth by lia. reflexivity.
Qed.

Lemma map_seq_shift : forall A (f : nat -> A) s k n, map f (seq (s + k) n) = map (fun i => f (i + k)%nat) (seq s n).
Proof.
  intros A f s k n; revert s; induction n as [|n IH]; intros s; [reflexivity|].
  cbn [seq map]. f_equal. apply (IH (S s)).
Qed.

Lemma firstn_seq' : forall k s n, firstn k (seq s n) = seq s (Nat.min k n).
Proof.
  induction k as [|k IH]; intros s n; [reflexivity|]. destruct n as [|n]; [reflexivity|].
  cbn [seq firstn Nat.min]. f_equal. apply IH.
Qed.
Lemma skipn_seq' : forall k s n, skipn k (seq s n) = seq (s + k) (n - k).
Proof.
  induction k as [|k IH]; intros s n.
  - cbn [skipn]. f_equal; lia.
  - destruct n as [|n]; [reflexivity|]. cbn [seq skipn]. rewrite IH. f_equal; lia.
Qed.

Lemma firstn_map_seq0 : forall A (f : nat -> A) k n, firstn k (map f (seq 0 n)) = map f (seq 0 (Nat.min k n)).
Proof. intros. now rewrite firstn_map, firstn_seq'. Qed.

Lemma skipn_map_seq0 : forall A (f : nat -> A) k n,
  skipn k (map f (seq 0 n)) = map (fun i => f (i + k)%nat) (seq 0 (n - k)).
Proof. intros. rewrite skipn_map, skipn_seq', <- map_seq_shift. reflexivity. Qed.

Lemma arange01 : forall n, arange 0 n 1 = map Z.of_nat (seq 0 (Z.to_nat n)).
Proof.
  intros n. unfold arange. rewrite Z.div_1_r. replace (n - 0 + 1 - 1)%Z with n by lia.
  apply map_ext. intros; lia.
Qed.

Lemma seq_split : forall k n, (k <= n)%nat -> seq 0 n = seq 0 k ++ seq k (n - k).
Proof. intros k n H. rewrite <- seq_app. f_equal. lia. Qed.

Lemma sorted_seq : forall n s, StronglySorted lt (seq s n).
Proof.
  induction n as [|n IH]; intros s; cbn; constructor; [apply IH|].
  rewrite Forall_forall. intros t Ht. apply in_seq in Ht. lia.
Qed.

Lemma sorted_filter : forall (p : nat -> bool) l, StronglySorted lt l -> StronglySorted lt (filter p l).
Proof.
  intros p l H; induction H as [|x l H IH Hx]; cbn; [constructor|].
  destruct (p x); [|assumption]. constructor; [assumption|].
  rewrite Forall_forall in *. intros t Ht. apply filter_In in Ht as [Ht _]. now apply Hx.
Qed.

Lemma enumerate_as_map : forall {A} (row : list A) d,
  enumerate row = map (fun r => (r, nth r row d)) (seq 0 (length row)).
Proof.
  intros A row d. unfold enumerate. rewrite (list_as_map _ row d) at 2.
  rewrite <- (map_id (seq 0 (length row))) at 1. apply combine_map_map'.
Qed.

(* a filter over the enumerated list selects: the positions kept are a filter of seq 0 (length l) *)
Lemma selects_filter : forall A B (P : nat -> A -> Prop) (pb : nat -> A -> bool) (f : A -> B) d l,
  (forall t x, pb t x = true <-> P t x) ->
  selects P f d l (map (fun tx => f (snd tx)) (filter (fun tx => pb (fst tx) (snd tx)) (enumerate l))).
Proof.
  intros A B P pb f d l H. rewrite (enumerate_as_map l d), filter_map_comm, map_map. cbn [fst snd].
  exists (filter (fun t => pb t (nth t l d)) (seq 0 (length l))).
  split; [apply sorted_filter, sorted_seq|]. split; [|reflexivity].
  intros t. rewrite filter_In, in_seq, H. intuition lia.
Qed.

Lemma filter_flat_map : forall A B (p : B -> bool) (f : A -> list B) l,
  filter p (flat_map f l) = flat_map (fun a => filter p (f a)) l.
Proof. intros. induction l as [|a l IH]; [reflexivity|]. cbn. now rewrite filter_app, IH. Qed.

(* ---- block-structured concatenations ---- *)
Definition base {A} (ls : list (list A)) (n : nat) : nat := length (concat (firstn n ls)).

Lemma base_0 : forall A (ls : list (list A)), base ls 0 = 0%nat.
Proof. reflexivity. Qed.

Lemma base_cons_S : forall A (x : list A) ls n, base (x :: ls) (S n) = (length x + base ls n)%nat.
Proof. intros. unfold base. cbn. now rewrite app_length. Qed.

Lemma base_S : forall A (ls : list (list A)) n, (n < length ls)%nat ->
  base ls (S n) = (base ls n + length (nth n ls []))%nat.
Proof.
  intros A ls; induction ls as [|x ls IH]; intros n Hn; [cbn in Hn; lia|].
  destruct n as [|n].
  - rewrite base_cons_S, !base_0. cbn. lia.
  - cbn in Hn. rewrite !base_cons_S, IH by lia. cbn [nth]. lia.
Qed.

Lemma base_all : forall A (ls : list (list A)), base ls (length ls) = length (concat ls).
Proof. intros. unfold base. now rewrite firstn_all. Qed.

Lemma base_mono : forall A (ls : list (list A)) m n, (m <= n)%nat -> (base ls m <= base ls n)%nat.
Proof.
  intros A ls; induction ls as [|x ls IH]; intros m n H.
  - unfold base. rewrite !firstn_nil. lia.
  - destruct m as [|m]; [rewrite base_0; lia|]. destruct n as [|n]; [lia|].
    rewrite !base_cons_S. specialize (IH m n). lia.
Qed.

Lemma base_le_all : forall A (ls : list (list A)) n, (base ls n <= length (concat ls))%nat.
Proof.
  intros. destruct (Nat.le_gt_cases n (length ls)).
  - rewrite <- base_all. now apply base_mono.
  - unfold base. rewrite firstn_all2 by lia. lia.
Qed.

Lemma nth_concat : forall A (ls : list (list A)) n i d, (n < length ls)%nat -> (i < length (nth n ls []))%nat ->
  nth (base ls n + i) (concat ls) d = nth i (nth n ls []) d.
Proof.
  intros A ls; induction ls as [|x ls IH]; intros n i d Hn Hi; [cbn in Hn; lia|].
  destruct n as [|n]; cbn [concat nth length] in *.
  - rewrite base_0. cbn. now rewrite app_nth1.
  - rewrite base_cons_S, app_nth2 by lia. replace (length x + base ls n + i - length x)%nat with (base ls n + i)%nat by lia.
    apply IH; lia.
Qed.

Lemma seq_add_map : forall n k, seq k n = map (Nat.add k) (seq 0 n).
Proof.
  induction n as [|n IH]; intros k; [reflexivity|].
  cbn [seq map]. f_equal; [lia|]. rewrite <- (seq_shift n 0), map_map, (IH (S k)).
  apply map_ext. intros; lia.
Qed.

Lemma seq_concat : forall A (ls : list (list A)),
  seq 0 (length (concat ls))
  = flat_map (fun n => map (Nat.add (base ls n)) (seq 0 (length (nth n ls [])))) (seq 0 (length ls)).
Proof.
  intros A ls; induction ls as [|x ls IH]; [reflexivity|].
  cbn [concat length]. rewrite app_length, seq_app. cbn [seq flat_map nth Nat.add].
  rewrite base_0. f_equal.
  - cbn. now rewrite map_id.
  - rewrite <- seq_shift, flat_map_map'.
    replace (seq (length x) (length (concat ls))) with (map (Nat.add (length x)) (seq 0 (length (concat ls)))).
    + rewrite IH, map_flat_map. apply flat_map_ext_in. intros n _. cbn [nth]. rewrite map_map, base_cons_S.
      apply map_ext. intros; lia.
    + symmetry. apply seq_add_map.
Qed.

Lemma locate : forall A (ls : list (list A)) q, (q < length (concat ls))%nat ->
  exists n i, (n < length ls)%nat /\ (i < length (nth n ls []))%nat /\ q = (base ls n + i)%nat.
Proof.
  intros A ls q Hq. assert (Hin : In q (seq 0 (length (concat ls)))) by (apply in_seq; lia).
  rewrite seq_concat in Hin. apply in_flat_map in Hin as (n & Hn & Hin). apply in_seq in Hn.
  apply in_map_iff in Hin as (i & Hq' & Hi). apply in_seq in Hi.
  exists n, i. repeat split; lia.
Qed.

