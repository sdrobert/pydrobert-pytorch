(* C10, second source tie — the foreign calls of PV.Gen.C10BSrc.slice_body that do not depend on the form of the
   tensor, as equations of SrcRunB.extB (hint database c10ext, see TieLib.v), and a few facts on shapes. *)
From Coq Require Import ZArith QArith List String Bool Arith Lia ZifyBool ZifyNat.
From PV Require Import MiniPy.Syntax MiniPy.Interp MiniTorch.Ops MiniTorch.Value MiniTorch.Lemmas.
From PV Require Import MiniTorch.OpsC10 MiniTorch.ValueC10 MiniTorch.LemmasC10 MiniTorch.OpsC10B MiniTorch.LemmasC10B.
From PV Require Import C10.SrcRun C10.SrcRunB.
From PV Require Export C10.TieLib.
Import ListNotations.
Local Open Scope string_scope.

Lemma binop_enc10_l : forall op t v st, binop_eval op (enc10 t) v st = Stuck (binop_name op) \/ True.
Proof. intros. now right. Qed.

Definition then_ (b : stmt) : ctl -> state -> outcome ctl :=
  fun c st1 => match c with CNormal => exec extB b st1 | CReturn v => Ok c st1 end.
Lemma then_return : forall b v st, then_ b (CReturn v) st = Ok (CReturn v) st.
Proof. reflexivity. Qed.

Lemma ndim_of_shape : forall x s, ishape x = s -> ndim x = List.length s.
Proof. intros x s Hs. unfold ndim. now rewrite Hs. Qed.

Lemma size_of_shape : forall x s z k, ishape x = s -> wrap_dim (List.length s) z = Some k ->
  OpsC10.size x z = Some (nth k s 0%nat).
Proof. intros x s z k Hs Hk. unfold OpsC10.size, ndim. now rewrite Hs, Hk. Qed.

(* selects the clause of extB (or, behind it, of ext10) for a call whose name and keyword names are known *)
Ltac ext_clause :=
  intros;
  cbn [extB ext10 getitemB is String.eqb Ascii.eqb Bool.eqb no_kw negb andb orb fst snd forallb dev_kw_ok empty_kw_ok
       kw_device_ok kw_long_ok val_eqb device_token long_dtype_token cmp_of_name dec_zs option_map];
  rewrite ?dec10_enc10, ?on1_enc, ?on2_enc, ?on2_enc_int.

Lemma xB_ndim : forall t st, extB "$attr.ndim" [enc10 t] [] st = Ok (VInt (Z.of_nat (ndim t))) st.
Proof. ext_clause. reflexivity. Qed.
Lemma xB_shape : forall t st, extB "$attr.shape" [enc10 t] [] st = Ok (VTuple (enc_shape (ishape t))) st.
Proof. ext_clause. reflexivity. Qed.
Lemma xB_device : forall t st, extB "$attr.device" [enc10 t] [] st = Ok device_token st.
Proof. ext_clause. reflexivity. Qed.
#[export] Hint Resolve xB_ndim xB_shape xB_device : c10ext.
