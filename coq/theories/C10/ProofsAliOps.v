(* C10 - policy 'ali', part 1: what the tensor operations of the lobe code compute, position by position
   (variant without the negative-stop wrap-around).  Lists are presented as  map f (seq 0 NN). *)
From Coq Require Import List ZArith Bool Arith Lia Sorted.
From PV Require Import C10.Model C10.Spec C10.Lists.
Import ListNotations.
Local Open Scope Z_scope.

(* x[k:] and x[:NN - k] of a tabulated x *)
Lemma py_from_fn : forall A (f : nat -> A) NN k,
  py_from k (map f (seq 0 NN)) = map (fun i => f (i + Z.to_nat k)%nat) (seq 0 (NN - Z.to_nat k)).
Proof. intros. apply skipn_map_seq0. Qed.

Lemma py_upto_fn : forall A (f : nat -> A) NN k, 0 <= k ->
  py_upto false (Z.of_nat NN - k) (map f (seq 0 NN)) = map f (seq 0 (NN - Z.to_nat k)).
Proof. intros A f NN k Hk. unfold py_upto. cbn [andb]. rewrite firstn_map_seq0. do 2 f_equal. lia. Qed.

(* ---- valid_only: pair segment j with segment j + d of the same source ---- *)
Lemma ali_valid_fn : forall (fs fe fc : nat -> Z) NN wt lobe, 0 < lobe ->
  ali_lobes false (map fs (seq 0 NN)) (map fe (seq 0 NN)) (map fc (seq 0 NN)) wt true lobe
  = Some (map (fun j => ((fs j, fe (j + Z.to_nat ((b2z (do_left wt) + b2z (do_right wt)) * lobe))%nat), fc j))
              (filter (fun j => fc j =? fc (j + Z.to_nat ((b2z (do_left wt) + b2z (do_right wt)) * lobe))%nat)
                      (seq 0 (NN - Z.to_nat ((b2z (do_left wt) + b2z (do_right wt)) * lobe))))).
Proof.
  intros fs fe fc NN wt lobe Hl. unfold ali_lobes.
  destruct (lobe =? 0) eqn:E0; [apply Z.eqb_eq in E0; lia|].
  unfold zlen. rewrite map_length, seq_length.
  set (offs := (b2z (do_left wt) + b2z (do_right wt)) * lobe).
  assert (Hoffs : 0 <= offs) by (subst offs; destruct wt; cbn [b2z do_left do_right]; lia).
  rewrite !py_upto_fn, !py_from_fn by assumption.
  unfold bcast2. rewrite !map_length, !seq_length, Nat.eqb_refl.
  rewrite map2_map_map.
  unfold mask_index. rewrite !map_length, !seq_length, Nat.eqb_refl.
  rewrite !mask_select_filter.
  unfold stack3. rewrite !map_length, Nat.eqb_refl. cbn [andb].
  rewrite !combine_map_map'. reflexivity.
Qed.

(* ---- not valid_only: the index-shifting loop ---- *)
Fixpoint sumk (f : nat -> Z) (n0 fuel : nat) : Z :=
  match fuel with O => 0 | S f' => f n0 + sumk f (S n0) f' end.
(* does position j have a same-source neighbour k places to the left / right? *)
Definition dlf (fc : nat -> Z) (k j : nat) : Z :=
  if (k <=? j)%nat && (fc j =? fc (j - k)%nat) then 1 else 0.
Definition drf (fc : nat -> Z) (NN k j : nat) : Z :=
  if (j + k <? NN)%nat && (fc (j + k)%nat =? fc j) then 1 else 0.

Definition offs_fn (fc : nat -> Z) (NN n0 : nat) : list Z :=
  map (fun i => b2z (fc (i + n0)%nat =? fc i)) (seq 0 (NN - n0)).

Lemma sub_from_fn : forall fc NN n0 (fS : nat -> Z),
  sub_from (Z.of_nat n0) (map fS (seq 0 NN)) (offs_fn fc NN n0)
  = Some (map (fun j => fS j - dlf fc n0 j) (seq 0 NN)).
Proof.
  intros fc NN n0 fS. unfold sub_from, offs_fn. rewrite py_from_fn, Nat2Z.id, firstn_map_seq0.
  unfold bcast_to. rewrite !map_length, !seq_length, Nat.eqb_refl. f_equal.
  rewrite map2_map_map.
  destruct (le_lt_dec n0 NN) as [H|H].
  - rewrite (seq_split n0 NN H), map_app. replace (Nat.min n0 NN) with n0 by lia. f_equal.
    + apply map_ext_in. intros j Hj. apply in_seq in Hj. unfold dlf.
      destruct (Nat.leb_spec n0 j); [lia|]. cbn. lia.
    + rewrite (map_seq_shift _ _ 0 n0 (NN - n0)). apply map_ext_in. intros i _. unfold dlf, b2z.
      destruct (Nat.leb_spec n0 (i + n0)); [|lia]. replace (i + n0 - n0)%nat with i by lia. cbn [andb].
      destruct (fc (i + n0)%nat =? fc i); reflexivity.
  - replace (NN - n0)%nat with 0%nat by lia. replace (Nat.min n0 NN) with NN by lia. cbn [seq map]. rewrite app_nil_r.
    apply map_ext_in. intros j Hj. apply in_seq in Hj. unfold dlf.
    destruct (Nat.leb_spec n0 j); [lia|]. cbn. lia.
Qed.

Lemma add_upto_fn : forall fc NN n0 (fE : nat -> Z),
  add_upto false (Z.of_nat NN - Z.of_nat n0) (map fE (seq 0 NN)) (offs_fn fc NN n0)
  = Some (map (fun j => fE j + drf fc NN n0 j) (seq 0 NN)).
Proof.
  intros fc NN n0 fE. unfold add_upto, offs_fn. rewrite py_upto_fn, Nat2Z.id by lia.
  unfold bcast_to. rewrite !map_length, !seq_length, Nat.eqb_refl. f_equal.
  rewrite map2_map_map, skipn_map_seq0.
  rewrite (seq_split (NN - n0) NN) by lia. rewrite map_app. f_equal.
  - apply map_ext_in. intros j Hj. apply in_seq in Hj. unfold drf, b2z.
    destruct (Nat.ltb_spec (j + n0) NN); [|lia]. cbn [andb]. destruct (fc (j + n0)%nat =? fc j); reflexivity.
  - rewrite (map_seq_shift _ _ 0 (NN - n0) (NN - (NN - n0))). apply map_ext_in. intros i _. unfold drf.
    destruct (Nat.ltb_spec (i + (NN - n0) + n0) NN); [lia|]. cbn. lia.
Qed.

Lemma ali_loop_fn : forall fc NN doL doR fuel n0 (fS fE : nat -> Z),
  ali_loop false fuel (Z.of_nat n0) (map fc (seq 0 NN)) doL doR (map fS (seq 0 NN)) (map fE (seq 0 NN))
  = Some (map (fun j => fS j - (if doL then sumk (fun k => dlf fc k j) n0 fuel else 0)) (seq 0 NN),
          map (fun j => fE j + (if doR then sumk (fun k => drf fc NN k j) n0 fuel else 0)) (seq 0 NN)).
Proof.
  intros fc NN doL doR fuel; induction fuel as [|fuel IH]; intros n0 fS fE.
  - cbn [ali_loop sumk]. do 2 f_equal; apply map_ext; intros; destruct doL, doR; lia.
  - cbn [ali_loop]. unfold zlen. rewrite map_length, seq_length.
    assert (Hoffs : bcast2 (fun a b => b2z (a =? b)) (py_from (Z.of_nat n0) (map fc (seq 0 NN)))
                           (py_upto false (Z.of_nat NN - Z.of_nat n0) (map fc (seq 0 NN)))
                    = Some (offs_fn fc NN n0)).
    { unfold offs_fn. rewrite py_from_fn, py_upto_fn, Nat2Z.id by lia.
      unfold bcast2. rewrite !map_length, !seq_length, Nat.eqb_refl. now rewrite map2_map_map. }
    rewrite Hoffs.
    replace (Z.of_nat n0 + 1) with (Z.of_nat (S n0)) by lia.
    destruct doL, doR; rewrite ?sub_from_fn, ?add_upto_fn, IH; cbn [sumk];
      do 2 f_equal; apply map_ext; intros; lia.
Qed.

Lemma sumk_dl_bound : forall fc j fuel n0,
  0 <= sumk (fun k => dlf fc k j) n0 fuel <= Z.max 0 (Z.of_nat j + 1 - Z.of_nat n0).
Proof.
  intros fc j fuel; induction fuel as [|fuel IH]; intros n0; cbn [sumk]; [lia|].
  specialize (IH (S n0)). unfold dlf at 1 3.
  destruct (Nat.leb_spec n0 j); cbn [andb]; [destruct (fc j =? fc (j - n0)%nat)|]; lia.
Qed.

Lemma sumk_dr_bound : forall fc NN j fuel n0,
  0 <= sumk (fun k => drf fc NN k j) n0 fuel <= Z.max 0 (Z.of_nat NN - Z.of_nat j - Z.of_nat n0).
Proof.
  intros fc NN j fuel; induction fuel as [|fuel IH]; intros n0; cbn [sumk]; [lia|].
  specialize (IH (S n0)). unfold drf at 1 3.
  destruct (Nat.ltb_spec (j + n0) NN); cbn [andb]; [destruct (fc (j + n0)%nat =? fc j)|]; lia.
Qed.

Lemma index_sel_fn : forall (f : nat -> Z) NN idx, Forall (fun i => 0 <= i < Z.of_nat NN) idx ->
  index_sel (map f (seq 0 NN)) idx = Some (map (fun i => f (Z.to_nat i)) idx).
Proof.
  intros f NN idx H; induction H as [|i idx Hi _ IH]; [reflexivity|].
  cbn [index_sel map]. rewrite IH. unfold index1, zlen. rewrite map_length, seq_length.
  destruct (Z.leb_spec 0 i); [|lia]. destruct (Z.ltb_spec i (Z.of_nat NN)); [|lia]. cbn [andb].
  rewrite nth_map_seq by lia. reflexivity.
Qed.

Definition cl_of (fc : nat -> Z) (wt : wtype) (lobe : Z) (j : nat) : Z :=
  if do_left wt then sumk (fun k => dlf fc k j) 1 (Z.to_nat lobe) else 0.
Definition cr_of (fc : nat -> Z) (NN : nat) (wt : wtype) (lobe : Z) (j : nat) : Z :=
  if do_right wt then sumk (fun k => drf fc NN k j) 1 (Z.to_nat lobe) else 0.

Lemma ali_nv_fn : forall (fs fe fc : nat -> Z) NN wt lobe, 0 < lobe ->
  ali_lobes false (map fs (seq 0 NN)) (map fe (seq 0 NN)) (map fc (seq 0 NN)) wt false lobe
  = Some (map (fun j => ((fs (Z.to_nat (Z.of_nat j - cl_of fc wt lobe j)),
                          fe (Z.to_nat (Z.of_nat j + cr_of fc NN wt lobe j))), fc j)) (seq 0 NN)).
Proof.
  intros fs fe fc NN wt lobe Hl. unfold ali_lobes.
  destruct (lobe =? 0) eqn:E0; [apply Z.eqb_eq in E0; lia|].
  unfold zlen. rewrite map_length, seq_length.
  rewrite arange01, Nat2Z.id. change 1 with (Z.of_nat 1) at 1.
  rewrite ali_loop_fn.
  fold (cl_of fc wt lobe). fold (cr_of fc NN wt lobe).
  rewrite (index_sel_fn fs NN), (index_sel_fn fe NN).
  - unfold stack3. rewrite !map_length, !seq_length, Nat.eqb_refl. cbn [andb].
    rewrite !map_map, !combine_map_map'. reflexivity.
  - rewrite Forall_forall. intros i Hi. apply in_map_iff in Hi as (j & Hj & Hin). apply in_seq in Hin. subst i.
    pose proof (sumk_dr_bound fc NN j (Z.to_nat lobe) 1). destruct (do_right wt); lia.
  - rewrite Forall_forall. intros i Hi. apply in_map_iff in Hi as (j & Hj & Hin). apply in_seq in Hin. subst i.
    pose proof (sumk_dl_bound fc j (Z.to_nat lobe) 1). destruct (do_left wt); lia.
Qed.
