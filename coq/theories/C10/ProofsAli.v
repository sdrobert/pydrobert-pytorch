(* C10 - policy 'ali', part 3: the global index arithmetic acts block by block (one block per source), each block
   gives the documented slices, and the main theorem. *)
From Coq Require Import List ZArith Bool Arith Lia Sorted.
From PV Require Import C10.Model C10.Spec C10.Lists C10.ProofsFixed C10.ProofsAliOps C10.ProofsAliRows.
Import ListNotations.
Local Open Scope Z_scope.

Definition dX : Z * (Z * Z) := (0, (0, 0)).

(* block n consists of the segments of source n, labelled n *)
Definition blocks_wf (XB : list (list (Z * (Z * Z)))) (sg : nat -> list (Z * Z)) : Prop :=
  forall n, (n < length XB)%nat -> nth n XB [] = map (fun se => (Z.of_nat n, se)) (sg n).

(* ---- sums of indicator functions ---- *)
Lemma sumk_count : forall (f : nat -> Z) (c : nat) fuel n0,
  (forall k, f k = if (k <=? c)%nat then 1 else 0) ->
  sumk f n0 fuel = Z.max 0 (Z.min (Z.of_nat n0 + Z.of_nat fuel - 1) (Z.of_nat c) - Z.of_nat n0 + 1).
Proof.
  intros f c fuel; induction fuel as [|fuel IH]; intros n0 Hf; cbn [sumk]; [lia|].
  rewrite (IH (S n0) Hf), Hf. destruct (Nat.leb_spec n0 c); lia.
Qed.

Lemma sumk_left : forall (f : nat -> Z) (i : nat) fuel,
  (forall k, f k = if (k <=? i)%nat then 1 else 0) -> sumk f 1 fuel = Z.of_nat (Nat.min fuel i).
Proof. intros f i fuel Hf. rewrite (sumk_count f i fuel 1 Hf). lia. Qed.

Lemma sumk_right : forall (g : nat -> Z) (i M : nat) fuel, (i < M)%nat ->
  (forall k, g k = if (i + k <? M)%nat then 1 else 0) -> sumk g 1 fuel = Z.of_nat (Nat.min fuel (M - 1 - i)).
Proof.
  intros g i M fuel Hi Hg. rewrite (sumk_count g (M - 1 - i) fuel 1); [lia|].
  intros k. rewrite Hg. destruct (Nat.ltb_spec (i + k) M), (Nat.leb_spec k (M - 1 - i)); lia.
Qed.

Definition lobe_l (wt : wtype) (lobe : Z) : nat := if do_left wt then Z.to_nat lobe else 0%nat.
Definition lobe_r (wt : wtype) (lobe : Z) : nat := if do_right wt then Z.to_nat lobe else 0%nat.
Definition sg_s (sg : nat -> list (Z * Z)) (n i : nat) : Z := fst (nth i (sg n) (0, 0)).
Definition sg_e (sg : nat -> list (Z * Z)) (n i : nat) : Z := snd (nth i (sg n) (0, 0)).

(* what the model returns for one source, as a function of its segments *)
Definition block_out (sg : nat -> list (Z * Z)) (wt : wtype) (vo : bool) (lobe : Z) (n : nat) : list (Z * Z) :=
  let M := length (sg n) in
  let l := lobe_l wt lobe in
  let r := lobe_r wt lobe in
  if vo then map (fun i => (sg_s sg n i, sg_e sg n (i + (l + r))%nat)) (seq 0 (M - (l + r)))
  else map (fun i => (sg_s sg n (i - Nat.min l i)%nat, sg_e sg n (i + Nat.min r (M - 1 - i))%nat)) (seq 0 M).

Lemma offs_lr : forall wt lobe, 0 <= lobe ->
  Z.to_nat ((b2z (do_left wt) + b2z (do_right wt)) * lobe) = (lobe_l wt lobe + lobe_r wt lobe)%nat.
Proof. intros [] lobe H; unfold lobe_l, lobe_r; cbn [do_left do_right b2z]; lia. Qed.

Lemma filter_tail_false : forall (p : nat -> bool) a b, (forall j, (a <= j)%nat -> p j = false) -> filter p (seq a b) = [].
Proof.
  intros p a b H. rewrite (filter_ext_in _ (fun _ => false)); [induction (seq a b); cbn; auto|].
  intros j Hj. apply in_seq in Hj. apply H. lia.
Qed.

Section Blocks.
  Variable XB : list (list (Z * (Z * Z))).
  Variable sg : nat -> list (Z * Z).
  Hypothesis Hwf : blocks_wf XB sg.

  Let X := concat XB.
  Let xf (j : nat) := nth j X dX.
  Let fc (j : nat) := fst (xf j).

  Lemma block_len : forall n, (n < length XB)%nat -> length (nth n XB []) = length (sg n).
  Proof. intros n Hn. rewrite (Hwf n Hn). apply map_length. Qed.

  Lemma block_at : forall n i, (n < length XB)%nat -> (i < length (sg n))%nat ->
    xf (base XB n + i) = (Z.of_nat n, nth i (sg n) (0, 0)).
  Proof.
    intros n i Hn Hi. unfold xf, X. rewrite nth_concat by (rewrite ?block_len; assumption).
    rewrite (Hwf n Hn). rewrite (nth_indep _ dX ((fun se => (Z.of_nat n, se)) (0, 0))) by (rewrite map_length; lia).
    apply map_nth.
  Qed.

  Lemma block_src : forall q n, (q < length X)%nat -> (n < length XB)%nat ->
    (fc q = Z.of_nat n <-> (base XB n <= q < base XB n + length (sg n))%nat).
  Proof.
    intros q n Hq Hn. destruct (locate _ XB q Hq) as (m & i & Hm & Hi & Eq).
    rewrite block_len in Hi by assumption. unfold fc. rewrite Eq, block_at by assumption. cbn [fst].
    pose proof (base_S _ XB m Hm) as Sm. pose proof (base_S _ XB n Hn) as Sn. rewrite block_len in Sm, Sn by assumption.
    split.
    - intros E. apply Nat2Z.inj in E. subst m. lia.
    - intros H. f_equal. destruct (Nat.lt_trichotomy m n) as [Hlt|[He|Hgt]]; [|assumption|].
      + pose proof (base_mono _ XB (S m) n ltac:(lia)). lia.
      + pose proof (base_mono _ XB (S n) m ltac:(lia)). lia.
  Qed.

  Lemma base_block_lt : forall n i, (n < length XB)%nat -> (i < length (sg n))%nat -> (base XB n + i < length X)%nat.
  Proof.
    intros n i Hn Hi. pose proof (base_S _ XB n Hn) as Sn. rewrite block_len in Sn by assumption.
    pose proof (base_le_all _ XB (S n)). unfold X. lia.
  Qed.

  Lemma dlf_block : forall n i k, (n < length XB)%nat -> (i < length (sg n))%nat ->
    dlf fc k (base XB n + i) = if (k <=? i)%nat then 1 else 0.
  Proof.
    intros n i k Hn Hi. unfold dlf.
    assert (Hj : fc (base XB n + i) = Z.of_nat n) by (unfold fc; now rewrite block_at).
    rewrite Hj. destruct (Nat.leb_spec k i) as [Hk|Hk].
    - destruct (Nat.leb_spec k (base XB n + i)); [|lia]. cbn [andb].
      replace (base XB n + i - k)%nat with (base XB n + (i - k))%nat by lia.
      unfold fc. rewrite block_at by (try assumption; lia). cbn [fst]. now rewrite Z.eqb_refl.
    - destruct (Nat.leb_spec k (base XB n + i)) as [Hk'|Hk']; [|reflexivity]. cbn [andb].
      destruct (Z.eqb_spec (Z.of_nat n) (fc (base XB n + i - k))) as [E|E]; [|reflexivity].
      symmetry in E. apply block_src in E; [lia| |assumption].
      pose proof (base_block_lt n i Hn Hi). lia.
  Qed.

  Lemma drf_block : forall n i k, (n < length XB)%nat -> (i < length (sg n))%nat ->
    drf fc (length X) k (base XB n + i) = if (i + k <? length (sg n))%nat then 1 else 0.
  Proof.
    intros n i k Hn Hi. unfold drf.
    assert (Hj : fc (base XB n + i) = Z.of_nat n) by (unfold fc; now rewrite block_at).
    rewrite Hj. destruct (Nat.ltb_spec (i + k) (length (sg n))) as [Hk|Hk].
    - pose proof (base_block_lt n (i + k) Hn Hk).
      destruct (Nat.ltb_spec (base XB n + i + k) (length X)); [|lia]. cbn [andb].
      replace (base XB n + i + k)%nat with (base XB n + (i + k))%nat by lia.
      unfold fc. rewrite block_at by assumption. cbn [fst]. now rewrite Z.eqb_refl.
    - destruct (Nat.ltb_spec (base XB n + i + k) (length X)) as [Hk'|Hk']; [|reflexivity]. cbn [andb].
      destruct (Z.eqb_spec (fc (base XB n + i + k)) (Z.of_nat n)) as [E|E]; [|reflexivity].
      apply block_src in E; [lia|assumption|assumption].
  Qed.

  (* a function of the global position, applied to all positions, block by block *)
  Lemma map_over_blocks : forall C (F : nat -> C),
    map F (seq 0 (length X))
    = flat_map (fun n => map (fun i => F (base XB n + i)%nat) (seq 0 (length (sg n)))) (seq 0 (length XB)).
  Proof.
    intros C F. unfold X. rewrite seq_concat, map_flat_map. apply flat_map_ext_in. intros n Hn. apply in_seq in Hn.
    rewrite map_map, block_len by lia. reflexivity.
  Qed.
  Let NN := length X.
  Let fs (j : nat) := fst (snd (xf j)).
  Let fe (j : nat) := snd (snd (xf j)).

  Lemma seg_at : forall n i, (n < length XB)%nat -> (i < length (sg n))%nat ->
    fs (base XB n + i)%nat = sg_s sg n i /\ fe (base XB n + i)%nat = sg_e sg n i /\ fc (base XB n + i)%nat = Z.of_nat n.
  Proof. intros n i Hn Hi. unfold fs, fe, fc. rewrite (block_at n i Hn Hi). repeat split. Qed.

  (* lobe_size = 0: the segments themselves *)
  Lemma blocks_plain : forall wt vo,
    map (fun j => ((fs j, fe j), fc j)) (seq 0 NN) = labelled (block_out sg wt vo 0) (length XB).
  Proof.
    intros wt vo. unfold labelled, NN. rewrite map_over_blocks.
    apply flat_map_ext_in. intros n Hn. apply in_seq in Hn. unfold block_out, lobe_l, lobe_r.
    replace (if do_left wt then Z.to_nat 0 else 0%nat) with 0%nat by (destruct wt; reflexivity).
    replace (if do_right wt then Z.to_nat 0 else 0%nat) with 0%nat by (destruct wt; reflexivity).
    destruct vo; rewrite map_map; [rewrite Nat.sub_0_r|]; apply map_ext_in; intros i Hi; apply in_seq in Hi;
      destruct (seg_at n i ltac:(lia) ltac:(lia)) as (H1 & H2 & H3); rewrite H1, H2, H3;
      repeat f_equal; lia.
  Qed.

  (* valid_only: position j is kept iff position j + d, d the two lobes together, lies in the same block *)
  Lemma blocks_valid : forall wt lobe,
    let d := (lobe_l wt lobe + lobe_r wt lobe)%nat in
    map (fun j => ((fs j, fe (j + d)%nat), fc j)) (filter (fun j => fc j =? fc (j + d)%nat) (seq 0 (NN - d)))
    = labelled (block_out sg wt true lobe) (length XB).
  Proof.
    intros wt lobe d. unfold labelled.
    (* the filter over the first NN - d positions is a filter over all positions *)
    assert (Hf : filter (fun j => fc j =? fc (j + d)%nat) (seq 0 (NN - d))
                 = filter (fun j => (j + d <? NN)%nat && (fc j =? fc (j + d)%nat)) (seq 0 NN)).
    { rewrite (seq_split (NN - d) NN) by lia.
      rewrite filter_app, (filter_tail_false _ (NN - d) (NN - (NN - d))).
      - rewrite app_nil_r. apply filter_ext_in. intros j Hj. apply in_seq in Hj.
        destruct (Nat.ltb_spec (j + d) NN); [reflexivity|lia].
      - intros j Hj. destruct (Nat.ltb_spec (j + d) NN); [lia|reflexivity]. }
    rewrite Hf. unfold NN at 2, X. rewrite seq_concat, filter_flat_map, map_flat_map.
    apply flat_map_ext_in. intros n Hn. apply in_seq in Hn.
    rewrite block_len by lia. rewrite filter_map_comm, map_map.
    rewrite (filter_ext_in _ (fun i => (i <? length (sg n) - d)%nat)).
    - rewrite (filter_seq_prefix _ (length (sg n) - d)) by (intros k; apply Nat.ltb_lt).
      replace (Nat.min (length (sg n)) (length (sg n) - d)) with (length (sg n) - d)%nat by lia.
      unfold block_out. fold d. rewrite map_map. apply map_ext_in. intros i Hi. apply in_seq in Hi.
      destruct (seg_at n i ltac:(lia) ltac:(lia)) as (H1 & _ & H3).
      destruct (seg_at n (i + d)%nat ltac:(lia) ltac:(lia)) as (_ & H2 & _).
      rewrite H1, H3. replace (base XB n + i + d)%nat with (base XB n + (i + d))%nat by lia. now rewrite H2.
    - intros i Hi. apply in_seq in Hi.
      destruct (seg_at n i ltac:(lia) ltac:(lia)) as (_ & _ & H3). rewrite H3.
      assert (Hd : (if (base XB n + i + d <? NN)%nat && (fc (base XB n + i + d)%nat =? fc (base XB n + i)%nat) then 1 else 0)
                   = (if (i + d <? length (sg n))%nat then 1 else 0))
        by exact (drf_block n i d ltac:(lia) ltac:(lia)).
      rewrite H3 in Hd. rewrite (Z.eqb_sym (Z.of_nat n)).
      destruct ((base XB n + i + d <? NN)%nat && (fc (base XB n + i + d)%nat =? Z.of_nat n));
        destruct (Nat.ltb_spec (i + d) (length (sg n))); destruct (Nat.ltb_spec i (length (sg n) - d)); try lia; reflexivity.
  Qed.

  (* not valid_only: each window is widened by as many same-block neighbours as there are, up to the lobe *)
  Lemma blocks_all : forall wt lobe,
    map (fun j => ((fs (Z.to_nat (Z.of_nat j - cl_of fc wt lobe j)), fe (Z.to_nat (Z.of_nat j + cr_of fc NN wt lobe j))), fc j))
        (seq 0 NN)
    = labelled (block_out sg wt false lobe) (length XB).
  Proof.
    intros wt lobe. unfold labelled, NN at 2. rewrite map_over_blocks.
    apply flat_map_ext_in. intros n Hn. apply in_seq in Hn.
    unfold block_out. rewrite map_map. apply map_ext_in. intros i Hi. apply in_seq in Hi.
    assert (Hcl : cl_of fc wt lobe (base XB n + i) = Z.of_nat (Nat.min (lobe_l wt lobe) i)).
    { unfold cl_of, lobe_l. destruct (do_left wt); [|lia].
      apply sumk_left. intros k. unfold fc, xf. apply dlf_block; lia. }
    assert (Hcr : cr_of fc NN wt lobe (base XB n + i) = Z.of_nat (Nat.min (lobe_r wt lobe) (length (sg n) - 1 - i))).
    { unfold cr_of, lobe_r. destruct (do_right wt); [|lia].
      apply sumk_right; [lia|]. intros k. unfold fc, xf, NN. apply drf_block; lia. }
    rewrite Hcl, Hcr.
    replace (Z.to_nat (Z.of_nat (base XB n + i) - Z.of_nat (Nat.min (lobe_l wt lobe) i)))
      with (base XB n + (i - Nat.min (lobe_l wt lobe) i))%nat by lia.
    replace (Z.to_nat (Z.of_nat (base XB n + i) + Z.of_nat (Nat.min (lobe_r wt lobe) (length (sg n) - 1 - i))))
      with (base XB n + (i + Nat.min (lobe_r wt lobe) (length (sg n) - 1 - i)))%nat by lia.
    destruct (seg_at n i ltac:(lia) ltac:(lia)) as (_ & _ & H3).
    destruct (seg_at n (i - Nat.min (lobe_l wt lobe) i)%nat ltac:(lia) ltac:(lia)) as (H1 & _ & _).
    destruct (seg_at n (i + Nat.min (lobe_r wt lobe) (length (sg n) - 1 - i))%nat ltac:(lia) ltac:(lia)) as (_ & H2 & _).
    now rewrite H1, H2, H3.
  Qed.
End Blocks.

Theorem ali_lobes_blocks : forall XB sg wt vo lobe, blocks_wf XB sg -> 0 <= lobe ->
  ali_lobes false (map (fun x => fst (snd x)) (concat XB)) (map (fun x => snd (snd x)) (concat XB))
            (map fst (concat XB)) wt vo lobe
  = Some (labelled (block_out sg wt vo lobe) (length XB)).
Proof.
  intros XB sg wt vo lobe Hwf Hl.
  rewrite (list_as_map _ (concat XB) dX) at 1 2 3. rewrite !map_map.
  destruct (Z.eqb_spec lobe 0) as [->|E0].
  - unfold ali_lobes. cbn [Z.eqb]. unfold stack3. rewrite !map_length, Nat.eqb_refl. cbn [andb].
    rewrite !combine_map_map'. f_equal. apply (blocks_plain XB sg Hwf).
  - destruct vo.
    + rewrite ali_valid_fn by lia. f_equal. rewrite (offs_lr wt lobe Hl). apply (blocks_valid XB sg Hwf).
    + rewrite ali_nv_fn by lia. f_equal. apply (blocks_all XB sg Hwf).
Qed.
