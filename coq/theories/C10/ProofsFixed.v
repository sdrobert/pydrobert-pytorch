(* C10 - policy 'fixed': the arange formulas yield exactly the documented windows. *)
From Coq Require Import List ZArith Bool Arith Lia Sorted.
From PV Require Import C10.Model C10.Spec C10.Lists.
Import ListNotations.
Local Open Scope Z_scope.

(* number of k >= 0 with k * s < X *)
Lemma ceil_count : forall s X k, 0 < s -> (k < (X + s - 1) / s <-> k * s < X).
Proof.
  intros s X k Hs. split; intros H.
  - pose proof (Z.mul_div_le (X + s - 1) s Hs). nia.
  - assert (k + 1 <= (X + s - 1) / s) by (apply Z.div_le_lower_bound; nia). lia.
Qed.

Lemma ceil_count_nat : forall s X (k : nat), 0 < s ->
  ((k < Z.to_nat ((X + s - 1) / s))%nat <-> Z.of_nat k * s < X).
Proof. intros s X k Hs. rewrite <- (ceil_count s X (Z.of_nat k) Hs). lia. Qed.

(* windows in arithmetic progression *)
Definition lin_windows (s0 size m0 shift : Z) (n : nat) : list (Z * Z * Z) :=
  map (fun k => (s0 + Z.of_nat k * shift, s0 + Z.of_nat k * shift + size, m0 + Z.of_nat k * shift)) (seq 0 n).

Definition fx_m0 (wt : wtype) (vo : bool) (lobe : Z) : Z :=
  if vo then fx_size wt lobe - 1 else match wt with Symmetric => (lobe + 1) / 2 | _ => 0 end.

(* how many windows the code computes from T *)
Definition fx_count (v : variant) (T lobe : Z) (wt : wtype) (vo : bool) : nat :=
  let shift := lobe + 1 in
  match wt, vo with
  | Symmetric, true => Z.to_nat ((Z.max (T - (2 * lobe + 1) + 1) 0 - 0 + shift - 1) / shift)
  | Symmetric, false => Z.to_nat ((if d3 v then (T + shift / 2) / shift else (T - shift / 2 + shift - 1) / shift) - 0 + 1 - 1)
  | _, true => Z.to_nat ((Z.max (T - lobe) 0 - 0 + shift - 1) / shift)
  | Causal, false => Z.to_nat ((T - lobe - - lobe + shift - 1) / shift)
  | Future, false => Z.to_nat ((T - 0 + shift - 1) / shift)
  end.

Lemma half_sym : forall lobe, 0 <= lobe -> (1 + 2 * lobe) / 2 = lobe.
Proof. intros. replace (1 + 2 * lobe) with (lobe * 2 + 1) by lia. rewrite Z.div_add_l by lia. cbn. lia. Qed.
Lemma half_sym' : forall lobe, 0 <= lobe -> (2 * lobe + 1) / 2 = lobe.
Proof. intros. rewrite <- (half_sym lobe) at 2 by lia. f_equal. lia. Qed.

Lemma fixed_windows_lin : forall v T lobe wt vo, 0 <= lobe ->
  fixed_windows v T lobe wt vo
  = lin_windows (fx_off wt vo lobe) (fx_size wt lobe) (fx_m0 wt vo lobe) (lobe + 1) (fx_count v T lobe wt vo).
Proof.
  intros v T lobe wt vo Hl. unfold fixed_windows, lin_windows, fx_count, arange.
  pose proof (half_sym lobe Hl) as Hh. pose proof (half_sym' lobe Hl) as Hh'.
  destruct wt, vo; cbn [fx_off fx_size fx_m0]; rewrite ?Z.div_1_r, map_map; apply map_ext; intros k;
    rewrite ?Hh, ?Hh'; repeat (apply f_equal2; try lia).
Qed.

(* a monotone predicate filters a prefix *)
Lemma filter_seq_prefix : forall (p : nat -> bool) (c n : nat),
  (forall k, p k = true <-> (k < c)%nat) -> filter p (seq 0 n) = seq 0 (Nat.min n c).
Proof.
  intros p c n H. induction n as [|n IH]; [reflexivity|].
  rewrite seq_S, filter_app, IH. cbn [filter Nat.add].
  destruct (p n) eqn:Hp.
  - apply H in Hp. replace (Nat.min (S n) c) with (S n) by lia. replace (Nat.min n c) with n by lia.
    now rewrite seq_S.
  - assert (~ (n < c)%nat) by (rewrite <- H; congruence).
    replace (Nat.min (S n) c) with (Nat.min n c) by lia. apply app_nil_r.
Qed.

Lemma filter_lin : forall s0 size m0 shift n L, 0 < shift ->
  filter (fun w => L >? snd w) (lin_windows s0 size m0 shift n)
  = lin_windows s0 size m0 shift (Nat.min n (Z.to_nat ((L - m0 + shift - 1) / shift))).
Proof.
  intros s0 size m0 shift n L Hs. unfold lin_windows.
  rewrite <- (filter_seq_prefix (fun k => L >? m0 + Z.of_nat k * shift)).
  - induction (seq 0 n) as [|k l IH]; [reflexivity|]. cbn [map filter snd].
    destruct (L >? m0 + Z.of_nat k * shift); cbn [map]; now rewrite IH.
  - intros k. rewrite (ceil_count_nat shift (L - m0) k Hs), Z.gtb_ltb, Z.ltb_lt. lia.
Qed.

Lemma map_win_lin : forall wt vo lobe m0 n,
  map win_of (lin_windows (fx_off wt vo lobe) (fx_size wt lobe) m0 (lobe + 1) n)
  = map (fun k => fx_win wt vo lobe (Z.of_nat k)) (seq 0 n).
Proof. intros. unfold lin_windows. rewrite map_map. apply map_ext. intros k. reflexivity. Qed.

(* the code's count (repaired) is the number of windows the policy keeps for a sequence of length T *)
Lemma fx_count_keep : forall v T lobe wt vo (k : nat), d3 v = false -> 0 <= lobe -> 0 <= T ->
  ((k < fx_count v T lobe wt vo)%nat <-> fx_keep wt vo lobe T (Z.of_nat k)).
Proof.
  intros v T lobe wt vo k Hv Hl HT. unfold fx_count, fx_keep, fx_win, fx_mid, inside. rewrite Hv.
  pose proof (half_sym lobe Hl) as Hh.
  assert (Hs : 0 < lobe + 1) by lia.
  destruct wt, vo; cbn [fx_off fx_size fst snd]; rewrite ?Hh.
  - rewrite (ceil_count_nat (lobe + 1) _ k Hs). nia.
  - replace ((T - (lobe + 1) / 2 + (lobe + 1) - 1) / (lobe + 1) - 0 + 1 - 1)
      with ((T - (lobe + 1) / 2 + (lobe + 1) - 1) / (lobe + 1)) by lia.
    rewrite (ceil_count_nat (lobe + 1) _ k Hs). lia.
  - rewrite (ceil_count_nat (lobe + 1) _ k Hs). nia.
  - rewrite (ceil_count_nat (lobe + 1) _ k Hs). lia.
  - rewrite (ceil_count_nat (lobe + 1) _ k Hs). nia.
  - rewrite (ceil_count_nat (lobe + 1) _ k Hs). lia.
Qed.

(* the in_lens mask keeps the windows the policy keeps for a sequence of length L *)
Lemma fx_mask_keep : forall lobe wt vo L (k : nat), 0 <= lobe ->
  ((k < Z.to_nat ((L - fx_m0 wt vo lobe + (lobe + 1) - 1) / (lobe + 1)))%nat
   <-> (if vo then snd (fx_win wt vo lobe (Z.of_nat k)) <= L else fx_mid wt lobe (fx_win wt vo lobe (Z.of_nat k)) < L)).
Proof.
  intros lobe wt vo L k Hl. assert (Hs : 0 < lobe + 1) by lia.
  rewrite (ceil_count_nat (lobe + 1) _ k Hs). unfold fx_m0, fx_win, fx_mid.
  pose proof (half_sym lobe Hl) as Hh.
  destruct wt, vo; cbn [fx_off fx_size fst snd]; rewrite ?Hh; lia.
Qed.

Lemma fx_valid_start : forall wt lobe (k : nat), 0 <= lobe -> 0 <= fst (fx_win wt true lobe (Z.of_nat k)).
Proof. intros. unfold fx_win, fx_off. cbn [fst]. nia. Qed.

Lemma fx_keep_mono : forall wt vo lobe L L' k, L <= L' -> fx_keep wt vo lobe L k -> fx_keep wt vo lobe L' k.
Proof. intros wt vo lobe L L' k H. unfold fx_keep, inside. destruct vo; lia. Qed.

(* one sequence *)
Lemma fixed_seq_model : forall v T lobe wt vo (L : option Z),
  d3 v = false -> 0 <= lobe -> 0 <= T -> match L with Some l => 0 <= l <= T | None => True end ->
  fixed_seq_spec wt vo lobe (match L with Some l => l | None => T end)
    (map win_of (match L with
                 | Some l => filter (fun w => l >? snd w) (fixed_windows v T lobe wt vo)
                 | None => fixed_windows v T lobe wt vo
                 end)).
Proof.
  intros v T lobe wt vo L Hv Hl HT HL. rewrite (fixed_windows_lin v T lobe wt vo Hl).
  destruct L as [l|].
  - rewrite filter_lin by lia. rewrite map_win_lin.
    eexists. split; [reflexivity|]. intros k.
    rewrite Nat.min_glb_lt_iff, (fx_count_keep v T lobe wt vo k Hv Hl HT), (fx_mask_keep lobe wt vo l k Hl).
    unfold fx_keep, inside. pose proof (fx_valid_start wt lobe k Hl).
    destruct vo.
    + split; [intros [[H1 H2] H3]; split; assumption|intros [H1 H2]; repeat split; try assumption; lia].
    + split; [intros [H1 H2]; assumption|intros H1; split; [lia|assumption]].
  - rewrite map_win_lin. eexists. split; [reflexivity|]. intros k.
    apply (fx_count_keep v T lobe wt vo k Hv Hl HT).
Qed.

Definition lens_ok (N : nat) (T : Z) (in_lens : option (list Z)) : Prop :=
  match in_lens with
  | Some ls => length ls = N /\ Forall (fun l => 0 <= l <= T) ls
  | None => True
  end.
Definition len_of (T : Z) (in_lens : option (list Z)) (n : nat) : Z :=
  match in_lens with Some ls => nth n ls 0 | None => T end.

Theorem fixed_windows_spec : forall v N T in_lens wt vo lobe,
  d3 v = false -> 0 <= lobe -> 0 <= T -> lens_ok N T in_lens ->
  exists out, slice_fixed v N T in_lens wt vo lobe = Some out
              /\ fixed_spec N (len_of T in_lens) wt vo lobe out.
Proof.
  intros v N T in_lens wt vo lobe Hv Hl HT Hok. unfold slice_fixed.
  destruct in_lens as [ls|]; cbn [lens_ok len_of] in *.
  - destruct Hok as [Hlen Hall]. rewrite Hlen, Nat.eqb_refl. eexists. split; [reflexivity|].
    exists (fun n => map win_of (filter (fun w => nth n ls 0 >? snd w) (fixed_windows v T lobe wt vo))).
    split.
    + unfold labelled. apply flat_map_ext_in. intros n _. now rewrite map_map.
    + intros n Hn. apply (fixed_seq_model v T lobe wt vo (Some (nth n ls 0)) Hv Hl HT).
      rewrite Forall_forall in Hall. apply Hall, nth_In. lia.
  - eexists. split; [reflexivity|].
    exists (fun _ => map win_of (fixed_windows v T lobe wt vo)). split.
    + unfold labelled. apply flat_map_ext_in. intros n _. now rewrite map_map.
    + intros n _. apply (fixed_seq_model v T lobe wt vo None Hv Hl HT I).
Qed.

(* ---- the spec determines its output ---- *)
Lemma fixed_seq_spec_unique : forall wt vo lobe L o1 o2,
  fixed_seq_spec wt vo lobe L o1 -> fixed_seq_spec wt vo lobe L o2 -> o1 = o2.
Proof.
  intros wt vo lobe L o1 o2 (K1 & E1 & H1) (K2 & E2 & H2).
  assert (K1 = K2).
  { destruct (Nat.lt_trichotomy K1 K2) as [H|[H|H]]; [|assumption|].
    - apply H2, H1 in H. lia.
    - apply H1, H2 in H. lia. }
  subst. reflexivity.
Qed.

Theorem fixed_spec_unique : forall N len wt vo lobe o1 o2,
  fixed_spec N len wt vo lobe o1 -> fixed_spec N len wt vo lobe o2 -> o1 = o2.
Proof.
  intros N len wt vo lobe. apply (labelled_unique N (fun n => fixed_seq_spec wt vo lobe (len n))).
  intros n a b _. apply fixed_seq_spec_unique.
Qed.

(* ---- valid_only windows lie inside their sequence ---- *)
Theorem fixed_valid_inside : forall N len wt lobe out x,
  fixed_spec N len wt true lobe out -> In x out ->
  exists n : nat, x = (fst x, Z.of_nat n) /\ (n < N)%nat /\ inside (len n) (fst x).
Proof.
  intros N len wt lobe out x (per & E & H) Hin. subst out.
  apply in_labelled in Hin as (n & Ex & Hn & Hin). exists n. split; [assumption|]. split; [assumption|].
  destruct (H n Hn) as (K & EK & HK). rewrite EK in Hin.
  apply in_map_iff in Hin as (k & Hk & Hin). apply in_seq in Hin. rewrite <- Hk.
  apply (HK k). lia.
Qed.

(* ... but only with in_lens omitted: the mask removes the extra window *)
Lemma fx_count_d3_ge : forall v T lobe wt vo, 0 <= lobe -> 0 <= T ->
  (fx_count repaired T lobe wt vo <= fx_count v T lobe wt vo)%nat.
Proof.
  intros v T lobe wt vo Hl HT. unfold fx_count. destruct wt, vo; try lia.
  cbn [d3 repaired]. destruct (d3 v); [|lia].
  assert ((T - (lobe + 1) / 2 + (lobe + 1) - 1) / (lobe + 1) <= (T + (lobe + 1) / 2) / (lobe + 1)).
  { apply Z.div_le_mono; [lia|]. pose proof (Z.mul_div_le (lobe + 1) 2 ltac:(lia)).
    pose proof (Z.mod_pos_bound (lobe + 1) 2 ltac:(lia)). pose proof (Z.div_mod (lobe + 1) 2 ltac:(lia)). lia. }
  lia.
Qed.

Theorem fixed_given_lens_agree : forall v N T ls wt vo lobe,
  0 <= lobe -> 0 <= T -> lens_ok N T (Some ls) ->
  slice_fixed v N T (Some ls) wt vo lobe = slice_fixed repaired N T (Some ls) wt vo lobe.
Proof.
  intros v N T ls wt vo lobe Hl HT [Hlen Hall]. unfold slice_fixed. rewrite Hlen, Nat.eqb_refl. f_equal.
  apply flat_map_ext_in. intros n Hn. apply in_seq in Hn. f_equal.
  rewrite !fixed_windows_lin, !filter_lin by lia. f_equal.
  pose proof (fx_count_d3_ge v T lobe wt vo Hl HT).
  assert (Hc : (Z.to_nat ((nth n ls 0%Z - fx_m0 wt vo lobe + (lobe + 1) - 1) / (lobe + 1)) <= fx_count repaired T lobe wt vo)%nat).
  { rewrite Forall_forall in Hall. assert (HL : 0 <= nth n ls 0 <= T) by (apply Hall, nth_In; lia).
    destruct (Nat.le_gt_cases (Z.to_nat ((nth n ls 0%Z - fx_m0 wt vo lobe + (lobe + 1) - 1) / (lobe + 1))%Z)
                              (fx_count repaired T lobe wt vo)) as [H'|H']; [assumption|exfalso].
    set (c := Z.to_nat _) in H'. assert (Hk : (fx_count repaired T lobe wt vo < c)%nat) by lia.
    subst c. apply (fx_mask_keep lobe wt vo (nth n ls 0) _ Hl) in Hk.
    assert (Hk' : fx_keep wt vo lobe T (Z.of_nat (fx_count repaired T lobe wt vo))).
    { unfold fx_keep, inside. pose proof (fx_valid_start wt lobe (fx_count repaired T lobe wt vo) Hl).
      destruct vo; [split; [assumption|lia]|lia]. }
    apply (fx_count_keep repaired T lobe wt vo _ eq_refl Hl HT) in Hk'. lia. }
  lia.
Qed.
