(* C10, second source tie — the statements of `slice_spect_data` before the policy branches (dimension test, N and T,
   device, the empty-input return, the lobe_size and window_type tests), run symbolically for ARBITRARY input tensors of
   at least two dimensions. *)
From Coq Require Import ZArith QArith List String Bool Arith Lia ZifyBool ZifyNat.
From PV Require Import MiniPy.Syntax MiniPy.Interp MiniTorch.Ops MiniTorch.Value MiniTorch.Lemmas.
From PV Require Import MiniTorch.OpsC10 MiniTorch.ValueC10 MiniTorch.LemmasC10 MiniTorch.OpsC10B MiniTorch.LemmasC10B Gen.C10BSrc.
From PV Require Import C10.SrcRun C10.SrcRunB C10.TieBCommon.
From PV Require C10.Model.
Import ListNotations.
Local Open Scope string_scope.

(* input.shape[:2] *)
Lemma xB_shape_prefix2 : forall a b l st,
  extB "$getitem" [VTuple (VInt a :: VInt b :: l); VTuple [VStr "$slice"; VNone; VInt 2; VNone]] [] st
  = Ok (VTuple [VInt a; VInt b]) st.
Proof. reflexivity. Qed.

Lemma xB_empty : forall sizes sh st, dec_nats sizes = Some sh ->
  extB "torch.empty" sizes [("dtype", long_dtype_token); ("device", device_token)] st = Ok (enc10 (empty sh)) st.
Proof. intros sizes sh st H. ext_clause. now rewrite H. Qed.
#[export] Hint Resolve xB_shape_prefix2 xB_empty : c10ext.
#[export] Hint Extern 1 (dec_nats _ = Some _) => reflexivity : c10ext.

(* the state after the six leading statements *)
Definition prefix_vars (inp : itens) (il ol : option itens) (policy wt : string) (vo : bool) (lobe : Z) (N T : nat)
  : list (string * val) :=
  [("input", enc10 inp); ("in_lens", opt_tensor il); ("other_lens", opt_tensor ol);
   ("policy", VStr policy); ("window_type", VStr wt); ("valid_only", VBool vo); ("lobe_size", VInt lobe);
   ("torch", torch_module_b); ("$t1", VTuple [VInt (Z.of_nat N); VInt (Z.of_nat T)]);
   ("N", VInt (Z.of_nat N)); ("T", VInt (Z.of_nat T)); ("device", device_token)].

Definition wt_ok (wt : string) : bool :=
  String.eqb wt "symmetric" || (String.eqb wt "causal" || (String.eqb wt "future" || false)).

Ltac stmt := open_seq ltac:(cbv [seq_head drop_seq slice_body]).

Section Prefix.
  Variables (N T : nat) (rest : list nat) (data : list cell) (il ol : option itens) (policy wt : string) (vo : bool) (lobe : Z).
  Let inp := mkIT (N :: T :: rest) data.
  Let vars6 := prefix_vars inp il ol policy wt vo lobe N T.

  (* the dimension test, N, T and device: the tests that follow assign nothing *)
  Lemma prefix_lead :
    exec extB (drop_seq 0 slice_body) (mkState (slice_vars_raw inp il ol policy wt vo lobe) [])
    = exec extB (drop_seq 3 slice_body) (mkState vars6 []).
  Proof.
    hide_rhs. unfold slice_vars_raw.
    stmt. call extB. rewrite q_cmp_inj. subst inp. cbn [ndim ishape List.length].
    replace (Z.of_nat (S (S (List.length rest))) <? 2)%Z with false by lia. run. close_stmt.
    stmt. call extB. cbn [ishape enc_shape map]. call extB. item. unpack. close_stmt.
    stmt. call extB. close_stmt.
    subst rhs. reflexivity.
  Qed.

  Lemma prefix_lobe : T <> 0%nat ->
    exec extB (drop_seq 3 slice_body) (mkState vars6 [])
    = if (lobe <? 0)%Z then Exc runtime_error (mkState vars6 []) else exec extB (drop_seq 5 slice_body) (mkState vars6 []).
  Proof.
    intros HT. hide_rhs. subst vars6. unfold prefix_vars.
    stmt. replace (Z.of_nat T =? 0)%Z with false by lia. run. close_stmt.
    stmt. rewrite q_cmp_inj. destruct (lobe <? 0)%Z; run; [show_rhs; reflexivity|]. close_stmt. show_rhs. reflexivity.
  Qed.

  Lemma prefix_window : T <> 0%nat -> (0 <= lobe)%Z ->
    exec extB slice_body (mkState (slice_vars_raw inp il ol policy wt vo lobe) [])
    = if wt_ok wt then exec extB (drop_seq 6 slice_body) (mkState vars6 []) else Exc runtime_error (mkState vars6 []).
  Proof.
    intros HT Hl. change slice_body with (drop_seq 0 slice_body) at 1.
    rewrite prefix_lead, (prefix_lobe HT). replace (lobe <? 0)%Z with false by lia.
    hide_rhs. subst vars6. unfold prefix_vars.
    stmt. fold (wt_ok wt). destruct (wt_ok wt); run; [|show_rhs; reflexivity]. close_stmt. show_rhs. reflexivity.
  Qed.

  (* empty sequences: two empty tensors, before any other test *)
  Lemma prefix_empty : T = 0%nat ->
    exists st, exec extB slice_body (mkState (slice_vars_raw inp il ol policy wt vo lobe) [])
               = Ok (CReturn (VTuple [enc10 (empty [0; 2]%nat); enc10 (empty [0%nat])])) st.
  Proof.
    intros HT. change slice_body with (drop_seq 0 slice_body). rewrite prefix_lead.
    subst vars6. unfold prefix_vars, torch_module_b. rewrite HT.
    stmt. cbn [Z.of_nat Z.eqb]. run. call extB. call extB. eexists. reflexivity.
  Qed.

  Lemma prefix_neg_lobe : T <> 0%nat -> (lobe < 0)%Z ->
    exists st, exec extB slice_body (mkState (slice_vars_raw inp il ol policy wt vo lobe) []) = Exc runtime_error st.
  Proof.
    intros HT Hl. change slice_body with (drop_seq 0 slice_body).
    rewrite prefix_lead, (prefix_lobe HT). replace (lobe <? 0)%Z with true by lia. eexists. reflexivity.
  Qed.

  Lemma prefix_bad_window : T <> 0%nat -> (0 <= lobe)%Z -> wt_ok wt = false ->
    exists st, exec extB slice_body (mkState (slice_vars_raw inp il ol policy wt vo lobe) []) = Exc runtime_error st.
  Proof. intros HT Hl Hw. rewrite (prefix_window HT Hl), Hw. eexists. reflexivity. Qed.

  Lemma prefix_run : T <> 0%nat -> (0 <= lobe)%Z -> wt_ok wt = true ->
    exec extB slice_body (mkState (slice_vars_raw inp il ol policy wt vo lobe) [])
    = exec extB (drop_seq 6 slice_body) (mkState vars6 []).
  Proof. intros HT Hl Hw. now rewrite (prefix_window HT Hl), Hw. Qed.
End Prefix.
